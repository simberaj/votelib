(* C09 - Plurality ranks by exact votes and reports boundary ties as ties.
   This file holds the property theorems, their Print Assumptions and an example of
   non-vacuity.  Model: Model/GetNBest.v ; proofs: Proofs/GetNBest_proofs.v.

   Values are rationals (Python int / Fraction / Decimal are exact rationals);
   the comparison is Qle_bool, so "equal" means equal as rationals (1/2 = 2/4). *)
From Coq Require Import QArith List Arith Permutation Sorted.
From VL Require Import Model.GetNBest Proofs.GetNBest_proofs Proofs.QOrd.
Import ListNotations.
Close Scope Q_scope.

Section C09.
  Variable C : Type.
  Notation votes_t := (list (C * Q)).
  Notation gnb := (@get_n_best C Q Qle_bool).
  Notation qeqv := (eqv Qle_bool).
  Notation qltb := (ltb Qle_bool).
  Notation sorted := (@sorted_desc C Q Qle_bool).

  (* sorted_votes: a stable descending sort *)
  Theorem C09_sorted : forall votes : votes_t,
    Permutation (sort_desc Qle_bool votes) votes /\ sorted (sort_desc Qle_bool votes) /\
    forall thr, filter (fun it => qeqv (snd it) thr) (sort_desc Qle_bool votes)
              = filter (fun it => qeqv (snd it) thr) votes.
  Proof.
    intros votes. split; [|split].
    - exact (sort_desc_perm Qle_bool votes).
    - exact (sort_desc_sorted Qle_bool Qle_bool_total Qle_bool_trans votes).
    - exact (fun thr => sort_desc_filter_level Qle_bool Qle_bool_trans thr votes).
  Qed.

  (* the full statement: [above] = strictly more than the n-th total, in
     non-increasing order; [level] = exactly the n-th total. *)
  Theorem C09_spec : forall (votes : votes_t) (n : nat), 1 <= n ->
    let r := gnb votes n in
    (length votes <= n ->
       exists s, Permutation s votes /\ sorted s /\ r = map (fun it => Cand (fst it)) s) /\
    (n < length votes ->
       exists above level below thr,
         Permutation (above ++ level ++ below) votes /\
         sorted above /\
         Forall (fun it => qltb thr (snd it) = true) above /\
         Forall (fun it => qeqv (snd it) thr = true) level /\
         Forall (fun it => qltb (snd it) thr = true) below /\
         length above < n <= length above + length level /\
         (length above + length level = n ->
            r = map (fun it => Cand (fst it)) (above ++ level)) /\
         (n < length above + length level ->
            r = map (fun it => Cand (fst it)) above
                ++ repeat (TieR (map fst level)) (n - length above))).
  Proof. exact (get_n_best_spec Qle_bool Qle_bool_total Qle_bool_trans). Qed.

  (* a tie object names exactly the candidates level with one input total *)
  Theorem C09_tie_members : forall (votes : votes_t) n T,
    In (TieR T) (gnb votes n) ->
    exists thr, T = map fst (filter (fun it => qeqv (snd it) thr) votes) /\
                (exists c, In (c, thr) votes).
  Proof. exact (get_n_best_tie_members Qle_bool Qle_bool_trans). Qed.

  (* nobody with fewer votes is elected instead of one with more *)
  Theorem C09_no_inversion : forall (votes : votes_t) n, 1 <= n -> NoDup (map fst votes) ->
    forall c v c' v', In (c, v) votes -> In (c', v') votes -> qltb v v' = true ->
    In (Cand c) (gnb votes n) -> In (Cand c') (gnb votes n).
  Proof. exact (get_n_best_no_inversion Qle_bool Qle_bool_total Qle_bool_trans). Qed.
End C09.

(* non-vacuity: a concrete mapping with a tie at the cut *)
Example C09_example :
  get_n_best Qle_bool [(1%positive, 5#1); (2%positive, 7#2); (3%positive, 7#2); (4%positive, 14#4)]%Q 2
  = [Cand 1%positive; TieR [2%positive; 3%positive; 4%positive]].
Proof. vm_compute. reflexivity. Qed.

Print Assumptions C09_sorted.
Print Assumptions C09_spec.
Print Assumptions C09_tie_members.
Print Assumptions C09_no_inversion.
