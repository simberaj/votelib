(* C19 - Serialised systems and ballot files reload to equivalent objects.
   This file holds the property theorems, the definitions their statements need and examples of non-vacuity.
   Models: Model/Persist.v (persist.py value codec, from_dict, the
   effect of json.dumps/json.loads), Model/BallotFile.v (BLT writer/parser at token level),
   Model/StvFile.v (STV writer/parser at character level); proofs: Proofs/Persist_proofs.v,
   Proofs/PersistRejects_proofs.v (the repaired serialize_value and the rejection clause),
   Proofs/BallotFile_proofs.v, Proofs/StvFile_proofs.v.
   The persist theorems hold for EVERY environment [E] (Unicode identifier tables, Decimal
   parser, class table, importable callables): these are oracle arguments, not assumptions. *)
From Coq Require Import ZArith List Bool Lia Strings.String.
From Coq Require Import QArith.
From VL Require Import Model.Persist Proofs.Persist_proofs Proofs.PersistRejects_proofs Model.BallotFile Proofs.BallotFile_proofs.
From VL Require Import Model.StvFile Proofs.StvFile_proofs.
Import ListNotations.
Open Scope string_scope.
Open Scope Z_scope.

(* Persist, the value codec.  [serialize_value E] is the function with fixes/C19-persist-rejects.diff (names are resolved at
   save time, hence the environment); [serialize_value_pinned] the one of the pinned tree. *)

(* every representable value - any nesting depth - is saved without refusal and reloads to itself,
   directly and through JSON text *)
Theorem C19_roundtrip : forall E v, representable E v = true ->
  exists j, serialize_value E v = SOk j /\ deserialize_value E j = DOk v /\
            deserialize_value E (json_rt j) = DOk v.
Proof. exact roundtrip_json. Qed.

(* a system (an object with to_dict): from_dict of its dictionary, also via JSON text, gives the
   same object, which therefore serialises identically.  That an object of a votelib class IS its
   parameter record (the constructor stores every parameter verbatim, to_dict reads exactly them back)
   is read from the source per class and proved in Props/GenTie_Signatures.v (C19_class_roundtrip,
   class_table_ok) - kept out of this file so that an unreadable source falls back to the tested premise *)
Theorem C19_system_roundtrip : forall E c ps, representable E (PObj c ps) = true ->
  exists j, serialize_value E (PObj c ps) = SOk j /\
            from_dict E j = DOk (PObj c ps) /\ from_dict E (json_rt j) = DOk (PObj c ps).
Proof. exact system_roundtrip. Qed.

(* THE REJECTION CLAUSE: a configuration that cannot be represented is rejected when saving.  [wf_value] holds of every
   Python value (it says that the term encodes one: Fraction reduced, Decimal named by its canonical string, members of a
   frozenset / keys of a dict hashable and pairwise different, no parameter called 'class'); it is not a restriction *)
Theorem C19_rejects : forall E v, wf_value E v = true -> representable E v = false -> serialize_value E v = SErr.
Proof. exact rejects. Qed.

(* [representable] is exactly: a well-formed encoding that passes the tests of the repaired serialize_value *)
Theorem C19_representable_split : forall E v, representable E v = wf_value E v && loadable E v.
Proof. exact representable_split. Qed.

(* saving is refused EXACTLY for the values that are not [loadable] (no hypothesis): a set, an opaque object, a str-keyed
   dictionary carrying 'type' / 'class' / 'callable' with an identifier-shaped string, an object whose class is not found
   under an identifier path, does not take the saved parameter names, or has a parameter 'type' with such a string, a
   callable whose module.name is not an identifier path that resolves to it - anywhere inside the value *)
Theorem C19_rejects_exactly : forall E v, serialize_value E v = SErr <-> loadable E v = false.
Proof. intros E v. exact (ser_fixed_refuses_iff E v true). Qed.

(* ... rather than silently altered: whatever IS saved reloads to itself, directly and through JSON text *)
Theorem C19_saved_reloads : forall E v j, wf_value E v = true -> serialize_value E v = SOk j ->
  deserialize_value E j = DOk v /\ deserialize_value E (json_rt j) = DOk v.
Proof. exact saved_reloads. Qed.

(* the repair changes no saved form: where the repaired function saves, the pinned one saved the same dictionary *)
Theorem C19_fixed_agrees_with_pinned : forall E v j, serialize_value E v = SOk j -> serialize_value_pinned v = SOk j.
Proof. exact fixed_agrees_with_pinned. Qed.

(* the duplicate test used by [representable] really excludes structurally equal members *)
Theorem C19_eqb_refl : forall v, pval_eqb v v = true.
Proof. exact pval_eqb_refl. Qed.

(* The pinned tree (without fixes/C19-persist-rejects.diff): saving is refused exactly when an opaque value (no to_dict, not
   atomic, not iterable, not callable) occurs inside *)
Theorem C19_rejects_opaque_pinned : forall v, serialize_value_pinned v = SErr <-> has_opaque v = true.
Proof. intros v. exact (ser_refuses_iff v true). Qed.

(* the rejection clause for the pinned function *)
Definition C19_rejects_pinned_full_statement : Prop :=
  forall E v, wf_value E v = true -> representable E v = false -> serialize_value_pinned v = SErr.

(* A small concrete environment for the closed-term witnesses. *)
Definition s_max : str := Eval compute in codes "max".
Definition s_hidden : str := Eval compute in codes "m.Hidden".
Definition env0 : env :=
  {| xid_start := fun _ => false; xid_continue := fun _ => false; dec_canon := fun s => Some s;
     class_exists := fun c => negb (str_eqb c s_hidden); class_accepts := fun _ _ => true;
     callable_resolves := fun s => str_eqb s s_max |}.

(* refuted by the faithful model of the pinned tree, four ways (each replayed on the implementation by the corpus,
   which expects the refusal of the repaired code):
   1. a plain dictionary {'callable': 'max'} is saved as it is and comes back as the builtin max;
   2. a non-frozen set is saved as a list and comes back as a list;
   3. a lambda is saved under the name 'm.<lambda>' and comes back as a dictionary;
   4. a closure is saved under a name that cannot be resolved: loading fails.
   Each witness is a well-formed encoding and is refused by the repaired function. *)
Theorem C19_rejects_reserved_key_refuted : exists v j v',
  wf_value env0 v = true /\ representable env0 v = false /\ serialize_value_pinned v = SOk j /\
  deserialize_value env0 (json_rt j) = DOk v' /\ pval_eqb v v' = false /\ serialize_value env0 v = SErr.
Proof.
  exists (PDict [(PStr s_callable, PStr s_max)]), (JDict [(s_callable, JStr s_max)]), (PCallable s_max).
  vm_compute. repeat split.
Qed.

Theorem C19_rejects_set_refuted : exists v j v',
  wf_value env0 v = true /\ representable env0 v = false /\ serialize_value_pinned v = SOk j /\
  deserialize_value env0 (json_rt j) = DOk v' /\ pval_eqb v v' = false /\ serialize_value env0 v = SErr.
Proof.
  exists (PSet [PInt 1; PInt 2]), (JList false [JInt 1; JInt 2]), (PList [PInt 1; PInt 2]).
  vm_compute. repeat split.
Qed.

Definition s_lambda : str := Eval compute in codes "m.<lambda>".
Theorem C19_rejects_lambda_refuted : exists v j v',
  wf_value env0 v = true /\ representable env0 v = false /\ serialize_value_pinned v = SOk j /\
  deserialize_value env0 (json_rt j) = DOk v' /\ pval_eqb v v' = false /\ serialize_value env0 v = SErr.
Proof.
  exists (PCallable s_lambda), (JDict [(s_callable, JStr s_lambda)]), (PDict [(PStr s_callable, PStr s_lambda)]).
  vm_compute. repeat split.
Qed.

Definition s_closure : str := Eval compute in codes "votelib.evaluate.openlist._quota_fractional".
Theorem C19_rejects_closure_refuted : exists v j,
  wf_value env0 v = true /\ representable env0 v = false /\ serialize_value_pinned v = SOk j /\
  deserialize_value env0 (json_rt j) = DErr E_ATTR /\ serialize_value env0 v = SErr.
Proof.
  exists (PCallable s_closure), (JDict [(s_callable, JStr s_closure)]).
  vm_compute. repeat split.
Qed.

(* 5. an object of a class that is not found under its name is saved and cannot be loaded *)
Theorem C19_rejects_hidden_class_refuted : exists v j,
  wf_value env0 v = true /\ representable env0 v = false /\ serialize_value_pinned v = SOk j /\
  deserialize_value env0 (json_rt j) = DErr E_ATTR /\ serialize_value env0 v = SErr.
Proof.
  exists (PList [PObj s_hidden [([97], PInt 1)]]), (JList false [JDict [(s_class, JStr s_hidden); ([97], JInt 1)]]).
  vm_compute. repeat split.
Qed.

(* [wf_value] cannot be dropped from C19_rejects - but only because the type pval has terms that encode no Python value:
   Fraction(2, 4) IS Fraction(1, 2) *)
Example C19_rejects_wf_needed : representable env0 (PFrac 2 4) = false /\ wf_value env0 (PFrac 2 4) = false /\
  exists j, serialize_value env0 (PFrac 2 4) = SOk j.
Proof. split; [reflexivity|]. split; [reflexivity|]. eexists. reflexivity. Qed.

(* the hypotheses are satisfiable by a non-trivial value: a system with a Fraction, a Decimal, a
   tuple-keyed dictionary, a frozenset, a nested object, a str-keyed dictionary carrying the word
   'type' with a non-identifier string, and a callable *)
Definition s_cls : str := Eval compute in codes "votelib.evaluate.core.FixedSeatCount".
Definition s_a : str := Eval compute in codes "evaluator".
Definition s_b : str := Eval compute in codes "n_seats".
Definition s_dec : str := Eval compute in codes "1.50".
Definition s_noid : str := Eval compute in codes "not an identifier".
Definition example_value : pval :=
  PObj s_cls
    [(s_a, PObj s_cls [(s_a, PCallable s_max); (s_b, PFrac (-3) 4)]);
     (s_b, PList [PDec s_dec; PNone; PBool true;
                  PDict [(PTuple [PInt 1; PStr s_a], PFrozenset [PInt 1; PInt 2]); (PInt 7, PList [])];
                  PDict [(PStr s_type, PStr s_noid); (PStr s_b, PTuple [])]])].
Example C19_example_representable : representable env0 example_value = true.
Proof. vm_compute. reflexivity. Qed.
(* ... and the hypotheses of C19_rejects by a nested value that is well-formed and not representable (a reserved key three
   levels down): it is refused *)
Definition example_rejected : pval :=
  PObj s_cls [(s_a, PList [PFrac (-3) 4; PDict [(PTuple [PInt 1], PDict [(PStr s_class, PStr s_cls); (PStr s_b, PInt 2)])]])].
Example C19_example_rejected : wf_value env0 example_rejected = true /\ representable env0 example_rejected = false /\
  serialize_value env0 example_rejected = SErr /\ exists j, serialize_value_pinned example_rejected = SOk j.
Proof. vm_compute. repeat split. eexists. reflexivity. Qed.

(* BLT files (Model/BallotFile.v, token level). *)

(* ranked ballots without shared ranks with their weights, the seat count, candidate names, withdrawn
   flags and title, written by dump_lines, load back unchanged (identities replaced by positions):
   for EVERY well-formed election - any number of candidates and ballots *)
Theorem C19_blt_roundtrip : forall e x, wf_election e = true -> expected e = Some x ->
  exists ls, dump_lines false e = DumpOk ls /\ load_lines false false ls = Ok x.
Proof. exact blt_roundtrip. Qed.

(* on EVERY list of token lines the parser returns data or BLTParseError - no other exception *)
Theorem C19_blt_parse_total : forall oneplus ls,
  (exists x, load_lines false oneplus ls = Ok x) \/ load_lines false oneplus ls = ParseError.
Proof.
  intros op ls. pose proof (load_lines_total op ls) as H.
  destruct (load_lines false op ls) as [x| |e]; [left; exists x; reflexivity|right; reflexivity|contradiction].
Qed.

(* a non-trivial well-formed election: duplicate names, a withdrawn first candidate, Fraction weight, title *)
Definition s_ann : str := Eval compute in codes "Ann Bee".
Definition example_election : election :=
  ([([2; 1]%positive, 3 # 2); ([3]%positive, 2 # 1); ([]%list, 1 # 1)], 2,
   [(1%positive, s_ann, true); (2%positive, s_ann, false); (3%positive, s_b, true)], Some s_a).
Example C19_example_election_wf : wf_election example_election = true.
Proof. vm_compute. reflexivity. Qed.
Example C19_example_election_expected : exists x, expected example_election = Some x.
Proof. eexists. vm_compute. reflexivity. Qed.

(* The pinned tree (model flag pinned = true) violates both clauses; each witness is replayed on the
   implementation by the corpus (corpus/C19/blt-*.json), the defects are repaired by fixes/C19-blt-*.diff *)
Theorem C19_blt_roundtrip_pinned_refuted : exists e x ls,
  wf_election e = true /\ expected e = Some x /\ dump_lines true e = DumpOk ls /\
  load_lines true false ls = ParseError.
Proof.   (* the first candidate withdrawn is written as 0, the end-of-ballots marker *)
  eexists ([([1]%positive, 1 # 1)], 1, [(1%positive, s_a, true); (2%positive, s_b, false)], None).
  eexists. eexists. do 3 (split; [reflexivity|]). reflexivity.
Qed.

Theorem C19_blt_single_candidate_pinned_refuted : exists e x y ls,
  wf_election e = true /\ expected e = Some x /\ dump_lines true e = DumpOk ls /\
  load_lines true false ls = Ok y /\ List.length (snd (fst y)) = 7%nat.
Proof.   (* one candidate "Ann Bee" reloads as seven one-character candidates *)
  eexists ([]%list, 1, [(1%positive, s_ann, false)], None).
  eexists. eexists. eexists. do 4 (split; [reflexivity|]). reflexivity.
Qed.

Theorem C19_blt_parse_total_pinned_refuted :
  (exists ls, load_lines true false ls = Crash BallotFile.E_INDEX) /\
  (exists ls, load_lines true false ls = Crash E_OTHER) /\
  (exists ls, load_lines true true ls = Crash E_VALUE) /\
  (exists ls y, load_lines true false ls = Ok y /\ fst (fst (fst y)) = [([1; 2; 2], 1 # 1)]).
Proof.
  split; [|split; [|split]].
  - exists [LToks [TNat 2; TNat 1]; LToks [TNat 1; TNat 3; TNat 0]; LToks [TNat 0]]. vm_compute. reflexivity.
  - exists [LToks [TNat 2; TNat 1]; LToks [TBad; TNat 1; TNat 0]; LToks [TNat 0]]. vm_compute. reflexivity.
  - exists [LToks [TNat 1; TNat 1]; LToks [TNum (1 # 2); TNat 1; TNat 0]; LToks [TNat 0]]. vm_compute. reflexivity.
  - (* a 0 inside a ballot is silently read as the last candidate *)
    exists [LToks [TNat 2; TNat 1]; LToks [TNat 1; TNat 1; TNat 0; TNat 2; TNat 0]; LToks [TNat 0]].
    eexists. vm_compute. split; reflexivity.
Qed.

(* Model/StvFile.v: a line is a list of code points; [E : uenv] holds what Coq cannot contain (Unicode tables beyond
   ASCII, Decimal(str)) - every theorem is for EVERY E; [bl] is the BLT reader that a 'ballots=blt' file is handed to. *)

(* ranked ballots without shared ranks with int / Fraction / Decimal weights, the seat count (seats= of a
   FixedSeatCount or the n_seats argument), candidate names, withdrawn flags, the optional title and the evaluator
   (quota, mandatory quota, tie-breaker) written by dump_lines load back unchanged - through the lines, whatever
   follows the 'end' line, and through the text of dumps / loads: for EVERY well-formed election *)
Theorem C19_stv_roundtrip : forall E e, stv_wf E e = true ->
  exists x ls, stv_expected E e = Some x /\ stv_dump_lines E false e = WOk ls /\
               (forall bl junk, stv_load_lines E false bl (ls ++ junk) = Ok x) /\
               (forall bl, stv_loads E false bl (dumps_text ls) = Ok x).
Proof.
  intros E e Hwf. destruct (stv_roundtrip E e Hwf) as [x [ls [Hx [Hd Hl]]]].
  destruct (stv_roundtrip_text E e Hwf) as [x' [ls' [Hx' [Hd' Hl']]]].
  rewrite Hx in Hx'. inversion Hx'; subst x'. rewrite Hd in Hd'. inversion Hd'; subst ls'.
  exists x, ls. repeat split; assumption.
Qed.

(* the only condition stv_wf puts on nicknames concerns initials beyond ASCII: for an ASCII name it holds by itself *)
Theorem C19_stv_wf_ascii_names : forall E nm, forallb (fun c => c <? 128) nm = true ->
  forallb nick_char_ok (name_to_initials E nm) = true.
Proof. exact ascii_initials_ok. Qed.

(* on EVERY list of lines / every text the reader returns an election or STVParseError - no other exception -
   provided the BLT reader it delegates to does *)
Theorem C19_stv_parse_total : forall E bl ls, (forall r, no_crash (bl r)) ->
  (exists x, stv_load_lines E false bl ls = Ok x) \/ stv_load_lines E false bl ls = ParseError.
Proof.
  intros E bl ls Hbl. pose proof (stv_load_lines_total E bl ls Hbl) as H.
  destruct (stv_load_lines E false bl ls) as [x| |e]; [left; exists x; reflexivity|right; reflexivity|contradiction].
Qed.

(* ... and the BLT reader of Model/BallotFile.v does, whatever splits its lines into tokens *)
Theorem C19_stv_parse_total_text : forall E (lex : str -> line) oneplus text,
  let bl := fun r => load_lines false oneplus (map lex r) in
  (exists x, stv_loads E false bl text = Ok x) \/ stv_loads E false bl text = ParseError.
Proof.
  intros E lex op text bl. unfold stv_loads. apply C19_stv_parse_total. intros r. apply load_lines_total.
Qed.

(* never partial data, 1: what a file with a ballot count yields does not depend on anything after its 'end' line -
   a truncated text is rejected or gives the very same election *)
Theorem C19_stv_prefix_stable : forall E bl ls x, stv_load_lines E false bl ls = Ok x -> stv_mode E ls = true ->
  forall bl' junk, stv_load_lines E false bl' (ls ++ junk) = Ok x.
Proof. exact stv_prefix_stable. Qed.

Theorem C19_stv_truncation : forall E bl ls k x y, stv_load_lines E false bl ls = Ok x ->
  stv_load_lines E false bl (firstn k ls) = Ok y -> stv_mode E (firstn k ls) = true -> y = x.
Proof.
  intros E bl ls k x y Hx Hy Hm. pose proof (stv_prefix_stable E bl (firstn k ls) y Hy Hm bl (skipn k ls)) as H.
  rewrite firstn_skipn, Hx in H. inversion H. reflexivity.
Qed.

(* never partial data, 2: every ranking of a loaded election names candidates of the loaded candidate list *)
Theorem C19_stv_rankings_complete : forall E (lex : str -> line) oneplus ls x,
  stv_load_lines E false (fun r => load_lines false oneplus (map lex r)) ls = Ok x ->
  in_range (List.length (l_pool x)) (l_votes x).
Proof.
  intros E lex op ls x H. eapply stv_loaded_in_range; [|exact H]. intros r y Hy. exact (blt_loaded_in_range op (map lex r) y Hy).
Qed.

(* BLT mode ('method=blt', 'ballots=blt', then the lines of the BLT writer): the STV reader returns what the BLT
   reader returns - ballots, seat count (as FixedSeatCount), candidates, title; with C19_blt_roundtrip this is the
   round trip of dump_lines(votes, system=None, ...) up to the splitting of BLT lines into tokens *)
Theorem C19_stv_blt_mode : forall E bl rest bv bs bc bt, bl rest = Ok (bv, bs, bc, bt) ->
  stv_load_lines E false bl (blt_mode_lines rest) =
  Ok {| l_votes := bv;
        l_system := (match bt with Some t => if nonempty t then Some t else None | None => None end, EvFixed (EvOther true) bs);
        l_cands := map (fun cw => (cname_str (fst cw), snd cw)) bc;
        l_pool := map (fun cw => (cname_str (fst cw), snd cw)) bc |}.
Proof. exact stv_blt_mode_ok. Qed.

(* a non-trivial well-formed election: duplicate names (ordinal nicknames), a withdrawn candidate, an empty ranking,
   Fraction and Decimal weights, a weight written without multiplier, title, tie-breaker, mandatory quota, seat count *)
Definition s_250 : str := Eval compute in codes "2.50".
Definition env1 : uenv :=
  {| udec := fun _ => None; udigit := fun c => c =? 178; uword := fun c => c =? 233; ulower := fun c => [c];
     dec_val := fun s => if str_eqb s s_250 then Some (5 # 2) else None |}.
Definition s_title1 : str := Eval compute in codes "Board = 2024, round 2".
Definition s_zoe : str := [90; 111; 233; 32; 46; 32; 83; 116; 46; 32; 74; 111; 104; 110].    (* "Zoé . St. John" *)
Definition example_stv : stv_election :=
  {| e_votes := [([2; 1]%positive, WQ (3 # 2)); ([3]%positive, WQ (2 # 1)); ([]%list, WQ (1 # 1)); ([1; 3]%positive, WDec s_250);
                 ([1]%positive, WQ (1 # 1))];
     e_system := SysVS (Some s_title1)
                   (EvFixed (EvTie (EvTV false false (-1) true (QNamed s_hare) true) (TbPre true (TbSort (Some 12345)))) 2);
     e_cands := [(1%positive, s_ann, true); (2%positive, s_ann, false); (3%positive, s_zoe, false)];
     e_seats := None; e_output_method := true |}.
Example C19_example_stv_wf : stv_wf env1 example_stv = true.
Proof. vm_compute. reflexivity. Qed.
(* ... and one whose nicknames are initials (with a non-ASCII one), seat count given as argument, no title *)
Definition example_stv2 : stv_election :=
  {| e_votes := [([3; 1]%positive, WQ (7 # 1))];
     e_system := SysEv (EvTV false false (-1) true (QNamed s_droop) false);
     e_cands := [(1%positive, s_ann, false); (3%positive, s_zoe, true)];
     e_seats := Some 1; e_output_method := true |}.
Example C19_example_stv2_wf : stv_wf env1 example_stv2 = true /\ candidate_nicks env1 [s_ann; s_zoe] = [[97; 98]; [122; 115; 106]].
Proof. vm_compute. split; reflexivity. Qed.

(* known finding C19-stv-name-chars (format limitation, delimits stv_wf): header lines have no escaping - a title with
   '#' is cut there, a name with leading white space loses it; the faithful model reproduces both *)
Definition s_a_hash_b : str := Eval compute in codes "a#b".
Definition s_lead : str := Eval compute in codes " lead".
Theorem C19_stv_name_chars_refuted : exists e x ls y,
  stv_wf env1 e = false /\ stv_expected env1 e = Some x /\ stv_dump_lines env1 false e = WOk ls /\
  stv_load_lines env1 false (fun _ => ParseError) ls = Ok y /\
  fst (l_system x) = Some s_a_hash_b /\ fst (l_system y) = Some [97] /\
  l_cands x = [(s_lead, false)] /\ l_cands y = [(tl s_lead, false)].
Proof.
  exists {| e_votes := [([1]%positive, WQ (2 # 1))]; e_system := SysVS (Some s_a_hash_b) (EvTV false false (-1) true (QNamed s_droop) false);
            e_cands := [(1%positive, s_lead, false)]; e_seats := None; e_output_method := true |}.
  eexists. eexists. eexists. do 7 (split; [reflexivity|]). reflexivity.
Qed.

(* The tree without the repairs (model flag legacy = true) violates both clauses; each witness is replayed on the
   implementation by the corpus (corpus/C19/stv-legacy-*.json), the defects are repaired by fixes/C19-stv-*.diff *)
Theorem C19_stv_title_none_legacy_refuted : exists e x ls y,
  stv_wf env1 e = true /\ stv_expected env1 e = Some x /\ stv_dump_lines env1 true e = WOk ls /\
  stv_load_lines env1 true (fun _ => ParseError) ls = Ok y /\ fst (l_system x) = None /\ fst (l_system y) = Some s_None.
Proof.   (* an untitled system is written with the line 'title=None' *)
  exists {| e_votes := []; e_system := SysVS None (EvTV false false (-1) true (QNamed s_droop) false);
            e_cands := [(1%positive, s_ann, false)]; e_seats := None; e_output_method := true |}.
  eexists. eexists. eexists. do 5 (split; [reflexivity|]). reflexivity.
Qed.

Definition lines_of (l : list String.string) : list str := map codes l.
Theorem C19_stv_isdigit_legacy_refuted :
  let bl := fun _ : list str => @ParseError loaded in
  let sup2 := [178] in      (* superscript two: str.isdigit() holds, int() raises ValueError *)
  stv_load_lines env1 true bl (lines_of ["method=BC"; "quota=droop"] ++ [s_ballots ++ 61 :: sup2])%list = Crash E_VALUE /\
  stv_load_lines env1 true bl (lines_of ["method=BC"] ++ [s_quota ++ 61 :: sup2] ++ lines_of ["ballots=0"])%list = Crash E_VALUE /\
  stv_load_lines env1 true bl (lines_of ["method=BC"; "quota=droop"] ++ [s_random ++ 61 :: sup2] ++ lines_of ["ballots=0"])%list = Crash E_VALUE /\
  stv_load_lines env1 true bl (lines_of ["method=BC"; "quota=droop"; "candidate=a A"; "order=a"; "ballots=1"] ++ [sup2])%list = Crash E_VALUE.
Proof. vm_compute. repeat split. Qed.

Theorem C19_stv_blt_seats_legacy_refuted : exists ls bl y,
  bl (skipn 3 ls) = Ok y /\ stv_load_lines env1 true bl ls = Crash E_VALUE /\
  exists x, stv_load_lines env1 false bl ls = Ok x.
Proof.   (* 'seats=' before 'ballots=blt': FixedSeatCount was wrapped into FixedSeatCount -> ValueError *)
  exists (lines_of ["method=blt"; "seats=2"; "ballots=blt"; "1 1"; "1 1 0"; "0"]),
         (fun _ => Ok ([([1], 1 # 1)], 1, [(Numbered 1, false)], None)).
  eexists. split; [reflexivity|]. split; [vm_compute; reflexivity|]. eexists. vm_compute. reflexivity.
Qed.

(* candidate 2371 of an election with ordinal nicknames is nicknamed 'end': a ballot for that candidate alone with
   weight one was written as the line 'end' and ended the ballot list *)
Definition many_cands : list cand := map (fun i => (Pos.of_nat i, [67], false)) (seq 1 2371).
Definition ordinal_end_election : stv_election :=
  {| e_votes := [([2371]%positive, WQ (1 # 1))]; e_system := SysEv (EvTV false false (-1) true (QNamed s_droop) false);
     e_cands := many_cands; e_seats := None; e_output_method := true |}.
Theorem C19_stv_ordinal_end_legacy_refuted :
  stv_wf env1 ordinal_end_election = true /\
  match stv_dump_lines env1 true ordinal_end_election with
  | WOk ls => stv_load_lines env1 true (fun _ => ParseError) ls
  | _ => Crash 0
  end = ParseError.
Proof.
  assert (Hnd : NoDup (map cid many_cands)) by (unfold many_cands; rewrite map_map; apply of_nat_seq_NoDup).
  assert (Hnm : forall c, In c many_cands ->
                name_ok (cnm c) = true /\ forallb nick_char_ok (name_to_initials env1 (cnm c)) = true).
  { unfold many_cands. intros c Hc. apply in_map_iff in Hc. destruct Hc as [i [<- _]]. split; reflexivity. }
  assert (Hnth : nth_error (map cid many_cands) 2370 = Some 2371%positive) by reflexivity.
  pose proof (cand_nicks_good env1 many_cands Hnm) as [Hcn [Hl [Hnn Hg]]].
  split.
  { unfold stv_wf, ordinal_end_election. cbn [e_cands e_votes e_system e_seats e_output_method].
    apply andb_true_iff. split; [|reflexivity]. apply andb_true_iff. split; [|reflexivity]. apply andb_true_iff. split.
    - apply andb_true_iff. split; [|reflexivity]. apply andb_true_iff. split; [|reflexivity]. apply andb_true_iff. split.
      + apply pos_nodup_NoDup. exact Hnd.
      + cbn [forallb fst]. rewrite !andb_true_r. apply pos_mem_in. exact (nth_error_In _ _ Hnth).
    - apply forallb_forall. intros [[i nm] w] Hc. apply andb_true_iff. exact (Hnm _ Hc). }
  (* all names are equal, so the nicknames are ordinal: three letters, the last one 'end' *)
  assert (Hns : cand_nicks env1 many_cands = ordinal_from 3 2371 0).
  { unfold cand_nicks, many_cands. rewrite map_map, (candidate_nicks_same env1 [67]).
    - rewrite map_length, seq_length. reflexivity.
    - apply Forall_forall. intros x Hx. apply in_map_iff in Hx. destruct Hx as [i [<- _]]. reflexivity.
    - rewrite map_length, seq_length. apply le_n_S, le_n_S, Nat.le_0_l. }
  assert (Hnick : nick_of 2371 (map cid many_cands) (cand_nicks env1 many_cands) = Some s_end).
  { rewrite (nick_of_nth (map cid many_cands) _ 2370 _ Hnd); [|rewrite map_length; exact Hl|exact Hnth].
    rewrite Hns, ordinal_from_nth by apply le_n. reflexivity. }
  assert (Hbl : ballot_lines env1 true [([2371]%positive, WQ (1 # 1))] (map cid many_cands) (cand_nicks env1 many_cands) = Some [s_end]).
  { cbn [ballot_lines]. unfold ballot_line. cbn [ranking_nicks]. rewrite Hnick. reflexivity. }
  (* the ballot is written as the line 'end', where the reader stops with no ballot read out of one *)
  rewrite (stv_dump_lines_shape env1 true ordinal_end_election [(s_method, s_BC); (s_quota, s_droop)] [s_end]);
    [|discriminate|exact Hnd|exact Hl|reflexivity|exact Hbl].
  unfold stv_load_lines.
  rewrite (load_header_written env1 true [(s_method, s_BC); (s_quota, s_droop)] (e_cands ordinal_end_election)
             (cand_nicks env1 (e_cands ordinal_end_election)) (n_str (N.of_nat (List.length (e_votes ordinal_end_election)))) ([s_end] ++ [s_end])
             {| sc_title := None; sc_method := Some s_BC; sc_quota := Some (s_droop, None); sc_seats := None; sc_random := None |}
             (None, EvTV false false (-1) true (QNamed s_droop) false) (Some 1));
    [|repeat constructor|reflexivity|exact Hl|exact Hcn|exact Hg|exact Hnn|reflexivity|reflexivity|reflexivity].
  cbn [lbind h_n_ballots h_ordered h_nicks app]. rewrite load_votes_end. reflexivity.
Qed.

Print Assumptions C19_roundtrip.
Print Assumptions C19_system_roundtrip.
Print Assumptions C19_rejects.
Print Assumptions C19_representable_split.
Print Assumptions C19_rejects_exactly.
Print Assumptions C19_saved_reloads.
Print Assumptions C19_fixed_agrees_with_pinned.
Print Assumptions C19_eqb_refl.
Print Assumptions C19_rejects_opaque_pinned.
Print Assumptions C19_rejects_reserved_key_refuted.
Print Assumptions C19_rejects_set_refuted.
Print Assumptions C19_rejects_lambda_refuted.
Print Assumptions C19_rejects_closure_refuted.
Print Assumptions C19_rejects_hidden_class_refuted.
Print Assumptions C19_blt_roundtrip.
Print Assumptions C19_blt_parse_total.
Print Assumptions C19_blt_roundtrip_pinned_refuted.
Print Assumptions C19_blt_single_candidate_pinned_refuted.
Print Assumptions C19_blt_parse_total_pinned_refuted.
Print Assumptions C19_stv_roundtrip.
Print Assumptions C19_stv_wf_ascii_names.
Print Assumptions C19_stv_parse_total.
Print Assumptions C19_stv_parse_total_text.
Print Assumptions C19_stv_prefix_stable.
Print Assumptions C19_stv_truncation.
Print Assumptions C19_stv_rankings_complete.
Print Assumptions C19_stv_blt_mode.
Print Assumptions C19_stv_name_chars_refuted.
Print Assumptions C19_stv_title_none_legacy_refuted.
Print Assumptions C19_stv_isdigit_legacy_refuted.
Print Assumptions C19_stv_blt_seats_legacy_refuted.
Print Assumptions C19_stv_ordinal_end_legacy_refuted.
