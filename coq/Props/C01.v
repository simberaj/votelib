(* C01 - Highest-averages apportionment is the exact divisor-method solution.
   This file holds the property theorems and examples of non-vacuity; model: Model/HighestAverages.v,
   proofs: Proofs/HA_proofs.v, Proofs/Divisor_proofs.v, Proofs/HAUnique_proofs.v, Proofs/Mono_proofs.v.

   Setting: votes : list (C * Q) with distinct keys and non-negative totals
   (unbounded rationals: no float, no 2^53 limit), n seats, prev_gains >= 0,
   caps (default cap = n, as in the code), a divisor d that is positive and
   non-decreasing on seat counts >= 0 (proved for all five built-ins and for
   modified_first_coef wrappers with 0 < c <= f 1).  [fin] is the state in
   which the loop of HighestAverages.evaluate stops; [st_awards] is the ghost
   list of every (party, quotient) seat awarded; tot = prev_gains + awarded. *)
From Coq Require Import ZArith QArith List Permutation.
From VL Require Import Prelude.PyDict Model.Divisor Model.HighestAverages
     Proofs.Dict_proofs Proofs.HA_proofs Proofs.Divisor_proofs Proofs.Mono_proofs Proofs.HAUnique_proofs.
Import ListNotations.
Open Scope Z_scope.

Section C01.
  Variable d : Z -> Q.
  Variable votes : list (C * Q).
  Variables caps prev : list (C * Z).
  Variable n : Z.
  Hypothesis Hd : divisor_ok d.
  Hypothesis Hvotes : forall c v, In (c, v) votes -> (0 <= v)%Q.
  Hypothesis Hnd : NoDup (map fst votes).
  Hypothesis Hprev : forall c, 0 <= dget_or prev c 0.

  Notation fin := (final_state d votes n prev caps).
  Notation cap := (cap_of caps n).
  Notation total c := (dget_or (st_totals fin) c 0).

  (* never lifts a party above its cap *)
  Theorem C01_caps : forall c, dget_or prev c 0 <= cap c -> total c <= cap c.
  Proof. exact (ha_caps d votes caps prev n (proj1 Hd) (proj2 Hd) Hvotes Hnd Hprev). Qed.

  (* no unseated claim is stronger than a seated one: the next exact quotient
     of every party still under its cap is at most the quotient of every
     awarded seat *)
  Theorem C01_optimal : forall c v a, In (c, v) votes -> total c < cap c -> In a (st_awards fin) ->
    (v / d (total c) <= snd a)%Q.
  Proof. exact (ha_optimal d votes caps prev n (proj1 Hd) (proj2 Hd) Hvotes Hnd Hprev). Qed.

  (* the awarded quotients are the real ones: votes / d(j) for a seat index j
     between the previous gains and the final total of that party, and the
     final totals are previous gains plus the seats awarded *)
  Theorem C01_awards_genuine : forall a, In a (st_awards fin) ->
    exists v j, In (fst a, v) votes /\ snd a = (v / d j)%Q /\ dget_or prev (fst a) 0 <= j < total (fst a).
  Proof. exact (ha_awards_genuine d votes caps prev n (proj1 Hd) (proj2 Hd) Hvotes Hnd Hprev). Qed.

  Theorem C01_account : forall c, total c = dget_or prev c 0 + count c (map fst (st_awards fin)).
  Proof. exact (ha_account d votes caps prev n (proj1 Hd) (proj2 Hd) Hvotes Hnd Hprev). Qed.

  (* exactly the open seats are handed out (definite seats + tie seats), or
     the list ran dry with every party at its cap *)
  Theorem C01_total : 0 <= n - zsum (map snd prev) ->
    st_rem fin + Z.of_nat (length (st_awards fin))
      + (match st_tie fin with Some (_, r) => r | None => 0 end) = n - zsum (map snd prev) /\
    (st_rem fin = 0 \/
     (st_qs fin = [] /\ 0 <= st_rem fin /\ forall c v, In (c, v) votes -> cap c <= total c)).
  Proof. exact (ha_total d votes caps prev n (proj1 Hd) (proj2 Hd) Hvotes Hnd Hprev). Qed.

  (* a reported tie: fills all remaining seats, has more members than seats,
     and its members are exactly the eligible parties whose current quotient
     equals the maximal current quotient *)
  Theorem C01_ties : forall T r, st_tie fin = Some (T, r) ->
    st_rem fin = 0 /\ 0 < r < Z.of_nat (length T) /\
    exists m, (exists c0, In (c0, m) (st_qs fin)) /\
              Forall (fun y => (snd y <= m)%Q) (st_qs fin) /\
              Permutation T (map fst (filter (fun y => Qeq_bool (snd y) m) (st_qs fin))).
  Proof. exact (ha_tie d votes caps prev n (proj1 Hd) (proj2 Hd) Hvotes Hnd Hprev). Qed.

  (* the state invariant named in the anchors: the quotient list is sorted,
     duplicate-free and lists the current exact quotients of eligible parties *)
  Theorem C01_sorted_inv : NoDup (map fst (st_qs fin)) /\ sortedq (st_qs fin) /\
    Forall (fun it => exists v, In (fst it, v) votes /\ snd it = (v / d (total (fst it)))%Q /\
                                0 <= total (fst it) < cap (fst it)) (st_qs fin).
  Proof. exact (ha_queue d votes caps prev n (proj1 Hd) (proj2 Hd) Hvotes Hnd Hprev). Qed.
End C01.

(* UNIQUENESS: the loop computes THE divisor-method apportionment.  With a strictly increasing divisor, positive votes,
   no previous gains and no caps, any allocation s of exactly n seats whose min-max inequality is strict (nobody's next
   quotient reaches anybody's last awarded quotient: no tie at the cut) is what the loop ends with - no tie reported,
   no seat left, totals = s. *)
Theorem C01_unique : forall (d : Z -> Q) (votes : list (C * Q)) (n : Z) (s : C -> Z),
  divisor_ok d -> divisor_strict d ->
  (forall c v, In (c, v) votes -> (0 < v)%Q) -> NoDup (map fst votes) ->
  (forall c, In c (map fst votes) -> 0 <= s c) ->
  zsum (map s (map fst votes)) = n ->
  (forall c v c' v', In (c, v) votes -> In (c', v') votes -> 0 < s c' -> (v / d (s c) < v' / d (s c' - 1)%Z)%Q) ->
  let fin := final_state d votes n [] [] in
  st_tie fin = None /\ st_rem fin = 0 /\ forall c, In c (map fst votes) -> dget_or (st_totals fin) c 0 = s c.
Proof.
  intros d votes n s [Hpos _] Hstrict Hv Hnd Hs0 Hsum Hmm.
  exact (ha_unique d votes n Hpos Hstrict Hv Hnd s Hs0 Hsum Hmm).
Qed.

(* the hypotheses on the divisor hold for every built-in and every wrapper *)
Theorem C01_builtin_divisors : forall i, divisor_ok (divisor_by_id i).
Proof. exact builtin_ok. Qed.
Theorem C01_modified_divisors : forall f c, divisor_ok f -> (0 < c)%Q -> (c <= f 1%Z)%Q ->
  divisor_ok (modified_first_coef f c).
Proof. exact modified_ok. Qed.

(* non-vacuity of C01_unique: 60/30/10 votes, D'Hondt, 6 seats: 4/2/0 satisfies the strict inequality *)
Example C01_unique_example :
  let votes := [(1%positive, 60#1); (2%positive, 30#1); (3%positive, 10#1)]%Q in
  let s := fun c : C => if Pos.eqb c 1 then 4 else if Pos.eqb c 2 then 2 else 0 in
  zsum (map s (map fst votes)) = 6 /\
  forallb (fun cv => forallb (fun cv' => negb (0 <? s (fst cv')) ||
     negb (Qle_bool (snd cv' / d_hondt (s (fst cv') - 1)) (snd cv / d_hondt (s (fst cv))))) votes) votes = true.
Proof. vm_compute. split; reflexivity. Qed.

(* non-vacuity: a concrete run that ends in a tie (no caps): 60/30/30 votes, D'Hondt, 3 seats - one sure seat, three
   quotients of 30 level for the other two *)
Example C01_example_run :
  evaluate d_hondt [(1%positive, 60#1); (2%positive, 30#1); (3%positive, 30#1)]%Q 3 [] []
  = HA_ok [(1%positive, 1)] (Some ([1%positive; 2%positive; 3%positive], 2)).
Proof. vm_compute. reflexivity. Qed.

Print Assumptions C01_caps.
Print Assumptions C01_optimal.
Print Assumptions C01_awards_genuine.
Print Assumptions C01_account.
Print Assumptions C01_total.
Print Assumptions C01_ties.
Print Assumptions C01_unique.
Print Assumptions C01_sorted_inv.
Print Assumptions C01_builtin_divisors.
Print Assumptions C01_modified_divisors.
