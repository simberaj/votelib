(* C05 - Condorcet methods elect the Condorcet winner and stay in the Smith set.
   This file holds the property theorems, the definitions their statements need and examples of non-vacuity.
   Models: Model/Condorcet.v, Model/Hybrids.v; proofs: Proofs/Condorcet_proofs.v, Proofs/Schulze_proofs.v,
   Proofs/Kemeny_proofs.v, Proofs/RankedPairs_proofs.v, Proofs/SmithEff_proofs.v, Proofs/Hybrids_proofs.v and the files
   imported below.

   Proved for every pairwise dictionary (distinct keys, non-negative counts, absent
   pair = 0): Copeland (raw and second-order), minimax (winning votes, margins), Schulze (every
   iteration order of the candidate set), ranked pairs and Kemeny-Young elect the Condorcet winner
   alone (one theorem each, C05_cw_*; C05_cw_full puts Schulze in the dictionary's candidate order, minimax and ranked
   pairs by winning votes and by margins, and Kemeny-Young into one statement); defining computations of Copeland, Schulze (the table of
   strongest beat-paths, ranking independent of the iteration order), Kemeny-Young (common first
   places of the best permutations) and ranked pairs (locked total order); nobody dropped for
   Copeland (raw and second order), minimax, Schulze, ranked pairs, Kemeny-Young (one theorem each; C05_nobody_dropped_full puts
   second-order Copeland, Schulze in the dictionary's candidate order and minimax by winning votes into one statement); Smith efficiency of Copeland (raw and second order), Schulze (by the number of path-wins), ranked pairs
   (three scorers) and Kemeny-Young, also for a reported tie (Proofs/SmithEff_proofs.v).  The run-off hybrids
   (Benham, Tideman alternative; Model/Hybrids.v, Proofs/Hybrids_proofs.v, Proofs/HybridTiers_proofs.v, end of this file):
   for every ranked profile a Condorcet winner of its pairwise dictionary is returned alone, the first winner of Tideman
   alternative lies in the Smith set and - with the repaired tiers - the winner of every tier in the Smith set of the
   candidates left, the winner of Benham lies in the Smith set once a tie in the elimination is refused (refuted for the
   elimination step of the pinned tree), a candidate that stands alone is elected, restriction of the ballots = restriction
   of the dictionary. *)
From Coq Require Import ZArith List Arith.
From VL Require Import Prelude.PyDict Model.GetNBest Model.Condorcet Proofs.Condorcet_proofs Proofs.CopelandMono_proofs Proofs.Minimax_proofs Proofs.Schulze_proofs.
From VL Require Proofs.Smith_proofs.
Import ListNotations.
Open Scope Z_scope.

Theorem C05_cw_copeland : forall (v : pvotes) so c,
  NoDup (map fst v) -> (forall p n, In (p, n) v -> 0 <= n) -> (2 <= length (candidates v))%nat ->
  is_cw v c -> copeland so v 1 = [Cand c].
Proof. intros v so c Hnd Hnn. exact (copeland_elects_cw v Hnd Hnn so c). Qed.

(* the win-loss score is the defining computation of Copeland *)
Theorem C05_copeland_score : forall (v : pvotes) x,
  dget_or (copeland_scores (pairwise_wins v false)) x 0 = nwins v x - nlosses v x.
Proof. exact copeland_scores_get. Qed.

(* minimax by winning votes and by margins elects the Condorcet winner alone (pairwise opposition does not
   satisfy the Condorcet criterion in general and is not claimed), and with as many seats as candidates no candidate
   is dropped from the minimax ranking (all three scorers) *)
Theorem C05_cw_minimax : forall (v : pvotes) s c,
  NoDup (map fst v) -> (forall p n, In (p, n) v -> 0 <= n) -> (2 <= length (candidates v))%nat ->
  s <> PairwiseOpposition -> is_cw v c -> minimax s v 1 = [Cand c].
Proof. intros v s c Hnd Hnn H2. exact (minimax_elects_cw v Hnn H2 s c). Qed.

Theorem C05_minimax_nobody_dropped : forall (v : pvotes) s x,
  (2 <= length (candidates v))%nat -> In x (candidates v) -> In (Cand x) (minimax s v (length (candidates v))).
Proof. intros v s x H2. exact (minimax_nobody_dropped v H2 s x). Qed.

(* Smith-efficiency of Copeland: a sole winner by Copeland scores lies in the Smith set (the set SmithSet computes,
   proved in C06 to be the smallest dominating set) *)
Theorem C05_smith_copeland : forall (v : pvotes) (w : C),
  NoDup (map fst v) -> (forall p n, In (p, n) v -> 0 <= n) -> (2 <= length (candidates v))%nat ->
  copeland false v 1 = [Cand w] -> In w (smith_schwartz v true).
Proof.
  intros v w Hnd Hnn H2 H. rewrite copeland_raw_is_first_order in H. exact (Smith_proofs.copeland_in_smith v w Hnd Hnn H2 H).
Qed.

(* Schulze elects the Condorcet winner alone - whatever order the candidate set is iterated in (the code iterates a
   Python set): nothing reaches the Condorcet winner (column c of the table stays 0) and its direct wins are never lost *)
Theorem C05_cw_schulze : forall (v : pvotes) (order : list C) c,
  NoDup (map fst v) -> (forall p n, In (p, n) v -> 0 <= n) ->
  is_cw v c -> schulze v order 1 = [Cand c].
Proof. intros v order c Hnd Hnn Hcw. exact (schulze_elects_cw v Hnd Hnn order c Hcw). Qed.

(* with as many seats as candidates every candidate of the dictionary is listed (as a plain entry, not inside a tie) *)
Theorem C05_schulze_nobody_dropped : forall (v : pvotes) (order : list C) x,
  NoDup (map fst v) -> (forall p n, In (p, n) v -> 0 <= n) ->
  In x (candidates v) -> In (Cand x) (schulze v order (length (candidates v))).
Proof. intros v order x Hnd Hnn. exact (schulze_nobody_dropped v Hnd Hnn order x). Qed.

(* the defining computation: for a positive s and a <> b the table entry (a, b) is at least s exactly when there is a chain
   of direct wins from a to b each carried by at least s winning votes ([reach], Proofs/Schulze_proofs.v; [d0 v a b] = votes
   for a over b if a beats b, else 0) - i.e. the entry is the strength of the strongest beat-path, and 0 when there is none *)
Theorem C05_schulze_strongest_paths : forall (v : pvotes) (order : list C) a b s,
  NoDup (map fst v) -> incl (candidates v) order ->
  0 < s -> a <> b ->
  (s <= pget0 (widest_paths v order) (a, b) <-> reach v s a b).
Proof. intros v order a b s Hnd Hi Hs Hab. exact (wp_spec v Hnd order a b s Hi Hs Hab). Qed.

(* the score each candidate is ranked by is its number of path-wins *)
Theorem C05_schulze_score : forall (v : pvotes) (order : list C),
  NoDup (map fst v) -> (forall p n, In (p, n) v -> 0 <= n) ->
  forall n, schulze v order n =
    get_n_best zle_bool (map (fun c => (c, Z.of_nat (length (opponents (widest_paths v order) c)))) (candidates v)) n.
Proof. intros v order Hnd Hnn n. rewrite schulze_unfold. fold (sscores v order). rewrite (sscores_canonical v Hnd Hnn order). reflexivity. Qed.
Theorem C05_schulze_path_win : forall (v : pvotes) (order : list C) c x,
  NoDup (map fst v) -> (forall p n, In (p, n) v -> 0 <= n) ->
  (In x (opponents (widest_paths v order) c) <-> pget0 (widest_paths v order) (x, c) < pget0 (widest_paths v order) (c, x)).
Proof. intros v order c x Hnd Hnn. exact (opponents_spec _ (P_nodup v Hnd order) (P_nonneg v Hnd Hnn order) c x). Qed.

(* the result does not depend on the order in which the candidate set is iterated *)
Theorem C05_schulze_order_irrelevant : forall (v : pvotes) (order1 order2 : list C) n,
  NoDup (map fst v) -> (forall p n, In (p, n) v -> 0 <= n) ->
  incl (candidates v) order1 -> incl (candidates v) order2 -> schulze v order1 n = schulze v order2 n.
Proof. intros v o1 o2 n Hnd Hnn H1 H2. exact (schulze_order_irrelevant v Hnd Hnn o1 o2 n H1 H2). Qed.

Definition well_formed (v : pvotes) : Prop :=
  NoDup (map fst v) /\ (forall p n, In (p, n) v -> 0 <= n) /\ (2 <= length (candidates v))%nat.
Definition first_is (r : list (res C)) (c : C) : Prop := exists t, r = Cand c :: t.

Definition C05_cw_full_statement : Prop :=
  forall v c, well_formed v -> is_cw v c ->
    first_is (schulze v (candidates v) 1) c /\
    first_is (minimax WinningVotes v 1) c /\ first_is (minimax Margins v 1) c /\
    ranked_pairs WinningVotes v 1 = CR_ok [Cand c] /\ ranked_pairs Margins v 1 = CR_ok [Cand c] /\
    kemeny v 1 = CR_ok [Cand c].
Definition C05_nobody_dropped_full_statement : Prop :=
  forall v x, well_formed v -> In x (candidates v) ->
    let n := length (candidates v) in
    let flat r := flat_map (fun e => match e with Cand c => [c] | TieR l => l end) r in
    In x (flat (copeland true v n)) /\ In x (flat (schulze v (candidates v) n)) /\
    In x (flat (minimax WinningVotes v n)).

(* the Schulze and minimax parts of the two full statements *)
Theorem C05_cw_full_schulze_minimax : forall v c, well_formed v -> is_cw v c ->
  first_is (schulze v (candidates v) 1) c /\
  first_is (minimax WinningVotes v 1) c /\ first_is (minimax Margins v 1) c.
Proof.
  intros v c (Hnd & Hnn & H2) Hcw. split; [exists []; exact (schulze_elects_cw v Hnd Hnn (candidates v) c Hcw)|].
  split; exists []; apply (minimax_elects_cw v Hnn H2); [discriminate|exact Hcw|discriminate|exact Hcw].
Qed.
Theorem C05_nobody_dropped_full_schulze_minimax : forall v x, well_formed v -> In x (candidates v) ->
  let n := length (candidates v) in
  let flat r := flat_map (fun e => match e with Cand c => [c] | TieR l => l end) r in
  In x (flat (schulze v (candidates v) n)) /\ In x (flat (minimax WinningVotes v n)).
Proof.
  intros v x (Hnd & Hnn & H2) Hx n flat. split; apply in_flat_map; exists (Cand x); (split; [|left; reflexivity]).
  - exact (schulze_nobody_dropped v Hnd Hnn (candidates v) x Hx).
  - exact (minimax_nobody_dropped v H2 WinningVotes x Hx).
Qed.

Example C05_example :
  copeland true [((1%positive, 2%positive), 3); ((2%positive, 1%positive), 1);
                 ((1%positive, 3%positive), 3); ((3%positive, 1%positive), 1);
                 ((2%positive, 3%positive), 2); ((3%positive, 2%positive), 2)] 1 = [Cand 1%positive].
Proof. vm_compute. reflexivity. Qed.

(* Schulze, a sparse dictionary (candidate 1 was never ranked below anyone: no incoming pair) iterated in another order,
   and a five-candidate election without a Condorcet winner where the ranking comes from the beat-paths *)
Example C05_schulze_example :
  schulze [((1%positive, 2%positive), 3); ((1%positive, 3%positive), 3);
           ((2%positive, 3%positive), 2); ((3%positive, 2%positive), 2)] [3%positive; 1%positive; 2%positive] 3
    = [Cand 1%positive; Cand 2%positive; Cand 3%positive] /\
  schulze mono_v (candidates mono_v) 5 = [Cand 3%positive; Cand 2%positive; Cand 5%positive; Cand 1%positive; Cand 4%positive].
Proof. vm_compute. split; reflexivity. Qed.
From Coq Require Import Permutation Sorted Lia.
From VL Require Import Proofs.Kemeny_proofs Proofs.RankedPairs_proofs.

(* Kemeny-Young, Condorcet winner (non-negative counts): the winner heads every best ranking because moving it to the
   front gains votes, all best rankings therefore agree on the first place, and the evaluator answers with it. *)
Theorem C05_cw_kemeny : forall (v : pvotes) c,
  (forall p n, In (p, n) v -> 0 <= n) -> is_cw v c -> kemeny v 1 = CR_ok [Cand c].
Proof. intros v c Hnn. apply kemeny_elects_cw, pget0_nn, Hnn. Qed.

(* defining computation: an answer is the first n places of a ranking of all candidates with the greatest Kemeny score,
   and ALL rankings with the greatest score have the same first n places ... *)
Theorem C05_kemeny_defining : forall (v : pvotes) n r, kemeny v n = CR_ok r ->
  exists p, Permutation p (candidates v) /\ r = map Cand (firstn n p) /\
    (forall q, Permutation q (candidates v) -> kemeny_score v q <= kemeny_score v p) /\
    (forall q, kemeny_max v q -> firstn n q = firstn n p).
Proof.
  intros v n r H. destruct (kemeny_defining v n r H) as (p & (Hp & Hge) & _ & Hr & Hall). exists p. tauto.
Qed.

(* ... conversely the evaluator answers whenever the best rankings agree on the first n places, and it refuses
   (NotImplementedError of Tie.tie_rankings) exactly when two best rankings differ within the first n places
   (counts non-negative: the scan starts from best_score = 0) *)
Theorem C05_kemeny_answers : forall (v : pvotes) n p, (forall q m, In (q, m) v -> 0 <= m) ->
  kemeny_max v p -> (forall q, kemeny_max v q -> firstn n q = firstn n p) ->
  kemeny v n = CR_ok (map Cand (firstn n p)).
Proof.
  intros v n p Hnn Hb Hall. apply kemeny_complete; [exact Hb|apply kemeny_score_nonneg, pget0_nn, Hnn|exact Hall].
Qed.

Theorem C05_kemeny_refusal : forall (v : pvotes) n, (forall p m, In (p, m) v -> 0 <= m) ->
  (kemeny v n = CR_nie <-> exists p q, kemeny_max v p /\ kemeny_max v q /\ firstn n p <> firstn n q) /\
  (kemeny v n = CR_nie \/ exists r, kemeny v n = CR_ok r).
Proof.
  intros v n Hnn. split; [apply kemeny_refuses_iff, pget0_nn, Hnn|].
  destruct (kemeny_cases v n) as [(p & _ & Hp)|H]; [right; eexists; exact Hp|left; exact H].
Qed.

Theorem C05_kemeny_nobody_dropped : forall (v : pvotes) r x,
  kemeny v (length (candidates v)) = CR_ok r -> In x (candidates v) -> In (Cand x) r.
Proof. exact kemeny_nobody_dropped. Qed.

(* the enumeration the evaluator scans is exactly the set of rankings of the candidates, each listed once *)
Theorem C05_permutations : forall (l p : list C),
  (In p (permutations l) <-> Permutation p l) /\ (NoDup l -> NoDup (permutations l)).
Proof. intros l p. split; [apply permutations_spec|apply permutations_NoDup]. Qed.

(* the witness of finding C05-kemeny-tie-below-winner (repaired by fixes/C05-kemeny-prefix.diff; the pinned tree refused it
   for every seat count): 1 is the Condorcet winner, 2 and 3 tie below it - one seat is answered, two or three seats are refused because the best rankings 1>2>3 and 1>3>2 differ there *)
Definition C05_kemeny_tied_tail : pvotes :=
  [((1%positive, 2%positive), 3); ((2%positive, 1%positive), 1);
   ((1%positive, 3%positive), 3); ((3%positive, 1%positive), 1);
   ((2%positive, 3%positive), 2); ((3%positive, 2%positive), 2)].
Example C05_kemeny_tied_tail_example :
  kemeny C05_kemeny_tied_tail 1 = CR_ok [Cand 1%positive] /\
  kemeny C05_kemeny_tied_tail 2 = CR_nie /\ kemeny C05_kemeny_tied_tail 3 = CR_nie.
Proof. vm_compute. auto. Qed.

(* Ranked pairs (all three pairwise scorers): the evaluator never refuses; its answer lists ALL candidates along the
   locked relation, which is a strict total order (every candidate precedes exactly those it is locked over) ... *)
Theorem C05_ranked_pairs_defining : forall (v : pvotes) s n, (2 <= length (candidates v))%nat ->
  exists ranking, ranked_pairs s v n = CR_ok (map Cand (firstn n ranking)) /\ Permutation ranking (candidates v) /\
    StronglySorted (fun a b => In (a, b) (lock_pairs (rp_pairs s v))) ranking.
Proof. intros v s n H2. exact (ranked_pairs_ranking v s H2 n). Qed.

(* ... where the pairs are taken by descending strength under the scorer and each is locked unless the pairs locked
   before it already lead from its loser to its winner *)
Theorem C05_ranked_pairs_lock : forall (v : pvotes) s,
  StronglySorted (fun p q => sc v s (fst q) (snd q) <= sc v s (fst p) (snd p)) (rp_pairs s v) /\
  (forall a b, In (a, b) (rp_pairs s v) <-> In a (candidates v) /\ In b (candidates v) /\ a <> b) /\
  (forall l1 a b l2, rp_pairs s v = l1 ++ (a, b) :: l2 -> a <> b -> ~ In (a, b) l1 -> ~ In (a, b) l2 ->
     (In (a, b) (lock_pairs (rp_pairs s v)) <-> ~ path (lock_pairs l1) b a)) /\
  (forall x, ~ path (lock_pairs (rp_pairs s v)) x x).
Proof.
  intros v s. split; [apply rp_pairs_sorted|]. split; [apply rp_pairs_in|]. split.
  - intros l1 a b l2 E. rewrite E. apply lock_spec.
  - apply lock_acyclic. intros a b H. apply rp_pairs_in in H. tauto.
Qed.

Theorem C05_cw_ranked_pairs : forall (v : pvotes) s c,
  (forall p n, In (p, n) v -> 0 <= n) -> (2 <= length (candidates v))%nat ->
  is_cw v c -> ranked_pairs s v 1 = CR_ok [Cand c].
Proof. intros v s c Hnn H2. exact (ranked_pairs_elects_cw v s H2 Hnn c). Qed.

Theorem C05_ranked_pairs_nobody_dropped : forall (v : pvotes) s, (2 <= length (candidates v))%nat ->
  exists r, ranked_pairs s v (length (candidates v)) = CR_ok r /\ forall x, In x (candidates v) -> In (Cand x) r.
Proof. intros v s H2. exact (ranked_pairs_nobody_dropped v s H2). Qed.

(* every conjunct of C05_cw_full_statement except the Schulze one *)
Theorem C05_cw_all_but_schulze : forall v c, well_formed v -> is_cw v c ->
  first_is (minimax WinningVotes v 1) c /\ first_is (minimax Margins v 1) c /\
  ranked_pairs WinningVotes v 1 = CR_ok [Cand c] /\ ranked_pairs Margins v 1 = CR_ok [Cand c] /\
  kemeny v 1 = CR_ok [Cand c].
Proof.
  intros v c (Hnd & Hnn & H2) Hcw.
  split; [exists []; apply C05_cw_minimax; auto; discriminate|].
  split; [exists []; apply C05_cw_minimax; auto; discriminate|].
  split; [apply C05_cw_ranked_pairs; assumption|]. split; [apply C05_cw_ranked_pairs; assumption|].
  apply C05_cw_kemeny; assumption.
Qed.

(* the Condorcet-winner clause in one statement *)
Theorem C05_cw_full : C05_cw_full_statement.
Proof.
  intros v c Hwf Hcw. destruct (C05_cw_full_schulze_minimax v c Hwf Hcw) as (Hs & _).
  split; [exact Hs|]. exact (C05_cw_all_but_schulze v c Hwf Hcw).
Qed.

(* non-vacuity: a profile with a Condorcet winner and a unique best ranking *)
Definition C05_kemeny_example : pvotes :=
  [((2%positive, 3%positive), 5); ((3%positive, 2%positive), 1);
   ((1%positive, 3%positive), 3); ((3%positive, 1%positive), 1);
   ((1%positive, 2%positive), 4); ((2%positive, 1%positive), 2)].
Example C05_kemeny_example_cw : is_cw C05_kemeny_example 1%positive /\
  kemeny C05_kemeny_example 1 = CR_ok [Cand 1%positive] /\
  kemeny C05_kemeny_example 3 = CR_ok [Cand 1%positive; Cand 2%positive; Cand 3%positive] /\
  ranked_pairs Margins C05_kemeny_example 3 = CR_ok [Cand 1%positive; Cand 2%positive; Cand 3%positive].
Proof.
  split; [|vm_compute; auto]. split; [vm_compute; tauto|]. intros x Hx Hne. vm_compute in Hx.
  destruct Hx as [<-|[<-|[<-|[]]]]; [vm_compute; reflexivity|vm_compute; reflexivity|congruence].
Qed.

(* Smith efficiency of Schulze, ranked pairs, Kemeny-Young;
   nobody dropped for Copeland (Proofs/SmithEff_proofs.v).  The Smith set is [smith_schwartz v true], the set SmithSet
   computes, proved in C06 to be the smallest dominating set. *)
From VL Require Import Proofs.SmithEff_proofs.

(* Schulze as votelib ranks it - by the NUMBER of path-wins (docs/C17.md) - is still Smith-efficient, whatever order the
   candidate set is iterated in: no beat-path leads from outside the Smith set into it, so a member path-beats every
   outsider and an outsider path-beats outsiders only; a member has at least |outside| path-wins, an outsider fewer. *)
Theorem C05_smith_schulze : forall (v : pvotes) (order : list C) (w : C),
  NoDup (map fst v) -> (forall p n, In (p, n) v -> 0 <= n) -> (2 <= length (candidates v))%nat ->
  schulze v order 1 = [Cand w] -> In w (smith_schwartz v true).
Proof. intros v order w Hnd Hnn H2. exact (schulze_in_smith v Hnd Hnn H2 order w). Qed.

(* the count argument itself: every member of the Smith set has strictly more path-wins than every other candidate *)
Theorem C05_smith_schulze_gap : forall (v : pvotes) (order : list C) (a x : C),
  NoDup (map fst v) -> (forall p n, In (p, n) v -> 0 <= n) -> (2 <= length (candidates v))%nat ->
  In a (smith_schwartz v true) -> In x (candidates v) -> ~ In x (smith_schwartz v true) ->
  (length (opponents (widest_paths v order) x) < length (opponents (widest_paths v order) a))%nat.
Proof. intros v order a x Hnd Hnn H2. exact (path_wins_gap v Hnd Hnn H2 order a x). Qed.

(* ranked pairs, ALL THREE scorers (pairwise opposition included: a pair that loses its contest is locked only along a
   path that exists already): no pair is ever locked from outside the Smith set into it, every member is locked over
   every outsider, and the head of the ranking lies in the Smith set *)
Theorem C05_smith_ranked_pairs : forall (v : pvotes) (s : scorer) (w : C),
  (forall p n, In (p, n) v -> 0 <= n) -> (2 <= length (candidates v))%nat ->
  ranked_pairs s v 1 = CR_ok [Cand w] -> In w (smith_schwartz v true).
Proof. intros v s w Hnn H2. exact (ranked_pairs_in_smith v s Hnn H2 w). Qed.

Theorem C05_smith_ranked_pairs_locked : forall (v : pvotes) (s : scorer) (a b : C),
  (forall p n, In (p, n) v -> 0 <= n) -> (2 <= length (candidates v))%nat ->
  In a (smith_schwartz v true) -> In b (candidates v) -> ~ In b (smith_schwartz v true) ->
  In (a, b) (lock_pairs (rp_pairs s v)).
Proof. intros v s a b Hnn H2. exact (rp_smith_locked v s Hnn H2 a b). Qed.

(* Kemeny-Young: in a best ranking an outsider never stands directly above a member of the Smith set (swapping them
   gains votes), so the members come first and the answer for one seat is a member - no hypothesis on the counts *)
Theorem C05_smith_kemeny : forall (v : pvotes) (w : C),
  (2 <= length (candidates v))%nat -> kemeny v 1 = CR_ok [Cand w] -> In w (smith_schwartz v true).
Proof. intros v w H2. exact (kemeny_in_smith v H2 w). Qed.

Theorem C05_smith_kemeny_order : forall (v : pvotes) (p l1 : list C) (x y : C) (l2 : list C),
  (2 <= length (candidates v))%nat -> kemeny_max v p -> p = l1 ++ x :: y :: l2 ->
  In y (smith_schwartz v true) -> In x (smith_schwartz v true).
Proof. intros v p l1 x y l2 H2. exact (kemeny_max_smith_first v H2 p l1 x y l2). Qed.

(* Copeland, raw and with second-order tie-breaking (both values of [so]): with as many seats as candidates every candidate is listed (as a plain
   entry: get_n_best returns no tie object then, so the second-order branch is not taken) *)
Theorem C05_copeland2_nobody_dropped : forall (v : pvotes) (so : bool) (x : C),
  NoDup (map fst v) -> (forall p n, In (p, n) v -> 0 <= n) ->
  In x (candidates v) -> In (Cand x) (copeland so v (length (candidates v))).
Proof. intros v so x Hnd Hnn. exact (copeland_nobody_dropped v so x Hnd Hnn). Qed.

(* the nobody-dropped clause in one statement *)
Theorem C05_nobody_dropped_full : C05_nobody_dropped_full_statement.
Proof.
  intros v x Hwf Hx n flat. destruct (C05_nobody_dropped_full_schulze_minimax v x Hwf Hx) as (Hs & Hm).
  destruct Hwf as (Hnd & Hnn & H2). split; [|split; [exact Hs|exact Hm]].
  apply in_flat_map. exists (Cand x). split; [|left; reflexivity]. exact (copeland_nobody_dropped v true x Hnd Hnn Hx).
Qed.

(* the same for a REPORTED TIE for the seat: whatever stands in the first place of the one-seat answer - the plain winner or
   every member of the tie object - lies in the Smith set; Copeland with and without second-order tie-breaking (the
   second-order scores are kept for the first-order leaders only), Schulze for every iteration order.  Ranked pairs and
   Kemeny-Young never answer with a tie object, so C05_smith_ranked_pairs / C05_smith_kemeny already cover every answer. *)
Theorem C05_smith_copeland_first : forall (v : pvotes) (so : bool),
  NoDup (map fst v) -> (forall p n, In (p, n) v -> 0 <= n) -> (2 <= length (candidates v))%nat ->
  incl (first_place (copeland so v 1)) (smith_schwartz v true).
Proof. intros v so Hnd Hnn H2. exact (copeland_first_in_smith v Hnd Hnn H2 so). Qed.

Theorem C05_smith_schulze_first : forall (v : pvotes) (order : list C),
  NoDup (map fst v) -> (forall p n, In (p, n) v -> 0 <= n) -> (2 <= length (candidates v))%nat ->
  incl (first_place (schulze v order 1)) (smith_schwartz v true).
Proof. intros v order Hnd Hnn H2. exact (schulze_first_in_smith v Hnd Hnn H2 order). Qed.

(* non-vacuity: five candidates, a three-candidate top cycle 1 > 2 > 3 > 1 over 4 and 5, no Condorcet winner; the Smith set is
   {1, 2, 3} and each method elects one of its members *)
Definition C05_smith_example : pvotes := mk_pv
  [(1, 2, 7); (2, 1, 4); (2, 3, 8); (3, 2, 3); (3, 1, 6); (1, 3, 5);
   (1, 4, 6); (4, 1, 5); (2, 4, 9); (4, 2, 2); (3, 4, 6); (4, 3, 5);
   (1, 5, 7); (5, 1, 4); (2, 5, 6); (5, 2, 5); (3, 5, 10); (5, 3, 1); (4, 5, 6); (5, 4, 5)].
Example C05_smith_example_runs :
  well_formed C05_smith_example /\ condorcet_winner C05_smith_example = [] /\
  smith_schwartz C05_smith_example true = [1%positive; 2%positive; 3%positive] /\
  schulze C05_smith_example (candidates C05_smith_example) 1 = [Cand 1%positive] /\
  ranked_pairs WinningVotes C05_smith_example 1 = CR_ok [Cand 1%positive] /\
  ranked_pairs Margins C05_smith_example 1 = CR_ok [Cand 1%positive] /\
  ranked_pairs PairwiseOpposition C05_smith_example 1 = CR_ok [Cand 1%positive] /\
  kemeny C05_smith_example 1 = CR_ok [Cand 1%positive] /\
  copeland true C05_smith_example 1 = [TieR [1%positive; 2%positive; 3%positive]] /\
  copeland true C05_smith_example 5 = [Cand 1%positive; Cand 2%positive; Cand 3%positive; Cand 4%positive; Cand 5%positive].
Proof.
  split; [split; [apply nodup_keys_b_sound; vm_compute; reflexivity|split; [apply nonneg_b_sound; vm_compute; reflexivity|vm_compute; lia]]|].
  vm_compute. repeat split; reflexivity.
Qed.

(* The Condorcet-runoff hybrids.
   Benham and Tideman alternative (votelib/evaluate/sequential.py; Model/Hybrids.v, proofs Proofs/Hybrids_proofs.v,
   Proofs/TidemanIndex_proofs.v, Proofs/HybridTiers_proofs.v) on ranked profiles with truncation and shared ranks, integer weights.
   [wf_votes]: no candidate twice on a ballot, no negative weight.  [pairwise] = RankedToCondorcetVotes(unranked_at_bottom=True),
   [subset_votes] = SubsettedVotes(RankedSubsetter).  Three flags say which repairs the modelled code has (false = as written on
   the pinned tree):
   [fx]  fixes/C05-hybrid-elimination-tie.diff  - a tie among the candidates to eliminate is refused instead of being used as a candidate;
   [sc]  fixes/C05-hybrid-single-candidate.diff - a candidate that stands alone is elected, a round without any pairwise contest
         has everybody in its winner set (instead of IndexError);
   [tr]  fixes/C05-tideman-tiers.diff           - the tiers of TidemanAlternative after the first run on the votes restricted to
         the still eligible candidates (instead of TypeError). *)
From VL Require Import Model.Convert Model.STV Model.Hybrids Proofs.Hybrids_proofs Proofs.ShapeElim_proofs Proofs.TidemanIndex_proofs Proofs.HybridTiers_proofs.
Close Scope nat_scope.
Open Scope Z_scope.

(* restricting the ballots to a set of candidates restricts the pairwise dictionary to that set: the counts between
   members of the set are unchanged, and nobody outside the set is left in the dictionary *)
Theorem C05_subset_restriction : forall (S : list C) (votes : rvotes) (a b : C),
  wf_votes votes = true -> In a S -> In b S ->
  pget0 (pairwise (subset_votes S votes)) (a, b) = pget0 (pairwise votes) (a, b).
Proof. exact subset_restriction. Qed.

Theorem C05_subset_candidates : forall (S : list C) (votes : rvotes) (x : C),
  In x (candidates (pairwise (subset_votes S votes))) -> In x S /\ In x (cands_of votes).
Proof. intros S votes x H. apply subset_cands. apply candidates_pairwise_in. exact H. Qed.

(* a Condorcet winner of the profile's pairwise dictionary is returned alone by both hybrids, whichever repairs the code has
   (no elimination round is entered: the Smith set is {c}) *)
Theorem C05_cw_benham : forall (fx sc : bool) (votes : rvotes) (c : C),
  wf_votes votes = true -> is_cw (pairwise votes) c -> benham fx sc votes = H_ok [Cand c].
Proof. exact cw_benham. Qed.

Theorem C05_cw_tideman : forall (fx sc tr : bool) (votes : rvotes) (c : C),
  wf_votes votes = true -> is_cw (pairwise votes) c -> tideman_alt fx sc tr votes 1 = H_ok [Cand c].
Proof. exact cw_tideman. Qed.

(* Smith containment.  Tideman alternative: whichever repairs the code has, for every seat count, the FIRST winner lies in
   the Smith set of the profile - after the first round only members of that set are left on the ballots *)
Theorem C05_smith_tideman : forall (fx sc tr : bool) (votes : rvotes) (n : nat) (c : C) (rest : list (res C)),
  wf_votes votes = true -> pairwise votes <> [] -> tideman_alt fx sc tr votes n = H_ok (Cand c :: rest) ->
  In c (smith_schwartz (pairwise votes) true).
Proof. exact smith_tideman. Qed.

(* ... and with all repairs the winner of EVERY tier lies in the Smith set of the candidates that are left: the i-th winner
   belongs to every dominating set D of the candidates not elected before it - D non-empty, every member of D beats every
   remaining candidate outside D in the pairwise dictionary of the ORIGINAL profile ([dominating], [remaining]: Proofs/HybridTiers_proofs.v);
   the Smith set is the smallest of these sets.  Candidates left without any pairwise contest among them are all undominated. *)
Theorem C05_smith_tideman_tiers : forall (votes : rvotes) (n : nat) (ws : list C) (i : nat) (w : C) (D : list C),
  wf_votes votes = true -> cands_of votes <> [] -> (1 <= n)%nat ->
  tideman_alt true true true votes n = H_ok (map Cand ws) -> nth_error ws i = Some w ->
  dominating (pairwise votes) (remaining (cands_of votes) (firstn i ws)) D -> In w D.
Proof.
  intros votes n ws i w D Hwf Hne Hn H Hi HD. destruct (tideman_tiers_smith votes n ws Hwf Hne Hn H) as (_ & _ & _ & Hs).
  exact (Hs i w Hi D HD).
Qed.

(* the model's own reading of the same fact for the first tier: the set get_winner_set computes *)
Theorem C05_tideman_first_in_winner_set : forall (fx sc tr : bool) (votes : rvotes) (n : nat) (c : C) (rest : list (res C)),
  wf_votes votes = true -> tideman_alt fx sc tr votes n = H_ok (Cand c :: rest) -> In c (winner_set sc votes).
Proof.
  intros fx sc tr votes n c rest Hwf H. destruct (tideman_first fx sc tr votes n _ H) as (w & rest' & E & Et). injection E as <- _.
  exact (tier_in_winner_set fx sc _ votes c Hwf Et).
Qed.

(* Benham: a plain winner lies in the Smith set of the original profile (invariant: a member of the Smith set is still on the
   ballots - if the only one left were eliminated it would beat everybody else left and be their Condorcet winner) *)
Definition C05_smith_benham_full_statement (fx sc : bool) : Prop :=
  forall (votes : rvotes) (c : C),
    wf_votes votes = true -> pairwise votes <> [] ->
    benham fx sc votes = H_ok [Cand c] -> In c (smith_schwartz (pairwise votes) true).

Theorem C05_smith_benham : forall sc : bool, C05_smith_benham_full_statement true sc.
Proof. intros sc votes c. exact (smith_benham sc votes c). Qed.

(* the pinned tree: B and A tie for the third place among A, B, C, D; the Tie object is no candidate, both are dropped at once,
   C beats D and wins although the Smith set is {A, B} (A = 1 ... E = 5; known finding C05-hybrid-elimination-tie) *)
Definition C05_benham_witness : rvotes :=
  [([IP 2%positive; IP 1%positive; IP 3%positive; IP 5%positive], 2); ([IP 1%positive; IP 2%positive], 2);
   ([IP 3%positive], 3); ([IP 4%positive], 3)].
Theorem C05_smith_benham_refuted : forall sc : bool, ~ C05_smith_benham_full_statement false sc.
Proof.
  intros sc H. specialize (H C05_benham_witness 3%positive).
  assert (Hin : In 3%positive (smith_schwartz (pairwise C05_benham_witness) true)).
  { apply H; [vm_compute; reflexivity|vm_compute; discriminate|destruct sc; vm_compute; reflexivity]. }
  vm_compute in Hin. destruct Hin as [Hin|[Hin|[]]]; discriminate Hin.
Qed.

(* a candidate that stands alone is elected by both hybrids (all repairs), however many seats are asked for; on the code
   without the repair both raise IndexError (C08_shape_hybrids_single_candidate_refuted) *)
Theorem C05_single_candidate : forall (votes : rvotes) (c : C), cands_of votes = [c] ->
  benham true true votes = H_ok [Cand c] /\ forall n, (1 <= n)%nat -> tideman_alt true true true votes n = H_ok [Cand c].
Proof.
  intros votes c E. pose proof (cands_single votes c E) as EK. split.
  - rewrite (benham_single true votes c EK). reflexivity.
  - intros n Hn. exact (tideman_single votes n c EK Hn).
Qed.

(* the repair for profiles without a pairwise contest changes no answer on a profile that has one (Tideman, one seat:
   every round of the tier keeps a contest, Proofs/TidemanIndex_proofs.v) resp. two candidates (Benham) *)
Theorem C05_single_candidate_repair_conservative : forall (tr : bool) (votes : rvotes),
  wf_votes votes = true -> pairwise votes <> [] ->
  tideman_alt true true tr votes 1 = tideman_alt true false tr votes 1 /\ benham true true votes = benham true false votes.
Proof.
  intros tr votes Hwf Hne. split; [exact (tideman_repair_conservative tr votes Hwf Hne)|].
  exact (benham_repair_conservative votes Hwf (arc_two votes Hwf Hne)).
Qed.

(* the fuel of the model's elimination / tier loops always suffices: every round removes at least one candidate from the ballots,
   every tier one from the eligible set *)
Theorem C05_hybrid_fuel : forall (fx sc tr : bool) (votes : rvotes) (n : nat),
  wf_votes votes = true -> benham fx sc votes <> H_fuel /\ tideman_alt fx sc tr votes n <> H_fuel.
Proof. intros fx sc tr votes n Hwf. split; [exact (benham_fuel fx sc votes Hwf)|exact (tideman_fuel fx sc tr votes n Hwf)]. Qed.

(* non-vacuity: a three-candidate cycle above a fourth candidate, no Condorcet winner; both hybrids go through an elimination
   round and elect a member of the Smith set {1, 2, 3}; with all repairs Tideman fills two, three, four (and "five") seats tier by
   tier (the second tier is the contest 2 > 3 > 4, the last one a single candidate); the witness of the refutation is repaired by
   the fix (refusal); {1, 2, 3} is a dominating set of the four candidates, {2} one of the three left after 1 is elected *)
Definition C05_hybrid_example : rvotes :=
  [([IP 1%positive; IP 2%positive; IP 3%positive; IP 4%positive], 4); ([IP 2%positive; IP 3%positive; IP 1%positive; IP 4%positive], 3);
   ([IP 3%positive; IP 1%positive; IS [2%positive; 4%positive]], 2)].
Example C05_hybrid_example_runs :
  wf_votes C05_hybrid_example = true /\ pairwise C05_hybrid_example <> [] /\
  condorcet_winner (pairwise C05_hybrid_example) = [] /\
  smith_schwartz (pairwise C05_hybrid_example) true = [1%positive; 2%positive; 3%positive] /\
  benham true true C05_hybrid_example = H_ok [Cand 1%positive] /\ benham false false C05_hybrid_example = H_ok [Cand 1%positive] /\
  tideman_alt true true true C05_hybrid_example 1 = H_ok [Cand 1%positive] /\
  tideman_alt true true true C05_hybrid_example 2 = H_ok [Cand 1%positive; Cand 2%positive] /\
  tideman_alt true true true C05_hybrid_example 4 = H_ok [Cand 1%positive; Cand 2%positive; Cand 3%positive; Cand 4%positive] /\
  tideman_alt true true true C05_hybrid_example 5 = H_ok [Cand 1%positive; Cand 2%positive; Cand 3%positive; Cand 4%positive] /\
  tideman_alt true false true C05_hybrid_example 4 = H_index /\ tideman_alt true true false C05_hybrid_example 2 = H_type /\
  benham true true C05_benham_witness = H_nie /\ benham false false C05_benham_witness = H_ok [Cand 3%positive] /\
  smith_schwartz (pairwise C05_benham_witness) true = [2%positive; 1%positive].
Proof. vm_compute. repeat split; try reflexivity. discriminate. Qed.

Example C05_hybrid_example_dominating :
  dominating (pairwise C05_hybrid_example) (remaining (cands_of C05_hybrid_example) []) [1%positive; 2%positive; 3%positive] /\
  dominating (pairwise C05_hybrid_example) (remaining (cands_of C05_hybrid_example) [1%positive]) [2%positive].
Proof.
  split; (split; [discriminate|split; [intros x Hx; vm_compute; vm_compute in Hx; tauto|]]); intros a b Ha Hb Hnb; vm_compute in Hb;
    repeat (destruct Ha as [<-|Ha]; [repeat (destruct Hb as [<-|Hb]; [try (vm_compute; reflexivity); exfalso; apply Hnb; cbn; tauto|]); destruct Hb|]); destruct Ha.
Qed.

Print Assumptions C05_cw_copeland.
Print Assumptions C05_copeland_score.
Print Assumptions C05_smith_copeland.
Print Assumptions C05_cw_minimax.
Print Assumptions C05_minimax_nobody_dropped.
Print Assumptions C05_cw_schulze.
Print Assumptions C05_schulze_nobody_dropped.
Print Assumptions C05_schulze_strongest_paths.
Print Assumptions C05_schulze_score.
Print Assumptions C05_schulze_path_win.
Print Assumptions C05_schulze_order_irrelevant.
Print Assumptions C05_cw_full_schulze_minimax.
Print Assumptions C05_nobody_dropped_full_schulze_minimax.
Print Assumptions C05_cw_kemeny.
Print Assumptions C05_kemeny_defining.
Print Assumptions C05_kemeny_answers.
Print Assumptions C05_kemeny_refusal.
Print Assumptions C05_kemeny_nobody_dropped.
Print Assumptions C05_permutations.
Print Assumptions C05_ranked_pairs_defining.
Print Assumptions C05_ranked_pairs_lock.
Print Assumptions C05_cw_ranked_pairs.
Print Assumptions C05_ranked_pairs_nobody_dropped.
Print Assumptions C05_cw_all_but_schulze.
Print Assumptions C05_cw_full.
Print Assumptions C05_smith_schulze.
Print Assumptions C05_smith_schulze_gap.
Print Assumptions C05_smith_ranked_pairs.
Print Assumptions C05_smith_ranked_pairs_locked.
Print Assumptions C05_smith_kemeny.
Print Assumptions C05_smith_kemeny_order.
Print Assumptions C05_copeland2_nobody_dropped.
Print Assumptions C05_nobody_dropped_full.
Print Assumptions C05_smith_copeland_first.
Print Assumptions C05_smith_schulze_first.
Print Assumptions C05_subset_restriction.
Print Assumptions C05_subset_candidates.
Print Assumptions C05_cw_benham.
Print Assumptions C05_cw_tideman.
Print Assumptions C05_smith_tideman.
Print Assumptions C05_smith_tideman_tiers.
Print Assumptions C05_tideman_first_in_winner_set.
Print Assumptions C05_smith_benham.
Print Assumptions C05_smith_benham_refuted.
Print Assumptions C05_single_candidate.
Print Assumptions C05_single_candidate_repair_conservative.
Print Assumptions C05_hybrid_fuel.
