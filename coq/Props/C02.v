(* C02 - Largest remainder: whole quotas first, then largest exact remainders.
   This file holds the property theorems, the definitions their statements need and examples of non-vacuity.
   Models: Model/Quota.v, Model/QuotaDistributor.v; proofs: Proofs/QD_proofs.v, Proofs/QD2_proofs.v,
   Proofs/QDCaps_proofs.v, Proofs/QDOrder_proofs.v, Proofs/LRMono_proofs.v, Proofs/GetNBest_proofs.v; the generated quota
   functions: Props/GenTie_Quota.v.

   The model is the library WITH fixes/C02-capbranch.diff and fixes/C02-lr-caps.diff: whole quotas
   are cut at the cap (no cap unless one is given), LargestRemainder passes the caps to the quota
   stage.  The capped clause is a theorem for every input (C02_caps, C02_lr_caps, C02_lr_caps_total);
   the theorems stated on the domain where no whole-quota count exceeds a cap (no_overshoot)
   follow from the general ones.  The code as written on the pinned tree stays expressible
   (qd_evaluate_at / lr_evaluate_at false) and the capped statements are REFUTED of it
   (C02_caps_refuted, C02_lr_caps_refuted; C02_default_cap_refuted evaluates both codes on a witness without caps). *)
From Coq Require Import ZArith QArith Qround List Permutation.
From VL Require Import Prelude.PyDict Model.GetNBest Model.Quota Model.QuotaDistributor
     Proofs.GetNBest_proofs Proofs.QOrd Proofs.QD_proofs Proofs.QD2_proofs Proofs.QDOrder_proofs Proofs.LRMono_proofs
     Proofs.QDCaps_proofs.
Import ListNotations.
Open Scope Z_scope.

(* the named quota rules of the model return their textbook values; that the functions GENERATED from quota.py are these model
   functions - hence return the same values - is Props/GenTie_Quota.v (GenTie_Quota, C02_quota_values_generated), an obligation of
   this property as long as the translator accepts the source (otherwise the dense-grid correspondence stands in, DESIGN.md 2.1).
   Kept apart so that a source rewrite the translator cannot read does not take the theorems below with it. *)
Theorem C02_quota_values : forall v s, 0 <= v -> 1 <= s ->
  let V := inject_Z v in
  (hare V s == V / inject_Z s)%Q /\
  (hare_rounded V s == inject_Z (Qfloor (V / inject_Z s + (1 # 2))))%Q /\
  (droop V s == inject_Z (Qfloor (V / inject_Z (s + 1))) + 1)%Q /\
  (hagenbach_bischoff V s == V / inject_Z (s + 1))%Q /\
  (hagenbach_bischoff_ceil V s == inject_Z (Qceiling (V / inject_Z (s + 1))))%Q /\
  (hagenbach_bischoff_rounded V s == inject_Z (Qfloor (V / inject_Z (s + 1) + (1 # 2))))%Q /\
  (imperiali V s == V / inject_Z (s + 2))%Q.
Proof. intros v s Hv Hs V. repeat split; reflexivity. Qed.

Section C02.
  Variable quota : Q -> Z -> Q.
  Variable accept_equal : bool.
  Variable pol : policy.

  (* whole quotas (int(v/q) - prev when positive, equality counting iff accept_equal)
     and the three over-award policies *)
  Theorem C02_whole_quotas_and_policies : forall votes n prev caps,
    let q := quota (qsumv votes) n in
    ~ (q == 0)%Q -> NoDup (map fst votes) -> no_overshoot accept_equal votes q n prev caps ->
    exists sel,
      (forall c v, In (c, v) votes -> dget_or sel c 0 = whole_add accept_equal q prev c v) /\
      (forall c, ~ In c (map fst votes) -> dget_or sel c 0 = 0) /\
      (forall c s, In (c, s) sel -> 0 < s) /\
      qd_evaluate quota accept_equal pol votes n prev caps =
        (if n <? zsumv sel + zsumv prev then
           match pol with
           | PIgnore => QD_ok (plain sel)
           | PError => QD_vse
           | PSubtract => subtract (Z.to_nat (zsumv sel + zsumv prev - n)) votes q prev sel
                                   (zsumv sel + zsumv prev - n)
           end
         else QD_ok (plain sel)).
  Proof. exact (qd_whole_quotas quota accept_equal pol). Qed.

  (* the same for every input, caps included: each party is awarded min(int(v/q), cap) - prev when positive
     (cap_add), then the over-award policy is applied to the total *)
  Theorem C02_capped_quotas_and_policies : forall votes n prev caps,
    let q := quota (qsumv votes) n in
    ~ (q == 0)%Q -> NoDup (map fst votes) ->
    exists sel,
      (forall c v, In (c, v) votes -> dget_or sel c 0 = cap_add accept_equal q prev caps c v) /\
      (forall c, ~ In c (map fst votes) -> dget_or sel c 0 = 0) /\
      (forall c s, In (c, s) sel -> 0 < s /\ In c (map fst votes)) /\
      qd_evaluate quota accept_equal pol votes n prev caps =
        (if n <? zsumv sel + zsumv prev then
           match pol with
           | PIgnore => QD_ok (plain sel)
           | PError => QD_vse
           | PSubtract => subtract (Z.to_nat (zsumv sel + zsumv prev - n)) votes q prev sel
                                   (zsumv sel + zsumv prev - n)
           end
         else QD_ok (plain sel)).
  Proof. exact (qd_capped_quotas quota accept_equal pol). Qed.

  (* int() is the floor on the non-negative ratios that occur *)
  Theorem C02_whole_is_floor : forall x : Q, (0 <= x)%Q -> py_trunc x = Qfloor x.
  Proof. exact py_trunc_floor. Qed.

  (* LargestRemainder = quota seats + get_n_best over the exact remainders v/q - gained *)
  Theorem C02_lr_structure : forall votes n prev caps sel,
    let q := quota (qsumv votes) n in
    ~ (q == 0)%Q ->
    qd_evaluate quota accept_equal pol votes n prev caps = QD_ok (plain sel) ->
    let gained := add_dict sel prev in
    let nrem := n - zsumv gained in
    lr_evaluate quota accept_equal pol votes n prev caps =
      if nrem <=? 0 then LR_ok (plain sel)
      else LR_ok (seat_best (plain sel)
                   (get_n_best Qle_bool (remainders votes q gained caps) (Z.to_nat nrem))).
  Proof. exact (lr_structure quota accept_equal pol). Qed.

  (* ... so the further seats go to the largest exact remainders, equal remainders
     at the cut being one tie object: the C09 theorems at the remainder map *)
  Theorem C02_remainder_seats : forall (rems : list (C * Q)) k, (1 <= k)%nat ->
    let r := get_n_best Qle_bool rems k in
    (length rems <= k ->
       exists s, Permutation s rems /\ @sorted_desc C Q Qle_bool s /\ r = map (fun it => Cand (fst it)) s)%nat /\
    (k < length rems ->
       exists above level below thr,
         Permutation (above ++ level ++ below) rems /\
         @sorted_desc C Q Qle_bool above /\
         Forall (fun it => ltb Qle_bool thr (snd it) = true) above /\
         Forall (fun it => eqv Qle_bool (snd it) thr = true) level /\
         Forall (fun it => ltb Qle_bool (snd it) thr = true) below /\
         length above < k <= length above + length level /\
         (length above + length level = k -> r = map (fun it => Cand (fst it)) (above ++ level)) /\
         (k < length above + length level ->
            r = map (fun it => Cand (fst it)) above ++ repeat (TieR (map fst level)) (k - length above)))%nat.
  Proof. exact (get_n_best_spec Qle_bool Qle_bool_total Qle_bool_trans). Qed.

  (* at most one further seat per party *)
  Theorem C02_at_most_one : forall votes q gained caps k, (1 <= k)%nat -> NoDup (map fst votes) ->
    NoDup (flat_map (fun r => match r with Cand c => [c] | TieR _ => [] end)
             (get_n_best Qle_bool (remainders votes q gained caps) k)).
  Proof. exact lr_at_most_one. Qed.

  (* the total equals the seats to fill when the open seats do not outnumber the eligible parties *)
  Theorem C02_lr_total : forall votes q gained caps sel nrem,
    0 < nrem -> (Z.to_nat nrem <= length (remainders votes q gained caps))%nat ->
    ksum (seat_best (plain sel) (get_n_best Qle_bool (remainders votes q gained caps) (Z.to_nat nrem)))
    = ksum (plain sel) + nrem.
  Proof. exact lr_total. Qed.
End C02.

(* on_overaward = 'subtract': the whole loop.
   _subtract_overaward keeps going after a tie: the Tie object becomes a key of `selected` (holding one seat fewer
   than it has members) and takes part in the following rounds with no votes and no previous gains.  The model
   covers this (ksubtract, Model/QuotaDistributor.v); the loop on a plain dictionary is the same loop: *)
Theorem C02_subtract_one_loop : forall votes q prev fuel sel over,
  subtract fuel votes q prev sel over = ksubtract fuel votes q prev (plain sel) over.
Proof. exact subtract_is_ksubtract. Qed.

(* every round withdraws exactly one seat (a tie of m parties: each loses one, the Tie key gains m - 1), whatever the
   keys: a finished loop leaves total - overaward seats *)
Theorem C02_subtract_total : forall votes q prev fuel sel over res,
  NoDup (keys sel) -> 0 <= over ->
  ksubtract fuel votes q prev sel over = QD_ok res -> ksum res = ksum sel - over.
Proof. exact ksubtract_total. Qed.

(* the only shape left unmodelled - a Tie key tied with another key (a Tie of a Tie) - cannot arise when the quota
   is positive and every party's seats plus previous gains are whole quotas contained in its votes: a Tie key then
   holds a positive remainder, every party a non-positive one, and there is never more than one Tie key *)
Theorem C02_subtract_modelled : forall votes q prev, (0 < q)%Q -> forall fuel sel over,
  NoDup (map fst sel) ->
  (forall c s, In (c, s) sel -> (q * inject_Z (s + dget_or prev c 0)%Z <= dget_or votes c 0%Q)%Q) ->
  subtract fuel votes q prev sel over <> QD_unmodelled.
Proof. intros votes q prev Hq fuel sel over. exact (subtract_modelled votes q prev Hq fuel sel over). Qed.

(* QuotaDistributor with on_overaward = 'subtract' on the uncapped domain, positive quota: never unmodelled, and the
   seats awarded plus the previous gains are the seats to fill whenever the whole quotas over-award (their own total
   otherwise) *)
Theorem C02_subtract_policy : forall quota accept_equal votes n prev caps,
  let q := quota (qsumv votes) n in
  (0 < q)%Q -> NoDup (map fst votes) -> no_overshoot accept_equal votes q n prev caps ->
  qd_evaluate quota accept_equal PSubtract votes n prev caps <> QD_unmodelled /\
  exists sel,
    (forall c v, In (c, v) votes -> dget_or sel c 0 = whole_add accept_equal q prev c v) /\
    (forall c, ~ In c (map fst votes) -> dget_or sel c 0 = 0) /\
    forall res, qd_evaluate quota accept_equal PSubtract votes n prev caps = QD_ok res ->
      ksum res + zsumv prev = Z.min n (zsumv sel + zsumv prev).
Proof. exact qd_subtract_domain. Qed.

(* ... and with any caps (positive quota, distinct parties) *)
Theorem C02_subtract_policy_capped : forall quota accept_equal votes n prev caps,
  let q := quota (qsumv votes) n in
  (0 < q)%Q -> NoDup (map fst votes) ->
  qd_evaluate quota accept_equal PSubtract votes n prev caps <> QD_unmodelled /\
  exists sel,
    (forall c v, In (c, v) votes -> dget_or sel c 0 = cap_add accept_equal q prev caps c v) /\
    (forall c, ~ In c (map fst votes) -> dget_or sel c 0 = 0) /\
    forall res, qd_evaluate quota accept_equal PSubtract votes n prev caps = QD_ok res ->
      ksum res + zsumv prev = Z.min n (zsumv sel + zsumv prev).
Proof. exact qd_subtract_capped. Qed.

(* the branch, on inputs replayed on the implementation (corpus/C02/subtract-after-tie-*.json): quota 10, two parties
   on 30 votes, 4 seats: both tie for the first withdrawal, the Tie key is withdrawn next - {A: 2, B: 2};
   three parties on 30 votes, 5 seats: {A: 1, B: 1, C: 1, Tie{A,B,C}: 2} *)
Example C02_subtract_after_tie :
  qd_evaluate (fun _ _ => 10#1)%Q true PSubtract [(1%positive, 30#1); (2%positive, 30#1)]%Q 4 [] []
    = QD_ok [(K 1%positive, 2); (K 2%positive, 2)] /\
  qd_evaluate (fun _ _ => 10#1)%Q true PSubtract [(1%positive, 30#1); (2%positive, 30#1); (3%positive, 30#1)]%Q 5 [] []
    = QD_ok [(K 1%positive, 1); (K 2%positive, 1); (K 3%positive, 1); (KT [1%positive; 2%positive; 3%positive], 2)].
Proof. split; vm_compute; reflexivity. Qed.

(* The capped clause, for every input.
   held ae q prev caps c v = max(prev[c], min(whole quotas of v, cap[c]))  - the seats a party holds after the whole-quota
   stage, previous gains included; held_total = their sum (plus the previous gains of parties without votes);
   below_cap = the parties that may still take a seat (Proofs/QDCaps_proofs.v).  [fixed] selects the modelled code:
   true = with fixes/C02-capbranch.diff + fixes/C02-lr-caps.diff, false = the pinned tree. *)
Definition C02_caps_full_statement_at (fixed : bool) : Prop :=
  forall quota ae pol votes n prev caps sel,
    NoDup (map fst votes) -> Forall (fun cs : C * Z => 0 <= snd cs) prev ->
    qd_evaluate_at quota ae pol fixed votes n prev caps = QD_ok sel ->
    let q := quota (qsumv votes) n in
    (* caps are never exceeded *)
    (forall c m, dget caps c = Some m -> dget_or prev c 0 <= m -> kdget sel c + dget_or prev c 0 <= m) /\
    (* nobody holds more than the whole quotas in its votes, cut at its cap; parties without votes get nothing *)
    (forall c v, In (c, v) votes -> kdget sel c + dget_or prev c 0 <= held ae q prev caps c v) /\
    (forall c, ~ In c (map fst votes) -> kdget sel c = 0) /\
    (* unless on_overaward = 'subtract' has to withdraw seats, everybody holds exactly that: a party whose whole quotas
       reach its cap is held at the cap, every other party receives its whole quotas *)
    ((pol = PSubtract -> held_total ae q prev caps votes <= n) ->
       forall c v, In (c, v) votes -> kdget sel c + dget_or prev c 0 = held ae q prev caps c v).
Definition C02_caps_full_statement : Prop := C02_caps_full_statement_at true.

Theorem C02_caps : C02_caps_full_statement.
Proof.
  unfold C02_caps_full_statement, C02_caps_full_statement_at, qd_evaluate_at.
  intros quota ae pol votes n prev caps sel Hnd Hp Hr. exact (qd_caps quota ae pol votes n prev caps sel Hnd Hp Hr).
Qed.

(* the pinned tree: a party capped at 2 with 3 whole quotas is reset to 0 seats *)
Theorem C02_caps_refuted : ~ C02_caps_full_statement_at false.
Proof.
  intros H.
  destruct (H droop true PError [(1%positive, 60#1); (2%positive, 30#1); (3%positive, 10#1)]%Q 5 []
              [(1%positive, 2)] [(K 1%positive, 0); (K 2%positive, 2)]) as (_ & _ & _ & H4).
  - repeat constructor; simpl; intuition discriminate.
  - constructor.
  - vm_compute. reflexivity.
  - specialize (H4 (fun E => match E with eq_refl => I end) 1%positive (60#1)%Q (or_introl eq_refl)).
    vm_compute in H4. discriminate.
Qed.

(* the pinned tree enters the same branch without any cap (default cap n_seats): a single party with 5 Imperiali quotas
   and 3 seats, on_overaward = 'ignore', ends with 0 seats instead of keeping the surplus *)
Theorem C02_default_cap_refuted :
  qd_evaluate_at imperiali true PIgnore false [(1%positive, 15#1)]%Q 3 [] [] = QD_ok [(K 1%positive, 0)] /\
  qd_evaluate_at imperiali true PIgnore true [(1%positive, 15#1)]%Q 3 [] [] = QD_ok [(K 1%positive, 5)] /\
  held true (imperiali (15#1) 3) [] [] 1%positive (15#1)%Q = 5.
Proof. repeat split; vm_compute; reflexivity. Qed.

(* LargestRemainder: kposs = the seats under the party's key plus one if the party is a member of a tie object *)
Definition C02_lr_caps_full_statement_at (fixed : bool) : Prop :=
  forall quota ae pol votes n prev caps sel,
    NoDup (map fst votes) -> NoDup (map fst prev) -> Forall (fun cs : C * Z => 0 <= snd cs) prev ->
    lr_evaluate_at quota ae pol fixed votes n prev caps = LR_ok sel ->
    let q := quota (qsumv votes) n in
    (* caps are never exceeded, a seat that may come through a tie object included *)
    (forall c m, dget caps c = Some m -> dget_or prev c 0 <= m -> kposs sel c + dget_or prev c 0 <= m) /\
    (forall c, ~ In c (map fst votes) -> kposs sel c = 0) /\
    (* unless seats are withdrawn: at least the whole quotas cut at the cap, at most one further seat *)
    ((pol = PSubtract -> held_total ae q prev caps votes <= n) ->
       forall c v, In (c, v) votes ->
         held ae q prev caps c v <= kdget sel c + dget_or prev c 0 /\
         kposs sel c + dget_or prev c 0 <= held ae q prev caps c v + 1) /\
    (* the total: every open seat is filled as long as parties below their caps remain *)
    (held_total ae q prev caps votes <= n ->
       ksum sel + zsumv prev =
         held_total ae q prev caps votes
         + Z.min (n - held_total ae q prev caps votes) (Z.of_nat (length (filter (below_cap ae q prev caps) votes)))).
Definition C02_lr_caps_full_statement : Prop := C02_lr_caps_full_statement_at true.

Theorem C02_lr_caps : C02_lr_caps_full_statement.
Proof.
  unfold C02_lr_caps_full_statement, C02_lr_caps_full_statement_at, lr_evaluate_at.
  intros quota ae pol votes n prev caps sel Hnd Hpn Hp Hr. exact (lr_caps quota ae pol votes n prev caps sel Hnd Hpn Hp Hr).
Qed.

(* "the total is unchanged": with caps the house is still filled exactly whenever the open seats do not outnumber the
   parties that may take one *)
Theorem C02_lr_caps_total : forall quota ae pol votes n prev caps sel,
  NoDup (map fst votes) -> NoDup (map fst prev) -> Forall (fun cs : C * Z => 0 <= snd cs) prev ->
  lr_evaluate quota ae pol votes n prev caps = LR_ok sel ->
  let q := quota (qsumv votes) n in
  held_total ae q prev caps votes <= n ->
  n - held_total ae q prev caps votes <= Z.of_nat (length (filter (below_cap ae q prev caps) votes)) ->
  ksum sel + zsumv prev = n.
Proof.
  intros quota ae pol votes n prev caps sel Hnd Hpn Hp Hr q Hle Hopen.
  destruct (lr_caps quota ae pol votes n prev caps sel Hnd Hpn Hp Hr) as (_ & _ & _ & H4). fold q in H4.
  rewrite (H4 Hle). rewrite Z.min_l by exact Hopen. ring.
Qed.

(* the pinned tree: LargestRemainder never passes max_seats to the quota stage: a party capped at 2 ends with 3 *)
Example C02_lr_caps_pinned_example :
  lr_evaluate_at droop true PError false [(1%positive, 60#1); (2%positive, 30#1); (3%positive, 10#1)]%Q 5 []
              [(1%positive, 2)]
  = LR_ok [(K 1%positive, 3); (K 2%positive, 2)].
Proof. vm_compute. reflexivity. Qed.

Theorem C02_lr_caps_refuted : ~ C02_lr_caps_full_statement_at false.
Proof.
  intros H.
  destruct (H droop true PError [(1%positive, 60#1); (2%positive, 30#1); (3%positive, 10#1)]%Q 5 []
              [(1%positive, 2)] [(K 1%positive, 3); (K 2%positive, 2)]) as (H1 & _).
  - repeat constructor; simpl; intuition discriminate.
  - constructor.
  - constructor.
  - vm_compute. reflexivity.
  - specialize (H1 1%positive 2 eq_refl). vm_compute in H1. apply H1; [intros E; inversion E|reflexivity].
Qed.

(* the repaired code on the same inputs: the capped party is held at 2, the seat it cannot take goes to the largest remainder;
   whole quotas above the house are judged by the over-award policy (pinned tree: ZeroDivisionError from the cap branch) *)
Example C02_caps_example :
  qd_evaluate droop true PError [(1%positive, 60#1); (2%positive, 30#1); (3%positive, 10#1)]%Q 5 [] [(1%positive, 2)]
    = QD_ok [(K 1%positive, 2); (K 2%positive, 1)] /\
  lr_evaluate droop true PError [(1%positive, 60#1); (2%positive, 30#1); (3%positive, 10#1)]%Q 5 [] [(1%positive, 2)]
    = LR_ok [(K 1%positive, 2); (K 2%positive, 2); (K 3%positive, 1)] /\
  lr_evaluate_at hagenbach_bischoff true PError false [(1%positive, 0#1); (3%positive, 0#1); (2%positive, 0#1); (4%positive, 18#1)]%Q 2 [] []
    = LR_err QD_zerodiv /\
  lr_evaluate_at hagenbach_bischoff true PError true [(1%positive, 0#1); (3%positive, 0#1); (2%positive, 0#1); (4%positive, 18#1)]%Q 2 [] []
    = LR_err QD_vse.
Proof. repeat split; vm_compute; reflexivity. Qed.

(* non-vacuity of the hypotheses of C02_lr_caps_total on an input whose cap binds: 3 seats held after the whole quotas
   (party 1 cut from 3 to 2), 2 open seats, 2 parties below their caps: the house of 5 is filled *)
Example C02_lr_caps_total_example :
  let votes := [(1%positive, 60#1); (2%positive, 30#1); (3%positive, 10#1)]%Q in
  let q := droop (qsumv votes) 5 in
  held_total true q [] [(1%positive, 2)] votes = 3 /\
  length (filter (below_cap true q [] [(1%positive, 2)]) votes) = 2%nat /\
  whole_q true q (60#1)%Q = 3.
Proof. repeat split; vm_compute; reflexivity. Qed.

(* non-vacuity of the positive domain *)
Example C02_example :
  lr_evaluate hare true PError [(1%positive, 60#1); (2%positive, 30#1); (3%positive, 10#1)]%Q 5 [] []
  = LR_ok [(K 1%positive, 3); (K 2%positive, 1); (KT [2%positive; 3%positive], 1)].
Proof. vm_compute. reflexivity. Qed.

Print Assumptions C02_quota_values.
Print Assumptions C02_whole_quotas_and_policies.
Print Assumptions C02_whole_is_floor.
Print Assumptions C02_lr_structure.
Print Assumptions C02_remainder_seats.
Print Assumptions C02_at_most_one.
Print Assumptions C02_lr_total.
Print Assumptions C02_capped_quotas_and_policies.
Print Assumptions C02_caps.
Print Assumptions C02_caps_refuted.
Print Assumptions C02_default_cap_refuted.
Print Assumptions C02_lr_caps.
Print Assumptions C02_lr_caps_total.
Print Assumptions C02_lr_caps_refuted.
Print Assumptions C02_subtract_policy_capped.
Print Assumptions C02_subtract_one_loop.
Print Assumptions C02_subtract_total.
Print Assumptions C02_subtract_modelled.
Print Assumptions C02_subtract_policy.
