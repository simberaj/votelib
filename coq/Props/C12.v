(* C12 - Approval and score family evaluators match their defining optimisation.
   This file holds the property theorems and examples of non-vacuity.  Models: Model/Cardinal.v, Model/Star.v,
   Model/AllocScore.v; proofs: Proofs/Cardinal_proofs.v, Proofs/MJ_proofs.v, Proofs/JR_proofs.v, Proofs/MJ_seats_proofs.v,
   Proofs/Star_seats_proofs.v, Proofs/AllocScore_proofs.v and the files imported below.

   Proved for every approval profile / every seat count: the PAV committee is the unique maximiser
   of the harmonic satisfaction over ALL n-subsets (the itertools.combinations scan is complete
   and sound); every SPAV round elects the strictly best reweighted candidate; score voting and
   majority judgment rank through get_n_best of the exact aggregate (so the C09 theorems apply).
   Majority judgment (every seat count, both tie-breakers): whoever is elected has a (lower) median at
   least that of whoever is not; single seat: the plus tie-break elects the member of the tie with strictly
   the most scores at or above the shared median, the default tie-break elects the strict leader after
   rounds of median removal among the candidates still level, and the winner never falls behind on the way
   (C12_mj_tiebreak_documented; the pinned tree keeps the candidates that fell behind in the loop - repaired,
   fixes/C12-mj-default-reentry.diff).
   Justified representation of the PAV committee for weighted ballots: C12_pav_jr (Aziz et al. 2017 swap
   argument; the sharper bound weight * (n+1) <= total is C12_pav_jr_bound).
   STAR (Model/Star.v, default configuration), one seat, two untied finalists: the winner is one of the two top
   scorers and strictly more ballot weight places it above the other finalist (C12_star_runoff); other run-off
   sizes are modelled and compared with the code only.
   Allocated score (Model/AllocScore.v: AllocatedScoreDistributor / AllocatedScoreSelector as coded): every round
   without a tie elects the candidate with strictly the greatest weighted score sum among the candidates still
   scored (in the selector nobody who holds a seat is), and takes exactly min(quota, weight of its supporters)
   from its strongest supporters first (C12_alloc_strongest_first, C12_alloc_round, C12_alloc_every_round,
   C12_alloc_select_round); the subtraction loop raises ValueError exactly when a ballot is empty or every ballot
   supports the winner and they weigh less than the quota (C12_alloc_*_refuted: ordinary elections crash; ties are
   resolved by set iteration order, or one tie entry stands for several seats). *)
From Coq Require Import ZArith QArith Qminmax List.
From VL Require Import Prelude.PyDict Model.GetNBest Model.Convert Model.Cardinal Proofs.Cardinal_proofs
     Proofs.MJ_proofs Proofs.JR_proofs Model.Condorcet Model.Star Proofs.Star_proofs
     Model.Quota Model.AllocScore Proofs.AllocScore_proofs Proofs.MJ_removal_proofs Proofs.MJ_seats_proofs Proofs.Shape2_proofs Proofs.Star_seats_proofs Proofs.ScoreDict_proofs Proofs.Truncation_proofs
     Proofs.Repair_proofs Proofs.TruncRepair_proofs Proofs.MJ_repair_proofs Proofs.AllocRepair_proofs.
From Coq Require Import Permutation.
Import ListNotations.
Close Scope Q_scope.
Close Scope Z_scope.

Theorem C12_combinations_complete : forall l n s, subseq s l -> length s = n -> In s (combos l n).
Proof. exact combos_complete. Qed.
Theorem C12_combinations_sound : forall l n s, In s (combos l n) -> subseq s l /\ length s = n.
Proof. exact combos_sound. Qed.

Theorem C12_pav_optimal : forall votes cands n alt,
  pav_best votes cands n = [alt] ->
  In alt (combos cands n) /\
  forall s, subseq s cands -> length s = n ->
    (satisfaction votes s <= satisfaction votes alt)%Q /\
    ((satisfaction votes s == satisfaction votes alt)%Q -> s = alt).
Proof. exact pav_best_optimal. Qed.

(* pav answers exactly when the maximiser is unique, and refuses otherwise *)
Theorem C12_pav_refusal : forall votes n,
  pav votes n = AR_nie <-> (forall alt, pav_best votes (canon_set (flat_map fst votes)) n <> [alt]).
Proof.
  intros votes n. unfold pav. destruct (pav_best votes (canon_set (flat_map fst votes)) n) as [|a [|b t]].
  - split; [intros _ alt H; discriminate|reflexivity].
  - split; [discriminate|intros H; exfalso; apply (H a); reflexivity].
  - split; [intros _ alt H; discriminate|reflexivity].
Qed.

Theorem C12_spav_round : forall votes elected c rest,
  get_n_best Qle_bool (spav_round votes elected) 1 = Cand c :: rest ->
  rest = [] /\ exists v, In (c, v) (spav_round votes elected) /\
    forall c' v', In (c', v') (spav_round votes elected) -> c' <> c -> (v' < v)%Q.
Proof. exact spav_round_argmax. Qed.

Theorem C12_spav_extends : forall votes fuel n elected r,
  spav_loop fuel votes n elected = Some r -> exists added, r = elected ++ added.
Proof. intros votes. exact (spav_round_rule votes). Qed.

(* score voting = top-n of the exact aggregate *)
Theorem C12_score_rank : forall cf votes n agg,
  score_to_simple cf votes = inl agg -> score_voting cf votes n = inl (get_n_best Qle_bool agg n).
Proof. intros cf votes n agg H. unfold score_voting. rewrite H. reflexivity. Qed.

Example C12_example :
  pav [([1%positive; 2%positive], 3#1); ([3%positive], 2#1)]%Q 2 = AR_ok [Cand 1%positive; Cand 2%positive] \/
  pav [([1%positive; 2%positive], 3#1); ([3%positive], 2#1)]%Q 2 = AR_nie.
Proof. vm_compute. right. reflexivity. Qed.

(* Majority judgment: the elected candidates have the highest (lower) medians.
   [med] is the exact lower median of every candidate's corrected scores; nobody who is not elected has a
   higher median than somebody who is (any seat count, either tie-breaker, ties left in the answer included) *)
Theorem C12_mj_highest_median : forall plus cf votes n sc med r,
  1 <= n ->
  corrected_scores cf votes = inl sc -> aggregate FMedianLow sc = inl med ->
  majority_judgment plus cf votes n = inl r ->
  forall c, In (Cand c) r ->
    exists vc, In (c, vc) med /\
      forall c' vc', In (c', vc') med -> ~ In (Cand c') r -> (vc' <= vc)%Q.
Proof. exact mj_highest_median. Qed.

(* single seat: the winner's median is the highest of all *)
Theorem C12_mj_single_highest_median : forall plus cf votes sc med c,
  corrected_scores cf votes = inl sc -> aggregate FMedianLow sc = inl med ->
  majority_judgment plus cf votes 1 = inl [Cand c] ->
  exists vc, In (c, vc) med /\ forall c' vc', In (c', vc') med -> (vc' <= vc)%Q.
Proof. exact mj_single_highest_median. Qed.

(* equal medians, single seat.
   plus ("the highest amount of scores higher or equal to the median"): every other candidate with the same
   median has strictly fewer scores at or above it.
   default ("removes median scores from tied candidates until the median of the remaining scores differs among
   them, and then selects the one with the highest new median score"): either the winner leads outright, or it
   is the strict leader of the medians in the last state of the removal rounds [mj_rounds].  One round
   [mj_round]: the candidates T sharing the highest median stay, everybody else leaves the contest, and
   mj_ch >= 1 copies of the current median grade are removed from each of T (C12_mj_round_level,
   C12_mj_round_removes). *)
Theorem C12_mj_tiebreak : forall cf votes sc med c,
  corrected_scores cf votes = inl sc -> aggregate FMedianLow sc = inl med ->
  (majority_judgment true cf votes 1 = inl [Cand c] ->
     forall vc d c' vc' d', In (c, vc) med -> In (c, d) sc ->
       In (c', vc') med -> In (c', d') sc -> c' <> c -> (vc' == vc)%Q ->
       (counts_over d' vc < counts_over d vc)%Z) /\
  (majority_judgment false cf votes 1 = inl [Cand c] ->
     (exists v, In (c, v) med /\ forall c' v', In (c', v') med -> c' <> c -> (v' < v)%Q) \/
     (exists tied sub' medians' v,
        get_n_best Qle_bool med 1 = [TieR tied] /\
        mj_rounds (mj_level sc tied) sub' /\
        aggregate FMedianLow sub' = inl medians' /\
        In (c, v) medians' /\ forall c' v', In (c', v') medians' -> c' <> c -> (v' < v)%Q)).
Proof.
  intros cf votes sc med c Hsc Hmed. split.
  - intros Hr. exact (mj_plus_rule cf votes sc med c Hsc Hmed Hr).
  - intros Hr. exact (mj_default_tiebreak cf votes sc med c Hsc Hmed Hr).
Qed.

(* the documented default rule: in EVERY state the removal rounds go through (the first and the last included) the
   eventual winner is still in the contest and nobody in the contest has a higher median - the winner never falls
   behind.  (Refuted for the pinned tree, where candidates that fell behind stayed in the loop: known finding
   C12-mj-default-reentry, repaired by fixes/C12-mj-default-reentry.diff; the model mirrors the repaired code.) *)
Theorem C12_mj_tiebreak_documented : forall cf votes sc med tied c sub1 medians1,
  corrected_scores cf votes = inl sc -> aggregate FMedianLow sc = inl med ->
  get_n_best Qle_bool med 1 = [TieR tied] ->
  majority_judgment false cf votes 1 = inl [Cand c] ->
  mj_rounds (mj_level sc tied) sub1 ->
  aggregate FMedianLow sub1 = inl medians1 ->
  exists v, In (c, v) medians1 /\ forall c' v', In (c', v') medians1 -> (v' <= v)%Q.
Proof. exact mj_default_tiebreak_documented. Qed.

(* who is still in the contest after a round: candidates of the previous state whose median was the highest there;
   a candidate that falls behind the shared lead is out for good *)
Theorem C12_mj_round_level : forall sub medians T c,
  aggregate FMedianLow sub = inl medians -> get_n_best Qle_bool medians 1 = [TieR T] ->
  In c (map fst (mj_round sub medians T)) ->
  In c (map fst sub) /\ exists v, In (c, v) medians /\ forall c' v', In (c', v') medians -> (v' <= v)%Q.
Proof. exact mj_round_level. Qed.

(* every round removes at least one copy of the median grade *)
Theorem C12_mj_round_removes : forall sub medians, (1 <= mj_ch sub medians)%Z.
Proof. exact mj_ch_pos. Qed.

(* the witness of the repaired defect: grades A = 0,0,1,2,2  B = 0,1,1,1,1  C = 0,1,1,1,2 share the median 1; after one
   removal A (1) is behind, B (2) and C (3) go on and C wins (the pinned tree elected A) *)
Example C12_mj_reentry_example :
  let cf := {| sc_fn := FMedianLow; sc_unscored := UNone; sc_min_count := 0%Z; sc_trunc := 0%Q; sc_bottom := 0%Q |} in
  let b (x y z : Z) : sballot * Z := ([(1%positive, inject_Z x); (2%positive, inject_Z y); (3%positive, inject_Z z)], 1%Z) in
  majority_judgment false cf [b 0 0 0; b 0 1 1; b 1 1 1; b 2 1 1; b 2 1 2]%Z 1 = inl [Cand 3%positive].
Proof. vm_compute. reflexivity. Qed.

(* Justified representation of the PAV committee (weighted ballots).
   No group G of voters who all approve a common candidate c and none of whom approves any member of the
   committee W weighs total / n or more; in fact weight(G) * (n + 1) <= total. *)
Theorem C12_pav_jr_bound : forall votes n W,
  (forall bw, In bw votes -> (0 <= snd bw)%Q /\ NoDup (fst bw)) ->
  pav_best votes (canon_set (flat_map fst votes)) n = [W] ->
  forall G c, subseq G votes ->
    (forall bw, In bw G -> In c (fst bw) /\ forall w, In w W -> ~ In w (fst bw)) ->
    (qsum (map snd G) * inject_Z (Z.of_nat (n + 1)) <= qsum (map snd votes))%Q.
Proof. exact pav_jr_groups. Qed.

Theorem C12_pav_jr : forall votes n W,
  (forall bw, In bw votes -> (0 <= snd bw)%Q /\ NoDup (fst bw)) ->
  pav_best votes (canon_set (flat_map fst votes)) n = [W] ->
  forall G c, subseq G votes ->
    (forall bw, In bw G -> In c (fst bw) /\ forall w, In w W -> ~ In w (fst bw)) ->
    (0 < qsum (map snd G))%Q ->
    (qsum (map snd G) * inject_Z (Z.of_nat n) < qsum (map snd votes))%Q.
Proof. exact pav_jr. Qed.

(* the same about what pav answers: the answer lists exactly the maximising committee *)
Theorem C12_pav_committee : forall votes n r, pav votes n = AR_ok r ->
  exists W s, pav_best votes (canon_set (flat_map fst votes)) n = [W] /\ Permutation s W /\ r = map Cand s.
Proof. exact pav_committee. Qed.

Theorem C12_pav_jr_answer : forall votes n r,
  (forall bw, In bw votes -> (0 <= snd bw)%Q /\ NoDup (fst bw)) ->
  pav votes n = AR_ok r ->
  forall G c, subseq G votes ->
    (forall bw, In bw G -> In c (fst bw) /\ forall w, In (Cand w) r -> ~ In w (fst bw)) ->
    (0 < qsum (map snd G))%Q ->
    (qsum (map snd G) * inject_Z (Z.of_nat n) < qsum (map snd votes))%Q.
Proof.
  intros votes n r Hv Hr G c HG Hgrp Hpos.
  destruct (pav_committee votes n r Hr) as (W & s & Hbest & Hp & ->).
  apply (pav_jr votes n W Hv Hbest G c HG); [|exact Hpos].
  intros bw Hbw. destruct (Hgrp bw Hbw) as [H1 H2]. split; [exact H1|].
  intros w Hw. apply H2. apply in_map. apply (Permutation_in _ (Permutation_sym Hp) Hw).
Qed.

(* the hypotheses are met by an ordinary profile, which has a committee (not a refusal) *)
Example C12_jr_example :
  let votes := [([1%positive; 2%positive], 3#1); ([3%positive], 2#1); ([1%positive; 3%positive], 1#1)]%Q in
  pav votes 2 = AR_ok [Cand 1%positive; Cand 3%positive] /\
  (forall bw, In bw votes -> (0 <= snd bw)%Q /\ NoDup (fst bw)).
Proof.
  split; [vm_compute; reflexivity|].
  intros bw [<-|[<-|[<-|[]]]]; (split; [discriminate|repeat constructor; simpl; intuition discriminate]).
Qed.

(* STAR (default configuration), one seat.  [a] and [b] are the run-off: the two highest score sums, not tied
   with the third.  [support votes x y] is the ballot weight that scores x and scores y lower or not at all.
   [order] is the iteration order of the candidate set inside Schulze.widest_paths (any order of the finalists). *)
Theorem C12_star_support : forall votes a b, a <> b ->
  pget0 (star_pairwise votes [a; b]) (a, b) = support votes a b /\
  pget0 (star_pairwise votes [a; b]) (b, a) = support votes b a.
Proof. exact pairwise_support. Qed.

Theorem C12_star_runoff : forall votes order agg a b c,
  score_to_simple star_cfg votes = inl agg ->
  get_n_best Qle_bool agg 2 = [Cand a; Cand b] ->
  (forall x, In x order -> x = a \/ x = b) ->
  star votes order 1 = inl [Cand c] ->
  (c = a /\ (support votes b a < support votes a b)%Z) \/ (c = b /\ (support votes a b < support votes b a)%Z).
Proof. exact star_runoff. Qed.

(* the same for the order the wire wrapper uses (first appearance in the pairwise dictionary) *)
Theorem C12_star_auto_runoff : forall votes agg a b c,
  score_to_simple star_cfg votes = inl agg ->
  get_n_best Qle_bool agg 2 = [Cand a; Cand b] ->
  star_auto votes 1 = inl [Cand c] ->
  (c = a /\ (support votes b a < support votes a b)%Z) \/ (c = b /\ (support votes a b < support votes b a)%Z).
Proof. exact star_auto_runoff. Qed.

(* a profile on which the top scorer (1: 9 points against 8) loses the run-off to 2 (preferred by 3 voters to 2) *)
Example C12_star_example :
  let votes : sprofile := [([(1%positive, 5#1); (2%positive, 0#1); (3%positive, 0#1)], 1%Z);
                           ([(1%positive, 4#1); (2%positive, 2#1)], 1%Z);
                           ([(1%positive, 0#1); (2%positive, 2#1); (3%positive, 1#1)], 3%Z)]%Q in
  (exists agg, score_to_simple star_cfg votes = inl agg /\ get_n_best Qle_bool agg 2 = [Cand 1%positive; Cand 2%positive]) /\
  star_auto votes 1 = inl [Cand 2%positive].
Proof. split; [eexists; split; vm_compute; reflexivity|vm_compute; reflexivity]. Qed.

(* Allocated score (Model/AllocScore.v).  [wprofile] = the remaining ballots with their (rational) weights;
   supporters of c = the ballots that score c; [cut_at c t f cur] = cur after c's supporters above level t are
   exhausted, those at level t keep the share f of their weight (nothing when f = 0) and all others keep theirs;
   [wpos] = all weights positive (wposb is its boolean form).

   The subtraction loop (_fraction_out_elected) on positive weights and a positive amount [ss]:
   - it never runs out of fuel and raises nothing but ValueError, and that EXACTLY when some ballot is empty or
     every ballot supports c and all of them together weigh less than ss (crash_cond);
   - otherwise the result is a cut: strongest supporters first, the last level reached reduced proportionally
     (0 <= f < 1), and the total weight goes down by exactly min(ss, weight of c's supporters). *)
Theorem C12_alloc_strongest_first : forall c fuel cur ss, wpos cur -> (length cur < fuel)%nat -> (0 < ss)%Q ->
  match fraction_out fuel cur c ss with
  | inr AE_value => crash_cond c cur ss
  | inr _ => False
  | inl cur' =>
      ~ crash_cond c cur ss /\
      exists t f, cur' = cut_at c t f cur /\ (0 <= f)%Q /\ (f < 1)%Q /\ (no_supporters c cur \/ has_score c cur t) /\
                  (wtotal cur' == wtotal cur - Qmin ss (asupport c cur))%Q
  end.
Proof. exact fraction_out_spec. Qed.

(* what a cut means ballot by ballot *)
Theorem C12_alloc_cut_members : forall c t f cur b' w',
  In (b', w') (cut_at c t f cur) <->
  exists w, In (b', w) cur /\
    (   (dget b' c = None /\ w' = w)
     \/ (exists s, dget b' c = Some s /\ (s < t)%Q /\ w' = w)
     \/ (exists s, dget b' c = Some s /\ (s == t)%Q /\ ~ (f == 0)%Q /\ w' = Qred (w * f))).
Proof. exact cut_at_members. Qed.

(* ... when a supporter loses anything, every supporter who scored the winner strictly higher is exhausted *)
Theorem C12_alloc_cut_order : forall c t f (bw1 bw2 : sballot * Q) s1 s2,
  dget (fst bw1) c = Some s1 -> dget (fst bw2) c = Some s2 -> (s2 < s1)%Q ->
  cut_one c t f bw2 <> [bw2] -> cut_one c t f bw1 = [].
Proof. exact cut_one_order. Qed.

(* the winner of a round without a tie has strictly the greatest weighted score sum among the candidates scored
   on some remaining ballot *)
Theorem C12_alloc_winner : forall cur c rest,
  get_n_best Qle_bool (sum_scores cur) 1 = Cand c :: rest ->
  scored c cur /\ forall d, scored d cur -> d <> c -> (wscore cur d < wscore cur c)%Q.
Proof. exact alloc_winner_greatest. Qed.

(* one round without a tie of AllocatedScoreDistributor.evaluate (any prev_gains / max_seats): the winner, the
   removal of one quota from its strongest supporters (removal_spec: a cut that takes min(quota, support)), the
   elimination of the winner from the ballots when it reached max_seats, the exact condition of the crash *)
Theorem C12_alloc_round : forall cf cur el rem c rest, wpos cur -> (0 < ac_quota cf)%Q -> (0 < rem)%nat ->
  get_n_best Qle_bool (sum_scores cur) 1 = Cand c :: rest ->
  (scored c cur /\ forall d, scored d cur -> d <> c -> (wscore cur d < wscore cur c)%Q) /\
  match alloc_step cf cur el rem with
  | AS_next cur' el' rem' =>
      el' = eincr el c /\ rem' = (rem - 1)%nat /\ ~ crash_cond c cur (ac_quota cf) /\
      exists mid, removal_spec c (ac_quota cf) cur mid /\
                  cur' = (if eliminated (gained_of cf el c) (dget (ac_max cf) c) then subset_out c mid else mid) /\
                  (wtotal cur' == wtotal cur - Qmin (ac_quota cf) (asupport c cur))%Q /\ wpos cur'
  | AS_err e => e = AE_value /\ crash_cond c cur (ac_quota cf)
  | AS_done _ => False
  end.
Proof. exact alloc_round. Qed.

(* lifted to every state the loop goes through (areach: the states reached from the initial votes) *)
Theorem C12_alloc_every_round : forall cf votes n cur el rem c rest, wpos votes -> (0 < ac_quota cf)%Q ->
  areach cf votes [] n cur el rem -> (0 < rem)%nat ->
  get_n_best Qle_bool (sum_scores cur) 1 = Cand c :: rest ->
  (scored c cur /\ forall d, scored d cur -> d <> c -> (wscore cur d < wscore cur c)%Q) /\
  match alloc_step cf cur el rem with
  | AS_next cur' el' rem' =>
      el' = eincr el c /\ rem' = (rem - 1)%nat /\ ~ crash_cond c cur (ac_quota cf) /\
      exists mid, removal_spec c (ac_quota cf) cur mid /\
                  cur' = (if eliminated (gained_of cf el c) (dget (ac_max cf) c) then subset_out c mid else mid) /\
                  (wtotal cur' == wtotal cur - Qmin (ac_quota cf) (asupport c cur))%Q /\ wpos cur'
  | AS_err e => e = AE_value /\ crash_cond c cur (ac_quota cf)
  | AS_done _ => False
  end.
Proof. exact alloc_every_round. Qed.

(* AllocatedScoreSelector (no prev_gains, max_seats = 1 for every candidate): in every round without a tie the
   winner holds no seat yet, nobody who holds a seat is scored any more, the winner has strictly the greatest score
   sum, one quota (or all they have) leaves its strongest supporters first, then the winner leaves every ballot
   while the other candidates' score sums over the cut ballots stay as they are *)
Theorem C12_alloc_select_round : forall votes cf n cur el rem c rest cur' el' rem',
  sel_like votes cf -> wpos votes -> (0 < ac_quota cf)%Q ->
  areach cf votes [] n cur el rem -> (0 < rem)%nat ->
  get_n_best Qle_bool (sum_scores cur) 1 = Cand c :: rest ->
  alloc_step cf cur el rem = AS_next cur' el' rem' ->
  eget el c = 0%Z /\ (forall x, eget el x <> 0%Z -> ~ scored x cur) /\
  (scored c cur /\ forall d, scored d cur -> d <> c -> (wscore cur d < wscore cur c)%Q) /\
  el' = eincr el c /\ rem' = (rem - 1)%nat /\
  exists mid, removal_spec c (ac_quota cf) cur mid /\ cur' = subset_out c mid /\
              (wtotal cur' == wtotal cur - Qmin (ac_quota cf) (asupport c cur))%Q /\
              ~ scored c cur' /\ forall x, x <> c -> (wscore cur' x == wscore mid x)%Q.
Proof. exact alloc_select_round. Qed.

(* the answer of evaluate is the dictionary of the last state reached; the model's fuel is enough; the only
   exceptions are the ValueError of the subtraction loop, the IndexError of get_n_best(..)[0] on ballots without
   scores, and ZeroDivisionError of the Hare quota for no seats *)
Theorem C12_alloc_run : forall qs orders votes n prev mx,
  let cf := alloc_cfg qs orders votes n prev mx in
  wpos votes -> (0 < ac_quota cf)%Q ->
  match alloc_distribute qs orders votes n prev mx with
  | inl e => exists cur el rem, areach cf votes [] n cur el rem /\ alloc_step cf cur el rem = AS_done e
  | inr AE_fuel => False
  | inr AE_zerodiv => n = 0%nat
  | inr e => exists cur el rem, areach cf votes [] n cur el rem /\ alloc_step cf cur el rem = AS_err e
  end.
Proof. exact alloc_distribute_run. Qed.

(* Hare (1) and Droop (3) quotas of a non-empty electorate with positive weights are positive *)
Theorem C12_alloc_quota_positive : forall i orders votes n prev mx,
  (i = 1 \/ i = 3)%Z -> wpos votes -> votes <> [] -> (1 <= n)%nat ->
  (0 < ac_quota (alloc_cfg (QNamed i) orders votes n prev mx))%Q.
Proof. exact alloc_quota_pos. Qed.

(* the hypotheses hold on a run of three rounds *)
Example C12_alloc_example :
  wposb w_example = true /\
  alloc_select (QNamed 3) [] w_example 3 = inl [Cand 1%positive; Cand 3%positive; Cand 2%positive] /\
  alloc_select (QNamed 1) [] w_example 2 = inl [Cand 1%positive; Cand 3%positive].
Proof. exact alloc_example. Qed.

(* Where the code leaves "one quota of the strongest supporters per seat" (replayed on the implementation).
   An ordinary two-party election (4 voters A:5, 2 voters B:5; two seats; Hare - and 2 + 1 voters under Droop):
   ValueError instead of [A, B] (known finding C12-allocated-score-crash) *)
Theorem C12_alloc_crash_refuted : exists votes votes' : wprofile,
  wposb votes = true /\ alloc_select (QNamed 1) [] votes 2 = inr AE_value /\
  alloc_select (QNamed 3) [] votes' 2 = inr AE_value.
Proof. exists w_crash. eexists. exact alloc_crash_witness. Qed.

(* three candidates level for two seats: a single tie entry for both seats (known finding C08-allocated-score-shape) *)
Theorem C12_alloc_tie_shape_refuted : exists votes : wprofile,
  alloc_select (QNamed 1) [] votes 2 = inl [TieR [1%positive; 2%positive; 3%positive]].
Proof. exists w_tie3. exact alloc_tie_shape_witness. Qed.

(* two candidates level for two seats: both are elected, in the iteration order of the Tie frozenset - one order
   crashes, the other answers (known finding C10-allocated-score) *)
Theorem C12_alloc_tie_order_refuted : exists votes : wprofile,
  alloc_select (QNamed 1) [[1%positive; 2%positive]] votes 2 = inr AE_value /\
  alloc_select (QNamed 1) [[2%positive; 1%positive]] votes 2 = inl [Cand 2%positive; Cand 1%positive].
Proof. exists w_order. exact alloc_tie_order_witness. Qed.

(* ... and the second of them is seated although, at that moment, it is scored on no remaining ballot while another
   candidate has a positive score sum: the tie branch does not re-run the maximum *)
Theorem C12_alloc_tie_second_refuted : exists votes : wprofile,
  let cf := alloc_cfg (QNamed 1) [[2%positive; 1%positive]] votes 2 [] (map (fun c => (c, 1%Z)) (all_scored votes)) in
  alloc_select (QNamed 1) [[2%positive; 1%positive]] votes 2 = inl [Cand 2%positive; Cand 1%positive] /\
  exists cur1 el1, elect_one cf votes [] 2%positive = inl (cur1, el1) /\
                   (wscore cur1 1%positive < wscore cur1 3%positive)%Q /\ (wscore cur1 1%positive == 0)%Q.
Proof. exists w_second. exact alloc_tie_second_witness. Qed.

(* positive weights are needed: a ballot of weight 0 on the winner's top level stops the subtraction *)
Theorem C12_alloc_zero_weight_refuted : exists cur : wprofile,
  fraction_out 4 cur 1%positive 2 = inl cur /\ (asupport 1%positive cur == 2)%Q /\ wposb cur = false.
Proof. exists w_zero. exact alloc_zero_weight_witness. Qed.


(* Majority judgment, default tie-break: the multi-copy removal step is the documented one-at-a-time rule.
   [sub]: candidate -> (grade -> count); cs_ok = counts >= 0 and the grades of a dictionary distinct as numbers
   (dictionaries built by cs_set are); [mj_successive k]: k times, recompute every candidate's lower median and
   remove ONE copy of it from each.  One round of the loop (mj_round: the candidates T on the shared highest
   median stay and mj_ch copies of that grade leave each of them at once) equals mj_ch such single rounds among T;
   while fewer than mj_ch copies are gone every candidate of T still has the median it had (so nobody falls behind
   or gets ahead in between and the intermediate comparisons the code skips could not have decided anything);
   the state after the round satisfies the hypotheses again. *)
Theorem C12_mj_multi_copy : forall sub medians T,
  NoDup (map fst sub) -> Forall cs_ok sub -> aggregate FMedianLow sub = inl medians ->
  let lvl := mj_level sub T in
  let ch := mj_ch lvl medians in
  mj_successive (Z.to_nat ch) lvl = inl (mj_round sub medians T) /\
  (forall j, (0 <= j < ch)%Z -> medians_of (mj_remove lvl medians j) medians) /\
  NoDup (map fst (mj_round sub medians T)) /\ Forall cs_ok (mj_round sub medians T).
Proof. exact mj_round_successive. Qed.

(* the same for any set of candidates whose current medians [medians] holds *)
Theorem C12_mj_multi_copy_general : forall sub medians,
  NoDup (map fst sub) -> Forall cs_ok sub -> medians_of sub medians ->
  (forall j, (0 <= j < mj_ch sub medians)%Z -> medians_of (mj_remove sub medians j) medians) /\
  mj_successive (Z.to_nat (mj_ch sub medians)) sub = inl (mj_remove sub medians (mj_ch sub medians)).
Proof. exact mj_multi_copy_successive. Qed.

Example C12_mj_multi_copy_example :
  NoDup (map fst ex_sub) /\ Forall cs_ok ex_sub /\ aggregate FMedianLow ex_sub = inl ex_med /\
  mj_ch ex_sub ex_med = 2%Z /\ mj_successive 2 ex_sub = inl (mj_remove ex_sub ex_med 2).
Proof. exact mj_multi_copy_example. Qed.

(* Majority judgment for ANY number of seats against an independent reference order (Proofs/MJ_seats_proofs.v).
   The reference is per candidate: the removal sequence (majority value) of the grade counts [d] -
   [mj_seq k d] = the lower median of d after k single removals of the then current lower median (None once the
   candidate has run out of grades); [mj_lex_lt d' d] = the sequence of d' is lexicographically below that of d:
   they agree (as numbers) on the entries before some k, both have an entry k, and there d' is strictly lower.
   Default tie-break, every seat count n >= 1, every configuration: an answer contains no tie object, has
   min(n, number of candidates) distinct entries, all of them candidates of the votes, and EVERY elected candidate is
   lexicographically strictly above EVERY candidate left out - the answer is exactly the top-n set of the reference
   order (for n = 1: the unique lexicographic maximum).  cs_ok (counts >= 0, grades of one candidate numerically
   distinct) is the well-formedness of the score dictionaries; cs_okb decides it (C12_mj_seats_example). *)
Theorem C12_mj_seats_default : forall cf votes n sc r,
  1 <= n -> corrected_scores cf votes = inl sc -> Forall cs_ok sc ->
  majority_judgment false cf votes n = inl r ->
  (forall x, In x r -> exists c, x = Cand c) /\ length r = Nat.min n (length sc) /\ NoDup r /\
  (forall c, In (Cand c) r -> In c (map fst sc)) /\
  (forall c d c' d', In (Cand c) r -> In (c, d) sc -> In (c', d') sc -> ~ In (Cand c') r -> mj_lex_lt d' d).
Proof. exact mj_default_seats_rule. Qed.

(* the tie-breaker itself (MajorityJudgment._tiebreak_default, recursion over the seats included) on any set of
   candidates: same statement *)
Theorem C12_mj_seats_tiebreaker : forall fuel sub n r,
  NoDup (map fst sub) -> Forall cs_ok sub -> 1 <= n ->
  mj_default fuel sub n = inl r ->
  (forall x, In x r -> exists c, x = Cand c) /\ length r = Nat.min n (length sub) /\ NoDup r /\
  (forall c d c' d', In (Cand c) r -> In (c, d) sub -> In (c', d') sub -> ~ In (Cand c') r -> mj_lex_lt d' d).
Proof.
  intros fuel sub n r Hnd Hok Hn Hr. destruct (mj_default_seats fuel sub n r Hnd Hok Hn Hr) as [H1 H2].
  destruct (mj_default_seats_count fuel sub n r Hnd Hn Hr) as [H3 H4]. repeat split; assumption.
Qed.

(* plus rule, every seat count: the answer has min(n, candidates) entries; a candidate listed plainly has strictly
   more grades at or above the shared median than every candidate with the same median that is not; the members of a
   reported tie have at least as many as any such candidate, and exactly as many as each other *)
Theorem C12_mj_seats_plus : forall cf votes n sc med r,
  1 <= n -> corrected_scores cf votes = inl sc -> aggregate FMedianLow sc = inl med ->
  majority_judgment true cf votes n = inl r ->
  length r = Nat.min n (length sc) /\
  forall c vc d c' vc' d', In (c, vc) med -> In (c, d) sc -> In (c', vc') med -> In (c', d') sc -> (vc' == vc)%Q ->
    ~ In (Cand c') r ->
    (In (Cand c) r -> (counts_over d' vc < counts_over d vc)%Z) /\
    (forall T, In (TieR T) r -> In c T ->
       (counts_over d' vc <= counts_over d vc)%Z /\ (In c' T -> counts_over d' vc = counts_over d vc)).
Proof. exact mj_plus_seats_rule. Qed.

(* the removal sequence while the loop removes several copies at once: the first mj_ch entries of every candidate still
   level are the shared median, and what the loop keeps is the dictionary after mj_ch single removals *)
Theorem C12_mj_seats_round : forall sub medians T c dn,
  NoDup (map fst sub) -> Forall cs_ok sub -> aggregate FMedianLow sub = inl medians ->
  In (c, dn) (mj_round sub medians T) ->
  exists d m, In (c, d) sub /\ In c T /\ In (c, m) medians /\
    mj_rmk (Z.to_nat (mj_ch (mj_level sub T) medians)) d = inl dn /\
    forall j, j < Z.to_nat (mj_ch (mj_level sub T) medians) -> mj_seq j d = Some m.
Proof. intros sub medians T c dn Hnd Hok Ha Hin. exact (mj_round_seq sub medians T Hnd Hok Ha c dn Hin). Qed.

Example C12_mj_seats_example :
  majority_judgment false ex_seats_cfg ex_seats_votes 2 = inl [Cand 2%positive; Cand 3%positive] /\
  exists sc, corrected_scores ex_seats_cfg ex_seats_votes = inl sc /\ Forall cs_ok sc /\
    mj_seq 0 (dget_or sc 1%positive []) = Some 1%Q /\ mj_seq 0 (dget_or sc 2%positive []) = Some 1%Q /\
    mj_seq 1 (dget_or sc 1%positive []) = Some 0%Q /\ mj_seq 1 (dget_or sc 2%positive []) = Some 1%Q.
Proof. exact mj_seats_example. Qed.

(* STAR against its definition, any number of seats (Proofs/Star_seats_proofs.v).
   The run-off table: for run-off members x, y the pairwise dictionary holds exactly the ballot weight that places x
   above y (unscored below every scored candidate), and the candidates Schulze sees are exactly the members that some
   ballot separates from another member ([separated]). *)
Theorem C12_star_table : forall votes members,
  NoDup members ->
  (forall x y, In x members -> In y members -> pget0 (star_pairwise votes members) (x, y) = support votes x y) /\
  (forall x, In x (candidates (star_pairwise votes members)) <-> In x members /\ separated votes members x = true).
Proof.
  intros votes members Hnd. split.
  - intros x y Hx Hy. exact (star_pairwise_support votes members x y Hnd Hx Hy).
  - intros x. exact (star_candidates votes members x).
Qed.

(* STAR for n seats is Schulze over that table of the run-off members [star_finalists agg n] (the plain entries among the
   n + 1 highest score sums; distinct); it returns min(n, number of separated members) entries.  The silently shorter
   answers (known finding C08-star-short) are EXACTLY the class [star_shortb]: fewer than n run-off members are separated
   from another member by some ballot (decidable; includes a tied finalist cut, which empties or shrinks the run-off);
   in the class the answer lists just the separated members, plainly; outside it the answer is a well-shaped selection
   of n (nform: distinct plain winners, then at most one tie object repeated for the open seats, with more members than
   open seats) among the separated members.  Schulze itself on such a table: C05_schulze_score / _strongest_paths. *)
Theorem C12_star_seats : forall votes order agg n r,
  1 <= n -> score_to_simple star_cfg votes = inl agg -> star votes order n = inl r ->
  r = schulze (star_pairwise votes (star_finalists agg n)) order n /\
  NoDup (star_finalists agg n) /\
  length r = Nat.min n (length (star_contest votes agg n)) /\
  (length r < n <-> star_shortb votes agg n = true) /\
  (star_shortb votes agg n = false -> nform (star_contest votes agg n) n r) /\
  (star_shortb votes agg n = true -> exists s, Permutation s (star_contest votes agg n) /\ r = map Cand s).
Proof. intros votes order agg n r Hn Ha Hr. exact (star_seats votes order agg n r Hn Ha Hr). Qed.

(* one seat, every profile with positive ballot weights - the complete table: two untied finalists a, b (the two highest
   score sums, not level with the third): the one placed above the other by strictly more ballot weight wins; equal
   positive weights: the tie of the two; no ballot separates them: nothing (the short class).  No two untied finalists
   (a tie at the finalist cut, or a single candidate): nothing. *)
Theorem C12_star_single_exact : forall votes agg,
  (forall bw, In bw votes -> (0 < snd bw)%Z) ->
  score_to_simple star_cfg votes = inl agg ->
  match get_n_best Qle_bool agg 2 with
  | [Cand a; Cand b] =>
      ((support votes b a < support votes a b)%Z -> star_auto votes 1 = inl [Cand a]) /\
      ((support votes a b < support votes b a)%Z -> star_auto votes 1 = inl [Cand b]) /\
      (support votes a b = support votes b a -> (0 < support votes a b)%Z ->
         star_auto votes 1 = inl [TieR [a; b]] \/ star_auto votes 1 = inl [TieR [b; a]]) /\
      (support votes a b = 0%Z -> support votes b a = 0%Z -> star_auto votes 1 = inl [])
  | _ => star_auto votes 1 = inl []
  end.
Proof. exact star_single_exact. Qed.

(* both sides of the class are inhabited: C12_star_example's profile is outside it, the recorded witness of C08-star-short
   (two voters A:5 B:5 D:3) is inside *)
Example C12_star_short_example :
  (exists agg, score_to_simple star_cfg star_short_votes = inl agg /\ star_shortb star_short_votes agg 1 = true) /\
  star_auto star_short_votes 1 = inl [] /\
  let votes : sprofile := [([(1%positive, 5#1); (2%positive, 0#1); (3%positive, 0#1)], 1%Z);
                           ([(1%positive, 4#1); (2%positive, 2#1)], 1%Z);
                           ([(1%positive, 0#1); (2%positive, 2#1); (3%positive, 1#1)], 3%Z)]%Q in
  exists agg, score_to_simple star_cfg votes = inl agg /\ star_shortb votes agg 1 = false /\ star_shortb votes agg 2 = false /\
    star_auto votes 2 = inl [Cand 2%positive; Cand 3%positive].
Proof.
  split; [eexists; split; vm_compute; reflexivity|]. split; [vm_compute; reflexivity|].
  eexists. split; [vm_compute; reflexivity|]. repeat split; vm_compute; reflexivity.
Qed.

(* The well-formedness hypothesis of the majority-judgment theorems is met by every real input: for every configuration
   (unscored_value, min_count, truncation) the corrected score dictionaries have counts >= 0 and numerically distinct
   grades whenever the ballot counts are >= 0 and no ballot scores a candidate twice (profile_ok) *)
Theorem C12_corrected_scores_ok : forall cf votes sc,
  profile_ok votes -> corrected_scores cf votes = inl sc -> Forall cs_ok sc.
Proof. exact corrected_scores_ok. Qed.

(* ... so the n-seat default rule holds with hypotheses on the ballots only *)
Theorem C12_mj_seats_default_wf : forall cf votes n sc r,
  1 <= n -> profile_ok votes -> corrected_scores cf votes = inl sc ->
  majority_judgment false cf votes n = inl r ->
  (forall x, In x r -> exists c, x = Cand c) /\ length r = Nat.min n (length sc) /\ NoDup r /\
  (forall c, In (Cand c) r -> In c (map fst sc)) /\
  (forall c d c' d', In (Cand c) r -> In (c, d) sc -> In (c', d') sc -> ~ In (Cand c') r -> mj_lex_lt d' d).
Proof.
  intros cf votes n sc r Hn Hv Hsc Hr.
  exact (mj_default_seats_rule cf votes n sc r Hn Hsc (corrected_scores_ok cf votes sc Hv Hsc) Hr).
Qed.

Example C12_profile_ok_example : profile_ok ex_seats_votes.
Proof.
  intros bn Hin. unfold ex_seats_votes in Hin. cbn [In] in Hin.
  repeat (destruct Hin as [<-|Hin]; [split; [cbn; discriminate|cbn [fst map]; repeat constructor; cbn [In]; intuition discriminate]|]).
  destruct Hin.
Qed.

(* Score aggregation: the corrections of ScoreToSimpleVotes against their definition (Proofs/Truncation_proofs.v).
   [d]: one candidate's score -> count dictionary (counts >= 0, scores numerically distinct: cs_okd; C12_corrected_scores_ok
   gives it for the dictionaries the converter builds); [expand d]: the list of its scores; cnt p l = length (filter p l);
   lev t y: y <= t; gev t y: t <= y.
   Truncation with cut-off c >= 0: the sweep over the ascending keys removes EXACTLY the c lowest scores - for every
   threshold t the number of scores <= t drops by min(c, that number) - and the sweep over the descending keys exactly
   the c highest of what is left; no KeyError. *)
Theorem C12_score_truncation : forall d c, cs_okd d -> (0 <= c)%Z ->
  let keys := sort_q (map fst d) in
  exists d2 d3, subtract_lowest d keys c 0 = Some d2 /\ subtract_lowest d2 (rev keys) c 0 = Some d3 /\ cs_okd d3 /\
    (forall t, Z.of_nat (cnt (lev t) (expand d2)) = Z.max 0 (Z.of_nat (cnt (lev t) (expand d)) - c)) /\
    (forall t, Z.of_nat (cnt (gev t) (expand d3)) = Z.max 0 (Z.of_nat (cnt (gev t) (expand d2)) - c)).
Proof.
  intros d c Hd Hc keys. destruct (truncation_spec d c Hd Hc) as (d2 & d3 & E2 & E3 & Hd3 & H2 & H3).
  exists d2, d3. split; [exact E2|]. split; [exact E3|]. split; [exact Hd3|].
  split; intros t; rewrite !cnt_expand; [apply H2|apply H3].
Qed.

(* correct_scores clause by clause: min_count (fewer scores -> min_count copies of bottom_value), unscored_value (the voters
   that did not score the candidate add their number of copies of the configured value, or of the candidate's lowest
   score), no truncation, truncation with the cut-off trunc_cutoff (an absolute count when truncation >= 1, else
   floor(voters * truncation)): the c lowest, then the c highest scores are dropped *)
Theorem C12_score_corrections : forall cf d n_votes, cs_okd d -> (cs_total d <= n_votes)%Z ->
  ((cs_total d < sc_min_count cf)%Z -> correct_scores cf d n_votes = inl [(sc_bottom cf, sc_min_count cf)]) /\
  ((sc_min_count cf <= cs_total d)%Z ->
     (forall d1, unscored_fill cf d n_votes = inl d1 ->
        cs_okd d1 /\
        forall p, (forall x y, (x == y)%Q -> p x = p y) ->
          wcnt p d1 = wcnt p d + match sc_unscored cf with
                                 | UNone => 0
                                 | UConst v => if p v then Z.to_nat (n_votes - cs_total d) else 0
                                 | UMin => match list_min (expand d) with
                                           | Some v => if p v then Z.to_nat (n_votes - cs_total d) else 0
                                           | None => 0
                                           end
                                 end) /\
     (Qle_bool (sc_trunc cf) 0 = true -> correct_scores cf d n_votes = unscored_fill cf d n_votes) /\
     (Qle_bool (sc_trunc cf) 0 = false -> (0 <= n_votes)%Z ->
        forall d1, unscored_fill cf d n_votes = inl d1 ->
          let c := trunc_cutoff cf d n_votes in
          (0 <= c)%Z /\
          exists d2 d3, correct_scores cf d n_votes = inl d3 /\ cs_okd d3 /\
            (forall t, Z.of_nat (wcnt (lev t) d2) = Z.max 0 (Z.of_nat (wcnt (lev t) d1) - c)) /\
            (forall t, Z.of_nat (wcnt (gev t) d3) = Z.max 0 (Z.of_nat (wcnt (gev t) d2) - c)))).
Proof. exact correct_scores_spec. Qed.

(* 1,1,2,3,3,5 with cut-off 2: 2 and 3 are left *)
Example C12_score_truncation_example :
  let d : cscores := [(1, 2%Z); (2, 1%Z); (3, 2%Z); (5, 1%Z)]%Q in
  cs_okd d /\ exists d2, subtract_lowest d (sort_q (map fst d)) 2 0 = Some d2 /\
    exists d3, subtract_lowest d2 (rev (sort_q (map fst d))) 2 0 = Some d3 /\ sort_q (expand d3) = [2; 3]%Q.
Proof.
  split.
  - split; [repeat constructor; cbn; discriminate|]. apply cs_distinctb_ok. vm_compute. reflexivity.
  - eexists. split; [vm_compute; reflexivity|]. eexists. split; vm_compute; reflexivity.
Qed.

(* the short class in words: either the finalist cut is tied so that fewer than n plain run-off members remain, or no ballot
   orders any two run-off members; and the contest is all of the run-off or nobody (being level on a ballot is transitive) *)
Theorem C12_star_short_class : forall votes agg n, 1 <= n ->
  (star_shortb votes agg n = true <->
   length (star_finalists agg n) < n \/
   (forall x y bw, In x (star_finalists agg n) -> In y (star_finalists agg n) -> In bw votes -> prefers (fst bw) x y = false)) /\
  (star_contest votes agg n = star_finalists agg n \/ star_contest votes agg n = []).
Proof.
  intros votes agg n Hn. split; [exact (star_short_iff votes agg n Hn)|].
  destruct (star_contest_all_or_none votes agg n) as [E|[E _]]; [left|right]; exact E.
Qed.

(* The repaired score family
   (fixes/C12-truncation-middle, C12-mj-default-exhausted, C12-score-counted, C12-allocated-score-exhausted,
   C12-allocated-score-tie-seats).  Model/Cardinal.v [repairs] / Model/AllocScore.v [arepairs] flag the definitions: no
   repair = the pinned definitions above (theorems C12_pinned_score_family, C12_pinned_allocated_score), all repairs = the code the correspondence runs against. *)
Theorem C12_pinned_score_family : forall plus cf votes n,
  score_voting_x pinned cf votes n = score_voting cf votes n /\
  majority_judgment_x pinned plus cf votes n = majority_judgment plus cf votes n.
Proof. intros. split; [reflexivity|apply majority_judgment_x_pinned]. Qed.

Theorem C12_pinned_allocated_score : forall qs orders votes n prev mx,
  alloc_distribute_x apinned qs orders votes n prev mx = alloc_distribute qs orders votes n prev mx /\
  alloc_select_x apinned qs orders votes n = alloc_select qs orders votes n.
Proof. intros. split; [apply alloc_distribute_x_pinned|apply alloc_select_x_pinned]. Qed.

(* fixes/C12-score-counted: the aggregates computed from the (score -> count) dictionary (util._counted_sum / _mean /
   _middle) are the aggregates of the list with one element per voter - same rational, same representation, same
   error - for every dictionary with counts >= 0 and numerically distinct scores; likewise the minimum for
   unscored_value = 'min'.  Hence every theorem about [aggregate_one] speaks about the repaired code at any magnitude. *)
Theorem C12_counted_aggregate : forall fn d, cs_okd d ->
  aggregate_one_w fn d = aggregate_one fn d /\ list_min (pos_keys d) = list_min (expand d).
Proof. intros fn d Hd. split; [exact (okd_counted fn d Hd)|apply list_min_counted]. Qed.

Example C12_counted_example :
  let d : cscores := [(3, 2000000000000%Z); (0, 1000000000000%Z); (2, 5%Z)]%Q in
  aggregate_one_w FSum d = inl (6000000000010 # 1)%Q /\ aggregate_one_w FMean d = inl (2 # 1)%Q /\ aggregate_one_w FMedianLow d = inl 3%Q.
Proof. vm_compute. repeat split; reflexivity. Qed.

(* fixes/C12-truncation-middle.  The cut-off is capped at (scores - 1) // 2 ([mid_cutoff]): on a well-formed dictionary
   that holds a score the two sweeps remove exactly the c' lowest and the c' highest scores (c' the capped cut-off) and at
   least one score stays *)
Theorem C12_truncation_keeps_middle : forall d c, cs_okd d -> (1 <= cs_total d)%Z ->
  let c' := mid_cutoff c (cs_total d) in
  exists d2 d3, subtract_lowest d (sort_q (map fst d)) c' 0 = Some d2 /\ subtract_lowest d2 (rev (sort_q (map fst d))) c' 0 = Some d3 /\
    cs_okd d3 /\ cs_total d3 = (cs_total d - 2 * c')%Z /\ (1 <= cs_total d3)%Z /\
    (forall t, Z.of_nat (wcnt (lev t) d2) = Z.max 0 (Z.of_nat (wcnt (lev t) d) - c')) /\
    (forall t, Z.of_nat (wcnt (gev t) d3) = Z.max 0 (Z.of_nat (wcnt (gev t) d2) - c')).
Proof. exact truncation_keeps_middle. Qed.

(* every configuration: a candidate that holds a score keeps one through min_count / unscored_value / truncation *)
Theorem C12_corrections_keep_a_score : forall rp cf d n_votes, rp_trunc rp = true ->
  cs_okd d -> (sc_unscored cf = UNone \/ (cs_total d <= n_votes)%Z) -> (1 <= cs_total d)%Z ->
  exists d3, correct_scores_x rp cf d n_votes = inl d3 /\ cs_okd d3 /\ (1 <= cs_total d3)%Z.
Proof. exact correct_scores_x_keeps. Qed.

(* the repair does what the configuration says whenever that leaves a score (the capped cut-off is the configured one) *)
Theorem C12_truncation_conservative : forall rp cf d n_votes d1,
  cs_okd d -> (sc_unscored cf = UNone \/ (cs_total d <= n_votes)%Z) -> (0 <= n_votes)%Z ->
  unscored_fill cf d n_votes = inl d1 -> (2 * trunc_cutoff cf d n_votes < cs_total d1)%Z ->
  correct_scores_x rp cf d n_votes = correct_scores cf d n_votes.
Proof. exact correct_scores_x_conservative. Qed.

(* score voting answers: every configuration, every number of seats, every profile with positive ballot counts in
   which no ballot scores a candidate twice - no ZeroDivisionError / StatisticsError / KeyError / ValueError *)
Theorem C12_score_voting_answers : forall rp cf votes n, rp_trunc rp = true -> profile_pos votes ->
  exists r, score_voting_x rp cf votes n = inl r.
Proof. exact score_voting_x_answers. Qed.

(* the pinned behaviour (known finding C12-truncation-empties, fixed by fixes/C12-truncation-middle.diff): {A:3} x 2, {B:1} x 5, truncation 2 *)
Theorem C12_truncation_empties_pinned_refuted : exists votes,
  let cf := Build_score_cfg FMean UNone 0 2 0 in
  profile_pos votes /\
  score_voting_x pinned cf votes 1 = inr SE_zerodiv /\ score_voting_x repaired cf votes 1 = inl [Cand 1%positive] /\
  majority_judgment_x pinned false cf votes 1 = inr SE_stats /\ majority_judgment_x repaired false cf votes 1 = inl [Cand 1%positive].
Proof.
  exists [([(1%positive, 3%Q)], 2%Z); ([(2%positive, 1%Q)], 5%Z)]. split.
  - intros bn [<-|[<-|[]]]; split; try reflexivity; repeat constructor; intros [].
  - vm_compute. repeat split; reflexivity.
Qed.

(* fixes/C12-mj-default-exhausted.  Reference order: the removal sequences (mj_seq) compared lexicographically where a
   sequence that ENDS - the candidate has no grade left - is below one that goes on: [mj_lex_below d' d] = the sequences
   agree before entry k, d has entry k, and d' has a strictly lower entry k or none at all.
   The repaired tie-break for any number of seats: an answer holds no tie object, n distinct winners, and every winner is
   above every candidate of the contest left out. *)
Theorem C12_mj_exhausted_seats : forall rp fuel sub n r, rp_mj rp = true ->
  NoDup (map fst sub) -> Forall cs_ok sub -> 1 <= n ->
  mj_default_x rp fuel sub n = inl r ->
  (forall x, In x r -> exists c, x = Cand c) /\ length r = n /\ NoDup r /\
  (forall c d c' d', In (Cand c) r -> In (c, d) sub -> In (c', d') sub -> ~ In (Cand c') r -> mj_lex_below d' d).
Proof.
  intros rp fuel sub n r Hrp Hnd Hok Hn Hr.
  destruct (mj_default_x_seats rp Hrp fuel sub n r (conj Hnd Hok) Hn Hr) as (H1 & H2).
  destruct (mj_default_x_seats_count rp Hrp fuel sub n r (conj Hnd Hok) Hn Hr) as (H3 & H4). auto.
Qed.

(* the evaluator (default rule, every configuration, hypotheses on the ballots only) *)
Theorem C12_mj_exhausted_rule : forall rp cf votes n sc r, rp_mj rp = true -> 1 <= n -> profile_ok votes ->
  corrected_scores_x rp cf votes = inl sc ->
  majority_judgment_x rp false cf votes n = inl r ->
  (forall x, In x r -> exists c, x = Cand c) /\ length r = Nat.min n (length sc) /\ NoDup r /\
  (forall c, In (Cand c) r -> In c (map fst sc)) /\
  (forall c d c' d', In (Cand c) r -> In (c, d) sc -> In (c', d') sc -> ~ In (Cand c') r -> mj_lex_below d' d).
Proof.
  intros rp cf votes n sc r Hrp Hn Hv Hsc Hr.
  exact (mj_x_default_rule rp cf votes n sc r Hrp Hn Hsc (corrected_scores_x_ok rp cf votes sc Hv Hsc) Hr).
Qed.

(* the order extends the one of C12_mj_seats_default; an exhausted candidate is below every candidate with a grade *)
Theorem C12_mj_lex_below_extends : forall d' d,
  (mj_lex_lt d' d -> mj_lex_below d' d) /\
  (forall v, aggregate_one FMedianLow d = inl v -> cs_nonneg d' -> cs_total d' = 0%Z -> mj_lex_below d' d).
Proof. intros d' d. split; [apply mj_lex_lt_below|intros v; apply mj_below_empty]. Qed.

(* no StatisticsError: with the truncation and the tie-break repaired, majority judgment (either rule) answers or
   refuses a lasting tie (VotingSystemError); SE_fuel is the model's own out-of-fuel mark *)
Theorem C12_mj_no_crash : forall rp plus cf votes n, rp_trunc rp = true -> rp_mj rp = true -> 1 <= n -> profile_pos votes ->
  match majority_judgment_x rp plus cf votes n with inl _ => True | inr e => e = SE_vse \/ e = SE_fuel end.
Proof. exact majority_judgment_x_no_crash. Qed.

(* the pinned behaviour (known finding C12-mj-default-stats, fixed by fixes/C12-mj-default-exhausted.diff): {A:1} x 1, {B:1} x 3 - A runs out of
   grades after one removal; and a lasting tie stays a refusal: {A:1,B:1} x 1, {C:1} x 2 -> C, and A / B for a second seat: VSE *)
Theorem C12_mj_default_stats_pinned_refuted : exists votes votes',
  let cf := Build_score_cfg FMedianLow UNone 0 0 0 in
  profile_pos votes /\ profile_pos votes' /\
  majority_judgment_x pinned false cf votes 1 = inr SE_stats /\ majority_judgment_x repaired false cf votes 1 = inl [Cand 2%positive] /\
  majority_judgment_x repaired false cf votes' 1 = inl [Cand 3%positive] /\ majority_judgment_x repaired false cf votes' 2 = inr SE_vse.
Proof.
  exists [([(1%positive, 1%Q)], 1%Z); ([(2%positive, 1%Q)], 3%Z)],
         [([(1%positive, 1%Q); (2%positive, 1%Q)], 1%Z); ([(3%positive, 1%Q)], 2%Z)]. split; [|split].
  - intros bn [<-|[<-|[]]]; split; try reflexivity; repeat constructor; intros [].
  - intros bn [<-|[<-|[]]]; split; try reflexivity; repeat constructor; cbn; intuition discriminate.
  - vm_compute. repeat split; reflexivity.
Qed.

(* fixes/C12-allocated-score-exhausted.  The subtraction loop without the overall-minimum bootstrap: on positive weights
   it never fails and removes min(amount, support) from the strongest supporters first - whatever the ballots look like
   (empty ballots, nothing left): the crash condition of C12_alloc_strongest_first does not arise *)
Theorem C12_alloc_strongest_first_repaired : forall c fuel cur ss, wpos cur -> (length cur < fuel)%nat -> (0 < ss)%Q ->
  match fraction_out_r fuel cur c ss with
  | inr _ => False
  | inl cur' =>
      exists t f, cur' = cut_at c t f cur /\ (0 <= f)%Q /\ (f < 1)%Q /\ (no_supporters c cur \/ has_score c cur t) /\
                  (wtotal cur' == wtotal cur - Qmin ss (asupport c cur))%Q
  end.
Proof. exact fraction_out_r_spec. Qed.

(* a round of the repaired loop without a tie: the winner is strictly greatest among the candidates still scored - or, when
   no remaining ballot scores anybody, the ONLY candidate that may still gain a seat - and one quota (or all they hold)
   leaves its strongest supporters *)
Theorem C12_alloc_round_repaired : forall ra cands cf cur el rem c rest, ra_exhausted ra = true -> NoDup cands ->
  wpos cur -> (0 < ac_quota cf)%Q -> (0 < rem)%nat ->
  get_n_best Qle_bool (round_scores ra cands cf cur el) 1 = Cand c :: rest ->
  ((sum_scores cur <> [] -> scored c cur /\ forall d, scored d cur -> d <> c -> (wscore cur d < wscore cur c)%Q) /\
   (sum_scores cur = [] -> In c cands /\ may_gain cf el c = true /\ forall d, In d cands -> may_gain cf el d = true -> d = c)) /\
  exists cur', alloc_step_x ra cands cf cur el rem = AS_next cur' (eincr el c) (rem - 1) /\
    exists mid, removal_spec c (ac_quota cf) cur mid /\
                cur' = (if eliminated (gained_of cf el c) (dget (ac_max cf) c) then subset_out c mid else mid) /\
                (wtotal cur' == wtotal cur - Qmin (ac_quota cf) (asupport c cur))%Q /\ wpos cur'.
Proof. exact alloc_round_x. Qed.

(* no error outcome: distributor (any prev_gains / max_seats) and selector answer for every profile with positive weights
   and a positive quota (Hare / Droop of a non-empty electorate: C12_alloc_quota_positive) *)
Theorem C12_alloc_answers : forall ra qs orders votes n prev mx, ra_exhausted ra = true ->
  wpos votes -> (0 < ac_quota (alloc_cfg qs orders votes n prev mx))%Q ->
  quota_divides_by_seats qs && Nat.eqb n 0 = false ->
  (exists el, alloc_distribute_x ra qs orders votes n prev mx = inl el) /\
  (prev = [] -> mx = map (fun c => (c, 1%Z)) (all_scored votes) -> exists r, alloc_select_x ra qs orders votes n = inl r).
Proof.
  intros ra qs orders votes n prev mx Hra Hp Hq Hz. split; [exact (alloc_distribute_x_answers ra Hra qs orders votes n prev mx Hp Hq Hz)|].
  intros -> ->. exact (alloc_select_x_answers ra Hra qs orders votes n Hp Hq Hz).
Qed.

(* ... and whatever the pinned distributor answered, the repaired one answers the same *)
Theorem C12_alloc_conservative : forall ra qs orders votes n prev mx e,
  alloc_distribute qs orders votes n prev mx = inl e -> alloc_distribute_x ra qs orders votes n prev mx = inl e.
Proof. exact alloc_distribute_x_conservative. Qed.

(* the recorded crash witnesses answer under the repaired loop; a candidate that no remaining ballot scores stands at zero *)
Example C12_alloc_repaired_example :
  alloc_select_x arepaired (QNamed 1) [] w_crash 2 = inl [Cand 1%positive; Cand 2%positive] /\
  alloc_select (QNamed 1) [] w_crash 2 = inr AE_value /\
  alloc_select_x arepaired (QNamed 1) [] [(b1 [(1%positive, 5%Z); (2%positive, 1%Z)], 1%Q); (b1 [(1%positive, 4%Z)], 3%Q)] 2
    = inl [Cand 1%positive; Cand 2%positive] /\
  alloc_select_x arepaired (QNamed 1) [] w_tie3 2 = inl [TieR [1; 2; 3]%positive; TieR [1; 2; 3]%positive].
Proof. vm_compute. repeat split; reflexivity. Qed.

(* The repairs change no answer the pinned code gave (every set of repairs [rp]): score voting by mean / low median,
   majority judgment with either rule - wherever the pinned evaluator answered, the repaired one returns the same list.
   (The sum of a candidate whose scores the truncation wipes out is 0 on the pinned tree and the sum of its middle scores with the repair: the one
   answer that changes, C11_scale_score_truncation_sum_capped_refuted.) *)
Theorem C12_score_family_conservative : forall rp plus cf votes n r, profile_ok votes -> 1 <= n ->
  (sc_fn cf <> FSum -> score_voting cf votes n = inl r -> score_voting_x rp cf votes n = inl r) /\
  (majority_judgment plus cf votes n = inl r -> majority_judgment_x rp plus cf votes n = inl r).
Proof.
  intros rp plus cf votes n r Hv Hn. split.
  - intros Hfn. exact (score_voting_x_conservative rp cf votes n r Hv Hfn).
  - exact (majority_judgment_x_conservative rp plus cf votes n r Hv Hn).
Qed.

(* the tie-break itself: wherever the pinned loop does not end in StatisticsError the repaired loop does the same *)
Theorem C12_mj_tiebreak_conservative : forall rp fuel sub n, NoDup (map fst sub) -> Forall cs_ok sub -> 1 <= n <= length sub ->
  mj_default fuel sub n <> inr SE_stats -> mj_default_x rp fuel sub n = mj_default fuel sub n.
Proof. intros rp fuel sub n Hnd Hok Hn. exact (mj_default_x_conservative rp fuel sub n (conj Hnd Hok) Hn). Qed.

(* The fuel of the repaired tie-break is enough: the number of scores held by the candidates of the contest goes down in
   every pass (a seated candidate leaves with its scores; a shared lead costs every level candidate at least one), so the loop
   started with that number + 1 never runs out; the evaluator hands over that number + 2.  Hence the sharp form of
   C12_mj_no_crash: majority judgment ANSWERS or refuses a lasting tie (VotingSystemError) - nothing else, SE_fuel included *)
Theorem C12_mj_fuel_sufficient : forall rp fuel sub n, rp_mj rp = true -> NoDup (map fst sub) -> Forall cs_ok sub ->
  (Z.to_nat (stot sub) < fuel)%nat -> mj_default_x rp fuel sub n <> inr SE_fuel.
Proof. intros rp fuel sub n Hrp Hnd Hok. exact (mj_default_x_fuel rp Hrp fuel sub n (conj Hnd Hok)). Qed.

Theorem C12_mj_answers_or_refuses : forall rp plus cf votes n, rp_trunc rp = true -> rp_mj rp = true -> 1 <= n -> profile_pos votes ->
  match majority_judgment_x rp plus cf votes n with inl _ => True | inr e => e = SE_vse end.
Proof. exact majority_judgment_x_answers_or_refuses. Qed.

Print Assumptions C12_combinations_complete.
Print Assumptions C12_combinations_sound.
Print Assumptions C12_pav_optimal.
Print Assumptions C12_pav_refusal.
Print Assumptions C12_spav_round.
Print Assumptions C12_spav_extends.
Print Assumptions C12_score_rank.
Print Assumptions C12_mj_highest_median.
Print Assumptions C12_mj_single_highest_median.
Print Assumptions C12_mj_tiebreak.
Print Assumptions C12_mj_tiebreak_documented.
Print Assumptions C12_mj_round_level.
Print Assumptions C12_mj_round_removes.
Print Assumptions C12_pav_jr_bound.
Print Assumptions C12_pav_jr.
Print Assumptions C12_pav_committee.
Print Assumptions C12_pav_jr_answer.
Print Assumptions C12_star_support.
Print Assumptions C12_star_runoff.
Print Assumptions C12_star_auto_runoff.
Print Assumptions C12_alloc_strongest_first.
Print Assumptions C12_alloc_cut_members.
Print Assumptions C12_alloc_cut_order.
Print Assumptions C12_alloc_winner.
Print Assumptions C12_alloc_round.
Print Assumptions C12_alloc_every_round.
Print Assumptions C12_alloc_select_round.
Print Assumptions C12_alloc_run.
Print Assumptions C12_alloc_quota_positive.
Print Assumptions C12_alloc_crash_refuted.
Print Assumptions C12_alloc_tie_shape_refuted.
Print Assumptions C12_alloc_tie_order_refuted.
Print Assumptions C12_alloc_tie_second_refuted.
Print Assumptions C12_alloc_zero_weight_refuted.
Print Assumptions C12_mj_multi_copy.
Print Assumptions C12_mj_multi_copy_general.
Print Assumptions C12_mj_seats_default.
Print Assumptions C12_mj_seats_tiebreaker.
Print Assumptions C12_mj_seats_plus.
Print Assumptions C12_mj_seats_round.
Print Assumptions C12_star_table.
Print Assumptions C12_star_seats.
Print Assumptions C12_star_single_exact.
Print Assumptions C12_corrected_scores_ok.
Print Assumptions C12_mj_seats_default_wf.
Print Assumptions C12_score_truncation.
Print Assumptions C12_score_corrections.
Print Assumptions C12_star_short_class.
Print Assumptions C12_pinned_score_family.
Print Assumptions C12_pinned_allocated_score.
Print Assumptions C12_counted_aggregate.
Print Assumptions C12_truncation_keeps_middle.
Print Assumptions C12_corrections_keep_a_score.
Print Assumptions C12_truncation_conservative.
Print Assumptions C12_score_voting_answers.
Print Assumptions C12_truncation_empties_pinned_refuted.
Print Assumptions C12_mj_exhausted_seats.
Print Assumptions C12_mj_exhausted_rule.
Print Assumptions C12_mj_lex_below_extends.
Print Assumptions C12_mj_no_crash.
Print Assumptions C12_mj_default_stats_pinned_refuted.
Print Assumptions C12_alloc_strongest_first_repaired.
Print Assumptions C12_alloc_round_repaired.
Print Assumptions C12_alloc_answers.
Print Assumptions C12_alloc_conservative.
Print Assumptions C12_score_family_conservative.
Print Assumptions C12_mj_tiebreak_conservative.
Print Assumptions C12_mj_fuel_sufficient.
Print Assumptions C12_mj_answers_or_refuses.
