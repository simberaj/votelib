(* C10 - Outcomes do not depend on ballot order, candidate names or hash seed.
   This file holds the property theorems, the definitions and small lemmas their statements and examples need, and
   examples of non-vacuity.  Models: Model/GetNBest.v, Prelude/GDict.v (additive converters);
   Model/QuotaDistributor.v, Model/STV.v and the models named section by section; proofs: Proofs/Order_proofs.v,
   Proofs/HAPerm_proofs.v, Proofs/CondorcetOrder_proofs.v, Proofs/QDOrder_proofs.v, Proofs/STVOrder_proofs.v,
   Proofs/Symmetric_proofs.v and the files imported below (the *Rename_proofs.v and *Order_proofs.v files, section by section).

   The models are structural: they use equality on candidates only (never an order on names, never
   a hash), so "identical under every interpreter hash seed" has no counterpart to prove on the
   model side - where the implementation iterates a set, the check sweeps PYTHONHASHSEED. *)
From Coq Require Import ZArith QArith List Bool Permutation Arith.
From VL Require Import Prelude.Sx Prelude.PyDict Prelude.GDict Model.GetNBest Model.HighestAverages Model.Condorcet Model.Convert
     Proofs.GetNBest_proofs Proofs.QOrd Proofs.Order_proofs Proofs.Convert_proofs Proofs.HA_proofs Proofs.Divisor_proofs Proofs.HAPerm_proofs Proofs.HARename_proofs
     Proofs.Condorcet_proofs Proofs.CopelandMono_proofs Proofs.Schulze_proofs Proofs.GnbSim_proofs Proofs.CondorcetOrder_proofs.
From VL Require Import Model.Quota Model.QuotaDistributor Proofs.QDOrder_proofs Model.STV Proofs.STVOrder_proofs.
From VL Require Proofs.Schwartz_proofs.
Import ListNotations.
Close Scope Q_scope.
Close Scope Z_scope.
Open Scope nat_scope.

(* The outcome of get_n_best depends on the input only through COUNTS of totals above / at a value:
   a candidate with total v is elected iff at most n totals are >= v, and is a member of a reported
   tie iff fewer than n totals are > v but more than n are >= v. *)
Theorem C10_count_characterisation : forall (K : Type)
    (votes : list (K * Q)) (n : nat) c v, 1 <= n -> NoDup (map fst votes) -> In (c, v) votes ->
  (In (Cand c) (get_n_best Qle_bool votes n) <-> cnt_ge votes v <= n) /\
  ((exists T, In (TieR T) (get_n_best Qle_bool votes n) /\ In c T) <-> cnt_gt votes v < n < cnt_ge votes v).
Proof. intros K. exact (@gnb_count_char K). Qed.

(* hence: filling the dictionary in a different order changes neither who is elected nor who is tied *)
Theorem C10_order : forall (K : Type)
    (votes votes' : list (K * Q)) (n : nat) c v, 1 <= n -> NoDup (map fst votes) ->
  Permutation votes votes' -> In (c, v) votes ->
  (In (Cand c) (get_n_best Qle_bool votes n) <-> In (Cand c) (get_n_best Qle_bool votes' n)) /\
  ((exists T, In (TieR T) (get_n_best Qle_bool votes n) /\ In c T) <->
   (exists T, In (TieR T) (get_n_best Qle_bool votes' n) /\ In c T)).
Proof. intros K. exact (@gnb_perm K). Qed.

(* two candidates in symmetric positions (equal totals): both elected, both tied, or both out *)
Theorem C10_symmetric : forall (K : Type)
    (votes : list (K * Q)) (n : nat) c1 v1 c2 v2, 1 <= n -> NoDup (map fst votes) ->
  In (c1, v1) votes -> In (c2, v2) votes -> (v1 == v2)%Q ->
  (In (Cand c1) (get_n_best Qle_bool votes n) <-> In (Cand c2) (get_n_best Qle_bool votes n)) /\
  ((exists T, In (TieR T) (get_n_best Qle_bool votes n) /\ In c1 T) <->
   (exists T, In (TieR T) (get_n_best Qle_bool votes n) /\ In c2 T)).
Proof. intros K. exact (@gnb_symmetric K). Qed.

(* renaming: for ANY function on candidate names (injective or not) the outcome is the renamed outcome *)
Theorem C10_rename : forall (K K' V : Type) (leb : V -> V -> bool) (f : K -> K') (votes : list (K * V)) (n : nat),
  get_n_best leb (renk f votes) n = map (ren_res f) (get_n_best leb votes n).
Proof. exact @get_n_best_rename. Qed.

(* every additive converter: the order of the ballots does not change any converted count *)
Theorem C10_ballot_order : forall (B : Type) (image : B -> list (sx * Q)) (a b : list (B * Q)) (k : sx),
  Permutation a b -> (gget sx_eqb (dconv image a) k == gget sx_eqb (dconv image b) k)%Q.
Proof. intros B image. exact (conv_perm sx_eqb sx_eqb_spec image). Qed.

(* every highest-averages rule: listing the parties in another order changes neither any party's seats
   nor the seats left, and a reported tie names the same parties for the same number of seats *)
Theorem C10_highest_averages_order : forall (d : Z -> Q) (votes votes' : list (C * Q)) (caps prev : list (C * Z)) (n : Z),
  divisor_ok d -> (forall c v, In (c, v) votes -> (0 <= v)%Q) -> NoDup (map fst votes) ->
  (forall c, (0 <= dget_or prev c 0)%Z) -> Permutation votes votes' ->
  (forall c, dget_or (st_totals (final_state d votes n prev caps)) c 0%Z = dget_or (st_totals (final_state d votes' n prev caps)) c 0%Z) /\
  tie_eq (st_tie (final_state d votes n prev caps)) (st_tie (final_state d votes' n prev caps)) /\
  st_rem (final_state d votes n prev caps) = st_rem (final_state d votes' n prev caps).
Proof.
  intros d votes votes' caps prev n [Hp Hm] Hv Hnd Hprev Hperm.
  exact (ha_perm d votes votes' caps prev n Hp Hm Hv Hnd Hprev Hperm).
Qed.

(* ... and it commutes with every injective renaming of the parties: the evaluation on renamed votes, previous gains and
   caps is the renamed evaluation (gains, tie members) - exact equality, any divisor function *)
Theorem C10_highest_averages_rename : forall (f : C -> C), (forall a b, f a = f b -> a = b) ->
  forall (d : Z -> Q) (votes : list (C * Q)) (caps prev : list (C * Z)) (n : Z),
  evaluate d (renl f votes) n (renl f prev) (renl f caps) = ren_result f (evaluate d votes n prev caps).
Proof. intros f Hf d votes caps prev n. exact (evaluate_ren f Hf d votes caps n prev). Qed.

(* The Condorcet family on pairwise dictionaries
   v' holds the same (pair, count) entries as v in another insertion order: Permutation v v', distinct keys
   (a Python dict), and - where stated - non-negative counts.  Vocabulary (Proofs/GnbSim_proofs.v, CondorcetOrder_proofs.v):
     res_equiv r r'    := the two results have the same length, position by position a plain winner faces a plain
                          winner and a tie faces a tie with the same members (Permutation), and the same candidates
                          are elected; hence (C10_condorcet_tied_members) the same candidates are reported tied;
     res_relz d d' x y := x, y are both plain winners with the SAME score in the score dictionary d (d' has the same
                          content), or both ties with the same members - so a winner whose score nobody shares sits at the
                          same position in both results (C10_condorcet_unique_position); equally placed winners may swap. *)
Theorem C10_condorcet_tied_members : forall r r' c, res_equiv r r' ->
  ((exists T, In (TieR T) r /\ In c T) <-> (exists T, In (TieR T) r' /\ In c T)).
Proof. exact res_equiv_tied. Qed.

Theorem C10_condorcet_unique_position : forall d d' r r' i a, Forall2 (res_relz d d') r r' -> nth_error r i = Some (Cand a) ->
  (forall b, In b (map fst d) -> score_of d b = score_of d a -> b = a) -> nth_error r' i = Some (Cand a).
Proof. exact relz_unique_pos. Qed.

(* the content of the dictionary, the candidate set, the pairwise wins *)
Theorem C10_condorcet_pget_order : forall v v' p, NoDup (map fst v) -> Permutation v v' ->
  pget v' p = pget v p /\ pget0 v' p = pget0 v p.
Proof. intros v v' p Hnd Hp. split; [exact (pget_perm v v' Hnd Hp p)|exact (pget0_perm v v' Hnd Hp p)]. Qed.

Theorem C10_condorcet_pairwise_wins_order : forall v v' ties, NoDup (map fst v) -> Permutation v v' ->
  Permutation (candidates v) (candidates v') /\ Permutation (pairwise_wins v ties) (pairwise_wins v' ties).
Proof. intros v v' t Hnd Hp. split; [exact (cands_perm v v' Hp)|exact (wins_perm v v' Hnd Hp t)]. Qed.

(* CondorcetWinner: the same answer *)
Theorem C10_condorcet_winner_order : forall v v', NoDup (map fst v) -> Permutation v v' ->
  condorcet_winner v' = condorcet_winner v.
Proof. exact condorcet_winner_perm. Qed.

(* Copeland, raw and second order *)
Theorem C10_condorcet_copeland_order : forall second_order v v' n, NoDup (map fst v) -> Permutation v v' ->
  res_equiv (copeland second_order v n) (copeland second_order v' n).
Proof. intros so v v' n Hnd Hp. exact (copeland_equiv v v' Hnd Hp so n). Qed.

(* ... position by position the same (first-order) Copeland score - raw and second order
   (cscores = the score dictionary get_n_best is applied to) *)
Theorem C10_condorcet_copeland_positions : forall second_order v v' n, NoDup (map fst v) -> Permutation v v' ->
  Permutation (cscores v) (cscores v') /\
  Forall2 (res_relz (cscores v) (cscores v')) (copeland second_order v n) (copeland second_order v' n).
Proof. intros so v v' n Hnd Hp. split; [exact (cscores_perm v v' Hnd Hp)|exact (copeland_sim v v' Hnd Hp so n)]. Qed.

(* MinimaxCondorcet, the three scorers (mscores = the negated max-counterscore dictionary) *)
Theorem C10_condorcet_minimax_order : forall s v v' n, NoDup (map fst v) -> Permutation v v' ->
  res_equiv (minimax s v n) (minimax s v' n) /\
  Forall2 (res_relz (mscores s v) (mscores s v')) (minimax s v n) (minimax s v' n).
Proof. intros s v v' n Hnd Hp. split; [exact (minimax_equiv v v' Hnd Hp s n)|exact (minimax_sim v v' Hnd Hp s n)]. Qed.

(* Schulze: another insertion order of the dictionary AND any two iteration orders of the candidate set
   (sscores = the dictionary of path-win counts) *)
Theorem C10_condorcet_schulze_order : forall v v' order order' n, NoDup (map fst v) -> (forall p k, In (p, k) v -> (0 <= k)%Z) ->
  Permutation v v' -> incl (candidates v) order -> incl (candidates v') order' ->
  res_equiv (schulze v order n) (schulze v' order' n) /\
  Forall2 (res_relz (sscores v order) (sscores v' order')) (schulze v order n) (schulze v' order' n).
Proof.
  intros v v' o o' n Hnd Hnn Hp Hi Hi'. split; [exact (schulze_equiv v v' Hnd Hnn Hp o o' n Hi Hi')|exact (schulze_sim v v' Hnd Hnn Hp o o' n Hi Hi')].
Qed.

(* one dictionary, two iteration orders that list exactly its candidates, under the two facts every real input satisfies
   (distinct keys: a dict; non-negative counts): the result is even EQUAL.  The version without them
   is neither proved nor refuted: no counterexample among all 15625 sparse dictionaries over 3 candidates with counts in
   {-2..1} and all 5832 three-entry lists with repeated keys *)
Theorem C10_condorcet_schulze_iteration_order : forall v order order' n, NoDup (map fst v) -> (forall p k, In (p, k) v -> (0 <= k)%Z) ->
  Permutation order order' -> NoDup order -> (forall c, In c (candidates v) <-> In c order) ->
  schulze v order n = schulze v order' n /\
  forall c, In (Cand c) (schulze v order n) <-> In (Cand c) (schulze v order' n).
Proof.
  intros v o o' n Hnd Hnn Hp _ Hc.
  assert (E : schulze v o n = schulze v o' n).
  { apply (schulze_order_irrelevant v Hnd Hnn o o' n); intros c Hin; [apply Hc, Hin|apply (Permutation_in _ Hp), Hc, Hin]. }
  split; [exact E|]. intros c. rewrite E. reflexivity.
Qed.

(* KemenyYoung: the same answer, the same refusal *)
Theorem C10_condorcet_kemeny_order : forall v v' n, NoDup (map fst v) -> Permutation v v' -> kemeny v' n = kemeny v n.
Proof. intros v v' n Hnd Hp. exact (kemeny_perm v v' n Hnd Hp). Qed.

(* SmithSet: the same members (their order follows the Copeland order, stable among equal scores) *)
Theorem C10_condorcet_smith_order : forall v v', NoDup (map fst v) -> (forall p k, In (p, k) v -> (0 <= k)%Z) -> Permutation v v' ->
  Permutation (smith_schwartz v true) (smith_schwartz v' true).
Proof. exact smith_perm. Qed.

(* SchwartzSet (Model/Condorcet.v schwartz_set, the routine of fixes/C06-schwartz-set.diff): the same members
   (their order follows the Copeland order of the Smith routine, stable among equal scores) *)
Theorem C10_schwartz_order : forall v v', NoDup (map fst v) -> (forall p k, In (p, k) v -> (0 <= k)%Z) -> Permutation v v' ->
  Permutation (schwartz_set v) (schwartz_set v').
Proof. exact Schwartz_proofs.schwartz_perm. Qed.

(* the routine the pinned tree runs for SchwartzSet (the Smith routine with ties = false) is NOT order independent (fixed
   finding C10-schwartz-order): {(1,2):1,(2,1):1,(1,3):2,(3,1):0,(2,3):2,(3,2):0} returns [1]; listing the pairs of 2 first
   returns [2].  This is the machine-checked reason for fixes/C06-schwartz-set.diff *)
Theorem C10_condorcet_schwartz_order_refuted : exists v v', NoDup (map fst v) /\ (forall p k, In (p, k) v -> (0 <= k)%Z) /\ Permutation v v' /\
  exists c, In c (smith_schwartz v false) /\ ~ In c (smith_schwartz v' false).
Proof. exact schwartz_order_refuted. Qed.

(* RankedPairs on the profiles the property quantifies over - pairwise distinct sort keys (strength under the scorer,
   votes for the pair) over the ordered pairs of candidates: the same answer *)
Theorem C10_condorcet_ranked_pairs_order : forall s v v' n, NoDup (map fst v) -> Permutation v v' -> rp_distinct_b s v = true ->
  ranked_pairs s v' n = ranked_pairs s v n.
Proof. exact ranked_pairs_perm. Qed.

(* ... and NOT otherwise (the exclusion in the property text is necessary): a three-cycle of 2:1 majorities elects
   the candidate whose pair was inserted first, under each of the three scorers *)
Theorem C10_condorcet_ranked_pairs_order_refuted : exists v v', NoDup (map fst v) /\ (forall p k, In (p, k) v -> (0 <= k)%Z) /\ Permutation v v' /\
  forall s, exists c c', c <> c' /\ ranked_pairs s v 1 = CR_ok [Cand c] /\ ranked_pairs s v' 1 = CR_ok [Cand c'].
Proof. exact ranked_pairs_order_refuted. Qed.

(* non-vacuity of the hypotheses and of "up to the order inside ties": a dictionary with a three-cycle, permuted *)
Example C10_condorcet_example :
  let v  := mk_pv [(1,2,3);(2,1,1);(2,3,3);(3,2,1);(3,1,3);(1,3,1);(1,4,4);(4,1,0);(2,4,4);(4,2,0);(3,4,2);(4,3,2)]%Z in
  let v' := mk_pv [(4,3,2);(3,4,2);(3,1,3);(1,3,1);(2,3,3);(3,2,1);(1,2,3);(2,1,1);(4,2,0);(2,4,4);(4,1,0);(1,4,4)]%Z in
  nodup_keys_b v = true /\ forallb (fun pn : pair * Z => (0 <=? snd pn)%Z) v = true /\ list_perm_b v v' = true /\
  minimax Margins v 1 = [TieR [2; 3; 1]]%positive /\ minimax Margins v' 1 = [TieR [3; 1; 2]]%positive /\
  schulze v [1; 2; 3; 4]%positive 1 = [TieR [1; 2; 3]]%positive /\ schulze v' [4; 3; 2; 1]%positive 1 = [TieR [3; 1; 2]]%positive /\
  copeland false v 1 = [TieR [1; 2]]%positive /\ copeland true v' 1 = [Cand 1]%positive /\
  rp_distinct_b WinningVotes rp_ok_v = true.
Proof. vm_compute. repeat split; reflexivity. Qed.

(* non-vacuity *)
Example C10_example :
  get_n_best Qle_bool [(1%positive, 5#1); (2%positive, 7#2); (3%positive, 14#4)]%Q 2 = [Cand 1%positive; TieR [2%positive; 3%positive]] /\
  get_n_best Qle_bool [(3%positive, 14#4); (1%positive, 5#1); (2%positive, 7#2)]%Q 2 = [Cand 1%positive; TieR [3%positive; 2%positive]].
Proof. vm_compute. split; reflexivity. Qed.

(* The quota family (QuotaDistributor.evaluate with its recursive cap branch and _subtract_overaward, and
   LargestRemainder.evaluate): whatever the insertion order of the votes, of the previous gains and of the caps, the
   two evaluations end alike ([qd_obs] / [lr_obs]) - the same error, or two result dictionaries in which every
   candidate has the same seats ([kdget]; the candidate-keyed entries are permutations of each other, distinct
   keys) and the tie keys correspond one to one with the same members (as sets) and the same seats.
   [quota_ext]: the quota function does not distinguish equal rationals (every library quota: C10_quota_fn_ext). *)
Theorem C10_quota_distributor_order : forall (quota : Q -> Z -> Q) (accept_equal : bool) (pol : policy)
    (votes votes' : list (C * Q)) (n : Z) (prev prev' caps caps' : list (C * Z)),
  quota_ext quota -> NoDup (map fst votes) -> Permutation votes votes' ->
  NoDup (map fst prev) -> Permutation prev prev' -> (forall c, dget caps' c = dget caps c) ->
  qd_obs (qd_evaluate quota accept_equal pol votes n prev caps) (qd_evaluate quota accept_equal pol votes' n prev' caps').
Proof.
  intros quota ae pol votes votes' n prev prev' caps caps' Hq Hv Hvp Hp Hpp Hc.
  exact (qd_rel_obs _ _ (qd_evaluate_perm quota ae pol Hq votes votes' n prev prev' caps caps' Hv Hvp Hp Hpp Hc)).
Qed.

Theorem C10_largest_remainder_order : forall (quota : Q -> Z -> Q) (accept_equal : bool) (pol : policy)
    (votes votes' : list (C * Q)) (n : Z) (prev prev' caps caps' : list (C * Z)),
  quota_ext quota -> NoDup (map fst votes) -> Permutation votes votes' ->
  NoDup (map fst prev) -> Permutation prev prev' -> (forall c, dget caps' c = dget caps c) ->
  lr_obs (lr_evaluate quota accept_equal pol votes n prev caps) (lr_evaluate quota accept_equal pol votes' n prev' caps').
Proof.
  intros quota ae pol votes votes' n prev prev' caps caps' Hq Hv Hvp Hp Hpp Hc.
  exact (lr_rel_obs _ _ (lr_evaluate_perm quota ae pol Hq votes votes' n prev prev' caps caps' Hv Hvp Hp Hpp Hc)).
Qed.

Theorem C10_quota_fn_ext : forall qs, quota_ext (quota_fn qs).
Proof. exact quota_fn_ext. Qed.

(* non-vacuity: the over-award subtraction ends in a tie key, the remainder stage in a tie; the orders differ *)
Example C10_quota_example :
  qd_evaluate (quota_fn (QNamed 7)) true PSubtract [(1%positive, 30#1); (2%positive, 30#1); (3%positive, 7#1)]%Q 3 [] []
    = QD_ok [(K 1%positive, 1%Z); (K 2%positive, 1%Z); (KT [1%positive; 2%positive], 1%Z)] /\
  qd_evaluate (quota_fn (QNamed 7)) true PSubtract [(3%positive, 7#1); (2%positive, 30#1); (1%positive, 30#1)]%Q 3 [] []
    = QD_ok [(K 2%positive, 1%Z); (K 1%positive, 1%Z); (KT [2%positive; 1%positive], 1%Z)] /\
  lr_evaluate (quota_fn (QNamed 1)) true PSubtract [(1%positive, 30#1); (2%positive, 20#1); (3%positive, 7#1); (4%positive, 7#1)]%Q 4 [] []
    = LR_ok [(K 1%positive, 2%Z); (K 2%positive, 1%Z); (KT [3%positive; 4%positive], 1%Z)] /\
  lr_evaluate (quota_fn (QNamed 1)) true PSubtract [(4%positive, 7#1); (3%positive, 7#1); (2%positive, 20#1); (1%positive, 30#1)]%Q 4 [] []
    = LR_ok [(K 2%positive, 1%Z); (K 1%positive, 2%Z); (KT [4%positive; 3%positive], 1%Z)].
Proof. vm_compute. repeat split; reflexivity. Qed.

(* non-vacuity of the continued subtraction (the Tie object as a key of `selected`): with two seats to withdraw the
   tie key is entered and then withdrawn again; a three-way tie *)
Example C10_quota_example_tie_key :
  qd_evaluate (quota_fn (QNamed 7)) true PSubtract [(1%positive, 30#1); (2%positive, 30#1); (3%positive, 7#1)]%Q 2 [] []
    = QD_ok [(K 1%positive, 1%Z); (K 2%positive, 1%Z)] /\
  qd_evaluate (quota_fn (QNamed 7)) true PSubtract [(3%positive, 7#1); (2%positive, 30#1); (1%positive, 30#1)]%Q 2 [] []
    = QD_ok [(K 2%positive, 1%Z); (K 1%positive, 1%Z)] /\
  qd_evaluate (quota_fn (QNamed 7)) true PSubtract [(1%positive, 30#1); (2%positive, 30#1); (3%positive, 30#1)]%Q 4 [] []
    = QD_ok [(K 1%positive, 1%Z); (K 2%positive, 1%Z); (K 3%positive, 1%Z); (KT [1%positive; 2%positive; 3%positive], 1%Z)] /\
  qd_evaluate (quota_fn (QNamed 7)) true PSubtract [(3%positive, 30#1); (2%positive, 30#1); (1%positive, 30#1)]%Q 4 [] []
    = QD_ok [(K 3%positive, 1%Z); (K 2%positive, 1%Z); (K 1%positive, 1%Z); (KT [3%positive; 2%positive; 1%positive], 1%Z)].
Proof. vm_compute. repeat split; reflexivity. Qed.

(* The transferable-vote count (STV with Gregory transfers, TransferableVoteDistributor / Selector: quota election,
   over-count correction, surplus transfer, elimination by get_n_best, the elect-all-remaining shortcut, the fixpoint
   stop): presenting the ballots (and the previous gains) in another order gives the same stop reason, the same seats
   as a dictionary, and count by count the same totals and the same elected as dictionaries (only their order differs).
   [ballots_distinct]: the profile is a dictionary keyed by ballots - no two keys are equal as Python compares them
   (shared ranks as sets). *)
Theorem C10_stv_order : forall (cf : cfg) (votes votes' : list (ballot * Q)) (n : Z) (prev prev' caps : list (C * Z)),
  ballots_distinct votes -> Permutation votes votes' -> NoDup (map fst prev) -> Permutation prev prev' ->
  let t := stv cf votes n prev caps in
  let t' := stv cf votes' n prev' caps in
  t_stop t = t_stop t' /\
  (forall c, dget (t_seats t) c = dget (t_seats t') c) /\
  Permutation (t_seats t) (t_seats t') /\ NoDup (map fst (t_seats t)) /\
  Forall2 (fun x y => Permutation (fst x) (fst y) /\ Permutation (snd x) (snd y)) (t_counts t) (t_counts t').
Proof.
  intros cf votes votes' n prev prev' caps Hd Hp Hn Hpp t t'.
  destruct (stv_perm cf votes votes' n prev prev' caps Hd Hp Hn Hpp) as (H1 & H2 & H3 & H4).
  split; [exact H4|]. split; [intros c; apply dget_perm; assumption|]. split; [exact H3|]. split; [exact H2|exact H1].
Qed.

Definition C10_stv_cf : cfg :=
  Build_cfg (Some (fun v s => Qred (inject_Z (Qround.Qfloor (v / inject_Z (s + 1))) + 1))%Q) true false (-1)%Z.
Definition C10_stv_votes : list (ballot * Q) :=
  [([IP 1; IP 2; IP 3]%positive, 4#1); ([IP 2; IP 1]%positive, 7#2); ([IS [3;4]; IP 1]%positive, 2#1);
   ([IP 4; IS [1;2]]%positive, 2#1); ([IP 3]%positive, 1#1)]%Q.

(* non-vacuity: a profile with shared ranks satisfies the hypothesis; the two runs list the piles in different orders *)
Example C10_stv_example :
  ballots_distinct C10_stv_votes /\
  let caps := [(1%positive, 1%Z); (2%positive, 1%Z); (3%positive, 1%Z); (4%positive, 1%Z)] in
  let t := stv C10_stv_cf C10_stv_votes 2 [] caps in
  let t' := stv C10_stv_cf (rev C10_stv_votes) 2 [] caps in
  t_seats t = [(1%positive, 1%Z); (2%positive, 1%Z)] /\ t_seats t' = t_seats t /\ t_stop t = None /\
  option_map fst (hd_error (t_counts t)) = Some [(Some 1%positive, 5#1); (Some 2%positive, 7#2); (Some 4%positive, 3#1); (None, 1#1)]%Q /\
  option_map fst (hd_error (t_counts t')) = Some [(Some 4%positive, 3#1); (Some 2%positive, 7#2); (Some 1%positive, 5#1); (None, 1#1)]%Q.
Proof.
  split.
  - intros b b' Hb Hb' E. simpl in Hb, Hb'.
    repeat (destruct Hb as [<-|Hb];
      [repeat (destruct Hb' as [<-|Hb']; [first [reflexivity | (vm_compute in E; discriminate E)]|]); destruct Hb'|]).
    destruct Hb.
  - vm_compute. repeat split; reflexivity.
Qed.

(* Renaming equivariance of the modelled evaluators
   For every INJECTIVE renaming f : C -> C of the candidates (the only hypothesis), evaluating the renamed input gives the
   renamed output - EXACT equality (elected candidates, ties with their members, seat dictionaries, refusals / errors,
   for STV the whole trace), which is stronger than the comparison the property asks for (ties as sets).
   Proofs: Proofs/Equivariant.v (equivariant combinators: map / filter / find / fold / flat_map / stable sort-by-key commute with
   a renaming when their predicates / keys / steps do), Proofs/CondorcetRename_proofs.v, QDRename_proofs.v, STVRename_proofs.v,
   CardinalRename_proofs.v, PAVRename_proofs.v.
   Which models consult an ORDER on candidates (the only way a name could matter)?  None of Model/Condorcet.v,
   QuotaDistributor.v, STV.v, GetNBest.v, HighestAverages.v and none of SPAV / score / MJ in Cardinal.v: candidates are only ever
   compared with [ceqb] (Pos.eqb); iteration orders are insertion orders of the input (or the explicit [order] of Schulze).
   The single exception is [pav] (ProportionalApproval): [canon_set] (Pos.ltb) stands for the iteration order of a Python
   frozenset; C10_pav_iteration_order shows that order is immaterial up to the order of equally placed winners, and
   C10_rename_pav_exact_refuted that exact equality is indeed lost there (a modelling artefact, not a finding: the
   implementation iterates the frozenset in hash order and the property allows equally placed winners to swap).
   Renamings: [renp] pairwise dictionary, [renl] candidate-keyed dictionary, [renkd] result dictionary with Tie keys,
   [renv] ranked profile (shared ranks member by member), [renap] approval profile, [rens] score profile. *)
From VL Require Import Model.Cardinal Proofs.Equivariant Proofs.CondorcetRename_proofs Proofs.QDRename_proofs Proofs.STVRename_proofs
     Proofs.CardinalRename_proofs Proofs.PAVRename_proofs Proofs.ApprovalOrder_proofs.
From Coq Require Import Lia.
Close Scope Q_scope.
Close Scope Z_scope.
Open Scope nat_scope.

Definition injective (f : C -> C) : Prop := forall a b, f a = f b -> a = b.

Theorem C10_rename_condorcet_blocks : forall f, injective f -> forall v ties,
  candidates (renp f v) = map f (candidates v) /\ pairwise_wins (renp f v) ties = map (rp f) (pairwise_wins v ties) /\
  beat_counts (renp f v) = renl f (beat_counts v) /\ complete (renp f v) = renp f (complete v).
Proof. intros f Hf v t. exact (condorcet_blocks_ren f Hf v t). Qed.

Theorem C10_rename_condorcet_winner : forall f, injective f -> forall v,
  condorcet_winner (renp f v) = map f (condorcet_winner v).
Proof. intros f Hf v. exact (condorcet_winner_ren f Hf v). Qed.

Theorem C10_rename_copeland : forall f, injective f -> forall second_order v n,
  copeland second_order (renp f v) n = map (ren_res f) (copeland second_order v n).
Proof. intros f Hf so v n. exact (copeland_ren f Hf so v n). Qed.

Theorem C10_rename_minimax : forall f, injective f -> forall s v n,
  minimax s (renp f v) n = map (ren_res f) (minimax s v n).
Proof. intros f Hf s v n. exact (minimax_ren f Hf s v n). Qed.

(* [order] = the iteration order of the candidate set, renamed along *)
Theorem C10_rename_schulze : forall f, injective f -> forall v order n,
  schulze (renp f v) (map f order) n = map (ren_res f) (schulze v order n).
Proof. intros f Hf v o n. exact (schulze_ren f Hf v o n). Qed.

(* no hypothesis on the strengths: also on profiles with equal majorities the renamed run is the renamed result *)
Theorem C10_rename_ranked_pairs : forall f, injective f -> forall s v n,
  ranked_pairs s (renp f v) n = ren_cres f (ranked_pairs s v n).
Proof. intros f Hf s v n. exact (ranked_pairs_ren f Hf s v n). Qed.

Theorem C10_rename_kemeny : forall f, injective f -> forall v n,
  kemeny (renp f v) n = ren_cres f (kemeny v n).
Proof. intros f Hf v n. exact (kemeny_ren f Hf v n). Qed.

(* SmithSet (ties = true) and the Schwartz routine (ties = false) *)
Theorem C10_rename_smith_schwartz : forall f, injective f -> forall v ties,
  smith_schwartz (renp f v) ties = map f (smith_schwartz v ties).
Proof. intros f Hf v t. exact (smith_schwartz_ren f Hf v t). Qed.
Theorem C10_rename_schwartz_set : forall f, injective f -> forall v,
  schwartz_set (renp f v) = map f (schwartz_set v).
Proof. intros f Hf v. exact (Schwartz_proofs.schwartz_set_ren f Hf v). Qed.

Theorem C10_rename_quota_distributor : forall f, injective f ->
  forall (quota : Q -> Z -> Q) (accept_equal : bool) (pol : policy) (votes : list (C * Q)) (n : Z) (prev caps : list (C * Z)),
  qd_evaluate quota accept_equal pol (renl f votes) n (renl f prev) (renl f caps)
  = ren_qd f (qd_evaluate quota accept_equal pol votes n prev caps).
Proof. intros f Hf quota ae pol votes n prev caps. exact (qd_evaluate_ren f Hf quota ae pol votes n prev caps). Qed.

Theorem C10_rename_largest_remainder : forall f, injective f ->
  forall (quota : Q -> Z -> Q) (accept_equal : bool) (pol : policy) (votes : list (C * Q)) (n : Z) (prev caps : list (C * Z)),
  lr_evaluate quota accept_equal pol (renl f votes) n (renl f prev) (renl f caps)
  = ren_lr f (lr_evaluate quota accept_equal pol votes n prev caps).
Proof. intros f Hf quota ae pol votes n prev caps. exact (lr_evaluate_ren f Hf quota ae pol votes n prev caps). Qed.

Theorem C10_rename_quota_selector : forall f, injective f ->
  forall (quota : Q -> Z -> Q) (accept_equal select : bool) (votes : list (C * Q)) (n : Z),
  qsel_evaluate quota accept_equal select (renl f votes) n = ren_qs f (qsel_evaluate quota accept_equal select votes n).
Proof. intros f Hf quota ae sel votes n. exact (qsel_evaluate_ren f quota ae sel votes n). Qed.

(* the seats of a candidate read off a result dictionary *)
Theorem C10_rename_seats : forall f, injective f -> forall d c, kdget (renkd f d) (f c) = kdget d c.
Proof. intros f Hf d c. exact (kdget_ren f Hf d c). Qed.

(* The transferable-vote count: the whole trace - every count's totals and elected, the seats, the stop *)
Theorem C10_rename_stv : forall f, injective f ->
  forall (cf : cfg) (votes : list (ballot * Q)) (n : Z) (prev caps : list (C * Z)),
  stv cf (renv f votes) n (renl f prev) (renl f caps) = ren_trace f (stv cf votes n prev caps).
Proof. intros f Hf cf votes n prev caps. exact (stv_ren f Hf cf votes n prev caps). Qed.

Theorem C10_rename_spav : forall f, injective f -> forall votes n,
  spav (renap f votes) n = option_map (map f) (spav votes n).
Proof. intros f Hf votes n. exact (spav_ren f Hf votes n). Qed.

Theorem C10_rename_score_to_simple : forall f, injective f -> forall cf votes,
  score_to_simple cf (rens f votes) = ren_inl f (score_to_simple cf votes).
Proof. intros f Hf cf votes. exact (score_to_simple_ren f Hf cf votes). Qed.

Theorem C10_rename_score_voting : forall f, injective f -> forall cf votes n,
  score_voting cf (rens f votes) n = ren_rs f (score_voting cf votes n).
Proof. intros f Hf cf votes n. exact (score_voting_ren f Hf cf votes n). Qed.

Theorem C10_rename_majority_judgment : forall f, injective f -> forall plus cf votes n,
  majority_judgment plus cf (rens f votes) n = ren_rs f (majority_judgment plus cf votes n).
Proof. intros f Hf plus cf votes n. exact (majority_judgment_ren f Hf plus cf votes n). Qed.

(* PAV with an explicit iteration order of the candidate set ([pav] = [pav_on] over the sorted list) *)
Theorem C10_pav_on_canon : forall votes n, pav votes n = pav_on votes (canon_set (flat_map fst votes)) n.
Proof. exact pav_on_canon. Qed.

Theorem C10_rename_pav_on : forall f, injective f -> forall votes cands n,
  pav_on (renap f votes) (map f cands) n = ren_ares f (pav_on votes cands n).
Proof. intros f Hf votes cands n. exact (pav_on_ren f Hf votes cands n). Qed.

(* any two iteration orders of the candidate frozenset (every hash seed): both refuse (tied alternatives), or the two results
   are all plain winners, position by position of the same shape, with the same elected candidates *)
Theorem C10_pav_iteration_order : forall votes cands cands' n, Permutation cands cands' ->
  ares_equiv (pav_on votes cands n) (pav_on votes cands' n).
Proof. exact pav_on_perm. Qed.

Theorem C10_rename_pav : forall f, injective f -> forall votes n,
  ares_equiv (ren_ares f (pav votes n)) (pav (renap f votes) n).
Proof. intros f Hf votes n. exact (pav_rename f Hf votes n). Qed.

(* Ballot order for the approval rules (Proofs/ApprovalOrder_proofs.v): ProportionalApproval and
   SequentialProportionalApproval return the SAME answer - winners in the same order, the same refusal (tied alternatives /
   tie in a round) - whatever the insertion order of the approval profile; no hypothesis (weights of any sign, repeated
   ballots, repeated candidates inside a ballot) *)
Theorem C10_pav_order : forall votes votes' n, Permutation votes votes' -> pav votes' n = pav votes n.
Proof. exact ApprovalOrder_proofs.pav_order. Qed.

Theorem C10_spav_order : forall votes votes' n, Permutation votes votes' -> spav votes' n = spav votes n.
Proof. exact ApprovalOrder_proofs.spav_order. Qed.

Example C10_approval_order_example :
  let v := [([1; 2]%positive, 3#1); ([2; 3]%positive, 2#1); ([3]%positive, 2#1); ([1; 4]%positive, 1#2)]%Q in
  pav v 2 = AR_ok [Cand 2; Cand 3]%positive /\ pav (rev v) 2 = AR_ok [Cand 2; Cand 3]%positive /\
  spav v 3 = Some [2; 3; 1]%positive /\ spav (rev v) 3 = Some [2; 3; 1]%positive /\
  spav_round v [] = [(1%positive, 7#2); (2%positive, 5#1); (3%positive, 4#1); (4%positive, 1#2)]%Q /\
  map fst (spav_round (rev v) []) = [1; 4; 3; 2]%positive.
Proof. vm_compute. repeat split; reflexivity. Qed.

(* Ballot order for the score family (Proofs/ScoreOrder_proofs.v): the aggregated scores of ScoreToSimpleVotes - every
   configuration: sum / mean / lower median, the unscored-value rules, truncation, the minimum score count - end in the same
   error, or are the same dictionary in another insertion order with == scores ([orelD Qeq]: distinct keys on both sides, every
   candidate present in both or in neither, == values); hence ScoreVoting returns the same error or [res_equiv] selections *)
From VL Require Import Proofs.ScoreOrder_proofs Proofs.MJOrder_proofs.
Close Scope Q_scope.
Close Scope Z_scope.
Open Scope nat_scope.

Theorem C10_score_to_simple_order : forall cf votes votes', Permutation votes votes' ->
  orel (orelD Qeq) (score_to_simple cf votes) (score_to_simple cf votes').
Proof. exact score_to_simple_order. Qed.

Theorem C10_score_voting_order : forall cf votes votes' n, Permutation votes votes' ->
  orel res_equiv (score_voting cf votes n) (score_voting cf votes' n).
Proof. exact score_voting_order. Qed.

(* MajorityJudgment, both tie-breakers (Proofs/MJOrder_proofs.v): the same error, or [res_equiv] selections *)
Theorem C10_majority_judgment_order : forall plus cf votes votes' n, Permutation votes votes' ->
  orel res_equiv (majority_judgment plus cf votes n) (majority_judgment plus cf votes' n).
Proof. exact MJOrder_proofs.majority_judgment_order. Qed.

Example C10_majority_judgment_order_example :
  let cf := Build_score_cfg FMedianLow UNone 0%Z 0%Q 0%Q in
  let v := [([(1%positive, 3#1); (2%positive, 2#1); (3%positive, 2#1)], 2%Z); ([(1%positive, 2#1); (2%positive, 3#1); (3%positive, 2#1)], 1%Z);
            ([(1%positive, 2#1); (2%positive, 2#1); (3%positive, 1#1)], 2%Z)]%Q in
  score_to_simple cf v = inl [(1%positive, 2#1); (2%positive, 2#1); (3%positive, 2#1)]%Q /\
  majority_judgment true cf v 1 = inl [TieR [1; 2]]%positive /\ majority_judgment true cf (rev v) 1 = inl [TieR [1; 2]]%positive /\
  majority_judgment false cf v 2 = inl [Cand 1; Cand 2]%positive /\ majority_judgment false cf (rev v) 2 = inl [Cand 1; Cand 2]%positive.
Proof. vm_compute. repeat split; reflexivity. Qed.

(* read off: every candidate has == aggregated scores in the two runs *)
Theorem C10_score_to_simple_order_values : forall cf votes votes' agg agg', Permutation votes votes' ->
  score_to_simple cf votes = inl agg -> score_to_simple cf votes' = inl agg' ->
  NoDup (map fst agg) /\ NoDup (map fst agg') /\
  forall c, match dget agg c, dget agg' c with Some x, Some y => (x == y)%Q | None, None => True | _, _ => False end.
Proof.
  intros cf votes votes' agg agg' H E E'. pose proof (score_to_simple_order cf votes votes' H) as R. rewrite E, E' in R. exact R.
Qed.

(* non-vacuity: the two orders give dictionaries in different orders whose values are == but not equal (2#4 vs 1#2: the
   representative of a score is the first one inserted), and ties whose members are listed in different orders *)
Example C10_score_order_example :
  let cf := Build_score_cfg FMedianLow UNone 0%Z 0%Q 0%Q in
  let v := [([(1%positive, 3#1); (3%positive, 2#4)], 1%Z); ([(1%positive, 1#2); (3%positive, 1#2)], 1%Z); ([(2%positive, 1#2)], 2%Z)]%Q in
  score_to_simple cf v = inl [(1%positive, 1#2); (3%positive, 2#4); (2%positive, 1#2)]%Q /\
  score_to_simple cf (rev v) = inl [(2%positive, 1#2); (1%positive, 1#2); (3%positive, 1#2)]%Q /\
  score_voting cf v 1 = inl [TieR [1; 3; 2]]%positive /\ score_voting cf (rev v) 1 = inl [TieR [2; 1; 3]]%positive.
Proof. vm_compute. repeat split; reflexivity. Qed.

(* Symmetric candidates (the closing sentence of the property)
   A symmetry of an input: an involution t of the candidates (t (t c) = c, e.g. a transposition) such that the renamed input is
   the same dictionary in another insertion order.  Composing order independence with renaming equivariance
   (Proofs/Symmetric_proofs.v): a and t a are elected alike and tied alike / hold the same seats. *)
From VL Require Import Proofs.Symmetric_proofs.
Close Scope Q_scope.
Close Scope Z_scope.
Open Scope nat_scope.

Theorem C10_symmetric_copeland : forall t, (forall c, t (t c) = c) -> forall v second_order n,
  NoDup (map fst v) -> Permutation v (renp t v) -> forall a,
  (In (Cand a) (copeland second_order v n) <-> In (Cand (t a)) (copeland second_order v n)) /\
  ((exists T, In (TieR T) (copeland second_order v n) /\ In a T) <-> (exists T, In (TieR T) (copeland second_order v n) /\ In (t a) T)).
Proof. intros t Ht v so n Hn Hp. exact (copeland_symmetric t Ht v so n (conj Hn Hp)). Qed.

Theorem C10_symmetric_minimax : forall t, (forall c, t (t c) = c) -> forall v s n,
  NoDup (map fst v) -> Permutation v (renp t v) -> forall a,
  (In (Cand a) (minimax s v n) <-> In (Cand (t a)) (minimax s v n)) /\
  ((exists T, In (TieR T) (minimax s v n) /\ In a T) <-> (exists T, In (TieR T) (minimax s v n) /\ In (t a) T)).
Proof. intros t Ht v s n Hn Hp. exact (minimax_symmetric t Ht v s n (conj Hn Hp)). Qed.

Theorem C10_symmetric_schulze : forall t, (forall c, t (t c) = c) -> forall v order n,
  NoDup (map fst v) -> Permutation v (renp t v) -> (forall p k, In (p, k) v -> (0 <= k)%Z) -> incl (candidates v) order -> forall a,
  (In (Cand a) (schulze v order n) <-> In (Cand (t a)) (schulze v order n)) /\
  ((exists T, In (TieR T) (schulze v order n) /\ In a T) <-> (exists T, In (TieR T) (schulze v order n) /\ In (t a) T)).
Proof. intros t Ht v o n Hn Hp Hnn Hi. exact (schulze_symmetric t Ht v o n (conj Hn Hp) Hnn Hi). Qed.

(* a candidate with a symmetric twin is never THE Condorcet winner; the Kemeny answer and the Smith set are invariant *)
Theorem C10_symmetric_condorcet_winner : forall t, (forall c, t (t c) = c) -> forall v,
  NoDup (map fst v) -> Permutation v (renp t v) -> forall c, In c (condorcet_winner v) -> t c = c.
Proof. intros t Ht v Hn Hp. exact (condorcet_winner_symmetric t Ht v (conj Hn Hp)). Qed.

Theorem C10_symmetric_kemeny : forall t, (forall c, t (t c) = c) -> forall v n,
  NoDup (map fst v) -> Permutation v (renp t v) -> ren_cres t (kemeny v n) = kemeny v n.
Proof. intros t Ht v n Hn Hp. exact (kemeny_symmetric t Ht v n (conj Hn Hp)). Qed.

Theorem C10_symmetric_smith : forall t, (forall c, t (t c) = c) -> forall v,
  NoDup (map fst v) -> Permutation v (renp t v) -> (forall p k, In (p, k) v -> (0 <= k)%Z) -> forall a,
  In a (smith_schwartz v true) <-> In (t a) (smith_schwartz v true).
Proof. intros t Ht v Hn Hp Hnn. exact (smith_symmetric t Ht v (conj Hn Hp) Hnn). Qed.
Theorem C10_symmetric_schwartz : forall t, (forall c, t (t c) = c) -> forall v,
  NoDup (map fst v) -> Permutation v (renp t v) -> (forall p k, In (p, k) v -> (0 <= k)%Z) -> forall a,
  In a (schwartz_set v) <-> In (t a) (schwartz_set v).
Proof. exact Schwartz_proofs.schwartz_symmetric. Qed.

(* seats: QuotaDistributor / LargestRemainder (caps with symmetric lookups), the STV count and highest averages (caps and,
   for highest averages, previous gains listed symmetrically, e.g. absent) *)
Theorem C10_symmetric_quota_distributor : forall t, (forall c, t (t c) = c) -> forall quota accept_equal pol votes n prev caps s,
  quota_ext quota -> NoDup (map fst votes) -> Permutation votes (renl t votes) -> NoDup (map fst prev) -> Permutation prev (renl t prev) ->
  (forall c, dget caps (t c) = dget caps c) ->
  qd_evaluate quota accept_equal pol votes n prev caps = QD_ok s -> forall a, kdget s (t a) = kdget s a.
Proof. intros t Ht. exact (quota_distributor_symmetric t Ht). Qed.

Theorem C10_symmetric_largest_remainder : forall t, (forall c, t (t c) = c) -> forall quota accept_equal pol votes n prev caps s,
  quota_ext quota -> NoDup (map fst votes) -> Permutation votes (renl t votes) -> NoDup (map fst prev) -> Permutation prev (renl t prev) ->
  (forall c, dget caps (t c) = dget caps c) ->
  lr_evaluate quota accept_equal pol votes n prev caps = LR_ok s -> forall a, kdget s (t a) = kdget s a.
Proof. intros t Ht. exact (largest_remainder_symmetric t Ht). Qed.

Theorem C10_symmetric_stv : forall t, (forall c, t (t c) = c) -> forall cf votes n prev caps,
  ballots_distinct votes -> Permutation votes (renv t votes) -> NoDup (map fst prev) -> Permutation prev (renl t prev) -> renl t caps = caps ->
  forall a, dget (t_seats (stv cf votes n prev caps)) (t a) = dget (t_seats (stv cf votes n prev caps)) a.
Proof. intros t Ht. exact (stv_symmetric t Ht). Qed.

Theorem C10_symmetric_highest_averages : forall t, (forall c, t (t c) = c) -> forall (d : Z -> Q) votes n prev caps,
  divisor_ok d -> (forall c v, In (c, v) votes -> (0 <= v)%Q) -> NoDup (map fst votes) -> (forall c, (0 <= dget_or prev c 0)%Z) ->
  Permutation votes (renl t votes) -> renl t prev = prev -> renl t caps = caps ->
  forall a, dget_or (st_totals (final_state d votes n prev caps)) (t a) 0%Z = dget_or (st_totals (final_state d votes n prev caps)) a 0%Z.
Proof. intros t Ht. exact (highest_averages_symmetric t Ht). Qed.

(* non-vacuity: the transposition (1 2); a pairwise dictionary in which 1 and 2 are symmetric (they tie each other, both beat 3) *)
Definition swap12 (c : C) : C := if (c =? 1)%positive then 2%positive else if (c =? 2)%positive then 1%positive else c.
Lemma swap12_involutive : forall c, swap12 (swap12 c) = c.
Proof.
  intros c. unfold swap12. destruct (c =? 1)%positive eqn:E1; [apply Pos.eqb_eq in E1; subst; reflexivity|].
  destruct (c =? 2)%positive eqn:E2; [apply Pos.eqb_eq in E2; subst; reflexivity|]. rewrite E1, E2. reflexivity.
Qed.
Example C10_symmetric_example :
  let v := mk_pv [(1,2,2);(2,1,2);(1,3,3);(3,1,1);(2,3,3);(3,2,1)]%Z in
  NoDup (map fst v) /\ Permutation v (renp swap12 v) /\ renp swap12 v <> v /\
  copeland false v 1 = [TieR [1; 2]]%positive /\ schulze v [1; 2; 3]%positive 2 = [Cand 1; Cand 2]%positive /\
  Permutation [(1%positive, 5#1); (2%positive, 5#1); (3%positive, 2#1)]%Q (renl swap12 [(1%positive, 5#1); (2%positive, 5#1); (3%positive, 2#1)]%Q) /\
  lr_evaluate (quota_fn (QNamed 1)) true PSubtract [(1%positive, 5#1); (2%positive, 5#1); (3%positive, 2#1)]%Q 3 [] []
    = LR_ok [(K 1%positive, 1%Z); (K 2%positive, 1%Z); (K 3%positive, 1%Z)].
Proof.
  cbv zeta. split; [apply nodup_keys_b_sound; vm_compute; reflexivity|].
  split; [apply list_perm_b_sound; vm_compute; reflexivity|]. split; [vm_compute; discriminate|].
  split; [vm_compute; reflexivity|]. split; [vm_compute; reflexivity|]. split; [vm_compute; apply perm_swap|vm_compute; reflexivity].
Qed.

(* "f : C -> C injective" is no restriction with respect to "injective on the candidates present": a function injective on a
   finite set S agrees on S with a globally injective one (and renaming an input only applies f to the candidates present) *)
Theorem C10_rename_injective_extension : forall (f : C -> C) (S : list C),
  (forall a b, In a S -> In b S -> f a = f b -> a = b) -> exists g, injective g /\ forall c, In c S -> g c = f c.
Proof.
  intros f S H. exists (extend f S). split; [intros a b; exact (extend_injective f S H a b)|exact (extend_agrees f S)].
Qed.

(* Non-vacuity: a renaming that REVERSES the order of the names 1..10 *)
Definition rev10 (c : C) : C := if (c <=? 10)%positive then (11 - c)%positive else c.
Lemma rev10_injective : injective rev10.
Proof.
  intros a b. unfold rev10. destruct (a <=? 10)%positive eqn:Ea, (b <=? 10)%positive eqn:Eb;
    try apply Pos.leb_le in Ea; try apply Pos.leb_le in Eb; try apply Pos.leb_gt in Ea; try apply Pos.leb_gt in Eb; intros H; lia.
Qed.

(* ... exact equality is lost for [pav] itself: two winners with equal satisfaction drop come out in the order of the NAMES
   (the canonical iteration order), so the renamed run lists them the other way round - equivalent, not equal *)
Theorem C10_rename_pav_exact_refuted : exists f votes n, injective f /\ pav (renap f votes) n <> ren_ares f (pav votes n).
Proof.
  exists rev10, [([1; 2]%positive, 1%Q)], 2. split; [exact rev10_injective|]. vm_compute. discriminate.
Qed.

Example C10_rename_example :
  let v := mk_pv [(1,2,3);(2,1,1);(2,3,3);(3,2,1);(3,1,3);(1,3,1);(1,4,4);(4,1,0);(2,4,4);(4,2,0);(3,4,2);(4,3,2)]%Z in
  minimax Margins (renp rev10 v) 1 = [TieR [9; 8; 10]]%positive /\ minimax Margins v 1 = [TieR [2; 3; 1]]%positive /\
  schulze (renp rev10 v) (map rev10 [1; 2; 3; 4]%positive) 1 = [TieR [10; 9; 8]]%positive /\
  ranked_pairs WinningVotes (renp rev10 v) 2 = CR_ok [Cand 10; Cand 9]%positive /\
  qd_evaluate (quota_fn (QNamed 7)) true PSubtract (renl rev10 [(1%positive, 30#1); (2%positive, 30#1); (3%positive, 7#1)]%Q) 3 [] []
    = QD_ok [(K 10%positive, 1%Z); (K 9%positive, 1%Z); (KT [10%positive; 9%positive], 1%Z)] /\
  t_seats (stv C10_stv_cf (renv rev10 C10_stv_votes) 2 [] (renl rev10 [(1%positive, 1%Z); (2%positive, 1%Z); (3%positive, 1%Z); (4%positive, 1%Z)]))
    = [(10%positive, 1%Z); (9%positive, 1%Z)] /\
  pav [([1; 2]%positive, 1%Q)] 2 = AR_ok [Cand 1; Cand 2]%positive /\
  pav (renap rev10 [([1; 2]%positive, 1%Q)]) 2 = AR_ok [Cand 9; Cand 10]%positive.
Proof. vm_compute. repeat split; reflexivity. Qed.

(* Allocated score with fixes/C12-allocated-score-exhausted.diff (Model/AllocScore.v, the _x definitions).
   On the pinned tree the known class C10-allocated-score is "a crash under one presentation, an answer under another": the repaired
   loop has NO error outcome, under any iteration order of the tied sets (the only place where names / hash seed / ballot
   order reach the count) - so with the patch that class is empty. *)
From VL Require Model.AllocScore Proofs.AllocScore_proofs Proofs.AllocRepair_proofs.
Theorem C10_allocated_score_crash_free : forall ra qs orders orders' (votes : AllocScore.wprofile) n,
  AllocScore.ra_exhausted ra = true -> AllocScore_proofs.wpos votes ->
  (0 < AllocScore.ac_quota (AllocScore.alloc_cfg qs orders votes n [] (map (fun c => (c, 1%Z)) (AllocScore.all_scored votes))))%Q ->
  (AllocScore.quota_divides_by_seats qs && Nat.eqb n 0)%bool = false ->
  (exists r, AllocScore.alloc_select_x ra qs orders votes n = inl r) /\
  (exists r', AllocScore.alloc_select_x ra qs orders' votes n = inl r').
Proof.
  intros ra qs orders orders' votes n Hra Hp Hq Hz. split.
  - exact (AllocRepair_proofs.alloc_select_x_answers ra Hra qs orders votes n Hp Hq Hz).
  - exact (AllocRepair_proofs.alloc_select_x_answers ra Hra qs orders' votes n Hp Hq Hz).
Qed.

(* what stays open (known finding C10-allocated-score, narrowed): a round that seats several level leaders spends their
   quotas one after the other in the iteration order of the tie, so the LATER rounds can depend on it.
   {C:1} x 2, {A:0,B:1,D:1} x 2, {A:0,B:2,C:2} x 1, three seats, Droop: B and C share the lead; the two orders of seating
   them end with D plainly elected, or with the tie {A, D}.  The choice between level leaders needs a tie-breaking policy
   (maintainers' decision, as for C12-allocated-score-tie-second). *)
Theorem C10_allocated_score_tie_order_refuted : exists (votes : AllocScore.wprofile) r r',
  AllocScore.alloc_select_x AllocScore.arepaired (Quota.QNamed 3) [[2; 3]%positive] votes 3 = inl r /\
  AllocScore.alloc_select_x AllocScore.arepaired (Quota.QNamed 3) [[3; 2]%positive] votes 3 = inl r' /\
  In (Cand 4%positive) r /\ ~ In (Cand 4%positive) r'.
Proof.
  pose (b := fun (l : list (positive * Z)) => map (fun cs : positive * Z => (fst cs, inject_Z (snd cs))) l).
  exists [(b [(3%positive, 1%Z)], 2%Q); (b [(1%positive, 0%Z); (2%positive, 1%Z); (4%positive, 1%Z)], 2%Q);
          (b [(1%positive, 0%Z); (2%positive, 2%Z); (3%positive, 2%Z)], 1%Q)].
  eexists. eexists. split; [vm_compute; reflexivity|]. split; [vm_compute; reflexivity|]. split.
  - cbn. tauto.
  - cbn. intros [H|[H|[H|[]]]]; discriminate H.
Qed.

Print Assumptions C10_count_characterisation.
Print Assumptions C10_order.
Print Assumptions C10_symmetric.
Print Assumptions C10_rename.
Print Assumptions C10_ballot_order.
Print Assumptions C10_highest_averages_order.
Print Assumptions C10_highest_averages_rename.
Print Assumptions C10_condorcet_tied_members.
Print Assumptions C10_condorcet_unique_position.
Print Assumptions C10_condorcet_pget_order.
Print Assumptions C10_condorcet_pairwise_wins_order.
Print Assumptions C10_condorcet_winner_order.
Print Assumptions C10_condorcet_copeland_order.
Print Assumptions C10_condorcet_copeland_positions.
Print Assumptions C10_condorcet_minimax_order.
Print Assumptions C10_condorcet_schulze_order.
Print Assumptions C10_condorcet_schulze_iteration_order.
Print Assumptions C10_condorcet_kemeny_order.
Print Assumptions C10_condorcet_smith_order.
Print Assumptions C10_condorcet_schwartz_order_refuted.
Print Assumptions C10_schwartz_order.
Print Assumptions C10_condorcet_ranked_pairs_order.
Print Assumptions C10_condorcet_ranked_pairs_order_refuted.
Print Assumptions C10_quota_distributor_order.
Print Assumptions C10_largest_remainder_order.
Print Assumptions C10_quota_fn_ext.
Print Assumptions C10_stv_order.
Print Assumptions C10_rename_condorcet_blocks.
Print Assumptions C10_rename_condorcet_winner.
Print Assumptions C10_rename_copeland.
Print Assumptions C10_rename_minimax.
Print Assumptions C10_rename_schulze.
Print Assumptions C10_rename_ranked_pairs.
Print Assumptions C10_rename_kemeny.
Print Assumptions C10_rename_smith_schwartz.
Print Assumptions C10_rename_schwartz_set.
Print Assumptions C10_rename_quota_distributor.
Print Assumptions C10_rename_largest_remainder.
Print Assumptions C10_rename_quota_selector.
Print Assumptions C10_rename_seats.
Print Assumptions C10_rename_stv.
Print Assumptions C10_rename_spav.
Print Assumptions C10_rename_score_to_simple.
Print Assumptions C10_rename_score_voting.
Print Assumptions C10_rename_majority_judgment.
Print Assumptions C10_pav_on_canon.
Print Assumptions C10_rename_pav_on.
Print Assumptions C10_pav_iteration_order.
Print Assumptions C10_rename_pav.
Print Assumptions C10_rename_pav_exact_refuted.
Print Assumptions C10_rename_injective_extension.
Print Assumptions C10_pav_order.
Print Assumptions C10_spav_order.
Print Assumptions C10_symmetric_copeland.
Print Assumptions C10_symmetric_minimax.
Print Assumptions C10_symmetric_schulze.
Print Assumptions C10_symmetric_condorcet_winner.
Print Assumptions C10_symmetric_kemeny.
Print Assumptions C10_symmetric_smith.
Print Assumptions C10_symmetric_schwartz.
Print Assumptions C10_symmetric_quota_distributor.
Print Assumptions C10_symmetric_largest_remainder.
Print Assumptions C10_symmetric_stv.
Print Assumptions C10_symmetric_highest_averages.
Print Assumptions C10_score_to_simple_order.
Print Assumptions C10_score_voting_order.
Print Assumptions C10_score_to_simple_order_values.
Print Assumptions C10_majority_judgment_order.
Print Assumptions C10_allocated_score_crash_free.
Print Assumptions C10_allocated_score_tie_order_refuted.
