(* Generated-vs-handwritten tie for RankedToCondorcetVotes.convert (votelib/convert.py; C13), both unranked_at_bottom settings.

   tools/py2v.py regenerates the BODY of convert() into Gen/ConvertPairs.v on every run: the loop over the ballots, the
   loop that flags the shared ranks and flattens the ranking, the conditional definition of `unranked`, and the four nested loops
   over upper rank / upper candidate / lower rank / lower candidate (and over the unranked candidates).  The source is dynamically
   typed (an item is used as a candidate or as a set depending on is_bulk[i]; upper_item holds an item or a 1-tuple of it): the
   generated code works on [item] / [pyv] values with the operations that may raise (is_bulk[i]: IndexError, iterating a plain
   candidate: TypeError, reading `unranked` when it was not bound: UnboundLocalError) recorded in an exception flag that is part of
   every loop state (Prelude/PyConv.v).  votelib.util.all_ranked_candidates (a generator with a while loop) is NOT translated: it
   is a function parameter [f] of the generated definition, and the theorem holds for every f:

     GenTie_ConvertPairs_condorcet  for every f, both flags, every profile: the generated converter raises nothing and returns a
                                    dictionary o with  dsim o (dconv (img_condorcet bottom (canon_set (f votes))) votes)
     GenTie_ConvertPairs_run_kind   if f lists exactly the candidates of the profile (canon_set (f v) = cands_ranked v), o is what
                                    run_kind (KCondorcet bottom) of Model/Convert2.v answers for a decodable profile

   [dsim] (Proofs/ChainCands_proofs.v) is equality of dictionaries as Python compares them - and as the C13 correspondence and the
   C13 theorems (value .. k == ..) read them: distinct keys, the same key set, equal counts; the order of first insertion is not
   compared.  It differs here: the code adds, for each upper candidate, the lower ranked candidates and then the unranked ones; the
   model lists all ranked pairs of a ballot first.  In between stands [deq] (same order) with the image in the order of the code
   ([imgc], lemma ks_ballot_img) - the model's image is a permutation of it (imgc_perm).
   Frozensets are iterated in ascending order of their canonical member list, all_cands.difference(ranked) is a filter of it
   (the order parameter of the model).

   Proof: [gen_condorcet_keys] - top-down, one characterising lemma per loop ([ballots_char], [loopA_char], [fold_keys]: a loop
   whose every iteration adds to a list of keys and leaves the exception flag alone), the index facts from [enum_in] /
   [py_index_map]; then list algebra. *)
From Coq Require Import ZArith QArith List Bool Lia Arith Permutation.
From VL Require Import Prelude.Sx Prelude.PyDict Prelude.GDict Prelude.PyNum Prelude.PyList Prelude.PySeq Prelude.PyConv Model.GetNBest
     Model.Convert Model.Convert2 Proofs.Convert_proofs Proofs.Convert2_proofs Proofs.JR_proofs Proofs.ChainCands_proofs Proofs.GenConvert_proofs.
From VL Require Gen.ConvertPairs.
Import ListNotations.
Open Scope Q_scope.

(* [adds w ks c]: c[k] += w for the keys k of ks, in order *)
Definition adds (w : Q) (ks : list sx) (c : pydict) : pydict := fold_left (fun c k => py_dd_add c k w) ks c.

Lemma adds_app w a b c : adds w (a ++ b) c = adds w b (adds w a c).
Proof. unfold adds. apply fold_left_app. Qed.

(* a loop whose every iteration adds to the keys [ks x] and leaves the exception flag alone *)
Lemma fold_keys {X} (F : pydict * option cvexn -> X -> pydict * option cvexn) (ks : X -> list sx) (w : Q) (l : list X) :
  (forall x, In x l -> forall c e, F (c, e) x = (adds w (ks x) c, e)) ->
  forall c e, fold_left F l (c, e) = (adds w (flat_map ks l) c, e).
Proof.
  induction l as [|x l IH]; intros H c e; cbn [fold_left flat_map]; [reflexivity|].
  rewrite H by (left; reflexivity). rewrite IH by (intros y Hy; apply H; right; exact Hy). rewrite adds_app. reflexivity.
Qed.

Lemma enum_in_from {X} (l : list X) : forall k j y,
  In (j, y) (combine (map Z.of_nat (seq k (length l))) l) -> exists n, j = Z.of_nat (k + n) /\ nth_error l n = Some y.
Proof.
  induction l as [|x l IH]; intros k j y H; cbn [length seq map combine In] in H; [destruct H|].
  destruct H as [H|H].
  - injection H as <- <-. exists 0%nat. split; [f_equal; lia|reflexivity].
  - destruct (IH _ _ _ H) as (n & E & N). exists (S n). split; [rewrite E; f_equal; lia|exact N].
Qed.

Lemma enum_in {X} (l : list X) j y : In (j, y) (py_enumerate l) -> exists n, j = Z.of_nat n /\ nth_error l n = Some y.
Proof.
  unfold py_enumerate, py_range, py_len. rewrite Nat2Z.id. intros H. destruct (enum_in_from l 0 j y H) as (n & E & N).
  exists n. split; [exact E|exact N].
Qed.

Lemma py_index_map {X Y} (f : X -> Y) (l : list X) n y : nth_error l n = Some y -> py_index (map f l) (Z.of_nat n) = Some (f y).
Proof.
  intros H. unfold py_index. destruct (0 <=? Z.of_nat n)%Z eqn:E; [|apply Z.leb_gt in E; lia].
  rewrite Nat2Z.id. rewrite nth_error_map, H. reflexivity.
Qed.

Lemma nth_error_skipn' {X} (l : list X) : forall k n, nth_error (skipn k l) n = nth_error l (k + n).
Proof. induction l as [|x l IH]; intros [|k] n; cbn [skipn nth_error plus]; try reflexivity; [destruct n; reflexivity|apply IH]. Qed.

(* the first loop over the ranking, whatever its body: the flags, the flattened ranking (as plain items), the exception flag untouched *)
Lemma loopA_char (F : list bool * (list item * option cvexn) -> item -> list bool * (list item * option cvexn)) (r : ranked) :
  (forall b rk e it, F (b, (rk, e)) it = (b ++ [py_is_set it], (rk ++ map IP (members it), e))) ->
  forall b rk e, fold_left F r (b, (rk, e)) = (b ++ map py_is_set r, (rk ++ map IP (flatten r), e)).
Proof.
  intros H. induction r as [|i r IH]; intros b rk e; cbn [fold_left map flatten flat_map]; [rewrite !app_nil_r; reflexivity|].
  rewrite H, IH, map_app, <- !app_assoc. reflexivity.
Qed.

Lemma diff_items all l : py_set_difference_items all (map IP l) = set_diff all l.
Proof.
  unfold py_set_difference_items, set_diff. apply filter_ext. intros c. f_equal.
  induction l as [|x l IH]; cbn [map existsb cmem]; [reflexivity|]. rewrite IH. reflexivity.
Qed.

Definition pair_key (u l : C) : sx := L [kc u; kc l].

Lemma ballots_char (F : pydict * option cvexn -> ranked * Q -> pydict * option cvexn) (ks : ranked -> list sx) votes :
  (forall r w c e, F (c, e) (r, w) = (adds w (ks r) c, e)) ->
  forall c e, fold_left F votes (c, e) = (fold_left (fun c bw => adds (snd bw) (ks (fst bw)) c) votes c, e).
Proof.
  intros H. induction votes as [|[r w] votes IH]; intros c e; cbn [fold_left fst snd]; [reflexivity|]. rewrite H, IH. reflexivity.
Qed.

Lemma py_try_some {X} e (v : X) x : py_try e (Some v) x = e.
Proof. destruct e; reflexivity. Qed.

Lemma py_slice_from_nat {X} (l : list X) n : py_slice_from l (Z.of_nat n + 1) = skipn (n + 1) l.
Proof.
  unfold py_slice_from. destruct (0 <=? Z.of_nat n + 1)%Z eqn:E; [|apply Z.leb_gt in E; lia].
  f_equal. lia.
Qed.

(* the keys one ballot adds to, in the order of the code *)
Definition ks_low (r : ranked) (u : item) (i : Z) : list sx :=
  flat_map (fun jy : Z * item => flat_map (fun l => [py_key_tuple2 (kitem u) (kitem l)]) (map IP (members (snd jy))))
           (py_enumerate (py_slice_from r (i + 1))).
Definition ks_up (bottom : bool) (unr : list C) (r : ranked) (ix : Z * item) : list sx :=
  flat_map (fun u => ks_low r u (fst ix) ++ (if bottom then flat_map (fun c => [py_key_tuple2 (kitem u) (kc c)]) unr else []))
           (map IP (members (snd ix))).
Definition ks_ballot (bottom : bool) (all : list C) (r : ranked) : list sx :=
  flat_map (ks_up bottom (set_diff all (flatten r)) r) (py_enumerate r).

Ltac nrm := cbv beta iota zeta; cbn [fst snd].

Lemma gen_condorcet_keys f bottom votes :
  Gen.ConvertPairs.RankedToCondorcetVotes_convert f bottom votes =
  inl (fold_left (fun c bw => adds (snd bw) (ks_ballot bottom (py_frozenset (f votes)) (fst bw)) c) votes []).
Proof.
  unfold Gen.ConvertPairs.RankedToCondorcetVotes_convert. cbv zeta.
  match goal with |- context [fold_left ?F votes ?st] =>
    rewrite (ballots_char F (ks_ballot bottom (py_frozenset (f votes))) votes) end; [reflexivity|].
  intros r w c e. nrm.
  match goal with |- context [fold_left ?F r (?b0, (?r0, ?e0))] => rewrite (loopA_char F r) end.
  2:{ intros b rk e1 [cc|ll]; nrm; cbn [py_is_set py_item_iter py_val members map]; [reflexivity|]. rewrite py_try_some. reflexivity. }
  nrm. cbn [app]. rewrite diff_items.
  unfold ks_ballot. set (unr := set_diff (py_frozenset (f votes)) (flatten r)).
  (* the exception flag stays as it is: every index is in range, every iterated value is iterable, unranked is bound when read *)
  assert (L5 : forall (u : item) (n : nat) (F : pydict * option cvexn -> Z * item -> pydict * option cvexn),
     (forall jy c2 e2, F (c2, e2) jy =
        (let '(lower_item, exn4) :=
           if negb (py_val (py_index (map py_is_set r) (Z.of_nat n + 1 + fst jy)) false)
           then (VT [snd jy], py_try e2 (py_index (map py_is_set r) (Z.of_nat n + 1 + fst jy)) CvIndexError)
           else (VI (snd jy), py_try e2 (py_index (map py_is_set r) (Z.of_nat n + 1 + fst jy)) CvIndexError) in
         let '(counts2, exn5) :=
           fold_left (fun (st5_ : pydict * option cvexn) (it5_ : item) =>
                        let '(counts2, exn5) := st5_ in (py_dd_add counts2 (py_key_tuple2 (kitem u) (kitem it5_)) w, exn5))
                     (py_val (py_iter_v lower_item) []) (c2, py_try exn4 (py_iter_v lower_item) CvTypeError) in
         (counts2, exn5))) ->
     forall c1 e1, fold_left F (py_enumerate (py_slice_from r (Z.of_nat n + 1))) (c1, e1) = (adds w (ks_low r u (Z.of_nat n)) c1, e1)).
  { intros u n F HF c1 e1. unfold ks_low. apply fold_keys. intros [j y] Hj c2 e2. rewrite HF. nrm.
    destruct (enum_in _ _ _ Hj) as (m & -> & Hm). rewrite py_slice_from_nat, nth_error_skipn' in Hm.
    replace (Z.of_nat n + 1 + Z.of_nat m)%Z with (Z.of_nat (n + 1 + m)) by lia.
    rewrite (py_index_map py_is_set r _ y Hm), py_try_some. cbn [py_val].
    destruct y as [cy|ly]; cbn [py_is_set negb]; nrm; cbn [py_iter_v py_item_iter py_val members map]; rewrite py_try_some.
    all: rewrite (fold_keys _ (fun l => [py_key_tuple2 (kitem u) (kitem l)]) w) by (intros l _ c3 e3; reflexivity); reflexivity. }
  destruct bottom; nrm.
  - match goal with |- context [fold_left ?F (py_enumerate r) (c, e)] =>
      rewrite (fold_keys F (ks_up true unr r) w (py_enumerate r)) end; [reflexivity|].
    intros [i x] Hin c0 e0. nrm. destruct (enum_in _ _ _ Hin) as (n & -> & Hn).
    rewrite (py_index_map py_is_set r n x Hn), py_try_some. cbn [py_val]. unfold ks_up. cbn [fst snd].
    destruct x as [cx|lx]; cbn [py_is_set negb]; nrm; cbn [py_iter_v py_item_iter py_val members map]; rewrite py_try_some.
    all: match goal with |- context [fold_left ?F ?l (?cc0, ?ee0)] =>
      rewrite (fold_keys F (fun u => ks_low r u (Z.of_nat n) ++ flat_map (fun c => [py_key_tuple2 (kitem u) (kc c)]) unr) w l) end; [reflexivity|].
    all: intros u _ c1 e1; nrm.
    all: match goal with |- context [fold_left ?F (py_enumerate _) (?cc1, ?ee1)] => rewrite (L5 u n F) by (intros [j y] c2 e2; reflexivity) end; nrm.
    all: cbn [py_val]; rewrite py_try_some.
    all: rewrite (fold_keys _ (fun c => [py_key_tuple2 (kitem u) (kc c)]) w) by (intros l _ c3 e3; reflexivity).
    all: rewrite adds_app; reflexivity.
  - match goal with |- context [fold_left ?F (py_enumerate r) (c, e)] =>
      rewrite (fold_keys F (ks_up false unr r) w (py_enumerate r)) end; [reflexivity|].
    intros [i x] Hin c0 e0. nrm. destruct (enum_in _ _ _ Hin) as (n & -> & Hn).
    rewrite (py_index_map py_is_set r n x Hn), py_try_some. cbn [py_val]. unfold ks_up. cbn [fst snd].
    destruct x as [cx|lx]; cbn [py_is_set negb]; nrm; cbn [py_iter_v py_item_iter py_val members map]; rewrite py_try_some.
    all: match goal with |- context [fold_left ?F ?l (?cc0, ?ee0)] =>
      rewrite (fold_keys F (fun u => ks_low r u (Z.of_nat n) ++ []) w l) end; [reflexivity|].
    all: intros u _ c1 e1; nrm.
    all: match goal with |- context [fold_left ?F (py_enumerate _) (?cc1, ?ee1)] => rewrite (L5 u n F) by (intros [j y] c2 e2; reflexivity) end; nrm.
    all: rewrite app_nil_r; reflexivity.
Qed.

(* the key list of one ballot, as a per-ballot image in the order of the code *)
Lemma adds_deq w ks a b : deq a b -> deq (adds w ks a) (fold_left (madd w) (map (fun k => (k, 1)) ks) b).
Proof.
  unfold adds. intros H. apply (inner_char (fun k : sx => k) (fun _ => w) (fun _ => 1) w ks); [|exact H].
  intros x _. symmetry. apply Qmult_1_l.
Qed.

Definition P (u : C) (ls : list C) : list (sx * Q) := map (fun l => (pair_key u l, 1)) ls.
Fixpoint imgc (bottom : bool) (unr : list C) (r : ranked) : list (sx * Q) :=
  match r with
  | [] => []
  | x :: t => flat_map (fun u => P u (flatten t) ++ (if bottom then P u unr else [])) (members x) ++ imgc bottom unr t
  end.

Lemma fm_map {X Y Z} (f : Y -> list Z) (g : X -> Y) l : flat_map f (map g l) = flat_map (fun x => f (g x)) l.
Proof. induction l as [|x l IH]; cbn [map flat_map]; [reflexivity|]. rewrite IH. reflexivity. Qed.
Lemma map_fm {X Y Z} (h : Y -> Z) (f : X -> list Y) l : map h (flat_map f l) = flat_map (fun x => map h (f x)) l.
Proof. induction l as [|x l IH]; cbn [map flat_map]; [reflexivity|]. rewrite map_app, IH. reflexivity. Qed.
Lemma fm_single {X Y} (f : X -> Y) l : flat_map (fun x => [f x]) l = map f l.
Proof. induction l as [|x l IH]; cbn [map flat_map app]; [reflexivity|]. rewrite IH. reflexivity. Qed.
Lemma fm_ext {X Y} (f g : X -> list Y) l : (forall x, f x = g x) -> flat_map f l = flat_map g l.
Proof. intros H. apply flat_map_ext, H. Qed.

Lemma enum_snd {X Y} (g : X -> list Y) (t : list X) : forall L : list Z, length L = length t ->
  flat_map (fun jy : Z * X => g (snd jy)) (combine L t) = flat_map g t.
Proof.
  induction t as [|y t IH]; intros [|z L] H; cbn [combine flat_map snd]; try reflexivity; try discriminate H.
  rewrite IH; [reflexivity|]. cbn [length] in H. lia.
Qed.

Lemma ks_low_simpl r u n : ks_low r (IP u) (Z.of_nat n) = map (pair_key u) (flatten (skipn (n + 1) r)).
Proof.
  unfold ks_low. rewrite py_slice_from_nat. set (t := skipn (n + 1) r). unfold py_enumerate.
  rewrite (enum_snd (fun y => flat_map (fun l => [py_key_tuple2 (kitem (IP u)) (kitem l)]) (map IP (members y))) t).
  - unfold flatten. rewrite map_fm. apply fm_ext. intros y. rewrite fm_map, fm_single. reflexivity.
  - unfold py_range, py_len. rewrite map_length, seq_length, Nat2Z.id. reflexivity.
Qed.

Lemma skipn_prefix {X} (p : list X) x t : skipn (length p + 1) (p ++ x :: t) = t.
Proof. induction p as [|y p IH]; cbn [length plus app skipn]; [reflexivity|exact IH]. Qed.

Lemma ks_ballot_from bottom unr : forall r' p,
  map (fun k : sx => (k, 1)) (flat_map (ks_up bottom unr (p ++ r')) (combine (map Z.of_nat (seq (length p) (length r'))) r'))
  = imgc bottom unr r'.
Proof.
  induction r' as [|x t IH]; intros p; cbn [length seq map combine flat_map imgc]; [reflexivity|].
  rewrite map_app. f_equal.
  - unfold ks_up. cbn [fst snd]. rewrite fm_map, map_fm. apply fm_ext. intros u.
    rewrite ks_low_simpl, skipn_prefix, map_app. unfold P. rewrite map_map. f_equal.
    destruct bottom; [|reflexivity]. rewrite fm_single, map_map. reflexivity.
  - replace (p ++ x :: t) with ((p ++ [x]) ++ t) by (rewrite <- app_assoc; reflexivity).
    replace (S (length p)) with (length (p ++ [x])) by (rewrite app_length; cbn [length]; lia). apply IH.
Qed.

Lemma ks_ballot_img bottom all r :
  map (fun k : sx => (k, 1)) (ks_ballot bottom all r) = imgc bottom (set_diff all (flatten r)) r.
Proof.
  unfold ks_ballot, py_enumerate, py_range, py_len. rewrite Nat2Z.id. exact (ks_ballot_from bottom _ r []).
Qed.

(* the image in the order of the code is a permutation of the model's image (all ranked pairs first, then the unranked ones) *)
Lemma imgc_perm bottom unr r :
  Permutation (imgc bottom unr r)
              (img_pairs_from r ++ (if bottom then flat_map (fun u => map (fun l => (L [kc u; kc l], 1)) unr) (flatten r) else [])).
Proof.
  destruct bottom.
  - induction r as [|x t IH]; cbn [imgc img_pairs_from flatten flat_map app]; [constructor|].
    fold (flatten t). rewrite flat_map_app. rewrite IH.
    rewrite (flat_map_app_perm (fun u => P u (flatten t)) (fun u => P u unr) (members x)).
    unfold P, pair_key.
    set (a := flat_map (fun u => map (fun l => (L [kc u; kc l], 1)) (flatten t)) (members x)).
    set (b := flat_map (fun u => map (fun l => (L [kc u; kc l], 1)) unr) (members x)).
    set (c := img_pairs_from t). set (d := flat_map (fun u => map (fun l => (L [kc u; kc l], 1)) unr) (flatten t)).
    rewrite <- !app_assoc. apply Permutation_app_head. rewrite !app_assoc. apply Permutation_app_tail, Permutation_app_comm.
  - rewrite app_nil_r. induction r as [|x t IH]; cbn [imgc img_pairs_from]; [constructor|].
    apply Permutation_app; [|exact IH].
    rewrite (fm_ext _ (fun u => P u (flatten t))) by (intros u; apply app_nil_r). apply Permutation_refl.
Qed.

Lemma img_code_perm bottom all r :
  Permutation (map (fun k : sx => (k, 1)) (ks_ballot bottom all r)) (img_condorcet bottom all r).
Proof. rewrite ks_ballot_img. unfold img_condorcet. apply imgc_perm. Qed.

Lemma tie_condorcet f bottom votes :
  exists o, Gen.ConvertPairs.RankedToCondorcetVotes_convert f bottom votes = inl o /\
            dsim o (dconv (img_condorcet bottom (canon_set (f votes))) votes).
Proof.
  rewrite gen_condorcet_keys. eexists. split; [reflexivity|].
  set (all := py_frozenset (f votes)). change (canon_set (f votes)) with all.
  set (imgk := fun r : ranked => map (fun k : sx => (k, 1)) (ks_ballot bottom all r)).
  assert (D : deq (fold_left (fun c (bw : ranked * Q) => adds (snd bw) (ks_ballot bottom all (fst bw)) c) votes []) (dconv imgk votes)).
  { rewrite dconv_unfold. apply deq_fold; [|constructor]. intros a b [r w] Hab. cbn [fst snd]. apply adds_deq, Hab. }
  apply (dsim_trans _ (dconv imgk votes)).
  - apply deq_dsim; [exact D|]. rewrite (deq_keys _ _ D). apply nodup_conv.
  - apply dconv_perm_images. intros r. apply img_code_perm.
Qed.

Theorem GenTie_ConvertPairs_condorcet : forall (f : list (ranked * Q) -> list C) (bottom : bool) (votes : list (ranked * Q)),
  exists o, Gen.ConvertPairs.RankedToCondorcetVotes_convert f bottom votes = inl o /\
            dsim o (dconv (img_condorcet bottom (canon_set (f votes))) votes).
Proof. exact tie_condorcet. Qed.

(* with any reading of votelib.util.all_ranked_candidates that lists exactly the candidates of the profile, the generated converter
   answers what [run_kind (KCondorcet bottom)] of Model/Convert2.v answers for a decodable profile *)
Corollary GenTie_ConvertPairs_run_kind : forall (f : list (ranked * Q) -> list C) (bottom : bool) (d : fdict) (v : list (ranked * Q)),
  canon_set (f v) = cands_ranked v -> decode_all key_ranked d = Some v ->
  exists o m, Gen.ConvertPairs.RankedToCondorcetVotes_convert f bottom v = inl o /\ run_kind (KCondorcet bottom) d = COk (VF m) /\ dsim o m.
Proof.
  intros f bottom d v Hf Hd. destruct (tie_condorcet f bottom v) as (o & E & S). exists o. eexists. split; [exact E|].
  unfold run_kind, with_votes. rewrite Hd. split; [reflexivity|]. rewrite <- Hf. exact S.
Qed.

(* the rank-major listing of util.all_ranked_candidates (first every first rank, then every second rank ..) is such a reading *)
Definition all_ranked_listing (votes : list (ranked * Q)) : list C := flat_map (fun bw => flatten (fst bw)) votes.

Example gen_condorcet_example :
  let votes := [([IS [1; 2]%positive; IP 3%positive], 2 # 1); ([IP 3%positive; IP 1%positive], 1 # 1)] in
  Gen.ConvertPairs.RankedToCondorcetVotes_convert all_ranked_listing true votes
    = inl [(L [kc 1%positive; kc 3%positive], 0 + (2 # 1)); (L [kc 2%positive; kc 3%positive], 0 + (2 # 1));
           (L [kc 3%positive; kc 1%positive], 0 + (1 # 1)); (L [kc 3%positive; kc 2%positive], 0 + (1 # 1));
           (L [kc 1%positive; kc 2%positive], 0 + (1 # 1))] /\
  Gen.ConvertPairs.RankedToCondorcetVotes_convert all_ranked_listing false votes
    = inl [(L [kc 1%positive; kc 3%positive], 0 + (2 # 1)); (L [kc 2%positive; kc 3%positive], 0 + (2 # 1));
           (L [kc 3%positive; kc 1%positive], 0 + (1 # 1))].
Proof. split; reflexivity. Qed.

Print Assumptions GenTie_ConvertPairs_condorcet.
Print Assumptions GenTie_ConvertPairs_run_kind.
