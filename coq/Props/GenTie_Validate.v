(* Translator tie for C20: the validation code that tools/py2v.py reads from votelib/vote.py, votelib/candidate.py
   and votelib/convert.py (Gen/Validate.v: whole method bodies over the object grammar, exceptions as results) answers
   exactly as the model of Model/Validate.v does - acceptance, or a rejection of the same KIND (vote error / candidate
   error / TypeError crash) - for EVERY configuration and EVERY object of the grammar.
   [res_kind] (Prelude/PyObj.v) reads a generated result as a model result; it is undefined on any exception the model has
   no word for, so each theorem also says that no such exception can occur.

   The proofs execute the generated code symbolically: case analysis on the object and the flags, one sequencing lemma
   ([res_kind_bind]) per raising operation, one loop lemma per loop that is stated about an ARBITRARY loop body satisfying a
   per-item specification - so a rewrite of the source that keeps the behaviour of each step keeps the proofs. *)
From Coq Require Import ZArith QArith List Bool Lia.
From VL Require Import Model.Validate Proofs.Validate_proofs Prelude.PyObj Gen.Validate.
Import ListNotations.
Close Scope Q_scope.
Open Scope Z_scope.

Lemma exn_kind_not_ok e r : exn_kind e = Some r -> r <> VOk.
Proof. destruct e; simpl; intros [= <-]; discriminate. Qed.

Lemma andthen_first a b : a <> VOk -> andthen a b = a.
Proof. destruct a; simpl; congruence. Qed.

Lemma andthen_assoc a b c : andthen a (andthen b c) = andthen (andthen a b) c.
Proof. destruct a; reflexivity. Qed.

Lemma andthen_ok_r a : andthen a VOk = a.
Proof. destruct a; reflexivity. Qed.

(* sequencing: a raising operation followed by the rest of the code *)
Lemma res_kind_bind {A B : Type} (r : A + pyvexn) (k : A -> B + pyvexn) a b :
  res_kind r = Some a -> (forall x, r = inl x -> a = VOk -> res_kind (k x) = Some b) ->
  res_kind (match r with inl x => k x | inr e => inr e end) = Some (andthen a b).
Proof.
  destruct r as [x|e]; simpl; intros H1 H2.
  - injection H1 as <-. simpl. apply H2; reflexivity.
  - rewrite andthen_first; [exact H1|]. eapply exn_kind_not_ok; exact H1.
Qed.

(* the same when the value of the operation is dropped and the code ends *)
Lemma res_kind_last {A : Type} (r : A + pyvexn) a :
  res_kind r = Some a -> res_kind (match r with inl _ => inl tt | inr e => inr e end) = Some a.
Proof. destruct r; simpl; trivial. Qed.

(* a loop without state over a body that judges each item *)
Lemma py_for_unit_kind {A : Type} (f : unit -> A -> unit + pyvexn) (g : A -> vresult) l :
  (forall x, In x l -> res_kind (f tt x) = Some (g x)) -> res_kind (py_for l f tt) = Some (all_checks g l).
Proof.
  induction l as [|x t IH]; intros H; [reflexivity|].
  cbn [py_for all_checks]. pose proof (H x (or_introl eq_refl)) as Hx.
  destruct (f tt x) as [[]|e]; simpl in Hx.
  - injection Hx as <-. simpl. apply IH. intros y Hy. apply H. right. exact Hy.
  - simpl. rewrite andthen_first; [exact Hx|]. eapply exn_kind_not_ok; exact Hx.
Qed.

Lemma py_for_unit_ok {A : Type} (f : unit -> A -> unit + pyvexn) (g : A -> vresult) l u :
  (forall x, In x l -> res_kind (f tt x) = Some (g x)) -> py_for l f tt = inl u -> all_checks g l = VOk.
Proof. intros H E. pose proof (py_for_unit_kind f g l H) as K. rewrite E in K. simpl in K. congruence. Qed.

(* nominators: the isinstance cascade of each nominator class, against the table [nominate] *)
Theorem GenTie_nominator : forall nm o, res_kind (Nominator_validate nm o) = Some (check (nominate nm o) VCandError).
Proof.
  intros nm o. destruct nm as [ab|ai ab|ac ab]; destruct o as [k i|n d| |l|l|l]; try destruct k as [|hp| | |];
    repeat match goal with b : bool |- _ => destruct b end; reflexivity.
Qed.

(* the magnitude checker: inclusive bounds, None = unchecked, a non-number against an active bound is a TypeError *)
Definition check_model (b : bounds) (v : pyobj) : vresult :=
  match num_of v with
  | Some x => check (in_bounds b x) VVoteError
  | None => if active b then VCrash else VOk
  end.

Theorem GenTie_checker : forall b v,
  res_kind (VoteMagnitudeChecker_check (fst b) (snd b) v) = Some (check_model b v).
Proof.
  intros [[lo|] [hi|]] v; unfold check_model, VoteMagnitudeChecker_check, VoteMagnitudeChecker_is_valid, in_bounds, active,
    py_ge, py_le, py_gt, py_lt, py_cmp; cbn [fst snd py_is_none negb]; destruct (num_of v) as [x|]; try reflexivity;
    repeat match goal with |- context [Qle_bool ?p ?q] => destruct (Qle_bool p q) end; reflexivity.
Qed.

Theorem GenTie_checker_active : forall b, VoteMagnitudeChecker___bool__ (fst b) (snd b) = active b.
Proof. intros [[lo|] [hi|]]; reflexivity. Qed.

Theorem GenTie_defaulted : forall kb k, DefaultedCheckers___getitem__ (fst kb) (snd kb) k = kb_get kb k.
Proof. intros kb k. reflexivity. Qed.

Lemma check_model_int b n : check_model b (py_int (Z.of_nat n)) = check (in_bounds b (qnat n)) VVoteError.
Proof. reflexivity. Qed.

Arguments Nominator_validate : simpl never.
Arguments VoteMagnitudeChecker_check : simpl never.
Arguments VoteMagnitudeChecker___bool__ : simpl never.
Arguments DefaultedCheckers___getitem__ : simpl never.
Arguments py_frozenset : simpl never.
Arguments py_sum : simpl never.
Arguments py_set_add : simpl never.
Arguments py_set_update : simpl never.
Arguments py_int : simpl never.
Arguments py_len_items : simpl never.
Arguments check_model : simpl never.

(* an object that is no instance of the container a validator asks for *)
Ltac not_container := try (match goal with k : ckind |- _ => destruct k end); reflexivity.

Theorem GenTie_simple : forall nm v, res_kind (SimpleVoteValidator_validate nm v) = Some (validate_simple nm v).
Proof. intros nm v. unfold SimpleVoteValidator_validate, validate_simple. apply res_kind_last, GenTie_nominator. Qed.

Theorem GenTie_approval : forall nm cnt v,
  res_kind (ApprovalVoteValidator_validate nm cnt v) = Some (validate_approval nm cnt v).
Proof.
  intros nm cnt v. unfold ApprovalVoteValidator_validate, validate_approval.
  destruct v as [k i|n d| |l|l|l]; try not_container.
  simpl. apply res_kind_bind.
  - apply py_for_unit_kind. intros x _. cbv beta zeta. apply res_kind_last, GenTie_nominator.
  - intros _ _ _. apply res_kind_last. rewrite GenTie_checker. reflexivity.
Qed.

(* score ballots.  The model of the base class is the model of Model/Validate.v without the rule of the subclass *)
Definition validate_score_base (nm : nominator) (nsc : bounds) (sums : keyed_bounds) (v : pyobj) : vresult :=
  match v with
  | OFrozen l =>
      andthen (check (in_bounds nsc (qnat (length l))) VVoteError)
     (andthen (all_checks (score_item_check nm) l)
     (andthen (check (nodup_objs (map scored_cand l)) VVoteError)
              (let sb := kb_get sums (Z.of_nat (length l)) in
               if active sb then
                 match sum_scores l with
                 | Some s => check (in_bounds sb s) VVoteError
                 | None => VCrash
                 end
               else VOk)))
  | _ => VVoteError
  end.
Definition score_rule_part (rule : score_rule) (l : list pyobj) : vresult :=
  match rule with
  | SEnum levels => all_checks (fun o => check (existsb (obj_eqb (score_of o)) levels) VVoteError) l
  | SRange b => all_checks (fun o => match num_of (score_of o) with
                                     | Some x => check (in_bounds b x) VVoteError
                                     | None => if active b then VCrash else VOk
                                     end) l
  end.
Lemma validate_score_split nm nsc sums rule v :
  validate_score nm nsc sums rule v =
  match v with OFrozen l => andthen (validate_score_base nm nsc sums v) (score_rule_part rule l) | _ => VVoteError end.
Proof.
  destruct v; try reflexivity. unfold validate_score, validate_score_base, score_rule_part.
  rewrite !andthen_assoc. reflexivity.
Qed.

Definition is_pair (nm : nominator) (o : pyobj) : Prop := exists c s, o = OTuple [c; s] /\ nominate nm c = true.

Lemma score_item_pair nm o : score_item_check nm o = VOk -> is_pair nm o.
Proof.
  unfold score_item_check, is_pair. destruct o as [| | |lo| |]; try discriminate.
  destruct lo as [|c [|s [|x t]]]; try discriminate. unfold check. destruct (nominate nm c) eqn:E; [|discriminate].
  intros _. exists c, s. split; [reflexivity|exact E].
Qed.

Lemma all_pairs nm l : all_checks (score_item_check nm) l = VOk -> Forall (is_pair nm) l.
Proof. intros H. apply all_checks_ok in H. eapply Forall_impl; [|exact H]. intros o. apply score_item_pair. Qed.

Lemma py_mapM_total {A B : Type} (f : A -> B + pyvexn) (g : A -> B) l :
  (forall x, In x l -> f x = inl (g x)) -> py_mapM f l = inl (map g l).
Proof.
  induction l as [|x t IH]; intros H; [reflexivity|]. cbn [py_mapM map].
  rewrite (H x (or_introl eq_refl)), IH; [reflexivity|]. intros y Hy. apply H. right. exact Hy.
Qed.

Lemma py_for_add_hashable xs : forall acc, forallb py_hashable xs = true ->
  py_for xs py_set_add acc = inl (fold_left (fun s o => add_set o s) xs acc).
Proof.
  induction xs as [|x t IH]; intros acc H; [reflexivity|]. cbn [forallb] in H. apply andb_true_iff in H. destruct H as [Hx Ht].
  cbn [py_for fold_left]. unfold py_set_add at 1. rewrite Hx. apply IH, Ht.
Qed.

Lemma distinct_le (xs : list pyobj) : forall s, (length (fold_left (fun s o => add_set o s) xs s) <= length s + length xs)%nat.
Proof.
  induction xs as [|x t IH]; intros s; simpl; [lia|]. specialize (IH (add_set x s)).
  unfold add_set in *. destruct (existsb (obj_eqb x) s); [lia|rewrite app_length in IH; simpl in IH; lia].
Qed.

Lemma nominate_hashable nm c : nominate nm c = true -> py_hashable c = true.
Proof. destruct c; try reflexivity; destruct nm; discriminate. Qed.

(* sum(): left to right from 0; the model adds from the right - the same number *)
Fixpoint sumopt (xs : list pyobj) : option Q :=
  match xs with
  | [] => Some 0%Q
  | x :: t => match num_of x, sumopt t with Some a, Some s => Some (a + s)%Q | _, _ => None end
  end.
Lemma sum_scores_sumopt l : sum_scores l = sumopt (map score_of l).
Proof. induction l as [|o t IH]; [reflexivity|]. simpl. rewrite IH. reflexivity. Qed.

Lemma num_of_py_num q : num_of (py_num q) = Some q.
Proof. destruct q; reflexivity. Qed.

Lemma py_for_add xs : forall acc qa, num_of acc = Some qa ->
  match sumopt xs with
  | Some s => exists v q, py_for xs py_add acc = inl v /\ num_of v = Some q /\ (q == qa + s)%Q
  | None => py_for xs py_add acc = inr PyTypeError
  end.
Proof.
  induction xs as [|x t IH]; intros acc qa Ha.
  - simpl. exists acc, qa. split; [reflexivity|]. split; [exact Ha|]. ring.
  - cbn [sumopt py_for]. unfold py_add at 1. unfold py_add at 2. rewrite Ha. destruct (num_of x) as [a|]; [|reflexivity].
    specialize (IH (py_num (qa + a)%Q) (qa + a)%Q (num_of_py_num _)).
    destruct (sumopt t) as [s|]; [|exact IH].
    destruct IH as (v & q & E & Hv & Hq). exists v, q. split; [exact E|]. split; [exact Hv|]. rewrite Hq. ring.
Qed.

Lemma in_bounds_compat b x y : (x == y)%Q -> in_bounds b x = in_bounds b y.
Proof.
  intros E. unfold in_bounds. f_equal.
  - destruct (fst b) as [lo|]; [apply Qleb_comp; [reflexivity|exact E]|reflexivity].
  - destruct (snd b) as [hi|]; [apply Qleb_comp; [exact E|reflexivity]|reflexivity].
Qed.

Lemma py_sum_kind b xs :
  res_kind (match py_sum xs with inl v => VoteMagnitudeChecker_check (fst b) (snd b) v | inr e => inr e end) =
  Some (match sumopt xs with Some s => check (in_bounds b s) VVoteError | None => if active b then VCrash else VCrash end).
Proof.
  unfold py_sum. pose proof (py_for_add xs (py_int 0) 0%Q eq_refl) as H. destruct (sumopt xs) as [s|].
  - destruct H as (v & q & -> & Hv & Hq). rewrite GenTie_checker. unfold check_model. rewrite Hv.
    rewrite (in_bounds_compat b q s); [reflexivity|]. rewrite Hq. ring.
  - rewrite H. destruct (active b); reflexivity.
Qed.

Lemma nodup_check (xs : list pyobj) n (rest : unit + pyvexn) b :
  n = py_len_items xs -> res_kind rest = Some b ->
  res_kind (if (py_len_items (fold_left (fun s o => add_set o s) xs []) <? n)%Z then inr PyVoteError else rest)
  = Some (andthen (check (nodup_objs xs) VVoteError) b).
Proof.
  intros -> H. unfold py_len_items, nodup_objs. pose proof (distinct_le xs []) as Hle. cbn [length Nat.add] in Hle.
  destruct (Z.ltb_spec (Z.of_nat (length (fold_left (fun s o => add_set o s) xs []))) (Z.of_nat (length xs))) as [E|E].
  - rewrite (proj2 (Nat.eqb_neq _ _)) by lia. reflexivity.
  - rewrite (proj2 (Nat.eqb_eq _ _)) by lia. exact H.
Qed.

(* a loop that judges each item and collects one object per accepted item in a set *)
Lemma py_for_set_kind {A : Type} (f : list pyobj -> A -> list pyobj + pyvexn) (g : A -> vresult) (c : A -> pyobj) l :
  (forall s x, In x l -> match g x with
                         | VOk => f s x = inl (add_set (c x) s)
                         | r => exists e, f s x = inr e /\ exn_kind e = Some r
                         end) ->
  forall s, match all_checks g l with
            | VOk => py_for l f s = inl (fold_left (fun s o => add_set o s) (map c l) s)
            | r => exists e, py_for l f s = inr e /\ exn_kind e = Some r
            end.
Proof.
  induction l as [|x t IH]; intros H s; [reflexivity|].
  cbn [all_checks py_for map fold_left]. pose proof (H s x (or_introl eq_refl)) as Hx.
  assert (Ht : forall s y, In y t -> match g y with
                                     | VOk => f s y = inl (add_set (c y) s)
                                     | r => exists e, f s y = inr e /\ exn_kind e = Some r
                                     end) by (intros s0 y Hy; apply H; right; exact Hy).
  destruct (g x); cbn [andthen]; try (destruct Hx as (e & -> & He); exists e; split; [reflexivity|exact He]).
  rewrite Hx. apply IH, Ht.
Qed.

Lemma nominator_cases nm o :
  if nominate nm o then exists u, Nominator_validate nm o = inl u
  else exists e, Nominator_validate nm o = inr e /\ exn_kind e = Some VCandError.
Proof.
  pose proof (GenTie_nominator nm o) as H. unfold check in H. destruct (Nominator_validate nm o) as [u|e]; simpl in H.
  - destruct (nominate nm o); [exists u; reflexivity|discriminate].
  - destruct (nominate nm o); [destruct e; discriminate|exists e; split; trivial].
Qed.

(* the part after the duplicate test: the sum of the scores against the checker for this number of scorings *)
Ltac score_sum_part nm sums l H0 :=
  rewrite GenTie_checker_active;
  change (DefaultedCheckers___getitem__ (fst sums) (snd sums) (py_len_items l)) with (kb_get sums (Z.of_nat (length l)));
  cbv zeta; destruct (active (kb_get sums (Z.of_nat (length l)))) eqn:Ea; [|reflexivity];
  apply res_kind_last;
  erewrite (py_mapM_total _ score_of); [|intros x Hx; destruct (H0 x Hx) as (c & s & -> & _); reflexivity];
  let Hs := fresh "Hs" in
  pose proof (py_sum_kind (kb_get sums (Z.of_nat (length l))) (map score_of l)) as Hs;
  rewrite <- sum_scores_sumopt, Ea in Hs;
  destruct (py_sum (map score_of l)) as [sv|e]; [|exact Hs];
  destruct (sum_scores l); apply (res_kind_last _ _ Hs).

Theorem GenTie_score_base : forall nm nsc sums v,
  res_kind (ScoreVoteValidator_validate nm nsc sums v) = Some (validate_score_base nm nsc sums v).
Proof.
  intros nm nsc sums v. unfold ScoreVoteValidator_validate, validate_score_base.
  destruct v as [k i|n d| |l|l|l]; try not_container.
  simpl. apply res_kind_bind; [rewrite GenTie_checker; reflexivity|]. intros _ _ _.
  first
  [ (* the shape of the library: a pass over the items, then the set of the scored candidates from a generator expression *)
    apply res_kind_bind;
    [ apply (py_for_unit_kind _ (score_item_check nm)); intros x _; cbv beta zeta;
      destruct x as [k i|n d| |il|il|il]; try not_container;
      destruct il as [|c [|s [|y t]]]; try reflexivity;
      [ simpl; apply res_kind_last, GenTie_nominator
      | cbn [negb py_len]; cbv iota beta;
        destruct (Z.eqb_spec (py_len_items (c :: s :: y :: t)) 2) as [E|E];
        [unfold py_len_items in E; cbn [length] in E; lia|reflexivity] ]
    | intros u _ Hok; apply all_pairs in Hok;
      assert (H0 : forall x, In x l -> is_pair nm x) by (apply Forall_forall; exact Hok);
      erewrite (py_mapM_total _ scored_cand); [|intros x Hx; destruct (H0 x Hx) as (c & s & -> & _); reflexivity];
      unfold py_frozenset; rewrite py_for_add_hashable;
      [ apply nodup_check; [unfold py_len_items; rewrite map_length; reflexivity|];
        score_sum_part nm sums l H0
      | apply forallb_forall; intros c Hc; apply in_map_iff in Hc; destruct Hc as (x & <- & Hx);
        destruct (H0 x Hx) as (c & s & -> & Hn); simpl; eapply nominate_hashable; exact Hn ] ]
  | (* a single pass that also collects the scored candidates in a set *)
    match goal with |- context [py_for l ?f _] =>
      pose proof (py_for_set_kind f (score_item_check nm) scored_cand l) as Hloop end;
    match type of Hloop with ?P -> _ => assert (Hbody : P); [|specialize (Hloop Hbody []); clear Hbody] end;
    [ intros s0 x _; cbv beta zeta;
      destruct x as [k i|n d| |il|il|il];
      try (cbn [score_item_check]; exists PyVoteTypeError; split; [try destruct k; reflexivity|reflexivity]);
      destruct il as [|c [|s [|y t]]];
      try (cbn [score_item_check]; exists PyVoteMagnitudeError; split; [reflexivity|reflexivity]);
      [ cbn [score_item_check scored_cand]; unfold check; pose proof (nominator_cases nm c) as Hn; simpl;
        destruct (nominate nm c) eqn:En;
        [ destruct Hn as [u ->]; unfold py_set_add; rewrite (nominate_hashable nm c En); reflexivity
        | destruct Hn as (e & -> & He); exists e; split; [reflexivity|exact He] ]
      | cbn [score_item_check negb py_len]; cbv iota beta;
        destruct (Z.eqb_spec (py_len_items (c :: s :: y :: t)) 2) as [E|E];
        [unfold py_len_items in E; cbn [length] in E; lia|exists PyVoteMagnitudeError; split; reflexivity] ]
    | destruct (all_checks (score_item_check nm) l) eqn:Hok;
      try (destruct Hloop as (e & -> & He); exact He);
      rewrite Hloop; cbn [andthen]; apply all_pairs in Hok;
      assert (H0 : forall x, In x l -> is_pair nm x) by (apply Forall_forall; exact Hok);
      apply nodup_check; [unfold py_len_items; rewrite map_length; reflexivity|];
      score_sum_part nm sums l H0 ] ].
Qed.

Lemma base_ok_pairs nm nsc sums l : validate_score_base nm nsc sums (OFrozen l) = VOk -> forall x, In x l -> is_pair nm x.
Proof.
  unfold validate_score_base. intros H. apply andthen_ok in H. destruct H as [_ H]. apply andthen_ok in H. destruct H as [H _].
  apply Forall_forall, all_pairs, H.
Qed.

(* the subclass: the base class first, then the rule on every score *)
Ltac score_subclass nm nsc sums rule v :=
  rewrite (validate_score_split nm nsc sums rule v);
  pose proof (GenTie_score_base nm nsc sums v) as Hb;
  destruct v as [k i|n d| |l|l|l];
  try (destruct (ScoreVoteValidator_validate nm nsc sums _) as [u|e]; simpl in Hb; [discriminate|exact Hb]).

Theorem GenTie_enum : forall nm nsc sums levels v,
  res_kind (EnumScoreVoteValidator_validate nm nsc sums levels v) = Some (validate_score nm nsc sums (SEnum levels) v).
Proof.
  intros nm nsc sums levels v. unfold EnumScoreVoteValidator_validate. score_subclass nm nsc sums (SEnum levels) v.
  apply res_kind_bind; [exact Hb|]. intros u _ Hok. simpl. apply res_kind_last.
  apply py_for_unit_kind. intros x Hx. destruct (base_ok_pairs _ _ _ _ Hok x Hx) as (c & s & -> & _).
  simpl. unfold py_in_list. destruct (existsb (obj_eqb s) levels); reflexivity.
Qed.

Theorem GenTie_range : forall nm nsc sums rb v,
  res_kind (RangeVoteValidator_validate nm nsc sums rb v) = Some (validate_score nm nsc sums (SRange rb) v).
Proof.
  intros nm nsc sums rb v. unfold RangeVoteValidator_validate. score_subclass nm nsc sums (SRange rb) v.
  apply res_kind_bind; [exact Hb|]. intros u _ Hok. simpl. apply res_kind_last.
  apply py_for_unit_kind. intros x Hx. destruct (base_ok_pairs _ _ _ _ Hok x Hx) as (c & s & -> & _).
  simpl. apply res_kind_last. rewrite GenTie_checker. reflexivity.
Qed.

(* ranked ballots: one pass collecting the set of candidates and the number of places, per-rank bounds on shared ranks *)
Lemma scan_cons ranks i o rest t c :
  ranked_scan ranks i (o :: rest) t c =
  match ranked_scan ranks i [o] t c with
  | (VOk, t', c') => ranked_scan ranks (i + 1) rest t' c'
  | r => r
  end.
Proof.
  destruct o; cbn [ranked_scan];
    repeat match goal with |- context [if ?b then _ else _] => destruct b end; reflexivity.
Qed.

(* what one round of the loop has to do, in terms of the model on a one-item ballot *)
Definition round_spec (ranks : keyed_bounds) (f : list pyobj * Z -> Z * pyobj -> (list pyobj * Z) + pyvexn) : Prop :=
  forall ac t i o,
    match ranked_scan ranks i [o] t ac with
    | (VOk, t', c') => f (ac, Z.of_nat t) (i, o) = inl (c', Z.of_nat t')
    | (r, _, _) => exists e, f (ac, Z.of_nat t) (i, o) = inr e /\ exn_kind e = Some r
    end.

Definition enum_from (k : nat) (items : list pyobj) : list (Z * pyobj) := combine (map Z.of_nat (seq k (length items))) items.

Lemma ranked_loop ranks f : round_spec ranks f -> forall items k t ac,
  match ranked_scan ranks (Z.of_nat k) items t ac with
  | (VOk, t', c') => py_for (enum_from k items) f (ac, Z.of_nat t) = inl (c', Z.of_nat t')
  | (r, _, _) => exists e, py_for (enum_from k items) f (ac, Z.of_nat t) = inr e /\ exn_kind e = Some r
  end.
Proof.
  intros Hf. induction items as [|o rest IH]; intros k t ac; [reflexivity|].
  rewrite scan_cons. pose proof (Hf ac t (Z.of_nat k) o) as H1.
  change (enum_from k (o :: rest)) with ((Z.of_nat k, o) :: enum_from (S k) rest). cbn [py_for].
  destruct (ranked_scan ranks (Z.of_nat k) [o] t ac) as [[r t'] c'].
  destruct r; try (destruct H1 as (e & -> & He); exists e; split; [reflexivity|exact He]).
  rewrite H1. replace (Z.of_nat k + 1) with (Z.of_nat (S k)) by lia. apply IH.
Qed.

Lemma checker_cases b v :
  match check_model b v with
  | VOk => exists u, VoteMagnitudeChecker_check (fst b) (snd b) v = inl u
  | r => exists e, VoteMagnitudeChecker_check (fst b) (snd b) v = inr e /\ exn_kind e = Some r
  end.
Proof.
  pose proof (GenTie_checker b v) as H. destruct (VoteMagnitudeChecker_check (fst b) (snd b) v) as [u|e]; simpl in H.
  - injection H as <-. exists u. reflexivity.
  - pose proof (exn_kind_not_ok _ _ H) as Hn. destruct (check_model b v); try congruence; exists e; split; trivial.
Qed.

Theorem GenTie_ranked : forall nm tot ranks v,
  res_kind (RankedVoteValidator_validate nm tot ranks v) = Some (validate_ranked nm tot ranks v).
Proof.
  intros nm tot ranks v. unfold RankedVoteValidator_validate, validate_ranked.
  destruct v as [k i|n d| |items|l|l]; try not_container.
  cbn [negb py_iter]. cbv iota beta zeta.
  match goal with |- context [py_for (py_enumerate items) ?f _] =>
    assert (Hround : round_spec ranks f); [|pose proof (ranked_loop ranks f Hround items 0%nat 0%nat []) as Hloop] end.
  { intros ac t i o. cbv beta iota zeta. cbn [fst snd]. destruct o as [k j|n d| |lt|lf|ll]; [destruct k| | | | |].
    1-8,10: (cbn [ranked_scan]; cbv iota beta zeta; unfold py_set_add, py_hashable;
      match goal with |- context [hashable ?x] => destruct (hashable x) end; cbv iota beta zeta;
      [f_equal; f_equal; lia | exists PyTypeError; split; reflexivity]).
    cbn [ranked_scan py_len]. cbv iota beta zeta.
    change (DefaultedCheckers___getitem__ (fst ranks) (snd ranks) (i + 1)) with (kb_get ranks (i + 1)).
    pose proof (checker_cases (kb_get ranks (i + 1)) (py_int (py_len_items lf))) as Hc.
    unfold py_len_items in Hc at 1. rewrite check_model_int in Hc. unfold check in Hc.
    destruct (in_bounds (kb_get ranks (i + 1)) (qnat (length lf))).
    - destruct Hc as [u ->]. unfold py_set_update. f_equal. f_equal. unfold py_len_items. lia.
    - destruct Hc as (e & -> & He). exists e. split; [reflexivity|exact He]. }
  change (py_enumerate items) with (enum_from 0 items). change (Z.of_nat 0) with 0 in Hloop.
  destruct (ranked_scan ranks 0 items 0 []) as [[r total] cands].
  destruct r; try (destruct Hloop as (e & -> & He); exact He).
  rewrite Hloop. cbv iota beta zeta.
  apply res_kind_bind; [rewrite GenTie_checker; apply f_equal, check_model_int|]. intros _ _ _.
  unfold py_len_items. unfold check at 1.
  destruct (Z.ltb_spec (Z.of_nat (length cands)) (Z.of_nat total)) as [E|E].
  - rewrite (proj2 (Nat.ltb_lt _ _)) by lia. reflexivity.
  - rewrite (proj2 (Nat.ltb_ge _ _)) by lia. cbn [negb andthen].
    apply res_kind_last, py_for_unit_kind. intros x _. cbv beta zeta. apply res_kind_last, GenTie_nominator.
Qed.

(* InvalidVoteEliminator.convert: ballots rejected with a VoteError are collected and deleted from a copy of the dictionary;
   any other exception of the validator propagates.  The dictionary is an association list with pairwise different keys. *)
Lemma obj_eqb_refl : forall o, obj_eqb o o = true.
Proof.
  fix IH 1. intros o.
  assert (HL : forall l : list pyobj, (forall x, In x l -> obj_eqb x x = true) ->
     (fix list_eqb (l m : list pyobj) {struct l} : bool :=
        match l, m with
        | [], [] => true
        | x :: l', y :: m' => obj_eqb x y && list_eqb l' m'
        | _, _ => false
        end) l l = true).
  { induction l as [|a t IHt]; intros H; [reflexivity|]. rewrite (H a (or_introl eq_refl)). apply IHt. intros x Hx. apply H. right. exact Hx. }
  destruct o as [k i|n d| |l|l|l]; cbn [obj_eqb].
  (* the three containers: the items are subterms of [o] *)
  4-6: apply HL; induction l as [|a t IHt]; intros x Hx; [destruct Hx|destruct Hx as [<-|Hx]; [apply IH|apply IHt, Hx]].
  - destruct k as [|hp| | |]; cbn [ckind_eqb andb]; try apply Pos.eqb_refl. rewrite Bool.eqb_reflx. apply Pos.eqb_refl.
  - rewrite Z.eqb_refl. apply Pos.eqb_refl.
  - reflexivity.
Qed.

Fixpoint keys_distinct (votes : list (pyobj * Z)) : bool :=
  match votes with
  | [] => true
  | (k, _) :: t => forallb (fun e => negb (obj_eqb (fst e) k)) t && keys_distinct t
  end.

Definition elim_kind (r : list (pyobj * Z) + pyvexn) : option elim_result :=
  match r with
  | inl kept => Some (EOk kept)
  | inr PyCandidateError => Some ECandError
  | inr PyTypeError => Some ECrash
  | inr _ => None
  end.

Definition is_vote_error (r : vresult) : bool := match r with VVoteError => true | _ => false end.
Definition is_ok (r : vresult) : bool := match r with VOk => true | _ => false end.

(* deleting keys that all differ from the first key leaves the first entry in place *)
Lemma del_skip (k : pyobj) (n : Z) f : (forall d x, f d x = match py_dict_del d x with inl d' => inl d' | inr e => inr e end) ->
  forall ks d d', (forall k', In k' ks -> obj_eqb k' k = false) ->
  py_for ks f d = inl d' -> py_for ks f ((k, n) :: d) = inl ((k, n) :: d').
Proof.
  intros Hf. induction ks as [|x t IH]; intros d d' Hk H.
  - simpl in *. congruence.
  - cbn [py_for] in *. rewrite Hf in *. cbn [py_dict_del]. rewrite (Hk x (or_introl eq_refl)).
    destruct (py_dict_del d x) as [d1|e]; [|discriminate]. apply IH; [|exact H]. intros k' Hk'. apply Hk. right. exact Hk'.
Qed.

Lemma del_filter f : (forall d x, f d x = match py_dict_del d x with inl d' => inl d' | inr e => inr e end) ->
  forall (p : pyobj * Z -> bool) votes, keys_distinct votes = true ->
  py_for (map fst (filter p votes)) f votes = inl (filter (fun e => negb (p e)) votes).
Proof.
  intros Hf p. induction votes as [|[k n] t IH]; intros Hd; [reflexivity|].
  cbn [keys_distinct] in Hd. apply andb_true_iff in Hd. destruct Hd as [Hk Hd]. cbn [filter].
  destruct (p (k, n)); cbn [negb map fst py_for].
  - rewrite Hf. cbn [py_dict_del]. rewrite obj_eqb_refl. apply IH, Hd.
  - apply (del_skip k n f Hf); [|apply IH, Hd]. intros k' Hk'. apply in_map_iff in Hk'. destruct Hk' as (e & <- & He).
    apply filter_In in He. destruct He as [He _]. rewrite forallb_forall in Hk. apply negb_true_iff, Hk, He.
Qed.

(* the collecting loop, for any body that keeps the list on acceptance, appends the ballot on a VoteError and propagates the rest *)
Lemma collect_loop (validator : pyobj -> unit + pyvexn) (validate : pyobj -> vresult) f :
  (forall o, res_kind (validator o) = Some (validate o)) ->
  (forall acc o, f acc o = match validator o with
                           | inl _ => inl acc
                           | inr e => if is_vote_error (match exn_kind e with Some r => r | None => VOk end) then inl (acc ++ [o]) else inr e
                           end) ->
  forall votes acc,
  match eliminate validate votes with
  | EOk kept => py_for (map fst votes) f acc = inl (acc ++ map fst (filter (fun e => is_vote_error (validate (fst e))) votes))
                /\ kept = filter (fun e => negb (is_vote_error (validate (fst e)))) votes
  | ECandError => py_for (map fst votes) f acc = inr PyCandidateError
  | ECrash => py_for (map fst votes) f acc = inr PyTypeError
  end.
Proof.
  intros Hv Hf. induction votes as [|[b n] t IH]; intros acc.
  - simpl. rewrite app_nil_r. split; reflexivity.
  - cbn [eliminate map fst py_for filter]. rewrite Hf. pose proof (Hv b) as Hb.
    destruct (validator b) as [u|e]; simpl in Hb.
    + injection Hb as <-. cbn [is_vote_error negb]. specialize (IH acc).
      destruct (eliminate validate t) as [kept| |]; [|exact IH|exact IH]. destruct IH as [-> ->]. split; reflexivity.
    + rewrite Hb. destruct e; simpl in Hb; try discriminate; injection Hb as <-; cbn [is_vote_error negb]; try reflexivity;
        (specialize (IH (acc ++ [b])); destruct (eliminate validate t) as [kept| |]; [|exact IH|exact IH];
         destruct IH as [-> ->]; split; [rewrite <- app_assoc; reflexivity|reflexivity]).
Qed.

Theorem GenTie_eliminator : forall (validator : pyobj -> unit + pyvexn) (validate : pyobj -> vresult) votes,
  (forall o, res_kind (validator o) = Some (validate o)) -> keys_distinct votes = true ->
  elim_kind (InvalidVoteEliminator_convert validator votes) = Some (eliminate validate votes).
Proof.
  intros validator validate votes Hv Hd. unfold InvalidVoteEliminator_convert. cbv zeta.
  match goal with |- context [py_for (map fst votes) ?f _] =>
    pose proof (collect_loop validator validate f Hv) as Hloop end.
  match type of Hloop with ?P -> _ => assert (Hbody : P); [|specialize (Hloop Hbody votes []); clear Hbody] end.
  { intros acc o. cbv beta zeta. destruct (validator o) as [u|e]; [reflexivity|]. destruct e; reflexivity. }
  pose proof (eliminate_spec validate votes) as Hspec.
  destruct (eliminate validate votes) as [kept| |]; [|rewrite Hloop; reflexivity|rewrite Hloop; reflexivity].
  destruct Hloop as [-> Hkept]. cbn [app]. cbv beta iota zeta.
  destruct (negb (py_len_items (map fst (filter (fun e => is_vote_error (validate (fst e))) votes)) =? 0)) eqn:En.
  - match goal with |- context [py_for _ ?f votes] =>
      rewrite (del_filter f (fun d x => eq_refl) (fun e => is_vote_error (validate (fst e))) votes Hd) end.
    simpl. rewrite Hkept. reflexivity.
  - simpl. apply negb_false_iff, Z.eqb_eq in En. unfold py_len_items in En.
    destruct (filter (fun e => is_vote_error (validate (fst e))) votes) as [|x xs] eqn:Ef; [|simpl in En; lia].
    rewrite Hkept. f_equal. f_equal. clear - Ef. induction votes as [|a t IH]; [reflexivity|]. cbn [filter] in *.
    destruct (is_vote_error (validate (fst a))); [discriminate|]. cbn [negb]. f_equal. apply IH, Ef.
Qed.

(* the filter around each generated validator *)
Corollary GenTie_eliminator_simple : forall nm votes, keys_distinct votes = true ->
  elim_kind (InvalidVoteEliminator_convert (SimpleVoteValidator_validate nm) votes) = Some (eliminate (validate_simple nm) votes).
Proof. intros nm votes. apply GenTie_eliminator, GenTie_simple. Qed.
Corollary GenTie_eliminator_approval : forall nm cnt votes, keys_distinct votes = true ->
  elim_kind (InvalidVoteEliminator_convert (ApprovalVoteValidator_validate nm cnt) votes) = Some (eliminate (validate_approval nm cnt) votes).
Proof. intros nm cnt votes. apply GenTie_eliminator, GenTie_approval. Qed.
Corollary GenTie_eliminator_ranked : forall nm tot ranks votes, keys_distinct votes = true ->
  elim_kind (InvalidVoteEliminator_convert (RankedVoteValidator_validate nm tot ranks) votes)
  = Some (eliminate (validate_ranked nm tot ranks) votes).
Proof. intros nm tot ranks votes. apply GenTie_eliminator, GenTie_ranked. Qed.
Corollary GenTie_eliminator_enum : forall nm nsc sums levels votes, keys_distinct votes = true ->
  elim_kind (InvalidVoteEliminator_convert (EnumScoreVoteValidator_validate nm nsc sums levels) votes)
  = Some (eliminate (validate_score nm nsc sums (SEnum levels)) votes).
Proof. intros nm nsc sums levels votes. apply GenTie_eliminator, GenTie_enum. Qed.
Corollary GenTie_eliminator_range : forall nm nsc sums rb votes, keys_distinct votes = true ->
  elim_kind (InvalidVoteEliminator_convert (RangeVoteValidator_validate nm nsc sums rb) votes)
  = Some (eliminate (validate_score nm nsc sums (SRange rb)) votes).
Proof. intros nm nsc sums rb votes. apply GenTie_eliminator, GenTie_range. Qed.

(* non-vacuity: a two-ballot dictionary with different keys; the generated filter drops the ballot a stub validator rejects *)
Example GenTie_eliminator_example :
  keys_distinct [(OCand KStr 1, 3); (OCand KStr 2, 4)] = true /\
  InvalidVoteEliminator_convert (fun o => if obj_eqb o (OCand KStr 1) then inr PyVoteTypeError else inl tt)
    [(OCand KStr 1, 3); (OCand KStr 2, 4)] = inl [(OCand KStr 2, 4)].
Proof. split; reflexivity. Qed.

Print Assumptions GenTie_nominator.
Print Assumptions GenTie_checker.
Print Assumptions GenTie_checker_active.
Print Assumptions GenTie_defaulted.
Print Assumptions GenTie_simple.
Print Assumptions GenTie_approval.
Print Assumptions GenTie_ranked.
Print Assumptions GenTie_score_base.
Print Assumptions GenTie_enum.
Print Assumptions GenTie_range.
Print Assumptions GenTie_eliminator.
