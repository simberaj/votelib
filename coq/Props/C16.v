(* C16 - Thresholds, quota selectors and open-list jumps are exact at the boundary.
   This file holds the property theorems and examples of non-vacuity.  Model: Model/Threshold.v (+ QuotaSelector in
   Model/QuotaDistributor.v); proofs: Proofs/Threshold_proofs.v, Proofs/TieBreak2_proofs.v.
   All comparisons are on exact rationals: "on the threshold" is == in Q. *)
From Coq Require Import ZArith QArith List Bool Arith Permutation.
From VL Require Import Prelude.PyDict Model.GetNBest Model.QuotaDistributor Model.Threshold
     Proofs.GetNBest_proofs Proofs.Threshold_proofs Proofs.TieBreak2_proofs.
Import ListNotations.
Close Scope Q_scope.

Theorem C16_absolute : forall thr ae votes c,
  In c (sel_eval (SAbs thr ae) votes) <->
  exists v, In (c, v) votes /\ ((thr < v)%Q \/ (ae = true /\ (v == thr)%Q)).
Proof. exact absolute_spec. Qed.

(* exact share of the total vote against the threshold *)
Theorem C16_relative : forall thr ae votes c,
  In c (sel_eval (SRel thr ae) votes) <->
  exists v, In (c, v) votes /\
    ((thr < v / qsumv votes)%Q \/ (ae = true /\ (v / qsumv votes == thr)%Q)).
Proof. exact relative_spec. Qed.

(* alternative thresholds pass the union of their parts (any nesting) *)
Theorem C16_alternative : forall parts votes c,
  In c (sel_eval (SAlt parts) votes) <-> exists p, In p parts /\ In c (sel_eval p votes).
Proof. exact alternative_spec. Qed.

(* quota selector: the candidates over (or on) the computed quota, through get_n_best;
   a refusal exactly when more candidates pass than seats and 'select' is off *)
Theorem C16_quota_selector : forall quota ae select votes n,
  qsel_evaluate quota ae select votes n =
    let over := filter (fun cv => fulfills ae (snd cv) (quota (qsumv votes) n)) votes in
    if (n <? Z.of_nat (length over))%Z && negb select then QS_vse
    else QS_ok (get_n_best Qle_bool over (Z.to_nat n)).
Proof. reflexivity. Qed.

(* open list: exactly n distinct list members *)
Theorem C16_openlist_count : forall cfg votes n lst,
  NoDup lst -> NoDup (map fst votes) -> incl (map fst votes) lst -> (1 <= n <= length lst)%nat ->
  let r := openlist_eval cfg votes n lst in
  length r = n /\ NoDup r /\ incl r lst.
Proof. exact openlist_count. Qed.

(* ... the candidates over the jump threshold first, ordered by votes, then the
   remaining list members in list order *)
Theorem C16_openlist_structure : forall cfg votes n lst thr,
  NoDup lst -> ol_threshold cfg (qsumv votes) (Z.of_nat n) = Some thr ->
  (length (ol_jumping cfg votes thr) <= n)%nat ->
  let jumping := ol_jumping cfg votes thr in
  openlist_eval cfg votes n lst =
    map fst jumping ++ firstn (n - length jumping) (filter (fun c => negb (cmem c (map fst jumping))) lst)
  /\ (forall c, In c (map fst jumping) <->
        exists v, In (c, v) votes /\ ((thr < v)%Q \/ (ol_accept_equal cfg = true /\ (v == thr)%Q)))
  /\ @sorted_desc C Q Qle_bool jumping.
Proof. exact openlist_structure. Qed.

(* ... so nobody is passed over by a lower-listed colleague who did not reach the threshold *)
Theorem C16_no_leapfrog : forall n elected pre a mid b post,
  NoDup (pre ++ a :: mid ++ b :: post) -> (length elected <= n)%nat ->
  ~ In a elected -> ~ In b elected ->
  In b (fill n elected (pre ++ a :: mid ++ b :: post)) ->
  In a (fill n elected (pre ++ a :: mid ++ b :: post)).
Proof. exact fill_no_leapfrog. Qed.

(* the fill-up loop in closed form *)
Theorem C16_fill : forall n lst, NoDup lst -> forall elected, (length elected <= n)%nat ->
  fill n elected lst =
  elected ++ firstn (n - length elected) (filter (fun c => negb (cmem c elected)) lst).
Proof. exact fill_spec. Qed.

(* bracketers (coalition size / candidate property): a candidate passes exactly when the selector configured for its
   bracket value passes it - no selector configured for that bracket means everybody in it passes *)
Theorem C16_bracketer : forall evals default bracket votes c,
  In c (bracket_eval evals default bracket votes) <->
  exists v, In (c, v) votes /\
    match bracket_pick evals default (dget_or bracket c 1%Z) with
    | Some s => In c (sel_eval s votes)
    | None => True
    end.
Proof. exact bracket_eval_spec. Qed.

(* ListOrderTieBreaker: Tie.break_by_list
   [wf_sel lst el]: every tie in the selection is non-empty, duplicate-free and inside the breaker list
   (a frozenset of list members).  [replaces (Cand c) x] is x = c, [replaces (TieR t) x] is In x t;
   [occ_before el i t] counts the earlier entries that are the same tie (as a set). *)

(* the defining clause: same length, plain entries untouched, every tie entry replaced by a member of
   that tie, the k-th occurrence (k from 0) receiving member k (mod the size) in breaker order.
   The side condition excludes only a one-member tie listed twice (see C16_break_by_list_index_error). *)
Theorem C16_break_by_list : forall lst el,
  wf_sel lst el ->
  (forall t, In (TieR t) el -> length t = 1%nat -> (tcount (ties_of el) t <= 1)%nat) ->
  exists r, break_by_list el lst [] [] = BL_ok r /\
    length r = length el /\
    Forall2 replaces el r /\
    (forall i c, nth_error el i = Some (Cand c) -> nth_error r i = Some c) /\
    (forall i t, nth_error el i = Some (TieR t) ->
       nth_error r i = Some (nth (occ_before el i t mod length t) (sort_by_list lst t) 1%positive)).
Proof. exact break_by_list_defining. Qed.

(* "in the order of the breaker list": sorted(tie, key=breaker.index) is the breaker list filtered to the tie *)
Theorem C16_breaker_order : forall lst t, NoDup lst -> NoDup t -> incl t lst ->
  sort_by_list lst t = filter (fun c => cmem c t) lst.
Proof. exact sort_by_list_closed. Qed.

(* well-shaped selections (each tie listed at most as many times as it has members, plain entries
   distinct and outside the ties, different ties disjoint): distinct entries, no wrap-around *)
Theorem C16_break_by_list_distinct : forall lst el, NoDup lst -> wf_sel lst el -> shaped el ->
  exists r, break_by_list el lst [] [] = BL_ok r /\ NoDup r /\ length r = length el /\
    (forall i c, nth_error el i = Some (Cand c) -> nth_error r i = Some c) /\
    (forall i t, nth_error el i = Some (TieR t) ->
       (occ_before el i t < length t)%nat /\
       nth_error r i = Some (nth (occ_before el i t) (filter (fun c => cmem c t) lst) 1%positive)).
Proof. exact break_by_list_distinct. Qed.

(* exact behaviour outside well-shaped selections.  (a) IndexError exactly when a one-member tie is
   listed twice (ties[item] = sorted_item[1:] stores an empty list, the next ties[item][0] fails) *)
Theorem C16_break_by_list_index_error : forall lst el, wf_sel lst el ->
  (break_by_list el lst [] [] = BL_index <->
   exists t, In (TieR t) el /\ length t = 1%nat /\ (2 <= tcount (ties_of el) t)%nat).
Proof. exact break_by_list_index_error. Qed.
(* (b) a tie of m >= 2 members listed more than m times starts over: the result repeats a candidate
   (the "mod length t" of C16_break_by_list); both replayed on the implementation (corpus/C16/break-by-list-*.json) *)
Example C16_break_by_list_wraps :
  break_by_list [TieR [1; 2]; TieR [1; 2]; TieR [1; 2]]%positive [2; 1]%positive [] [] = BL_ok [2; 1; 2]%positive /\
  break_by_list [TieR [1]; TieR [1]]%positive [2; 1]%positive [] [] = BL_index.
Proof. split; vm_compute; reflexivity. Qed.

(* non-vacuity of the hypotheses: get_n_best's [A, Tie{B,C}, Tie{B,C}] against the list C, A, B *)
Example C16_break_by_list_example :
  let el := [Cand 4; TieR [1; 2]; TieR [1; 2]]%positive in let lst := [2; 4; 1]%positive in
  wf_sel lst el /\ shaped el /\ NoDup lst /\ break_by_list el lst [] [] = BL_ok [4; 2; 1]%positive.
Proof.
  cbv zeta. split; [|split; [|split]].
  - intros t [H|[H|[H|[]]]]; inversion H; subst; (split; [discriminate|split]).
    + repeat constructor; simpl; intuition discriminate.
    + intros c [<-|[<-|[]]]; simpl; auto.
    + repeat constructor; simpl; intuition discriminate.
    + intros c [<-|[<-|[]]]; simpl; auto.
  - constructor.
    + intros t [H|[H|[H|[]]]]; inversion H; subst; vm_compute; auto.
    + simpl. repeat constructor. simpl. tauto.
    + intros c t [H|[H|[H|[]]]]; inversion H; subst. intros [H'|[H'|[H'|[]]]]; inversion H'; subst; simpl; intuition discriminate.
    + intros t t' [H|[H|[H|[]]]] [H'|[H'|[H'|[]]]]; inversion H; inversion H'; subst; left; apply seq_refl.
  - repeat constructor; simpl; intuition discriminate.
  - vm_compute. reflexivity.
Qed.

(* non-vacuity: 5 of 100 at 5 % with accept_equal passes; without it does not *)
Example C16_example_on_threshold :
  sel_eval (SRel (1#20) true) [(1%positive, 5#1); (2%positive, 95#1)]%Q = [2%positive; 1%positive] /\
  sel_eval (SRel (1#20) false) [(1%positive, 5#1); (2%positive, 95#1)]%Q = [2%positive].
Proof. split; vm_compute; reflexivity. Qed.

Print Assumptions C16_absolute.
Print Assumptions C16_relative.
Print Assumptions C16_alternative.
Print Assumptions C16_quota_selector.
Print Assumptions C16_openlist_count.
Print Assumptions C16_openlist_structure.
Print Assumptions C16_no_leapfrog.
Print Assumptions C16_fill.
Print Assumptions C16_bracketer.
Print Assumptions C16_break_by_list.
Print Assumptions C16_breaker_order.
Print Assumptions C16_break_by_list_distinct.
Print Assumptions C16_break_by_list_index_error.
