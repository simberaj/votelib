(* C11 - Exact arithmetic: outcomes invariant under vote scaling, even beyond 2^53.
   This file holds the property theorems, the definitions and small lemmas their statements need, and examples of
   non-vacuity.  Models: Model/GetNBest.v, Model/HighestAverages.v, Model/Condorcet.v,
   Model/QuotaDistributor.v, Model/STV.v; proofs: Proofs/Scale_proofs.v, Proofs/Minimax_proofs.v, Proofs/LRScale_proofs.v,
   Proofs/STVScale_proofs.v, Proofs/Schulze_proofs.v.  All numbers are unbounded Z / Q: the statements quantify over
   every positive scale factor and every magnitude (10^30 and 2^53 are not special).
   The threshold family, STAR and the rest of the registry: Model/Threshold.v, Model/Conditioned.v, Model/Star.v,
   Model/Hybrids.v, Model/Elimination.v, Model/AllocScore.v, Model/PureProp.v; proofs: Proofs/ScaleThr_proofs.v,
   Proofs/ScaleHyb_proofs.v, Proofs/ScaleAlloc_proofs.v, Proofs/Scale2_proofs.v (STAR, PureProportionality) and the
   Scale2*_proofs.v files imported below.  docs/C11.md maps every configuration of harness/evalreg.py to its theorem. *)
From Coq Require Import ZArith QArith List Bool.
From VL Require Import Prelude.PyDict Model.GetNBest Model.HighestAverages Model.Condorcet
     Proofs.GetNBest_proofs Proofs.QOrd Proofs.Scale_proofs Proofs.Minimax_proofs Proofs.LRScale_proofs Proofs.Schulze_proofs
     Model.Quota Model.QuotaDistributor.
From VL Require Model.Convert Model.STV Proofs.STVScale_proofs.
From VL Require Proofs.Schwartz_proofs.
From VL Require Prelude.Sx Prelude.GDict Model.Bucklin Model.Cardinal Proofs.Scale2_proofs Proofs.Scale2Add_proofs Proofs.Scale2Bucklin_proofs
     Proofs.Scale2PAV_proofs Proofs.Scale2Score_proofs Proofs.Scale2MJ_proofs Proofs.Scale2Complete_proofs.
From VL Require Model.Threshold Model.Conditioned Model.Star Proofs.ScaleThr_proofs.
From VL Require Model.Hybrids Model.Elimination Model.AllocScore Model.PureProp Proofs.ScaleHyb_proofs Proofs.ScaleAlloc_proofs.
Import ListNotations.

(* plurality / every rule that ends in get_n_best of exact totals *)
Theorem C11_scale_plurality : forall (k : Q) (votes : list (C * Q)) (n : nat), (0 < k)%Q ->
  get_n_best Qle_bool (scaleq k votes) n = get_n_best Qle_bool votes n.
Proof. exact get_n_best_scale. Qed.

(* every highest-averages rule: any divisor function, previous gains, caps *)
Theorem C11_scale_highest_averages : forall (d : Z -> Q) (k : Q) (votes : list (C * Q)) (caps prev : list (C * Z)) (n : Z),
  (0 < k)%Q -> evaluate d (scaleq k votes) n prev caps = evaluate d votes n prev caps.
Proof. intros d k votes caps prev n Hk. exact (ha_scale d k Hk votes caps n prev). Qed.

(* pairwise-comparison based evaluators: the win relation, the Condorcet winner, Copeland (raw and
   second order), the Smith and Schwartz sets *)
Theorem C11_scale_pairwise_wins : forall (k : Z) v ties, (0 < k)%Z -> pairwise_wins (scalez k v) ties = pairwise_wins v ties.
Proof. intros k v ties Hk. exact (pairwise_wins_scale k Hk v ties). Qed.
Theorem C11_scale_condorcet_winner : forall (k : Z) v, (0 < k)%Z -> condorcet_winner (scalez k v) = condorcet_winner v.
Proof. intros k v Hk. exact (condorcet_winner_scale k Hk v). Qed.
Theorem C11_scale_copeland : forall (k : Z) so v n, (0 < k)%Z -> copeland so (scalez k v) n = copeland so v n.
Proof. intros k so v n Hk. exact (copeland_scale k Hk so v n). Qed.
Theorem C11_scale_smith_schwartz : forall (k : Z) v ties, (0 < k)%Z -> smith_schwartz (scalez k v) ties = smith_schwartz v ties.
Proof. intros k v ties Hk. exact (smith_schwartz_scale k Hk v ties). Qed.
(* SchwartzSet after the repair fixes/C06-schwartz-set (Condorcet.schwartz_set) *)
Theorem C11_scale_schwartz_set : forall (k : Z) v, (0 < k)%Z -> schwartz_set (scalez k v) = schwartz_set v.
Proof. intros k v Hk. exact (Schwartz_proofs.schwartz_set_scale k v Hk). Qed.

Theorem C11_scale_minimax : forall (k : Z) s v n, (0 < k)%Z -> minimax s (scalez k v) n = minimax s v n.
Proof. intros k s v n Hk. exact (minimax_scale k Hk s v n). Qed.

(* the quota family with a homogeneous quota (Hare 1, Hagenbach-Bischoff 4, Imperiali 7; the rounded quotas are genuinely not
   scale-free): QuotaDistributor with every overshoot policy, the recursive cap branch and the over-award subtraction included,
   and LargestRemainder with its remainder ranking *)
Theorem C11_scale_quota_distributor : forall (k : Q) (i : Z) accept_equal pol (votes : list (C * Q)) n prev caps,
  (0 < k)%Q -> homogeneous_quota i = true ->
  qd_evaluate (quota_fn (QNamed i)) accept_equal pol (scaleq k votes) n prev caps
  = qd_evaluate (quota_fn (QNamed i)) accept_equal pol votes n prev caps.
Proof.
  intros k i ae pol votes n prev caps Hk Hi.
  exact (qd_evaluate_rel k Hk _ ae pol (quota_fn_homog k i Hi) votes _ n prev caps (vrel_scale k votes)).
Qed.

Theorem C11_scale_largest_remainder : forall (k : Q) (i : Z) accept_equal pol (votes : list (C * Q)) n prev caps,
  (0 < k)%Q -> homogeneous_quota i = true ->
  lr_evaluate (quota_fn (QNamed i)) accept_equal pol (scaleq k votes) n prev caps
  = lr_evaluate (quota_fn (QNamed i)) accept_equal pol votes n prev caps.
Proof.
  intros k i ae pol votes n prev caps Hk Hi.
  exact (lr_evaluate_rel k Hk _ ae pol (quota_fn_homog k i Hi) votes _ n prev caps (vrel_scale k votes)).
Qed.

(* totals that differ - by one vote in 10^30 or by anything else - are never reported as tied,
   and equal rational totals (whatever their representation: 1/2 = 2/4) always are tied together *)
Theorem C11_tie_exact : forall (votes : list (C * Q)) n T c1 v1 c2 v2,
  NoDup (map fst votes) -> In (TieR T) (get_n_best Qle_bool votes n) ->
  In (c1, v1) votes -> In (c2, v2) votes ->
  (In c1 T -> In c2 T -> (v1 == v2)%Q) /\ ((v1 == v2)%Q -> (In c1 T <-> In c2 T)).
Proof.
  intros votes n T c1 v1 c2 v2 Hnd HT H1 H2.
  destruct (get_n_best_tie_members Qle_bool Qle_bool_trans votes n T HT) as (thr & -> & _).
  rewrite (tie_member_level votes thr c1 v1 Hnd H1), (tie_member_level votes thr c2 v2 Hnd H2).
  split; [intros E1 E2; rewrite E1, E2; reflexivity|intros E; rewrite E; reflexivity].
Qed.

Corollary C11_one_vote_apart : forall (votes : list (C * Q)) n T c1 v1 c2,
  NoDup (map fst votes) -> In (TieR T) (get_n_best Qle_bool votes n) ->
  In (c1, v1) votes -> In (c2, (v1 + 1)%Q) votes -> ~ (In c1 T /\ In c2 T).
Proof.
  intros votes n T c1 v1 c2 Hnd HT H1 H2 [Ha Hb].
  destruct (C11_tie_exact votes n T c1 v1 c2 (v1 + 1)%Q Hnd HT H1 H2) as [H _].
  specialize (H Ha Hb). assert (Hne : ~ (v1 == v1 + 1)%Q) by (intros E; apply (Qplus_inj_l _ _ (- v1)%Q) in E; ring_simplify in E; discriminate).
  exact (Hne H).
Qed.

(* the transferable-vote count (Model/STV.v: initial allocation with shared first ranks, election by quota,
   Gregory surplus subtraction, transfers, eliminations, the unchanged-allocation stop) with a homogeneous quota
   function - Hare, Hagenbach-Bischoff - or no quota at all (TransferableVoteSelector).  The run on the k-fold
   votes elects the same seats, stops the same way, and its per-count records are the scaled ones: the same
   elected lists, the same keys in the same order, every total multiplied by k.  Droop and the rounded quotas
   are not homogeneous and are out of scope: C11_stv_droop_not_scale_free. *)
Definition C11_stv_trace_scaled (k : Q) (t t' : STV.trace) : Prop :=
  STV.t_seats t' = STV.t_seats t /\ STV.t_stop t' = STV.t_stop t /\
  Forall2 (fun x y : list (option C * Q) * list (C * Z) =>
             Forall2 (fun p p' : option C * Q => fst p = fst p' /\ (snd p' == k * snd p)%Q) (fst x) (fst y)
             /\ snd y = snd x)
          (STV.t_counts t) (STV.t_counts t').

Definition C11_stv_scale_votes (k : Q) (votes : list (STV.ballot * Q)) : list (STV.ballot * Q) :=
  map (fun bw => (fst bw, (k * snd bw)%Q)) votes.

Theorem C11_scale_stv_homogeneous : forall (k : Q) (cf : STV.cfg) votes n_seats prev caps, (0 < k)%Q ->
  (forall qf, STV.c_quota cf = Some qf -> forall v v' n, (v' == k * v)%Q -> (qf v' n == k * qf v n)%Q) ->
  C11_stv_trace_scaled k (STV.stv cf votes n_seats prev caps)
                         (STV.stv cf (C11_stv_scale_votes k votes) n_seats prev caps).
Proof. intros k cf votes n prev caps Hk Hh. exact (STVScale_proofs.stv_scale k Hk cf votes n prev caps Hh). Qed.

Theorem C11_scale_stv : forall (k : Q) (quota : option (Q -> Z -> Q)) accept_equal mandatory step votes n_seats prev caps,
  (0 < k)%Q -> quota = None \/ quota = Some hare \/ quota = Some hagenbach_bischoff ->
  C11_stv_trace_scaled k (STV.stv (STV.Build_cfg quota accept_equal mandatory step) votes n_seats prev caps)
                         (STV.stv (STV.Build_cfg quota accept_equal mandatory step) (C11_stv_scale_votes k votes) n_seats prev caps).
Proof.
  intros k quota ae ma st votes n prev caps Hk Hq. apply (STVScale_proofs.stv_scale k Hk).
  destruct Hq as [->|[->| ->]];
    [apply STVScale_proofs.homog_none|apply STVScale_proofs.homog_hare|apply STVScale_proofs.homog_hb].
Qed.

Corollary C11_scale_stv_seats : forall (k : Q) (quota : option (Q -> Z -> Q)) accept_equal mandatory step votes n_seats prev caps,
  (0 < k)%Q -> quota = None \/ quota = Some hare \/ quota = Some hagenbach_bischoff ->
  STV.t_seats (STV.stv (STV.Build_cfg quota accept_equal mandatory step) (C11_stv_scale_votes k votes) n_seats prev caps)
  = STV.t_seats (STV.stv (STV.Build_cfg quota accept_equal mandatory step) votes n_seats prev caps) /\
  STV.t_stop (STV.stv (STV.Build_cfg quota accept_equal mandatory step) (C11_stv_scale_votes k votes) n_seats prev caps)
  = STV.t_stop (STV.stv (STV.Build_cfg quota accept_equal mandatory step) votes n_seats prev caps).
Proof.
  intros k quota ae ma st votes n prev caps Hk Hq.
  destruct (C11_scale_stv k quota ae ma st votes n prev caps Hk Hq) as (H1 & H2 & _). split; assumption.
Qed.

(* the Droop quota floor(v / (s + 1)) + 1 is not homogeneous, and the count with it is genuinely not scale-free,
   already for the integer factor 2 on integer ballot weights: D>C>A 3, B>A 4, A>{D,B}>C 2, B 1, two seats.
   droop 10 2 = 4 leaves B a surplus of 1 (a fifth of its 5 votes), droop 20 2 = 7 a surplus of 3 (three tenths):
   both counts complete, electing {B, D} and {B, A} (the implementation returns the same two results) *)
Theorem C11_stv_droop_not_scale_free : exists votes,
  let t := STV.stv (STV.Build_cfg (Some droop) true false (-1)) votes 2 [] [] in
  let t' := STV.stv (STV.Build_cfg (Some droop) true false (-1)) (C11_stv_scale_votes 2 votes) 2 [] [] in
  STV.t_stop t = None /\ STV.t_stop t' = None /\
  STV.t_seats t = [(2%positive, 1%Z); (4%positive, 1%Z)] /\ STV.t_seats t' = [(2%positive, 1%Z); (1%positive, 1%Z)].
Proof.
  exists [([Convert.IP 4%positive; Convert.IP 3%positive; Convert.IP 1%positive], 3%Q);
          ([Convert.IP 2%positive; Convert.IP 1%positive], 4%Q);
          ([Convert.IP 1%positive; Convert.IS [4%positive; 2%positive]; Convert.IP 3%positive], 2%Q);
          ([Convert.IP 2%positive], 1%Q)].
  vm_compute. repeat split; reflexivity.
Qed.

(* non-vacuity: a Hagenbach-Bischoff count over shared ranks and fractional weights with two quota elections,
   Gregory transfers and two eliminations, on votes scaled by (10^30 + 7) / 3 *)
Definition C11_stv_example_votes : list (STV.ballot * Q) :=
  let a := 1%positive in let b := 2%positive in let c := 3%positive in let d := 4%positive in
  [([Convert.IP a; Convert.IP b; Convert.IP c], 10); ([Convert.IP b; Convert.IP c], 4);
   ([Convert.IS [b; c]; Convert.IP d], 3); ([Convert.IP c; Convert.IP d], 3 # 2);
   ([Convert.IP d; Convert.IS [a; c]], 5); ([Convert.IP d], 1 # 3)]%Q.
Example C11_stv_example :
  let t := STV.stv (STV.Build_cfg (Some hagenbach_bischoff) false false (-1))
                   (C11_stv_scale_votes (1000000000000000000000000000007 # 3) C11_stv_example_votes) 3 [] [] in
  STV.t_seats t = [(1%positive, 1%Z); (4%positive, 1%Z); (2%positive, 1%Z)] /\ STV.t_stop t = None /\
  map snd (STV.t_counts t) = [[(1%positive, 1%Z)]; []; [(4%positive, 1%Z)]; []; []; [(2%positive, 1%Z)]].
Proof. vm_compute. repeat split; reflexivity. Qed.

(* Schulze: the whole Floyd-Warshall table of the scaled election is k times the table of the original one
   (min and max commute with multiplication by a positive integer), so the path-win relation, the scores and the
   ranking are unchanged - for every iteration order of the candidate set and every number of seats *)
Theorem C11_scale_schulze_paths : forall (k : Z) v order, (0 < k)%Z ->
  widest_paths (scalez k v) order = scalez k (widest_paths v order).
Proof. intros k v order Hk. exact (widest_paths_scale k Hk v order). Qed.

Theorem C11_scale_schulze : forall (k : Z) v order n, (0 < k)%Z ->
  schulze (scalez k v) order n = schulze v order n.
Proof. intros k v order n Hk. exact (schulze_scale k Hk v order n). Qed.

(* the clause with order = the dictionary's candidate order *)
Definition C11_scale_full_statement : Prop :=
  forall (k : Z) v n, (0 < k)%Z ->
    schulze (scalez k v) (candidates v) n = schulze v (candidates v) n.
Theorem C11_scale_full : C11_scale_full_statement.
Proof. intros k v n Hk. exact (schulze_scale k Hk v (candidates v) n). Qed.

(* non-vacuity: a tie at the cut survives scaling by 10^30 + 7, and 10^30 vs 10^30 + 1 is not a tie *)
Example C11_example :
  get_n_best Qle_bool (scaleq (1000000000000000000000000000007 # 1) [(1%positive, 1#2); (2%positive, 2#4); (3%positive, 1#3)]%Q) 1
    = [TieR [1%positive; 2%positive]] /\
  get_n_best Qle_bool [(1%positive, 1000000000000000000000000000000 # 1); (2%positive, 1000000000000000000000000000001 # 1)]%Q 1
    = [Cand 2%positive].
Proof. vm_compute. split; reflexivity. Qed.

(* non-vacuity for Schulze: a five-candidate election with a beat cycle, scaled by 10^30 + 7 *)
Example C11_schulze_example :
  schulze (scalez 1000000000000000000000000000007 mono_v) (candidates mono_v) 3
    = [Cand 3%positive; Cand 2%positive; Cand 5%positive] /\
  schulze mono_v (candidates mono_v) 3 = [Cand 3%positive; Cand 2%positive; Cand 5%positive].
Proof. vm_compute. split; reflexivity. Qed.

(* ranked pairs and Kemeny-Young under the k-fold pairwise dictionary: pair strengths and Kemeny scores are k-fold,
   the sorted pair order, the locked graph and the set of best rankings (with its refusal) are unchanged *)
Theorem C11_scale_ranked_pairs : forall (k : Z) s v n, (0 < k)%Z -> ranked_pairs s (scalez k v) n = ranked_pairs s v n.
Proof. intros k s v n Hk. exact (Scale2_proofs.ranked_pairs_scale k Hk s v n). Qed.

Theorem C11_scale_kemeny : forall (k : Z) v n, (0 < k)%Z -> kemeny (scalez k v) n = kemeny v n.
Proof. intros k v n Hk. exact (Scale2_proofs.kemeny_scale k Hk v n). Qed.

(* the ADDITIVE family: ANY converter that is an accumulating fold of per-ballot images (keys of any type), followed by
   get_n_best.  The totals are k-fold (same keys, same order), the selection and its ties are unchanged. *)
Theorem C11_scale_additive : forall {K B : Type} (keqb : K -> K -> bool) (k : Q) (image : B -> list (K * Q))
    (votes : list (B * Q)) (n : nat), (0 < k)%Q ->
  get_n_best Qle_bool (GDict.conv keqb image (map (fun bw => (fst bw, (k * snd bw)%Q)) votes)) n
  = get_n_best Qle_bool (GDict.conv keqb image votes) n.
Proof. intros K B keqb k image votes n Hk. exact (Scale2Add_proofs.additive_scale keqb k Hk image votes n). Qed.

Theorem C11_scale_additive_totals : forall {K B : Type} (keqb : K -> K -> bool) (k : Q) (image : B -> list (K * Q))
    (votes : list (B * Q)), (0 < k)%Q ->
  Forall2 (fun x y : K * Q => fst x = fst y /\ (snd y == k * snd x)%Q)
          (GDict.conv keqb image votes) (GDict.conv keqb image (map (fun bw => (fst bw, (k * snd bw)%Q)) votes)).
Proof. intros K B keqb k image votes Hk. exact (Scale2Add_proofs.additive_totals_scale keqb k image votes). Qed.

(* instances over the converter images of Model/Convert.v: first preferences (plurality on ranked ballots), approval
   (plain, and split = satisfaction approval voting), presence counts *)
Theorem C11_scale_additive_first_preference : forall (k : Q) (votes : list (Convert.ranked * Q)) n, (0 < k)%Q ->
  get_n_best Qle_bool (Convert.dconv Convert.img_first (map (fun bw => (fst bw, (k * snd bw)%Q)) votes)) n
  = get_n_best Qle_bool (Convert.dconv Convert.img_first votes) n.
Proof. intros k votes n Hk. exact (Scale2Add_proofs.additive_scale GDict.sx_eqb k Hk Convert.img_first votes n). Qed.

Theorem C11_scale_additive_approval : forall (k : Q) (split : bool) (votes : list (list C * Q)) n, (0 < k)%Q ->
  get_n_best Qle_bool (Convert.dconv (Convert.img_approval_simple split) (map (fun bw => (fst bw, (k * snd bw)%Q)) votes)) n
  = get_n_best Qle_bool (Convert.dconv (Convert.img_approval_simple split) votes) n.
Proof. intros k split votes n Hk. exact (Scale2Add_proofs.additive_scale GDict.sx_eqb k Hk (Convert.img_approval_simple split) votes n). Qed.

Theorem C11_scale_additive_presence : forall (k : Q) (votes : list (Convert.ranked * Q)) n, (0 < k)%Q ->
  get_n_best Qle_bool (Convert.dconv Convert.img_presence (map (fun bw => (fst bw, (k * snd bw)%Q)) votes)) n
  = get_n_best Qle_bool (Convert.dconv Convert.img_presence votes) n.
Proof. intros k votes n Hk. exact (Scale2Add_proofs.additive_scale GDict.sx_eqb k Hk Convert.img_presence votes n). Qed.

(* the positional rules as the library runs them (Borda, Dowdall, geometric, modified Borda, fixed-top, sequence based):
   the number of candidates is read off the profile, a ballot with more ranks than candidates poisons the run (None) at
   both scales alike.  [option_map] of get_n_best over the converter's optional output. *)
Theorem C11_scale_additive_positional : forall (k : Q) (s : Convert.scorer) (votes : list (Convert.ranked * Q)) n, (0 < k)%Q ->
  let votes' := map (fun bw : Convert.ranked * Q => (fst bw, (k * snd bw)%Q)) votes in
  option_map (fun d => get_n_best Qle_bool d n)
    (Convert.oconv (Convert.img_positional s (length (Convert.cands_ranked votes'))) votes')
  = option_map (fun d => get_n_best Qle_bool d n)
    (Convert.oconv (Convert.img_positional s (length (Convert.cands_ranked votes))) votes).
Proof.
  intros k s votes n Hk votes'. exact (Scale2Add_proofs.positional_scale k s votes n Hk).
Qed.

(* PreferenceAddition = Bucklin / Oklahoma (Model/Bucklin.v): every coefficient specification (list or harmonic) or
   coefficient function, both splicing loops, with or without decoupling of shared ranks, every number of seats -
   including the error outcomes and the Tie.reconcile refusal *)
Theorem C11_scale_bucklin : forall (k : Q) fx (cs : Bucklin.coefspec) split (votes : list (Convert.ranked * Q)) n, (0 < k)%Q ->
  Bucklin.pa_evaluate fx cs split (map (fun bw => (fst bw, (k * snd bw)%Q)) votes) n = Bucklin.pa_evaluate fx cs split votes n.
Proof. intros k fx cs split votes n Hk. exact (Scale2Bucklin_proofs.pa_evaluate_scale k Hk fx cs split votes n). Qed.

Theorem C11_scale_preference_addition : forall (k : Q) fx (coef : nat -> Q) split (votes : list (Convert.ranked * Q)) n, (0 < k)%Q ->
  Bucklin.pa_eval fx coef split (map (fun bw => (fst bw, (k * snd bw)%Q)) votes) n = Bucklin.pa_eval fx coef split votes n.
Proof. intros k fx coef split votes n Hk. exact (Scale2Bucklin_proofs.pa_eval_scale k Hk fx coef split votes n). Qed.

Corollary C11_scale_bucklin_presets : forall (k : Q) fx (votes : list (Convert.ranked * Q)) n, (0 < k)%Q ->
  Bucklin.bucklin fx (map (fun bw => (fst bw, (k * snd bw)%Q)) votes) n = Bucklin.bucklin fx votes n /\
  Bucklin.oklahoma fx (map (fun bw => (fst bw, (k * snd bw)%Q)) votes) n = Bucklin.oklahoma fx votes n.
Proof. intros k fx votes n Hk. split; apply C11_scale_preference_addition; exact Hk. Qed.

(* PAV: the set of satisfaction-maximising committees, hence the refusal when it is not a singleton, and the order of
   the elected by satisfaction drop; SPAV: every round leader and every tie refusal *)
Theorem C11_scale_pav : forall (k : Q) (votes : Cardinal.aprofile) n, (0 < k)%Q ->
  Cardinal.pav (map (fun bw => (fst bw, (k * snd bw)%Q)) votes) n = Cardinal.pav votes n.
Proof. intros k votes n Hk. exact (Scale2PAV_proofs.pav_scale k Hk votes n). Qed.

Theorem C11_scale_pav_best : forall (k : Q) (votes : Cardinal.aprofile) cands n, (0 < k)%Q ->
  Cardinal.pav_best (map (fun bw => (fst bw, (k * snd bw)%Q)) votes) cands n = Cardinal.pav_best votes cands n.
Proof. intros k votes cands n Hk. exact (Scale2PAV_proofs.pav_best_scale k Hk votes cands n). Qed.

Theorem C11_scale_spav : forall (k : Q) (votes : Cardinal.aprofile) n, (0 < k)%Q ->
  Cardinal.spav (map (fun bw => (fst bw, (k * snd bw)%Q)) votes) n = Cardinal.spav votes n.
Proof. intros k votes n Hk. exact (Scale2PAV_proofs.spav_scale k Hk votes n). Qed.

(* Score voting (ScoreToSimpleVotes + get_n_best).  Score profiles carry integer ballot counts; the factor is a
   positive integer.  Scale-free configurations (Scale2Score_proofs.scale_free_cfg): min_count = 0 and either no
   truncation (<= 0) or a truncation FRACTION in (0, 1) that cuts a whole number of votes
   (floor (n_votes * t) = n_votes * t); any aggregate (mean, sum, low median), any unscored_value (none / constant / min). *)
Definition C11_score_scale_free (cf : Cardinal.score_cfg) (votes : Cardinal.sprofile) : Prop :=
  let n_votes := fold_left Z.add (map snd votes) 0%Z in
  Cardinal.sc_min_count cf = 0%Z /\
  (Qle_bool (Cardinal.sc_trunc cf) 0 = true \/
   (Qle_bool 1 (Cardinal.sc_trunc cf) = false /\ n_votes <> 0%Z /\
    (inject_Z (Qround.Qfloor (inject_Z n_votes * Cardinal.sc_trunc cf)) == inject_Z n_votes * Cardinal.sc_trunc cf)%Q)).

Theorem C11_scale_score_voting : forall (k : Z) (cf : Cardinal.score_cfg) (votes : Cardinal.sprofile) n, (0 < k)%Z ->
  C11_score_scale_free cf votes ->
  Cardinal.score_voting cf (map (fun bn => (fst bn, (k * snd bn)%Z)) votes) n = Cardinal.score_voting cf votes n.
Proof.
  intros k cf votes n Hk Hcf.
  exact (Scale2Score_proofs.score_voting_scale k Hk cf votes n (Scale2Score_proofs.scale_free_cfg_ok k cf votes Hk Hcf)).
Qed.

(* the aggregated scores themselves: identical keys and order; mean and low median are unchanged, the sum is k-fold *)
Theorem C11_scale_score_totals : forall (k : Z) (cf : Cardinal.score_cfg) (votes : Cardinal.sprofile), (0 < k)%Z ->
  C11_score_scale_free cf votes ->
  match Cardinal.score_to_simple cf votes, Cardinal.score_to_simple cf (map (fun bn => (fst bn, (k * snd bn)%Z)) votes) with
  | inl a, inl a' => Forall2 (fun x y : C * Q => fst x = fst y /\
                       (snd y == (match Cardinal.sc_fn cf with Cardinal.FSum => inject_Z k | _ => 1 end) * snd x)%Q) a a'
  | inr e, inr e' => e = e'
  | _, _ => False
  end.
Proof.
  intros k cf votes Hk Hcf.
  pose proof (Scale2Score_proofs.score_to_simple_rel k Hk cf votes _ (Scale2Score_proofs.scale_free_cfg_ok k cf votes Hk Hcf)
                (Scale2Score_proofs.sprel_scale k votes)) as H.
  unfold Scale2Score_proofs.sumrel in H.
  destruct (Cardinal.score_to_simple cf votes), (Cardinal.score_to_simple cf _); exact H.
Qed.

(* the three configurations outside [C11_score_scale_free] are genuinely not scale-free (factor 2, mean aggregate; the
   implementation returns the same pairs of winners): a positive min_count is an absolute number of votes ... *)
Theorem C11_scale_score_min_count_refuted : exists votes,
  let cf := Cardinal.Build_score_cfg Cardinal.FMean Cardinal.UNone 2 0 0 in
  Cardinal.score_voting cf votes 1 = inl [Cand 2%positive] /\
  Cardinal.score_voting cf (map (fun bn => (fst bn, (2 * snd bn)%Z)) votes) 1 = inl [Cand 1%positive].
Proof. exists [([(1%positive, 5%Q)], 1%Z); ([(2%positive, 1%Q)], 2%Z)]. vm_compute. split; reflexivity. Qed.

(* ... so is a truncation given as a COUNT (>= 1): one vote cut at each end of 5, and of 10 ... *)
Theorem C11_scale_score_truncation_count_refuted : exists votes,
  let cf := Cardinal.Build_score_cfg Cardinal.FMean Cardinal.UNone 0 1 0 in
  Cardinal.score_voting cf votes 1 = inl [Cand 2%positive] /\
  Cardinal.score_voting cf (map (fun bn => (fst bn, (2 * snd bn)%Z)) votes) 1 = inl [Cand 1%positive].
Proof.
  exists [([(1%positive, 0%Q); (2%positive, 2%Q)], 1%Z); ([(1%positive, 1%Q); (2%positive, 2%Q)], 2%Z);
          ([(1%positive, 3%Q); (2%positive, 2%Q)], 1%Z); ([(1%positive, 10%Q); (2%positive, 2%Q)], 1%Z)].
  vm_compute. split; reflexivity.
Qed.

(* ... and a truncation FRACTION that does not cut a whole number of votes: 3/10 of 5 votes cuts int(1.5) = 1 at each
   end, 3/10 of 10 votes cuts 3 - proportionally more (means 50/3 vs 15 against a constant 16) *)
Theorem C11_scale_score_truncation_fraction_refuted : exists votes,
  let cf := Cardinal.Build_score_cfg Cardinal.FMean Cardinal.UNone 0 (3 # 10) 0 in
  Cardinal.score_voting cf votes 1 = inl [Cand 1%positive] /\
  Cardinal.score_voting cf (map (fun bn => (fst bn, (2 * snd bn)%Z)) votes) 1 = inl [Cand 2%positive].
Proof.
  exists [([(1%positive, 0%Q); (2%positive, 16%Q)], 1%Z); ([(1%positive, 10%Q); (2%positive, 16%Q)], 2%Z);
          ([(1%positive, 30%Q); (2%positive, 16%Q)], 1%Z); ([(1%positive, 100%Q); (2%positive, 16%Q)], 1%Z)].
  vm_compute. split; reflexivity.
Qed.

(* Majority judgment.  The first stage (corrected scores, low medians, the order and whether / among whom a tie has
   to be broken) is scale-free in the same configurations; the PLUS tie-break (share of scores at or above the shared
   median) is scale-free, so majority judgment with it is: *)
Theorem C11_scale_mj_plus : forall (k : Z) (cf : Cardinal.score_cfg) (votes : Cardinal.sprofile) n, (0 < k)%Z ->
  C11_score_scale_free cf votes ->
  Cardinal.majority_judgment true cf (map (fun bn => (fst bn, (k * snd bn)%Z)) votes) n = Cardinal.majority_judgment true cf votes n.
Proof.
  intros k cf votes n Hk Hcf.
  exact (Scale2Score_proofs.mj_plus_scale k Hk cf votes n (Scale2Score_proofs.scale_free_cfg_ok k cf votes Hk Hcf)).
Qed.

(* with either rule, whenever the medians decide (no tie at the cut) - and whether they decide is itself scale-free *)
Theorem C11_scale_mj_tie_free : forall (k : Z) plus (cf : Cardinal.score_cfg) (votes : Cardinal.sprofile) n, (0 < k)%Z ->
  C11_score_scale_free cf votes ->
  let votes' := map (fun bn : Convert.sballot * Z => (fst bn, (k * snd bn)%Z)) votes in
  Scale2Score_proofs.mj_tie_free cf votes' n = Scale2Score_proofs.mj_tie_free cf votes n /\
  (Scale2Score_proofs.mj_tie_free cf votes n = true ->
   Cardinal.majority_judgment plus cf votes' n = Cardinal.majority_judgment plus cf votes n).
Proof.
  intros k plus cf votes n Hk Hcf votes'. pose proof (Scale2Score_proofs.scale_free_cfg_ok k cf votes Hk Hcf) as Hok. split.
  - exact (Scale2Score_proofs.mj_tie_free_scale_iff k Hk cf votes n Hok).
  - intros Hfree. exact (Scale2Score_proofs.mj_tie_free_scale k Hk plus cf votes n Hok Hfree).
Qed.

(* the DEFAULT tie-break (repeated removal of median scores): majority judgment with it is scale-free as soon as the
   tie-breaking routine itself is, on k-fold score dictionaries (same candidates, same scores, every count k-fold) *)
Theorem C11_scale_mj_default_reduction : forall (k : Z) (cf : Cardinal.score_cfg) (votes : Cardinal.sprofile) n, (0 < k)%Z ->
  C11_score_scale_free cf votes ->
  (forall sub sub' j,
     Forall2 (fun x y : C * Cardinal.cscores => fst x = fst y /\
                Forall2 (fun s t : Q * Z => fst s = fst t /\ snd t = (k * snd s)%Z) (snd x) (snd y)) sub sub' ->
     Cardinal.mj_default (Scale2Score_proofs.mj_fuel sub') sub' j = Cardinal.mj_default (Scale2Score_proofs.mj_fuel sub) sub j) ->
  Cardinal.majority_judgment false cf (map (fun bn => (fst bn, (k * snd bn)%Z)) votes) n = Cardinal.majority_judgment false cf votes n.
Proof.
  intros k cf votes n Hk Hcf Hdef.
  apply (Scale2Score_proofs.majority_judgment_rel k Hk false cf votes _ n (Scale2Score_proofs.scale_free_cfg_ok k cf votes Hk Hcf)
           (Scale2Score_proofs.sprel_scale k votes)).
  intros _ sc tied sub' j _ Hs. exact (Hdef _ sub' j Hs).
Qed.

(* ... which it is NOT on partial ballots (known finding C11-mj-default-scale): the median removal takes the same number
   of scores from every level candidate, so a candidate scored by fewer voters can run out of scores at one scale
   (StatisticsError) and not at another.  {A:1,B:0,C:0} x3, {C:1} x3, {C:0} x2, two seats: error at k = 1, [A; C] at k = 2, 3
   (the implementation: StatisticsError / ['A', 'C'] / ['A', 'C']) *)
Theorem C11_scale_mj_default_partial_ballots_refuted : exists votes,
  let cf := Cardinal.Build_score_cfg Cardinal.FMedianLow Cardinal.UNone 0 0 0 in
  Cardinal.majority_judgment false cf votes 2 = inr Cardinal.SE_stats /\
  Cardinal.majority_judgment false cf (map (fun bn => (fst bn, (2 * snd bn)%Z)) votes) 2 = inl [Cand 1%positive; Cand 3%positive] /\
  Cardinal.majority_judgment false cf (map (fun bn => (fst bn, (3 * snd bn)%Z)) votes) 2 = inl [Cand 1%positive; Cand 3%positive].
Proof.
  exists [([(1%positive, 1%Q); (2%positive, 0%Q); (3%positive, 0%Q)], 3%Z); ([(3%positive, 1%Q)], 3%Z); ([(3%positive, 0%Q)], 2%Z)].
  vm_compute. repeat split; reflexivity.
Qed.

(* On BALANCED score dictionaries - every candidate has the same number of (corrected) scores, the counts are
   nonnegative and the scores of a candidate pairwise different - the default rule IS scale-free.  The removal step
   max(1, min_c min(ceil(lower - T/2), ceil(T/2 - upper))) is not homogeneous, so the k-fold run is not the k-fold of
   the original run; the proof (Scale2MJ_proofs.v) goes through a one-score-at-a-time normal form of the loop:
   mj_default with its fuel equals it (a block of removals never passes the first change of a median), the normal
   form of the k-fold election follows the one of the original election (each original removal is matched by k
   removals, k - 1 of which find every candidate still level), and it is deterministic. *)
Theorem C11_scale_mj_default_balanced : forall (k : Z) (cf : Cardinal.score_cfg) (votes : Cardinal.sprofile) n, (0 < k)%Z ->
  C11_score_scale_free cf votes ->
  (forall sc, Cardinal.corrected_scores cf votes = inl sc -> exists T, Scale2MJ_proofs.Inv sc T) ->
  Cardinal.majority_judgment false cf (map (fun bn => (fst bn, (k * snd bn)%Z)) votes) n = Cardinal.majority_judgment false cf votes n.
Proof.
  intros k cf votes n Hk Hcf Hbal.
  exact (Scale2MJ_proofs.mj_default_scale k Hk cf votes n (Scale2Score_proofs.scale_free_cfg_ok k cf votes Hk Hcf) Hbal).
Qed.

(* complete ballots (every ballot scores every candidate exactly once, positive counts), min_count = 0, no truncation,
   any unscored_value: the corrected dictionaries are balanced, hence C11_scale_mj_default_full_statement *)
Definition C11_complete_ballots (votes : Cardinal.sprofile) : Prop :=
  forall b n, In (b, n) votes -> (0 < n)%Z /\ NoDup (map fst b) /\
    forall c, In c (flat_map (fun bn : Convert.sballot * Z => map fst (fst bn)) votes) -> In c (map fst b).
Definition C11_scale_mj_default_full_statement : Prop :=
  forall (k : Z) (cf : Cardinal.score_cfg) (votes : Cardinal.sprofile) n, (0 < k)%Z ->
    Cardinal.sc_min_count cf = 0%Z -> Qle_bool (Cardinal.sc_trunc cf) 0 = true -> C11_complete_ballots votes ->
    Cardinal.majority_judgment false cf (map (fun bn => (fst bn, (k * snd bn)%Z)) votes) n = Cardinal.majority_judgment false cf votes n.
Theorem C11_scale_mj_default_full : C11_scale_mj_default_full_statement.
Proof.
  intros k cf votes n Hk Hmc Htr Hc. apply (C11_scale_mj_default_balanced k cf votes n Hk).
  - split; [exact Hmc|left; exact Htr].
  - intros sc Hsc. exists (Scale2Score_proofs.sp_total votes).
    exact (Scale2Complete_proofs.complete_balanced cf votes sc Hmc Htr Hc Hsc).
Qed.

Example C11_ranked_pairs_kemeny_example :
  ranked_pairs Margins (scalez 1000000000000000000000000000007 mono_v) 3 = ranked_pairs Margins mono_v 3 /\
  (exists r, ranked_pairs Margins mono_v 3 = CR_ok r /\ length r = 3%nat) /\
  kemeny (scalez 1000000000000000000000000000007 mono_v) 2 = kemeny mono_v 2 /\
  (exists r, kemeny mono_v 2 = CR_ok r /\ length r = 2%nat).
Proof. vm_compute. repeat split; try reflexivity; eexists; split; reflexivity. Qed.

Definition C11_ranked_example : list (Convert.ranked * Q) :=
  let a := 1%positive in let b := 2%positive in let c := 3%positive in let d := 4%positive in
  [([Convert.IP a; Convert.IP b; Convert.IP c], 4); ([Convert.IP b; Convert.IS [a; c]; Convert.IP d], 3 # 2);
   ([Convert.IP c; Convert.IP b], 5 # 2); ([Convert.IP d; Convert.IP c; Convert.IP b; Convert.IP a], 3)]%Q.

(* Borda on the example: the tie for the seat between the exact totals 82/4 and 82/4 of B and C is reported on the
   votes scaled by (10^30 + 7) / 3 as well; Bucklin with decoupled shared ranks elects by the scaled majority threshold *)
Example C11_additive_bucklin_example :
  let votes' := map (fun bw : Convert.ranked * Q => (fst bw, ((1000000000000000000000000000007 # 3) * snd bw)%Q)) C11_ranked_example in
  option_map (fun d => get_n_best Qle_bool d 1)
    (Convert.oconv (Convert.img_positional (Convert.Borda 0) (length (Convert.cands_ranked votes'))) votes')
  = Some [TieR [Sx.A 2; Sx.A 3]] /\
  option_map (fun d => get_n_best Qle_bool d 1)
    (Convert.oconv (Convert.img_positional (Convert.Borda 0) (length (Convert.cands_ranked C11_ranked_example))) C11_ranked_example)
  = Some [TieR [Sx.A 2; Sx.A 3]] /\
  Bucklin.bucklin true votes' 2 = Bucklin.PA_ok [Cand 2%positive; Cand 3%positive] /\
  Bucklin.bucklin true C11_ranked_example 2 = Bucklin.PA_ok [Cand 2%positive; Cand 3%positive].
Proof. vm_compute. repeat split; reflexivity. Qed.

(* PAV / SPAV at (10^30 + 7) / 3: a unique optimal committee, and an exactly tied pair of committees that is refused *)
Example C11_pav_example :
  let a := 1%positive in let b := 2%positive in let c := 3%positive in
  let sc (v : Cardinal.aprofile) := map (fun bw : list C * Q => (fst bw, ((1000000000000000000000000000007 # 3) * snd bw)%Q)) v in
  let v1 : Cardinal.aprofile := [([a; b], 3); ([a; c], 2); ([c], 2)]%Q in
  let v2 : Cardinal.aprofile := [([a; b], 3); ([c], 3)]%Q in
  Cardinal.pav (sc v1) 2 = Cardinal.AR_ok [Cand a; Cand c] /\ Cardinal.pav v1 2 = Cardinal.AR_ok [Cand a; Cand c] /\
  Cardinal.pav (sc v2) 2 = Cardinal.AR_nie /\ Cardinal.pav v2 2 = Cardinal.AR_nie /\
  Cardinal.spav (sc v1) 2 = Some [a; c] /\ Cardinal.spav v1 2 = Some [a; c] /\
  Cardinal.spav (sc v2) 2 = None /\ Cardinal.spav v2 2 = None.
Proof. vm_compute. repeat split; reflexivity. Qed.

Definition C11_score_example : Cardinal.sprofile :=
  let a := 1%positive in let b := 2%positive in let c := 3%positive in
  [([(a, 3); (b, 3); (c, 1)], 2%Z); ([(a, 1); (b, 2); (c, 3)], 1%Z); ([(a, 3); (b, 3); (c, 3)], 2%Z);
   ([(a, 0); (b, 1); (c, 3)], 2%Z); ([(a, 4); (b, 3); (c, 3)], 1%Z)]%Q.

(* a truncated mean that is covered: 1/4 of 8 votes is a whole number of votes *)
Example C11_score_example_covered :
  C11_score_scale_free (Cardinal.Build_score_cfg Cardinal.FMean Cardinal.UMin 0 (1 # 4) 0) C11_score_example /\
  C11_score_scale_free (Cardinal.Build_score_cfg Cardinal.FSum (Cardinal.UConst 0) 0 0 0) C11_score_example.
Proof.
  split; (split; [reflexivity|]); [right|left; reflexivity].
  split; [reflexivity|]. split; [discriminate|]. vm_compute. reflexivity.
Qed.

(* all three candidates share the median 3: the default tie-break runs (several removal rounds) and gives the same
   answer at k = 1, 2, 3, 7, for one and for two seats; the example profile consists of complete ballots *)
Example C11_mj_default_example :
  let cf := Cardinal.Build_score_cfg Cardinal.FMedianLow Cardinal.UNone 0 0 0 in
  let sc k := map (fun bn : Convert.sballot * Z => (fst bn, (k * snd bn)%Z)) C11_score_example in
  Scale2Score_proofs.mj_tie_free cf C11_score_example 1 = false /\
  Cardinal.majority_judgment false cf C11_score_example 1 = inl [Cand 3%positive] /\
  Cardinal.majority_judgment false cf (sc 2%Z) 1 = inl [Cand 3%positive] /\
  Cardinal.majority_judgment false cf (sc 3%Z) 1 = inl [Cand 3%positive] /\
  Cardinal.majority_judgment false cf (sc 7%Z) 1 = inl [Cand 3%positive] /\
  Cardinal.majority_judgment false cf C11_score_example 2 = inl [Cand 3%positive; Cand 2%positive] /\
  Cardinal.majority_judgment false cf (sc 2%Z) 2 = inl [Cand 3%positive; Cand 2%positive] /\
  Cardinal.majority_judgment false cf (sc 7%Z) 2 = inl [Cand 3%positive; Cand 2%positive].
Proof. vm_compute. repeat split; reflexivity. Qed.

Example C11_mj_default_example_complete : C11_complete_ballots C11_score_example.
Proof.
  intros b n Hin. unfold C11_score_example in Hin. cbn [In] in Hin.
  repeat (destruct Hin as [Hin|Hin]; [injection Hin as <- <-; split; [reflexivity|]; split;
    [repeat constructor; cbn; intuition discriminate|cbn; intuition]|]). destruct Hin.
Qed.

(* Seatless threshold selectors (Model/Threshold.v).  A RELATIVE threshold compares the share v / total with its
   fraction: scale-free.  An ABSOLUTE threshold compares v with a number of votes: it scales WITH its line
   (the k-fold electorate measured against the k-fold line), and is not scale-free when the line is kept.
   AlternativeThresholds (any nesting) inherit both facts: [sel_scale k] multiplies every absolute line by k. *)
Theorem C11_scale_relative_threshold : forall (k : Q) (t : Q) (ae : bool) (votes : list (C * Q)), (0 < k)%Q ->
  Threshold.sel_eval (Threshold.SRel t ae) (scaleq k votes) = Threshold.sel_eval (Threshold.SRel t ae) votes.
Proof.
  intros k t ae votes Hk.
  exact (ScaleThr_proofs.sel_eval_rel k Hk (Threshold.SRel t ae) _ _ (ScaleThr_proofs.vrel_scaleq k votes)).
Qed.

Theorem C11_scale_absolute_threshold : forall (k : Q) (t : Q) (ae : bool) (votes : list (C * Q)), (0 < k)%Q ->
  Threshold.sel_eval (Threshold.SAbs (k * t) ae) (scaleq k votes) = Threshold.sel_eval (Threshold.SAbs t ae) votes.
Proof.
  intros k t ae votes Hk.
  exact (ScaleThr_proofs.sel_eval_rel k Hk (Threshold.SAbs t ae) _ _ (ScaleThr_proofs.vrel_scaleq k votes)).
Qed.

Theorem C11_scale_threshold : forall (k : Q) (s : Threshold.sel) (votes : list (C * Q)), (0 < k)%Q ->
  Threshold.sel_eval (ScaleThr_proofs.sel_scale k s) (scaleq k votes) = Threshold.sel_eval s votes.
Proof. intros k s votes Hk. exact (ScaleThr_proofs.sel_eval_rel k Hk s _ _ (ScaleThr_proofs.vrel_scaleq k votes)). Qed.

(* a selector built from relative thresholds only (any nesting of AlternativeThresholds) is scale-free as it is *)
Theorem C11_scale_threshold_relative : forall (k : Q) (s : Threshold.sel) (votes : list (C * Q)), (0 < k)%Q ->
  ScaleThr_proofs.sel_relative s = true ->
  Threshold.sel_eval s (scaleq k votes) = Threshold.sel_eval s votes.
Proof.
  intros k s votes Hk Hs. exact (ScaleThr_proofs.sel_eval_relative_rel k Hk s _ _ Hs (ScaleThr_proofs.vrel_scaleq k votes)).
Qed.

(* an absolute threshold with the line KEPT is not scale-free (it is a number of votes, by its documentation):
   3 votes against the line 5 fail, the doubled 6 votes pass *)
Theorem C11_scale_absolute_threshold_kept_line_refuted : exists votes,
  Threshold.sel_eval (Threshold.SAbs 5 true) votes = [1%positive] /\
  Threshold.sel_eval (Threshold.SAbs 5 true) (scaleq 2 votes) = [1%positive; 2%positive].
Proof. exists [(1%positive, 7%Q); (2%positive, 3%Q)]. vm_compute. split; reflexivity. Qed.

(* the bracketers (CoalitionMemberBracketer, PropertyBracketer): every configured selector and the default scaled alike *)
Theorem C11_scale_bracketer : forall (k : Q) evals default bracket (votes : list (C * Q)), (0 < k)%Q ->
  Threshold.bracket_eval (ScaleThr_proofs.evals_scale k evals) (option_map (ScaleThr_proofs.sel_scale k) default) bracket (scaleq k votes)
  = Threshold.bracket_eval evals default bracket votes.
Proof.
  intros k evals default bracket votes Hk.
  exact (ScaleThr_proofs.bracket_eval_rel k Hk evals default bracket _ _ (ScaleThr_proofs.vrel_scaleq k votes)).
Qed.

(* QuotaSelector (approval.py; Model/QuotaDistributor.v qsel_evaluate) with a homogeneous quota function - Hare,
   Hagenbach-Bischoff, Imperiali -, both accept_equal settings, both on_more_over_quota policies, the refusal included *)
Theorem C11_scale_quota_selector : forall (k : Q) (i : Z) accept_equal select (votes : list (C * Q)) n, (0 < k)%Q ->
  homogeneous_quota i = true ->
  qsel_evaluate (quota_fn (QNamed i)) accept_equal select (scaleq k votes) n
  = qsel_evaluate (quota_fn (QNamed i)) accept_equal select votes n.
Proof.
  intros k i ae se votes n Hk Hi.
  exact (ScaleThr_proofs.qsel_evaluate_rel k Hk _ ae se _ _ n (quota_fn_homog k i Hi) (ScaleThr_proofs.vrel_scaleq k votes)).
Qed.

(* any quota function that is homogeneous, and a CONSTANT quota scaled with the votes *)
Theorem C11_scale_quota_selector_homogeneous : forall (k : Q) (quota : Q -> Z -> Q) accept_equal select (votes : list (C * Q)) n,
  (0 < k)%Q -> (forall v v' m, (v' == k * v)%Q -> (quota v' m == k * quota v m)%Q) ->
  qsel_evaluate quota accept_equal select (scaleq k votes) n = qsel_evaluate quota accept_equal select votes n.
Proof.
  intros k quota ae se votes n Hk Hq.
  exact (ScaleThr_proofs.qsel_evaluate_rel k Hk quota ae se _ _ n Hq (ScaleThr_proofs.vrel_scaleq k votes)).
Qed.

Theorem C11_scale_quota_selector_constant : forall (k : Q) (q : Q) accept_equal select (votes : list (C * Q)) n, (0 < k)%Q ->
  qsel_evaluate (quota_fn (QConst (k * q))) accept_equal select (scaleq k votes) n
  = qsel_evaluate (quota_fn (QConst q)) accept_equal select votes n.
Proof.
  intros k q ae se votes n Hk.
  apply (ScaleThr_proofs.qsel_evaluate_rel2 k Hk (quota_fn (QConst q)) (quota_fn (QConst (k * q))) ae se _ _ n);
    [|exact (ScaleThr_proofs.vrel_scaleq k votes)].
  intros v v' m _. unfold quota_fn, qsc. reflexivity.
Qed.

(* The ROUNDED quotas - hare_rounded 2, droop 3, hagenbach_bischoff_ceil 5, hagenbach_bischoff_rounded 6 - are not homogeneous
   (quota (2 v) n is not 2 quota v n), and the selector with them is genuinely not scale-free.  The property's quantifier
   names "exact quotas (hare, hagenbach_bischoff, imperiali)": for the rounded ones its scale clause does not apply - what
   remains for them is the exactness of the comparison with the (rounded) quota, C11_tie_exact. *)
Theorem C11_quota_rounded_not_homogeneous :
  ~ (quota_fn (QNamed 2) (2 * 5) 2 == 2 * quota_fn (QNamed 2) 5 2)%Q /\
  ~ (quota_fn (QNamed 3) (2 * 4) 2 == 2 * quota_fn (QNamed 3) 4 2)%Q /\
  ~ (quota_fn (QNamed 5) (2 * 4) 2 == 2 * quota_fn (QNamed 5) 4 2)%Q /\
  ~ (quota_fn (QNamed 6) (2 * 5) 1 == 2 * quota_fn (QNamed 6) 5 1)%Q.
Proof. repeat split; vm_compute; discriminate. Qed.

(* witnesses (the implementation returns the same pairs of answers): hare_rounded - A 1, B 1, C 2, three seats: quota
   round(4/3) = 1, everybody is over it; doubled: round(8/3) = 3, only C is.  Droop, one seat, strict comparison - A 3, B 2:
   quota 3, nobody strictly over; tripled: quota 8, A (9) is.  hagenbach_bischoff_ceil likewise with factor 2 (A 3 of 5:
   ceil(5/2) = 3; 6 of 10: 5).  hagenbach_bischoff_rounded - A 1, B 1, C 2, two seats: quota round(4/3) = 1, C elected and
   A, B tied for the second seat; doubled: round(8/3) = 3, only C. *)
Theorem C11_scale_quota_selector_rounded_refuted :
  (exists votes, qsel_evaluate (quota_fn (QNamed 2)) true true votes 3 = QS_ok [Cand 3%positive; Cand 1%positive; Cand 2%positive] /\
                 qsel_evaluate (quota_fn (QNamed 2)) true true (scaleq 2 votes) 3 = QS_ok [Cand 3%positive]) /\
  (exists votes, qsel_evaluate (quota_fn (QNamed 3)) false true votes 1 = QS_ok [] /\
                 qsel_evaluate (quota_fn (QNamed 3)) false true (scaleq 3 votes) 1 = QS_ok [Cand 1%positive]) /\
  (exists votes, qsel_evaluate (quota_fn (QNamed 5)) false true votes 1 = QS_ok [] /\
                 qsel_evaluate (quota_fn (QNamed 5)) false true (scaleq 2 votes) 1 = QS_ok [Cand 1%positive]) /\
  (exists votes, qsel_evaluate (quota_fn (QNamed 6)) true true votes 2 = QS_ok [Cand 3%positive; TieR [1%positive; 2%positive]] /\
                 qsel_evaluate (quota_fn (QNamed 6)) true true (scaleq 2 votes) 2 = QS_ok [Cand 3%positive]).
Proof.
  split; [|split; [|split]].
  - exists [(1%positive, 1%Q); (2%positive, 1%Q); (3%positive, 2%Q)]. vm_compute. split; reflexivity.
  - exists [(1%positive, 3%Q); (2%positive, 2%Q)]. vm_compute. split; reflexivity.
  - exists [(1%positive, 3%Q); (2%positive, 2%Q)]. vm_compute. split; reflexivity.
  - exists [(1%positive, 1%Q); (2%positive, 1%Q); (3%positive, 2%Q)]. vm_compute. split; reflexivity.
Qed.

(* largest remainder with the rounded quotas is not scale-free either (registry entry lr_droop; the implementation
   returns the same pairs): Droop - A 1, B 2, C 9, three seats: {B 1, C 2}, tripled {C 3}; hare_rounded - A 1, B 3, C 8, five
   seats: {B 1, C 4}, doubled {A 1, B 1, C 3}; hagenbach_bischoff_ceil / _rounded - A 1, B 2, C 6, five seats:
   {A 1, B 1, C 3}, doubled {B 1, C 4} *)
Theorem C11_scale_largest_remainder_rounded_refuted :
  (exists votes, lr_evaluate (quota_fn (QNamed 3)) true PError votes 3 [] [] = LR_ok [(K 3%positive, 2%Z); (K 2%positive, 1%Z)] /\
                 lr_evaluate (quota_fn (QNamed 3)) true PError (scaleq 3 votes) 3 [] [] = LR_ok [(K 3%positive, 3%Z)]) /\
  (exists votes, lr_evaluate (quota_fn (QNamed 2)) true PError votes 5 [] [] <> lr_evaluate (quota_fn (QNamed 2)) true PError (scaleq 2 votes) 5 [] []) /\
  (exists votes, lr_evaluate (quota_fn (QNamed 5)) true PError votes 5 [] [] <> lr_evaluate (quota_fn (QNamed 5)) true PError (scaleq 2 votes) 5 [] []) /\
  (exists votes, lr_evaluate (quota_fn (QNamed 6)) true PError votes 5 [] [] <> lr_evaluate (quota_fn (QNamed 6)) true PError (scaleq 2 votes) 5 [] []).
Proof.
  split; [|split; [|split]].
  - exists [(1%positive, 1%Q); (2%positive, 2%Q); (3%positive, 9%Q)]. vm_compute. split; reflexivity.
  - exists [(1%positive, 1%Q); (2%positive, 3%Q); (3%positive, 8%Q)]. vm_compute. discriminate.
  - exists [(1%positive, 1%Q); (2%positive, 2%Q); (3%positive, 6%Q)]. vm_compute. discriminate.
  - exists [(1%positive, 1%Q); (2%positive, 2%Q); (3%positive, 6%Q)]. vm_compute. discriminate.
Qed.

(* Conditioned(threshold, highest averages) (Model/Conditioned.v): the composition - the eliminator returns the same
   parties (C11_scale_threshold), the subsetted votes are the k-fold of the subsetted votes, highest averages over them is
   scale-free (C11_scale_highest_averages); any selector, any divisor, previous gains and caps, the refusal of an empty
   selection included *)
Theorem C11_scale_conditioned_highest_averages : forall (k : Q) (s : Threshold.sel) (d : Z -> Q) (votes : list (C * Q)) n prev caps,
  (0 < k)%Q ->
  Conditioned.conditioned_ha (ScaleThr_proofs.sel_scale k s) d (scaleq k votes) n prev caps = Conditioned.conditioned_ha s d votes n prev caps.
Proof. intros k s d votes n prev caps Hk. exact (ScaleThr_proofs.conditioned_ha_scale k Hk s d votes n prev caps). Qed.

Corollary C11_scale_conditioned_relative : forall (k : Q) (s : Threshold.sel) (d : Z -> Q) (votes : list (C * Q)) n prev caps,
  (0 < k)%Q -> ScaleThr_proofs.sel_relative s = true ->
  Conditioned.conditioned_ha s d (scaleq k votes) n prev caps = Conditioned.conditioned_ha s d votes n prev caps.
Proof.
  intros k s d votes n prev caps Hk Hs. rewrite <- (ScaleThr_proofs.sel_scale_relative k s Hs) at 1.
  apply C11_scale_conditioned_highest_averages, Hk.
Qed.

(* ThresholdOpenList (Model/Threshold.v openlist_eval): the jump threshold is relative - a fraction of the list's total
   and / or a homogeneous quota of it (take_higher either way) - so the candidates that jump, the cut by list order
   (list_precedence) or by votes, and the fill-up from the list are the same *)
Theorem C11_scale_open_list : forall (k : Q) (cfg : Threshold.ol_cfg) (votes : list (C * Q)) n lst, (0 < k)%Q ->
  (forall qf, Threshold.ol_quota cfg = Some qf -> forall v v' m, (v' == k * v)%Q -> (qf v' m == k * qf v m)%Q) ->
  Threshold.openlist_eval cfg (scaleq k votes) n lst = Threshold.openlist_eval cfg votes n lst.
Proof.
  intros k cfg votes n lst Hk Hq.
  exact (ScaleThr_proofs.openlist_eval_rel k Hk cfg _ _ n lst Hq (ScaleThr_proofs.vrel_scaleq k votes)).
Qed.

(* the configurations the library can build: no quota, or a named homogeneous quota times quota_fraction *)
Corollary C11_scale_open_list_named : forall (k : Q) jump (quota : option (Z * Q)) th ae lp (votes : list (C * Q)) n lst, (0 < k)%Q ->
  (forall i fr, quota = Some (i, fr) -> homogeneous_quota i = true) ->
  let cfg := Threshold.Build_ol_cfg jump (option_map (fun ifr : Z * Q => fun t s => (quota_fn (QNamed (fst ifr)) t s * snd ifr)%Q) quota) th ae lp in
  Threshold.openlist_eval cfg (scaleq k votes) n lst = Threshold.openlist_eval cfg votes n lst.
Proof.
  intros k jump quota th ae lp votes n lst Hk Hq cfg. apply C11_scale_open_list; [exact Hk|].
  intros qf Hqf v v' m Hv. unfold cfg in Hqf. cbn [Threshold.ol_quota] in Hqf.
  destruct quota as [[i fr]|]; cbn [option_map fst snd] in Hqf; [|discriminate]. injection Hqf as <-.
  pose proof (quota_fn_homog k i (Hq i fr eq_refl) v v' m Hv) as H. unfold qsc in H. change (quota_fn (QNamed i) v' m * fr == k * (quota_fn (QNamed i) v m * fr))%Q. rewrite H. ring.
Qed.

(* STAR (Model/Star.v): score sums k-fold -> the same run-off members; run-off supports k-fold; Schulze over them is
   scale-free (C11_scale_schulze).  Score profiles carry integer counts: the factor is a positive integer.  Every
   iteration order of the candidate set, every number of seats, the error outcomes included. *)
Theorem C11_scale_star : forall (k : Z) (votes : Cardinal.sprofile) order n, (0 < k)%Z ->
  Star.star (map (fun bn => (fst bn, (k * snd bn)%Z)) votes) order n = Star.star votes order n.
Proof. intros k votes order n Hk. exact (Scale2_proofs.star_scale k Hk votes order n). Qed.

Theorem C11_scale_star_auto : forall (k : Z) (votes : Cardinal.sprofile) n, (0 < k)%Z ->
  Star.star_auto (map (fun bn => (fst bn, (k * snd bn)%Z)) votes) n = Star.star_auto votes n.
Proof. intros k votes n Hk. exact (Scale2_proofs.star_auto_scale k Hk votes n). Qed.

Theorem C11_scale_star_pairwise : forall (k : Z) (votes : Cardinal.sprofile) members,
  Star.star_pairwise (map (fun bn => (fst bn, (k * snd bn)%Z)) votes) members = scalez k (Star.star_pairwise votes members).
Proof. intros k votes members. exact (Scale2_proofs.star_pairwise_scale k votes members). Qed.

(* Non-vacuity for the threshold family and STAR: a party exactly on the 5 % line (accept_equal both ways), one vote above and one vote
   below it at 10^30 + 7; Conditioned(5 %, D'Hondt) over them; a quota selector with a party exactly on the Hare quota; an open
   list whose jump threshold is the higher of 1/4 of the total and half a Hare quota; STAR whose run-off is decided against
   the score sums (sums A 14, B 13, C 9: run-off A, B; B is preferred by 3 of 5 voters) at k = 7 *)
Example C11_threshold_example :
  let K := (1000000000000000000000000000007 # 1)%Q in
  let votes : list (C * Q) := [(1%positive, 60); (2%positive, 5); (3%positive, 35)]%Q in
  let above : list (C * Q) := [(1%positive, 60 * K); (2%positive, 5 * K + 1); (3%positive, 35 * K - 1)]%Q in
  let below : list (C * Q) := [(1%positive, 60 * K); (2%positive, 5 * K - 1); (3%positive, 35 * K + 1)]%Q in
  Threshold.sel_eval (Threshold.SRel (1 # 20) true) (scaleq K votes) = [1%positive; 3%positive; 2%positive] /\
  Threshold.sel_eval (Threshold.SRel (1 # 20) false) (scaleq K votes) = [1%positive; 3%positive] /\
  Threshold.sel_eval (Threshold.SRel (1 # 20) false) above = [1%positive; 3%positive; 2%positive] /\
  Threshold.sel_eval (Threshold.SRel (1 # 20) true) below = [1%positive; 3%positive] /\
  Conditioned.conditioned_ha (Threshold.SRel (1 # 20) false) (fun j => inject_Z (j + 1)) (scaleq K votes) 10 [] []
    = HA_ok [(1%positive, 6%Z); (3%positive, 4%Z)] None /\
  qsel_evaluate (quota_fn (QNamed 1)) true false (scaleq K [(1%positive, 50); (2%positive, 25); (3%positive, 25)]%Q) 4
    = QS_ok [Cand 1%positive; Cand 2%positive; Cand 3%positive] /\
  qsel_evaluate (quota_fn (QNamed 1)) false false (scaleq K [(1%positive, 50); (2%positive, 25); (3%positive, 25)]%Q) 4
    = QS_ok [Cand 1%positive].
Proof. vm_compute. repeat split; reflexivity. Qed.

Example C11_open_list_example :
  let K := (1000000000000000000000000000007 # 3)%Q in
  let cfg := Threshold.Build_ol_cfg (Some (1 # 4)) (Some (fun t s => (hare t s * (1 # 2))%Q)) true true false in
  let votes : list (C * Q) := [(1%positive, 10); (2%positive, 25); (3%positive, 40); (4%positive, 25)]%Q in
  Threshold.openlist_eval cfg (scaleq K votes) 3 [1%positive; 2%positive; 3%positive; 4%positive] = [3%positive; 2%positive; 4%positive] /\
  Threshold.openlist_eval cfg votes 3 [1%positive; 2%positive; 3%positive; 4%positive] = [3%positive; 2%positive; 4%positive] /\
  Threshold.openlist_eval cfg (scaleq K votes) 4 [1%positive; 2%positive; 3%positive; 4%positive] = [3%positive; 2%positive; 4%positive; 1%positive].
Proof. vm_compute. repeat split; reflexivity. Qed.

Example C11_star_example :
  let a := 1%positive in let b := 2%positive in let c := 3%positive in
  let votes : Cardinal.sprofile := [([(a, 5); (b, 2); (c, 1)], 2%Z); ([(a, 1); (b, 3); (c, 2)], 2%Z); ([(a, 2); (b, 3); (c, 3)], 1%Z)]%Q in
  Star.star_auto votes 1 = inl [Cand b] /\
  Star.star_auto (map (fun bn : Convert.sballot * Z => (fst bn, (7 * snd bn)%Z)) votes) 1 = inl [Cand b] /\
  Cardinal.score_voting Star.star_cfg votes 1 = inl [Cand a].
Proof. vm_compute. repeat split; reflexivity. Qed.

(* The rest of the registry (harness/evalreg.py). *)
(* RankedToCondorcetVotes in its pairwise-dictionary form (Model/Hybrids.v pairwise; integer ballot weights, positive
   integer factor): the pairwise dictionary of the k-fold profile is the k-fold dictionary - same keys, same order.  With
   the theorems about the evaluators on k-fold dictionaries this closes every composed entry "ranked votes ->
   RankedToCondorcetVotes -> Condorcet evaluator" of the registry: *)
Theorem C11_scale_ranked_to_condorcet : forall (k : Z) (votes : Hybrids.rvotes), (0 < k)%Z ->
  Hybrids.pairwise (map (fun bn => (fst bn, (k * snd bn)%Z)) votes) = scalez k (Hybrids.pairwise votes).
Proof. intros k votes Hk. exact (ScaleHyb_proofs.pairwise_scale k votes). Qed.

Theorem C11_scale_ranked_condorcet_family : forall (k : Z) (votes : Hybrids.rvotes), (0 < k)%Z ->
  let votes' := map (fun bn : Convert.ranked * Z => (fst bn, (k * snd bn)%Z)) votes in
  condorcet_winner (Hybrids.pairwise votes') = condorcet_winner (Hybrids.pairwise votes) /\
  (forall so n, copeland so (Hybrids.pairwise votes') n = copeland so (Hybrids.pairwise votes) n) /\
  (forall ties, smith_schwartz (Hybrids.pairwise votes') ties = smith_schwartz (Hybrids.pairwise votes) ties) /\
  (forall s n, minimax s (Hybrids.pairwise votes') n = minimax s (Hybrids.pairwise votes) n) /\
  (forall n, schulze (Hybrids.pairwise votes') (candidates (Hybrids.pairwise votes')) n
             = schulze (Hybrids.pairwise votes) (candidates (Hybrids.pairwise votes)) n) /\
  (forall s n, ranked_pairs s (Hybrids.pairwise votes') n = ranked_pairs s (Hybrids.pairwise votes) n) /\
  (forall n, kemeny (Hybrids.pairwise votes') n = kemeny (Hybrids.pairwise votes) n).
Proof.
  intros k votes Hk votes'. unfold votes'. rewrite (C11_scale_ranked_to_condorcet k votes Hk).
  split; [apply C11_scale_condorcet_winner, Hk|]. split; [intros; apply C11_scale_copeland, Hk|].
  split; [intros; apply C11_scale_smith_schwartz, Hk|]. split; [intros; apply C11_scale_minimax, Hk|].
  split; [intros; rewrite (candidates_scale k); apply C11_scale_schulze, Hk|].
  split; [intros; apply C11_scale_ranked_pairs, Hk|intros; apply C11_scale_kemeny, Hk].
Qed.

(* The Condorcet-runoff hybrids (Model/Hybrids.v) and the positional elimination (Model/Elimination.v): Benham,
   Tideman's alternative, Baldwin with any rank scorer - every elimination round, the merging of ballots that become equal,
   every refusal and error outcome; every value of the repair flags ([fx] elimination step, [sc] single candidate, [tr] further tiers: all tiers for any number of seats) *)
Theorem C11_scale_benham : forall (k : Z) fx sc (votes : Hybrids.rvotes), (0 < k)%Z ->
  Hybrids.benham fx sc (map (fun bn => (fst bn, (k * snd bn)%Z)) votes) = Hybrids.benham fx sc votes.
Proof. intros k fx sc votes Hk. exact (ScaleHyb_proofs.benham_scale k Hk fx sc votes). Qed.

Theorem C11_scale_tideman_alternative : forall (k : Z) fx sc tr (votes : Hybrids.rvotes) n, (0 < k)%Z ->
  Hybrids.tideman_alt fx sc tr (map (fun bn => (fst bn, (k * snd bn)%Z)) votes) n = Hybrids.tideman_alt fx sc tr votes n.
Proof. intros k fx sc tr votes n Hk. exact (ScaleHyb_proofs.tideman_alt_scale k Hk fx sc tr votes n). Qed.

Theorem C11_scale_baldwin : forall (k : Z) (sc : Convert.scorer) (votes : Hybrids.rvotes) n, (0 < k)%Z ->
  Elimination.baldwin sc (map (fun bn => (fst bn, (k * snd bn)%Z)) votes) n = Elimination.baldwin sc votes n.
Proof. intros k sc votes n Hk. exact (ScaleHyb_proofs.baldwin_scale k Hk sc votes n). Qed.

Theorem C11_scale_eliminate_one : forall (k : Z) (votes : Hybrids.rvotes), (0 < k)%Z ->
  Hybrids.eliminate_one (map (fun bn => (fst bn, (k * snd bn)%Z)) votes) = Hybrids.eliminate_one votes.
Proof. intros k votes Hk. exact (ScaleHyb_proofs.eliminate_one_scale k Hk votes). Qed.

(* Allocated score voting (Model/AllocScore.v; ballot weights are rationals, any positive rational factor): a homogeneous
   named quota (Hare, Hagenbach-Bischoff, Imperiali) or a constant quota scaled with the votes; the distributor with previous
   gains and maxima, and the selector; every iteration order of the tied sets, every error outcome *)
Theorem C11_scale_allocated_score_distributor : forall (k : Q) (q : Quota.quota_spec) orders (votes : AllocScore.wprofile) n prev mx,
  (0 < k)%Q -> ScaleAlloc_proofs.qspec_homog q = true ->
  AllocScore.alloc_distribute (ScaleAlloc_proofs.qspec_scale k q) orders (map (fun bw => (fst bw, (k * snd bw)%Q)) votes) n prev mx
  = AllocScore.alloc_distribute q orders votes n prev mx.
Proof.
  intros k q orders votes n prev mx Hk Hq.
  exact (ScaleAlloc_proofs.alloc_distribute_rel k Hk q orders _ _ n prev mx Hq (ScaleAlloc_proofs.wprel_scale k votes)).
Qed.

Theorem C11_scale_allocated_score : forall (k : Q) (i : Z) orders (votes : AllocScore.wprofile) n, (0 < k)%Q ->
  homogeneous_quota i = true ->
  AllocScore.alloc_select (QNamed i) orders (map (fun bw => (fst bw, (k * snd bw)%Q)) votes) n
  = AllocScore.alloc_select (QNamed i) orders votes n.
Proof.
  intros k i orders votes n Hk Hi.
  exact (ScaleAlloc_proofs.alloc_select_rel k Hk (QNamed i) orders _ _ n Hi (ScaleAlloc_proofs.wprel_scale k votes)).
Qed.

(* PureProportionality (Model/PureProp.v): the fractional seats are shares of the house; previous gains as floors and
   maxima as ceilings, the ZeroDivisionError included *)
Theorem C11_scale_pure_proportionality : forall (k : Q) (votes : list (C * Q)) n prev caps, (0 < k)%Q ->
  PureProp.pp_evaluate (scaleq k votes) n prev caps = PureProp.pp_evaluate votes n prev caps.
Proof. intros k votes n prev caps Hk. exact (Scale2_proofs.pp_evaluate_scale k Hk votes n prev caps). Qed.

(* Non-vacuity for the rest of the registry.  Benham: a three-way cycle, no Condorcet winner, the plurality loser C goes and A beats
   B; Baldwin (Borda) eliminates two rounds; both at k = 10^30 + 7.  Allocated score, two seats, Hare quota, at (10^30 + 7) / 3:
   the strongest supporters of the first winner are spread out.  Pure proportionality of 7 seats over 1 : 2 : 4 with a maximum
   of 3 for the largest party, at (10^30 + 7) / 3: 4/3, 8/3, 3. *)
Example C11_hybrids_example :
  let a := 1%positive in let b := 2%positive in let c := 3%positive in
  let K := 1000000000000000000000000000007%Z in
  let votes : Hybrids.rvotes := [([Convert.IP a; Convert.IP b; Convert.IP c], 4%Z); ([Convert.IP b; Convert.IP c; Convert.IP a], 3%Z);
                                 ([Convert.IP c; Convert.IP a; Convert.IP b], 2%Z)] in
  let votes' := map (fun bn : Convert.ranked * Z => (fst bn, (K * snd bn)%Z)) votes in
  condorcet_winner (Hybrids.pairwise votes) = [] /\
  Hybrids.benham true true votes' = Hybrids.H_ok [Cand a] /\ Hybrids.benham true true votes = Hybrids.H_ok [Cand a] /\
  Hybrids.tideman_alt true true true votes' 1 = Hybrids.H_ok [Cand a] /\
  Elimination.baldwin (Convert.Borda 0) votes' 1 = Elimination.B_ok [Cand a] /\
  Elimination.baldwin (Convert.Borda 0) votes 1 = Elimination.B_ok [Cand a].
Proof. vm_compute. repeat split; reflexivity. Qed.

Example C11_allocated_pure_example :
  let a := 1%positive in let b := 2%positive in let c := 3%positive in
  let K := (1000000000000000000000000000007 # 3)%Q in
  let votes : AllocScore.wprofile := [([(a, 5); (b, 1); (c, 0)], 4); ([(a, 3); (b, 4); (c, 1)], 3); ([(a, 0); (b, 2); (c, 5)], 3)]%Q in
  AllocScore.alloc_select (QNamed 1) [] (map (fun bw : Convert.sballot * Q => (fst bw, (K * snd bw)%Q)) votes) 2 = inl [Cand a; Cand c] /\
  AllocScore.alloc_select (QNamed 1) [] votes 2 = inl [Cand a; Cand c] /\
  PureProp.pp_evaluate (scaleq K [(a, 1); (b, 2); (c, 4)]%Q) 7 [] [(c, 3%Z)] = PureProp.PP_ok [(c, 3); (a, 4 # 3); (b, 8 # 3)]%Q.
Proof. vm_compute. repeat split; reflexivity. Qed.

(* The repaired score family and allocated score
   (Model/Cardinal.v [repairs], Model/AllocScore.v [arepairs]; fixes/C12-*.diff).  Notation: k.votes = every ballot count k-fold. *)
From Coq Require Import Lia.
From VL Require Proofs.ScoreDict_proofs Proofs.TruncRepair_proofs Proofs.MJ_repair_proofs Proofs.ScaleMJRepair_proofs Proofs.Scale2Complete_proofs.

Lemma C11_profile_ok_scale : forall (k : Z) (votes : Cardinal.sprofile), (0 < k)%Z -> ScoreDict_proofs.profile_ok votes ->
  ScoreDict_proofs.profile_ok (map (fun bn => (fst bn, (k * snd bn)%Z)) votes).
Proof.
  intros k votes Hk H bn Hin. apply in_map_iff in Hin. destruct Hin as (bn0 & <- & Hin0). destruct (H bn0 Hin0) as (H1 & H2).
  cbn [fst snd]. split; [nia|exact H2].
Qed.

(* score voting and majority judgment with the plus rule: with the counted aggregates (fixes/C12-score-counted) - and the
   truncation repair as long as no truncation is configured - the repaired evaluators ARE the pinned ones on well-formed
   profiles (C12_counted_aggregate), so they are scale-free in the same configurations *)
Theorem C11_scale_score_voting_repaired : forall (k : Z) rp (cf : Cardinal.score_cfg) (votes : Cardinal.sprofile) n, (0 < k)%Z ->
  C11_score_scale_free cf votes -> ScaleMJRepair_proofs.trunc_untouched rp cf -> ScoreDict_proofs.profile_ok votes ->
  Cardinal.score_voting_x rp cf (map (fun bn => (fst bn, (k * snd bn)%Z)) votes) n = Cardinal.score_voting_x rp cf votes n /\
  Cardinal.majority_judgment_x rp true cf (map (fun bn => (fst bn, (k * snd bn)%Z)) votes) n = Cardinal.majority_judgment_x rp true cf votes n.
Proof.
  intros k rp cf votes n Hk Hcf Ht Hv. pose proof (C11_profile_ok_scale k votes Hk Hv) as Hv'. split.
  - rewrite (ScaleMJRepair_proofs.score_voting_x_eq rp cf _ n Ht Hv'), (ScaleMJRepair_proofs.score_voting_x_eq rp cf _ n Ht Hv).
    exact (C11_scale_score_voting k cf votes n Hk Hcf).
  - rewrite (ScaleMJRepair_proofs.mj_plus_x_eq rp cf _ n Ht Hv'), (ScaleMJRepair_proofs.mj_plus_x_eq rp cf _ n Ht Hv).
    exact (C11_scale_mj_plus k cf votes n Hk Hcf).
Qed.

(* where the truncation repair DOES change scale behaviour: the capped cut-off (scores - 1) // 2 is not homogeneous, so a SUM
   over a candidate whose scores the configured cut-off would wipe out is not k-fold (mean and low median of the middle
   scores are unchanged).  4 voters, truncation 1/4 (one score at either end), A scored 1 and 5 by two of them, B scored 2 by
   all: A keeps both scores (sum 6 > 4) - at k = 2 A keeps 1, 5 of 1, 1, 5, 5 (sum 6 < 8).  The pinned code counted nothing
   for A at either scale.  A property of the repaired parameter in a configuration outside the registered ones. *)
Theorem C11_scale_score_truncation_sum_capped_refuted : exists votes,
  let cf := Cardinal.Build_score_cfg Cardinal.FSum Cardinal.UNone 0 (1 # 4) 0 in
  let votes2 := map (fun bn : Convert.sballot * Z => (fst bn, (2 * snd bn)%Z)) votes in
  C11_score_scale_free cf votes /\ ScoreDict_proofs.profile_ok votes /\
  Cardinal.score_voting_x Cardinal.repaired cf votes 1 = inl [Cand 1%positive] /\
  Cardinal.score_voting_x Cardinal.repaired cf votes2 1 = inl [Cand 2%positive] /\
  Cardinal.score_voting_x Cardinal.pinned cf votes 1 = inl [Cand 2%positive] /\
  Cardinal.score_voting_x Cardinal.pinned cf votes2 1 = inl [Cand 2%positive].
Proof.
  exists [([(1%positive, 1%Q); (2%positive, 2%Q)], 1%Z); ([(1%positive, 5%Q); (2%positive, 2%Q)], 1%Z); ([(2%positive, 2%Q)], 2%Z)].
  split; [|split].
  - split; [reflexivity|]. right. split; [reflexivity|]. split; [vm_compute; discriminate|vm_compute; reflexivity].
  - intros bn [<-|[<-|[<-|[]]]]; (split; [cbn; discriminate|cbn [fst map]; repeat constructor; cbn [In]; intuition discriminate]).
  - vm_compute. repeat split; reflexivity.
Qed.

(* majority judgment, default rule, repaired (fixes/C12-mj-default-exhausted): the evaluator has no crash outcome at any
   scale - on every profile with positive ballot counts it answers or refuses a lasting tie (VotingSystemError), nothing else - so the recorded class of finding
   C11-mj-default-scale (a StatisticsError at one scale, an answer at the other) is empty; and on complete ballots it is the
   pinned evaluator, hence scale-free (C11_scale_mj_default_full) *)
Definition C11_scale_mj_default_repaired_full_statement : Prop :=
  forall (k : Z) (cf : Cardinal.score_cfg) (votes : Cardinal.sprofile) n, (0 < k)%Z -> (1 <= n)%nat ->
    Cardinal.sc_min_count cf = 0%Z -> Qle_bool (Cardinal.sc_trunc cf) 0 = true -> TruncRepair_proofs.profile_pos votes ->
    Cardinal.majority_judgment_x Cardinal.repaired false cf (map (fun bn => (fst bn, (k * snd bn)%Z)) votes) n
    = Cardinal.majority_judgment_x Cardinal.repaired false cf votes n.

Theorem C11_scale_mj_default_no_crash : forall (k : Z) rp plus (cf : Cardinal.score_cfg) (votes : Cardinal.sprofile) n, (0 < k)%Z -> (1 <= n)%nat ->
  Cardinal.rp_trunc rp = true -> Cardinal.rp_mj rp = true -> TruncRepair_proofs.profile_pos votes ->
  match Cardinal.majority_judgment_x rp plus cf (map (fun bn => (fst bn, (k * snd bn)%Z)) votes) n with
  | inl _ => True | inr e => e = Cardinal.SE_vse end /\
  match Cardinal.majority_judgment_x rp plus cf votes n with
  | inl _ => True | inr e => e = Cardinal.SE_vse end.
Proof.
  intros k rp plus cf votes n Hk Hn Ht Hm Hv. split; apply MJ_repair_proofs.majority_judgment_x_answers_or_refuses; try assumption.
  intros bn Hin. apply in_map_iff in Hin. destruct Hin as (bn0 & <- & Hin0). destruct (Hv bn0 Hin0) as (H1 & H2).
  cbn [fst snd]. split; [nia|exact H2].
Qed.

Theorem C11_scale_mj_default_repaired_partial : forall (k : Z) rp (cf : Cardinal.score_cfg) (votes : Cardinal.sprofile) n, (0 < k)%Z -> (1 <= n)%nat ->
  Cardinal.sc_min_count cf = 0%Z -> Qle_bool (Cardinal.sc_trunc cf) 0 = true -> C11_complete_ballots votes ->
  Cardinal.majority_judgment_x rp false cf (map (fun bn => (fst bn, (k * snd bn)%Z)) votes) n = Cardinal.majority_judgment_x rp false cf votes n.
Proof.
  intros k rp cf votes n Hk Hn Hmc Htr Hc.
  assert (Hv : ScoreDict_proofs.profile_ok votes).
  { intros [b w] Hin. destruct (Hc b w Hin) as (H1 & H2 & _). cbn [fst snd]. split; [lia|exact H2]. }
  assert (Hc' : C11_complete_ballots (map (fun bn => (fst bn, (k * snd bn)%Z)) votes)).
  { intros b w Hin. apply in_map_iff in Hin. destruct Hin as ([b0 w0] & E & Hin0). cbn [fst snd] in E. injection E as <- <-.
    destruct (Hc b0 w0 Hin0) as (H1 & H2 & H3). split; [nia|]. split; [exact H2|]. intros c Hcin. apply H3.
    rewrite flat_map_concat_map, map_map in Hcin. cbn [fst] in Hcin. rewrite <- flat_map_concat_map in Hcin. exact Hcin. }
  pose proof (C11_profile_ok_scale k votes Hk Hv) as Hv'.
  assert (Ht : ScaleMJRepair_proofs.trunc_untouched rp cf) by (right; exact Htr).
  rewrite (ScaleMJRepair_proofs.mj_default_x_eq_balanced rp cf _ n Ht Hv' Hn), (ScaleMJRepair_proofs.mj_default_x_eq_balanced rp cf votes n Ht Hv Hn).
  - exact (C11_scale_mj_default_full k cf votes n Hk Hmc Htr Hc).
  - intros sc Hsc. exists (Scale2Score_proofs.sp_total votes). exact (Scale2Complete_proofs.complete_balanced cf votes sc Hmc Htr Hc Hsc).
  - intros sc Hsc. eexists. exact (Scale2Complete_proofs.complete_balanced cf _ sc Hmc Htr Hc' Hsc).
Qed.

(* the witness of C11_scale_mj_default_partial_ballots_refuted with the repair: [A; C] at k = 1, 2, 3, 10^25 + 7 *)
Example C11_mj_default_repaired_example :
  let cf := Cardinal.Build_score_cfg Cardinal.FMedianLow Cardinal.UNone 0 0 0 in
  let votes : Cardinal.sprofile := [([(1%positive, 1%Q); (2%positive, 0%Q); (3%positive, 0%Q)], 3%Z); ([(3%positive, 1%Q)], 3%Z); ([(3%positive, 0%Q)], 2%Z)] in
  Cardinal.majority_judgment_x Cardinal.repaired false cf votes 2 = inl [Cand 1%positive; Cand 3%positive] /\
  Cardinal.majority_judgment_x Cardinal.repaired false cf (map (fun bn => (fst bn, (2 * snd bn)%Z)) votes) 2 = inl [Cand 1%positive; Cand 3%positive] /\
  Cardinal.majority_judgment_x Cardinal.repaired false cf (map (fun bn => (fst bn, (3 * snd bn)%Z)) votes) 2 = inl [Cand 1%positive; Cand 3%positive].
Proof. vm_compute. repeat split; reflexivity. Qed.

(* allocated score with any set of the repairs: the state simulation carries over (the search for the strongest supporters
   reads the ballots only; the level-at-zero round hands the same dictionary to get_n_best in both runs) *)
Theorem C11_scale_allocated_score_repaired : forall (k : Q) ra (q : Quota.quota_spec) orders (votes : AllocScore.wprofile) n prev mx,
  (0 < k)%Q -> ScaleAlloc_proofs.qspec_homog q = true ->
  AllocScore.alloc_distribute_x ra (ScaleAlloc_proofs.qspec_scale k q) orders (map (fun bw => (fst bw, (k * snd bw)%Q)) votes) n prev mx
  = AllocScore.alloc_distribute_x ra q orders votes n prev mx /\
  AllocScore.alloc_select_x ra (ScaleAlloc_proofs.qspec_scale k q) orders (map (fun bw => (fst bw, (k * snd bw)%Q)) votes) n
  = AllocScore.alloc_select_x ra q orders votes n.
Proof.
  intros k ra q orders votes n prev mx Hk Hq. split.
  - exact (ScaleAlloc_proofs.alloc_distribute_x_rel k Hk ra q orders _ _ n prev mx Hq (ScaleAlloc_proofs.wprel_scale k votes)).
  - exact (ScaleAlloc_proofs.alloc_select_x_rel k Hk ra q orders _ _ n Hq (ScaleAlloc_proofs.wprel_scale k votes)).
Qed.

Print Assumptions C11_scale_plurality.
Print Assumptions C11_scale_highest_averages.
Print Assumptions C11_scale_pairwise_wins.
Print Assumptions C11_scale_condorcet_winner.
Print Assumptions C11_scale_copeland.
Print Assumptions C11_scale_smith_schwartz.
Print Assumptions C11_scale_schwartz_set.
Print Assumptions C11_scale_minimax.
Print Assumptions C11_scale_quota_distributor.
Print Assumptions C11_scale_largest_remainder.
Print Assumptions C11_tie_exact.
Print Assumptions C11_one_vote_apart.
Print Assumptions C11_scale_stv_homogeneous.
Print Assumptions C11_scale_stv.
Print Assumptions C11_scale_stv_seats.
Print Assumptions C11_stv_droop_not_scale_free.
Print Assumptions C11_scale_schulze_paths.
Print Assumptions C11_scale_schulze.
Print Assumptions C11_scale_full.
Print Assumptions C11_scale_ranked_pairs.
Print Assumptions C11_scale_kemeny.
Print Assumptions C11_scale_additive.
Print Assumptions C11_scale_additive_totals.
Print Assumptions C11_scale_additive_first_preference.
Print Assumptions C11_scale_additive_approval.
Print Assumptions C11_scale_additive_presence.
Print Assumptions C11_scale_additive_positional.
Print Assumptions C11_scale_bucklin.
Print Assumptions C11_scale_preference_addition.
Print Assumptions C11_scale_bucklin_presets.
Print Assumptions C11_scale_pav.
Print Assumptions C11_scale_pav_best.
Print Assumptions C11_scale_spav.
Print Assumptions C11_scale_score_voting.
Print Assumptions C11_scale_score_totals.
Print Assumptions C11_scale_score_min_count_refuted.
Print Assumptions C11_scale_score_truncation_count_refuted.
Print Assumptions C11_scale_score_truncation_fraction_refuted.
Print Assumptions C11_scale_mj_plus.
Print Assumptions C11_scale_mj_tie_free.
Print Assumptions C11_scale_mj_default_reduction.
Print Assumptions C11_scale_mj_default_partial_ballots_refuted.
Print Assumptions C11_scale_mj_default_balanced.
Print Assumptions C11_scale_mj_default_full.
Print Assumptions C11_scale_relative_threshold.
Print Assumptions C11_scale_absolute_threshold.
Print Assumptions C11_scale_threshold.
Print Assumptions C11_scale_threshold_relative.
Print Assumptions C11_scale_absolute_threshold_kept_line_refuted.
Print Assumptions C11_scale_bracketer.
Print Assumptions C11_scale_quota_selector.
Print Assumptions C11_scale_quota_selector_homogeneous.
Print Assumptions C11_scale_quota_selector_constant.
Print Assumptions C11_quota_rounded_not_homogeneous.
Print Assumptions C11_scale_quota_selector_rounded_refuted.
Print Assumptions C11_scale_largest_remainder_rounded_refuted.
Print Assumptions C11_scale_conditioned_highest_averages.
Print Assumptions C11_scale_conditioned_relative.
Print Assumptions C11_scale_open_list.
Print Assumptions C11_scale_open_list_named.
Print Assumptions C11_scale_star.
Print Assumptions C11_scale_star_auto.
Print Assumptions C11_scale_star_pairwise.
Print Assumptions C11_scale_ranked_to_condorcet.
Print Assumptions C11_scale_ranked_condorcet_family.
Print Assumptions C11_scale_benham.
Print Assumptions C11_scale_tideman_alternative.
Print Assumptions C11_scale_baldwin.
Print Assumptions C11_scale_eliminate_one.
Print Assumptions C11_scale_allocated_score_distributor.
Print Assumptions C11_scale_allocated_score.
Print Assumptions C11_scale_pure_proportionality.
Print Assumptions C11_scale_score_voting_repaired.
Print Assumptions C11_scale_score_truncation_sum_capped_refuted.
Print Assumptions C11_scale_mj_default_no_crash.
Print Assumptions C11_scale_mj_default_repaired_partial.
Print Assumptions C11_scale_allocated_score_repaired.
