(* C18 - the generated alias-and-mutation table (Gen/Mutation.v, written by tools/py2v.py from the scan of tools/mutscan.py) tied to the property.
   Registered through GEN_TIES of harness/props/c18.py: an obligation only while the scan can read the whole package (otherwise the
   check falls back to the dynamic sweep).

   pure_table (a boolean over the finite generated table - one row per (function, parameter) of EVERY function and method of
   votelib/**/*.py, self / *args / **kwargs and the pseudo parameter <globals> included; the row count of a run is in Gen/STATUS.json):
   every row is Untouched or CopiedFirst, except
     (g1) `self` of a constructor;
     (g2) `self` / <globals> rows whose ONLY evidence is a callee resolved by name ("via:"): state reachable from the object or the
          module changed by some method of that name (the PAV coefficient cache, the Borda scorer - Props/C18.v proves those
          history-free; everything else about "no state carried between calls" is the history oracle of the sweep);
     (x)  the explicit list below, each entry with its reason; `direct = false` entries allow only "via:" evidence, so a statement
          that changes the argument IN the listed function itself still breaks the table.
   What the table means for the store model of Props/C18.v is at the end (scan_untouched_args_untouched). *)
From Coq Require Import ZArith List String Bool Arith Lia.
From VL Require Import Gen.Mutation Prelude.Sx Prelude.PyDict Model.Alias.
Import ListNotations.
Open Scope string_scope.

Definition ends_with (suf s : string) : bool :=
  let n := String.length s in let m := String.length suf in
  (m <=? n)%nat && String.eqb (substring (n - m) m s) suf.

Definition is_via (k : string) : bool := prefix "via:" k.

(* (module, qualified name, parameter, direct mutation allowed?, reason) *)
Definition exceptions : list (string * string * string * bool * string) := [
  ("votelib", "VotingSystem.evaluate", "args", false, "by-name call resolution cannot exclude that a method of that name changes this argument; evidence = argument snapshots of the dynamic sweep");
  ("votelib", "VotingSystem.evaluate", "kwargs", false, "by-name call resolution cannot exclude that a method of that name changes this argument; evidence = argument snapshots of the dynamic sweep");
  ("votelib.convert", "_subtract_lowest", "scores", true, "private in-place helper working on a container its caller has just created (the callers rows are judged on their own)");
  ("votelib.convert", "ScoreToSimpleVotes._correct_candidate_scores", "scores", true, "private in-place helper working on a container its caller has just created (the callers rows are judged on their own)");
  ("votelib.persist", "simple_serialization", "class_", true, "infrastructure (serialization decorators and registries, IO streams and iterators, plotting, generators): not an evaluator / converter / validator input; changed in place by design");
  ("votelib.persist", "factory_serialization", "factory", true, "infrastructure (serialization decorators and registries, IO streams and iterators, plotting, generators): not an evaluator / converter / validator input; changed in place by design");
  ("votelib.persist", "factory_serialization", "params", false, "infrastructure (serialization decorators and registries, IO streams and iterators, plotting, generators): not an evaluator / converter / validator input; handed to such a helper");
  ("votelib.persist", "factory_serialization.<locals>.add_to_dict", "func", true, "infrastructure (serialization decorators and registries, IO streams and iterators, plotting, generators): not an evaluator / converter / validator input; changed in place by design");
  ("votelib.persist", "serialize_value", "value", false, "infrastructure (serialization decorators and registries, IO streams and iterators, plotting, generators): not an evaluator / converter / validator input; handed to such a helper");
  ("votelib.persist", "_loadable_class_def", "clsdef", false, "infrastructure (serialization decorators and registries, IO streams and iterators, plotting, generators): not an evaluator / converter / validator input; handed to such a helper");
  ("votelib.persist", "deserialize_value", "value", false, "infrastructure (serialization decorators and registries, IO streams and iterators, plotting, generators): not an evaluator / converter / validator input; handed to such a helper");
  ("votelib.persist", "deserialize_typed", "typedef", false, "infrastructure (serialization decorators and registries, IO streams and iterators, plotting, generators): not an evaluator / converter / validator input; handed to such a helper");
  ("votelib.persist", "deserialize_class", "clsdef", false, "infrastructure (serialization decorators and registries, IO streams and iterators, plotting, generators): not an evaluator / converter / validator input; handed to such a helper");
  ("votelib.persist", "get_object", "identifier", true, "uses globals() to look a name up (read only); the scan refuses reflective functions, the dynamic sweep covers persistence round trips");
  ("votelib.persist", "get_object", "<globals>", true, "uses globals() to look a name up (read only); the scan refuses reflective functions, the dynamic sweep covers persistence round trips");
  ("votelib.persist", "from_dict", "value", false, "infrastructure (serialization decorators and registries, IO streams and iterators, plotting, generators): not an evaluator / converter / validator input; handed to such a helper");
  ("votelib.persist", "to_dict", "obj", false, "infrastructure (serialization decorators and registries, IO streams and iterators, plotting, generators): not an evaluator / converter / validator input; handed to such a helper");
  ("votelib.persist", "sequence_to_json_factory", "typeobj", false, "infrastructure (serialization decorators and registries, IO streams and iterators, plotting, generators): not an evaluator / converter / validator input; handed to such a helper");
  ("votelib.persist", "sequence_to_json_factory.<locals>.sequence_to_json", "seq", false, "infrastructure (serialization decorators and registries, IO streams and iterators, plotting, generators): not an evaluator / converter / validator input; handed to such a helper");
  ("votelib.util", "add_dict_to_dict", "dict1", true, "documented in-place helper: adds dict2 into dict1, which every caller creates itself (sum_dicts copies first)");
  ("votelib.util", "_select_n_random_int", "candidates", true, "private in-place helper working on a container its caller has just created (the callers rows are judged on their own)");
  ("votelib.util", "_select_n_random_int", "cum_weights", true, "private in-place helper working on a container its caller has just created (the callers rows are judged on their own)");
  ("votelib.vote", "EnumScoreVoteValidator.__init__", "sum_bounds", false, "by-name call resolution cannot exclude that a method of that name changes this argument; evidence = argument snapshots of the dynamic sweep");
  ("votelib.vote", "EnumScoreVoteValidator.__init__", "n_scorings_checker", false, "by-name call resolution cannot exclude that a method of that name changes this argument; evidence = argument snapshots of the dynamic sweep");
  ("votelib.vote", "EnumScoreVoteValidator.__init__", "sum_checkers", false, "by-name call resolution cannot exclude that a method of that name changes this argument; evidence = argument snapshots of the dynamic sweep");
  ("votelib.vote", "EnumScoreVoteValidator.__init__", "nominator", false, "by-name call resolution cannot exclude that a method of that name changes this argument; evidence = argument snapshots of the dynamic sweep");
  ("votelib.vote", "RangeVoteValidator.__init__", "sum_bounds", false, "by-name call resolution cannot exclude that a method of that name changes this argument; evidence = argument snapshots of the dynamic sweep");
  ("votelib.vote", "RangeVoteValidator.__init__", "n_scorings_checker", false, "by-name call resolution cannot exclude that a method of that name changes this argument; evidence = argument snapshots of the dynamic sweep");
  ("votelib.vote", "RangeVoteValidator.__init__", "sum_checkers", false, "by-name call resolution cannot exclude that a method of that name changes this argument; evidence = argument snapshots of the dynamic sweep");
  ("votelib.vote", "RangeVoteValidator.__init__", "nominator", false, "by-name call resolution cannot exclude that a method of that name changes this argument; evidence = argument snapshots of the dynamic sweep");
  ("votelib.component.core", "marker", "register", true, "infrastructure (serialization decorators and registries, IO streams and iterators, plotting, generators): not an evaluator / converter / validator input; changed in place by design");
  ("votelib.component.core", "marker.<locals>.mark_function", "<globals>", true, "infrastructure (serialization decorators and registries, IO streams and iterators, plotting, generators): not an evaluator / converter / validator input; changed in place by design");
  ("votelib.component.core", "register_functions", "args", false, "infrastructure (serialization decorators and registries, IO streams and iterators, plotting, generators): not an evaluator / converter / validator input; handed to such a helper");
  ("votelib.component.core", "register_functions", "kwargs", false, "infrastructure (serialization decorators and registries, IO streams and iterators, plotting, generators): not an evaluator / converter / validator input; handed to such a helper");
  ("votelib.component.rankscore", "Borda.set_n_candidates", "self", true, "documented setter of the scorer; C18_history_free_borda: conversions answer as a fresh scorer after any history");
  ("votelib.component.transfer", "distribute_n_random", "cand_weights", false, "by-name call resolution cannot exclude that a method of that name changes this argument; evidence = argument snapshots of the dynamic sweep");
  ("votelib.component.transfer", "Hare._subtract", "cand_alloc", true, "private in-place helper working on a container its caller has just created (the callers rows are judged on their own)");
  ("votelib.component.transfer", "Gregory._subtract", "cand_alloc", true, "private in-place helper working on a container its caller has just created (the callers rows are judged on their own)");
  ("votelib.crit.yee", "diagram", "evaluator", false, "infrastructure (serialization decorators and registries, IO streams and iterators, plotting, generators): not an evaluator / converter / validator input; handed to such a helper");
  ("votelib.crit.yee", "plot", "candidates", true, "infrastructure (serialization decorators and registries, IO streams and iterators, plotting, generators): not an evaluator / converter / validator input; changed in place by design");
  ("votelib.crit.yee", "plot", "ax", true, "infrastructure (serialization decorators and registries, IO streams and iterators, plotting, generators): not an evaluator / converter / validator input; changed in place by design");
  ("votelib.evaluate.approval", "ProportionalApproval.evaluate", "self", true, "the _coefs cache; C18_history_free_pav / C18_pav_table_invariant: history-free");
  ("votelib.evaluate.cardinal", "AllocatedScoreSelector.evaluate", "votes", false, "by-name call resolution cannot exclude that a method of that name changes this argument; evidence = argument snapshots of the dynamic sweep");
  ("votelib.evaluate.core", "MultistageDistributor.evaluate", "votes", false, "by-name call resolution cannot exclude that a method of that name changes this argument; evidence = argument snapshots of the dynamic sweep");
  ("votelib.evaluate.core", "MultistageDistributor.evaluate", "max_seats", false, "by-name call resolution cannot exclude that a method of that name changes this argument; evidence = argument snapshots of the dynamic sweep");
  ("votelib.evaluate.core", "MultistageDistributor._add_stage_results", "elected", true, "in-place accumulation into the dictionary evaluate() obtained from _copy_nested: Props/C18.v C18_args_untouched_multistage / _unused_votes prove the callers prev_gains unchanged for every depth");
  ("votelib.evaluate.core", "UnusedVotesDistributor.evaluate", "votes", false, "by-name call resolution cannot exclude that a method of that name changes this argument; evidence = argument snapshots of the dynamic sweep");
  ("votelib.evaluate.core", "AdjustedSeatCount.evaluate", "votes", false, "by-name call resolution cannot exclude that a method of that name changes this argument; evidence = argument snapshots of the dynamic sweep");
  ("votelib.evaluate.core", "AdjustedSeatCount.evaluate", "prev_gains", false, "by-name call resolution cannot exclude that a method of that name changes this argument; evidence = argument snapshots of the dynamic sweep");
  ("votelib.evaluate.core", "AdjustedSeatCount.evaluate", "max_seats", false, "by-name call resolution cannot exclude that a method of that name changes this argument; evidence = argument snapshots of the dynamic sweep");
  ("votelib.evaluate.core", "AllowOverhang.calculate", "votes", false, "by-name call resolution cannot exclude that a method of that name changes this argument; evidence = argument snapshots of the dynamic sweep");
  ("votelib.evaluate.core", "AllowOverhang.calculate", "max_seats", false, "by-name call resolution cannot exclude that a method of that name changes this argument; evidence = argument snapshots of the dynamic sweep");
  ("votelib.evaluate.core", "LevelOverhang.calculate", "votes", false, "by-name call resolution cannot exclude that a method of that name changes this argument; evidence = argument snapshots of the dynamic sweep");
  ("votelib.evaluate.core", "LevelOverhang.calculate", "max_seats", false, "by-name call resolution cannot exclude that a method of that name changes this argument; evidence = argument snapshots of the dynamic sweep");
  ("votelib.evaluate.core", "LevelOverhangByConstituency.calculate", "votes", false, "by-name call resolution cannot exclude that a method of that name changes this argument; evidence = argument snapshots of the dynamic sweep");
  ("votelib.evaluate.core", "LevelOverhangByConstituency.calculate", "prev_gains", false, "by-name call resolution cannot exclude that a method of that name changes this argument; evidence = argument snapshots of the dynamic sweep");
  ("votelib.evaluate.core", "LevelOverhangByConstituency.calculate", "max_seats", false, "by-name call resolution cannot exclude that a method of that name changes this argument; evidence = argument snapshots of the dynamic sweep");
  ("votelib.evaluate.core", "PostConverted.evaluate", "votes", false, "by-name call resolution cannot exclude that a method of that name changes this argument; evidence = argument snapshots of the dynamic sweep");
  ("votelib.evaluate.core", "PostConverted.evaluate", "args", false, "by-name call resolution cannot exclude that a method of that name changes this argument; evidence = argument snapshots of the dynamic sweep");
  ("votelib.evaluate.core", "PostConverted.evaluate", "kwargs", false, "by-name call resolution cannot exclude that a method of that name changes this argument; evidence = argument snapshots of the dynamic sweep");
  ("votelib.evaluate.core", "PreConverted.evaluate", "votes", false, "by-name call resolution cannot exclude that a method of that name changes this argument; evidence = argument snapshots of the dynamic sweep");
  ("votelib.evaluate.core", "PreConverted.evaluate", "args", false, "by-name call resolution cannot exclude that a method of that name changes this argument; evidence = argument snapshots of the dynamic sweep");
  ("votelib.evaluate.core", "PreConverted.evaluate", "kwargs", false, "by-name call resolution cannot exclude that a method of that name changes this argument; evidence = argument snapshots of the dynamic sweep");
  ("votelib.evaluate.core", "Conditioned.evaluate", "votes", false, "by-name call resolution cannot exclude that a method of that name changes this argument; evidence = argument snapshots of the dynamic sweep");
  ("votelib.evaluate.core", "Conditioned.evaluate", "prev_gains", false, "by-name call resolution cannot exclude that a method of that name changes this argument; evidence = argument snapshots of the dynamic sweep");
  ("votelib.evaluate.core", "Conditioned.evaluate", "kwargs", false, "by-name call resolution cannot exclude that a method of that name changes this argument; evidence = argument snapshots of the dynamic sweep");
  ("votelib.evaluate.core", "ByConstituency.evaluate", "votes", false, "by-name call resolution cannot exclude that a method of that name changes this argument; evidence = argument snapshots of the dynamic sweep");
  ("votelib.evaluate.core", "ByConstituency.evaluate", "n_seats", false, "by-name call resolution cannot exclude that a method of that name changes this argument; evidence = argument snapshots of the dynamic sweep");
  ("votelib.evaluate.core", "ByConstituency.evaluate", "prev_gains", false, "by-name call resolution cannot exclude that a method of that name changes this argument; evidence = argument snapshots of the dynamic sweep");
  ("votelib.evaluate.core", "ByConstituency.evaluate", "max_seats", false, "by-name call resolution cannot exclude that a method of that name changes this argument; evidence = argument snapshots of the dynamic sweep");
  ("votelib.evaluate.core", "ByConstituency._evaluate_district", "votes", false, "by-name call resolution cannot exclude that a method of that name changes this argument; evidence = argument snapshots of the dynamic sweep");
  ("votelib.evaluate.core", "ByConstituency._evaluate_district", "prev_gains", false, "by-name call resolution cannot exclude that a method of that name changes this argument; evidence = argument snapshots of the dynamic sweep");
  ("votelib.evaluate.core", "ByConstituency._evaluate_district", "max_seats", false, "by-name call resolution cannot exclude that a method of that name changes this argument; evidence = argument snapshots of the dynamic sweep");
  ("votelib.evaluate.core", "ByConstituency._preselect", "votes", false, "by-name call resolution cannot exclude that a method of that name changes this argument; evidence = argument snapshots of the dynamic sweep");
  ("votelib.evaluate.core", "ByConstituency._preselect", "n_seats", false, "by-name call resolution cannot exclude that a method of that name changes this argument; evidence = argument snapshots of the dynamic sweep");
  ("votelib.evaluate.core", "PreApportioned.evaluate", "votes", false, "by-name call resolution cannot exclude that a method of that name changes this argument; evidence = argument snapshots of the dynamic sweep");
  ("votelib.evaluate.core", "PreApportioned.evaluate", "n_seats", false, "by-name call resolution cannot exclude that a method of that name changes this argument; evidence = argument snapshots of the dynamic sweep");
  ("votelib.evaluate.core", "PreApportioned.evaluate", "prev_gains", false, "by-name call resolution cannot exclude that a method of that name changes this argument; evidence = argument snapshots of the dynamic sweep");
  ("votelib.evaluate.core", "PreApportioned.evaluate", "max_seats", false, "by-name call resolution cannot exclude that a method of that name changes this argument; evidence = argument snapshots of the dynamic sweep");
  ("votelib.evaluate.core", "RemovedApportionment.evaluate", "votes", false, "by-name call resolution cannot exclude that a method of that name changes this argument; evidence = argument snapshots of the dynamic sweep");
  ("votelib.evaluate.core", "RemovedApportionment.evaluate", "prev_gains", false, "by-name call resolution cannot exclude that a method of that name changes this argument; evidence = argument snapshots of the dynamic sweep");
  ("votelib.evaluate.core", "RemovedApportionment.evaluate", "max_seats", false, "by-name call resolution cannot exclude that a method of that name changes this argument; evidence = argument snapshots of the dynamic sweep");
  ("votelib.evaluate.core", "ByParty.evaluate", "votes", false, "by-name call resolution cannot exclude that a method of that name changes this argument; evidence = argument snapshots of the dynamic sweep");
  ("votelib.evaluate.core", "ByParty.evaluate", "prev_gains", false, "by-name call resolution cannot exclude that a method of that name changes this argument; evidence = argument snapshots of the dynamic sweep");
  ("votelib.evaluate.core", "ByParty.evaluate", "max_seats", false, "by-name call resolution cannot exclude that a method of that name changes this argument; evidence = argument snapshots of the dynamic sweep");
  ("votelib.evaluate.core", "FixedSeatCount.evaluate", "votes", false, "by-name call resolution cannot exclude that a method of that name changes this argument; evidence = argument snapshots of the dynamic sweep");
  ("votelib.evaluate.core", "FixedSeatCount.evaluate", "kwargs", false, "by-name call resolution cannot exclude that a method of that name changes this argument; evidence = argument snapshots of the dynamic sweep");
  ("votelib.evaluate.core", "PartyListEvaluator.evaluate", "votes", false, "by-name call resolution cannot exclude that a method of that name changes this argument; evidence = argument snapshots of the dynamic sweep");
  ("votelib.evaluate.core", "PartyListEvaluator.evaluate", "party_lists", false, "by-name call resolution cannot exclude that a method of that name changes this argument; evidence = argument snapshots of the dynamic sweep");
  ("votelib.evaluate.core", "PartyListEvaluator.evaluate", "list_votes", false, "by-name call resolution cannot exclude that a method of that name changes this argument; evidence = argument snapshots of the dynamic sweep");
  ("votelib.evaluate.core", "PartyListEvaluator.evaluate", "kwargs", false, "by-name call resolution cannot exclude that a method of that name changes this argument; evidence = argument snapshots of the dynamic sweep");
  ("votelib.evaluate.core", "TieBreaking.evaluate", "votes", false, "by-name call resolution cannot exclude that a method of that name changes this argument; evidence = argument snapshots of the dynamic sweep");
  ("votelib.evaluate.core", "TieBreaking.evaluate", "args", false, "by-name call resolution cannot exclude that a method of that name changes this argument; evidence = argument snapshots of the dynamic sweep");
  ("votelib.evaluate.core", "TieBreaking.evaluate", "kwargs", false, "by-name call resolution cannot exclude that a method of that name changes this argument; evidence = argument snapshots of the dynamic sweep");
  ("votelib.evaluate.core", "TieBreaking._replace_distr_ties", "result", true, "private in-place helper working on a container its caller has just created (the callers rows are judged on their own)");
  ("votelib.evaluate.core", "TieBreaking._replace_sel_ties", "result", true, "private in-place helper working on a container its caller has just created (the callers rows are judged on their own)");
  ("votelib.evaluate.core", "apportion", "n_seats", false, "by-name call resolution cannot exclude that a method of that name changes this argument; evidence = argument snapshots of the dynamic sweep");
  ("votelib.evaluate.core", "apportion", "apportioner", false, "by-name call resolution cannot exclude that a method of that name changes this argument; evidence = argument snapshots of the dynamic sweep");
  ("votelib.evaluate.openlist", "ThresholdOpenList.__init__", "quota_function", false, "by-name call resolution cannot exclude that a method of that name changes this argument; evidence = argument snapshots of the dynamic sweep");
  ("votelib.evaluate.openlist", "ListOrderTieBreaker.evaluate", "votes", false, "by-name call resolution cannot exclude that a method of that name changes this argument; evidence = argument snapshots of the dynamic sweep");
  ("votelib.evaluate.proportional", "VotesPerSeat.evaluate", "<globals>", true, "`entitlement -= ...` on a number that may be the float constant INF: rebinding, floats are immutable");
  ("votelib.evaluate.proportional", "VotesPerSeat._decimal_entitlement", "self", true, "sets .rounding on the decimal.localcontext() object, a fresh local context");
  ("votelib.evaluate.proportional", "QuotaDistributor._subtract_overaward", "selected", true, "private in-place helper working on a container its caller has just created (the callers rows are judged on their own)");
  ("votelib.evaluate.proportional", "LargestRemainder.evaluate", "votes", false, "by-name call resolution cannot exclude that a method of that name changes this argument; evidence = argument snapshots of the dynamic sweep");
  ("votelib.evaluate.proportional", "LargestRemainder.evaluate", "prev_gains", false, "by-name call resolution cannot exclude that a method of that name changes this argument; evidence = argument snapshots of the dynamic sweep");
  ("votelib.evaluate.proportional", "LargestRemainder.evaluate", "max_seats", false, "by-name call resolution cannot exclude that a method of that name changes this argument; evidence = argument snapshots of the dynamic sweep");
  ("votelib.evaluate.proportional", "BiproportionalEvaluator.evaluate", "self", true, "_verif_trace: the VOTELIB_VERIF instrumentation hook (fixes/C08-hook), off by default");
  ("votelib.evaluate.proportional", "BiproportionalEvaluator.evaluate", "votes", false, "by-name call resolution cannot exclude that a method of that name changes this argument; evidence = argument snapshots of the dynamic sweep");
  ("votelib.evaluate.proportional", "BiproportionalEvaluator.evaluate", "n_seats", false, "by-name call resolution cannot exclude that a method of that name changes this argument; evidence = argument snapshots of the dynamic sweep");
  ("votelib.evaluate.proportional", "BiproportionalEvaluator._augment_result", "result", true, "private in-place helper working on a container its caller has just created (the callers rows are judged on their own)");
  ("votelib.evaluate.proportional", "BiproportionalEvaluator._augment_result", "districts_labeled", true, "private in-place helper working on a container its caller has just created (the callers rows are judged on their own)");
  ("votelib.evaluate.proportional", "BiproportionalEvaluator._augment_result", "parties_labeled", true, "private in-place helper working on a container its caller has just created (the callers rows are judged on their own)");
  ("votelib.evaluate.proportional", "BiproportionalEvaluator._initial_solution", "votes", false, "by-name call resolution cannot exclude that a method of that name changes this argument; evidence = argument snapshots of the dynamic sweep");
  ("votelib.evaluate.proportional", "BiproportionalEvaluator._initial_solution", "n_seats", false, "by-name call resolution cannot exclude that a method of that name changes this argument; evidence = argument snapshots of the dynamic sweep");
  ("votelib.evaluate.sequential", "TransferableVoteDistributor.next_count", "self", true, "self.transferer.subtract(...) is the transferers own method (its rows are judged on their own), not Counter.subtract");
  ("votelib.evaluate.sequential", "TransferableVoteDistributor.next_count", "allocation", false, "by-name call resolution cannot exclude that a method of that name changes this argument; evidence = argument snapshots of the dynamic sweep");
  ("votelib.evaluate.sequential", "initial_allocation", "<globals>", true, "in-place step on a working copy owned by the caller inside the library (the public callers rows are judged on their own)");
  ("votelib.evaluate.sequential", "TransferableVoteSelector.next_count", "allocation", false, "by-name call resolution cannot exclude that a method of that name changes this argument; evidence = argument snapshots of the dynamic sweep");
  ("votelib.evaluate.sequential", "PreferenceAddition._add_round_votes", "total_votes", true, "private in-place helper working on a container its caller has just created (the callers rows are judged on their own)");
  ("votelib.evaluate.sequential", "TidemanAlternative.evaluate", "votes", false, "by-name call resolution cannot exclude that a method of that name changes this argument; evidence = argument snapshots of the dynamic sweep");
  ("votelib.evaluate.sequential", "TidemanAlternative.run_tier", "votes", false, "by-name call resolution cannot exclude that a method of that name changes this argument; evidence = argument snapshots of the dynamic sweep");
  ("votelib.evaluate.sequential", "TidemanAlternative.get_winner_set", "votes", false, "by-name call resolution cannot exclude that a method of that name changes this argument; evidence = argument snapshots of the dynamic sweep");
  ("votelib.evaluate.sequential", "Benham.evaluate", "votes", false, "by-name call resolution cannot exclude that a method of that name changes this argument; evidence = argument snapshots of the dynamic sweep");
  ("votelib.evaluate.sequential", "Benham.get_condorcet_winner", "votes", false, "by-name call resolution cannot exclude that a method of that name changes this argument; evidence = argument snapshots of the dynamic sweep");
  ("votelib.evaluate.threshold", "CoalitionMemberBracketer.evaluate", "votes", false, "by-name call resolution cannot exclude that a method of that name changes this argument; evidence = argument snapshots of the dynamic sweep");
  ("votelib.evaluate.threshold", "PropertyBracketer.evaluate", "votes", false, "by-name call resolution cannot exclude that a method of that name changes this argument; evidence = argument snapshots of the dynamic sweep");
  ("votelib.evaluate.threshold", "AlternativeThresholds.evaluate", "votes", false, "by-name call resolution cannot exclude that a method of that name changes this argument; evidence = argument snapshots of the dynamic sweep");
  ("votelib.evaluate.threshold", "AlternativeThresholds.evaluate", "prev_gains", false, "by-name call resolution cannot exclude that a method of that name changes this argument; evidence = argument snapshots of the dynamic sweep");
  ("votelib.evaluate.threshold", "PreviousGainThreshold.evaluate", "prev_gains", false, "by-name call resolution cannot exclude that a method of that name changes this argument; evidence = argument snapshots of the dynamic sweep");
  ("votelib.io.blt", "load_lines", "blt_lines", true, "infrastructure (serialization decorators and registries, IO streams and iterators, plotting, generators): not an evaluator / converter / validator input; changed in place by design");
  ("votelib.io.core", "dumpers", "line_dumper", true, "infrastructure (serialization decorators and registries, IO streams and iterators, plotting, generators): not an evaluator / converter / validator input; changed in place by design");
  ("votelib.io.core", "dumpers.<locals>.dump", "blt_file", true, "infrastructure (serialization decorators and registries, IO streams and iterators, plotting, generators): not an evaluator / converter / validator input; changed in place by design");
  ("votelib.io.core", "dumpers.<locals>.dump", "args", true, "infrastructure (serialization decorators and registries, IO streams and iterators, plotting, generators): not an evaluator / converter / validator input; changed in place by design");
  ("votelib.io.core", "dumpers.<locals>.dump", "kwargs", true, "infrastructure (serialization decorators and registries, IO streams and iterators, plotting, generators): not an evaluator / converter / validator input; changed in place by design");
  ("votelib.io.core", "dumpers.<locals>.dump", "<globals>", true, "infrastructure (serialization decorators and registries, IO streams and iterators, plotting, generators): not an evaluator / converter / validator input; changed in place by design");
  ("votelib.io.stv", "load_lines", "lines", false, "infrastructure (serialization decorators and registries, IO streams and iterators, plotting, generators): not an evaluator / converter / validator input; handed to such a helper");
  ("votelib.io.stv", "load_lines", "<globals>", true, "infrastructure (serialization decorators and registries, IO streams and iterators, plotting, generators): not an evaluator / converter / validator input; changed in place by design")
].

Definition excepted (r : mrow) (kind : string) : bool :=
  existsb (fun e => match e with (m, q, p, direct, _) =>
             String.eqb m (r_module r) && String.eqb q (r_qual r) && String.eqb p (r_param r) && (direct || is_via kind) end) exceptions.

Definition generic_ok (r : mrow) (kind : string) : bool :=
  (String.eqb (r_param r) "self" && ends_with ".__init__" (r_qual r))
  || ((String.eqb (r_param r) "self" || String.eqb (r_param r) "<globals>") && is_via kind).

Definition pure_row (r : mrow) : bool :=
  match r_class r with
  | Untouched | CopiedFirst _ => true
  | MayMutate _ kind => generic_ok r kind || excepted r kind
  end.

Definition listed (m q p : string) : bool :=
  existsb (fun e => match e with (m', q', p', _, _) => String.eqb m m' && String.eqb q q' && String.eqb p p' end) exceptions.

Definition pure_table : bool :=
  forallb pure_row mutation_table
  && forallb (fun e => match e with (m, q, p) => listed m q p end) not_propagated.

(* the obligation: decided by evaluation over the generated table *)
Lemma pure_rows : forallb pure_row mutation_table = true.
Proof. vm_compute. reflexivity. Qed.

Theorem C18_pure_table : pure_table = true.
Proof. apply andb_true_intro. split; [exact pure_rows|vm_compute; reflexivity]. Qed.

(* EVERY function of the package (private helpers, module-level functions, nested functions) *)
Theorem C18_every_parameter_pure_or_listed : forall r,
  In r mutation_table ->
  match r_class r with
  | Untouched | CopiedFirst _ => True
  | MayMutate _ kind => generic_ok r kind = true \/ excepted r kind = true
  end.
Proof.
  intros r Hin.
  pose proof (proj1 (forallb_forall pure_row mutation_table) pure_rows r Hin) as H.
  unfold pure_row in H. destruct (r_class r); [exact I|exact I|exact (orb_prop _ _ H)].
Qed.

(* read back: every parameter of every public evaluate / convert / validate / calculate / transfer / subtract method and every
   parameter with a shared mutable default object is Untouched or CopiedFirst unless it is one of the stated exceptions *)
Theorem C18_public_and_default_parameters_pure : forall r,
  In r mutation_table -> (r_public r || r_mutdefault r) = true ->
  match r_class r with
  | Untouched | CopiedFirst _ => True
  | MayMutate _ kind => generic_ok r kind = true \/ excepted r kind = true
  end.
Proof. intros r Hin _. exact (C18_every_parameter_pure_or_listed r Hin). Qed.

(* What a row means in the store model of Props/C18.v
   A call is a sequence of primitive store operations: writes to existing locations (sput) and allocations (salloc).  The scan's
   claim for an Untouched parameter: no write goes to a location reachable from the argument (R = that set of locations, any
   superset will do).  SOUNDNESS ASSUMPTION of the scan (not proved - the scan is a Python program): its may-alias closure
   over-approximates the run (intraprocedural points-to with by-name call summaries; no setattr / exec / globals() - such functions
   are rejected; callable components leave their arguments alone; dictionary keys and parameters annotated as scalars are
   immutable).  Under it, "Untouched" gives exactly what the theorems `C18_args_untouched_*` of Props/C18.v state for that argument: every location
   reachable from it holds the same dictionary after the call; CopiedFirst likewise (writes go to fresh locations only). *)
Inductive sop := SWrite (l : loc) (d : sdict) | SAlloc (d : sdict).
Definition sstep (st : store) (o : sop) : store :=
  match o with SWrite l d => sput st l d | SAlloc d => fst (salloc st d) end.
Definition srun (st : store) (ops : list sop) : store := fold_left sstep ops st.
Definition avoids (R : loc -> bool) (ops : list sop) : bool :=
  forallb (fun o => match o with SWrite l _ => negb (R l) | SAlloc _ => true end) ops.

Lemma sput_other : forall st l d l', l' <> l -> sget (sput st l d) l' = sget st l'.
Proof.
  unfold sget. induction st as [|x t IH]; intros l d l' Hne; destruct l; destruct l'; simpl; auto; try congruence.
Qed.

Lemma salloc_old : forall st d l, (l < List.length st)%nat -> sget (fst (salloc st d)) l = sget st l.
Proof. intros st d l Hl. unfold salloc, sget. simpl. apply nth_error_app1. exact Hl. Qed.

Lemma sput_length : forall st l d, List.length (sput st l d) = List.length st.
Proof. induction st as [|x t IH]; intros l d; destruct l; simpl; auto. Qed.

Lemma sstep_length : forall st o, (List.length st <= List.length (sstep st o))%nat.
Proof.
  intros st o. destruct o as [l d|d]; simpl.
  - rewrite sput_length. lia.
  - rewrite app_length. simpl. lia.
Qed.

Theorem scan_untouched_args_untouched : forall (R : loc -> bool) ops st l,
  avoids R ops = true -> R l = true -> (l < List.length st)%nat -> sget (srun st ops) l = sget st l.
Proof.
  intros R ops. induction ops as [|o t IH]; intros st l Hav HR Hl; simpl; auto.
  simpl in Hav. apply andb_prop in Hav. destruct Hav as [Ho Ht].
  change (sget (srun (sstep st o) t) l = sget st l).
  rewrite (IH (sstep st o) l Ht HR).
  - destruct o as [l' d|d]; simpl.
    + apply sput_other. intro E. subst l'. rewrite HR in Ho. discriminate.
    + apply salloc_old. exact Hl.
  - pose proof (sstep_length st o). lia.
Qed.

(* the form used for the table: an Untouched row + the soundness of the scan for that row and that run *)
Definition scan_sound_for (r : mrow) (R : loc -> bool) (ops : list sop) : Prop :=
  r_class r = Untouched -> avoids R ops = true.

Theorem C18_untouched_row_args_untouched : forall r R ops st,
  In r mutation_table -> r_class r = Untouched -> scan_sound_for r R ops ->
  forall l, R l = true -> (l < List.length st)%nat -> sget (srun st ops) l = sget st l.
Proof. intros r R ops st _ Hc Hs l HR Hl. exact (scan_untouched_args_untouched R ops st l (Hs Hc) HR Hl). Qed.

(* CopiedFirst: all writes go to locations allocated during the call - the caller's whole store is as before *)
Theorem C18_copied_first_store_untouched : forall ops st,
  avoids (fun l => l <? List.length st)%nat ops = true ->
  forall l, (l < List.length st)%nat -> sget (srun st ops) l = sget st l.
Proof.
  intros ops st Hav l Hl. apply (scan_untouched_args_untouched (fun l => l <? List.length st)%nat ops st l Hav); auto.
  apply Nat.ltb_lt. exact Hl.
Qed.

(* non-vacuity: a run that allocates a copy, writes into the copy and leaves location 0 (the argument) alone *)
Example C18_scan_model_example :
  let st := [[(1%positive, VInt 1)]] in
  let ops := [SAlloc [(1%positive, VInt 1)]; SWrite 1%nat [(1%positive, VInt 2)]] in
  avoids (fun l => (l <? 1)%nat) ops = true /\ sget (srun st ops) 0%nat = sget st 0%nat /\ sget (srun st ops) 1%nat = Some [(1%positive, VInt 2)].
Proof. vm_compute. repeat split; reflexivity. Qed.

Print Assumptions C18_pure_table.
Print Assumptions C18_public_and_default_parameters_pure.
Print Assumptions C18_every_parameter_pure_or_listed.
Print Assumptions scan_untouched_args_untouched.
Print Assumptions C18_untouched_row_args_untouched.
Print Assumptions C18_copied_first_store_untouched.
