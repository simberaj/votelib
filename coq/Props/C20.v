(* C20 - Vote validators accept exactly the ballots their rules describe.
   This file holds the property theorems and an example of non-vacuity.  Model: Model/Validate.v; proofs: Proofs/Validate_proofs.v.

   Ballots range over the whole grammar [pyobj] (wrong containers, nested
   collections, numbers, None, candidate objects of every kind).  Acceptance is
   characterised declaratively for each validator; "names none twice" is
   |distinct names| = |names|; all bounds are inclusive (in_bounds = lo <= x <= hi).
   Reading fixed in DESIGN.md: per-rank bounds constrain shared ranks (frozenset
   items) - "candidates sharing a rank" - a plain rank always holds one candidate. *)
From Coq Require Import ZArith QArith List Bool.
From VL Require Import Model.Validate Proofs.Validate_proofs.
Import ListNotations.
Close Scope Q_scope.

Theorem C20_simple_iff : forall nm v, validate_simple nm v = VOk <-> nominate nm v = true.
Proof. exact simple_iff. Qed.

Theorem C20_approval_iff : forall nm cnt v, validate_approval nm cnt v = VOk <->
  exists l, v = OFrozen l /\ Forall (fun o => nominate nm o = true) l /\ in_bounds cnt (qnat (length l)) = true.
Proof. exact approval_iff. Qed.

Theorem C20_ranked_iff : forall nm tot ranks v, validate_ranked nm tot ranks v = VOk <->
  exists items, v = OTuple items /\ ranks_ok ranks 0 items /\
    in_bounds tot (qnat (length (flatten items))) = true /\
    length (distinct (flatten items)) = length (flatten items) /\
    Forall (fun o => nominate nm o = true) (distinct (flatten items)).
Proof. exact ranked_iff. Qed.

Theorem C20_score_iff : forall nm nsc sums rule v, validate_score nm nsc sums rule v = VOk <->
  exists l, v = OFrozen l /\
    in_bounds nsc (qnat (length l)) = true /\
    Forall (fun o => exists c s, o = OTuple [c; s] /\ nominate nm c = true) l /\
    length (distinct (map scored_cand l)) = length l /\
    (let sb := kb_get sums (Z.of_nat (length l)) in
     active sb = true -> exists s, sum_scores l = Some s /\ in_bounds sb s = true) /\
    Forall (rule_ok rule) l.
Proof. exact score_iff. Qed.

(* rejections of simple and approval ballots are always vote / candidate errors *)
Theorem C20_errors_simple : forall nm v, validate_simple nm v <> VCrash.
Proof. exact simple_no_crash. Qed.
Theorem C20_errors_approval : forall nm cnt v, validate_approval nm cnt v <> VCrash.
Proof. exact approval_no_crash. Qed.

(* the invalid-vote filter keeps exactly the accepted ballots with their counts, and removes
   exactly those rejected with a vote error; it answers whenever no ballot is rejected with a
   candidate error (which it re-raises: known finding C20-eliminator-candidate-error) *)
Theorem C20_filter : forall validate votes kept, eliminate validate votes = EOk kept ->
  kept = filter (fun bn => match validate (fst bn) with VOk => true | _ => false end) votes /\
  Forall (fun bn => validate (fst bn) = VOk \/ validate (fst bn) = VVoteError) votes.
Proof. exact eliminate_spec. Qed.
Theorem C20_filter_total : forall validate votes,
  Forall (fun bn => validate (fst bn) = VOk \/ validate (fst bn) = VVoteError) votes ->
  exists kept, eliminate validate votes = EOk kept.
Proof. exact eliminate_total. Qed.

(* non-vacuity: a ranked ballot with a shared rank under per-rank bounds (1,2) is accepted;
   the same candidate twice is rejected *)
Example C20_example :
  validate_ranked (NBasic true) (None, None) ([], (Some (1#1)%Q, Some (2#1)%Q))
    (OTuple [OCand KStr 1; OFrozen [OCand KStr 2; OCand KStr 3]]) = VOk /\
  validate_ranked (NBasic true) (None, None) ([], (Some (1#1)%Q, Some (2#1)%Q))
    (OTuple [OCand KStr 1; OFrozen [OCand KStr 2; OCand KStr 1]]) = VVoteError.
Proof. split; vm_compute; reflexivity. Qed.

Print Assumptions C20_simple_iff.
Print Assumptions C20_approval_iff.
Print Assumptions C20_ranked_iff.
Print Assumptions C20_score_iff.
Print Assumptions C20_errors_simple.
Print Assumptions C20_errors_approval.
Print Assumptions C20_filter.
Print Assumptions C20_filter_total.
