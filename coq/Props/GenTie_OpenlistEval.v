(* Generated-vs-handwritten tie for the WHOLE of openlist.ThresholdOpenList.evaluate (C16): the jump threshold, the `jumping`
   comprehension ordered by votes, and what follows it - the cut to n seats (by votes, or with list precedence: in-place sort by
   candidate_list.index, slice, in-place sort by votes.get in reverse), the fill-up loop with its break - regenerated from the source
   on every run (Gen/OpenlistEval.v), IS [openlist_eval] of Model/Threshold.v that C16_openlist_count / C16_openlist_structure /
   C16_no_leapfrog (Props/C16.v) are about:

     tie_ol_evaluate       for a votes dictionary (distinct keys) whose candidates are on the list and n_seats >= 0:
                           generated = inl (openlist_eval cfg votes n lst)   - nothing is raised
     gen_ol_value_error    outside that domain: with list precedence and more jumpers than seats, a jumper missing from the
                           candidate list is a ValueError (candidate_list.index)
     gen_C16_openlist_*    the last clause of the property, for all inputs, about the generated function itself

   The generated function is factored through the jump threshold the unit Openlist generates from the same statements
   (gen_ol_factor), so that tie_ol_threshold (GenTie_Openlist.v) is reused; the loop is only used through its pointwise
   behaviour (fill_step_tac_enum, fill_step_tac_plain), the sorts through their characterisations. *)
From Coq Require Import ZArith QArith List Bool Lia Lqa Arith Permutation.
From VL Require Import Prelude.PyDict Prelude.PyNum Prelude.PyList Prelude.PySeq Prelude.PyTie Model.GetNBest Model.QuotaDistributor
     Model.Threshold Proofs.Dict_proofs Proofs.QBool_tac Proofs.GetNBest_proofs Proofs.QOrd Proofs.PySeq_proofs Proofs.Threshold_proofs.
From VL Require Import Proofs.PyTie_proofs Props.GenTie_Openlist.
From VL Require Gen.Openlist Gen.OpenlistEval.
Import ListNotations.
Close Scope Q_scope.

Definition cfg_thr (ae lp : bool) (thr : Q) : ol_cfg :=
  {| ol_jump := None; ol_quota := Some (fun _ _ => thr); ol_take_higher := false; ol_accept_equal := ae; ol_list_precedence := lp |}.

(* the generated function reads its configuration only through the jump threshold *)
Lemma gen_ol_factor : forall j qf th ae lp votes n lst,
  Gen.OpenlistEval.ThresholdOpenList_evaluate j qf th ae lp votes n lst =
  match Gen.Openlist.ThresholdOpenList_threshold j qf th votes n with
  | None => inl (py_slice_to lst n)
  | Some thr => Gen.OpenlistEval.ThresholdOpenList_evaluate None (Some (fun _ _ => thr)) false ae lp votes n lst
  end.
Proof.
  intros j qf th ae lp votes n lst.
  unfold Gen.OpenlistEval.ThresholdOpenList_evaluate, Gen.Openlist.ThresholdOpenList_threshold.
  destruct j as [j|], qf as [qf|], th; reflexivity.
Qed.

(* what follows the threshold, in the model *)
Definition ol_rest (ae lp : bool) (votes : list (C * Q)) (n : nat) (lst : list C) (thr : Q) : list C :=
  openlist_eval (cfg_thr ae lp thr) votes n lst.

Lemma passes_thr_eq ae v thr thr' : (thr == thr')%Q -> passes ae v thr = passes ae v thr'.
Proof. intros H. unfold passes. q_bool. Qed.

Lemma openlist_eval_rest cfg votes n lst :
  openlist_eval cfg votes n lst =
  match ol_threshold cfg (qsumv votes) (Z.of_nat n) with
  | None => firstn n lst
  | Some thr => ol_rest (ol_accept_equal cfg) (ol_list_precedence cfg) votes n lst thr
  end.
Proof. unfold ol_rest, openlist_eval. destruct (ol_threshold cfg (qsumv votes) (Z.of_nat n)); reflexivity. Qed.

Lemma ol_rest_thr_eq ae lp votes n lst thr thr' : (thr == thr')%Q -> ol_rest ae lp votes n lst thr = ol_rest ae lp votes n lst thr'.
Proof.
  intros H. unfold ol_rest, openlist_eval. cbn [ol_threshold cfg_thr ol_jump ol_quota ol_accept_equal ol_list_precedence].
  assert (E : ol_jumping (cfg_thr ae lp thr) votes thr = ol_jumping (cfg_thr ae lp thr') votes thr').
  { unfold ol_jumping. cbn [ol_accept_equal cfg_thr]. apply filter_ext. intros cv. apply passes_thr_eq, H. }
  rewrite E. reflexivity.
Qed.

(* sorting pairs by a key of their first component commutes with projecting *)
Lemma insert_asc_fst {X Y K} (leb : K -> K -> bool) (g : X -> Y) (x : X * K) l :
  map (fun p => (g (fst p), snd p)) (insert_asc leb x l) = insert_asc leb (g (fst x), snd x) (map (fun p => (g (fst p), snd p)) l).
Proof.
  induction l as [|y t IH]; cbn [insert_asc map fst snd]; [reflexivity|].
  destruct (leb (snd x) (snd y)); cbn [map fst snd]; [reflexivity|]. rewrite IH. reflexivity.
Qed.
Lemma sort_asc_fst {X Y K} (leb : K -> K -> bool) (g : X -> Y) (l : list (X * K)) :
  map (fun p => (g (fst p), snd p)) (sort_asc leb l) = sort_asc leb (map (fun p => (g (fst p), snd p)) l).
Proof. induction l as [|x t IH]; cbn [sort_asc map]; [reflexivity|]. rewrite insert_asc_fst, IH. reflexivity. Qed.

Lemma sort_by_list_pairs lst (l : list (C * Q)) :
  sort_by_list lst (map fst l) = map fst (map fst (sort_asc Nat.leb (map (fun cv => (cv, index_of (fst cv) lst)) l))).
Proof.
  unfold sort_by_list. rewrite (map_map fst fst).
  replace (map (fun c => (c, index_of c lst)) (map fst l))
    with (map (fun p : (C * Q) * nat => (fst (fst p), snd p)) (map (fun cv => (cv, index_of (fst cv) lst)) l))
    by (rewrite !map_map; reflexivity).
  rewrite <- sort_asc_fst, map_map. reflexivity.
Qed.

(* x.sort(key=votes.get, reverse=True) on candidates that are keys of votes *)
Lemma In_dget (d : list (C * Q)) c v : NoDup (map fst d) -> In (c, v) d -> dget d c = Some v.
Proof. apply Dict_proofs.In_dget. Qed.

Lemma opt_all_get votes (l : list (C * Q)) : (forall cv, In cv l -> dget votes (fst cv) = Some (snd cv)) ->
  py_opt_all (map (fun x => option_map (fun k => (x, k)) (py_dict_get votes x)) (map fst l)) = Some l.
Proof.
  induction l as [|[c v] t IH]; intros H; cbn [map py_opt_all fst]; [reflexivity|].
  pose proof (H (c, v) (or_introl eq_refl)) as Hc. cbn [fst snd] in Hc. unfold py_dict_get at 1. rewrite Hc. cbn [option_map py_opt_all].
  rewrite IH by (intros cv Hcv; apply H; right; exact Hcv). reflexivity.
Qed.

Lemma py_sort_by_get_spec votes (l : list (C * Q)) : (forall cv, In cv l -> dget votes (fst cv) = Some (snd cv)) ->
  py_sort_nonekey (py_dict_get votes) Qle_bool (map fst l) true = Some (map fst (sort_desc Qle_bool l)).
Proof.
  intros H. unfold py_sort_nonekey, py_sort_optkey. rewrite (opt_all_get votes l H).
  rewrite (py_sorted_desc Qle_bool Qle_bool_total Qle_bool_trans). reflexivity.
Qed.

Definition fill_step (n : nat) (st : bool * list C) (c : C) : bool * list C :=
  if fst st then st
  else if Nat.eqb (length (snd st)) n then (true, snd st)
  else (false, if cmem c (snd st) then snd st else snd st ++ [c]).

Lemma fill_fold n {A} (p : A -> C) : forall (l : list A) b el,
  exists b', fold_left (fun (sr : (bool * list C) + pyexn) it => match sr with inr e => inr e | inl st => inl (fill_step n st (p it)) end)
                       l (inl (b, el)) = inl (b', if b then el else fill n el (map p l)).
Proof.
  induction l as [|x l IH]; intros b el; cbn [fold_left map].
  - exists b. destruct b; reflexivity.
  - unfold fill_step at 2. cbn [fst snd]. destruct b; [exact (IH true el)|].
    cbn [fill]. destruct (Nat.eqb (length el) n); [exact (IH true el)|].
    destruct (cmem (p x) el); apply (IH false).
Qed.

Lemma map_snd_enumerate {A} (l : list A) : map snd (py_enumerate l) = l.
Proof.
  unfold py_enumerate, py_range, py_len. rewrite Nat2Z.id.
  assert (H : forall k, map snd (combine (map Z.of_nat (seq k (length l))) l) = l).
  { induction l as [|x t IH]; intros k; cbn [length seq map combine snd]; [reflexivity|]. rewrite IH. reflexivity. }
  apply H.
Qed.

Lemma py_len_eqb_nat {A} (l : list A) n : (py_len l =? Z.of_nat n)%Z = Nat.eqb (length l) n.
Proof.
  unfold py_len. destruct (Nat.eqb (length l) n) eqn:E.
  - apply Nat.eqb_eq in E. apply Z.eqb_eq. lia.
  - apply Nat.eqb_neq in E. apply Z.eqb_neq. lia.
Qed.

(* one iteration of the generated loop, pointwise, whatever its body looks like (the items are the list members, with or
   without their position) *)
Ltac fill_cases n b el c :=
  unfold fill_step; cbn [fst snd];
  rewrite ?py_len_eqb_nat, ?(Z.eqb_sym (Z.of_nat n)), ?py_len_eqb_nat;
  destruct b; [reflexivity|]; destruct (Nat.eqb (length el) n); [reflexivity|]; destruct (cmem c el); reflexivity.
Ltac fill_step_tac_enum n :=
  let b := fresh "b" in let el := fresh "el" in let e := fresh "e" in let i := fresh "i" in let c := fresh "c" in
  intros [[b el]|e] [i c]; [|reflexivity]; fill_cases n b el c.
Ltac fill_step_tac_plain n :=
  let b := fresh "b" in let el := fresh "el" in let e := fresh "e" in let c := fresh "c" in
  intros [[b el]|e] c; [|reflexivity]; fill_cases n b el c.

(* the whole function after the threshold *)
Lemma jumping_in_votes cfg votes thr cv : In cv (ol_jumping cfg votes thr) -> In cv votes.
Proof. unfold ol_jumping. intros H. apply filter_In in H. destruct H as [H _]. eapply Permutation_in; [apply (sort_desc_perm Qle_bool)|exact H]. Qed.

Lemma gen_ol_rest : forall ae lp votes n lst thr,
  NoDup (map fst votes) -> incl (map fst votes) lst ->
  Gen.OpenlistEval.ThresholdOpenList_evaluate None (Some (fun _ _ => thr)) false ae lp votes (Z.of_nat n) lst =
  inl (ol_rest ae lp votes n lst thr).
Proof.
  intros ae lp votes n lst thr ND INC.
  unfold Gen.OpenlistEval.ThresholdOpenList_evaluate. cbv zeta.
  cbn [app py_len length Z.of_nat Pos.of_succ_nat Z.ltb Z.compare negb py_min_list py_max_list fold_left].
  match goal with |- context [map ?f (filter ?p (sort_desc Qle_bool votes))] =>
    change (map f (filter p (sort_desc Qle_bool votes))) with (Gen.Openlist.ThresholdOpenList_jumping ae thr votes) end.
  pose proof (tie_ol_jumping (cfg_thr ae lp thr) votes thr) as EJ. cbn [ol_accept_equal cfg_thr] in EJ. rewrite EJ. clear EJ.
  unfold ol_rest, openlist_eval. cbn [ol_threshold cfg_thr ol_jump ol_quota ol_list_precedence].
  set (Jm := ol_jumping (cfg_thr ae lp thr) votes thr).
  assert (HJ : forall cv, In cv Jm -> In cv votes) by (intros cv; apply jumping_in_votes).
  rewrite (py_len_lt_nat (map fst Jm) (Z.of_nat n)) by lia. rewrite Nat2Z.id, map_length.
  destruct (Nat.ltb n (length Jm)) eqn:L.
  - destruct lp.
    + rewrite py_sort_by_index_spec.
      assert (Hin : forallb (fun c => cmem c lst) (map fst Jm) = true).
      { apply forallb_forall. intros c Hc. apply cmem_In, INC. apply in_map_iff in Hc. destruct Hc as (cv & <- & Hcv).
        apply in_map, HJ, Hcv. }
      rewrite Hin. rewrite py_slice_to_nat, sort_by_list_pairs, !firstn_map.
      set (kept := map fst (firstn n (sort_asc Nat.leb (map (fun cv => (cv, index_of (fst cv) lst)) Jm)))).
      rewrite (py_sort_by_get_spec votes kept); [reflexivity|].
      intros [c v] Hk. cbn [fst snd]. apply In_dget; [exact ND|]. apply HJ.
      unfold kept in Hk. apply in_map_iff in Hk. destruct Hk as ([cv i] & E & Hk). cbn [fst] in E. subst cv.
      apply firstn_incl in Hk. eapply Permutation_in in Hk; [|apply sort_asc_nat_perm].
      apply in_map_iff in Hk. destruct Hk as (cv & E & Hk). inversion E; subst. exact Hk.
    + rewrite py_slice_to_nat, firstn_map. reflexivity.
  - first
      [ match goal with |- context [fold_left ?f (py_enumerate lst) ?i] =>
          rewrite (fold_exn_ext f (fun sr it => match sr with inr e => inr e | inl st => inl (fill_step n st (snd it)) end)
                                (py_enumerate lst) i ltac:(fill_step_tac_enum n)) end;
        destruct (fill_fold n (@snd Z C) (py_enumerate lst) false (map fst Jm)) as (b' & E); rewrite E; cbn [snd];
        rewrite map_snd_enumerate; reflexivity
      | match goal with |- context [fold_left ?f lst ?i] =>
          rewrite (fold_exn_ext f (fun sr it => match sr with inr e => inr e | inl st => inl (fill_step n st ((fun c : C => c) it)) end)
                                lst i ltac:(fill_step_tac_plain n)) end;
        destruct (fill_fold n (fun c : C => c) lst false (map fst Jm)) as (b' & E); rewrite E; cbn [snd];
        rewrite map_id; reflexivity ].
Qed.

Theorem tie_ol_evaluate : forall cfg votes n lst,
  NoDup (map fst votes) -> incl (map fst votes) lst ->
  Gen.OpenlistEval.ThresholdOpenList_evaluate (ol_jump cfg) (ol_quota cfg) (ol_take_higher cfg) (ol_accept_equal cfg)
      (ol_list_precedence cfg) votes (Z.of_nat n) lst
  = inl (openlist_eval cfg votes n lst).
Proof.
  intros cfg votes n lst ND INC. rewrite gen_ol_factor, openlist_eval_rest.
  pose proof (tie_ol_threshold cfg votes (Z.of_nat n)) as T. unfold oq_eq in T.
  destruct (Gen.Openlist.ThresholdOpenList_threshold (ol_jump cfg) (ol_quota cfg) (ol_take_higher cfg) votes (Z.of_nat n)) as [thr|],
           (ol_threshold cfg (qsumv votes) (Z.of_nat n)) as [thr'|]; try contradiction.
  - rewrite (gen_ol_rest _ _ _ _ _ _ ND INC). f_equal. apply ol_rest_thr_eq, T.
  - rewrite py_slice_to_nat. reflexivity.
Qed.
Print Assumptions tie_ol_evaluate.

(* outside the domain: list precedence, more jumpers than seats, a jumper that is not on the candidate list *)
Theorem gen_ol_value_error : forall ae votes n lst thr,
  (n < length (ol_jumping (cfg_thr ae true thr) votes thr))%nat ->
  forallb (fun c => cmem c lst) (map fst (ol_jumping (cfg_thr ae true thr) votes thr)) = false ->
  Gen.OpenlistEval.ThresholdOpenList_evaluate None (Some (fun _ _ => thr)) false ae true votes (Z.of_nat n) lst = inr PyValueError.
Proof.
  intros ae votes n lst thr L Hout.
  unfold Gen.OpenlistEval.ThresholdOpenList_evaluate. cbv zeta.
  cbn [app py_len length Z.of_nat Pos.of_succ_nat Z.ltb Z.compare negb py_min_list py_max_list fold_left].
  match goal with |- context [map ?f (filter ?p (sort_desc Qle_bool votes))] =>
    change (map f (filter p (sort_desc Qle_bool votes))) with (Gen.Openlist.ThresholdOpenList_jumping ae thr votes) end.
  pose proof (tie_ol_jumping (cfg_thr ae true thr) votes thr) as EJ. cbn [ol_accept_equal cfg_thr] in EJ. rewrite EJ. clear EJ.
  rewrite (py_len_lt_nat _ (Z.of_nat n)) by lia. rewrite Nat2Z.id, map_length.
  apply Nat.ltb_lt in L. rewrite L, py_sort_by_index_spec, Hout. reflexivity.
Qed.
Print Assumptions gen_ol_value_error.

(* the last clause of C16, for all inputs, about the generated function *)
Section Clauses.
  Variables (cfg : ol_cfg) (votes : list (C * Q)) (n : nat) (lst : list C).
  Hypothesis ND : NoDup (map fst votes).
  Hypothesis INC : incl (map fst votes) lst.
  Let gen := Gen.OpenlistEval.ThresholdOpenList_evaluate (ol_jump cfg) (ol_quota cfg) (ol_take_higher cfg) (ol_accept_equal cfg)
               (ol_list_precedence cfg) votes (Z.of_nat n) lst.

  (* exactly the requested number of distinct list members *)
  Theorem gen_C16_openlist_count : NoDup lst -> (1 <= n <= length lst)%nat ->
    exists r, gen = inl r /\ length r = n /\ NoDup r /\ incl r lst.
  Proof.
    intros NL Hn. exists (openlist_eval cfg votes n lst). split; [apply tie_ol_evaluate; assumption|].
    exact (openlist_count cfg votes n lst NL ND INC Hn).
  Qed.

  (* the candidates over the jump threshold first, ordered by votes, then the remaining list members in list order *)
  Theorem gen_C16_openlist_structure : forall thr, NoDup lst ->
    ol_threshold cfg (qsumv votes) (Z.of_nat n) = Some thr -> (length (ol_jumping cfg votes thr) <= n)%nat ->
    let jumping := ol_jumping cfg votes thr in
    gen = inl (map fst jumping ++ firstn (n - length jumping) (filter (fun c => negb (cmem c (map fst jumping))) lst))
    /\ (forall c, In c (map fst jumping) <->
          exists v, In (c, v) votes /\ ((thr < v)%Q \/ (ol_accept_equal cfg = true /\ (v == thr)%Q)))
    /\ @sorted_desc C Q Qle_bool jumping.
  Proof.
    intros thr NL HT HL. destruct (openlist_structure cfg votes n lst thr NL HT HL) as (E & rest).
    split; [|exact rest]. unfold gen. rewrite tie_ol_evaluate by assumption. f_equal. exact E.
  Qed.

  (* nobody is passed over by a lower-listed colleague who did not reach the threshold: of two list members below the
     threshold, the lower-listed one is seated only if the higher-listed one is *)
  Theorem gen_C16_openlist_no_leapfrog : forall thr pre a mid b post r,
    lst = pre ++ a :: mid ++ b :: post -> NoDup lst ->
    ol_threshold cfg (qsumv votes) (Z.of_nat n) = Some thr -> (length (ol_jumping cfg votes thr) <= n)%nat ->
    ~ In a (map fst (ol_jumping cfg votes thr)) -> ~ In b (map fst (ol_jumping cfg votes thr)) ->
    gen = inl r -> In b r -> In a r.
  Proof.
    intros thr pre a mid b post r EL NL HT HL Ha Hb Hg Hbr.
    unfold gen in Hg. rewrite tie_ol_evaluate in Hg by assumption. inversion Hg as [Er]. clear Hg.
    rewrite <- Er in *. clear Er.
    unfold openlist_eval in *. rewrite HT in *.
    assert (L : Nat.ltb n (length (ol_jumping cfg votes thr)) = false) by (apply Nat.ltb_ge; exact HL).
    rewrite L in *. subst lst.
    apply (fill_no_leapfrog n (map fst (ol_jumping cfg votes thr)) pre a mid b post NL); try assumption.
    rewrite map_length. exact HL.
  Qed.
End Clauses.
Print Assumptions gen_C16_openlist_count.
Print Assumptions gen_C16_openlist_structure.
Print Assumptions gen_C16_openlist_no_leapfrog.

Theorem GenTie_OpenlistEval :
  forall cfg votes n lst, NoDup (map fst votes) -> incl (map fst votes) lst ->
  Gen.OpenlistEval.ThresholdOpenList_evaluate (ol_jump cfg) (ol_quota cfg) (ol_take_higher cfg) (ol_accept_equal cfg)
      (ol_list_precedence cfg) votes (Z.of_nat n) lst
  = inl (openlist_eval cfg votes n lst).
Proof. exact tie_ol_evaluate. Qed.

(* non-vacuity on CPython values: 100 votes, 10 % jump fraction, accept_equal; list 1 2 3 4.  Two jumpers for two seats (by votes);
   three jumpers for two seats: by votes, and with list precedence (the two highest on the list, by votes); fill-up from the list *)
Example gen_openlist_examples :
  let v := [(1, (10 # 1)%Q); (2, (30 # 1)%Q); (3, (9 # 1)%Q); (4, (51 # 1)%Q)]%positive in
  Gen.OpenlistEval.ThresholdOpenList_evaluate (Some (1 # 10)%Q) None false true true v 2 [1; 2; 3; 4]%positive = inl [2; 1]%positive /\
  Gen.OpenlistEval.ThresholdOpenList_evaluate (Some (1 # 10)%Q) None false true false v 2 [1; 2; 3; 4]%positive = inl [4; 2]%positive /\
  Gen.OpenlistEval.ThresholdOpenList_evaluate (Some (1 # 10)%Q) None false false false v 4 [1; 2; 3; 4]%positive = inl [4; 2; 1; 3]%positive /\
  Gen.OpenlistEval.ThresholdOpenList_evaluate (Some (1 # 10)%Q) None false true true v 2 [1; 2; 3]%positive = inr PyValueError /\
  Gen.OpenlistEval.ThresholdOpenList_evaluate None None false true true v 3 [3; 1; 2; 4]%positive = inl [3; 1; 2]%positive.
Proof. repeat split. Qed.

Print Assumptions GenTie_OpenlistEval.
