(* C03 - Transferable-vote counts conserve votes and eliminate only the lowest.
   This file holds the property theorems, the definitions their statements need and examples of non-vacuity.
   Models: Model/STV.v (Gregory transfers), Model/STVHare.v (Hare transfers); proofs: Proofs/STV_proofs.v,
   Proofs/STV_elim_proofs.v, Proofs/STV_resting_proofs.v, Proofs/STVHare_proofs.v, Proofs/STVHare_draws_proofs.v,
   Proofs/STVHare_count_proofs.v.

   [reach] is the set of states (allocation, seats so far, seats filled by quota so far)
   the count loop of nth_count passes through - for ANY profile (truncated ballots, shared
   ranks, empty ballots), any seat count, caps (selector form = all caps 1, distributor
   form = any caps), quota function with positive values, accept_quota_equal,
   mandatory_quota, eliminate_step.  asum = all weight held (continuing + exhausted). *)
From Coq Require Import ZArith QArith Qround List.
From VL Require Import Prelude.PyDict Model.GetNBest Model.Convert Model.STV Proofs.STV_proofs Proofs.STV_elim_proofs
     Proofs.STV_resting_proofs.
From VL Require Import Model.STVHare Proofs.STVHare_draws_proofs Proofs.STVHare_proofs Proofs.STVHare_count_proofs.
Import ListNotations.
Open Scope Q_scope.

(* conservation at EVERY count: votes held + one quota per seat filled by quota = votes cast (exactly) *)
Theorem C03_conservation_every_count :
  forall cf votes n_seats caps prev0,
  (forall c, (0 <= dget_or prev0 c 0)%Z) ->
  let total := Qred (fold_left Qplus (map snd votes) 0) in
  (forall qv, quota_of cf total n_seats = Some qv -> 0 < qv) ->
  forall a seats qs, reach cf votes n_seats caps prev0 a seats qs ->
    NoDup (akeys a) /\ (forall c, (0 <= dget_or seats c 0)%Z) /\
    match quota_of cf total n_seats with
    | Some qv => asum a + inject_Z qs * qv == cast votes
    | None => asum a == cast votes /\ qs = 0%Z
    end.
Proof. intros cf votes n_seats caps prev0 H0 total Hq. exact (reach_conservation cf votes n_seats caps prev0 H0 Hq). Qed.

(* the two moves of a count, separately *)
Theorem C03_transfer_conserves : forall a elim, NoDup (akeys a) ->
  asum (transfer a elim) == asum a /\ NoDup (akeys (transfer a elim)).
Proof. exact transfer_conserves. Qed.

Theorem C03_initial_allocation : forall votes,
  NoDup (akeys (initial_allocation votes)) /\ asum (initial_allocation votes) == cast votes.
Proof. exact initial_allocation_conserves. Qed.

(* non-negativity: no ballot weight ever becomes negative *)
Theorem C03_nonneg_transfer : forall a elim, alloc_nonneg a -> alloc_nonneg (transfer a elim).
Proof. exact transfer_nonneg. Qed.
Theorem C03_nonneg_subtract : forall elected a a', alloc_nonneg a ->
  (forall c amt, In (c, amt) elected -> 0 <= amt) -> subtract a elected = Some a' -> alloc_nonneg a'.
Proof. exact subtract_nonneg. Qed.

(* election rule: whoever is elected in a count by quota holds at least one quota per seat
   received, and receives at least one seat; distinct candidates *)
Theorem C03_election_rule : forall cf q, 0 < q -> forall a n_rem prev caps el,
  NoDup (akeys a) -> (forall c, (0 <= dget_or prev c 0)%Z) ->
  elect_by_quota cf (totals a) (Some q) n_rem prev caps = inl (Some el) ->
  NoDup (map fst el) /\
  forall c s, In (c, s) el -> (0 < s)%Z /\ exists p, alloc_get a (Some c) = Some p /\ inject_Z s * q <= wsum p.
Proof. exact elect_by_quota_sound. Qed.

(* elimination rule.  When the shortcut does not apply and nobody reaches the quota, next_count refuses with
   NotImplementedError on a tie at the cut and otherwise transfers away exactly the candidates [eliminated cf a]:
   - their number is the number of continuing candidates minus the retained count (for eliminate_step = -s:
     min(s, continuing - 1));
   - nobody eliminated holds strictly more than somebody retained;
   - only continuing candidates are ranked: the exhausted pile (key None) is not among the contenders, whatever it holds. *)
Theorem C03_elimination_step : forall cf a n total prev caps quota,
  next_count cf a n total prev caps <> CR_all (flat_map (fun kt : option C * Q => match fst kt with
                                         | Some c => [(c, (dget_or caps c 0 - dget_or prev c 0)%Z)]
                                         | None => [] end) (sort_desc Qle_bool (totals a))) ->
  quota = match c_quota cf with
          | Some qf => if Qeq_bool total 0 || (n =? 0)%Z then None else Some (qf total n)
          | None => None end ->
  elect_by_quota cf (totals a) quota (n - zsum (map snd prev))%Z prev caps = inl None ->
  next_count cf a n total prev caps =
    if has_tie_r (retained cf a) then CR_stop S_nie
    else CR_next (match eliminated cf a with [] => a | _ => transfer a (eliminated cf a) end) [].
Proof. exact next_count_noquota. Qed.

Theorem C03_elimination_count : forall cf a, NoDup (map fst (in_play a)) -> has_tie_r (retained cf a) = false ->
  (1 <= retained_count cf (length (in_play a)) <= length (in_play a))%nat ->
  length (eliminated cf a) = (length (in_play a) - retained_count cf (length (in_play a)))%nat.
Proof. exact eliminated_count. Qed.

Theorem C03_elimination_configured : forall cf m, (c_step cf < 0)%Z -> (1 <= m)%nat ->
  (1 <= retained_count cf m <= m)%nat /\ (m - retained_count cf m = Nat.min (Z.to_nat (- c_step cf)) (m - 1))%nat.
Proof. exact retained_count_neg. Qed.

Theorem C03_elimination_lowest : forall cf a, NoDup (map fst (in_play a)) ->
  (1 <= retained_count cf (length (in_play a)) <= length (in_play a))%nat ->
  forall e ve c vc, In e (eliminated cf a) -> In (e, ve) (in_play a) ->
    In (Cand c) (retained cf a) -> In (c, vc) (in_play a) -> ve <= vc.
Proof. intros cf a Hnd Hk. exact (eliminated_lowest cf a Hnd Hk). Qed.

Theorem C03_pile_not_a_contender : forall a c v, In (c, v) (in_play a) -> exists p, In (Some c, p) a.
Proof. exact in_play_no_pile. Qed.

(* a transferred ballot goes only to candidates still in the count *)
Theorem C03_targets_continuing : forall vote cand allowed, incl (ranked_next vote cand allowed) allowed.
Proof. exact ranked_next_allowed. Qed.

(* The resting place of every ballot, at every count.
   [resting_ok a]: for every pile (k, p) of the allocation and every ballot b in it without shared ranks
   ([plainb b = true], whatever its weight): if k = Some c then c is the highest-ranked candidate of b that is a key of
   the allocation ([highest_continuing (keys_some a) b c]: b = pre ++ IP c :: post, no candidate of pre is a key);
   if k = None (exhausted pile) then no candidate of b is a key ([none_continuing]).  Keys = the candidates still in the
   count; an elected candidate that may still gain seats keeps its pile and stays a key.  No hypothesis on the
   ballots (repeated candidates allowed), the weights, the caps or the configuration. *)
Theorem C03_resting_initial : forall votes, resting_ok (initial_allocation votes).
Proof. exact initial_resting. Qed.

Theorem C03_resting_transfer : forall a elim, resting_ok a -> resting_ok (transfer a elim).
Proof. exact transfer_resting. Qed.

(* the keys only shrink in a transfer: what is left are keys of before outside the removed candidates *)
Theorem C03_transfer_keys_shrink : forall a elim,
  incl (keys_some (transfer a elim)) (filter (fun c => negb (cmem c elim)) (keys_some a)).
Proof. exact transfer_keys_shrink. Qed.

(* Gregory reweighting (surplus subtraction) keeps every ballot where it is *)
Theorem C03_resting_subtract : forall elected a a', resting_ok a -> subtract a elected = Some a' -> resting_ok a'.
Proof. exact subtract_resting. Qed.

Theorem C03_resting_next_count : forall cf a n_seats total prev caps a' el,
  resting_ok a -> next_count cf a n_seats total prev caps = CR_next a' el -> resting_ok a'.
Proof. exact next_count_resting. Qed.

(* at EVERY count of every run (the states of [reach], as for conservation), spelled out *)
Theorem C03_resting_every_count :
  forall cf votes n_seats caps prev0 a seats qs, reach cf votes n_seats caps prev0 a seats qs ->
  forall k p b w, In (k, p) a -> In (b, w) p -> plainb b = true ->
    match k with
    | Some c => exists pre post, b = pre ++ IP c :: post /\ In c (keys_some a) /\
                                 forall x, In (IP x) pre -> ~ In x (keys_some a)
    | None => forall x, In (IP x) b -> ~ In x (keys_some a)
    end.
Proof.
  intros cf votes n_seats caps prev0 a seats qs Hr k p b w Hk Hb Hp.
  pose proof (reach_resting cf votes n_seats caps prev0 a seats qs Hr k p b w Hk Hb Hp) as H.
  destruct k as [c|]; exact H.
Qed.

(* every count recorded in the trace of [stv] is the totals of a reachable allocation satisfying the invariant
   (or the elect-all-remaining shortcut, which records no allocation: []) *)
Theorem C03_resting_every_recorded_count : forall cf votes n_seats prev caps e,
  In e (t_counts (stv cf votes n_seats prev caps)) ->
  (exists a seats qs, reach cf votes n_seats caps prev a seats qs /\ resting_ok a /\ fst e = totals a) \/ fst e = [].
Proof. intros cf votes n_seats prev caps e. exact (stv_recorded cf votes n_seats caps prev e). Qed.

(* the invariant is decidable: the checker evaluated on the explored allocations decides exactly [resting_ok]
   ([next_after b K] = the first rank of b with a candidate in K) *)
Theorem C03_resting_checker : forall a, resting_okb a = true <-> resting_ok a.
Proof. exact resting_okb_spec. Qed.

(* the shared-first-rank sub-clause.  One ballot leaving for the targets T: every target receives w / |T| (cnt T c = number
   of occurrences of c in T, 1 for the distinct members of a frozenset). *)
Theorem C03_move_ballot_equal_split : forall f a T b w c, respects f ->
  aweight f (move_ballot a T b w) (Some c)
  == aweight f a (Some c) + cnt T c * (if f b then w / inject_Z (Z.of_nat (length T)) else 0).
Proof. exact move_ballot_aweight. Qed.

(* In the initial allocation the weight held for candidate c of ANY ballot b0 (a pile is a dict
   keyed by the ballot, so equal ballots are one entry) is the sum over the cast ballots equal to b0 of: w if c is the plain first
   rank; w / |l| per occurrence of c in a shared first rank l; nothing otherwise.  Hypothesis: a shared first rank is
   not the empty set (an empty first rank is skipped to the next rank by model and implementation alike). *)
Theorem C03_shared_first_rank_split : forall votes b0 c, shared_first_nonempty votes = true ->
  aweight (ballot_eqb b0) (initial_allocation votes) (Some c)
  == fold_right (fun bw acc => (if ballot_eqb b0 (fst bw) then first_share (fst bw) (snd bw) c else 0) + acc) 0 votes.
Proof. intros votes b0 c. exact (initial_allocation_shares votes (ballot_eqb b0) c (respects_ballot b0)). Qed.

(* the same for the whole pile of c *)
Theorem C03_initial_pile_weight : forall votes c, shared_first_nonempty votes = true ->
  aweight (fun _ => true) (initial_allocation votes) (Some c)
  == fold_right (fun bw acc => first_share (fst bw) (snd bw) c + acc) 0 votes.
Proof. intros votes c. exact (initial_allocation_shares votes (fun _ => true) c respects_all). Qed.

Theorem C03_first_share_shared : forall l t w c, NoDup l ->
  first_share (IS l :: t) w c == if cmem c l then w / inject_Z (Z.of_nat (length l)) else 0.
Proof.
  intros l t w c Hn. unfold first_share. rewrite (cnt_nodup l c Hn). destruct (cmem c l); ring.
Qed.

(* non-vacuity of the hypothesis and of the split: {1,2} > 3 with weight 5 gives 5/2 to 1 and to 2 *)
Example C03_shared_first_example :
  let votes := [([IS [1%positive; 2%positive]; IP 3%positive], 5); ([IP 3%positive; IP 1%positive], 2)] in
  shared_first_nonempty votes = true /\
  initial_allocation votes =
    [(Some 1%positive, [([IS [1%positive; 2%positive]; IP 3%positive], 5 # 2)]);
     (Some 2%positive, [([IS [1%positive; 2%positive]; IP 3%positive], 5 # 2)]);
     (Some 3%positive, [([IP 3%positive; IP 1%positive], 2)])].
Proof. exact shared_first_example. Qed.

(* non-vacuity: a three-candidate count with an exhausted ballot *)
Example C03_example :
  t_seats (stv (Build_cfg (Some Model.Quota.droop) true false (-1))
    [([IP 1%positive; IP 2%positive], 5); ([IP 2%positive; IP 1%positive], 3); ([IP 3%positive], 2)] 1 []
    [(1%positive, 1%Z); (2%positive, 1%Z); (3%positive, 1%Z)]) = [(1%positive, 1%Z)].
Proof. vm_compute. reflexivity. Qed.

(* The Hare (random, whole-ballot) transferer.
   Model: Model/STVHare.v.  The random draws of Hare._subtract / Hare._distribute_equal_ranking are an ORACLE argument
   [orc : oracle] (one list of integers per call of random.sample, consumed in call order); the theorems quantify over
   EVERY oracle - nothing is assumed about the generator or the seed.  An entry that random.sample(range(N), k) cannot
   return, or a missing entry, stops the count with HS_oracle.
   [reach_h cf votes n caps prev0 orc a seats qs o]: the states (allocation, seats, seats filled by quota, rest of the
   oracle) the count loop passes through when the transferer is Hare. *)

(* conservation at EVERY count, for every oracle: votes held + one quota per seat filled by quota = votes cast (exactly) *)
Theorem C03_hare_conservation_every_count :
  forall cf votes n_seats caps prev0 (orc : oracle),
  (forall c, (0 <= dget_or prev0 c 0)%Z) ->
  let total := Qred (fold_left Qplus (map snd votes) 0) in
  (forall qv, quota_of cf total n_seats = Some qv -> 0 < qv) ->
  forall a seats qs o, reach_h cf votes n_seats caps prev0 orc a seats qs o ->
    NoDup (akeys a) /\ (forall c, (0 <= dget_or seats c 0)%Z) /\
    match quota_of cf total n_seats with
    | Some qv => asum a + inject_Z qs * qv == cast votes
    | None => asum a == cast votes /\ qs = 0%Z
    end.
Proof. intros cf votes n_seats caps prev0 orc H0 total Hq. exact (reach_h_conservation cf votes n_seats caps prev0 orc H0 Hq). Qed.

(* non-negativity and whole ballots: from whole non-negative vote counts every weight of every reachable allocation is a
   non-negative WHOLE number - Hare never produces a fraction of a ballot, whatever is drawn *)
Theorem C03_hare_whole_weights_every_count :
  forall cf votes n_seats caps prev0 (orc : oracle), votes_whole votes ->
  forall a seats qs o, reach_h cf votes n_seats caps prev0 orc a seats qs o ->
  forall k p b w, In (k, p) a -> In (b, w) p -> 0 <= w /\ w == inject_Z (Qfloor w).
Proof.
  intros cf votes n_seats caps prev0 orc Hv a seats qs o Hr k p b w Hk Hb.
  pose proof (reach_h_whole cf votes n_seats caps prev0 orc a seats qs o Hv Hr) as Hw.
  unfold alloc_whole in Hw. rewrite Forall_forall in Hw. specialize (Hw (k, p) Hk). unfold pile_whole in Hw.
  rewrite Forall_forall in Hw. specialize (Hw (b, w) Hb). cbn [snd] in Hw.
  split; [apply whole_nonneg_ge0, Hw|]. apply whole_nonneg_spec in Hw. tauto.
Qed.

(* resting place at EVERY count, for every oracle: a ballot without shared ranks rests with its highest-ranked continuing
   candidate, or in the exhausted pile only when none continues - the drawn ballots leave, nothing else moves *)
Theorem C03_hare_resting_every_count :
  forall cf votes n_seats caps prev0 (orc : oracle) a seats qs o, reach_h cf votes n_seats caps prev0 orc a seats qs o ->
  forall k p b w, In (k, p) a -> In (b, w) p -> plainb b = true ->
    match k with
    | Some c => exists pre post, b = pre ++ IP c :: post /\ In c (keys_some a) /\
                                 forall x, In (IP x) pre -> ~ In x (keys_some a)
    | None => forall x, In (IP x) b -> ~ In x (keys_some a)
    end.
Proof.
  intros cf votes n_seats caps prev0 orc a seats qs o Hr k p b w Hk Hb Hp.
  pose proof (reach_h_resting cf votes n_seats caps prev0 orc a seats qs o Hr k p b w Hk Hb Hp) as H.
  destruct k as [c|]; exact H.
Qed.

(* the initial allocation (a shared first rank is split by the transferer: whole shares, the remainder drawn) *)
Theorem C03_hare_initial_allocation : forall votes (orc : oracle) a o, initial_allocation_h votes orc = HOk a o ->
  NoDup (akeys a) /\ asum a == cast votes /\ (votes_whole votes -> alloc_whole a) /\ resting_ok a.
Proof. exact initial_allocation_h_spec. Qed.

(* Hare._subtract, which individual ballots leave the pile of an elected candidate: the oracle entry is a sample of
   exactly n distinct numbers below the (whole) weight of the pile; the pile loses exactly n; what is left are ballots
   of before, in whole non-negative weights *)
Theorem C03_hare_subtract_draw : forall p n (orc : oracle) p' o', hare_subtract p n orc = HOk p' o' ->
  pile_whole p /\ pile_whole p' /\ wsum p' == wsum p - n /\ 0 <= n /\ n <= wsum p /\
  (exists ds, orc = ds :: o' /\ draws_ok ds (Qfloor n) (pile_total p) = true /\ p' = hare_sub_pile p 0 ds) /\
  (forall b w, In (b, w) p' -> exists w0, In (b, w0) p).
Proof. exact hare_subtract_spec. Qed.

(* a ballot can be drawn at most as often as it weighs: at most hi - lo distinct draws fall into [lo, hi) *)
Theorem C03_hare_draws_bounded : forall ds lo hi, nodupb ds = true -> (lo <= hi)%Z -> (cnt_in ds lo hi <= hi - lo)%Z.
Proof. exact cnt_in_le. Qed.

(* Hare._distribute_equal_ranking: the shares of a ballot over a shared rank go to its targets only, add up to the
   weight of the ballot exactly, and are whole non-negative numbers *)
Theorem C03_hare_shared_rank_split : forall T w (orc : oracle) shares o', hare_split T w orc = HOk shares o' ->
  ssum shares == w /\ (forall t s, In (t, s) shares -> In t T) /\
  (whole_nonneg w = true -> forall t s, In (t, s) shares -> whole_nonneg s = true).
Proof. exact hare_split_spec. Qed.

(* the two moves of a count *)
Theorem C03_hare_transfer : forall a elim (orc : oracle) a' o', NoDup (akeys a) -> resting_ok a ->
  transfer_h a elim orc = HOk a' o' ->
  asum a' == asum a /\ NoDup (akeys a') /\ resting_ok a' /\ (alloc_whole a -> alloc_whole a') /\
  incl (keys_some a') (filter (fun c => negb (cmem c elim)) (keys_some a)).
Proof.
  intros a elim orc a' o' Hn Hr Ht. destruct (transfer_h_conserves a elim orc a' o' Hn Ht) as [H1 H2].
  split; [exact H1|]. split; [exact H2|]. split; [exact (transfer_h_resting _ _ _ _ _ Hr Ht)|].
  split; [intros Hw; exact (transfer_h_whole _ _ _ _ _ Hw Ht)|exact (transfer_h_keys_shrink _ _ _ _ _ Hr Ht)].
Qed.

Theorem C03_hare_subtract : forall elected a (orc : oracle) a' o', NoDup (akeys a) -> NoDup (map fst elected) ->
  subtract_h a elected orc = HOk a' o' ->
  asum a' == asum a - fold_right (fun ca acc => snd ca + acc) 0 elected /\ akeys a' = akeys a /\
  (resting_ok a -> resting_ok a') /\ (alloc_whole a -> alloc_whole a').
Proof.
  intros elected a orc a' o' Hn Hd Hs. destruct (subtract_h_conserves elected a orc a' o' Hn Hd Hs) as [H1 H2].
  split; [exact H1|]. split; [exact H2|]. split; [intros Hr; exact (subtract_h_resting _ _ _ _ _ Hr Hs)|].
  intros Hw. exact (subtract_h_whole _ _ _ _ _ Hw Hs).
Qed.

(* election rule: whoever is elected in a count holds (before the draw) at least one quota per seat received and
   receives at least one seat; distinct candidates; without a quota nobody is elected in a count *)
Theorem C03_hare_election_rule : forall cf a n_seats total prev caps (orc : oracle) a' el o',
  NoDup (akeys a) -> (forall c, (0 <= dget_or prev c 0)%Z) ->
  (forall qv, quota_of cf total n_seats = Some qv -> 0 < qv) ->
  next_count_h cf a n_seats total prev caps orc = HC_next a' el o' ->
  NoDup (map fst el) /\
  forall c s, In (c, s) el -> (0 < s)%Z /\
    exists qv p, quota_of cf total n_seats = Some qv /\ alloc_get a (Some c) = Some p /\ inject_Z s * qv <= wsum p.
Proof. exact next_count_h_election. Qed.

(* ... or by being among the last standing: the elect-all-remaining shortcut does not look at the transferer; it fires
   exactly when Gregory's does and fills exactly the open seats *)
Theorem C03_hare_last_standing : forall cf a n total seats caps (orc : oracle) el,
  next_count_h cf a n total seats caps orc = HC_all el ->
  next_count cf a n total seats caps = CR_all el /\ seats_sum el = (n - zsum (map snd seats))%Z.
Proof.
  intros cf a n total seats caps orc el H. pose proof (next_count_h_all_eq _ _ _ _ _ _ _ _ H) as H1.
  split; [exact H1|exact (next_count_all _ _ _ _ _ _ _ H1)].
Qed.

(* elimination rule: when the shortcut does not apply and nobody reaches the quota, the count refuses a tie at the cut
   and otherwise transfers away exactly [eliminated cf a] - the same candidates as under Gregory: their number
   (C03_elimination_count / _configured), their being the lowest (C03_elimination_lowest) and the exhausted pile not
   being a contender (C03_pile_not_a_contender) are theorems about any allocation *)
Theorem C03_hare_elimination_step : forall cf a n total prev caps (orc : oracle) quota,
  next_count_h cf a n total prev caps orc <> HC_all (flat_map (fun kt : option C * Q => match fst kt with
                                         | Some c => [(c, (dget_or caps c 0 - dget_or prev c 0)%Z)]
                                         | None => [] end) (sort_desc Qle_bool (totals a))) ->
  quota = match c_quota cf with
          | Some qf => if Qeq_bool total 0 || (n =? 0)%Z then None else Some (qf total n)
          | None => None end ->
  elect_by_quota cf (totals a) quota (n - zsum (map snd prev))%Z prev caps = inl None ->
  next_count_h cf a n total prev caps orc =
    if has_tie_r (retained cf a) then HC_stop (HS_std S_nie)
    else match eliminated cf a with
         | [] => HC_next a [] orc
         | _ => lift_h (transfer_h a (eliminated cf a) orc) []
         end.
Proof. exact next_count_h_noquota. Qed.

(* how a count can end otherwise: with whole non-negative weights it never leaves the modelled domain
   (HS_unmodelled), never draws more than a pile holds (ValueError) and never misses a pile (KeyError) - it refuses a
   tie, meets a fractional number of ballots to draw (TypeError: seats * quota is not a whole number) or rejects the
   oracle *)
Theorem C03_hare_count_stops : forall cf a n_seats total prev caps (orc : oracle) s,
  NoDup (akeys a) -> alloc_whole a -> (forall c, (0 <= dget_or prev c 0)%Z) ->
  (forall qv, quota_of cf total n_seats = Some qv -> 0 < qv) ->
  next_count_h cf a n_seats total prev caps orc = HC_stop s ->
  s = HS_std S_nie \/ s = HS_oracle \/
  (s = HS_type /\ exists qv k, quota_of cf total n_seats = Some qv /\ (0 < k)%Z /\ is_int (inject_Z k * qv) = false).
Proof. exact next_count_h_stops. Qed.

(* the trace of stv_h (which harness/props/c03_hare.py compares with nth_count / next_count of the implementation): every recorded count is
   the elect-all-remaining shortcut (no allocation) or a reachable allocation - so it satisfies the invariants above -
   and the run stops only for a tie, the infinite-loop refusal, a fractional draw or a rejected oracle *)
Theorem C03_hare_every_recorded_count : forall cf votes n_seats prev caps (orc : oracle) e,
  (forall c, (0 <= dget_or prev c 0)%Z) ->
  let total := Qred (fold_left Qplus (map snd votes) 0) in
  (forall qv, quota_of cf total n_seats = Some qv -> 0 < qv) ->
  In e (h_counts (stv_h cf votes n_seats prev caps orc)) ->
  fst e = [] \/
  (NoDup (akeys (fst e)) /\ resting_ok (fst e) /\ (votes_whole votes -> alloc_whole (fst e)) /\
   exists qs, match quota_of cf total n_seats with
              | Some qv => asum (fst e) + inject_Z qs * qv == cast votes
              | None => asum (fst e) == cast votes /\ qs = 0%Z
              end).
Proof.
  intros cf votes n_seats prev caps orc e H0 total Hq He.
  destruct (stv_h_recorded cf votes n_seats caps prev orc e He) as [(seats & qs & o & Hr)|Hn]; [right|left; exact Hn].
  destruct (reach_h_conservation cf votes n_seats caps prev orc H0 Hq _ _ _ _ Hr) as (C1 & _ & C3).
  split; [exact C1|]. split; [exact (reach_h_resting _ _ _ _ _ _ _ _ _ _ Hr)|].
  split; [intros Hv; exact (reach_h_whole _ _ _ _ _ _ _ _ _ _ Hv Hr)|exists qs; exact C3].
Qed.

Theorem C03_hare_trace_stops : forall cf votes n_seats prev caps (orc : oracle),
  (forall c, (0 <= dget_or prev c 0)%Z) ->
  (forall qv, quota_of cf (Qred (fold_left Qplus (map snd votes) 0)) n_seats = Some qv -> 0 < qv) ->
  votes_whole votes ->
  match h_stop (stv_h cf votes n_seats prev caps orc) with
  | None | Some (HS_std S_nie) | Some (HS_std S_vse) | Some (HS_std S_fuel) | Some HS_oracle | Some HS_type => True
  | _ => False
  end.
Proof. intros cf votes n_seats prev caps orc H0 Hq Hv. exact (stv_h_stop cf votes n_seats caps prev orc H0 Hq Hv). Qed.

(* non-vacuity: 13 whole votes, a shared first rank {1,2} of weight 3, two seats, Droop quota 5.
   Oracle: [0] gives the odd vote of the shared rank to candidate 1; [0;3;4;1;6] draws 5 of the 7 votes of candidate 1
   (four of its own ballot, one of the shared one); [0;1;2;3;4] draws all 5 votes of candidate 2.  The count ends
   normally and consumed every entry.  The same count with a repeated number in the second entry is rejected. *)
Definition hare_ex_votes : list (ballot * Q) :=
  [([IP 1%positive; IP 2%positive], 5); ([IP 2%positive; IP 1%positive], 3); ([IP 3%positive; IP 1%positive], 2);
   ([IS [1%positive; 2%positive]; IP 3%positive], 3)].
Definition hare_ex_caps : list (C * Z) := [(1%positive, 1%Z); (2%positive, 1%Z); (3%positive, 1%Z)].
Example C03_hare_example :
  let t := stv_h (Build_cfg (Some Model.Quota.droop) true false (-1)) hare_ex_votes 2 [] hare_ex_caps
                 [[0%Z]; [0%Z; 3%Z; 4%Z; 1%Z; 6%Z]; [0%Z; 1%Z; 2%Z; 3%Z; 4%Z]] in
  votes_wholeb hare_ex_votes = true /\
  h_seats t = [(1%positive, 1%Z); (2%positive, 1%Z)] /\ h_stop t = None /\ h_left t = 0%nat /\
  map (fun e => totals (fst e)) (h_counts t) =
    [[(Some 2%positive, 5); (Some 3%positive, 3)]; [(Some 3%positive, 3)]] /\
  h_stop (stv_h (Build_cfg (Some Model.Quota.droop) true false (-1)) hare_ex_votes 2 [] hare_ex_caps
                [[0%Z]; [0%Z; 3%Z; 3%Z; 1%Z; 6%Z]; [0%Z; 1%Z; 2%Z; 3%Z; 4%Z]]) = Some HS_oracle.
Proof. vm_compute. repeat split; reflexivity. Qed.

Print Assumptions C03_conservation_every_count.
Print Assumptions C03_transfer_conserves.
Print Assumptions C03_initial_allocation.
Print Assumptions C03_nonneg_transfer.
Print Assumptions C03_nonneg_subtract.
Print Assumptions C03_election_rule.
Print Assumptions C03_targets_continuing.
Print Assumptions C03_elimination_step.
Print Assumptions C03_elimination_count.
Print Assumptions C03_elimination_configured.
Print Assumptions C03_elimination_lowest.
Print Assumptions C03_pile_not_a_contender.
Print Assumptions C03_resting_initial.
Print Assumptions C03_resting_transfer.
Print Assumptions C03_transfer_keys_shrink.
Print Assumptions C03_resting_subtract.
Print Assumptions C03_resting_next_count.
Print Assumptions C03_resting_every_count.
Print Assumptions C03_resting_every_recorded_count.
Print Assumptions C03_resting_checker.
Print Assumptions C03_move_ballot_equal_split.
Print Assumptions C03_shared_first_rank_split.
Print Assumptions C03_initial_pile_weight.
Print Assumptions C03_first_share_shared.
Print Assumptions C03_hare_conservation_every_count.
Print Assumptions C03_hare_whole_weights_every_count.
Print Assumptions C03_hare_resting_every_count.
Print Assumptions C03_hare_initial_allocation.
Print Assumptions C03_hare_subtract_draw.
Print Assumptions C03_hare_draws_bounded.
Print Assumptions C03_hare_shared_rank_split.
Print Assumptions C03_hare_transfer.
Print Assumptions C03_hare_subtract.
Print Assumptions C03_hare_election_rule.
Print Assumptions C03_hare_last_standing.
Print Assumptions C03_hare_elimination_step.
Print Assumptions C03_hare_count_stops.
Print Assumptions C03_hare_every_recorded_count.
Print Assumptions C03_hare_trace_stops.
