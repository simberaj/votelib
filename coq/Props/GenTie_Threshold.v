(* Generated-vs-handwritten tie for votelib/evaluate/threshold.py: the acceptance predicates and the evaluate()
   bodies of AbsoluteThreshold / RelativeThreshold, the union of AlternativeThresholds and the whole of
   CoalitionMemberBracketer.evaluate (dictionary comprehensions, dispatch with default, membership filter), regenerated from the
   source on every run (Gen/Threshold.v, tools/py2v.py typed method translator), ARE the predicate [passes] and
   the selector semantics [sel_eval] of Model/Threshold.v that the theorems of Props/C16.v are about.
   A source edit that changes a comparison ([>] to [>=]), the share ([Fraction(n_votes, total)]), the operand
   order or the union breaks these lemmas - a proof obligation of C16.  The proofs go by case analysis on the
   comparisons, not by syntactic identity, so a semantically equal rewrite (operands of [or] swapped,
   [not n <= t] for [n > t], a renamed local) keeps them. *)
From Coq Require Import ZArith QArith List Bool Lia Lqa Permutation.
From VL Require Import Prelude.PyDict Prelude.PyNum Prelude.PyList Model.GetNBest Model.QuotaDistributor Model.Threshold.
From VL Require Import Proofs.QBool_tac Proofs.PyList_proofs Proofs.GetNBest_proofs Proofs.Threshold_proofs.
From VL Require Gen.Threshold.
Import ListNotations.
Close Scope Q_scope.

(* the acceptance predicates (the [if] of the list comprehensions, threshold.py L48-51 and L86-90) *)
Lemma tie_abs_accept : forall thr ae v, Gen.Threshold.AbsoluteThreshold_accept thr ae v = passes ae v thr.
Proof. intros thr ae v. unfold Gen.Threshold.AbsoluteThreshold_accept. q_bool. Qed.
Print Assumptions tie_abs_accept.

Lemma tie_rel_accept : forall thr ae total v,
  Gen.Threshold.RelativeThreshold_accept thr ae total v = passes ae (v / total)%Q thr.
Proof. intros thr ae total v. unfold Gen.Threshold.RelativeThreshold_accept. q_bool. Qed.
Print Assumptions tie_rel_accept.

Lemma tie_abs_evaluate : forall thr ae votes,
  Gen.Threshold.AbsoluteThreshold_evaluate thr ae votes = sel_eval (SAbs thr ae) votes.
Proof.
  intros thr ae votes. unfold Gen.Threshold.AbsoluteThreshold_evaluate. cbn [sel_eval].
  apply map_filter_ext; intros [c v]; cbn [fst snd]; [reflexivity|]. q_bool.
Qed.
Print Assumptions tie_abs_evaluate.

Lemma tie_rel_evaluate : forall thr ae votes,
  Gen.Threshold.RelativeThreshold_evaluate thr ae votes = sel_eval (SRel thr ae) votes.
Proof.
  intros thr ae votes. unfold Gen.Threshold.RelativeThreshold_evaluate. cbn [sel_eval].
  change (py_sum_values votes) with (qsumv votes).
  apply map_filter_ext; intros [c v]; cbn [fst snd]; [reflexivity|]. q_bool.
Qed.
Print Assumptions tie_rel_evaluate.

(* AlternativeThresholds: the union of the partial results (the order - mean rank - is not translated; the model
   and the property compare the result as a set).  The partial selectors are passed as their evaluate() functions. *)
Lemma tie_alt_evaluate : forall parts votes pg c,
  In c (Gen.Threshold.AlternativeThresholds_evaluate (map sel_eval parts) votes pg) <-> In c (sel_eval (SAlt parts) votes).
Proof.
  intros parts votes pg c. unfold Gen.Threshold.AlternativeThresholds_evaluate.
  cbn [sel_eval]. rewrite dedup_In. cbv zeta. rewrite !in_flat_map. split.
  - intros (res & Hres & Hc). rewrite map_map in Hres. apply in_map_iff in Hres. destruct Hres as (p & <- & Hp).
    exists p. split; [exact Hp|]. rewrite map_id in Hc. exact Hc.
  - intros (p & Hp & Hc). exists (sel_eval p votes). split.
    + rewrite map_map. apply in_map_iff. exists p. split; [reflexivity|exact Hp].
    + rewrite map_id. exact Hc.
Qed.
Print Assumptions tie_alt_evaluate.

(* CoalitionMemberBracketer.evaluate (threshold.py L117-142): three comprehensions and a filter.  The candidate
   attributes it reads are passed as functions ([is_coalition], [get_n_coalition_members]); the evaluators dictionary maps
   the member count to a selector's evaluate().  On a votes dictionary (distinct keys) the generated function IS
   [bracket_eval] of Model/Threshold.v with every bracket configured ([Some]) and the bracket table listing, for each
   candidate, 1 or its number of coalition members. *)
Lemma tie_coalition_evaluate : forall (evals : list (Z * sel)) (dflt : sel) (isc : C -> bool) (nmem : C -> Z) votes,
  NoDup (map fst votes) ->
  Gen.Threshold.CoalitionMemberBracketer_evaluate (map (fun e => (fst e, sel_eval (snd e))) evals) (sel_eval dflt) isc nmem votes =
  bracket_eval (map (fun e => (fst e, Some (snd e))) evals) (Some dflt)
               (map (fun cv => (fst cv, if isc (fst cv) then nmem (fst cv) else 1%Z)) votes) votes.
Proof.
  intros evals dflt isc nmem votes Hnd.
  set (br := fun c => if isc c then nmem c else 1%Z).
  unfold Gen.Threshold.CoalitionMemberBracketer_evaluate, bracket_eval. cbv zeta.
  fold (bracket_pick (map (fun e : Z * sel => (fst e, Some (snd e))) evals) (Some dflt)).
  set (S := sort_desc Qle_bool votes).
  assert (Hperm : Permutation S votes) by apply sort_desc_perm.
  assert (HndS : NoDup (map fst S)).
  { apply (Permutation_NoDup (l := map fst votes)); [apply Permutation_map, Permutation_sym, Hperm|exact Hnd]. }
  set (g := fun it : C * Q => (fst it, br (fst it))).
  (* the member-count table: whatever the form of the conditional, it maps a candidate to [br] of it *)
  match goal with |- context [py_dict_c (map ?gg S)] =>
    rewrite (map_ext gg g) by (intros [c0 v0]; cbn [fst snd]; unfold g, br; cbn [fst]; destruct (isc c0); reflexivity)
  end.
  rewrite (py_dict_c_nodup (map g S)) by (rewrite map_map; exact HndS).
  rewrite filter_map_swap, !map_map. cbn [fst snd g].
  apply map_filter_ext_in; [reflexivity|].
  intros [c v] Hin. cbn [fst snd].
  unfold py_getitem_z.
  rewrite (py_dict_z_tabulate (fun n => py_get_z (map (fun e : Z * sel => (fst e, sel_eval (snd e))) evals) n (sel_eval dflt) votes)
                              (fun x : C * Q => br (fst x))).
  replace (existsb (fun x : C * Q => Z.eqb (br (fst x)) (br c)) S) with true.
  2:{ symmetry. apply existsb_exists. exists (c, v). split; [exact Hin|apply Z.eqb_refl]. }
  fold (bracket_pick (map (fun e : Z * sel => (fst e, Some (snd e))) evals) (Some dflt)).
  replace (map (fun cv : C * Q => (fst cv, if isc (fst cv) then nmem (fst cv) else 1%Z)) votes)
    with (map (fun cv : C * Q => (fst cv, br (fst cv))) votes) by reflexivity.
  rewrite (dget_or_tabulate br votes c).
  2:{ apply in_map_iff. exists (c, v). split; [reflexivity|]. apply (Permutation_in _ Hperm). exact Hin. }
  destruct (pick_configured evals dflt votes (br c)) as [E NE]. unfold bracket_pick in E, NE.
  set (pk := match find _ (map (fun e : Z * sel => (fst e, Some (snd e))) evals) with Some e => snd e | None => Some dflt end) in *.
  destruct pk as [s|]; [|congruence].
  rewrite E. reflexivity.
Qed.
Print Assumptions tie_coalition_evaluate.

Theorem GenTie_Threshold :
  (forall thr ae v, Gen.Threshold.AbsoluteThreshold_accept thr ae v = passes ae v thr) /\
  (forall thr ae total v, Gen.Threshold.RelativeThreshold_accept thr ae total v = passes ae (v / total)%Q thr) /\
  (forall thr ae votes, Gen.Threshold.AbsoluteThreshold_evaluate thr ae votes = sel_eval (SAbs thr ae) votes) /\
  (forall thr ae votes, Gen.Threshold.RelativeThreshold_evaluate thr ae votes = sel_eval (SRel thr ae) votes) /\
  (forall parts votes pg c,
     In c (Gen.Threshold.AlternativeThresholds_evaluate (map sel_eval parts) votes pg) <-> In c (sel_eval (SAlt parts) votes)) /\
  (forall (evals : list (Z * sel)) (dflt : sel) (isc : C -> bool) (nmem : C -> Z) votes,
     NoDup (map fst votes) ->
     Gen.Threshold.CoalitionMemberBracketer_evaluate (map (fun e => (fst e, sel_eval (snd e))) evals) (sel_eval dflt) isc nmem votes =
     bracket_eval (map (fun e => (fst e, Some (snd e))) evals) (Some dflt)
                  (map (fun cv => (fst cv, if isc (fst cv) then nmem (fst cv) else 1%Z)) votes) votes).
Proof.
  exact (conj tie_abs_accept (conj tie_rel_accept (conj tie_abs_evaluate (conj tie_rel_evaluate (conj tie_alt_evaluate tie_coalition_evaluate))))).
Qed.

(* the clauses of C16 (Props/C16.v), restated of the code GENERATED from the source text: what the property says holds,
   for every input, of the functions the translator reads off threshold.py in this run *)
Corollary gen_C16_absolute : forall thr ae votes c,
  In c (Gen.Threshold.AbsoluteThreshold_evaluate thr ae votes) <->
  exists v, In (c, v) votes /\ ((thr < v)%Q \/ (ae = true /\ (v == thr)%Q)).
Proof. intros thr ae votes c. rewrite tie_abs_evaluate. apply absolute_spec. Qed.

Corollary gen_C16_relative : forall thr ae votes c,
  In c (Gen.Threshold.RelativeThreshold_evaluate thr ae votes) <->
  exists v, In (c, v) votes /\
    ((thr < v / py_sum_values votes)%Q \/ (ae = true /\ (v / py_sum_values votes == thr)%Q)).
Proof. intros thr ae votes c. rewrite tie_rel_evaluate. apply relative_spec. Qed.

Corollary gen_C16_alternative : forall parts votes pg c,
  In c (Gen.Threshold.AlternativeThresholds_evaluate (map sel_eval parts) votes pg) <->
  exists p, In p parts /\ In c (sel_eval p votes).
Proof. intros parts votes pg c. rewrite tie_alt_evaluate. apply alternative_spec. Qed.

Corollary gen_C16_coalition : forall (evals : list (Z * sel)) (dflt : sel) (isc : C -> bool) (nmem : C -> Z) votes c,
  NoDup (map fst votes) ->
  (In c (Gen.Threshold.CoalitionMemberBracketer_evaluate (map (fun e => (fst e, sel_eval (snd e))) evals) (sel_eval dflt) isc nmem votes) <->
   exists v, In (c, v) votes /\
     In c (match find (fun e => Z.eqb (fst e) (if isc c then nmem c else 1%Z)) evals with Some e => sel_eval (snd e) votes | None => sel_eval dflt votes end)).
Proof.
  intros evals dflt isc nmem votes c Hnd. rewrite (tie_coalition_evaluate evals dflt isc nmem votes Hnd), bracket_eval_spec.
  split; intros (v & Hin & H); exists v; (split; [exact Hin|]);
    rewrite (dget_or_tabulate (fun c => if isc c then nmem c else 1%Z) votes c) in *
      by (apply in_map_iff; exists (c, v); split; [reflexivity|exact Hin]);
    revert H; unfold bracket_pick; generalize (if isc c then nmem c else 1%Z); intros b;
    induction evals as [|[k s] t IH]; cbn [map find fst snd]; try (destruct (Z.eqb k b)); auto.
Qed.
Print Assumptions gen_C16_absolute.
Print Assumptions gen_C16_relative.
Print Assumptions gen_C16_alternative.
Print Assumptions gen_C16_coalition.

(* non-vacuity: the generated predicate decides the boundary case of the property text (5 of 100 at 5 %) both ways *)
Example gen_on_threshold_accept : Gen.Threshold.RelativeThreshold_accept (1 # 20)%Q true (100 # 1)%Q (5 # 1)%Q = true.
Proof. reflexivity. Qed.
Example gen_on_threshold_strict : Gen.Threshold.RelativeThreshold_accept (1 # 20)%Q false (100 # 1)%Q (5 # 1)%Q = false.
Proof. reflexivity. Qed.
Example gen_alt_union :
  Gen.Threshold.AlternativeThresholds_evaluate [sel_eval (SAbs (10 # 1)%Q true); sel_eval (SRel (1 # 2)%Q false)]
    [(1%positive, (10 # 1)%Q); (2%positive, (3 # 1)%Q); (3%positive, (20 # 1)%Q)] tt = [3%positive; 1%positive; 3%positive].
Proof. reflexivity. Qed.

(* a votes dictionary has distinct keys; a coalition of two (candidate 2) is held to 10 %, single parties to 5 % *)
Example gen_coalition :
  let votes := [(1%positive, (6 # 1)%Q); (2%positive, (8 # 1)%Q); (3%positive, (86 # 1)%Q)] in
  NoDup (map fst votes) /\
  Gen.Threshold.CoalitionMemberBracketer_evaluate [(2%Z, sel_eval (SRel (1 # 10)%Q true))] (sel_eval (SRel (1 # 20)%Q true))
    (fun c => Pos.eqb c 2) (fun _ => 2%Z) votes = [3%positive; 1%positive].
Proof.
  split; [|reflexivity]. repeat constructor; cbn; intuition discriminate.
Qed.

Print Assumptions GenTie_Threshold.
