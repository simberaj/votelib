(* C17 - Monotone rules stay monotone: more support or more seats never hurts.
   This file holds the property theorems, the definitions and small lemmas their statements need, and examples of
   non-vacuity.  Models: Model/HighestAverages.v (the loop of
   HighestAverages.evaluate), Prelude/GDict.v + Model/Convert.v (additive converters),
   Model/GetNBest.v, Model/Condorcet.v, Model/Bucklin.v (PreferenceAddition.evaluate); proofs: Proofs/Mono_proofs.v,
   Proofs/Additive_proofs.v, Proofs/HA_proofs.v, Proofs/CopelandMono_proofs.v, Proofs/Minimax_proofs.v, Proofs/Bucklin_proofs.v,
   Proofs/BucklinShared_proofs.v, Proofs/BucklinLeave_proofs.v (changed ballots with shared ranks), Proofs/RaisesBallot_proofs.v (one moved
   ballot -> pairwise counts, Model/Hybrids.v pairwise), Proofs/Scorers_proofs.v (rank scorers), Proofs/HouseTie_proofs.v,
   Proofs/VotesFull_proofs.v, Proofs/PositionalShared_proofs.v, Proofs/RaisesAdded_proofs.v, Proofs/LRMono_proofs.v.

   [tot_s (final_state d votes n prev caps) c] is the number of seats party c holds for certain when
   the loop stops (previous gains + seats awarded; seats of a reported tie are not included). *)
From Coq Require Import ZArith QArith List Bool Lia.
From VL Require Import Prelude.Sx Prelude.PyDict Prelude.GDict Model.GetNBest Model.Divisor Model.HighestAverages
     Model.Convert Model.Condorcet Model.Bucklin
     Proofs.Dict_proofs Proofs.HA_proofs Proofs.Divisor_proofs Proofs.Mono_proofs Proofs.Additive_proofs
     Proofs.Convert_proofs Proofs.CopelandMono_proofs Proofs.Minimax_proofs Proofs.Condorcet_proofs Proofs.Schulze_proofs Proofs.Bucklin_proofs
     Proofs.BucklinShared_proofs Proofs.BucklinLeave_proofs.
From VL Require Model.Hybrids Proofs.Hybrids_proofs.
From VL Require Import Proofs.RaisesBallot_proofs Proofs.Scorers_proofs.
From VL Require Import Proofs.HouseTie_proofs Proofs.VotesFull_proofs.
From VL Require Model.Quota Model.QuotaDistributor.
From VL Require Proofs.PositionalShared_proofs Proofs.RaisesAdded_proofs Proofs.LRMono_proofs.
Import ListNotations.
Open Scope Z_scope.

(* House monotonicity: for EVERY divisor function, vote vector, cap map and non-negative previous
   gains, adding a seat to the house never costs any party a seat (no Alabama paradox).
   No tie-freeness is assumed: seats held for certain are compared. *)
Theorem C17_house : forall (d : Z -> Q) (votes : list (C * Q)) (caps prev : list (C * Z)) (n : Z),
  Forall (fun cv => 0 <= snd cv) prev ->
  forall c, tot_s (final_state d votes n prev caps) c <= tot_s (final_state d votes (n + 1) prev caps) c.
Proof. intros d votes caps prev n. exact (house_monotone d votes caps n prev). Qed.

(* by induction: any larger house *)
Theorem C17_house_any : forall (d : Z -> Q) (votes : list (C * Q)) (caps prev : list (C * Z)) (n : Z) (k : nat),
  Forall (fun cv => 0 <= snd cv) prev ->
  forall c, tot_s (final_state d votes n prev caps) c <= tot_s (final_state d votes (n + Z.of_nat k) prev caps) c.
Proof.
  intros d votes caps prev n k Hp c. induction k as [|k IH].
  - rewrite Z.add_0_r. apply Z.le_refl.
  - replace (n + Z.of_nat (S k)) with (n + Z.of_nat k + 1) by (rewrite Nat2Z.inj_succ; ring).
    eapply Z.le_trans; [exact IH|]. apply (house_monotone d votes caps (n + Z.of_nat k) prev Hp).
Qed.

(* Vote monotonicity: a strictly increasing positive divisor (all five built-ins), positive votes;
   votes' = votes except that party p has at least as many votes.  If the second run hands out all
   seats without reporting a tie, p holds at least as many seats as before. *)
Theorem C17_votes : forall (d : Z -> Q) (votes votes' : list (C * Q)) (caps prev : list (C * Z)) (n : Z)
    (p : C) (vp vp' : Q),
  (forall k, 0 <= k -> (0 < d k)%Q) -> divisor_strict d ->
  (forall c v, In (c, v) votes -> (0 < v)%Q) -> (forall c v, In (c, v) votes' -> (0 < v)%Q) ->
  NoDup (map fst votes) -> NoDup (map fst votes') -> (forall c, 0 <= dget_or prev c 0) ->
  dget votes p = Some vp -> dget votes' p = Some vp' -> (vp <= vp')%Q ->
  (forall c, c <> p -> dget votes' c = dget votes c) ->
  st_tie (final_state d votes' n prev caps) = None -> st_rem (final_state d votes' n prev caps) <= 0 ->
  tot (final_state d votes n prev caps) p <= tot (final_state d votes' n prev caps) p.
Proof.
  intros d votes votes' caps prev n p vp vp' Hpos Hstrict Hv Hv' Hnd Hnd' Hprev Hp Hp' Hle Hoth.
  exact (votes_monotone d votes votes' caps prev n Hpos Hstrict Hv Hv' Hnd Hnd' Hprev p vp vp' Hp Hp' Hle Hoth).
Qed.

Theorem C17_builtin_strict : divisor_strict d_hondt /\ divisor_strict sainte_lague /\ divisor_strict imperiali /\
  divisor_strict danish /\ divisor_strict macau.
Proof.
  repeat split; [apply d_hondt_ok|apply sainte_lague_ok|apply imperiali_ok|apply danish_ok|apply macau_ok].
Qed.

(* Additive rules (plurality, positional, approval, score-sum: every converter of the fold shape
   [dconv image] followed by get_n_best): replacing ONE ballot b by b' whose image names no new
   candidate except possibly the winner, gives the winner at least as much and everybody else at
   most as much, keeps a sole winner the sole winner.  Any image, any profile, any position. *)
Theorem C17_additive : forall (B : Type) (image : B -> list (sx * Q)) pre post (b b' : B) (w : Q) (kw : sx),
  (0 <= w)%Q ->
  (forall k, In k (map fst (image b')) -> k = kw \/ In k (map fst (image b))) ->
  In kw (map fst (image b')) ->
  (coef sx_eqb (image b) kw <= coef sx_eqb (image b') kw)%Q ->
  (forall k, k <> kw -> (coef sx_eqb (image b') k <= coef sx_eqb (image b) k)%Q) ->
  get_n_best Qle_bool (dconv image (pre ++ (b, w) :: post)) 1 = [Cand kw] ->
  get_n_best Qle_bool (dconv image (pre ++ (b', w) :: post)) 1 = [Cand kw].
Proof. intros B image. exact (additive_sole_winner sx_eqb sx_eqb_spec image). Qed.

(* instance: approval voting - approving the winner on one more ballot *)
Corollary C17_approval : forall pre post (b : list C) (w : Q) (c : C),
  (0 <= w)%Q -> ~ In c b ->
  get_n_best Qle_bool (dconv (img_approval_simple false) (pre ++ (b, w) :: post)) 1 = [Cand (kc c)] ->
  get_n_best Qle_bool (dconv (img_approval_simple false) (pre ++ (c :: b, w) :: post)) 1 = [Cand (kc c)].
Proof. exact approval_instance. Qed.

(* instance: plurality - the winner takes over the first place of a ballot *)
Corollary C17_plurality : forall pre post (x c : C) (rest : ranked) (w : Q),
  (0 <= w)%Q -> x <> c ->
  get_n_best Qle_bool (dconv img_first (pre ++ (IP x :: IP c :: rest, w) :: post)) 1 = [Cand (kc c)] ->
  get_n_best Qle_bool (dconv img_first (pre ++ (IP c :: IP x :: rest, w) :: post)) 1 = [Cand (kc c)].
Proof. exact plurality_instance. Qed.

(* instance: positional (Borda-type) rules - the winner moves one place up on a ballot of plain ranks; holds for
   every rank scorer whose score at the higher of the two places is at least the score at the lower one *)
Corollary C17_positional : forall (s : Convert.scorer) (n_cands : nat) pre_b post_b (pre post : list C) (x c : C) (w : Q)
    (s_pre s_post : list Q) (a b : Q),
  (0 <= w)%Q -> x <> c ->
  rank_scores s n_cands (length (pre ++ x :: c :: post)) = Some (s_pre ++ a :: b :: s_post) ->
  length s_pre = length pre -> (b <= a)%Q ->
  get_n_best Qle_bool (dconv (pos_img s n_cands) (pre_b ++ (plain_ballot (pre ++ x :: c :: post), w) :: post_b)) 1 = [Cand (kc c)] ->
  get_n_best Qle_bool (dconv (pos_img s n_cands) (pre_b ++ (plain_ballot (pre ++ c :: x :: post), w) :: post_b)) 1 = [Cand (kc c)].
Proof. exact positional_instance. Qed.

(* the score hypothesis holds at every pair of adjacent places for the Dowdall, modified Borda and fixed-top scorers *)
Theorem C17_scorers_nonincreasing : forall n_cands k s_pre a b s_post,
  (rank_scores Dowdall n_cands k = Some (s_pre ++ a :: b :: s_post) -> (b <= a)%Q) /\
  (rank_scores ModifiedBorda n_cands k = Some (s_pre ++ a :: b :: s_post) -> (b <= a)%Q) /\
  (forall top, rank_scores (FixedTop top) n_cands k = Some (s_pre ++ a :: b :: s_post) -> (b <= a)%Q).
Proof.
  intros. split; [apply dowdall_nonincreasing|]. split; [apply modified_borda_nonincreasing|].
  intros top. apply fixed_top_nonincreasing.
Qed.

(* ... and for the remaining scorers (Proofs/Scorers_proofs.v): Borda with any base (the list is never padded: more ranks than
   candidates is the ValueError), Geometric with base >= 1, SequenceBased with a sequence that is non-increasing and ends
   non-negative ([noninc0]: the list is padded with zeros, so a negative last score would be followed by a larger one) *)
Theorem C17_scorers_nonincreasing_all : forall n_cands k s_pre a b s_post,
  (forall base, rank_scores (Borda base) n_cands k = Some (s_pre ++ a :: b :: s_post) -> (b <= a)%Q) /\
  (forall base, 1 <= base -> rank_scores (Geometric base) n_cands k = Some (s_pre ++ a :: b :: s_post) -> (b <= a)%Q) /\
  (forall sq, noninc0 sq = true -> rank_scores (SequenceBased sq) n_cands k = Some (s_pre ++ a :: b :: s_post) -> (b <= a)%Q).
Proof.
  intros. split; [intros base; apply borda_nonincreasing|]. split; [intros base; apply geometric_nonincreasing|].
  intros sq. apply sequence_nonincreasing.
Qed.

(* one decidable condition on the scorer object: every scorer satisfying it is non-increasing along every ballot *)
Definition scorer_ok (s : Convert.scorer) : bool :=
  match s with Geometric base => 1 <=? base | SequenceBased sq => noninc0 sq | _ => true end.

Theorem C17_scorer_ok : forall s n_cands, scorer_ok s = true -> scorer_nonincreasing s n_cands.
Proof.
  intros s n_cands H k s_pre a b s_post. destruct s; cbn [scorer_ok] in H.
  - apply borda_nonincreasing.
  - apply dowdall_nonincreasing.
  - apply geometric_nonincreasing. apply Z.leb_le, H.
  - apply modified_borda_nonincreasing.
  - apply fixed_top_nonincreasing.
  - apply sequence_nonincreasing, H.
Qed.

(* the same inequalities on the per-rank score expressions GENERATED from votelib/component/rankscore.py: Props/GenTie_Rankscore_mono.v
   (C17_gen_scorers_nonincreasing), an obligation of this property while the translator accepts the source *)

(* positional rules, the winner moves up past ANY number of places on a ballot of plain ranks, any scorer with [scorer_ok]
   (the ballot is not longer than the number of candidates: [rank_scores] answers) *)
Theorem C17_positional_any : forall (s : Convert.scorer) (n_cands : nat) pre_b post_b (l1 l2 l3 : list C) (w : C) (wgt : Q) (sc : list Q),
  (0 <= wgt)%Q -> ~ In w l2 -> scorer_ok s = true ->
  rank_scores s n_cands (length l1 + length l2 + S (length l3)) = Some sc ->
  get_n_best Qle_bool (dconv (pos_img s n_cands) (pre_b ++ (plain_ballot (l1 ++ l2 ++ w :: l3), wgt) :: post_b)) 1 = [Cand (kc w)] ->
  get_n_best Qle_bool (dconv (pos_img s n_cands) (pre_b ++ (plain_ballot (l1 ++ w :: l2 ++ l3), wgt) :: post_b)) 1 = [Cand (kc w)].
Proof.
  intros s n_cands pre_b post_b l1 l2 l3 w wgt sc Hw Hnin Hok Hsc.
  exact (positional_move_up s n_cands pre_b post_b l1 l2 w wgt sc Hw Hnin (C17_scorer_ok s n_cands Hok) l3 Hsc).
Qed.

(* the conditions are needed: Geometric(-2) gives 1, -1/2, 1/4; SequenceBased([1, -1]) gives 1, -1, 0 (padding); and with the
   increasing sequence [0, 1] the sole winner B of {(A,B): 1} loses to A when it moves up to (B,A) *)
Theorem C17_scorers_conditions_needed :
  rank_scores (Geometric (-2)) 3 3 = Some ([1] ++ (- (1 # 2)) :: (1 # 4) :: [])%Q /\
  rank_scores (SequenceBased [1; -(1)]%Q) 3 3 = Some ([1] ++ (-(1)) :: 0 :: [])%Q /\
  get_n_best Qle_bool (dconv (pos_img (SequenceBased [0; 1]%Q) 2) ([] ++ (plain_ballot ([] ++ [1%positive] ++ 2%positive :: []), 1%Q) :: [])) 1 = [Cand (kc 2%positive)] /\
  get_n_best Qle_bool (dconv (pos_img (SequenceBased [0; 1]%Q) 2) ([] ++ (plain_ballot ([] ++ 2%positive :: [1%positive] ++ []), 1%Q) :: [])) 1 = [Cand (kc 1%positive)].
Proof. vm_compute. repeat split; reflexivity. Qed.

(* non-vacuity: Borda, Geometric(2) and the sequence 5,3,3,1 satisfy the condition, [1, -1] and Geometric(-2) do not; 4 candidates,
   {(B,A,C,D): 2, (D,C,B): 1} under Borda: B = 2 is the sole winner and moves from the third to the first place of the second ballot *)
Example C17_positional_example :
  scorer_ok (Borda 1) = true /\ scorer_ok (Geometric 2) = true /\ scorer_ok (SequenceBased [5; 3; 3; 1]%Q) = true /\
  scorer_ok (SequenceBased [1; -(1)]%Q) = false /\ scorer_ok (Geometric (-2)) = false /\
  let pre_b := [(plain_ballot [2; 1; 3; 4]%positive, 2%Q)] in
  get_n_best Qle_bool (dconv (pos_img (Borda 1) 4) (pre_b ++ (plain_ballot ([] ++ [4; 3]%positive ++ 2%positive :: []), 1%Q) :: [])) 1 = [Cand (kc 2%positive)] /\
  get_n_best Qle_bool (dconv (pos_img (Borda 1) 4) (pre_b ++ (plain_ballot ([] ++ 2%positive :: [4; 3]%positive ++ []), 1%Q) :: [])) 1 = [Cand (kc 2%positive)].
Proof. vm_compute. repeat split; reflexivity. Qed.

(* Copeland: if the pairwise counts change only in favour of w ([raises v v' w], Proofs/CopelandMono_proofs.v:
   same candidates, w's counts against the others do not drop, theirs against w do not rise, contests among the
   others untouched - what moving w upwards on a ballot, or adding a bullet vote for w, does), a sole winner by
   Copeland scores stays the sole winner, with or without second-order tie-breaking afterwards *)
Theorem C17_copeland : forall (v v' : pvotes) (w : C) (so : bool),
  NoDup (map fst v) -> NoDup (map fst v') ->
  (forall p n, In (p, n) v -> 0 <= n) -> (forall p n, In (p, n) v' -> 0 <= n) ->
  raises v v' w ->
  copeland false v 1 = [Cand w] -> copeland so v' 1 = [Cand w].
Proof.
  intros v v' w so Hnd Hnd' Hnn Hnn' Hr H. rewrite copeland_raw_is_first_order in H.
  exact (copeland_monotone v v' w Hnd Hnd' Hnn Hnn' Hr so H).
Qed.

(* minimax (all three pairwise win scorers): under the same relation a sole minimax winner stays the sole winner -
   its worst defeat cannot grow, nobody else's can shrink *)
Theorem C17_minimax : forall (v v' : pvotes) (w : C) (s : Condorcet.scorer),
  (forall p n, In (p, n) v -> 0 <= n) -> (forall p n, In (p, n) v' -> 0 <= n) ->
  (2 <= length (candidates v))%nat -> raises v v' w ->
  minimax s v 1 = [Cand w] -> minimax s v' 1 = [Cand w].
Proof. intros v v' w s Hnn Hnn' H2 Hr. exact (minimax_monotone v v' w Hnn Hnn' H2 Hr s). Qed.

(* From ONE moved ballot to the pairwise counts (Proofs/RaisesBallot_proofs.v), through the model of
   RankedToCondorcetVotes(unranked_at_bottom=True).convert ([Hybrids.pairwise], Model/Hybrids.v: the fold of the per-ballot image
   [img_condorcet true] of Model/Convert.v; integer weights; tied to the code by the streams rc-tie here and hybrids of C05).
   On ONE ballot (x units of it; the profile list may name a ballot twice) w moves from behind the items p2 to the place before
   them; the ballot may contain shared ranks anywhere, be truncated, the other ballots are arbitrary.  Then the dictionary changes
   EXACTLY by: count(w, c) += x * (number of times c occurs in p2), count(c, w) -= the same, every other entry unchanged
   ([jump p2 w a c] = [a = w] * #c in p2 - #a in p2 * [c = w]); and the candidates of the dictionary stay the same SET (their order of
   first appearance can change, which is why [raises] - equal candidate lists - is weakened to [raises_s]). *)
Theorem C17_ballot_pairwise_exact : forall (pre post : Hybrids.rvotes) (p1 p2 p3 : ranked) (x : Z) (w a c : C),
  pget0 (Hybrids.pairwise (pre ++ (p1 ++ IP w :: p2 ++ p3, x) :: post)) (a, c) =
  pget0 (Hybrids.pairwise (pre ++ (p1 ++ p2 ++ IP w :: p3, x) :: post)) (a, c) + x * jump p2 w a c.
Proof. intros. apply pairwise_move_exact. Qed.

Theorem C17_ballot_raises : forall (pre post : Hybrids.rvotes) (p1 p2 p3 : ranked) (x : Z) (w : C),
  0 <= x -> ~ In w (flatten p2) ->
  raises_s (Hybrids.pairwise (pre ++ (p1 ++ p2 ++ IP w :: p3, x) :: post))
           (Hybrids.pairwise (pre ++ (p1 ++ IP w :: p2 ++ p3, x) :: post)) w.
Proof. intros. apply pairwise_move_raises; assumption. Qed.

(* [raises] implies [raises_s]; Copeland and minimax monotonicity hold under the weaker relation *)
Theorem C17_copeland_s : forall (v v' : pvotes) (w : C) (so : bool),
  NoDup (map fst v) -> NoDup (map fst v') ->
  (forall p n, In (p, n) v -> 0 <= n) -> (forall p n, In (p, n) v' -> 0 <= n) ->
  raises_s v v' w ->
  copeland false v 1 = [Cand w] -> copeland so v' 1 = [Cand w].
Proof. intros v v' w so Hnd Hnd' Hnn Hnn' Hr. exact (copeland_monotone_s v v' w Hnd Hnd' Hnn Hnn' Hr so). Qed.

Theorem C17_minimax_s : forall (v v' : pvotes) (w : C) (s : Condorcet.scorer),
  (forall p n, In (p, n) v -> 0 <= n) -> (forall p n, In (p, n) v' -> 0 <= n) ->
  (2 <= length (candidates v))%nat -> raises_s v v' w ->
  minimax s v 1 = [Cand w] -> minimax s v' 1 = [Cand w].
Proof. intros v v' w s Hnn Hnn' H2 Hr. exact (minimax_monotone_s v v' w Hnn Hnn' H2 Hr s). Qed.

(* Copeland and minimax ON BALLOTS: converter followed by the evaluator.  Copeland: any ballots, weights >= 0.  Minimax: no
   candidate twice on a ballot, weights >= 0 ([wf_votes]) - this gives the dictionary two candidates. *)
Theorem C17_copeland_ballots : forall (pre post : Hybrids.rvotes) (p1 p2 p3 : ranked) (x : Z) (w : C) (so : bool),
  (forall r y, In (r, y) (pre ++ post) -> 0 <= y) -> 0 <= x -> ~ In w (flatten p2) ->
  copeland false (Hybrids.pairwise (pre ++ (p1 ++ p2 ++ IP w :: p3, x) :: post)) 1 = [Cand w] ->
  copeland so (Hybrids.pairwise (pre ++ (p1 ++ IP w :: p2 ++ p3, x) :: post)) 1 = [Cand w].
Proof. intros pre post p1 p2 p3 x w so. apply copeland_ballot_monotone. Qed.

Theorem C17_minimax_ballots : forall (pre post : Hybrids.rvotes) (p1 p2 p3 : ranked) (x : Z) (w : C) (s : Condorcet.scorer),
  Hybrids_proofs.wf_votes (pre ++ (p1 ++ p2 ++ IP w :: p3, x) :: post) = true -> ~ In w (flatten p2) ->
  minimax s (Hybrids.pairwise (pre ++ (p1 ++ p2 ++ IP w :: p3, x) :: post)) 1 = [Cand w] ->
  minimax s (Hybrids.pairwise (pre ++ (p1 ++ IP w :: p2 ++ p3, x) :: post)) 1 = [Cand w].
Proof. intros pre post p1 p2 p3 x w s. apply minimax_ballot_monotone. Qed.

(* w LEAVES a shared rank {la, w, lb} for a place of its own directly above the rest of the rank: count(w, c) rises by x for every
   member c of the rest, nothing else changes; for a well-formed profile with a non-empty dictionary the candidates stay the same set *)
Theorem C17_ballot_leave_exact : forall (pre post : Hybrids.rvotes) (q p3 : ranked) (la lb : list C) (x : Z) (w a c : C),
  pget0 (Hybrids.pairwise (pre ++ (q ++ IP w :: IS (la ++ lb) :: p3, x) :: post)) (a, c) =
  pget0 (Hybrids.pairwise (pre ++ (q ++ IS (la ++ w :: lb) :: p3, x) :: post)) (a, c) + x * (Hybrids_proofs.cnt a [w] * Hybrids_proofs.cnt c (la ++ lb)).
Proof. intros. apply pairwise_leave_exact. Qed.

Theorem C17_ballot_leave_raises : forall (pre post : Hybrids.rvotes) (q p3 : ranked) (la lb : list C) (x : Z) (w : C),
  Hybrids_proofs.wf_votes (pre ++ (q ++ IS (la ++ w :: lb) :: p3, x) :: post) = true ->
  Hybrids.pairwise (pre ++ (q ++ IS (la ++ w :: lb) :: p3, x) :: post) <> [] ->
  raises_s (Hybrids.pairwise (pre ++ (q ++ IS (la ++ w :: lb) :: p3, x) :: post))
           (Hybrids.pairwise (pre ++ (q ++ IP w :: IS (la ++ lb) :: p3, x) :: post)) w.
Proof. intros. apply pairwise_leave_raises; assumption. Qed.

(* Copeland and minimax on ballots, the winner leaves a shared rank and moves further up past the items p2 *)
Theorem C17_copeland_ballots_leave : forall (pre post : Hybrids.rvotes) (p1 p2 p3 : ranked) (la lb : list C) (x : Z) (w : C) (so : bool),
  Hybrids_proofs.wf_votes (pre ++ (p1 ++ p2 ++ IS (la ++ w :: lb) :: p3, x) :: post) = true -> ~ In w (flatten p2) ->
  copeland false (Hybrids.pairwise (pre ++ (p1 ++ p2 ++ IS (la ++ w :: lb) :: p3, x) :: post)) 1 = [Cand w] ->
  copeland so (Hybrids.pairwise (pre ++ (p1 ++ IP w :: p2 ++ IS (la ++ lb) :: p3, x) :: post)) 1 = [Cand w].
Proof.
  intros pre post p1 p2 p3 la lb x w so Hwf Hp2 H. rewrite app_assoc in Hwf, H.
  pose proof (copeland_ballot_leave pre post (p1 ++ p2) p3 la lb x w false Hwf H) as H1.
  pose proof (wf_leave pre post (p1 ++ p2) p3 la lb x w Hwf) as Hwf1. rewrite <- app_assoc in H1, Hwf1.
  apply (copeland_ballot_monotone pre post p1 p2 (IS (la ++ lb) :: p3) x w so); [| |exact Hp2|exact H1].
  - intros r y Hin. apply (proj1 (Hybrids_proofs.wf_votes_spec _) Hwf1 r y). apply in_app_iff in Hin. apply in_app_iff.
    destruct Hin as [Hin|Hin]; [left; exact Hin|right; right; exact Hin].
  - apply (proj1 (Hybrids_proofs.wf_votes_spec _) Hwf1 (p1 ++ p2 ++ IP w :: IS (la ++ lb) :: p3) x). apply in_app_iff. right. left. reflexivity.
Qed.

Theorem C17_minimax_ballots_leave : forall (pre post : Hybrids.rvotes) (p1 p2 p3 : ranked) (la lb : list C) (x : Z) (w : C) (s : Condorcet.scorer),
  Hybrids_proofs.wf_votes (pre ++ (p1 ++ p2 ++ IS (la ++ w :: lb) :: p3, x) :: post) = true -> ~ In w (flatten p2) ->
  minimax s (Hybrids.pairwise (pre ++ (p1 ++ p2 ++ IS (la ++ w :: lb) :: p3, x) :: post)) 1 = [Cand w] ->
  minimax s (Hybrids.pairwise (pre ++ (p1 ++ IP w :: p2 ++ IS (la ++ lb) :: p3, x) :: post)) 1 = [Cand w].
Proof.
  intros pre post p1 p2 p3 la lb x w s Hwf Hp2 H. rewrite app_assoc in Hwf, H.
  pose proof (minimax_ballot_leave pre post (p1 ++ p2) p3 la lb x w s Hwf H) as H1.
  pose proof (wf_leave pre post (p1 ++ p2) p3 la lb x w Hwf) as Hwf1. rewrite <- app_assoc in H1, Hwf1.
  exact (minimax_ballot_monotone pre post p1 p2 (IS (la ++ lb) :: p3) x w s Hwf1 Hp2 H1).
Qed.

(* the candidate ORDER of the dictionary does change: (A,B,C) -> (A,C,B) lists the candidates A,B,C resp. A,C,B - so [raises]
   itself does not hold between the two dictionaries, [raises_s] does *)
Example C17_ballot_raises_order :
  let v := Hybrids.pairwise ([] ++ ([IP 1%positive] ++ [IP 2%positive] ++ IP 3%positive :: [], 1) :: []) in
  let v' := Hybrids.pairwise ([] ++ ([IP 1%positive] ++ IP 3%positive :: [IP 2%positive] ++ [], 1) :: []) in
  candidates v = [1; 2; 3]%positive /\ candidates v' = [1; 3; 2]%positive /\ ~ raises v v' 3%positive /\ raises_s v v' 3%positive.
Proof.
  cbv zeta. split; [vm_compute; reflexivity|]. split; [vm_compute; reflexivity|]. split.
  - intros (H & _). vm_compute in H. discriminate H.
  - apply pairwise_move_raises; [lia|]. cbn. intros [H|[]]. discriminate H.
Qed.

(* non-vacuity: {(A,{B,C},D): 2, (D,A): 1, (B,D): 1} (a shared rank, truncated ballots): A = 1 is the sole minimax and Copeland
   winner; on the second ballot it moves up, (D,A) -> (A,D); count(D, A) drops from 2 to 1 *)
Example C17_ballots_example :
  let pre := [([IP 1; IS [2; 3]; IP 4]%positive, 2)] in let post := [([IP 2; IP 4]%positive, 1)] in
  Hybrids_proofs.wf_votes (pre ++ ([] ++ [IP 4%positive] ++ IP 1%positive :: [], 1) :: post) = true /\
  minimax Margins (Hybrids.pairwise (pre ++ ([] ++ [IP 4%positive] ++ IP 1%positive :: [], 1) :: post)) 1 = [Cand 1%positive] /\
  copeland false (Hybrids.pairwise (pre ++ ([] ++ [IP 4%positive] ++ IP 1%positive :: [], 1) :: post)) 1 = [Cand 1%positive] /\
  pget0 (Hybrids.pairwise (pre ++ ([] ++ [IP 4%positive] ++ IP 1%positive :: [], 1) :: post)) (4, 1)%positive = 2 /\
  pget0 (Hybrids.pairwise (pre ++ ([] ++ IP 1%positive :: [IP 4%positive] ++ [], 1) :: post)) (4, 1)%positive = 1.
Proof. vm_compute. repeat split; reflexivity. Qed.

(* Schulze.  votelib ranks the candidates by their NUMBER OF PATH-WINS (a Copeland count over the beat-path relation),
   not by Schulze's criterion "no path-defeat".  For that ranking the clause is REFUTED (C17_schulze_refuted): raising the
   sole winner on one ballot can create new path-wins among the others, lifting them to the winner's count.
   Witnesses (pairwise counts of ranked profiles, one ballot changed by moving the winner one place up; both replayed on
   the implementation, see Proofs/Schulze_proofs.v): five candidates, 12 voters - before, C = 3 is the only candidate
   with two path-wins, after the move A and E have two as well and the result is a three-way tie
   (C17_schulze_witness); six candidates, 14 voters - before, E = 5 wins alone, after the move C = 3 wins alone and E
   is third (C17_schulze_witness_loses). *)
Definition C17_schulze_full_statement : Prop :=
  forall v v' w, raises v v' w -> schulze v (candidates v) 1 = [Cand w] -> schulze v' (candidates v') 1 = [Cand w].

Theorem C17_schulze_witness :
  NoDup (map fst mono_v) /\ NoDup (map fst mono_v') /\
  (forall p n, In (p, n) mono_v -> 0 <= n) /\ (forall p n, In (p, n) mono_v' -> 0 <= n) /\
  raises mono_v mono_v' 3%positive /\
  schulze mono_v (candidates mono_v) 1 = [Cand 3%positive] /\
  schulze mono_v' (candidates mono_v') 1 = [TieR [1%positive; 3%positive; 5%positive]].
Proof. exact schulze_monotone_refuted. Qed.

Theorem C17_schulze_witness_loses :
  NoDup (map fst mono6_v) /\ NoDup (map fst mono6_v') /\
  (forall p n, In (p, n) mono6_v -> 0 <= n) /\ (forall p n, In (p, n) mono6_v' -> 0 <= n) /\
  raises mono6_v mono6_v' 5%positive /\
  schulze mono6_v (candidates mono6_v) 1 = [Cand 5%positive] /\
  schulze mono6_v' (candidates mono6_v') 1 = [Cand 3%positive] /\
  schulze mono6_v' (candidates mono6_v') 3 = [Cand 3%positive; Cand 4%positive; Cand 5%positive].
Proof. exact schulze_monotone_refuted_loses. Qed.

Theorem C17_schulze_refuted : ~ C17_schulze_full_statement.
Proof.
  intros H. destruct schulze_monotone_refuted as (_ & _ & _ & _ & Hr & H1 & H2).
  specialize (H _ _ _ Hr H1). rewrite H2 in H. discriminate H.
Qed.

(* What does hold, for every pair of well-formed dictionaries related by [raises] and every iteration order listing the
   candidates: the strongest path from w to anybody does not weaken and the strongest path from anybody to w does not
   strengthen; so w keeps every path-win, suffers no new path-defeat, its score (the number of path-wins it is ranked
   by) does not drop, and Schulze's own winner criterion - no candidate has a stronger path to w than w has to it -
   is preserved.  (The others' scores may rise: that is the refuted part.) *)
Theorem C17_schulze_partial : forall (v v' : pvotes) (w : C) (order : list C),
  NoDup (map fst v) -> NoDup (map fst v') ->
  (forall p n, In (p, n) v -> 0 <= n) -> (forall p n, In (p, n) v' -> 0 <= n) ->
  raises v v' w -> incl (candidates v) order ->
  let P := widest_paths v order in let P' := widest_paths v' order in
  (forall x, pget0 P (w, x) <= pget0 P' (w, x)) /\
  (forall x, pget0 P' (x, w) <= pget0 P (x, w)) /\
  (forall x, beats P w x -> beats P' w x) /\
  (forall x, beats P' x w -> beats P x w) /\
  dget_or (sscores v order) w 0 <= dget_or (sscores v' order) w 0 /\
  ((forall x, pget0 P (x, w) <= pget0 P (w, x)) -> forall x, pget0 P' (x, w) <= pget0 P' (w, x)).
Proof.
  intros v v' w order Hnd Hnd' Hnn Hnn' Hr Ho P P'.
  split; [exact (raise_paths_out v v' w Hnd Hnd' Hnn Hnn' Hr order Ho)|].
  split; [exact (raise_paths_in v v' w Hnd Hnd' Hnn Hnn' Hr order Ho)|].
  split; [exact (raise_keeps_wins v v' w Hnd Hnd' Hnn Hnn' Hr order Ho)|].
  split; [exact (raise_no_new_defeat v v' w Hnd Hnd' Hnn Hnn' Hr order Ho)|].
  split; [exact (raise_score v v' w Hnd Hnd' Hnn Hnn' Hr order Ho)|].
  exact (raise_potential_winner v v' w Hnd Hnd' Hnn Hnn' Hr order Ho).
Qed.

(* [sscores v order] is the dictionary the evaluator hands to get_n_best *)
Theorem C17_schulze_scores : forall v order n, schulze v order n = get_n_best zle_bool (sscores v order) n.
Proof. intros v order n. reflexivity. Qed.
(* Bucklin / Oklahoma: PreferenceAddition.evaluate (Model/Bucklin.v: the rounds, the majority filter, get_n_best and
   _decouple_equal_rankings as the code has them; proofs Proofs/Bucklin_proofs.v), one seat.
   [pa_eval fx coef split votes 1]: coefficient of round i = coef i, split = split_equal_rankings; fx = false is the
   splicing loop of _decouple_equal_rankings as written, fx = true the same loop with the proposed one-token repair
   (fixes/C17-bucklin-splice-offset.diff) - the theorems hold for both, the check runs the model with the one the
   implementation has.

   General form: a sole winner w stays the sole winner when ONE ballot (its whole weight x; a profile may list a ballot
   twice, so this covers one unit of a heavier ballot) is replaced by a ballot that at no round has given w less and at no
   round has given anybody else more ([pa_lifts]; [cumb coef b r c] = what a unit of ballot b has added to c in the rounds
   before r).  The other ballots are arbitrary (truncated, with shared ranks, split or not); weights are non-negative.
   When shared ranks are split the changed ballot itself must not have any (see C17_bucklin_shared_refuted). *)
Theorem C17_preference_addition_general : forall (fx : bool) (coef : nat -> Q) (split : bool) pre post (b b' : ranked) (x : Q) (w : C),
  Forall (fun bw => 0 <= snd bw)%Q (pre ++ post) -> (0 <= x)%Q ->
  (split = true -> has_shared b = false /\ has_shared b' = false) ->
  pa_lifts coef b b' w ->
  pa_eval fx coef split (pre ++ (b, x) :: post) 1 = PA_ok [Cand w] ->
  pa_eval fx coef split (pre ++ (b', x) :: post) 1 = PA_ok [Cand w].
Proof. exact pa_mono_replace. Qed.

(* the winner moves upwards past any number of places, everybody else keeps their relative order: any non-negative
   non-increasing coefficients (Bucklin 1,1,1,..; Oklahoma 1,1/2,1/3,..), ballots of items (shared ranks allowed in the
   changed ballot when they are not split) *)
Theorem C17_preference_addition : forall (fx : bool) (coef : nat -> Q) (split : bool) pre post (p1 p2 p3 : ranked) (x : Q) (w : C),
  (forall i, 0 <= coef i)%Q -> (forall i, coef (S i) <= coef i)%Q ->
  Forall (fun bw => 0 <= snd bw)%Q (pre ++ post) -> (0 <= x)%Q ->
  ~ In w (flatten p2) ->
  (split = true -> has_shared (p1 ++ p2 ++ IP w :: p3) = false) ->
  pa_eval fx coef split (pre ++ (p1 ++ p2 ++ IP w :: p3, x) :: post) 1 = PA_ok [Cand w] ->
  pa_eval fx coef split (pre ++ (p1 ++ IP w :: p2 ++ p3, x) :: post) 1 = PA_ok [Cand w].
Proof. exact pa_move_up. Qed.

(* the two presets, default construction (shared ranks split), the changed ballot a strict ranking *)
Theorem C17_bucklin : forall (fx : bool) pre post (l1 l2 l3 : list C) (x : Q) (w : C),
  Forall (fun bw => 0 <= snd bw)%Q (pre ++ post) -> (0 <= x)%Q -> ~ In w l2 ->
  bucklin fx (pre ++ (plain_ballot (l1 ++ l2 ++ w :: l3), x) :: post) 1 = PA_ok [Cand w] ->
  bucklin fx (pre ++ (plain_ballot (l1 ++ w :: l2 ++ l3), x) :: post) 1 = PA_ok [Cand w].
Proof. intros fx pre post l1 l2 l3 x w. exact (pa_move_up_plain fx bucklin_coef pre post l1 l2 l3 x w bucklin_coef_good). Qed.

Theorem C17_oklahoma : forall (fx : bool) pre post (l1 l2 l3 : list C) (x : Q) (w : C),
  Forall (fun bw => 0 <= snd bw)%Q (pre ++ post) -> (0 <= x)%Q -> ~ In w l2 ->
  oklahoma fx (pre ++ (plain_ballot (l1 ++ l2 ++ w :: l3), x) :: post) 1 = PA_ok [Cand w] ->
  oklahoma fx (pre ++ (plain_ballot (l1 ++ w :: l2 ++ l3), x) :: post) 1 = PA_ok [Cand w].
Proof. intros fx pre post l1 l2 l3 x w. exact (pa_move_up_plain fx oklahoma_coef pre post l1 l2 l3 x w oklahoma_coef_good). Qed.

(* non-increasing coefficients are needed: with the coefficient list [1; 0; 2] the winner C of {(B): 1, (A,B,C): 1}
   loses to B when it moves up to (A,C,B) *)
Theorem C17_preference_addition_increasing_refuted :
  exists (coef : nat -> Q) pre post (l1 l2 l3 : list C) (x : Q) (w : C),
    (forall i, 0 <= coef i)%Q /\ ~ In w l2 /\
    pa_eval false coef true (pre ++ (plain_ballot (l1 ++ l2 ++ w :: l3), x) :: post) 1 = PA_ok [Cand w] /\
    pa_eval false coef true (pre ++ (plain_ballot (l1 ++ w :: l2 ++ l3), x) :: post) 1 = PA_ok [Cand 2%positive] /\ w <> 2%positive.
Proof.
  exists (coef_fun (CoefList [1; 0; 2]%Q)), [(plain_ballot [2%positive], 1%Q)], [], [1%positive], [2%positive], [], 1%Q, 3%positive.
  split; [|split; [|split; [|split]]]; [|intros [H|[]]; discriminate|vm_compute; reflexivity|vm_compute; reflexivity|discriminate].
  intros [|[|[|[|i]]]]; vm_compute; discriminate.
Qed.

(* A NEW ballot with the winner on top.  It raises the quota by half its weight: the clause holds when the ballot gives
   the winner at least that much at once (coef 0 >= 1/2) and nobody else more than that (coefficients of the later places
   <= 1/2, every candidate listed once).  So: any such ballot under Oklahoma, the bullet vote under Bucklin. *)
Theorem C17_preference_addition_added : forall (fx : bool) (coef : nat -> Q) (split : bool) pre post (rest : ranked) (x : Q) (w : C),
  (forall i, 0 <= coef i)%Q -> (1 # 2 <= coef 0%nat)%Q ->
  (forall i, (1 <= i < S (length rest))%nat -> coef i <= 1 # 2)%Q -> NoDup (flatten rest) ->
  (split = true -> has_shared rest = false) ->
  Forall (fun bw => 0 <= snd bw)%Q (pre ++ post) -> (0 <= x)%Q ->
  pa_eval fx coef split (pre ++ post) 1 = PA_ok [Cand w] ->
  pa_eval fx coef split (pre ++ (IP w :: rest, x) :: post) 1 = PA_ok [Cand w].
Proof. exact pa_add_top. Qed.

Theorem C17_bucklin_added : forall (fx : bool) pre post (x : Q) (w : C),
  Forall (fun bw => 0 <= snd bw)%Q (pre ++ post) -> (0 <= x)%Q ->
  bucklin fx (pre ++ post) 1 = PA_ok [Cand w] ->
  bucklin fx (pre ++ (plain_ballot [w], x) :: post) 1 = PA_ok [Cand w].
Proof.
  intros fx pre post x w Hw Hx. apply (pa_add_top fx bucklin_coef true pre post [] x w); try assumption.
  - intros i. unfold bucklin_coef. discriminate.
  - unfold bucklin_coef. discriminate.
  - intros i Hi. simpl in Hi. lia.
  - constructor.
  - reflexivity.
Qed.

Theorem C17_oklahoma_added : forall (fx : bool) pre post (rest : list C) (x : Q) (w : C),
  Forall (fun bw => 0 <= snd bw)%Q (pre ++ post) -> (0 <= x)%Q -> NoDup rest ->
  oklahoma fx (pre ++ post) 1 = PA_ok [Cand w] ->
  oklahoma fx (pre ++ (plain_ballot (w :: rest), x) :: post) 1 = PA_ok [Cand w].
Proof.
  intros fx pre post rest x w Hw Hx Hnd. apply (pa_add_top fx oklahoma_coef true pre post (plain_ballot rest) x w); try assumption.
  - apply oklahoma_coef_good.
  - unfold oklahoma_coef. discriminate.
  - intros i Hi. apply oklahoma_coef_half. lia.
  - rewrite flatten_plain. exact Hnd.
  - intros _. apply has_shared_plain.
Qed.

(* under Bucklin a longer new ballot that ranks the winner first can cost it the sole win (the participation failure of
   Bucklin): {(D,A): 2, (B,C,A): 2} elects A in the third round; with one more ballot (A,B) the quota is 5/2 and A and B
   tie above it in the second round *)
Theorem C17_bucklin_added_full_refuted :
  exists votes (rest : list C) (x : Q) (w : C), NoDup (w :: rest) /\ (0 <= x)%Q /\
    (forall fx, bucklin fx votes 1 = PA_ok [Cand w]) /\
    (forall fx, bucklin fx (votes ++ [(plain_ballot (w :: rest), x)]) 1 = PA_ok [TieR [2%positive; w]]).
Proof.
  exists [(plain_ballot [4; 1]%positive, 2%Q); (plain_ballot [2; 3; 1]%positive, 2%Q)], [2%positive], 1%Q, 1%positive.
  split; [constructor; [simpl; intros [H|[]]; discriminate|constructor; [intros []|constructor]]|].
  split; [discriminate|]. split; intros [|]; vm_compute; reflexivity.
Qed.

(* changed ballots WITH shared ranks under split_equal_rankings: refuted for the code as written.  The splicing loop of
   _decouple_equal_rankings advances its offset by the length of the spliced permutation instead of that length minus
   one, so from the second shared rank of a ballot on the rank behind the shared one is overwritten:
   ({X},{Y},Z,W) counts as (X,{Y},Y,W) but ({X},{Y},W,Z) as (X,{Y},Y,Z) - moving W up one place removes it from the
   ballot.  {({X},{Y},Z,W): 1, (X): 1, (W): 2} elects W (3 of 4 in the fourth round); after the move nobody is elected.
   With the repaired loop W wins both times. *)
Theorem C17_bucklin_shared_refuted :
  exists pre post (p1 p2 p3 : ranked) (x : Q) (w : C), ~ In w (flatten p2) /\ (0 <= x)%Q /\
    bucklin false (pre ++ (p1 ++ p2 ++ IP w :: p3, x) :: post) 1 = PA_ok [Cand w] /\
    bucklin false (pre ++ (p1 ++ IP w :: p2 ++ p3, x) :: post) 1 = PA_ok [] /\
    bucklin true (pre ++ (p1 ++ p2 ++ IP w :: p3, x) :: post) 1 = PA_ok [Cand w] /\
    bucklin true (pre ++ (p1 ++ IP w :: p2 ++ p3, x) :: post) 1 = PA_ok [Cand w].
Proof.
  exists [], [([IP 1%positive], 1%Q); ([IP 4%positive], 2%Q)], [IS [1%positive]; IS [2%positive]], [IP 3%positive], [], 1%Q, 4%positive.
  split; [simpl; intros [H|[]]; discriminate|]. split; [discriminate|]. repeat split; vm_compute; reflexivity.
Qed.

(* Changed ballots WITH shared ranks under split_equal_rankings, repaired splicing loop (fx = true: the library with
   fixes/C17-bucklin-splice-offset.diff "offset advanced by len - 1" and the repair of finding C10-bucklin-decouple-overwrite
   "adds the split weight to a ballot that already exists"; the check probes which loop the implementation has).  Proofs/BucklinShared_proofs.v.
   The clause as stated for all inputs: *)
Definition C17_bucklin_shared_full_statement : Prop :=
  forall pre post (p1 p2 p3 : ranked) (x : Q) (w : C),
  Forall (fun bw => 0 <= snd bw)%Q (pre ++ post) -> (0 <= x)%Q -> ~ In w (flatten p2) ->
  bucklin true (pre ++ (p1 ++ p2 ++ IP w :: p3, x) :: post) 1 = PA_ok [Cand w] ->
  bucklin true (pre ++ (p1 ++ IP w :: p2 ++ p3, x) :: post) 1 = PA_ok [Cand w].

(* the repaired _decouple_equal_rankings is LINEAR in the profile: for EVERY functional f of a ballot the f-weighted sum of
   the decoupled profile is the sum over the original ballots of the MEAN of f over the variants of the ballot
   ([spread f b] = f b for a ballot without shared ranks, else the mean over [variants true b]); the variants are the
   in-place expansions of the shared ranks by their permutations (first shared rank slowest), none has a shared rank and
   there is at least one.  (False of the loop as written: a variant can keep a shared rank, and the deleted key loses weight.) *)
Theorem C17_decouple_linear : forall (f : ranked -> Q) (votes : list (ranked * Q)),
  (rsum f (decouple true votes) == rsum (spread f) votes)%Q /\
  (forall b, variants true b = svariants b /\ svariants b <> [] /\ forall v, In v (svariants b) -> has_shared v = false) /\
  (forall k, In k (map fst (decouple true votes)) -> has_shared k = false).
Proof.
  intros f votes. split; [apply decouple_linear|]. split; [|apply decouple_plain_keys].
  intros b. split; [apply variants_svariants|]. split; [apply svariants_nonempty|apply svariants_plain].
Qed.

(* general form with shared ranks split: one ballot (b, x) is replaced by (b', x) such that, ON AVERAGE OVER THE VARIANTS, b' has
   at no round given w less and nobody else more.  b and b' arbitrary (shared ranks, truncated, different numbers of variants). *)
Theorem C17_preference_addition_split_general : forall (coef : nat -> Q) pre post (b b' : ranked) (x : Q) (w : C),
  Forall (fun bw => 0 <= snd bw)%Q (pre ++ post) -> (0 <= x)%Q ->
  (forall r, spread (fun v => cumb coef v r w) b <= spread (fun v => cumb coef v r w) b')%Q ->
  (forall r c, c <> w -> spread (fun v => cumb coef v r c) b' <= spread (fun v => cumb coef v r c) b)%Q ->
  pa_eval true coef true (pre ++ (b, x) :: post) 1 = PA_ok [Cand w] ->
  pa_eval true coef true (pre ++ (b', x) :: post) 1 = PA_ok [Cand w].
Proof. exact pa_mono_replace_split. Qed.

(* the winner (on a rank of its own) moves up past any items - plain or shared ranks - on a ballot that may contain shared
   ranks anywhere (also further occurrences of w): any non-negative non-increasing coefficients.  The variants of the old and
   of the new ballot correspond one to one (same permutations of the same shared ranks, same order), each pair related by the
   upward move of w on a strict ranking. *)
Theorem C17_preference_addition_shared : forall (coef : nat -> Q) pre post (p1 p2 p3 : ranked) (x : Q) (w : C),
  (forall i, 0 <= coef i)%Q -> (forall i, coef (S i) <= coef i)%Q ->
  Forall (fun bw => 0 <= snd bw)%Q (pre ++ post) -> (0 <= x)%Q -> ~ In w (flatten p2) ->
  pa_eval true coef true (pre ++ (p1 ++ p2 ++ IP w :: p3, x) :: post) 1 = PA_ok [Cand w] ->
  pa_eval true coef true (pre ++ (p1 ++ IP w :: p2 ++ p3, x) :: post) 1 = PA_ok [Cand w].
Proof. exact pa_move_up_shared. Qed.

(* the clause itself: Bucklin, and the Oklahoma preset *)
Theorem C17_bucklin_shared : C17_bucklin_shared_full_statement.
Proof.
  intros pre post p1 p2 p3 x w. destruct bucklin_coef_good as [H1 H2].
  exact (pa_move_up_shared bucklin_coef pre post p1 p2 p3 x w H1 H2).
Qed.

Theorem C17_oklahoma_shared : forall pre post (p1 p2 p3 : ranked) (x : Q) (w : C),
  Forall (fun bw => 0 <= snd bw)%Q (pre ++ post) -> (0 <= x)%Q -> ~ In w (flatten p2) ->
  oklahoma true (pre ++ (p1 ++ p2 ++ IP w :: p3, x) :: post) 1 = PA_ok [Cand w] ->
  oklahoma true (pre ++ (p1 ++ IP w :: p2 ++ p3, x) :: post) 1 = PA_ok [Cand w].
Proof.
  intros pre post p1 p2 p3 x w. destruct oklahoma_coef_good as [H1 H2].
  exact (pa_move_up_shared oklahoma_coef pre post p1 p2 p3 x w H1 H2).
Qed.

(* The winner LEAVES a shared rank (Proofs/BucklinLeave_proofs.v): from the shared rank {la, w, lb} to a place of its own, directly
   above the rest {la, lb} of the rank or further up past the items p2.  The old ballot has k! variants for that rank, the new one
   (k-1)!; itertools.permutations of (la ++ w :: lb) is, as a multiset, every insertion of w into every permutation of (la ++ lb)
   ([perms_insert], proved for the model of permutations [perms_n]/[picks] by sums), so the sum of any w-monotone functional over the
   old variants is at most k times the sum over the new ones, and the means are ordered. *)
Theorem C17_preference_addition_leave_shared : forall (coef : nat -> Q) pre post (p1 p2 p3 : ranked) (la lb : list C) (x : Q) (w : C),
  (forall i, 0 <= coef i)%Q -> (forall i, coef (S i) <= coef i)%Q ->
  Forall (fun bw => 0 <= snd bw)%Q (pre ++ post) -> (0 <= x)%Q -> ~ In w (la ++ lb) -> ~ In w (flatten p2) ->
  pa_eval true coef true (pre ++ (p1 ++ p2 ++ IS (la ++ w :: lb) :: p3, x) :: post) 1 = PA_ok [Cand w] ->
  pa_eval true coef true (pre ++ (p1 ++ IP w :: p2 ++ IS (la ++ lb) :: p3, x) :: post) 1 = PA_ok [Cand w].
Proof. exact pa_leave_shared_up. Qed.

Theorem C17_bucklin_leave_shared : forall pre post (p1 p2 p3 : ranked) (la lb : list C) (x : Q) (w : C),
  Forall (fun bw => 0 <= snd bw)%Q (pre ++ post) -> (0 <= x)%Q -> ~ In w (la ++ lb) -> ~ In w (flatten p2) ->
  bucklin true (pre ++ (p1 ++ p2 ++ IS (la ++ w :: lb) :: p3, x) :: post) 1 = PA_ok [Cand w] ->
  bucklin true (pre ++ (p1 ++ IP w :: p2 ++ IS (la ++ lb) :: p3, x) :: post) 1 = PA_ok [Cand w].
Proof.
  intros pre post p1 p2 p3 la lb x w. destruct bucklin_coef_good as [H1 H2].
  exact (pa_leave_shared_up bucklin_coef pre post p1 p2 p3 la lb x w H1 H2).
Qed.

Theorem C17_oklahoma_leave_shared : forall pre post (p1 p2 p3 : ranked) (la lb : list C) (x : Q) (w : C),
  Forall (fun bw => 0 <= snd bw)%Q (pre ++ post) -> (0 <= x)%Q -> ~ In w (la ++ lb) -> ~ In w (flatten p2) ->
  oklahoma true (pre ++ (p1 ++ p2 ++ IS (la ++ w :: lb) :: p3, x) :: post) 1 = PA_ok [Cand w] ->
  oklahoma true (pre ++ (p1 ++ IP w :: p2 ++ IS (la ++ lb) :: p3, x) :: post) 1 = PA_ok [Cand w].
Proof.
  intros pre post p1 p2 p3 la lb x w. destruct oklahoma_coef_good as [H1 H2].
  exact (pa_leave_shared_up oklahoma_coef pre post p1 p2 p3 la lb x w H1 H2).
Qed.

(* two ballots with the same variants are interchangeable (e.g. a shared rank with one member written as a plain rank); so when w
   leaves a shared PAIR {w, c} the remaining member may be written as the plain rank c *)
Theorem C17_preference_addition_same_variants : forall (coef : nat -> Q) pre post (b b' : ranked) (x : Q) (w : C),
  Forall (fun bw => 0 <= snd bw)%Q (pre ++ post) -> (0 <= x)%Q -> svariants b = svariants b' ->
  pa_eval true coef true (pre ++ (b, x) :: post) 1 = PA_ok [Cand w] ->
  pa_eval true coef true (pre ++ (b', x) :: post) 1 = PA_ok [Cand w].
Proof. exact pa_same_variants. Qed.

Theorem C17_preference_addition_leave_pair : forall (coef : nat -> Q) pre post (p1 p2 p3 : ranked) (la lb : list C) (c : C) (x : Q) (w : C),
  (forall i, 0 <= coef i)%Q -> (forall i, coef (S i) <= coef i)%Q ->
  Forall (fun bw => 0 <= snd bw)%Q (pre ++ post) -> (0 <= x)%Q -> la ++ lb = [c] -> c <> w -> ~ In w (flatten p2) ->
  pa_eval true coef true (pre ++ (p1 ++ p2 ++ IS (la ++ w :: lb) :: p3, x) :: post) 1 = PA_ok [Cand w] ->
  pa_eval true coef true (pre ++ (p1 ++ IP w :: p2 ++ IP c :: p3, x) :: post) 1 = PA_ok [Cand w].
Proof. exact pa_leave_pair. Qed.

(* non-vacuity: {(A,{B,C,W}): 2, (W): 1, (B,W): 3, (A): 1} (A,B,C = 1,2,3, W = 6): Bucklin elects W (without the first ballot: B); W leaves
   the shared rank of the first ballot for the first place: (W,A,{B,C}); 6 variants before, 2 after *)
Example C17_bucklin_leave_example :
  let post := [([IP 6%positive], 1%Q); ([IP 2; IP 6]%positive, 3%Q); ([IP 1%positive], 1%Q)] in
  bucklin true ([] ++ ([] ++ [IP 1%positive] ++ IS ([2%positive] ++ 6%positive :: [3%positive]) :: [], 2%Q) :: post) 1 = PA_ok [Cand 6%positive] /\
  bucklin true ([] ++ ([] ++ IP 6%positive :: [IP 1%positive] ++ IS ([2%positive] ++ [3%positive]) :: [], 2%Q) :: post) 1 = PA_ok [Cand 6%positive] /\
  length (variants true [IP 1; IS [2; 6; 3]]%positive) = 6%nat /\ length (variants true [IP 6; IP 1; IS [2; 3]]%positive) = 2%nat.
Proof. vm_compute. repeat split; reflexivity. Qed.

(* non-vacuity: {({A,B},{C,D},E,W): 2, (C,W): 3, (W): 1} (A..E = 1..5, W = 6): the first ballot has 4 variants of weight 1/2 each;
   Bucklin elects W in both profiles (without that ballot C would win) *)
Example C17_bucklin_shared_example :
  let post := [([IP 3; IP 6]%positive, 3%Q); ([IP 6%positive], 1%Q)] in
  bucklin true post 1 = PA_ok [Cand 3%positive] /\
  length (variants true [IS [1; 2]; IS [3; 4]; IP 5; IP 6]%positive) = 4%nat /\
  bucklin true ([] ++ ([IS [1; 2]%positive] ++ [IS [3; 4]%positive; IP 5%positive] ++ IP 6%positive :: [], 2%Q) :: post) 1 = PA_ok [Cand 6%positive] /\
  bucklin true ([] ++ ([IS [1; 2]%positive] ++ IP 6%positive :: [IS [3; 4]%positive; IP 5%positive] ++ [], 2%Q) :: post) 1 = PA_ok [Cand 6%positive].
Proof. vm_compute. repeat split; reflexivity. Qed.

(* non-vacuity: a profile with a truncated ballot and a split shared rank: {(D,A): 3, (B,C,A): 2, ({B,C},D): 1};
   Bucklin elects A in the third round (5 against D's 4, quota 3); after A has moved up to (B,A,C) already in the second.
   Under the Oklahoma coefficients D wins both times. *)
Example C17_bucklin_example :
  let others := [(plain_ballot [4; 1]%positive, 3%Q)] in
  let shared := [([IS [2; 3]%positive; IP 4%positive], 1%Q)] in
  bucklin false (others ++ (plain_ballot ([2%positive] ++ [3%positive] ++ 1%positive :: []), 2%Q) :: shared) 1 = PA_ok [Cand 1%positive] /\
  bucklin false (others ++ (plain_ballot ([2%positive] ++ 1%positive :: [3%positive] ++ []), 2%Q) :: shared) 1 = PA_ok [Cand 1%positive] /\
  oklahoma false (others ++ (plain_ballot ([2%positive] ++ [3%positive] ++ 1%positive :: []), 2%Q) :: shared) 1 = PA_ok [Cand 4%positive].
Proof. vm_compute. repeat split; reflexivity. Qed.

(* non-vacuity: 3 parties, D'Hondt, 5 -> 6 seats (the 5-seat run ends in a tie A/B for the last seat) *)
Example C17_example :
  map (tot_s (final_state d_hondt [(1%positive, 60#1); (2%positive, 30#1); (3%positive, 10#1)]%Q 5 [] []))
      [1%positive; 2%positive; 3%positive] = [3; 1; 0] /\
  map (tot_s (final_state d_hondt [(1%positive, 60#1); (2%positive, 30#1); (3%positive, 10#1)]%Q 6 [] []))
      [1%positive; 2%positive; 3%positive] = [4; 2; 0].
Proof. vm_compute. split; reflexivity. Qed.


(* The two highest-averages clauses for runs that end in a tie (Proofs/HouseTie_proofs.v, Proofs/VotesFull_proofs.v).
   [tie_seat s c] = 1 when c is a member of the reported tie of s (it may still get one of the tied seats), else 0;
   a party's possible total is [tot_s s c + tie_seat s c]. *)

(* House monotonicity, the exact relation of the run for n seats and the run for n + 1 seats ([house_rel]): either the smaller run
   reports no tie and nobody's sure seats drop; or it reports Tie(T, r) and the larger run has the SAME sure seats and reports
   Tie(T, r + 1), or - when r + 1 = |T| - gives every member of T one more sure seat and reports no tie.
   Every divisor function, votes, caps, non-negative previous gains. *)
Theorem C17_house_exact : forall (d : Z -> Q) (votes : list (C * Q)) (caps prev : list (C * Z)) (n : Z),
  Forall (fun cv => 0 <= snd cv) prev ->
  let sa := final_state d votes n prev caps in let sb := final_state d votes (n + 1) prev caps in
  (st_tie sa = None /\ forall c, tot_s sa c <= tot_s sb c) \/
  (exists T r, st_tie sa = Some (T, r) /\
     ((st_tie sb = Some (T, r + 1) /\ st_totals sb = st_totals sa) \/
      (st_tie sb = None /\ Z.of_nat (length T) = r + 1 /\ forall c, tot_s sb c = tot_s sa c + count c T))).
Proof. intros d votes caps prev n Hp. exact (house_exact d votes caps n prev Hp). Qed.

(* ... so neither the sure seats (C17_house) nor the possible total of any party ever drop when a seat is added *)
Theorem C17_house_tie : forall (d : Z -> Q) (votes : list (C * Q)) (caps prev : list (C * Z)) (n : Z),
  Forall (fun cv => 0 <= snd cv) prev -> forall c,
  tot_s (final_state d votes n prev caps) c + tie_seat (final_state d votes n prev caps) c <=
  tot_s (final_state d votes (n + 1) prev caps) c + tie_seat (final_state d votes (n + 1) prev caps) c.
Proof. intros d votes caps prev n Hp. exact (house_tie_monotone d votes caps n prev Hp). Qed.

(* Vote monotonicity in full: every positive NON-DECREASING divisor (no strictness), votes >= 0 (zero-vote parties, p itself may
   start from zero), caps (p capped, others capped, caps exhausted), non-negative previous gains, and whatever way either run ends:
   party p gains votes, everybody else keeps theirs; then (i) the seats p holds for certain do not drop and (ii) its possible total
   (sure seats + the seat it may still get out of a reported tie) does not drop.  C17_votes is the special case "new run tie-free". *)
Theorem C17_votes_full : forall (d : Z -> Q) (votes votes' : list (C * Q)) (caps prev : list (C * Z)) (n : Z)
    (p : C) (vp vp' : Q),
  divisor_ok d ->
  (forall c v, In (c, v) votes -> (0 <= v)%Q) -> (forall c v, In (c, v) votes' -> (0 <= v)%Q) ->
  NoDup (map fst votes) -> NoDup (map fst votes') -> (forall c, 0 <= dget_or prev c 0) ->
  dget votes p = Some vp -> dget votes' p = Some vp' -> (vp <= vp')%Q ->
  (forall c, c <> p -> dget votes' c = dget votes c) ->
  let sa := final_state d votes n prev caps in let sb := final_state d votes' n prev caps in
  tot_s sa p <= tot_s sb p /\ tot_s sa p + tie_seat sa p <= tot_s sb p + tie_seat sb p.
Proof.
  intros d votes votes' caps prev n p vp vp' [Hpos Hmono] Hv Hv' Hnd Hnd' Hprev Hp Hp' Hle Hoth.
  exact (votes_monotone_full d votes votes' caps prev n Hpos Hmono Hv Hv' Hnd Hnd' Hprev p vp vp' Hp Hp' Hle Hoth).
Qed.

(* the hypothesis on the divisor holds for the five built-in sequences and for modified_first_coef(f, c) with 0 < c <= f(1) *)
Theorem C17_builtin_divisors_ok :
  (forall i, divisor_ok (divisor_by_id i)) /\
  (forall f c, divisor_ok f -> (0 < c)%Q -> (c <= f 1%Z)%Q -> divisor_ok (modified_first_coef f c)).
Proof. split; [exact builtin_ok|exact modified_ok]. Qed.

(* non-vacuity: d'Hondt, 2 seats, C has no votes and is capped.  A: 8 -> 10 votes (B: 20): before, B takes both seats; after, B holds one
   and A and B tie for the other - A's sure seats stay 0, its possible total rises from 0 to 1 (and B, who did not change, loses a sure seat);
   three zero-vote parties tie for both seats; when A gets 3 votes it takes both *)
Example C17_votes_full_example :
  let show s := (map (tot_s s) [1; 2; 3]%positive, st_tie s, map (tie_seat s) [1; 2; 3]%positive) in
  show (final_state d_hondt [(1%positive, 8#1); (2%positive, 20#1); (3%positive, 0#1)]%Q 2 [] [(3%positive, 1)]) = ([0; 2; 0], None, [0; 0; 0]) /\
  show (final_state d_hondt [(1%positive, 10#1); (2%positive, 20#1); (3%positive, 0#1)]%Q 2 [] [(3%positive, 1)])
    = ([0; 1; 0], Some ([2%positive; 1%positive], 1), [1; 1; 0]) /\
  show (final_state d_hondt [(1%positive, 0#1); (2%positive, 0#1); (3%positive, 0#1)]%Q 2 [] [])
    = ([0; 0; 0], Some ([1%positive; 2%positive; 3%positive], 2), [1; 1; 1]) /\
  show (final_state d_hondt [(1%positive, 3#1); (2%positive, 0#1); (3%positive, 0#1)]%Q 2 [] []) = ([2; 0; 0], None, [0; 0; 0]).
Proof. vm_compute. repeat split; reflexivity. Qed.

(* non-vacuity of both branches of C17_house_exact: three equal parties, 4 -> 5 seats: Tie(T, 1) becomes Tie(T, 2); 60/30/10, 5 -> 6 seats:
   Tie({A, B}, 1) is resolved, both get the seat *)
Example C17_house_exact_example :
  let show s := (map (tot_s s) [1; 2; 3]%positive, st_tie s) in
  show (final_state d_hondt [(1%positive, 6#1); (2%positive, 6#1); (3%positive, 6#1)]%Q 4 [] []) = ([1; 1; 1], Some ([1; 2; 3]%positive, 1)) /\
  show (final_state d_hondt [(1%positive, 6#1); (2%positive, 6#1); (3%positive, 6#1)]%Q 5 [] []) = ([1; 1; 1], Some ([1; 2; 3]%positive, 2)) /\
  show (final_state d_hondt [(1%positive, 60#1); (2%positive, 30#1); (3%positive, 10#1)]%Q 5 [] []) = ([3; 1; 0], Some ([1; 2]%positive, 1)) /\
  show (final_state d_hondt [(1%positive, 60#1); (2%positive, 30#1); (3%positive, 10#1)]%Q 6 [] []) = ([4; 2; 0], None).
Proof. vm_compute. repeat split; reflexivity. Qed.

(* Largest remainder: NOT among the rules the property claims monotone ("under every highest-averages rule ..."); recorded for contrast,
   kernel-evaluated on the model of LargestRemainder.evaluate (Model/QuotaDistributor.v, tied to the code by the streams of C02 and by the
   stream lr-paradox here) and replayed on the implementation (corpus/C17/lr-*.json).
   Alabama paradox: Hare quota, votes 3 / 1 / 7: in a house of 5 party B holds a seat, in a house of 6 it holds none. *)
Theorem C17_lr_house_refuted :
  exists (votes : list (C * Q)) (n : Z) (p : C) s1 s2,
    QuotaDistributor.lr_evaluate Quota.hare true QuotaDistributor.PError votes n [] [] = QuotaDistributor.LR_ok s1 /\
    QuotaDistributor.lr_evaluate Quota.hare true QuotaDistributor.PError votes (n + 1) [] [] = QuotaDistributor.LR_ok s2 /\
    QuotaDistributor.kdget s2 p < QuotaDistributor.kdget s1 p.
Proof.
  exists [(1%positive, 3#1); (2%positive, 1#1); (3%positive, 7#1)]%Q, 5, 2%positive,
    [(QuotaDistributor.K 1%positive, 1); (QuotaDistributor.K 3%positive, 3); (QuotaDistributor.K 2%positive, 1)], [(QuotaDistributor.K 1%positive, 2); (QuotaDistributor.K 3%positive, 4)].
  vm_compute. repeat split; reflexivity.
Qed.

(* a party that gains a vote loses a seat under a ROUNDED quota (Droop = floor(V / (n + 1)) + 1 jumps from 1 to 2): votes 1 / 4, 5 seats:
   B holds 4 seats; with 5 votes it holds 3 (the remainder stage gives every party at most one seat: only 4 of the 5 seats are filled) *)
Theorem C17_lr_votes_droop_refuted :
  exists (votes votes' : list (C * Q)) (n : Z) (p : C) (vp vp' : Q) s1 s2,
    dget votes p = Some vp /\ dget votes' p = Some vp' /\ (vp <= vp')%Q /\ (forall c, c <> p -> dget votes' c = dget votes c) /\
    QuotaDistributor.lr_evaluate Quota.droop true QuotaDistributor.PError votes n [] [] = QuotaDistributor.LR_ok s1 /\
    QuotaDistributor.lr_evaluate Quota.droop true QuotaDistributor.PError votes' n [] [] = QuotaDistributor.LR_ok s2 /\
    QuotaDistributor.kdget s2 p < QuotaDistributor.kdget s1 p.
Proof.
  exists [(1%positive, 1#1); (2%positive, 4#1)]%Q, [(1%positive, 1#1); (2%positive, 5#1)]%Q, 5, 2%positive, (4#1)%Q, (5#1)%Q,
    [(QuotaDistributor.K 1%positive, 1); (QuotaDistributor.K 2%positive, 4)], [(QuotaDistributor.K 2%positive, 3); (QuotaDistributor.K 1%positive, 1)].
  split; [reflexivity|]. split; [reflexivity|]. split; [vm_compute; discriminate|]. split.
  - intros c Hc. cbn [dget]. destruct (ceqb c 1%positive); [reflexivity|]. destruct (ceqb c 2%positive) eqn:E; [|reflexivity].
    apply Pos.eqb_eq in E. congruence.
  - vm_compute. repeat split; reflexivity.
Qed.


(* Positional rules, the changed ballot WITH shared ranks (Proofs/PositionalShared_proofs.v).  In the model of
   RankedToPositionalVotes.convert ([img_positional], as in the code) every member of a shared rank gets the score of the rank's index.
   General additive form first: the sole winner stays when everybody else gains at most what the winner gains (C17_additive is the case
   "winner gains >= 0 >= the others' gain") - needed because under modified Borda a ballot that gets one rank longer lifts every score by one. *)
Theorem C17_additive_diff : forall (B : Type) (image : B -> list (sx * Q)) pre post (b b' : B) (w : Q) (kw : sx),
  (0 <= w)%Q ->
  (forall k, In k (map fst (image b')) -> k = kw \/ In k (map fst (image b))) ->
  In kw (map fst (image b')) ->
  (forall k, k <> kw -> (coef sx_eqb (image b') k - coef sx_eqb (image b) k <= coef sx_eqb (image b') kw - coef sx_eqb (image b) kw)%Q) ->
  get_n_best Qle_bool (dconv image (pre ++ (b, w) :: post)) 1 = [Cand kw] ->
  get_n_best Qle_bool (dconv image (pre ++ (b', w) :: post)) 1 = [Cand kw].
Proof. intros B image. exact (PositionalShared_proofs.additive_sole_winner_diff sx_eqb sx_eqb_spec image). Qed.

(* a ballot is ADDED: it names no new key and gives nobody more than the winner *)
Theorem C17_additive_added : forall (B : Type) (image : B -> list (sx * Q)) pre post (b' : B) (w : Q) (kw : sx),
  (0 <= w)%Q ->
  (forall k, In k (map fst (image b')) -> In k (map fst (dconv image (pre ++ post)))) ->
  (forall k, (coef sx_eqb (image b') k <= coef sx_eqb (image b') kw)%Q) ->
  get_n_best Qle_bool (dconv image (pre ++ post)) 1 = [Cand kw] ->
  get_n_best Qle_bool (dconv image (pre ++ (b', w) :: post)) 1 = [Cand kw].
Proof. intros B image. exact (PositionalShared_proofs.additive_added_ballot sx_eqb sx_eqb_spec image). Qed.

Lemma scorer_ok_is_b s : scorer_ok s = PositionalShared_proofs.scorer_ok_b s.
Proof. reflexivity. Qed.

(* the winner, on a rank of its own, moves up past the items p2 - plain or shared ranks - of a ballot that may contain shared ranks anywhere
   (further occurrences of w elsewhere on the ballot do not matter); every scorer with [scorer_ok]; no condition on the ballot length (when
   [rank_scores] refuses - Borda, more ranks than candidates - both images are empty) *)
Theorem C17_positional_shared : forall (s : Convert.scorer) (n_cands : nat) pre_b post_b (p1 p2 p3 : ranked) (w : C) (wgt : Q),
  (0 <= wgt)%Q -> ~ In w (flatten p2) -> scorer_ok s = true ->
  get_n_best Qle_bool (dconv (pos_img s n_cands) (pre_b ++ (p1 ++ p2 ++ IP w :: p3, wgt) :: post_b)) 1 = [Cand (kc w)] ->
  get_n_best Qle_bool (dconv (pos_img s n_cands) (pre_b ++ (p1 ++ IP w :: p2 ++ p3, wgt) :: post_b)) 1 = [Cand (kc w)].
Proof.
  intros s n_cands pre_b post_b p1 p2 p3 w wgt Hw Hnin Hok.
  exact (PositionalShared_proofs.positional_move_up_items s n_cands pre_b post_b p1 p2 p3 w wgt Hw Hnin (C17_scorer_ok s n_cands Hok)).
Qed.

(* the winner LEAVES a shared rank {la, w, lb} for a place of its own above it (directly, or further up past the items p2): the ballot gets one
   rank longer, so the score list is the one for k + 1 ranks.  For all six scorers under [scorer_ok] the two lists are related by [grow_ok]
   (C17_scorer_grow_ok: a score shifted one place down never gains, one that stays never loses, and staying gains no more than any upward move).
   No candidate twice on the ballot (C17_positional_twice_refuted).  When one member is left, it may be written as a plain rank. *)
Theorem C17_scorer_grow_ok : forall s n k sc sc', scorer_ok s = true ->
  rank_scores s n k = Some sc -> rank_scores s n (S k) = Some sc' -> PositionalShared_proofs.grow_ok sc sc'.
Proof. intros s n k sc sc' Hok. rewrite scorer_ok_is_b in Hok. exact (PositionalShared_proofs.scorer_grow_ok s n k sc sc' Hok). Qed.

Theorem C17_positional_leave_shared : forall (s : Convert.scorer) (n_cands : nat) pre_b post_b (p1 p2 p3 : ranked) (la lb : list C) (w : C) (wgt : Q) (sc' : list Q),
  (0 <= wgt)%Q -> NoDup (flatten (p1 ++ p2 ++ IS (la ++ w :: lb) :: p3)) -> scorer_ok s = true ->
  rank_scores s n_cands (S (length (p1 ++ p2 ++ IS (la ++ w :: lb) :: p3))) = Some sc' ->
  get_n_best Qle_bool (dconv (pos_img s n_cands) (pre_b ++ (p1 ++ p2 ++ IS (la ++ w :: lb) :: p3, wgt) :: post_b)) 1 = [Cand (kc w)] ->
  get_n_best Qle_bool (dconv (pos_img s n_cands) (pre_b ++ (p1 ++ IP w :: p2 ++ IS (la ++ lb) :: p3, wgt) :: post_b)) 1 = [Cand (kc w)].
Proof.
  intros s n_cands pre_b post_b p1 p2 p3 la lb w wgt sc' Hw Hnd Hok. rewrite scorer_ok_is_b in Hok.
  exact (PositionalShared_proofs.positional_leave_shared s n_cands pre_b post_b p1 p2 p3 la lb w wgt sc' Hw Hnd Hok).
Qed.

Theorem C17_positional_leave_pair : forall (s : Convert.scorer) (n_cands : nat) pre_b post_b (p1 p2 p3 : ranked) (la lb : list C) (w c : C) (wgt : Q) (sc' : list Q),
  (0 <= wgt)%Q -> NoDup (flatten (p1 ++ p2 ++ IS (la ++ w :: lb) :: p3)) -> scorer_ok s = true -> la ++ lb = [c] ->
  rank_scores s n_cands (S (length (p1 ++ p2 ++ IS (la ++ w :: lb) :: p3))) = Some sc' ->
  get_n_best Qle_bool (dconv (pos_img s n_cands) (pre_b ++ (p1 ++ p2 ++ IS (la ++ w :: lb) :: p3, wgt) :: post_b)) 1 = [Cand (kc w)] ->
  get_n_best Qle_bool (dconv (pos_img s n_cands) (pre_b ++ (p1 ++ IP w :: p2 ++ IP c :: p3, wgt) :: post_b)) 1 = [Cand (kc w)].
Proof.
  intros s n_cands pre_b post_b p1 p2 p3 la lb w c wgt sc' Hw Hnd Hok. rewrite scorer_ok_is_b in Hok.
  exact (PositionalShared_proofs.positional_leave_shared_single s n_cands pre_b post_b p1 p2 p3 la lb w c wgt sc' Hw Hnd Hok).
Qed.

(* an UNRANKED winner gets ranked (anywhere: p1 above it, p2 below it): an unranked candidate gets 0 from the ballot, so the new score of w must
   not be negative - true of every scorer with [scorer_ok] except Borda with a negative base ([scorer_nonneg_b]); refuted otherwise
   (C17_positional_negative_refuted) *)
Theorem C17_positional_rank_unranked : forall (s : Convert.scorer) (n_cands : nat) pre_b post_b (p1 p2 : ranked) (w : C) (wgt : Q) (sc' : list Q),
  (0 <= wgt)%Q -> ~ In w (flatten (p1 ++ p2)) -> NoDup (flatten (p1 ++ p2)) -> scorer_ok s = true ->
  PositionalShared_proofs.scorer_nonneg_b s = true ->
  rank_scores s n_cands (S (length (p1 ++ p2))) = Some sc' ->
  get_n_best Qle_bool (dconv (pos_img s n_cands) (pre_b ++ (p1 ++ p2, wgt) :: post_b)) 1 = [Cand (kc w)] ->
  get_n_best Qle_bool (dconv (pos_img s n_cands) (pre_b ++ (p1 ++ IP w :: p2, wgt) :: post_b)) 1 = [Cand (kc w)].
Proof.
  intros s n_cands pre_b post_b p1 p2 w wgt sc' Hw Hnin Hnd Hok. rewrite scorer_ok_is_b in Hok.
  exact (PositionalShared_proofs.positional_rank_unranked_nonneg s n_cands pre_b post_b p1 p2 w wgt sc' Hw Hnin Hnd Hok).
Qed.

(* a NEW ballot with the winner alone on top (shared ranks and truncation below it allowed), naming no new candidate and nobody twice *)
Theorem C17_positional_added : forall (s : Convert.scorer) (n_cands : nat) pre_b post_b (rest : ranked) (w : C) (wgt : Q),
  (0 <= wgt)%Q -> NoDup (w :: flatten rest) ->
  (forall c, In c (flatten rest) -> In (kc c) (map fst (dconv (pos_img s n_cands) (pre_b ++ post_b)))) ->
  scorer_ok s = true -> PositionalShared_proofs.scorer_nonneg_b s = true ->
  get_n_best Qle_bool (dconv (pos_img s n_cands) (pre_b ++ post_b)) 1 = [Cand (kc w)] ->
  get_n_best Qle_bool (dconv (pos_img s n_cands) (pre_b ++ (IP w :: rest, wgt) :: post_b)) 1 = [Cand (kc w)].
Proof.
  intros s n_cands pre_b post_b rest w wgt Hw Hnd Hc Hok. rewrite scorer_ok_is_b in Hok.
  exact (PositionalShared_proofs.positional_added_ballot_nonneg s n_cands pre_b post_b rest w wgt Hw Hnd Hc Hok).
Qed.

(* the two extra conditions are needed (all witnesses replayed on the implementation).  Borda(base = -5) has negative scores: {(A,B,C): 1, (B): 1}
   elects A; ranking A FIRST on the second ballot, (B) -> (A,B), makes C win; {(A,B): 1} elects A, the added bullet vote (A) makes B win.
   A candidate twice on the ballot: see the three profiles in [positional_twice_refuted]. *)
Theorem C17_positional_negative_refuted :
  (exists (s : Convert.scorer) (n_cands : nat) pre_b post_b (p1 p2 : ranked) (w : C) (wgt : Q) (sc' : list Q),
    (0 <= wgt)%Q /\ ~ In w (flatten (p1 ++ p2)) /\ NoDup (flatten (p1 ++ p2)) /\ scorer_ok s = true /\
    rank_scores s n_cands (S (length (p1 ++ p2))) = Some sc' /\ (nth (length p1) sc' 0 < 0)%Q /\
    get_n_best Qle_bool (dconv (pos_img s n_cands) (pre_b ++ (p1 ++ p2, wgt) :: post_b)) 1 = [Cand (kc w)] /\
    get_n_best Qle_bool (dconv (pos_img s n_cands) (pre_b ++ (p1 ++ IP w :: p2, wgt) :: post_b)) 1 = [Cand (kc 3%positive)] /\
    w <> 3%positive) /\
  (exists (s : Convert.scorer) (n_cands : nat) pre_b post_b (rest : ranked) (w : C) (wgt : Q),
    (0 <= wgt)%Q /\ NoDup (w :: flatten rest) /\
    (forall c, In c (flatten rest) -> In (kc c) (map fst (dconv (pos_img s n_cands) (pre_b ++ post_b)))) /\
    scorer_ok s = true /\
    get_n_best Qle_bool (dconv (pos_img s n_cands) (pre_b ++ post_b)) 1 = [Cand (kc w)] /\
    get_n_best Qle_bool (dconv (pos_img s n_cands) (pre_b ++ (IP w :: rest, wgt) :: post_b)) 1 = [Cand (kc 2%positive)] /\
    w <> 2%positive).
Proof.
  split; [exact PositionalShared_proofs.positional_rank_unranked_negative_refuted|exact PositionalShared_proofs.positional_added_ballot_negative_refuted].
Qed.

Definition C17_positional_twice_refuted := PositionalShared_proofs.positional_twice_refuted.
Definition C17_positional_shared_examples := PositionalShared_proofs.positional_shared_examples.

(* Copeland / minimax: an UNRANKED winner gets ranked, and an ADDED ballot (Proofs/RaisesAdded_proofs.v), through the model of
   RankedToCondorcetVotes(unranked_at_bottom=True).convert.
   w is not on the ballot p1 ++ p2 (it counts as below everybody ranked there and level with the other unranked candidates) and gets ranked
   between p1 and p2 - bottom, middle or top: the dictionary changes EXACTLY by [rank_gain]: count(w, c) += x for c in p2 and for the
   candidates the new ballot still leaves unranked, count(c, w) -= x for c in p2, nothing else. *)
Theorem C17_ballot_rank_exact : forall (pre post : Hybrids.rvotes) (p1 p2 : ranked) (x : Z) (w a c : C),
  ~ In w (flatten (p1 ++ p2)) -> In w (Hybrids_proofs.cands_of (pre ++ (p1 ++ p2, x) :: post)) ->
  pget0 (Hybrids.pairwise (pre ++ (p1 ++ IP w :: p2, x) :: post)) (a, c) =
  pget0 (Hybrids.pairwise (pre ++ (p1 ++ p2, x) :: post)) (a, c)
  + x * RaisesAdded_proofs.rank_gain (Hybrids_proofs.cands_of (pre ++ (p1 ++ p2, x) :: post)) p1 p2 w a c.
Proof. intros pre post p1 p2 x w a c H1 H2. exact (RaisesAdded_proofs.pairwise_rank_exact pre post p1 p2 x w H1 H2 a c). Qed.

Theorem C17_ballot_rank_raises : forall (pre post : Hybrids.rvotes) (p1 p2 : ranked) (x : Z) (w : C),
  ~ In w (flatten (p1 ++ p2)) -> In w (Hybrids_proofs.cands_of (pre ++ (p1 ++ p2, x) :: post)) ->
  Hybrids_proofs.wf_votes (pre ++ (p1 ++ p2, x) :: post) = true -> Hybrids.pairwise (pre ++ (p1 ++ p2, x) :: post) <> [] ->
  raises_s (Hybrids.pairwise (pre ++ (p1 ++ p2, x) :: post)) (Hybrids.pairwise (pre ++ (p1 ++ IP w :: p2, x) :: post)) w.
Proof. intros pre post p1 p2 x w. exact (RaisesAdded_proofs.pairwise_rank_raises pre post p1 p2 x w). Qed.

Theorem C17_copeland_ballots_rank : forall (pre post : Hybrids.rvotes) (p1 p2 : ranked) (x : Z) (w : C) (so : bool),
  Hybrids_proofs.wf_votes (pre ++ (p1 ++ p2, x) :: post) = true -> ~ In w (flatten (p1 ++ p2)) ->
  copeland false (Hybrids.pairwise (pre ++ (p1 ++ p2, x) :: post)) 1 = [Cand w] ->
  copeland so (Hybrids.pairwise (pre ++ (p1 ++ IP w :: p2, x) :: post)) 1 = [Cand w].
Proof. exact RaisesAdded_proofs.copeland_ballot_rank. Qed.

Theorem C17_minimax_ballots_rank : forall (pre post : Hybrids.rvotes) (p1 p2 : ranked) (x : Z) (w : C) (s : Condorcet.scorer),
  Hybrids_proofs.wf_votes (pre ++ (p1 ++ p2, x) :: post) = true -> ~ In w (flatten (p1 ++ p2)) ->
  minimax s (Hybrids.pairwise (pre ++ (p1 ++ p2, x) :: post)) 1 = [Cand w] ->
  minimax s (Hybrids.pairwise (pre ++ (p1 ++ IP w :: p2, x) :: post)) 1 = [Cand w].
Proof. exact RaisesAdded_proofs.minimax_ballot_rank. Qed.

(* an ADDED ballot r (x units, no new candidate): every entry grows by x times the coefficient of r; the bullet vote for w: count(w, c) += x for
   every other candidate of the profile, nothing else - so Copeland and minimax (all three scorers) keep the sole winner *)
Theorem C17_ballot_added_exact : forall (pre post : Hybrids.rvotes) (r : ranked) (x : Z) (a c : C),
  (forall k, In k (flatten r) -> In k (Hybrids_proofs.cands_of (pre ++ post))) ->
  pget0 (Hybrids.pairwise (pre ++ (r, x) :: post)) (a, c) =
  pget0 (Hybrids.pairwise (pre ++ post)) (a, c) + x * Hybrids_proofs.coef (Hybrids_proofs.cands_of (pre ++ post)) r a c.
Proof. intros pre post r x a c H. exact (RaisesAdded_proofs.pairwise_added_exact pre post r x H a c). Qed.

Theorem C17_ballot_bullet_exact : forall (pre post : Hybrids.rvotes) (x : Z) (w a c : C),
  In w (Hybrids_proofs.cands_of (pre ++ post)) ->
  pget0 (Hybrids.pairwise (pre ++ ([IP w], x) :: post)) (a, c) =
  pget0 (Hybrids.pairwise (pre ++ post)) (a, c)
  + x * (Hybrids_proofs.cnt a [w] * Hybrids_proofs.cnt c (set_diff (Hybrids_proofs.cands_of (pre ++ post)) [w])).
Proof. intros pre post x w a c H. exact (RaisesAdded_proofs.pairwise_bullet_exact pre post x w H a c). Qed.

Theorem C17_copeland_ballots_added_bullet : forall (pre post : Hybrids.rvotes) (x : Z) (w : C) (so : bool),
  Hybrids_proofs.wf_votes (pre ++ post) = true -> 0 <= x ->
  copeland false (Hybrids.pairwise (pre ++ post)) 1 = [Cand w] ->
  copeland so (Hybrids.pairwise (pre ++ ([IP w], x) :: post)) 1 = [Cand w].
Proof. exact RaisesAdded_proofs.copeland_ballot_added_bullet. Qed.

Theorem C17_minimax_ballots_added_bullet : forall (pre post : Hybrids.rvotes) (x : Z) (w : C) (s : Condorcet.scorer),
  Hybrids_proofs.wf_votes (pre ++ post) = true -> 0 <= x ->
  minimax s (Hybrids.pairwise (pre ++ post)) 1 = [Cand w] ->
  minimax s (Hybrids.pairwise (pre ++ ([IP w], x) :: post)) 1 = [Cand w].
Proof. exact RaisesAdded_proofs.minimax_ballot_added_bullet. Qed.

(* a LONGER added ballot (w alone on top, then any items) changes contests among the others, so [raises_s] fails; what holds is [lifts_by .. w x]:
   w gains at least x against everybody, nobody gains against w, any other count grows by at most x.  Minimax with margins and with pairwise
   opposition keeps the sole winner under it (every defeat of w shrinks by at least as much as anybody else's can) ... *)
Theorem C17_ballot_added_lifts : forall (pre post : Hybrids.rvotes) (rest : ranked) (x : Z) (w : C),
  In w (Hybrids_proofs.cands_of (pre ++ post)) -> (forall c, In c (flatten rest) -> In c (Hybrids_proofs.cands_of (pre ++ post))) ->
  Hybrids_proofs.wf_votes (pre ++ (IP w :: rest, x) :: post) = true -> Hybrids.pairwise (pre ++ post) <> [] ->
  RaisesAdded_proofs.lifts_by (Hybrids.pairwise (pre ++ post)) (Hybrids.pairwise (pre ++ (IP w :: rest, x) :: post)) w x.
Proof. exact RaisesAdded_proofs.pairwise_added_lifts. Qed.

Theorem C17_minimax_ballots_added : forall (pre post : Hybrids.rvotes) (rest : ranked) (x : Z) (w : C) (s : Condorcet.scorer),
  s <> WinningVotes ->
  Hybrids_proofs.wf_votes (pre ++ (IP w :: rest, x) :: post) = true ->
  (forall c, In c (flatten rest) -> In c (Hybrids_proofs.cands_of (pre ++ post))) ->
  minimax s (Hybrids.pairwise (pre ++ post)) 1 = [Cand w] ->
  minimax s (Hybrids.pairwise (pre ++ (IP w :: rest, x) :: post)) 1 = [Cand w].
Proof. exact RaisesAdded_proofs.minimax_ballot_added. Qed.

(* ... Copeland and minimax with winning votes do NOT (found on the implementation, minimised, kernel-evaluated on the model).
   Copeland: {(A,D,C): 2, (C,B): 2, (B,D): 2} elects B; one more ballot (B,C) turns the tie C - A into a win of C: first-order tie {C, B}, and
   the default second-order tie-break elects C alone.  Minimax, winning votes: {(B): 2, (D): 4, (A,B): 3} elects B; one more ballot (B,A) makes
   D - A and A - B ties, A and B are both undefeated: tie {A, B}. *)
Theorem C17_copeland_added_long_refuted : exists pre post rest x w,
  Hybrids_proofs.wf_votes (pre ++ (IP w :: rest, x) :: post) = true /\ 0 < x /\
  (forall c, In c (flatten rest) -> In c (Hybrids_proofs.cands_of (pre ++ post))) /\
  copeland false (Hybrids.pairwise (pre ++ post)) 1 = [Cand w] /\ copeland true (Hybrids.pairwise (pre ++ post)) 1 = [Cand w] /\
  copeland false (Hybrids.pairwise (pre ++ (IP w :: rest, x) :: post)) 1 = [TieR [3; 2]%positive] /\
  copeland true (Hybrids.pairwise (pre ++ (IP w :: rest, x) :: post)) 1 = [Cand 3%positive] /\ w <> 3%positive.
Proof. exact RaisesAdded_proofs.copeland_added_long_refuted. Qed.

Theorem C17_minimax_winvotes_added_long_refuted : exists pre post rest x w,
  Hybrids_proofs.wf_votes (pre ++ (IP w :: rest, x) :: post) = true /\ 0 < x /\
  (forall c, In c (flatten rest) -> In c (Hybrids_proofs.cands_of (pre ++ post))) /\
  minimax WinningVotes (Hybrids.pairwise (pre ++ post)) 1 = [Cand w] /\
  minimax WinningVotes (Hybrids.pairwise (pre ++ (IP w :: rest, x) :: post)) 1 = [TieR [1; 2]%positive].
Proof. exact RaisesAdded_proofs.minimax_winvotes_added_long_refuted. Qed.

Definition C17_ballot_rank_example := RaisesAdded_proofs.rank_example.
Definition C17_ballot_added_example := RaisesAdded_proofs.added_example.


(* ... and what IS true of largest remainder (Proofs/LRMono_proofs.v; again not claimed by the property): with the EXACT Hare quota V / n, no previous
   gains and no caps, a party that gains votes while the others keep theirs keeps the seats it holds for certain ([kdget], the plain key) and its
   possible total ([kposs] = plain key + 1 when it is a member of a Tie key), for every over-award policy and any insertion order of the new dictionary;
   the evaluation is always defined on this domain (C17_lr_hare_defined).  The whole-quota stage gives floor(v / q), the remainder stage is get_n_best on
   the fractional parts: a party at or above p afterwards either had its floor dropped (each such drop opens a remainder seat) or was at or above p before. *)
Theorem C17_lr_hare_votes : forall (pol : QuotaDistributor.policy) (votes votes' : list (C * Q)) (n : Z) (p : C) (vp vp' : Q) s1 s2,
  1 <= n -> NoDup (map fst votes) -> NoDup (map fst votes') ->
  (forall c v, In (c, v) votes -> (0 <= v)%Q) -> (forall c v, In (c, v) votes' -> (0 <= v)%Q) -> (0 < QuotaDistributor.qsumv votes)%Q ->
  dget votes p = Some vp -> dget votes' p = Some vp' -> (vp <= vp')%Q ->
  (forall c, c <> p -> dget votes' c = dget votes c) ->
  QuotaDistributor.lr_evaluate Quota.hare true pol votes n [] [] = QuotaDistributor.LR_ok s1 ->
  QuotaDistributor.lr_evaluate Quota.hare true pol votes' n [] [] = QuotaDistributor.LR_ok s2 ->
  QuotaDistributor.kdget s1 p <= QuotaDistributor.kdget s2 p /\ LRMono_proofs.kposs s1 p <= LRMono_proofs.kposs s2 p.
Proof.
  intros pol votes votes' n p vp vp' s1 s2 Hn Hnd Hnd' Hv Hv' Hq Hp Hp' Hle Hoth H1 H2. split.
  - exact (LRMono_proofs.lr_hare_votes_monotone pol votes votes' n p vp vp' s1 s2 Hn Hnd Hnd' Hv Hv' Hq Hp Hp' Hle Hoth H1 H2).
  - exact (LRMono_proofs.lr_hare_votes_monotone_possible pol votes votes' n p vp vp' s1 s2 Hn Hnd Hnd' Hv Hv' Hq Hp Hp' Hle Hoth H1 H2).
Qed.

Theorem C17_lr_hare_defined : forall (pol : QuotaDistributor.policy) (votes : list (C * Q)) (n : Z),
  1 <= n -> NoDup (map fst votes) -> (forall c v, In (c, v) votes -> (0 <= v)%Q) -> (0 < QuotaDistributor.qsumv votes)%Q ->
  exists s, QuotaDistributor.lr_evaluate Quota.hare true pol votes n [] [] = QuotaDistributor.LR_ok s.
Proof. exact LRMono_proofs.lr_hare_defined. Qed.

Definition C17_lr_hare_example := LRMono_proofs.lr_hare_mono_example_tie.

Print Assumptions C17_house.
Print Assumptions C17_house_any.
Print Assumptions C17_votes.
Print Assumptions C17_builtin_strict.
Print Assumptions C17_additive.
Print Assumptions C17_approval.
Print Assumptions C17_plurality.
Print Assumptions C17_positional.
Print Assumptions C17_copeland.
Print Assumptions C17_minimax.
Print Assumptions C17_scorers_nonincreasing.
Print Assumptions C17_schulze_witness.
Print Assumptions C17_schulze_witness_loses.
Print Assumptions C17_schulze_refuted.
Print Assumptions C17_schulze_partial.
Print Assumptions C17_schulze_scores.
Print Assumptions C17_preference_addition_general.
Print Assumptions C17_preference_addition.
Print Assumptions C17_bucklin.
Print Assumptions C17_oklahoma.
Print Assumptions C17_preference_addition_increasing_refuted.
Print Assumptions C17_preference_addition_added.
Print Assumptions C17_bucklin_added.
Print Assumptions C17_oklahoma_added.
Print Assumptions C17_bucklin_added_full_refuted.
Print Assumptions C17_bucklin_shared_refuted.
Print Assumptions C17_decouple_linear.
Print Assumptions C17_preference_addition_split_general.
Print Assumptions C17_preference_addition_shared.
Print Assumptions C17_bucklin_shared.
Print Assumptions C17_oklahoma_shared.
Print Assumptions C17_ballot_pairwise_exact.
Print Assumptions C17_ballot_raises.
Print Assumptions C17_copeland_s.
Print Assumptions C17_minimax_s.
Print Assumptions C17_copeland_ballots.
Print Assumptions C17_minimax_ballots.
Print Assumptions C17_scorers_nonincreasing_all.
Print Assumptions C17_scorer_ok.
Print Assumptions C17_positional_any.
Print Assumptions C17_scorers_conditions_needed.
Print Assumptions C17_preference_addition_leave_shared.
Print Assumptions C17_bucklin_leave_shared.
Print Assumptions C17_oklahoma_leave_shared.
Print Assumptions C17_preference_addition_same_variants.
Print Assumptions C17_preference_addition_leave_pair.
Print Assumptions C17_ballot_leave_exact.
Print Assumptions C17_ballot_leave_raises.
Print Assumptions C17_copeland_ballots_leave.
Print Assumptions C17_minimax_ballots_leave.
Print Assumptions C17_house_exact.
Print Assumptions C17_house_tie.
Print Assumptions C17_votes_full.
Print Assumptions C17_builtin_divisors_ok.
Print Assumptions C17_lr_house_refuted.
Print Assumptions C17_lr_votes_droop_refuted.
Print Assumptions C17_additive_diff.
Print Assumptions C17_additive_added.
Print Assumptions C17_positional_shared.
Print Assumptions C17_scorer_grow_ok.
Print Assumptions C17_positional_leave_shared.
Print Assumptions C17_positional_leave_pair.
Print Assumptions C17_positional_rank_unranked.
Print Assumptions C17_positional_added.
Print Assumptions C17_positional_negative_refuted.
Print Assumptions C17_positional_twice_refuted.
Print Assumptions C17_ballot_rank_exact.
Print Assumptions C17_ballot_rank_raises.
Print Assumptions C17_copeland_ballots_rank.
Print Assumptions C17_minimax_ballots_rank.
Print Assumptions C17_ballot_added_exact.
Print Assumptions C17_ballot_bullet_exact.
Print Assumptions C17_copeland_ballots_added_bullet.
Print Assumptions C17_minimax_ballots_added_bullet.
Print Assumptions C17_ballot_added_lifts.
Print Assumptions C17_minimax_ballots_added.
Print Assumptions C17_copeland_added_long_refuted.
Print Assumptions C17_minimax_winvotes_added_long_refuted.
Print Assumptions C17_lr_hare_votes.
Print Assumptions C17_lr_hare_defined.
