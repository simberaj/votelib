(* C08 - Every evaluator fills exactly the seats asked for, with valid distinct winners.
   This file holds the property theorems, the definitions their statements need and examples of non-vacuity.
   Models: Model/GetNBest.v (the shared top-n primitive producing the tie encoding), Model/HighestAverages.v,
   Model/QuotaDistributor.v, Model/STV.v and the models named section by section; proofs: Proofs/Shape_proofs.v,
   Proofs/Shape2_proofs.v, Proofs/Shape3_proofs.v, Proofs/ShapeElim_proofs.v, Proofs/HybridTiers_proofs.v,
   Proofs/AllocShape_proofs.v and the files imported below (among them the proofs of C01 / C02 / C04).

   [sel_shape cands n r] is the declarative shape of a selection: exactly n entries; plain winners are
   distinct candidates of the votes; every tie object names distinct candidates of the votes, none of
   them also elected, and occurs fewer times than it has members (once per seat it contests). *)
From Coq Require Import ZArith QArith List Bool Arith Lia.
From VL Require Import Prelude.PyDict Model.GetNBest Model.Divisor Model.HighestAverages Model.QuotaDistributor Model.STV
     Proofs.Dict_proofs Proofs.GetNBest_proofs Proofs.QOrd Proofs.HA_proofs Proofs.Divisor_proofs Proofs.Shape_proofs
     Proofs.QD_proofs Proofs.STV_proofs.
From VL Require Model.Convert Model.Condorcet Model.Cardinal Model.Bucklin Model.Star Proofs.Shape2_proofs.
From VL Require Proofs.Schwartz_proofs.
Import ListNotations.

(* normal form of every get_n_best result (plurality, approval, positional, score voting ... all end
   in it): plain winners, then k copies of ONE tie object with more than k members *)
Theorem C08_selection_normal_form : forall (votes : list (C * Q)) (n : nat),
  (1 <= n <= length votes)%nat -> NoDup (map fst votes) ->
  exists elected T k,
    get_n_best Qle_bool votes n = map Cand elected ++ repeat (TieR T) k /\
    (length elected + k = n)%nat /\ (k = 0%nat \/ (k < length T)%nat) /\
    NoDup (elected ++ T) /\ incl (elected ++ T) (map fst votes).
Proof. exact (@gnb_shape C). Qed.

(* hence the declarative shape, and the boolean checker that is run on the implementation's
   results accepts it; the checker IS the declarative shape *)
Theorem C08_selection_shape : forall (votes : list (C * Q)) (n : nat),
  (1 <= n <= length votes)%nat -> NoDup (map fst votes) ->
  sel_shape (map fst votes) n (get_n_best Qle_bool votes n) /\
  sel_shape_ok (map fst votes) n (get_n_best Qle_bool votes n) = true.
Proof.
  intros votes n Hn Hnd. destruct (gnb_shape votes n Hn Hnd) as (e & T & k & -> & Hl & Hk & Hd & Hi).
  assert (H : sel_shape (map fst votes) n (map Cand e ++ repeat (TieR T) k)) by (apply normal_form_shape; assumption).
  split; [exact H|apply sel_shape_reflect; exact H].
Qed.

Theorem C08_checker_reflects : forall cands n r, sel_shape_ok cands n r = true <-> sel_shape cands n r.
Proof. exact sel_shape_reflect. Qed.

(* highest averages: every returned gain is a positive integer, and gains + tie seats + seats left
   unassigned (only when every party sits at its cap) = the seats to fill *)
Theorem C08_highest_averages_distribution : forall d votes caps prev n gains tie,
  divisor_ok d -> (forall c v, In (c, v) votes -> (0 <= v)%Q) -> NoDup (map fst votes) ->
  NoDup (map fst prev) -> (forall c, (0 <= dget_or prev c 0)%Z) -> (0 <= n - zsum (map snd prev))%Z ->
  evaluate d votes n prev caps = HA_ok gains tie ->
  Forall (fun cg => (0 < snd cg)%Z) gains /\
  (zsum (map snd gains) + (match tie with Some (_, r) => r | None => 0 end)
     + st_rem (final_state d votes n prev caps) = n - zsum (map snd prev))%Z /\
  (st_rem (final_state d votes n prev caps) = 0%Z \/
   forall c v, In (c, v) votes -> (cap_of caps n c <= dget_or (st_totals (final_state d votes n prev caps)) c 0)%Z).
Proof.
  intros d votes caps prev n gains tie Hd Hv Hnd Hndp Hp Hn He.
  destruct (ha_gains_shape d votes caps n prev gains tie Hndp He) as (Hpos & Hsum & ->).
  destruct (ha_total d votes caps prev n (proj1 Hd) (proj2 Hd) Hv Hnd Hp Hn) as [Hacc Hex].
  split; [exact Hpos|]. split; [rewrite Hsum; lia|].
  destruct Hex as [H0|(_ & _ & Hc)]; [left; exact H0|right; exact Hc].
Qed.

(* largest remainder and transferable vote: the seat-count clauses are C02_lr_total and C04_exact_count *)
Theorem C08_largest_remainder_total : forall votes q gained caps sel nrem,
  (0 < nrem)%Z -> (Z.to_nat nrem <= length (remainders votes q gained caps))%nat ->
  ksum (seat_best (plain sel) (get_n_best Qle_bool (remainders votes q gained caps) (Z.to_nat nrem)))
  = (ksum (plain sel) + nrem)%Z.
Proof. exact lr_total. Qed.

Theorem C08_transferable_vote_count : forall cf fuel a n total seats caps acc,
  t_stop (run cf fuel a n total seats caps acc) = None ->
  zsum (map snd (t_seats (run cf fuel a n total seats caps acc))) = n.
Proof. exact run_complete. Qed.

(* non-vacuity: a three-way tie for two seats is a valid shape; the same tie listed three times is not *)
Example C08_example :
  sel_shape_ok [1; 2; 3; 4]%positive 3 [Cand 4%positive; TieR [1; 2; 3]%positive; TieR [1; 2; 3]%positive] = true /\
  sel_shape_ok [1; 2; 3; 4]%positive 4 [Cand 4%positive; TieR [1; 2; 3]%positive; TieR [1; 2; 3]%positive; TieR [3; 2; 1]%positive] = false /\
  sel_shape_ok [1; 2; 3]%positive 2 [Cand 1%positive; Cand 1%positive] = false.
Proof. vm_compute. repeat split; reflexivity. Qed.

(* The shape clause for the evaluators that do not simply END in one get_n_best call (Proofs/Shape2_proofs.v).
   Every theorem is over the whole model function: all profiles, all seat counts 1 <= n <= candidates present,
   every configuration.  The proofs establish the stronger normal form [Shape2_proofs.nform] (plain winners then
   k copies of ONE tie with more than k members) and conclude [sel_shape] from it. *)

(* Copeland, raw and with second-order tie-breaking; any pairwise dictionary (no sign / distinct-key hypothesis) *)
Theorem C08_shape_copeland : forall (second_order : bool) (v : Condorcet.pvotes) (n : nat),
  (1 <= n <= length (Condorcet.candidates v))%nat ->
  sel_shape (Condorcet.candidates v) n (Condorcet.copeland second_order v n).
Proof. intros so v n Hn. apply Shape2_proofs.nform_shape, Shape2_proofs.copeland_nform, Hn. Qed.

(* minimax, all three scorers; the pairwise dictionary holds a real contest (two candidates: a dictionary with
   only a diagonal pair is not a pairwise vote) *)
Theorem C08_shape_minimax : forall (s : Condorcet.scorer) (v : Condorcet.pvotes) (n : nat),
  (2 <= length (Condorcet.candidates v))%nat -> (1 <= n <= length (Condorcet.candidates v))%nat ->
  sel_shape (Condorcet.candidates v) n (Condorcet.minimax s v n).
Proof. intros s v n H2 Hn. apply Shape2_proofs.nform_shape, Shape2_proofs.minimax_nform; assumption. Qed.

(* Schulze, whatever the iteration order of the candidate set (even one listing strangers) *)
Theorem C08_shape_schulze : forall (v : Condorcet.pvotes) (order : list C) (n : nat),
  (1 <= n <= length (Condorcet.candidates v))%nat ->
  sel_shape (Condorcet.candidates v) n (Condorcet.schulze v order n).
Proof. intros v order n Hn. apply Shape2_proofs.nform_shape, Shape2_proofs.schulze_nform, Hn. Qed.

(* Kemeny-Young and ranked pairs: whenever they answer, n distinct plain candidates, no tie object *)
Theorem C08_shape_kemeny : forall (v : Condorcet.pvotes) (n : nat) (r : list (res C)),
  (n <= length (Condorcet.candidates v))%nat -> Condorcet.kemeny v n = Condorcet.CR_ok r ->
  sel_shape (Condorcet.candidates v) n r /\ ties_of r = [].
Proof.
  intros v n r Hn H. split; [apply Shape2_proofs.nform_shape, (Shape2_proofs.kemeny_nform v n r Hn H)|].
  destruct (Kemeny_proofs.kemeny_defining v n r H) as (p & _ & _ & -> & _). apply ties_of_cands.
Qed.

Theorem C08_shape_ranked_pairs : forall (s : Condorcet.scorer) (v : Condorcet.pvotes) (n : nat) (r : list (res C)),
  (2 <= length (Condorcet.candidates v))%nat -> (n <= length (Condorcet.candidates v))%nat ->
  Condorcet.ranked_pairs s v n = Condorcet.CR_ok r ->
  sel_shape (Condorcet.candidates v) n r /\ ties_of r = [].
Proof.
  intros s v n r H2 Hn H. split; [apply Shape2_proofs.nform_shape, (Shape2_proofs.ranked_pairs_nform s v n r H2 Hn H)|].
  destruct (RankedPairs_proofs.ranked_pairs_ranking v s H2 n) as (p & Hr & _). rewrite Hr in H. injection H as <-. apply ties_of_cands.
Qed.

(* score voting (every aggregation / unscored-value / truncation configuration) and majority judgment (both
   tie-breakers, every number of seats): whenever an answer is returned (no declared refusal) *)
Theorem C08_shape_score : forall (cf : Cardinal.score_cfg) (votes : Cardinal.sprofile) (n : nat) (r : list (res C)),
  (1 <= n <= length (Shape2_proofs.score_cands votes))%nat -> Cardinal.score_voting cf votes n = inl r ->
  sel_shape (Shape2_proofs.score_cands votes) n r.
Proof. intros cf votes n r Hn H. apply Shape2_proofs.nform_shape, (Shape2_proofs.score_nform cf votes n r Hn H). Qed.

Theorem C08_shape_mj : forall (plus : bool) (cf : Cardinal.score_cfg) (votes : Cardinal.sprofile) (n : nat) (r : list (res C)),
  (1 <= n <= length (Shape2_proofs.score_cands votes))%nat -> Cardinal.majority_judgment plus cf votes n = inl r ->
  sel_shape (Shape2_proofs.score_cands votes) n r.
Proof. intros plus cf votes n r Hn H. apply Shape2_proofs.nform_shape, (Shape2_proofs.mj_nform plus cf votes n r Hn H). Qed.

(* PAV (any n: it refuses when fewer than n candidates stand) and sequential PAV: n distinct plain candidates *)
Theorem C08_shape_pav : forall (votes : Cardinal.aprofile) (n : nat) (r : list (res C)),
  Cardinal.pav votes n = Cardinal.AR_ok r -> sel_shape (Shape2_proofs.approval_cands votes) n r.
Proof. intros votes n r H. apply Shape2_proofs.nform_shape, (Shape2_proofs.pav_nform votes n r H). Qed.

Theorem C08_shape_spav : forall (votes : Cardinal.aprofile) (n : nat) (r : list C),
  (n <= length (Shape2_proofs.approval_cands votes))%nat -> Cardinal.spav votes n = Some r ->
  sel_shape (Shape2_proofs.approval_cands votes) n (map Cand r).
Proof. intros votes n r Hn H. apply Shape2_proofs.nform_shape, (Shape2_proofs.spav_nform votes n r Hn H). Qed.

(* preference addition (Bucklin, Oklahoma, any coefficients; with or without decoupling of shared ranks, either
   splicing loop).  The full clause - exactly n entries - is FALSE of the code (known finding
   C08-preference-addition-short); what holds for every input: at most n entries, well-shaped for their number over
   the candidates of the original ballots, and a short answer consists of distinct plain candidates only *)
Definition C08_shape_bucklin_full_statement : Prop :=
  forall (fx : bool) (votes : list (Convert.ranked * Q)) (n : nat) (r : list (res C)),
    (1 <= n <= length (Convert.canon_set (Shape2_proofs.pa_cands votes)))%nat ->
    Bucklin.bucklin fx votes n = Bucklin.PA_ok r -> sel_shape (Shape2_proofs.pa_cands votes) n r.

Theorem C08_shape_bucklin_partial : forall (fx : bool) (coef : nat -> Q) (split : bool) (votes : list (Convert.ranked * Q))
    (n : nat) (r : list (res C)),
  Bucklin.pa_eval fx coef split votes n = Bucklin.PA_ok r ->
  (length r <= n)%nat /\ sel_shape (Shape2_proofs.pa_cands votes) (length r) r /\ ((length r < n)%nat -> ties_of r = []).
Proof. exact Shape2_proofs.pa_shape. Qed.

Theorem C08_shape_bucklin_refuted : ~ C08_shape_bucklin_full_statement.
Proof.
  intros H. destruct Shape2_proofs.pa_full_refuted as (Hc & Hb & _).
  assert (Hn : (1 <= 2 <= length (Convert.canon_set (Shape2_proofs.pa_cands Shape2_proofs.pa_short_votes)))%nat) by (rewrite Hc; simpl; lia).
  destruct (H false _ 2%nat _ Hn Hb) as [Hlen _]. discriminate Hlen.
Qed.

(* the same for STAR (default configuration): Schulze over the run-off counts is well-shaped whenever those counts
   name n candidates; they need not (known finding C08-star-short) *)
Theorem C08_shape_star_partial : forall (votes : Cardinal.sprofile) (order : list C) (n : nat) (r : list (res C)) agg,
  Cardinal.score_to_simple Star.star_cfg votes = inl agg ->
  let pv := Star.star_pairwise votes (Star.star_members (get_n_best Qle_bool agg (n + 1))) in
  (1 <= n <= length (Condorcet.candidates pv))%nat -> Star.star votes order n = inl r ->
  sel_shape (Condorcet.candidates pv) n r.
Proof. intros votes order n r agg Ha pv Hn H. apply Shape2_proofs.nform_shape, (Shape2_proofs.star_nform votes order n r agg Ha Hn H). Qed.

Theorem C08_shape_star_refuted : exists votes : Cardinal.sprofile,
  length (Shape2_proofs.score_cands votes) = 3%nat /\ Star.star_auto votes 1 = inl [].
Proof. exists Shape2_proofs.star_short_votes. destruct Shape2_proofs.star_full_refuted as [Hc Hs]. rewrite Hc. split; [reflexivity|exact Hs]. Qed.

(* non-vacuity of the hypotheses: a three-candidate cycle above a common loser; minimax (a three-way tie for two
   seats), Copeland with second-order tie-breaking (the tie remains) and Schulze answer in shape *)
Example C08_shape_example :
  let p := fun (a b m : Z) => ((Z.to_pos a, Z.to_pos b), m) in
  let v : Condorcet.pvotes := [p 1 2 3; p 2 1 1; p 2 3 3; p 3 2 1; p 3 1 3; p 1 3 1;
                               p 1 4 3; p 4 1 0; p 2 4 3; p 4 2 0; p 3 4 3; p 4 3 0]%Z in
  length (Condorcet.candidates v) = 4%nat /\
  Condorcet.minimax Condorcet.Margins v 2 = [TieR [2; 3; 1]%positive; TieR [2; 3; 1]%positive] /\
  Condorcet.copeland true v 1 = [TieR [1; 2; 3]%positive] /\
  Condorcet.schulze v (Condorcet.candidates v) 3 = [Cand 1; Cand 2; Cand 3]%positive /\
  sel_shape_ok (Condorcet.candidates v) 2 (Condorcet.minimax Condorcet.Margins v 2) = true.
Proof. vm_compute. repeat split; reflexivity. Qed.

(* ... and the cardinal / approval rules answer (no refusal) on ordinary profiles: majority judgment breaks a tie of
   medians (both tie-breakers), SPAV and PAV fill two of three seats *)
Example C08_shape_example_cardinal :
  let cf := {| Cardinal.sc_fn := Cardinal.FMedianLow; Cardinal.sc_unscored := Cardinal.UNone; Cardinal.sc_min_count := 0%Z;
               Cardinal.sc_trunc := 0%Q; Cardinal.sc_bottom := 0%Q |} in
  let b := fun x y z : Z => [(1%positive, inject_Z x); (2%positive, inject_Z y); (3%positive, inject_Z z)] in
  let v : Cardinal.sprofile := [(b 3 3 1, 2); (b 2 4 1, 1); (b 3 3 3, 1)]%Z in
  let a : Cardinal.aprofile := [([1; 2]%positive, 3 # 1); ([2; 3]%positive, 2 # 1); ([3]%positive, 2 # 1)]%Q in
  Shape2_proofs.score_cands v = [1; 2; 3]%positive /\
  Cardinal.majority_judgment false cf v 1 = inl [Cand 2%positive] /\ Cardinal.majority_judgment true cf v 1 = inl [Cand 2%positive] /\
  Cardinal.majority_judgment false cf v 2 = inl [Cand 1%positive; Cand 2%positive] /\
  Cardinal.score_voting cf v 2 = inl [Cand 1%positive; Cand 2%positive] /\
  Shape2_proofs.approval_cands a = [1; 2; 3]%positive /\
  Cardinal.spav a 2 = Some [2; 3]%positive /\ Cardinal.pav a 2 = Cardinal.AR_ok [Cand 2%positive; Cand 3%positive].
Proof. vm_compute. repeat split; reflexivity. Qed.

(* The shape clause for the seatless selectors, the open list, QuotaSelector, the Condorcet-runoff hybrids, Baldwin, the
   positional and approval selectors and allocated score (Proofs/Shape3_proofs.v, Proofs/ShapeElim_proofs.v,
   Proofs/HybridTiers_proofs.v). *)
From VL Require Model.Threshold Model.Hybrids Model.Elimination Model.ApprovalSimple Model.AllocScore Model.Quota Proofs.AllocScore_proofs Proofs.Hybrids_proofs Proofs.Shape3_proofs Proofs.ShapeElim_proofs
     Proofs.HybridTiers_proofs.

(* seatless selectors (thresholds, bracketers, Condorcet winner, Smith / Schwartz set): the right shape is a duplicate-free
   list of candidates of the votes - the declarative shape of a selection of plain winners for as many seats as it has entries *)
Theorem C08_seatless_shape : forall (cands r : list C),
  Shape3_proofs.seatless_shape cands r <-> sel_shape cands (length r) (map Cand r).
Proof. exact Shape3_proofs.seatless_sel_shape. Qed.

Theorem C08_shape_threshold : forall (s : Threshold.sel) (votes : list (C * Q)),
  NoDup (map fst votes) -> NoDup (Threshold.sel_eval s votes) /\ incl (Threshold.sel_eval s votes) (map fst votes).
Proof. exact Shape3_proofs.threshold_shape. Qed.

Theorem C08_shape_bracketer : forall evals default bracket (votes : list (C * Q)),
  NoDup (map fst votes) ->
  NoDup (Threshold.bracket_eval evals default bracket votes) /\ incl (Threshold.bracket_eval evals default bracket votes) (map fst votes).
Proof. exact Shape3_proofs.bracket_shape. Qed.

Theorem C08_shape_condorcet_winner : forall v : Condorcet.pvotes,
  (NoDup (Condorcet.condorcet_winner v) /\ incl (Condorcet.condorcet_winner v) (Condorcet.candidates v)) /\
  (length (Condorcet.condorcet_winner v) <= 1)%nat.
Proof. exact Shape3_proofs.condorcet_winner_shape. Qed.

(* the Smith routine (SmithSet runs it with ties = true; ties = false is the prefix routine the pinned tree runs for SchwartzSet,
   replaced by fixes/C06-schwartz-set.diff), any pairwise dictionary *)
Theorem C08_shape_smith_schwartz : forall (v : Condorcet.pvotes) (ties : bool),
  NoDup (Condorcet.smith_schwartz v ties) /\ incl (Condorcet.smith_schwartz v ties) (Condorcet.candidates v).
Proof. exact Shape3_proofs.smith_schwartz_shape. Qed.

(* Schwartz set (SchwartzSet with fixes/C06-schwartz-set.diff: Condorcet.schwartz_set), any pairwise dictionary *)
Theorem C08_shape_schwartz_set : forall v : Condorcet.pvotes,
  NoDup (Condorcet.schwartz_set v) /\ incl (Condorcet.schwartz_set v) (Condorcet.candidates v).
Proof. exact Schwartz_proofs.schwartz_set_shape. Qed.

(* open list: exactly n distinct members of the list, for every configuration *)
Theorem C08_shape_openlist : forall cfg (votes : list (C * Q)) (n : nat) (lst : list C),
  NoDup lst -> NoDup (map fst votes) -> incl (map fst votes) lst -> (1 <= n <= length lst)%nat ->
  sel_shape lst n (map Cand (Threshold.openlist_eval cfg votes n lst)).
Proof. exact Shape3_proofs.openlist_shape. Qed.

(* QuotaSelector elects the candidates that reach the quota, through get_n_best: AT MOST n by design.  For every quota
   function and flag: never more than n entries, well-shaped for their number, a short answer is plain winners only, and the
   answer is full whenever n candidates reach the quota.  The exactly-n clause is false of it (design, not a defect). *)
Definition C08_shape_quota_selector_full_statement : Prop :=
  forall quota ae select (votes : list (C * Q)) (n : Z) r,
    NoDup (map fst votes) -> (1 <= n)%Z -> (Z.to_nat n <= length votes)%nat ->
    QuotaDistributor.qsel_evaluate quota ae select votes n = QuotaDistributor.QS_ok r -> sel_shape (map fst votes) (Z.to_nat n) r.

Theorem C08_shape_quota_selector_partial : forall quota ae select (votes : list (C * Q)) (n : Z) r,
  NoDup (map fst votes) -> (1 <= n)%Z -> QuotaDistributor.qsel_evaluate quota ae select votes n = QuotaDistributor.QS_ok r ->
  (length r <= Z.to_nat n)%nat /\ sel_shape (map fst votes) (length r) r /\
  ((length r < Z.to_nat n)%nat -> ties_of r = []) /\
  ((Z.to_nat n <= length (filter (fun cv => QuotaDistributor.fulfills ae (snd cv) (quota (QuotaDistributor.qsumv votes) n)) votes))%nat ->
   length r = Z.to_nat n).
Proof. exact Shape3_proofs.quota_selector_shape. Qed.

Theorem C08_shape_quota_selector_refuted : ~ C08_shape_quota_selector_full_statement.
Proof.
  intros H.
  assert (Hs := H (fun total n => (total / inject_Z n)%Q) false true [(1%positive, 10%Q); (2%positive, 1%Q)] 2%Z [Cand 1%positive]).
  assert (Hnd : NoDup (map fst [(1%positive, 10%Q); (2%positive, 1%Q)])).
  { cbn. constructor; [intros [E|[]]; discriminate|constructor; [intros []|constructor]]. }
  destruct (Hs Hnd ltac:(lia) ltac:(cbn; lia) ltac:(vm_compute; reflexivity)) as [Hlen _]. discriminate Hlen.
Qed.

(* Benham (all repairs: the elimination step refuses ties, a candidate that stands alone is elected): on every well-formed
   profile (no candidate twice on a ballot, no negative weight) on which somebody stands the answer is one entry in shape - a plain
   candidate of the votes, or one tie object of (the last) two or more of them - and the only other outcome is the declared refusal
   NotImplementedError.  No hypothesis about a pairwise contest. *)
Theorem C08_shape_benham : forall votes : Hybrids.rvotes,
  Hybrids_proofs.wf_votes votes = true -> Hybrids_proofs.cands_of votes <> [] ->
  (exists r, Hybrids.benham true true votes = Hybrids.H_ok r /\ sel_shape (Hybrids_proofs.cands_of votes) 1 r) \/
  Hybrids.benham true true votes = Hybrids.H_nie.
Proof.
  intros votes Hwf Hne. destruct (ShapeElim_proofs.benham_shape votes Hwf Hne) as [(r & Hr & Hn)|H]; [left|right; exact H].
  exists r. split; [exact Hr|apply Shape2_proofs.nform_shape, Hn].
Qed.

(* a candidate that stands alone is elected by both hybrids (repaired), for any number of seats: one entry in shape *)
Theorem C08_shape_hybrids_single_candidate : forall (votes : Hybrids.rvotes) (c : C) (n : nat),
  Hybrids_proofs.cands_of votes = [c] -> (1 <= n)%nat ->
  Hybrids.benham true true votes = Hybrids.H_ok [Cand c] /\ Hybrids.tideman_alt true true true votes n = Hybrids.H_ok [Cand c] /\
  sel_shape (Hybrids_proofs.cands_of votes) 1 [Cand c].
Proof.
  intros votes c n E Hn. pose proof (HybridTiers_proofs.cands_single votes c E) as EK. split; [|split].
  - rewrite (ShapeElim_proofs.benham_single true votes c EK). reflexivity.
  - exact (HybridTiers_proofs.tideman_single votes n c EK Hn).
  - apply Shape2_proofs.nform_shape. apply (Shape2_proofs.nform_plain _ [c]); [constructor; [intros []|constructor]|].
    intros x [<-|[]]. rewrite E. left. reflexivity.
Qed.

(* ... on the code without fixes/C05-hybrid-single-candidate.diff (sc = false) both raise IndexError there: finding
   C05-hybrid-empty-pairwise (fixed) *)
Theorem C08_shape_hybrids_single_candidate_refuted : exists votes : Hybrids.rvotes,
  Hybrids_proofs.wf_votes votes = true /\ length (Hybrids_proofs.cands_of votes) = 1%nat /\
  Hybrids.benham true false votes = Hybrids.H_index /\ Hybrids.tideman_alt true false false votes 1 = Hybrids.H_index /\
  Hybrids.tideman_alt true false true votes 1 = Hybrids.H_index.
Proof. exists [([Convert.IP 1%positive], 1%Z)]. vm_compute. repeat split; reflexivity. Qed.

(* Tideman alternative (all repairs), EVERY number of seats n >= 1 on every well-formed profile on which somebody stands: tier by
   tier min(n, candidates) distinct plain candidates of the votes - or the declared refusal (a tie among the candidates to
   eliminate in some tier); never IndexError / KeyError / TypeError (Proofs/HybridTiers_proofs.v) *)
Theorem C08_shape_tideman_outcomes : forall (votes : Hybrids.rvotes) (n : nat),
  Hybrids_proofs.wf_votes votes = true -> Hybrids_proofs.cands_of votes <> [] -> (1 <= n)%nat ->
  (exists ws, Hybrids.tideman_alt true true true votes n = Hybrids.H_ok (map Cand ws) /\ NoDup ws /\
              incl ws (Hybrids_proofs.cands_of votes) /\ length ws = Nat.min n (length (Hybrids_proofs.cands_of votes))) \/
  Hybrids.tideman_alt true true true votes n = Hybrids.H_nie.
Proof.
  intros votes n Hwf Hne Hn. destruct (HybridTiers_proofs.tideman_tiers votes n Hwf Hne Hn) as [(ws & E & H1 & H2 & H3 & _)|E]; [left|right; exact E].
  exists ws. auto.
Qed.

(* hence the shape clause as the property states it: 1 <= n <= candidates present -> exactly n entries in shape (no tie object) *)
Theorem C08_shape_tideman : forall (votes : Hybrids.rvotes) (n : nat),
  Hybrids_proofs.wf_votes votes = true -> (1 <= n <= length (Hybrids_proofs.cands_of votes))%nat ->
  (exists r, Hybrids.tideman_alt true true true votes n = Hybrids.H_ok r /\ sel_shape (Hybrids_proofs.cands_of votes) n r /\ ties_of r = []) \/
  Hybrids.tideman_alt true true true votes n = Hybrids.H_nie.
Proof.
  intros votes n Hwf [Hn1 Hn2].
  assert (Hne : Hybrids_proofs.cands_of votes <> []) by (intros E; rewrite E in Hn2; cbn in Hn2; lia).
  destruct (C08_shape_tideman_outcomes votes n Hwf Hne Hn1) as [(ws & E & Hnd & Hi & Hl)|E]; [left|right; exact E].
  exists (map Cand ws). split; [exact E|]. split; [|apply ties_of_cands].
  rewrite Nat.min_l in Hl by exact Hn2. rewrite <- Hl. apply Shape2_proofs.nform_shape, Shape2_proofs.nform_plain; assumption.
Qed.

(* ... on the code without fixes/C05-tideman-tiers.diff (tr = false) every call for two seats with two candidates ends in
   TypeError: finding C08-tideman-multiseat (fixed); with the tiers repaired but not the single candidate (sc = false) the last
   tier - one candidate left - raises IndexError *)
Theorem C08_shape_tideman_multiseat_refuted : exists votes : Hybrids.rvotes,
  Hybrids_proofs.wf_votes votes = true /\ length (Hybrids_proofs.cands_of votes) = 2%nat /\
  Hybrids.tideman_alt true false false votes 2 = Hybrids.H_type /\ Hybrids.tideman_alt true true false votes 2 = Hybrids.H_type /\
  Hybrids.tideman_alt true false true votes 2 = Hybrids.H_index /\
  Hybrids.tideman_alt true true true votes 2 = Hybrids.H_ok [Cand 1%positive; Cand 2%positive].
Proof. exists [([Convert.IP 1%positive; Convert.IP 2%positive], 2%Z); ([Convert.IP 2%positive; Convert.IP 1%positive], 1%Z)]. vm_compute. repeat split; reflexivity. Qed.

(* Baldwin (Model/Elimination.v), any rank scorer: on every profile without a candidate twice on a ballot and without an empty
   shared rank (any integer weights) and every 1 <= n <= candidates present it ANSWERS - no refusal, no exception - with exactly
   n entries in shape: plain winners, then one tie object (the tied losers of the decisive round) once per open seat *)
Theorem C08_shape_baldwin : forall (sc : Convert.scorer) (votes : Hybrids.rvotes) (n : nat),
  ShapeElim_proofs.ranks_ok votes = true -> (1 <= n <= length (STV.all_ranked_candidates (Hybrids.qv votes)))%nat ->
  exists r, Elimination.baldwin sc votes n = Elimination.B_ok r /\ sel_shape (STV.all_ranked_candidates (Hybrids.qv votes)) n r.
Proof.
  intros sc votes n Hr Hn. destruct (ShapeElim_proofs.baldwin_nform sc votes n Hr Hn) as (r & E & Hf).
  exists r. split; [exact E|apply Shape2_proofs.nform_shape, Hf].
Qed.

(* positional selectors (Borda, Dowdall, ... : RankedToPositionalVotes in front of plurality), any rank scorer: the converter
   answers on every such profile and its scores, handed to get_n_best, give exactly n entries in shape *)
Theorem C08_shape_positional : forall (sc : Convert.scorer) (votes : Hybrids.rvotes) (n : nat),
  ShapeElim_proofs.ranks_ok votes = true -> (1 <= n <= length (STV.all_ranked_candidates (Hybrids.qv votes)))%nat ->
  exists d, Elimination.positional sc votes = Some d /\
            sel_shape (STV.all_ranked_candidates (Hybrids.qv votes)) n (get_n_best Qle_bool d n).
Proof.
  intros sc votes n Hr Hn. destruct (ShapeElim_proofs.positional_nform sc votes n Hr Hn) as (d & E & Hf).
  exists d. split; [exact E|apply Shape2_proofs.nform_shape, Hf].
Qed.

(* approval voting and satisfaction approval voting (ApprovalToSimpleVotes, plain or split, in front of plurality;
   Model/ApprovalSimple.v): every approval profile, every 1 <= n <= candidates approved by somebody *)
Theorem C08_shape_approval : forall (split : bool) (votes : list (list C * Q)) (n : nat),
  (1 <= n <= length (Shape2_proofs.approval_cands votes))%nat ->
  sel_shape (Shape2_proofs.approval_cands votes) n (ApprovalSimple.approval_plurality split votes n).
Proof. intros split votes n Hn. apply Shape2_proofs.nform_shape, Shape3_proofs.approval_plurality_nform, Hn. Qed.

(* allocated score: the shape clause is false of the faithful model (Model/AllocScore.v) - three candidates level for two
   seats come back as ONE tie entry (known finding C08-allocated-score-shape; the witness of C12_alloc_tie_shape_refuted) *)
Theorem C08_shape_allocated_score_refuted : exists (votes : AllocScore.wprofile) (r : list (res C)),
  AllocScore.alloc_select (Quota.QNamed 1) [] votes 2 = inl r /\ AllocScore.all_scored votes = [1; 2; 3]%positive /\
  ~ sel_shape [1; 2; 3]%positive 2 r.
Proof.
  exists AllocScore_proofs.w_tie3, [TieR [1; 2; 3]%positive]. split; [exact AllocScore_proofs.alloc_tie_shape_witness|].
  split; [vm_compute; reflexivity|]. intros [Hlen _]. discriminate Hlen.
Qed.

(* non-vacuity: a three-cycle above a fourth candidate with a shared rank satisfies the hypotheses; Benham and Tideman
   eliminate and elect; Baldwin fills one, two (the tied losers B, C for the second seat) and three seats; thresholds and
   Smith / Schwartz sets answer *)
Example C08_shape_example_elimination :
  let ip := Convert.IP in
  let b := fun (l : list positive) (w : Z) => (map ip l, w) in
  let v : Hybrids.rvotes := [b [1; 2; 3; 4]%positive 3%Z; b [2; 3; 1; 4]%positive 2%Z; b [3; 1; 2]%positive 2%Z;
                             ([Convert.IS [1; 2]%positive; ip 4%positive], 1%Z)] in
  let t : Hybrids.rvotes := [b [1; 2; 3]%positive 1%Z; b [1; 3; 2]%positive 1%Z] in
  Hybrids_proofs.wf_votes v = true /\ ShapeElim_proofs.ranks_ok v = true /\ Hybrids.pairwise v <> [] /\
  Hybrids.benham true true v = Hybrids.H_ok [Cand 1%positive] /\ Hybrids.tideman_alt true true true v 1 = Hybrids.H_ok [Cand 1%positive] /\
  Hybrids.tideman_alt true true true v 3 = Hybrids.H_ok [Cand 1; Cand 2; Cand 3]%positive /\
  Hybrids.tideman_alt true true true v 9 = Hybrids.H_ok [Cand 1; Cand 2; Cand 3; Cand 4]%positive /\
  Elimination.baldwin (Convert.Borda 0) v 2 = Elimination.B_ok [Cand 2; Cand 1]%positive /\
  Elimination.baldwin (Convert.Borda 0) t 2 = Elimination.B_ok [Cand 1%positive; TieR [2; 3]%positive] /\
  Elimination.baldwin (Convert.Borda 0) t 1 = Elimination.B_ok [Cand 1%positive] /\
  Condorcet.smith_schwartz (Hybrids.pairwise v) true = [1; 2; 3]%positive.
Proof. vm_compute. repeat split; try reflexivity. discriminate. Qed.

(* Allocated score with fixes/C12-allocated-score-exhausted.diff and fixes/C12-allocated-score-tie-seats.diff applied
   (Model/AllocScore.v alloc_select_x, Proofs/AllocShape_proofs.v): for EVERY profile with positive weights, every quota that
   is positive on it (Hare, Droop of a non-empty electorate: C12_alloc_quota_positive), every 1 <= n <= number of candidates the
   selector answers - no error outcome - and the answer is a well-shaped selection of n entries: distinct plain winners of the
   votes, then possibly ONE tie repeated once per seat it contests, with more members than those seats and none of the
   winners.  [orders] (the iteration order of every Tie frozenset, an input of the model) lists each tie without repetition. *)
From VL Require Proofs.AllocShape_proofs.
Theorem C08_shape_allocated_score : forall ra qs orders (votes : AllocScore.wprofile) (n : nat),
  AllocScore.ra_exhausted ra = true -> AllocScore.ra_tieseats ra = true ->
  AllocScore_proofs.wpos votes -> Forall (@NoDup C) orders ->
  (0 < AllocScore.ac_quota (AllocScore.alloc_cfg qs orders votes n [] (map (fun c => (c, 1%Z)) (AllocScore.all_scored votes))))%Q ->
  (1 <= n <= length (Convert.cands_score votes))%nat ->
  exists r, AllocScore.alloc_select_x ra qs orders votes n = inl r /\
            sel_shape (Convert.cands_score votes) n r /\ sel_shape_ok (Convert.cands_score votes) n r = true.
Proof.
  intros ra qs orders votes n H1 H2 Hp Ho Hq Hn.
  destruct (AllocShape_proofs.alloc_select_x_shape ra qs orders votes n H1 H2 Hp Ho Hq Hn) as (r & E & Hf).
  exists r. split; [exact E|]. pose proof (Shape2_proofs.nform_shape _ _ _ Hf) as Hs. split; [exact Hs|]. apply sel_shape_reflect, Hs.
Qed.

(* the hypotheses hold on the recorded witnesses: three level candidates for two seats (one tie, listed twice), the
   exhausted-ballots crash profile *)
Example C08_shape_allocated_score_example :
  AllocScore.alloc_select_x AllocScore.arepaired (Quota.QNamed 1) [] AllocScore_proofs.w_tie3 2 = inl [TieR [1; 2; 3]%positive; TieR [1; 2; 3]%positive] /\
  AllocScore.alloc_select_x AllocScore.arepaired (Quota.QNamed 1) [] AllocScore_proofs.w_crash 2 = inl [Cand 1%positive; Cand 2%positive] /\
  AllocScore_proofs.wposb AllocScore_proofs.w_tie3 = true /\ Convert.cands_score AllocScore_proofs.w_tie3 = [1; 2; 3]%positive.
Proof. vm_compute. repeat split; reflexivity. Qed.

Print Assumptions C08_selection_normal_form.
Print Assumptions C08_selection_shape.
Print Assumptions C08_checker_reflects.
Print Assumptions C08_highest_averages_distribution.
Print Assumptions C08_largest_remainder_total.
Print Assumptions C08_transferable_vote_count.
Print Assumptions C08_shape_copeland.
Print Assumptions C08_shape_minimax.
Print Assumptions C08_shape_schulze.
Print Assumptions C08_shape_kemeny.
Print Assumptions C08_shape_ranked_pairs.
Print Assumptions C08_shape_score.
Print Assumptions C08_shape_mj.
Print Assumptions C08_shape_pav.
Print Assumptions C08_shape_spav.
Print Assumptions C08_shape_bucklin_partial.
Print Assumptions C08_shape_bucklin_refuted.
Print Assumptions C08_shape_star_partial.
Print Assumptions C08_shape_star_refuted.
Print Assumptions C08_seatless_shape.
Print Assumptions C08_shape_threshold.
Print Assumptions C08_shape_bracketer.
Print Assumptions C08_shape_condorcet_winner.
Print Assumptions C08_shape_smith_schwartz.
Print Assumptions C08_shape_schwartz_set.
Print Assumptions C08_shape_openlist.
Print Assumptions C08_shape_quota_selector_partial.
Print Assumptions C08_shape_quota_selector_refuted.
Print Assumptions C08_shape_benham.
Print Assumptions C08_shape_hybrids_single_candidate.
Print Assumptions C08_shape_hybrids_single_candidate_refuted.
Print Assumptions C08_shape_tideman_outcomes.
Print Assumptions C08_shape_tideman.
Print Assumptions C08_shape_tideman_multiseat_refuted.
Print Assumptions C08_shape_baldwin.
Print Assumptions C08_shape_positional.
Print Assumptions C08_shape_allocated_score_refuted.
Print Assumptions C08_shape_approval.
Print Assumptions C08_shape_allocated_score.
