(* Generated-vs-handwritten tie for the accumulating converters of votelib/convert.py (C13).

   tools/py2v.py regenerates on every run the BODY of convert() of
     ApprovalToSimpleVotes (plain and split), RankedToFirstPreference, RankedToFirstNPreferences, RankedToApprovalVotes, ScoreToApprovalVotesThreshold,
     InvertedSimpleVotes, InvertedApprovalVotes, RankedToPresenceCounts, VoteTotals  and of  votelib.util.add_dict_to_dict
   into Gen/Convert.v: the loops over the ballots (and the loops nested in them) as fold_left, the defaultdict(int) / dict / set
   operations as the primitives of Prelude/PyConv.v.  This file proves that these generated functions ARE the models the C13
   theorems (Props/C13.v: per-ballot exactness, additivity, conservation) are about - the accumulating fold [dconv img] over the
   per-ballot images of Model/Convert.v, [inv_simple], [add_dict], [vote_totals] of Model/Convert2.v:

     GenTie_Convert_approval_simple   deq (ApprovalToSimpleVotes(split).convert votes)      (dconv (img_approval_simple split) votes)
     GenTie_Convert_first_preference  deq (RankedToFirstPreference().convert votes)         (dconv img_first votes)
     GenTie_Convert_first_n           oconv (img_first_n n) votes = Some o -> deq (RankedToFirstNPreferences(n).convert votes) o
                                      (the model's domain: no shared rank among the first n of a ballot)
     GenTie_Convert_ranked_approval   deq (RankedToApprovalVotes().convert votes)           (dconv img_ranked_approval votes)
     GenTie_Convert_score_approval    deq (ScoreToApprovalVotesThreshold(thr).convert votes) (dconv (img_score_approval thr) votes)
     GenTie_Convert_add_dict          deq (add_dict_to_dict(d1, d2): d1 afterwards)          (add_dict d1 d2)
     GenTie_Convert_vote_totals       deq (VoteTotals().convert votes)                       (vote_totals votes)
     GenTie_Convert_inverted_simple   InvertedSimpleVotes.convert votes = inv_simple votes   (the keys of a dictionary are distinct)
     GenTie_Convert_presence          dsim (RankedToPresenceCounts().convert votes) (dconv img_presence votes), for every function standing for
                                      util.all_rankings (not translated) that lists each (candidate, count) occurrence of the profile once
     GenTie_Convert_inverted_approval deq (InvertedApprovalVotes.convert votes) (dconv (img_inverted_approval (cands_approval votes)) votes)
                                      (distinct keys, each frozenset key in its canonical form: then the complements are distinct too)

   [deq] (Proofs/Convert2_proofs.v) is dictionary equality in the sense the C13 theorems use: the same keys in the same order with
   equal (==) counts.  All ballots, all counts, all profiles - no hypothesis except the distinct keys of an input dictionary where the
   code builds the result with a dictionary comprehension (a later equal key would overwrite).

   Frozensets: a frozenset VALUE is its ascending member list (Model/Convert.v), iterated in that order, frozenset(..) is canon_set
   (Prelude/PyConv.v) - the order parameter of the model; no result here depends on it except through the order of first insertion
   of the keys, which C13 does not observe.

   Proof style: one characterising lemma per loop shape ([deq_fold]: a loop over the ballots is the model's fold when one iteration is,
   pointwise; [inner_char]: a loop adding to output[key x] for the members x of the ballot; [flatten_char]: a loop collecting the
   candidates of a ranking), the loop bodies are only used through their pointwise behaviour (case analysis on the ballot), so that
   equivalent spellings of the source (renamed locals, swapped branches, the test written the other way round) leave the proofs intact. *)
From Coq Require Import ZArith QArith List Bool Lia Arith Permutation.
From VL Require Import Prelude.Sx Prelude.PyDict Prelude.GDict Prelude.PyNum Prelude.PyList Prelude.PyConv Model.GetNBest
     Model.Convert Model.Convert2 Proofs.Dict_proofs Proofs.Convert_proofs Proofs.Convert2_proofs Proofs.JR_proofs Proofs.ChainCands_proofs Proofs.GenConvert_proofs Proofs.GenConvert2_proofs Proofs.PySeq_proofs.
From VL Require Gen.Convert.
Import ListNotations.
Open Scope Q_scope.

(* a ballot that adds its count under one key *)
Lemma deq_madd_one a b k w : deq a b -> deq (py_dd_add a k w) (madd w b (k, 1)).
Proof. intros H. apply deq_dd_add; [exact H|]. symmetry. apply Qmult_1_l. Qed.

Lemma tie_approval_simple split votes :
  deq (Gen.Convert.ApprovalToSimpleVotes_convert split votes) (dconv (img_approval_simple split) votes).
Proof.
  unfold Gen.Convert.ApprovalToSimpleVotes_convert. rewrite dconv_unfold. cbv zeta.
  apply deq_fold; [|constructor]. intros a b [bl w] Hab. cbn [fst snd]. unfold img_approval_simple.
  apply (inner_char kc _ (fun _ => if split then 1 # Pos.of_nat (length bl) else 1) w); [|exact Hab].
  intros c Hc. rewrite py_len_pos. destruct bl as [|c0 t]; [destruct Hc|].
  destruct split; cbn [andb].
  - unfold py_frac, py_len. cbn [length]. rewrite <- Pos.of_nat_succ.
    change (Z.of_nat (S (length t))) with (Z.pos (Pos.of_succ_nat (length t))). unfold Qdiv. rewrite Qmult_comm. reflexivity.
  - symmetry. apply Qmult_1_l.
Qed.

Lemma tie_first_preference votes :
  deq (Gen.Convert.RankedToFirstPreference_convert votes) (dconv img_first votes).
Proof.
  unfold Gen.Convert.RankedToFirstPreference_convert. rewrite dconv_unfold. cbv zeta.
  apply deq_fold; [|constructor]. intros a b [r w] Hab. cbn [fst snd]. unfold img_first.
  destruct r as [|i r]; cbn [fold_left]; [exact Hab|apply deq_madd_one, Hab].
Qed.

Lemma tie_ranked_approval votes :
  deq (Gen.Convert.RankedToApprovalVotes_convert votes) (dconv img_ranked_approval votes).
Proof.
  unfold Gen.Convert.RankedToApprovalVotes_convert. rewrite dconv_unfold. cbv zeta.
  apply deq_fold; [|constructor]. intros a b [r w] Hab. cbn [fst snd]. unfold img_ranked_approval. cbn [fold_left].
  rewrite flatten_char by (intros vc [c|l]; reflexivity). apply deq_madd_one, Hab.
Qed.

Lemma tie_score_approval thr votes :
  deq (Gen.Convert.ScoreToApprovalVotesThreshold_convert thr votes) (dconv (img_score_approval thr) votes).
Proof.
  unfold Gen.Convert.ScoreToApprovalVotesThreshold_convert. rewrite dconv_unfold. cbv zeta.
  apply deq_fold; [|constructor]. intros a b [bl w] Hab. cbn [fst snd]. unfold img_score_approval, py_frozenset, py_ge.
  rewrite py_len_pos.
  match goal with |- context [py_dd_add _ (kset (canon_set ?x))] =>
    change x with (map fst (filter (fun cs : C * Q => Qle_bool thr (snd cs)) bl)) end.
  set (appr := map fst (filter _ bl)). clearbody appr.
  destruct (canon_set appr) eqn:EC.
  - apply (proj1 (canon_set_nil_iff _)) in EC. rewrite EC. cbn [fold_left]. exact Hab.
  - destruct appr as [|x t]; [discriminate EC|]. cbn [fold_left]. rewrite <- EC. apply deq_madd_one, Hab.
Qed.

Lemma tie_add_dict d1 d1' d2 : deq d1 d1' -> deq (Gen.Convert.add_dict_to_dict d1 d2) (add_dict d1' d2).
Proof.
  intros H. unfold Gen.Convert.add_dict_to_dict, add_dict. cbv zeta.
  apply deq_fold; [|exact H]. intros a b [k v] Hab. cbn [fst snd]. apply deq_set_get; [exact Hab|reflexivity].
Qed.

Lemma tie_vote_totals votes : deq (Gen.Convert.VoteTotals_convert votes) (vote_totals votes).
Proof.
  unfold Gen.Convert.VoteTotals_convert, vote_totals. cbv zeta. rewrite fold_left_map'.
  apply deq_fold; [|constructor]. intros a b [c d] Hab. cbn [snd]. apply tie_add_dict, Hab.
Qed.

(* InvertedSimpleVotes.convert: a dictionary comprehension over the items of a dictionary *)
Lemma gset_fresh (d : fdict) k x : ~ In k (keys d) -> gset sx_eqb d k x = d ++ [(k, x)].
Proof.
  induction d as [|[k1 v1] d IH]; intros H; cbn [gset app]; [reflexivity|].
  destruct (sx_eqb k k1) eqn:E.
  - apply sx_eqb_eq in E. subst k1. exfalso. apply H. left. reflexivity.
  - rewrite IH; [reflexivity|]. intros I. apply H. right. exact I.
Qed.

Lemma py_dict_of_from (l : list (sx * Q)) : forall acc, NoDup (keys acc ++ keys l) ->
  fold_left (fun d kv => py_dict_set d (fst kv) (snd kv)) l acc = acc ++ l.
Proof.
  induction l as [|[k v] l IH]; intros acc H; cbn [fold_left]; [rewrite app_nil_r; reflexivity|].
  unfold py_dict_set at 2. cbn [fst snd]. rewrite gset_fresh.
  - rewrite IH; [rewrite <- app_assoc; reflexivity|]. unfold keys in *. rewrite map_app. cbn [map fst]. rewrite <- app_assoc. exact H.
  - unfold keys in *. cbn [map fst] in H. apply NoDup_remove_2 in H. intros I. apply H. apply in_or_app. left. exact I.
Qed.

Lemma py_dict_of_nodup l : NoDup (keys l) -> py_dict_of l = l.
Proof. intros H. unfold py_dict_of. rewrite py_dict_of_from; [reflexivity|exact H]. Qed.

Lemma tie_inverted_simple votes : NoDup (keys votes) -> Gen.Convert.InvertedSimpleVotes_convert votes = inv_simple votes.
Proof.
  intros H. unfold Gen.Convert.InvertedSimpleVotes_convert, inv_simple. cbv zeta.
  rewrite py_dict_of_nodup; [reflexivity|]. unfold keys. rewrite map_map. cbn [fst]. exact H.
Qed.

(* InvertedApprovalVotes.convert: a dictionary comprehension keyed by the complement of the ballot *)
Lemma in_set_diff x a b : In x (set_diff a b) <-> In x a /\ ~ In x b.
Proof. unfold set_diff. rewrite filter_In, negb_true_iff, cmem_false. reflexivity. Qed.

Lemma kset_inj l l' : kset l = kset l' -> l = l'.
Proof.
  unfold kset. intros H. injection H as H. revert l' H. induction l as [|x l IH]; intros [|y l'] H; try discriminate; [reflexivity|].
  cbn [map] in H. injection H as H1 H2. rewrite (IH _ H2). f_equal. congruence.
Qed.

(* the complement within [all] is injective on the canonical ballots inside [all] *)
Lemma complement_inj all b1 b2 : incl b1 all -> incl b2 all -> canon_set b1 = b1 -> canon_set b2 = b2 ->
  canon_set (set_diff all b1) = canon_set (set_diff all b2) -> b1 = b2.
Proof.
  intros I1 I2 C1 C2 H. rewrite <- C1, <- C2. apply canon_set_ext.
  (* a member of one ballot that the other lacks would be in one complement only *)
  assert (Half : forall b b', incl b all -> canon_set (set_diff all b) = canon_set (set_diff all b') ->
                 forall x, In x b -> In x b').
  { intros b b' Ib E x Hx. destruct (cmem x b') eqn:Em; [apply cmem_In, Em|]. exfalso.
    assert (D : In x (set_diff all b')) by (apply in_set_diff; split; [apply Ib, Hx|apply cmem_false, Em]).
    apply (proj2 (canon_set_spec _)) in D. rewrite <- E in D. apply (proj2 (canon_set_spec _)), in_set_diff in D.
    destruct D as [_ D]. exact (D Hx). }
  intros x. split; [apply (Half b1 b2 I1 H)|apply (Half b2 b1 I2 (eq_sym H))].
Qed.

Lemma nodup_map_inj_on {X Y} (f : X -> Y) (l : list X) :
  NoDup l -> (forall x y, In x l -> In y l -> f x = f y -> x = y) -> NoDup (map f l).
Proof.
  induction 1 as [|x l Hx Hl IH]; intros Hf; cbn [map]; constructor.
  - intros I. apply in_map_iff in I. destruct I as (y & E & Iy). apply Hx.
    rewrite (Hf x y (or_introl eq_refl) (or_intror Iy) (eq_sym E)). exact Iy.
  - apply IH. intros a b Ia Ib. apply Hf; right; assumption.
Qed.

(* distinct one-key images: the accumulating fold lists them, in order *)
Lemma dconv_single_from {B} (key : B -> sx) (votes : list (B * Q)) : forall acc acc' : fdict,
  deq acc acc' -> NoDup (keys acc' ++ map (fun bw => key (fst bw)) votes) ->
  deq (acc ++ map (fun bw => (key (fst bw), snd bw)) votes)
      (fold_left (fun a bw => fold_left (madd (snd bw)) [(key (fst bw), 1)] a) votes acc').
Proof.
  induction votes as [|[b w] votes IH]; intros acc acc' Hd Hn; cbn [map fold_left fst snd].
  - rewrite app_nil_r. exact Hd.
  - unfold madd at 2. cbn [fst snd]. rewrite gadd_fresh.
    + change ((key b, w) :: map (fun bw => (key (fst bw), snd bw)) votes) with ([(key b, w)] ++ map (fun bw => (key (fst bw), snd bw)) votes).
      rewrite app_assoc. apply IH.
      * apply Forall2_app; [exact Hd|]. constructor; [|constructor]. split; [reflexivity|]. cbn [snd]. symmetry. apply Qmult_1_l.
      * unfold keys in *. rewrite map_app. cbn [map fst]. rewrite <- app_assoc. exact Hn.
    + cbn [map fst snd] in Hn. apply NoDup_remove_2 in Hn. intros I. apply Hn. apply in_or_app. left. exact I.
Qed.

Lemma tie_inverted_approval (votes : list (list C * Q)) :
  NoDup (map fst votes) -> Forall (fun bw => canon_set (fst bw) = fst bw) votes ->
  deq (Gen.Convert.InvertedApprovalVotes_convert votes) (dconv (img_inverted_approval (cands_approval votes)) votes).
Proof.
  intros Hn Hc. unfold Gen.Convert.InvertedApprovalVotes_convert. cbv zeta.
  assert (EA : forall f : list C -> list C, (forall v, f v = v) ->
               py_frozenset (flat_map f (map fst votes)) = cands_approval votes).
  { intros f Hf. unfold py_frozenset, cands_approval. f_equal. clear Hn Hc.
    induction votes as [|[b w] t IH]; cbn [map flat_map fst]; [reflexivity|]. rewrite Hf, IH. reflexivity. }
  match goal with |- context [py_frozenset (flat_map ?f (map fst votes))] =>
    rewrite (EA f) by (intros v; cbv beta; apply map_id) end. clear EA. set (all := cands_approval votes).
  assert (ND : NoDup (map (fun bw : list C * Q => kset (canon_set (set_diff all (fst bw)))) votes)).
  { rewrite <- (map_map fst (fun b => kset (canon_set (set_diff all b)))). apply nodup_map_inj_on; [exact Hn|].
    intros b1 b2 I1 I2 E. apply kset_inj in E.
    assert (SUB : forall b, In b (map fst votes) -> incl b all).
    { intros b Ib x Hx. unfold all, cands_approval. apply (proj2 (canon_set_spec _)). apply in_flat_map.
      apply in_map_iff in Ib. destruct Ib as (bw & Eb & Ibw). exists bw. split; [exact Ibw|rewrite Eb; exact Hx]. }
    assert (CAN : forall b, In b (map fst votes) -> canon_set b = b).
    { intros b Ib. apply in_map_iff in Ib. destruct Ib as (bw & Eb & Ibw). rewrite Forall_forall in Hc. rewrite <- Eb. apply Hc, Ibw. }
    apply (complement_inj all); auto. }
  match goal with |- deq (py_dict_of ?l) _ =>
    replace l with (map (fun bw : list C * Q => (kset (canon_set (set_diff all (fst bw))), snd bw)) votes)
      by (apply map_ext; intros [b w]; cbn [fst snd]; unfold py_frozenset, set_diff; rewrite map_id; reflexivity) end.
  rewrite py_dict_of_nodup by (unfold keys; rewrite map_map; exact ND).
  rewrite dconv_unfold. unfold img_inverted_approval.
  apply (dconv_single_from (fun b => kset (canon_set (set_diff all b))) votes [] []); [constructor|exact ND].
Qed.

(* RankedToPresenceCounts.convert: one addition per item of util.all_rankings(votes), which is NOT translated (a generator with a
   while loop): a function parameter.  What is used of it: it lists every (candidate, count) occurrence of the profile once - in
   whatever order (the code goes rank by rank, the model ballot by ballot). *)
Definition presence_listing (votes : list (ranked * Q)) : list (C * Q) :=
  flat_map (fun bw => map (fun c => (c, snd bw)) (flatten (fst bw))) votes.

Lemma fold_left_ext' {X Y} (f g : Y -> X -> Y) l : (forall a x, f a x = g a x) -> forall a, fold_left f l a = fold_left g l a.
Proof. exact (fold_left_ext f g l). Qed.

Lemma tie_presence (f : list (ranked * Q) -> list (C * (Z * Q))) votes :
  Permutation (map (fun t => (fst t, snd (snd t))) (f votes)) (presence_listing votes) ->
  dsim (Gen.Convert.RankedToPresenceCounts_convert f votes) (dconv img_presence votes).
Proof.
  intros HP. set (single := fun c : C => [(kc c, 1)]). set (g := fun t : C * (Z * Q) => (fst t, snd (snd t))) in *.
  assert (D : deq (Gen.Convert.RankedToPresenceCounts_convert f votes) (dconv single (map g (f votes)))).
  { unfold Gen.Convert.RankedToPresenceCounts_convert. cbv zeta. rewrite dconv_unfold, fold_left_map'.
    apply deq_fold; [|constructor]. intros a b [c [rk w]] Hab. apply deq_madd_one, Hab. }
  apply (dsim_trans _ (dconv single (map g (f votes)))).
  { apply deq_dsim; [exact D|]. rewrite (deq_keys _ _ D). apply nodup_conv. }
  apply (dsim_trans _ (dconv single (presence_listing votes))); [apply dconv_ballot_perm, HP|].
  assert (E : dconv single (presence_listing votes) = dconv img_presence votes).
  { rewrite !dconv_unfold. unfold presence_listing. rewrite fold_left_flat_map. apply fold_left_ext'. intros a [r w]. cbn [fst snd].
    unfold img_presence. rewrite !fold_left_map'. reflexivity. }
  rewrite E. apply dsim_refl, nodup_conv.
Qed.

(* RankedToFirstNPreferences.convert: the first n ranks as one frozenset key.  The model (img_first_n) covers the ballots
   without a shared rank among the first n (elsewhere it is None: the key would be a frozenset containing frozensets); the generated
   code is total (py_key_itemset).  The tie is stated where the model speaks. *)
Lemma deq_fold_in {X} (f g : fdict -> X -> fdict) (l : list X) :
  (forall a b x, In x l -> deq a b -> deq (f a x) (g b x)) -> forall a b, deq a b -> deq (fold_left f l a) (fold_left g l b).
Proof.
  induction l as [|x l IH]; intros H a b Hab; cbn [fold_left]; [exact Hab|].
  apply IH; [intros a' b' y Hy; apply H; right; exact Hy|]. apply H; [left; reflexivity|exact Hab].
Qed.

Lemma all_plain_key (l : list item) :
  forallb (fun i => match i with IP _ => true | IS _ => false end) l = true -> py_key_itemset l = kset (canon_set (flatten l)).
Proof.
  intros H. assert (E : item_plains l = flatten l /\ item_sets l = []).
  { induction l as [|[c|s] l IH]; cbn [forallb andb] in H; [split; reflexivity| |discriminate H].
    destruct (IH H) as [E1 E2]. unfold item_plains, item_sets, flatten in *. cbn [flat_map members app]. rewrite E1, E2. split; reflexivity. }
  destruct E as [E1 E2]. unfold py_key_itemset, kset. rewrite E1, E2. cbn [canon_sets fold_left map]. rewrite app_nil_r. reflexivity.
Qed.

Lemma tie_first_n (n : nat) votes o :
  oconv (img_first_n n) votes = Some o -> deq (Gen.Convert.RankedToFirstNPreferences_convert (Z.of_nat n) votes) o.
Proof.
  unfold oconv. destruct (forallb _ votes) eqn:HF; [|discriminate]. intros E. injection E as <-.
  unfold Gen.Convert.RankedToFirstNPreferences_convert. rewrite dconv_unfold. cbv zeta.
  apply deq_fold_in; [|constructor]. intros a b [r w] Hin Hab. cbn [fst snd].
  rewrite forallb_forall in HF. specialize (HF _ Hin). cbn [fst] in HF. unfold img_first_n in *.
  destruct r as [|i r]; [cbn [fold_left]; exact Hab|].
  rewrite py_slice_to_nat.
  destruct (forallb (fun i0 => match i0 with IP _ => true | IS _ => false end) (firstn n (i :: r))) eqn:EP; [|discriminate HF].
  cbn [fold_left]. rewrite (all_plain_key _ EP). apply deq_madd_one, Hab.
Qed.

Theorem GenTie_Convert_approval_simple : forall (split : bool) (votes : list (list C * Q)),
  deq (Gen.Convert.ApprovalToSimpleVotes_convert split votes) (dconv (img_approval_simple split) votes).
Proof. exact tie_approval_simple. Qed.

Theorem GenTie_Convert_first_preference : forall votes : list (ranked * Q),
  deq (Gen.Convert.RankedToFirstPreference_convert votes) (dconv img_first votes).
Proof. exact tie_first_preference. Qed.

Theorem GenTie_Convert_ranked_approval : forall votes : list (ranked * Q),
  deq (Gen.Convert.RankedToApprovalVotes_convert votes) (dconv img_ranked_approval votes).
Proof. exact tie_ranked_approval. Qed.

Theorem GenTie_Convert_score_approval : forall (thr : Q) (votes : list (sballot * Q)),
  deq (Gen.Convert.ScoreToApprovalVotesThreshold_convert thr votes) (dconv (img_score_approval thr) votes).
Proof. exact tie_score_approval. Qed.

Theorem GenTie_Convert_add_dict : forall d1 d2 : fdict, deq (Gen.Convert.add_dict_to_dict d1 d2) (add_dict d1 d2).
Proof. intros d1 d2. apply tie_add_dict, deq_refl. Qed.

Theorem GenTie_Convert_vote_totals : forall votes : ndict, deq (Gen.Convert.VoteTotals_convert votes) (vote_totals votes).
Proof. exact tie_vote_totals. Qed.

Theorem GenTie_Convert_inverted_simple : forall votes : fdict, NoDup (keys votes) ->
  Gen.Convert.InvertedSimpleVotes_convert votes = inv_simple votes.
Proof. exact tie_inverted_simple. Qed.

Theorem GenTie_Convert_inverted_approval : forall votes : list (list C * Q),
  NoDup (map fst votes) -> Forall (fun bw => canon_set (fst bw) = fst bw) votes ->
  deq (Gen.Convert.InvertedApprovalVotes_convert votes) (dconv (img_inverted_approval (cands_approval votes)) votes).
Proof. exact tie_inverted_approval. Qed.

(* the hypotheses hold of a dictionary of frozensets: distinct keys, each in the canonical form *)
Example gen_convert_inverted_approval_hyp :
  let votes := [([1; 2]%positive, 3 # 1); ([2; 3]%positive, 1 # 1); ([], 2 # 1)] in
  NoDup (map fst votes) /\ Forall (fun bw : list C * Q => canon_set (fst bw) = fst bw) votes /\
  Gen.Convert.InvertedApprovalVotes_convert votes = [(kset [3]%positive, 3 # 1); (kset [1]%positive, 1 # 1); (kset [1; 2; 3]%positive, 2 # 1)].
Proof.
  cbv zeta. split; [|split; [|reflexivity]].
  - repeat constructor; cbn [In]; intros H; repeat destruct H as [H|H]; try discriminate H; exact H.
  - repeat constructor.
Qed.

Theorem GenTie_Convert_presence : forall (f : list (ranked * Q) -> list (C * (Z * Q))) (votes : list (ranked * Q)),
  Permutation (map (fun t => (fst t, snd (snd t))) (f votes)) (presence_listing votes) ->
  dsim (Gen.Convert.RankedToPresenceCounts_convert f votes) (dconv img_presence votes).
Proof. exact tie_presence. Qed.

(* the hypothesis holds of the rank-by-rank listing util.all_rankings produces (here written out for one profile) *)
Example gen_convert_presence_hyp :
  let votes := [([IS [1; 2]%positive; IP 3%positive], 2 # 1); ([IP 3%positive; IP 1%positive], 1 # 1)] in
  let f := fun _ : list (ranked * Q) => [(1, (0%Z, 2 # 1)); (2, (0%Z, 2 # 1)); (3, (0%Z, 1 # 1)); (3, (1%Z, 2 # 1)); (1, (1%Z, 1 # 1))]%positive in
  Permutation (map (fun t => (fst t, snd (snd t))) (f votes)) (presence_listing votes) /\
  Gen.Convert.RankedToPresenceCounts_convert f votes = [(kc 1%positive, 0 + (2 # 1) + (1 # 1)); (kc 2%positive, 0 + (2 # 1)); (kc 3%positive, 0 + (1 # 1) + (2 # 1))].
Proof.
  cbv zeta. split; [|reflexivity]. cbn.
  apply perm_skip, perm_skip. apply perm_trans with ((3%positive, 2 # 1) :: (3%positive, 1 # 1) :: [(1%positive, 1 # 1)]); [apply perm_swap|].
  apply Permutation_refl.
Qed.

Theorem GenTie_Convert_first_n : forall (n : nat) (votes : list (ranked * Q)) (o : list (sx * Q)),
  oconv (img_first_n n) votes = Some o -> deq (Gen.Convert.RankedToFirstNPreferences_convert (Z.of_nat n) votes) o.
Proof. exact tie_first_n. Qed.

(* the hypothesis is satisfiable (no shared rank among the first two); outside it the generated code still answers: the key holds a set *)
Example gen_convert_first_n_example :
  let votes := [([IP 3; IP 1; IS [2; 4]]%positive, 2 # 1); ([], 1 # 1); ([IP 1; IP 3]%positive, 4 # 1)] in
  oconv (img_first_n 2) votes = Some [(kset [1; 3]%positive, 1 * (2 # 1) + 1 * (4 # 1))] /\
  Gen.Convert.RankedToFirstNPreferences_convert 2 votes = [(kset [1; 3]%positive, 0 + (2 # 1) + (4 # 1))] /\
  Gen.Convert.RankedToFirstNPreferences_convert 3 votes
    = [(L [kc 1%positive; kc 3%positive; kset [2; 4]%positive], 0 + (2 # 1)); (kset [1; 3]%positive, 0 + (4 # 1))].
Proof. repeat split; reflexivity. Qed.

(* what [run_kind] of Model/Convert2.v answers for a decodable profile is the generated function (the four kinds translated here) *)
Corollary GenTie_Convert_run_kind : forall (d : fdict),
  (forall sp v, decode_all key_approval d = Some v ->
     exists o, run_kind (KApprovalSimple sp) d = COk (VF o) /\ deq (Gen.Convert.ApprovalToSimpleVotes_convert sp v) o) /\
  (forall v, decode_all key_ranked d = Some v ->
     exists o, run_kind KFirst d = COk (VF o) /\ deq (Gen.Convert.RankedToFirstPreference_convert v) o) /\
  (forall v, decode_all key_ranked d = Some v ->
     exists o, run_kind KRankedApproval d = COk (VF o) /\ deq (Gen.Convert.RankedToApprovalVotes_convert v) o) /\
  (forall th v, decode_all key_score d = Some v ->
     exists o, run_kind (KScoreApproval th) d = COk (VF o) /\ deq (Gen.Convert.ScoreToApprovalVotesThreshold_convert th v) o).
Proof.
  intros d. repeat split; intros; unfold run_kind, with_votes; rewrite H; eexists; (split; [reflexivity|]).
  - apply tie_approval_simple.
  - apply tie_first_preference.
  - apply tie_ranked_approval.
  - apply tie_score_approval.
Qed.

(* non-vacuity: shared ranks, an empty approval ballot under split, equal images, a key met twice *)
Example gen_convert_example :
  Gen.Convert.ApprovalToSimpleVotes_convert true [([1; 2]%positive, 3 # 1); ([], 5 # 1); ([2]%positive, 1 # 1)]
    = [(kc 1%positive, 0 + (3 # 1) / inject_Z 2); (kc 2%positive, 0 + (3 # 1) / inject_Z 2 + (1 # 1))] /\
  Gen.Convert.RankedToFirstPreference_convert [([IS [1; 2]%positive; IP 3%positive], 2 # 1); ([], 1 # 1); ([IP 3%positive], 4 # 1)]
    = [(kset [1; 2]%positive, 0 + (2 # 1)); (kc 3%positive, 0 + (4 # 1))] /\
  Gen.Convert.RankedToApprovalVotes_convert [([IP 3%positive; IS [1; 2]%positive], 2 # 1); ([IP 2%positive; IP 1%positive; IP 3%positive], 1 # 1)]
    = [(kset [1; 2; 3]%positive, 0 + (2 # 1) + (1 # 1))] /\
  Gen.Convert.ScoreToApprovalVotesThreshold_convert (2 # 1) [([(1%positive, 3 # 1); (2%positive, 1 # 1)], 2 # 1); ([(1%positive, 0 # 1)], 7 # 1)]
    = [(kset [1]%positive, 0 + (2 # 1))] /\
  Gen.Convert.VoteTotals_convert [(A 1, [(A 5, 1 # 1); (A 6, 2 # 1)]); (A 2, [(A 6, 3 # 1)])]
    = [(A 5, inject_Z 0 + (1 # 1)); (A 6, inject_Z 0 + (2 # 1) + (3 # 1))] /\
  Gen.Convert.InvertedSimpleVotes_convert [(A 5, 1 # 1); (A 6, 2 # 1)] = [(A 5, - (1 # 1)); (A 6, - (2 # 1))].
Proof. repeat split; reflexivity. Qed.

Print Assumptions GenTie_Convert_approval_simple.
Print Assumptions GenTie_Convert_first_preference.
Print Assumptions GenTie_Convert_ranked_approval.
Print Assumptions GenTie_Convert_score_approval.
Print Assumptions GenTie_Convert_add_dict.
Print Assumptions GenTie_Convert_vote_totals.
Print Assumptions GenTie_Convert_inverted_simple.
Print Assumptions GenTie_Convert_run_kind.
Print Assumptions GenTie_Convert_inverted_approval.
Print Assumptions GenTie_Convert_presence.
Print Assumptions GenTie_Convert_first_n.
