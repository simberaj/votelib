(* C04 - Transferable vote outcomes.  This file holds the property theorems, the definitions their statements need
   and examples of non-vacuity.  Models: Model/STV.v, Model/STVHare.v; proofs: Proofs/STV_proofs.v,
   Proofs/STV_psc_proofs.v, Proofs/STV_majority_proofs.v, Proofs/STV_count_proofs.v, Proofs/STVHare_count_proofs.v,
   Proofs/STVHare_psc_proofs.v and the files imported below.

   Proved for every profile and configuration: a count that ends without a refusal has filled
   exactly the requested number of seats (definite seats, shortcut included).  The solid-coalition (PSC) clause, the
   majority clause (on the first count's allocation and on the ballots themselves) and the count /
   distinctness / cap clauses are theorems for all inputs.
   Outside this file (harness/props/c04.py): the extracted model serves as the independent weighted-inclusive-Gregory
   reference the implementation is compared with on every explored profile (outcomes and refusals), and a brute-force
   checker over all candidate subsets evaluates the clauses on every implementation outcome. *)
From Coq Require Import ZArith QArith List.
From VL Require Import Prelude.PyDict Model.GetNBest Model.Convert Model.STV Model.Quota Proofs.STV_proofs Proofs.STV_majority_proofs Proofs.STV_psc_proofs Proofs.STV_count_proofs.
From VL Require Import Model.STVHare Proofs.STVHare_draws_proofs Proofs.STVHare_proofs Proofs.STVHare_count_proofs Proofs.STVHare_psc_proofs.
Import ListNotations.

Theorem C04_exact_count : forall cf fuel a n total seats caps acc,
  t_stop (run cf fuel a n total seats caps acc) = None ->
  zsum (map snd (t_seats (run cf fuel a n total seats caps acc))) = n.
Proof. exact run_complete. Qed.

(* the elect-all-remaining shortcut fires only when the free seats equal the open seats *)
Theorem C04_last_standing : forall cf a n total seats caps el,
  next_count cf a n total seats caps = CR_all el -> seats_sum el = (n - zsum (map snd seats))%Z.
Proof. exact next_count_all. Qed.

(* the quota winner of a single-seat count: if exactly one continuing candidate holds at least the quota (every other
   pile holds less), the count elects that candidate and the run ends with exactly that seat.  Selector form: every
   continuing candidate capped at one seat, at least two of them; accept_quota_equal as by default. *)
Theorem C04_single_seat_quota_winner : forall cf qf a total c t caps c2 f,
  c_accept_equal cf = true -> c_quota cf = Some qf -> NoDup (akeys a) -> Qeq_bool total 0 = false ->
  (0 < qf total 1%Z)%Q -> In (Some c, t) (totals a) -> (qf total 1%Z <= t)%Q ->
  (forall k x, In (k, x) (totals a) -> k <> Some c -> (0 <= x /\ x < qf total 1%Z)%Q) ->
  (forall k, In (Some k) (akeys a) -> dget caps k = Some 1%Z) ->
  In (Some c2) (akeys a) /\ c2 <> c ->
  t_seats (run cf (S f) a 1 total [] caps []) = [(c, 1%Z)] /\ t_stop (run cf (S f) a 1 total [] caps []) = None.
Proof.
  intros cf qf a total c t caps c2 f Hae Hqf Hnd Htot Hq Hc Hct Hoth Hcaps Hc2.
  exact (single_seat_run cf Hae qf Hqf a Hnd total Htot Hq c t Hc Hct Hoth caps Hcaps c2 Hc2 f).
Qed.

(* majority: with the Droop quota, a candidate holding more than half of all votes (an integer number of them; every
   other pile non-negative and, together with the winner's, at most all votes) wins the single seat at once *)
Theorem C04_majority : forall cf a total c t zt caps c2 f,
  c_accept_equal cf = true -> c_quota cf = Some Quota.droop -> NoDup (akeys a) -> Qeq_bool total 0 = false ->
  In (Some c, t) (totals a) -> (t == inject_Z zt)%Q -> (total < 2 * t)%Q ->
  (forall k x, In (k, x) (totals a) -> k <> Some c -> (0 <= x /\ x + t <= total)%Q) ->
  (forall k, In (Some k) (akeys a) -> dget caps k = Some 1%Z) ->
  In (Some c2) (akeys a) /\ c2 <> c ->
  t_seats (run cf (S f) a 1 total [] caps []) = [(c, 1%Z)] /\ t_stop (run cf (S f) a 1 total [] caps []) = None.
Proof. intros cf a total c t zt caps c2 f. exact (majority_single_seat cf a total c t zt caps c2 f). Qed.

(* Proportionality for solid coalitions.
   [solid_b S b] (Proofs/STV_psc_proofs.v): the first |S| ranks of b are plain (unshared) ranks naming exactly the
   members of S; [coalition_weight S votes] is the weight of the solid ballots.  Nothing is assumed about the other
   ballots (shared ranks, truncation, repeated names) nor about what follows the top |S| ranks of a solid ballot.

   Selector form: every candidate capped at one seat, no previous seats, accept_quota_equal, one elimination at a
   time (eliminate_step = -1); mandatory_quota free.  Hypotheses on the data: weights non-negative; the quota
   actually used, q = quota total n, is positive and (n+1) q exceeds the votes (true of Droop for n >= 0 and of Hare
   for n >= 1, total > 0: corollaries below).  Then every count that ends normally seats min(k, |S|) members of a
   coalition holding k quotas. *)
Definition C04_psc_full_statement : Prop :=
  forall (quota : Q -> Z -> Q) (mq : bool) (votes : list (ballot * Q)) (n : Z) (caps : list (C * Z)) (S : list C) (k : nat),
    (forall c, In c (all_ranked_candidates votes) -> dget caps c = Some 1%Z) ->
    NoDup S -> S <> [] ->
    (forall b w, In (b, w) votes -> (0 <= w)%Q) ->
    let total := Qred (fold_left Qplus (map snd votes) 0%Q) in
    (0 < quota total n)%Q -> (total < inject_Z (n + 1) * quota total n)%Q ->
    let t := stv (Build_cfg (Some quota) true mq (-1)) votes n [] caps in
    t_stop t = None ->
    (inject_Z (Z.of_nat k) * quota total n <= coalition_weight S votes)%Q ->
    (Nat.min k (length S) <= length (filter (fun c => cmem c S) (map fst (t_seats t))))%nat.

Theorem C04_psc : C04_psc_full_statement.
Proof.
  intros quota mq votes n caps S k Hcaps Hnd Hne Hw total Hq Hd t Hstop Hk.
  exact (psc_main (Build_cfg (Some quota) true mq (-1)) quota votes n caps S k eq_refl eq_refl eq_refl Hcaps Hnd Hne Hw Hq Hd Hstop Hk).
Qed.

(* the same, declaratively: there is a set W of distinct members of S, each holding exactly one seat, of size
   min(k, |S|) at least *)
Theorem C04_psc_winners : forall (quota : Q -> Z -> Q) (mq : bool) (votes : list (ballot * Q)) (n : Z) (caps : list (C * Z)) (S : list C) (k : nat),
    (forall c, In c (all_ranked_candidates votes) -> dget caps c = Some 1%Z) ->
    NoDup S -> S <> [] ->
    (forall b w, In (b, w) votes -> (0 <= w)%Q) ->
    let total := Qred (fold_left Qplus (map snd votes) 0%Q) in
    (0 < quota total n)%Q -> (total < inject_Z (n + 1) * quota total n)%Q ->
    let t := stv (Build_cfg (Some quota) true mq (-1)) votes n [] caps in
    t_stop t = None ->
    (inject_Z (Z.of_nat k) * quota total n <= coalition_weight S votes)%Q ->
    exists W : list C, NoDup W /\ incl W S /\ (forall c, In c W -> In (c, 1%Z) (t_seats t)) /\
                       (Nat.min k (length S) <= length W)%nat.
Proof.
  intros quota mq votes n caps S k Hcaps Hnd Hne Hw total Hq Hd t Hstop Hk.
  exact (psc_winners (Build_cfg (Some quota) true mq (-1)) quota votes n caps S k eq_refl eq_refl eq_refl Hcaps Hnd Hne Hw Hq Hd Hstop Hk).
Qed.

(* Droop quota: no hypothesis on the quota is left *)
Theorem C04_psc_droop : forall (mq : bool) (votes : list (ballot * Q)) (n : Z) (caps : list (C * Z)) (S : list C) (k : nat),
    (forall c, In c (all_ranked_candidates votes) -> dget caps c = Some 1%Z) ->
    NoDup S -> S <> [] -> (0 <= n)%Z ->
    (forall b w, In (b, w) votes -> (0 <= w)%Q) ->
    let total := Qred (fold_left Qplus (map snd votes) 0%Q) in
    let t := stv (Build_cfg (Some Quota.droop) true mq (-1)) votes n [] caps in
    t_stop t = None ->
    (inject_Z (Z.of_nat k) * Quota.droop total n <= coalition_weight S votes)%Q ->
    (Nat.min k (length S) <= length (filter (fun c => cmem c S) (map fst (t_seats t))))%nat.
Proof.
  intros mq votes n caps S k Hcaps Hnd Hne Hn Hw total t Hstop Hk.
  assert (Ht : (0 <= total)%Q).
  { unfold total. rewrite total_vsum. clear -Hw. induction votes as [|[b w] vs IH]; simpl; [apply Qle_refl|].
    apply (Qle_trans _ (0 + 0)); [apply Qle_refl|]. apply Qplus_le_compat; [apply (Hw b w); left; reflexivity|].
    apply IH. intros b0 w0 H. apply (Hw b0 w0). right. exact H. }
  destruct (droop_ok total n Ht Hn) as [Hq Hd].
  exact (C04_psc Quota.droop mq votes n caps S k Hcaps Hnd Hne Hw Hq Hd Hstop Hk).
Qed.

(* Hare quota (at least one seat, some vote cast) *)
Theorem C04_psc_hare : forall (mq : bool) (votes : list (ballot * Q)) (n : Z) (caps : list (C * Z)) (S : list C) (k : nat),
    (forall c, In c (all_ranked_candidates votes) -> dget caps c = Some 1%Z) ->
    NoDup S -> S <> [] -> (1 <= n)%Z ->
    (forall b w, In (b, w) votes -> (0 <= w)%Q) ->
    let total := Qred (fold_left Qplus (map snd votes) 0%Q) in
    (0 < total)%Q ->
    let t := stv (Build_cfg (Some Quota.hare) true mq (-1)) votes n [] caps in
    t_stop t = None ->
    (inject_Z (Z.of_nat k) * Quota.hare total n <= coalition_weight S votes)%Q ->
    (Nat.min k (length S) <= length (filter (fun c => cmem c S) (map fst (t_seats t))))%nat.
Proof.
  intros mq votes n caps S k Hcaps Hnd Hne Hn Hw total Ht t Hstop Hk.
  destruct (hare_ok total n Ht Hn) as [Hq Hd].
  exact (C04_psc Quota.hare mq votes n caps S k Hcaps Hnd Hne Hw Hq Hd Hstop Hk).
Qed.

(* the hypotheses are satisfiable by a non-trivial count: 4 candidates, 3 seats, Droop quota 6 of 23 votes; the
   coalition {1,2} holds 13 votes = 2 quotas on ballots ranking 1,2 (in either order) first; four counts: 1 elected,
   2 elected after the transfer of 1's surplus, 4 eliminated, 3 elected as the last standing *)
Definition ex_votes : list (ballot * Q) :=
  [([IP 1; IP 2; IP 3], 9%Q); ([IP 2; IP 1], 4%Q); ([IP 3; IP 4], 3%Q); ([IP 4; IS [1; 3]], 3%Q); ([IP 3], 2%Q); ([IP 4; IP 3], 2%Q)]%positive.
Definition ex_caps : list (C * Z) := [(1%positive, 1%Z); (2%positive, 1%Z); (3%positive, 1%Z); (4%positive, 1%Z)].
Example C04_psc_example :
  let total := Qred (fold_left Qplus (map snd ex_votes) 0%Q) in
  let t := stv (Build_cfg (Some Quota.droop) true false (-1)) ex_votes 3 [] ex_caps in
  forallb (fun c => match dget ex_caps c with Some 1%Z => true | _ => false end) (all_ranked_candidates ex_votes) = true /\
  forallb (fun bw => Qle_bool 0 (snd bw)) ex_votes = true /\
  Quota.droop total 3 = 6%Q /\ coalition_weight [1; 2]%positive ex_votes = 13%Q /\
  t_stop t = None /\ length (t_counts t) = 4%nat /\ t_seats t = [(1%positive, 1%Z); (2%positive, 1%Z); (3%positive, 1%Z)].
Proof. vm_compute. repeat split; try reflexivity. Qed.

(* The same under the Hare (random whole-ballot) transferer.
   Model/STVHare.v: the random draws of the transferer are the oracle argument [orc] - the theorem holds for EVERY
   oracle, i.e. whatever individual ballots are drawn away from the elected candidates and however the odd votes of a
   shared rank fall.  Hypotheses as for C04_psc, with whole non-negative vote counts ([votes_whole]: the domain of the
   Hare transferer); a count that ends normally (h_stop = None: in particular the oracle was accepted and seats * quota
   was a whole number) seats min(k, |S|) members of a coalition holding k quotas. *)
Theorem C04_psc_hare_transferer :
  forall (quota : Q -> Z -> Q) (mq : bool) (votes : list (ballot * Q)) (n : Z) (caps : list (C * Z)) (S : list C) (k : nat)
         (orc : oracle),
    (forall c, In c (all_ranked_candidates votes) -> dget caps c = Some 1%Z) ->
    NoDup S -> S <> [] ->
    votes_whole votes ->
    let total := Qred (fold_left Qplus (map snd votes) 0%Q) in
    (0 < quota total n)%Q -> (total < inject_Z (n + 1) * quota total n)%Q ->
    let t := stv_h (Build_cfg (Some quota) true mq (-1)) votes n [] caps orc in
    h_stop t = None ->
    (inject_Z (Z.of_nat k) * quota total n <= coalition_weight S votes)%Q ->
    (Nat.min k (length S) <= length (filter (fun c => cmem c S) (map fst (h_seats t))))%nat.
Proof.
  intros quota mq votes n caps S k orc Hcaps Hnd Hne Hw total Hq Hd t Hstop Hk.
  destruct k as [|k']; [simpl; apply Nat.le_0_l|].
  exact (proj1 (psc_strong_h (Build_cfg (Some quota) true mq (-1)) quota votes n caps S (Datatypes.S k') orc eq_refl eq_refl eq_refl
                             Hcaps Hnd Hne Hw Hq Hd Hstop Hk (le_n_S _ _ (Nat.le_0_l k')))).
Qed.

Theorem C04_psc_hare_transferer_winners :
  forall (quota : Q -> Z -> Q) (mq : bool) (votes : list (ballot * Q)) (n : Z) (caps : list (C * Z)) (S : list C) (k : nat)
         (orc : oracle),
    (forall c, In c (all_ranked_candidates votes) -> dget caps c = Some 1%Z) ->
    NoDup S -> S <> [] ->
    votes_whole votes ->
    let total := Qred (fold_left Qplus (map snd votes) 0%Q) in
    (0 < quota total n)%Q -> (total < inject_Z (n + 1) * quota total n)%Q ->
    let t := stv_h (Build_cfg (Some quota) true mq (-1)) votes n [] caps orc in
    h_stop t = None ->
    (inject_Z (Z.of_nat k) * quota total n <= coalition_weight S votes)%Q ->
    exists W : list C, NoDup W /\ incl W S /\ (forall c, In c W -> In (c, 1%Z) (h_seats t)) /\
                       (Nat.min k (length S) <= length W)%nat.
Proof.
  intros quota mq votes n caps S k orc Hcaps Hnd Hne Hw total Hq Hd t Hstop Hk.
  exact (psc_winners_h (Build_cfg (Some quota) true mq (-1)) quota votes n caps S k orc eq_refl eq_refl eq_refl Hcaps Hnd Hne Hw Hq Hd Hstop Hk).
Qed.

(* Droop quota (the whole-number quota the Hare transferer is used with): no hypothesis on the quota is left *)
Theorem C04_psc_hare_transferer_droop :
  forall (mq : bool) (votes : list (ballot * Q)) (n : Z) (caps : list (C * Z)) (S : list C) (k : nat) (orc : oracle),
    (forall c, In c (all_ranked_candidates votes) -> dget caps c = Some 1%Z) ->
    NoDup S -> S <> [] -> (0 <= n)%Z ->
    votes_whole votes ->
    let total := Qred (fold_left Qplus (map snd votes) 0%Q) in
    let t := stv_h (Build_cfg (Some Quota.droop) true mq (-1)) votes n [] caps orc in
    h_stop t = None ->
    (inject_Z (Z.of_nat k) * Quota.droop total n <= coalition_weight S votes)%Q ->
    (Nat.min k (length S) <= length (filter (fun c => cmem c S) (map fst (h_seats t))))%nat.
Proof.
  intros mq votes n caps S k orc Hcaps Hnd Hne Hn Hw total t Hstop Hk.
  assert (Hw0 : forall b w, In (b, w) votes -> (0 <= w)%Q) by (intros b w Hin; apply whole_nonneg_ge0, (Hw b w Hin)).
  assert (Ht : (0 <= total)%Q).
  { unfold total. rewrite total_vsum. clear -Hw0. induction votes as [|[b w] vs IH]; simpl; [apply Qle_refl|].
    apply (Qle_trans _ (0 + 0)); [apply Qle_refl|]. apply Qplus_le_compat; [apply (Hw0 b w); left; reflexivity|].
    apply IH. intros b0 w0 H. apply (Hw0 b0 w0). right. exact H. }
  destruct (droop_ok total n Ht Hn) as [Hq Hd].
  exact (C04_psc_hare_transferer Quota.droop mq votes n caps S k orc Hcaps Hnd Hne Hw Hq Hd Hstop Hk).
Qed.

(* exact count under the Hare transferer, for every oracle: a count that ends normally has filled exactly n seats *)
Theorem C04_exact_count_hare_transferer : forall cf votes n prev caps (orc : oracle),
  h_stop (stv_h cf votes n prev caps orc) = None ->
  zsum (map snd (h_seats (stv_h cf votes n prev caps orc))) = n.
Proof. exact stv_h_complete. Qed.

(* non-vacuity: the count of C04_psc_example under the Hare transferer with an oracle that draws six of candidate 1's
   nine ballots, six of candidate 2's seven, and the six of candidate 3: three counts, the coalition {1,2} is seated *)
Example C04_psc_hare_transferer_example :
  let t := stv_h (Build_cfg (Some Quota.droop) true false (-1)) ex_votes 3 [] ex_caps
                 [[8; 1; 2; 3; 4; 6]; [0; 1; 2; 3; 6; 5]; [0; 1; 2; 3; 4; 5]]%Z in
  votes_wholeb ex_votes = true /\
  h_stop t = None /\ h_left t = 0%nat /\ length (h_counts t) = 3%nat /\
  h_seats t = [(1%positive, 1%Z); (2%positive, 1%Z); (3%positive, 1%Z)].
Proof. vm_compute. repeat split; try reflexivity. Qed.

(* why the quota hypothesis is there: the clause read for ANY quota function fails for quotas below Droop's, already
   for the library's Imperiali quota v/(n+2): one seat, 5 votes for 1 and 4 for 2, quota 3; both reach it, the larger
   surplus takes the seat, and the coalition {2} holding one quota is left without *)
Definition C04_psc_unrestricted_statement : Prop :=
  forall (quota : Q -> Z -> Q) (votes : list (ballot * Q)) (n : Z) (caps : list (C * Z)) (S : list C) (k : nat),
    (forall c, In c (all_ranked_candidates votes) -> dget caps c = Some 1%Z) ->
    NoDup S -> S <> [] ->
    let total := Qred (fold_left Qplus (map snd votes) 0%Q) in
    let t := stv (Build_cfg (Some quota) true false (-1)) votes n [] caps in
    t_stop t = None ->
    (inject_Z (Z.of_nat k) * quota total n <= coalition_weight S votes)%Q ->
    (Nat.min k (length S) <= length (filter (fun c => cmem c S) (map fst (t_seats t))))%nat.
Theorem C04_psc_unrestricted_refuted : ~ C04_psc_unrestricted_statement.
Proof.
  intros H.
  specialize (H Quota.imperiali [([IP 1%positive], 5%Q); ([IP 2%positive], 4%Q)] 1%Z
                [(1%positive, 1%Z); (2%positive, 1%Z)] [2%positive] 1%nat).
  cbv zeta in H. revert H. vm_compute. intros H.
  refine (_ (H _ _ _ eq_refl _)).
  - intros Hle. inversion Hle.
  - intros c [<-|[<-|[]]]; reflexivity.
  - constructor; [intros []|constructor].
  - discriminate.
  - discriminate.
Qed.

(* The majority clause on the ballots themselves.
   [coalition_weight [c] votes] is the weight of the ballots whose first rank is the plain (unshared) rank c.
   Lifted from the first count's allocation to the profile (Proofs/STV_count_proofs.v: initial_maj gives what
   initial_allocation puts on c's pile; next_count_maj / run_maj carry "c continues and holds more than half"
   through eliminations until c is elected by quota or is the last standing). *)

(* any quota of at least half the votes: if the single-seat count ends without a refusal, c holds the seat.
   Selector form (every cap 1); accept_quota_equal and mandatory_quota free; eliminate_step negative. *)
Theorem C04_majority_ballots : forall cf qf (votes : list (ballot * Q)) (caps : list (C * Z)) (c : C),
  (c_step cf < 0)%Z -> c_quota cf = Some qf ->
  (forall x, In x (all_ranked_candidates votes) -> dget caps x = Some 1%Z) ->
  (forall b w, In (b, w) votes -> (0 <= w)%Q) ->
  let total := Qred (fold_left Qplus (map snd votes) 0%Q) in
  (0 < qf total 1%Z)%Q -> (total <= 2 * qf total 1%Z)%Q ->
  (total < 2 * coalition_weight [c] votes)%Q ->
  let t := stv cf votes 1 [] caps in
  t_stop t = None -> t_seats t = [(c, 1%Z)].
Proof. exact majority_ballots. Qed.

(* Droop and Hare: no hypothesis on the quota left *)
Theorem C04_majority_ballots_droop_hare : forall (hare_q ae mq : bool) (step : Z) (votes : list (ballot * Q)) (caps : list (C * Z)) (c : C),
  (step < 0)%Z ->
  (forall x, In x (all_ranked_candidates votes) -> dget caps x = Some 1%Z) ->
  (forall b w, In (b, w) votes -> (0 <= w)%Q) ->
  let total := Qred (fold_left Qplus (map snd votes) 0%Q) in
  (total < 2 * coalition_weight [c] votes)%Q ->
  let t := stv (Build_cfg (Some (if hare_q then Quota.hare else Quota.droop)) ae mq step) votes 1 [] caps in
  t_stop t = None -> t_seats t = [(c, 1%Z)].
Proof.
  intros hare_q ae mq step votes caps c Hstep Hcaps Hw total Hmaj t Hstop.
  assert (Hpos : (0 < total)%Q).
  { pose proof (total_vsum votes) as Htv. fold total in Htv. pose proof (cw_le_vsum [c] votes Hw) as Hcv.
    rewrite <- Htv in Hcv. clear -Hmaj Hcv. apply Qnot_le_lt. intros H.
    assert (H2 : (2 * coalition_weight [c] votes <= 2 * total)%Q) by (apply Qmult_le_l; [reflexivity|exact Hcv]).
    assert (H3 : (2 * total <= total)%Q).
    { setoid_replace (2 * total)%Q with (total + total)%Q by ring.
      setoid_replace total with (total + 0)%Q at 3 by ring. apply Qplus_le_r. exact H. }
    apply (Qlt_irrefl total). eapply Qlt_le_trans; [exact Hmaj|]. eapply Qle_trans; eassumption. }
  destruct hare_q.
  - destruct (hare_ok total 1 Hpos) as [Hq Hd]; [reflexivity|].
    refine (majority_ballots (Build_cfg (Some Quota.hare) ae mq step) Quota.hare votes caps c Hstep eq_refl Hcaps Hw Hq _ Hmaj Hstop).
    apply Qlt_le_weak. exact Hd.
  - destruct (droop_ok total 1 (Qlt_le_weak _ _ Hpos)) as [Hq Hd]; [discriminate|].
    refine (majority_ballots (Build_cfg (Some Quota.droop) ae mq step) Quota.droop votes caps c Hstep eq_refl Hcaps Hw Hq _ Hmaj Hstop).
    apply Qlt_le_weak. exact Hd.
Qed.

(* Droop, whole numbers of first-choice votes: c is elected at the first count, whatever the other ballots -
   the run cannot end in a refusal (a second candidate stands) *)
Theorem C04_majority_ballots_first_count : forall cf (votes : list (ballot * Q)) (caps : list (C * Z)) (c c2 : C) (z : Z),
  c_accept_equal cf = true -> c_quota cf = Some Quota.droop ->
  (forall x, In x (all_ranked_candidates votes) -> dget caps x = Some 1%Z) ->
  (forall b w, In (b, w) votes -> (0 <= w)%Q) ->
  let total := Qred (fold_left Qplus (map snd votes) 0%Q) in
  (coalition_weight [c] votes == inject_Z z)%Q -> (total < 2 * inject_Z z)%Q ->
  In c2 (all_ranked_candidates votes) -> c2 <> c ->
  let t := stv cf votes 1 [] caps in
  t_seats t = [(c, 1%Z)] /\ t_stop t = None.
Proof. exact majority_ballots_droop. Qed.

(* non-vacuity: Hare quota 11 of 11 votes, nobody reaches it; 3 and then 2 are eliminated, 1 - first choice of 6 -
   is the last standing (three counts); the same profile ends at the first count under Droop *)
Definition maj_votes : list (ballot * Q) := [([IP 1; IP 2], 6%Q); ([IP 2; IP 3], 3%Q); ([IP 3; IP 2], 2%Q)]%positive.
Definition maj_caps : list (C * Z) := [(1%positive, 1%Z); (2%positive, 1%Z); (3%positive, 1%Z)].
Example C04_majority_example :
  let th := stv (Build_cfg (Some Quota.hare) true false (-1)) maj_votes 1 [] maj_caps in
  let td := stv (Build_cfg (Some Quota.droop) true false (-1)) maj_votes 1 [] maj_caps in
  coalition_weight [1%positive] maj_votes = 6%Q /\
  t_stop th = None /\ length (t_counts th) = 3%nat /\ t_seats th = [(1%positive, 1%Z)] /\
  t_stop td = None /\ length (t_counts td) = 1%nat /\ t_seats td = [(1%positive, 1%Z)].
Proof. vm_compute. repeat split; reflexivity. Qed.

(* Who is seated, every configuration.
   Distributor form: no candidate is listed twice, everybody listed stands, holds at least one seat and never
   more than its cap (max_seats); finished and refused counts alike.  Caps of standing candidates positive. *)
Theorem C04_seats_within_caps : forall cf (votes : list (ballot * Q)) (n : Z) (caps : list (C * Z)),
  (forall c m, In c (all_ranked_candidates votes) -> dget caps c = Some m -> (0 < m)%Z) ->
  let t := stv cf votes n [] caps in
  NoDup (map fst (t_seats t)) /\
  forall c s, In (c, s) (t_seats t) ->
    In c (all_ranked_candidates votes) /\ (1 <= s)%Z /\ forall m, dget caps c = Some m -> (s <= m)%Z.
Proof. exact stv_seats_ok. Qed.

(* ... and a finished count hands out exactly n seats among them *)
Theorem C04_exact_count_caps : forall cf (votes : list (ballot * Q)) (n : Z) (caps : list (C * Z)),
  (forall c m, In c (all_ranked_candidates votes) -> dget caps c = Some m -> (0 < m)%Z) ->
  let t := stv cf votes n [] caps in
  t_stop t = None ->
  zsum (map snd (t_seats t)) = n /\ NoDup (map fst (t_seats t)) /\
  forall c s, In (c, s) (t_seats t) -> (1 <= s)%Z /\ forall m, dget caps c = Some m -> (s <= m)%Z.
Proof.
  intros cf votes n caps Hcap t Hstop. destruct (stv_seats_ok cf votes n caps Hcap) as [H1 H2]. fold t in H1, H2.
  split; [unfold t, stv in *; apply run_complete, Hstop|]. split; [exact H1|].
  intros c s Hin. exact (proj2 (H2 c s Hin)).
Qed.

(* Selector form (every cap 1): the elected list holds exactly the requested number of distinct candidates *)
Theorem C04_exact_distinct : forall cf (votes : list (ballot * Q)) (n : Z) (caps : list (C * Z)),
  (forall c, In c (all_ranked_candidates votes) -> dget caps c = Some 1%Z) ->
  let t := stv cf votes n [] caps in
  t_stop t = None ->
  Z.of_nat (length (t_seats t)) = n /\ NoDup (map fst (t_seats t)) /\
  forall c s, In (c, s) (t_seats t) -> s = 1%Z /\ In c (all_ranked_candidates votes).
Proof. exact stv_selector_count. Qed.

(* non-vacuity with caps above one: three seats, caps 2/2/1; and why caps must be positive: a standing
   candidate capped at 0 is listed with 0 seats by the shortcut (the implementation returns {'A': 1, 'B': 0}) *)
Example C04_caps_example :
  let t := stv (Build_cfg (Some Quota.droop) true false (-1))
               [([IP 1; IP 2], 14%Q); ([IP 2; IP 3], 5%Q); ([IP 3; IP 2], 4%Q)]%positive 3 []
               [(1%positive, 2%Z); (2%positive, 2%Z); (3%positive, 1%Z)] in
  t_stop t = None /\ t_seats t = [(1%positive, 2%Z); (2%positive, 1%Z)].
Proof. vm_compute. split; reflexivity. Qed.
Example C04_cap_zero_listed :
  let t := stv (Build_cfg (Some Quota.droop) true false (-1)) [([IP 1], 2%Q); ([IP 2], 1%Q)]%positive 1 []
               [(1%positive, 1%Z); (2%positive, 0%Z)] in
  t_stop t = None /\ t_seats t = [(1%positive, 1%Z); (2%positive, 0%Z)].
Proof. vm_compute. split; reflexivity. Qed.

Print Assumptions C04_exact_count.
Print Assumptions C04_last_standing.
Print Assumptions C04_single_seat_quota_winner.
Print Assumptions C04_majority.
Print Assumptions C04_psc.
Print Assumptions C04_psc_winners.
Print Assumptions C04_psc_droop.
Print Assumptions C04_psc_hare.
Print Assumptions C04_psc_example.
Print Assumptions C04_psc_unrestricted_refuted.
Print Assumptions C04_majority_ballots.
Print Assumptions C04_majority_ballots_droop_hare.
Print Assumptions C04_majority_ballots_first_count.
Print Assumptions C04_seats_within_caps.
Print Assumptions C04_exact_count_caps.
Print Assumptions C04_exact_distinct.
Print Assumptions C04_psc_hare_transferer.
Print Assumptions C04_psc_hare_transferer_winners.
Print Assumptions C04_psc_hare_transferer_droop.
Print Assumptions C04_exact_count_hare_transferer.
Print Assumptions C04_psc_hare_transferer_example.
