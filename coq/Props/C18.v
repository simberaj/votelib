(* C18 - Evaluation is pure: inputs untouched, no state carried between calls.
   This file holds the property theorems, the definitions their statements need and examples of non-vacuity.
   Models: Model/State.v (instance state machines), Model/Alias.v (store
   model of the copy-before-modify sites); proofs: Proofs/State_proofs.v, Proofs/Alias_proofs.v.

   Reading.  "No state carried between calls": for every call list cs (any length, any mix of
   inputs) and every call c, what c returns on an object that already served cs equals what it
   returns on a fresh object.  "Inputs untouched": the caller's objects live in a store; after the
   call the store is THE SAME store (so every location reachable from the arguments - and every
   shared default-argument object, which is just another store location - has the same contents).

   PARTIAL (the full property is a statement, decided by the snapshot oracle of harness/props/c18.py, a test):
   the full property speaks about EVERY evaluator / converter / validator; the theorems cover the
   objects that keep state and the copy-before-modify sites named in the anchors. *)
From Coq Require Import ZArith QArith List Bool Arith.
From VL Require Import Prelude.Sx Prelude.PyDict Model.GetNBest Model.Convert Model.Cardinal Model.State Model.Alias
     Proofs.State_proofs Proofs.Alias_proofs.
Import ListNotations.

(* an invariant of the state that fixes the output of the probed calls makes the object history-free *)
Theorem C18_history_free : forall (St Call Out : Type) (step : St -> Call -> St * Out) (init : St)
    (Inv : St -> Prop) (probe : Call -> Prop),
  Inv init -> (forall s c, Inv s -> Inv (fst (step s c))) ->
  (forall s c, Inv s -> probe c -> snd (step s c) = snd (step init c)) ->
  forall cs c, probe c -> out_after step init cs c = out_after step init [] c.
Proof. intros St Call Out step init Inv probe H1 H2 H3. exact (history_free_generic step init Inv probe H1 H2 H3). Qed.

(* ProportionalApproval (repaired comparison): _coefs is always a prefix of the harmonic table, the
   outcome reads it at indices 0..n_seats only *)
Theorem C18_history_free_pav : forall cs c,
  out_after (pav_step false) pav_init cs c = out_after (pav_step false) pav_init [] c.
Proof. exact pav_history_free. Qed.

Theorem C18_pav_table_invariant : forall cs, harm_prefix (run (pav_step false) pav_init cs).
Proof. exact pav_state_inv. Qed.

(* the pinned comparison (len(_coefs) < n_seats) is history dependent (repaired in the library: "ProportionalApproval
   prepares the harmonic coefficient for n_seats approved winners") *)
Theorem C18_history_free_pav_pinned_refuted :
  exists cs c, out_after (pav_step true) pav_init cs c <> out_after (pav_step true) pav_init [] c.
Proof. exact pav_pinned_history_dependent. Qed.

(* Borda scorer shared by a RankedToPositionalVotes converter: whatever was set or converted before
   (set_n_candidates, scores, other profiles), a conversion answers as a fresh scorer would - and
   that answer is the pure converter the C13 theorems are about *)
Theorem C18_history_free_borda : forall base cs c, is_convert c = true ->
  out_after (borda_step base) borda_init cs c = out_after (borda_step base) borda_init [] c.
Proof. exact borda_history_free. Qed.

Theorem C18_borda_is_pure_converter : forall base s votes,
  snd (borda_step base s (BConvert votes)) =
  BO_conv (oconv (img_positional (Borda base) (length (cands_ranked votes))) votes).
Proof. exact borda_convert_is_C13_model. Qed.

(* seeded random components (Sortitor, RandomUnrankedBallotSelector, Hare transferer ...): for EVERY
   generator oracle (state after random.seed(s), state after random.seed(None), draws) and EVERY
   body, a seeded call answers the same after any history of seeded / unseeded / foreign users of
   the process-wide generator and from any initial generator state *)
Theorem C18_history_free_seeded : forall (G : Type) (seedf : Z -> G) (entropy : G -> G)
    (In Out : Type) (body : G -> In -> Out * G) (g0 g1 : G) cs c,
  is_seeded G c = true ->
  out_after (rstep G seedf entropy body) g0 cs c = out_after (rstep G seedf entropy body) g1 [] c.
Proof. intros. apply seeded_history_free. assumption. Qed.

Theorem C18_seeded_repeats : forall (G : Type) (seedf : Z -> G) (entropy : G -> G)
    (In Out : Type) (body : G -> In -> Out * G) g0 g1 cs1 cs2 s i,
  out_after (rstep G seedf entropy body) g0 cs1 (RSeeded G s i) =
  out_after (rstep G seedf entropy body) g1 cs2 (RSeeded G s i).
Proof. intros. apply seeded_repeats. Qed.

(* generic site: copy n levels of the argument, then ANY sequence of in-place operations at nesting
   depth <= n: the caller's store is unchanged *)
Theorem C18_args_untouched_copy_then_mutate : forall levels st arg plan st' t',
  (forall t, Forall (fun m => length (fst m) < levels) (plan t)) ->
  copy_then_mutate levels st arg plan = Ok (st', t') -> st' = st.
Proof. exact copy_then_mutate_frame. Qed.

Theorem C18_args_untouched_highest_averages : forall st prev awards st' t',
  ha_site st prev awards = Ok (st', t') -> st' = st.
Proof. exact ha_site_frame. Qed.

Theorem C18_args_untouched_tie_breaking : forall st main_result broken st' t',
  tb_site st main_result broken = Ok (st', t') -> st' = st.
Proof. exact tb_site_frame. Qed.

Theorem C18_args_untouched_invalid_vote_eliminator : forall st votes to_remove st' t',
  ive_site st votes to_remove = Ok (st', t') -> st' = st.
Proof. exact ive_site_frame. Qed.

Theorem C18_args_untouched_transfer_subtract : forall st allocation edits st' t',
  subtract_site st allocation edits = Ok (st', t') -> st' = st.
Proof. exact subtract_site_frame. Qed.

Theorem C18_args_untouched_transfer_transfer : forall st allocation moves removed st' t',
  transfer_site st allocation moves removed = Ok (st', t') -> st' = st.
Proof. exact transfer_site_frame. Qed.

(* MultistageDistributor, repaired (_copy_nested to the nesting depth): for every depth, every
   iteration order of the key sets, every list of (pure) stages *)
Theorem C18_args_untouched_multistage : forall korder stages d st prev st' t',
  ms_evaluate korder stages true d st prev = Ok (st', t') -> st' = st.
Proof. exact ms_repaired_frame. Qed.

(* the pinned shallow copy: fine for depth 1 ... *)
Theorem C18_args_untouched_multistage_pinned_depth1 : forall korder stages st prev st' t',
  ms_evaluate korder stages false 0 st prev = Ok (st', t') -> st' = st.
Proof. exact ms_pinned_flat_frame. Qed.

(* ... refuted for depth 2: the caller's inner dictionary {A: 1} comes back as {A: 2, B: 1} *)
Theorem C18_args_untouched_multistage_pinned_refuted :
  exists st' t', ms_evaluate union_order [ms_witness_stage] false 1 ms_witness_store 1 = Ok (st', t')
                 /\ sget st' 0 = Some [(1%positive, VInt 2); (2%positive, VInt 1)]
                 /\ sget ms_witness_store 0 = Some [(1%positive, VInt 1)].
Proof. exact ms_pinned_nested_mutates. Qed.

Theorem C18_args_untouched_unused_votes : forall korder stage_results max_seats_given d st prev st' t',
  uv_evaluate korder stage_results max_seats_given d st prev = Ok (st', t') -> st' = st.
Proof. exact uv_frame. Qed.

(* shared default arguments: the object behind `prev_gains={}` is one more store location.  Called
   WITH the default itself as prev_gains, the repaired distributor leaves it empty; and whatever
   argument a modelled site is called with, a default object elsewhere in the store stays as it was *)
Theorem C18_default_stays_empty_multistage : forall korder stages d st dflt st' t',
  sget st dflt = Some [] ->
  ms_evaluate korder stages true d st dflt = Ok (st', t') -> sget st' dflt = Some [].
Proof.
  intros korder stages d st dflt st' t' He H.
  rewrite (ms_repaired_frame korder stages d st dflt st' t' H). exact He.
Qed.

Theorem C18_defaults_untouched_copy_then_mutate : forall levels st arg plan st' t' dflt,
  (forall t, Forall (fun m => length (fst m) < levels) (plan t)) ->
  copy_then_mutate levels st arg plan = Ok (st', t') -> sget st' dflt = sget st dflt.
Proof.
  intros levels st arg plan st' t' dflt Hp H.
  rewrite (copy_then_mutate_frame levels st arg plan st' t' Hp H). reflexivity.
Qed.

(* hypotheses are satisfiable by a non-trivial input: the repaired code on the refutation witness
   succeeds, returns {N: {A: 2, B: 1}} and leaves the store alone *)
Example C18_multistage_example :
  exists t', ms_evaluate union_order [ms_witness_stage] true 1 ms_witness_store 1 = Ok (ms_witness_store, t')
             /\ read_tree 2 ms_witness_store t' = L [L [A 5%Z; L [L [A 1%Z; A 2%Z]; L [A 2%Z; A 1%Z]]]].
Proof. exact ms_repaired_witness. Qed.

Example C18_pav_example :
  out_after (pav_step false) pav_init [([([1%positive; 2%positive], 3%Q); ([3%positive], 2%Q)], 2)]
            ([([1%positive], 1%Q)], 1) = PO_ok [Cand 1%positive].
Proof. vm_compute. reflexivity. Qed.

(* Every evaluator / converter / validator object of the library, seen as a machine over a store:
   any call leaves the store unchanged and answers as a fresh object.  Proved above for the
   modelled objects and sites; for the rest of the library it is decided per run by the snapshot
   and history oracles of the harness (a test) - PARTIAL. *)
Definition C18_full_statement : Prop :=
  forall (Obj Call Out : Type) (library_step : Obj -> store -> Call -> Obj * store * Out) (fresh : Obj),
  forall (st : store) (cs : list Call) (c : Call),
    let run_all := fold_left (fun os c' => let '(o, s, _) := library_step (fst os) (snd os) c' in (o, s)) cs (fresh, st) in
    snd run_all = st /\
    (let '(_, _, out) := library_step (fst run_all) (snd run_all) c in out) =
    (let '(_, _, out) := library_step fresh st c in out).

Print Assumptions C18_history_free.
Print Assumptions C18_history_free_pav.
Print Assumptions C18_pav_table_invariant.
Print Assumptions C18_history_free_pav_pinned_refuted.
Print Assumptions C18_history_free_borda.
Print Assumptions C18_borda_is_pure_converter.
Print Assumptions C18_history_free_seeded.
Print Assumptions C18_seeded_repeats.
Print Assumptions C18_args_untouched_copy_then_mutate.
Print Assumptions C18_args_untouched_highest_averages.
Print Assumptions C18_args_untouched_tie_breaking.
Print Assumptions C18_args_untouched_invalid_vote_eliminator.
Print Assumptions C18_args_untouched_transfer_subtract.
Print Assumptions C18_args_untouched_transfer_transfer.
Print Assumptions C18_args_untouched_multistage.
Print Assumptions C18_args_untouched_multistage_pinned_depth1.
Print Assumptions C18_args_untouched_multistage_pinned_refuted.
Print Assumptions C18_args_untouched_unused_votes.
Print Assumptions C18_default_stays_empty_multistage.
Print Assumptions C18_defaults_untouched_copy_then_mutate.
