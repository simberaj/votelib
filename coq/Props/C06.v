(* C06 - Condorcet winner, Smith set and Schwartz set.
   This file holds the property theorems, the definitions their statements need and examples of non-vacuity.
   Model: Model/Condorcet.v; proofs: Proofs/Condorcet_proofs.v, Proofs/Smith_proofs.v, Proofs/Schwartz_proofs.v.
   Pairwise dictionaries are association lists with distinct keys and non-negative
   counts; an absent pair counts as 0 (pget0).  beats a b := cnt(b,a) < cnt(a,b). *)
From Coq Require Import ZArith List Arith Sorted Lia Permutation.
From VL Require Import Prelude.PyDict Model.GetNBest Model.Condorcet Proofs.Condorcet_proofs Proofs.Smith_proofs
  Proofs.Schwartz_proofs.
Import ListNotations.
Open Scope Z_scope.

(* CondorcetWinner.evaluate returns [c] exactly for the candidate that strictly beats
   every other candidate (at most one exists), and nothing otherwise - also on sparse
   dictionaries with missing reverse pairs. *)
Theorem C06_cw_spec : forall v : pvotes,
  NoDup (map fst v) -> (forall p n, In (p, n) v -> 0 <= n) -> (2 <= length (candidates v))%nat ->
  (forall c, condorcet_winner v = [c] <-> is_cw v c) /\
  (condorcet_winner v = [] \/ exists c, condorcet_winner v = [c]).
Proof. exact cw_spec. Qed.

Theorem C06_cw_unique : forall (v : pvotes) c c', is_cw v c -> is_cw v c' -> c = c'.
Proof. exact is_cw_unique. Qed.

(* the Smith routine (_smith_schwartz_set; SmithSet runs it with ties = true): the result is the first E >= 1 candidates of the
   Copeland order (nothing when the dictionary names nobody), and the single pass over the wins (sorted by the loser's rank) is complete: the prefix is closed
   under "beats or ties a member" (ties = true) resp. "beats a member" (ties = false: the routine the pinned tree ran for
   SchwartzSet, replaced by fixes/C06-schwartz-set.diff). *)
Theorem C06_smith_prefix_closed : forall v ties,
  let cv := complete v in
  let wins := pairwise_wins cv ties in
  let order := map fst (sort_desc zle_bool (copeland_scores wins)) in
  let ws := map fst (@sort_asc pair nat Nat.leb (map (fun p => (p, index_of (snd p) order)) wins)) in
  let E := ss_loop order ws 1 in
  smith_schwartz v ties = firstn E order /\
  (1 <= E)%nat /\
  (E = length order \/
   forall w l, In (w, l) wins -> (index_of l order < E)%nat -> (index_of w order < E)%nat).
Proof. exact smith_schwartz_closed. Qed.

(* SmithSet computes exactly the Smith set: its output is a dominating set (non-empty, every member strictly beats
   every candidate outside it - an absent pair counting as 0 : 0), and it is contained in every dominating set, hence
   the smallest one.  For every pairwise dictionary with at least two candidates, sparse or dense. *)
Definition dominating (v : pvotes) (S : list C) : Prop :=
  S <> [] /\ forall a b, In a S -> In b (candidates v) -> ~ In b S -> beats v a b.
Theorem C06_smith_set : forall v : pvotes,
  NoDup (map fst v) -> (forall p n, In (p, n) v -> 0 <= n) -> (2 <= length (candidates v))%nat ->
  dominating v (smith_schwartz v true) /\
  forall S, dominating v S -> incl (smith_schwartz v true) S.
Proof.
  intros v Hnd Hnn H2. split.
  - exact (smith_dominating v H2).
  - intros S [Hne Hdom]. exact (smith_minimal v Hnn H2 S Hne Hdom).
Qed.

(* The Schwartz clause.  SchwartzSet (with fixes/C06-schwartz-set.diff) is Model/Condorcet.v schwartz_set: the
   candidates that have a beat path (a chain of strict pairwise defeats; an absent pair counts as 0 : 0, a tied pair is no
   defeat) back to every candidate with a beat path to them.  Proofs/Schwartz_proofs.v:
     beatpath v a b    : a chain of strict defeats leads from a to b;
     unbeaten_set v S  : S is a non-empty list of candidates of v and no candidate outside S beats a member of S.
   The full statement: the returned set is EXACTLY the union of the minimal unbeaten sets; it is non-empty; it lies inside
   the Smith set; it is {w} when w is the Condorcet winner; its members do not depend on the order of the dictionary. *)
Definition C06_schwartz_full_statement : Prop :=
  forall v, NoDup (map fst v) -> (forall p n, In (p, n) v -> 0 <= n) -> (2 <= length (candidates v))%nat ->
    (forall c, In c (schwartz_set v) <->
       exists S, unbeaten_set v S /\ In c S /\ (forall T, unbeaten_set v T -> incl T S -> incl S T)) /\
    schwartz_set v <> [] /\
    incl (schwartz_set v) (smith_schwartz v true) /\
    (forall w, is_cw v w -> schwartz_set v = [w]) /\
    (forall v', Permutation v v' -> Permutation (schwartz_set v) (schwartz_set v')).

Theorem C06_schwartz : C06_schwartz_full_statement.
Proof.
  intros v Hnd Hnn H2. split; [|split; [|split; [|split]]].
  - exact (schwartz_spec v Hnn H2).
  - exact (schwartz_nonempty v Hnn H2).
  - intros c. exact (schwartz_in_smith v Hnn H2 c).
  - exact (schwartz_cw v Hnn H2).
  - intros v' Hp. exact (schwartz_perm v v' Hnd Hnn Hp).
Qed.

(* the same set, said with beat paths: c is returned iff every candidate with a beat path to c is reached by a beat path
   from c (c is maximal for the transitive closure of the strict-beat relation) *)
Theorem C06_schwartz_beatpath : forall v : pvotes,
  (forall p n, In (p, n) v -> 0 <= n) -> (2 <= length (candidates v))%nat ->
  forall c, In c (schwartz_set v) <-> In c (candidates v) /\ forall o, beatpath v o c -> beatpath v c o.
Proof. exact schwartz_in. Qed.

(* every candidate is in the Schwartz set or is reached by a beat path from a member *)
Theorem C06_schwartz_above : forall v : pvotes,
  (forall p n, In (p, n) v -> 0 <= n) -> (2 <= length (candidates v))%nat ->
  forall c, In c (candidates v) -> exists m, In m (schwartz_set v) /\ (m = c \/ beatpath v m c).
Proof. exact schwartz_above. Qed.

(* shape, for every dictionary: no candidate twice, candidates of the dictionary only *)
Theorem C06_schwartz_shape : forall v : pvotes, NoDup (schwartz_set v) /\ incl (schwartz_set v) (candidates v).
Proof. exact schwartz_set_shape. Qed.

(* the routine the pinned tree ran for SchwartzSet - the Smith routine with ties = false, a prefix of the Copeland order
   closed under strict defeats - is NOT the Schwartz set (fixed finding C06-schwartz): on a tied pair {(1,2):1,(2,1):1}
   both candidates are unbeaten and the prefix routine returns nothing.  This is the machine-checked reason for
   fixes/C06-schwartz-set.diff; the check (harness/props/c06.py) reports a VIOLATION when SchwartzSet behaves like this. *)
Theorem C06_schwartz_prefix_routine_differs : exists v c,
  NoDup (map fst v) /\ (forall p n, In (p, n) v -> 0 <= n) /\ (2 <= length (candidates v))%nat /\
  In c (schwartz_set v) /\ ~ In c (smith_schwartz v false).
Proof.
  exists [((1%positive, 2%positive), 1); ((2%positive, 1%positive), 1)], 1%positive.
  split; [|split; [|split; [|split]]].
  - simpl. constructor; [intros [H1|[]]; discriminate|]. constructor; [intros []|constructor].
  - intros p n [H1|[H1|[]]]; injection H1 as <- <-; lia.
  - vm_compute. lia.
  - vm_compute. left. reflexivity.
  - vm_compute. intros [].
Qed.

(* non-vacuity: a tied pair - both; two tied unbeaten candidates above a third - both, whatever the order of the pairs;
   a cycle 1 > 2 > 3 > 1 with 4 tied against everybody - all four (4 is unbeaten, the cycle is a minimal unbeaten set) *)
Example C06_schwartz_example :
  schwartz_set [((1%positive, 2%positive), 1); ((2%positive, 1%positive), 1)] = [1%positive; 2%positive] /\
  schwartz_set [((1%positive, 2%positive), 1); ((2%positive, 1%positive), 1); ((1%positive, 3%positive), 2);
                ((3%positive, 1%positive), 0); ((2%positive, 3%positive), 2); ((3%positive, 2%positive), 0)] = [1%positive; 2%positive] /\
  schwartz_set [((2%positive, 1%positive), 1); ((1%positive, 2%positive), 1); ((2%positive, 3%positive), 2);
                ((3%positive, 2%positive), 0); ((1%positive, 3%positive), 2); ((3%positive, 1%positive), 0)] = [2%positive; 1%positive] /\
  schwartz_set [((1%positive, 2%positive), 2); ((2%positive, 1%positive), 1); ((2%positive, 3%positive), 2);
                ((3%positive, 2%positive), 1); ((3%positive, 1%positive), 2); ((1%positive, 3%positive), 1);
                ((4%positive, 1%positive), 1); ((1%positive, 4%positive), 1)] = [1%positive; 2%positive; 4%positive; 3%positive].
Proof. vm_compute. repeat split; reflexivity. Qed.

(* non-vacuity: a three-cycle, Smith set = everybody *)
Example C06_example :
  smith_schwartz [((1%positive, 2%positive), 2); ((2%positive, 1%positive), 1);
                  ((2%positive, 3%positive), 2); ((3%positive, 2%positive), 1);
                  ((3%positive, 1%positive), 2); ((1%positive, 3%positive), 1)] true
  = [1%positive; 2%positive; 3%positive].
Proof. vm_compute. reflexivity. Qed.

Print Assumptions C06_cw_spec.
Print Assumptions C06_cw_unique.
Print Assumptions C06_smith_prefix_closed.
Print Assumptions C06_smith_set.
Print Assumptions C06_schwartz.
Print Assumptions C06_schwartz_beatpath.
Print Assumptions C06_schwartz_above.
Print Assumptions C06_schwartz_shape.
Print Assumptions C06_schwartz_prefix_routine_differs.
