(* C10, the closing sentence of the property - "two candidates in perfectly symmetric positions are either both elected,
   both not elected, or reported as tied" - at model level, by composing the two families of theorems:
     order independence      (Proofs/CondorcetOrder_proofs.v, QDOrder_proofs.v, STVOrder_proofs.v, HAPerm_proofs.v)
     renaming equivariance   (Proofs/CondorcetRename_proofs.v, QDRename_proofs.v, STVRename_proofs.v, HARename_proofs.v).
   A symmetry of an input is an involution [t] of the candidates (e.g. the transposition of two names) whose renamed
   input is the same dictionary in another insertion order.  Then  eval input ~ eval (rename t input) = rename t (eval input),
   so the outcome is invariant under [t]: [a] and [t a] are elected alike, tied alike, and hold the same seats. *)
From Coq Require Import ZArith QArith List Bool Arith Lia Permutation.
From VL Require Import Prelude.PyDict Model.GetNBest Model.Condorcet Model.HighestAverages Model.Quota Model.QuotaDistributor Model.STV
     Proofs.Dict_proofs Proofs.GetNBest_proofs Proofs.Order_proofs Proofs.Divisor_proofs Proofs.HAPerm_proofs Proofs.HARename_proofs
     Proofs.Equivariant Proofs.GnbSim_proofs Proofs.CondorcetOrder_proofs Proofs.CondorcetRename_proofs
     Proofs.QDOrder_proofs Proofs.QDRename_proofs Proofs.STVOrder_proofs Proofs.STVRename_proofs.
Import ListNotations.
Close Scope Q_scope.
Close Scope Z_scope.
Open Scope nat_scope.

Section SYM.
  Variable t : C -> C.
  Hypothesis t_inv : forall c, t (t c) = c.

  Lemma t_inj : forall a b, t a = t b -> a = b.
  Proof. intros a b H. rewrite <- (t_inv a), <- (t_inv b), H. reflexivity. Qed.

  Definition tied_in (a : C) (r : list (res C)) : Prop := exists T, In (TieR T) r /\ In a T.

  Lemma in_cand_ren r c : In (Cand c) (map (ren_res t) r) <-> In (Cand (t c)) r.
  Proof.
    rewrite in_map_iff. split.
    - intros ([c0|T] & E & Hi); [|discriminate]. cbn [ren_res] in E. injection E as <-. rewrite t_inv. exact Hi.
    - intros Hi. exists (Cand (t c)). split; [cbn [ren_res]; rewrite t_inv; reflexivity|exact Hi].
  Qed.
  Lemma tied_in_ren r c : tied_in c (map (ren_res t) r) <-> tied_in (t c) r.
  Proof.
    unfold tied_in. split.
    - intros (T' & Hi & Hc). apply in_map_iff in Hi. destruct Hi as ([c0|T] & E & Hi); [discriminate|]. cbn [ren_res] in E. injection E as <-.
      exists T. split; [exact Hi|]. apply (in_map_involution t T c t_inv). exact Hc.
    - intros (T & Hi & Hc). exists (map t T). split; [apply in_map_iff; exists (TieR T); split; [reflexivity|exact Hi]|].
      apply (in_map_involution t T c t_inv). exact Hc.
  Qed.

  (* a result that is equivalent to its own image: invariant *)
  Lemma sym_res r : res_equiv r (map (ren_res t) r) ->
    forall a, (In (Cand a) r <-> In (Cand (t a)) r) /\ (tied_in a r <-> tied_in (t a) r).
  Proof.
    intros H a. split.
    - rewrite <- in_cand_ren. apply (proj2 H).
    - rewrite <- tied_in_ren. apply (res_equiv_tied _ _ a H).
  Qed.

  (* the Condorcet family: [v] is symmetric under [t] *)
  Definition sym_pv (v : pvotes) : Prop := NoDup (map fst v) /\ Permutation v (renp t v).

  Theorem copeland_symmetric v so n : sym_pv v -> forall a,
    (In (Cand a) (copeland so v n) <-> In (Cand (t a)) (copeland so v n)) /\ (tied_in a (copeland so v n) <-> tied_in (t a) (copeland so v n)).
  Proof. intros [Hn Hp]. apply sym_res. rewrite <- (copeland_ren t t_inj). apply (copeland_equiv v (renp t v) Hn Hp). Qed.

  Theorem minimax_symmetric v s n : sym_pv v -> forall a,
    (In (Cand a) (minimax s v n) <-> In (Cand (t a)) (minimax s v n)) /\ (tied_in a (minimax s v n) <-> tied_in (t a) (minimax s v n)).
  Proof. intros [Hn Hp]. apply sym_res. rewrite <- (minimax_ren t t_inj). apply (minimax_equiv v (renp t v) Hn Hp). Qed.

  Theorem schulze_symmetric v order n : sym_pv v -> (forall p k, In (p, k) v -> (0 <= k)%Z) -> incl (candidates v) order -> forall a,
    (In (Cand a) (schulze v order n) <-> In (Cand (t a)) (schulze v order n)) /\ (tied_in a (schulze v order n) <-> tied_in (t a) (schulze v order n)).
  Proof.
    intros [Hn Hp] Hnn Hi. apply sym_res. rewrite <- (schulze_ren t t_inj).
    apply (schulze_equiv v (renp t v) Hn Hnn Hp order (map t order) n Hi).
    rewrite (candidates_ren t t_inj). intros x Hx. apply in_map_iff in Hx. destruct Hx as (c & <- & Hc). apply in_map, Hi, Hc.
  Qed.

  (* a candidate with a symmetric twin is never THE Condorcet winner; the Kemeny answer is invariant *)
  Theorem condorcet_winner_symmetric v : sym_pv v -> forall c, In c (condorcet_winner v) -> t c = c.
  Proof.
    intros [Hn Hp] c Hc. pose proof (condorcet_winner_perm v (renp t v) Hn Hp) as E. rewrite (condorcet_winner_ren t t_inj) in E.
    unfold condorcet_winner in *. destruct (find _ (beat_counts v)) as [[w k]|]; [|destruct Hc].
    cbn [map] in E. injection E as E. destruct Hc as [<-|[]]. exact E.
  Qed.
  Theorem kemeny_symmetric v n : sym_pv v -> ren_cres t (kemeny v n) = kemeny v n.
  Proof. intros [Hn Hp]. rewrite <- (kemeny_ren t t_inj). apply (kemeny_perm v (renp t v) n Hn Hp). Qed.

  Theorem smith_symmetric v : sym_pv v -> (forall p k, In (p, k) v -> (0 <= k)%Z) -> forall a,
    In a (smith_schwartz v true) <-> In (t a) (smith_schwartz v true).
  Proof.
    intros [Hn Hp] Hnn a. apply (perm_involution_in t _ a t_inv). rewrite <- (smith_schwartz_ren t t_inj).
    exact (smith_perm v (renp t v) Hn Hnn Hp).
  Qed.

  (* the quota family: symmetric votes and previous gains, caps with symmetric lookups *)
  Lemma dget_renl_sym {X} (d : list (C * X)) : (forall c, dget d (t c) = dget d c) -> forall c, dget (renl t d) c = dget d c.
  Proof. intros H c. rewrite <- (t_inv c) at 1. rewrite (dget_ren t t_inj). apply H. Qed.

  Theorem quota_distributor_symmetric quota ae pol votes n prev caps s : quota_ext quota ->
    NoDup (map fst votes) -> Permutation votes (renl t votes) -> NoDup (map fst prev) -> Permutation prev (renl t prev) ->
    (forall c, dget caps (t c) = dget caps c) ->
    qd_evaluate quota ae pol votes n prev caps = QD_ok s -> forall a, kdget s (t a) = kdget s a.
  Proof.
    intros Hq Hv Hvp Hpn Hpp Hc E a.
    pose proof (qd_rel_obs _ _ (qd_evaluate_perm quota ae pol Hq votes (renl t votes) n prev (renl t prev) caps (renl t caps) Hv Hvp Hpn Hpp
                  (dget_renl_sym caps Hc))) as H.
    rewrite (qd_evaluate_ren t t_inj), E in H. cbn [ren_qd qd_obs] in H. destruct H as (H & _).
    rewrite (H (t a)). apply (kdget_ren t t_inj).
  Qed.

  Theorem largest_remainder_symmetric quota ae pol votes n prev caps s : quota_ext quota ->
    NoDup (map fst votes) -> Permutation votes (renl t votes) -> NoDup (map fst prev) -> Permutation prev (renl t prev) ->
    (forall c, dget caps (t c) = dget caps c) ->
    lr_evaluate quota ae pol votes n prev caps = LR_ok s -> forall a, kdget s (t a) = kdget s a.
  Proof.
    intros Hq Hv Hvp Hpn Hpp Hc E a.
    pose proof (lr_rel_obs _ _ (lr_evaluate_perm quota ae pol Hq votes (renl t votes) n prev (renl t prev) caps (renl t caps) Hv Hvp Hpn Hpp
                  (dget_renl_sym caps Hc))) as H.
    rewrite (lr_evaluate_ren t t_inj), E in H. cbn [ren_lr lr_obs] in H. destruct H as (H & _).
    rewrite (H (t a)). apply (kdget_ren t t_inj).
  Qed.

  (* the transferable-vote count: symmetric profile and previous gains, caps listed symmetrically *)
  Theorem stv_symmetric cf votes n prev caps :
    ballots_distinct votes -> Permutation votes (renv t votes) -> NoDup (map fst prev) -> Permutation prev (renl t prev) ->
    renl t caps = caps -> forall a, dget (t_seats (stv cf votes n prev caps)) (t a) = dget (t_seats (stv cf votes n prev caps)) a.
  Proof.
    intros Hd Hp Hn Hpp Hc a.
    destruct (stv_perm cf votes (renv t votes) n prev (renl t prev) caps Hd Hp Hn Hpp) as (_ & N & P & _).
    assert (E : stv cf (renv t votes) n (renl t prev) caps = ren_trace t (stv cf votes n prev caps))
      by (rewrite <- (stv_ren t t_inj), Hc; reflexivity).
    rewrite E in P. cbn [ren_trace t_seats] in P.
    transitivity (dget (renl t (t_seats (stv cf votes n prev caps))) (t a)); [apply dget_perm; assumption|apply (dget_ren t t_inj)].
  Qed.

  (* highest averages: symmetric votes, previous gains and caps listed symmetrically *)
  Theorem highest_averages_symmetric (d : Z -> Q) votes n prev caps :
    divisor_ok d -> (forall c v, In (c, v) votes -> (0 <= v)%Q) -> NoDup (map fst votes) -> (forall c, (0 <= dget_or prev c 0)%Z) ->
    Permutation votes (renl t votes) -> renl t prev = prev -> renl t caps = caps ->
    forall a, dget_or (st_totals (final_state d votes n prev caps)) (t a) 0%Z = dget_or (st_totals (final_state d votes n prev caps)) a 0%Z.
  Proof.
    intros [Hd1 Hd2] Hv Hnd Hprev Hp Ep Ec a.
    destruct (ha_perm d votes (renl t votes) caps prev n Hd1 Hd2 Hv Hnd Hprev Hp) as (H & _).
    assert (E : final_state d (renl t votes) n prev caps = ren_state t (final_state d votes n prev caps)).
    { rewrite <- (final_ren t t_inj), Ep, Ec. reflexivity. }
    specialize (H (t a)). rewrite E in H. cbn [ren_state st_totals] in H. unfold HA_proofs.tot in H. cbn [ren_state st_totals] in H. rewrite H. apply (dget_or_ren t t_inj).
  Qed.
End SYM.
