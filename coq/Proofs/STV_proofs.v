(* The transferable-vote count (Model/STV.v): what elect_by_quota and next_count compute, piece by piece
   (ebq_*, next_count_unfold, next_count_next); conservation of the votes (I1: [reach], [quota_of],
   next_count_conserves) and non-negativity of the weights (I2: alloc_nonneg) through every count; the induction
   principle of the loop (run_inv) and that a run which does not stop fills exactly the seats (run_complete, C04);
   the candidates of the ballots are all placed by the initial allocation (all_ranked_complete). *)
From Coq Require Import ZArith QArith Qround Qreduction Setoid List Bool Arith Lia Lqa Permutation.
From VL Require Import Prelude.PyDict Model.GetNBest Model.Convert Model.STV Proofs.Dict_proofs.
From VL Require Proofs.GetNBest_proofs Proofs.Threshold_proofs.
Import ListNotations.
Open Scope Q_scope.

Definition wsum (p : pile) : Q := fold_right (fun bw acc => snd bw + acc) 0 p.
Definition asum (a : alloc) : Q := fold_right (fun kp acc => wsum (snd kp) + acc) 0 a.
Definition akeys (a : alloc) : list (option C) := map fst a.

(* loops written with fold_left (beside fold_left_inv): a property that no step destroys and the step at x
   establishes; a quantity that grows by d x at the step at x *)
Lemma fold_left_reaches {A B} (f : A -> B -> A) (P : A -> Prop) l x :
  (forall a y, P a -> P (f a y)) -> (forall a, P (f a x)) -> In x l -> forall a, P (fold_left f l a).
Proof.
  intros Hkeep Hx. induction l as [|y l IH]; intros Hin a; [destruct Hin|]. simpl. destruct Hin as [->|Hin].
  - apply fold_left_inv; [intros a0 z _; apply Hkeep|apply Hx].
  - apply IH, Hin.
Qed.

Lemma fold_left_adds {A B} (f : A -> B -> A) (P : A -> Prop) (m : A -> Q) (d : B -> Q) l :
  (forall a x, In x l -> P a -> P (f a x) /\ m (f a x) == m a + d x) ->
  forall a, P a -> P (fold_left f l a) /\ m (fold_left f l a) == m a + fold_right (fun x acc => d x + acc) 0 l.
Proof.
  induction l as [|x l IH]; intros H a Ha; simpl; [split; [exact Ha|ring]|].
  destruct (H a x (or_introl eq_refl) Ha) as [H1 H2].
  destruct (IH (fun a0 y Hy => H a0 y (or_intror Hy)) _ H1) as [H3 H4]. split; [exact H3|]. lra.
Qed.

(* one key for every element produced: f yields at most one element per x, under the key of x *)
Lemma flat_map_key_nodup {X Y K K'} (kx : X -> K) (ky : Y -> K') (g : K' -> K) (f : X -> list Y) l :
  (forall x, f x = [] \/ exists y, f x = [y] /\ g (ky y) = kx x) ->
  NoDup (map kx l) -> NoDup (map ky (flat_map f l)).
Proof.
  intros Hf. induction l as [|x l IH]; cbn [map flat_map]; intros Hn; [constructor|].
  apply NoDup_cons_iff in Hn. destruct Hn as [Hx Hn']. specialize (IH Hn'). rewrite map_app.
  destruct (Hf x) as [->|(y & -> & Hy)]; [exact IH|]. cbn [map app]. constructor; [|exact IH].
  intros Hin. apply Hx. rewrite <- Hy.
  apply in_map_iff in Hin. destruct Hin as (y2 & <- & Hy2). apply in_flat_map in Hy2. destruct Hy2 as (x2 & Hx2 & Hy2).
  destruct (Hf x2) as [E|(y3 & E & Hy3)]; rewrite E in Hy2; [destruct Hy2|]. destruct Hy2 as [<-|[]].
  rewrite Hy3. apply in_map, Hx2.
Qed.

Lemma okey_eqb_eq a b : okey_eqb a b = true <-> a = b.
Proof.
  destruct a as [x|], b as [y|]; simpl; [|split; discriminate|split; discriminate|split; reflexivity].
  split; [intros H; apply ceqb_eq in H; rewrite H; reflexivity|intros [= ->]; apply ceqb_refl].
Qed.
Lemma okey_eqb_refl a : okey_eqb a a = true.
Proof. apply okey_eqb_eq. reflexivity. Qed.

Lemma fold_left_Qplus (l : list Q) : forall acc, fold_left Qplus l acc == acc + fold_right Qplus 0 l.
Proof. induction l as [|x l IH]; intros acc; simpl; [ring|]. pose proof (IH (acc + x)). lra. Qed.

Lemma pile_sum_wsum p : pile_sum p == wsum p.
Proof.
  unfold pile_sum. eapply Qeq_trans; [apply Qred_correct|]. rewrite fold_left_Qplus.
  induction p as [|[b w] p IH]; simpl; [ring|]. simpl in IH. lra.
Qed.

Lemma alloc_get_some_in a k p : alloc_get a k = Some p -> In (k, p) a.
Proof.
  induction a as [|[k' q] a IH]; simpl; [discriminate|]. destruct (okey_eqb k k') eqn:E.
  - apply okey_eqb_eq in E. subst k'. intros [= ->]. left. reflexivity.
  - intros H. right. exact (IH H).
Qed.

Lemma alloc_get_notin a k : ~ In k (akeys a) -> alloc_get a k = None.
Proof.
  induction a as [|[k' q] a IH]; simpl; intros H; [reflexivity|]. destruct (okey_eqb k k') eqn:E.
  - apply okey_eqb_eq in E. subst k'. exfalso. apply H. left. reflexivity.
  - apply IH. intros Hin. apply H. right. exact Hin.
Qed.

Lemma keys_some_akeys a c : In c (keys_some a) <-> In (Some c) (akeys a).
Proof.
  unfold keys_some, akeys. induction a as [|[k p] a IH]; simpl; [tauto|]. rewrite in_app_iff, IH.
  destruct k as [x|]; simpl; split.
  - intros [[->|[]]|H]; auto.
  - intros [[= ->]|H]; auto.
  - intros [[]|H]; auto.
  - intros [H|H]; [discriminate|auto].
Qed.

Lemma keys_some_nodup a : NoDup (akeys a) -> NoDup (keys_some a).
Proof.
  induction a as [|[k p] a IH]; intros H; [constructor|]. unfold akeys in H. simpl in H. inversion H as [|? ? Hk Hn]; subst.
  destruct k as [c|].
  - change (keys_some ((Some c, p) :: a)) with (c :: keys_some a). constructor; [|apply IH, Hn].
    intros Hin. apply Hk. apply keys_some_akeys in Hin. exact Hin.
  - change (keys_some ((None, p) :: a)) with (keys_some a). apply IH, Hn.
Qed.

Lemma item_eqb_refl i : item_eqb i i = true.
Proof. destruct i as [c|l]; simpl; [apply ceqb_refl|]. rewrite cmem_refl_all. reflexivity. Qed.

Lemma ballot_eqb_refl b : ballot_eqb b b = true.
Proof. induction b as [|i b IH]; simpl; [reflexivity|]. rewrite item_eqb_refl, IH. reflexivity. Qed.

(* alloc_eqb as mutual inclusion, key by key and pile by pile *)
Definition psub (p q : pile) : bool :=
  forallb (fun bw => existsb (fun bw' => ballot_eqb (fst bw) (fst bw') && Qeq_bool (snd bw) (snd bw')) q) p.
Definition asub (x y : alloc) : bool :=
  forallb (fun kp => match alloc_get y (fst kp) with
                     | Some q => psub (snd kp) q && psub q (snd kp)
                     | None => false end) x.
Lemma alloc_eqb_unfold a b : alloc_eqb a b = asub a b && asub b a.
Proof. reflexivity. Qed.

Lemma keys_some_akeys_eq a b : akeys a = akeys b -> keys_some a = keys_some b.
Proof.
  unfold akeys, keys_some. revert b. induction a as [|[k p] a IH]; intros [|[k' p'] b]; simpl; try discriminate; [reflexivity|].
  intros [= -> H]. rewrite (IH b H). reflexivity.
Qed.

(* the weight of the ballots of a pile that f selects: wsum takes them all *)
Definition wsum_of (f : ballot -> bool) (p : pile) : Q :=
  fold_right (fun bw acc => (if f (fst bw) then snd bw else 0) + acc) 0 p.

Lemma wsum_of_add f p b w : (forall b', ballot_eqb b b' = true -> f b' = f b) ->
  wsum_of f (pile_add p b w) == wsum_of f p + (if f b then w else 0).
Proof.
  intros Hf. induction p as [|[b' w'] p IH]; simpl; [ring|].
  destruct (ballot_eqb b b') eqn:E; simpl; [|lra].
  rewrite (Hf b' E). destruct (f b); [|ring]. pose proof (Qred_correct (w' + w)) as Hr. rewrite Hr. ring.
Qed.

Lemma wsum_of_scale f (p : pile) (x : Q) :
  wsum_of f (map (fun bw : ballot * Q => (fst bw, Qred (snd bw * x))) p) == wsum_of f p * x.
Proof.
  induction p as [|[b w] p IH]; simpl; [ring|]. rewrite IH. destruct (f b); [|ring].
  pose proof (Qred_correct (w * x)) as Hr. rewrite Hr. ring.
Qed.

Lemma pile_add_sum p b w : wsum (pile_add p b w) == wsum p + w.
Proof. exact (wsum_of_add (fun _ => true) p b w (fun _ _ => eq_refl)). Qed.

Lemma pile_add_in p b w b0 w0 : In (b0, w0) (pile_add p b w) -> b0 = b \/ exists w1, In (b0, w1) p.
Proof.
  induction p as [|[b' w'] p IH]; simpl; [intros [H|[]]; left; congruence|].
  destruct (ballot_eqb b b').
  - intros [H|H]; right; [injection H as <- _; exists w'; left; reflexivity|exists w0; right; exact H].
  - intros [H|H]; [right; exists w0; left; exact H|]. destruct (IH H) as [->|(w1 & H1)]; [left; reflexivity|right; exists w1; right; exact H1].
Qed.

Lemma alloc_add_sum a k b w : asum (alloc_add a k b w) == asum a + w.
Proof.
  induction a as [|[k' p] a IH]; simpl; [ring|].
  destruct (okey_eqb k k'); simpl; [pose proof (pile_add_sum p b w)|]; lra.
Qed.

Lemma alloc_add_keys a k b w : NoDup (akeys a) ->
  NoDup (akeys (alloc_add a k b w)) /\ (forall x, In x (akeys (alloc_add a k b w)) <-> x = k \/ In x (akeys a)).
Proof.
  unfold akeys. induction a as [|[k' p] a IH]; simpl; intros H.
  - split; [constructor; [intros []|constructor]|]. intros x. split; [intros [<-|[]]; auto|intros [->|[]]; auto].
  - inversion H as [|? ? Hk Hn]; subst. destruct (okey_eqb k k') eqn:E; simpl.
    + apply okey_eqb_eq in E. subst. split; [exact H|]. intros x. split; [intros [<-|Hx]; auto|intros [->|[<-|Hx]]; auto].
    + destruct (IH Hn) as [IH1 IH2]. split.
      * constructor; [|exact IH1]. intros Hin. apply IH2 in Hin. destruct Hin as [->|Hin]; [|exact (Hk Hin)].
        rewrite okey_eqb_refl in E. discriminate.
      * intros x. split.
        -- intros [Hx|Hx]; [auto|]. apply IH2 in Hx. destruct Hx; auto.
        -- intros [Hx|[Hx|Hx]]; [right; apply IH2; auto|auto|right; apply IH2; auto].
Qed.

Lemma alloc_add_get_other a k b w k' : k' <> k -> alloc_get (alloc_add a k b w) k' = alloc_get a k'.
Proof.
  intros Hne. assert (E : okey_eqb k' k = false) by (apply not_true_iff_false; rewrite okey_eqb_eq; exact Hne).
  induction a as [|[k0 p] a IH]; simpl; [rewrite E; reflexivity|].
  destruct (okey_eqb k k0) eqn:E0; simpl.
  - apply okey_eqb_eq in E0. subst k0. rewrite E. reflexivity.
  - destruct (okey_eqb k' k0); [reflexivity|exact IH].
Qed.

Lemma next_after_allowed rest allowed : incl (next_after rest allowed) allowed.
Proof.
  induction rest as [|[c|l] t IH]; simpl; intros x Hx; [destruct Hx| |].
  - destruct (cmem c allowed) eqn:E; [|apply IH, Hx]. destruct Hx as [<-|[]]. apply cmem_In, E.
  - destruct (filter (fun c => cmem c allowed) l) as [|y l'] eqn:E; [apply IH, Hx|].
    rewrite <- E in Hx. apply filter_In in Hx. apply cmem_In, Hx.
Qed.
Lemma ranked_next_allowed vote cand allowed : incl (ranked_next vote cand allowed) allowed.
Proof.
  induction vote as [|[c|l] t IH]; simpl; [intros x []| |].
  - destruct (ceqb cand c); [apply next_after_allowed|exact IH].
  - destruct (cmem cand l); [apply next_after_allowed|exact IH].
Qed.

Lemma share_total (w : Q) (n : nat) : (0 < n)%nat ->
  inject_Z (Z.of_nat n) * Qred (w / inject_Z (Z.of_nat n)) == w.
Proof.
  intros Hn. pose proof (Qred_correct (w / inject_Z (Z.of_nat n))) as Hr. rewrite Hr. field.
  intros H. assert (Hz : (0 < Z.of_nat n)%Z) by lia. rewrite (Zlt_Qlt 0) in Hz. change (inject_Z 0) with 0 in Hz. rewrite H in Hz. apply (Qlt_irrefl 0 Hz).
Qed.

Lemma fold_add_targets targets b share : forall a,
  asum (fold_left (fun a t => alloc_add a (Some t) b share) targets a)
  == asum a + inject_Z (Z.of_nat (length targets)) * share.
Proof.
  induction targets as [|t ts IH]; intros a; simpl length; [simpl; ring|].
  simpl fold_left. rewrite IH, alloc_add_sum. rewrite Nat2Z.inj_succ, <- Z.add_1_r, inject_Z_plus. simpl. ring.
Qed.

Lemma move_ballot_sum a targets b w : asum (move_ballot a targets b w) == asum a + w.
Proof.
  unfold move_ballot. destruct targets as [|t ts]; [apply alloc_add_sum|].
  rewrite fold_add_targets. rewrite share_total; [ring|simpl; lia].
Qed.

Lemma move_ballot_nodup a targets b w : NoDup (akeys a) -> NoDup (akeys (move_ballot a targets b w)).
Proof.
  intros Ha. unfold move_ballot. destruct targets as [|t ts]; [apply alloc_add_keys, Ha|].
  apply fold_left_inv; [|exact Ha]. intros r x _ Hr. apply alloc_add_keys, Hr.
Qed.

Lemma move_ballot_keep a targets b w c : ~ In c targets -> NoDup (akeys a) ->
  alloc_get (move_ballot a targets b w) (Some c) = alloc_get a (Some c) /\ NoDup (akeys (move_ballot a targets b w)).
Proof.
  intros Hc Hnd. split; [|apply move_ballot_nodup, Hnd]. unfold move_ballot.
  destruct targets as [|t ts]; [apply alloc_add_get_other; discriminate|].
  apply (fold_left_inv (fun r => alloc_get r (Some c) = alloc_get a (Some c))); [|reflexivity].
  intros r x Hx H1. rewrite <- H1. apply alloc_add_get_other. intros [= ->]. exact (Hc Hx).
Qed.

(* deleting a key, replacing a pile: the effect on a sum [msum g] taken over the piles *)
Definition msum (g : option C -> pile -> Q) (a : alloc) : Q := fold_right (fun kp acc => g (fst kp) (snd kp) + acc) 0 a.
Definition set_pile_of (c : C) (p' : pile) (a : alloc) : alloc :=
  map (fun kp : option C * pile => if okey_eqb (Some c) (fst kp) then (fst kp, p') else kp) a.

Lemma alloc_del_none a k : alloc_get a k = None -> alloc_del a k = a.
Proof.
  unfold alloc_del. induction a as [|[k' q] a IH]; simpl; [reflexivity|].
  destruct (okey_eqb k k'); [discriminate|]. intros H. simpl. f_equal. apply IH, H.
Qed.

Lemma alloc_del_nodup a k : NoDup (akeys a) -> NoDup (akeys (alloc_del a k)).
Proof.
  unfold akeys, alloc_del. induction a as [|[k' q] a IH]; simpl; intros H; [constructor|].
  inversion H as [|? ? Hk Hn]; subst. destruct (okey_eqb k k'); simpl; [apply IH, Hn|].
  constructor; [|apply IH, Hn]. intros Hin. apply Hk. apply in_map_iff in Hin. destruct Hin as (x & Hx & Hin).
  apply filter_In in Hin. apply in_map_iff. exists x. tauto.
Qed.

Lemma msum_del g a k p : NoDup (akeys a) -> alloc_get a k = Some p -> msum g (alloc_del a k) == msum g a - g k p.
Proof.
  unfold akeys. induction a as [|[k' q] a IH]; intros Hnd Hg; [discriminate|].
  simpl in Hnd, Hg. inversion Hnd as [|? ? Hk Hn]; subst.
  unfold alloc_del. cbn [filter fst]. fold (alloc_del a k). destruct (okey_eqb k k') eqn:E; cbn [negb msum fold_right fst snd].
  - apply okey_eqb_eq in E. subst k'. injection Hg as ->. rewrite (alloc_del_none a k (alloc_get_notin a k Hk)). ring.
  - fold (msum g (alloc_del a k)). fold (msum g a). pose proof (IH Hn Hg). lra.
Qed.

Lemma set_pile_none a c p' : alloc_get a (Some c) = None -> set_pile_of c p' a = a.
Proof.
  unfold set_pile_of. induction a as [|[k q] a IH]; cbn -[okey_eqb]; [reflexivity|].
  destruct (okey_eqb (Some c) k); [discriminate|]. intros H. f_equal. apply IH, H.
Qed.

Lemma set_pile_keys a c p' : akeys (set_pile_of c p' a) = akeys a.
Proof.
  unfold akeys, set_pile_of. rewrite map_map. apply map_ext. intros [k q]. cbn [fst]. destruct (okey_eqb (Some c) k); reflexivity.
Qed.

Lemma msum_set_pile g a c p p' : NoDup (akeys a) -> alloc_get a (Some c) = Some p ->
  msum g (set_pile_of c p' a) == msum g a - g (Some c) p + g (Some c) p'.
Proof.
  unfold akeys. induction a as [|[k q] a IH]; intros Hnd Hg; [discriminate|].
  cbn -[okey_eqb] in Hnd, Hg. inversion Hnd as [|? ? Hk Hn]; subst.
  unfold set_pile_of. cbn -[okey_eqb]. fold (set_pile_of c p' a). revert Hg.
  destruct (okey_eqb (Some c) k) eqn:E; intros Hg; cbn [fst snd].
  - apply okey_eqb_eq in E. subst k. injection Hg as ->. rewrite (set_pile_none a c p' (alloc_get_notin a _ Hk)).
    fold (msum g a). ring.
  - fold (msum g (set_pile_of c p' a)). fold (msum g a). pose proof (IH Hn Hg). lra.
Qed.

Lemma set_pile_get_other (a : alloc) c p' c0 : c0 <> c ->
  alloc_get (set_pile_of c p' a) (Some c0) = alloc_get a (Some c0).
Proof.
  intros Hne. assert (E0 : okey_eqb (Some c0) (Some c) = false) by (apply not_true_iff_false; rewrite okey_eqb_eq; congruence).
  unfold set_pile_of. induction a as [|[k q] a IHa]; cbn -[okey_eqb]; [reflexivity|].
  destruct (okey_eqb (Some c) k) eqn:E; cbn -[okey_eqb].
  - apply okey_eqb_eq in E. subst k. rewrite E0. exact IHa.
  - destruct (okey_eqb (Some c0) k); [reflexivity|exact IHa].
Qed.

Lemma set_pile_in a c p' k q : In (k, q) (set_pile_of c p' a) -> (k = Some c /\ q = p') \/ In (k, q) a.
Proof.
  unfold set_pile_of. intros H. apply in_map_iff in H. destruct H as ([k0 q0] & Heq & Hin). cbn -[okey_eqb] in Heq.
  destruct (okey_eqb (Some c) k0) eqn:E; injection Heq as <- <-; [left|right; exact Hin].
  apply okey_eqb_eq in E. auto.
Qed.

Lemma alloc_del_sum a k p : NoDup (akeys a) -> alloc_get a k = Some p ->
  asum (alloc_del a k) == asum a - wsum p /\ NoDup (akeys (alloc_del a k)).
Proof. intros Hnd Hg. split; [exact (msum_del (fun _ => wsum) a k p Hnd Hg)|apply alloc_del_nodup, Hnd]. Qed.

Lemma replace_pile_sum a c p p' : NoDup (akeys a) -> alloc_get a (Some c) = Some p ->
  asum (map (fun kp : option C * pile => if okey_eqb (Some c) (fst kp) then (fst kp, p') else kp) a)
  == asum a - wsum p + wsum p' /\
  akeys (map (fun kp : option C * pile => if okey_eqb (Some c) (fst kp) then (fst kp, p') else kp) a) = akeys a.
Proof. intros Hnd Hg. split; [exact (msum_set_pile (fun _ => wsum) a c p p' Hnd Hg)|apply set_pile_keys]. Qed.

Lemma transfer_one a c continuing : NoDup (akeys a) -> ~ In c continuing ->
  let p := match alloc_get a (Some c) with Some p => p | None => [] end in
  let a' := alloc_del (fold_left (fun a bw => move_ballot a (ranked_next (fst bw) c continuing) (fst bw) (snd bw)) p a) (Some c) in
  asum a' == asum a /\ NoDup (akeys a').
Proof.
  intros Hnd Hc p a'. subst a'.
  destruct (fold_left_adds (fun a bw => move_ballot a (ranked_next (fst bw) c continuing) (fst bw) (snd bw))
              (fun r => NoDup (akeys r) /\ alloc_get r (Some c) = alloc_get a (Some c)) asum snd p) with (a := a)
    as ((H3 & H2) & H1); [|split; [exact Hnd|reflexivity]|].
  - intros r [b w] _ [Hn Hg]. cbn [fst snd].
    assert (Hnc : ~ In c (ranked_next b c continuing)) by (intros H; apply Hc, (ranked_next_allowed b c continuing), H).
    destruct (move_ballot_keep r (ranked_next b c continuing) b w c Hnc Hn) as [Hk Hn2].
    split; [split; [exact Hn2|rewrite Hk; exact Hg]|apply move_ballot_sum].
  - fold (wsum p) in H1. split; [|apply alloc_del_nodup, H3].
    subst p. destruct (alloc_get a (Some c)) as [p|] eqn:Eg.
    + pose proof (proj1 (alloc_del_sum _ (Some c) p H3 H2)). lra.
    + rewrite (alloc_del_none _ _ H2), H1. simpl. ring.
Qed.

Theorem transfer_conserves a elim : NoDup (akeys a) ->
  asum (transfer a elim) == asum a /\ NoDup (akeys (transfer a elim)).
Proof.
  intros Hnd. unfold transfer.
  set (continuing := filter (fun c => negb (cmem c elim)) (keys_some a)).
  apply (fold_left_inv (fun r => asum r == asum a /\ NoDup (akeys r))); [|split; [reflexivity|exact Hnd]].
  intros r c Hc [H1 H2]. cbv zeta.
  destruct (transfer_one r c continuing H2) as [H3 H4]; [|split; [rewrite H3; exact H1|exact H4]].
  intros Hin. apply filter_In in Hc. apply filter_In in Hin. destruct Hc as [_ E1], Hin as [_ E2].
  rewrite E1 in E2. discriminate.
Qed.

Lemma filter_and {X} (f g : X -> bool) l : filter f (filter g l) = filter (fun x => g x && f x) l.
Proof. induction l as [|x l IH]; simpl; [reflexivity|]. destruct (g x); simpl; [destruct (f x)|]; rewrite IH; reflexivity. Qed.

Lemma keys_some_add a k b w : (forall c, k = Some c -> In c (keys_some a)) -> keys_some (alloc_add a k b w) = keys_some a.
Proof.
  unfold keys_some. induction a as [|[k' p] a IH]; simpl; intros H.
  - destruct k as [c|]; [destruct (H c eq_refl)|reflexivity].
  - destruct (okey_eqb k k') eqn:E; simpl; [reflexivity|]. f_equal. apply IH.
    intros c ->. specialize (H c eq_refl). apply in_app_or in H. destruct H as [H|H]; [|exact H].
    destruct k' as [x|]; [|destruct H]. destruct H as [->|[]]. rewrite okey_eqb_refl in E. discriminate.
Qed.

Lemma keys_some_move a targets b w : incl targets (keys_some a) -> keys_some (move_ballot a targets b w) = keys_some a.
Proof.
  intros Hi. unfold move_ballot. destruct targets as [|t ts]; [apply keys_some_add; discriminate|].
  apply (fold_left_inv (fun r => keys_some r = keys_some a)); [|reflexivity].
  intros r x Hx Hr. rewrite <- Hr. apply keys_some_add. intros c [= <-]. rewrite Hr. exact (Hi x Hx).
Qed.

Lemma keys_some_alloc_del a c : keys_some (alloc_del a (Some c)) = filter (fun x => negb (ceqb c x)) (keys_some a).
Proof.
  unfold keys_some, alloc_del. induction a as [|[k p] a IH]; [reflexivity|].
  cbn [filter fst]. destruct k as [x|]; cbn [okey_eqb].
  - cbn [flat_map fst app filter]. destruct (ceqb c x); cbn [negb flat_map fst app]; [exact IH|f_equal; exact IH].
  - cbn [negb flat_map fst app]. exact IH.
Qed.

Lemma transfer_keys_eq a elim : keys_some (transfer a elim) = filter (fun c => negb (cmem c elim)) (keys_some a).
Proof.
  unfold transfer. set (cont := filter (fun c => negb (cmem c elim)) (keys_some a)).
  (* removing the candidates of rem one by one, none of them in cont, leaves the keys outside rem *)
  transitivity (filter (fun x => negb (cmem x (filter (fun c => cmem c elim) (keys_some a)))) (keys_some a)).
  2:{ apply filter_ext_in. intros x Hx. f_equal. destruct (cmem x elim) eqn:E.
      - apply cmem_In, filter_In. auto.
      - apply not_true_iff_false. intros H. apply cmem_In, filter_In in H. destruct H as [_ H]. congruence. }
  assert (Hcont : incl cont (keys_some a)) by (intros x Hx; apply filter_In in Hx; tauto).
  assert (Hrem : forall c, In c (filter (fun c => cmem c elim) (keys_some a)) -> ~ In c cont).
  { intros c Hc Hin. apply filter_In in Hc. apply filter_In in Hin. destruct Hc as [_ E1], Hin as [_ E2].
    rewrite E1 in E2. discriminate. }
  revert Hrem Hcont. clearbody cont. generalize (filter (fun c => cmem c elim) (keys_some a)). intros rem. revert a.
  induction rem as [|c rem IH]; intros a Hrem Hcont; cbn [fold_left].
  - cbn [cmem negb]. clear. induction (keys_some a) as [|x l IHl]; simpl; [reflexivity|]. rewrite <- IHl. reflexivity.
  - assert (Hstep : keys_some (let p := match alloc_get a (Some c) with Some p => p | None => [] end in
                      alloc_del (fold_left (fun a0 bw => move_ballot a0 (ranked_next (fst bw) c cont) (fst bw) (snd bw)) p a) (Some c))
                    = filter (fun x => negb (ceqb c x)) (keys_some a)).
    { cbv zeta. rewrite keys_some_alloc_del. f_equal. apply (fold_left_inv (fun r => keys_some r = keys_some a)); [|reflexivity].
      intros r bw _ Hr. rewrite <- Hr. apply keys_some_move. rewrite Hr.
      intros x Hx. apply Hcont, (ranked_next_allowed (fst bw) c cont x Hx). }
    cbv zeta in Hstep. rewrite IH; [|intros x Hx; apply Hrem; right; exact Hx|]; cbv zeta.
    + rewrite Hstep, filter_and. apply filter_ext. intros x. cbn [cmem]. unfold ceqb. rewrite (Pos.eqb_sym x c), negb_orb. reflexivity.
    + rewrite Hstep. intros x Hx. apply filter_In. split; [apply Hcont, Hx|].
      apply negb_true_iff, ceqb_neq. intros ->. exact (Hrem x (or_introl eq_refl) Hx).
Qed.

Lemma transfer_nil a : transfer a [] = a.
Proof.
  assert (H : forall l : list C, filter (fun c => cmem c []) l = []) by (induction l as [|x l IH]; [reflexivity|exact IH]).
  unfold transfer. cbv zeta. rewrite H. reflexivity.
Qed.

Lemma wsum_map_scale (p : pile) (f : Q) :
  wsum (map (fun bw : ballot * Q => (fst bw, Qred (snd bw * f))) p) == wsum p * f.
Proof. exact (wsum_of_scale (fun _ => true) p f). Qed.

(* Gregory._subtract, when it succeeds: the pile is emptied, or every ballot keeps the share (s - amt) / s *)
Lemma gregory_subtract_cases p amt p' : gregory_subtract p amt = Some p' ->
  (pile_sum p <= amt /\ p' = []) \/
  (amt < pile_sum p /\ p' = map (fun bw : ballot * Q => (fst bw, Qred (snd bw * ((pile_sum p - amt) / pile_sum p)))) p).
Proof.
  unfold gregory_subtract. destruct (Qeq_bool (pile_sum p) 0); [discriminate|].
  destruct (Qle_bool (pile_sum p) amt) eqn:E; intros [= <-].
  - left. split; [apply Qle_bool_iff, E|reflexivity].
  - right. split; [|reflexivity]. apply Qnot_le_lt. intros H. apply Qle_bool_iff in H. congruence.
Qed.

Lemma gregory_subtract_in p amt p' b w : gregory_subtract p amt = Some p' -> In (b, w) p' -> exists w1, In (b, w1) p.
Proof.
  intros H Hin. destruct (gregory_subtract_cases p amt p' H) as [[_ ->]|[_ ->]]; [destruct Hin|].
  apply in_map_iff in Hin. destruct Hin as ([b1 w1] & [= -> _] & Hin). exists w1. exact Hin.
Qed.

Lemma gregory_subtract_sum p amount p' : 0 <= amount -> amount <= wsum p ->
  gregory_subtract p amount = Some p' -> wsum p' == wsum p - amount.
Proof.
  intros H0 Hle H. pose proof (pile_sum_wsum p) as Hs.
  destruct (gregory_subtract_cases p amount p' H) as [[H1 ->]|[H1 ->]]; [simpl; lra|].
  rewrite wsum_map_scale, <- Hs. field. lra.
Qed.

Theorem subtract_conserves elected : forall a a', NoDup (akeys a) ->
  (forall c amt, In (c, amt) elected -> 0 <= amt) ->
  NoDup (map fst elected) ->
  (forall c amt p, In (c, amt) elected -> alloc_get a (Some c) = Some p -> amt <= wsum p) ->
  subtract a elected = Some a' ->
  asum a' == asum a - fold_right (fun ca acc => snd ca + acc) 0 elected /\ akeys a' = akeys a.
Proof.
  induction elected as [|[c amt] t IH]; intros a a' Hnd Hnn Hd Hle; simpl.
  - intros [= <-]. split; [ring|reflexivity].
  - destruct (alloc_get a (Some c)) as [p|] eqn:Eg; [|discriminate].
    destruct (gregory_subtract p amt) as [p'|] eqn:Es; [|discriminate]. intros Hsub.
    pose proof (msum_set_pile (fun _ => wsum) a c p p' Hnd Eg) as H1.
    change (asum (set_pile_of c p' a) == asum a - wsum p + wsum p') in H1.
    inversion Hd as [|? ? Hc Hd']; subst.
    destruct (IH (set_pile_of c p' a) a') as [H3 H4].
    + rewrite set_pile_keys. exact Hnd.
    + intros c0 amt0 Hin. apply (Hnn c0). right. exact Hin.
    + exact Hd'.
    + intros c0 amt0 p0 Hin Hg0. apply (Hle c0 amt0 p0); [right; exact Hin|].
      rewrite <- Hg0. symmetry. apply set_pile_get_other. intros ->. apply Hc, (in_map fst _ _ Hin).
    + exact Hsub.
    + split; [|rewrite H4; apply set_pile_keys].
      pose proof (gregory_subtract_sum p amt p' (Hnn c amt (or_introl eq_refl)) (Hle c amt p (or_introl eq_refl) Eg) Es).
      cbn [fold_right snd]. lra.
Qed.

Definition seats_sum (el : list (C * Z)) : Z := fold_right (fun cs acc => (snd cs + acc)%Z) 0%Z el.

Lemma zsum_fold (l : list Z) : zsum l = fold_right Z.add 0%Z l.
Proof. induction l as [|x l IH]; [reflexivity|]. rewrite zsum_cons, IH. reflexivity. Qed.

Lemma totals_keys a : map fst (totals a) = akeys a.
Proof. unfold totals, akeys. rewrite map_map. reflexivity. Qed.

Lemma totals_get a c t : NoDup (akeys a) -> In (Some c, t) (totals a) ->
  exists p, alloc_get a (Some c) = Some p /\ t = pile_sum p.
Proof.
  unfold akeys, totals. induction a as [|[k q] a IH]; simpl; intros Hnd Hin; [destruct Hin|].
  inversion Hnd as [|? ? Hk Hn]; subst. destruct Hin as [Hin|Hin].
  - injection Hin as -> <-. exists q. rewrite Pos.eqb_refl. split; reflexivity.
  - destruct (okey_eqb (Some c) k) eqn:E.
    + apply okey_eqb_eq in E. subst k. exfalso. apply Hk. apply in_map_iff in Hin. destruct Hin as ([k0 q0] & Heq & Hin).
      simpl in Heq. injection Heq as -> _. apply in_map_iff. exists (Some c, q0). split; [reflexivity|exact Hin].
    + destruct k as [y|]; simpl in E; [rewrite E|]; apply IH; assumption.
Qed.

(* s quotas fit into x when s is at most the whole number of quotas in x *)
Lemma qfloor_div_le x q s : 0 < q -> (s <= qfloor_div x q)%Z -> inject_Z s * q <= x.
Proof.
  intros Hq Hs. unfold qfloor_div in Hs. pose proof (Qfloor_le (x / q)) as Hfl.
  assert (Hss : inject_Z s <= x / q) by (rewrite Zle_Qle in Hs; lra).
  assert (Hmul : inject_Z s * q <= (x / q) * q) by (apply Qmult_le_compat_r; lra).
  assert (Hdiv : x / q * q == x) by (field; lra). lra.
Qed.

(* the items _elect_by_quota goes through are the totals, sorted *)
Lemma ebq_items_perm (tot : list (option C * Q)) :
  Permutation (sort_desc Qle_bool (map (fun kt : option C * Q => (fst kt, snd kt)) tot)) tot.
Proof.
  rewrite map_ext with (g := fun x => x) by (intros [x y]; reflexivity). rewrite map_id.
  apply GetNBest_proofs.sort_desc_perm.
Qed.

(* elect_by_quota in pieces (ebq_unfold): the whole quotas of one candidate, then the over-count correction of
   what was awarded *)
Definition ebq_item (cf : cfg) (q : Q) (prev caps : list (C * Z)) (kt : option C * Q) : list (C * Z * Q) :=
  match fst kt with
  | None => []
  | Some c =>
      let mult := qfloor_div (snd kt) q in
      let over := Qred (snd kt - inject_Z mult * q) in
      if c_accept_equal cf || negb (Qeq_bool over 0) then
        let capped := match dget caps c with Some m => Z.min mult m | None => mult end in
        let actual := (capped - dget_or prev c 0)%Z in
        if (0 <? actual)%Z then [(c, actual, over)] else []
      else []
  end.

Definition ebq_correct (n_rem : Z) (awarded : list (C * Z)) (remainders : list (C * Q)) : option (list (C * Z)) + stop :=
  if (n_rem <? zsum (map snd awarded))%Z then
    let kept := get_n_best Qle_bool remainders (Z.to_nat n_rem) in
    if existsb (fun r => match r with TieR _ => true | _ => false end) kept then inr S_nie
    else
      let keptc := flat_map (fun r => match r with Cand c => [c] | _ => [] end) kept in
      inl (Some (flat_map (fun cs : C * Z =>
                   if cmem (fst cs) keptc then [cs]
                   else if (1 <? snd cs)%Z then [(fst cs, (snd cs - 1)%Z)] else []) awarded))
  else inl (Some awarded).

Definition ebq_tail (n_rem : Z) (sel : list (C * Z * Q)) : option (list (C * Z)) + stop :=
  match sel with
  | [] => inl None
  | _ => ebq_correct n_rem (map (fun x => (fst (fst x), snd (fst x))) sel) (map (fun x => (fst (fst x), snd x)) sel)
  end.

Lemma ebq_unfold cf tot q n_rem prev caps :
  elect_by_quota cf tot (Some q) n_rem prev caps
  = ebq_tail n_rem (flat_map (ebq_item cf q prev caps) (sort_desc Qle_bool (map (fun kt => (fst kt, snd kt)) tot))).
Proof. reflexivity. Qed.

(* a candidate is selected at most once, with a positive number of seats: the whole quotas in its total, capped,
   less its earlier seats *)
Lemma ebq_item_cases cf q prev caps kt : ebq_item cf q prev caps kt = [] \/
  exists c s over, ebq_item cf q prev caps kt = [(c, s, over)] /\ fst kt = Some c /\ (0 < s)%Z /\
    s = (match dget caps c with Some m => Z.min (qfloor_div (snd kt) q) m | None => qfloor_div (snd kt) q end - dget_or prev c 0)%Z.
Proof.
  unfold ebq_item. destruct (fst kt) as [c|]; [|left; reflexivity].
  destruct (c_accept_equal cf || _); [|left; reflexivity]. destruct (0 <? _)%Z eqn:E; [|left; reflexivity].
  right. apply Z.ltb_lt in E. eexists _, _, _. split; [reflexivity|]. split; [reflexivity|]. split; [exact E|reflexivity].
Qed.

Lemma ebq_item_nodup cf q prev caps items : NoDup (map fst items) ->
  NoDup (map (fun x : C * Z * Q => fst (fst x)) (flat_map (ebq_item cf q prev caps) items)).
Proof.
  apply (flat_map_key_nodup fst _ Some). intros kt.
  destruct (ebq_item_cases cf q prev caps kt) as [E|(c & s & over & E & Hk & _)]; [left; exact E|].
  right. exists (c, s, over). split; [exact E|symmetry; exact Hk].
Qed.

(* the over-count correction keeps the awarded candidates apart; each keeps its seats or loses one, never the last *)
Lemma ebq_correct_entries n_rem awarded rems el : ebq_correct n_rem awarded rems = inl (Some el) ->
  (NoDup (map fst awarded) -> NoDup (map fst el)) /\
  forall c s, In (c, s) el -> exists s0, In (c, s0) awarded /\ (s <= s0)%Z /\ (0 < s0 -> 0 < s)%Z.
Proof.
  unfold ebq_correct. destruct (n_rem <? _)%Z.
  - destruct (existsb _ _); [discriminate|]. intros [= <-]. split.
    + apply (flat_map_key_nodup fst fst (fun c => c)).
      intros [c0 s0]. cbn [fst snd]. destruct (cmem c0 _); [right; eexists; split; reflexivity|].
      destruct (1 <? s0)%Z; [right; eexists; split; reflexivity|left; reflexivity].
    + intros c s Hin. apply in_flat_map in Hin. destruct Hin as ([c0 s0] & Hin0 & Hin). cbn [fst snd] in Hin.
      destruct (cmem c0 _).
      * destruct Hin as [[= <- <-]|[]]. exists s0. split; [exact Hin0|lia].
      * destruct (1 <? s0)%Z eqn:E1; [|destruct Hin]. destruct Hin as [[= <- <-]|[]].
        apply Z.ltb_lt in E1. exists s0. split; [exact Hin0|lia].
  - intros [= <-]. split; [exact (fun H => H)|]. intros c s Hin. exists s. split; [exact Hin|lia].
Qed.

(* what _elect_by_quota hands back, for any list of totals: candidates as distinct as the keys of the totals, each
   with a positive number of seats that does not exceed the whole quotas in its total, capped, less its earlier seats *)
Lemma ebq_entries cf tot q n_rem prev caps el :
  elect_by_quota cf tot (Some q) n_rem prev caps = inl (Some el) ->
  (NoDup (map fst tot) -> NoDup (map fst el)) /\
  forall c s, In (c, s) el -> exists t, In (Some c, t) tot /\
    (0 < s <= match dget caps c with Some m => Z.min (qfloor_div t q) m | None => qfloor_div t q end - dget_or prev c 0)%Z.
Proof.
  rewrite ebq_unfold. pose proof (ebq_items_perm tot) as Hitems.
  set (items := sort_desc Qle_bool _) in *. clearbody items. intros Ee.
  set (sel := flat_map (ebq_item cf q prev caps) items) in *.
  assert (Eb : ebq_correct n_rem (map (fun x : C * Z * Q => (fst (fst x), snd (fst x))) sel) (map (fun x : C * Z * Q => (fst (fst x), snd x)) sel)
               = inl (Some el)) by (revert Ee; unfold ebq_tail; destruct sel; [discriminate|exact (fun H => H)]).
  destruct (ebq_correct_entries _ _ _ _ Eb) as [Hk Hs]. split.
  - intros Hnd. apply Hk. rewrite map_map. apply ebq_item_nodup.
    eapply Permutation_NoDup; [apply Permutation_map, Permutation_sym, Hitems|exact Hnd].
  - intros c s Hin. destruct (Hs c s Hin) as (s0 & Hin0 & Hle & Hpos).
    apply in_map_iff in Hin0. destruct Hin0 as ([[c0 s1] ov] & [= -> ->] & Hin0).
    apply in_flat_map in Hin0. destruct Hin0 as (kt & Hkt & Hx).
    destruct (ebq_item_cases cf q prev caps kt) as [E|(c1 & s1 & ov1 & E & Hk1 & Hp & Heq)]; rewrite E in Hx; [destruct Hx|].
    destruct Hx as [[= -> -> _]|[]]. exists (snd kt). rewrite <- Hk1, <- surjective_pairing.
    split; [exact (Permutation_in _ Hitems Hkt)|lia].
Qed.

Section COUNT.
  Variable cf : cfg.
  Variable q : Q.
  Hypothesis Hq : 0 < q.

  (* what _elect_by_quota hands back: distinct candidates, each holding at least its seats' worth of quotas *)
  Lemma elect_by_quota_sound a n_rem prev caps el : NoDup (akeys a) -> (forall c, (0 <= dget_or prev c 0)%Z) ->
    elect_by_quota cf (totals a) (Some q) n_rem prev caps = inl (Some el) ->
    NoDup (map fst el) /\
    forall c s, In (c, s) el -> (0 < s)%Z /\ exists p, alloc_get a (Some c) = Some p /\ inject_Z s * q <= wsum p.
  Proof.
    intros Hnd Hprev Ee.
    destruct (ebq_entries cf (totals a) q n_rem prev caps el Ee) as [Hk Hs].
    split; [apply Hk; rewrite totals_keys; exact Hnd|]. intros c s Hin. destruct (Hs c s Hin) as (t & Ht & Hpos & Hle). split; [exact Hpos|].
    destruct (totals_get a c t Hnd Ht) as (p & Hg & ->). exists p. split; [exact Hg|].
    rewrite <- pile_sum_wsum. apply (qfloor_div_le _ _ _ Hq). pose proof (Hprev c). destruct (dget caps c); lia.
  Qed.
End COUNT.

Definition quota_of (cf : cfg) (total_votes : Q) (n_seats : Z) : option Q :=
  match c_quota cf with
  | Some qf => if Qeq_bool total_votes 0 || (n_seats =? 0)%Z then None else Some (qf total_votes n_seats)
  | None => None
  end.

Lemma amounts_sum (el : list (C * Z)) (q : Q) :
  fold_right (fun ca acc => snd ca + acc) 0 (map (fun cs : C * Z => (fst cs, inject_Z (snd cs) * q)) el)
  == inject_Z (seats_sum el) * q.
Proof.
  induction el as [|[c s] el IH]; simpl; [ring|]. rewrite IH, inject_Z_plus. ring.
Qed.

(* next_count in pieces (next_count_unfold): after the elect-all-remaining shortcut, either candidates reach the
   quota, lose their quotas and those at their cap are transferred away (quota_branch), or nobody does and the
   lowest are transferred away (elim_branch) *)
Definition quota_branch (a : alloc) (quota : option Q) (prev caps el : list (C * Z)) : count_result :=
  match quota with
  | None => CR_stop S_runtime
  | Some q =>
      match subtract a (map (fun cs => (fst cs, inject_Z (snd cs) * q)) el) with
      | None => CR_stop S_runtime
      | Some a' =>
          let elim := flat_map (fun cs : C * Z =>
                        match dget caps (fst cs) with
                        | Some m => if (m <=? snd cs + dget_or prev (fst cs) 0)%Z then [fst cs] else []
                        | None => [] end) el in
          CR_next (match elim with [] => a' | _ => transfer a' elim end) el
      end
  end.

Definition elim_branch (cf : cfg) (a : alloc) : count_result :=
  let in_play := some_totals (totals a) in
  let n_ret := retained_count cf (length in_play) in
  let retained := get_n_best Qle_bool in_play n_ret in
  if existsb (fun r => match r with TieR _ => true | _ => false end) retained then CR_stop S_nie
  else
    let keep := flat_map (fun r => match r with Cand c => [c] | _ => [] end) retained in
    let elim := filter (fun c => negb (cmem c keep)) (map fst in_play) in
    CR_next (match elim with [] => a | _ => transfer a elim end) [].

Lemma next_count_unfold cf a n_seats total prev caps :
  next_count cf a n_seats total prev caps =
  let n_rem := (n_seats - zsum (map snd prev))%Z in
  let by_total := sort_desc Qle_bool (totals a) in
  let avail := flat_map (fun kt : option C * Q => match fst kt with
                                   | Some c => [(c, (dget_or caps c 0 - dget_or prev c 0)%Z)]
                                   | None => [] end) by_total in
  if negb (existsb (fun kt : option C * Q => match fst kt with Some c => negb (dmem caps c) | None => false end) by_total)
     && (zsum (map snd avail) =? n_rem)%Z && negb (c_mandatory cf) then CR_all avail
  else match elect_by_quota cf (totals a) (quota_of cf total n_seats) n_rem prev caps with
       | inr s => CR_stop s
       | inl (Some el) => quota_branch a (quota_of cf total n_seats) prev caps el
       | inl None => elim_branch cf a
       end.
Proof. reflexivity. Qed.

(* nobody leaves: the test of next_count for an empty list of candidates to transfer is immaterial *)
Lemma transfer_match a elim : match elim with [] => a | _ :: _ => transfer a elim end = transfer a elim.
Proof. destruct elim; [symmetry; apply transfer_nil|reflexivity]. Qed.

(* the two ways in which a count goes on *)
Lemma next_count_next cf a n_seats total prev caps a' el :
  next_count cf a n_seats total prev caps = CR_next a' el ->
  (exists qv a1, quota_of cf total n_seats = Some qv /\
     elect_by_quota cf (totals a) (Some qv) (n_seats - zsum (map snd prev)) prev caps = inl (Some el) /\
     subtract a (map (fun cs : C * Z => (fst cs, inject_Z (snd cs) * qv)) el) = Some a1 /\
     a' = transfer a1 (flat_map (fun cs : C * Z => match dget caps (fst cs) with
                                  | Some m => if (m <=? snd cs + dget_or prev (fst cs) 0)%Z then [fst cs] else []
                                  | None => [] end) el)) \/
  (el = [] /\
   elect_by_quota cf (totals a) (quota_of cf total n_seats) (n_seats - zsum (map snd prev)) prev caps = inl None /\
   let retained := get_n_best Qle_bool (some_totals (totals a)) (retained_count cf (length (some_totals (totals a)))) in
   existsb (fun r => match r with TieR _ => true | _ => false end) retained = false /\
   a' = transfer a (filter (fun c => negb (cmem c (flat_map (fun r => match r with Cand c => [c] | _ => [] end) retained)))
                           (map fst (some_totals (totals a))))).
Proof.
  rewrite next_count_unfold. cbv zeta. destruct (negb _ && _ && _); [discriminate|].
  destruct (elect_by_quota cf (totals a) (quota_of cf total n_seats) _ prev caps) as [[el0|]|s] eqn:Ee; [| |discriminate].
  - unfold quota_branch. destruct (quota_of cf total n_seats) as [qv|]; [|discriminate].
    destruct (subtract a _) as [a1|] eqn:Es; [|discriminate]. rewrite transfer_match. intros [= <- <-]. left. exists qv, a1. auto.
  - unfold elim_branch. cbv zeta. destruct (existsb _ _) eqn:Et; [discriminate|]. rewrite transfer_match. intros [= <- <-]. right. auto.
Qed.

(* I1, one step: the votes held after a count, plus one quota per seat filled by quota in that
   count, equal the votes held before *)
Theorem next_count_conserves cf a n_seats total prev caps a' el :
  NoDup (akeys a) -> (forall c, (0 <= dget_or prev c 0)%Z) ->
  (forall qv, quota_of cf total n_seats = Some qv -> 0 < qv) ->
  next_count cf a n_seats total prev caps = CR_next a' el ->
  NoDup (akeys a') /\ (forall c s, In (c, s) el -> (0 < s)%Z) /\
  match quota_of cf total n_seats with
  | Some qv => asum a' + inject_Z (seats_sum el) * qv == asum a
  | None => asum a' == asum a /\ el = []
  end.
Proof.
  intros Hnd Hprev Hqpos Hn.
  destruct (next_count_next _ _ _ _ _ _ _ _ Hn) as [(qv & a1 & Eq & Ee & Es & ->)|(-> & _ & _ & ->)].
  - rewrite Eq. pose proof (Hqpos qv Eq) as Hq.
    destruct (elect_by_quota_sound cf qv Hq a _ prev caps el Hnd Hprev Ee) as [Hk Hs].
    destruct (subtract_conserves (map (fun cs : C * Z => (fst cs, inject_Z (snd cs) * qv)) el) a a1 Hnd) as [H1 H2]; [| | |exact Es|].
    + intros c amt Hin. apply in_map_iff in Hin. destruct Hin as ([c0 s0] & [= <- <-] & Hin).
      destruct (Hs c0 s0 Hin) as [Hp _]. cbn [snd]. apply Qmult_le_0_compat; [|lra]. rewrite <- (Zle_Qle 0). lia.
    + rewrite map_map. simpl. exact Hk.
    + intros c amt p Hin Hg. apply in_map_iff in Hin. destruct Hin as ([c0 s0] & [= <- <-] & Hin).
      destruct (Hs c0 s0 Hin) as (_ & p0 & Hg0 & Hle). cbn [fst snd] in Hg |- *. rewrite Hg in Hg0. injection Hg0 as <-. exact Hle.
    + pose proof (amounts_sum el qv). set (elim := flat_map _ el). destruct (transfer_conserves a1 elim) as [H3 H4]; [rewrite H2; exact Hnd|].
      split; [exact H4|]. split; [intros c s Hin; apply (Hs c s Hin)|]. lra.
  - set (elim := filter _ _). destruct (transfer_conserves a elim Hnd) as [H3 H4].
    split; [exact H4|]. split; [intros c s []|].
    destruct (quota_of cf total n_seats); [rewrite H3; simpl; ring|split; [exact H3|reflexivity]].
Qed.

Lemma all_ranked_nodup votes : NoDup (all_ranked_candidates votes).
Proof.
  unfold all_ranked_candidates. apply fold_left_inv; [|constructor]. intros acc i _ Ha.
  apply fold_left_inv; [|exact Ha]. intros acc1 bw _ Ha1. destruct (nth_error (fst bw) i) as [it|]; [|exact Ha1].
  apply fold_left_inv; [|exact Ha1]. intros acc2 c _ Ha2. destruct (cmem c acc2) eqn:E; [exact Ha2|].
  apply nodup_app_intro; [exact Ha2|constructor; [intros []|constructor]|].
  intros x Hx [<-|[]]. apply cmem_In in Hx. congruence.
Qed.

Lemma all_ranked_complete (votes : list (ballot * Q)) b w it x :
  In (b, w) votes -> In it b -> In x (members it) -> In x (all_ranked_candidates votes).
Proof.
  intros Hv Hit Hx. destruct (In_nth_error b it Hit) as (i & Hi).
  (* once listed, x stays listed: through a rank, through a pass over the ballots *)
  assert (Hadd : forall acc y, In x acc -> In x (if cmem y acc then acc else acc ++ [y]))
    by (intros acc y H; destruct (cmem y acc); [exact H|apply in_or_app; left; exact H]).
  assert (Hpass : forall j acc (bw : ballot * Q), In x acc ->
            In x match nth_error (fst bw) j with
                 | Some it => fold_left (fun acc c => if cmem c acc then acc else acc ++ [c]) (members it) acc
                 | None => acc end).
  { intros j acc bw H. destruct (nth_error (fst bw) j); [|exact H]. apply fold_left_inv; [|exact H].
    intros acc0 y _. apply Hadd. }
  unfold all_ranked_candidates. apply (fold_left_reaches _ (fun acc => In x acc) _ i).
  - intros acc j H. apply fold_left_inv; [|exact H]. intros acc0 bw _. apply Hpass.
  - intros acc. apply (fold_left_reaches _ (fun acc => In x acc) _ (b, w)); [intros acc0 bw; apply Hpass| |exact Hv].
    intros acc0. cbn [fst]. rewrite Hi. apply (fold_left_reaches _ (fun acc => In x acc) _ x); [exact Hadd| |exact Hx].
    intros acc1. destruct (cmem x acc1) eqn:E; [apply cmem_In, E|apply in_or_app; right; left; reflexivity].
  - apply in_seq. split; [lia|]. apply (Nat.lt_le_trans _ (length b)); [apply nth_error_Some; congruence|].
    apply (fold_left_reaches (fun m (bw : ballot * Q) => Nat.max m (length (fst bw))) (fun m => (length b <= m)%nat) votes (b, w));
      [intros m bw H; lia|intros m; cbn [fst]; lia|exact Hv].
Qed.

(* the two passes of initial_allocation over the ballots: a property P of the allocation that every placement
   keeps, and a quantity m that grows by d b w when the ballot b of weight w is placed *)
Lemma initial_allocation_adds (P : alloc -> Prop) (m : alloc -> Q) (d : ballot -> Q -> Q) votes :
  let cands := all_ranked_candidates votes in
  P (map (fun c => (Some c, [])) cands) -> m (map (fun c => (Some c, [])) cands) == 0 -> (forall w, d [] w == 0) ->
  (forall a c t w, In (IP c :: t, w) votes -> P a ->
     P (alloc_add a (Some c) (IP c :: t) w) /\ m (alloc_add a (Some c) (IP c :: t) w) == m a + d (IP c :: t) w) ->
  (forall a l t w, In (IS l :: t, w) votes -> P a ->
     P (move_ballot a (next_after (IS l :: t) cands) (IS l :: t) w) /\
     m (move_ballot a (next_after (IS l :: t) cands) (IS l :: t) w) == m a + d (IS l :: t) w) ->
  P (initial_allocation votes) /\
  m (initial_allocation votes) == fold_right (fun bw acc => d (fst bw) (snd bw) + acc) 0 votes.
Proof.
  intros cands Hb Hb0 Hd0 Hplain Hshared. unfold initial_allocation. fold cands.
  destruct (fold_left_adds (fun a bw => match fst bw with IP c :: _ => alloc_add a (Some c) (fst bw) (snd bw) | _ => a end)
              P m (fun bw => match fst bw with IP _ :: _ => d (fst bw) (snd bw) | _ => 0 end) votes)
    with (a := map (fun c => (Some c, @nil (ballot * Q))) cands) as [D1 D2]; [|exact Hb|].
  { intros a [[|[c|l] t] w] Hin Ha; cbn [fst snd]; [split; [exact Ha|ring]|exact (Hplain a c t w Hin Ha)|split; [exact Ha|ring]]. }
  destruct (fold_left_adds (fun a bw => match fst bw with IS _ :: _ => move_ballot a (next_after (fst bw) cands) (fst bw) (snd bw) | _ => a end)
              P m (fun bw => match fst bw with IS _ :: _ => d (fst bw) (snd bw) | _ => 0 end) votes) with (a := fold_left
                (fun a bw => match fst bw with IP c :: _ => alloc_add a (Some c) (fst bw) (snd bw) | _ => a end) votes
                (map (fun c => (Some c, @nil (ballot * Q))) cands)) as [S1 S2]; [|exact D1|].
  { intros a [[|[c|l] t] w] Hin Ha; cbn [fst snd]; [split; [exact Ha|ring]|split; [exact Ha|ring]|exact (Hshared a l t w Hin Ha)]. }
  split; [exact S1|]. rewrite S2, D2, Hb0. clear -Hd0.
  induction votes as [|[[|[c|l] t] w] vs IH]; cbn [fold_right fst snd]; [ring|pose proof (Hd0 w)| |]; lra.
Qed.

Lemma initial_allocation_keeps (P : alloc -> Prop) votes :
  let cands := all_ranked_candidates votes in
  P (map (fun c => (Some c, [])) cands) ->
  (forall a c t w, In (IP c :: t, w) votes -> P a -> P (alloc_add a (Some c) (IP c :: t) w)) ->
  (forall a l t w, In (IS l :: t, w) votes -> P a -> P (move_ballot a (next_after (IS l :: t) cands) (IS l :: t) w)) ->
  P (initial_allocation votes).
Proof.
  intros cands Hb Hplain Hshared.
  apply (initial_allocation_adds P (fun _ => 0) (fun _ _ => 0) votes); [exact Hb|reflexivity|reflexivity| |].
  - intros a c t w Hin Ha. split; [exact (Hplain a c t w Hin Ha)|ring].
  - intros a l t w Hin Ha. split; [exact (Hshared a l t w Hin Ha)|ring].
Qed.

(* the initial allocation holds exactly the non-empty ballots *)
Definition cast (votes : list (ballot * Q)) : Q :=
  fold_right (fun bw acc => (match fst bw with [] => 0 | _ => snd bw end) + acc) 0 votes.

Theorem initial_allocation_conserves votes :
  NoDup (akeys (initial_allocation votes)) /\ asum (initial_allocation votes) == cast votes.
Proof.
  apply (initial_allocation_adds (fun a => NoDup (akeys a)) asum (fun b w => match b with [] => 0 | _ => w end) votes).
  - unfold akeys. rewrite map_map. cbn [fst]. rewrite <- map_map with (f := fun c => c) (g := Some), map_id.
    apply FinFun.Injective_map_NoDup; [intros x y [= ->]; reflexivity|apply all_ranked_nodup].
  - induction (all_ranked_candidates votes) as [|c l IH]; simpl; [reflexivity|]. lra.
  - reflexivity.
  - intros a c t w _ Ha. split; [apply alloc_add_keys, Ha|apply alloc_add_sum].
  - intros a l t w _ Ha. split; [apply move_ballot_nodup, Ha|apply move_ballot_sum].
Qed.

Lemma add_seats_nonneg seats el : (forall c, (0 <= dget_or seats c 0)%Z) ->
  (forall c s, In (c, s) el -> (0 < s)%Z) -> forall c, (0 <= dget_or (add_seats seats el) c 0)%Z.
Proof.
  unfold add_seats. revert seats. induction el as [|[c0 s0] el IH]; intros seats Hs Hel c; simpl; [apply Hs|].
  apply IH; [|intros c1 s1 H; apply (Hel c1 s1); right; exact H].
  intros c1. rewrite dget_or_dset. destruct (ceqb c1 c0).
  - pose proof (Hs c0). pose proof (Hel c0 s0 (or_introl eq_refl)). lia.
  - apply Hs.
Qed.

Section RUN.
  Variable cf : cfg.
  Variable votes : list (ballot * Q).
  Variable n_seats : Z.
  Variable caps : list (C * Z).
  Variable prev0 : list (C * Z).
  Hypothesis Hprev0 : forall c, (0 <= dget_or prev0 c 0)%Z.
  Let total := Qred (fold_left Qplus (map snd votes) 0).
  Hypothesis Hqpos : forall qv, quota_of cf total n_seats = Some qv -> 0 < qv.

  (* the states the count loop of nth_count passes through: allocation, seats so far,
     and the number of seats filled by quota so far *)
  Inductive reach : alloc -> list (C * Z) -> Z -> Prop :=
  | reach_init : reach (initial_allocation votes) prev0 0
  | reach_step a seats qs a' el :
      reach a seats qs -> next_count cf a n_seats total seats caps = CR_next a' el ->
      reach a' (add_seats seats el) (qs + seats_sum el).

  Theorem reach_conservation a seats qs : reach a seats qs ->
    NoDup (akeys a) /\ (forall c, (0 <= dget_or seats c 0)%Z) /\
    match quota_of cf total n_seats with
    | Some qv => asum a + inject_Z qs * qv == cast votes
    | None => asum a == cast votes /\ qs = 0%Z
    end.
  Proof.
    induction 1 as [|a seats qs a' el Hr IH Hn].
    - destruct (initial_allocation_conserves votes) as [H1 H2]. split; [exact H1|]. split; [exact Hprev0|].
      destruct (quota_of cf total n_seats); [rewrite H2; simpl; ring|split; [exact H2|reflexivity]].
    - destruct IH as (I1 & I2 & I3).
      destruct (next_count_conserves cf a n_seats total seats caps a' el I1 I2 Hqpos Hn) as (N1 & N2 & N3).
      split; [exact N1|]. split; [apply add_seats_nonneg; assumption|].
      destruct (quota_of cf total n_seats) as [qv|].
      + rewrite inject_Z_plus. lra.
      + destruct N3 as [N3 ->]. destruct I3 as [I3 ->]. split; [rewrite N3; exact I3|reflexivity].
  Qed.
End RUN.

(* I2: no pile ever holds a ballot of negative weight *)
Definition pile_nonneg (p : pile) : Prop := Forall (fun bw => 0 <= snd bw) p.
Definition alloc_nonneg (a : alloc) : Prop := Forall (fun kp => pile_nonneg (snd kp)) a.

Lemma pile_add_nonneg p b w : pile_nonneg p -> 0 <= w -> pile_nonneg (pile_add p b w).
Proof.
  unfold pile_nonneg. induction 1 as [|[b' w'] p Hw Hp IH]; intros H0; simpl; [constructor; [exact H0|constructor]|].
  destruct (ballot_eqb b b'); constructor; simpl in *; try assumption.
  - pose proof (Qred_correct (w' + w)) as Hr. rewrite Hr. lra.
  - apply IH. exact H0.
Qed.

Lemma alloc_add_nonneg a k b w : alloc_nonneg a -> 0 <= w -> alloc_nonneg (alloc_add a k b w).
Proof.
  unfold alloc_nonneg. induction 1 as [|[k' p] a Hp Ha IH]; intros H0; simpl.
  - constructor; [|constructor]. simpl. constructor; [exact H0|constructor].
  - destruct (okey_eqb k k'); constructor; simpl in *; try assumption.
    + apply pile_add_nonneg; assumption.
    + apply IH. exact H0.
Qed.

Lemma share_nonneg (w : Q) (n : nat) : 0 <= w -> 0 <= Qred (w / inject_Z (Z.of_nat (S n))).
Proof.
  intros Hw. pose proof (Qred_correct (w / inject_Z (Z.of_nat (S n)))) as Hr. rewrite Hr.
  apply Qle_shift_div_l; [|lra]. rewrite <- (Zlt_Qlt 0). lia.
Qed.

Lemma move_ballot_nonneg a targets b w : alloc_nonneg a -> 0 <= w -> alloc_nonneg (move_ballot a targets b w).
Proof.
  intros Ha Hw. unfold move_ballot. destruct targets as [|t ts]; [apply alloc_add_nonneg; assumption|].
  apply fold_left_inv; [|exact Ha]. intros r x _ Hr. apply alloc_add_nonneg; [exact Hr|apply share_nonneg, Hw].
Qed.

Lemma alloc_get_nonneg a k p : alloc_nonneg a -> alloc_get a k = Some p -> pile_nonneg p.
Proof.
  intros Ha Hg. unfold alloc_nonneg in Ha. rewrite Forall_forall in Ha. exact (Ha _ (alloc_get_some_in a k p Hg)).
Qed.

Lemma alloc_del_nonneg a k : alloc_nonneg a -> alloc_nonneg (alloc_del a k).
Proof.
  unfold alloc_nonneg, alloc_del. rewrite !Forall_forall. intros H x Hx. apply filter_In in Hx. apply H. tauto.
Qed.

Theorem transfer_nonneg a elim : alloc_nonneg a -> alloc_nonneg (transfer a elim).
Proof.
  intros Ha. unfold transfer. apply fold_left_inv; [|exact Ha]. intros r c _ Hr. cbv zeta.
  apply alloc_del_nonneg.
  assert (Hp : pile_nonneg (match alloc_get r (Some c) with Some p => p | None => [] end)).
  { destruct (alloc_get r (Some c)) eqn:E; [eapply alloc_get_nonneg; eassumption|constructor]. }
  unfold pile_nonneg in Hp. rewrite Forall_forall in Hp.
  apply fold_left_inv; [|exact Hr]. intros r0 bw Hbw Hr0. apply move_ballot_nonneg; [exact Hr0|exact (Hp bw Hbw)].
Qed.

Lemma scale_nonneg (p : pile) (f : Q) : pile_nonneg p -> 0 <= f ->
  pile_nonneg (map (fun bw : ballot * Q => (fst bw, Qred (snd bw * f))) p).
Proof.
  unfold pile_nonneg. induction 1 as [|[b w] p Hw _ IH]; intros Hf; simpl; [constructor|].
  constructor; [|apply IH, Hf]. simpl in *. pose proof (Qred_correct (w * f)) as Hr. rewrite Hr.
  apply Qmult_le_0_compat; assumption.
Qed.

Lemma gregory_subtract_nonneg p amt p' : pile_nonneg p -> 0 <= amt ->
  gregory_subtract p amt = Some p' -> pile_nonneg p'.
Proof.
  intros Hp H0 H. destruct (gregory_subtract_cases p amt p' H) as [[_ ->]|[Hlt ->]]; [constructor|].
  apply scale_nonneg; [exact Hp|]. apply Qle_shift_div_l; lra.
Qed.

Lemma set_pile_nonneg (a : alloc) c p' : alloc_nonneg a -> pile_nonneg p' -> alloc_nonneg (set_pile_of c p' a).
Proof.
  unfold alloc_nonneg, set_pile_of. intros Ha Hp'. induction Ha as [|[k q0] a Hq Ha IHa]; cbn -[okey_eqb]; [constructor|].
  constructor; [|exact IHa]. destruct (okey_eqb (Some c) k); simpl; assumption.
Qed.

Theorem subtract_nonneg elected : forall a a', alloc_nonneg a ->
  (forall c amt, In (c, amt) elected -> 0 <= amt) ->
  subtract a elected = Some a' -> alloc_nonneg a'.
Proof.
  induction elected as [|[c amt] t IH]; intros a a' Ha Hnn; simpl; [intros [= <-]; exact Ha|].
  destruct (alloc_get a (Some c)) as [p|] eqn:Eg; [|discriminate].
  destruct (gregory_subtract p amt) as [p'|] eqn:Es; [|discriminate].
  apply IH; [|intros c0 amt0 H; apply (Hnn c0); right; exact H].
  apply set_pile_nonneg; [exact Ha|].
  exact (gregory_subtract_nonneg p amt p' (alloc_get_nonneg a _ p Ha Eg) (Hnn c amt (or_introl eq_refl)) Es).
Qed.

Lemma add_seats_sum el : forall seats, zsum (map snd (add_seats seats el)) = (zsum (map snd seats) + seats_sum el)%Z.
Proof.
  unfold add_seats. induction el as [|[c s] el IH]; intros seats; simpl; [lia|].
  rewrite IH. assert (H : forall d, zsum (map snd (dset d c (dget_or d c 0 + s)%Z)) = (zsum (map snd d) + s)%Z).
  { intros d. rewrite !zsum_fold. unfold dget_or. induction d as [|[k v] d IHd]; simpl; [lia|].
    destruct (ceqb c k) eqn:E; simpl; [lia|]. rewrite IHd. lia. }
  rewrite H. lia.
Qed.

Lemma seats_sum_zsum (l : list (C * Z)) : seats_sum l = zsum (map snd l).
Proof. rewrite zsum_fold. induction l as [|x l IHl]; simpl; [reflexivity|]. rewrite IHl. reflexivity. Qed.

(* the elect-all-remaining shortcut: every continuing candidate is capped, each gets the seats still free under
   its cap, and these are exactly the open seats *)
Lemma next_count_all_inv cf a n total seats caps el : next_count cf a n total seats caps = CR_all el ->
  let by_total := sort_desc Qle_bool (totals a) in
  el = flat_map (fun kt : option C * Q => match fst kt with
                   | Some c => [(c, (dget_or caps c 0 - dget_or seats c 0)%Z)]
                   | None => [] end) by_total /\
  existsb (fun kt : option C * Q => match fst kt with Some c => negb (dmem caps c) | None => false end) by_total = false /\
  zsum (map snd el) = (n - zsum (map snd seats))%Z.
Proof.
  rewrite next_count_unfold. cbv zeta. destruct (negb _ && _ && _) eqn:Ec.
  - intros [= <-]. apply andb_true_iff in Ec. destruct Ec as [Ec _]. apply andb_true_iff in Ec. destruct Ec as [Eu Ez].
    split; [reflexivity|]. split; [apply negb_true_iff, Eu|apply Z.eqb_eq, Ez].
  - clear Ec. intros H. exfalso. revert H. unfold quota_branch, elim_branch. cbv zeta.
    destruct (elect_by_quota _ _ _ _ _ _) as [[el0|]|s];
      [destruct (quota_of cf total n); [destruct (subtract a _)|]|destruct (existsb _ _)|]; discriminate.
Qed.

Lemma next_count_all cf a n total seats caps el :
  next_count cf a n total seats caps = CR_all el -> seats_sum el = (n - zsum (map snd seats))%Z.
Proof. intros H. rewrite seats_sum_zsum. apply (next_count_all_inv _ _ _ _ _ _ _ H). Qed.

Lemma run_done cf fuel a n total seats caps acc : zsum (map snd seats) = n ->
  run cf fuel a n total seats caps acc = Build_trace (rev acc) seats None.
Proof. intros H. apply Z.eqb_eq in H. destruct fuel; cbn [run]; rewrite H; reflexivity. Qed.

(* the loop of [run]: a property I of the loop state (allocation, seats, counts recorded) that every count which
   goes on keeps gives R for the trace, once R is shown for the four ways in which the loop ends.  The fourth premise
   covers every stop alike: a refusal of next_count, the allocation left unchanged by an empty count (S_vse) and
   exhausted fuel (S_fuel) *)
Lemma run_inv cf n total caps (I : alloc -> list (C * Z) -> list (list (option C * Q) * list (C * Z)) -> Prop)
      (R : trace -> Prop) :
  (forall a seats acc a' el, I a seats acc -> zsum (map snd seats) <> n ->
     next_count cf a n total seats caps = CR_next a' el -> I a' (add_seats seats el) ((totals a', el) :: acc)) ->
  (forall a seats acc, I a seats acc -> zsum (map snd seats) = n -> R (Build_trace (rev acc) seats None)) ->
  (forall a seats acc el, I a seats acc -> zsum (map snd seats) <> n ->
     next_count cf a n total seats caps = CR_all el -> R (Build_trace (rev (([], el) :: acc)) (add_seats seats el) None)) ->
  (forall a seats acc s, I a seats acc -> R (Build_trace (rev acc) seats (Some s))) ->
  forall fuel a seats acc, I a seats acc -> R (run cf fuel a n total seats caps acc).
Proof.
  intros Hnext Hdone Hall Hstop. induction fuel as [|f IH]; intros a seats acc HI; cbn [run];
    destruct (zsum (map snd seats) =? n)%Z eqn:E; try (apply (Hdone a), Z.eqb_eq, E; exact HI); [apply (Hstop a), HI|].
  apply Z.eqb_neq in E. destruct (next_count cf a n total seats caps) as [el|a' el|s] eqn:En.
  - exact (Hall a seats acc el HI E En).
  - pose proof (Hnext a seats acc a' el HI E En) as HI'. destruct el as [|e el']; [|apply IH, HI'].
    destruct (alloc_eqb a' a); [apply (Hstop a), HI|apply IH, HI'].
  - apply (Hstop a), HI.
Qed.

(* a finished count fills exactly the seats *)
Theorem run_complete cf fuel : forall a n total seats caps acc,
  t_stop (run cf fuel a n total seats caps acc) = None ->
  zsum (map snd (t_seats (run cf fuel a n total seats caps acc))) = n.
Proof.
  intros a n total seats caps acc.
  apply (run_inv cf n total caps (fun _ _ _ => True) (fun t => t_stop t = None -> zsum (map snd (t_seats t)) = n)); auto.
  - intros a0 seats0 acc0 el _ _ En _. cbn [t_seats]. rewrite add_seats_sum, (next_count_all _ _ _ _ _ _ _ En). lia.
  - discriminate.
Qed.
