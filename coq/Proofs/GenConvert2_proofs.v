(* More fold and dictionary lemmas for the translator ties of the converters (nothing about generated code): a profile split
   into one-key ballots, dictionaries of permuted profiles. *)
From Coq Require Import ZArith QArith List Bool Lia Arith Permutation.
From VL Require Import Prelude.Sx Prelude.PyDict Prelude.GDict Prelude.PyNum Prelude.PyList Prelude.PySeq Prelude.PyConv Model.GetNBest
     Model.Convert Model.Convert2 Proofs.Convert_proofs Proofs.Convert2_proofs Proofs.JR_proofs Proofs.ChainCands_proofs Proofs.GenConvert_proofs.
Import ListNotations.
Open Scope Q_scope.

Lemma fold_left_flat_map {X Y Z} (F : Z -> Y -> Z) (g : X -> list Y) (l : list X) : forall a,
  fold_left F (flat_map g l) a = fold_left (fun a x => fold_left F (g x) a) l a.
Proof. induction l as [|x l IH]; intros a; cbn [flat_map fold_left]; [reflexivity|]. rewrite fold_left_app. apply IH. Qed.

(* the profile of one-key ballots a profile splits into: converting it (every ballot to its own key) is converting the profile *)
Definition split_profile {B} (img : B -> list (sx * Q)) (votes : list (B * Q)) : list (sx * Q) :=
  flat_map (fun bw => map (fun kc => (fst kc, snd kc * snd bw)) (img (fst bw))) votes.

Lemma dconv_ballot_perm {B} (img : B -> list (sx * Q)) (a b : list (B * Q)) :
  Permutation a b -> dsim (dconv img a) (dconv img b).
Proof.
  intros H. repeat split; try apply nodup_conv.
  - rewrite !keys_dconv. intros (bw & I1 & I2); exists bw; (split; [|exact I2]).
    apply (Permutation_in _ H). exact I1.
  - rewrite !keys_dconv. intros (bw & I1 & I2); exists bw; (split; [|exact I2]).
    apply (Permutation_in _ (Permutation_sym H)). exact I1.
  - intros k. apply (conv_perm sx_eqb sx_eqb_spec img). exact H.
Qed.
