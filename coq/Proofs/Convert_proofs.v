(* Converters are accumulating folds: additivity, per-ballot image, conservation. *)
From Coq Require Import ZArith QArith List Bool Lia Lqa Permutation.
From VL Require Import Prelude.Sx Prelude.GDict.
Import ListNotations.
Open Scope Q_scope.

(* structural equality on wire values is Leibniz equality *)
Lemma sx_eqb_refl : forall a, sx_eqb a a = true.
Proof.
  fix IH 1. intros [z|l]; simpl; [apply Z.eqb_refl|].
  induction l as [|x t IHl]; [reflexivity|]. rewrite (IH x). simpl. exact IHl.
Qed.

Lemma sx_eqb_eq : forall a b, sx_eqb a b = true -> a = b.
Proof.
  fix IH 1. intros [z|l] [z'|l']; simpl; try discriminate.
  - intros H. apply Z.eqb_eq in H. subst. reflexivity.
  - revert l'. induction l as [|x t IHl]; intros [|y t'] H; try discriminate; [reflexivity|].
    apply andb_true_iff in H. destruct H as [H1 H2].
    apply IH in H1. subst y. specialize (IHl t' H2). injection IHl as ->. reflexivity.
Qed.

Lemma sx_eqb_spec a b : sx_eqb a b = true <-> a = b.
Proof. split; [apply sx_eqb_eq|intros ->; apply sx_eqb_refl]. Qed.

Lemma sx_eqb_sym a b : sx_eqb a b = sx_eqb b a.
Proof.
  destruct (sx_eqb a b) eqn:E1, (sx_eqb b a) eqn:E2; try reflexivity.
  - apply sx_eqb_eq in E1. subst. rewrite sx_eqb_refl in E2. discriminate.
  - apply sx_eqb_eq in E2. subst. rewrite sx_eqb_refl in E1. discriminate.
Qed.

(* a sum over a list does not depend on the order *)
Lemma qsum_perm {X} (f : X -> Q) a b : Permutation a b ->
  fold_right (fun x acc => f x + acc) 0 a == fold_right (fun x acc => f x + acc) 0 b.
Proof.
  induction 1 as [|x l l' _ IH|x y l|l l' l'' _ IH1 _ IH2]; simpl; [reflexivity|rewrite IH; reflexivity|ring|].
  rewrite IH1. exact IH2.
Qed.

Section ADD.
  Context {K : Type}.
  Variable keqb : K -> K -> bool.
  Hypothesis keqb_spec : forall a b, keqb a b = true <-> a = b.

  Notation gget := (gget keqb).
  Notation gadd := (gadd keqb).
  Notation conv := (conv keqb).

  Lemma keqb_refl a : keqb a a = true.
  Proof. apply keqb_spec. reflexivity. Qed.

  Lemma keqb_other k k0 k' : keqb k k0 = false -> keqb k' k0 = true -> keqb k' k = false.
  Proof.
    intros E E2. apply keqb_spec in E2. subst k0. destruct (keqb k' k) eqn:E3; [|reflexivity].
    apply keqb_spec in E3. subst k'. rewrite keqb_refl in E. discriminate.
  Qed.

  Lemma gget_gadd d k x k' : gget (gadd d k x) k' == gget d k' + (if keqb k' k then x else 0).
  Proof.
    induction d as [|[k0 v] d IH]; simpl.
    - destruct (keqb k' k); ring.
    - destruct (keqb k k0) eqn:E; simpl.
      + apply keqb_spec in E. subst k0. destruct (keqb k' k); ring.
      + destruct (keqb k' k0) eqn:E2.
        * rewrite (keqb_other k k0 k' E E2). ring.
        * exact IH.
  Qed.

  Lemma gadd_keys d k x k' : In k' (map fst (gadd d k x)) <-> k' = k \/ In k' (map fst d).
  Proof.
    induction d as [|[k0 v] d IH]; simpl.
    - split; intros [H|[]]; left; symmetry; exact H.
    - destruct (keqb k k0) eqn:E; simpl; [|tauto].
      apply keqb_spec in E. subst k0. split; [intros H; right; exact H|intros [H|H]; [left; symmetry; exact H|exact H]].
  Qed.

  Lemma gadd_nodup d k x : NoDup (map fst d) -> NoDup (map fst (gadd d k x)).
  Proof.
    induction d as [|[k0 v] d IH]; simpl; intros H.
    - constructor; [intros []|constructor].
    - inversion H as [|? ? Hk Hd]; subst. destruct (keqb k k0) eqn:E; simpl.
      + constructor; assumption.
      + constructor; [|apply IH, Hd]. rewrite gadd_keys. intros [->|Hin]; [|tauto].
        assert (keqb k k = true) by (apply keqb_spec; reflexivity). congruence.
  Qed.

  (* total coefficient a ballot image gives to key k *)
  Definition coef (img : list (K * Q)) (k : K) : Q :=
    fold_right (fun kc acc => (if keqb k (fst kc) then snd kc else 0) + acc) 0 img.

  Lemma fold_image img w : forall d k,
    gget (fold_left (fun acc kc => gadd acc (fst kc) (snd kc * w)) img d) k == gget d k + w * coef img k.
  Proof.
    induction img as [|[k0 c] img IH]; intros d k; simpl; [ring|].
    rewrite IH, gget_gadd. simpl. destruct (keqb k k0); ring.
  Qed.

  Lemma coef_app a b k : coef (a ++ b) k == coef a k + coef b k.
  Proof. induction a as [|x a IH]; simpl; [ring|]. rewrite IH. ring. Qed.

  Lemma coef_absent img k : ~ In k (map fst img) -> coef img k = 0.
  Proof.
    induction img as [|[k0 c] img IH]; simpl; intros H; [reflexivity|].
    destruct (keqb k k0) eqn:E.
    - apply keqb_spec in E. subst. tauto.
    - rewrite IH by tauto. reflexivity.
  Qed.

  Section CONV.
    Context {B : Type}.
    Variable image : B -> list (K * Q).

    Definition total (votes : list (B * Q)) (k : K) : Q :=
      fold_right (fun bw acc => snd bw * coef (image (fst bw)) k + acc) 0 votes.

    Lemma conv_from votes : forall d k,
      gget (fold_left (fun acc bw =>
              fold_left (fun acc kc => gadd acc (fst kc) (snd kc * snd bw)) (image (fst bw)) acc) votes d) k
      == gget d k + total votes k.
    Proof.
      induction votes as [|[b w] votes IH]; intros d k; simpl; [ring|].
      rewrite IH, fold_image. simpl. ring.
    Qed.

    (* every converted count is the weighted sum of the per-ballot images *)
    Theorem conv_value votes k : gget (conv image votes) k == total votes k.
    Proof. unfold GDict.conv. rewrite conv_from. simpl. ring. Qed.

    Lemma total_app a b k : total (a ++ b) k == total a k + total b k.
    Proof. induction a as [|x a IH]; simpl; [ring|]. rewrite IH. ring. Qed.

    (* converting the union of two profiles = the sum of their conversions *)
    Theorem conv_additive a b k :
      gget (conv image (a ++ b)) k == gget (conv image a) k + gget (conv image b) k.
    Proof. rewrite !conv_value. apply total_app. Qed.

    (* a single ballot converts to exactly its image, scaled by its weight *)
    Theorem conv_single b w k : gget (conv image [(b, w)]) k == w * coef (image b) k.
    Proof. rewrite conv_value. simpl. ring. Qed.

    (* the order of the ballots is irrelevant *)
    Theorem conv_perm a b k : Permutation a b ->
      gget (conv image a) k == gget (conv image b) k.
    Proof.
      intros H. rewrite !conv_value. exact (qsum_perm (fun bw => snd bw * coef (image (fst bw)) k) a b H).
    Qed.

    Definition conv_step (acc : list (K * Q)) (bw : B * Q) : list (K * Q) :=
      fold_left (fun acc kc => gadd acc (fst kc) (snd kc * snd bw)) (image (fst bw)) acc.

    Lemma image_keys img w : forall d k,
      In k (map fst (fold_left (fun acc (kc : K * Q) => gadd acc (fst kc) (snd kc * w)) img d))
      <-> In k (map fst d) \/ In k (map fst img).
    Proof.
      induction img as [|[k0 c] img IH]; intros d k; simpl; [tauto|].
      rewrite IH, gadd_keys. simpl. split; [intros [[H|H]|H]|intros [H|[H|H]]]; auto.
    Qed.

    Lemma image_nodup img w : forall d, NoDup (map fst d) ->
      NoDup (map fst (fold_left (fun acc (kc : K * Q) => gadd acc (fst kc) (snd kc * w)) img d)).
    Proof. induction img as [|[k0 c] img IH]; intros d H; simpl; [exact H|]. apply IH, gadd_nodup, H. Qed.

    Lemma conv_keys_from votes : forall d k,
      In k (map fst (fold_left conv_step votes d))
      <-> In k (map fst d) \/ exists bw, In bw votes /\ In k (map fst (image (fst bw))).
    Proof.
      induction votes as [|bw votes IH]; intros d k; simpl.
      - split; [auto|intros [H|(x & [] & _)]; exact H].
      - rewrite IH. unfold conv_step. rewrite image_keys. split.
        + intros [[H|H]|(x & Hx & Hk)]; [left; exact H|right; exists bw; auto|right; exists x; auto].
        + intros [H|(x & [->|Hx] & Hk)]; [auto|auto|right; exists x; auto].
    Qed.

    Lemma conv_keys votes k :
      In k (map fst (conv image votes)) <-> exists bw, In bw votes /\ In k (map fst (image (fst bw))).
    Proof.
      unfold GDict.conv. change (fold_left _ votes []) with (fold_left conv_step votes []).
      rewrite conv_keys_from. simpl. tauto.
    Qed.

    Lemma conv_nodup votes : NoDup (map fst (conv image votes)).
    Proof.
      unfold GDict.conv. change (fold_left _ votes []) with (fold_left conv_step votes []).
      assert (H : forall d, NoDup (map fst d) -> NoDup (map fst (fold_left conv_step votes d))).
      { induction votes as [|bw votes IH]; intros d Hd; simpl; [exact Hd|]. apply IH. apply image_nodup, Hd. }
      apply H. constructor.
    Qed.
  End CONV.

  Definition gsum (d : list (K * Q)) : Q := fold_right (fun kv acc => snd kv + acc) 0 d.

  Lemma gsum_gadd d k x : gsum (gadd d k x) == gsum d + x.
  Proof.
    induction d as [|[k0 v] d IH]; simpl; [ring|].
    destruct (keqb k k0); simpl; [ring|]. rewrite IH. ring.
  Qed.

  Definition isum (img : list (K * Q)) : Q := fold_right (fun kc acc => snd kc + acc) 0 img.

  Theorem conv_total_weight {B} (image : B -> list (K * Q)) votes :
    gsum (conv image votes) == fold_right (fun bw acc => snd bw * isum (image (fst bw)) + acc) 0 votes.
  Proof.
    unfold GDict.conv.
    assert (H : forall vs d, gsum (fold_left (fun acc (bw : B * Q) =>
                  fold_left (fun acc kc => gadd acc (fst kc) (snd kc * snd bw)) (image (fst bw)) acc) vs d)
                == gsum d + fold_right (fun bw acc => snd bw * isum (image (fst bw)) + acc) 0 vs).
    { induction vs as [|[b w] vs IH]; intros d; simpl; [ring|]. rewrite IH.
      assert (H2 : forall img d0, gsum (fold_left (fun acc kc => gadd acc (fst kc) (snd kc * w)) img d0) == gsum d0 + w * isum img).
      { induction img as [|[k c] img IHi]; intros d0; simpl; [ring|]. rewrite IHi, gsum_gadd. simpl. ring. }
      rewrite H2. simpl. ring. }
    rewrite H. simpl. ring.
  Qed.

  (* where the image is one item per ballot, total weight is conserved *)
  Corollary conv_conserves {B} (image : B -> list (K * Q)) votes :
    (forall b, isum (image b) == 1) ->
    gsum (conv image votes) == fold_right (fun bw acc => snd bw + acc) 0 votes.
  Proof.
    intros H1. rewrite conv_total_weight. induction votes as [|[b w] votes IH]; simpl; [reflexivity|].
    rewrite IH, H1. ring.
  Qed.
End ADD.
