(* Approval family (Model/Cardinal.v): PAV optimality, SPAV rounds. *)
From Coq Require Import ZArith QArith List Bool Arith Lia Lqa Permutation.
From VL Require Import Prelude.PyDict Model.GetNBest Model.Convert Model.Cardinal
     Proofs.GetNBest_proofs Proofs.QOrd Proofs.Dict_proofs.
From VL Require Proofs.Threshold_proofs.
Import ListNotations.
Open Scope Q_scope.

(* itertools.combinations: every n-element sub-sequence, each once *)
Inductive subseq {X} : list X -> list X -> Prop :=
| ss_nil l : subseq [] l
| ss_take x s l : subseq s l -> subseq (x :: s) (x :: l)
| ss_skip x s l : subseq s l -> subseq s (x :: l).

Theorem combos_complete l : forall n s, subseq s l -> length s = n -> In s (combos l n).
Proof.
  induction l as [|x l IH]; intros n s Hs Hl.
  - inversion Hs; subst. simpl. left. reflexivity.
  - destruct n as [|n].
    + destruct s; [simpl; left; reflexivity|discriminate].
    + simpl. apply in_or_app. inversion Hs as [|y s' l' Hs'|y s' l' Hs']; subst.
      * discriminate.
      * left. apply in_map. apply IH; [exact Hs'|simpl in Hl; lia].
      * right. apply IH; [exact Hs'|exact Hl].
Qed.

Theorem combos_sound l : forall n s, In s (combos l n) -> subseq s l /\ length s = n.
Proof.
  induction l as [|x l IH]; intros [|n] s Hin; simpl in Hin.
  - destruct Hin as [<-|[]]. split; [constructor|reflexivity].
  - destruct Hin.
  - destruct Hin as [<-|[]]. split; [constructor|reflexivity].
  - apply in_app_or in Hin. destruct Hin as [Hin|Hin].
    + apply in_map_iff in Hin. destruct Hin as (s' & <- & Hs'). destruct (IH n s' Hs') as [H1 H2].
      split; [constructor; exact H1|simpl; lia].
    + destruct (IH (S n) s Hin) as [H1 H2]. split; [constructor; exact H1|exact H2].
Qed.

Lemma fold_max_ge (l : list (list C * Q)) : forall b0,
  let best := fold_left (fun b sa => if Qle_bool b (snd sa) then snd sa else b) l b0 in
  b0 <= best /\ Forall (fun sa => snd sa <= best) l.
Proof.
  induction l as [|x l IH]; intros b0; cbn [fold_left]; [split; [lra|constructor]|].
  destruct (Qle_bool b0 (snd x)) eqn:E.
  - apply Qle_bool_iff in E. destruct (IH (snd x)) as (H1 & H2). split; [lra|]. constructor; [exact H1|exact H2].
  - apply Qle_bool_false in E. destruct (IH b0) as (H1 & H2). split; [exact H1|]. constructor; [lra|exact H2].
Qed.

(* the committee PAV returns maximises the harmonic satisfaction over all n-subsets, uniquely *)
Theorem pav_best_optimal votes cands n alt :
  pav_best votes cands n = [alt] ->
  In alt (combos cands n) /\
  forall s, subseq s cands -> length s = n ->
    satisfaction votes s <= satisfaction votes alt /\ (satisfaction votes s == satisfaction votes alt -> s = alt).
Proof.
  unfold pav_best. set (scored := map (fun a => (a, satisfaction votes a)) (combos cands n)).
  destruct scored as [|[a0 s0] rest] eqn:Es; [discriminate|].
  rewrite <- Es. clear Es rest a0.
  destruct (fold_max_ge scored s0) as (_ & H2). set (best := fold_left _ scored s0) in *.
  (* the answer lists the combinations whose satisfaction equals the maximum of the scan *)
  assert (Hmem : forall a, In a (map fst (filter (fun sa : list C * Q => Qeq_bool (snd sa) best) scored)) <->
                           In a (combos cands n) /\ satisfaction votes a == best).
  { intros a. unfold scored. rewrite in_map_iff. split.
    - intros ([a' s] & <- & Hi). apply filter_In in Hi. destruct Hi as [Hi Hb]. apply in_map_iff in Hi.
      destruct Hi as (a'' & [= -> <-] & Hc). split; [exact Hc|apply Qeq_bool_iff, Hb].
    - intros [Hc Hb]. exists (a, satisfaction votes a). split; [reflexivity|]. apply filter_In.
      split; [exact (in_map (fun a => (a, satisfaction votes a)) _ _ Hc)|apply Qeq_bool_iff, Hb]. }
  intros Hf. rewrite Hf in Hmem. destruct (proj1 (Hmem alt) (or_introl eq_refl)) as [Hc Hbest].
  split; [exact Hc|]. intros s Hs Hl. pose proof (combos_complete cands n s Hs Hl) as Hcs.
  rewrite Forall_forall in H2. pose proof (H2 _ (in_map (fun a => (a, satisfaction votes a)) _ _ Hcs)) as Hle. cbn [snd] in Hle.
  split; [lra|]. intros Heq. assert (Hsb : satisfaction votes s == best) by lra.
  destruct (proj2 (Hmem s) (conj Hcs Hsb)) as [<-|[]]. reflexivity.
Qed.

(* sequential PAV: the loop only appends to the list of the elected *)
Theorem spav_round_rule votes : forall fuel n elected r,
  spav_loop fuel votes n elected = Some r ->
  exists added, r = elected ++ added.
Proof.
  induction fuel as [|f IH]; intros n elected r; simpl.
  - destruct (Nat.leb n (length elected)); intros [= <-]; exists []; rewrite app_nil_r; reflexivity.
  - destruct (Nat.leb n (length elected)); [intros [= <-]; exists []; rewrite app_nil_r; reflexivity|].
    destruct (get_n_best Qle_bool (spav_round votes elected) 1) as [|[c|t] rest]; try discriminate.
    + intros [= <-]. exists []. rewrite app_nil_r. reflexivity.
    + intros H. destruct (IH _ _ _ H) as [added ->]. exists (c :: added). rewrite <- app_assoc. reflexivity.
Qed.

Lemma spav_round_nodup votes elected : NoDup (map fst (spav_round votes elected)).
Proof.
  unfold spav_round. apply Threshold_proofs.filter_keys_NoDup.
  apply (fold_left_inv (fun d : list (C * Q) => NoDup (map fst d))); [|constructor]. intros d bw _ Hd. cbv zeta.
  apply (fold_left_inv (fun d : list (C * Q) => NoDup (map fst d))); [|exact Hd]. intros d' c _ Hd'. apply dset_nodup, Hd'.
Qed.

(* each SPAV round elects the candidate whose reweighted approval is strictly greatest *)
Theorem spav_round_argmax votes elected c rest :
  get_n_best Qle_bool (spav_round votes elected) 1 = Cand c :: rest ->
  rest = [] /\ exists v, In (c, v) (spav_round votes elected) /\
    forall c' v', In (c', v') (spav_round votes elected) -> c' <> c -> (v' < v)%Q.
Proof.
  intros H.
  destruct (get_n_best_1_cand Qle_bool Qle_bool_total Qle_bool_trans (spav_round votes elected) c rest
              (spav_round_nodup votes elected) H) as (Hr & v & Hin & Hmax).
  split; [exact Hr|]. exists v. split; [exact Hin|]. intros c' v' Hin' Hne.
  specialize (Hmax c' v' Hin' Hne). unfold GetNBest.ltb in Hmax. apply negb_true_iff in Hmax.
  apply Qnot_le_lt. intros Hle. apply Qle_bool_iff in Hle. congruence.
Qed.
