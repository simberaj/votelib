(* Highest averages does not depend on the order in which the parties are listed (C10).
   [step_shape]: one iteration written with the batch of level quotients as a list, re-insertion as the
   order-insensitive [reins]; then a simulation between the runs on two permutations of the votes:
   queues are permutations of each other (both sorted), totals agree pointwise, reported ties are permutations of each other. *)
From Coq Require Import ZArith QArith List Bool Lia Lqa Permutation.
From VL Require Import Prelude.PyDict Model.GetNBest Model.HighestAverages Proofs.Dict_proofs Proofs.GetNBest_proofs Proofs.HA_proofs.
Import ListNotations.
Open Scope Z_scope.

Section Shape.
  Variable d : Z -> Q.
  Variable votes : list (C * Q).
  Variable caps : list (C * Z).
  Variable prev : list (C * Z).
  Variable n : Z.
  Hypothesis Hpos : forall k, 0 <= k -> (0 < d k)%Q.
  Hypothesis Hmono : forall k, 0 <= k -> (d k <= d (k + 1)%Z)%Q.
  Hypothesis Hvotes : forall c v, In (c, v) votes -> (0 <= v)%Q.

  Notation cap := (cap_of caps n).
  Notation Inv1 := (Inv d votes caps prev n).

  Definition levelb (m : Q) (y : qitem) : bool := Qeq_bool (snd y) m.

  Lemma levelb_ext m m' y : (m == m')%Q -> levelb m y = levelb m' y.
  Proof.
    intros H. unfold levelb. apply eq_true_iff_eq. rewrite !Qeq_bool_iff, H. reflexivity.
  Qed.

  Lemma step_shape s : Inv1 s -> 0 < st_rem s -> st_qs s <> [] ->
    exists c0 m qs' batch rest,
      st_qs s = (c0, m) :: qs' /\ st_qs s = batch ++ rest /\ batch <> [] /\
      batch = filter (levelb m) (st_qs s) /\ rest = filter (fun y => negb (levelb m y)) (st_qs s) /\
      let t' := fold_left incr (map fst (rev batch)) (st_totals s) in
      step d votes caps n s =
        if Z.of_nat (length batch) <=? st_rem s
        then mk_state (reins d votes caps n t' batch rest) t' (st_rem s - Z.of_nat (length batch)) None (st_awards s ++ rev batch)
        else mk_state (reins d votes caps n (st_totals s) batch rest) (st_totals s) 0
                      (Some (map fst (rev batch), st_rem s)) (st_awards s).
  Proof.
    intros I _ Hne.
    destruct (step_open d votes caps prev n Hpos Hmono Hvotes s I Hne)
      as (m & batch & rest & Hqs & Hbne & _ & Hlev & Hrest & _ & _ & _ & _ & Hstep).
    destruct batch as [|[c0 m0] batch'] eqn:Eb; [congruence|]. rewrite <- Eb in *. clear Hbne.
    (* the head of the queue is at the level of the batch *)
    assert (Hm : forall y, levelb m0 y = levelb m y).
    { intros y. apply levelb_ext. apply (Hlev (c0, m0)). rewrite Eb. left. reflexivity. }
    assert (Hb : Forall (fun y => levelb m0 y = true) batch).
    { apply Forall_forall. intros y Hy. rewrite Hm. apply Qeq_bool_iff, Hlev, Hy. }
    assert (Hr : Forall (fun y => levelb m0 y = false) rest).
    { apply Forall_forall. intros y Hy. rewrite Hm. apply not_true_iff_false. intros E. apply (Hrest y Hy), Qeq_bool_iff, E. }
    exists c0, m0, (batch' ++ rest), batch, rest.
    split; [rewrite Hqs, Eb; reflexivity|]. split; [exact Hqs|]. split; [rewrite Eb; discriminate|].
    rewrite Hqs, !filter_app. split; [|split; [|exact Hstep]].
    - rewrite (filter_all _ batch Hb), (filter_none _ rest Hr). symmetry. apply app_nil_r.
    - rewrite filter_none, filter_all; [reflexivity| |].
      + eapply Forall_impl; [|exact Hr]. intros y Hy. rewrite Hy. reflexivity.
      + eapply Forall_impl; [|exact Hb]. intros y Hy. rewrite Hy. reflexivity.
  Qed.
End Shape.

Lemma flat_map_perm_ext {X Y} (f g : X -> list Y) l l' : (forall x, f x = g x) -> Permutation l l' ->
  Permutation (flat_map f l) (flat_map g l').
Proof. intros Hfg Hp. rewrite (flat_map_ext f g Hfg). apply Permutation_flat_map, Hp. Qed.

Lemma perm_filter_ext {X} (f g : X -> bool) l l' : (forall x, f x = g x) -> Permutation l l' ->
  Permutation (filter f l) (filter g l').
Proof. intros Hfg Hp. rewrite (filter_ext f g Hfg). apply Permutation_filter', Hp. Qed.

Lemma perm_nodup_keys {K X} (l l' : list (K * X)) : NoDup (map fst l) -> Permutation l l' -> NoDup (map fst l').
Proof. intros H Hp. eapply Permutation_NoDup; [apply Permutation_map, Hp|exact H]. Qed.

Lemma dget_perm {X} (l l' : list (C * X)) c : NoDup (map fst l) -> Permutation l l' -> dget l c = dget l' c.
Proof.
  intros Hnd Hp. pose proof (perm_nodup_keys l l' Hnd Hp) as Hnd'.
  destruct (dget l c) as [v|] eqn:E.
  - symmetry. apply In_dget; [exact Hnd'|]. apply (Permutation_in _ Hp). apply dget_In. exact E.
  - destruct (dget l' c) as [v'|] eqn:E'; [|reflexivity].
    apply dget_In in E'. apply (Permutation_in _ (Permutation_sym Hp)) in E'.
    rewrite (In_dget l c v' Hnd E') in E. discriminate.
Qed.

Lemma count_perm c l l' : Permutation l l' -> count c l = count c l'.
Proof.
  induction 1 as [|x l l' _ IH|x y l|l l' l'' _ IH1 _ IH2]; simpl; try lia.
Qed.

Inductive tie_eq : option (list C * Z) -> option (list C * Z) -> Prop :=
| tie_none : tie_eq None None
| tie_some T T' r : Permutation T T' -> tie_eq (Some (T, r)) (Some (T', r)).

Section Perm.
  Variable d : Z -> Q.
  Variables votes votes' : list (C * Q).
  Variable caps : list (C * Z).
  Variable prev : list (C * Z).
  Variable n : Z.
  Hypothesis Hpos : forall k, 0 <= k -> (0 < d k)%Q.
  Hypothesis Hmono : forall k, 0 <= k -> (d k <= d (k + 1)%Z)%Q.
  Hypothesis Hvotes : forall c v, In (c, v) votes -> (0 <= v)%Q.
  Hypothesis Hnd : NoDup (map fst votes).
  Hypothesis Hprev : forall c, 0 <= dget_or prev c 0.
  Hypothesis Hperm : Permutation votes votes'.

  Lemma Hvotes' : forall c v, In (c, v) votes' -> (0 <= v)%Q.
  Proof. intros c v H. apply (Hvotes c v). apply (Permutation_in _ (Permutation_sym Hperm)). exact H. Qed.
  Lemma Hnd' : NoDup (map fst votes').
  Proof. exact (perm_nodup_keys votes votes' Hnd Hperm). Qed.

  Notation InvA := (Inv d votes caps prev n).
  Notation InvB := (Inv d votes' caps prev n).

  Record Rp (s s' : state) : Prop := {
    rp_q : Permutation (st_qs s) (st_qs s');
    rp_t : forall c, tot s c = tot s' c;
    rp_r : st_rem s = st_rem s';
    rp_tie : tie_eq (st_tie s) (st_tie s');
    rp_a : Permutation (st_awards s) (st_awards s')
  }.

  Lemma newq_ext t t' b : (forall c, tot_of t c = tot_of t' c) ->
    newq d votes caps n t b = newq d votes' caps n t' b.
  Proof. intros H. unfold newq. rewrite (H (fst b)), (dget_perm votes votes' (fst b) Hnd Hperm). reflexivity. Qed.

  Lemma reins_rel t t' batch batch' rest rest' : (forall c, tot_of t c = tot_of t' c) ->
    Permutation batch batch' -> Permutation rest rest' ->
    Permutation (reins d votes caps n t batch rest) (reins d votes' caps n t' batch' rest').
  Proof.
    intros Ht Hb Hr. rewrite (reins_perm d votes caps n t batch rest), (reins_perm d votes' caps n t' batch' rest').
    apply Permutation_app; [|exact Hr]. apply flat_map_perm_ext; [intros x; apply newq_ext, Ht|exact Hb].
  Qed.

  Lemma head_eq c0 m qs c0' m' qs' : sortedq ((c0, m) :: qs) -> sortedq ((c0', m') :: qs') ->
    Permutation ((c0, m) :: qs) ((c0', m') :: qs') -> (m == m')%Q.
  Proof.
    intros S1 S2 Hp.
    pose proof (head_max c0 m qs S1) as M1. pose proof (head_max c0' m' qs' S2) as M2.
    rewrite Forall_forall in M1, M2.
    assert (H1 : (m <= m')%Q).
    { apply (M2 (c0, m)). apply (Permutation_in _ Hp). left. reflexivity. }
    assert (H2 : (m' <= m)%Q).
    { apply (M1 (c0', m')). apply (Permutation_in _ (Permutation_sym Hp)). left. reflexivity. }
    lra.
  Qed.

  Lemma step_rel s s' : InvA s -> InvB s' -> Rp s s' -> 0 < st_rem s -> st_qs s <> [] ->
    Rp (step d votes caps n s) (step d votes' caps n s').
  Proof.
    intros IA IB [Rq Rt Rr Rtie Ra] Hrem Hne.
    assert (Hne' : st_qs s' <> []).
    { intros E. rewrite E in Rq. apply Permutation_sym, Permutation_nil in Rq. contradiction. }
    assert (Hrem' : 0 < st_rem s') by lia.
    destruct (step_shape d votes caps prev n Hpos Hmono Hvotes s IA Hrem Hne)
      as (c0 & m & q1 & batch & rest & Eh & Eq & _ & Eb & Er & Es).
    destruct (step_shape d votes' caps prev n Hpos Hmono Hvotes' s' IB Hrem' Hne')
      as (c0' & m' & q1' & batch' & rest' & Eh' & Eq' & _ & Eb' & Er' & Es').
    cbv zeta in Es, Es'. rewrite Es, Es'. clear Es Es'.
    assert (Hm : (m == m')%Q).
    { apply (head_eq c0 m q1 c0' m' q1'); [rewrite <- Eh; exact (inv_sorted _ _ _ _ _ _ IA)|rewrite <- Eh'; exact (inv_sorted _ _ _ _ _ _ IB)|].
      rewrite <- Eh, <- Eh'. exact Rq. }
    assert (Hb : Permutation batch batch').
    { rewrite Eb, Eb'. apply perm_filter_ext; [intros y; apply levelb_ext, Hm|exact Rq]. }
    assert (Hr : Permutation rest rest').
    { rewrite Er, Er'. apply perm_filter_ext; [intros y; f_equal; apply levelb_ext, Hm|exact Rq]. }
    rewrite <- Rr, <- (Permutation_length Hb).
    assert (Hkeys : Permutation (map fst (rev batch)) (map fst (rev batch'))).
    { apply Permutation_map. rewrite <- !Permutation_rev. exact Hb. }
    destruct (Z.of_nat (length batch) <=? st_rem s).
    - assert (Ht' : forall c, tot_of (fold_left incr (map fst (rev batch)) (st_totals s)) c
                             = tot_of (fold_left incr (map fst (rev batch')) (st_totals s')) c).
      { intros c. rewrite !tot_fold_incr, (count_perm c _ _ Hkeys). specialize (Rt c). unfold tot in Rt. unfold tot_of. lia. }
      constructor; cbn [st_qs st_totals st_rem st_tie st_awards].
      + apply reins_rel; assumption.
      + intros c. unfold tot. cbn [st_totals]. apply Ht'.
      + reflexivity.
      + constructor.
      + apply Permutation_app; [exact Ra|]. rewrite <- !Permutation_rev. exact Hb.
    - constructor; cbn [st_qs st_totals st_rem st_tie st_awards].
      + apply reins_rel; [intros c; apply (Rt c)|exact Hb|exact Hr].
      + exact Rt.
      + reflexivity.
      + constructor. exact Hkeys.
      + exact Ra.
  Qed.

  Lemma loop_rel fuel : forall s s', InvA s -> InvB s' -> Rp s s' ->
    Rp (loop d votes caps n fuel s) (loop d votes' caps n fuel s').
  Proof.
    induction fuel as [|f IH]; intros s s' IA IB R; simpl; [exact R|].
    pose proof (rp_r _ _ R) as Rr. pose proof (rp_q _ _ R) as Rq. rewrite <- Rr.
    destruct (0 <? st_rem s) eqn:E1; simpl; [|exact R].
    destruct (st_qs s) as [|x qs] eqn:E2; destruct (st_qs s') as [|x' qs'] eqn:E2'; simpl.
    - exact R.
    - apply Permutation_nil in Rq. discriminate.
    - apply Permutation_sym, Permutation_nil in Rq. discriminate.
    - apply Z.ltb_lt in E1.
      assert (Hne : st_qs s <> []) by (rewrite E2; discriminate).
      assert (Hne' : st_qs s' <> []) by (rewrite E2'; discriminate).
      apply IH.
      + apply (step_inv d votes caps prev n Hpos Hmono Hvotes); assumption.
      + apply (step_inv d votes' caps prev n Hpos Hmono Hvotes'); [assumption|lia|assumption].
      + apply step_rel; assumption.
  Qed.

  Lemma init_rel : Rp (init_state d votes n prev caps) (init_state d votes' n prev caps).
  Proof.
    constructor; unfold init_state; cbn [st_qs st_totals st_rem st_tie st_awards]; try reflexivity.
    - rewrite !(initial_quotients_eq d _ caps prev n).
      rewrite <- !Permutation_rev, !sort_asc_perm. apply Permutation_flat_map. exact Hperm.
    - constructor.
  Qed.

  Theorem ha_perm :
    (forall c, tot (final_state d votes n prev caps) c = tot (final_state d votes' n prev caps) c) /\
    tie_eq (st_tie (final_state d votes n prev caps)) (st_tie (final_state d votes' n prev caps)) /\
    st_rem (final_state d votes n prev caps) = st_rem (final_state d votes' n prev caps).
  Proof.
    assert (R : Rp (final_state d votes n prev caps) (final_state d votes' n prev caps)).
    { unfold final_state. cbn [init_state st_rem]. apply loop_rel.
      - apply init_inv; assumption.
      - apply init_inv; [assumption|apply Hnd'|assumption].
      - apply init_rel. }
    destruct R as [_ Rt Rr Rtie _]. auto.
  Qed.
End Perm.
