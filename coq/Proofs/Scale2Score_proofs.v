(* Scale invariance (C11) of the score family (Model/Cardinal.v): ScoreToSimpleVotes / ScoreVoting with the sum, mean
   and low-median aggregates, and MajorityJudgment.  Score profiles carry integer ballot counts; the k-fold
   profile has every count multiplied by the positive integer k.  The per-candidate (score -> count) dictionaries
   are then k-fold, so the materialised per-voter list is [dup k] of the original one (Scale2Dup_proofs.v):
   mean, low median and the minimum are unchanged, the sum is k-fold.
   Scale-free configurations: min_count = 0 (a positive min_count is an absolute number of votes), any
   unscored_value (none / constant / minimum), truncation <= 0 (none) or a FRACTION in (0, 1) that cuts a whole
   number of votes (floor (n_votes * t) = n_votes * t: otherwise the k-fold electorate cuts proportionally more);
   an absolute truncation count (>= 1) is not scale-free.  Witnesses of the three failures: [Props/C11.v]. *)
From Coq Require Import ZArith QArith Qround List Bool Arith Lia Lqa.
From VL Require Import Prelude.PyDict Model.GetNBest Model.Convert Model.Cardinal
     Proofs.Dict_proofs Proofs.GetNBest_proofs Proofs.QOrd Proofs.LRScale_proofs Proofs.STVScale_proofs
     Proofs.Scale2Dup_proofs.
Import ListNotations.

Definition scale_z {B} (k : Z) (votes : list (B * Z)) : list (B * Z) := map (fun bn => (fst bn, (k * snd bn)%Z)) votes.

Definition sumrel {A B} (R : A -> B -> Prop) (x : A + serr) (y : B + serr) : Prop :=
  match x, y with
  | inl a, inl b => R a b
  | inr e, inr e' => e = e'
  | _, _ => False
  end.

Lemma sumrel_bind {A A' B B'} (R : A -> A' -> Prop) (R' : B -> B' -> Prop) x x' (f : A -> B + serr) (f' : A' -> B' + serr) :
  sumrel R x x' -> (forall a a', R a a' -> sumrel R' (f a) (f' a')) ->
  sumrel R' match x with inl a => f a | inr e => inr e end match x' with inl a => f' a | inr e => inr e end.
Proof. intros H Hf. destruct x, x'; cbn [sumrel] in H; try contradiction; [apply Hf, H|exact H]. Qed.

Section DictRel.
  Context {V W : Type}.
  Variable R : V -> W -> Prop.

  Lemma dget_lrel (d : list (C * V)) (d' : list (C * W)) c : lrel R d d' -> orel R (dget d c) (dget d' c).
  Proof.
    intros H. induction H as [|[c0 v] [c0' v'] d d' [Hc Hv] Hd IH]; cbn [dget]; [exact I|].
    cbn [fst snd] in Hc, Hv. subst c0'. destruct (ceqb c c0); [exact Hv|exact IH].
  Qed.

  Lemma sequence_rel {X} (l : list (X * (V + serr))) (l' : list (X * (W + serr))) :
    Forall2 (fun x y => fst x = fst y /\ sumrel R (snd x) (snd y)) l l' -> sumrel (lrel (K := X) R) (sequence l) (sequence l').
  Proof.
    intros H. induction H as [|[x a] [x' a'] l l' [Hx Ha] Hl IH]; cbn [sequence]; [constructor|].
    cbn [fst snd] in Hx, Ha. subst x'. destruct a as [a|e], a' as [a'|e']; cbn [sumrel] in Ha; try contradiction.
    - destruct (sequence l) as [r|e], (sequence l') as [r'|e']; cbn [sumrel] in IH |- *; try contradiction; [|exact IH].
      constructor; [split; [reflexivity|exact Ha]|exact IH].
    - exact Ha.
  Qed.
End DictRel.

Section ScoreScale.
  Variable k : Z.
  Hypothesis Hk : (0 < k)%Z.

  Definition zsc (n n' : Z) : Prop := n' = (k * n)%Z.
  Definition crel : cscores -> cscores -> Prop := lrel (K := Q) zsc.
  Definition screl : list (C * cscores) -> list (C * cscores) -> Prop := lrel (K := C) crel.
  Notation kn := (Z.to_nat k).

  Lemma kn_pos : (1 <= kn)%nat.
  Proof. lia. Qed.

  Lemma cs_get_rel d d' s : crel d d' -> cs_get d' s = option_map (Z.mul k) (cs_get d s).
  Proof.
    intros H. induction H as [|[s0 n] [s0' n'] d d' [Hs Hn] Hd IH]; cbn [cs_get]; [reflexivity|].
    cbn [fst snd] in Hs, Hn. unfold zsc in Hn. subst s0' n'. destruct (Qeq_bool s s0); [reflexivity|exact IH].
  Qed.

  Lemma cs_get0_rel d d' s : crel d d' ->
    match cs_get d' s with Some n => n | None => 0%Z end = (k * match cs_get d s with Some n => n | None => 0%Z end)%Z.
  Proof. intros H. rewrite (cs_get_rel d d' s H). destruct (cs_get d s); cbn [option_map]; lia. Qed.

  Lemma cs_set_rel d d' s n n' : crel d d' -> zsc n n' -> crel (cs_set d s n) (cs_set d' s n').
  Proof.
    intros H Hx. induction H as [|[s0 m] [s0' m'] d d' [Hs Hm] Hd IH]; cbn [cs_set].
    - constructor; [split; [reflexivity|exact Hx]|constructor].
    - cbn [fst snd] in Hs, Hm. subst s0'. destruct (Qeq_bool s s0).
      + constructor; [split; [reflexivity|exact Hx]|exact Hd].
      + constructor; [split; [reflexivity|exact Hm]|exact IH].
  Qed.

  Lemma fold_add_rel {K} (d d' : list (K * Z)) : lrel zsc d d' -> forall a,
    fold_left Z.add (map snd d') (k * a)%Z = (k * fold_left Z.add (map snd d) a)%Z.
  Proof.
    intros H. induction H as [|y y' d d' [_ Hy] Hd IH]; intros a; cbn [map fold_left]; [reflexivity|].
    unfold zsc in Hy. rewrite Hy, <- Z.mul_add_distr_l. apply IH.
  Qed.

  Lemma fold_add0_rel {K} (d d' : list (K * Z)) : lrel zsc d d' ->
    fold_left Z.add (map snd d') 0%Z = (k * fold_left Z.add (map snd d) 0)%Z.
  Proof. intros H. rewrite <- (fold_add_rel d d' H 0%Z), Z.mul_0_r. reflexivity. Qed.

  Lemma cs_total_rel d d' : crel d d' -> cs_total d' = (k * cs_total d)%Z.
  Proof. apply fold_add0_rel. Qed.

  Lemma to_nat_scale n : Z.to_nat (k * n) = (Z.to_nat n * kn)%nat.
  Proof.
    destruct (Z.le_gt_cases 0 n) as [Hn|Hn].
    - rewrite Z2Nat.inj_mul by lia. lia.
    - replace (Z.to_nat n) with 0%nat by lia. replace (Z.to_nat (k * n)) with 0%nat by nia. reflexivity.
  Qed.

  Lemma expand_rel d d' : crel d d' -> expand d' = dup kn (expand d).
  Proof.
    intros H. unfold expand. induction H as [|[s n] [s' n'] d d' [Hs Hn] Hd IH]; cbn [flat_map]; [reflexivity|].
    cbn [fst snd] in *. subst s'. unfold zsc in Hn. subst n'. rewrite dup_app, IH, dup_repeat, to_nat_scale. reflexivity.
  Qed.

  Definition sprel : sprofile -> sprofile -> Prop := lrel (K := sballot) zsc.

  Definition raw_step (n : Z) (d : list (C * cscores)) (cs : C * Q) : list (C * cscores) :=
    let old := match dget d (fst cs) with Some x => x | None => [] end in
    dset d (fst cs) (cs_set old (snd cs) (match cs_get old (snd cs) with Some j => j | None => 0%Z end + n)).

  Lemma raw_scores_unfold votes :
    raw_scores votes = fold_left (fun d bn => fold_left (raw_step (snd bn)) (fst bn) d) votes [].
  Proof. reflexivity. Qed.

  Lemma raw_step_rel n n' d d' cs : zsc n n' -> screl d d' -> screl (raw_step n d cs) (raw_step n' d' cs).
  Proof.
    intros Hn Hd. unfold raw_step. cbv zeta.
    pose proof (dget_lrel crel d d' (fst cs) Hd) as Hg.
    assert (Ho : crel match dget d (fst cs) with Some x => x | None => [] end match dget d' (fst cs) with Some x => x | None => [] end).
    { destruct (dget d (fst cs)), (dget d' (fst cs)); cbn [orel] in Hg; try contradiction; [exact Hg|constructor]. }
    apply dset_lrel; [exact Hd|]. apply cs_set_rel; [exact Ho|].
    unfold zsc in *. rewrite (cs_get0_rel _ _ (snd cs) Ho), Hn. lia.
  Qed.

  Lemma raw_scores_rel v v' : sprel v v' -> screl (raw_scores v) (raw_scores v').
  Proof.
    intros H. rewrite !raw_scores_unfold. apply fold_left_rel with (RB := prel zsc); [|exact H|constructor].
    intros d d' bn bn' Hd [Hb Hn]. rewrite <- Hb. apply fold_left_rel_same; [|exact Hd].
    intros e e' cs He. apply raw_step_rel; assumption.
  Qed.

  Lemma subtract_lowest_rel keys : forall d d' cutoff cut, crel d d' ->
    orel crel (subtract_lowest d keys cutoff cut) (subtract_lowest d' keys (k * cutoff) (k * cut)).
  Proof.
    induction keys as [|s t IH]; intros d d' cutoff cut H; cbn [subtract_lowest]; [exact H|].
    rewrite (cs_get_rel d d' s H). destruct (cs_get d s) as [n|]; cbn [option_map]; [|apply IH, H].
    rewrite <- Z.mul_sub_distr_l, (Zleb_scale k Hk). destruct (n <=? cutoff - cut)%Z.
    - rewrite <- Z.mul_add_distr_l. apply IH, (lrel_filter_fst zsc (fun key => negb (Qeq_bool s key))), H.
    - cbn [orel]. apply cs_set_rel; [exact H|]. unfold zsc. lia.
  Qed.

  Definition cutoff_of (cf : score_cfg) (n_votes n_scores : Z) : Z :=
    if Qle_bool 1 (sc_trunc cf) then Qfloor (sc_trunc cf)
    else Qfloor (inject_Z (if (n_votes =? 0)%Z then n_scores else n_votes) * sc_trunc cf).

  (* what the simulation needs of the configuration, at the number of votes of the profile *)
  Definition cfg_ok (cf : score_cfg) (n_votes : Z) : Prop :=
    sc_min_count cf = 0%Z /\
    (Qle_bool (sc_trunc cf) 0 = true \/ forall ns, cutoff_of cf (k * n_votes) (k * ns) = (k * cutoff_of cf n_votes ns)%Z).

  Lemma correct_scores_rel cf d d' nv : cfg_ok cf nv -> crel d d' ->
    sumrel crel (correct_scores cf d nv) (correct_scores cf d' (k * nv)).
  Proof.
    intros [Hmc Hcut] H. unfold correct_scores. cbv zeta. rewrite (cs_total_rel d d' H), Hmc.
    rewrite (Zltb_scale_0 k Hk). destruct (cs_total d <? 0)%Z.
    { cbn [sumrel]. constructor; [|constructor]. split; [reflexivity|]. cbn [snd]. unfold zsc. lia. }
    set (ns := cs_total d). apply (sumrel_bind crel crel).
    { assert (Hun : forall v, crel (cs_set d v (nv - ns + match cs_get d v with Some n => n | None => 0 end))
                                   (cs_set d' v (k * nv - k * ns + match cs_get d' v with Some n => n | None => 0 end))).
      { intros v. apply cs_set_rel; [exact H|]. unfold zsc. rewrite (cs_get0_rel d d' v H). lia. }
      destruct (sc_unscored cf) as [|v|]; cbn [sumrel]; [exact H|apply Hun|].
      rewrite (expand_rel d d' H), (list_min_dup kn _ kn_pos). destruct (list_min (expand d)) as [v|]; cbn [sumrel]; [apply Hun|reflexivity]. }
    intros d1 d1' H1.
    destruct (Qle_bool (sc_trunc cf) 0) eqn:Et; [exact H1|].
    destruct Hcut as [Hcut|Hcut]; [congruence|].
    specialize (Hcut ns). unfold cutoff_of in Hcut. rewrite Hcut.
    set (cutoff := if Qle_bool 1 (sc_trunc cf) then _ else _).
    rewrite (lrel_keys zsc d1 d1' H1). set (keys := sort_q (map fst d1)).
    pose proof (subtract_lowest_rel keys d1 d1' cutoff 0 H1) as S1. rewrite Z.mul_0_r in S1.
    destruct (subtract_lowest d1 keys cutoff 0) as [d2|], (subtract_lowest d1' keys (k * cutoff) 0) as [d2'|];
      cbn [orel] in S1; try contradiction; [|reflexivity].
    pose proof (subtract_lowest_rel (rev keys) d2 d2' cutoff 0 S1) as S2. rewrite Z.mul_0_r in S2.
    destruct (subtract_lowest d2 (rev keys) cutoff 0) as [d3|], (subtract_lowest d2' (rev keys) (k * cutoff) 0) as [d3'|];
      cbn [orel] in S2; try contradiction; [exact S2|reflexivity].
  Qed.

  Definition sp_total (votes : sprofile) : Z := fold_left Z.add (map snd votes) 0%Z.

  Lemma corrected_scores_rel cf v v' : cfg_ok cf (sp_total v) -> sprel v v' ->
    sumrel screl (corrected_scores cf v) (corrected_scores cf v').
  Proof.
    intros Hcf H. unfold corrected_scores. cbv zeta.
    rewrite (fold_add0_rel v v' H). fold (sp_total v).
    apply sequence_rel, Forall2_map with (RA := prel crel); [|apply raw_scores_rel, H].
    intros y y' [Hy Hd]. split; [exact Hy|apply correct_scores_rel; assumption].
  Qed.

  Definition agg_factor (fn : aggfn) : Q := match fn with FSum => inject_Z k | _ => 1 end.

  Lemma agg_factor_pos fn : (0 < agg_factor fn)%Q.
  Proof. destruct fn; cbn [agg_factor]; try reflexivity. change 0%Q with (inject_Z 0). rewrite <- Zlt_Qlt. exact Hk. Qed.

  Lemma aggregate_one_rel fn d d' : crel d d' ->
    sumrel (qsc (agg_factor fn)) (aggregate_one fn d) (aggregate_one fn d').
  Proof.
    intros H. rewrite !aggregate_one_list, (expand_rel d d' H). destruct fn; cbn [agg_factor].
    - rewrite (mean_dup kn _ kn_pos). destruct (agg_list FMean (expand d)); cbn [sumrel]; [|reflexivity]. unfold qsc. ring.
    - cbn [agg_list sumrel]. unfold qsc. rewrite !Qred_correct, sum_dup. rewrite Z2Nat.id by lia. reflexivity.
    - rewrite (median_low_dup kn _ kn_pos). destruct (agg_list FMedianLow (expand d)); cbn [sumrel]; [|reflexivity]. unfold qsc. ring.
  Qed.

  Lemma aggregate_rel fn sc sc' : screl sc sc' ->
    sumrel (lrel (K := C) (qsc (agg_factor fn))) (aggregate fn sc) (aggregate fn sc').
  Proof.
    intros H. unfold aggregate. apply sequence_rel, Forall2_map with (RA := prel crel); [|exact H].
    intros y y' [Hy Hd]. split; [exact Hy|apply aggregate_one_rel, Hd].
  Qed.

  (* mean and low median are not merely ==-related but identical *)
  Lemma aggregate_one_eq fn d d' : fn <> FSum -> crel d d' -> aggregate_one fn d' = aggregate_one fn d.
  Proof.
    intros Hfn H. rewrite !aggregate_one_list, (expand_rel d d' H). destruct fn; [|congruence|].
    - apply (mean_dup kn _ kn_pos).
    - apply (median_low_dup kn _ kn_pos).
  Qed.

  Lemma aggregate_eq fn sc sc' : fn <> FSum -> screl sc sc' -> aggregate fn sc' = aggregate fn sc.
  Proof.
    intros Hfn H. unfold aggregate. f_equal. apply (Forall2_map_eq (prel crel)); [|exact H].
    intros y y' [Hy Hd]. rewrite Hy, (aggregate_one_eq fn _ _ Hfn Hd). reflexivity.
  Qed.

  Theorem score_to_simple_rel cf v v' : cfg_ok cf (sp_total v) -> sprel v v' ->
    sumrel (lrel (K := C) (qsc (agg_factor (sc_fn cf)))) (score_to_simple cf v) (score_to_simple cf v').
  Proof.
    intros Hcf H. unfold score_to_simple. apply (sumrel_bind screl _ _ _ _ _ (corrected_scores_rel cf v v' Hcf H)).
    intros sc sc' Hc. apply aggregate_rel, Hc.
  Qed.

  Theorem score_voting_rel cf v v' n : cfg_ok cf (sp_total v) -> sprel v v' ->
    score_voting cf v' n = score_voting cf v n.
  Proof.
    intros Hcf H. unfold score_voting. pose proof (score_to_simple_rel cf v v' Hcf H) as Hs.
    destruct (score_to_simple cf v) as [a|e], (score_to_simple cf v') as [a'|e']; cbn [sumrel] in Hs; try contradiction; [|congruence].
    f_equal. apply (get_n_best_rel Qle_bool Qle_bool _ (qsc_le _ (agg_factor_pos (sc_fn cf))) _ _ n Hs).
  Qed.

  Lemma sprel_scale (votes : sprofile) : sprel votes (scale_z k votes).
  Proof. apply lrel_map_snd. reflexivity. Qed.

  Theorem score_voting_scale cf votes n : cfg_ok cf (sp_total votes) ->
    score_voting cf (scale_z k votes) n = score_voting cf votes n.
  Proof. intros Hcf. apply score_voting_rel; [exact Hcf|apply sprel_scale]. Qed.

  Definition is_whole (x : Q) : Prop := (inject_Z (Qfloor x) == x)%Q.

  Lemma cfg_ok_no_truncation cf nv : sc_min_count cf = 0%Z -> Qle_bool (sc_trunc cf) 0 = true -> cfg_ok cf nv.
  Proof. intros H1 H2. split; [exact H1|left; exact H2]. Qed.

  Lemma cfg_ok_whole_fraction cf nv : sc_min_count cf = 0%Z -> Qle_bool 1 (sc_trunc cf) = false -> nv <> 0%Z ->
    is_whole (inject_Z nv * sc_trunc cf) -> cfg_ok cf nv.
  Proof.
    intros H1 H2 Hnv Hw. split; [exact H1|right]. intros ns. unfold cutoff_of. rewrite H2.
    assert (E : (nv =? 0)%Z = false) by (apply Z.eqb_neq; exact Hnv).
    rewrite (Zeqb_scale_0 k Hk), E. unfold is_whole in Hw.
    assert (Ew : (inject_Z (k * nv) * sc_trunc cf == inject_Z (k * Qfloor (inject_Z nv * sc_trunc cf)))%Q).
    { rewrite !inject_Z_mult, Hw. ring. }
    rewrite (Qfloor_comp _ _ Ew). apply Qfloor_Z.
  Qed.

  Lemma counts_over_rel d d' thr : crel d d' -> counts_over d' thr = (k * counts_over d thr)%Z.
  Proof.
    intros H. unfold counts_over.
    apply fold_add0_rel, (lrel_filter_fst zsc (fun s => Qle_bool thr s)), H.
  Qed.

  Lemma mj_plus_rel sub sub' n : screl sub sub' -> mj_plus sub' n = mj_plus sub n.
  Proof.
    intros H. unfold mj_plus. destruct H as [|[c d0] [c' d0'] l l' [Hc Hd] Hl]; [reflexivity|].
    cbn [fst snd] in Hc, Hd. rewrite (aggregate_one_eq FMedianLow d0 d0' ltac:(discriminate) Hd).
    destruct (aggregate_one FMedianLow d0) as [med|e]; [|reflexivity]. f_equal.
    assert (Hk' : (0 < inject_Z k)%Q) by (change 0%Q with (inject_Z 0); rewrite <- Zlt_Qlt; exact Hk).
    apply (get_n_best_rel Qle_bool Qle_bool _ (qsc_le _ Hk')), Forall2_map with (RA := prel crel);
      [|constructor; [split; assumption|exact Hl]].
    intros y y' [Hy Hyd]. split; [exact Hy|]. cbn [snd]. unfold qsc.
    rewrite (counts_over_rel _ _ med Hyd), inject_Z_mult. reflexivity.
  Qed.

  Definition mj_fuel (sub : list (C * cscores)) : nat :=
    (Z.to_nat (fold_left Z.add (map (fun cd => cs_total (snd cd)) sub) 0%Z) + 2)%nat.

  (* the first stage - medians, order, whether and among whom a tie has to be broken - is identical; the k-fold
     election hands the k-fold score dictionaries of the same candidates to the tie-breaker,
     whose own scale invariance is the hypothesis under [plus = false] *)
  Theorem majority_judgment_rel plus cf v v' n : cfg_ok cf (sp_total v) -> sprel v v' ->
    (plus = false -> forall sc tied sub' j, corrected_scores cf v = inl sc ->
       screl (filter (fun cd : C * cscores => cmem (fst cd) tied) sc) sub' ->
       mj_default (mj_fuel sub') sub' j
       = mj_default (mj_fuel (filter (fun cd : C * cscores => cmem (fst cd) tied) sc)) (filter (fun cd : C * cscores => cmem (fst cd) tied) sc) j) ->
    majority_judgment plus cf v' n = majority_judgment plus cf v n.
  Proof.
    intros Hcf H Hdef. unfold majority_judgment. pose proof (corrected_scores_rel cf v v' Hcf H) as Hc.
    destruct (corrected_scores cf v) as [sc|e] eqn:Esc, (corrected_scores cf v') as [sc'|e']; cbn [sumrel] in Hc; try contradiction; [|congruence].
    rewrite (aggregate_eq FMedianLow sc sc' ltac:(discriminate) Hc).
    destruct (aggregate FMedianLow sc) as [med|e]; [|reflexivity]. cbv zeta.
    destruct (last_tie (get_n_best Qle_bool med n)) as [tied|]; [|reflexivity].
    pose proof (lrel_filter_fst crel (fun c => cmem c tied) sc sc' Hc) as Hsub.
    destruct plus.
    - rewrite (mj_plus_rel _ _ _ Hsub). reflexivity.
    - fold (mj_fuel (filter (fun cd : C * cscores => cmem (fst cd) tied) sc')).
      fold (mj_fuel (filter (fun cd : C * cscores => cmem (fst cd) tied) sc)).
      rewrite (Hdef eq_refl sc tied _ _ eq_refl Hsub). reflexivity.
  Qed.

  Theorem mj_plus_scale cf votes n : cfg_ok cf (sp_total votes) ->
    majority_judgment true cf (scale_z k votes) n = majority_judgment true cf votes n.
  Proof. intros Hcf. apply majority_judgment_rel; [exact Hcf|apply sprel_scale|discriminate]. Qed.

  (* whether the default rule has to break a tie at all *)
  Definition mj_tie_free (cf : score_cfg) (votes : sprofile) (n : nat) : bool :=
    match corrected_scores cf votes with
    | inr _ => true
    | inl sc => match aggregate FMedianLow sc with
                | inr _ => true
                | inl med => match last_tie (get_n_best Qle_bool med n) with None => true | Some _ => false end
                end
    end.

  Theorem mj_tie_free_scale plus cf votes n : cfg_ok cf (sp_total votes) -> mj_tie_free cf votes n = true ->
    majority_judgment plus cf (scale_z k votes) n = majority_judgment plus cf votes n.
  Proof.
    intros Hcf Hfree. unfold majority_judgment, mj_tie_free in *.
    pose proof (corrected_scores_rel cf votes _ Hcf (sprel_scale votes)) as Hc.
    destruct (corrected_scores cf votes) as [sc|e], (corrected_scores cf (scale_z k votes)) as [sc'|e']; cbn [sumrel] in Hc; try contradiction; [|congruence].
    rewrite (aggregate_eq FMedianLow sc sc' ltac:(discriminate) Hc).
    destruct (aggregate FMedianLow sc) as [med|e]; [|reflexivity]. cbv zeta.
    destruct (last_tie (get_n_best Qle_bool med n)) as [tied|]; [discriminate|reflexivity].
  Qed.

  Theorem mj_tie_free_scale_iff cf votes n : cfg_ok cf (sp_total votes) ->
    mj_tie_free cf (scale_z k votes) n = mj_tie_free cf votes n.
  Proof.
    intros Hcf. unfold mj_tie_free.
    pose proof (corrected_scores_rel cf votes _ Hcf (sprel_scale votes)) as Hc.
    destruct (corrected_scores cf votes) as [sc|e], (corrected_scores cf (scale_z k votes)) as [sc'|e']; cbn [sumrel] in Hc; try contradiction; [|reflexivity].
    rewrite (aggregate_eq FMedianLow sc sc' ltac:(discriminate) Hc). reflexivity.
  Qed.
End ScoreScale.

Definition scale_free_cfg (cf : score_cfg) (votes : sprofile) : Prop :=
  sc_min_count cf = 0%Z /\
  (Qle_bool (sc_trunc cf) 0 = true \/
   (Qle_bool 1 (sc_trunc cf) = false /\ sp_total votes <> 0%Z /\ is_whole (inject_Z (sp_total votes) * sc_trunc cf))).

Lemma scale_free_cfg_ok k cf votes : (0 < k)%Z -> scale_free_cfg cf votes -> cfg_ok k cf (sp_total votes).
Proof.
  intros Hk [Hmc [Ht|(Ht & Hn & Hw)]]; [apply cfg_ok_no_truncation; assumption|apply cfg_ok_whole_fraction; assumption].
Qed.
