(* Scale invariance (C11) of the ADDITIVE family: a converter that is an accumulating fold of per-ballot images
   ([conv image], Prelude/GDict.v) followed by get_n_best.  Multiplying every ballot weight by k > 0 gives an
   output dictionary with the same keys in the same order and every total multiplied by k (up to == on Q), so
   the selection - and every reported tie - is unchanged ([get_n_best_rel] with [qsc k]).  Holds for EVERY image;
   instances: first preference (plurality), approval (plain and split / SAV), presence counts and the positional
   scorers (any rank scorer, the number of candidates taken from the profile). *)
From Coq Require Import ZArith QArith List Bool Lia Lqa.
From VL Require Import Prelude.Sx Prelude.PyDict Prelude.GDict Model.GetNBest Model.Convert
     Proofs.GetNBest_proofs Proofs.QOrd Proofs.Scale_proofs Proofs.LRScale_proofs.
Import ListNotations.

Definition scale_w {B} (k : Q) (votes : list (B * Q)) : list (B * Q) :=
  map (fun bw => (fst bw, (k * snd bw)%Q)) votes.

Section AddScale.
  Context {K : Type}.
  Variable keqb : K -> K -> bool.
  Variable k : Q.
  Hypothesis Hk : (0 < k)%Q.

  Definition grel : list (K * Q) -> list (K * Q) -> Prop := lrel (K := K) (qsc k).

  Lemma gadd_rel d d' key x x' : grel d d' -> qsc k x x' -> grel (gadd keqb d key x) (gadd keqb d' key x').
  Proof.
    intros H Hx. induction H as [|[k0 v] [k0' v'] d d' [Hc Hv] Hd IH]; cbn [gadd].
    - constructor; [split; [reflexivity|exact Hx]|constructor].
    - cbn [fst snd] in Hc, Hv. subst k0'. destruct (keqb key k0).
      + constructor; [|exact Hd]. split; [reflexivity|]. apply qsc_plus; assumption.
      + constructor; [split; [reflexivity|exact Hv]|exact IH].
  Qed.

  Lemma conv_rel {B} (image : B -> list (K * Q)) (votes votes' : list (B * Q)) : lrel (qsc k) votes votes' ->
    grel (conv keqb image votes) (conv keqb image votes').
  Proof.
    intros H. unfold conv. apply fold_left_rel with (RB := prel (qsc k)); [|exact H|constructor].
    intros d d' bw bw' Hd [Hb Hw]. rewrite <- Hb. apply fold_left_rel_same; [|exact Hd].
    intros e e' kc He. apply gadd_rel; [exact He|apply qsc_mult_l, Hw].
  Qed.

  Theorem additive_scale {B} (image : B -> list (K * Q)) (votes : list (B * Q)) (n : nat) :
    get_n_best Qle_bool (conv keqb image (scale_w k votes)) n = get_n_best Qle_bool (conv keqb image votes) n.
  Proof. apply (get_n_best_rel Qle_bool Qle_bool (qsc k) (qsc_le k Hk)), conv_rel, lrel_scale. Qed.

  (* the scaled totals themselves: same keys, same order, every total k-fold *)
  Theorem additive_totals_scale {B} (image : B -> list (K * Q)) (votes : list (B * Q)) :
    Forall2 (fun x y : K * Q => fst x = fst y /\ (snd y == k * snd x)%Q)
            (conv keqb image votes) (conv keqb image (scale_w k votes)).
  Proof. apply conv_rel, lrel_scale. Qed.
End AddScale.

Lemma forallb_fst_scale {B} k (f : B -> bool) (votes : list (B * Q)) :
  forallb (fun bw => f (fst bw)) (scale_w k votes) = forallb (fun bw => f (fst bw)) votes.
Proof. apply (Forall2_forallb (prel (qsc k))); [|apply lrel_scale]. intros x x' [E _]. rewrite E. reflexivity. Qed.

Definition ogbest (o : option (list (sx * Q))) (n : nat) : option (list (res sx)) :=
  option_map (fun d => get_n_best Qle_bool d n) o.

Theorem oconv_scale {B} (k : Q) (image : B -> option (list (sx * Q))) (votes : list (B * Q)) (n : nat) : (0 < k)%Q ->
  ogbest (oconv image (scale_w k votes)) n = ogbest (oconv image votes) n.
Proof.
  intros Hk. unfold oconv.
  rewrite (forallb_fst_scale k (fun b => match image b with Some _ => true | None => false end)).
  destruct (forallb _ votes); [|reflexivity]. unfold ogbest. cbn [option_map]. f_equal. apply (additive_scale sx_eqb k Hk).
Qed.

(* the candidate set of a profile does not depend on the weights *)
Lemma flat_map_fst_scale {B X} k (f : B -> list X) (votes : list (B * Q)) :
  flat_map (fun bw => f (fst bw)) (scale_w k votes) = flat_map (fun bw => f (fst bw)) votes.
Proof. apply (Forall2_flat_map_eq (prel (qsc k))); [|apply lrel_scale]. intros x x' [E _]. rewrite E. reflexivity. Qed.

Lemma cands_ranked_scale k votes : cands_ranked (scale_w k votes) = cands_ranked votes.
Proof. unfold cands_ranked. f_equal. apply (flat_map_fst_scale k flatten). Qed.

Lemma cands_approval_scale k votes : cands_approval (scale_w k votes) = cands_approval votes.
Proof. unfold cands_approval. f_equal. apply (flat_map_fst_scale k (fun b : list C => b)). Qed.

Lemma cands_score_scale k votes : cands_score (scale_w k votes) = cands_score votes.
Proof. unfold cands_score. f_equal. apply (flat_map_fst_scale k (fun b : sballot => map fst b)). Qed.

(* the positional rule as the library runs it: the number of candidates is read off the profile *)
Theorem positional_scale (k : Q) (s : scorer) (votes : list (ranked * Q)) (n : nat) : (0 < k)%Q ->
  ogbest (oconv (img_positional s (length (cands_ranked (scale_w k votes)))) (scale_w k votes)) n
  = ogbest (oconv (img_positional s (length (cands_ranked votes))) votes) n.
Proof. intros Hk. rewrite cands_ranked_scale. apply oconv_scale, Hk. Qed.
