(* QuotaDistributor._subtract_overaward once a Tie object has become a key of `selected`
   (Model/QuotaDistributor.v ksubtract): the over-award loop on dictionaries keyed by candidates and ties.
   - subtract (the loop on plain dictionaries) is ksubtract on the same dictionary: one loop, one statement;
   - every iteration removes exactly one seat: a finished loop leaves total - overaward seats;
   - with a positive quota (whole quotas are then never above the votes, whatever the caps) the loop never meets a
     Tie key tied with another key - the only shape left unmodelled (QD_unmodelled) is unreachable. *)
From Coq Require Import ZArith QArith Qround List Bool Lia Lqa Permutation FinFun.
From VL Require Import Prelude.PyDict Model.GetNBest Model.Quota Model.QuotaDistributor
     Proofs.Dict_proofs Proofs.GetNBest_proofs Proofs.QOrd Proofs.QD_proofs.
Import ListNotations.
Open Scope Z_scope.

(* get_n_best does not look at the keys *)
Section MapKeys.
  Context {A B V : Type}.
  Variable leb : V -> V -> bool.
  Variable f : A -> B.
  Definition gk (x : A * V) : B * V := (f (fst x), snd x).
  Definition res_map (r : res A) : res B := match r with Cand c => Cand (f c) | TieR l => TieR (map f l) end.

  Lemma insert_desc_gk x l : insert_desc leb (gk x) (map gk l) = map gk (insert_desc leb x l).
  Proof.
    induction l as [|y l IH]; simpl; [reflexivity|].
    destruct (leb (snd y) (snd x)); simpl; [reflexivity|rewrite IH; reflexivity].
  Qed.
  Lemma sort_desc_gk l : sort_desc leb (map gk l) = map gk (sort_desc leb l).
  Proof. induction l as [|x l IH]; simpl; [reflexivity|]. rewrite IH. apply insert_desc_gk. Qed.
  Lemma first_eq_index_gk thr l : first_eq_index leb thr (map gk l) = first_eq_index leb thr l.
  Proof. induction l as [|x l IH]; simpl; [reflexivity|]. rewrite IH. reflexivity. Qed.
  Lemma level_gk thr l :
    map fst (filter (fun it : B * V => eqv leb (snd it) thr) (map gk l)) =
    map f (map fst (filter (fun it : A * V => eqv leb (snd it) thr) l)).
  Proof.
    induction l as [|x l IH]; simpl; [reflexivity|].
    destruct (eqv leb (snd x) thr); simpl; rewrite IH; reflexivity.
  Qed.
  Lemma cands_gk l : map (fun it : B * V => Cand (fst it)) (map gk l) = map res_map (map (fun it : A * V => Cand (fst it)) l).
  Proof. rewrite !map_map. reflexivity. Qed.
  Lemma repeat_map {X Y} (g : X -> Y) x n : map g (repeat x n) = repeat (g x) n.
  Proof. induction n as [|n IH]; simpl; [reflexivity|]. rewrite IH. reflexivity. Qed.

  Theorem get_n_best_gk votes n : get_n_best leb (map gk votes) n = map res_map (get_n_best leb votes n).
  Proof.
    unfold get_n_best. rewrite sort_desc_gk. set (s := sort_desc leb votes). rewrite map_length.
    destruct (Nat.ltb n (length s)); [|apply cands_gk].
    rewrite !nth_error_map.
    destruct (nth_error s (n - 1)) as [[c1 thr]|]; simpl; [|reflexivity].
    destruct (nth_error s n) as [[c2 nxt]|]; simpl; [|reflexivity].
    destruct (eqv leb nxt thr).
    - rewrite first_eq_index_gk, map_app, firstn_map, cands_gk, level_gk, repeat_map. reflexivity.
    - rewrite firstn_map. apply cands_gk.
  Qed.
End MapKeys.

Lemma key_eqb_refl k : key_eqb k k = true.
Proof.
  destruct k as [c|l]; simpl; [apply ceqb_refl|].
  assert (H : forallb (fun c => cmem c l) l = true).
  { apply forallb_forall. intros x Hx. apply cmem_In, Hx. }
  rewrite H. reflexivity.
Qed.
Lemma key_eqb_K c k : key_eqb (K c) k = true <-> k = K c.
Proof.
  destruct k as [c'|l]; simpl; [|split; discriminate].
  rewrite ceqb_eq. split; [intros ->; reflexivity|intros [= ->]; reflexivity].
Qed.

Lemma key_eq_dec_aux (a b : key) : {a = b} + {a <> b}.
Proof. decide equality; [apply Pos.eq_dec|apply (list_eq_dec Pos.eq_dec)]. Qed.

Definition keys (d : list (key * Z)) : list key := map fst d.

Lemma in_keys d k s : In (k, s) d -> In k (keys d).
Proof. intros H. apply in_map_iff. exists (k, s). split; [reflexivity|exact H]. Qed.

Lemma kmem_in d k : In k (keys d) -> kmem d k = true.
Proof.
  intros H. unfold kmem. apply existsb_exists. unfold keys in H. apply in_map_iff in H.
  destruct H as (kv & <- & Hin). exists kv. split; [exact Hin|apply key_eqb_refl].
Qed.

Lemma ksum_app a b : ksum (a ++ b) = ksum a + ksum b.
Proof. induction a as [|x a IH]; simpl; [reflexivity|]. rewrite IH. lia. Qed.

(* one decrement takes exactly one seat away *)
Lemma ksum_kdec d k : kmem d k = true -> ksum (kdec d k) = ksum d - 1.
Proof.
  unfold kmem. induction d as [|[k' s] d IH]; simpl; [discriminate|].
  destruct (key_eqb k k') eqn:E; simpl.
  - intros _. destruct (s =? 1) eqn:E1; simpl; [apply Z.eqb_eq in E1; lia|lia].
  - intros H. rewrite (IH H). lia.
Qed.

(* an entry left by a decrement is an entry of the dictionary, possibly with one seat more *)
Lemma kdec_in d k k' s : In (k', s) (kdec d k) ->
  In (k', s) d \/ (In (k', s + 1) d /\ key_eqb k k' = true /\ s <> 0).
Proof.
  induction d as [|[k0 s0] d IH]; cbn [kdec]; [intros []|].
  destruct (key_eqb k k0) eqn:E.
  - destruct (s0 =? 1) eqn:E1; [intros H; left; right; exact H|].
    intros [H|H]; [|left; right; exact H]. injection H as <- <-. apply Z.eqb_neq in E1. right.
    split; [left; f_equal; lia|]. split; [exact E|lia].
  - intros [H|H]; [left; left; exact H|].
    destruct (IH H) as [H1|(H1 & H2)]; [left; right; exact H1|right; split; [right; exact H1|exact H2]].
Qed.

Lemma kdec_le d k k' s : In (k', s) (kdec d k) -> exists s0, In (k', s0) d /\ s <= s0.
Proof.
  intros H. destruct (kdec_in d k k' s H) as [H1|(H1 & _)]; [exists s|exists (s + 1)]; split; try assumption; lia.
Qed.

Lemma fold_kdec_le ks k' s : forall d, In (k', s) (fold_left kdec ks d) -> exists s0, In (k', s0) d /\ s <= s0.
Proof.
  induction ks as [|k ks IH]; intros d; cbn [fold_left]; [intros H; exists s; split; [exact H|lia]|].
  intros H. destruct (IH _ H) as (s1 & H1 & L1). destruct (kdec_le _ _ _ _ H1) as (s0 & H0 & L0).
  exists s0. split; [exact H0|lia].
Qed.

Lemma kdec_keys_incl d k : incl (keys (kdec d k)) (keys d).
Proof.
  intros x Hx. apply in_map_iff in Hx. destruct Hx as ([k' s] & <- & Hx).
  destruct (kdec_le d k k' s Hx) as (s0 & H0 & _). exact (in_keys d k' s0 H0).
Qed.

Lemma kdec_keys_nodup d k : NoDup (keys d) -> NoDup (keys (kdec d k)).
Proof.
  unfold keys. induction d as [|[k' s] d IH]; simpl; intros H; [constructor|].
  inversion H as [|? ? Hk Hd]; subst. destruct (key_eqb k k').
  - destruct (s =? 1); simpl; [exact Hd|constructor; assumption].
  - simpl. constructor; [|apply IH, Hd]. intros Hin. apply Hk. apply (kdec_keys_incl d k), Hin.
Qed.

(* decrementing a plain key leaves the membership of every other key alone *)
Lemma kdec_mem_other d c k : k <> K c -> kmem (kdec d (K c)) k = kmem d k.
Proof.
  intros Hne. unfold kmem. induction d as [|[k' s'] d IH]; cbn [kdec existsb fst]; [reflexivity|].
  destruct (key_eqb (K c) k') eqn:E.
  - apply key_eqb_K in E. subst k'.
    assert (Hf : key_eqb k (K c) = false).
    { destruct k as [c'|l]; simpl; [|reflexivity]. apply ceqb_neq. congruence. }
    destruct (s' =? 1); cbn [existsb fst]; rewrite Hf; reflexivity.
  - cbn [existsb fst]. rewrite IH. reflexivity.
Qed.

(* a tie: every tied party loses a seat *)
Lemma ksum_fold_kdec l : forall d, NoDup l -> (forall c, In c l -> kmem d (K c) = true) ->
  ksum (fold_left kdec (map K l) d) = ksum d - Z.of_nat (length l).
Proof.
  induction l as [|c l IH]; intros d Hn Hin; cbn [map fold_left length]; [lia|].
  inversion Hn as [|? ? Hc Hn']; subst. rewrite IH; [|exact Hn'|].
  - rewrite ksum_kdec by (apply Hin; left; reflexivity). lia.
  - intros c' Hc'. rewrite kdec_mem_other by (intros [= ->]; exact (Hc Hc')). apply Hin. right. exact Hc'.
Qed.
Lemma fold_kdec_keys ks : forall d, incl (keys (fold_left kdec ks d)) (keys d).
Proof.
  induction ks as [|k ks IH]; intros d; cbn [fold_left]; [apply incl_refl|].
  intros x Hx. apply (kdec_keys_incl d k), IH, Hx.
Qed.
Lemma fold_kdec_nodup ks : forall d, NoDup (keys d) -> NoDup (keys (fold_left kdec ks d)).
Proof. induction ks as [|k ks IH]; intros d H; cbn [fold_left]; [exact H|]. apply IH, kdec_keys_nodup, H. Qed.

(* the dictionary after a tie of plain keys, the tie key appended *)
Lemma tie_entry_nodup d ks l z : NoDup (keys d) -> kmem d (KT l) = false ->
  NoDup (keys (fold_left kdec ks d ++ [(KT l, z)])).
Proof.
  intros Hnd Ekm. unfold keys. rewrite map_app. apply nodup_app_intro.
  - apply fold_kdec_nodup, Hnd.
  - constructor; [intros []|constructor].
  - intros x Hx [<-|[]]. apply (fold_kdec_keys ks d) in Hx.
    rewrite (kmem_in d (KT l) Hx) in Ekm. discriminate.
Qed.

Lemma plain_dec_key sel c : plain (dec_key sel c) = kdec (plain sel) (K c).
Proof.
  unfold plain. induction sel as [|[c' s] sel IH]; simpl; [reflexivity|].
  destruct (ceqb c c'); [destruct (s =? 1); reflexivity|]. simpl. rewrite IH. reflexivity.
Qed.
Lemma plain_fold_dec l : forall sel, plain (fold_left dec_key l sel) = fold_left kdec (map K l) (plain sel).
Proof. induction l as [|c l IH]; intros sel; simpl; [reflexivity|]. rewrite IH, plain_dec_key. reflexivity. Qed.
Lemma all_plain_map l : all_plain (map K l) = Some l.
Proof. induction l as [|c l IH]; simpl; [reflexivity|]. rewrite IH. reflexivity. Qed.
Lemma all_plain_some ks l : all_plain ks = Some l -> ks = map K l.
Proof.
  revert l. induction ks as [|[c|t] ks IH]; intros l; simpl; [intros [= <-]; reflexivity| |discriminate].
  destruct (all_plain ks) as [l0|]; [|discriminate]. intros [= <-]. simpl. rewrite (IH l0 eq_refl). reflexivity.
Qed.
Lemma in_plain sel k s : In (k, s) (plain sel) <-> exists c, k = K c /\ In (c, s) sel.
Proof.
  unfold plain. rewrite in_map_iff. split.
  - intros ([c s'] & [= <- <-] & H). exists c. split; [reflexivity|exact H].
  - intros (c & -> & H). exists (c, s). split; [reflexivity|exact H].
Qed.
Lemma kmem_plain sel l : kmem (plain sel) (KT l) = false.
Proof. unfold kmem, plain. induction sel as [|[c s] sel IH]; simpl; [reflexivity|exact IH]. Qed.
Lemma keys_plain sel : NoDup (map fst sel) -> NoDup (keys (plain sel)).
Proof.
  intros H. unfold keys, plain. rewrite map_map. cbn [fst]. rewrite <- (map_map fst K).
  apply Injective_map_NoDup; [intros x y [= ->]; reflexivity|exact H].
Qed.
Lemma ksum_plain sel : ksum (plain sel) = zsumv sel.
Proof.
  unfold zsumv. assert (H : forall a, fold_left Z.add (map snd sel) a = a + ksum (plain sel)).
  { induction sel as [|[c s] sel IH]; intros a; simpl; [lia|]. rewrite IH. lia. }
  rewrite H. reflexivity.
Qed.

(* the loop on a plain dictionary is the loop on keyed dictionaries *)
Theorem subtract_is_ksubtract votes q prev : forall fuel sel over,
  subtract fuel votes q prev sel over = ksubtract fuel votes q prev (plain sel) over.
Proof.
  induction fuel as [|f IH]; intros sel over; cbn [subtract ksubtract].
  - destruct (over <=? 0); reflexivity.
  - destruct (over <=? 0); [reflexivity|].
    assert (Hrem : map (fun ks : key * Z => (fst ks, krem votes q prev ks)) (plain sel) =
                   map (gk K) (map (fun cs : C * Z => let (c, s) := cs in
                      (c, (- (dget_or votes c 0%Q - q * inject_Z (s + dget_or prev c 0)%Z))%Q)) sel)).
    { unfold plain. rewrite !map_map. apply map_ext. intros [c s]. reflexivity. }
    rewrite Hrem, (get_n_best_gk Qle_bool K).
    destruct (get_n_best Qle_bool _ 1) as [|[c|l] rest]; cbn [map res_map]; [reflexivity| |].
    + rewrite IH, plain_dec_key. reflexivity.
    + rewrite all_plain_map, kmem_plain, <- plain_fold_dec.
      destruct (over - 1 <=? 0) eqn:E; [|reflexivity].
      destruct f; cbn [ksubtract]; rewrite E; reflexivity.
Qed.

(* what get_n_best(remainders, 1)[0] can be *)
Lemma gnb1_head {X} (votes : list (X * Q)) : NoDup (map fst votes) ->
  match get_n_best Qle_bool votes 1 with
  | Cand k :: _ => exists v, In (k, v) votes /\ forall k' v', In (k', v') votes -> k' <> k -> ltb Qle_bool v' v = true
  | TieR T :: _ => (2 <= length T)%nat /\ NoDup T /\
                   exists thr, T = map fst (filter (fun it => eqv Qle_bool (snd it) thr) votes) /\
                               (exists c, In (c, thr) votes) /\
                               forall k' v', In (k', v') votes -> Qle_bool v' thr = true
  | [] => True
  end.
Proof.
  intros Hnd. destruct (gnb_shapes votes 1 (le_n 1))
    as [(top & below & Hp & Hlen & Hord & Er)|(above & level & below & thr & Hp & _ & Hl & Hb & Hpos & Er)].
  - rewrite Er. destruct top as [|[k v] top]; [exact I|].
    destruct top; [|cbn [length] in Hlen; lia]. cbn [map cand_of fst]. exists v.
    split; [apply (Permutation_in _ Hp); left; reflexivity|].
    intros k' v' Hin Hne. apply ltb_Qlt. apply (Permutation_in _ (Permutation_sym Hp)) in Hin.
    destruct Hin as [H|H]; [congruence|]. exact (Hord (k, v) (k', v') (or_introl eq_refl) H).
  - assert (above = []) as -> by (destruct above; [reflexivity|simpl in Hpos; lia]).
    cbn [length app map Nat.sub Nat.add repeat] in *.
    destruct (get_n_best_tie_members Qle_bool Qle_bool_trans votes 1 (map fst level)) as (thr' & HT & Hex);
      [rewrite Er; left; reflexivity|].
    rewrite Er. split; [rewrite map_length; lia|]. split; [exact (perm_prefix_nodup _ _ _ Hp Hnd)|].
    exists thr'. split; [exact HT|]. split; [exact Hex|].
    (* thr' is the value of a member of the level, so it is the level *)
    destruct Hex as (c & Hc).
    assert (Hct : In c (map fst level)).
    { rewrite HT. apply in_map_iff. exists (c, thr'). split; [reflexivity|]. apply filter_In.
      split; [exact Hc|]. apply eqv_Qeq. reflexivity. }
    apply in_map_iff in Hct. destruct Hct as ([c' w] & Hcw & Hw). simpl in Hcw. subst c'.
    assert (w = thr') as ->.
    { apply (NoDup_fst_eq votes c w thr' Hnd); [|exact Hc]. apply (Permutation_in _ Hp), in_or_app. left. exact Hw. }
    rewrite Forall_forall in Hl, Hb. pose proof (Hl _ Hw) as Ht. cbn [snd] in Ht.
    intros k' v' Hin'. apply Qle_bool_iff. apply (Permutation_in _ (Permutation_sym Hp)), in_app_or in Hin'.
    destruct Hin' as [H|H]; [specialize (Hl _ H)|specialize (Hb _ H)]; cbn [snd] in *; lra.
Qed.

Section LOOP.
  Variable votes : list (C * Q).
  Variable q : Q.
  Variable prev : list (C * Z).

  Definition rems (sel : list (key * Z)) : list (key * Q) :=
    map (fun ks : key * Z => (fst ks, krem votes q prev ks)) sel.
  Lemma rems_keys sel : map fst (rems sel) = keys sel.
  Proof. unfold rems, keys. rewrite map_map. reflexivity. Qed.
  Lemma rems_in sel k v : In (k, v) (rems sel) <-> exists s, In (k, s) sel /\ v = krem votes q prev (k, s).
  Proof.
    unfold rems. rewrite in_map_iff. split.
    - intros ([k0 s] & [= -> <-] & Hin). exists s. split; [exact Hin|reflexivity].
    - intros (s & Hin & ->). exists (k, s). split; [reflexivity|exact Hin].
  Qed.

  (* a tie at the head of the loop's remainders: at least two keys, level with each other and not below any key *)
  Lemma tie_head sel ks rest : NoDup (keys sel) -> get_n_best Qle_bool (rems sel) 1 = TieR ks :: rest ->
    (2 <= length ks)%nat /\ NoDup ks /\ exists thr,
      (forall k, In k ks -> exists s, In (k, s) sel /\ (krem votes q prev (k, s) == thr)%Q) /\
      (forall k s, In (k, s) sel -> (krem votes q prev (k, s) <= thr)%Q).
  Proof.
    intros Hnd Er. pose proof (gnb1_head (rems sel)) as Hh. rewrite rems_keys, Er in Hh.
    destruct (Hh Hnd) as (Hlen & Hndk & thr & -> & _ & Hmax). split; [exact Hlen|]. split; [exact Hndk|].
    exists thr. split.
    - intros k Hk. apply in_map_iff in Hk. destruct Hk as ([k0 v] & Hk0 & Hf). simpl in Hk0. subst k0.
      apply filter_In in Hf. destruct Hf as [Hin He]. apply rems_in in Hin. destruct Hin as (s & Hs & ->).
      exists s. split; [exact Hs|apply eqv_Qeq, He].
    - intros k s Hin. apply Qle_bool_iff, (Hmax k), rems_in. exists s. split; [exact Hin|reflexivity].
  Qed.

  (* a finished loop: every iteration has removed one seat, and no party has gained any *)
  Theorem ksubtract_spec : forall fuel sel over res, NoDup (keys sel) ->
    ksubtract fuel votes q prev sel over = QD_ok res ->
    NoDup (keys res) /\ (0 <= over -> ksum res = ksum sel - over) /\
    forall c s, In (K c, s) res -> exists s0, In (K c, s0) sel /\ s <= s0.
  Proof.
    induction fuel as [|f IH]; intros sel over res Hnd; cbn [ksubtract];
      (destruct (over <=? 0) eqn:E;
       [intros [= <-]; apply Z.leb_le in E; split; [exact Hnd|]; split; [lia|];
        intros c s H; exists s; split; [exact H|lia]|]); [discriminate|].
    apply Z.leb_gt in E. fold (rems sel).
    assert (Hdec : forall k, kmem sel k = true -> ksubtract f votes q prev (kdec sel k) (over - 1) = QD_ok res ->
      NoDup (keys res) /\ (0 <= over -> ksum res = ksum sel - over) /\
      forall c s, In (K c, s) res -> exists s0, In (K c, s0) sel /\ s <= s0).
    { intros k Hk Hr. destruct (IH _ _ _ (kdec_keys_nodup sel k Hnd) Hr) as (Hn & Hs & Hb). split; [exact Hn|]. split.
      - intros Hov. rewrite Hs, (ksum_kdec sel k Hk); lia.
      - intros c s H. destruct (Hb c s H) as (s1 & H1 & L1). destruct (kdec_le _ _ _ _ H1) as (s0 & H0 & L0).
        exists s0. split; [exact H0|lia]. }
    pose proof (gnb1_head (rems sel)) as Hh. rewrite rems_keys in Hh. specialize (Hh Hnd).
    destruct (get_n_best Qle_bool (rems sel) 1) as [|[k|ks] rest] eqn:Er; [discriminate| |].
    - destruct Hh as (v & Hin & _). apply rems_in in Hin. destruct Hin as (s & Hin & _).
      apply Hdec, kmem_in, (in_keys sel k s Hin).
    - clear Hh. destruct (tie_head sel ks rest Hnd Er) as (_ & Hndk & thr & Hmem & _).
      destruct (all_plain ks) as [l|] eqn:Eap; [|discriminate]. apply all_plain_some in Eap. subst ks.
      destruct (kmem sel (KT l)) eqn:Ekm; [exact (Hdec (KT l) Ekm)|]. intros Hr.
      destruct (IH _ _ _ (tie_entry_nodup sel (map K l) l _ Hnd Ekm) Hr) as (Hn & Hs & Hb). split; [exact Hn|]. split.
      + intros Hov. rewrite Hs, ksum_app, (ksum_fold_kdec l sel (NoDup_map_inv K l Hndk)); [unfold ksum at 2; simpl; lia| |lia].
        intros c Hc. destruct (Hmem (K c) (in_map K l c Hc)) as (s & Hin & _). exact (kmem_in sel _ (in_keys sel _ s Hin)).
      + intros c s H. destruct (Hb c s H) as (s1 & H1 & L1).
        apply in_app_or in H1. destruct H1 as [H1|[H1|[]]]; [|discriminate].
        destruct (fold_kdec_le _ _ _ _ H1) as (s0 & H0 & L0). exists s0. split; [exact H0|lia].
  Qed.

  Theorem ksubtract_total : forall fuel sel over res, NoDup (keys sel) -> 0 <= over ->
    ksubtract fuel votes q prev sel over = QD_ok res -> ksum res = ksum sel - over.
  Proof. intros fuel sel over res Hnd Hov Hr. apply (ksubtract_spec fuel sel over res Hnd Hr), Hov. Qed.

  (* with a positive quota: no Tie of a Tie *)
  Hypothesis Hq : (0 < q)%Q.

  Record KI (sel : list (key * Z)) : Prop := {
    ki_nd : NoDup (keys sel);
    (* a party's seats (with its previous gains) are whole quotas contained in its votes *)
    ki_plain : forall c s, In (K c, s) sel -> (q * inject_Z (s + dget_or prev c 0)%Z <= dget_or votes c 0%Q)%Q;
    ki_tie : forall l s, In (KT l, s) sel -> 1 <= s;
    ki_one : forall l s l' s', In (KT l, s) sel -> In (KT l', s') sel -> l = l'
  }.

  Lemma krem_plain_le sel c s : KI sel -> In (K c, s) sel -> (krem votes q prev (K c, s) <= 0)%Q.
  Proof. intros I Hin. pose proof (ki_plain _ I c s Hin). unfold krem. cbn [fst snd]. lra. Qed.
  Lemma krem_tie_pos sel l s : KI sel -> In (KT l, s) sel -> (0 < krem votes q prev (KT l, s))%Q.
  Proof.
    intros I Hin. pose proof (ki_tie _ I l s Hin) as H1. unfold krem. cbn [fst snd].
    assert (H2 : (1 <= inject_Z (s + 0)%Z)%Q) by (change 1%Q with (inject_Z 1); rewrite <- Zle_Qle; lia).
    assert (H3 : (q * 1 <= q * inject_Z (s + 0)%Z)%Q) by (apply Qmult_le_l; assumption). lra.
  Qed.

  Lemma KI_kdec sel k : KI sel -> KI (kdec sel k).
  Proof.
    intros I. constructor.
    - apply kdec_keys_nodup, (ki_nd _ I).
    - intros c s Hin. destruct (kdec_in _ _ _ _ Hin) as [H|(H & _)]; [exact (ki_plain _ I c s H)|].
      pose proof (ki_plain _ I c (s + 1) H) as Hp.
      assert (Hm : (q * inject_Z (s + dget_or prev c 0)%Z <= q * inject_Z (s + 1 + dget_or prev c 0)%Z)%Q)
        by (apply Qmult_le_l; [exact Hq|rewrite <- Zle_Qle; lia]).
      lra.
    - intros l s Hin. destruct (kdec_in _ _ _ _ Hin) as [H|(H & _ & H0)]; [exact (ki_tie _ I l s H)|].
      pose proof (ki_tie _ I l (s + 1) H). lia.
    - intros l s l' s' H1 H2.
      destruct (kdec_in _ _ _ _ H1) as [A|(A & _)], (kdec_in _ _ _ _ H2) as [B|(B & _)]; exact (ki_one _ I _ _ _ _ A B).
  Qed.

  Lemma KI_fold ks : forall sel, KI sel -> KI (fold_left kdec ks sel).
  Proof. induction ks as [|k ks IH]; intros sel I; cbn [fold_left]; [exact I|]. apply IH, KI_kdec, I. Qed.

  Definition has_tie_key (sel : list (key * Z)) : bool :=
    existsb (fun kv : key * Z => match fst kv with KT _ => true | K _ => false end) sel.

  Theorem ksubtract_modelled : forall fuel sel over, KI sel -> ksubtract fuel votes q prev sel over <> QD_unmodelled.
  Proof.
    induction fuel as [|f IH]; intros sel over I; cbn [ksubtract].
    - destruct (over <=? 0); discriminate.
    - destruct (over <=? 0); [discriminate|]. fold (rems sel).
      destruct (get_n_best Qle_bool (rems sel) 1) as [|[k|ks] rest] eqn:Er; [discriminate|apply IH, KI_kdec, I|].
      destruct (tie_head sel ks rest (ki_nd _ I) Er) as (Hlen & Hndk & thr & Hmem & Hmax).
      (* every tied key is a plain candidate: a Tie key holds a positive remainder, a party's is at most 0,
         and there is no second Tie key *)
      assert (Hplain : forall k, In k ks -> exists c, k = K c).
      { intros [c|l] Hk; [exists c; reflexivity|exfalso].
        destruct (Hmem _ Hk) as (s1 & Hs1 & E1). pose proof (krem_tie_pos sel l s1 I Hs1) as Hpos.
        assert (Hother : exists k2, In k2 ks /\ k2 <> KT l).
        { destruct ks as [|ka [|kb ks']]; simpl in Hlen; try lia.
          destruct (key_eq_dec_aux ka (KT l)) as [->|Hne]; [|exists ka; split; [left; reflexivity|exact Hne]].
          exists kb. split; [right; left; reflexivity|]. intros ->. inversion Hndk as [|? ? Hx _]; subst.
          apply Hx. left. reflexivity. }
        destruct Hother as ([c2|l2] & Hk2 & Hne2); destruct (Hmem _ Hk2) as (s2 & Hs2 & E2).
        - pose proof (krem_plain_le sel c2 s2 I Hs2). lra.
        - apply Hne2. f_equal. exact (ki_one _ I _ _ _ _ Hs2 Hs1). }
      assert (Hap : exists l, all_plain ks = Some l).
      { clear - Hplain. induction ks as [|k ks IHk]; [exists []; reflexivity|].
        destruct (Hplain k (or_introl eq_refl)) as [c ->].
        destruct IHk as [l Hl]; [intros k' Hk'; apply Hplain; right; exact Hk'|].
        exists (c :: l). simpl. rewrite Hl. reflexivity. }
      destruct Hap as [l Hl]. rewrite Hl. apply all_plain_some in Hl. subst ks.
      destruct (kmem sel (KT l)) eqn:Ekm; apply IH; [apply KI_kdec, I|].
      (* no Tie key at all is present: it would have won alone *)
      assert (Hnokt : forall l' s', ~ In (KT l', s') (fold_left kdec (map K l) sel)).
      { intros l' s' Hin. destruct (fold_kdec_le _ _ _ _ Hin) as (s0 & Hin' & _).
        pose proof (krem_tie_pos sel l' s0 I Hin') as Hpos. pose proof (Hmax _ _ Hin') as Hle.
        destruct l as [|c1 l1]; [simpl in Hlen; lia|].
        destruct (Hmem (K c1) (or_introl eq_refl)) as (s1 & Hs1 & E1).
        pose proof (krem_plain_le sel c1 s1 I Hs1). lra. }
      pose proof (KI_fold (map K l) sel I) as I'. constructor.
      + apply tie_entry_nodup; [exact (ki_nd _ I)|exact Ekm].
      + intros c s Hin. apply in_app_or in Hin. destruct Hin as [Hin|[Hin|[]]]; [exact (ki_plain _ I' c s Hin)|discriminate].
      + intros l' s Hin. apply in_app_or in Hin. destruct Hin as [Hin|[Hin|[]]]; [destruct (Hnokt _ _ Hin)|].
        injection Hin as <- <-. rewrite map_length in Hlen. lia.
      + intros l1 s1 l2 s2 H1 H2. apply in_app_or in H1, H2.
        destruct H1 as [H1|[H1|[]]]; [destruct (Hnokt _ _ H1)|].
        destruct H2 as [H2|[H2|[]]]; [destruct (Hnokt _ _ H2)|]. congruence.
  Qed.

  (* the loop started on a plain dictionary *)
  Theorem subtract_modelled fuel (sel : list (C * Z)) over :
    NoDup (map fst sel) ->
    (forall c s, In (c, s) sel -> (q * inject_Z (s + dget_or prev c 0)%Z <= dget_or votes c 0%Q)%Q) ->
    subtract fuel votes q prev sel over <> QD_unmodelled.
  Proof.
    intros Hnd Hw. rewrite subtract_is_ksubtract. apply ksubtract_modelled. constructor.
    - apply keys_plain, Hnd.
    - intros c s Hin. apply in_plain in Hin. destruct Hin as (c' & [= <-] & Hin). exact (Hw c s Hin).
    - intros l s Hin. apply in_plain in Hin. destruct Hin as (? & [=] & _).
    - intros l s l' s' Hin. apply in_plain in Hin. destruct Hin as (? & [=] & _).
  Qed.
End LOOP.

Theorem subtract_spec votes q prev fuel (sel : list (C * Z)) over res :
  NoDup (map fst sel) -> subtract fuel votes q prev sel over = QD_ok res ->
  NoDup (keys res) /\ (0 <= over -> ksum res = zsumv sel - over) /\
  forall c s, In (K c, s) res -> exists s0, In (c, s0) sel /\ s <= s0.
Proof.
  intros Hnd. rewrite subtract_is_ksubtract, <- ksum_plain. intros Hr.
  destruct (ksubtract_spec votes q prev fuel (plain sel) over res (keys_plain sel Hnd) Hr) as (Hn & Hs & Hb).
  split; [exact Hn|]. split; [exact Hs|]. intros c s H. destruct (Hb c s H) as (s0 & H0 & L0).
  apply in_plain in H0. destruct H0 as (c' & [= <-] & H0). exists s0. split; [exact H0|exact L0].
Qed.

Section QD2.
  Variable quota : Q -> Z -> Q.
  Variable accept_equal : bool.

  Lemma scan_nodup votes q prev caps : forall sel,
    NoDup (map fst sel) -> NoDup (map fst (scan accept_equal votes q prev caps sel)).
  Proof.
    induction votes as [|[c v] t IH]; intros sel H; cbn [scan]; [exact H|].
    apply IH.
    destruct (fulfills accept_equal v q); [|exact H].
    destruct (0 <? _); [|exact H].
    apply dset_nodup, H.
  Qed.

  Lemma fulfills_ge v q : fulfills accept_equal v q = true -> (q <= v)%Q.
  Proof.
    unfold fulfills. intros H. apply orb_true_iff in H. destruct H as [H|H].
    - apply negb_true_iff in H. destruct (Qlt_le_dec q v) as [Hl|Hg]; [apply Qlt_le_weak, Hl|].
      apply Qle_bool_iff in Hg. rewrite Hg in H. discriminate.
    - apply andb_true_iff in H. destruct H as [_ H]. apply Qeq_bool_iff in H. rewrite H. apply Qle_refl.
  Qed.

  (* on_overaward = 'subtract', positive quota, any caps: the over-award loop is fully modelled (no Tie of a
     Tie can arise) and a finished loop leaves exactly the seats to fill *)
  Theorem qd_subtract_capped votes n prev caps :
    let q := quota (qsumv votes) n in
    (0 < q)%Q -> NoDup (map fst votes) ->
    qd_evaluate quota accept_equal PSubtract votes n prev caps <> QD_unmodelled /\
    exists sel,
      (forall c v, In (c, v) votes -> dget_or sel c 0 = cap_add accept_equal q prev caps c v) /\
      (forall c, ~ In c (map fst votes) -> dget_or sel c 0 = 0) /\
      forall res, qd_evaluate quota accept_equal PSubtract votes n prev caps = QD_ok res ->
        ksum res + zsumv prev = Z.min n (zsumv sel + zsumv prev).
  Proof.
    intros q Hq Hnd. unfold qd_evaluate. fold q.
    rewrite (Qeq_bool_false q 0 (Qnot_eq_sym _ _ (Qlt_not_eq _ _ Hq))). cbn [andb].
    destruct (scan_spec accept_equal votes q prev caps [] Hnd) as (Hv & Hn & Hin).
    { intros; reflexivity. }
    pose proof (scan_nodup votes q prev caps [] (NoDup_nil _)) as Hnds.
    set (sel := scan accept_equal votes q prev caps []) in *.
    assert (Hw : forall c s, In (c, s) sel -> (q * inject_Z (s + dget_or prev c 0)%Z <= dget_or votes c 0%Q)%Q).
    { intros c s Hcs. destruct (Hin c s Hcs) as [[]|(Hs0 & v & Hcv)].
      assert (Hg : dget_or sel c 0 = s) by (unfold dget_or; rewrite (In_dget sel c s Hnds Hcs); reflexivity).
      assert (Hgv : dget_or votes c 0%Q = v) by (unfold dget_or; rewrite (In_dget votes c v Hnd Hcv); reflexivity).
      rewrite Hgv. rewrite (Hv c v Hcv) in Hg. unfold cap_add in Hg.
      destruct (fulfills accept_equal v q) eqn:Ef; [|lia].
      destruct (0 <? cap_whole caps c (py_trunc (v / q)) - dget_or prev c 0) eqn:Ea; [|lia].
      pose proof (fulfills_ge v q Ef) as Hge.
      assert (Hpos : (0 <= v / q)%Q) by (apply Qle_shift_div_l; [exact Hq|lra]).
      rewrite (py_trunc_floor _ Hpos) in Hg.
      assert (Hle : s + dget_or prev c 0 <= Qfloor (v / q)).
      { unfold cap_whole in Hg. destruct (dget caps c) as [m|]; lia. }
      assert (Hm : (q * inject_Z (s + dget_or prev c 0)%Z <= q * (v / q))%Q).
      { apply Qmult_le_l; [exact Hq|]. eapply Qle_trans; [|exact (Qfloor_le (v / q))]. rewrite <- Zle_Qle. exact Hle. }
      assert (Hd : (q * (v / q) == v)%Q) by (field; lra).
      rewrite Hd in Hm. exact Hm. }
    split.
    - destruct (n <? zsumv sel + zsumv prev); [|discriminate].
      apply (subtract_modelled votes q prev Hq _ sel _ Hnds Hw).
    - exists sel. split; [exact Hv|]. split; [exact Hn|].
      intros res. destruct (n <? zsumv sel + zsumv prev) eqn:E.
      + apply Z.ltb_lt in E. intros Hr.
        destruct (subtract_spec votes q prev _ sel _ res Hnds Hr) as (_ & Hs & _). rewrite Hs; lia.
      + apply Z.ltb_ge in E. intros [= <-]. fold (plain sel). rewrite ksum_plain. lia.
  Qed.

  (* ... in particular on the domain where no whole-quota count exceeds a cap *)
  Theorem qd_subtract_domain votes n prev caps :
    let q := quota (qsumv votes) n in
    (0 < q)%Q -> NoDup (map fst votes) -> no_overshoot accept_equal votes q n prev caps ->
    qd_evaluate quota accept_equal PSubtract votes n prev caps <> QD_unmodelled /\
    exists sel,
      (forall c v, In (c, v) votes -> dget_or sel c 0 = whole_add accept_equal q prev c v) /\
      (forall c, ~ In c (map fst votes) -> dget_or sel c 0 = 0) /\
      forall res, qd_evaluate quota accept_equal PSubtract votes n prev caps = QD_ok res ->
        ksum res + zsumv prev = Z.min n (zsumv sel + zsumv prev).
  Proof.
    intros q Hq Hnd Hno. destruct (qd_subtract_capped votes n prev caps Hq Hnd) as (Hm & sel & Hv & Hn & Hr).
    split; [exact Hm|]. exists sel. split; [|split; [exact Hn|exact Hr]].
    intros c v Hcv. fold q in Hv. rewrite (Hv c v Hcv). apply (cap_add_no_overshoot accept_equal votes q n prev caps c v Hno Hcv).
  Qed.
End QD2.
