(* InvalidVoteEliminator (Model/Validate.v eliminate, convert.py L826-843) as a vote converter (C13): a filter.
   Every ballot is judged on its own by the validator; a ballot it accepts passes with its count, a ballot it rejects with a
   VoteError is dropped, a CandidateError (or a crash of the validator) ends the conversion.  Hence the conversion of the union
   of two profiles is the union of the conversions, and the weight of the valid ballots is conserved. *)
From Coq Require Import ZArith List Bool Lia.
From VL Require Import Model.Validate.
Import ListNotations.
Open Scope Z_scope.

Definition passes (validate : pyobj -> vresult) (bn : pyobj * Z) : bool :=
  match validate (fst bn) with VOk => true | _ => false end.
Definition weight (votes : list (pyobj * Z)) : Z := fold_right (fun bn acc => snd bn + acc) 0 votes.

(* per-ballot image *)
Lemma eliminate_single validate b n :
  eliminate validate [(b, n)] =
  match validate b with VOk => EOk [(b, n)] | VVoteError => EOk [] | VCandError => ECandError | VCrash => ECrash end.
Proof. cbn [eliminate]. destruct (validate b); reflexivity. Qed.

(* what comes out is the sub-profile of the ballots the validator accepts, counts untouched *)
Lemma eliminate_filter validate votes kept : eliminate validate votes = EOk kept -> kept = filter (passes validate) votes.
Proof.
  revert kept. induction votes as [|[b n] votes IH]; intros kept H; cbn [eliminate] in H.
  - injection H as <-. reflexivity.
  - cbn [filter]. unfold passes at 1. cbn [fst].
    destruct (validate b) eqn:E; try discriminate;
      (destruct (eliminate validate votes) as [k| |] eqn:E2; try discriminate; injection H as <-; rewrite (IH k eq_refl); reflexivity).
Qed.

(* the conversion of a union: the first profile that fails decides, otherwise the conversions are joined *)
Lemma eliminate_app_eq validate a b :
  eliminate validate (a ++ b) =
  match eliminate validate a, eliminate validate b with
  | EOk ka, EOk kb => EOk (ka ++ kb)
  | EOk _, e => e
  | e, _ => e
  end.
Proof.
  induction a as [|[x n] a IH]; cbn [eliminate app]; [destruct (eliminate validate b); reflexivity|].
  rewrite IH. destruct (validate x), (eliminate validate a); try reflexivity; destruct (eliminate validate b); reflexivity.
Qed.

Lemma eliminate_app validate a b ka kb : eliminate validate a = EOk ka -> eliminate validate b = EOk kb ->
  eliminate validate (a ++ b) = EOk (ka ++ kb).
Proof. intros Ha Hb. rewrite eliminate_app_eq, Ha, Hb. reflexivity. Qed.

(* ... and nothing else can come out of the union *)
Lemma eliminate_app_inv validate a b k : eliminate validate (a ++ b) = EOk k ->
  exists ka kb, eliminate validate a = EOk ka /\ eliminate validate b = EOk kb /\ k = ka ++ kb.
Proof.
  rewrite eliminate_app_eq. destruct (eliminate validate a) as [ka| |], (eliminate validate b) as [kb| |]; try discriminate.
  intros [= <-]. exists ka, kb. auto.
Qed.

(* a profile of valid ballots passes unchanged: no vote lost, none doubled *)
Lemma eliminate_valid validate votes : (forall bn, In bn votes -> validate (fst bn) = VOk) -> eliminate validate votes = EOk votes.
Proof.
  induction votes as [|[b n] votes IH]; intros H; cbn [eliminate]; [reflexivity|].
  assert (Hb := H (b, n) (or_introl eq_refl)). cbn [fst] in Hb. rewrite Hb, IH; [reflexivity|]. intros bn Hin. apply H. right. exact Hin.
Qed.

Lemma weight_app a b : weight (a ++ b) = weight a + weight b.
Proof. unfold weight. induction a as [|x a IH]; cbn [app fold_right]; [reflexivity|]. rewrite IH. ring. Qed.

(* the weight that comes out is the weight of the valid ballots *)
Lemma eliminate_weight validate votes kept : eliminate validate votes = EOk kept ->
  weight kept = weight (filter (passes validate) votes).
Proof. intros H. rewrite (eliminate_filter validate votes kept H). reflexivity. Qed.
