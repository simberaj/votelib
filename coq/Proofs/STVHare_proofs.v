(* The Hare (random whole-ballot) transferer: the moves of a count on the allocation
   (Model/STVHare.v: move_h, pour_h, transfer_h, subtract_h, initial_allocation_h) conserve the
   weight, keep the weights whole and non-negative and keep every ballot at its resting place -
   for EVERY oracle. *)
From Coq Require Import ZArith QArith Qround Qreduction Setoid List Bool Arith Lia Lqa.
From VL Require Import Prelude.PyDict Model.GetNBest Model.Convert Model.STV Model.STVHare
     Proofs.Dict_proofs Proofs.Threshold_proofs Proofs.STV_proofs Proofs.STV_resting_proofs Proofs.STVHare_draws_proofs.
Import ListNotations.
Open Scope Q_scope.

Definition gives (a : alloc) (b : ballot) (L : list (option C * Q)) : alloc :=
  fold_left (fun a ks => alloc_add a (fst ks) b (snd ks)) L a.
Definition lsum (L : list (option C * Q)) : Q := fold_right (fun ks acc => snd ks + acc) 0 L.

Lemma gives_sum b L : forall a, asum (gives a b L) == asum a + lsum L.
Proof.
  induction L as [|[k s] L IH]; intros a; [simpl; ring|].
  change (gives a b ((k, s) :: L)) with (gives (alloc_add a k b s) b L). rewrite IH, alloc_add_sum. simpl. ring.
Qed.

Lemma gives_keys b L : forall a, NoDup (akeys a) ->
  NoDup (akeys (gives a b L)) /\ (forall x, In x (akeys (gives a b L)) <-> In x (map fst L) \/ In x (akeys a)).
Proof.
  induction L as [|[k s] L IH]; intros a Hn.
  - split; [exact Hn|]. intros x. simpl. tauto.
  - change (gives a b ((k, s) :: L)) with (gives (alloc_add a k b s) b L).
    destruct (alloc_add_keys a k b s Hn) as [H1 H2]. destruct (IH _ H1) as [H3 H4]. split; [exact H3|].
    intros x. rewrite H4, H2. simpl. split; [intros [H|[->|H]]|intros [[<-|H]|H]]; auto.
Qed.

Lemma gives_get_other b c L : forall a, ~ In (Some c) (map fst L) ->
  alloc_get (gives a b L) (Some c) = alloc_get a (Some c).
Proof.
  intros a Hn. unfold gives. apply (fold_left_inv (fun a' => alloc_get a' (Some c) = alloc_get a (Some c))); [|reflexivity].
  intros a0 [k s] Hin H0. cbn [fst snd]. rewrite <- H0.
  apply alloc_add_get_other. intros <-. apply Hn. exact (in_map fst _ _ Hin).
Qed.

Lemma gives_holds b0 L k b : forall a, holds (gives a b0 L) k b -> holds a k b \/ (b = b0 /\ In k (map fst L)).
Proof.
  intros a. unfold gives.
  apply (fold_left_inv (fun a' => holds a' k b -> holds a k b \/ (b = b0 /\ In k (map fst L)))); [|auto].
  intros a0 [k1 s1] Hin H0 H. cbn [fst snd] in H.
  destruct (alloc_add_holds _ _ _ _ _ _ H) as [H1|[-> ->]]; [exact (H0 H1)|].
  right. split; [reflexivity|exact (in_map fst _ _ Hin)].
Qed.

Lemma gives_keys_some b L : forall a, incl (keys_some (gives a b L)) (flat_map okey_list (map fst L) ++ keys_some a).
Proof.
  intros a. unfold gives.
  apply (fold_left_inv (fun a' => incl (keys_some a') (flat_map okey_list (map fst L) ++ keys_some a))); [|apply incl_appr, incl_refl].
  intros a0 [k s] Hin H0 x Hx. cbn [fst snd] in Hx. apply alloc_add_keys_some in Hx. apply in_app_or in Hx.
  destruct Hx as [Hx|Hx]; [|exact (H0 x Hx)].
  apply in_or_app. left. apply in_flat_map. exists k. split; [exact (in_map fst _ _ Hin)|exact Hx].
Qed.

Lemma pile_add_whole p b w : pile_whole p -> whole_nonneg w = true -> pile_whole (pile_add p b w).
Proof.
  unfold pile_whole. induction 1 as [|[b' w'] p Hw Hp IH]; intros H0; simpl; [constructor; [exact H0|constructor]|].
  destruct (ballot_eqb b b'); constructor; simpl in *; try assumption.
  - apply whole_nonneg_add; assumption.
  - apply IH. exact H0.
Qed.

Lemma alloc_add_whole a k b w : alloc_whole a -> whole_nonneg w = true -> alloc_whole (alloc_add a k b w).
Proof.
  unfold alloc_whole. induction 1 as [|[k' p] a Hp Ha IH]; intros H0; simpl.
  - constructor; [|constructor]. simpl. constructor; [exact H0|constructor].
  - destruct (okey_eqb k k'); constructor; simpl in *; try assumption.
    + apply pile_add_whole; assumption.
    + apply IH. exact H0.
Qed.

Lemma gives_whole b L : forall a, alloc_whole a -> (forall k s, In (k, s) L -> whole_nonneg s = true) ->
  alloc_whole (gives a b L).
Proof.
  intros a Ha HL. unfold gives. apply fold_left_inv; [|exact Ha].
  intros a0 [k s] Hin H0. apply alloc_add_whole; [exact H0|exact (HL k s Hin)].
Qed.

Lemma alloc_get_whole a k p : alloc_whole a -> alloc_get a k = Some p -> pile_whole p.
Proof.
  unfold alloc_whole. induction 1 as [|[k' q] a Hq Ha IH]; simpl; [discriminate|].
  destruct (okey_eqb k k'); [intros [= <-]; exact Hq|exact IH].
Qed.

Lemma give_gives a b shares : give a b shares = gives a b (map (fun tn : C * Q => (Some (fst tn), snd tn)) shares).
Proof. unfold give, gives. revert a. induction shares as [|[t s] sh IH]; intros a; simpl; [reflexivity|apply IH]. Qed.

(* move_h is a hand-out of shares that add up to the weight of the ballot, to targets only *)
Lemma move_h_gives a T b w o a' o' : move_h a T b w o = HOk a' o' ->
  exists L, a' = gives a b L /\ lsum L == w /\
    (forall k, In k (map fst L) -> match k with None => T = [] | Some t => In t T end) /\
    (whole_nonneg w = true -> forall k s, In (k, s) L -> whole_nonneg s = true).
Proof.
  unfold move_h. destruct T as [|t [|t2 T]].
  - intros [= <- <-]. exists [(None, w)]. split; [reflexivity|]. split; [simpl; ring|]. split.
    + intros k [<-|[]]. reflexivity.
    + intros Hw k s [[= <- <-]|[]]. exact Hw.
  - intros [= <- <-]. exists [(Some t, w)]. split; [reflexivity|]. split; [simpl; ring|]. split.
    + intros k [<-|[]]. left. reflexivity.
    + intros Hw k s [[= <- <-]|[]]. exact Hw.
  - destruct (hare_split (t :: t2 :: T) w o) as [shares o1|s] eqn:Es; [|discriminate]. intros [= <- <-].
    destruct (hare_split_spec _ _ _ _ _ Es) as (S1 & S2 & S3).
    exists (map (fun tn : C * Q => (Some (fst tn), snd tn)) shares). split; [apply give_gives|]. split; [|split].
    + rewrite <- S1. clear. induction shares as [|[t0 s0] sh IH]; simpl; [reflexivity|]. unfold lsum in IH. rewrite IH. reflexivity.
    + intros k Hk. rewrite map_map in Hk. apply in_map_iff in Hk. destruct Hk as ([t0 s0] & <- & Hin). simpl.
      exact (S2 t0 s0 Hin).
    + intros Hw k s Hin. apply in_map_iff in Hin. destruct Hin as ([t0 s0] & [= <- <-] & Hin). exact (S3 Hw t0 s0 Hin).
Qed.

Lemma move_h_sum a T b w o a' o' : move_h a T b w o = HOk a' o' -> asum a' == asum a + w.
Proof. intros H. destruct (move_h_gives _ _ _ _ _ _ _ H) as (L & -> & HL & _). rewrite gives_sum, HL. reflexivity. Qed.

Lemma move_h_keep a T b w o a' o' c : ~ In c T -> NoDup (akeys a) -> move_h a T b w o = HOk a' o' ->
  alloc_get a' (Some c) = alloc_get a (Some c) /\ NoDup (akeys a').
Proof.
  intros Hc Hn H. destruct (move_h_gives _ _ _ _ _ _ _ H) as (L & -> & _ & HT & _). split.
  - apply gives_get_other. intros Hin. exact (Hc (HT _ Hin)).
  - apply gives_keys, Hn.
Qed.

Lemma move_h_whole a T b w o a' o' : alloc_whole a -> whole_nonneg w = true -> move_h a T b w o = HOk a' o' -> alloc_whole a'.
Proof.
  intros Ha Hw H. destruct (move_h_gives _ _ _ _ _ _ _ H) as (L & -> & _ & _ & HL). apply gives_whole; [exact Ha|exact (HL Hw)].
Qed.

Lemma move_h_holds a T b0 w0 o a' o' k b : move_h a T b0 w0 o = HOk a' o' -> holds a' k b ->
  holds a k b \/ (b = b0 /\ ((T = [] /\ k = None) \/ exists t, In t T /\ k = Some t)).
Proof.
  intros H Hh. destruct (move_h_gives _ _ _ _ _ _ _ H) as (L & -> & _ & HT & _).
  destruct (gives_holds _ _ _ _ _ Hh) as [H1|[-> H1]]; [left; exact H1|right]. split; [reflexivity|].
  specialize (HT k H1). destruct k as [t|]; [right; exists t; auto|left; auto].
Qed.

Lemma move_h_keys_some a T b w o a' o' : move_h a T b w o = HOk a' o' -> incl (keys_some a') (T ++ keys_some a).
Proof.
  intros H. destruct (move_h_gives _ _ _ _ _ _ _ H) as (L & -> & _ & HT & _).
  intros x Hx. apply gives_keys_some in Hx. apply in_app_or in Hx. apply in_or_app. destruct Hx as [Hx|Hx]; [left|right; exact Hx].
  apply in_flat_map in Hx. destruct Hx as (k & Hk & Hx). specialize (HT k Hk). destruct k as [t|]; [|destruct Hx].
  destruct Hx as [<-|[]]. exact HT.
Qed.

Lemma pour_h_conserves cont c : ~ In c cont -> forall p a o a' o', NoDup (akeys a) ->
  pour_h cont c p a o = HOk a' o' ->
  asum a' == asum a + wsum p /\ alloc_get a' (Some c) = alloc_get a (Some c) /\ NoDup (akeys a').
Proof.
  intros Hc. induction p as [|[b w] p IH]; intros a o a' o' Hn; cbn [pour_h].
  - intros [= <- <-]. split; [simpl; ring|]. split; [reflexivity|exact Hn].
  - cbn [fst snd]. destruct (move_h a (ranked_next b c cont) b w o) as [a1 o1|s] eqn:Em; [|discriminate]. intros Hp.
    assert (Hnc : ~ In c (ranked_next b c cont)) by (intros H; apply Hc, (ranked_next_allowed b c cont), H).
    destruct (move_h_keep _ _ _ _ _ _ _ c Hnc Hn Em) as [K1 K2].
    destruct (IH _ _ _ _ K2 Hp) as (H1 & H2 & H3). split; [|split; [rewrite H2; exact K1|exact H3]].
    rewrite H1, (move_h_sum _ _ _ _ _ _ _ Em). simpl. ring.
Qed.

Lemma pour_h_whole cont c : forall p a o a' o', alloc_whole a -> pile_whole p ->
  pour_h cont c p a o = HOk a' o' -> alloc_whole a'.
Proof.
  induction p as [|[b w] p IH]; intros a o a' o' Ha Hp; cbn [pour_h]; [intros [= <- <-]; exact Ha|].
  cbn [fst snd]. destruct (move_h a (ranked_next b c cont) b w o) as [a1 o1|s] eqn:Em; [|discriminate].
  inversion Hp; subst. apply IH; [|assumption]. eapply move_h_whole; eassumption.
Qed.

Lemma pour_h_TJ K cont (Hcont : incl cont K) c rem : In c K -> (forall x, In x (c :: rem) -> ~ In x cont) ->
  forall q a0 o a' o', TJ K cont (c :: rem) a0 ->
  (forall b w, In (b, w) q -> plainb b = true -> rests_at K (Some c) b) ->
  pour_h cont c q a0 o = HOk a' o' -> TJ K cont (c :: rem) a'.
Proof.
  intros Hc Hdis. induction q as [|[b0 w0] q IH]; intros a0 o a' o' HJ Hq; cbn [pour_h]; [intros [= <- <-]; exact HJ|].
  cbn [fst snd]. destruct (move_h a0 (ranked_next b0 c cont) b0 w0 o) as [a1 o1|s] eqn:Em; [|discriminate].
  apply IH; [|intros b w H; apply (Hq b w); right; exact H].
  destruct HJ as (J1 & J2 & J3). split; [|split].
  - intros k b Hh Hp. destruct (move_h_holds _ _ _ _ _ _ _ _ _ Em Hh) as [H1|(-> & Hk)]; [exact (J1 k b H1 Hp)|].
    destruct (ranked_next_rests K cont c b0 Hp (Hq b0 w0 (or_introl eq_refl) Hp) Hc Hcont (Hdis c (or_introl eq_refl))) as [R1 R2].
    destruct Hk as [[Hn ->]|(t & Ht & ->)]; [exact (R1 Hn)|exact (R2 t Ht)].
  - intros c2 b Hc2 Hh Hp. destruct (move_h_holds _ _ _ _ _ _ _ _ _ Em Hh) as [H1|(-> & Hk)]; [exact (J2 c2 b Hc2 H1 Hp)|].
    exfalso. destruct Hk as [[_ [=]]|(t & Ht & [= ->])].
    apply (Hdis t Hc2). exact (ranked_next_allowed b0 c cont t Ht).
  - intros x Hx. apply (move_h_keys_some _ _ _ _ _ _ _ Em) in Hx. apply in_app_or in Hx. destruct Hx as [Hx|Hx]; [|exact (J3 x Hx)].
    apply in_or_app. left. exact (ranked_next_allowed b0 c cont x Hx).
Qed.

Lemma transfer_loop_conserves cont : forall rem a o a' o', (forall c, In c rem -> ~ In c cont) -> NoDup (akeys a) ->
  transfer_loop cont rem a o = HOk a' o' -> asum a' == asum a /\ NoDup (akeys a').
Proof.
  induction rem as [|c rem IH]; intros a o a' o' Hd Hn; cbn [transfer_loop]; [intros [= <- <-]; split; [reflexivity|exact Hn]|].
  destruct (pour_h cont c _ a o) as [a1 o1|s] eqn:Ep; [|discriminate]. intros Ht.
  destruct (pour_h_conserves cont c (Hd c (or_introl eq_refl)) _ _ _ _ _ Hn Ep) as (P1 & P2 & P3).
  assert (Hdel : asum (alloc_del a1 (Some c)) == asum a /\ NoDup (akeys (alloc_del a1 (Some c)))).
  { destruct (alloc_get a (Some c)) as [p|] eqn:Eg.
    - destruct (alloc_del_sum a1 (Some c) p P3 P2) as [D1 D2]. split; [rewrite D1, P1; ring|exact D2].
    - rewrite (alloc_del_none _ _ P2). split; [rewrite P1; simpl; ring|exact P3]. }
  destruct Hdel as [D1 D2]. destruct (IH _ _ _ _ (fun x Hx => Hd x (or_intror Hx)) D2 Ht) as [I1 I2].
  split; [rewrite I1; exact D1|exact I2].
Qed.

Lemma transfer_split a elim :
  (forall c, In c (filter (fun c => cmem c elim) (keys_some a)) -> ~ In c (filter (fun c => negb (cmem c elim)) (keys_some a))).
Proof.
  intros c Hc Hin. apply filter_In in Hc. apply filter_In in Hin. destruct Hc as [_ H1], Hin as [_ H2].
  rewrite H1 in H2. discriminate.
Qed.

Theorem transfer_h_conserves a elim o a' o' : NoDup (akeys a) -> transfer_h a elim o = HOk a' o' ->
  asum a' == asum a /\ NoDup (akeys a').
Proof. intros Hn. unfold transfer_h. apply transfer_loop_conserves; [apply transfer_split|exact Hn]. Qed.

Lemma transfer_h_nil a o : transfer_h a [] o = HOk a o.
Proof.
  unfold transfer_h. replace (filter (fun c => cmem c []) (keys_some a)) with (@nil C); [reflexivity|].
  induction (keys_some a) as [|x l IH]; [reflexivity|exact IH].
Qed.

Lemma alloc_del_whole a k : alloc_whole a -> alloc_whole (alloc_del a k).
Proof.
  unfold alloc_whole, alloc_del. intros H. apply Forall_forall. intros x Hx. apply filter_In in Hx.
  rewrite Forall_forall in H. apply H, Hx.
Qed.

Lemma transfer_loop_whole cont : forall rem a o a' o', alloc_whole a -> transfer_loop cont rem a o = HOk a' o' -> alloc_whole a'.
Proof.
  induction rem as [|c rem IH]; intros a o a' o' Ha; cbn [transfer_loop]; [intros [= <- <-]; exact Ha|].
  destruct (pour_h cont c _ a o) as [a1 o1|s] eqn:Ep; [|discriminate]. apply IH. apply alloc_del_whole.
  eapply pour_h_whole; [exact Ha| |exact Ep].
  destruct (alloc_get a (Some c)) eqn:E; [eapply alloc_get_whole; eassumption|constructor].
Qed.

Theorem transfer_h_whole a elim o a' o' : alloc_whole a -> transfer_h a elim o = HOk a' o' -> alloc_whole a'.
Proof. unfold transfer_h. apply transfer_loop_whole. Qed.

Lemma transfer_loop_TJ K cont (Hcont : incl cont K) : forall rem, (forall x, In x rem -> In x K /\ ~ In x cont) ->
  forall a0 o a' o', TJ K cont rem a0 -> transfer_loop cont rem a0 o = HOk a' o' -> TJ K cont [] a'.
Proof.
  induction rem as [|c rem IH]; intros Hrem a0 o a' o' HJ; cbn [transfer_loop]; [intros [= <- <-]; exact HJ|].
  set (p := match alloc_get a0 (Some c) with Some p => p | None => [] end).
  destruct (pour_h cont c p a0 o) as [a1 o1|s] eqn:Ep; [|discriminate].
  apply IH; [intros x Hx; apply Hrem; right; exact Hx|].
  assert (Hp : forall b w, In (b, w) p -> plainb b = true -> rests_at K (Some c) b).
  { intros b w Hb Hpl. destruct HJ as (_ & J2 & _). apply (J2 c b (or_introl eq_refl)); [|exact Hpl].
    unfold p in Hb. destruct (alloc_get a0 (Some c)) as [p0|] eqn:E; [|destruct Hb].
    exists p0, w. split; [apply alloc_get_some_in, E|exact Hb]. }
  pose proof (pour_h_TJ K cont Hcont c rem (proj1 (Hrem c (or_introl eq_refl))) (fun x Hx => proj2 (Hrem x Hx)) p a0 o a1 o1 HJ Hp Ep) as (I1 & I2 & I3).
  split; [|split].
  - intros k b Hh. apply alloc_del_holds in Hh. exact (I1 k b (proj1 Hh)).
  - intros c2 b Hc2 Hh. apply alloc_del_holds in Hh. exact (I2 c2 b (or_intror Hc2) (proj1 Hh)).
  - intros x Hx. apply alloc_del_keys_some in Hx. destruct Hx as [Hx Hne]. apply I3 in Hx.
    apply in_app_or in Hx. apply in_or_app. destruct Hx as [Hx|[Hx|Hx]]; [left; exact Hx|congruence|right; exact Hx].
Qed.

Lemma transfer_h_TJ a elim o a' o' : resting_ok a -> transfer_h a elim o = HOk a' o' ->
  TJ (keys_some a) (filter (fun c => negb (cmem c elim)) (keys_some a)) [] a'.
Proof.
  intros Hr. rewrite resting_ok_holds in Hr. unfold transfer_h.
  set (K := keys_some a). set (cont := filter (fun c => negb (cmem c elim)) K). set (rem := filter (fun c => cmem c elim) K).
  assert (Hcont : incl cont K) by (intros x Hx; apply filter_In in Hx; tauto).
  assert (Hrem : forall x, In x rem -> In x K /\ ~ In x cont).
  { intros x Hx. split; [apply filter_In in Hx; tauto|]. exact (transfer_split a elim x Hx). }
  assert (H0 : TJ K cont rem a).
  { split; [|split].
    - intros k b Hh Hp. apply (rests_at_anti K cont k b Hcont). exact (Hr k b Hh Hp).
    - intros c b _ Hh Hp. exact (Hr (Some c) b Hh Hp).
    - intros x Hx. apply in_or_app. destruct (cmem x elim) eqn:E; [right|left]; apply filter_In; rewrite E; auto. }
  exact (transfer_loop_TJ K cont Hcont rem Hrem a o a' o' H0).
Qed.

(* the keys only shrink in a transfer: what is left are keys of before outside the removed candidates *)
Theorem transfer_h_keys_shrink a elim o a' o' : resting_ok a -> transfer_h a elim o = HOk a' o' ->
  incl (keys_some a') (filter (fun c => negb (cmem c elim)) (keys_some a)).
Proof.
  intros Hr Ht. destruct (transfer_h_TJ _ _ _ _ _ Hr Ht) as (_ & _ & F3).
  intros x Hx. apply F3 in Hx. rewrite app_nil_r in Hx. exact Hx.
Qed.

Theorem transfer_h_resting a elim o a' o' : resting_ok a -> transfer_h a elim o = HOk a' o' -> resting_ok a'.
Proof.
  intros Hr Ht. destruct (transfer_h_TJ _ _ _ _ _ Hr Ht) as (F1 & _ & F3). apply resting_ok_holds.
  intros k b Hh Hp. apply (rests_at_anti (filter (fun c => negb (cmem c elim)) (keys_some a))); [|exact (F1 k b Hh Hp)].
  intros x Hx. apply F3 in Hx. rewrite app_nil_r in Hx. exact Hx.
Qed.

Lemma set_pile_get_other a c p' c0 : c0 <> c -> alloc_get (set_pile a c p') (Some c0) = alloc_get a (Some c0).
Proof.
  intros Hne. unfold set_pile. induction a as [|[k q] a IHa]; cbn -[okey_eqb]; [reflexivity|].
  destruct (okey_eqb (Some c) k) eqn:E; cbn -[okey_eqb].
  - apply okey_eqb_eq in E. subst k.
    assert (okey_eqb (Some c0) (Some c) = false) as -> by (apply not_true_iff_false; rewrite okey_eqb_eq; congruence).
    exact IHa.
  - destruct (okey_eqb (Some c0) k); [reflexivity|exact IHa].
Qed.

Theorem subtract_h_conserves elected : forall a o a' o', NoDup (akeys a) -> NoDup (map fst elected) ->
  subtract_h a elected o = HOk a' o' ->
  asum a' == asum a - fold_right (fun ca acc => snd ca + acc) 0 elected /\ akeys a' = akeys a.
Proof.
  induction elected as [|[c amt] t IH]; intros a o a' o' Hnd Hd; cbn [subtract_h].
  - intros [= <- <-]. split; [simpl; ring|reflexivity].
  - destruct (alloc_get a (Some c)) as [p|] eqn:Eg; [|discriminate].
    destruct (hare_subtract p amt o) as [p' o1|s] eqn:Es; [|discriminate]. intros Hsub.
    destruct (replace_pile_sum a c p p' Hnd Eg) as [H1 H2]. fold (set_pile a c p') in H1, H2.
    inversion Hd as [|? ? Hc Hd']; subst.
    destruct (IH (set_pile a c p') o1 a' o') as [H3 H4]; [unfold akeys in *; rewrite H2; exact Hnd|exact Hd'|exact Hsub|].
    split; [|rewrite H4; exact H2]. rewrite H3, H1.
    destruct (hare_subtract_spec _ _ _ _ _ Es) as (_ & _ & S3 & _). rewrite S3. simpl. ring.
Qed.

Lemma set_pile_whole a c p' : alloc_whole a -> pile_whole p' -> alloc_whole (set_pile a c p').
Proof.
  unfold alloc_whole, set_pile. intros Ha Hp. induction Ha as [|[k q0] a Hq Ha IHa]; cbn -[okey_eqb]; [constructor|].
  constructor; [|exact IHa]. destruct (okey_eqb (Some c) k); simpl; assumption.
Qed.

Theorem subtract_h_whole elected : forall a o a' o', alloc_whole a -> subtract_h a elected o = HOk a' o' -> alloc_whole a'.
Proof.
  induction elected as [|[c amt] t IH]; intros a o a' o' Ha; cbn [subtract_h]; [intros [= <- <-]; exact Ha|].
  destruct (alloc_get a (Some c)) as [p|] eqn:Eg; [|discriminate].
  destruct (hare_subtract p amt o) as [p' o1|s] eqn:Es; [|discriminate].
  apply IH. apply set_pile_whole; [exact Ha|]. destruct (hare_subtract_spec _ _ _ _ _ Es) as (_ & S2 & _). exact S2.
Qed.

(* a pile replaced by some of its own ballots holds nothing new *)
Lemma set_pile_holds a c p p' k b : alloc_get a (Some c) = Some p ->
  (forall b w, In (b, w) p' -> exists w0, In (b, w0) p) -> holds (set_pile a c p') k b -> holds a k b.
Proof.
  intros Eg Hp (q & w & Hq & Hb). unfold set_pile in Hq. apply in_map_iff in Hq. destruct Hq as ([k0 q0] & Heq & Hin).
  cbn [fst snd] in Heq. destruct (okey_eqb (Some c) k0) eqn:E.
  - apply okey_eqb_eq in E. subst k0. injection Heq as <- <-.
    destruct (Hp b w Hb) as (w0 & Hw0). exists p, w0. split; [apply alloc_get_some_in, Eg|exact Hw0].
  - injection Heq as <- <-. exists q0, w. auto.
Qed.

(* drawing ballots away from a pile keeps every remaining ballot where it is *)
Theorem subtract_h_resting elected : forall a o a' o', resting_ok a -> subtract_h a elected o = HOk a' o' -> resting_ok a'.
Proof.
  induction elected as [|[c amt] t IH]; intros a o a' o' Hr; cbn [subtract_h]; [intros [= <- <-]; exact Hr|].
  destruct (alloc_get a (Some c)) as [p|] eqn:Eg; [|discriminate].
  destruct (hare_subtract p amt o) as [p' o1|s] eqn:Es; [|discriminate].
  apply IH. clear IH. rewrite resting_ok_holds in Hr. apply resting_ok_holds.
  assert (Hk : keys_some (set_pile a c p') = keys_some a).
  { unfold set_pile, keys_some. clear. induction a as [|[k q] a IHa]; cbn -[okey_eqb]; [reflexivity|].
    rewrite IHa. destruct (okey_eqb (Some c) k); reflexivity. }
  rewrite Hk. intros k b Hb. apply Hr. revert Hb. apply (set_pile_holds _ _ _ _ _ _ Eg), (hare_subtract_spec _ _ _ _ _ Es).
Qed.

Definition votes_whole (votes : list (ballot * Q)) : Prop := forall b w, In (b, w) votes -> whole_nonneg w = true.
Definition votes_wholeb (votes : list (ballot * Q)) : bool := forallb (fun bw => whole_nonneg (snd bw)) votes.
Lemma votes_wholeb_spec votes : votes_wholeb votes = true <-> votes_whole votes.
Proof.
  unfold votes_wholeb, votes_whole. rewrite forallb_forall. split.
  - intros H b w Hin. exact (H (b, w) Hin).
  - intros H [b w] Hin. exact (H b w Hin).
Qed.

Lemma initial_direct_eq votes :
  initial_allocation votes =
  fold_left (fun a bw => match fst bw with
                         | IS _ :: _ => move_ballot a (next_after (fst bw) (all_ranked_candidates votes)) (fst bw) (snd bw)
                         | _ => a end) votes (initial_direct votes).
Proof. reflexivity. Qed.

Lemma empty_piles_spec (cands : list C) : NoDup cands ->
  let base : alloc := map (fun c => (Some c, [])) cands in
  NoDup (akeys base) /\ asum base == 0 /\ alloc_whole base /\ (forall k b, ~ holds base k b).
Proof.
  intros Hcnd base. unfold base, akeys. rewrite map_map. simpl. split; [|split; [|split]].
  - induction Hcnd as [|x l Hx _ IH]; simpl; constructor; [|exact IH].
    intros H. apply in_map_iff in H. destruct H as (y & [= ->] & Hy). exact (Hx Hy).
  - clear. induction cands as [|c l IH]; simpl; [reflexivity|]. rewrite IH. ring.
  - clear. unfold alloc_whole. induction cands as [|c l IH]; simpl; constructor; [constructor|exact IH].
  - intros k b (p & w & Hk & Hb). apply in_map_iff in Hk. destruct Hk as (c & [= <- <-] & _). destruct Hb.
Qed.

(* the part shared with the Gregory model: candidates' empty piles and the ballots with a plain first rank *)
Lemma initial_direct_spec votes :
  NoDup (akeys (initial_direct votes)) /\
  asum (initial_direct votes) == fold_right (fun bw acc => (match fst bw with IP _ :: _ => snd bw | _ => 0 end) + acc) 0 votes /\
  (votes_whole votes -> alloc_whole (initial_direct votes)) /\
  (forall k b, holds (initial_direct votes) k b -> exists c t, k = Some c /\ b = IP c :: t).
Proof.
  unfold initial_direct. destruct (empty_piles_spec _ (all_ranked_nodup votes)) as (B1 & B2 & B3 & B4).
  set (base := map _ (all_ranked_candidates votes)) in *. split; [|split; [|split]].
  - apply fold_left_inv; [|exact B1]. intros a [[|[c|l] t] w] _ Ha; try exact Ha. apply alloc_add_keys, Ha.
  - match goal with |- _ == ?s => transitivity (asum base + s); [|rewrite B2; ring] end. generalize base. clear.
    induction votes as [|[[|[c|l] t] w] vs IH]; intros a; cbn [fold_left fold_right fst snd]; [ring|rewrite IH; ring| |rewrite IH; ring].
    rewrite IH, alloc_add_sum. ring.
  - intros Hv. apply fold_left_inv; [|exact B3]. intros a [[|[c|l] t] w] Hin Ha; try exact Ha.
    apply alloc_add_whole; [exact Ha|exact (Hv _ _ Hin)].
  - apply (fold_left_inv (fun a => forall k b, holds a k b -> exists c t, k = Some c /\ b = IP c :: t));
      [|intros k b H; destruct (B4 k b H)].
    intros a [[|[c|l] t] w] _ Ha; try exact Ha. intros k b Hh.
    destruct (alloc_add_holds _ _ _ _ _ _ Hh) as [H|[-> ->]]; [exact (Ha k b H)|exists c, t; auto].
Qed.

(* an invariant of the allocation survives the splitting of the shared first ranks if every single move keeps it *)
Lemma initial_shared_inv (P : alloc -> Prop) cands votes :
  (forall a l t w o a' o', In (IS l :: t, w) votes -> P a ->
     move_h a (next_after (IS l :: t) cands) (IS l :: t) w o = HOk a' o' -> P a') ->
  forall a o a' o', P a -> initial_shared cands votes a o = HOk a' o' -> P a'.
Proof.
  induction votes as [|[b w] vs IH]; intros Hs a o a' o' Ha; cbn [initial_shared fst snd]; [intros [= <- <-]; exact Ha|].
  assert (Hs' := fun a l t w o a' o' Hin => Hs a l t w o a' o' (or_intror Hin)).
  destruct b as [|[c|l] t]; try exact (IH Hs' _ _ _ _ Ha).
  destruct (move_h a (next_after (IS l :: t) cands) (IS l :: t) w o) as [a1 o1|s] eqn:Em; [|discriminate].
  exact (IH Hs' _ _ _ _ (Hs _ _ _ _ _ _ _ (or_introl eq_refl) Ha Em)).
Qed.

Lemma initial_shared_spec cands : forall votes a o a' o', NoDup (akeys a) ->
  initial_shared cands votes a o = HOk a' o' ->
  NoDup (akeys a') /\
  asum a' == asum a + fold_right (fun bw acc => (match fst bw with IS _ :: _ => snd bw | _ => 0 end) + acc) 0 votes /\
  (votes_whole votes -> alloc_whole a -> alloc_whole a') /\
  (forall k b, holds a' k b -> holds a k b \/ exists l t, b = IS l :: t).
Proof.
  intros votes a o a' o' Ha Hi. split; [|split; [|split]].
  - revert Ha Hi. apply (initial_shared_inv (fun a => NoDup (akeys a))). intros a1 l t w o1 a2 o2 _ H1 Em.
    destruct (move_h_gives _ _ _ _ _ _ _ Em) as (L & -> & _). apply gives_keys, H1.
  - clear Ha. revert a o Hi.
    induction votes as [|[[|[c|l] t] w] vs IH]; intros a o; cbn [initial_shared fold_right fst snd];
      [intros [= <- <-]; ring|intros H; rewrite (IH _ _ H); ring|intros H; rewrite (IH _ _ H); ring|].
    destruct (move_h a (next_after (IS l :: t) cands) (IS l :: t) w o) as [a1 o1|s] eqn:Em; [|discriminate].
    intros H. rewrite (IH _ _ H), (move_h_sum _ _ _ _ _ _ _ Em). ring.
  - intros Hv Hw. revert Hw Hi. apply (initial_shared_inv alloc_whole). intros a1 l t w o1 a2 o2 Hin H1 Em.
    exact (move_h_whole _ _ _ _ _ _ _ H1 (Hv _ _ Hin) Em).
  - revert Hi. apply (initial_shared_inv (fun a1 => forall k b, holds a1 k b -> holds a k b \/ exists l t, b = IS l :: t)); [|auto].
    intros a1 l t w o1 a2 o2 _ H1 Em k b Hh.
    destruct (move_h_holds _ _ _ _ _ _ _ _ _ Em Hh) as [H|[-> _]]; [exact (H1 k b H)|right; eauto].
Qed.

Theorem initial_allocation_h_spec votes o a o' : initial_allocation_h votes o = HOk a o' ->
  NoDup (akeys a) /\ asum a == cast votes /\ (votes_whole votes -> alloc_whole a) /\ resting_ok a.
Proof.
  unfold initial_allocation_h. intros Hi.
  destruct (initial_direct_spec votes) as (D1 & D2 & D3 & D4).
  destruct (initial_shared_spec _ _ _ _ _ _ D1 Hi) as (S1 & S2 & S3 & S4).
  split; [exact S1|]. split; [|split].
  - rewrite S2, D2. unfold cast. clear. induction votes as [|[b w] vs IH]; simpl; [ring|].
    destruct b as [|[c|l] t]; simpl in *; lra.
  - intros Hv. apply S3; [exact Hv|apply D3, Hv].
  - apply resting_ok_holds. intros k b Hh Hp. destruct (S4 k b Hh) as [H|(l & t & ->)].
    + destruct (D4 k b H) as (c & t & -> & ->). simpl. exists [], t. split; [reflexivity|intros x []].
    + apply plainb_cons in Hp. destruct Hp as [[c Hc] _]. discriminate.
Qed.
