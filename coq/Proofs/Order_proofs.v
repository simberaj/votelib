(* Order / renaming independence (C10).
   The core is a counting characterisation of get_n_best that mentions the input only through
   the NUMBER of entries above / at a value - manifestly independent of the order in which the
   dictionary was filled, of candidate names and of scaling:
     c (with total v) is elected     <->  #{totals >= v} <= n
     c is a member of a reported tie <->  #{totals > v} < n < #{totals >= v}. *)
From Coq Require Import ZArith QArith List Bool Lia Lqa Permutation Arith.
From VL Require Import Prelude.PyDict Model.GetNBest Proofs.GetNBest_proofs Proofs.QOrd Proofs.Scale_proofs Proofs.Additive_proofs.
From VL Require Proofs.Dict_proofs.
Import ListNotations.
Close Scope Q_scope.

Lemma or_iff (A A' B B' : Prop) : (A <-> A') -> (B <-> B') -> (A \/ B <-> A' \/ B').
Proof. tauto. Qed.
(* an equivalence whose two sides both entail a fact may assume it *)
Lemma iff_through (A B M : Prop) : (A -> M) -> (B -> M) -> (M -> (A <-> B)) -> (A <-> B).
Proof. tauto. Qed.

Lemma perm_in_iff {X} (l l' : list X) : Permutation l l' -> forall x, In x l <-> In x l'.
Proof. intros H x. split; apply Permutation_in; [exact H|apply Permutation_sym, H]. Qed.
Lemma perm_keys_iff {X Y} (l l' : list (X * Y)) : Permutation l l' -> forall c, In c (map fst l) <-> In c (map fst l').
Proof. intros H. apply perm_in_iff, Permutation_map, H. Qed.
Lemma perm_keys_nodup {X Y} (l l' : list (X * Y)) : Permutation l l' -> NoDup (map fst l) -> NoDup (map fst l').
Proof. intros H. apply Permutation_NoDup, Permutation_map, H. Qed.

Lemma filter_perm {X} (f : X -> bool) l l' : Permutation l l' -> Permutation (filter f l) (filter f l').
Proof.
  induction 1 as [|x l l' _ IH|x y l|l l' l'' _ IH1 _ IH2]; simpl.
  - constructor.
  - destruct (f x); [constructor|]; exact IH.
  - destruct (f x), (f y); try apply Permutation_refl. apply perm_swap.
  - eapply Permutation_trans; eassumption.
Qed.
Lemma filter_length_perm {X} (f : X -> bool) l l' : Permutation l l' -> length (filter f l) = length (filter f l').
Proof. intros H. apply Permutation_length, filter_perm, H. Qed.

(* a weaker test keeps at least as many elements, and strictly more when it also keeps one that the stronger drops *)
Lemma filter_len_mono {X} (f g : X -> bool) l : (forall x, In x l -> f x = true -> g x = true) ->
  length (filter f l) <= length (filter g l).
Proof.
  induction l as [|a l IH]; intros H; simpl; [lia|].
  specialize (IH (fun x Hx => H x (or_intror Hx))).
  destruct (f a) eqn:E; [rewrite (H a (or_introl eq_refl) E); simpl; lia|]. destruct (g a); simpl; lia.
Qed.
Lemma filter_len_lt {X} (f g : X -> bool) l x : (forall y, In y l -> f y = true -> g y = true) ->
  In x l -> f x = false -> g x = true -> length (filter f l) < length (filter g l).
Proof.
  induction l as [|a l IH]; intros H Hx Hf Hg; [destruct Hx|]. simpl.
  assert (Hl : forall y, In y l -> f y = true -> g y = true) by (intros y Hy; apply H; right; exact Hy).
  destruct Hx as [->|Hx].
  - rewrite Hf, Hg. simpl. pose proof (filter_len_mono f g l Hl). lia.
  - specialize (IH Hl Hx Hf Hg). destruct (f a) eqn:E; [rewrite (H a (or_introl eq_refl) E)|destruct (g a)]; simpl; lia.
Qed.

Lemma filter_all_impl {X} (P : X -> Prop) (f : X -> bool) l : Forall P l -> (forall x, P x -> f x = true) -> filter f l = l.
Proof. intros H Hf. apply filter_all. eapply Forall_impl; eassumption. Qed.
Lemma filter_none_impl {X} (P : X -> Prop) (f : X -> bool) l : Forall P l -> (forall x, P x -> f x = false) -> filter f l = [].
Proof. intros H Hf. apply filter_none. eapply Forall_impl; eassumption. Qed.

Lemma key_value {K V} (l : list (K * V)) c : In c (map fst l) -> exists v, In (c, v) l.
Proof. intros H. apply in_map_iff in H. destruct H as ([c' v] & <- & Hi). exists v. exact Hi. Qed.

(* membership in a selection: plain winners followed by copies of one tie *)
Lemma in_cand_sel {K} (c : K) cs T k : In (Cand c) (map Cand cs ++ repeat (TieR T) k) <-> In c cs.
Proof.
  rewrite in_app_iff, in_map_iff. split.
  - intros [(x & [= ->] & Hx)|Hr]; [exact Hx|]. apply repeat_spec in Hr. discriminate.
  - intros Hc. left. exists c. split; [reflexivity|exact Hc].
Qed.
Lemma in_tie_sel {K} (T' : list K) cs T k : In (TieR T') (map Cand cs ++ repeat (TieR T) k) <-> T' = T /\ 1 <= k.
Proof.
  rewrite in_app_iff, in_map_iff. split.
  - intros [(x & [=] & _)|Hr]. pose proof (repeat_spec _ _ _ Hr) as [= ->]. split; [reflexivity|]. destruct k; [destruct Hr|lia].
  - intros [-> Hk]. right. destruct k; [lia|]. left. reflexivity.
Qed.
Lemma qlt_false a b : ltb Qle_bool a b = false <-> (b <= a)%Q.
Proof. unfold ltb. rewrite negb_false_iff. apply Qle_bool_iff. Qed.

Section Count.
  Context {K : Type}.
  Notation votes_t := (list (K * Q)).
  Notation gnb := (@get_n_best K Q Qle_bool).

  Definition cnt_gt (votes : votes_t) (x : Q) : nat := length (filter (fun it => ltb Qle_bool x (snd it)) votes).
  Definition cnt_ge (votes : votes_t) (x : Q) : nat := length (filter (fun it => Qle_bool x (snd it)) votes).

  Lemma cnt_ge_perm l l' x : Permutation l l' -> cnt_ge l x = cnt_ge l' x.
  Proof. apply filter_length_perm. Qed.
  Lemma cnt_gt_perm l l' x : Permutation l l' -> cnt_gt l x = cnt_gt l' x.
  Proof. apply filter_length_perm. Qed.

  (* both counts fall as the value rises *)
  Lemma cnt_ge_anti l v w : (v <= w)%Q -> cnt_ge l w <= cnt_ge l v.
  Proof. intros H. apply filter_len_mono. intros x _. rewrite !Qle_bool_iff. lra. Qed.
  Lemma cnt_gt_anti l v w : (v <= w)%Q -> cnt_gt l w <= cnt_gt l v.
  Proof. intros H. apply filter_len_mono. intros x _. rewrite !ltb_Qlt. lra. Qed.
  Lemma cnt_ge_gt l v w : (v < w)%Q -> cnt_ge l w <= cnt_gt l v.
  Proof. intros H. apply filter_len_mono. intros x _. rewrite Qle_bool_iff, ltb_Qlt. lra. Qed.
  Lemma cnt_ge_strict l c v w : In (c, v) l -> (v < w)%Q -> cnt_ge l w < cnt_ge l v.
  Proof.
    intros Hin H. apply filter_len_lt with (x := (c, v)); [|exact Hin|apply Qle_bool_false; exact H|apply Qle_bool_iff, Qle_refl].
    intros x _. rewrite !Qle_bool_iff. lra.
  Qed.
  Lemma cnt_ge_eq l v w : (v == w)%Q -> cnt_ge l v = cnt_ge l w.
  Proof. intros H. apply Nat.le_antisymm; apply cnt_ge_anti; lra. Qed.
  Lemma cnt_gt_eq l v w : (v == w)%Q -> cnt_gt l v = cnt_gt l w.
  Proof. intros H. apply Nat.le_antisymm; apply cnt_gt_anti; lra. Qed.

  (* the counts at the value that separates the three classes of get_n_best_spec *)
  Lemma cnt_thr above level below thr :
    Forall (fun it => ltb Qle_bool thr (snd it) = true) above -> Forall (fun it => eqv Qle_bool (snd it) thr = true) level ->
    Forall (fun it => ltb Qle_bool (snd it) thr = true) below ->
    cnt_ge (above ++ level ++ below) thr = length above + length level /\ cnt_gt (above ++ level ++ below) thr = length above.
  Proof.
    intros Ha Hl Hb. unfold cnt_ge, cnt_gt. rewrite !filter_app, !app_length. split.
    - rewrite (filter_all_impl _ _ _ Ha), (filter_all_impl _ _ _ Hl), (filter_none_impl _ _ _ Hb); [simpl; lia|..].
      + intros it. rewrite ltb_Qlt, Qle_bool_false. tauto.
      + intros it. rewrite eqv_Qeq, Qle_bool_iff. lra.
      + intros it. rewrite ltb_Qlt, Qle_bool_iff. lra.
    - rewrite (filter_all_impl _ _ _ Ha), (filter_none_impl _ _ _ Hl), (filter_none_impl _ _ _ Hb); [simpl; lia|..].
      + intros it. rewrite ltb_Qlt, qlt_false. lra.
      + intros it. rewrite eqv_Qeq, qlt_false. lra.
      + tauto.
  Qed.

  (* reading an outcome made of two parts X, Y of the dictionary *)
  Lemma sel_member (votes X Y : votes_t) k c v : NoDup (map fst votes) -> In (c, v) votes -> incl X votes -> incl Y votes ->
    let r := map (@cand_of K Q) X ++ repeat (TieR (map fst Y)) k in
    (In (Cand c) r <-> In (c, v) X) /\ ((exists T, In (TieR T) r /\ In c T) <-> 1 <= k /\ In (c, v) Y).
  Proof.
    intros Hnd Hin HX HY r. unfold r. rewrite cand_of_map. split.
    - apply (iff_trans (in_cand_sel c _ _ k)), (key_in_part votes); assumption.
    - pose proof (key_in_part votes Y c v Hnd Hin HY) as HK. split.
      + intros (T & HT & HcT). apply in_tie_sel in HT. destruct HT as [-> Hk]. split; [exact Hk|apply HK, HcT].
      + intros [Hk HcT]. exists (map fst Y). split; [apply in_tie_sel; auto|apply HK, HcT].
  Qed.

  (* the arithmetic of gnb_count_char: A, L, B say in which class of get_n_best_spec the candidate sits, ge and gt
     are its two counts, la and ll the sizes of the classes above and level with the threshold *)
  Lemma count_cases (la ll n ge gt : nat) (A L B : Prop) : la < n <= la + ll -> A \/ L \/ B ->
    (A -> ge <= la) -> (L -> ge = la + ll /\ gt = la) -> (B -> la + ll < ge /\ la + ll <= gt) ->
    ((A \/ la + ll = n /\ L <-> ge <= n) /\ (n < la + ll /\ L <-> gt < n < ge)).
  Proof.
    intros Hn H HA HL HB.
    assert (HC : A \/ la + ll = n /\ L -> ge <= n) by (intros [a|[H1 l]]; [specialize (HA a)|destruct (HL l)]; lia).
    assert (HT : n < la + ll /\ L -> gt < n < ge) by (intros [H1 l]; destruct (HL l); lia).
    split; (split; [assumption|]); intros H1; destruct H as [a|[l|b]].
    - left. exact a.
    - right. destruct (HL l). split; [lia|exact l].
    - destruct (HB b). lia.
    - specialize (HA a). lia.
    - destruct (HL l). split; [lia|exact l].
    - destruct (HB b). lia.
  Qed.

  Theorem gnb_count_char (votes : votes_t) (n : nat) c v : 1 <= n -> NoDup (map fst votes) -> In (c, v) votes ->
    (In (Cand c) (gnb votes n) <-> cnt_ge votes v <= n) /\
    ((exists T, In (TieR T) (gnb votes n) /\ In c T) <-> cnt_gt votes v < n < cnt_ge votes v).
  Proof.
    intros Hn Hnd Hin.
    destruct (get_n_best_spec Qle_bool Qle_bool_total Qle_bool_trans votes n Hn) as [Hsmall Hbig].
    destruct (Nat.le_gt_cases (length votes) n) as [Hle|Hgt].
    - (* everybody is elected *)
      clear Hbig. destruct (Hsmall Hle) as (s & Hp & _ & Hr). rewrite Hr, <- (app_nil_r (map _ s)).
      destruct (sel_member votes s [] 0 c v Hnd Hin) as [C T]; [intros x; apply (Permutation_in _ Hp)|intros x []|].
      pose proof (Dict_proofs.filter_len_le (fun it => Qle_bool v (snd it)) votes) as Hc. fold (cnt_ge votes v) in Hc.
      split; [apply (iff_trans C)|apply (iff_trans T)]; split; try lia.
      intros _. apply (Permutation_in _ (Permutation_sym Hp)), Hin.
    - clear Hsmall. destruct (Hbig Hgt) as (above & level & below & thr & Hp & _ & Ha & Hl & Hb & Hlen & Hfit & Htie).
      destruct (cnt_thr above level below thr Ha Hl Hb) as [Ege Egt].
      rewrite (cnt_ge_perm _ _ thr Hp) in Ege. rewrite (cnt_gt_perm _ _ thr Hp) in Egt.
      assert (HA : incl above votes) by (intros x Hx; apply (Permutation_in _ Hp), in_or_app; auto).
      assert (HL : incl level votes) by (intros x Hx; apply (Permutation_in _ Hp), in_or_app; right; apply in_or_app; auto).
      assert (Hout : (In (Cand c) (gnb votes n) <-> In (c, v) above \/ length above + length level = n /\ In (c, v) level) /\
                     ((exists T, In (TieR T) (gnb votes n) /\ In c T) <-> n < length above + length level /\ In (c, v) level)).
      { destruct (Nat.eq_dec (length above + length level) n) as [He|Hne].
        - rewrite (Hfit He), <- (app_nil_r (map _ (above ++ level))).
          destruct (sel_member votes (above ++ level) [] 0 c v Hnd Hin) as [C T]; [apply incl_app; assumption|intros x []|].
          split; [apply (iff_trans C)|apply (iff_trans T)].
          + split; [intros H; apply in_app_or in H; destruct H as [H|H]|intros [H|[_ H]]; apply in_or_app].
            * left. exact H.
            * right. exact (conj He H).
            * left. exact H.
            * right. exact H.
          + split; intros [H _]; [inversion H|]. rewrite He in H. destruct (Nat.lt_irrefl _ H).
        - assert (Hlt : n < length above + length level /\ 1 <= n - length above) by (clear - Hlen Hne; lia).
          rewrite (Htie (proj1 Hlt)). destruct (sel_member votes above level (n - length above) c v Hnd Hin HA HL) as [C T].
          split; [apply (iff_trans C)|apply (iff_trans T)].
          + split; [intros H; left; exact H|intros [H|[H _]]; [exact H|destruct (Hne H)]].
          + split; intros [_ H]; (split; [apply Hlt|exact H]). }
      destruct Hout as [HC HT].
      (* by the class c sits in, its counts against those at the threshold *)
      assert (Hcls : In (c, v) above \/ In (c, v) level \/ In (c, v) below).
      { apply (Permutation_in _ (Permutation_sym Hp)), in_app_or in Hin. destruct Hin as [H|H]; [left; exact H|right; apply in_app_or, H]. }
      assert (VA : In (c, v) above -> cnt_ge votes v <= length above).
      { intros Hi. apply (proj1 (Forall_forall _ _) Ha), ltb_Qlt in Hi. rewrite <- Egt. apply cnt_ge_gt, Hi. }
      assert (VL : In (c, v) level -> cnt_ge votes v = length above + length level /\ cnt_gt votes v = length above).
      { intros Hi. apply (proj1 (Forall_forall _ _) Hl), eqv_Qeq in Hi.
        rewrite (cnt_ge_eq votes v thr Hi), (cnt_gt_eq votes v thr Hi). split; assumption. }
      assert (VB : In (c, v) below -> length above + length level < cnt_ge votes v /\ length above + length level <= cnt_gt votes v).
      { intros Hi. apply (proj1 (Forall_forall _ _) Hb), ltb_Qlt in Hi. rewrite <- Ege.
        split; [apply (cnt_ge_strict votes c v thr Hin Hi)|apply cnt_ge_gt, Hi]. }
      destruct (count_cases _ _ n _ _ _ _ _ Hlen Hcls VA VL VB) as [EC ET].
      split; [exact (iff_trans HC EC)|exact (iff_trans HT ET)].
  Qed.


  Theorem gnb_perm (votes votes' : votes_t) (n : nat) c v : 1 <= n -> NoDup (map fst votes) ->
    Permutation votes votes' -> In (c, v) votes ->
    (In (Cand c) (gnb votes n) <-> In (Cand c) (gnb votes' n)) /\
    ((exists T, In (TieR T) (gnb votes n) /\ In c T) <-> (exists T, In (TieR T) (gnb votes' n) /\ In c T)).
  Proof.
    intros Hn Hnd Hp Hin.
    pose proof (perm_keys_nodup _ _ Hp Hnd) as Hnd'.
    assert (Hin' : In (c, v) votes') by (apply (Permutation_in _ Hp); exact Hin).
    destruct (gnb_count_char votes n c v Hn Hnd Hin) as [A1 A2].
    destruct (gnb_count_char votes' n c v Hn Hnd' Hin') as [B1 B2].
    rewrite <- (cnt_ge_perm _ _ v Hp) in B1, B2. rewrite <- (cnt_gt_perm _ _ v Hp) in B2.
    split; [exact (iff_trans A1 (iff_sym B1))|exact (iff_trans A2 (iff_sym B2))].
  Qed.

  (* two candidates with equal totals are in perfectly symmetric positions: both elected, both
     in the tie, or both out *)
  Theorem gnb_symmetric (votes : votes_t) (n : nat) c1 v1 c2 v2 : 1 <= n -> NoDup (map fst votes) ->
    In (c1, v1) votes -> In (c2, v2) votes -> (v1 == v2)%Q ->
    (In (Cand c1) (gnb votes n) <-> In (Cand c2) (gnb votes n)) /\
    ((exists T, In (TieR T) (gnb votes n) /\ In c1 T) <-> (exists T, In (TieR T) (gnb votes n) /\ In c2 T)).
  Proof.
    intros Hn Hnd H1 H2 He.
    destruct (gnb_count_char votes n c1 v1 Hn Hnd H1) as [A1 A2].
    destruct (gnb_count_char votes n c2 v2 Hn Hnd H2) as [B1 B2].
    rewrite <- (cnt_ge_eq votes v1 v2 He) in B1, B2. rewrite <- (cnt_gt_eq votes v1 v2 He) in B2.
    split; [exact (iff_trans A1 (iff_sym B1))|exact (iff_trans A2 (iff_sym B2))].
  Qed.
End Count.

Section Rename.
  Context {K K' V : Type}.
  Variable leb : V -> V -> bool.
  Variable f : K -> K'.

  Definition renk (l : list (K * V)) : list (K' * V) := map (fun cv => (f (fst cv), snd cv)) l.
  Definition ren_res (r : res K) : res K' := match r with Cand c => Cand (f c) | TieR l => TieR (map f l) end.

  Lemma insert_desc_ren x l : insert_desc leb (f (fst x), snd x) (renk l) = renk (insert_desc leb x l).
  Proof.
    induction l as [|y l IH]; simpl; [reflexivity|].
    destruct (leb (snd y) (snd x)); simpl; [reflexivity|]. rewrite IH. reflexivity.
  Qed.
  Lemma sort_desc_ren l : sort_desc leb (renk l) = renk (sort_desc leb l).
  Proof. induction l as [|x l IH]; simpl; [reflexivity|]. rewrite IH. apply insert_desc_ren. Qed.
  Lemma first_eq_index_ren thr l : first_eq_index leb thr (renk l) = first_eq_index leb thr l.
  Proof. induction l as [|y l IH]; simpl; [reflexivity|]. rewrite IH. reflexivity. Qed.
  Lemma filter_level_ren thr l :
    map fst (filter (fun it => eqv leb (snd it) thr) (renk l)) = map f (map fst (filter (fun it => eqv leb (snd it) thr) l)).
  Proof.
    induction l as [|y l IH]; simpl; [reflexivity|].
    destruct (eqv leb (snd y) thr); simpl; rewrite IH; reflexivity.
  Qed.
  Lemma map_cand_ren (l : list (K * V)) :
    map (fun it : K' * V => Cand (fst it)) (renk l) = map ren_res (map (fun it : K * V => Cand (fst it)) l).
  Proof. unfold renk. rewrite !map_map. reflexivity. Qed.

  Lemma map_repeat_l {X Y} (g : X -> Y) x k : map g (repeat x k) = repeat (g x) k.
  Proof. induction k as [|k IH]; simpl; [reflexivity|]. rewrite IH. reflexivity. Qed.

  (* the model never inspects a candidate: ANY renaming function commutes with get_n_best *)
  Theorem get_n_best_rename votes n : get_n_best leb (renk votes) n = map ren_res (get_n_best leb votes n).
  Proof.
    unfold get_n_best. rewrite sort_desc_ren. generalize (sort_desc leb votes). intros s.
    assert (Hnth : forall k, nth_error (renk s) k = option_map (fun cv => (f (fst cv), snd cv)) (nth_error s k))
      by (intros k; apply nth_error_map).
    assert (Hfirst : forall k, firstn k (renk s) = renk (firstn k s)) by (intros k; apply firstn_map).
    unfold renk at 1. rewrite map_length, !Hnth.
    destruct (Nat.ltb n (length s)); [|apply map_cand_ren].
    destruct (nth_error s (n - 1)) as [[c1 thr]|]; simpl; [|reflexivity].
    destruct (nth_error s n) as [[c2 nxt]|]; simpl; [|reflexivity].
    rewrite !Hfirst. destruct (eqv leb nxt thr); [|apply map_cand_ren].
    rewrite first_eq_index_ren, filter_level_ren, map_app, map_cand_ren, map_repeat_l. reflexivity.
  Qed.
End Rename.
