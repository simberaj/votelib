(* C19 - the repaired serialize_value of Model/Persist.v ([ser_fixed]): it is the pinned function [ser] guarded by the
   boolean [loadable]; from this the rejection clause, the round trip of the repaired function and the split
   representable = wf_value && loadable. *)
From Coq Require Import ZArith List Bool Lia.
From VL Require Import Model.Persist Proofs.Persist_proofs.
Import ListNotations.
Open Scope Z_scope.

Section Rejects.
  Variable E : env.

  (* keys that are all strings are loadable / well-formed by themselves *)
  Lemma str_keys_loadable : forall d sd, str_keys d = Some sd -> forallb (loadable E) (map fst d) = true.
  Proof.
    induction d as [|[k x] d IH]; intros sd H; simpl in *; [reflexivity|].
    destruct k; try discriminate. destruct (str_keys d) as [r|]; [|discriminate]. simpl. eapply IH. reflexivity.
  Qed.

  (* what the saved dictionary carries under a key is a string exactly when the value is that string *)
  Lemma sniff_saved : forall tup (ps : list (str * pval)) js,
    collect (map (ser tup) (map snd ps)) = Some js ->
    forall k, sniff E (combine (map fst ps) js) k = psniff E ps k.
  Proof. exact (sniff_collect E). Qed.

  Definition guarded (v : pval) : Prop :=
    forall tup, ser_fixed E tup v = if loadable E v then ser tup v else SErr.

  Lemma collect_guarded : forall tup l, Forall guarded l ->
    collect (map (ser_fixed E tup) l) = if forallb (loadable E) l then collect (map (ser tup) l) else None.
  Proof.
    intros tup l HF. induction HF as [|x l Hx HF IH]; simpl; [reflexivity|].
    rewrite (Hx tup), IH. destruct (loadable E x); simpl.
    - destruct (forallb (loadable E) l); [reflexivity|]. destruct (ser tup x); reflexivity.
    - reflexivity.
  Qed.

  Lemma reserved_key_plain : forall d,
    reserved_key E d = RPlain <-> (sniff E d s_type || sniff E d s_class || sniff E d s_callable) = false.
  Proof.
    intros d. unfold reserved_key.
    destruct (sniff E d s_type), (sniff E d s_class), (sniff E d s_callable); simpl; split; intros H; try discriminate; reflexivity.
  Qed.

  (* THE LEMMA: the repaired function is the pinned one guarded by [loadable] *)
  Theorem ser_fixed_guarded : forall v, guarded v.
  Proof.
    induction v using pval_nested_ind; intros tup; try reflexivity.
    1-3: cbn [ser_fixed ser loadable]; rewrite (collect_guarded tup l H); destruct (forallb (loadable E) l); reflexivity.
    - (* dict *)
      cbn [ser_fixed ser loadable].
      rewrite !map_let_fst, !map_let_snd, forallb_pair.
      rewrite (collect_guarded tup _ H), (collect_guarded tup _ H0).
      destruct (str_keys d) as [sd|] eqn:Hsk.
      + rewrite (str_keys_loadable d sd Hsk). cbn [andb].
        destruct (forallb (loadable E) (map snd d)); [|reflexivity]. cbn [andb].
        destruct (collect (map (ser tup) (map snd d))) as [js|] eqn:Hc.
        * rewrite (str_keys_map_snd d sd Hsk) in Hc.
          pose proof (sniff_saved tup sd js Hc) as Hsn.
          unfold reserved_key, reserved_hit. rewrite !Hsn.
          destruct (psniff E sd s_type), (psniff E sd s_class), (psniff E sd s_callable); reflexivity.
        * destruct (negb (reserved_hit E sd)); reflexivity.
      + rewrite andb_true_r.
        destruct (forallb (loadable E) (map fst d)); cbn [andb]; [|reflexivity].
        destruct (forallb (loadable E) (map snd d)); [reflexivity|].
        destruct (collect (map (ser tup) (map fst d))); reflexivity.
    - (* object *)
      cbn [ser_fixed ser loadable].
      rewrite !map_let_snd, forallb_snd_obj. rewrite (collect_guarded tup _ H).
      destruct (forallb (loadable E) (map snd ps)); cbn [andb]; [|reflexivity].
      destruct (collect (map (ser tup) (map snd ps))) as [js|] eqn:Hc.
      + pose proof (sniff_saved tup ps js Hc) as Hsn.
        unfold reserved_key.
        rewrite (sniff_cons_ne E s_type s_class) by reflexivity. rewrite Hsn.
        assert (Hs2 : sniff E ((s_class, JStr c) :: combine (map fst ps) js) s_class = is_scoped_identifier E c).
        { unfold sniff. simpl. reflexivity. }
        rewrite Hs2.
        destruct (psniff E ps s_type), (is_scoped_identifier E c), (class_exists E c), (class_accepts E c (map fst ps));
          try reflexivity; destruct (sniff E _ s_callable); reflexivity.
      + destruct (is_scoped_identifier E c && class_exists E c && class_accepts E c (map fst ps) && negb (psniff E ps s_type)); reflexivity.
  Qed.

  Lemma forallb_and : forall {X} (f g h : X -> bool) l,
    Forall (fun x => f x = g x && h x) l -> forallb f l = forallb g l && forallb h l.
  Proof.
    intros X f g h l HF. induction HF as [|x l Hx HF IH]; simpl; [reflexivity|]. rewrite Hx, IH.
    destruct (g x), (h x), (forallb g l), (forallb h l); reflexivity.
  Qed.

  Theorem representable_split : forall v, representable E v = wf_value E v && loadable E v.
  Proof.
    induction v using pval_nested_ind; try reflexivity.
    1-2: cbn [representable wf_value loadable]; rewrite andb_true_r; reflexivity.
    - cbn [representable wf_value loadable]. apply forallb_and. exact H.
    - cbn [representable wf_value loadable]. rewrite (forallb_and _ _ _ l H).
      apply eq_iff_eq_true. rewrite !andb_true_iff. tauto.
    - cbn [representable wf_value loadable]. apply forallb_and. exact H.
    - cbn [representable wf_value loadable]. rewrite andb_false_r. reflexivity.
    - (* dict *)
      cbn [representable wf_value loadable].
      rewrite !forallb_pair. rewrite (forallb_and _ _ _ _ H), (forallb_and _ _ _ _ H0).
      apply eq_iff_eq_true. rewrite !andb_true_iff. tauto.
    - (* object *)
      cbn [representable wf_value loadable].
      rewrite !forallb_snd_obj. rewrite (forallb_and _ _ _ _ H).
      apply eq_iff_eq_true. rewrite !andb_true_iff. tauto.
  Qed.

  Lemma representable_loadable : forall v, representable E v = true -> loadable E v = true.
  Proof. intros v H. rewrite representable_split in H. apply andb_true_iff in H. tauto. Qed.

  Lemma representable_wf : forall v, representable E v = true -> wf_value E v = true.
  Proof. intros v H. rewrite representable_split in H. apply andb_true_iff in H. tauto. Qed.

  (* a loadable value contains nothing opaque: the pinned function does not refuse it either *)
  Lemma loadable_no_opaque : forall v, loadable E v = true -> has_opaque v = false.
  Proof.
    induction v using pval_nested_ind; intros Hl; cbn [loadable has_opaque] in *; try reflexivity; try discriminate.
    1-3: induction H as [|x l Hx HF IH]; simpl in *; [reflexivity|]; apply andb_true_iff in Hl; destruct Hl as [H1 H2];
      rewrite (Hx H1); simpl; apply IH; exact H2.
    - apply andb_true_iff in Hl. destruct Hl as [Hl _].
      induction d as [|[k x] d IH]; [reflexivity|]. cbn [map fst snd] in H, H0. apply Forall_cons_iff in H, H0.
      destruct H as [Hk H], H0 as [Hx H0]. simpl in *.
      apply andb_true_iff in Hl. destruct Hl as [H1 H2]. apply andb_true_iff in H1. destruct H1 as [Ha Hb].
      rewrite (Hk Ha), (Hx Hb). simpl. exact (IH H H0 H2).
    - do 4 (apply andb_true_iff in Hl; destruct Hl as [Hl _]).
      induction ps as [|[k x] ps IH]; [reflexivity|]. cbn [map snd] in H. apply Forall_cons_iff in H. destruct H as [Hx H]. simpl in *.
      apply andb_true_iff in Hl. destruct Hl as [Ha Hb]. rewrite (Hx Ha). simpl. exact (IH H Hb).
  Qed.

  (* saving is refused EXACTLY for the values that are not loadable *)
  Theorem ser_fixed_refuses_iff : forall v tup, ser_fixed E tup v = SErr <-> loadable E v = false.
  Proof.
    intros v tup. rewrite (ser_fixed_guarded v tup). destruct (loadable E v) eqn:Hl.
    - split; [|discriminate]. intros Hs. apply ser_refuses_iff in Hs. rewrite (loadable_no_opaque v Hl) in Hs. discriminate.
    - split; reflexivity.
  Qed.

  Theorem rejects : forall v, wf_value E v = true -> representable E v = false -> serialize_value E v = SErr.
  Proof.
    intros v Hw Hr. apply ser_fixed_refuses_iff. rewrite representable_split, Hw in Hr. exact Hr.
  Qed.

  (* what is saved at all reloads to itself (given a well-formed encoding): nothing is silently altered *)
  Theorem saved_reloads : forall v j, wf_value E v = true -> serialize_value E v = SOk j ->
    deser E j = DOk v /\ deser E (json_rt j) = DOk v.
  Proof.
    intros v j Hw Hs. unfold serialize_value in Hs.
    assert (Hl : loadable E v = true).
    { destruct (loadable E v) eqn:Hl; [reflexivity|]. apply (ser_fixed_refuses_iff v true) in Hl. rewrite Hl in Hs. discriminate. }
    assert (Hr : representable E v = true) by (rewrite representable_split, Hw, Hl; reflexivity).
    rewrite (ser_fixed_guarded v true), Hl in Hs.
    destruct (roundtrip_json_pinned E v Hr) as [j' [Hs' [Hd Hdj]]]. unfold serialize_value_pinned in Hs'.
    rewrite Hs in Hs'. inversion Hs'; subst j'. split; assumption.
  Qed.

  Theorem roundtrip_json : forall v, representable E v = true ->
    exists j, serialize_value E v = SOk j /\ deser E j = DOk v /\ deser E (json_rt j) = DOk v.
  Proof.
    intros v Hr. destruct (roundtrip_json_pinned E v Hr) as [j [Hs [Hd Hdj]]]. exists j. split; [|split; assumption].
    unfold serialize_value. rewrite (ser_fixed_guarded v true), (representable_loadable v Hr). exact Hs.
  Qed.

  Theorem system_roundtrip : forall c ps, representable E (PObj c ps) = true ->
    exists j, serialize_value E (PObj c ps) = SOk j /\
              from_dict E j = DOk (PObj c ps) /\ from_dict E (json_rt j) = DOk (PObj c ps).
  Proof.
    intros c ps Hr. destruct (system_roundtrip_pinned E c ps Hr) as [j [Hs Hd]]. exists j. split; [|exact Hd].
    unfold serialize_value. rewrite (ser_fixed_guarded _ true), (representable_loadable _ Hr). exact Hs.
  Qed.

  (* the repaired function changes nothing where it saves: same dictionary as before the repair *)
  Theorem fixed_agrees_with_pinned : forall v j, serialize_value E v = SOk j -> serialize_value_pinned v = SOk j.
  Proof.
    intros v j Hs. unfold serialize_value in Hs. rewrite (ser_fixed_guarded v true) in Hs.
    destruct (loadable E v); [exact Hs|discriminate].
  Qed.
End Rejects.
