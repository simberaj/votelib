(* Lemmas for property C07: the state in which BiproportionalEvaluator.evaluate enters its loop
   (_initial_solution + _initial_party_coefs, Model/BipropLoop.v [binit]) satisfies the loop invariant BInv of
   Proofs/BipropLoop_proofs.v.  Rests on the min-max characterisation of the HighestAverages model
   (Proofs/HAMinmax_proofs.v): every column of the initial solution is a divisor apportionment of the party's
   seats over the districts (a tie inside a column spread over the first tied districts), hence signposts
   lo <= hi exist for every party and the mid-point multiplier puts every cell between its signposts. *)
From Coq Require Import ZArith QArith List Bool Lia Lqa Permutation.
From VL Require Import Prelude.PyDict Model.Divisor Model.HighestAverages Model.Biprop Model.BipropLoop
     Proofs.Dict_proofs Proofs.Divisor_proofs Proofs.HA_proofs Proofs.Mono_proofs Proofs.HAUnique_proofs
     Proofs.Biprop_proofs Proofs.Biprop_steps Proofs.BipropRow_proofs Proofs.BipropLoop_proofs Proofs.HAMinmax_proofs.
Import ListNotations.
Open Scope Z_scope.

Lemma ins_pos_perm x l : Permutation (ins_pos x l) (x :: l).
Proof.
  induction l as [|y l IH]; simpl; [reflexivity|]. destruct (Pos.leb x y); [reflexivity|].
  rewrite IH. apply perm_swap.
Qed.
Lemma sort_pos_perm l : Permutation (sort_pos l) l.
Proof. induction l as [|x l IH]; simpl; [reflexivity|]. rewrite ins_pos_perm, IH. reflexivity. Qed.

Lemma totals_nodup_loop d votes caps n fuel : forall s, NoDup (map fst (st_totals s)) ->
  NoDup (map fst (st_totals (loop d votes caps n fuel s))).
Proof. apply (totals_loop_pres (fun t => NoDup (map fst t))). intros t c. apply dset_nodup. Qed.

(* what evaluate returns, in terms of the final state *)
Lemma evaluate_ok d vs n g t : evaluate d vs n [] [] = HA_ok g t ->
  vs <> [] /\ g = st_totals (final_state d vs n [] []) /\ t = st_tie (final_state d vs n [] []) /\
  NoDup (map fst g) /\ all_pos g.
Proof.
  rewrite evaluate_final. destruct (initial_quotients d vs [] [] n) as [|q0 qs0] eqn:Eq; [discriminate|].
  intros [= <- <-]. split; [|split; [reflexivity|split; [reflexivity|split]]].
  - intros E. subst vs. discriminate.
  - apply totals_nodup_loop. constructor.
  - apply all_pos_loop. constructor.
Qed.

Lemma all_pos_in t c v : all_pos t -> In (c, v) t -> 0 < v.
Proof. unfold all_pos. rewrite Forall_forall. intros H Hin. apply (H (c, v) Hin). Qed.

Lemma cell_set_mget m i j k m' : cell_set m i j k = Some m' ->
  forall i' j', mget m' i' j' = if ceqb i' i && ceqb j' j then k else mget m i' j'.
Proof.
  unfold cell_set. destruct (dget m i) as [row|] eqn:E; [|discriminate]. intros [= <-].
  apply (mget_dset_cell m i row _ j k E). intros j'. apply dget_or_dset.
Qed.

Section Place.
  Variable votes : mat.
  Variable j : C.
  Hypothesis Hj : In j (parties votes).
  Notation rwf := (res_wf votes).

  Lemma cell_set_wf m i k m' : rwf m -> cell_set m i j k = Some m' -> rwf m'.
  Proof.
    unfold cell_set. intros W. destruct (dget m i) as [row|] eqn:E; [|discriminate]. intros [= <-].
    apply res_wf_dset_cell; assumption.
  Qed.

  Definition set_fold (gains : list (C * Z)) (acc : option mat) : option mat :=
    fold_left (fun acc ik => match acc with Some m => cell_set m (fst ik) j (snd ik) | None => None end) gains acc.
  Definition incr_fold (sel : list C) (acc : option mat) : option mat :=
    fold_left (fun acc i => match acc with Some m => cell_incr m i j | None => None end) sel acc.

  Lemma set_fold_none gains : set_fold gains None = None.
  Proof. induction gains as [|g gains IH]; simpl; [reflexivity|exact IH]. Qed.
  Lemma incr_fold_none sel : incr_fold sel None = None.
  Proof. induction sel as [|g sel IH]; simpl; [reflexivity|exact IH]. Qed.

  Lemma set_fold_spec : forall gains m m', NoDup (map fst gains) -> rwf m -> set_fold gains (Some m) = Some m' ->
    rwf m' /\ forall i j', mget m' i j' = if ceqb j' j then match dget gains i with Some k => k | None => mget m i j' end
                                          else mget m i j'.
  Proof.
    induction gains as [|[i0 k0] gains IH]; intros m m' Hnd W H.
    - simpl in H. injection H as <-. split; [exact W|]. intros i j'. simpl. destruct (ceqb j' j); reflexivity.
    - unfold set_fold in H. simpl in H. fold (set_fold gains (cell_set m i0 j k0)) in H.
      destruct (cell_set m i0 j k0) as [m1|] eqn:E1; [|rewrite set_fold_none in H; discriminate].
      inversion Hnd as [|? ? Hk Hnd']; subst.
      destruct (IH m1 m' Hnd' (cell_set_wf _ _ _ _ W E1) H) as [W' G]. split; [exact W'|].
      intros i j'. rewrite G. pose proof (cell_set_mget _ _ _ _ _ E1) as G1. simpl.
      destruct (ceqb j' j) eqn:Ej.
      + destruct (ceqb i i0) eqn:Ei.
        * apply ceqb_eq in Ei. subst i0. rewrite (notin_dget_none gains i Hk). rewrite G1, ceqb_refl, Ej. reflexivity.
        * destruct (dget gains i); [reflexivity|]. rewrite G1, Ei. reflexivity.
      + rewrite G1, Ej, andb_false_r. reflexivity.
  Qed.

  Lemma incr_fold_spec : forall sel m m', NoDup sel -> rwf m -> incr_fold sel (Some m) = Some m' ->
    rwf m' /\ forall i j', mget m' i j' = mget m i j' + (if ceqb j' j && cmem i sel then 1 else 0).
  Proof.
    induction sel as [|i0 sel IH]; intros m m' Hnd W H.
    - simpl in H. injection H as <-. split; [exact W|]. intros i j'. simpl. rewrite andb_false_r. lia.
    - unfold incr_fold in H. simpl in H. fold (incr_fold sel (cell_incr m i0 j)) in H.
      destruct (cell_incr m i0 j) as [m1|] eqn:E1; [|rewrite incr_fold_none in H; discriminate].
      inversion Hnd as [|? ? Hk Hnd']; subst.
      destruct (IH m1 m' Hnd' (cell_incr_wf votes _ _ _ _ W Hj E1) H) as [W' G]. split; [exact W'|].
      intros i j'. rewrite G, (cell_incr_mget _ _ _ _ E1). simpl.
      destruct (ceqb j' j) eqn:Ej; simpl; [|rewrite andb_false_r; lia].
      destruct (ceqb i i0) eqn:Ei; simpl; [|lia].
      apply ceqb_eq in Ei. subst i0.
      assert (cmem i sel = false) as -> by (destruct (cmem i sel) eqn:E; [apply cmem_In in E; contradiction|reflexivity]). lia.
  Qed.
End Place.

Definition tie_sel (t : option (list C * Z)) : list C :=
  match t with Some (T, r) => firstn (Z.to_nat r) (sort_pos T) | None => [] end.
Definition col_alloc (g : list (C * Z)) (t : option (list C * Z)) (i : C) : Z :=
  dget_or g i 0 + (if cmem i (tie_sel t) then 1 else 0).

Lemma place_column_folds sol j g t :
  place_column sol j g t = incr_fold j (tie_sel t) (set_fold j g (Some sol)).
Proof. unfold place_column, incr_fold, set_fold, tie_sel. destruct t as [[T r]|]; reflexivity. Qed.

(* _initial_party_coefs: lo <= hi, the mid-point fits *)
Section Coef.
  Variable q : Q.
  Variable seats : mat.
  Variable j : C.
  Variable allrows : list (C * list (C * Z)).
  Notation vr r := (dget_or (snd r) j 0).
  Notation Lr r := (signpost q (mget seats (fst r) j) / inject_Z (dget_or (snd r) j 0%Z))%Q.
  Notation Ur r := ((signpost q (mget seats (fst r) j) + 1) / inject_Z (dget_or (snd r) j 0%Z))%Q.
  Hypothesis PAIR : forall r1 r2, In r1 allrows -> In r2 allrows -> vr r1 <> 0 -> vr r2 <> 0 -> (Lr r1 <= Ur r2)%Q.
  Hypothesis UPOS : forall r, In r allrows -> vr r <> 0 -> (0 < Ur r)%Q.

  (* the scanned pair (lo, hi): lo is non-negative and not above any row's upper bound, hi is some row's upper bound *)
  Record CI (st : Q * option Q) : Prop := {
    ci_nn : (0 <= fst st)%Q;
    ci_A : forall r, In r allrows -> vr r <> 0 -> (fst st <= Ur r)%Q;
    ci_K : forall h, snd st = Some h -> exists r, In r allrows /\ vr r <> 0 /\ h = Ur r }.

  Lemma coef_scan_facts st r : In r allrows -> CI st ->
    CI (coef_scan q seats j st r) /\ (fst st <= fst (coef_scan q seats j st r))%Q /\
    (forall h, snd st = Some h -> exists h', snd (coef_scan q seats j st r) = Some h' /\ (h' <= h)%Q) /\
    (vr r <> 0 -> (Lr r <= fst (coef_scan q seats j st r))%Q /\
                  exists h', snd (coef_scan q seats j st r) = Some h' /\ (h' <= Ur r)%Q).
  Proof.
    intros Hr [Hnn HA HK]. unfold coef_scan. destruct (vr r =? 0) eqn:Ev.
    - apply Z.eqb_eq in Ev. split; [constructor; assumption|]. split; [lra|]. split; [intros h Hh; exists h; split; [exact Hh|lra]|].
      intros H. congruence.
    - apply Z.eqb_neq in Ev. cbv zeta. cbn [fst snd].
      assert (Hfst : (fst st <= (if Qpos_b (Lr r - fst st) then Lr r else fst st))%Q /\
                     (Lr r <= (if Qpos_b (Lr r - fst st) then Lr r else fst st))%Q).
      { destruct (Qpos_b (Lr r - fst st)) eqn:E; [apply Qpos_b_iff in E; split; lra|].
        apply Qpos_b_false in E. split; lra. }
      destruct Hfst as [Hf1 Hf2].
      split; [|split; [exact Hf1|split]].
      + constructor; cbn [fst snd].
        * lra.
        * intros r0 Hr0 Hv0. destruct (Qpos_b (Lr r - fst st)); [apply (PAIR r r0 Hr Hr0 Ev Hv0)|apply (HA r0 Hr0 Hv0)].
        * intros h Hh. destruct (snd st) as [h0|] eqn:Es.
          -- destruct (Qpos_b (h0 - Ur r)); injection Hh as <-; [exists r; auto|apply (HK h0 eq_refl)].
          -- injection Hh as <-. exists r. auto.
      + intros h Hh. rewrite Hh. destruct (Qpos_b (h - Ur r)) eqn:E; eexists; (split; [reflexivity|]).
        * apply Qpos_b_iff in E. lra.
        * lra.
      + intros _. split; [exact Hf2|]. destruct (snd st) as [h0|].
        * destruct (Qpos_b (h0 - Ur r)) eqn:E; eexists; (split; [reflexivity|]); [lra|]. apply Qpos_b_false in E. lra.
        * eexists. split; [reflexivity|lra].
  Qed.

  Lemma coef_fold : forall rows st, incl rows allrows -> CI st ->
    CI (fold_left (coef_scan q seats j) rows st) /\ (fst st <= fst (fold_left (coef_scan q seats j) rows st))%Q /\
    (forall h, snd st = Some h -> exists h', snd (fold_left (coef_scan q seats j) rows st) = Some h' /\ (h' <= h)%Q) /\
    (forall r, In r rows -> vr r <> 0 ->
       (Lr r <= fst (fold_left (coef_scan q seats j) rows st))%Q /\
       exists h', snd (fold_left (coef_scan q seats j) rows st) = Some h' /\ (h' <= Ur r)%Q).
  Proof.
    induction rows as [|r rows IH]; intros st Hincl HC; simpl.
    - split; [exact HC|]. split; [lra|]. split; [intros h Hh; exists h; split; [exact Hh|lra]|]. intros r [].
    - destruct (coef_scan_facts st r (Hincl r (or_introl eq_refl)) HC) as (C1 & F1 & S1 & P1).
      destruct (IH (coef_scan q seats j st r) (fun x Hx => Hincl x (or_intror Hx)) C1) as (C2 & F2 & S2 & P2).
      split; [exact C2|]. split; [lra|]. split.
      + intros h Hh. destruct (S1 h Hh) as (h1 & Hh1 & L1). destruct (S2 h1 Hh1) as (h2 & Hh2 & L2). exists h2. split; [exact Hh2|lra].
      + intros r0 [<-|Hr0] Hv0.
        * destruct (P1 Hv0) as (A1 & h1 & Hh1 & L1). destruct (S2 h1 Hh1) as (h2 & Hh2 & L2).
          split; [lra|]. exists h2. split; [exact Hh2|lra].
        * apply (P2 r0 Hr0 Hv0).
  Qed.
End Coef.

Lemma party_coef_ok q (votes seats : mat) j :
  (forall r1 r2, In r1 votes -> In r2 votes -> dget_or (snd r1) j 0 <> 0 -> dget_or (snd r2) j 0 <> 0 ->
     (signpost q (mget seats (fst r1) j) / inject_Z (dget_or (snd r1) j 0%Z)
      <= (signpost q (mget seats (fst r2) j) + 1) / inject_Z (dget_or (snd r2) j 0%Z))%Q) ->
  (forall r, In r votes -> dget_or (snd r) j 0 <> 0 ->
     (0 < (signpost q (mget seats (fst r) j) + 1) / inject_Z (dget_or (snd r) j 0%Z))%Q) ->
  (0 < party_coef q votes seats j)%Q /\
  forall r, In r votes -> dget_or (snd r) j 0 <> 0 ->
    (signpost q (mget seats (fst r) j) / inject_Z (dget_or (snd r) j 0%Z) <= party_coef q votes seats j)%Q /\
    (party_coef q votes seats j <= (signpost q (mget seats (fst r) j) + 1) / inject_Z (dget_or (snd r) j 0%Z))%Q.
Proof.
  intros PAIR UPOS. unfold party_coef.
  assert (C0 : CI q seats j votes (0%Q, None)).
  { constructor; cbn [fst snd]; [lra| |discriminate]. intros r Hr Hv. apply Qlt_le_weak, UPOS; assumption. }
  destruct (coef_fold q seats j votes PAIR votes (0%Q, None) (fun x Hx => Hx) C0) as (C & _ & _ & P).
  destruct (fold_left (coef_scan q seats j) votes (0%Q, None)) as [lo [hi|]] eqn:E; cbn [fst snd] in *.
  - destruct C as [Hnn HA HK]. cbn [fst snd] in *. destruct (HK hi eq_refl) as (r0 & Hr0 & Hv0 & Eh).
    pose proof (UPOS r0 Hr0 Hv0) as Hu. pose proof (HA r0 Hr0 Hv0) as Ha. rewrite <- Eh in Hu, Ha.
    assert (Eg : (Qred ((lo + hi) / 2) == (lo + hi) * (1 # 2))%Q) by (rewrite Qred_correct; field).
    split; [rewrite Eg; lra|]. intros r Hr Hv. destruct (P r Hr Hv) as (L1 & h' & Hh' & L2). injection Hh' as <-.
    rewrite Eg. split; lra.
  - split; [reflexivity|]. intros r Hr Hv. destruct (P r Hr Hv) as (_ & h' & Hh' & _). discriminate.
Qed.

Section Init.
  Variable d : Z -> Q.
  Variables q k : Q.
  Hypothesis Hq0 : (0 <= q)%Q.
  Hypothesis Hq1 : (q < 1)%Q.
  Hypothesis Hk : (0 < k)%Q.
  Hypothesis Hd : forall s, (d s == k * (inject_Z s + 1 - q))%Q.
  Variable votes : mat.
  Hypothesis Hwf : wf_votes votes.
  Hypothesis Hvnn : forall i j, 0 <= mget votes i j.
  Notation ds := (districts votes).
  Notation ps := (parties votes).

  Lemma Hdpos : forall s, 0 <= s -> (0 < d s)%Q.
  Proof. intros s Hs. rewrite Hd. pose proof (inj_le 0 s Hs) as H. change (inject_Z 0) with 0%Q in H. nra. Qed.
  Lemma Hdmono : forall s, 0 <= s -> (d s <= d (s + 1))%Q.
  Proof. intros s Hs. rewrite !Hd, inject_Z_plus. change (inject_Z 1) with 1%Q. nra. Qed.

  Notation V i j := (inject_Z (mget votes i j)).

  Lemma V_nonneg i j : (0 <= V i j)%Q.
  Proof. apply (inj_le 0 _ (Hvnn i j)). Qed.

  Lemma row_mget row j : In row votes -> dget_or (snd row) j 0 = mget votes (fst row) j.
  Proof.
    intros H. destruct row as [i r]. destruct Hwf as [Hnd _]. cbn [fst snd]. unfold mget. rewrite (In_dget votes i r Hnd H). reflexivity.
  Qed.
  Lemma column_keys j : map fst (column votes j) = ds.
  Proof. unfold column, districts. rewrite map_map. reflexivity. Qed.
  Lemma column_in j i v : In (i, v) (column votes j) -> In i ds /\ v = V i j.
  Proof.
    unfold column. intros H. apply in_map_iff in H. destruct H as (row & E & Hr). injection E as <- <-.
    split; [apply in_map, Hr|]. rewrite (row_mget row j Hr). reflexivity.
  Qed.
  Lemma column_has j i : In i ds -> In (i, V i j) (column votes j).
  Proof.
    unfold districts, column. intros H. apply in_map_iff in H. destruct H as (row & <- & Hr).
    apply in_map_iff. exists row. split; [|exact Hr]. rewrite (row_mget row j Hr). reflexivity.
  Qed.

  (* a column of the solution: non-negative, inside the districts, adds up to the party's seats, min-max *)
  Definition ColOK (j : C) (nj : Z) (col : C -> Z) : Prop :=
    (forall i, 0 <= col i) /\ (forall i, ~ In i ds -> col i = 0) /\ zsum (map col ds) = nj /\
    (forall i i', In i ds -> In i' ds -> 0 < col i' -> (V i j / d (col i) <= V i' j / d (col i' - 1))%Q).

  Lemma column_ok j nj g t : 0 < nj -> evaluate d (column votes j) nj [] [] = HA_ok g t ->
    ColOK j nj (col_alloc g t) /\ NoDup (map fst g) /\ NoDup (tie_sel t).
  Proof.
    intros Hn He. destruct (evaluate_ok _ _ _ _ _ He) as (Hne & Eg & Et & Hgn & _).
    set (cv := column votes j) in *.
    assert (Hvotes : forall c v, In (c, v) cv -> (0 <= v)%Q).
    { intros c v H. destruct (column_in j c v H) as [_ ->]. apply V_nonneg. }
    assert (Hnd : NoDup (map fst cv)) by (unfold cv; rewrite column_keys; apply (proj1 Hwf)).
    assert (Hn0 : 0 <= nj) by lia.
    set (fin := final_state d cv nj [] []) in *.
    assert (Htot : forall i, dget_or g i 0 = tot fin i) by (intros i; rewrite Eg; reflexivity).
    (* the districts that receive a tie seat *)
    assert (Hsel : NoDup (tie_sel t) /\ (forall i, In i (tie_sel t) -> In i ds /\ exists T r, st_tie fin = Some (T, r) /\ In i T) /\
                   Z.of_nat (length (tie_sel t)) = match st_tie fin with Some (_, r) => r | None => 0 end).
    { rewrite Et. destruct (st_tie fin) as [[T r]|] eqn:Etie; simpl; [|split; [constructor|split; [intros i []|reflexivity]]].
      destruct (mm_tie_nodup d cv nj Hdpos Hdmono Hvotes Hnd T r Etie) as (HT & HTk & Hr).
      pose proof (sort_pos_perm T) as Hp.
      split; [apply firstn_nodup, (Permutation_NoDup (Permutation_sym Hp)), HT|]. split.
      - intros i Hi. apply firstn_incl in Hi. apply (Permutation_in _ Hp) in Hi. split.
        + rewrite <- (column_keys j). apply HTk, Hi.
        + exists T, r. split; [reflexivity|exact Hi].
      - rewrite firstn_length_le; [lia|]. rewrite (Permutation_length Hp). lia. }
    destruct Hsel as (Hsnd & Hsin & Hslen).
    set (e := fun i => if cmem i (tie_sel t) then 1 else 0).
    assert (He01 : forall c, e c = 0 \/ e c = 1) by (intros c; unfold e; destruct (cmem c (tie_sel t)); auto).
    assert (HeT : forall c, e c = 1 -> exists T r, st_tie fin = Some (T, r) /\ In c T).
    { intros c Hc. unfold e in Hc. destruct (cmem c (tie_sel t)) eqn:E; [|discriminate]. apply cmem_In in E. apply (Hsin c E). }
    split; [|split; [exact Hgn|exact Hsnd]].
    assert (Hca : forall i, col_alloc g t i = tot fin i + e i) by (intros i; unfold col_alloc; rewrite Htot; reflexivity).
    unfold ColOK. split; [|split; [|split]].
    - intros i. rewrite Hca. pose proof (mm_t_nonneg d cv nj Hdpos Hdmono Hvotes Hnd i : 0 <= tot fin i). destruct (He01 i) as [E|E]; rewrite E; lia.
    - intros i Hi. rewrite Hca. assert (Ht0 : tot fin i = 0) by (apply (mm_t_outside d cv nj Hdpos Hdmono Hvotes Hnd i); unfold cv; rewrite column_keys; exact Hi). rewrite Ht0.
      unfold e. destruct (cmem i (tie_sel t)) eqn:E; [|reflexivity]. apply cmem_In in E. exfalso. apply Hi, (Hsin i E).
    - rewrite (zsum_map_ext (col_alloc g t) (fun i => tot fin i + e i) ds) by (intros; apply Hca).
      rewrite (zsum_map_plus (tot fin) e ds).
      pose proof (ha_all_seats d cv nj Hdpos Hdmono Hvotes Hnd Hn0 Hne) as Hall. unfold ksum in Hall.
      unfold cv in Hall at 2. rewrite column_keys in Hall. fold fin in Hall.
      assert (Hes : zsum (map e ds) = Z.of_nat (length (tie_sel t))).
      { rewrite <- (ksum_count (tie_sel t) ds (proj1 Hwf) (fun x Hx => proj1 (Hsin x Hx))). unfold ksum.
        apply zsum_map_ext. intros i _. unfold e. symmetry. apply count_cmem, Hsnd. }
      rewrite Hes, Hslen. exact Hall.
    - intros i i' Hi Hi' Hpos'. rewrite !Hca in *.
      apply (ha_minmax_ext d cv nj Hdpos Hdmono Hvotes Hnd Hn0 e He01 HeT i (V i j) i' (V i' j));
        [apply column_has, Hi|apply column_has, Hi'|exact Hpos'].
  Qed.

  Lemma ColOK_ext j nj col col' : (forall i, col i = col' i) -> ColOK j nj col -> ColOK j nj col'.
  Proof.
    intros E (H1 & H2 & H3 & H4). unfold ColOK. split; [|split; [|split]].
    - intros i. rewrite <- E. apply H1.
    - intros i Hi. rewrite <- E. apply H2, Hi.
    - rewrite <- H3. apply zsum_map_ext. intros i _. symmetry. apply E.
    - intros i i' Hi Hi'. rewrite <- !E. apply H4; assumption.
  Qed.

  Variable pseats : list (C * Z).

  (* the columns still to place are empty, every other column is a correct allocation of its party's seats *)
  Definition FI (todo : list (C * Z)) (sol : mat) : Prop :=
    res_wf votes sol /\ forall j,
      (In j (map fst todo) -> forall i, mget sol i j = 0) /\
      (~ In j (map fst todo) -> ColOK j (dget_or pseats j 0) (fun i => mget sol i j)).

  Lemma init_fold_err todo : forall acc, (forall sol p, acc <> Init_ok sol p) ->
    fold_left (init_column d votes) todo acc = acc.
  Proof.
    induction todo as [|jn todo IH]; intros acc H; simpl; [reflexivity|].
    assert (E : init_column d votes acc jn = acc) by (destruct acc; [exfalso; apply (H sol pseats0); reflexivity|reflexivity..]).
    rewrite E. apply IH, H.
  Qed.

  Lemma init_fold : forall todo sol p0 sol' p1, NoDup (map fst todo) ->
    (forall j nj, In (j, nj) todo -> In j ps /\ 0 < nj /\ dget_or pseats j 0 = nj) ->
    FI todo sol -> fold_left (init_column d votes) todo (Init_ok sol p0) = Init_ok sol' p1 -> FI [] sol'.
  Proof.
    induction todo as [|[j nj] todo IH]; intros sol p0 sol' p1 Hnd Htodo HF H.
    - simpl in H. injection H as <- _. exact HF.
    - simpl in H. inversion Hnd as [|? ? Hjn Hnd']; subst.
      destruct (Htodo j nj (or_introl eq_refl)) as (Hj & Hnj & Hpj).
      destruct (evaluate d (column votes j) nj [] []) as [g t|] eqn:Ee.
      2:{ rewrite init_fold_err in H by (intros; discriminate). discriminate. }
      destruct (place_column sol j g t) as [sol1|] eqn:Ep.
      2:{ rewrite init_fold_err in H by (intros; discriminate). discriminate. }
      apply (IH sol1 p0 sol' p1 Hnd'); [intros j0 n0 H0; apply Htodo; right; exact H0| |exact H].
      destruct (column_ok j nj g t Hnj Ee) as (Hcol & Hgn & Hsn).
      rewrite place_column_folds in Ep.
      destruct (set_fold j g (Some sol)) as [m1|] eqn:Es; [|rewrite incr_fold_none in Ep; discriminate].
      destruct HF as [W HF].
      destruct (set_fold_spec votes j Hj g sol m1 Hgn W Es) as [W1 G1].
      destruct (incr_fold_spec votes j Hj (tie_sel t) m1 sol1 Hsn W1 Ep) as [W2 G2].
      split; [exact W2|]. intros j'. destruct (ceqb j' j) eqn:Ej.
      + apply ceqb_eq in Ej. subst j'. split; [intros Hin; contradiction|]. intros _.
        rewrite Hpj. apply (ColOK_ext j nj (col_alloc g t)); [|exact Hcol].
        intros i. rewrite G2, G1, ceqb_refl. cbn [andb]. unfold col_alloc, dget_or.
        destruct (HF j) as [Hz _]. rewrite (Hz (or_introl eq_refl) i). reflexivity.
      + assert (Hne : j' <> j) by (apply ceqb_neq; exact Ej).
        assert (Hsame : forall i, mget sol1 i j' = mget sol i j').
        { intros i. rewrite G2, G1, Ej. cbn [andb]. lia. }
        destruct (HF j') as [Hz Hc]. split.
        * intros Hin i. rewrite Hsame. apply Hz. right. exact Hin.
        * intros Hnin. apply (ColOK_ext j' _ (fun i => mget sol i j')); [intros i; symmetry; apply Hsame|].
          apply Hc. intros [Hh|Hh]; [simpl in Hh; congruence|contradiction].
  Qed.
End Init.

Lemma zsum_ge_elem {X} (f : X -> Z) l a : (forall x, In x l -> 0 <= f x) -> In a l -> f a <= zsum (map f l).
Proof.
  induction l as [|x l IH]; intros H Ha; [destruct Ha|]. simpl. rewrite zsum_cons.
  assert (0 <= zsum (map f l)) by (apply zsum_map_nonneg; intros y Hy; apply H; right; exact Hy).
  destruct Ha as [->|Ha]; [lia|]. assert (0 <= f x) by (apply H; left; reflexivity).
  assert (f a <= zsum (map f l)) by (apply IH; [intros y Hy; apply H; right; exact Hy|exact Ha]). lia.
Qed.

(* in a min-max inequality whose right side has no votes, neither has the left side *)
Lemma div_le_zero_num v dx dy : 0 <= v -> (0 < dx)%Q -> (inject_Z v / dx <= inject_Z 0 / dy)%Q -> v = 0.
Proof.
  intros Hv Hd H. assert (E0 : (inject_Z 0 / dy == 0)%Q) by (change (inject_Z 0) with 0%Q; unfold Qdiv; ring).
  rewrite E0 in H. assert (E : (inject_Z v == inject_Z v / dx * dx)%Q) by (field; lra).
  assert (L : (inject_Z v <= inject_Z 0)%Q) by (change (inject_Z 0) with 0%Q; rewrite E; nra).
  rewrite <- Zle_Qle in L. lia.
Qed.

Lemma party_totals_keys votes : map fst (party_totals votes) = parties votes.
Proof. unfold party_totals. rewrite map_map. simpl. apply map_id. Qed.
Lemma party_totals_nodup votes : NoDup (map fst (party_totals votes)).
Proof. rewrite party_totals_keys. apply parties_nodup. Qed.
Lemma party_totals_nonneg votes : (forall i j, 0 <= mget votes i j) ->
  forall c v, In (c, v) (party_totals votes) -> (0 <= v)%Q.
Proof.
  intros Hvnn c v H. unfold party_totals in H. apply in_map_iff in H. destruct H as (j & E & _). injection E as _ <-.
  apply (inj_le 0). unfold colsum. apply zsum_map_nonneg. intros i _. apply Hvnn.
Qed.

Section InitFinal.
  Variable d : Z -> Q.
  Variables q k : Q.
  Hypothesis Hq0 : (0 <= q)%Q.
  Hypothesis Hq1 : (q < 1)%Q.
  Hypothesis Hk : (0 < k)%Q.
  Hypothesis Hd : forall s, (d s == k * (inject_Z s + 1 - q))%Q.
  Variable votes : mat.
  Hypothesis Hwf : wf_votes votes.
  Hypothesis Hvnn : forall i j, 0 <= mget votes i j.
  Hypothesis Hsome : exists i j, 0 < mget votes i j.
  Variable n : Z.
  Hypothesis Hn : 0 <= n.
  Notation ds := (districts votes).
  Notation ps := (parties votes).
  Notation V i j := (inject_Z (mget votes i j)).
  Notation T j := (inject_Z (colsum votes (districts votes) j)).

  Let Hp := Hdpos d q k Hq1 Hk Hd.
  Let Hm := Hdmono d q k Hk Hd.

  Lemma empty_solution_cell i j : mget (empty_solution votes) i j = 0.
  Proof.
    unfold mget, empty_solution. rewrite (dget_map_keyed (fun _ (_ : list (C * Z)) => @nil (C * Z)) votes i).
    destruct (dget votes i); reflexivity.
  Qed.
  Lemma empty_solution_wf : res_wf votes (empty_solution votes).
  Proof.
    intros i row H. unfold empty_solution in H. rewrite (dget_map_keyed (fun _ (_ : list (C * Z)) => @nil (C * Z)) votes i) in H.
    destruct (dget votes i); [|discriminate]. injection H as <-. split; [constructor|intros x []].
  Qed.

  Lemma FI_empty pseats : FI d votes pseats pseats (empty_solution votes).
  Proof.
    split; [apply empty_solution_wf|]. intros j. split; [intros _ i; apply empty_solution_cell|].
    intros Hnin. unfold dget_or. rewrite (notin_dget_none pseats j Hnin).
    unfold ColOK. split; [intros i; rewrite empty_solution_cell; lia|]. split; [intros i _; apply empty_solution_cell|]. split.
    - rewrite (zsum_map_ext _ (fun _ => 0) ds) by (intros; apply empty_solution_cell). apply zsum_map_zero.
    - intros i i' _ _ H. rewrite empty_solution_cell in H. lia.
  Qed.

  Lemma mul_initial_district_coefs i : In i ds -> mul (initial_district_coefs votes) i = 1%Q.
  Proof.
    intros Hi. unfold mul, dget_or, initial_district_coefs.
    rewrite (dget_map_keyed (fun _ (_ : list (C * Z)) => 1%Q) votes i). destruct (dget votes i) eqn:E; [reflexivity|].
    exfalso. apply (dget_none_notin _ _ E Hi).
  Qed.

  (* the signposts of two cells of a column with votes are compatible: the column is a divisor apportionment *)
  Lemma col_pair j col nj i1 i2 : ColOK d votes j nj col -> In i1 ds -> In i2 ds -> 0 < mget votes i1 j -> 0 < mget votes i2 j ->
    (signpost q (col i1) / V i1 j <= (signpost q (col i2) + 1) / V i2 j)%Q.
  Proof.
    intros (Hnn & _ & _ & Hmm) H1 H2 Hv1 Hv2. unfold signpost.
    pose proof (inj_lt 0 _ Hv1) as Hb. pose proof (inj_lt 0 _ Hv2) as Ha. change (inject_Z 0) with 0%Q in Hb, Ha.
    pose proof (inj_le 0 _ (Hnn i2)) as Hs2. change (inject_Z 0) with 0%Q in Hs2.
    apply Qdiv_le_cross; [exact Hb|exact Ha|].
    destruct (Z.eq_dec (col i1) 0) as [E0|E0].
    - rewrite E0. change (inject_Z 0) with 0%Q. nra.
    - assert (Hs1 : 0 < col i1) by (pose proof (Hnn i1); lia).
      pose proof (proj1 (Qdiv_le_cross _ _ _ _ (Hp _ (Hnn i2)) (Hp (col i1 - 1) ltac:(lia))) (Hmm i2 i1 H2 H1 Hs1)) as H.
      assert (E1 : (inject_Z (col i1 - 1) == inject_Z (col i1) - 1)%Q) by (unfold Z.sub; rewrite inject_Z_plus; reflexivity).
      rewrite !Hd, E1 in H. apply (Qmult_le_l _ _ k Hk). lra.
  Qed.

  (* a multiplier between the two signpost ratios of a cell with votes puts the cell between its signposts *)
  Lemma within_coef v s g : 0 < v -> (0 < g)%Q ->
    (signpost q s / inject_Z v <= g)%Q -> (g <= (signpost q s + 1) / inject_Z v)%Q -> within q (quot v 1 g) s.
  Proof.
    intros Hv Hg L1 L2. pose proof (inj_lt 0 _ Hv) as Hb. change (inject_Z 0) with 0%Q in Hb.
    unfold within, quot. set (b := inject_Z v) in *. set (sg := signpost q s) in *.
    assert (Es : (sg == sg / b * b)%Q) by (field; lra).
    assert (Es1 : (sg + 1 == (sg + 1) / b * b)%Q) by (field; lra).
    split; [nra|]. split; [rewrite Es|rewrite Es1]; nra.
  Qed.

  (* the party apportionment: seats only for parties of the index, tie-free min-max over the party totals *)
  Lemma party_seats_ok pseats : evaluate d (party_totals votes) n [] [] = HA_ok pseats None ->
    NoDup (map fst pseats) /\
    (forall j nj, In (j, nj) pseats -> In j ps /\ 0 < nj /\ dget_or pseats j 0 = nj) /\
    (forall j, 0 <= dget_or pseats j 0) /\
    (forall j j', In j ps -> In j' ps -> 0 < dget_or pseats j' 0 ->
       (T j / d (dget_or pseats j 0%Z) <= T j' / d (dget_or pseats j' 0%Z - 1)%Z)%Q).
  Proof.
    intros Ep. destruct (evaluate_ok _ _ _ _ _ Ep) as (_ & Eg & _ & Hgn & Hgp).
    set (pv := party_totals votes) in *.
    pose proof (party_totals_nonneg votes Hvnn : forall c v, In (c, v) pv -> _) as Hpv.
    pose proof (party_totals_nodup votes : NoDup (map fst pv)) as Hpnd.
    set (fin := final_state d pv n [] []) in *.
    assert (HS : forall j, dget_or pseats j 0 = tot fin j) by (intros j; rewrite Eg; reflexivity).
    split; [exact Hgn|]. split; [|split].
    - intros j nj Hin. pose proof (all_pos_in _ _ _ Hgp Hin) as Hpos.
      assert (E : dget_or pseats j 0 = nj) by (unfold dget_or; rewrite (In_dget _ _ _ Hgn Hin); reflexivity).
      split; [|split; [exact Hpos|exact E]].
      destruct (in_dec Pos.eq_dec j ps) as [Hi|Hni]; [exact Hi|exfalso].
      assert (tot fin j = 0) by (apply (mm_t_outside d pv n Hp Hm Hpv Hpnd j); unfold pv; rewrite party_totals_keys; exact Hni).
      rewrite <- HS in H. lia.
    - intros j. rewrite HS. apply (mm_t_nonneg d pv n Hp Hm Hpv Hpnd).
    - intros j j' Hj Hj' Hpos. rewrite !HS in *.
      pose proof (ha_minmax_ext d pv n Hp Hm Hpv Hpnd Hn (fun _ => 0) (fun _ => or_introl eq_refl)
                   (fun c (H : 0 = 1) => ltac:(discriminate)) j (T j) j' (T j')) as H.
      rewrite !Z.add_0_r in H. apply H; [| |exact Hpos]; unfold pv, party_totals; apply in_map_iff; eexists; (split; [reflexivity|assumption]).
  Qed.

  (* no seat without votes: else the whole column, hence the party, would be without votes and yet hold a seat,
     against the min-max inequality with a party that has a vote *)
  Lemma no_seat_without_votes pseats sol :
    (forall j, ColOK d votes j (dget_or pseats j 0) (fun i => mget sol i j)) ->
    (forall j nj, In (j, nj) pseats -> In j ps) -> (forall j, 0 <= dget_or pseats j 0) ->
    (forall j j', In j ps -> In j' ps -> 0 < dget_or pseats j' 0 ->
       (T j / d (dget_or pseats j 0%Z) <= T j' / d (dget_or pseats j' 0%Z - 1)%Z)%Q) ->
    forall i j, mget votes i j = 0 -> mget sol i j = 0.
  Proof.
    intros Hcol Hkeys Hpn PM i j Hv. destruct (Hcol j) as (Hnn & Hout & Hsum & Hmm).
    destruct (in_dec Pos.eq_dec i ds) as [Hi|Hni]; [|apply Hout, Hni].
    destruct (Z.eq_dec (mget sol i j) 0) as [E|E]; [exact E|exfalso].
    assert (Hs : 0 < mget sol i j) by (pose proof (Hnn i); lia).
    assert (HTj : colsum votes ds j = 0).
    { unfold colsum. rewrite (zsum_map_ext _ (fun _ => 0) ds); [apply zsum_map_zero|]. intros i0 Hi0.
      pose proof (Hmm i0 i Hi0 Hi Hs) as H. rewrite Hv in H. apply (div_le_zero_num _ _ _ (Hvnn i0 j) (Hp _ (Hnn i0)) H). }
    assert (Hnj : 0 < dget_or pseats j 0).
    { rewrite <- Hsum. pose proof (zsum_ge_elem (fun i => mget sol i j) ds i (fun x _ => Hnn x) Hi). cbv beta in H. lia. }
    assert (Hjps : In j ps).
    { unfold dget_or in Hnj. destruct (dget pseats j) as [nj|] eqn:Ed; [|lia]. apply (Hkeys j nj), dget_In, Ed. }
    destruct Hsome as (i1 & j1 & Hpos1).
    destruct (support_in_index votes i1 j1 ltac:(lia)) as [Hi1 Hj1].
    pose proof (zsum_ge_elem (fun i => mget votes i j1) ds i1 (fun x _ => Hvnn x j1) Hi1) as Hge. cbv beta in Hge.
    fold (colsum votes ds j1) in Hge.
    pose proof (PM j1 j Hj1 Hjps Hnj) as H. rewrite HTj in H. apply div_le_zero_num in H; [lia|lia|apply Hp, Hpn].
  Qed.

  (* the multiplier of a party whose column is a divisor apportionment lies between the signpost ratios of its cells *)
  Lemma party_coef_fits sol j nj : ColOK d votes j nj (fun i => mget sol i j) ->
    (0 < party_coef q votes sol j)%Q /\
    forall i, In i ds -> 0 < mget votes i j ->
      (signpost q (mget sol i j) / V i j <= party_coef q votes sol j)%Q /\
      (party_coef q votes sol j <= (signpost q (mget sol i j) + 1) / V i j)%Q.
  Proof.
    intros Hcol.
    assert (Hrow : forall r, In r votes -> dget_or (snd r) j 0 <> 0 -> In (fst r) ds /\ 0 < mget votes (fst r) j /\ dget_or (snd r) j 0 = mget votes (fst r) j).
    { intros r Hr Hv. pose proof (row_mget votes Hwf r j Hr) as E. rewrite E in Hv |- *. pose proof (Hvnn (fst r) j).
      split; [apply in_map, Hr|]. split; [lia|reflexivity]. }
    destruct (party_coef_ok q votes sol j) as [G1 G2].
    - intros r1 r2 Hr1 Hr2 Hv1 Hv2. destruct (Hrow r1 Hr1 Hv1) as (D1 & P1 & ->). destruct (Hrow r2 Hr2 Hv2) as (D2 & P2 & ->).
      apply (col_pair j (fun i => mget sol i j) _ (fst r1) (fst r2) Hcol D1 D2 P1 P2).
    - intros r Hr Hv. destruct (Hrow r Hr Hv) as (D1 & P1 & ->). destruct Hcol as (Hnn & _).
      pose proof (inj_lt 0 _ P1) as Hb. change (inject_Z 0) with 0%Q in Hb.
      pose proof (inj_le 0 _ (Hnn (fst r))) as Hs. change (inject_Z 0) with 0%Q in Hs. cbv beta in Hs.
      apply Qlt_shift_div_l; [exact Hb|]. unfold signpost. lra.
    - split; [exact G1|]. intros i Hi Hv. unfold districts in Hi. apply in_map_iff in Hi. destruct Hi as (r & <- & Hr).
      pose proof (row_mget votes Hwf r j Hr) as E. specialize (G2 r Hr). rewrite E in G2. apply G2. lia.
  Qed.

  Theorem binit_inv s : binit d q votes n = inr s ->
    exists pseats, evaluate d (party_totals votes) n [] [] = HA_ok pseats None /\ BInv q votes pseats s.
  Proof.
    unfold binit, initial_solution.
    destruct (evaluate d (party_totals votes) n [] []) as [pseats [tie|]|] eqn:Ep; try discriminate.
    destruct (fold_left (init_column d votes) pseats (Init_ok (empty_solution votes) pseats)) as [sol p1| | |] eqn:Ef; try discriminate.
    intros [= <-]. exists pseats. split; [reflexivity|].
    destruct (party_seats_ok pseats Ep) as (Hgn & Hkeys & Hpn & PM).
    destruct (init_fold d q k Hq1 Hk Hd votes Hwf Hvnn pseats pseats _ _ _ _ Hgn Hkeys (FI_empty pseats) Ef) as [W HC].
    assert (Hcol : forall j, ColOK d votes j (dget_or pseats j 0) (fun i => mget sol i j)) by (intros j; apply (HC j); intros []).
    pose proof (no_seat_without_votes pseats sol Hcol (fun j nj H => proj1 (Hkeys j nj H)) Hpn PM) as Hzero.
    constructor; cbn [b_res b_rho b_gamma].
    - exact W.
    - intros j Hj. destruct (Hcol j) as (_ & _ & Hsum & _). exact Hsum.
    - intros i j. destruct (Hcol j) as (Hnn & _). apply Hnn.
    - exact Hzero.
    - intros i Hi. rewrite (mul_initial_district_coefs i Hi). reflexivity.
    - intros j Hj. change (initial_party_coefs q votes sol) with (tab (party_coef q votes sol) ps). rewrite (mul_tab (party_coef q votes sol) ps j Hj).
      apply (party_coef_fits sol j _ (Hcol j)).
    - intros i j Hi Hj. change (initial_party_coefs q votes sol) with (tab (party_coef q votes sol) ps). rewrite (mul_tab (party_coef q votes sol) ps j Hj).
      rewrite (mul_initial_district_coefs i Hi). destruct (party_coef_fits sol j _ (Hcol j)) as [G1 G2].
      destruct (Z.eq_dec (mget votes i j) 0) as [Ev|Ev].
      + rewrite Ev, (Hzero i j Ev). apply (within_0 q Hq0 Hq1).
      + assert (Hv : 0 < mget votes i j) by (pose proof (Hvnn i j); lia).
        destruct (G2 i Hi Hv) as [L1 L2]. apply within_coef; assumption.
  Qed.
End InitFinal.

(* the test that opens evaluate (fixes/C07-all-zero.diff) *)
Lemma has_votes_false votes : has_votes votes = false -> forall i j, mget votes i j = 0.
Proof.
  intros H i j. unfold mget, dget_or. destruct (dget votes i) as [row|] eqn:Ei; [|reflexivity].
  destruct (dget row j) as [v|] eqn:Ej; [|reflexivity].
  destruct (Z.eq_dec v 0) as [E|E]; [exact E|exfalso].
  assert (has_votes votes = true); [|congruence].
  unfold has_votes. apply existsb_exists. exists (i, row). split; [apply (dget_In _ _ _ Ei)|].
  apply existsb_exists. exists (j, v). split; [apply (dget_In _ _ _ Ej)|]. cbn [snd]. apply negb_true_iff, Z.eqb_neq, E.
Qed.
Lemma has_votes_true votes : wf_votes votes -> has_votes votes = true -> exists i j, mget votes i j <> 0.
Proof.
  intros Hwf H. unfold has_votes in H. apply existsb_exists in H. destruct H as ([i row] & Hr & H).
  apply existsb_exists in H. destruct H as ([j v] & Hkv & H). cbn [snd] in *. apply negb_true_iff, Z.eqb_neq in H.
  exists i, j. rewrite (mget_In votes i row j v Hwf Hr Hkv). exact H.
Qed.

(* with no seat to fill nobody is eligible: HighestAverages.evaluate raises (zip of an empty list) *)
Lemma initial_quotients_nonpos d (vs : list (C * Q)) n : n <= 0 -> initial_quotients d vs [] [] n = [].
Proof.
  intros Hn. unfold initial_quotients.
  match goal with |- rev (_ _ ?l) = [] => assert (E : l = []) end.
  { induction vs as [|[c v] t IH]; [reflexivity|]. cbn [flat_map]. rewrite IH.
    unfold cap_of, dget_or. cbn [dget]. assert (0 <? n = false) as -> by (apply Z.ltb_ge; exact Hn).
    destruct (Qle_bool (d 0) 0); reflexivity. }
  rewrite E. reflexivity.
Qed.
Lemma initial_quotients_zero d (vs : list (C * Q)) : initial_quotients d vs [] [] 0 = [].
Proof. apply initial_quotients_nonpos. lia. Qed.
Lemma evaluate_nonpos d vs n : n <= 0 -> evaluate d vs n [] [] = HA_value_error.
Proof. intros Hn. unfold evaluate. rewrite (initial_quotients_nonpos d vs n Hn). reflexivity. Qed.

Section Whole.
  Variable d : Z -> Q.
  Variables q k : Q.
  Hypothesis Hq0 : (0 <= q)%Q.
  Hypothesis Hq1 : (q < 1)%Q.
  Hypothesis Hk : (0 < k)%Q.
  Hypothesis Hd : forall s, (d s == k * (inject_Z s + 1 - q))%Q.
  Variable votes : mat.
  Hypothesis Hwf : wf_votes votes.
  Hypothesis Hvnn : forall i j, 0 <= mget votes i j.
  Variable n : Z.
  Hypothesis Hn : 0 <= n.
  Variable dorder : list C.
  Hypothesis Hdorder : incl (districts votes) dorder.

  (* with [strict] = true an election without votes is refused, so "some vote is positive" need not be assumed;
     with [strict] = false it is needed (Props/C07.v C07_all_zero_refuted) *)
  Lemma not_refused_some strict : strict = true \/ (exists i j, 0 < mget votes i j) ->
    refuses_empty votes strict = false -> exists i j, 0 < mget votes i j.
  Proof.
    intros [->|H] Hr; [|exact H]. unfold refuses_empty in Hr. cbn [andb] in Hr. apply negb_false_iff in Hr.
    destruct (has_votes_true votes Hwf Hr) as (i & j & Hij). exists i, j. pose proof (Hvnn i j). lia.
  Qed.

  Theorem evaluate_core_partial strict tgt fuel res rho gamma : strict = true \/ (exists i j, 0 < mget votes i j) ->
    evaluate_core d q votes tgt dorder strict n fuel = BP_ok res rho gamma ->
    exists pseats, ha_marginal d (party_totals votes) n = Some pseats /\
      cert_ok d (districts votes) (parties votes) votes tgt pseats res (scale_k k rho) gamma = true.
  Proof.
    intros Hs. unfold evaluate_core. destruct (refuses_empty votes strict) eqn:Er; [discriminate|].
    pose proof (not_refused_some strict Hs Er) as Hsome.
    destruct (binit d q votes n) as [e|s] eqn:Ei; [intros ->; unfold binit in Ei;
      destruct (initial_solution d votes n); discriminate|].
    intros H. destruct (binit_inv d q k Hq0 Hq1 Hk Hd votes Hwf Hvnn Hsome n Hn s Ei) as (pseats & Ep & I).
    exists pseats. split; [unfold ha_marginal; rewrite Ep; reflexivity|].
    apply (bloop_partial d q k Hq0 Hq1 Hk Hd votes Hwf pseats tgt dorder Hdorder fuel s res rho gamma I H).
  Qed.

  Theorem evaluate_total_partial strict fuel res rho gamma : strict = true \/ (exists i j, 0 < mget votes i j) ->
    evaluate_total d q votes strict n dorder fuel = BP_ok res rho gamma ->
    exists pseats dseats, ha_marginal d (party_totals votes) n = Some pseats /\
      ha_marginal d (district_totals votes) n = Some dseats /\
      cert_ok d (districts votes) (parties votes) votes dseats pseats res (scale_k k rho) gamma = true.
  Proof.
    intros Hs. unfold evaluate_total. destruct (refuses_empty votes strict) eqn:Er; [discriminate|].
    destruct (binit d q votes n) as [e|s] eqn:Ei; [intros ->; unfold binit in Ei;
      destruct (initial_solution d votes n); discriminate|].
    destruct (evaluate d (district_totals votes) n [] []) as [tgt [t|]|] eqn:Et; try discriminate.
    intros H. destruct (evaluate_core_partial strict tgt fuel res rho gamma Hs H) as (pseats & Hp & Hc).
    exists pseats, tgt. split; [exact Hp|]. split; [unfold ha_marginal; rewrite Et; reflexivity|exact Hc].
  Qed.

  (* the refusal is justified: without a vote no seat matrix has the party marginal and empty cells where there are no
     votes (the party marginal hands out n >= 1 seats: with n = 0 HighestAverages raises, there is no marginal) *)
  Theorem no_votes_infeasible pseats : has_votes votes = false ->
    ha_marginal d (party_totals votes) n = Some pseats ->
    forall dseats res, ~ biprop_spec d (districts votes) (parties votes) votes dseats pseats res.
  Proof.
    intros Hz Hm dseats res (rho & gamma & S).
    pose proof (has_votes_false votes Hz) as Hzero.
    apply ha_marginal_spec in Hm.
    destruct (evaluate_ok _ _ _ _ _ Hm) as (Hne & Eg & Et & Hgn & Hgp).
    set (pv := party_totals votes) in *.
    pose proof (Hdpos d q k Hq1 Hk Hd) as Hp. pose proof (Hdmono d q k Hk Hd) as Hmo.
    pose proof (ha_all_seats d pv n Hp Hmo (party_totals_nonneg votes Hvnn) (party_totals_nodup votes) Hn Hne) as Hall. rewrite <- Et in Hall.
    (* n >= 1: with n = 0 nobody is eligible *)
    assert (Hn1 : 0 < n).
    { destruct (Z.eq_dec n 0) as [E0|E0]; [|lia]. exfalso. subst n. unfold evaluate in Hm.
      rewrite initial_quotients_zero in Hm. discriminate. }
    (* every column of the matrix is empty, so every party total of the marginal is 0 *)
    assert (Hcol : forall j, In j (parties votes) -> tot (final_state d pv n [] []) j = 0).
    { intros j Hj. change (tot (final_state d pv n [] []) j) with (dget_or (st_totals (final_state d pv n [] [])) j 0).
      rewrite <- Eg. rewrite <- (sp_cols _ _ _ _ _ _ _ _ _ S j Hj). unfold colsum.
      rewrite (zsum_map_ext _ (fun _ => 0) (districts votes)); [apply zsum_map_zero|].
      intros i _. apply (sp_zero _ _ _ _ _ _ _ _ _ S i j (Hzero i j)). }
    unfold pv in Hall. rewrite party_totals_keys in Hall. unfold ksum in Hall.
    rewrite (zsum_map_ext _ (fun _ => 0) (parties votes)) in Hall by exact Hcol. rewrite zsum_map_zero in Hall. lia.
  Qed.
End Whole.

(* BP_no_votes is only produced by the opening test *)
Lemma bloop_not_no_votes q votes tgt dorder fuel s : bloop q votes tgt dorder fuel s <> BP_no_votes.
Proof.
  intros H. destruct (bloop_kinds q votes tgt dorder fuel s _ H) as [(res & rho & gamma & E)|[E|[E|[E|(a & E)]]]]; discriminate.
Qed.
Lemma evaluate_core_no_votes d q votes tgt dorder n fuel :
  evaluate_core d q votes tgt dorder true n fuel = BP_no_votes <-> has_votes votes = false.
Proof.
  unfold evaluate_core, refuses_empty. cbn [andb]. destruct (has_votes votes); cbn [negb]; [|tauto].
  split; [|discriminate]. intros H. exfalso. revert H.
  destruct (binit d q votes n) as [e|s] eqn:Ei; [|apply bloop_not_no_votes].
  intros ->. unfold binit in Ei. destruct (initial_solution d votes n); discriminate.
Qed.
Lemma evaluate_total_no_votes d q votes dorder n fuel :
  evaluate_total d q votes true n dorder fuel = BP_no_votes <-> has_votes votes = false.
Proof.
  unfold evaluate_total. pose proof (evaluate_core_no_votes d q votes) as Hc. unfold refuses_empty in *. cbn [andb].
  destruct (has_votes votes); cbn [negb]; [|tauto].
  split; [|discriminate]. intros H. exfalso. revert H.
  destruct (binit d q votes n) as [e|s] eqn:Ei.
  - intros ->. unfold binit in Ei. destruct (initial_solution d votes n); discriminate.
  - destruct (evaluate d (district_totals votes) n [] []) as [tgt [t|]|]; try discriminate.
    intros H. apply Hc in H. discriminate.
Qed.

(* the two divisor rules the evaluator knows the signpost constant of *)
Lemma d_hondt_signposts s : (d_hondt s == 1 * (inject_Z s + 1 - 0))%Q.
Proof. unfold d_hondt. rewrite inject_Z_plus. change (inject_Z 1) with 1%Q. ring. Qed.
Lemma sainte_lague_signposts s : (sainte_lague s == 2 * (inject_Z s + 1 - (1 # 2)))%Q.
Proof.
  unfold sainte_lague. rewrite inject_Z_plus, inject_Z_mult. change (inject_Z 1) with 1%Q. change (inject_Z 2) with 2%Q. field.
Qed.
