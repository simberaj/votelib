(* AdjustedSeatCount inside a wrapper tree (Model/Wrappers.v: calc_allow / calc_level over dynamic values) composed with the
   seat count adjusters of Model/Overhang.v (allow_overhang / level_overhang over integer dictionaries, the subject of C15):
   whenever the proportional evaluator inside the calculator answers with integer distributions over candidates, the
   wrapper-level calculator computes exactly the adjustment of Model/Overhang.v - so every C15 theorem about that
   adjustment holds for an AdjustedSeatCount anywhere in a wrapper tree, around any wrapped evaluator. *)
From Coq Require Import ZArith List Bool Lia.
From VL Require Prelude.PyDict Model.Overhang.
From VL Require Import Model.Wrappers Proofs.TieBreak_proofs Proofs.Wrappers_proofs.
Import ListNotations.
Open Scope Z_scope.

Notation czd := (list (PyDict.C * Z)).

(* an integer dictionary over candidates as a wrapper value *)
Definition of_cz (d : czd) : dict := map (fun cz => (KC (fst cz), VInt (snd cz))) d.

Lemma dget_KC : forall {X} (g : X -> val) (d : list (PyDict.C * X)) c,
  dget (map (fun cx => (KC (fst cx), g (snd cx))) d) (KC c) = option_map g (PyDict.dget d c).
Proof.
  intros X g d c. induction d as [|[c0 x0] d IH]; [reflexivity|].
  simpl. unfold PyDict.ceqb. rewrite (Pos.eqb_sym c c0). destruct (Pos.eqb c0 c); [reflexivity|exact IH].
Qed.

Lemma dget_or_of_cz : forall (d : czd) c, dget_or (of_cz d) (KC c) (VInt 0) = VInt (PyDict.dget_or d c 0).
Proof.
  intros d c. unfold dget_or, PyDict.dget_or, of_cz. rewrite (dget_KC VInt). destruct (PyDict.dget d c); reflexivity.
Qed.

Lemma dmem_of_cz : forall (d : czd) c, dmem (of_cz d) (KC c) = PyDict.dmem d c.
Proof.
  intros d c. unfold dmem, PyDict.dmem, of_cz. rewrite (dget_KC VInt). destruct (PyDict.dget d c); reflexivity.
Qed.

Lemma max_val_int : forall a b, max_val (VInt a) (VInt b) = Ok (VInt (Z.max a b)).
Proof.
  intros a b. unfold max_val. cbn [lt_val rbind].
  destruct (a <? b) eqn:H; [apply Z.ltb_lt in H|apply Z.ltb_ge in H]; do 2 f_equal; lia.
Qed.

Section Bridge.
  Variable Ev : val -> val -> res val.              (* the evaluator inside the calculator: seats, max_seats -> result *)
  Variable E : Z -> option czd.                     (* the same as Model/Overhang.v sees it *)
  Variable mx : val.
  Hypothesis HE : forall h p, E h = Some p -> Ev (VInt h) mx = Ok (VDict (of_cz p)).

  Lemma allow_fold : forall (prop prev : czd) adj,
    fold_left (fun acc cp => acc >>= fun adj =>
                 as_dict (VDict (of_cz prop)) >>= fun propd =>
                 let pc := dget_or propd (fst cp) (VInt 0) in
                 lt_val pc (snd cp) >>= fun b =>
                 if b then sub_val (snd cp) pc >>= add_val adj else Ok adj) (of_cz prev) (Ok (VInt adj))
    = Ok (VInt (fold_left (fun adj cp => let pc := PyDict.dget_or prop (fst cp) 0 in
                                          if pc <? snd cp then adj + (snd cp - pc) else adj) prev adj)).
  Proof.
    intros prop prev. induction prev as [|[c g] prev IH]; intro adj; [reflexivity|].
    cbn [of_cz map fold_left rbind as_dict fst snd]. rewrite dget_or_of_cz. cbn [lt_val rbind].
    destruct (PyDict.dget_or prop c 0 <? g); cbn [sub_val add_val rbind]; apply IH.
  Qed.

  Theorem calc_allow_bridge : forall n prev a,
    Overhang.allow_overhang E n prev = Some a ->
    calc_allow Ev (VInt n) (VDict (of_cz prev)) mx = Ok (VInt a).
  Proof.
    intros n prev a H. unfold Overhang.allow_overhang in H. destruct (E n) as [prop|] eqn:He; [|discriminate H].
    inversion H; subst a. unfold calc_allow. rewrite (HE n prop He). cbn [rbind as_dict].
    apply allow_fold.
  Qed.

  Lemma any_below_bridge : forall (prop pmins : czd),
    any_below (VDict (of_cz prop)) (of_cz pmins) = Ok (negb (Overhang.satisfied pmins prop)).
  Proof.
    intros prop pmins. induction pmins as [|[c m] pmins IH]; [reflexivity|].
    cbn [of_cz map any_below fst snd as_dict rbind]. rewrite dget_or_of_cz. cbn [lt_val rbind].
    unfold Overhang.satisfied. cbn [forallb fst snd].
    destruct (PyDict.dget_or prop c 0 <? m); cbn [negb andb]; [reflexivity|].
    exact IH.
  Qed.

  Lemma level_loop_bridge : forall fuel (pmins : czd) adj prop r,
    Overhang.level_loop E fuel pmins adj prop = Some r ->
    level_loop fuel Ev mx (of_cz pmins) (VInt adj) (VDict (of_cz prop)) = Ok (VInt r).
  Proof.
    induction fuel as [|f IH]; intros pmins adj prop r H; cbn [Overhang.level_loop] in H; cbn [level_loop];
      rewrite any_below_bridge; destruct (Overhang.satisfied pmins prop); cbn [negb rbind].
    - inversion H; reflexivity.
    - discriminate H.
    - inversion H; reflexivity.
    - destruct (E (adj + 1)) as [prop'|] eqn:He; [|discriminate H].
      cbn [add_val rbind]. rewrite (HE (adj + 1) prop' He). cbn [rbind]. apply IH. exact H.
  Qed.

  Lemma lowest_bridge : forall (prop prev : czd),
    map_res (fun pg => as_dict (VDict (of_cz prev)) >>= fun pd =>
                       max_val (dget_or pd (fst pg) (VInt 0)) (snd pg) >>= fun m => Ok (fst pg, m)) (of_cz prop)
    = Ok (of_cz (Overhang.lowest_allowed prop prev)).
  Proof.
    intros prop prev.
    set (f := fun pg : key * val => as_dict (VDict (of_cz prev)) >>= fun pd =>
                max_val (dget_or pd (fst pg) (VInt 0)) (snd pg) >>= fun m => Ok (fst pg, m)).
    induction prop as [|[c g] prop IH]; [reflexivity|].
    change (of_cz ((c, g) :: prop)) with ((KC c, VInt g) :: of_cz prop).
    cbn [map_res]. rewrite IH. unfold f. cbn [as_dict rbind fst snd]. rewrite dget_or_of_cz, max_val_int.
    reflexivity.
  Qed.

  Lemma drop_fold : forall (lowest prev : czd) d,
    fold_left (fun acc cp => acc >>= fun dr => if dmem (of_cz lowest) (fst cp) then Ok dr else add_val dr (snd cp))
              (of_cz prev) (Ok (VInt d))
    = Ok (VInt (fold_left (fun d cp => if PyDict.dmem lowest (fst cp) then d else d + snd cp) prev d)).
  Proof.
    intros lowest prev. induction prev as [|[c g] prev IH]; intro d; [reflexivity|].
    cbn [of_cz map fold_left rbind fst snd]. rewrite dmem_of_cz.
    destruct (PyDict.dmem lowest c); cbn [add_val rbind]; apply IH.
  Qed.

  Theorem calc_level_bridge : forall fuel n prev a,
    Overhang.level_overhang E fuel n prev = Some a ->
    calc_level fuel Ev (VInt n) (VDict (of_cz prev)) mx = Ok (VInt a).
  Proof.
    intros fuel n prev a H. unfold Overhang.level_overhang in H.
    destruct (E n) as [prop|] eqn:He; [|discriminate H].
    destruct (Overhang.level_loop E fuel _ _ prop) as [adj|] eqn:Hl; [|discriminate H].
    inversion H; subst a. unfold calc_level. rewrite (HE n prop He). cbn [rbind].
    change (as_dict (VDict (of_cz prop))) with (Ok (of_cz prop)). cbn [rbind].
    rewrite lowest_bridge. cbn [rbind]. unfold Overhang.nonprop_drop in *.
    change (as_dict (VDict (of_cz prev))) with (Ok (of_cz prev)). cbn [rbind].
    rewrite drop_fold. cbn [rbind sub_val].
    rewrite (level_loop_bridge fuel _ _ prop adj Hl). cbn [rbind add_val sub_val]. reflexivity.
  Qed.
End Bridge.

Section Tree.
  Variable leaf : positive -> val -> list (option val) -> res val.
  Variable conv : positive -> val -> res val.
  Notation RS := (run_spec leaf conv).

  (* the proportional evaluator [pe] of the calculator, on these votes and seat caps, seen as Model/Overhang.v's E *)
  Definition sees (pe : ev) (votes mx : val) (E : Z -> option czd) : Prop :=
    forall h p, E h = Some p -> RS pe votes (KW (Some (VInt h)) None (Some mx) None None None) = Ok (VDict (of_cz p)).

  Theorem adjusted_allow_tree : forall pe e votes n prev mx E a, sees pe votes mx E ->
    Overhang.allow_overhang E n prev = Some a ->
    RS (AdjAllow pe e) votes (sa_npm (VInt n) (VDict (of_cz prev)) mx)
    = RS e votes (sa_npm (VInt (n + a)) (VDict (of_cz prev)) mx).
  Proof.
    intros pe e votes n prev mx E a Hs Ha. cbn [run_spec]. unfold sa_npm. rewrite accept_adj. cbn [rbind].
    cbn [sa_get nget kget b_named odef].
    rewrite (calc_allow_bridge _ E mx Hs n prev a Ha). reflexivity.
  Qed.

  Theorem adjusted_level_tree : forall pe e fuel votes n prev mx E a, sees pe votes mx E ->
    Overhang.level_overhang E fuel n prev = Some a ->
    RS (AdjLevel pe e fuel) votes (sa_npm (VInt n) (VDict (of_cz prev)) mx)
    = RS e votes (sa_npm (VInt (n + a)) (VDict (of_cz prev)) mx).
  Proof.
    intros pe e fuel votes n prev mx E a Hs Ha. cbn [run_spec]. unfold sa_npm. rewrite accept_adj. cbn [rbind].
    cbn [sa_get nget kget b_named odef].
    rewrite (calc_level_bridge _ E mx Hs fuel n prev a Ha). reflexivity.
  Qed.
End Tree.
