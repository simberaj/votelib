(* The resting-place invariant (I3) of the transferable-vote count (Model/STV.v):
   at every count, every ballot without shared ranks rests with the highest-ranked continuing candidate
   (= key of the allocation) on it, or in the exhausted pile only when no candidate on it continues;
   a shared first rank divides the weight of the ballot equally among its candidates. *)
From Coq Require Import ZArith QArith Qround Qreduction Setoid List Bool Arith Lia Lqa.
From VL Require Import Prelude.PyDict Model.GetNBest Model.Convert Model.STV Proofs.Dict_proofs Proofs.Threshold_proofs
     Proofs.STV_proofs.
Import ListNotations.
Open Scope Q_scope.

(* a ballot without shared ranks *)
Definition plainb (b : ballot) : bool := forallb (fun it => match it with IP _ => true | IS _ => false end) b.

(* c is the highest-ranked candidate of b that belongs to K *)
Definition highest_continuing (K : list C) (b : ballot) (c : C) : Prop :=
  exists pre post, b = pre ++ IP c :: post /\ In c K /\ forall x, In (IP x) pre -> ~ In x K.
(* no candidate of b belongs to K *)
Definition none_continuing (K : list C) (b : ballot) : Prop := forall x, In (IP x) b -> ~ In x K.

Definition rests_ok (K : list C) (k : option C) (b : ballot) : Prop :=
  match k with Some c => highest_continuing K b c | None => none_continuing K b end.

(* I3: K = the keys of the allocation = the candidates still in the count (continuing; an elected candidate whose
   pile stays because it may still gain seats is still a key) *)
Definition resting_ok (a : alloc) : Prop :=
  forall k p b w, In (k, p) a -> In (b, w) p -> plainb b = true -> rests_ok (keys_some a) k b.

(* boolean checker: next_after b K is the first rank of b with a candidate in K *)
Definition clist_eqb (x y : list C) : bool :=
  (length x =? length y)%nat && forallb (fun xy => ceqb (fst xy) (snd xy)) (combine x y).
Definition okey_list (k : option C) : list C := match k with Some c => [c] | None => [] end.
Definition resting_okb (a : alloc) : bool :=
  forallb (fun kp : option C * pile =>
    forallb (fun bw : ballot * Q =>
      implb (plainb (fst bw)) (clist_eqb (next_after (fst bw) (keys_some a)) (okey_list (fst kp)))) (snd kp)) a.

Lemma plainb_cons it b : plainb (it :: b) = true <-> (exists c, it = IP c) /\ plainb b = true.
Proof.
  unfold plainb. cbn [forallb]. rewrite andb_true_iff. destruct it as [c|l].
  - split; [intros [_ H]; split; [exists c; reflexivity|exact H]|intros [_ H]; split; [reflexivity|exact H]].
  - split; [intros [H _]; discriminate|intros [[c Hc] _]; discriminate].
Qed.
Lemma plainb_app x y : plainb (x ++ y) = plainb x && plainb y.
Proof. unfold plainb. apply forallb_app. Qed.

(* the pair (pile key, ballot) occurs in the allocation *)
Definition holds (a : alloc) (k : option C) (b : ballot) : Prop := exists p w, In (k, p) a /\ In (b, w) p.

(* resting place relative to a candidate set K, without the membership of the holder itself *)
Definition rests_at (K : list C) (k : option C) (b : ballot) : Prop :=
  match k with
  | Some c => exists pre post, b = pre ++ IP c :: post /\ forall x, In (IP x) pre -> ~ In x K
  | None => none_continuing K b
  end.

Lemma rests_at_anti K K' k b : incl K' K -> rests_at K k b -> rests_at K' k b.
Proof.
  intros Hi. destruct k as [c|]; simpl.
  - intros (pre & post & -> & H). exists pre, post. split; [reflexivity|]. intros x Hx Hk. exact (H x Hx (Hi x Hk)).
  - intros H x Hx Hk. exact (H x Hx (Hi x Hk)).
Qed.

Lemma rests_ok_at K k b : rests_ok K k b <-> rests_at K k b /\ (forall c, k = Some c -> In c K).
Proof.
  destruct k as [c|]; simpl; unfold highest_continuing.
  - split.
    + intros (pre & post & -> & Hc & H). split; [exists pre, post; auto|]. intros c0 [= <-]. exact Hc.
    + intros [(pre & post & -> & H) Hc]. exists pre, post. split; [reflexivity|]. split; [apply Hc; reflexivity|exact H].
  - split; [intros H; split; [exact H|discriminate]|intros [H _]; exact H].
Qed.

Lemma keys_some_In a c : In c (keys_some a) <-> exists p, In (Some c, p) a.
Proof.
  unfold keys_some. rewrite in_flat_map. split.
  - intros ([k p] & Hin & Hc). simpl in Hc. destruct k as [c0|]; [|destruct Hc]. destruct Hc as [<-|[]]. exists p. exact Hin.
  - intros (p & Hin). exists (Some c, p). split; [exact Hin|left; reflexivity].
Qed.

Lemma resting_ok_holds a :
  resting_ok a <-> forall k b, holds a k b -> plainb b = true -> rests_at (keys_some a) k b.
Proof.
  unfold resting_ok. split.
  - intros H k b (p & w & Hk & Hb) Hp. apply rests_ok_at. exact (H k p b w Hk Hb Hp).
  - intros H k p b w Hk Hb Hp. apply rests_ok_at. split; [apply H; [exists p, w; auto|exact Hp]|].
    intros c ->. apply keys_some_In. exists p. exact Hk.
Qed.

(* adding a ballot to a pile introduces at most that (key, ballot) pair *)
Lemma alloc_add_holds a k0 b0 w0 k b :
  holds (alloc_add a k0 b0 w0) k b -> holds a k b \/ (k = k0 /\ b = b0).
Proof.
  unfold holds. induction a as [|[k' p'] a IH]; simpl.
  - intros (p & w & [[= <- <-]|[]] & Hb). destruct Hb as [[= <- <-]|[]]. right. split; reflexivity.
  - destruct (okey_eqb k0 k') eqn:E; simpl.
    + apply okey_eqb_eq in E. subst k'. intros (p & w & [[= <- <-]|Hk] & Hb).
      * destruct (pile_add_in _ _ _ _ _ Hb) as [H1|(w1 & H1)]; [right; auto|left; exists p', w1; auto].
      * left. exists p, w. auto.
    + intros (p & w & [[= <- <-]|Hk] & Hb).
      * left. exists p', w. auto.
      * destruct IH as [(p1 & w1 & H1 & H2)|H1]; [exists p, w; auto|left; exists p1, w1; auto|right; exact H1].
Qed.

Lemma alloc_add_keys_some a k0 b0 w0 : incl (keys_some (alloc_add a k0 b0 w0)) (okey_list k0 ++ keys_some a).
Proof.
  intros x Hx. apply keys_some_In in Hx. destruct Hx as (p & Hp). apply in_or_app.
  assert (Hk : In (Some x) (akeys (alloc_add a k0 b0 w0))) by (apply in_map_iff; exists (Some x, p); auto).
  clear Hp. revert Hk. unfold akeys. induction a as [|[k' p'] a IH]; simpl.
  - intros [->|[]]. left. left. reflexivity.
  - destruct (okey_eqb k0 k') eqn:E; simpl.
    + intros [->|H]; right; [left; reflexivity|].
      apply in_map_iff in H. destruct H as ([k1 p1] & Hk1 & H). simpl in Hk1. subst k1.
      destruct k' as [c'|]; [right|]; apply keys_some_In; exists p1; exact H.
    + intros [->|H]; [right; left; reflexivity|].
      destruct (IH H) as [H1|H1]; [left; exact H1|right]. destruct k' as [c'|]; [right|]; exact H1.
Qed.

Lemma fold_add_holds T b0 sh k b : forall a,
  holds (fold_left (fun a t => alloc_add a (Some t) b0 sh) T a) k b ->
  holds a k b \/ (b = b0 /\ exists t, In t T /\ k = Some t).
Proof.
  induction T as [|t T IH]; intros a; simpl; [auto|].
  intros H. destruct (IH _ H) as [H1|(-> & t1 & Ht1 & ->)].
  - destruct (alloc_add_holds _ _ _ _ _ _ H1) as [H2|[-> ->]]; [left; exact H2|].
    right. split; [reflexivity|]. exists t. auto.
  - right. split; [reflexivity|]. exists t1. auto.
Qed.

Lemma move_ballot_holds a T b0 w0 k b :
  holds (move_ballot a T b0 w0) k b ->
  holds a k b \/ (b = b0 /\ ((T = [] /\ k = None) \/ exists t, In t T /\ k = Some t)).
Proof.
  unfold move_ballot. destruct T as [|t0 ts].
  - intros H. destruct (alloc_add_holds _ _ _ _ _ _ H) as [H1|[-> ->]]; [left; exact H1|right; auto].
  - intros H. destruct (fold_add_holds _ _ _ _ _ _ H) as [H1|[-> H1]]; [left; exact H1|right; auto].
Qed.

Lemma move_ballot_keys_some a T b0 w0 : incl (keys_some (move_ballot a T b0 w0)) (T ++ keys_some a).
Proof.
  unfold move_ballot. destruct T as [|t0 ts]; [exact (alloc_add_keys_some a None b0 w0)|].
  generalize (Qred (w0 / inject_Z (Z.of_nat (length (t0 :: ts))))). intros sh.
  generalize (t0 :: ts). clear t0 ts. intros T. revert a. induction T as [|t T IH]; intros a; simpl; [apply incl_refl|].
  intros x Hx. apply IH in Hx. apply in_app_or in Hx. destruct Hx as [Hx|Hx]; [right; apply in_or_app; left; exact Hx|].
  apply alloc_add_keys_some in Hx. simpl in Hx. destruct Hx as [<-|Hx]; [left; reflexivity|right; apply in_or_app; right; exact Hx].
Qed.

Lemma alloc_del_holds a k0 k b : holds (alloc_del a k0) k b -> holds a k b /\ k <> k0.
Proof.
  unfold holds, alloc_del. intros (p & w & Hk & Hb). apply filter_In in Hk. destruct Hk as [Hk Hne]. simpl in Hne.
  split; [exists p, w; auto|]. intros ->. rewrite okey_eqb_refl in Hne. discriminate.
Qed.

Lemma alloc_del_keys_some a c x : In x (keys_some (alloc_del a (Some c))) -> In x (keys_some a) /\ x <> c.
Proof.
  intros Hx. apply keys_some_In in Hx. destruct Hx as (p & Hp). unfold alloc_del in Hp. apply filter_In in Hp.
  destruct Hp as [Hp Hne]. split; [apply keys_some_In; exists p; exact Hp|]. intros ->. simpl in Hne.
  unfold ceqb in Hne. rewrite Pos.eqb_refl in Hne. discriminate.
Qed.

Lemma next_after_plain_nil b K : plainb b = true -> next_after b K = [] -> none_continuing K b.
Proof.
  unfold none_continuing. induction b as [|[c|l] t IH]; intros Hp; [intros _ x []| |apply plainb_cons in Hp; destruct Hp as [[c Hc] _]; discriminate].
  apply plainb_cons in Hp. destruct Hp as [_ Hp]. simpl. destruct (cmem c K) eqn:E; [discriminate|].
  intros Hn x [[= <-]|Hx]; [intros Hk; apply cmem_In in Hk; congruence|exact (IH Hp Hn x Hx)].
Qed.

Lemma next_after_plain_in b K t : plainb b = true -> In t (next_after b K) ->
  next_after b K = [t] /\
  exists mid post, b = mid ++ IP t :: post /\ In t K /\ forall x, In (IP x) mid -> ~ In x K.
Proof.
  induction b as [|[c|l] b IH]; intros Hp; [intros []| |apply plainb_cons in Hp; destruct Hp as [[c Hc] _]; discriminate].
  apply plainb_cons in Hp. destruct Hp as [_ Hp]. simpl. destruct (cmem c K) eqn:E.
  - intros [<-|[]]. split; [reflexivity|]. exists [], b. split; [reflexivity|]. split; [apply cmem_In, E|intros x []].
  - intros Ht. destruct (IH Hp Ht) as (He & mid & post & -> & Hk & Hm). split; [exact He|].
    exists (IP c :: mid), post. split; [reflexivity|]. split; [exact Hk|].
    intros x [[= <-]|Hx]; [intros Hc; apply cmem_In in Hc; congruence|exact (Hm x Hx)].
Qed.

Lemma next_after_skip pre rest K : plainb pre = true -> (forall x, In (IP x) pre -> ~ In x K) ->
  next_after (pre ++ rest) K = next_after rest K.
Proof.
  induction pre as [|[c|l] pre IH]; intros Hp Hn; [reflexivity| |apply plainb_cons in Hp; destruct Hp as [[c Hc] _]; discriminate].
  apply plainb_cons in Hp. destruct Hp as [_ Hp]. simpl.
  destruct (cmem c K) eqn:E; [exfalso; apply (Hn c); [left; reflexivity|apply cmem_In, E]|].
  apply IH; [exact Hp|]. intros x Hx. apply Hn. right. exact Hx.
Qed.

Lemma ranked_next_skip pre c post allowed : plainb pre = true -> ~ In (IP c) pre ->
  ranked_next (pre ++ IP c :: post) c allowed = next_after post allowed.
Proof.
  induction pre as [|[x|l] pre IH]; intros Hp Hn.
  - simpl. unfold ceqb. rewrite Pos.eqb_refl. reflexivity.
  - apply plainb_cons in Hp. destruct Hp as [_ Hp]. simpl. destruct (ceqb c x) eqn:E.
    + apply ceqb_eq in E. subst x. exfalso. apply Hn. left. reflexivity.
    + apply IH; [exact Hp|]. intros H. apply Hn. right. exact H.
  - apply plainb_cons in Hp. destruct Hp as [[x Hx] _]. discriminate.
Qed.

(* the checker decides the invariant *)
Lemma clist_eqb_eq x y : clist_eqb x y = true <-> x = y.
Proof.
  unfold clist_eqb. revert y. induction x as [|a x IH]; destruct y as [|b y]; simpl; try (split; [discriminate|intros H; discriminate]); [tauto|].
  specialize (IH y). rewrite andb_true_iff in *. rewrite andb_true_iff, ceqb_eq. rewrite Nat.eqb_eq in *.
  split; [intros (Hl & -> & Hf); f_equal; apply IH; auto|intros [= -> ->]; split; [reflexivity|split; [reflexivity|apply IH; reflexivity]]].
Qed.

Lemma next_after_plain_spec b K k : plainb b = true -> (next_after b K = okey_list k <-> rests_ok K k b).
Proof.
  intros Hp. destruct k as [c|]; simpl.
  - split.
    + intros H. assert (Hin : In c (next_after b K)) by (rewrite H; left; reflexivity).
      destruct (next_after_plain_in b K c Hp Hin) as (_ & mid & post & -> & Hk & Hm). exists mid, post. auto.
    + intros (pre & post & -> & Hk & Hm). rewrite plainb_app in Hp. apply andb_true_iff in Hp. destruct Hp as [Hp _].
      rewrite (next_after_skip pre _ K Hp Hm). simpl. apply cmem_In in Hk. rewrite Hk. reflexivity.
  - split; [apply next_after_plain_nil, Hp|].
    intros Hn. destruct (next_after b K) as [|t l] eqn:E; [reflexivity|]. exfalso.
    assert (Hin : In t (next_after b K)) by (rewrite E; left; reflexivity).
    destruct (next_after_plain_in b K t Hp Hin) as (_ & mid & post & -> & Hk & _).
    apply (Hn t); [apply in_or_app; right; left; reflexivity|exact Hk].
Qed.

Theorem resting_okb_spec a : resting_okb a = true <-> resting_ok a.
Proof.
  unfold resting_okb, resting_ok. rewrite forallb_forall. split.
  - intros H k p b w Hk Hb Hp. specialize (H (k, p) Hk). rewrite forallb_forall in H. specialize (H (b, w) Hb).
    cbn [fst snd] in H. rewrite Hp in H. cbn [implb] in H. apply clist_eqb_eq in H. apply (next_after_plain_spec b _ k Hp), H.
  - intros H [k p] Hk. apply forallb_forall. intros [b w] Hb. cbn [fst snd]. destruct (plainb b) eqn:Hp; [|reflexivity].
    cbn [implb]. apply clist_eqb_eq. apply (next_after_plain_spec b _ k Hp). exact (H k p b w Hk Hb Hp).
Qed.

(* the step of a transfer: a ballot resting properly with c (relative to K) leaves the eliminated c for the
   highest-ranked candidate of cont on it, where cont is a part of K without c *)
Lemma ranked_next_rests K cont c b : plainb b = true -> rests_at K (Some c) b -> In c K -> incl cont K -> ~ In c cont ->
  (ranked_next b c cont = [] -> rests_at cont None b) /\
  (forall t, In t (ranked_next b c cont) -> rests_at cont (Some t) b).
Proof.
  intros Hp (pre & post & -> & Hpre) Hc Hi Hnc.
  rewrite plainb_app in Hp. apply andb_true_iff in Hp. destruct Hp as [Hp1 Hp2]. apply plainb_cons in Hp2. destruct Hp2 as [_ Hp2].
  assert (Hnp : ~ In (IP c) pre) by (intros H; exact (Hpre c H Hc)).
  rewrite (ranked_next_skip pre c post cont Hp1 Hnp). split.
  - intros Hn. pose proof (next_after_plain_nil post cont Hp2 Hn) as Hnone. simpl. intros x Hx Hk.
    apply in_app_or in Hx. destruct Hx as [Hx|[[= <-]|Hx]]; [exact (Hpre x Hx (Hi x Hk))|exact (Hnc Hk)|exact (Hnone x Hx Hk)].
  - intros t Ht. destruct (next_after_plain_in post cont t Hp2 Ht) as (_ & mid & post' & -> & Hk & Hm).
    simpl. exists (pre ++ IP c :: mid), post'. split; [rewrite <- app_assoc; reflexivity|].
    intros x Hx Hkx. apply in_app_or in Hx. destruct Hx as [Hx|[[= <-]|Hx]]; [exact (Hpre x Hx (Hi x Hkx))|exact (Hnc Hkx)|exact (Hm x Hx Hkx)].
Qed.

Section TRANSFER.
  Variables K cont : list C.
  Hypothesis Hcont : incl cont K.

  (* state of the transfer loop: rem = candidates still to be removed *)
  Definition TJ (rem : list C) (a : alloc) : Prop :=
    (forall k b, holds a k b -> plainb b = true -> rests_at cont k b) /\
    (forall c b, In c rem -> holds a (Some c) b -> plainb b = true -> rests_at K (Some c) b) /\
    incl (keys_some a) (cont ++ rem).

  Lemma transfer_inner c rem : In c K -> (forall x, In x (c :: rem) -> ~ In x cont) ->
    forall q a0, TJ (c :: rem) a0 ->
    (forall b w, In (b, w) q -> plainb b = true -> rests_at K (Some c) b) ->
    TJ (c :: rem) (fold_left (fun a bw => move_ballot a (ranked_next (fst bw) c cont) (fst bw) (snd bw)) q a0).
  Proof.
    intros Hc Hdis. induction q as [|[b0 w0] q IH]; intros a0 HJ Hq; simpl; [exact HJ|].
    apply IH; [|intros b w H; apply (Hq b w); right; exact H].
    destruct HJ as (J1 & J2 & J3). split; [|split].
    - intros k b Hh Hp. destruct (move_ballot_holds _ _ _ _ _ _ Hh) as [H1|(-> & Hk)]; [exact (J1 k b H1 Hp)|].
      destruct (ranked_next_rests K cont c b0 Hp (Hq b0 w0 (or_introl eq_refl) Hp) Hc Hcont (Hdis c (or_introl eq_refl))) as [R1 R2].
      destruct Hk as [[Hn ->]|(t & Ht & ->)]; [exact (R1 Hn)|exact (R2 t Ht)].
    - intros c2 b Hc2 Hh Hp. destruct (move_ballot_holds _ _ _ _ _ _ Hh) as [H1|(-> & Hk)]; [exact (J2 c2 b Hc2 H1 Hp)|].
      exfalso. destruct Hk as [[_ [=]]|(t & Ht & [= ->])].
      apply (Hdis t Hc2). exact (ranked_next_allowed b0 c cont t Ht).
    - intros x Hx. apply move_ballot_keys_some in Hx. apply in_app_or in Hx. destruct Hx as [Hx|Hx]; [|exact (J3 x Hx)].
      apply in_or_app. left. exact (ranked_next_allowed b0 c cont x Hx).
  Qed.

  Lemma transfer_outer rem : (forall x, In x rem -> In x K /\ ~ In x cont) ->
    forall a0, TJ rem a0 ->
    TJ [] (fold_left (fun a c =>
      let p := match alloc_get a (Some c) with Some p => p | None => [] end in
      alloc_del (fold_left (fun a bw => move_ballot a (ranked_next (fst bw) c cont) (fst bw) (snd bw)) p a) (Some c)) rem a0).
  Proof.
    induction rem as [|c rem IH]; intros Hrem a0 HJ; simpl; [exact HJ|].
    apply IH; [intros x Hx; apply Hrem; right; exact Hx|].
    set (p := match alloc_get a0 (Some c) with Some p => p | None => [] end).
    assert (Hp : forall b w, In (b, w) p -> plainb b = true -> rests_at K (Some c) b).
    { intros b w Hb Hpl. destruct HJ as (_ & J2 & _). apply (J2 c b (or_introl eq_refl)); [|exact Hpl].
      unfold p in Hb. destruct (alloc_get a0 (Some c)) as [p0|] eqn:E; [|destruct Hb].
      exists p0, w. split; [apply alloc_get_some_in, E|exact Hb]. }
    pose proof (transfer_inner c rem (proj1 (Hrem c (or_introl eq_refl))) (fun x Hx => proj2 (Hrem x Hx)) p a0 HJ Hp) as (I1 & I2 & I3).
    split; [|split].
    - intros k b Hh. apply alloc_del_holds in Hh. exact (I1 k b (proj1 Hh)).
    - intros c2 b Hc2 Hh. apply alloc_del_holds in Hh. exact (I2 c2 b (or_intror Hc2) (proj1 Hh)).
    - intros x Hx. apply alloc_del_keys_some in Hx. destruct Hx as [Hx Hne]. apply I3 in Hx.
      apply in_app_or in Hx. apply in_or_app. destruct Hx as [Hx|[Hx|Hx]]; [left; exact Hx|congruence|right; exact Hx].
  Qed.
End TRANSFER.

Theorem transfer_resting a elim : resting_ok a -> resting_ok (transfer a elim).
Proof.
  intros Hr. rewrite resting_ok_holds in Hr. apply resting_ok_holds. unfold transfer.
  set (K := keys_some a). set (cont := filter (fun c => negb (cmem c elim)) K). set (rem := filter (fun c => cmem c elim) K).
  assert (Hcont : incl cont K) by (intros x Hx; apply filter_In in Hx; tauto).
  assert (Hrem : forall x, In x rem -> In x K /\ ~ In x cont).
  { intros x Hx. apply filter_In in Hx. destruct Hx as [Hx He]. split; [exact Hx|]. intros Hc. apply filter_In in Hc.
    destruct Hc as [_ Hc]. rewrite He in Hc. discriminate. }
  assert (H0 : TJ K cont rem a).
  { split; [|split].
    - intros k b Hh Hp. apply (rests_at_anti K cont k b Hcont). exact (Hr k b Hh Hp).
    - intros c b _ Hh Hp. exact (Hr (Some c) b Hh Hp).
    - intros x Hx. apply in_or_app. destruct (cmem x elim) eqn:E; [right|left]; apply filter_In; rewrite E; auto. }
  destruct (transfer_outer K cont Hcont rem Hrem a H0) as (F1 & _ & F3).
  intros k b Hh Hp. apply (rests_at_anti cont); [|exact (F1 k b Hh Hp)].
  intros x Hx. apply F3 in Hx. rewrite app_nil_r in Hx. exact Hx.
Qed.

(* the keys only shrink in a transfer *)
Lemma transfer_keys_shrink a elim : incl (keys_some (transfer a elim)) (filter (fun c => negb (cmem c elim)) (keys_some a)).
Proof. rewrite transfer_keys_eq. apply incl_refl. Qed.

(* Gregory reweighting keeps every ballot where it is *)
Theorem subtract_resting elected : forall a a', resting_ok a -> subtract a elected = Some a' -> resting_ok a'.
Proof.
  induction elected as [|[c amt] t IH]; intros a a' Hr; cbn [subtract]; [intros [= <-]; exact Hr|].
  destruct (alloc_get a (Some c)) as [p|] eqn:Eg; [|discriminate].
  destruct (gregory_subtract p amt) as [p'|] eqn:Es; [|discriminate].
  apply IH. clear IH. fold (set_pile_of c p' a).
  rewrite resting_ok_holds in Hr. apply resting_ok_holds. rewrite (keys_some_akeys_eq _ a (set_pile_keys a c p')).
  intros k b (q & w & Hq & Hb) Hp. apply (Hr k b); [|exact Hp].
  destruct (set_pile_in _ _ _ _ _ Hq) as [[-> ->]|Hq0]; [|exists q, w; auto].
  destruct (gregory_subtract_in p amt p' b w Es Hb) as (w0 & Hw0). exists p, w0. split; [apply alloc_get_some_in, Eg|exact Hw0].
Qed.

Theorem initial_resting votes : resting_ok (initial_allocation votes).
Proof.
  apply resting_ok_holds. intros k b Hh Hp.
  (* whatever the keys: a ballot without shared ranks is held only by its first candidate (the default 1 of the
     match is arbitrary: the second conjunct forces the first branch) *)
  enough (Hfirst : exists t, k = Some (match b with IP c :: _ => c | _ => 1%positive end) /\ b = IP (match b with IP c :: _ => c | _ => 1%positive end) :: t).
  { destruct Hfirst as (t & -> & Hb). simpl. exists [], t. split; [exact Hb|intros x []]. }
  revert k b Hh Hp.
  apply (initial_allocation_keeps (fun a => forall k b, holds a k b -> plainb b = true ->
           exists t, k = Some (match b with IP c :: _ => c | _ => 1%positive end) /\ b = IP (match b with IP c :: _ => c | _ => 1%positive end) :: t)).
  - intros k b (p & w & Hk & Hb). apply in_map_iff in Hk. destruct Hk as (c & [= <- <-] & _). destruct Hb.
  - intros a c t w _ Ha k b Hh. destruct (alloc_add_holds _ _ _ _ _ _ Hh) as [H1|[-> ->]]; [exact (Ha k b H1)|].
    intros _. exists t. split; reflexivity.
  - intros a l t w _ Ha k b Hh. destruct (move_ballot_holds _ _ _ _ _ _ Hh) as [H1|[-> _]]; [exact (Ha k b H1)|].
    intros Hpl. apply plainb_cons in Hpl. destruct Hpl as [[c Hc] _]. discriminate.
Qed.

Theorem next_count_resting cf a n_seats total prev caps a' el :
  resting_ok a -> next_count cf a n_seats total prev caps = CR_next a' el -> resting_ok a'.
Proof.
  intros Hr Hn.
  destruct (next_count_next _ _ _ _ _ _ _ _ Hn) as [(qv & a1 & _ & _ & Es & ->)|(_ & _ & _ & ->)]; apply transfer_resting.
  - exact (subtract_resting _ a a1 Hr Es).
  - exact Hr.
Qed.

Theorem reach_resting cf votes n_seats caps prev0 a seats qs :
  reach cf votes n_seats caps prev0 a seats qs -> resting_ok a.
Proof.
  induction 1 as [|a seats qs a' el _ IH Hn]; [apply initial_resting|].
  exact (next_count_resting cf a n_seats _ seats caps a' el IH Hn).
Qed.

(* every count RECORDED by the trace of stv comes from an allocation satisfying the invariant *)
Section RECORDED.
  Variable cf : cfg.
  Variable votes : list (ballot * Q).
  Variable n_seats : Z.
  Variable caps prev0 : list (C * Z).
  Let total := Qred (fold_left Qplus (map snd votes) 0).

  (* a recorded count: the totals of a reachable allocation, or the elect-all-remaining shortcut (no allocation: []) *)
  Definition recorded_ok (e : list (option C * Q) * list (C * Z)) : Prop :=
    (exists a seats qs, reach cf votes n_seats caps prev0 a seats qs /\ resting_ok a /\ fst e = totals a) \/ fst e = [].

  Lemma run_recorded fuel : forall a seats qs acc, reach cf votes n_seats caps prev0 a seats qs ->
    (forall e, In e acc -> recorded_ok e) ->
    forall e, In e (t_counts (run cf fuel a n_seats total seats caps acc)) -> recorded_ok e.
  Proof.
    intros a seats qs acc Hr Hacc.
    apply (run_inv cf n_seats total caps
             (fun a seats acc => (exists qs, reach cf votes n_seats caps prev0 a seats qs) /\ forall e, In e acc -> recorded_ok e)
             (fun t => forall e, In e (t_counts t) -> recorded_ok e)); [| | | |split; [exists qs; exact Hr|exact Hacc]].
    - intros a0 s0 acc0 a' el [[qs0 Hr0] Hacc0] _ En.
      assert (Hr' : reach cf votes n_seats caps prev0 a' (add_seats s0 el) (qs0 + seats_sum el)) by (eapply reach_step; eassumption).
      split; [exists (qs0 + seats_sum el)%Z; exact Hr'|]. intros e0 [<-|H0]; [|exact (Hacc0 e0 H0)].
      left. exists a', (add_seats s0 el), (qs0 + seats_sum el)%Z.
      split; [exact Hr'|]. split; [exact (reach_resting _ _ _ _ _ _ _ _ Hr')|reflexivity].
    - intros a0 s0 acc0 [_ Hacc0] _ e He. apply in_rev in He. exact (Hacc0 e He).
    - intros a0 s0 acc0 el [_ Hacc0] _ _ e He. apply in_rev in He. destruct He as [<-|He]; [right; reflexivity|exact (Hacc0 e He)].
    - intros a0 s0 acc0 s [_ Hacc0] e He. apply in_rev in He. exact (Hacc0 e He).
  Qed.

  Theorem stv_recorded e : In e (t_counts (stv cf votes n_seats prev0 caps)) -> recorded_ok e.
  Proof.
    unfold stv. apply (run_recorded _ _ prev0 0%Z); [apply reach_init|intros e0 []].
  Qed.
End RECORDED.

(* a shared first rank divides the weight equally *)
(* weight of the ballots selected by f in a pile / in the pile of key k *)
Definition fweight (f : ballot -> bool) (p : pile) : Q :=
  fold_right (fun bw acc => (if f (fst bw) then snd bw else 0) + acc) 0 p.
Definition aweight (f : ballot -> bool) (a : alloc) (k : option C) : Q :=
  match alloc_get a k with Some p => fweight f p | None => 0 end.
(* f does not separate ballots that the pile (a Python dict keyed by the ballot) identifies *)
Definition respects (f : ballot -> bool) : Prop := forall b b', ballot_eqb b b' = true -> f b' = f b.

Lemma pile_add_fweight f p b w : respects f -> fweight f (pile_add p b w) == fweight f p + (if f b then w else 0).
Proof. intros Hf. exact (wsum_of_add f p b w (Hf b)). Qed.

Lemma alloc_add_aweight f a k b w k' : respects f ->
  aweight f (alloc_add a k b w) k' == aweight f a k' + (if okey_eqb k' k then (if f b then w else 0) else 0).
Proof.
  intros Hf. unfold aweight. induction a as [|[k0 p] a IH]; cbn [alloc_add alloc_get].
  - destruct (okey_eqb k' k); simpl; ring.
  - destruct (okey_eqb k k0) eqn:E; cbn [alloc_get].
    + apply okey_eqb_eq in E. subst k0. destruct (okey_eqb k' k) eqn:E2; [rewrite pile_add_fweight by exact Hf; ring|ring].
    + destruct (okey_eqb k' k0) eqn:E2; [|exact IH].
      apply okey_eqb_eq in E2. subst k0. destruct (okey_eqb k' k) eqn:E3; [|ring].
      apply okey_eqb_eq in E3. subst k'. rewrite okey_eqb_refl in E. discriminate.
Qed.

Definition cnt (l : list C) (c : C) : Q := inject_Z (Z.of_nat (count_occ Pos.eq_dec l c)).

Lemma fold_add_aweight f T b sh c : respects f -> forall a,
  aweight f (fold_left (fun a t => alloc_add a (Some t) b sh) T a) (Some c)
  == aweight f a (Some c) + cnt T c * (if f b then sh else 0).
Proof.
  intros Hf. unfold cnt. induction T as [|t T IH]; intros a; cbn [fold_left count_occ]; [simpl; ring|].
  rewrite IH, alloc_add_aweight by exact Hf. cbn [okey_eqb]. unfold ceqb.
  destruct (Pos.eq_dec t c) as [->|Hne].
  - rewrite Pos.eqb_refl, Nat2Z.inj_succ, <- Z.add_1_r, inject_Z_plus. simpl (inject_Z 1). ring.
  - assert ((c =? t)%positive = false) as -> by (apply Pos.eqb_neq; congruence). ring.
Qed.

Lemma fold_add_aweight_none f T b sh : forall a,
  aweight f (fold_left (fun a t => alloc_add a (Some t) b sh) T a) None = aweight f a None.
Proof.
  induction T as [|t T IH]; intros a; cbn [fold_left]; [reflexivity|]. rewrite IH. unfold aweight.
  rewrite alloc_add_get_other by discriminate. reflexivity.
Qed.

(* one ballot leaving: each target receives the same share w / (number of targets) *)
Theorem move_ballot_aweight f a T b w c : respects f ->
  aweight f (move_ballot a T b w) (Some c)
  == aweight f a (Some c) + cnt T c * (if f b then w / inject_Z (Z.of_nat (length T)) else 0).
Proof.
  intros Hf. unfold move_ballot. destruct T as [|t0 ts].
  - rewrite alloc_add_aweight by exact Hf. unfold cnt. simpl. ring.
  - rewrite fold_add_aweight by exact Hf.
    pose proof (Qred_correct (w / inject_Z (Z.of_nat (length (t0 :: ts))))) as Hr.
    destruct (f b); [rewrite Hr|]; reflexivity.
Qed.

(* the targets of a ballot with a (non-empty) shared first rank are exactly the candidates of that rank *)
Lemma shared_first_targets votes x l t w : In (IS (x :: l) :: t, w) votes ->
  next_after (IS (x :: l) :: t) (all_ranked_candidates votes) = x :: l.
Proof.
  intros Hv. cbn [next_after].
  rewrite (filter_all_true (fun c => cmem c (all_ranked_candidates votes)) (x :: l)); [reflexivity|].
  intros y Hy. apply cmem_In. apply (all_ranked_complete votes _ w (IS (x :: l)) y Hv); [left; reflexivity|exact Hy].
Qed.

(* the share of the weight w of ballot b that candidate c receives in the initial allocation *)
Definition first_share (b : ballot) (w : Q) (c : C) : Q :=
  match b with
  | [] => 0
  | IP c' :: _ => if ceqb c c' then w else 0
  | IS l :: _ => cnt l c * (w / inject_Z (Z.of_nat (length l)))
  end.
Definition shared_first_nonempty (votes : list (ballot * Q)) : bool :=
  forallb (fun bw : ballot * Q => match fst bw with IS [] :: _ => false | _ => true end) votes.

Theorem initial_allocation_shares votes f c : respects f -> shared_first_nonempty votes = true ->
  aweight f (initial_allocation votes) (Some c)
  == fold_right (fun bw acc => (if f (fst bw) then first_share (fst bw) (snd bw) c else 0) + acc) 0 votes.
Proof.
  intros Hf Hne.
  apply (initial_allocation_adds (fun _ => True) (fun a => aweight f a (Some c))
           (fun b w => if f b then first_share b w c else 0) votes); [exact I| | | |].
  - unfold aweight. induction (all_ranked_candidates votes) as [|x l IH]; cbn [map alloc_get]; [reflexivity|].
    destruct (okey_eqb (Some c) (Some x)); [reflexivity|exact IH].
  - intros w. destruct (f []); reflexivity.
  - intros a c' t w _ _. split; [exact I|]. rewrite alloc_add_aweight by exact Hf. cbn [first_share okey_eqb].
    destruct (f _), (ceqb c c'); ring.
  - intros a l t w Hin _. split; [exact I|]. destruct l as [|x l].
    { exfalso. unfold shared_first_nonempty in Hne. rewrite forallb_forall in Hne. specialize (Hne _ Hin). discriminate. }
    rewrite move_ballot_aweight by exact Hf. rewrite (shared_first_targets votes x l t w Hin).
    cbn [first_share]. destruct (f _); ring.
Qed.

(* ballot_eqb identifies ballots up to the order inside shared ranks: it is an equivalence *)
Lemma item_eqb_sym x y : item_eqb x y = item_eqb y x.
Proof.
  destruct x as [c|l], y as [d|m]; simpl; try reflexivity.
  - unfold ceqb. apply Pos.eqb_sym.
  - apply andb_comm.
Qed.
Lemma forallb_cmem_incl (x y : list C) : forallb (fun c => cmem c y) x = true <-> incl x y.
Proof. rewrite forallb_forall. split; intros H u Hu; apply cmem_In, H, Hu. Qed.

Lemma item_eqb_trans x y z : item_eqb x y = true -> item_eqb y z = true -> item_eqb x z = true.
Proof.
  destruct x as [c|l], y as [d|m], z as [e|n]; simpl; try discriminate.
  - intros H1 H2. apply ceqb_eq in H1. apply ceqb_eq in H2. apply ceqb_eq. congruence.
  - intros H12 H23. apply andb_true_iff in H12. apply andb_true_iff in H23. destruct H12 as [H1 H2], H23 as [H3 H4].
    apply forallb_cmem_incl in H1, H2, H3, H4. apply andb_true_iff. split; apply forallb_cmem_incl.
    + exact (incl_tran H1 H3).
    + exact (incl_tran H4 H2).
Qed.
Lemma ballot_eqb_sym : forall a b, ballot_eqb a b = ballot_eqb b a.
Proof.
  induction a as [|x a IH]; destruct b as [|y b]; simpl; try reflexivity. rewrite item_eqb_sym, IH. reflexivity.
Qed.
Lemma ballot_eqb_trans : forall a b c, ballot_eqb a b = true -> ballot_eqb b c = true -> ballot_eqb a c = true.
Proof.
  induction a as [|x a IH]; destruct b as [|y b], c as [|z c]; simpl; try discriminate; [reflexivity|].
  intros H12 H23. apply andb_true_iff in H12. apply andb_true_iff in H23. destruct H12 as [H1 H2], H23 as [H3 H4].
  apply andb_true_iff. split; [exact (item_eqb_trans _ _ _ H1 H3)|exact (IH _ _ H2 H4)].
Qed.

Lemma respects_all : respects (fun _ => true).
Proof. intros b b' _. reflexivity. Qed.
Lemma respects_ballot b0 : respects (ballot_eqb b0).
Proof.
  intros b b' H. destruct (ballot_eqb b0 b) eqn:E.
  - exact (ballot_eqb_trans _ _ _ E H).
  - apply not_true_iff_false. intros E'. rewrite ballot_eqb_sym in H.
    rewrite (ballot_eqb_trans _ _ _ E' H) in E. discriminate.
Qed.

(* with distinct candidates in the shared rank, each of them counts once *)
Lemma cnt_nodup l c : NoDup l -> cnt l c == if cmem c l then 1 else 0.
Proof.
  intros Hn. unfold cnt. destruct (cmem c l) eqn:E.
  - apply cmem_In in E. apply (NoDup_count_occ' Pos.eq_dec) in E; [|exact Hn]. rewrite E. reflexivity.
  - assert (Hni : ~ In c l) by (intros H; apply cmem_In in H; congruence).
    apply (count_occ_not_In Pos.eq_dec) in Hni. rewrite Hni. reflexivity.
Qed.

(* validation of the definition on runs of the model *)
(* the allocations a run passes through (mirror of [run]; validation only) *)
Fixpoint run_allocs (cf : cfg) (fuel : nat) (a : alloc) (n_seats : Z) (total_votes : Q)
         (seats caps : list (C * Z)) : list alloc :=
  a :: if (zsum (map snd seats) =? n_seats)%Z then [] else
  match fuel with
  | O => []
  | S f =>
      match next_count cf a n_seats total_votes seats caps with
      | CR_next a' el =>
          match el with
          | [] => if alloc_eqb a' a then [] else run_allocs cf f a' n_seats total_votes seats caps
          | _ => run_allocs cf f a' n_seats total_votes (add_seats seats el) caps
          end
      | _ => []
      end
  end.
Definition stv_allocs (cf : cfg) (votes : list (ballot * Q)) (n_seats : Z) (prev caps : list (C * Z)) : list alloc :=
  run_allocs cf (4 * length (all_ranked_candidates votes) + 8) (initial_allocation votes) n_seats
    (Qred (fold_left Qplus (map snd votes) 0%Q)) prev caps.

Definition bl (l : list positive) : ballot := map IP l.
Definition cfg_droop := Build_cfg (Some Model.Quota.droop) true false (-1).

(* truncated ballots, a ballot that exhausts, a zero-first-preference candidate (4), a zero-weight ballot,
   two candidates elected and removed in one count *)
Definition ex_votes1 : list (ballot * Q) :=
  [((bl [1; 2]%positive), 5); ((bl [2; 1]%positive), 3); ((bl [3]%positive), 2); ((bl [3; 4; 1]%positive), 4); ((bl [2; 4]%positive), 0); ((bl [1]%positive), 3)].
Definition ex_caps1 : list (C * Z) := [(1%positive, 1%Z); (2%positive, 1%Z); (3%positive, 1%Z); (4%positive, 1%Z)].
Example resting_example1 :
  map resting_okb (stv_allocs cfg_droop ex_votes1 2 [] ex_caps1) = [true; true] /\
  nth 1 (stv_allocs cfg_droop ex_votes1 2 [] ex_caps1) [] =
    [(Some 2%positive, [((bl [2; 1]%positive), 3); ((bl [2; 4]%positive), 0); ((bl [1; 2]%positive), 5 # 4)]); (Some 4%positive, []); (None, [((bl [1]%positive), 3 # 4)])].
Proof. vm_compute. split; reflexivity. Qed.

(* distributor form: candidate 1 may take up to 3 seats, is elected in the first count and KEEPS its pile (it stays a
   key = continuing); when 4 is eliminated afterwards its ballot [4;1;2] goes to the elected 1, the highest-ranked key *)
Definition ex_caps2 : list (C * Z) := [(1%positive, 3%Z); (2%positive, 1%Z); (3%positive, 2%Z); (4%positive, 1%Z)].
Definition ex_votes2 : list (ballot * Q) :=
  [((bl [1; 2]%positive), 50); ((bl [2; 1; 3]%positive), 13); ((bl [3; 1]%positive), 12); ((bl [3; 4; 1]%positive), 4); ((bl [4; 1; 2]%positive), 7); ((bl [2; 3]%positive), 3)].
Example resting_example2 :
  map resting_okb (stv_allocs cfg_droop ex_votes2 4 [] ex_caps2) = [true; true; true] /\
  nth 2 (stv_allocs cfg_droop ex_votes2 4 [] ex_caps2) [] =
    [(Some 1%positive, [((bl [1; 2]%positive), 14); ((bl [4; 1; 2]%positive), 7)]);
     (Some 2%positive, [((bl [2; 1; 3]%positive), 13); ((bl [2; 3]%positive), 3)]);
     (Some 3%positive, [((bl [3; 1]%positive), 12); ((bl [3; 4; 1]%positive), 4)])].
Proof. vm_compute. split; reflexivity. Qed.

(* a longer single-seat count with eliminations one by one, ballots skipping eliminated candidates *)
Definition ex_votes3 : list (ballot * Q) :=
  [((bl [1; 2; 3; 4; 5]%positive), 10); ((bl [2; 1]%positive), 9); ((bl [3; 2; 1]%positive), 7); ((bl [4; 3; 5; 1]%positive), 5); ((bl [5; 4; 3; 2]%positive), 3);
   ((bl [5; 4]%positive), 1); ((bl [4; 5; 3]%positive), 2)].
Definition ex_caps3 : list (C * Z) := [(1%positive, 1%Z); (2%positive, 1%Z); (3%positive, 1%Z); (4%positive, 1%Z); (5%positive, 1%Z)].
Example resting_example3 :
  map resting_okb (stv_allocs cfg_droop ex_votes3 1 [] ex_caps3) = [true; true; true; true; true].
Proof. vm_compute. reflexivity. Qed.

(* the checker is not vacuous: a ballot resting below its highest continuing candidate, and a ballot in the
   exhausted pile although a candidate on it continues, are rejected *)
Example resting_checker_rejects :
  resting_okb [(Some 1%positive, [((bl [2; 1]%positive), 1)]); (Some 2%positive, [])] = false /\
  resting_okb [(Some 1%positive, []); (None, [((bl [2; 1]%positive), 1)])] = false /\
  resting_okb [(Some 1%positive, [((bl [2; 1]%positive), 1)]); (None, [((bl [2]%positive), 1)])] = true.
Proof. vm_compute. repeat split; reflexivity. Qed.

(* a shared first rank: 1 and 2 receive 5/2 each of the ballot {1,2} > 3, candidate 3 nothing *)
Example shared_first_example :
  let votes := [([IS [1%positive; 2%positive]; IP 3%positive], 5); ((bl [3; 1]%positive), 2)] in
  shared_first_nonempty votes = true /\
  initial_allocation votes =
    [(Some 1%positive, [([IS [1%positive; 2%positive]; IP 3%positive], 5 # 2)]);
     (Some 2%positive, [([IS [1%positive; 2%positive]; IP 3%positive], 5 # 2)]);
     (Some 3%positive, [((bl [3; 1]%positive), 2)])].
Proof. vm_compute. split; reflexivity. Qed.
