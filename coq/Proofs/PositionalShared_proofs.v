(* Monotonicity of the positional (Borda-type) rules on ballots WITH shared ranks (C17).
   1. [additive_sole_winner_diff]: the additive theorem in difference form - ONE ballot is replaced by a ballot on which
      everybody else gains at most what the winner gains (Proofs/Additive_proofs.v [additive_sole_winner] is the special case
      "the winner gains >= 0 >= the others' gains"); needed where a changed ballot raises everybody (modified Borda: a ballot
      that gets one rank longer gives every ranked candidate one point more).
   2. [additive_added_ballot]: a ballot is ADDED on which nobody gets more than the winner; the positional instance
      [positional_added_ballot].
   3. RankedToPositionalVotes.convert (Model/Convert.v [img_positional]: every member of a shared rank gets the score of the
      rank's index, one score per item), the winner w
      (a) on a rank of its own moves up past plain or shared ranks           [positional_move_up_items],
      (b) LEAVES a shared rank for a place of its own above (one item more)  [positional_leave_shared], [.._single],
      (c) is not on the ballot and gets ranked (one item more)               [positional_rank_unranked];
      (b) and (c) compare the score lists of k and of k + 1 ranks: [grow_ok], proved for all six scorers [scorer_grow_ok].
   The hypotheses that are needed, with kernel-checked witnesses on the model (replayed on the implementation):
   no candidate twice on the changed ballot for (b), (c) and the added ballot; a non-negative new score of w for (c) and a
   non-negative top score for the added ballot (Borda with a negative base: [positional_rank_unranked_negative_refuted],
   [positional_added_ballot_negative_refuted]). *)
From Coq Require Import ZArith QArith Qpower List Bool Arith Lia Lqa.
From VL Require Import Prelude.Sx Prelude.PyDict Prelude.GDict Prelude.PyNum Model.GetNBest Model.Convert
     Proofs.GetNBest_proofs Proofs.QOrd Proofs.Convert_proofs Proofs.Dict_proofs Proofs.Additive_proofs Proofs.Scorers_proofs.
Import ListNotations.
Open Scope Q_scope.

Section ADDD.
  Context {K : Type}.
  Variable keqb : K -> K -> bool.
  Hypothesis keqb_spec : forall a b, keqb a b = true <-> a = b.
  Context {B : Type}.
  Variable image : B -> list (K * Q).

  Notation conv := (conv keqb).
  Notation coef := (coef keqb).

  (* one ballot replaced; everybody else gains at most what the winner gains *)
  Theorem additive_sole_winner_diff pre post (b b' : B) (w : Q) (kw : K) :
    0 <= w ->
    (forall k, In k (map fst (image b')) -> k = kw \/ In k (map fst (image b))) ->
    In kw (map fst (image b')) ->
    (forall k, k <> kw -> coef (image b') k - coef (image b) k <= coef (image b') kw - coef (image b) kw) ->
    get_n_best Qle_bool (conv image (pre ++ (b, w) :: post)) 1 = [Cand kw] ->
    get_n_best Qle_bool (conv image (pre ++ (b', w) :: post)) 1 = [Cand kw].
  Proof.
    intros Hw Hkeys Hkw Hdiff. apply (sole_winner_totals keqb keqb_spec).
    - apply (replaced_keys keqb keqb_spec), Hkeys.
    - apply (conv_keys_mid keqb keqb_spec). right. exact Hkw.
    - intros k Hne. rewrite !(total_replace keqb). apply qmul_le_l; [exact Hw|exact (Hdiff k Hne)].
  Qed.

  Lemma conv_skip pre post (b : B) (w : Q) : image b = [] -> conv image (pre ++ (b, w) :: post) = conv image (pre ++ post).
  Proof. intros H. unfold GDict.conv. rewrite !fold_left_app. cbn [fold_left fst snd]. rewrite H. reflexivity. Qed.

  Lemma conv_image_ext pre post (b b' : B) (w : Q) : image b = image b' ->
    conv image (pre ++ (b, w) :: post) = conv image (pre ++ (b', w) :: post).
  Proof. intros H. unfold GDict.conv. rewrite !fold_left_app. cbn [fold_left fst snd]. rewrite H. reflexivity. Qed.

  (* a ballot is added; it names no new candidate and gives nobody more than the winner *)
  Theorem additive_added_ballot pre post (b' : B) (w : Q) (kw : K) :
    0 <= w ->
    (forall k, In k (map fst (image b')) -> In k (map fst (conv image (pre ++ post)))) ->
    (forall k, coef (image b') k <= coef (image b') kw) ->
    get_n_best Qle_bool (conv image (pre ++ post)) 1 = [Cand kw] ->
    get_n_best Qle_bool (conv image (pre ++ (b', w) :: post)) 1 = [Cand kw].
  Proof.
    intros Hw Hkeys Hle Hwin.
    pose proof (proj1 (proj1 (conv_sole_winner keqb keqb_spec image _ kw) Hwin)) as Hkw.
    revert Hwin. apply (sole_winner_totals keqb keqb_spec).
    - intros k Hk. right. apply (conv_keys_mid keqb keqb_spec) in Hk. destruct Hk as [Hk|Hk]; [exact Hk|exact (Hkeys k Hk)].
    - apply (conv_keys_mid keqb keqb_spec). left. exact Hkw.
    - intros k _. rewrite !total_mid, !(total_app keqb image). simpl.
      pose proof (qmul_le_l w _ _ Hw (Hle k)). lra.
  Qed.
End ADDD.

(* the image of a ballot [r] under the score list [sc] (Model/Convert.v img_positional) *)
Definition pimg (r : ranked) (sc : list Q) : list (sx * Q) :=
  flat_map (fun isc : item * Q => map (fun c => (kc c, snd isc)) (members (fst isc))) (combine r sc).

Lemma pos_img_some s n r sc : rank_scores s n (length r) = Some sc -> pos_img s n r = pimg r sc.
Proof. intros H. unfold pos_img, img_positional. rewrite H. reflexivity. Qed.

Lemma pos_img_none s n r : rank_scores s n (length r) = None -> pos_img s n r = [].
Proof. intros H. unfold pos_img, img_positional. rewrite H. reflexivity. Qed.

Fixpoint occ (c : C) (l : list C) : Q :=
  match l with [] => 0 | x :: t => (if Pos.eqb c x then 1 else 0) + occ c t end.

Lemma occ_nonneg c l : 0 <= occ c l.
Proof. induction l as [|x t IH]; cbn [occ]; [lra|]. destruct (Pos.eqb c x); lra. Qed.

Lemma occ_app c a b : occ c (a ++ b) == occ c a + occ c b.
Proof. induction a as [|x t IH]; cbn [occ app]; [ring|]. rewrite IH. ring. Qed.

Lemma occ_absent c l : ~ In c l -> occ c l == 0.
Proof.
  induction l as [|x t IH]; cbn [occ]; intros H; [reflexivity|].
  destruct (Pos.eqb c x) eqn:E; [apply Pos.eqb_eq in E; subst; exfalso; apply H; left; reflexivity|].
  rewrite IH by (intros Hin; apply H; right; exact Hin). ring.
Qed.

Lemma occ_nodup c l : NoDup l -> occ c l <= 1.
Proof.
  induction 1 as [|x t Hx _ IH]; cbn [occ]; [lra|].
  destruct (Pos.eqb c x) eqn:E; [|lra]. apply Pos.eqb_eq in E. subst x. rewrite (occ_absent c t Hx). lra.
Qed.

Lemma occ_in c l : In c l -> 1 <= occ c l.
Proof.
  induction l as [|x t IH]; cbn [occ]; intros H; [destruct H|].
  pose proof (occ_nonneg c t). destruct (Pos.eqb c x) eqn:E; [lra|].
  destruct H as [->|H]; [rewrite Pos.eqb_refl in E; discriminate|]. specialize (IH H). lra.
Qed.

Lemma occ_self c : occ c [c] == 1.
Proof. cbn [occ]. rewrite Pos.eqb_refl. ring. Qed.

Lemma occ_other c w : c <> w -> occ c [w] == 0.
Proof. intros H. apply occ_absent. intros [E|[]]. congruence. Qed.

Lemma sx_eqb_kc a b : sx_eqb (kc a) (kc b) = Pos.eqb a b.
Proof. reflexivity. Qed.

Lemma coef_members c q l : coef sx_eqb (map (fun c0 : C => (kc c0, q)) l) (kc c) == occ c l * q.
Proof.
  induction l as [|x t IH]; cbn [map occ]; [cbn; ring|]. rewrite coef_cons, IH, sx_eqb_kc.
  destruct (Pos.eqb c x); ring.
Qed.

(* sum over the items of r of (occurrences of c in the item) * (score at the item's index, counted from off) *)
Fixpoint wsum (f : nat -> Q) (c : C) (r : ranked) (off : nat) : Q :=
  match r with [] => 0 | i :: t => occ c (members i) * f off + wsum f c t (S off) end.

Lemma wsum_shift f c r : forall off, wsum f c r (S off) = wsum (fun i => f (S i)) c r off.
Proof. induction r as [|i t IH]; intros off; cbn [wsum]; [reflexivity|]. rewrite IH. reflexivity. Qed.

Lemma wsum_zero f c r : (forall i, f i == 0) -> forall off, wsum f c r off == 0.
Proof. intros H. induction r as [|i t IH]; intros off; cbn [wsum]; [reflexivity|]. rewrite IH, H. ring. Qed.

Lemma coef_pimg c : forall r sc, coef sx_eqb (pimg r sc) (kc c) == wsum (fun i => nth i sc 0) c r 0.
Proof.
  induction r as [|i t IH]; intros sc; [reflexivity|].
  destruct sc as [|q sc].
  - rewrite wsum_zero; [reflexivity|]. intros [|j]; reflexivity.
  - unfold pimg. cbn [combine flat_map fst snd]. fold (pimg t sc). rewrite (coef_app sx_eqb), coef_members, IH.
    cbn [wsum]. rewrite wsum_shift. cbn [nth]. reflexivity.
Qed.

Lemma wsum_app f c r1 r2 : forall off, wsum f c (r1 ++ r2) off == wsum f c r1 off + wsum f c r2 (off + length r1).
Proof.
  induction r1 as [|i t IH]; intros off; cbn [wsum app length].
  - rewrite Nat.add_0_r. ring.
  - rewrite IH, Nat.add_succ_r. cbn [Nat.add]. ring.
Qed.

Lemma flatten_app a b : flatten (a ++ b) = flatten a ++ flatten b.
Proof. unfold flatten. apply flat_map_app. Qed.

Lemma flatten_cons i t : flatten (i :: t) = members i ++ flatten t.
Proof. reflexivity. Qed.

Lemma wsum_absent f c r : ~ In c (flatten r) -> forall off, wsum f c r off == 0.
Proof.
  induction r as [|i t IH]; intros H off; cbn [wsum]; [reflexivity|].
  rewrite flatten_cons in H.
  rewrite IH by (intros Hin; apply H, in_or_app; right; exact Hin).
  rewrite occ_absent by (intros Hin; apply H, in_or_app; left; exact Hin). ring.
Qed.

(* the central estimate: if at every item the score under g exceeds the score under f by at most G, the sums differ by at most
   G * (number of occurrences of c on the ballot) *)
Lemma wsum_diff_le f g c G : forall r offf offg,
  (forall j, (j < length r)%nat -> g (offg + j)%nat - f (offf + j)%nat <= G) ->
  wsum g c r offg - wsum f c r offf <= G * occ c (flatten r).
Proof.
  induction r as [|i t IH]; intros offf offg H; cbn [wsum].
  - cbn. lra.
  - rewrite flatten_cons, occ_app.
    assert (H0 : g offg - f offf <= G).
    { specialize (H 0%nat). rewrite !Nat.add_0_r in H. apply H. cbn [length]. lia. }
    assert (Ht : wsum g c t (S offg) - wsum f c t (S offf) <= G * occ c (flatten t)).
    { apply IH. intros j Hj. specialize (H (S j)). rewrite !Nat.add_succ_r in H. apply H. cbn [length]. lia. }
    pose proof (occ_nonneg c (members i)) as Ho.
    assert (M : (g offg - f offf) * occ c (members i) <= G * occ c (members i)).
    { apply Qmult_le_compat_r; assumption. }
    lra.
Qed.

Lemma wsum_eq f g c : forall r offf offg,
  (forall j, (j < length r)%nat -> g (offg + j)%nat == f (offf + j)%nat) ->
  wsum g c r offg == wsum f c r offf.
Proof.
  induction r as [|i t IH]; intros offf offg H; cbn [wsum]; [reflexivity|].
  assert (H0 : g offg == f offf).
  { specialize (H 0%nat). rewrite !Nat.add_0_r in H. apply H. cbn [length]. lia. }
  rewrite H0, (IH (S offf) (S offg)); [reflexivity|].
  intros j Hj. specialize (H (S j)). rewrite !Nat.add_succ_r in H. apply H. cbn [length]. lia.
Qed.

Lemma pimg_keys : forall r sc, length r = length sc -> map fst (pimg r sc) = map kc (flatten r).
Proof.
  induction r as [|i t IH]; intros [|q sc] H; cbn [length] in H; try discriminate; [reflexivity|].
  unfold pimg. cbn [combine flat_map fst snd]. fold (pimg t sc).
  rewrite flatten_cons, !map_app, IH by lia.
  rewrite map_map. reflexivity.
Qed.

Lemma pimg_keys_kc : forall r sc k, In k (map fst (pimg r sc)) -> exists c, k = kc c.
Proof.
  induction r as [|i t IH]; intros [|q sc] k H; try (destruct H; fail).
  unfold pimg in H. cbn [combine flat_map fst snd] in H. fold (pimg t sc) in H. rewrite map_app, in_app_iff in H.
  destruct H as [H|H]; [|exact (IH sc k H)].
  rewrite map_map in H. apply in_map_iff in H. destruct H as (c & <- & _). exists c. reflexivity.
Qed.

Lemma coef_pimg_other k r sc : (forall c, k <> kc c) -> coef sx_eqb (pimg r sc) k = 0.
Proof. intros H. apply (coef_absent sx_eqb sx_eqb_spec). intros Hin. destruct (pimg_keys_kc r sc k Hin) as (c & E). exact (H c E). Qed.

Lemma sx_kc_cases (k : sx) : (exists c, k = kc c) \/ (forall c, k <> kc c).
Proof.
  destruct k as [z|l]; [|right; intros c; discriminate].
  destruct z as [|p|p]; [right; intros c; discriminate|left; exists p; reflexivity|right; intros c; discriminate].
Qed.

(* ballots with the same members item by item have the same image (a shared rank of one candidate = a plain rank) *)
Lemma pimg_members : forall r r' sc, map members r = map members r' -> pimg r sc = pimg r' sc.
Proof.
  induction r as [|i t IH]; intros [|i' t'] sc H; cbn [map] in H; try discriminate; [reflexivity|].
  injection H as Hi Ht. destruct sc as [|q sc]; [reflexivity|].
  unfold pimg. cbn [combine flat_map fst snd]. fold (pimg t sc) (pimg t' sc). rewrite Hi, (IH t' sc Ht). reflexivity.
Qed.

Lemma pos_img_members s n r r' : map members r = map members r' -> pos_img s n r = pos_img s n r'.
Proof.
  intros H. assert (Hl : length r = length r') by (rewrite <- (map_length members r), H; apply map_length).
  unfold pos_img, img_positional. rewrite <- Hl. destruct (rank_scores s n (length r)) as [sc|]; [|reflexivity].
  exact (pimg_members r r' sc H).
Qed.

Definition scorer_ok_b (s : scorer) : bool :=
  match s with Geometric base => (1 <=? base)%Z | SequenceBased sq => noninc0 sq | _ => true end.

Lemma scorer_ok_nonincreasing s n_cands : scorer_ok_b s = true -> scorer_nonincreasing s n_cands.
Proof.
  intros H k s_pre a b s_post. destruct s; cbn [scorer_ok_b] in H.
  - apply borda_nonincreasing.
  - apply dowdall_nonincreasing.
  - apply geometric_nonincreasing. apply Z.leb_le, H.
  - apply modified_borda_nonincreasing.
  - apply fixed_top_nonincreasing.
  - apply sequence_nonincreasing, H.
Qed.

Lemma scores_step s n k sc : scorer_nonincreasing s n -> rank_scores s n k = Some sc ->
  forall i, (S i < k)%nat -> nth (S i) sc 0 <= nth i sc 0.
Proof.
  intros Hs Hsc i Hi. pose proof (rank_scores_length _ _ _ _ Hsc) as Hl.
  destruct (list_split2 sc i) as (s_pre & a & b & s_post & E & Hpre); [lia|].
  destruct (list_nth_split _ _ _ _ _ E) as (Ha & Hb & _). rewrite Hpre in Ha, Hb. rewrite <- Ha, <- Hb.
  rewrite E in Hsc. exact (Hs _ _ _ _ _ Hsc).
Qed.

Lemma step_chain (f : nat -> Q) k : (forall i, (S i < k)%nat -> f (S i) <= f i) ->
  forall i j, (i <= j)%nat -> (j < k)%nat -> f j <= f i.
Proof.
  intros H i j Hij. induction Hij as [|j Hij IH]; intros Hj; [lra|].
  pose proof (H j Hj). pose proof (IH ltac:(lia)). lra.
Qed.

Lemma scores_chain s n k sc : scorer_nonincreasing s n -> rank_scores s n k = Some sc ->
  forall i j, (i <= j)%nat -> (j < k)%nat -> nth j sc 0 <= nth i sc 0.
Proof. intros Hs Hsc. apply (step_chain (fun i => nth i sc 0) k). exact (scores_step s n k sc Hs Hsc). Qed.

Lemma in_flatten_inserted c w p1 t : In c (flatten (p1 ++ IP w :: t)) <-> c = w \/ In c (flatten (p1 ++ t)).
Proof.
  rewrite !flatten_app, flatten_cons, !in_app_iff. cbn [members In]. split.
  - intros [H|[[H|[]]|H]]; [right; left; exact H|left; symmetry; exact H|right; right; exact H].
  - intros [->|[H|H]]; [right; left; left; reflexivity|left; exact H|right; right; exact H].
Qed.

Lemma pos_img_keys s n r sc : rank_scores s n (length r) = Some sc -> map fst (pos_img s n r) = map kc (flatten r).
Proof. intros H. rewrite (pos_img_some s n r sc H). apply pimg_keys. symmetry. exact (rank_scores_length _ _ _ _ H). Qed.

Lemma coef_pos_img s n r sc c : rank_scores s n (length r) = Some sc ->
  coef sx_eqb (pos_img s n r) (kc c) == wsum (fun i => nth i sc 0) c r 0.
Proof. intros H. rewrite (pos_img_some s n r sc H). apply coef_pimg. Qed.

Lemma coef_pos_img_other s n r k : (forall c, k <> kc c) -> coef sx_eqb (pos_img s n r) k = 0.
Proof.
  intros H. destruct (rank_scores s n (length r)) as [sc|] eqn:E.
  - rewrite (pos_img_some s n r sc E). apply coef_pimg_other, H.
  - rewrite (pos_img_none s n r E). reflexivity.
Qed.

(* The ballot r, scored by sc, is replaced by r', scored by sc': w is on r', nobody else is new, w does not lose and
   everybody else gains at most what w gains. *)
Lemma positional_replace (s : scorer) (n_cands : nat) pre_b post_b (r r' : ranked) (sc sc' : list Q) (w : C) (wgt : Q) :
  0 <= wgt ->
  rank_scores s n_cands (length r) = Some sc -> rank_scores s n_cands (length r') = Some sc' ->
  (forall c, In c (flatten r') -> c = w \/ In c (flatten r)) -> In w (flatten r') ->
  0 <= wsum (fun i => nth i sc' 0) w r' 0 - wsum (fun i => nth i sc 0) w r 0 ->
  (forall c, c <> w -> wsum (fun i => nth i sc' 0) c r' 0 - wsum (fun i => nth i sc 0) c r 0
                       <= wsum (fun i => nth i sc' 0) w r' 0 - wsum (fun i => nth i sc 0) w r 0) ->
  get_n_best Qle_bool (dconv (pos_img s n_cands) (pre_b ++ (r, wgt) :: post_b)) 1 = [Cand (kc w)] ->
  get_n_best Qle_bool (dconv (pos_img s n_cands) (pre_b ++ (r', wgt) :: post_b)) 1 = [Cand (kc w)].
Proof.
  intros Hw Hsc Hsc' Hsub Hin Hgain Hd.
  apply (additive_sole_winner_diff sx_eqb sx_eqb_spec (pos_img s n_cands)); [exact Hw| | |].
  - intros k. rewrite (pos_img_keys _ _ _ _ Hsc), (pos_img_keys _ _ _ _ Hsc'). intros Hk.
    apply in_map_iff in Hk. destruct Hk as (c & <- & Hc).
    destruct (Hsub c Hc) as [->|Hc0]; [left; reflexivity|right; apply in_map, Hc0].
  - rewrite (pos_img_keys _ _ _ _ Hsc'). apply in_map, Hin.
  - intros k Hne. rewrite (coef_pos_img _ _ r sc w Hsc), (coef_pos_img _ _ r' sc' w Hsc').
    destruct (sx_kc_cases k) as [(c & ->)|Hno].
    + rewrite (coef_pos_img _ _ r sc c Hsc), (coef_pos_img _ _ r' sc' c Hsc'). apply Hd. congruence.
    + rewrite !coef_pos_img_other by exact Hno. lra.
Qed.

(* Further occurrences of w in p1 or p3 (a malformed ballot) do not matter; the ballot may be too long for the scorer (Borda:
   both images are empty then). *)
Theorem positional_move_up_items (s : scorer) (n_cands : nat) pre_b post_b (p1 p2 p3 : ranked) (w : C) (wgt : Q) :
  0 <= wgt -> ~ In w (flatten p2) -> scorer_nonincreasing s n_cands ->
  get_n_best Qle_bool (dconv (pos_img s n_cands) (pre_b ++ (p1 ++ p2 ++ IP w :: p3, wgt) :: post_b)) 1 = [Cand (kc w)] ->
  get_n_best Qle_bool (dconv (pos_img s n_cands) (pre_b ++ (p1 ++ IP w :: p2 ++ p3, wgt) :: post_b)) 1 = [Cand (kc w)].
Proof.
  intros Hw Hnin Hs.
  assert (Hl : length (p1 ++ IP w :: p2 ++ p3) = length (p1 ++ p2 ++ IP w :: p3)).
  { rewrite !app_length. cbn [length]. rewrite !app_length. cbn [length]. lia. }
  destruct (rank_scores s n_cands (length (p1 ++ p2 ++ IP w :: p3))) as [sc|] eqn:Hsc.
  2: { intros H. rewrite <- H. f_equal.
       apply (conv_image_ext sx_eqb (pos_img s n_cands) pre_b post_b (p1 ++ IP w :: p2 ++ p3) (p1 ++ p2 ++ IP w :: p3) wgt).
       rewrite !pos_img_none; [reflexivity|exact Hsc|rewrite Hl; exact Hsc]. }
  pose proof (rank_scores_length _ _ _ _ Hsc) as Hlen. rewrite <- Hl in Hsc.
  rewrite !app_length in Hlen. cbn [length] in Hlen.
  set (f := fun i => nth i sc 0). set (a := length p1) in *. set (m := length p2) in *.
  (* what the move changes for a candidate: w itself, and the items of p2, each one place down *)
  assert (E : forall c, wsum f c (p1 ++ IP w :: p2 ++ p3) 0 - wsum f c (p1 ++ p2 ++ IP w :: p3) 0 ==
            occ c [w] * (f a - f (a + m)%nat) + (wsum f c p2 (S a) - wsum f c p2 a)).
  { intros c. rewrite !wsum_app. cbn [wsum members]. rewrite !wsum_app. cbn [wsum members Nat.add]. fold a m. ring. }
  assert (Hstep : forall i, (S i < length sc)%nat -> f (S i) <= f i).
  { intros i Hi. apply (scores_step s n_cands _ sc Hs Hsc). rewrite <- (rank_scores_length _ _ _ _ Hsc). exact Hi. }
  assert (Hf : f (a + m)%nat <= f a) by (apply (step_chain f (length sc) Hstep); lia).
  assert (Ew : wsum f w (p1 ++ IP w :: p2 ++ p3) 0 - wsum f w (p1 ++ p2 ++ IP w :: p3) 0 == f a - f (a + m)%nat).
  { rewrite E, occ_self, !(wsum_absent f w p2 Hnin). ring. }
  apply (positional_replace s n_cands pre_b post_b _ _ sc sc w wgt Hw); [rewrite <- Hl; exact Hsc|exact Hsc| | | |].
  - intros c Hc. right. apply in_flatten_inserted in Hc. rewrite app_assoc. apply in_flatten_inserted.
    rewrite <- app_assoc. exact Hc.
  - apply in_flatten_inserted. left. reflexivity.
  - fold f. lra.
  - intros c Hc. fold f. pose proof (E c) as Ec. rewrite (occ_other c w Hc) in Ec.
    assert (Hd : wsum f c p2 (S a) - wsum f c p2 a <= 0 * occ c (flatten p2)).
    { apply wsum_diff_le. intros j Hj. cbn [Nat.add]. pose proof (Hstep (a + j)%nat ltac:(lia)). lra. }
    lra.
Qed.

(* [sc] scores a ballot of k items, [sc'] the ballot after it got one item longer:
   1. a score shifted one place down never gains;   2. a score that stays in place never loses;
   3. staying in place gains no more than any upward move (from place j' to place j <= j');
   4. ... and no more than any non-negative new score. *)
Definition grow_ok (sc sc' : list Q) : Prop :=
  (forall i, (i < length sc)%nat -> nth (S i) sc' 0 <= nth i sc 0) /\
  (forall i, (i < length sc)%nat -> nth i sc 0 <= nth i sc' 0) /\
  (forall i j j', (i < length sc)%nat -> (j <= j')%nat -> (j' < length sc)%nat ->
     nth i sc' 0 - nth i sc 0 <= nth j sc' 0 - nth j' sc 0) /\
  (forall i j, (i < length sc)%nat -> (j <= length sc)%nat -> 0 <= nth j sc' 0 -> nth i sc' 0 - nth i sc 0 <= nth j sc' 0).

(* the old list is a prefix of the new one, which is non-increasing *)
Lemma prefix_grow_ok sc sc' k : length sc = k ->
  (forall i, (i < k)%nat -> nth i sc' 0 == nth i sc 0) ->
  (forall i, (S i < S k)%nat -> nth (S i) sc' 0 <= nth i sc' 0) -> grow_ok sc sc'.
Proof.
  intros Hl Hp Hstep. pose proof (step_chain (fun i => nth i sc' 0) (S k) Hstep) as Hch. cbv beta in Hch.
  unfold grow_ok. rewrite Hl. repeat split.
  - intros i Hi. rewrite <- (Hp i Hi). apply Hstep. lia.
  - intros i Hi. rewrite (Hp i Hi). lra.
  - intros i j j' Hi Hj Hj'. rewrite <- (Hp i Hi), <- (Hp j' Hj'). pose proof (Hch j j' Hj ltac:(lia)). lra.
  - intros i j Hi Hj H0. rewrite (Hp i Hi). lra.
Qed.

Lemma rank_scores_pred s n k sc' : rank_scores s n (S k) = Some sc' -> exists sc, rank_scores s n k = Some sc.
Proof.
  destruct s; unfold rank_scores; try (intros _; eexists; reflexivity).
  destruct (Nat.ltb n (S k)) eqn:E; [discriminate|]. apply Nat.ltb_ge in E.
  assert (Nat.ltb n k = false) as -> by (apply Nat.ltb_ge; lia). intros _. eexists. reflexivity.
Qed.

Theorem scorer_grow_ok s n k sc sc' : scorer_ok_b s = true ->
  rank_scores s n k = Some sc -> rank_scores s n (S k) = Some sc' -> grow_ok sc sc'.
Proof.
  intros Hok Hsc Hsc'.
  pose proof (scores_step s n (S k) sc' (scorer_ok_nonincreasing s n Hok) Hsc') as Hstep'.
  destruct (rank_scores_nth _ _ _ _ Hsc) as [Hl Hn]. destruct (rank_scores_nth _ _ _ _ Hsc') as [_ Hn'].
  (* a scorer whose score at a place does not depend on the number of ranks *)
  assert (Hsame : (forall i, score_at s n (S k) i = score_at s n k i) -> grow_ok sc sc').
  { intros E. apply (prefix_grow_ok sc sc' k Hl); [|exact Hstep']. intros i Hi. rewrite Hn, Hn', E by lia. reflexivity. }
  destruct s.
  4: { (* ModifiedBorda: one more rank raises every score by one *)
       clear Hsame Hstep'. unfold grow_ok. rewrite Hl. repeat split.
       - intros i Hi. rewrite Hn, Hn' by lia. cbn [score_at]. rewrite <- Zle_Qle. lia.
       - intros i Hi. rewrite Hn, Hn' by lia. cbn [score_at]. rewrite <- Zle_Qle. lia.
       - intros i j j' Hi Hj Hj'. rewrite !Hn, !Hn' by lia. cbn [score_at]. unfold Qminus.
         rewrite <- !inject_Z_opp, <- !inject_Z_plus, <- Zle_Qle. lia.
       - intros i j Hi Hj _. rewrite Hn, !Hn' by lia. cbn [score_at]. unfold Qminus.
         rewrite <- !inject_Z_opp, <- !inject_Z_plus, <- Zle_Qle. lia. }
  all: apply Hsame; reflexivity.
Qed.

Lemma wsum_inserted g w p1 t : ~ In w (flatten (p1 ++ t)) -> wsum g w (p1 ++ IP w :: t) 0 == g (length p1).
Proof.
  intros H. rewrite flatten_app, in_app_iff in H. rewrite wsum_app. cbn [wsum members Nat.add].
  rewrite occ_self, !wsum_absent by tauto. ring.
Qed.

(* c is not the inserted candidate.  Behind the new item every score moves one place down and does not gain; in front of it
   c gains at most G, and c is there at most once. *)
Lemma wsum_insert_le (f g : nat -> Q) (c w : C) (p1 t : ranked) (G : Q) :
  c <> w -> 0 <= G -> occ c (flatten p1) <= 1 ->
  (forall i, (i < length p1)%nat -> g i - f i <= G) ->
  (forall j, (j < length t)%nat -> g (S (length p1 + j)) <= f (length p1 + j)%nat) ->
  wsum g c (p1 ++ IP w :: t) 0 - wsum f c (p1 ++ t) 0 <= G.
Proof.
  intros Hc HG Ho H1 H2. rewrite !wsum_app. cbn [wsum members Nat.add]. rewrite (occ_other c w Hc).
  pose proof (wsum_diff_le f g c G p1 0 0 H1) as D1.
  assert (D2 : wsum g c t (S (length p1)) - wsum f c t (length p1) <= 0 * occ c (flatten t)).
  { apply wsum_diff_le. intros j Hj. cbn [Nat.add]. pose proof (H2 j Hj). lra. }
  pose proof (qmul_le_l G _ _ HG Ho). lra.
Qed.

(* a shared rank with and without w *)
Lemma wsum_leave f c q la lb w p3 off :
  wsum f c (q ++ IS (la ++ w :: lb) :: p3) off == wsum f c (q ++ IS (la ++ lb) :: p3) off + occ c [w] * f (off + length q)%nat.
Proof. rewrite !wsum_app. cbn [wsum members]. rewrite !occ_app. cbn [occ]. ring. Qed.

Lemma occ_leave c q la lb w p3 :
  occ c (flatten (q ++ IS (la ++ w :: lb) :: p3)) == occ c (flatten (q ++ IS (la ++ lb) :: p3)) + occ c [w].
Proof. rewrite !flatten_app, !flatten_cons. cbn [members]. rewrite !occ_app. cbn [occ]. ring. Qed.

Lemma flatten_leave_incl q la lb w p3 :
  incl (flatten (q ++ IS (la ++ lb) :: p3)) (flatten (q ++ IS (la ++ w :: lb) :: p3)).
Proof.
  rewrite !flatten_app, !flatten_cons. cbn [members].
  apply incl_app_app; [apply incl_refl|]. apply incl_app_app; [|apply incl_refl].
  apply incl_app_app; [apply incl_refl|apply incl_tl, incl_refl].
Qed.

(* The ballot gets one item longer: [sc] scores the old ballot, [sc'] the new one.  No candidate twice on the ballot (see
   [positional_twice_refuted]). *)
Theorem positional_leave_shared_gen (s : scorer) (n_cands : nat) pre_b post_b (p1 p2 p3 : ranked) (la lb : list C) (w : C) (wgt : Q)
    (sc sc' : list Q) :
  0 <= wgt -> NoDup (flatten (p1 ++ p2 ++ IS (la ++ w :: lb) :: p3)) ->
  rank_scores s n_cands (length (p1 ++ p2 ++ IS (la ++ w :: lb) :: p3)) = Some sc ->
  rank_scores s n_cands (S (length (p1 ++ p2 ++ IS (la ++ w :: lb) :: p3))) = Some sc' ->
  grow_ok sc sc' ->
  get_n_best Qle_bool (dconv (pos_img s n_cands) (pre_b ++ (p1 ++ p2 ++ IS (la ++ w :: lb) :: p3, wgt) :: post_b)) 1 = [Cand (kc w)] ->
  get_n_best Qle_bool (dconv (pos_img s n_cands) (pre_b ++ (p1 ++ IP w :: p2 ++ IS (la ++ lb) :: p3, wgt) :: post_b)) 1 = [Cand (kc w)].
Proof.
  intros Hw Hnd Hsc Hsc' (K1 & K2 & K3 & _).
  pose proof (rank_scores_length _ _ _ _ Hsc) as Hlen. rewrite !app_length in Hlen. cbn [length] in Hlen.
  set (f := fun i => nth i sc 0). set (g := fun i => nth i sc' 0). set (a := length p1) in *. set (m := length p2) in *.
  set (t := p2 ++ IS (la ++ lb) :: p3).
  assert (Hl : length (p1 ++ IP w :: t) = S (length (p1 ++ p2 ++ IS (la ++ w :: lb) :: p3))).
  { unfold t. rewrite !app_length. cbn [length]. rewrite !app_length. cbn [length]. lia. }
  (* the old ballot is p1 ++ t with w added to one shared rank *)
  assert (Eold : forall c, wsum f c (p1 ++ p2 ++ IS (la ++ w :: lb) :: p3) 0 == wsum f c (p1 ++ t) 0 + occ c [w] * f (a + m)%nat).
  { intros c. unfold t. rewrite !app_assoc, wsum_leave, app_length. reflexivity. }
  assert (Hocc : forall c, occ c (flatten (p1 ++ t)) + occ c [w] <= 1).
  { intros c. unfold t. rewrite !app_assoc, <- occ_leave, <- !app_assoc. apply occ_nodup, Hnd. }
  assert (Hnw : ~ In w (flatten (p1 ++ t))).
  { intros Hin. apply occ_in in Hin. pose proof (Hocc w) as H. rewrite occ_self in H. lra. }
  assert (HG0 : 0 <= g a - f (a + m)%nat).
  { unfold f, g. pose proof (K2 (a + m)%nat ltac:(lia)). pose proof (K3 (a + m)%nat a (a + m)%nat ltac:(lia) ltac:(lia) ltac:(lia)). lra. }
  assert (Egain : wsum g w (p1 ++ IP w :: t) 0 - wsum f w (p1 ++ p2 ++ IS (la ++ w :: lb) :: p3) 0 == g a - f (a + m)%nat).
  { rewrite (wsum_inserted g w p1 t Hnw), (Eold w), occ_self, (wsum_absent f w _ Hnw). fold a. ring. }
  apply (positional_replace s n_cands pre_b post_b _ (p1 ++ IP w :: t) sc sc' w wgt Hw Hsc); [rewrite Hl; exact Hsc'| | | |].
  - intros c Hc. apply in_flatten_inserted in Hc. destruct Hc as [E|Hc]; [left; exact E|right].
    unfold t in Hc. rewrite app_assoc in Hc |- *. exact (flatten_leave_incl _ la lb w p3 c Hc).
  - apply in_flatten_inserted. left. reflexivity.
  - fold f g. lra.
  - intros c Hc. fold f g. pose proof (Eold c) as Ec. rewrite (occ_other c w Hc) in Ec.
    assert (Ho : occ c (flatten p1) <= 1).
    { pose proof (Hocc c) as H. rewrite flatten_app, occ_app, (occ_other c w Hc) in H. pose proof (occ_nonneg c (flatten t)). lra. }
    pose proof (wsum_insert_le f g c w p1 t (g a - f (a + m)%nat) Hc HG0 Ho) as D. fold a in D.
    assert (Ht : length t = (m + S (length p3))%nat) by (unfold t; rewrite app_length; reflexivity).
    lapply D; [clear D; intros D|intros i Hi; apply K3; lia]. lapply D; [lra|intros j Hj; apply K1; lia].
Qed.

(* ... for the six scorers: the condition [scorer_ok_b] of the upward move suffices *)
Theorem positional_leave_shared (s : scorer) (n_cands : nat) pre_b post_b (p1 p2 p3 : ranked) (la lb : list C) (w : C) (wgt : Q) (sc' : list Q) :
  0 <= wgt -> NoDup (flatten (p1 ++ p2 ++ IS (la ++ w :: lb) :: p3)) -> scorer_ok_b s = true ->
  rank_scores s n_cands (S (length (p1 ++ p2 ++ IS (la ++ w :: lb) :: p3))) = Some sc' ->
  get_n_best Qle_bool (dconv (pos_img s n_cands) (pre_b ++ (p1 ++ p2 ++ IS (la ++ w :: lb) :: p3, wgt) :: post_b)) 1 = [Cand (kc w)] ->
  get_n_best Qle_bool (dconv (pos_img s n_cands) (pre_b ++ (p1 ++ IP w :: p2 ++ IS (la ++ lb) :: p3, wgt) :: post_b)) 1 = [Cand (kc w)].
Proof.
  intros Hw Hnd Hok Hsc'. destruct (rank_scores_pred _ _ _ _ Hsc') as (sc & Hsc).
  exact (positional_leave_shared_gen s n_cands pre_b post_b p1 p2 p3 la lb w wgt sc sc' Hw Hnd Hsc Hsc' (scorer_grow_ok s n_cands _ sc sc' Hok Hsc Hsc')).
Qed.

(* the rest of the shared rank is one candidate and is written as a plain rank: the same image *)
Theorem positional_leave_shared_single (s : scorer) (n_cands : nat) pre_b post_b (p1 p2 p3 : ranked) (la lb : list C) (w c : C) (wgt : Q) (sc' : list Q) :
  0 <= wgt -> NoDup (flatten (p1 ++ p2 ++ IS (la ++ w :: lb) :: p3)) -> scorer_ok_b s = true -> la ++ lb = [c] ->
  rank_scores s n_cands (S (length (p1 ++ p2 ++ IS (la ++ w :: lb) :: p3))) = Some sc' ->
  get_n_best Qle_bool (dconv (pos_img s n_cands) (pre_b ++ (p1 ++ p2 ++ IS (la ++ w :: lb) :: p3, wgt) :: post_b)) 1 = [Cand (kc w)] ->
  get_n_best Qle_bool (dconv (pos_img s n_cands) (pre_b ++ (p1 ++ IP w :: p2 ++ IP c :: p3, wgt) :: post_b)) 1 = [Cand (kc w)].
Proof.
  intros Hw Hnd Hok Hc Hsc' H.
  pose proof (positional_leave_shared s n_cands pre_b post_b p1 p2 p3 la lb w wgt sc' Hw Hnd Hok Hsc' H) as H1.
  rewrite <- H1. f_equal.
  apply (conv_image_ext sx_eqb (pos_img s n_cands) pre_b post_b). apply pos_img_members.
  rewrite Hc, !map_app. cbn [map members]. rewrite !map_app. reflexivity.
Qed.

(* An unranked candidate gets 0 from the ballot, so the new score of w must not be negative (see
   [positional_rank_unranked_negative_refuted]); no candidate twice on the ballot. *)
Theorem positional_rank_unranked_gen (s : scorer) (n_cands : nat) pre_b post_b (p1 p2 : ranked) (w : C) (wgt : Q) (sc sc' : list Q) :
  0 <= wgt -> ~ In w (flatten (p1 ++ p2)) -> NoDup (flatten (p1 ++ p2)) ->
  rank_scores s n_cands (length (p1 ++ p2)) = Some sc ->
  rank_scores s n_cands (S (length (p1 ++ p2))) = Some sc' ->
  grow_ok sc sc' -> 0 <= nth (length p1) sc' 0 ->
  get_n_best Qle_bool (dconv (pos_img s n_cands) (pre_b ++ (p1 ++ p2, wgt) :: post_b)) 1 = [Cand (kc w)] ->
  get_n_best Qle_bool (dconv (pos_img s n_cands) (pre_b ++ (p1 ++ IP w :: p2, wgt) :: post_b)) 1 = [Cand (kc w)].
Proof.
  intros Hw Hnin Hnd Hsc Hsc' (K1 & _ & _ & K4) Hpos.
  pose proof (rank_scores_length _ _ _ _ Hsc) as Hlen. rewrite app_length in Hlen.
  assert (Hl : length (p1 ++ IP w :: p2) = S (length (p1 ++ p2))) by (rewrite !app_length; cbn [length]; lia).
  set (f := fun i => nth i sc 0). set (g := fun i => nth i sc' 0). set (a := length p1) in *.
  assert (Egain : wsum g w (p1 ++ IP w :: p2) 0 - wsum f w (p1 ++ p2) 0 == g a).
  { rewrite (wsum_inserted g w p1 p2 Hnin), (wsum_absent f w _ Hnin). fold a. ring. }
  apply (positional_replace s n_cands pre_b post_b _ (p1 ++ IP w :: p2) sc sc' w wgt Hw Hsc); [rewrite Hl; exact Hsc'| | | |].
  - intros c. apply in_flatten_inserted.
  - apply in_flatten_inserted. left. reflexivity.
  - fold f g. rewrite Egain. exact Hpos.
  - intros c Hc. fold f g. rewrite Egain. apply (wsum_insert_le f g c w p1 p2 (g a) Hc Hpos).
    + pose proof (occ_nodup c _ Hnd) as H. rewrite flatten_app, occ_app in H. pose proof (occ_nonneg c (flatten p2)). lra.
    + intros i Hi. apply K4; [lia|lia|exact Hpos].
    + intros j Hj. apply K1. lia.
Qed.

Theorem positional_rank_unranked (s : scorer) (n_cands : nat) pre_b post_b (p1 p2 : ranked) (w : C) (wgt : Q) (sc' : list Q) :
  0 <= wgt -> ~ In w (flatten (p1 ++ p2)) -> NoDup (flatten (p1 ++ p2)) -> scorer_ok_b s = true ->
  rank_scores s n_cands (S (length (p1 ++ p2))) = Some sc' -> 0 <= nth (length p1) sc' 0 ->
  get_n_best Qle_bool (dconv (pos_img s n_cands) (pre_b ++ (p1 ++ p2, wgt) :: post_b)) 1 = [Cand (kc w)] ->
  get_n_best Qle_bool (dconv (pos_img s n_cands) (pre_b ++ (p1 ++ IP w :: p2, wgt) :: post_b)) 1 = [Cand (kc w)].
Proof.
  intros Hw Hnin Hnd Hok Hsc' Hpos. destruct (rank_scores_pred _ _ _ _ Hsc') as (sc & Hsc).
  exact (positional_rank_unranked_gen s n_cands pre_b post_b p1 p2 w wgt sc sc' Hw Hnin Hnd Hsc Hsc'
           (scorer_grow_ok s n_cands _ sc sc' Hok Hsc Hsc') Hpos).
Qed.

(* The candidates of the new ballot already occur in the profile (so the number of candidates does not change); no candidate
   twice on it; the score of its first rank is not negative - the candidates it leaves unranked get 0. *)
Theorem positional_added_ballot (s : scorer) (n_cands : nat) pre_b post_b (rest : ranked) (w : C) (wgt : Q) :
  0 <= wgt -> NoDup (w :: flatten rest) ->
  (forall c, In c (flatten rest) -> In (kc c) (map fst (dconv (pos_img s n_cands) (pre_b ++ post_b)))) ->
  scorer_nonincreasing s n_cands ->
  (forall sc', rank_scores s n_cands (S (length rest)) = Some sc' -> 0 <= nth 0 sc' 0) ->
  get_n_best Qle_bool (dconv (pos_img s n_cands) (pre_b ++ post_b)) 1 = [Cand (kc w)] ->
  get_n_best Qle_bool (dconv (pos_img s n_cands) (pre_b ++ (IP w :: rest, wgt) :: post_b)) 1 = [Cand (kc w)].
Proof.
  intros Hw Hnd Hcands Hs Htop Hwin.
  destruct (rank_scores s n_cands (length (IP w :: rest))) as [sc'|] eqn:Hsc'.
  2: { rewrite <- Hwin. f_equal. apply (conv_skip sx_eqb (pos_img s n_cands)). apply pos_img_none, Hsc'. }
  specialize (Htop sc' Hsc'). set (g := fun i => nth i sc' 0).
  inversion Hnd as [|? ? Hw_rest Hnd_rest]; subst.
  assert (Ew : coef sx_eqb (pos_img s n_cands (IP w :: rest)) (kc w) == g 0%nat).
  { rewrite (coef_pos_img _ _ _ sc' w Hsc'). exact (wsum_inserted g w [] rest Hw_rest). }
  apply (additive_added_ballot sx_eqb sx_eqb_spec (pos_img s n_cands)); [exact Hw| | |exact Hwin].
  - intros k. rewrite (pos_img_keys _ _ _ _ Hsc'). intros Hin. apply in_map_iff in Hin.
    destruct Hin as (c & <- & [<-|Hc]); [|exact (Hcands c Hc)].
    exact (proj1 (proj1 (conv_sole_winner sx_eqb sx_eqb_spec (pos_img s n_cands) _ (kc w)) Hwin)).
  - intros k. rewrite Ew. destruct (sx_kc_cases k) as [(c & ->)|Hno]; [|rewrite coef_pos_img_other by exact Hno; exact Htop].
    destruct (Pos.eq_dec c w) as [->|Hc]; [rewrite Ew; lra|].
    rewrite (coef_pos_img _ _ _ sc' c Hsc'). fold g. cbn [wsum members]. rewrite (occ_other c w Hc).
    (* every place of the new ballot scores at most what its first place scores *)
    assert (D : wsum g c rest 1 - wsum (fun _ => 0) c rest 0 <= g 0%nat * occ c (flatten rest)).
    { apply wsum_diff_le. intros j Hj. cbn [Nat.add].
      pose proof (scores_chain s n_cands _ sc' Hs Hsc' 0%nat (S j) ltac:(lia) ltac:(cbn [length]; lia)). unfold g. lra. }
    rewrite (wsum_zero (fun _ => 0) c rest) in D by (intros; reflexivity).
    pose proof (qmul_le_l (g 0%nat) _ _ Htop (occ_nodup c _ Hnd_rest)). lra.
Qed.

Definition scorer_nonneg_b (s : scorer) : bool := match s with Borda base => (0 <=? base)%Z | _ => true end.

Lemma noninc0_nonneg l : noninc0 l = true -> forall i, 0 <= nth i l 0.
Proof.
  induction l as [|a t IH]; intros H i; [destruct i; cbn; lra|].
  destruct t as [|b t'].
  - cbn [noninc0] in H. apply Qle_bool_iff in H. destruct i as [|[|i]]; cbn; lra.
  - cbn [noninc0] in H. apply andb_true_iff in H. destruct H as [H1 H2]. apply Qle_bool_iff in H1.
    destruct i as [|i]; [|exact (IH H2 i)]. pose proof (IH H2 0%nat) as H0. cbn [nth] in *. lra.
Qed.

Theorem scores_nonneg s n k sc : scorer_ok_b s = true -> scorer_nonneg_b s = true ->
  rank_scores s n k = Some sc -> forall i, 0 <= nth i sc 0.
Proof.
  intros Hok Hnn Hsc i. destruct (rank_scores_nth _ _ _ _ Hsc) as [Hl Hn].
  destruct (Nat.lt_ge_cases i k) as [Hi|Hi]; [|rewrite nth_overflow by lia; lra].
  rewrite (Hn i Hi). clear Hl Hn. destruct s; cbn [scorer_ok_b scorer_nonneg_b score_at] in *.
  - (* Borda: at most as many ranks as candidates *)
    unfold rank_scores in Hsc. destruct (Nat.ltb n k) eqn:E; [discriminate|]. apply Nat.ltb_ge in E.
    apply Z.leb_le in Hnn. change 0 with (inject_Z 0). rewrite <- Zle_Qle. lia.
  - unfold Qle. cbn [Qnum Qden]. lia.
  - apply Z.leb_le in Hok. apply Qinv_le_0_compat. change 0 with (inject_Z 0). rewrite <- Zle_Qle. apply Z.pow_nonneg. lia.
  - change 0 with (inject_Z 0). rewrite <- Zle_Qle. lia.
  - change 0 with (inject_Z 0). rewrite <- Zle_Qle. lia.
  - apply noninc0_nonneg, Hok.
Qed.

(* (c) and the added ballot for the six scorers, one boolean condition each *)
Corollary positional_rank_unranked_nonneg (s : scorer) (n_cands : nat) pre_b post_b (p1 p2 : ranked) (w : C) (wgt : Q) (sc' : list Q) :
  0 <= wgt -> ~ In w (flatten (p1 ++ p2)) -> NoDup (flatten (p1 ++ p2)) -> scorer_ok_b s = true -> scorer_nonneg_b s = true ->
  rank_scores s n_cands (S (length (p1 ++ p2))) = Some sc' ->
  get_n_best Qle_bool (dconv (pos_img s n_cands) (pre_b ++ (p1 ++ p2, wgt) :: post_b)) 1 = [Cand (kc w)] ->
  get_n_best Qle_bool (dconv (pos_img s n_cands) (pre_b ++ (p1 ++ IP w :: p2, wgt) :: post_b)) 1 = [Cand (kc w)].
Proof.
  intros Hw Hnin Hnd Hok Hnn Hsc'.
  exact (positional_rank_unranked s n_cands pre_b post_b p1 p2 w wgt sc' Hw Hnin Hnd Hok Hsc' (scores_nonneg s n_cands _ sc' Hok Hnn Hsc' _)).
Qed.

Corollary positional_added_ballot_nonneg (s : scorer) (n_cands : nat) pre_b post_b (rest : ranked) (w : C) (wgt : Q) :
  0 <= wgt -> NoDup (w :: flatten rest) ->
  (forall c, In c (flatten rest) -> In (kc c) (map fst (dconv (pos_img s n_cands) (pre_b ++ post_b)))) ->
  scorer_ok_b s = true -> scorer_nonneg_b s = true ->
  get_n_best Qle_bool (dconv (pos_img s n_cands) (pre_b ++ post_b)) 1 = [Cand (kc w)] ->
  get_n_best Qle_bool (dconv (pos_img s n_cands) (pre_b ++ (IP w :: rest, wgt) :: post_b)) 1 = [Cand (kc w)].
Proof.
  intros Hw Hnd Hc Hok Hnn.
  apply (positional_added_ballot s n_cands pre_b post_b rest w wgt Hw Hnd Hc (scorer_ok_nonincreasing s n_cands Hok)).
  intros sc' Hsc'. exact (scores_nonneg s n_cands _ sc' Hok Hnn Hsc' 0%nat).
Qed.

Fixpoint nodupb (l : list C) : bool :=
  match l with [] => true | x :: t => negb (existsb (Pos.eqb x) t) && nodupb t end.

Lemma nodupb_spec l : nodupb l = true -> NoDup l.
Proof.
  induction l as [|x t IH]; cbn [nodupb]; intros H; [constructor|].
  apply andb_true_iff in H. destruct H as [H1 H2]. constructor; [|exact (IH H2)].
  intros Hin. apply negb_true_iff in H1. assert (E : existsb (Pos.eqb x) t = true).
  { apply existsb_exists. exists x. split; [exact Hin|apply Pos.eqb_refl]. }
  congruence.
Qed.

(* non-vacuity.  Candidates A..D = 1..4, the other ballots {(B,A,C,D): 2}; B = 2 is the sole winner and really moves.
   (a) Borda: ({D,C},A,B) -> (B,{D,C},A), past a shared rank: B 10 -> 12.
   (b) modified Borda: (A,{C,B,D}) -> (B,A,{C,D}): the ballot gets longer, A keeps its 2 points at a lower place, B 9 -> 11; also Borda.
   (b, single) modified Borda: (A,{B,C}) -> (B,A,C).
   (c) Borda, {(B,A,C,D): 4}: (D,A) -> (D,B,A): B 16 -> 19, A 15 -> 14.
   (2) Borda: the ballot (B,{A,C}) is added.  All five replayed on the implementation. *)
Example positional_shared_examples :
  let A := 1%positive in let B := 2%positive in let C := 3%positive in let D := 4%positive in
  let pre := [([IP B; IP A; IP C; IP D], 2)] in let pre4 := [([IP B; IP A; IP C; IP D], 4)] in
  let run s (v : list (ranked * Q)) := get_n_best Qle_bool (dconv (pos_img s 4) v) 1 in
  (scorer_ok_b (Borda 1) = true /\ scorer_ok_b ModifiedBorda = true /\ scorer_nonneg_b (Borda 1) = true /\ scorer_nonneg_b (Borda (-1)) = false) /\
  (run (Borda 1) (pre ++ ([] ++ [IS [D; C]; IP A] ++ IP B :: [], 1) :: []) = [Cand (kc B)] /\
   run (Borda 1) (pre ++ ([] ++ IP B :: [IS [D; C]; IP A] ++ [], 1) :: []) = [Cand (kc B)] /\
   dconv (pos_img (Borda 1) 4) (pre ++ ([] ++ [IS [D; C]; IP A] ++ IP B :: [], 1) :: []) = [(kc B, 10); (kc A, 9); (kc C, 8); (kc D, 6)] /\
   dconv (pos_img (Borda 1) 4) (pre ++ ([] ++ IP B :: [IS [D; C]; IP A] ++ [], 1) :: []) = [(kc B, 12); (kc A, 8); (kc C, 7); (kc D, 5)]) /\
  (nodupb (flatten ([] ++ [IP A] ++ IS ([C] ++ B :: [D]) :: [])) = true /\
   rank_scores ModifiedBorda 4 (S (length ([] ++ [IP A] ++ IS ([C] ++ B :: [D]) :: []))) = Some [3; 2; 1] /\
   run ModifiedBorda (pre ++ ([] ++ [IP A] ++ IS ([C] ++ B :: [D]) :: [], 1) :: []) = [Cand (kc B)] /\
   run ModifiedBorda (pre ++ ([] ++ IP B :: [IP A] ++ IS ([C] ++ [D]) :: [], 1) :: []) = [Cand (kc B)] /\
   dconv (pos_img ModifiedBorda 4) (pre ++ ([] ++ [IP A] ++ IS ([C] ++ B :: [D]) :: [], 1) :: []) = [(kc B, 9); (kc A, 8); (kc C, 5); (kc D, 3)] /\
   dconv (pos_img ModifiedBorda 4) (pre ++ ([] ++ IP B :: [IP A] ++ IS ([C] ++ [D]) :: [], 1) :: []) = [(kc B, 11); (kc A, 8); (kc C, 5); (kc D, 3)] /\
   run (Borda 1) (pre ++ ([] ++ [IP A] ++ IS ([C] ++ B :: [D]) :: [], 1) :: []) = [Cand (kc B)] /\
   run (Borda 1) (pre ++ ([] ++ IP B :: [IP A] ++ IS ([C] ++ [D]) :: [], 1) :: []) = [Cand (kc B)]) /\
  (nodupb (flatten ([] ++ [IP A] ++ IS ([] ++ B :: [C]) :: [])) = true /\
   run ModifiedBorda (pre ++ ([] ++ [IP A] ++ IS ([] ++ B :: [C]) :: [], 1) :: []) = [Cand (kc B)] /\
   run ModifiedBorda (pre ++ ([] ++ IP B :: [IP A] ++ IP C :: [], 1) :: []) = [Cand (kc B)]) /\
  (nodupb (flatten ([IP D] ++ [IP A])) = true /\
   rank_scores (Borda 1) 4 (S (length ([IP D] ++ [IP A]))) = Some [4; 3; 2] /\
   run (Borda 1) (pre4 ++ ([IP D] ++ [IP A], 1) :: []) = [Cand (kc B)] /\
   run (Borda 1) (pre4 ++ ([IP D] ++ IP B :: [IP A], 1) :: []) = [Cand (kc B)] /\
   dconv (pos_img (Borda 1) 4) (pre4 ++ ([IP D] ++ [IP A], 1) :: []) = [(kc B, 16); (kc A, 15); (kc C, 8); (kc D, 8)] /\
   dconv (pos_img (Borda 1) 4) (pre4 ++ ([IP D] ++ IP B :: [IP A], 1) :: []) = [(kc B, 19); (kc A, 14); (kc C, 8); (kc D, 8)]) /\
  (nodupb (B :: flatten [IS [A; C]]) = true /\
   run (Borda 1) (pre ++ []) = [Cand (kc B)] /\
   run (Borda 1) (pre ++ (IP B :: [IS [A; C]], 1) :: []) = [Cand (kc B)] /\
   dconv (pos_img (Borda 1) 4) (pre ++ (IP B :: [IS [A; C]], 1) :: []) = [(kc B, 12); (kc A, 9); (kc C, 7); (kc D, 2)]).
Proof. vm_compute. repeat split; reflexivity. Qed.

(* (c) without a non-negative new score: Borda(base = -5), three candidates (scores -3, -4, -5), {(A,B,C): 1, (B): 1}: A wins with
   -3 (C -5, B -7).  A is ranked FIRST on the second ballot, (B) -> (A,B): A -6, B -8, C -5 - C wins.  Replayed on the implementation. *)
Theorem positional_rank_unranked_negative_refuted :
  exists (s : scorer) (n_cands : nat) pre_b post_b (p1 p2 : ranked) (w : C) (wgt : Q) (sc' : list Q),
    0 <= wgt /\ ~ In w (flatten (p1 ++ p2)) /\ NoDup (flatten (p1 ++ p2)) /\ scorer_ok_b s = true /\
    rank_scores s n_cands (S (length (p1 ++ p2))) = Some sc' /\ nth (length p1) sc' 0 < 0 /\
    get_n_best Qle_bool (dconv (pos_img s n_cands) (pre_b ++ (p1 ++ p2, wgt) :: post_b)) 1 = [Cand (kc w)] /\
    get_n_best Qle_bool (dconv (pos_img s n_cands) (pre_b ++ (p1 ++ IP w :: p2, wgt) :: post_b)) 1 = [Cand (kc 3%positive)] /\
    w <> 3%positive.
Proof.
  exists (Borda (-5)), 3%nat, [([IP 1%positive; IP 2%positive; IP 3%positive], 1)], [], [], [IP 2%positive], 1%positive, 1, [-(3); -(4)].
  split; [discriminate|]. split; [cbn; intros [H|[]]; discriminate H|]. split; [apply nodupb_spec; reflexivity|].
  split; [reflexivity|]. split; [vm_compute; reflexivity|]. split; [vm_compute; reflexivity|].
  split; [vm_compute; reflexivity|]. split; [vm_compute; reflexivity|discriminate].
Qed.

(* the added ballot without a non-negative top score: Borda(base = -5), {(A,B): 1} (A -4, B -5), the bullet vote (A) is added:
   A -8, B -5.  Replayed on the implementation. *)
Theorem positional_added_ballot_negative_refuted :
  exists (s : scorer) (n_cands : nat) pre_b post_b (rest : ranked) (w : C) (wgt : Q),
    0 <= wgt /\ NoDup (w :: flatten rest) /\
    (forall c, In c (flatten rest) -> In (kc c) (map fst (dconv (pos_img s n_cands) (pre_b ++ post_b)))) /\
    scorer_ok_b s = true /\
    get_n_best Qle_bool (dconv (pos_img s n_cands) (pre_b ++ post_b)) 1 = [Cand (kc w)] /\
    get_n_best Qle_bool (dconv (pos_img s n_cands) (pre_b ++ (IP w :: rest, wgt) :: post_b)) 1 = [Cand (kc 2%positive)] /\
    w <> 2%positive.
Proof.
  exists (Borda (-5)), 2%nat, [([IP 1%positive; IP 2%positive], 1)], [], [], 1%positive, 1.
  split; [discriminate|]. split; [apply nodupb_spec; reflexivity|]. split; [intros c []|].
  split; [reflexivity|]. split; [vm_compute; reflexivity|]. split; [vm_compute; reflexivity|discriminate].
Qed.

(* a candidate twice on the changed ballot (not a ballot a voter can cast, but a tuple the converter accepts).
   Added ballot, Borda, {(A,B,C,D): 1}: the ballot (A,B,B,B) gives A 4 and B 3+2+1: B wins 9 : 8.
   Leaving a shared rank, modified Borda, {(B): 9/2, (A,A,{B,C}): 1}: B 11/2, A 5; (A,A,B,{C}): every score rises by one, A 7, B 13/2.
   Ranking an unranked winner, modified Borda, {(B): 7/2, (A,A): 1}: B 7/2, A 3; (A,A,B): A 5, B 9/2.  All replayed on the implementation. *)
Theorem positional_twice_refuted :
  let A := 1%positive in let B := 2%positive in let C := 3%positive in let D := 4%positive in
  let run s n (v : list (ranked * Q)) := get_n_best Qle_bool (dconv (pos_img s n) v) 1 in
  (run (Borda 1) 4%nat ([([IP A; IP B; IP C; IP D], 1)] ++ []) = [Cand (kc A)] /\
   run (Borda 1) 4%nat ([([IP A; IP B; IP C; IP D], 1)] ++ (IP A :: [IP B; IP B; IP B], 1) :: []) = [Cand (kc B)]) /\
  (run ModifiedBorda 3%nat ([([IP B], 9 # 2)] ++ ([IP A; IP A] ++ [] ++ IS ([] ++ B :: [C]) :: [], 1) :: []) = [Cand (kc B)] /\
   run ModifiedBorda 3%nat ([([IP B], 9 # 2)] ++ ([IP A; IP A] ++ IP B :: [] ++ IS ([] ++ [C]) :: [], 1) :: []) = [Cand (kc A)]) /\
  (run ModifiedBorda 2%nat ([([IP B], 7 # 2)] ++ ([IP A; IP A] ++ [], 1) :: []) = [Cand (kc B)] /\
   run ModifiedBorda 2%nat ([([IP B], 7 # 2)] ++ ([IP A; IP A] ++ IP B :: [], 1) :: []) = [Cand (kc A)]).
Proof. vm_compute. repeat split; reflexivity. Qed.

Print Assumptions additive_sole_winner_diff.
Print Assumptions additive_added_ballot.
Print Assumptions positional_move_up_items.
Print Assumptions scorer_grow_ok.
Print Assumptions positional_leave_shared_gen.
Print Assumptions positional_leave_shared.
Print Assumptions positional_leave_shared_single.
Print Assumptions positional_rank_unranked_gen.
Print Assumptions positional_rank_unranked.
Print Assumptions positional_rank_unranked_nonneg.
Print Assumptions positional_added_ballot.
Print Assumptions positional_added_ballot_nonneg.
Print Assumptions scores_nonneg.
Print Assumptions scorer_ok_nonincreasing.
Print Assumptions positional_shared_examples.
Print Assumptions positional_rank_unranked_negative_refuted.
Print Assumptions positional_added_ballot_negative_refuted.
Print Assumptions positional_twice_refuted.
