(* Justified representation of the PAV committee (Model/Cardinal.v pav_best / pav).
   Aziz, Brill, Conitzer, Elkind, Freeman, Walsh 2017: if the voters who approve c and nobody of the
   optimal committee W weighed more than total/(n+1), swapping some member of W for c would raise the
   harmonic satisfaction.  Weighted (rational, non-negative) ballots. *)
From Coq Require Import ZArith QArith List Bool Arith Lia Lqa Permutation.
From VL Require Import Proofs.Threshold_proofs Prelude.PyDict Model.GetNBest Model.Convert Model.Cardinal
     Proofs.GetNBest_proofs Proofs.QOrd Proofs.Dict_proofs Proofs.Cardinal_proofs.
Import ListNotations.
Open Scope Q_scope.

Lemma Qmult_le_nonneg_l z x y : 0 <= z -> x <= y -> z * x <= z * y.
Proof. intros Hz Hxy. rewrite !(Qmult_comm z). apply Qmult_le_compat_r; assumption. Qed.
Section LSum.
  Context {X : Type}.
  Definition lsum (f : X -> Q) (l : list X) : Q := fold_right (fun x acc => f x + acc) 0 l.

  Lemma lsum_cons f x l : lsum f (x :: l) = f x + lsum f l.
  Proof. reflexivity. Qed.

  Lemma lsum_le f g l : (forall x, In x l -> f x <= g x) -> lsum f l <= lsum g l.
  Proof.
    induction l as [|x l IH]; intros H; [simpl; lra|]. rewrite !lsum_cons.
    pose proof (H x (or_introl eq_refl)). assert (lsum f l <= lsum g l) by (apply IH; intros y Hy; apply H; right; exact Hy). lra.
  Qed.

  Lemma lsum_eq f g l : (forall x, In x l -> f x == g x) -> lsum f l == lsum g l.
  Proof.
    induction l as [|x l IH]; intros H; [reflexivity|]. rewrite !lsum_cons.
    rewrite (H x (or_introl eq_refl)), IH; [reflexivity|]. intros y Hy; apply H; right; exact Hy.
  Qed.

  Lemma lsum_minus f g l : lsum (fun x => f x - g x) l == lsum f l - lsum g l.
  Proof. induction l as [|x l IH]; [simpl; lra|]. rewrite !lsum_cons, IH. lra. Qed.

  Lemma lsum_scale k f l : lsum (fun x => k * f x) l == k * lsum f l.
  Proof. induction l as [|x l IH]; [simpl; lra|]. rewrite !lsum_cons, IH. lra. Qed.

  Lemma lsum_const k l : lsum (fun _ => k) l == k * inject_Z (Z.of_nat (length l)).
  Proof.
    induction l as [|x l IH]; [unfold lsum; cbn [fold_right length]; change (inject_Z (Z.of_nat 0)) with 0; lra|]. rewrite lsum_cons, IH.
    change (length (x :: l)) with (S (length l)). rewrite Nat2Z.inj_succ. unfold Z.succ. rewrite inject_Z_plus. change (inject_Z 1) with 1. lra.
  Qed.

  Lemma lsum_indicator (p : X -> bool) k l :
    lsum (fun x => if p x then k else 0) l == k * inject_Z (Z.of_nat (length (filter p l))).
  Proof.
    induction l as [|x l IH]; [unfold lsum; cbn [fold_right length filter]; change (inject_Z (Z.of_nat 0)) with 0; lra|]. rewrite lsum_cons, IH. cbn [filter]. destruct (p x).
    - change (length (x :: filter p l)) with (S (length (filter p l))). rewrite Nat2Z.inj_succ. unfold Z.succ.
      rewrite inject_Z_plus. change (inject_Z 1) with 1. lra.
    - lra.
  Qed.

  Lemma lsum_nonpos f l : (forall x, In x l -> f x <= 0) -> lsum f l <= 0.
  Proof.
    intros H. assert (H0 : lsum f l <= lsum (fun _ => 0) l) by (apply lsum_le; exact H).
    rewrite lsum_const in H0. lra.
  Qed.
End LSum.

Lemma lsum_swap {X Y} (f : X -> Y -> Q) (l1 : list X) (l2 : list Y) :
  lsum (fun x => lsum (fun y => f x y) l2) l1 == lsum (fun y => lsum (fun x => f x y) l1) l2.
Proof.
  induction l1 as [|x l1 IH].
  - simpl. induction l2 as [|y l2 IH2]; [reflexivity|]. rewrite lsum_cons, <- IH2. simpl. lra.
  - rewrite lsum_cons, IH. clear IH. induction l2 as [|y l2 IH2]; [simpl; lra|].
    rewrite !lsum_cons, <- IH2. lra.
Qed.

Lemma fold_left_lsum {X} (g : X -> Q) (l : list X) : forall a,
  fold_left (fun acc x => acc + g x) l a == a + lsum g l.
Proof.
  induction l as [|x l IH]; intros a; [simpl; lra|]. cbn [fold_left]. rewrite IH, lsum_cons. lra.
Qed.

Lemma satisfaction_lsum votes alt :
  satisfaction votes alt == lsum (fun bw : list C * Q => harmonic (inter_size (fst bw) alt) * snd bw) votes.
Proof. unfold satisfaction. rewrite (fold_left_lsum (fun bw : list C * Q => harmonic (inter_size (fst bw) alt) * snd bw)). lra. Qed.

Lemma qsum_lsum (l : list Q) : qsum l == lsum (fun x => x) l.
Proof. unfold qsum. rewrite (fold_left_lsum (fun x : Q => x)). lra. Qed.

Lemma lsum_map {X Y} (h : X -> Y) (f : Y -> Q) l : lsum f (map h l) = lsum (fun x => f (h x)) l.
Proof. induction l as [|x l IH]; [reflexivity|]. cbn [map]. rewrite !lsum_cons. f_equal. exact IH. Qed.
Lemma harmonic_S k : harmonic (S k) = harmonic k + (1 # Pos.of_nat (S k)).
Proof. reflexivity. Qed.

Lemma harmonic_mono k k' : (k <= k')%nat -> harmonic k <= harmonic k'.
Proof.
  induction 1 as [|m Hm IH]; [lra|]. rewrite harmonic_S.
  assert (0 < 1 # Pos.of_nat (S m)) by reflexivity. lra.
Qed.

Lemma harmonic_ge_1 k : (1 <= k)%nat -> 1 <= harmonic k.
Proof. intros H. apply (harmonic_mono 1 k) in H. change (harmonic 1) with (0 + (1 # 1)) in H. lra. Qed.

Lemma pos_of_nat_S k : inject_Z (Z.of_nat (S k)) * (1 # Pos.of_nat (S k)) == 1.
Proof.
  unfold Qeq, Qmult, inject_Z. cbn [Qnum Qden]. rewrite <- Pos.of_nat_succ, Pos.mul_1_l, Zpos_P_of_succ_nat, Nat2Z.inj_succ. lia.
Qed.

Definition drop (w : C) (W : list C) : list C := filter (fun x => negb (ceqb x w)) W.

Lemma drop_In w W x : In x (drop w W) <-> In x W /\ x <> w.
Proof.
  unfold drop. rewrite filter_In, negb_true_iff. unfold ceqb. rewrite Pos.eqb_neq. tauto.
Qed.

Lemma drop_length w W : NoDup W -> In w W -> S (length (drop w W)) = length W.
Proof.
  induction W as [|y W IH]; intros Hnd Hin; [destruct Hin|]. inversion Hnd as [|? ? Hy Hnd']; subst.
  unfold drop. cbn [filter]. destruct (ceqb y w) eqn:E; cbn [negb].
  - apply ceqb_eq in E. subst y. cbn [length]. f_equal.
    assert (Hall : filter (fun x => negb (ceqb x w)) W = W).
    { clear - Hy. induction W as [|z W IHW]; [reflexivity|]. cbn [filter].
      destruct (ceqb z w) eqn:Ez; [apply ceqb_eq in Ez; subst; exfalso; apply Hy; left; reflexivity|].
      cbn [negb]. f_equal. apply IHW. intros H. apply Hy. right. exact H. }
    rewrite Hall. reflexivity.
  - cbn [length]. f_equal. apply IH; [exact Hnd'|]. destruct Hin as [->|Hin]; [rewrite ceqb_refl in E; discriminate|exact Hin].
Qed.

Lemma filter_length_le {X} (p q : X -> bool) l : (forall x, In x l -> p x = true -> q x = true) ->
  (length (filter p l) <= length (filter q l))%nat.
Proof.
  induction l as [|x l IH]; intros H; [simpl; lia|]. cbn [filter].
  assert (IH' : (length (filter p l) <= length (filter q l))%nat) by (apply IH; intros y Hy; apply H; right; exact Hy).
  destruct (p x) eqn:Ep.
  - rewrite (H x (or_introl eq_refl) Ep). simpl. lia.
  - destruct (q x); simpl; lia.
Qed.

Lemma inter_size_ext a s s' : (forall x, cmem x s = cmem x s') -> inter_size a s = inter_size a s'.
Proof. intros H. unfold inter_size. f_equal. apply filter_ext. intros x. apply H. Qed.

Lemma inter_size_mono a s s' : (forall x, In x s -> In x s') -> (inter_size a s <= inter_size a s')%nat.
Proof. intros H. unfold inter_size. apply filter_length_le. intros x _ Hx. apply cmem_In. apply H. apply cmem_In. exact Hx. Qed.

Lemma inter_size_zero a s : (forall x, In x a -> ~ In x s) -> inter_size a s = 0%nat.
Proof.
  intros H. unfold inter_size. induction a as [|x a IH]; [reflexivity|]. cbn [filter].
  assert (E : cmem x s = false) by (apply cmem_false; apply H; left; reflexivity). rewrite E.
  apply IH. intros y Hy. apply H. right. exact Hy.
Qed.

Lemma inter_size_pos a s x : In x a -> In x s -> (1 <= inter_size a s)%nat.
Proof.
  intros Ha Hs. unfold inter_size. assert (Hin : In x (filter (fun c => cmem c s) a)) by (apply filter_In; split; [exact Ha|apply cmem_In; exact Hs]).
  destruct (filter (fun c => cmem c s) a); [destruct Hin|simpl; lia].
Qed.

(* removing w from the committee loses at most the one approval of w *)
Lemma inter_size_drop a W w : NoDup a ->
  (inter_size a W <= inter_size a (drop w W) + (if cmem w a then 1 else 0))%nat.
Proof.
  unfold inter_size. induction a as [|x a IH]; intros Hnd; [simpl; lia|].
  inversion Hnd as [|? ? Hx Hnd']; subst. specialize (IH Hnd'). cbn [filter cmem].
  destruct (ceqb w x) eqn:E.
  - apply ceqb_eq in E. subst x. assert (E2 : cmem w a = false) by (apply cmem_false; exact Hx). rewrite E2 in IH.
    assert (E3 : cmem w (drop w W) = false) by (apply cmem_false; rewrite drop_In; tauto). rewrite E3. cbn [orb].
    destruct (cmem w W); simpl; lia.
  - cbn [orb]. assert (E2 : cmem x (drop w W) = cmem x W).
    { destruct (cmem x W) eqn:E3.
      - apply cmem_In. apply drop_In. split; [apply cmem_In; exact E3|]. apply ceqb_neq in E. congruence.
      - apply cmem_false. rewrite drop_In. apply cmem_false in E3. tauto. }
    rewrite E2. destruct (cmem x W); simpl; lia.
Qed.

(* for duplicate-free lists the intersection can be counted from either side *)
Lemma inter_size_sym_le a W : NoDup W -> (length (filter (fun w => cmem w a) W) <= inter_size a W)%nat.
Proof.
  intros Hnd. unfold inter_size. apply NoDup_incl_length; [apply NoDup_filter; exact Hnd|].
  intros x Hx. apply filter_In in Hx. destruct Hx as [HxW Hxa]. apply filter_In. split; [apply cmem_In; exact Hxa|apply cmem_In; exact HxW].
Qed.
Lemma subseq_incl {X} (s l : list X) : subseq s l -> incl s l.
Proof.
  induction 1 as [l|x s l _ IH|x s l _ IH]; intros y Hy.
  - destruct Hy.
  - destruct Hy as [<-|Hy]; [left; reflexivity|right; apply IH, Hy].
  - right. apply IH, Hy.
Qed.

Lemma subseq_NoDup {X} (s l : list X) : subseq s l -> NoDup l -> NoDup s.
Proof.
  induction 1 as [l|x s l Hs IH|x s l Hs IH]; intros Hnd.
  - constructor.
  - inversion Hnd as [|? ? Hx Hnd']; subst. constructor; [|apply IH, Hnd'].
    intros Hin. apply Hx. apply (subseq_incl _ _ Hs). exact Hin.
  - inversion Hnd; subst. apply IH. assumption.
Qed.

Lemma filter_subseq {X} (p : X -> bool) l : subseq (filter p l) l.
Proof.
  induction l as [|x l IH]; [constructor|]. cbn [filter]. destruct (p x); constructor; exact IH.
Qed.

(* a duplicate-free set of candidates, arranged as a sub-sequence of the candidate list *)
Lemma arrange (cands s : list C) : NoDup cands -> NoDup s -> incl s cands ->
  exists s', subseq s' cands /\ length s' = length s /\ forall x, cmem x s' = cmem x s.
Proof.
  intros Hc Hs Hi. exists (filter (fun x => cmem x s) cands).
  assert (Hmem : forall x, In x (filter (fun x => cmem x s) cands) <-> In x s).
  { intros x. rewrite filter_In, cmem_In. split; [tauto|]. intros H. split; [apply Hi, H|exact H]. }
  split; [apply filter_subseq|]. split.
  - apply Permutation_length. apply NoDup_Permutation; [apply NoDup_filter, Hc|exact Hs|exact Hmem].
  - apply cmem_ext. exact Hmem.
Qed.
Section Voter.
  Variables (a W : list C) (c : C).
  Hypothesis Ha : NoDup a.
  Hypothesis HW : NoDup W.

  Let k := inter_size a W.
  Definition unrep_b (a W : list C) (c : C) : bool := cmem c a && Nat.eqb (inter_size a W) 0.

  Lemma voter_bound :
    (if unrep_b a W c then inject_Z (Z.of_nat (length W)) else - (1)) <=
    lsum (fun w => harmonic (inter_size a (c :: drop w W)) - harmonic (inter_size a W)) W.
  Proof.
    unfold unrep_b. fold k. destruct (cmem c a && Nat.eqb k 0) eqn:EG.
    - (* an unrepresented supporter of c gains a full point whoever is dropped *)
      apply andb_true_iff in EG. destruct EG as [Hc Hk]. apply Nat.eqb_eq in Hk. rewrite Hk.
      assert (H1 : lsum (fun _ : C => 1) W <= lsum (fun w => harmonic (inter_size a (c :: drop w W)) - harmonic 0) W).
      { apply lsum_le. intros w _. change (harmonic 0) with 0.
        assert (1 <= harmonic (inter_size a (c :: drop w W))).
        { apply harmonic_ge_1. apply (inter_size_pos _ _ c); [apply cmem_In; exact Hc|left; reflexivity]. }
        lra. }
      rewrite lsum_const in H1. lra.
    - (* anybody else loses at most 1/k for each approved member, k of them *)
      destruct k as [|j] eqn:Ek.
      + (* nobody of W approved: nothing to lose *)
        assert (H1 : lsum (fun _ : C => 0) W <= lsum (fun w => harmonic (inter_size a (c :: drop w W)) - harmonic 0) W).
        { apply lsum_le. intros w _. change (harmonic 0) with 0.
          assert (0 <= harmonic (inter_size a (c :: drop w W))) by (apply (harmonic_mono 0); lia). lra. }
        rewrite lsum_const in H1. lra.
      + set (q := 1 # Pos.of_nat (S j)).
        assert (H1 : lsum (fun w => - (if cmem w a then q else 0)) W <=
                     lsum (fun w => harmonic (inter_size a (c :: drop w W)) - harmonic (S j)) W).
        { apply lsum_le. intros w Hw.
          assert (Hm : (inter_size a (drop w W) <= inter_size a (c :: drop w W))%nat)
            by (apply inter_size_mono; intros x Hx; right; exact Hx).
          pose proof (inter_size_drop a W w Ha) as Hd. fold k in Hd. rewrite Ek in Hd.
          destruct (cmem w a) eqn:Ewa.
          - assert (Hj : (j <= inter_size a (c :: drop w W))%nat) by lia.
            apply harmonic_mono in Hj. rewrite harmonic_S. fold q. lra.
          - assert (Hj : (S j <= inter_size a (c :: drop w W))%nat) by lia.
            apply harmonic_mono in Hj. lra. }
        assert (H2 : lsum (fun w => - (if cmem w a then q else 0)) W == - (q * inject_Z (Z.of_nat (length (filter (fun w => cmem w a) W))))).
        { rewrite <- (lsum_indicator (fun w => cmem w a) q W).
          rewrite (lsum_eq (fun w => - (if cmem w a then q else 0)) (fun w => (- (1)) * (if cmem w a then q else 0)) W) by (intros; lra).
          rewrite lsum_scale. lra. }
        pose proof (inter_size_sym_le a W HW) as Hm. fold k in Hm. rewrite Ek in Hm.
        assert (H3 : q * inject_Z (Z.of_nat (length (filter (fun w => cmem w a) W))) <= 1).
        { rewrite <- (pos_of_nat_S j). fold q. rewrite (Qmult_comm (inject_Z _) q).
          apply Qmult_le_l; [reflexivity|]. rewrite <- Zle_Qle. lia. }
        lra.
  Qed.
End Voter.
Section JR.
  Variables (votes : aprofile) (cands W : list C) (n : nat).
  Hypothesis Hweights : forall bw, In bw votes -> 0 <= snd bw.
  Hypothesis Hballots : forall bw, In bw votes -> NoDup (fst bw).
  Hypothesis Hcands : NoDup cands.
  Hypothesis HWsub : subseq W cands.
  Hypothesis HWlen : length W = n.
  Hypothesis Hopt : forall s, subseq s cands -> length s = n -> satisfaction votes s <= satisfaction votes W.

  Definition unrep_weight (votes : aprofile) (W : list C) (c : C) : Q :=
    lsum (fun bw : list C * Q => if unrep_b (fst bw) W c then snd bw else 0) votes.

  Let HWnd : NoDup W := subseq_NoDup _ _ HWsub Hcands.

  Lemma swap_not_better c w : In c cands -> ~ In c W -> In w W ->
    satisfaction votes (c :: drop w W) <= satisfaction votes W.
  Proof.
    intros Hc HcW Hw.
    assert (Hnd : NoDup (c :: drop w W)).
    { constructor; [rewrite drop_In; tauto|apply NoDup_filter; exact HWnd]. }
    assert (Hincl : incl (c :: drop w W) cands).
    { intros x [<-|Hx]; [exact Hc|]. apply drop_In in Hx. apply (subseq_incl _ _ HWsub). tauto. }
    destruct (arrange cands _ Hcands Hnd Hincl) as (s & Hs & Hlen & Hmem).
    assert (Hl : length s = n).
    { rewrite Hlen. cbn [length]. rewrite (drop_length w W HWnd Hw). exact HWlen. }
    pose proof (Hopt s Hs Hl) as Hle.
    assert (Heq : satisfaction votes s == satisfaction votes (c :: drop w W)).
    { rewrite !satisfaction_lsum. apply lsum_eq. intros bw _. rewrite (inter_size_ext (fst bw) _ _ Hmem). reflexivity. }
    lra.
  Qed.

  (* the voters approving c and nobody of W weigh at most total / (n + 1) *)
  Theorem pav_jr_bound c : In c cands -> ~ In c W ->
    unrep_weight votes W c * inject_Z (Z.of_nat (n + 1)) <= lsum snd votes.
  Proof.
    intros Hc HcW.
    set (delta := fun (w : C) (bw : list C * Q) =>
                    (harmonic (inter_size (fst bw) (c :: drop w W)) - harmonic (inter_size (fst bw) W)) * snd bw).
    (* no swap improves the committee *)
    assert (H1 : lsum (fun w => lsum (delta w) votes) W <= 0).
    { apply lsum_nonpos. intros w Hw. pose proof (swap_not_better c w Hc HcW Hw) as Hs.
      rewrite !satisfaction_lsum in Hs. unfold delta.
      rewrite (lsum_eq _ (fun bw : list C * Q => harmonic (inter_size (fst bw) (c :: drop w W)) * snd bw
                                                - harmonic (inter_size (fst bw) W) * snd bw) votes) by (intros; lra).
      rewrite lsum_minus. lra. }
    rewrite (lsum_swap delta W votes) in H1.
    (* voter by voter *)
    assert (H2 : lsum (fun bw : list C * Q => snd bw * (if unrep_b (fst bw) W c then inject_Z (Z.of_nat n) else - (1))) votes
                 <= lsum (fun bw => lsum (fun w => delta w bw) W) votes).
    { apply lsum_le. intros bw Hbw. unfold delta.
      rewrite (lsum_eq _ (fun w => snd bw * (harmonic (inter_size (fst bw) (c :: drop w W)) - harmonic (inter_size (fst bw) W))) W)
        by (intros; lra).
      rewrite lsum_scale. pose proof (voter_bound (fst bw) W c (Hballots bw Hbw) HWnd) as Hv. rewrite HWlen in Hv.
      apply Qmult_le_nonneg_l; [apply Hweights, Hbw|exact Hv]. }
    assert (H3 : lsum (fun bw : list C * Q => snd bw * (if unrep_b (fst bw) W c then inject_Z (Z.of_nat n) else - (1))) votes
                 == inject_Z (Z.of_nat (n + 1)) * unrep_weight votes W c - lsum snd votes).
    { unfold unrep_weight. rewrite <- lsum_scale, <- lsum_minus. apply lsum_eq. intros bw _.
      rewrite Nat2Z.inj_add, inject_Z_plus. change (inject_Z (Z.of_nat 1)) with 1.
      destruct (unrep_b (fst bw) W c); lra. }
    lra.
  Qed.
End JR.
From Coq Require Import Sorted.

Lemma insert_c_In c l x : In x (insert_c c l) <-> x = c \/ In x l.
Proof.
  induction l as [|y t IH]; cbn [insert_c].
  - simpl. split; intros [H|H]; auto.
  - destruct (Pos.eqb c y) eqn:E1.
    + apply Pos.eqb_eq in E1. subst y. simpl. split; [tauto|]. intros [->|H]; auto.
    + destruct (Pos.ltb c y); [simpl; split; intros [H|H]; auto|].
      simpl. rewrite IH. tauto.
Qed.

Lemma insert_c_sorted c l : StronglySorted Pos.lt l -> StronglySorted Pos.lt (insert_c c l).
Proof.
  induction l as [|y t IH]; intros Hs; cbn [insert_c]; [repeat constructor|].
  inversion Hs as [|? ? Hst Hall]; subst.
  destruct (Pos.eqb c y) eqn:E1; [exact Hs|]. apply Pos.eqb_neq in E1.
  destruct (Pos.ltb c y) eqn:E2.
  - apply Pos.ltb_lt in E2. constructor; [exact Hs|]. constructor; [exact E2|].
    eapply Forall_impl; [|exact Hall]. intros z Hz. simpl in Hz. lia.
  - apply Pos.ltb_ge in E2. constructor; [apply IH, Hst|].
    apply Forall_forall. intros z Hz. apply insert_c_In in Hz. destruct Hz as [->|Hz]; [lia|].
    rewrite Forall_forall in Hall. apply Hall, Hz.
Qed.

Lemma sorted_NoDup (l : list C) : StronglySorted Pos.lt l -> NoDup l.
Proof.
  induction 1 as [|x l Hs IH Hall]; constructor; [|exact IH].
  intros Hin. rewrite Forall_forall in Hall. apply Hall in Hin. lia.
Qed.

Lemma canon_set_spec l : NoDup (canon_set l) /\ forall x, In x (canon_set l) <-> In x l.
Proof.
  unfold canon_set.
  assert (H : forall l acc, StronglySorted Pos.lt acc ->
            StronglySorted Pos.lt (fold_left (fun s c => insert_c c s) l acc) /\
            forall x, In x (fold_left (fun s c => insert_c c s) l acc) <-> In x acc \/ In x l).
  { clear l. induction l as [|c l IH]; intros acc Hacc; cbn [fold_left].
    - split; [exact Hacc|]. intros x. simpl. tauto.
    - destruct (IH (insert_c c acc) (insert_c_sorted c acc Hacc)) as [H1 H2]. split; [exact H1|].
      intros x. rewrite H2, insert_c_In. simpl. split; intros [H|H]; auto; destruct H; auto. }
  destruct (H l [] (SSorted_nil _)) as [H1 H2]. split; [apply sorted_NoDup, H1|].
  intros x. rewrite H2. simpl. tauto.
Qed.
Lemma group_weight_le (votes G : aprofile) W c :
  (forall bw, In bw votes -> 0 <= snd bw) ->
  subseq G votes -> (forall bw, In bw G -> unrep_b (fst bw) W c = true) ->
  lsum snd G <= unrep_weight votes W c.
Proof.
  intros Hw Hs. unfold unrep_weight. induction Hs as [l|bw s l Hs IH|bw s l Hs IH]; intros HG.
  - change (lsum snd []) with 0. rewrite <- (Qmult_0_l (inject_Z (Z.of_nat (length l)))), <- lsum_const.
    apply lsum_le. intros bw Hbw. pose proof (Hw bw Hbw). destruct (unrep_b (fst bw) W c); lra.
  - rewrite !lsum_cons. rewrite (HG bw (or_introl eq_refl)).
    assert (lsum snd s <= lsum (fun bw : list C * Q => if unrep_b (fst bw) W c then snd bw else 0) l).
    { apply IH; [intros b Hb; apply Hw; right; exact Hb|intros b Hb; apply HG; right; exact Hb]. }
    lra.
  - rewrite lsum_cons.
    assert (lsum snd s <= lsum (fun bw : list C * Q => if unrep_b (fst bw) W c then snd bw else 0) l).
    { apply IH; [intros b Hb; apply Hw; right; exact Hb|exact HG]. }
    pose proof (Hw bw (or_introl eq_refl)). destruct (unrep_b (fst bw) W c); lra.
Qed.

Lemma unrep_b_true a W c : In c a -> (forall w, In w W -> ~ In w a) -> unrep_b a W c = true.
Proof.
  intros Hc Hno. unfold unrep_b. apply andb_true_iff. split; [apply cmem_In, Hc|].
  apply Nat.eqb_eq. apply inter_size_zero. intros x Hx HxW. exact (Hno x HxW Hx).
Qed.

(* no group approving a common candidate c and nobody of the PAV committee W weighs more than total / (n + 1) *)
Theorem pav_jr_groups votes n W :
  (forall bw, In bw votes -> 0 <= snd bw /\ NoDup (fst bw)) ->
  pav_best votes (canon_set (flat_map fst votes)) n = [W] ->
  forall G c, subseq G votes ->
    (forall bw, In bw G -> In c (fst bw) /\ forall w, In w W -> ~ In w (fst bw)) ->
    qsum (map snd G) * inject_Z (Z.of_nat (n + 1)) <= qsum (map snd votes).
Proof.
  intros Hv Hbest G c HG Hgrp.
  destruct (pav_best_optimal _ _ _ _ Hbest) as [Hin Hopt].
  destruct (combos_sound _ _ _ Hin) as [HWsub HWlen].
  destruct (canon_set_spec (flat_map fst votes)) as [Hnd Hmem].
  assert (Hw : forall bw, In bw votes -> 0 <= snd bw) by (intros bw Hbw; apply Hv, Hbw).
  assert (Hb : forall bw, In bw votes -> NoDup (fst bw)) by (intros bw Hbw; apply Hv, Hbw).
  rewrite !qsum_lsum, !lsum_map.
  assert (Hn0 : 0 <= inject_Z (Z.of_nat (n + 1))) by (change 0 with (inject_Z 0); rewrite <- Zle_Qle; lia).
  destruct G as [|bw0 G'] eqn:EG.
  - change (lsum (fun x : list C * Q => snd x) []) with 0. rewrite Qmult_0_l.
    rewrite <- (Qmult_0_l (inject_Z (Z.of_nat (length votes)))), <- lsum_const. apply lsum_le. exact Hw.
  - rewrite <- EG in *.
    assert (Hbw0 : In bw0 G) by (rewrite EG; left; reflexivity).
    destruct (Hgrp bw0 Hbw0) as [Hc0 Hno0].
    assert (Hc : In c (canon_set (flat_map fst votes))).
    { apply Hmem. apply in_flat_map. exists bw0. split; [apply (subseq_incl _ _ HG), Hbw0|exact Hc0]. }
    assert (HcW : ~ In c W) by (intros H; exact (Hno0 c H Hc0)).
    pose proof (pav_jr_bound votes _ W n Hw Hb Hnd HWsub HWlen (fun s Hs Hl => proj1 (Hopt s Hs Hl)) c Hc HcW) as Hbound.
    assert (Hle : lsum snd G <= unrep_weight votes W c).
    { apply group_weight_le; [exact Hw|exact HG|]. intros bw Hbw. destruct (Hgrp bw Hbw) as [H1 H2]. apply unrep_b_true; assumption. }
    assert (Hmul : lsum snd G * inject_Z (Z.of_nat (n + 1)) <= unrep_weight votes W c * inject_Z (Z.of_nat (n + 1)))
      by (apply Qmult_le_compat_r; assumption).
    change (lsum (fun x : list C * Q => snd x)) with (@lsum (list C * Q) snd). lra.
Qed.

(* justified representation: a group that deserves a seat (weight >= total / n) and agrees on a candidate
   is not left without any representative *)
Theorem pav_jr votes n W :
  (forall bw, In bw votes -> 0 <= snd bw /\ NoDup (fst bw)) ->
  pav_best votes (canon_set (flat_map fst votes)) n = [W] ->
  forall G c, subseq G votes ->
    (forall bw, In bw G -> In c (fst bw) /\ forall w, In w W -> ~ In w (fst bw)) ->
    0 < qsum (map snd G) ->
    qsum (map snd G) * inject_Z (Z.of_nat n) < qsum (map snd votes).
Proof.
  intros Hv Hbest G c HG Hgrp Hpos.
  pose proof (pav_jr_groups votes n W Hv Hbest G c HG Hgrp) as H.
  rewrite Nat2Z.inj_add, inject_Z_plus in H. change (inject_Z (Z.of_nat 1)) with 1 in H. lra.
Qed.

(* what pav returns is the maximising committee, listed in some order *)
Theorem pav_committee votes n r : pav votes n = AR_ok r ->
  exists W s, pav_best votes (canon_set (flat_map fst votes)) n = [W] /\ Permutation s W /\ r = map Cand s.
Proof.
  unfold pav. destruct (pav_best votes (canon_set (flat_map fst votes)) n) as [|alt [|b t]]; try discriminate.
  intros [= <-]. set (drops := map (fun c => (c, - satisfaction votes (filter (fun x => negb (ceqb x c)) alt))) alt).
  exists alt, (map fst (sort_desc Qle_bool drops)). split; [reflexivity|]. split.
  - eapply Permutation_trans; [apply Permutation_map, sort_desc_perm|]. unfold drops. rewrite map_map. simpl. rewrite map_id. reflexivity.
  - unfold get_n_best. rewrite sort_desc_length. unfold drops at 1. rewrite map_length, Nat.ltb_irrefl, map_map. reflexivity.
Qed.
