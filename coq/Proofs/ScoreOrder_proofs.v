(* C10, ballot order for the score family: ScoreToSimpleVotes (with the unscored / truncation / minimum-count corrections,
   sum / mean / median aggregation) and ScoreVoting of Model/Cardinal.v do not depend on the insertion order of the score
   profile: the same error, or aggregated scores that are == candidate by candidate (the dictionary in another order), hence
   [res_equiv] selections.
   Per candidate the model keeps an insertion-ordered dictionary score -> count keyed up to == ([cs_get] / [cs_set]); two
   ballot orders give dictionaries with the same lookups ([cs_eq]); everything computed from such a dictionary is a function
   of its lookups: totals and the sorted expansion through weighted sums ([gsum_eq]), the corrections through
   get-after-set characterisations. *)
From Coq Require Import ZArith QArith Qround Qreduction List Bool Arith Lia Lqa Permutation Sorted Setoid.
From VL Require Import Prelude.PyDict Model.GetNBest Model.Convert Model.Cardinal Proofs.Scale2Dup_proofs Proofs.Dict_proofs Proofs.GetNBest_proofs Proofs.QOrd
     Proofs.LRScale_proofs Proofs.MJ_proofs Proofs.MJ_removal_proofs.
Import ListNotations.
Open Scope Q_scope.

Definition qeqs : list Q -> list Q -> Prop := Forall2 Qeq.

Lemma qeqs_nth l l' : qeqs l l' -> forall i, nth i l 0 == nth i l' 0.
Proof. induction 1 as [|x y l l' Hxy _ IH]; intros [|i]; simpl; try reflexivity; [exact Hxy|apply IH]. Qed.
Lemma qeqs_sum l l' : qeqs l l' -> forall a a', a == a' -> fold_left Qplus l a == fold_left Qplus l' a'.
Proof. induction 1 as [|x y l l' Hxy _ IH]; intros a a' Ha; simpl; [exact Ha|]. apply IH. rewrite Ha, Hxy. reflexivity. Qed.

Lemma insert_q_qeqs x x' l l' : x == x' -> qeqs l l' -> qeqs (insert_q x l) (insert_q x' l').
Proof.
  intros Hx. induction 1 as [|y y' l l' Hy Hl IH]; cbn [insert_q]; [constructor; [exact Hx|constructor]|].
  rewrite (Qle_bool_Qeq x' x y' y Hx Hy). destruct (Qle_bool x' y').
  - constructor; [exact Hx|]. constructor; assumption.
  - constructor; assumption.
Qed.
Lemma sort_q_qeqs l l' : qeqs l l' -> qeqs (sort_q l) (sort_q l').
Proof. unfold sort_q. induction 1; cbn [fold_right]; [constructor|]. apply insert_q_qeqs; assumption. Qed.

Lemma cnt_lev_pos l x : (1 <= cnt (lev x) l)%nat -> exists z, In z l /\ z <= x.
Proof.
  unfold cnt. intros H. destruct (filter (lev x) l) as [|z t] eqn:E; [simpl in H; lia|].
  assert (Hz : In z (filter (lev x) l)) by (rewrite E; left; reflexivity).
  apply filter_In in Hz. exists z. split; [apply Hz|]. apply Qle_bool_iff. apply Hz.
Qed.
(* two ascending lists with the same number of elements below every bound agree position by position *)
Lemma sorted_cnt_qeqs : forall s s', StronglySorted Qle s -> StronglySorted Qle s' ->
  (forall x, cnt (lev x) s = cnt (lev x) s') -> qeqs s s'.
Proof.
  induction s as [|x t IH]; intros s' Hs Hs' Hc.
  - destruct s' as [|y t']; [constructor|]. exfalso. specialize (Hc y). rewrite cnt_cons, lev_refl in Hc. cbn in Hc. lia.
  - destruct s' as [|y t'].
    { exfalso. specialize (Hc x). rewrite cnt_cons, lev_refl in Hc. cbn in Hc. lia. }
    inversion Hs as [|? ? Hst Hxa]; subst. inversion Hs' as [|? ? Hst' Hya]; subst.
    assert (Hhead : forall a l b l', Forall (Qle b) l' -> cnt (lev a) (a :: l) = cnt (lev a) (b :: l') -> b <= a).
    { intros a l b l' Hb Hcc. destruct (cnt_lev_pos (b :: l') a) as (z & Hz & Hlz).
      - rewrite <- Hcc, cnt_cons, lev_refl. lia.
      - destruct Hz as [<-|Hz]; [exact Hlz|]. rewrite Forall_forall in Hb. specialize (Hb z Hz). lra. }
    assert (Exy : x == y).
    { apply Qle_antisym; [apply (Hhead y t' x t Hxa); symmetry; apply Hc|apply (Hhead x t y t' Hya), Hc]. }
    constructor; [exact Exy|]. apply IH; try assumption. intros z. specialize (Hc z). rewrite !cnt_cons in Hc.
    unfold lev in Hc at 1 3. rewrite (Qle_bool_Qeq y x z z Exy (Qeq_refl z)) in Hc. lia.
Qed.

(* multisets of rationals up to ==: equal counts below every bound *)
Definition meq (l l' : list Q) : Prop := forall x, cnt (lev x) l = cnt (lev x) l'.
Lemma meq_sort l l' : meq l l' -> qeqs (sort_q l) (sort_q l').
Proof. intros H. apply sorted_cnt_qeqs; try apply sort_q_sorted. intros x. rewrite !cnt_sort. apply H. Qed.

Lemma insert_q_perm x l : Permutation (insert_q x l) (x :: l).
Proof.
  induction l as [|y t IH]; cbn [insert_q]; [apply Permutation_refl|]. destruct (Qle_bool x y); [apply Permutation_refl|].
  eapply Permutation_trans; [apply perm_skip, IH|apply perm_swap].
Qed.
Lemma sort_q_perm l : Permutation (sort_q l) l.
Proof.
  unfold sort_q. induction l as [|x l IH]; cbn [fold_right]; [constructor|].
  eapply Permutation_trans; [apply insert_q_perm|apply perm_skip, IH].
Qed.

Lemma meq_sum l l' : meq l l' -> fold_left Qplus l 0 == fold_left Qplus l' 0.
Proof.
  intros H. rewrite <- (fold_Qplus_perm _ _ (sort_q_perm l) 0), <- (fold_Qplus_perm _ _ (sort_q_perm l') 0).
  apply qeqs_sum; [apply meq_sort, H|reflexivity].
Qed.
Lemma meq_length l l' : meq l l' -> length l = length l'.
Proof. intros H. rewrite <- (sort_q_length l), <- (sort_q_length l'). apply (F2_length Qeq), meq_sort, H. Qed.

Lemma fold_min_spec l : forall m, let r := fold_left (fun m y => if Qle_bool y m then y else m) l m in
  (r = m \/ In r l) /\ r <= m /\ (forall z, In z l -> r <= z).
Proof.
  induction l as [|y l IH]; intros m; cbn [fold_left]; cbv zeta.
  - split; [left; reflexivity|]. split; [apply Qle_refl|intros z []].
  - destruct (IH (if Qle_bool y m then y else m)) as (H1 & H2 & H3). cbv zeta in H1, H2, H3.
    set (m1 := if Qle_bool y m then y else m) in *.
    assert (Hm : m1 <= m /\ m1 <= y /\ (m1 = m \/ m1 = y)).
    { unfold m1. destruct (Qle_bool y m) eqn:E.
      - apply Qle_bool_iff in E. split; [exact E|]. split; [apply Qle_refl|right; reflexivity].
      - split; [apply Qle_refl|]. split; [|left; reflexivity].
        destruct (Qlt_le_dec m y) as [H|H]; [apply Qlt_le_weak, H|]. apply Qle_bool_iff in H. congruence. }
    destruct Hm as (Hm1 & Hm2 & Hm3). split; [|split].
    + destruct H1 as [H1|H1]; [|right; right; exact H1]. destruct Hm3 as [Hm3|Hm3]; [left; congruence|right; left; congruence].
    + lra.
    + intros z [<-|Hz]; [lra|apply H3, Hz].
Qed.
Lemma list_min_spec l m : list_min l = Some m -> In m l /\ forall z, In z l -> m <= z.
Proof.
  destruct l as [|x t]; [discriminate|]. cbn [list_min]. intros [= <-].
  destruct (fold_min_spec t x) as (H1 & H2 & H3). cbv zeta in H1, H2, H3. split.
  - destruct H1 as [->|H1]; [left; reflexivity|right; exact H1].
  - intros z [<-|Hz]; [exact H2|apply H3, Hz].
Qed.
Lemma meq_min l l' : meq l l' ->
  match list_min l, list_min l' with Some m, Some m' => m == m' | None, None => True | _, _ => False end.
Proof.
  intros H. pose proof (meq_length l l' H) as Hl.
  destruct (list_min l) as [m|] eqn:E, (list_min l') as [m'|] eqn:E'.
  - destruct (list_min_spec l m E) as [I1 L1]. destruct (list_min_spec l' m' E') as [I2 L2].
    assert (T : forall a b (la lb : list Q), meq la lb -> In a la -> (forall z, In z lb -> b <= z) -> b <= a).
    { intros a b la lb Hab Ia Lb. destruct (cnt_lev_pos lb a) as (z & Hz & Hza).
      - rewrite <- (Hab a). unfold cnt.
        assert (Hin : In a (filter (lev a) la)) by (apply filter_In; split; [exact Ia|apply lev_refl]).
        destruct (filter (lev a) la); [destruct Hin|simpl; lia].
      - specialize (Lb z Hz). lra. }
    apply Qle_antisym; [apply (T m' m l' l); [intros x; symmetry; apply H|exact I2|exact L1]|apply (T m m' l l' H I1 L2)].
  - destruct l' as [|? ?]; [|discriminate]. destruct l; [discriminate|discriminate].
  - destruct l as [|? ?]; [|discriminate]. destruct l'; [discriminate|discriminate].
  - exact I.
Qed.

Fixpoint cs_wf (d : cscores) : Prop := match d with [] => True | (s, _) :: t => cs_get t s = None /\ cs_wf t end.
Definition cs_eq (d d' : cscores) : Prop := forall s, cs_get d s = cs_get d' s.
Definition cse (d d' : cscores) : Prop := cs_wf d /\ cs_wf d' /\ cs_eq d d'.

Lemma Qeq_bool_l a b c : Qeq_bool a b = true -> Qeq_bool a c = Qeq_bool b c.
Proof. intros H. apply Qeq_bool_Qeq; [apply Qeq_bool_eq, H|reflexivity]. Qed.
Lemma cs_get_key d s s' : s == s' -> cs_get d s = cs_get d s'.
Proof.
  intros H. induction d as [|[k n] d IH]; [reflexivity|]. cbn [cs_get].
  rewrite (Qeq_bool_Qeq s' s k k H (Qeq_refl k)), IH. reflexivity.
Qed.
Lemma cs_get_set d s n u : cs_get (cs_set d s n) u = if Qeq_bool u s then Some n else cs_get d u.
Proof.
  induction d as [|[k m] d IH]; cbn [cs_set cs_get]; [reflexivity|].
  destruct (Qeq_bool s k) eqn:Esk; cbn [cs_get].
  - rewrite (Qeq_bool_comm u s), (Qeq_bool_l s k u Esk), (Qeq_bool_comm k u). destruct (Qeq_bool u k); reflexivity.
  - rewrite IH. destruct (Qeq_bool u k) eqn:Euk; [|reflexivity]. rewrite (Qeq_bool_l u k s Euk), (Qeq_bool_comm k s), Esk. reflexivity.
Qed.
Lemma cs_get_del d s u : cs_get (cs_del d s) u = if Qeq_bool u s then None else cs_get d u.
Proof.
  unfold cs_del. induction d as [|[k m] d IH]; cbn [filter cs_get fst]; [destruct (Qeq_bool u s); reflexivity|].
  destruct (Qeq_bool s k) eqn:Esk; cbn [negb cs_get]; rewrite IH.
  - destruct (Qeq_bool u s) eqn:Eus; [reflexivity|]. rewrite (Qeq_bool_comm u k), <- (Qeq_bool_l s k u Esk), (Qeq_bool_comm s u), Eus. reflexivity.
  - destruct (Qeq_bool u k) eqn:Euk; [|reflexivity]. rewrite (Qeq_bool_l u k s Euk), (Qeq_bool_comm k s), Esk. reflexivity.
Qed.
Lemma cs_wf_set d s n : cs_wf d -> cs_wf (cs_set d s n).
Proof.
  induction d as [|[k m] d IH]; cbn [cs_set cs_wf]; [intros _; split; [reflexivity|exact I]|].
  intros [Hk Hd]. destruct (Qeq_bool s k) eqn:E; cbn [cs_wf]; [split; assumption|].
  split; [|apply IH, Hd]. rewrite cs_get_set, (Qeq_bool_comm k s), E. exact Hk.
Qed.
Lemma cs_wf_del d s : cs_wf d -> cs_wf (cs_del d s).
Proof.
  unfold cs_del. induction d as [|[k m] d IH]; cbn [filter cs_wf fst]; [auto|]. intros [Hk Hd].
  destruct (Qeq_bool s k); cbn [negb cs_wf]; [apply IH, Hd|]. split; [|apply IH, Hd].
  fold (cs_del d s). rewrite cs_get_del. destruct (Qeq_bool k s); [reflexivity|exact Hk].
Qed.

Lemma cse_refl d : cs_wf d -> cse d d.
Proof. intros H. split; [exact H|]. split; [exact H|]. intros s. reflexivity. Qed.
Lemma cse_set d d' s s' n : cse d d' -> s == s' -> cse (cs_set d s n) (cs_set d' s' n).
Proof.
  intros (W & W' & E) Hs. split; [apply cs_wf_set, W|]. split; [apply cs_wf_set, W'|]. intros u.
  rewrite !cs_get_set, (Qeq_bool_Qeq u u s' s (Qeq_refl u) Hs), E. reflexivity.
Qed.
Lemma cse_del d d' s s' : cse d d' -> s == s' -> cse (cs_del d s) (cs_del d' s').
Proof.
  intros (W & W' & E) Hs. split; [apply cs_wf_del, W|]. split; [apply cs_wf_del, W'|]. intros u.
  rewrite !cs_get_del, (Qeq_bool_Qeq u u s' s (Qeq_refl u) Hs), E. reflexivity.
Qed.

(* weighted sums over the entries: functions of the lookups *)
Definition gsum (w : Q -> Z -> Z) (d : cscores) : Z := fold_right (fun sn acc => (w (fst sn) (snd sn) + acc)%Z) 0%Z d.

Lemma gsum_del w d s n : (forall a b k, a == b -> w a k = w b k) -> cs_wf d -> cs_get d s = Some n ->
  gsum w d = (w s n + gsum w (cs_del d s))%Z.
Proof.
  intros Hw. unfold cs_del. induction d as [|[k m] d IH]; [discriminate|]. cbn [cs_wf cs_get filter fst gsum fold_right snd].
  intros [Hk Hd].
  destruct (Qeq_bool s k) eqn:E.
  - intros [= ->]. apply Qeq_bool_iff in E. assert (E' : Qeq_bool k s = true) by (apply Qeq_bool_iff; symmetry; exact E).
    cbn [negb]. rewrite (Hw s k n E). f_equal.
    (* nothing else is removed *)
    assert (Hn : forall e : cscores, cs_get e k = None -> filter (fun sn : Q * Z => negb (Qeq_bool s (fst sn))) e = e).
    { induction e as [|[k2 m2] e IHe]; [reflexivity|]. cbn [cs_get filter fst].
      destruct (Qeq_bool k k2) eqn:E2; [discriminate|]. intros He.
      assert (E3 : Qeq_bool s k2 = false) by (rewrite (Qeq_bool_Qeq k s k2 k2 E (Qeq_refl k2)); exact E2).
      rewrite E3. cbn [negb]. f_equal. apply IHe, He. }
    rewrite (Hn d Hk). reflexivity.
  - intros Hg. cbn [negb gsum fold_right fst snd]. fold (gsum w d). rewrite (IH Hd Hg). unfold gsum. lia.
Qed.

Lemma Qeq_bool_sym_eq a b : Qeq_bool a b = Qeq_bool b a.
Proof. apply Qeq_bool_comm. Qed.

Lemma gsum_eq w : (forall a b k, a == b -> w a k = w b k) -> forall d d', cse d d' -> gsum w d = gsum w d'.
Proof.
  intros Hw. induction d as [|[s n] t IH]; intros d' (W & W' & E).
  - destruct d' as [|[s' n'] t']; [reflexivity|]. specialize (E s'). cbn [cs_get] in E. rewrite Qeq_bool_refl in E. discriminate.
  - cbn [cs_wf] in W. destruct W as [Hs Wt].
    assert (Hg : cs_get d' s = Some n) by (rewrite <- E; cbn [cs_get]; rewrite Qeq_bool_refl; reflexivity).
    rewrite (gsum_del w d' s n Hw W' Hg). cbn [gsum fold_right fst snd]. fold (gsum w t). f_equal.
    apply IH. split; [exact Wt|]. split; [apply cs_wf_del, W'|]. intros u. rewrite cs_get_del.
    destruct (Qeq_bool u s) eqn:Eu.
    + apply Qeq_bool_iff in Eu. rewrite (cs_get_key t u s Eu). exact Hs.
    + rewrite <- E. cbn [cs_get]. rewrite Eu. reflexivity.
Qed.

Lemma cs_total_gsum d : cs_total d = gsum (fun _ n => n) d.
Proof.
  unfold cs_total, gsum. induction d as [|[s n] d IH]; [reflexivity|]. cbn [map fold_left fold_right fst snd].
  rewrite fold_add_shift, IH. lia.
Qed.
Lemma cse_total d d' : cse d d' -> cs_total d = cs_total d'.
Proof. intros H. rewrite !cs_total_gsum. apply gsum_eq; [reflexivity|exact H]. Qed.

Lemma cnt_expand_gsum x d : Z.of_nat (cnt (lev x) (expand d)) = gsum (fun s n => if Qle_bool s x then Z.of_nat (Z.to_nat n) else 0%Z) d.
Proof.
  unfold expand. induction d as [|[s n] d IH]; [reflexivity|]. cbn [flat_map gsum fold_right fst snd].
  rewrite cnt_app, Nat2Z.inj_add, IH, cnt_repeat. unfold lev. destruct (Qle_bool s x); reflexivity.
Qed.
Lemma cse_expand d d' : cse d d' -> meq (expand d) (expand d').
Proof.
  intros H x. apply Nat2Z.inj. rewrite !cnt_expand_gsum. apply gsum_eq; [|exact H].
  intros a b k Hab. rewrite (Qle_bool_Qeq b a x x Hab (Qeq_refl x)). reflexivity.
Qed.
Lemma cnt_keys_gsum x (d : cscores) : Z.of_nat (cnt (lev x) (map fst d)) = gsum (fun s _ => if Qle_bool s x then 1%Z else 0%Z) d.
Proof.
  induction d as [|[s n] d IH]; [reflexivity|]. cbn [map gsum fold_right fst snd]. rewrite cnt_cons, Nat2Z.inj_add, IH.
  unfold lev. destruct (Qle_bool s x); reflexivity.
Qed.
Lemma cse_keys d d' : cse d d' -> meq (map fst d) (map fst d').
Proof.
  intros H x. apply Nat2Z.inj. rewrite !cnt_keys_gsum. apply gsum_eq; [|exact H].
  intros a b k Hab. rewrite (Qle_bool_Qeq b a x x Hab (Qeq_refl x)). reflexivity.
Qed.

Definition orel {X} (R : X -> X -> Prop) (a b : X + serr) : Prop :=
  match a, b with inl x, inl y => R x y | inr e, inr e' => e = e' | _, _ => False end.

Lemma subtract_lowest_resp keys keys' : qeqs keys keys' -> forall d d' cutoff cut, cse d d' ->
  match subtract_lowest d keys cutoff cut, subtract_lowest d' keys' cutoff cut with
  | Some r, Some r' => cse r r' | _, _ => False end.
Proof.
  induction 1 as [|s s' t t' Hs _ IH]; intros d d' cutoff cut H; cbn [subtract_lowest]; [exact H|].
  destruct H as (W & W' & E).
  assert (Eg : cs_get d' s' = cs_get d s) by (rewrite <- (E s'); symmetry; apply cs_get_key, Hs). rewrite Eg.
  destruct (cs_get d s) as [n|]; [|apply IH; split; [exact W|split; [exact W'|exact E]]].
  destruct (n <=? cutoff - cut)%Z.
  - apply IH. apply cse_del; [split; [exact W|split; [exact W'|exact E]]|exact Hs].
  - apply cse_set; [split; [exact W|split; [exact W'|exact E]]|exact Hs].
Qed.

(* correct_scores in two stages: the unscored ballots are credited, then the extremes are cut *)
Definition fill_unscored (cf : score_cfg) (d : cscores) (nv : Z) : cscores + serr :=
  match sc_unscored cf with
  | UNone => inl d
  | UConst v => inl (cs_set d v (nv - cs_total d + match cs_get d v with Some n => n | None => 0 end)%Z)
  | UMin => match list_min (expand d) with
            | Some v => inl (cs_set d v (nv - cs_total d + match cs_get d v with Some n => n | None => 0 end)%Z)
            | None => inr SE_value
            end
  end.
Definition truncate (d : cscores) (cutoff : Z) : cscores + serr :=
  match subtract_lowest d (sort_q (map fst d)) cutoff 0 with
  | None => inr SE_key
  | Some d2 => match subtract_lowest d2 (rev (sort_q (map fst d))) cutoff 0 with None => inr SE_key | Some d3 => inl d3 end
  end.

Lemma correct_scores_stages cf d nv : correct_scores cf d nv =
  if (cs_total d <? sc_min_count cf)%Z then inl [(sc_bottom cf, sc_min_count cf)] else
  match fill_unscored cf d nv with
  | inr e => inr e
  | inl d1 => if Qle_bool (sc_trunc cf) 0 then inl d1 else
              truncate d1 (if Qle_bool 1 (sc_trunc cf) then Qfloor (sc_trunc cf)
                           else Qfloor (inject_Z (if (nv =? 0)%Z then cs_total d else nv) * sc_trunc cf))
  end.
Proof. reflexivity. Qed.

Lemma fill_unscored_resp cf d d' nv : cse d d' -> orel cse (fill_unscored cf d nv) (fill_unscored cf d' nv).
Proof.
  intros H. unfold fill_unscored. rewrite <- (cse_total d d' H). destruct (sc_unscored cf) as [|v|].
  - exact H.
  - cbn [orel]. rewrite <- (proj2 (proj2 H) v). apply cse_set; [exact H|reflexivity].
  - pose proof (meq_min _ _ (cse_expand d d' H)) as Hm.
    destruct (list_min (expand d)) as [v|], (list_min (expand d')) as [v'|]; try contradiction; [|reflexivity].
    cbn [orel]. rewrite <- (proj2 (proj2 H) v'), <- (cs_get_key d v v' Hm). apply cse_set; [exact H|exact Hm].
Qed.

Lemma truncate_resp d d' cutoff : cse d d' -> orel cse (truncate d cutoff) (truncate d' cutoff).
Proof.
  intros H. unfold truncate. pose proof (meq_sort _ _ (cse_keys d d' H)) as Hk.
  pose proof (subtract_lowest_resp _ _ Hk d d' cutoff 0%Z H) as H2.
  destruct (subtract_lowest d (sort_q (map fst d)) cutoff 0) as [d2|], (subtract_lowest d' (sort_q (map fst d')) cutoff 0) as [d2'|]; try contradiction.
  pose proof (subtract_lowest_resp _ _ (Forall2_rev _ _ _ Hk) d2 d2' cutoff 0%Z H2) as H3.
  destruct (subtract_lowest d2 (rev (sort_q (map fst d))) cutoff 0) as [d3|], (subtract_lowest d2' (rev (sort_q (map fst d'))) cutoff 0) as [d3'|]; try contradiction.
  exact H3.
Qed.

Lemma truncate_ok d cutoff e : truncate d cutoff <> inr e.
Proof.
  unfold truncate. destruct (subtract_lowest_some d (sort_q (map fst d)) cutoff 0%Z) as (d2 & ->).
  destruct (subtract_lowest_some d2 (rev (sort_q (map fst d))) cutoff 0%Z) as (d3 & ->). discriminate.
Qed.

Lemma correct_scores_resp cf d d' nv : cse d d' -> orel cse (correct_scores cf d nv) (correct_scores cf d' nv).
Proof.
  intros H. rewrite !correct_scores_stages, <- (cse_total d d' H).
  destruct (cs_total d <? sc_min_count cf)%Z.
  { cbn [orel]. apply cse_refl. cbn [cs_wf cs_get]. auto. }
  pose proof (fill_unscored_resp cf d d' nv H) as H1.
  destruct (fill_unscored cf d nv) as [d1|e], (fill_unscored cf d' nv) as [d1'|e']; cbn [orel] in H1; try contradiction; [|exact H1].
  destruct (Qle_bool (sc_trunc cf) 0); [exact H1|]. apply truncate_resp, H1.
Qed.

Lemma aggregate_one_resp fn d d' : cse d d' -> orel Qeq (aggregate_one fn d) (aggregate_one fn d').
Proof.
  intros H. pose proof (cse_expand d d' H) as Hm. pose proof (meq_length _ _ Hm) as Hl. unfold aggregate_one. cbv zeta.
  destruct fn.
  - destruct (expand d) as [|x l] eqn:E, (expand d') as [|x' l'] eqn:E'; try discriminate; [reflexivity|].
    cbn [orel]. rewrite !Qred_correct, (meq_sum _ _ Hm), Hl. reflexivity.
  - cbn [orel]. rewrite !Qred_correct. apply meq_sum, Hm.
  - destruct (expand d) as [|x l] eqn:E, (expand d') as [|x' l'] eqn:E'; try discriminate; [reflexivity|].
    cbn [orel]. rewrite !sort_q_length, Hl. apply qeqs_nth, meq_sort, Hm.
Qed.

Definition instr : Type := (C * Q * Z)%type.
Definition look (D : list (C * cscores)) (c : C) : cscores := match dget D c with Some x => x | None => [] end.
Definition sstep (D : list (C * cscores)) (i : instr) : list (C * cscores) :=
  let old := look D (fst (fst i)) in
  dset D (fst (fst i)) (cs_set old (snd (fst i)) (match cs_get old (snd (fst i)) with Some k => k | None => 0%Z end + snd i)).
Definition instrs (votes : sprofile) : list instr :=
  flat_map (fun bn : sballot * Z => map (fun cs : C * Q => (fst cs, snd cs, snd bn)) (fst bn)) votes.

Lemma raw_scores_instrs votes : raw_scores votes = fold_left sstep (instrs votes) [].
Proof.
  unfold raw_scores, instrs.
  match goal with |- fold_left ?F votes [] = _ =>
    enough (G : forall D, fold_left F votes D = fold_left sstep (flat_map (fun bn : sballot * Z => map (fun cs : C * Q => (fst cs, snd cs, snd bn)) (fst bn)) votes) D) by apply G end.
  induction votes as [|[b k] votes IH]; intros D; [reflexivity|].
  cbn [fold_left flat_map fst snd]. rewrite fold_left_app, IH. f_equal.
  clear IH. revert D. induction b as [|[c s] b IHb]; intros D; [reflexivity|]. cbn [fold_left map fst snd]. rewrite IHb. reflexivity.
Qed.

Lemma dset_keys_eq {X} (d : list (C * X)) k v : map fst (dset d k v) = if dmem d k then map fst d else map fst d ++ [k].
Proof.
  unfold dmem. induction d as [|[k0 v0] d IH]; cbn [dset dget map fst]; [reflexivity|].
  destruct (ceqb k k0) eqn:E; cbn [map fst]; [reflexivity|]. rewrite IH. destruct (dget d k); reflexivity.
Qed.
Lemma dmem_In {X} (d : list (C * X)) k : dmem d k = true <-> In k (map fst d).
Proof.
  unfold dmem. induction d as [|[k0 v0] d IH]; cbn [dget map fst]; [split; [discriminate|intros []]|].
  destruct (ceqb k k0) eqn:E.
  - apply ceqb_eq in E. subst. split; [intros _; left; reflexivity|reflexivity].
  - rewrite IH. split; [intros H; right; exact H|intros [H|H]; [subst; rewrite ceqb_refl in E; discriminate|exact H]].
Qed.

Definition g (D : list (C * cscores)) (c : C) (u : Q) : option Z := cs_get (look D c) u.
Definition odf (o : option Z) : Z := match o with Some k => k | None => 0%Z end.
Definition owf (D : list (C * cscores)) : Prop := NoDup (map fst D) /\ forall c, cs_wf (look D c).

Lemma look_sstep D i c : look (sstep D i) c =
  if ceqb c (fst (fst i)) then cs_set (look D (fst (fst i))) (snd (fst i)) (odf (g D (fst (fst i)) (snd (fst i))) + snd i)%Z else look D c.
Proof. unfold sstep, look at 1. cbv zeta. rewrite dget_dset. destruct (ceqb c (fst (fst i))); reflexivity. Qed.

Lemma g_sstep D i c u : g (sstep D i) c u =
  if ceqb c (fst (fst i)) && Qeq_bool u (snd (fst i)) then Some (odf (g D c u) + snd i)%Z else g D c u.
Proof.
  unfold g at 1. rewrite look_sstep. destruct (ceqb c (fst (fst i))) eqn:E; cbn [andb]; [|reflexivity].
  apply ceqb_eq in E. subst c. rewrite cs_get_set. destruct (Qeq_bool u (snd (fst i))) eqn:E2; [|reflexivity].
  apply Qeq_bool_iff in E2. unfold g. rewrite (cs_get_key _ u _ E2). reflexivity.
Qed.
Lemma dmem_sstep D i c : dmem (sstep D i) c = ceqb c (fst (fst i)) || dmem D c.
Proof. unfold sstep. cbv zeta. unfold dmem. rewrite dget_dset. destruct (ceqb c (fst (fst i))); reflexivity. Qed.
Lemma owf_sstep D i : owf D -> owf (sstep D i).
Proof.
  intros [N W]. split; [apply dset_nodup, N|]. intros c. rewrite look_sstep.
  destruct (ceqb c (fst (fst i))); [apply cs_wf_set, W|apply W].
Qed.
Lemma owf_fold l : forall D, owf D -> owf (fold_left sstep l D).
Proof. induction l as [|i l IH]; intros D H; [exact H|]. apply IH, owf_sstep, H. Qed.

Definition hits (c : C) (u : Q) (i : instr) : bool := ceqb c (fst (fst i)) && Qeq_bool u (snd (fst i)).
Definition tally (c : C) (u : Q) (l : list instr) : Z := fold_right (fun i acc => ((if hits c u i then snd i else 0) + acc)%Z) 0%Z l.

Lemma tally_none c u l : existsb (hits c u) l = false -> tally c u l = 0%Z.
Proof.
  induction l as [|i l IH]; [reflexivity|]. cbn [existsb tally fold_right]. fold (tally c u l).
  destruct (hits c u i); [discriminate|]. intros H. rewrite (IH H). reflexivity.
Qed.
Lemma g_fold c u l : forall D, g (fold_left sstep l D) c u =
  if existsb (hits c u) l then Some (odf (g D c u) + tally c u l)%Z else g D c u.
Proof.
  induction l as [|i l IH]; intros D; [reflexivity|]. cbn [fold_left existsb tally fold_right]. fold (tally c u l).
  rewrite IH, g_sstep. fold (hits c u i). destruct (hits c u i) eqn:Hi, (existsb (hits c u) l) eqn:Hl; cbn [orb odf].
  - apply f_equal. lia.
  - rewrite (tally_none c u l Hl). apply f_equal. lia.
  - apply f_equal. lia.
  - reflexivity.
Qed.
Lemma dmem_fold c l : forall D, dmem (fold_left sstep l D) c = existsb (fun i : instr => ceqb c (fst (fst i))) l || dmem D c.
Proof.
  induction l as [|i l IH]; intros D; [reflexivity|]. cbn [fold_left existsb]. rewrite IH, dmem_sstep.
  destruct (ceqb c (fst (fst i))), (existsb _ l); reflexivity.
Qed.

Lemma existsb_perm {A} (p : A -> bool) l l' : Permutation l l' -> existsb p l = existsb p l'.
Proof.
  induction 1 as [|x l l' _ IH|x y l|l l' l'' _ IH1 _ IH2]; cbn [existsb]; [reflexivity|rewrite IH; reflexivity| |congruence].
  destruct (p x), (p y); reflexivity.
Qed.
Lemma tally_perm c u l l' : Permutation l l' -> tally c u l = tally c u l'.
Proof.
  unfold tally. induction 1 as [|x l l' _ IH|x y l|l l' l'' _ IH1 _ IH2]; cbn [fold_right]; [reflexivity|rewrite IH; reflexivity|lia|congruence].
Qed.

(* dictionaries keyed by candidates, compared entry by entry through a relation on the values *)
Definition orelD {X} (RV : X -> X -> Prop) (D D' : list (C * X)) : Prop :=
  NoDup (map fst D) /\ NoDup (map fst D') /\
  forall c, match dget D c, dget D' c with Some x, Some y => RV x y | None, None => True | _, _ => False end.

Lemma raw_scores_order votes votes' : Permutation votes votes' -> orelD cse (raw_scores votes) (raw_scores votes').
Proof.
  intros H. rewrite !raw_scores_instrs.
  assert (Hp : Permutation (instrs votes) (instrs votes')) by (unfold instrs; apply Permutation_flat_map, H).
  assert (W0 : owf []) by (split; [constructor|intros c; exact I]).
  pose proof (owf_fold (instrs votes) [] W0) as [N W]. pose proof (owf_fold (instrs votes') [] W0) as [N' W'].
  split; [exact N|]. split; [exact N'|]. intros c.
  pose proof (dmem_fold c (instrs votes) []) as M. pose proof (dmem_fold c (instrs votes') []) as M'.
  rewrite (existsb_perm _ _ _ Hp) in M. rewrite <- M' in M. clear M'.
  specialize (W c). specialize (W' c).
  assert (E : cs_eq (look (fold_left sstep (instrs votes) []) c) (look (fold_left sstep (instrs votes') []) c)).
  { intros u. change (g (fold_left sstep (instrs votes) []) c u = g (fold_left sstep (instrs votes') []) c u).
    rewrite !g_fold, (existsb_perm _ _ _ Hp), (tally_perm c u _ _ Hp). reflexivity. }
  unfold dmem in M. unfold look in W, W', E.
  destruct (dget (fold_left sstep (instrs votes) []) c), (dget (fold_left sstep (instrs votes') []) c); try discriminate; [|exact I].
  split; [exact W|]. split; [exact W'|exact E].
Qed.

Lemma dget_map_vals {X Y} (F : X -> Y) (D : list (C * X)) c :
  dget (map (fun cd : C * X => (fst cd, F (snd cd))) D) c = option_map F (dget D c).
Proof. induction D as [|[k x] D IH]; cbn [map dget fst snd]; [reflexivity|]. destruct (ceqb c k); [reflexivity|exact IH]. Qed.
Lemma keys_map_vals {X Y} (F : X -> Y) (D : list (C * X)) : map fst (map (fun cd : C * X => (fst cd, F (snd cd))) D) = map fst D.
Proof. rewrite map_map. reflexivity. Qed.

Lemma orelD_map {X Y} (RV : X -> X -> Prop) (RW : Y -> Y -> Prop) (F : X -> Y) D D' :
  (forall x y, RV x y -> RW (F x) (F y)) -> orelD RV D D' ->
  orelD RW (map (fun cd : C * X => (fst cd, F (snd cd))) D) (map (fun cd : C * X => (fst cd, F (snd cd))) D').
Proof.
  intros HF (N & N' & E). split; [rewrite keys_map_vals; exact N|]. split; [rewrite keys_map_vals; exact N'|].
  intros c. rewrite !dget_map_vals. specialize (E c). destruct (dget D c), (dget D' c); cbn [option_map]; try contradiction; [apply HF, E|exact I].
Qed.

Lemma sequence_inl {X} (l : list (C * (X + serr))) r : sequence l = inl r -> l = map (fun cy : C * X => (fst cy, inl (snd cy))) r.
Proof.
  revert r. induction l as [|[c [y|e]] l IH]; intros r; cbn [sequence]; [intros [= <-]; reflexivity| |discriminate].
  destruct (sequence l) as [r0|e0]; [|discriminate]. intros [= <-]. cbn [map fst snd]. f_equal. apply IH. reflexivity.
Qed.
Lemma sequence_inr {X} (l : list (C * (X + serr))) e : sequence l = inr e -> exists c, In (c, inr e) l.
Proof.
  induction l as [|[c [y|e1]] l IH]; cbn [sequence]; [discriminate| |].
  - destruct (sequence l) as [r0|e0]; [discriminate|]. intros [= <-]. destruct (IH eq_refl) as (c0 & H). exists c0. right. exact H.
  - intros [= <-]. exists c. left. reflexivity.
Qed.

Lemma sequence_rel {X} (RV : X -> X -> Prop) (e0 : serr) (L L' : list (C * (X + serr))) :
  orelD (orel RV) L L' -> (forall c e, In (c, inr e) L -> e = e0) -> (forall c e, In (c, inr e) L' -> e = e0) ->
  orel (orelD RV) (sequence L) (sequence L').
Proof.
  intros (N & N' & E) He He'.
  destruct (sequence L) as [r|e] eqn:S, (sequence L') as [r'|e'] eqn:S'; cbn [orel].
  - apply sequence_inl in S. apply sequence_inl in S'. subst L L'.
    rewrite (keys_map_vals (@inl X serr)) in N, N'. split; [exact N|]. split; [exact N'|]. intros c. specialize (E c).
    rewrite !(dget_map_vals (@inl X serr)) in E. destruct (dget r c), (dget r' c); cbn [option_map orel] in E; try contradiction; exact E.
  - exfalso. destruct (sequence_inr _ _ S') as (c & Hc). pose proof (In_dget L' c _ N' Hc) as G'.
    apply sequence_inl in S. subst L. specialize (E c). rewrite G', (dget_map_vals (@inl X serr)) in E.
    destruct (dget r c); cbn [option_map orel] in E; contradiction.
  - exfalso. destruct (sequence_inr _ _ S) as (c & Hc). pose proof (In_dget L c _ N Hc) as G.
    apply sequence_inl in S'. subst L'. specialize (E c). rewrite G, (dget_map_vals (@inl X serr)) in E.
    destruct (dget r' c); cbn [option_map orel] in E; contradiction.
  - destruct (sequence_inr _ _ S) as (c & Hc). destruct (sequence_inr _ _ S') as (c' & Hc').
    rewrite (He c e Hc), (He' c' e' Hc'). reflexivity.
Qed.

Lemma correct_scores_err cf d nv e : correct_scores cf d nv = inr e -> e = SE_value.
Proof.
  rewrite correct_scores_stages. destruct (cs_total d <? sc_min_count cf)%Z; [discriminate|].
  destruct (fill_unscored cf d nv) as [d1|e0] eqn:E1.
  - destruct (Qle_bool (sc_trunc cf) 0); [discriminate|]. intros H. destruct (truncate_ok _ _ _ H).
  - intros [= <-]. revert E1. unfold fill_unscored. destruct (sc_unscored cf); try discriminate.
    destruct (list_min (expand d)); [discriminate|]. intros [= <-]. reflexivity.
Qed.
Definition agg_err (fn : aggfn) : serr := match fn with FMean => SE_zerodiv | FSum => SE_value | FMedianLow => SE_stats end.
Lemma aggregate_one_err fn d e : aggregate_one fn d = inr e -> e = agg_err fn.
Proof.
  unfold aggregate_one. cbv zeta. destruct fn; [| discriminate |]; destruct (expand d); try discriminate; intros [= <-]; reflexivity.
Qed.

Lemma zadd_fold_perm l l' : Permutation l l' -> forall a, fold_left Z.add l a = fold_left Z.add l' a.
Proof.
  induction 1 as [|x l l' _ IH|x y l|l l' l'' _ IH1 _ IH2]; intros a; simpl; [reflexivity|apply IH| |rewrite IH1; apply IH2].
  f_equal. lia.
Qed.

(* a value-wise step that may fail, always with the same error, applied to two related dictionaries *)
Lemma sequence_map_rel {X Y} (RV : X -> X -> Prop) (RW : Y -> Y -> Prop) (F : X -> Y + serr) (e0 : serr) D D' :
  (forall x y, RV x y -> orel RW (F x) (F y)) -> (forall x e, F x = inr e -> e = e0) -> orelD RV D D' ->
  orel (orelD RW) (sequence (map (fun cd : C * X => (fst cd, F (snd cd))) D)) (sequence (map (fun cd : C * X => (fst cd, F (snd cd))) D')).
Proof.
  intros HF He H.
  assert (Herr : forall E c e, In (c, inr e) (map (fun cd : C * X => (fst cd, F (snd cd))) E) -> e = e0).
  { intros E c e Hi. apply in_map_iff in Hi. destruct Hi as (cd & [= _ Hi] & _). exact (He _ _ Hi). }
  apply (sequence_rel RW e0); [apply (orelD_map RV (orel RW) F), H; exact HF|apply Herr|apply Herr].
Qed.

Theorem corrected_scores_order cf votes votes' : Permutation votes votes' ->
  orel (orelD cse) (corrected_scores cf votes) (corrected_scores cf votes').
Proof.
  intros H. unfold corrected_scores. cbv zeta. rewrite <- (zadd_fold_perm _ _ (Permutation_map snd H) 0%Z).
  apply (sequence_map_rel cse cse (fun d => correct_scores cf d _) SE_value); [|intros x e; apply correct_scores_err|apply raw_scores_order, H].
  intros x y Hxy. apply correct_scores_resp, Hxy.
Qed.

Lemma aggregate_resp fn sc sc' : orelD cse sc sc' -> orel (orelD Qeq) (aggregate fn sc) (aggregate fn sc').
Proof.
  apply (sequence_map_rel cse Qeq (aggregate_one fn) (agg_err fn)); [|apply aggregate_one_err].
  intros x y Hxy. apply aggregate_one_resp, Hxy.
Qed.

(* the aggregated scores: the same error, or the same candidates with == scores (the dictionary in another order) *)
Theorem score_to_simple_order cf votes votes' : Permutation votes votes' ->
  orel (orelD Qeq) (score_to_simple cf votes) (score_to_simple cf votes').
Proof.
  intros H. unfold score_to_simple. pose proof (corrected_scores_order cf votes votes' H) as Hc.
  destruct (corrected_scores cf votes) as [sc|e], (corrected_scores cf votes') as [sc'|e']; cbn [orel] in Hc; try contradiction; [|exact Hc].
  apply aggregate_resp, Hc.
Qed.

From VL Require Import Proofs.Order_proofs Proofs.GnbSim_proofs Proofs.CondorcetOrder_proofs
     Proofs.ApprovalOrder_proofs.

Lemma gnbq_equiv (d d' : list (C * Q)) n : NoDup (map fst d) -> Permutation d d' ->
  res_equiv (get_n_best Qle_bool d n) (get_n_best Qle_bool d' n).
Proof.
  intros Hn Hp. split; [|intros c; apply gnb_perm_all; assumption].
  eapply Forall2_impl; [|apply (gnb_sim Qle_bool Qle_bool_total Qle_bool_trans d d' n Hp)]. intros [a|T] [b|T']; simpl; tauto.
Qed.

Lemma orelD_keys {X} (RV : X -> X -> Prop) (D D' : list (C * X)) : orelD RV D D' -> forall c, In c (map fst D) <-> In c (map fst D').
Proof.
  intros (_ & _ & E) c. rewrite <- !dmem_In. unfold dmem. specialize (E c). destruct (dget D c), (dget D' c); try contradiction; tauto.
Qed.
Lemma orelD_get_or (d d' : list (C * Q)) : orelD Qeq d d' -> forall c, dget_or d c 0 == dget_or d' c 0.
Proof.
  intros (_ & _ & E) c. unfold dget_or. specialize (E c). destruct (dget d c), (dget d' c); try contradiction; [exact E|reflexivity].
Qed.

(* dictionaries with == values, reduced to lowest terms, are permutations of each other *)
Lemma orelD_nrm_perm (d d' : list (C * Q)) : orelD Qeq d d' -> Permutation (nrm d) (nrm d').
Proof. intros H. apply nrm_perm; [apply H|apply H|apply (orelD_keys _ _ _ H)|apply orelD_get_or, H]. Qed.

Lemma gnb_orelD (d d' : list (C * Q)) n : orelD Qeq d d' -> res_equiv (get_n_best Qle_bool d n) (get_n_best Qle_bool d' n).
Proof.
  intros H. rewrite <- (gnb_nrm d n), <- (gnb_nrm d' n). apply gnbq_equiv; [rewrite nrm_keys; exact (proj1 H)|apply orelD_nrm_perm, H].
Qed.

Theorem score_voting_order cf votes votes' n : Permutation votes votes' ->
  orel res_equiv (score_voting cf votes n) (score_voting cf votes' n).
Proof.
  intros H. unfold score_voting. pose proof (score_to_simple_order cf votes votes' H) as Hs.
  destruct (score_to_simple cf votes) as [a|e], (score_to_simple cf votes') as [a'|e']; cbn [orel] in Hs; try contradiction; [|exact Hs].
  cbn [orel]. apply gnb_orelD, Hs.
Qed.
