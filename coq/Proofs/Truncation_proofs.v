(* ScoreToSimpleVotes corrections (Model/Cardinal.v correct_scores) against their definition, by counting:
   - min_count: a candidate with fewer scores gets min_count copies of bottom_value;
   - unscored_value: (number of voters - number of scores) copies of the value are added;
   - truncation: _subtract_lowest over the ascending keys removes exactly the c lowest scores, over the descending
     keys exactly the c highest of what is left (c = the cut-off), all of them when there are not more than c.
   "Exactly the c lowest" is stated through counts: for EVERY threshold t the number of scores <= t drops by
   min(c, that number); likewise for the scores >= t in the second sweep. *)
From Coq Require Import ZArith QArith Qround List Bool Arith Lia Lqa Sorting.Sorted Permutation.
From VL Require Import Prelude.PyDict Model.GetNBest Model.Convert Model.Cardinal Proofs.Scale2Dup_proofs Proofs.Dict_proofs Proofs.QOrd Proofs.MJ_proofs
     Proofs.MJ_removal_proofs Proofs.ScoreDict_proofs.
Import ListNotations.
Open Scope Z_scope.

Definition gev (v y : Q) : bool := Qle_bool v y.             (* v <= y *)

(* the keys of a score dictionary are compared as numbers (Qeq_bool) *)
Lemma cs_get_key d s n : cs_get d s = Some n -> exists s', In (s', n) d /\ (s == s')%Q.
Proof.
  induction d as [|[x k] t IH]; cbn [cs_get]; [discriminate|]. destruct (Qeq_bool s x) eqn:E.
  - intros [= <-]. exists x. split; [left; reflexivity|apply Qeq_bool_iff, E].
  - intros H. destruct (IH H) as (s' & Hin & He). exists s'. split; [right; exact Hin|exact He].
Qed.

Lemma cs_get_none d s : cs_get d s = None -> forall sn, In sn d -> ~ (s == fst sn)%Q.
Proof.
  induction d as [|[x k] t IH]; cbn [cs_get]; [intros _ ? []|]. destruct (Qeq_bool s x) eqn:E; [discriminate|].
  intros H sn [<-|Hin]; [cbn [fst]; intros He; apply Qeq_bool_iff in He; congruence|apply IH; assumption].
Qed.

Lemma cs_set_compat d s s' y n : (s == s')%Q -> cs_get d s = Some n -> cs_set d s y = cs_set d s' y.
Proof.
  intros H. induction d as [|[x k] t IH]; cbn [cs_set cs_get]; [discriminate|].
  rewrite <- (Qeqb_comp s s' H x x (Qeq_refl x)). destruct (Qeq_bool s x); [reflexivity|]. intros Hg. rewrite (IH Hg). reflexivity.
Qed.

Lemma cs_del_compat d s s' : (s == s')%Q -> cs_del d s = cs_del d s'.
Proof. intros H. unfold cs_del. apply filter_ext. intros sn. rewrite (Qeqb_comp s s' H _ _ (Qeq_refl _)). reflexivity. Qed.

Lemma wcnt_none_all p d : (forall sn, In sn d -> p (fst sn) = false) -> wcnt p d = 0%nat.
Proof.
  induction d as [|sn d IH]; intros H; [reflexivity|]. rewrite wcnt_cons, (H sn (or_introl eq_refl)), IH; [reflexivity|].
  intros sn' Hin. apply H. right. exact Hin.
Qed.

Lemma wcnt_del p d s' n : cs_distinct d -> In (s', n) d ->
  (wcnt p (cs_del d s') + (if p s' then Z.to_nat n else 0) = wcnt p d)%nat.
Proof.
  induction d as [|[x k] t IH]; intros Hd Hin; [destruct Hin|]. cbn [cs_distinct fst] in Hd. destruct Hd as (Hhead & Ht).
  unfold cs_del. cbn [filter fst]. destruct Hin as [H|H].
  - injection H as -> ->. rewrite Qeq_bool_refl. cbn [negb].
    rewrite filter_all_true; [rewrite wcnt_cons; cbn [fst snd]; lia|].
    intros sn Hsn. apply negb_true_iff. destruct (Qeq_bool s' (fst sn)) eqn:E2; [|reflexivity].
    apply Qeq_bool_iff in E2. exfalso. apply (Hhead _ Hsn). symmetry. exact E2.
  - assert (E : Qeq_bool s' x = false).
    { destruct (Qeq_bool s' x) eqn:E2; [|reflexivity]. apply Qeq_bool_iff in E2. exfalso. apply (Hhead _ H). cbn [fst]. exact E2. }
    rewrite E. cbn [negb]. rewrite !wcnt_cons. cbn [fst snd]. fold (cs_del t s'). pose proof (IH Ht H). lia.
Qed.

Lemma cs_del_keys d s sn : In sn (cs_del d s) -> In sn d /\ ~ (s == fst sn)%Q.
Proof.
  unfold cs_del. intros H. apply filter_In in H. destruct H as (H1 & H2). split; [exact H1|].
  intros He. apply Qeq_bool_iff in He. rewrite He in H2. discriminate.
Qed.

(* one sweep of _subtract_lowest *)
Section Sweep.
  Variable inb : Q -> Q -> bool.               (* inb t s: the grade s is counted for the threshold t *)
  Hypothesis inb_compat : forall t x y, (x == y)%Q -> inb t x = inb t y.
  (* s is swept no later than s' *)
  Definition before (s s' : Q) : Prop := forall t, inb t s' = true -> inb t s = true.
  Definition covered (d : cscores) (keys : list Q) : Prop := forall sn, In sn d -> exists k, In k keys /\ (fst sn == k)%Q.

  Lemma sweep : forall keys d cutoff cut d',
    StronglySorted before keys -> cs_okd d -> covered d keys -> cut <= cutoff ->
    subtract_lowest d keys cutoff cut = Some d' ->
    cs_okd d' /\ (forall sn, In sn d' -> In (fst sn) (map fst d)) /\
    forall t, Z.of_nat (wcnt (inb t) d') = Z.max 0 (Z.of_nat (wcnt (inb t) d) - (cutoff - cut)).
  Proof.
    induction keys as [|s rest IH]; intros d cutoff cut d' Hs Hd Hcov Hcut; cbn [subtract_lowest].
    - intros [= <-]. split; [exact Hd|]. split; [intros sn Hsn; apply in_map, Hsn|].
      intros t. destruct d as [|sn d]; [cbn; lia|]. destruct (Hcov sn (or_introl eq_refl)) as (k & [] & _).
    - inversion Hs as [|? ? Hrest Hall]; subst. rewrite Forall_forall in Hall.
      (* a threshold the head key does not count for counts nothing at all *)
      assert (Hzero : forall t, inb t s = false -> wcnt (inb t) d = 0%nat).
      { intros t Ht. apply wcnt_none_all. intros sn Hsn. destruct (Hcov sn Hsn) as (k & [<-|Hk] & He).
        - rewrite (inb_compat t _ _ He). exact Ht.
        - rewrite (inb_compat t _ _ He). destruct (inb t k) eqn:Ek; [|reflexivity]. rewrite (Hall k Hk t Ek) in Ht. discriminate. }
      destruct (cs_get d s) as [n|] eqn:Eg.
      + destruct (cs_get_key d s n Eg) as (s' & Hin & Hss').
        pose proof (cs_get_nonneg d s n (proj1 Hd) Eg) as Hn0.
        destruct (n <=? cutoff - cut) eqn:En.
        * apply Z.leb_le in En. intros Hr.
          assert (Hcov' : covered (cs_del d s) rest).
          { intros sn Hsn. apply cs_del_keys in Hsn. destruct Hsn as (Hsn & Hne). destruct (Hcov sn Hsn) as (k & [<-|Hk] & He).
            - exfalso. apply Hne. symmetry. exact He.
            - exists k. split; assumption. }
          destruct (IH (cs_del d s) cutoff (cut + n) d' Hrest (cs_del_okd d s Hd) Hcov' ltac:(lia) Hr) as (Hok & Hkeys & Hcnt).
          split; [exact Hok|]. split.
          { intros sn Hsn. specialize (Hkeys sn Hsn). apply in_map_iff in Hkeys. destruct Hkeys as (sn0 & Hf & Hsn0).
            apply cs_del_keys in Hsn0. rewrite <- Hf. apply in_map, Hsn0. }
          intros t. rewrite (Hcnt t). pose proof (wcnt_del (inb t) d s' n (proj2 Hd) Hin) as Hdel.
          rewrite (cs_del_compat d s s' Hss'). rewrite <- (inb_compat t s s' Hss') in Hdel.
          destruct (inb t s) eqn:Et.
          -- lia.
          -- pose proof (Hzero t Et) as Hz. lia.
        * apply Z.leb_gt in En. intros [= <-].
          rewrite (cs_set_compat d s s' _ n Hss' Eg).
          destruct (cs_set_existing (fun _ => true) d s' n (n - (cutoff - cut)) (proj2 Hd) Hin) as (_ & _ & Hkeys & _).
          split; [apply cs_set_okd; [exact Hd|lia]|]. split.
          { intros sn Hsn. rewrite <- Hkeys. apply in_map, Hsn. }
          intros t. destruct (cs_set_existing (inb t) d s' n (n - (cutoff - cut)) (proj2 Hd) Hin) as (_ & Hc & _).
          rewrite <- (inb_compat t s s' Hss') in Hc. destruct (inb t s) eqn:Et.
          -- lia.
          -- pose proof (Hzero t Et) as Hz. lia.
      + (* a key of an earlier sweep that is gone: nothing to do *)
        intros Hr.
        assert (Hcov' : covered d rest).
        { intros sn Hsn. destruct (Hcov sn Hsn) as (k & [<-|Hk] & He).
          - exfalso. apply (cs_get_none d s Eg sn Hsn). symmetry. exact He.
          - exists k. split; assumption. }
        exact (IH d cutoff cut d' Hrest Hd Hcov' Hcut Hr).
  Qed.
End Sweep.

Lemma lev_compat t x y : (x == y)%Q -> lev t x = lev t y.
Proof. intros H. apply Qleb_comp; [exact H|reflexivity]. Qed.
Lemma gev_compat t x y : (x == y)%Q -> gev t x = gev t y.
Proof. intros H. apply Qleb_comp; [reflexivity|exact H]. Qed.

Lemma sorted_mono {X} (R R' : X -> X -> Prop) l : (forall a b, R a b -> R' a b) -> StronglySorted R l -> StronglySorted R' l.
Proof.
  intros H. induction 1 as [|x l Hs IH Hall]; constructor; [exact IH|]. eapply Forall_impl; [|exact Hall]. intros a. apply H.
Qed.

Lemma sorted_rev {X} (R : X -> X -> Prop) l : StronglySorted R l -> StronglySorted (fun a b => R b a) (rev l).
Proof.
  induction 1 as [|x l Hs IH Hall]; [constructor|]. cbn [rev].
  assert (Happ : forall a b : list X, StronglySorted (fun a b => R b a) a -> StronglySorted (fun a b => R b a) b ->
            (forall u v, In u a -> In v b -> R v u) -> StronglySorted (fun a b => R b a) (a ++ b)).
  { induction a as [|u a IHa]; intros b Ha Hb Hab; [exact Hb|]. cbn [app]. inversion Ha as [|? ? Ha' Hu]; subst. constructor.
    - apply IHa; [exact Ha'|exact Hb|]. intros u' v Hu' Hv. apply Hab; [right; exact Hu'|exact Hv].
    - apply Forall_forall. intros z Hz. apply in_app_or in Hz. destruct Hz as [Hz|Hz].
      + rewrite Forall_forall in Hu. apply Hu, Hz.
      + apply Hab; [left; reflexivity|exact Hz]. }
  apply Happ; [exact IH|constructor; [constructor|constructor]|].
  intros u v Hu [<-|[]]. rewrite Forall_forall in Hall. apply Hall. apply in_rev. exact Hu.
Qed.

Lemma sorted_any {X} (l : list X) : StronglySorted (fun _ _ => True) l.
Proof. induction l as [|x l IH]; constructor; [exact IH|]. apply Forall_forall. intros; exact I. Qed.

(* the test that counts everything puts no condition on the order of the sweep *)
Lemma sorted_before_all l : StronglySorted (before (fun _ _ : Q => true)) l.
Proof. apply (sorted_mono (fun _ _ => True)); [|apply sorted_any]. intros a b _ t Ht. exact Ht. Qed.

(* the two sweeps of the truncation with cut-off c >= 0 on a well-formed dictionary, for every way of counting that the
   order of the keys respects: no KeyError, and each sweep takes min(c, count) away *)
Lemma two_sweeps d c : cs_okd d -> 0 <= c ->
  let keys := sort_q (map fst d) in
  exists d2 d3, subtract_lowest d keys c 0 = Some d2 /\ subtract_lowest d2 (rev keys) c 0 = Some d3 /\
    cs_okd d2 /\ cs_okd d3 /\
    (forall inb, (forall t x y, (x == y)%Q -> inb t x = inb t y) -> StronglySorted (before inb) keys ->
       forall t, Z.of_nat (wcnt (inb t) d2) = Z.max 0 (Z.of_nat (wcnt (inb t) d) - c)) /\
    (forall inb, (forall t x y, (x == y)%Q -> inb t x = inb t y) -> StronglySorted (before inb) (rev keys) ->
       forall t, Z.of_nat (wcnt (inb t) d3) = Z.max 0 (Z.of_nat (wcnt (inb t) d2) - c)).
Proof.
  intros Hd Hc keys.
  destruct (subtract_lowest_some d keys c 0) as (d2 & E2). destruct (subtract_lowest_some d2 (rev keys) c 0) as (d3 & E3).
  exists d2, d3. split; [exact E2|]. split; [exact E3|].
  assert (Hcov : covered d keys).
  { intros sn Hsn. exists (fst sn). split; [apply sort_q_In, in_map, Hsn|reflexivity]. }
  (* the keys left after the first sweep are keys of d: the sweep with the test that counts everything *)
  destruct (sweep (fun _ _ => true) (fun _ _ _ _ => eq_refl) keys d c 0 d2 (sorted_before_all keys) Hd Hcov Hc E2) as (Hd2 & Hk2 & _).
  assert (Hcov2 : covered d2 (rev keys)).
  { intros sn Hsn. exists (fst sn). split; [|reflexivity]. apply in_rev. rewrite rev_involutive. apply sort_q_In, Hk2, Hsn. }
  split; [exact Hd2|]. split; [exact (subtract_lowest_okd _ _ _ _ _ Hd2 E3)|]. split.
  - intros inb Hcompat Hs t. destruct (sweep inb Hcompat keys d c 0 d2 Hs Hd Hcov Hc E2) as (_ & _ & H). rewrite (H t). f_equal. lia.
  - intros inb Hcompat Hs t. destruct (sweep inb Hcompat (rev keys) d2 c 0 d3 Hs Hd2 Hcov2 Hc E3) as (_ & _ & H). rewrite (H t). f_equal. lia.
Qed.

(* the first sweep (ascending keys) removes exactly the c lowest scores - for every t the number of scores <= t drops
   by min(c, that number) -, the second one (descending keys) exactly the c highest of the rest *)
Theorem truncation_spec d c : cs_okd d -> 0 <= c ->
  let keys := sort_q (map fst d) in
  exists d2 d3, subtract_lowest d keys c 0 = Some d2 /\ subtract_lowest d2 (rev keys) c 0 = Some d3 /\ cs_okd d3 /\
    (forall t, Z.of_nat (wcnt (lev t) d2) = Z.max 0 (Z.of_nat (wcnt (lev t) d) - c)) /\
    (forall t, Z.of_nat (wcnt (gev t) d3) = Z.max 0 (Z.of_nat (wcnt (gev t) d2) - c)).
Proof.
  intros Hd Hc keys. destruct (two_sweeps d c Hd Hc) as (d2 & d3 & E2 & E3 & _ & Hd3 & H2 & H3). fold keys in E2, E3, H2, H3.
  exists d2, d3. split; [exact E2|]. split; [exact E3|]. split; [exact Hd3|]. split.
  - apply (H2 lev lev_compat). apply (sorted_mono Qle); [|apply sort_q_sorted]. intros a b Hab t Ht. unfold lev in *.
    apply Qle_bool_iff in Ht. apply Qle_bool_iff. apply (Qle_trans _ b); assumption.
  - apply (H3 gev gev_compat). apply (sorted_mono (fun a b => Qle b a)); [|apply sorted_rev, sort_q_sorted]. intros a b Hab t Ht.
    unfold gev in *. apply Qle_bool_iff in Ht. apply Qle_bool_iff. apply (Qle_trans _ b); assumption.
Qed.

(* the clauses of correct_scores (Model/Cardinal.v) *)
Definition unscored_fill (cf : score_cfg) (d : cscores) (n_votes : Z) : cscores + serr :=
  match sc_unscored cf with
  | UNone => inl d
  | UConst v => inl (cs_set d v (n_votes - cs_total d + match cs_get d v with Some n => n | None => 0 end))
  | UMin => match list_min (expand d) with
            | Some v => inl (cs_set d v (n_votes - cs_total d + match cs_get d v with Some n => n | None => 0 end))
            | None => inr SE_value
            end
  end.
Definition trunc_cutoff (cf : score_cfg) (d : cscores) (n_votes : Z) : Z :=
  if Qle_bool 1 (sc_trunc cf) then Qfloor (sc_trunc cf)
  else Qfloor (inject_Z (if n_votes =? 0 then cs_total d else n_votes) * sc_trunc cf).

Lemma correct_scores_unfold cf d n_votes :
  correct_scores cf d n_votes =
  if cs_total d <? sc_min_count cf then inl [(sc_bottom cf, sc_min_count cf)] else
  match unscored_fill cf d n_votes with
  | inr e => inr e
  | inl d1 =>
      if Qle_bool (sc_trunc cf) 0 then inl d1 else
      match subtract_lowest d1 (sort_q (map fst d1)) (trunc_cutoff cf d n_votes) 0 with
      | None => inr SE_key
      | Some d2 => match subtract_lowest d2 (rev (sort_q (map fst d1))) (trunc_cutoff cf d n_votes) 0 with
                   | None => inr SE_key
                   | Some d3 => inl d3
                   end
      end
  end.
Proof. reflexivity. Qed.

Lemma unscored_fill_okd cf d n_votes d1 : cs_okd d -> (sc_unscored cf = UNone \/ cs_total d <= n_votes) ->
  unscored_fill cf d n_votes = inl d1 -> cs_okd d1.
Proof.
  intros Hd Hb. unfold unscored_fill.
  destruct (sc_unscored cf) as [|v|]; [intros [= <-]; exact Hd| |]; (destruct Hb as [Hb|Hb]; [discriminate|]).
  - intros [= <-]. apply fill_okd; assumption.
  - destruct (list_min (expand d)) as [v|]; [intros [= <-]; apply fill_okd; assumption|discriminate].
Qed.

Lemma trunc_cutoff_nonneg cf d n_votes : cs_okd d -> 0 <= n_votes -> Qle_bool (sc_trunc cf) 0 = false ->
  0 <= trunc_cutoff cf d n_votes.
Proof.
  intros Hd Hnv Ht.
  assert (Hpos : (0 < sc_trunc cf)%Q) by (apply Qnot_le_lt; intros H; apply Qle_bool_iff in H; congruence).
  assert (Hfl : forall x, (0 <= x)%Q -> 0 <= Qfloor x) by (intros x Hx; exact (Qfloor_resp_le 0 x Hx)).
  unfold trunc_cutoff. destruct (Qle_bool 1 (sc_trunc cf)); apply Hfl; [apply Qlt_le_weak, Hpos|].
  apply Qmult_le_0_compat; [|apply Qlt_le_weak, Hpos].
  pose proof (cs_total_nonneg d (proj1 Hd)) as Htot.
  destruct (n_votes =? 0); change 0%Q with (inject_Z 0); rewrite <- Zle_Qle; assumption.
Qed.

(* adding k copies of the grade v *)
Lemma cs_set_new d v y : cs_get d v = None -> cs_set d v y = d ++ [(v, y)].
Proof.
  induction d as [|[x k] t IH]; cbn [cs_get cs_set app]; [reflexivity|]. destruct (Qeq_bool v x); [discriminate|].
  intros H. rewrite (IH H). reflexivity.
Qed.

Lemma wcnt_app p a b : wcnt p (a ++ b) = (wcnt p a + wcnt p b)%nat.
Proof. induction a as [|sn a IH]; [reflexivity|]. cbn [app]. rewrite !wcnt_cons, IH. lia. Qed.

Lemma fill_counts p d v k : (forall x y, (x == y)%Q -> p x = p y) -> cs_okd d -> 0 <= k ->
  wcnt p (cs_set d v (k + match cs_get d v with Some n => n | None => 0 end)) = (wcnt p d + (if p v then Z.to_nat k else 0))%nat.
Proof.
  intros Hp Hd Hk. destruct (cs_get d v) as [n|] eqn:Eg.
  - destruct (cs_get_key d v n Eg) as (v' & Hin & Hvv'). pose proof (cs_get_nonneg d v n (proj1 Hd) Eg) as Hn.
    rewrite (cs_set_compat d v v' _ n Hvv' Eg).
    destruct (cs_set_existing p d v' n (k + n) (proj2 Hd) Hin) as (_ & Hc & _). rewrite <- (Hp v v' Hvv') in Hc.
    destruct (p v); [rewrite Z2Nat.inj_add in Hc by lia; lia|lia].
  - rewrite (cs_set_new d v _ Eg), wcnt_app, wcnt_cons. cbn [fst snd]. change (wcnt p []) with 0%nat. rewrite Z.add_0_r. destruct (p v); lia.
Qed.

(* the corrections of one candidate's scores, as defined: [d] its raw score counts, [n_votes] the number of voters *)
Theorem correct_scores_spec cf d n_votes : cs_okd d -> cs_total d <= n_votes ->
  (* min_count *)
  (cs_total d < sc_min_count cf -> correct_scores cf d n_votes = inl [(sc_bottom cf, sc_min_count cf)]) /\
  (sc_min_count cf <= cs_total d ->
     (* unscored_value: the voters that did not score the candidate give it the configured value (or its lowest score) *)
     (forall d1, unscored_fill cf d n_votes = inl d1 ->
        cs_okd d1 /\
        forall p, (forall x y, (x == y)%Q -> p x = p y) ->
          wcnt p d1 = (wcnt p d + match sc_unscored cf with
                                  | UNone => 0
                                  | UConst v => if p v then Z.to_nat (n_votes - cs_total d) else 0
                                  | UMin => match list_min (expand d) with
                                            | Some v => if p v then Z.to_nat (n_votes - cs_total d) else 0
                                            | None => 0
                                            end
                                  end)%nat) /\
     (* no truncation *)
     (Qle_bool (sc_trunc cf) 0 = true -> correct_scores cf d n_votes = unscored_fill cf d n_votes) /\
     (* truncation: the c lowest and then the c highest scores are dropped *)
     (Qle_bool (sc_trunc cf) 0 = false -> 0 <= n_votes ->
        forall d1, unscored_fill cf d n_votes = inl d1 ->
          let c := trunc_cutoff cf d n_votes in
          0 <= c /\
          exists d2 d3, correct_scores cf d n_votes = inl d3 /\ cs_okd d3 /\
            (forall t, Z.of_nat (wcnt (lev t) d2) = Z.max 0 (Z.of_nat (wcnt (lev t) d1) - c)) /\
            (forall t, Z.of_nat (wcnt (gev t) d3) = Z.max 0 (Z.of_nat (wcnt (gev t) d2) - c)))).
Proof.
  intros Hd Hle. rewrite correct_scores_unfold. split.
  - intros Hlt. apply Z.ltb_lt in Hlt. rewrite Hlt. reflexivity.
  - intros Hge. assert (Em : (cs_total d <? sc_min_count cf) = false) by (apply Z.ltb_ge; exact Hge). rewrite Em.
    assert (Hfill : forall d1, unscored_fill cf d n_votes = inl d1 -> cs_okd d1)
      by (intros d1; exact (unscored_fill_okd cf d n_votes d1 Hd (or_intror Hle))).
    split; [|split].
    + intros d1 H1. split; [apply Hfill, H1|]. intros p Hp. unfold unscored_fill in H1.
      destruct (sc_unscored cf) as [|v|].
      * injection H1 as <-. lia.
      * injection H1 as <-. apply fill_counts; [exact Hp|exact Hd|lia].
      * destruct (list_min (expand d)) as [v|]; [|discriminate]. injection H1 as <-. apply fill_counts; [exact Hp|exact Hd|lia].
    + intros Ht. destruct (unscored_fill cf d n_votes) as [d1|e]; [rewrite Ht|]; reflexivity.
    + intros Ht Hnv d1 H1. rewrite H1, Ht. cbv zeta.
      pose proof (trunc_cutoff_nonneg cf d n_votes Hd Hnv Ht) as Hc.
      split; [exact Hc|].
      pose proof (truncation_spec d1 (trunc_cutoff cf d n_votes) (Hfill d1 H1) Hc) as Hts. cbv zeta in Hts.
      destruct Hts as (d2 & d3 & E2 & E3 & Hd3 & Hc2 & Hc3).
      exists d2, d3. rewrite E2, E3. split; [reflexivity|]. split; [exact Hd3|split; assumption].
Qed.
