(* Ranked pairs (Model/Condorcet.v: reach, is_path, lock_pairs, build_ranking, ranked_pairs):
   - is_path decides reachability in the locked graph (the fuel S (length pairs) always suffices);
   - lock_pairs keeps the graph acyclic and decides every pair in order: a pair is locked unless the
     pairs locked before it already lead from its loser to its winner;
   - on a complete list of ordered pairs the locked relation is a strict total order of the candidates and
     build_ranking reads it off: the evaluator never refuses and nobody is dropped;
   - no pair is ever locked from outside into a set each of whose incoming pairs comes after its reverse
     (lock_no_edge_into_set); so none is locked against a Condorcet winner, who therefore heads the ranking. *)
From Coq Require Import ZArith List Bool Arith Lia Permutation Sorted.
From VL Require Import Prelude.PyDict Model.GetNBest Model.Condorcet Proofs.GetNBest_proofs Proofs.Dict_proofs
  Proofs.Condorcet_proofs Proofs.Smith_proofs Proofs.Minimax_proofs Proofs.Kemeny_proofs.
From VL Require Proofs.Threshold_proofs.
Import ListNotations.
Open Scope Z_scope.


Inductive path (l : list pair) : C -> C -> Prop :=
| path1 a b : In (a, b) l -> path l a b
| pathS a b c : In (a, b) l -> path l b c -> path l a c.

Lemma path_trans l a b c : path l a b -> path l b c -> path l a c.
Proof. induction 1 as [a b H|a b d H _ IH]; intros H'; [eapply pathS; eauto|eapply pathS; [exact H|apply IH, H']]. Qed.

Lemma path_snoc l a b c : path l a b -> In (b, c) l -> path l a c.
Proof. intros H H'. eapply path_trans; [exact H|apply path1, H']. Qed.

Lemma path_incl l l' a b : incl l l' -> path l a b -> path l' a b.
Proof. intros Hi. induction 1 as [a b H|a b d H _ IH]; [apply path1, Hi, H|eapply pathS; [apply Hi, H|exact IH]]. Qed.

Lemma path_last l a b : path l a b -> exists x, In (x, b) l.
Proof. induction 1 as [a b H|a b d H _ IH]; [exists a; exact H|exact IH]. Qed.

Lemma path_first l a b : path l a b -> exists x, In (a, x) l.
Proof. induction 1 as [a b H|a b d H _ IH]; exists b; exact H. Qed.

(* a path through l ++ [e] either avoids e or reaches fst e and leaves from snd e *)
Lemma path_add l (e : pair) x y : path (l ++ [e]) x y ->
  path l x y \/ ((x = fst e \/ path l x (fst e)) /\ (y = snd e \/ path l (snd e) y)).
Proof.
  induction 1 as [a b H|a b d H _ IH].
  - apply in_app_or in H. destruct H as [H|[E|[]]]; [left; apply path1, H|subst e; right; simpl; auto].
  - apply in_app_or in H. destruct H as [H|[E|[]]].
    + destruct IH as [IH|[[->|I1] I2]].
      * left. eapply pathS; eauto.
      * right. split; [right; apply path1, H|exact I2].
      * right. split; [right; eapply pathS; eauto|exact I2].
    + subst e. simpl in *. destruct IH as [IH|[_ I2]]; right; split; auto.
Qed.

Section REACH.
  Variable l : list pair.
  Variable src : C.
  Definition reachable (vis : list C) : Prop := forall x, In x vis -> x = src \/ path l src x.

  Lemma reach_pass_sound pairs : incl pairs l -> forall vis, reachable vis -> reachable (reach_pass pairs vis).
  Proof.
    induction pairs as [|[f t] r IH]; intros Hi vis Hv; simpl; [exact Hv|].
    assert (Hr : incl r l) by (intros x Hx; apply Hi; right; exact Hx).
    destruct (cmem f vis && negb (cmem t vis)) eqn:E; [|apply IH; assumption].
    apply IH; [exact Hr|]. intros x Hx. apply in_app_or in Hx. destruct Hx as [Hx|[<-|[]]]; [apply Hv, Hx|].
    apply andb_true_iff in E. destruct E as [E _]. apply cmem_In in E. right.
    assert (Hft : In (f, t) l) by (apply Hi; left; reflexivity).
    destruct (Hv f E) as [->|Hp]; [apply path1, Hft|eapply path_snoc; eauto].
  Qed.

  Lemma reach_sound fuel : forall vis, reachable vis -> reachable (reach fuel l vis).
  Proof.
    induction fuel as [|f IH]; intros vis Hv; simpl; [exact Hv|].
    destruct (Nat.eqb _ _); [exact Hv|]. apply IH. apply reach_pass_sound; [apply incl_refl|exact Hv].
  Qed.
End REACH.

Lemma reach_pass_incl pairs : forall vis, incl vis (reach_pass pairs vis).
Proof.
  induction pairs as [|[f t] r IH]; intros vis; simpl; [apply incl_refl|].
  destruct (cmem f vis && negb (cmem t vis)); [|apply IH].
  intros x Hx. apply IH. apply in_or_app. left. exact Hx.
Qed.

Lemma reach_pass_length pairs : forall vis, (length vis <= length (reach_pass pairs vis))%nat.
Proof.
  induction pairs as [|[f t] r IH]; intros vis; simpl; [lia|].
  destruct (cmem f vis && negb (cmem t vis)); [|apply IH].
  specialize (IH (vis ++ [t])). rewrite app_length in IH. simpl in IH. lia.
Qed.

(* a pass that adds nothing: the visited set is closed under the edges *)
Lemma reach_pass_fix pairs : forall vis, length (reach_pass pairs vis) = length vis ->
  forall f t, In (f, t) pairs -> In f vis -> In t vis.
Proof.
  induction pairs as [|[f0 t0] r IH]; intros vis Hl f t Hin Hf; [destruct Hin|]. simpl in Hl.
  destruct (cmem f0 vis && negb (cmem t0 vis)) eqn:E.
  - exfalso. pose proof (reach_pass_length r (vis ++ [t0])) as H. rewrite app_length in H. simpl in H. lia.
  - destruct Hin as [Hin|Hin]; [|apply (IH vis Hl f t Hin Hf)].
    injection Hin as -> ->. apply andb_false_iff in E. destruct E as [E|E].
    + apply cmem_false in E. contradiction.
    + apply negb_false_iff, cmem_In in E. exact E.
Qed.

(* a pass that adds something adds the target of an edge that was not visited *)
Lemma reach_pass_progress pairs : forall vis, length (reach_pass pairs vis) <> length vis ->
  exists f t, In (f, t) pairs /\ ~ In t vis /\ In t (reach_pass pairs vis).
Proof.
  induction pairs as [|[f0 t0] r IH]; intros vis Hl; simpl in *; [congruence|].
  destruct (cmem f0 vis && negb (cmem t0 vis)) eqn:E.
  - exists f0, t0. split; [left; reflexivity|]. apply andb_true_iff in E. destruct E as [_ E].
    apply negb_true_iff, cmem_false in E. split; [exact E|]. apply reach_pass_incl. apply in_or_app. right. left. reflexivity.
  - destruct (IH vis Hl) as (f & t & H1 & H2 & H3). exists f, t. split; [right; exact H1|]. split; assumption.
Qed.

Lemma filter_length_lt {X} (f g : X -> bool) (l : list X) :
  (forall x, g x = true -> f x = true) -> (exists x, In x l /\ f x = true /\ g x = false) ->
  (length (filter g l) < length (filter f l))%nat.
Proof.
  intros Himp (x & Hin & Hf & Hg).
  (* g selects from what f selects, and drops x there *)
  replace (filter g l) with (filter g (filter f l)).
  - apply (filter_length_drop g (filter f l) x); [apply filter_In; split; assumption|exact Hg].
  - clear -Himp. induction l as [|a t IH]; [reflexivity|]. cbn [filter]. destruct (f a) eqn:Ef.
    + cbn [filter]. rewrite IH. reflexivity.
    + destruct (g a) eqn:Eg; [rewrite (Himp a Eg) in Ef; discriminate|exact IH].
Qed.

Section REACHC.
  Variable l : list pair.
  Definition unvisited (vis : list C) : nat := length (filter (fun p : pair => negb (cmem (snd p) vis)) l).
  Definition closed (vis : list C) : Prop := forall f t, In (f, t) l -> In f vis -> In t vis.

  Lemma reach_incl fuel : forall vis, incl vis (reach fuel l vis).
  Proof.
    induction fuel as [|f IH]; intros vis; simpl; [apply incl_refl|].
    destruct (Nat.eqb _ _); [apply incl_refl|]. intros x Hx. apply IH, reach_pass_incl, Hx.
  Qed.

  Lemma reach_closed fuel : forall vis, (unvisited vis < fuel)%nat -> closed (reach fuel l vis).
  Proof.
    induction fuel as [|fuel IH]; intros vis Hm; [lia|]. simpl.
    destruct (Nat.eqb (length (reach_pass l vis)) (length vis)) eqn:E.
    - apply Nat.eqb_eq in E. intros f t. apply reach_pass_fix. exact E.
    - apply Nat.eqb_neq in E. apply IH.
      destruct (reach_pass_progress l vis E) as (f & t & H1 & H2 & H3).
      assert (unvisited (reach_pass l vis) < unvisited vis)%nat; [|lia].
      unfold unvisited. apply filter_length_lt.
      + intros [a b]. simpl. rewrite !negb_true_iff, !cmem_false. intros H H'. apply H. apply reach_pass_incl, H'.
      + exists (f, t). split; [exact H1|]. simpl. split; [apply negb_true_iff, cmem_false, H2|apply negb_false_iff, cmem_In, H3].
  Qed.

  Lemma unvisited_le vis : (unvisited vis <= length l)%nat.
  Proof. apply filter_len_le. Qed.

  Lemma closed_path vis : closed vis -> forall x y, path l x y -> In x vis -> In y vis.
  Proof.
    intros Hc x y H. induction H as [x y H|x y z H _ IH]; intros Hx; [eapply Hc; eauto|].
    apply IH. eapply Hc; eauto.
  Qed.

  Theorem is_path_iff a b : is_path l a b = true <-> a <> b /\ path l a b.
  Proof.
    unfold is_path. rewrite andb_true_iff, negb_true_iff, ceqb_neq, cmem_In.
    split; intros [H1 H2].
    - split; [exact H2|].
      assert (Hr : reachable l a [a]) by (intros x [<-|[]]; left; reflexivity).
      destruct (reach_sound l a (S (length l)) [a] Hr b H1) as [->|Hp]; [congruence|exact Hp].
    - split; [|exact H1].
      assert (Hc : closed (reach (S (length l)) l [a])) by (apply reach_closed; pose proof (unvisited_le [a]); lia).
      apply (closed_path _ Hc a b H2). apply reach_incl. left. reflexivity.
  Qed.
End REACHC.

Lemma is_path_false l a b : is_path l a b = false -> a <> b -> ~ path l a b.
Proof. intros E Hab Hp. rewrite (proj2 (is_path_iff l a b) (conj Hab Hp)) in E. discriminate. Qed.

Definition lock_step (locked : list pair) (p : pair) : list pair :=
  if is_path locked (snd p) (fst p) then locked else locked ++ [p].

Lemma lock_pairs_app l p : lock_pairs (l ++ [p]) = lock_step (lock_pairs l) p.
Proof. unfold lock_pairs. rewrite fold_left_app. reflexivity. Qed.

Lemma lock_step_incl L p : incl L (lock_step L p).
Proof. unfold lock_step. destruct (is_path _ _ _); [apply incl_refl|apply incl_appl, incl_refl]. Qed.

Lemma lock_fold_in l2 : forall acc x,
  (In x acc -> In x (fold_left lock_step l2 acc)) /\ (In x (fold_left lock_step l2 acc) -> In x acc \/ In x l2).
Proof.
  induction l2 as [|p t IH]; intros acc x; simpl; [tauto|]. destruct (IH (lock_step acc p) x) as [I1 I2]. split.
  - intros H. apply I1, lock_step_incl, H.
  - intros H. destruct (I2 H) as [H'|H']; [|tauto]. unfold lock_step in H'. destruct (is_path _ _ _); [tauto|].
    apply in_app_or in H'. simpl in H'. tauto.
Qed.

Lemma lock_incl pairs : incl (lock_pairs pairs) pairs.
Proof. intros x H. destruct (lock_fold_in pairs [] x) as [_ I]. destruct (I H) as [[]|H']. exact H'. Qed.

Definition acyclic (l : list pair) : Prop := forall x, ~ path l x x.

Section LOCK.
  Definition irrefl_pairs (pairs : list pair) : Prop := forall a b, In (a, b) pairs -> a <> b.

  Lemma irrefl_prefix l p : irrefl_pairs (l ++ [p]) -> irrefl_pairs l.
  Proof. intros H a b Hin. apply H. apply in_or_app. left. exact Hin. Qed.

  Lemma lock_acyclic pairs : irrefl_pairs pairs -> acyclic (lock_pairs pairs).
  Proof.
    induction pairs as [|[a b] l IH] using rev_ind; intros Hd.
    - intros x H. apply path_first in H. destruct H as (y & []).
    - specialize (IH (irrefl_prefix _ _ Hd)). rewrite lock_pairs_app. unfold lock_step. simpl.
      destruct (is_path (lock_pairs l) b a) eqn:E; [exact IH|].
      assert (Hab : a <> b) by (apply Hd; apply in_or_app; right; left; reflexivity).
      pose proof (is_path_false _ _ _ E (not_eq_sym Hab)) as Hnp.
      intros x Hx. apply path_add in Hx. simpl in Hx.
      destruct Hx as [Hx|[[->|H1] [H2|H2]]].
      + exact (IH x Hx).
      + exact (Hab H2).
      + exact (Hnp H2).
      + subst x. exact (Hnp H1).
      + apply Hnp. eapply path_trans; eauto.
  Qed.

  (* every pair is decided: locked, or contradicted by the pairs locked before it *)
  Lemma lock_decided pairs : forall a b, In (a, b) pairs ->
    In (a, b) (lock_pairs pairs) \/ path (lock_pairs pairs) b a.
  Proof.
    induction pairs as [|p l IH] using rev_ind; intros a b Hin; [destruct Hin|].
    rewrite lock_pairs_app. apply in_app_or in Hin. destruct Hin as [Hin|[->|[]]].
    - destruct (IH a b Hin) as [H|H]; [left; apply lock_step_incl, H|right].
      eapply path_incl; [apply lock_step_incl|exact H].
    - unfold lock_step. simpl. destruct (is_path (lock_pairs l) b a) eqn:E.
      + right. apply is_path_iff in E. tauto.
      + left. apply in_or_app. right. left. reflexivity.
  Qed.

  (* the defining computation of the lock-in: a pair is locked iff the pairs locked before it do not already
     lead from its loser to its winner *)
  Theorem lock_spec l1 a b l2 : a <> b -> ~ In (a, b) l1 -> ~ In (a, b) l2 ->
    (In (a, b) (lock_pairs (l1 ++ (a, b) :: l2)) <-> ~ path (lock_pairs l1) b a).
  Proof.
    intros Hab N1 N2. unfold lock_pairs. rewrite fold_left_app. simpl. fold (lock_pairs l1).
    change (fold_left _ l2 ?acc) with (fold_left lock_step l2 acc).
    change (if is_path (lock_pairs l1) b a then lock_pairs l1 else lock_pairs l1 ++ [(a, b)]) with (lock_step (lock_pairs l1) (a, b)).
    destruct (lock_fold_in l2 (lock_step (lock_pairs l1) (a, b)) (a, b)) as [I1 I2].
    assert (N1' : ~ In (a, b) (lock_pairs l1)) by (intros H; apply N1, lock_incl, H).
    unfold lock_step in *. simpl in *. destruct (is_path (lock_pairs l1) b a) eqn:E.
    - apply is_path_iff in E. split; [intros H; destruct (I2 H); contradiction|tauto].
    - split.
      + intros _. exact (is_path_false _ _ _ E (not_eq_sym Hab)).
      + intros _. apply I1. apply in_or_app. right. left. reflexivity.
  Qed.

  Section CROSS.
    Variable inD : C -> bool.

    (* a path from outside into the set has a crossing edge *)
    Lemma path_cross l a b : path l a b -> inD a = false -> inD b = true ->
      exists x y, In (x, y) l /\ inD x = false /\ inD y = true.
    Proof.
      induction 1 as [a b H|a m b H _ IH]; intros Ha Hb.
      - exists a, b. auto.
      - destruct (inD m) eqn:Em; [exists a, m; auto|apply IH; [reflexivity|assumption]].
    Qed.

    (* every pair (outsider, member) comes after its reverse *)
    Definition after_reverse_set (pairs : list pair) : Prop :=
      forall l1 x y l2, pairs = l1 ++ (x, y) :: l2 -> inD x = false -> inD y = true -> In (y, x) l1.

    Lemma lock_no_edge_into_set pairs : irrefl_pairs pairs -> after_reverse_set pairs ->
      forall x y, In (x, y) (lock_pairs pairs) -> inD x = false -> inD y = true -> False.
    Proof.
      induction pairs as [|[a b] l IH] using rev_ind; intros Hd Ho x y; [intros []|].
      assert (Ho' : after_reverse_set l).
      { intros l1 x' y' l2 E. apply (Ho l1 x' y' (l2 ++ [(a, b)])). rewrite E, <- app_assoc. reflexivity. }
      specialize (IH (irrefl_prefix _ _ Hd) Ho').
      rewrite lock_pairs_app. unfold lock_step. simpl. destruct (is_path (lock_pairs l) b a) eqn:E; [apply IH|].
      intros H Hx Hy. apply in_app_or in H. destruct H as [H|[H|[]]]; [exact (IH x y H Hx Hy)|]. injection H as -> ->.
      assert (Hxy : x <> y) by (apply Hd; apply in_or_app; right; left; reflexivity).
      assert (Hin : In (y, x) l) by (apply (Ho l x y []); [reflexivity|exact Hx|exact Hy]).
      assert (Hp : path (lock_pairs l) y x).
      { destruct (lock_decided l y x Hin) as [H|H]; [apply path1, H|].
        destruct (path_cross _ _ _ H Hx Hy) as (x' & y' & Hl & Hx' & Hy'). destruct (IH x' y' Hl Hx' Hy'). }
      assert (is_path (lock_pairs l) y x = true) by (apply is_path_iff; split; [congruence|exact Hp]). congruence.
    Qed.
  End CROSS.

  (* the set {c}: no pair is locked against c when every pair (y, c) comes after its reverse *)
  Definition after_reverse (c : C) (pairs : list pair) : Prop :=
    forall l1 y l2, pairs = l1 ++ (y, c) :: l2 -> In (c, y) l1.

  Lemma lock_no_edge_into c pairs : irrefl_pairs pairs -> after_reverse c pairs ->
    forall y, ~ In (y, c) (lock_pairs pairs).
  Proof.
    intros Hd Ho y H.
    apply (lock_no_edge_into_set (fun x => ceqb x c) pairs Hd) with (x := y) (y := c); [|exact H| |apply ceqb_refl].
    - intros l1 x z l2 E _ Hz. apply ceqb_eq in Hz. subst z. exact (Ho l1 x l2 E).
    - apply not_true_iff_false. intros E. apply ceqb_eq in E. subst y. exact (Hd c c (lock_incl _ _ H) eq_refl).
  Qed.

  Lemma lock_cw_edges c pairs : irrefl_pairs pairs -> after_reverse c pairs ->
    forall y, In (c, y) pairs -> In (c, y) (lock_pairs pairs).
  Proof.
    intros Hd Ho y Hin. destruct (lock_decided pairs c y Hin) as [H|H]; [exact H|].
    apply path_last in H. destruct H as (x & Hx). destruct (lock_no_edge_into c pairs Hd Ho x Hx).
  Qed.
End LOCK.

Section ORDER.
  Variable cs : list C.
  Variable pairs : list pair.
  Hypothesis Hin : forall a b, In (a, b) pairs <-> In a cs /\ In b cs /\ a <> b.
  Notation L := (lock_pairs pairs).

  Lemma pairs_irrefl : irrefl_pairs pairs.
  Proof. intros a b H. apply Hin in H. tauto. Qed.

  Lemma L_in a b : In (a, b) L -> In a cs /\ In b cs /\ a <> b.
  Proof. intros H. apply Hin, lock_incl, H. Qed.

  Lemma L_asym a b : In (a, b) L -> ~ In (b, a) L.
  Proof. intros H1 H2. apply (lock_acyclic pairs pairs_irrefl a). eapply pathS; [exact H1|apply path1, H2]. Qed.

  Lemma L_total a b : In a cs -> In b cs -> a <> b -> In (a, b) L \/ In (b, a) L.
  Proof.
    intros Ha Hb Hab.
    assert (H1 : In (a, b) pairs) by (apply Hin; tauto).
    assert (H2 : In (b, a) pairs) by (apply Hin; repeat split; auto).
    destruct (lock_decided pairs a b H1) as [H|P1]; [left; exact H|].
    destruct (lock_decided pairs b a H2) as [H|P2]; [right; exact H|].
    exfalso. apply (lock_acyclic pairs pairs_irrefl a). eapply path_trans; eauto.
  Qed.

  Lemma L_trans a b c : In (a, b) L -> In (b, c) L -> In (a, c) L.
  Proof.
    intros H1 H2. destruct (L_in _ _ H1) as (Ha & _ & _). destruct (L_in _ _ H2) as (_ & Hc & _).
    destruct (Pos.eq_dec a c) as [->|Hac]; [destruct (L_asym _ _ H1 H2)|].
    destruct (L_total a c Ha Hc Hac) as [H|H]; [exact H|exfalso].
    apply (lock_acyclic pairs pairs_irrefl a). eapply pathS; [exact H1|]. eapply pathS; [exact H2|]. apply path1, H.
  Qed.

  Lemma max_exists (M : list C) : M <> [] -> incl M cs ->
    exists w, In w M /\ forall x, In x M -> x <> w -> In (w, x) L.
  Proof.
    induction M as [|a M IH]; intros Hne Hi; [congruence|].
    destruct M as [|b t].
    - exists a. split; [left; reflexivity|]. intros x [<-|[]] H. congruence.
    - destruct IH as (w & Hw & Hmax); [discriminate|intros x Hx; apply Hi; right; exact Hx|].
      assert (Ha : In a cs) by (apply Hi; left; reflexivity).
      assert (Hwc : In w cs) by (apply Hi; right; exact Hw).
      destruct (Pos.eq_dec a w) as [->|Haw].
      + exists w. split; [left; reflexivity|]. intros x [<-|Hx] Hne'; [congruence|apply Hmax; assumption].
      + destruct (L_total a w Ha Hwc Haw) as [H|H].
        * exists a. split; [left; reflexivity|]. intros x [<-|Hx] Hne'; [congruence|].
          destruct (Pos.eq_dec x w) as [->|Hxw]; [exact H|]. eapply L_trans; [exact H|apply Hmax; assumption].
        * exists w. split; [right; exact Hw|]. intros x [<-|Hx] Hne'; [exact H|apply Hmax; assumption].
  Qed.

  Lemma dedup_c_In x l : In x (dedup_c l) <-> In x l.
  Proof.
    induction l as [|y t IH]; simpl; [tauto|]. destruct (cmem y t) eqn:E.
    - rewrite IH. apply cmem_In in E. split; [tauto|]. intros [<-|H]; assumption.
    - simpl. rewrite IH. tauto.
  Qed.
  Lemma dedup_c_NoDup l : NoDup (dedup_c l).
  Proof.
    induction l as [|y t IH]; simpl; [constructor|]. destruct (cmem y t) eqn:E; [exact IH|].
    constructor; [|exact IH]. rewrite dedup_c_In. apply cmem_false, E.
  Qed.

  Lemma build_ranking_step f e E R : build_ranking (S f) (e :: E) R =
    match filter (fun w => negb (cmem w (map snd (e :: E)))) (dedup_c (map fst (e :: E))) with
    | [w] => build_ranking f (filter (fun e' : pair => negb (ceqb (fst e') w)) (e :: E)) (R ++ [w])
    | _ => None
    end.
  Proof. reflexivity. Qed.

  Definition Rinv (R : list C) : Prop :=
    NoDup R /\ incl R cs /\ (forall r x, In r R -> In x cs -> ~ In x R -> In (r, x) L) /\
    StronglySorted (fun a b => In (a, b) L) R /\ exists x, In x cs /\ ~ In x R.

  Definition live (R : list C) : list pair := filter (fun e : pair => negb (cmem (fst e) R)) L.

  Lemma live_in R a b : In (a, b) (live R) <-> In (a, b) L /\ ~ In a R.
  Proof. unfold live. rewrite filter_In. simpl. rewrite negb_true_iff, cmem_false. tauto. Qed.

  Lemma live_snoc R w : filter (fun e' : pair => negb (ceqb (fst e') w)) (live R) = live (R ++ [w]).
  Proof.
    unfold live. induction L as [|e t IH]; simpl; [reflexivity|].
    assert (Hc : cmem (fst e) (R ++ [w]) = cmem (fst e) R || ceqb (fst e) w).
    { clear. induction R as [|r R IH]; simpl; [apply orb_false_r|]. rewrite IH. apply orb_assoc. }
    rewrite Hc. destruct (cmem (fst e) R); simpl; [exact IH|]. destruct (ceqb (fst e) w); simpl; [exact IH|].
    f_equal. exact IH.
  Qed.

  Lemma sorted_snoc {X} (rel : X -> X -> Prop) (R : list X) w :
    StronglySorted rel R -> (forall r, In r R -> rel r w) -> StronglySorted rel (R ++ [w]).
  Proof.
    induction 1 as [|a t Hs IH Hall]; intros Hw; simpl; [constructor; constructor|].
    constructor; [apply IH; intros r Hr; apply Hw; right; exact Hr|].
    apply Forall_app. split; [exact Hall|]. constructor; [apply Hw; left; reflexivity|constructor].
  Qed.

  (* w is not ranked yet and is locked over every other candidate that is not ranked yet *)
  Definition top (R : list C) (w : C) : Prop :=
    In w cs /\ ~ In w R /\ forall x, In x cs -> ~ In x R -> x <> w -> In (w, x) L.

  Lemma top_exists R a : In a cs -> ~ In a R -> exists w, top R w.
  Proof.
    intros Ha HaR. set (M := filter (fun x => negb (cmem x R)) cs).
    assert (HM : forall x, In x M <-> In x cs /\ ~ In x R).
    { intros x. unfold M. rewrite filter_In, negb_true_iff, cmem_false. reflexivity. }
    destruct (max_exists M) as (w & Hw & Hmax).
    - intros E. assert (H : In a M) by (apply HM; auto). rewrite E in H. destruct H.
    - intros x Hx. apply HM, Hx.
    - apply HM in Hw. exists w. split; [apply Hw|]. split; [apply Hw|]. intros x H1 H2. apply Hmax, HM. auto.
  Qed.

  (* the top candidate is the only source among the live edges *)
  Lemma live_source R w y : top R w -> In (w, y) (live R) ->
    filter (fun w => negb (cmem w (map snd (live R)))) (dedup_c (map fst (live R))) = [w].
  Proof.
    intros (Hwc & HwR & Hmax) Hy. apply filter_unique.
    - apply dedup_c_NoDup.
    - apply dedup_c_In, in_map_iff. exists (w, y). split; [reflexivity|exact Hy].
    - apply negb_true_iff, cmem_false. intros H. apply in_map_iff in H. destruct H as ([x w'] & Hf & Hx). cbn [snd] in Hf. subst w'.
      apply live_in in Hx. destruct Hx as [HxL HxR]. destruct (L_in _ _ HxL) as (Hxc & _ & Hxw).
      apply (L_asym _ _ HxL). apply Hmax; assumption.
    - intros w' Hw' Hnl. apply (proj1 (dedup_c_In _ _)) in Hw'. apply in_map_iff in Hw'. destruct Hw' as ([w'' y'] & Hf & Hy'). cbn [fst] in Hf. subst w''.
      apply live_in in Hy'. destruct Hy' as [HyL Hw'R]. destruct (L_in _ _ HyL) as (Hw'c & _ & _).
      destruct (Pos.eq_dec w' w) as [E|E]; [exact E|exfalso].
      apply negb_true_iff, cmem_false in Hnl. apply Hnl, in_map_iff. exists (w, w'). split; [reflexivity|].
      apply live_in. split; [apply Hmax; assumption|exact HwR].
  Qed.

  Lemma Rinv_snoc R w x : Rinv R -> top R w -> In x cs -> ~ In x R -> x <> w -> Rinv (R ++ [w]).
  Proof.
    intros (Rnd & Rin & Rtop & Rsort & _) (Hwc & HwR & Hmax) Hxc HxR Hxw.
    split; [apply (Permutation_NoDup (Permutation_cons_append R w)); constructor; assumption|].
    split; [intros z Hz; apply in_app_or in Hz; destruct Hz as [Hz|[<-|[]]]; [apply Rin, Hz|exact Hwc]|].
    split; [|split].
    - intros r z Hr Hzc Hz. assert (HzR : ~ In z R) by (intros H; apply Hz, in_or_app; left; exact H).
      apply in_app_or in Hr. destruct Hr as [Hr|[<-|[]]]; [apply Rtop; assumption|].
      apply Hmax; [exact Hzc|exact HzR|]. intros ->. apply Hz, in_or_app. right. left. reflexivity.
    - apply sorted_snoc; [exact Rsort|]. intros r Hr. apply Rtop; assumption.
    - exists x. split; [exact Hxc|]. intros H. apply in_app_or in H. destruct H as [H|[H|[]]]; [exact (HxR H)|exact (Hxw (eq_sym H))].
  Qed.

  Lemma build_ok : forall fuel R, Rinv R -> (length (live R) < fuel)%nat ->
    exists R', build_ranking fuel (live R) R = Some R' /\ Rinv R' /\ (forall a b, In (a, b) L -> In a R').
  Proof.
    induction fuel as [|f IH]; intros R HR Hlen; [lia|].
    destruct (live R) as [|[a b] E0] eqn:EL.
    - exists R. split; [reflexivity|]. split; [exact HR|]. intros a b Hab.
      destruct (in_dec Pos.eq_dec a R) as [H|H]; [exact H|exfalso].
      assert (Hl : In (a, b) (live R)) by (apply live_in; auto). rewrite EL in Hl. destruct Hl.
    - assert (Hab : In (a, b) (live R)) by (rewrite EL; left; reflexivity).
      apply live_in in Hab. destruct Hab as [HabL HaR]. destruct (L_in _ _ HabL) as (Hac & Hbc & Hneq).
      assert (HbR : ~ In b R) by (intros H; apply (L_asym _ _ HabL); apply HR; assumption).
      destruct (top_exists R a Hac HaR) as (w & Hw).
      (* w has a live edge, and one of a, b stays unranked after w *)
      assert (Hwy : exists y, In (w, y) (live R)).
      { destruct Hw as (_ & HwR & Hmax). destruct (Pos.eq_dec a w) as [<-|Haw]; [exists b|exists a]; apply live_in; auto. }
      destruct Hwy as (y & Hy).
      pose proof (live_source R w y Hw Hy) as Hsrc. rewrite EL in Hsrc. rewrite build_ranking_step, Hsrc, <- EL, live_snoc.
      apply IH.
      + destruct (Pos.eq_dec a w) as [Eaw|Eaw]; [apply (Rinv_snoc R w b)|apply (Rinv_snoc R w a)]; auto. congruence.
      + rewrite <- live_snoc. rewrite <- EL in Hlen.
        pose proof (filter_length_drop (fun e' : pair => negb (ceqb (fst e') w)) (live R) (w, y) Hy) as Hd.
        cbn [fst] in Hd. rewrite ceqb_refl in Hd. specialize (Hd eq_refl). lia.
  Qed.
End ORDER.

Lemma live_nil pairs : live pairs [] = lock_pairs pairs.
Proof. unfold live. induction (lock_pairs pairs) as [|e t IH]; simpl; [reflexivity|]. f_equal. exact IH. Qed.

Lemma sort_desc_by_perm {X} (key : X -> Z) l : Permutation (sort_desc_by key l) l.
Proof.
  unfold sort_desc_by.
  pose proof (sort_desc_perm zle_bool (map (fun x => (x, key x)) l)) as H.
  apply (Permutation_map fst) in H. rewrite map_map in H. simpl in H. rewrite map_id in H. exact H.
Qed.

Lemma sorted_ext {X} (R R' : X -> X -> Prop) l :
  StronglySorted R l -> (forall x y, In x l -> In y l -> R x y -> R' x y) -> StronglySorted R' l.
Proof.
  induction 1 as [|x t Hs IH Hall]; intros H; constructor.
  - apply IH. intros a b Ha Hb. apply H; right; assumption.
  - rewrite Forall_forall in *. intros y Hy. apply H; [left; reflexivity|right; exact Hy|apply Hall, Hy].
Qed.

Lemma sorted_map {X Y} (f : X -> Y) (R : Y -> Y -> Prop) l :
  StronglySorted (fun a b => R (f a) (f b)) l -> StronglySorted R (map f l).
Proof.
  induction 1 as [|x t Hs IH Hall]; cbn [map]; constructor; [exact IH|].
  rewrite Forall_forall in *. intros y Hy. apply in_map_iff in Hy. destruct Hy as (z & <- & Hz). apply Hall, Hz.
Qed.

Lemma sort_desc_by_sorted {X} (key : X -> Z) l : StronglySorted (fun p q => key q <= key p) (sort_desc_by key l).
Proof.
  unfold sort_desc_by. apply sorted_map.
  apply (sorted_ext _ _ _ (sort_desc_sorted zle_bool zle_total zle_trans (map (fun x => (x, key x)) l))).
  (* every entry carries its own key *)
  assert (Htag : forall x, In x (sort_desc zle_bool (map (fun x => (x, key x)) l)) -> snd x = key (fst x)).
  { intros x Hx. apply (Permutation_in _ (sort_desc_perm zle_bool _)) in Hx. apply in_map_iff in Hx. destruct Hx as (y & <- & _). reflexivity. }
  intros x y Hx Hy Hle. unfold ge_item, zle_bool in Hle. apply Z.leb_le in Hle. rewrite <- (Htag x Hx), <- (Htag y Hy). exact Hle.
Qed.

Lemma sorted_before {X} (key : X -> Z) l1 p l2 q :
  StronglySorted (fun p q => key q <= key p) (l1 ++ p :: l2) -> In q (l1 ++ p :: l2) -> key p < key q -> In q l1.
Proof.
  induction l1 as [|a l1 IH]; simpl; intros Hs Hq Hk.
  - inversion Hs as [|? ? _ Hall]; subst. destruct Hq as [->|Hq]; [lia|].
    rewrite Forall_forall in Hall. specialize (Hall q Hq). simpl in Hall. lia.
  - inversion Hs as [|? ? Hs' _]; subst. destruct Hq as [->|Hq]; [left; reflexivity|right; apply IH; assumption].
Qed.

Definition rp_pairs (s : scorer) (v0 : pvotes) : list pair :=
  let v := complete v0 in
  sort_desc_by (fun p => pget0 (score_pairs s v) p) (sort_desc_by (fun p => pget0 v p) (map fst v)).

Lemma ranked_pairs_unfold s v0 n : ranked_pairs s v0 n =
  let locked := lock_pairs (rp_pairs s v0) in
  match build_ranking (S (length locked)) locked [] with
  | None => CR_vse
  | Some ranking =>
      match find (fun c => negb (cmem c ranking)) (flat_map (fun p : pair => [fst p; snd p]) locked) with
      | Some last => CR_ok (map Cand (firstn n (ranking ++ [last])))
      | None => CR_stop
      end
  end.
Proof. reflexivity. Qed.

Lemma rp_pairs_in s v a b : In (a, b) (rp_pairs s v) <-> In a (candidates v) /\ In b (candidates v) /\ a <> b.
Proof.
  unfold rp_pairs.
  assert (Hk : In (a, b) (map fst (complete v)) <-> In a (candidates v) /\ In b (candidates v) /\ a <> b).
  { rewrite in_map_iff. split.
    - intros ([[a' b'] n] & Hf & Hin). simpl in Hf. injection Hf as -> ->. apply complete_in in Hin. tauto.
    - intros H. exists ((a, b), pget0 v (a, b)). split; [reflexivity|]. apply complete_in. tauto. }
  rewrite <- Hk. split; intros H.
  - eapply Permutation_in; [apply sort_desc_by_perm|]. eapply Permutation_in; [apply sort_desc_by_perm|]. exact H.
  - eapply Permutation_in; [apply Permutation_sym, sort_desc_by_perm|].
    eapply Permutation_in; [apply Permutation_sym, sort_desc_by_perm|]. exact H.
Qed.

Lemma score_pairs_keys s u : map fst (score_pairs s u) = map fst u.
Proof. destruct s; simpl; [rewrite map_map; reflexivity|rewrite map_map; reflexivity|reflexivity]. Qed.

(* the sort key of a pair is its strength under the scorer *)
Lemma rp_key s v a b : In a (candidates v) -> In b (candidates v) -> a <> b ->
  pget0 (score_pairs s (complete v)) (a, b) = sc v s a b.
Proof.
  intros Ha Hb Hab. destruct (score_pairs_has v s a b Ha Hb Hab) as (m & Hm).
  unfold pget0. rewrite (In_pget _ (a, b) m); [|rewrite score_pairs_keys; apply complete_keys_nodup|exact Hm].
  destruct (score_pairs_in v s a b m Hm) as (_ & _ & _ & ->). reflexivity.
Qed.

Theorem rp_pairs_sorted s v : StronglySorted (fun p q => sc v s (fst q) (snd q) <= sc v s (fst p) (snd p)) (rp_pairs s v).
Proof.
  assert (Hin : forall p, In p (rp_pairs s v) -> pget0 (score_pairs s (complete v)) p = sc v s (fst p) (snd p)).
  { intros [a b] Hp. apply rp_pairs_in in Hp. simpl. apply rp_key; tauto. }
  refine (sorted_ext _ _ _ (sort_desc_by_sorted (fun p => pget0 (score_pairs s (complete v)) p) _) _).
  intros p q Hp Hq Hle. fold (rp_pairs s v) in Hp, Hq. rewrite <- (Hin p Hp), <- (Hin q Hq). exact Hle.
Qed.

(* under every scorer a pairwise win is strictly stronger than the reverse pair *)
Lemma beats_key_order v s x y : (forall p n, In (p, n) v -> 0 <= n) -> beats v y x -> sc v s x y < sc v s y x.
Proof.
  unfold beats. intros Hnn Hall. pose proof (pget0_nn v Hnn (x, y)) as H0. unfold sc. destruct s.
  - assert (pget0 v (x, y) <? pget0 v (y, x) = true) as -> by (apply Z.ltb_lt; exact Hall).
    assert (pget0 v (y, x) <? pget0 v (x, y) = false) as -> by (apply Z.ltb_ge; lia). lia.
  - lia.
  - exact Hall.
Qed.

Section RP.
  Variable v : pvotes.
  Variable s : scorer.
  Hypothesis H2 : (2 <= length (candidates v))%nat.
  Notation cs := (candidates v).
  Notation P := (rp_pairs s v).
  Notation L := (lock_pairs (rp_pairs s v)).

  (* ranked pairs never refuses: the answer is the listing of all candidates along the locked order *)
  Theorem ranked_pairs_ranking n : exists ranking,
    ranked_pairs s v n = CR_ok (map Cand (firstn n ranking)) /\ Permutation ranking cs /\
    StronglySorted (fun a b => In (a, b) L) ranking.
  Proof.
    pose proof (rp_pairs_in s v) as Hin.
    destruct (build_ok cs P Hin (S (length L)) []) as (R & Hb & HR & Hall).
    { split; [constructor|]. split; [intros x []|]. split; [intros r x []|]. split; [constructor|].
      destruct cs as [|x t]; [simpl in H2; lia|]. exists x. split; [left; reflexivity|intros []]. }
    { rewrite live_nil. lia. }
    rewrite live_nil in Hb.
    destruct HR as (Rnd & Rin & Rtop & Rsort & (z & Hzc & HzR)).
    assert (Huniq : forall x, In x cs -> ~ In x R -> x = z).
    { intros x Hx HxR. destruct (Pos.eq_dec x z) as [E|E]; [exact E|exfalso].
      destruct (L_total cs P Hin x z Hx Hzc E) as [H|H]; apply Hall in H; contradiction. }
    assert (Hfind : find (fun c => negb (cmem c R)) (flat_map (fun p : pair => [fst p; snd p]) L) = Some z).
    { destruct (find (fun c => negb (cmem c R)) (flat_map (fun p : pair => [fst p; snd p]) L)) as [z'|] eqn:Ef.
      - apply find_some in Ef. destruct Ef as [Hz' Hn]. apply negb_true_iff, cmem_false in Hn. f_equal.
        apply Huniq; [|exact Hn]. apply in_flat_map in Hz'. destruct Hz' as ([a b] & Hab & Hz').
        apply (L_in cs P Hin) in Hab. simpl in Hz'. destruct Hz' as [<-|[<-|[]]]; apply Hab.
      - exfalso. destruct (other_candidate v H2 z Hzc) as (y & Hy & Hyz).
        assert (Hz' : In z (flat_map (fun p : pair => [fst p; snd p]) L)).
        { destruct (L_total cs P Hin z y Hzc Hy (fun E => Hyz (eq_sym E))) as [H|H]; apply in_flat_map;
            [exists (z, y)|exists (y, z)]; (split; [exact H|simpl; auto]). }
        apply (find_none _ _ Ef) in Hz'. apply negb_false_iff, cmem_In in Hz'. contradiction. }
    exists (R ++ [z]). split; [|split].
    - rewrite ranked_pairs_unfold. cbv zeta. rewrite Hb, Hfind. reflexivity.
    - apply NoDup_Permutation.
      + apply (Permutation_NoDup (Permutation_cons_append R z)). constructor; assumption.
      + apply candidates_NoDup.
      + intros x. rewrite in_app_iff. simpl. split.
        * intros [H|[<-|[]]]; [apply Rin, H|exact Hzc].
        * intros Hx. destruct (in_dec Pos.eq_dec x R) as [H|H]; [left; exact H|right; left; symmetry; apply Huniq; assumption].
    - apply sorted_snoc; [exact Rsort|]. intros r Hr. apply Rtop; assumption.
  Qed.

  Theorem ranked_pairs_nobody_dropped : exists r,
    ranked_pairs s v (length cs) = CR_ok r /\ forall x, In x cs -> In (Cand x) r.
  Proof.
    destruct (ranked_pairs_ranking (length cs)) as (R & HR & Hp & _). eexists. split; [exact HR|].
    intros x Hx. rewrite <- (Permutation_length Hp), firstn_all. apply in_map. apply (Permutation_in x (Permutation_sym Hp)), Hx.
  Qed.

  Hypothesis Hnn : forall p n, In (p, n) v -> 0 <= n.

  (* where every member of a set beats every outsider, the pairs into the set come after their reverses *)
  Lemma beats_after_reverse (inD : C -> bool) :
    (forall x y, In x cs -> In y cs -> inD x = false -> inD y = true -> beats v y x) -> after_reverse_set inD P.
  Proof using Hnn.
    intros Hb l1 x y l2 E Hx Hy.
    assert (Hxy : In (x, y) P) by (rewrite E; apply in_or_app; right; left; reflexivity).
    apply rp_pairs_in in Hxy. destruct Hxy as (Hxc & Hyc & Hne).
    pose proof (rp_pairs_sorted s v) as Hs. rewrite E in Hs.
    apply (sorted_before (fun p : pair => sc v s (fst p) (snd p)) l1 (x, y) l2 (y, x) Hs).
    - assert (Hyx : In (y, x) P) by (apply rp_pairs_in; repeat split; auto). rewrite E in Hyx. exact Hyx.
    - simpl. apply beats_key_order; [exact Hnn|apply Hb; assumption].
  Qed.

  Lemma cw_key_order c y : is_cw v c -> In y cs -> y <> c -> sc v s y c < sc v s c y.
  Proof. intros [_ Hall] Hy Hyc. apply beats_key_order; [exact Hnn|apply Hall; assumption]. Qed.

  Lemma cw_after_reverse c : is_cw v c -> after_reverse c P.
  Proof.
    intros [_ Hall] l1 y l2 E.
    assert (Hne : y <> c).
    { apply (proj1 (rp_pairs_in s v y c)). rewrite E. apply in_or_app. right. left. reflexivity. }
    apply (beats_after_reverse (fun x => ceqb x c)) with (x := y) (l2 := l2); [|exact E| |apply ceqb_refl].
    - intros x z Hx _ Hxc Hz. apply ceqb_eq in Hz. subst z. apply Hall; [exact Hx|].
      intros ->. rewrite ceqb_refl in Hxc. discriminate.
    - apply not_true_iff_false. intros H. apply ceqb_eq in H. exact (Hne H).
  Qed.

  Theorem ranked_pairs_elects_cw c : is_cw v c -> ranked_pairs s v 1 = CR_ok [Cand c].
  Proof.
    intros Hcw. destruct (ranked_pairs_ranking 1) as (R & HR & Hp & Hs). rewrite HR. f_equal.
    pose proof Hcw as [Hc _].
    assert (HcR : In c R) by (apply (Permutation_in c (Permutation_sym Hp)), Hc).
    destruct R as [|a t]; [destruct HcR|]. simpl. destruct HcR as [->|HcR]; [reflexivity|exfalso].
    inversion Hs as [|? ? _ Hall]; subst. rewrite Forall_forall in Hall. specialize (Hall c HcR).
    apply (lock_no_edge_into c P) in Hall; [exact Hall| |apply cw_after_reverse, Hcw].
    intros x y H. apply rp_pairs_in in H. tauto.
  Qed.

  (* no pair is locked against the Condorcet winner, all its own pairs are *)
  Theorem ranked_pairs_cw_locked c : is_cw v c ->
    (forall y, ~ In (y, c) L) /\ (forall y, In y cs -> y <> c -> In (c, y) L).
  Proof using H2 Hnn.
    intros Hcw. assert (Hd : irrefl_pairs P) by (intros x y H; apply rp_pairs_in in H; tauto). split.
    - apply lock_no_edge_into; [exact Hd|apply cw_after_reverse, Hcw].
    - intros y Hy Hyc. apply lock_cw_edges; [exact Hd|apply cw_after_reverse, Hcw|].
      apply rp_pairs_in. destruct Hcw as [Hc _]. repeat split; auto.
  Qed.
End RP.
