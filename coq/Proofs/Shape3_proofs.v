(* Result shape (C08), third part: the seatless selectors (thresholds, bracketers, Condorcet winner, Smith / Schwartz
   set: a duplicate-free list of candidates of the votes), open lists, QuotaSelector (at most n by design) and
   approval ballots in front of plurality.  The elimination rules are in Proofs/ShapeElim_proofs.v. *)
From Coq Require Import ZArith QArith List Bool Lia Permutation Arith.
From VL Require Import Prelude.PyDict Model.GetNBest Model.Convert Model.Condorcet Model.QuotaDistributor Model.Threshold
     Proofs.Dict_proofs Proofs.GetNBest_proofs Proofs.QOrd Proofs.Condorcet_proofs Proofs.Shape_proofs Proofs.Smith_proofs
     Proofs.Threshold_proofs Proofs.Shape2_proofs.
Import ListNotations.
Close Scope Q_scope.
Close Scope Z_scope.
Open Scope nat_scope.

(* the right shape of a selector that is not asked for a number of seats: a duplicate-free list of candidates of the
   votes - which is the shape [sel_shape] of a selection of plain winners for as many seats as it has entries *)
Definition seatless_shape (cands r : list C) : Prop := NoDup r /\ incl r cands.

Lemma seatless_sel_shape cands r : seatless_shape cands r <-> sel_shape cands (length r) (map Cand r).
Proof.
  split.
  - intros [Hn Hi]. apply nform_shape, nform_plain; assumption.
  - intros (_ & Hi & Hn & _). rewrite plain_of_cands in Hi, Hn. split; [exact Hn|exact Hi].
Qed.

(* thresholds (Model/Threshold.v) *)
Lemma sel_eval_incl votes : forall s c, In c (sel_eval s votes) -> In c (map fst votes).
Proof.
  fix IH 1. intros [thr ae|thr ae|parts] c H.
  - apply absolute_spec in H. destruct H as (v & Hin & _). apply in_map_iff. exists (c, v). split; [reflexivity|exact Hin].
  - apply relative_spec in H. destruct H as (v & Hin & _). apply in_map_iff. exists (c, v). split; [reflexivity|exact Hin].
  - cbn [sel_eval] in H. apply (proj1 (dedup_In _ _)) in H. revert H. generalize parts. fix IHp 1. intros [|p ps] H; [destruct H|].
    cbn [flat_map] in H. apply in_app_or in H. destruct H as [H|H]; [exact (IH p c H)|exact (IHp ps H)].
Qed.

Lemma sorted_filter_keys_NoDup (f : C * Q -> bool) votes : NoDup (map fst votes) ->
  NoDup (map fst (filter f (sort_desc Qle_bool votes))).
Proof.
  intros H. apply filter_keys_NoDup. eapply Permutation_NoDup; [apply Permutation_sym, sort_desc_keys|exact H].
Qed.

Lemma sel_eval_NoDup votes s : NoDup (map fst votes) -> NoDup (sel_eval s votes).
Proof.
  intros H. destruct s as [thr ae|thr ae|parts]; cbn [sel_eval]; [apply sorted_filter_keys_NoDup, H|apply sorted_filter_keys_NoDup, H|apply dedup_NoDup].
Qed.

Theorem threshold_shape s votes : NoDup (map fst votes) -> seatless_shape (map fst votes) (sel_eval s votes).
Proof. intros H. split; [apply sel_eval_NoDup, H|intros c Hc; exact (sel_eval_incl votes s c Hc)]. Qed.

Theorem bracket_shape evals default bracket votes : NoDup (map fst votes) ->
  seatless_shape (map fst votes) (bracket_eval evals default bracket votes).
Proof.
  intros H. unfold bracket_eval. split; [apply sorted_filter_keys_NoDup, H|].
  intros c Hc. apply in_sorted_filter in Hc. destruct Hc as (v & Hin & _). apply in_map_iff. exists (c, v). split; [reflexivity|exact Hin].
Qed.

(* open list: exactly n distinct members of the list *)
Theorem openlist_shape cfg votes n lst :
  NoDup lst -> NoDup (map fst votes) -> incl (map fst votes) lst -> 1 <= n <= length lst ->
  sel_shape lst n (map Cand (openlist_eval cfg votes n lst)).
Proof.
  intros Hl Hv Hin Hn. destruct (openlist_count cfg votes n lst Hl Hv Hin Hn) as (H1 & H2 & H3).
  rewrite <- H1 at 1. apply (proj1 (seatless_sel_shape _ _)). split; assumption.
Qed.

Lemma filter_length_le {X} (f : X -> bool) l : length (filter f l) <= length l.
Proof. apply filter_len_le. Qed.

(* QuotaSelector: at most n by design; well-shaped for its own length, a short answer is plain winners only *)
Theorem quota_selector_shape quota ae select votes (n : Z) r :
  NoDup (map fst votes) -> (1 <= n)%Z -> qsel_evaluate quota ae select votes n = QS_ok r ->
  length r <= Z.to_nat n /\ sel_shape (map fst votes) (length r) r /\
  (length r < Z.to_nat n -> ties_of r = []) /\
  (* a full answer whenever that many candidates reach the quota *)
  (Z.to_nat n <= length (filter (fun cv => fulfills ae (snd cv) (quota (qsumv votes) n)) votes) -> length r = Z.to_nat n).
Proof.
  intros Hnd Hn. unfold qsel_evaluate. cbv zeta.
  set (over := filter (fun cv => fulfills ae (snd cv) (quota (qsumv votes) n)) votes).
  destruct (_ && _); [discriminate|]. intros [= <-].
  assert (Hon : NoDup (map fst over)) by (apply filter_keys_NoDup, Hnd).
  assert (Hoi : incl (map fst over) (map fst votes)) by (intros c; apply MJ_proofs.filter_keys_incl).
  assert (H1 : 1 <= Z.to_nat n) by lia.
  destruct (le_lt_dec (Z.to_nat n) (length over)) as [Hle|Hlt].
  - pose proof (gnb_nform Qle_bool Qle_bool_total Qle_bool_trans over (Z.to_nat n) (conj H1 Hle) Hon) as Hf.
    pose proof (nform_length _ _ _ Hf) as Hlen. rewrite Hlen. split; [lia|]. split; [|split; [lia|intros _; reflexivity]].
    apply nform_shape. eapply nform_incl; [exact Hoi|exact Hf].
  - destruct (gnb_all Qle_bool Qle_bool_total Qle_bool_trans over (Z.to_nat n) H1 ltac:(lia)) as (s & Hp & ->).
    assert (Hls : length (map Cand (map fst s)) = length over) by (rewrite !map_length; apply Permutation_length, Hp).
    rewrite Hls. split; [lia|]. split; [|split; [intros _; apply ties_of_cands|lia]].
    rewrite <- Hls, (map_length Cand (map fst s)). apply (proj1 (seatless_sel_shape _ _)). split.
    + eapply Permutation_NoDup; [apply Permutation_map, Permutation_sym, Hp|exact Hon].
    + intros x Hx. apply Hoi. eapply Permutation_in; [apply Permutation_map, Hp|exact Hx].
Qed.

(* Condorcet winner: nobody, or one candidate of the dictionary *)
Lemma beat_counts_keys_in (v : pvotes) c : In c (map fst (beat_counts v)) -> In c (candidates v).
Proof.
  revert c. unfold beat_counts. apply (fold_left_inv (fun d => forall c, In c (map fst d) -> In c (candidates v))); [|intros c []].
  intros d p Hp Hd c Hc. unfold dadd in Hc. apply dset_keys_in in Hc.
  destruct Hc as [->|Hc]; [apply (wins_in_cands v false p Hp)|apply Hd, Hc].
Qed.

Theorem condorcet_winner_shape (v : pvotes) : seatless_shape (candidates v) (condorcet_winner v) /\ length (condorcet_winner v) <= 1.
Proof.
  unfold condorcet_winner. destruct (find _ (beat_counts v)) as [[c k]|] eqn:E.
  - apply find_some in E. destruct E as [E _]. split; [|simpl; lia]. split; [constructor; [intros []|constructor]|].
    intros x [<-|[]]. apply beat_counts_keys_in. apply in_map_iff. exists (c, k). split; [reflexivity|exact E].
  - split; [split; [constructor|intros x []]|simpl; lia].
Qed.

(* Smith set (ties count as wins) and Schwartz set (they do not): a prefix of the Copeland order *)
Theorem smith_schwartz_shape (v : pvotes) (ties : bool) : seatless_shape (candidates v) (smith_schwartz v ties).
Proof.
  unfold smith_schwartz. cbv zeta.
  set (wins := pairwise_wins (complete v) ties).
  destruct (cscore_keys wins) as [Hn Hk].
  assert (Hp : Permutation (map fst (sort_desc zle_bool (copeland_scores wins))) (map fst (copeland_scores wins)))
    by (apply Permutation_map, sort_desc_perm).
  split.
  - apply Shape2_proofs.firstn_NoDup. eapply Permutation_NoDup; [apply Permutation_sym, Hp|exact Hn].
  - intros x Hx. apply firstn_incl in Hx. apply (Permutation_in _ Hp) in Hx. apply Hk in Hx.
    destruct Hx as (p & Hpw & Hx). destruct (complete_wins_cands v p ties Hpw) as [Ha Hb]. destruct Hx as [->| ->]; assumption.
Qed.

(* approval voting / SAV: ApprovalToSimpleVotes in front of plurality *)
From VL Require Import Model.ApprovalSimple.
Close Scope Q_scope.
Close Scope Z_scope.
Open Scope nat_scope.

Lemma approval_simple_keys split (votes : list (list C * Q)) :
  NoDup (map fst (approval_simple split votes)) /\
  forall x, In x (map fst (approval_simple split votes)) <-> In x (flat_map fst votes).
Proof.
  destruct (approval_fold_keys (fun bw => ballot_share split (fst bw) (snd bw)) votes [] (NoDup_nil _)) as [N K].
  split; [exact N|]. intros x. unfold approval_simple. rewrite K. simpl. tauto.
Qed.

(* exactly n entries in normal form over the candidates approved by somebody; no hypothesis on the profile *)
Theorem approval_plurality_nform split (votes : list (list C * Q)) n : 1 <= n <= length (approval_cands votes) ->
  nform (approval_cands votes) n (approval_plurality split votes n).
Proof.
  intros Hn. destruct (approval_simple_keys split votes) as [N K].
  destruct (JR_proofs.canon_set_spec (flat_map fst votes)) as [Hcn Hck]. fold (approval_cands votes) in Hcn, Hck.
  unfold approval_plurality. apply (gnb_nform_perm Qle_bool Qle_bool_total Qle_bool_trans); [exact Hn|exact N|exact Hcn|].
  intros x. rewrite K. symmetry. apply Hck.
Qed.
