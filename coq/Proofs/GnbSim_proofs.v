(* get_n_best on two permutations of the same score dictionary, position by position (C10):
   the two results have the same shape - a plain winner faces a plain winner WITH AN EQUIVALENT SCORE
   (hence the same candidate whenever that score is unique), a tie faces a tie with the same members
   (as a permutation) - for ANY total preorder on the values.  The specialisation to integer scores
   (zle_bool: the Condorcet family) adds: the same candidates are elected, the same candidates are tied. *)
From Coq Require Import ZArith QArith List Bool Lia Permutation Arith Sorted.
From VL Require Import Prelude.PyDict Model.GetNBest Model.Condorcet Proofs.Dict_proofs Proofs.GetNBest_proofs Proofs.QOrd
     Proofs.Scale_proofs Proofs.Order_proofs Proofs.Condorcet_proofs.
Import ListNotations.
Close Scope Q_scope.
Close Scope Z_scope.
Open Scope nat_scope.

Section SIM.
  Context {K V : Type}.
  Variable leb : V -> V -> bool.
  Hypothesis leb_total : forall a b, leb a b = true \/ leb b a = true.
  Hypothesis leb_trans : forall a b c, leb a b = true -> leb b c = true -> leb a c = true.
  Notation eqv := (@eqv V leb).
  Notation ltb := (@ltb V leb).
  Notation sorted := (@sorted_desc K V leb).
  Notation gnb := (@get_n_best K V leb).

  Definition cge (l : list (K * V)) (x : V) : nat := length (filter (fun it => leb x (snd it)) l).

  Lemma cge_perm l l' x : Permutation l l' -> cge l x = cge l' x.
  Proof. apply filter_length_perm. Qed.

  Lemma eqv_sym a b : eqv a b = true -> eqv b a = true.
  Proof. unfold GetNBest.eqv. rewrite andb_comm. tauto. Qed.
  Lemma eqv_trans a b c : eqv a b = true -> eqv b c = true -> eqv a c = true.
  Proof.
    unfold GetNBest.eqv. rewrite !andb_true_iff. intros [A1 A2] [B1 B2]. split; eapply leb_trans; eassumption.
  Qed.
  Lemma eqv_leb_same a b x : eqv a b = true -> leb x a = leb x b.
  Proof.
    unfold GetNBest.eqv. rewrite andb_true_iff. intros [A1 A2].
    destruct (leb x a) eqn:E1, (leb x b) eqn:E2; try reflexivity.
    - rewrite (leb_trans _ _ _ E1 A1) in E2. discriminate.
    - rewrite (leb_trans _ _ _ E2 A2) in E1. discriminate.
  Qed.
  Lemma eqv_eqv_same a b x : eqv a b = true -> eqv x a = eqv x b.
  Proof.
    intros H. destruct (eqv x a) eqn:E1, (eqv x b) eqn:E2; try reflexivity.
    - rewrite (eqv_trans _ _ _ E1 H) in E2. discriminate.
    - rewrite (eqv_trans _ _ _ E2 (eqv_sym _ _ H)) in E1. discriminate.
  Qed.
  Lemma eqv_eqv_same_l a b x : eqv a b = true -> eqv a x = eqv b x.
  Proof.
    intros H. destruct (eqv a x) eqn:E1, (eqv b x) eqn:E2; try reflexivity.
    - rewrite (eqv_trans _ _ _ (eqv_sym _ _ H) E1) in E2. discriminate.
    - rewrite (eqv_trans _ _ _ H E2) in E1. discriminate.
  Qed.

  Lemma cge_pos l x : 1 <= cge l x -> exists z, In z l /\ leb x (snd z) = true.
  Proof.
    unfold cge. intros H. destruct (filter (fun it => leb x (snd it)) l) as [|z t] eqn:E; [simpl in H; lia|].
    assert (Hz : In z (filter (fun it => leb x (snd it)) l)) by (rewrite E; left; reflexivity).
    apply filter_In in Hz. exists z. exact Hz.
  Qed.

  (* two descending lists with the same counts above every value agree value-wise, position by position *)
  Lemma sorted_cnt_eqv : forall s s' : list (K * V), sorted s -> sorted s' -> (forall x, cge s x = cge s' x) ->
    Forall2 (fun a b => eqv (snd a) (snd b) = true) s s'.
  Proof.
    induction s as [|x t IH]; intros s' Hs Hs' Hc.
    - destruct s' as [|y t']; [constructor|]. exfalso. specialize (Hc (snd y)). unfold cge in Hc. simpl in Hc.
      rewrite (leb_refl leb leb_total) in Hc. simpl in Hc. lia.
    - destruct s' as [|y t'].
      { exfalso. specialize (Hc (snd x)). unfold cge in Hc. simpl in Hc. rewrite (leb_refl leb leb_total) in Hc. simpl in Hc. lia. }
      inversion Hs as [|? ? Hst Hxa]; subst. inversion Hs' as [|? ? Hst' Hya]; subst.
      assert (Hhead : forall (a : K * V) (l l' : list (K * V)) b, Forall (ge_item leb b) l' -> cge (a :: l) (snd a) = cge (b :: l') (snd a) -> leb (snd a) (snd b) = true).
      { intros a l l' b Hb Hcc.
        destruct (cge_pos (b :: l') (snd a)) as (z & Hz & Hlz).
        - rewrite <- Hcc. unfold cge. simpl. rewrite (leb_refl leb leb_total). simpl. lia.
        - destruct Hz as [<-|Hz]; [exact Hlz|]. rewrite Forall_forall in Hb. specialize (Hb z Hz). unfold ge_item in Hb.
          eapply leb_trans; eassumption. }
      assert (Exy : eqv (snd x) (snd y) = true).
      { unfold GetNBest.eqv. apply andb_true_iff. split.
        - apply (Hhead x t t' y Hya). apply Hc.
        - apply (Hhead y t' t x Hxa). symmetry. apply Hc. }
      constructor; [exact Exy|]. apply IH; try assumption. intros z. specialize (Hc z). unfold cge in *. simpl in Hc.
      rewrite (eqv_leb_same _ _ z Exy) in Hc. destruct (leb z (snd y)); simpl in Hc; lia.
  Qed.

  Lemma sort_desc_pos_eqv (votes votes' : list (K * V)) : Permutation votes votes' ->
    Forall2 (fun a b => eqv (snd a) (snd b) = true) (sort_desc leb votes) (sort_desc leb votes').
  Proof.
    intros Hp. apply sorted_cnt_eqv; try apply (sort_desc_sorted leb leb_total leb_trans).
    intros x. apply cge_perm. eapply Permutation_trans; [apply sort_desc_perm|].
    eapply Permutation_trans; [exact Hp|]. apply Permutation_sym, sort_desc_perm.
  Qed.

  Lemma Forall2_with_in {X Y} (P : X -> Y -> Prop) l l' : Forall2 P l l' ->
    Forall2 (fun x y => In x l /\ In y l' /\ P x y) l l'.
  Proof.
    induction 1 as [|x y l l' H _ IH]; [constructor|]. constructor; [simpl; tauto|].
    eapply Forall2_impl; [|exact IH]. simpl. intros a b (A & B & D). tauto.
  Qed.
  Lemma Forall2_firstn {X Y} (P : X -> Y -> Prop) k : forall l l', Forall2 P l l' -> Forall2 P (firstn k l) (firstn k l').
  Proof. induction k as [|k IH]; intros l l' H; [constructor|]. destruct H; simpl; constructor; auto. Qed.
  Lemma Forall2_nth {X Y} (P : X -> Y -> Prop) : forall l l' k, Forall2 P l l' ->
    match nth_error l k, nth_error l' k with Some x, Some y => P x y | None, None => True | _, _ => False end.
  Proof.
    induction l as [|x l IH]; intros l' k H; inversion H; subst; destruct k; simpl; auto.
    apply IH. assumption.
  Qed.
  Lemma Forall2_repeat {X Y} (P : X -> Y -> Prop) x y k : P x y -> Forall2 P (repeat x k) (repeat y k).
  Proof. intros H. induction k; simpl; constructor; auto. Qed.
  Lemma Forall2_map2 {X Y X' Y'} (P : X' -> Y' -> Prop) (f : X -> X') (g : Y -> Y') l l' :
    Forall2 (fun x y => P (f x) (g y)) l l' -> Forall2 P (map f l) (map g l').
  Proof. induction 1; simpl; constructor; auto. Qed.

  (* the relation between the two results *)
  Definition res_rel (votes votes' : list (K * V)) (x y : res K) : Prop :=
    match x, y with
    | Cand a, Cand b => exists va vb, In (a, va) votes /\ In (b, vb) votes' /\ eqv va vb = true
    | TieR T, TieR T' => Permutation T T'
    | _, _ => False
    end.

  Lemma first_eq_index_sim thr thr' : eqv thr thr' = true -> forall s s' : list (K * V),
    Forall2 (fun a b => eqv (snd a) (snd b) = true) s s' -> first_eq_index leb thr s = first_eq_index leb thr' s'.
  Proof.
    intros Ht. induction 1 as [|x y s s' E _ IH]; simpl; [reflexivity|].
    rewrite (eqv_eqv_same _ _ (snd x) Ht), (eqv_eqv_same_l _ _ thr' E), IH. reflexivity.
  Qed.

  Lemma filter_perm_ext {X} (f g : X -> bool) l l' : Permutation l l' -> (forall x, f x = g x) ->
    Permutation (filter f l) (filter g l').
  Proof.
    intros Hp He. rewrite (filter_ext f g He). apply filter_perm, Hp.
  Qed.

  Theorem gnb_sim (votes votes' : list (K * V)) n : Permutation votes votes' ->
    Forall2 (res_rel votes votes') (gnb votes n) (gnb votes' n).
  Proof.
    intros Hp. unfold get_n_best.
    pose proof (sort_desc_pos_eqv votes votes' Hp) as F0.
    pose proof (sort_desc_perm leb votes) as P1. pose proof (sort_desc_perm leb votes') as P2.
    set (s := sort_desc leb votes) in *. set (s' := sort_desc leb votes') in *.
    assert (Pss : Permutation s s').
    { eapply Permutation_trans; [exact P1|]. eapply Permutation_trans; [exact Hp|]. apply Permutation_sym, P2. }
    pose proof (Forall2_with_in _ _ _ F0) as F.
    assert (Hcands : forall a b : list (K * V), Forall2 (fun x y => In x s /\ In y s' /\ eqv (snd x) (snd y) = true) a b ->
              Forall2 (res_rel votes votes') (map (fun it => Cand (fst it)) a) (map (fun it => Cand (fst it)) b)).
    { intros a b H. apply Forall2_map2. eapply Forall2_impl; [|exact H]. intros [c vc] [c' vc'] (I1 & I2 & E). simpl.
      exists vc, vc'. split; [apply (Permutation_in _ P1 I1)|]. split; [apply (Permutation_in _ P2 I2)|exact E]. }
    rewrite <- (F2_length _ _ _ F0).
    destruct (Nat.ltb n (length s)); [|apply Hcands, F].
    pose proof (Forall2_nth _ s s' (n - 1) F0) as N1. pose proof (Forall2_nth _ s s' n F0) as N2.
    destruct (nth_error s (n - 1)) as [[c1 thr]|], (nth_error s' (n - 1)) as [[c1' thr']|]; try contradiction; [|constructor].
    destruct (nth_error s n) as [[c2 nxt]|], (nth_error s' n) as [[c2' nxt']|]; try contradiction; [|constructor].
    simpl in N1, N2.
    rewrite (eqv_eqv_same _ _ nxt N1), (eqv_eqv_same_l _ _ thr' N2).
    destruct (eqv nxt' thr').
    - rewrite (first_eq_index_sim thr thr' N1 s s' F0).
      apply Forall2_app; [apply Hcands, Forall2_firstn, F|]. apply Forall2_repeat. simpl.
      apply Permutation_map. apply filter_perm_ext; [exact Pss|]. intros x. apply eqv_eqv_same. exact N1.
    - apply Hcands, Forall2_firstn, F.
  Qed.

  (* every outcome: plain winners, a prefix of the sorted dictionary, then copies of one tie *)
  Lemma gnb_form (votes : list (K * V)) n : exists cs T k, gnb votes n = map Cand cs ++ repeat (TieR T) k /\ incl cs (map fst votes).
  Proof.
    unfold get_n_best. set (s := sort_desc leb votes).
    assert (G : forall j T k, exists cs T' k',
              map (fun it : K * V => Cand (fst it)) (firstn j s) ++ repeat (TieR T) k = map Cand cs ++ repeat (TieR T') k' /\ incl cs (map fst votes)).
    { intros j T k. exists (map fst (firstn j s)), T, k. rewrite map_map. split; [reflexivity|]. intros c Hc.
      apply in_map_iff in Hc. destruct Hc as (x & <- & Hx). apply in_map, (Permutation_in _ (sort_desc_perm leb votes)).
      fold s. rewrite <- (firstn_skipn j s). apply in_or_app. left. exact Hx. }
    destruct (Nat.ltb n (length s)); [|rewrite <- (firstn_all s), <- (app_nil_r (map _ _)); apply (G _ [] 0)].
    destruct (nth_error s (n - 1)) as [[c1 thr]|]; [|exact (G 0 [] 0)]. destruct (nth_error s n) as [[c2 nxt]|]; [|exact (G 0 [] 0)].
    destruct (eqv nxt thr); [apply G|]. rewrite <- (app_nil_r (map _ _)). apply (G _ [] 0).
  Qed.

  Lemma gnb_cand_key (votes : list (K * V)) n c : In (Cand c) (gnb votes n) -> In c (map fst votes).
  Proof. destruct (gnb_form votes n) as (cs & T & k & -> & Hi). intros H. apply Hi, (in_cand_sel c cs T k), H. Qed.

  Lemma gnb_tie_same (votes : list (K * V)) n T1 T2 : In (TieR T1) (gnb votes n) -> In (TieR T2) (gnb votes n) -> T1 = T2.
  Proof.
    destruct (gnb_form votes n) as (cs & T & k & -> & _). intros H1 H2. apply in_tie_sel in H1, H2.
    destruct H1 as [-> _], H2 as [-> _]. reflexivity.
  Qed.

  Lemma gnb_tie_key (votes : list (K * V)) n T c : In (TieR T) (gnb votes n) -> In c T -> In c (map fst votes).
  Proof.
    intros HT Hc. destruct (get_n_best_tie_members leb leb_trans votes n T HT) as (thr & -> & _).
    apply in_map_iff in Hc. destruct Hc as (x & Hx & Hi). apply filter_In in Hi. apply in_map_iff. exists x. tauto.
  Qed.

End SIM.

(* rational totals: the same elected, the same tied *)
(* gnb_perm for every candidate and every n: one that is not a key is named by neither outcome *)
Theorem gnb_perm_all {K} (votes votes' : list (K * Q)) n c : NoDup (map fst votes) -> Permutation votes votes' ->
  (In (Cand c) (get_n_best Qle_bool votes n) <-> In (Cand c) (get_n_best Qle_bool votes' n)) /\
  ((exists T, In (TieR T) (get_n_best Qle_bool votes n) /\ In c T) <-> (exists T, In (TieR T) (get_n_best Qle_bool votes' n) /\ In c T)).
Proof.
  intros Hnd Hp. destruct n as [|n]; [rewrite !(get_n_best_0 Qle_bool Qle_bool_total); split; reflexivity|].
  pose proof (fun v => gnb_perm votes votes' (S n) c v ltac:(lia) Hnd Hp) as Hk.
  split; apply (iff_through _ _ (In c (map fst votes))).
  - apply gnb_cand_key.
  - intros H. apply (perm_keys_iff _ _ Hp), (gnb_cand_key _ _ _ _ H).
  - intros Hc. destruct (key_value votes c Hc) as [v Hin]. apply (Hk v Hin).
  - intros (T & HT & Hc). exact (gnb_tie_key Qle_bool Qle_bool_trans _ _ _ _ HT Hc).
  - intros (T & HT & Hc). apply (perm_keys_iff _ _ Hp). exact (gnb_tie_key Qle_bool Qle_bool_trans _ _ _ _ HT Hc).
  - intros Hc. destruct (key_value votes c Hc) as [v Hin]. apply (Hk v Hin).
Qed.

(* integer scores (zle_bool) *)
Open Scope Z_scope.

Definition score_of (d : list (C * Z)) (c : C) : Z := dget_or d c 0.

(* same shape; plain winner against plain winner with the same score; tie against tie with the same members *)
Definition res_relz (d d' : list (C * Z)) (x y : res C) : Prop :=
  match x, y with
  | Cand a, Cand b => In a (map fst d) /\ In b (map fst d) /\ score_of d a = score_of d b
  | TieR T, TieR T' => Permutation T T'
  | _, _ => False
  end.

Lemma zeqv_eq a b : eqv zle_bool a b = true <-> a = b.
Proof. unfold eqv, zle_bool. rewrite andb_true_iff, !Z.leb_le. lia. Qed.

Lemma In_score_of (d : list (C * Z)) c n : NoDup (map fst d) -> In (c, n) d -> score_of d c = n.
Proof. apply In_dget_or. Qed.

Lemma qle_inject a b : Qle_bool (inject_Z a) (inject_Z b) = zle_bool a b.
Proof.
  unfold zle_bool. destruct (a <=? b) eqn:E.
  - apply Qle_bool_iff. rewrite <- Zle_Qle. apply Z.leb_le. exact E.
  - apply not_true_iff_false. intros H. apply Qle_bool_iff in H. rewrite <- Zle_Qle in H. apply Z.leb_le in H. congruence.
Qed.

Lemma perm_dget {X} (d d' : list (C * X)) c : NoDup (map fst d) -> Permutation d d' -> dget d' c = dget d c.
Proof.
  intros Hnd Hp. destruct (dget d c) as [n|] eqn:E.
  - apply In_dget; [exact (perm_keys_nodup _ _ Hp Hnd)|]. apply (Permutation_in _ Hp), dget_In, E.
  - destruct (dget d' c) as [m|] eqn:E'; [|reflexivity]. apply dget_In, (Permutation_in _ (Permutation_sym Hp)) in E'.
    rewrite (In_dget _ _ _ Hnd E') in E. discriminate.
Qed.
Lemma perm_dget_or {X} (d d' : list (C * X)) c x : NoDup (map fst d) -> Permutation d d' -> dget_or d' c x = dget_or d c x.
Proof. intros Hnd Hp. unfold dget_or. rewrite (perm_dget d d' c Hnd Hp). reflexivity. Qed.

Section ZSIM.
  Variables d d' : list (C * Z).
  Hypothesis Hnd : NoDup (map fst d).
  Hypothesis Hp : Permutation d d'.

  Theorem gnbz_sim n : Forall2 (res_relz d d') (get_n_best zle_bool d n) (get_n_best zle_bool d' n).
  Proof.
    eapply Forall2_impl; [|apply (gnb_sim zle_bool zle_total zle_trans d d' n Hp)].
    intros [a|T] [b|T']; simpl; try tauto. intros (va & vb & Ia & Ib & E). apply zeqv_eq in E. subst vb.
    apply (Permutation_in _ (Permutation_sym Hp)) in Ib.
    split; [apply in_map_iff; exists (a, va); auto|]. split; [apply in_map_iff; exists (b, va); auto|].
    rewrite (In_score_of d a va Hnd Ia), (In_score_of d b va Hnd Ib). reflexivity.
  Qed.

  Theorem gnbz_sets n c :
    (In (Cand c) (get_n_best zle_bool d n) <-> In (Cand c) (get_n_best zle_bool d' n)) /\
    ((exists T, In (TieR T) (get_n_best zle_bool d n) /\ In c T) <-> (exists T, In (TieR T) (get_n_best zle_bool d' n) /\ In c T)).
  Proof.
    rewrite <- !(get_n_best_map zle_bool Qle_bool inject_Z qle_inject).
    apply gnb_perm_all; [unfold mapv; rewrite map_map; exact Hnd|apply Permutation_map, Hp].
  Qed.
End ZSIM.
