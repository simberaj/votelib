(* The Condorcet-runoff hybrids (Model/Hybrids.v): the pairwise dictionary of a ranked profile as a
   weighted sum of per-ballot coefficients, restriction of the ballots = restriction of the dictionary,
   Condorcet winner elected at once, Smith containment. *)
From Coq Require Import ZArith QArith List Bool Arith Lia Permutation.
From VL Require Import Prelude.Sx Prelude.PyDict Prelude.GDict Model.GetNBest Model.Convert Model.STV Model.Condorcet Model.Hybrids Proofs.STV_proofs.
From VL Require Import Proofs.Dict_proofs Proofs.Condorcet_proofs Proofs.Smith_proofs Proofs.GetNBest_proofs Proofs.JR_proofs Proofs.QOrd
  Proofs.STV_psc_proofs Proofs.STV_elim_proofs.
Import ListNotations.
Open Scope Z_scope.

Definition cnt (a : C) (l : list C) : Z := fold_right (fun x acc => (if ceqb a x then 1 else 0) + acc) 0 l.
Definition pcount (p : pair) (l : list pair) : Z := fold_right (fun q acc => (if peqb p q then 1 else 0) + acc) 0 l.

Lemma cnt_count a l : cnt a l = count a l.
Proof. induction l as [|x l IH]; simpl; [reflexivity|]. rewrite IH. reflexivity. Qed.

Lemma cnt_app a l m : cnt a (l ++ m) = cnt a l + cnt a m.
Proof. rewrite !cnt_count. apply count_app. Qed.
Lemma cnt_nonneg a l : 0 <= cnt a l.
Proof. rewrite cnt_count. apply count_nonneg. Qed.
Lemma cnt_notin a l : ~ In a l -> cnt a l = 0.
Proof. rewrite cnt_count. apply count_notin. Qed.
Lemma cnt_pos a l : 0 < cnt a l <-> In a l.
Proof.
  split; [|intros H; apply count_in_pos in H; rewrite cnt_count; lia].
  intros H. destruct (cmem a l) eqn:E; [apply cmem_In, E|]. apply cmem_false, cnt_notin in E. lia.
Qed.
Lemma cnt_cons a x l : cnt a (x :: l) = (if ceqb a x then 1 else 0) + cnt a l.
Proof. reflexivity. Qed.
Lemma cnt_filter f a l : cnt a (filter f l) = if f a then cnt a l else 0.
Proof.
  induction l as [|x l IH]; [simpl; destruct (f a); reflexivity|].
  cbn [filter]. rewrite cnt_cons. destruct (f x) eqn:Ef.
  - rewrite cnt_cons, IH. destruct (f a) eqn:Ea; [reflexivity|]. destruct (ceqb a x) eqn:E; [|lia].
    apply ceqb_eq in E. subst x. congruence.
  - rewrite IH. destruct (ceqb a x) eqn:E; [|destruct (f a); lia].
    apply ceqb_eq in E. subst x. rewrite Ef. reflexivity.
Qed.
Lemma cnt_nodup a l : NoDup l -> cnt a l = if cmem a l then 1 else 0.
Proof. rewrite cnt_count. apply count_cmem. Qed.

Lemma pcount_cons p q l : pcount p (q :: l) = (if peqb p q then 1 else 0) + pcount p l.
Proof. reflexivity. Qed.
Lemma pcount_app p l m : pcount p (l ++ m) = pcount p l + pcount p m.
Proof. induction l as [|x l IH]; simpl; [reflexivity|]. rewrite IH. lia. Qed.
Lemma pcount_nonneg p l : 0 <= pcount p l.
Proof. induction l as [|x l IH]; simpl; [lia|]. destruct (peqb p x); lia. Qed.
Lemma pcount_pos p l : 0 < pcount p l <-> In p l.
Proof.
  induction l as [|x l IH]; simpl; [split; [lia|intros []]|].
  pose proof (pcount_nonneg p l). destruct (peqb p x) eqn:E.
  - apply peqb_eq in E. subst. split; [auto|lia].
  - split; [intros H1; right; apply IH; lia|intros [->|H1]; [|apply IH in H1; lia]].
    assert (peqb p p = true) by (apply peqb_eq; reflexivity). congruence.
Qed.
Lemma pcount_cross a b (X Y : list C) :
  pcount (a, b) (flat_map (fun u => map (fun l => (u, l)) X) Y) = cnt a Y * cnt b X.
Proof.
  induction Y as [|y Y IH]; simpl; [reflexivity|]. rewrite pcount_app, IH.
  assert (H : pcount (a, b) (map (fun l => (y, l)) X) = (if ceqb a y then 1 else 0) * cnt b X).
  { clear. induction X as [|x X IH]; [cbn [map pcount fold_right cnt]; lia|]. cbn [map]. rewrite pcount_cons, IH, cnt_cons.
    unfold peqb. cbn [fst snd]. destruct (ceqb a y), (ceqb b x); cbn [andb]; lia. }
  rewrite H. lia.
Qed.

Fixpoint pairs_from (r : ranked) : list pair :=
  match r with
  | [] => []
  | i :: t => flat_map (fun u => map (fun l => (u, l)) (flatten t)) (members i) ++ pairs_from t
  end.

Lemma dec_cross (X Y : list C) :
  flat_map (fun kc : sx * Q => dec_pair (fst kc)) (flat_map (fun u => map (fun l => (L [kc u; kc l], 1%Q)) X) Y)
  = flat_map (fun u => map (fun l => (u, l)) X) Y.
Proof.
  induction Y as [|y Y IH]; simpl; [reflexivity|]. rewrite flat_map_app, IH. f_equal.
  clear. induction X as [|x X IH]; simpl; [reflexivity|]. rewrite IH. reflexivity.
Qed.

Lemma ballot_pairs_eq cs r :
  ballot_pairs cs r = pairs_from r ++ flat_map (fun u => map (fun l => (u, l)) (set_diff cs (flatten r))) (flatten r).
Proof.
  unfold ballot_pairs, img_condorcet. rewrite flat_map_app, dec_cross. f_equal.
  induction r as [|i t IH]; simpl; [reflexivity|]. rewrite flat_map_app, dec_cross, IH. reflexivity.
Qed.

Fixpoint above (r : ranked) (a b : C) : Z :=
  match r with
  | [] => 0
  | i :: t => cnt a (members i) * cnt b (flatten t) + above t a b
  end.
Definition coef (cs : list C) (r : ranked) (a b : C) : Z :=
  above r a b + cnt a (flatten r) * cnt b (set_diff cs (flatten r)).

Lemma pcount_pairs_from r a b : pcount (a, b) (pairs_from r) = above r a b.
Proof. induction r as [|i t IH]; simpl; [reflexivity|]. rewrite pcount_app, pcount_cross, IH. reflexivity. Qed.

Lemma pcount_ballot cs r a b : pcount (a, b) (ballot_pairs cs r) = coef cs r a b.
Proof. rewrite ballot_pairs_eq, pcount_app, pcount_pairs_from, pcount_cross. reflexivity. Qed.

Lemma above_nonneg r a b : 0 <= above r a b.
Proof.
  induction r as [|i t IH]; cbn [above]; [lia|]. apply Z.add_nonneg_nonneg; [apply Z.mul_nonneg_nonneg; apply cnt_nonneg|exact IH].
Qed.

Lemma pget0_padd v p n q : pget0 (padd v p n) q = pget0 v q + (if peqb q p then n else 0).
Proof.
  unfold pget0. induction v as [|[p' n'] v IH]; simpl.
  - destruct (peqb q p); lia.
  - destruct (peqb p p') eqn:E; simpl.
    + apply peqb_eq in E. subst p'. destruct (peqb q p); lia.
    + destruct (peqb q p') eqn:E2; [|exact IH].
      assert (peqb q p = false) as ->; [|lia].
      apply not_true_iff_false. intros H. apply peqb_eq in H. apply peqb_eq in E2. subst. rewrite peqb_refl in E. discriminate.
Qed.

Lemma padd_keys v p n q : In q (map fst (padd v p n)) <-> q = p \/ In q (map fst v).
Proof.
  induction v as [|[p' n'] v IH]; simpl; [split; intros [H|[]]; left; symmetry; exact H|].
  destruct (peqb p p') eqn:E; simpl.
  - apply peqb_eq in E. subst p'. split; [intros [H|H]|intros [H|[H|H]]]; auto.
  - split; [intros [H|H]; [auto|apply IH in H; destruct H; auto]|intros [H|[H|H]]; [right; apply IH|left|right; apply IH]; auto].
Qed.
Lemma padd_nodup v p n : NoDup (map fst v) -> NoDup (map fst (padd v p n)).
Proof.
  induction v as [|[p' n'] v IH]; simpl; intros H; [constructor; [intros []|constructor]|].
  inversion H as [|? ? Hn Hd]; subst. destruct (peqb p p') eqn:E; simpl; [constructor; assumption|].
  constructor; [|apply IH, Hd]. rewrite padd_keys. intros [->|H1]; [rewrite peqb_refl in E; discriminate|exact (Hn H1)].
Qed.
Lemma padd_nonneg v p n : 0 <= n -> (forall q m, In (q, m) v -> 0 <= m) -> forall q m, In (q, m) (padd v p n) -> 0 <= m.
Proof.
  intros Hn. induction v as [|[p' n'] v IH]; simpl; intros Hv q m.
  - intros [[= <- <-]|[]]. exact Hn.
  - destruct (peqb p p'); simpl.
    + intros [[= <- <-]|H]; [pose proof (Hv p' n' (or_introl eq_refl)); lia|apply (Hv q m); right; exact H].
    + intros [[= <- <-]|H]; [apply (Hv p' n'); left; reflexivity|]. apply (IH (fun q m H => Hv q m (or_intror H)) q m H).
Qed.

Definition wsum (f : ranked -> Z) (votes : rvotes) : Z := fold_right (fun bw acc => snd bw * f (fst bw) + acc) 0 votes.

Lemma wsum_ext f g votes : (forall b w, In (b, w) votes -> f b = g b) -> wsum f votes = wsum g votes.
Proof.
  induction votes as [|[b w] votes IH]; simpl; intros H; [reflexivity|].
  rewrite (H b w (or_introl eq_refl)), IH; [reflexivity|]. intros b' w' H'. apply (H b' w'). right. exact H'.
Qed.

Definition pw_from (cs : list C) (votes : rvotes) (acc : pvotes) : pvotes :=
  fold_left (fun acc bw => fold_left (fun acc p => padd acc p (snd bw)) (ballot_pairs cs (fst bw)) acc) votes acc.

Lemma fold_padd_get l w : forall acc q, pget0 (fold_left (fun acc p => padd acc p w) l acc) q = pget0 acc q + w * pcount q l.
Proof.
  induction l as [|p l IH]; intros acc q; simpl; [lia|]. rewrite IH, pget0_padd. destruct (peqb q p); lia.
Qed.
Lemma fold_padd_keys l w : forall acc q, In q (map fst (fold_left (fun acc p => padd acc p w) l acc)) <-> In q l \/ In q (map fst acc).
Proof.
  induction l as [|p l IH]; intros acc q; simpl; [tauto|]. rewrite IH, padd_keys.
  split; [intros [H|[H|H]]|intros [[H|H]|H]]; auto.
Qed.
Lemma fold_padd_nodup l w : forall acc, NoDup (map fst acc) -> NoDup (map fst (fold_left (fun acc p => padd acc p w) l acc)).
Proof. apply (fold_left_inv (fun acc => NoDup (map fst acc))). intros acc p _. apply padd_nodup. Qed.
Lemma fold_padd_nonneg l w : 0 <= w -> forall acc, (forall q m, In (q, m) acc -> 0 <= m) ->
  forall q m, In (q, m) (fold_left (fun acc p => padd acc p w) l acc) -> 0 <= m.
Proof. intros Hw. apply (fold_left_inv (fun acc => forall q m, In (q, m) acc -> 0 <= m)). intros acc p _. apply padd_nonneg, Hw. Qed.

Lemma pw_from_cons cs r w votes acc :
  pw_from cs ((r, w) :: votes) acc = pw_from cs votes (fold_left (fun acc p => padd acc p w) (ballot_pairs cs r) acc).
Proof. reflexivity. Qed.
Lemma wsum_cons f r w votes : wsum f ((r, w) :: votes) = w * f r + wsum f votes.
Proof. reflexivity. Qed.

Lemma pw_from_get cs votes : forall acc a b,
  pget0 (pw_from cs votes acc) (a, b) = pget0 acc (a, b) + wsum (fun r => coef cs r a b) votes.
Proof.
  induction votes as [|[r w] votes IH]; intros acc a b; [cbn; lia|].
  rewrite pw_from_cons, IH, fold_padd_get, pcount_ballot, wsum_cons. lia.
Qed.
Lemma pw_from_keys cs votes : forall acc q,
  In q (map fst (pw_from cs votes acc)) <-> (exists r w, In (r, w) votes /\ In q (ballot_pairs cs r)) \/ In q (map fst acc).
Proof.
  induction votes as [|[r w] votes IH]; intros acc q.
  - cbn. split; [auto|intros [(r & w & [] & _)|H]; exact H].
  - rewrite pw_from_cons, IH, fold_padd_keys. split.
    + intros [(r' & w' & H1 & H2)|[H|H]]; [left; exists r', w'; split; [right; exact H1|exact H2]|left; exists r, w; split; [left; reflexivity|exact H]|auto].
    + intros [(r' & w' & [[= <- <-]|H1] & H2)|H]; [right; left; exact H2|left; exists r', w'; auto|auto].
Qed.
Lemma pw_from_nodup cs votes : forall acc, NoDup (map fst acc) -> NoDup (map fst (pw_from cs votes acc)).
Proof. apply (fold_left_inv (fun acc => NoDup (map fst acc))). intros acc bw _. apply fold_padd_nodup. Qed.
Lemma pw_from_nonneg cs votes : (forall r w, In (r, w) votes -> 0 <= w) -> forall acc, (forall q m, In (q, m) acc -> 0 <= m) ->
  forall q m, In (q, m) (pw_from cs votes acc) -> 0 <= m.
Proof.
  intros Hw. apply (fold_left_inv (fun acc => forall q m, In (q, m) acc -> 0 <= m)).
  intros acc [r w] Hin. apply fold_padd_nonneg, (Hw r w Hin).
Qed.

Definition cands_of (votes : rvotes) : list C := cands_ranked (qv votes).

Lemma pairwise_unfold votes : pairwise votes = pw_from (cands_of votes) votes [].
Proof. reflexivity. Qed.

Lemma pairwise_get votes a b : pget0 (pairwise votes) (a, b) = wsum (fun r => coef (cands_of votes) r a b) votes.
Proof. rewrite pairwise_unfold, pw_from_get. reflexivity. Qed.
Lemma pairwise_keys votes q :
  In q (map fst (pairwise votes)) <-> exists r w, In (r, w) votes /\ In q (ballot_pairs (cands_of votes) r).
Proof. rewrite pairwise_unfold, pw_from_keys. simpl. split; [intros [H|[]]; exact H|auto]. Qed.
Lemma pairwise_nodup votes : NoDup (map fst (pairwise votes)).
Proof. rewrite pairwise_unfold. apply pw_from_nodup. constructor. Qed.

Fixpoint nodupb (l : list C) : bool :=
  match l with [] => true | x :: t => negb (cmem x t) && nodupb t end.
(* no candidate twice on a ballot, no negative weight *)
Definition wf_votes (votes : rvotes) : bool :=
  forallb (fun bw : ranked * Z => nodupb (flatten (fst bw)) && (0 <=? snd bw)) votes.

Lemma nodupb_iff l : nodupb l = true <-> NoDup l.
Proof.
  induction l as [|x l IH]; simpl; [split; [constructor|reflexivity]|].
  rewrite andb_true_iff, negb_true_iff, cmem_false, IH. split; [intros [H1 H2]; constructor; assumption|intros H; inversion H; auto].
Qed.
Lemma wf_votes_spec votes : wf_votes votes = true <-> forall r w, In (r, w) votes -> NoDup (flatten r) /\ 0 <= w.
Proof.
  unfold wf_votes. rewrite forallb_forall. split.
  - intros H r w Hin. specialize (H _ Hin). cbn [fst snd] in H. apply andb_true_iff in H. destruct H as [H1 H2].
    apply nodupb_iff in H1. apply Z.leb_le in H2. auto.
  - intros H [r w] Hin. destruct (H r w Hin) as [H1 H2]. cbn [fst snd]. apply andb_true_iff. split; [apply nodupb_iff, H1|apply Z.leb_le, H2].
Qed.

Lemma pairwise_nonneg votes : wf_votes votes = true -> forall q m, In (q, m) (pairwise votes) -> 0 <= m.
Proof.
  intros Hwf. rewrite pairwise_unfold. apply pw_from_nonneg; [|intros q m []].
  intros r w H. apply (proj1 (wf_votes_spec votes) Hwf r w H).
Qed.

Lemma cands_of_spec votes x : In x (cands_of votes) <-> exists r w, In (r, w) votes /\ In x (flatten r).
Proof.
  unfold cands_of, cands_ranked, qv. rewrite (proj2 (canon_set_spec _)), in_flat_map. split.
  - intros ([r q] & Hin & Hx). apply in_map_iff in Hin. destruct Hin as ([r' w] & [= <- _] & Hin). exists r', w. auto.
  - intros (r & w & Hin & Hx). exists (r, inject_Z w). split; [|exact Hx]. apply in_map_iff. exists (r, w). auto.
Qed.
Lemma cands_of_nodup votes : NoDup (cands_of votes).
Proof. apply canon_set_spec. Qed.

Lemma flatten_app r1 r2 : flatten (r1 ++ r2) = flatten r1 ++ flatten r2.
Proof. apply flat_map_app. Qed.
Lemma flatten_cons i t : flatten (i :: t) = members i ++ flatten t.
Proof. reflexivity. Qed.

Lemma cross_in (X Y : list C) u l : In (u, l) (flat_map (fun u => map (fun l => (u, l)) X) Y) <-> In u Y /\ In l X.
Proof.
  rewrite in_flat_map. split.
  - intros (y & Hy & H). apply in_map_iff in H. destruct H as (x & [= <- <-] & Hx). auto.
  - intros [Hu Hl]. exists u. split; [exact Hu|]. apply in_map_iff. exists l. auto.
Qed.

(* the pairs of a ranking: u stands in a rank strictly before the rank of l *)
Lemma pairs_from_in r u l :
  In (u, l) (pairs_from r) <-> exists r1 r2, r = r1 ++ r2 /\ In u (flatten r1) /\ In l (flatten r2).
Proof.
  induction r as [|i t IH]; cbn [pairs_from].
  - split; [intros []|intros (r1 & r2 & H & Hu & _)]. destruct r1; [destruct Hu|discriminate].
  - split.
    + intros H. apply in_app_or in H. destruct H as [H|H].
      * apply cross_in in H. exists [i], t. rewrite flatten_cons, app_nil_r. auto.
      * apply IH in H. destruct H as (r1 & r2 & -> & Hu & Hl). exists (i :: r1), r2. rewrite flatten_cons. auto using in_or_app.
    + intros (r1 & r2 & E & Hu & Hl). destruct r1 as [|i0 r1]; [destruct Hu|]. injection E as <- ->. apply in_or_app.
      rewrite flatten_cons in Hu. apply in_app_or in Hu. destruct Hu as [Hu|Hu]; [left|right; apply IH; exists r1, r2; auto].
      apply cross_in. split; [exact Hu|]. rewrite flatten_app. apply in_or_app. right. exact Hl.
Qed.

Lemma set_diff_in cs l x : In x (set_diff cs l) <-> In x cs /\ ~ In x l.
Proof. unfold set_diff. rewrite filter_In, negb_true_iff, cmem_false. reflexivity. Qed.

(* a ballot puts u over l when it ranks u before l, or ranks u and leaves l out *)
Lemma ballot_pairs_iff cs r u l : In (u, l) (ballot_pairs cs r) <->
  (exists r1 r2, r = r1 ++ r2 /\ In u (flatten r1) /\ In l (flatten r2)) \/ (In u (flatten r) /\ In l cs /\ ~ In l (flatten r)).
Proof. rewrite ballot_pairs_eq, in_app_iff, pairs_from_in, cross_in, set_diff_in. reflexivity. Qed.

Lemma ballot_pairs_in cs r u l : In (u, l) (ballot_pairs cs r) ->
  In u (flatten r) /\ (In l (flatten r) \/ In l cs) /\ (NoDup (flatten r) -> u <> l).
Proof.
  rewrite ballot_pairs_iff. intros [(r1 & r2 & -> & Hu & Hl)|(Hu & Hl & Hn)].
  - rewrite flatten_app, !in_app_iff. split; [auto|]. split; [auto|].
    intros Hnd E. subst l. exact (nodup_app_disj _ _ Hnd u Hu Hl).
  - split; [exact Hu|]. split; [right; exact Hl|]. intros _ E. subst l. exact (Hn Hu).
Qed.

Lemma key_cands votes r w a b : In (r, w) votes -> In (a, b) (ballot_pairs (cands_of votes) r) ->
  In a (candidates (pairwise votes)) /\ In b (candidates (pairwise votes)).
Proof.
  intros Hin Hp. assert (Hk : In (a, b) (map fst (pairwise votes))) by (apply pairwise_keys; exists r, w; auto).
  apply in_map_iff in Hk. destruct Hk as ([q n] & E & Hk). cbn [fst] in E. subst q.
  split; apply (candidates_spec (pairwise votes)); exists (a, b), n; cbn [fst snd]; auto.
Qed.

Lemma candidates_pairwise_in votes c : In c (candidates (pairwise votes)) -> In c (cands_of votes).
Proof.
  intros H. apply (candidates_spec (pairwise votes)) in H. destruct H as ([u l] & n & Hin & Hc). cbn [fst snd] in Hc.
  assert (Hk : In (u, l) (map fst (pairwise votes))) by (apply in_map_iff; exists ((u, l), n); auto).
  apply pairwise_keys in Hk. destruct Hk as (r & w & Hr & Hp). apply ballot_pairs_in in Hp. destruct Hp as (Hu & Hl & _).
  destruct Hc as [->| ->].
  - apply cands_of_spec. exists r, w. auto.
  - destruct Hl as [Hl|Hl]; [apply cands_of_spec; exists r, w; auto|exact Hl].
Qed.

Lemma two_in_length {X} (L : list X) u l : In u L -> In l L -> u <> l -> (2 <= length L)%nat.
Proof.
  destruct L as [|a [|b t]]; cbn [length]; intros Hu Hl Hne; [destruct Hu| |lia].
  destruct Hu as [<-|[]], Hl as [<-|[]]. congruence.
Qed.

Lemma nodup_two {X} (L : list X) : NoDup L -> (2 <= length L)%nat -> exists x y, In x L /\ In y L /\ x <> y.
Proof.
  destruct L as [|x [|y t]]; cbn [length]; intros Hn H2; try lia. exists x, y.
  split; [left; reflexivity|]. split; [right; left; reflexivity|]. intros ->. inversion Hn as [|? ? Hx _]. apply Hx. left. reflexivity.
Qed.

Lemma pairwise_has_key votes : pairwise votes <> [] ->
  exists r w u l, In (r, w) votes /\ In (u, l) (ballot_pairs (cands_of votes) r).
Proof.
  intros Hne. destruct (pairwise votes) as [|[[u l] n] t] eqn:E; [congruence|].
  assert (Hk : In (u, l) (map fst (pairwise votes))) by (rewrite E; left; reflexivity).
  apply pairwise_keys in Hk. destruct Hk as (r & w & Hk). exists r, w, u, l. exact Hk.
Qed.

Lemma pairwise_two votes : wf_votes votes = true -> pairwise votes <> [] -> (2 <= length (candidates (pairwise votes)))%nat.
Proof.
  intros Hwf Hne. destruct (pairwise_has_key votes Hne) as (r & w & u & l & Hr & Hp).
  destruct (key_cands votes r w u l Hr Hp) as [Hu Hl]. apply (two_in_length _ u l Hu Hl).
  apply (ballot_pairs_in _ _ _ _ Hp). apply (proj1 (wf_votes_spec votes) Hwf r w Hr).
Qed.

Lemma pairwise_cands_two votes c : wf_votes votes = true -> In c (candidates (pairwise votes)) ->
  (2 <= length (candidates (pairwise votes)))%nat.
Proof. intros Hwf Hc. apply pairwise_two; [exact Hwf|]. intros E. rewrite E in Hc. exact Hc. Qed.

(* every candidate of a profile whose pairwise dictionary is not empty is a candidate of the dictionary *)
Lemma cands_in_pairwise votes x : wf_votes votes = true -> pairwise votes <> [] -> In x (cands_of votes) ->
  In x (candidates (pairwise votes)).
Proof.
  intros _ Hne Hx. destruct (pairwise_has_key votes Hne) as (r & w & u & l & Hr & Hp).
  (* a ballot that orders u and l has a pair for every candidate *)
  assert (Hq : exists a b, In (a, b) (ballot_pairs (cands_of votes) r) /\ (x = a \/ x = b)).
  { destruct (in_dec Pos.eq_dec x (flatten r)) as [Hin|Hout].
    - apply ballot_pairs_iff in Hp. destruct Hp as [(r1 & r2 & -> & Hu & Hl)|(Hu & Hl & Hn)].
      + rewrite flatten_app in Hin. apply in_app_or in Hin.
        destruct Hin as [Hin|Hin]; [exists x, l|exists u, x]; (split; [apply ballot_pairs_iff; left; exists r1, r2|]; auto).
      + exists x, l. split; [apply ballot_pairs_iff|]; auto.
    - exists u, x. split; [apply ballot_pairs_iff; right|auto]. split; [apply (ballot_pairs_in _ _ _ _ Hp)|auto]. }
  destruct Hq as (a & b & Hab & [->| ->]); apply (key_cands votes r w _ _ Hr Hab).
Qed.

Lemma item_eqb_mem i j : item_eqb i j = true -> forall x, In x (members i) <-> In x (members j).
Proof.
  destruct i as [c|l], j as [d|m]; cbn [item_eqb members]; try discriminate.
  - intros H x. apply ceqb_eq in H. subst. reflexivity.
  - intros H x. apply andb_true_iff in H. destruct H as [H1 H2]. rewrite forallb_forall in H1, H2.
    split; intros Hx; [apply cmem_In, H1, Hx|apply cmem_In, H2, Hx].
Qed.

Lemma ballot_eqb_mem : forall b b', ballot_eqb b b' = true -> forall x, In x (flatten b) <-> In x (flatten b').
Proof.
  induction b as [|i b IH]; intros [|j b'] H x; cbn [ballot_eqb] in H; try discriminate; [reflexivity|].
  apply andb_true_iff in H. destruct H as [H1 H2]. rewrite !flatten_cons, !in_app_iff, (item_eqb_mem i j H1 x), (IH b' H2 x). reflexivity.
Qed.

Lemma cnt_iff l m y : NoDup l -> NoDup m -> (In y l <-> In y m) -> cnt y l = cnt y m.
Proof.
  intros Hl Hm H. rewrite (cnt_nodup y l Hl), (cnt_nodup y m Hm).
  replace (cmem y l) with (cmem y m); [reflexivity|]. apply eq_true_iff_eq. rewrite !cmem_In. symmetry. exact H.
Qed.

Lemma ballot_eqb_above : forall b b', ballot_eqb b b' = true -> NoDup (flatten b) -> NoDup (flatten b') ->
  forall x y, above b x y = above b' x y.
Proof.
  induction b as [|i b IH]; intros [|j b'] H Hn Hn' x y; cbn [ballot_eqb] in H; try discriminate; [reflexivity|].
  apply andb_true_iff in H. destruct H as [H1 H2]. rewrite flatten_cons in Hn, Hn'. cbn [above].
  rewrite (IH b' H2 (nodup_app_r _ _ Hn) (nodup_app_r _ _ Hn') x y).
  rewrite (cnt_iff (members i) (members j) x (nodup_app_l _ _ Hn) (nodup_app_l _ _ Hn') (item_eqb_mem i j H1 x)).
  rewrite (cnt_iff (flatten b) (flatten b') y (nodup_app_r _ _ Hn) (nodup_app_r _ _ Hn') (ballot_eqb_mem b b' H2 y)).
  reflexivity.
Qed.

Lemma ballot_eqb_coef b b' : ballot_eqb b b' = true -> NoDup (flatten b) -> NoDup (flatten b') ->
  forall cs x y, coef cs b x y = coef cs b' x y.
Proof.
  intros H Hn Hn' cs x y. unfold coef. rewrite (ballot_eqb_above b b' H Hn Hn' x y).
  rewrite (cnt_iff (flatten b) (flatten b') x Hn Hn' (ballot_eqb_mem b b' H x)).
  unfold set_diff. rewrite !cnt_filter, (cmem_ext (flatten b) (flatten b') (ballot_eqb_mem b b' H) y). reflexivity.
Qed.

Definition sub_item (S : list C) (i : item) : list item :=
  match i with
  | IP c => if cmem c S then [IP c] else []
  | IS l => match filter (fun c => cmem c S) l with
            | [] => []
            | [c] => [IP c]
            | l' => [IS l']
            end
  end.
Lemma sub_ranked_cons S i t : sub_ranked S (i :: t) = sub_item S i ++ sub_ranked S t.
Proof. reflexivity. Qed.

Lemma sub_item_cases S i :
  (sub_item S i = [] /\ filter (fun c => cmem c S) (members i) = []) \/
  (exists i', sub_item S i = [i'] /\ members i' = filter (fun c => cmem c S) (members i)).
Proof.
  destruct i as [c|l]; cbn [sub_item members filter].
  - destruct (cmem c S); [right; exists (IP c); auto|left; auto].
  - destruct (filter (fun c => cmem c S) l) as [|c [|d t]]; [left; auto|right; exists (IP c); auto|right; exists (IS (c :: d :: t)); auto].
Qed.

Lemma flatten_sub S r : flatten (sub_ranked S r) = filter (fun c => cmem c S) (flatten r).
Proof.
  induction r as [|i t IH]; [reflexivity|]. rewrite sub_ranked_cons, flatten_app, flatten_cons, filter_app, IH. f_equal.
  destruct (sub_item_cases S i) as [[E1 E2]|(i' & E1 & E2)]; rewrite E1; [rewrite E2; reflexivity|].
  cbn [flatten flat_map]. rewrite app_nil_r. exact E2.
Qed.

Lemma above_sub S r a b : cmem a S = true -> cmem b S = true -> above (sub_ranked S r) a b = above r a b.
Proof.
  intros Ha Hb. induction r as [|i t IH]; [reflexivity|]. rewrite sub_ranked_cons. cbn [above].
  assert (Hc : cnt a (filter (fun c => cmem c S) (members i)) = cnt a (members i)) by (rewrite cnt_filter, Ha; reflexivity).
  destruct (sub_item_cases S i) as [[E1 E2]|(i' & E1 & E2)]; rewrite E1; cbn [app above].
  - rewrite E2 in Hc. cbn in Hc. rewrite <- Hc, IH. lia.
  - rewrite E2, Hc, IH, flatten_sub, cnt_filter, Hb. reflexivity.
Qed.

Lemma nodup_filter {X} (f : X -> bool) l : NoDup l -> NoDup (filter f l).
Proof. apply NoDup_filter. Qed.

Lemma wsum_vadd f v b w :
  (forall b' w', In (b', w') v -> ballot_eqb b b' = true -> f b' = f b) -> wsum f (vadd v b w) = wsum f v + w * f b.
Proof.
  induction v as [|[b' w'] v IH]; intros H; cbn [vadd]; [cbn; lia|].
  destruct (ballot_eqb b b') eqn:E.
  - rewrite !wsum_cons, (H b' w' (or_introl eq_refl) E). lia.
  - rewrite !wsum_cons, IH; [lia|]. intros b2 w2 H2. apply (H b2 w2). right. exact H2.
Qed.
Lemma vadd_keys v b w k : In k (map fst (vadd v b w)) -> k = b \/ In k (map fst v).
Proof.
  induction v as [|[b' w'] v IH]; cbn [vadd]; [intros [<-|[]]; auto|].
  destruct (ballot_eqb b b'); cbn [map fst]; [auto|]. intros [<-|H]; [right; left; reflexivity|]. destruct (IH H); [auto|right; right; assumption].
Qed.
Lemma vadd_keys_mono v b w k : In k (map fst v) -> In k (map fst (vadd v b w)).
Proof.
  induction v as [|[b' w'] v IH]; cbn [vadd]; [intros []|]. destruct (ballot_eqb b b'); cbn [map fst]; [auto|].
  intros [<-|H]; [left; reflexivity|right; apply IH, H].
Qed.
Lemma vadd_keys_has v b w : exists k, In k (map fst (vadd v b w)) /\ ballot_eqb b k = true.
Proof.
  induction v as [|[b' w'] v IH]; cbn [vadd]; [exists b; split; [left; reflexivity|apply ballot_eqb_refl]|].
  destruct (ballot_eqb b b') eqn:E; [exists b'; split; [left; reflexivity|exact E]|].
  destruct IH as (k & Hk & Ek). exists k. split; [right; exact Hk|exact Ek].
Qed.
Lemma vadd_weights v b w : 0 <= w -> (forall k w', In (k, w') v -> 0 <= w') -> forall k w', In (k, w') (vadd v b w) -> 0 <= w'.
Proof.
  intros Hw. induction v as [|[b' w0] v IH]; cbn [vadd]; intros Hv k w'.
  - intros [[= <- <-]|[]]. exact Hw.
  - destruct (ballot_eqb b b').
    + intros [[= <- <-]|H]; [pose proof (Hv b' w0 (or_introl eq_refl)); lia|apply (Hv k w'); right; exact H].
    + intros [[= <- <-]|H]; [apply (Hv b' w0); left; reflexivity|]. apply (IH (fun k w' H => Hv k w' (or_intror H)) k w' H).
Qed.

Definition sub_from (S : list C) (votes acc : rvotes) : rvotes :=
  fold_left (fun acc bw => vadd acc (sub_ranked S (fst bw)) (snd bw)) votes acc.
Lemma sub_from_cons S r w votes acc : sub_from S ((r, w) :: votes) acc = sub_from S votes (vadd acc (sub_ranked S r) w).
Proof. reflexivity. Qed.
Lemma subset_votes_unfold S votes : subset_votes S votes = sub_from S votes [].
Proof. reflexivity. Qed.

Lemma sub_from_keys S votes : forall acc k, In k (map fst (sub_from S votes acc)) ->
  In k (map fst acc) \/ exists r w, In (r, w) votes /\ k = sub_ranked S r.
Proof.
  intros acc. apply (fold_left_inv (fun a => forall k, In k (map fst a) ->
    In k (map fst acc) \/ exists r w, In (r, w) votes /\ k = sub_ranked S r)); [|auto].
  intros a [r w] Hin IH k Hk. destruct (vadd_keys _ _ _ _ Hk) as [->|H]; [right; exists r, w; auto|apply IH, H].
Qed.
Lemma sub_from_keys_mono S votes : forall acc k, In k (map fst acc) -> In k (map fst (sub_from S votes acc)).
Proof. intros acc k. revert acc. apply (fold_left_inv (fun acc => In k (map fst acc))). intros acc bw _. apply vadd_keys_mono. Qed.
Lemma sub_from_keys_has S votes : forall acc r w, In (r, w) votes ->
  exists k, In k (map fst (sub_from S votes acc)) /\ ballot_eqb (sub_ranked S r) k = true.
Proof.
  induction votes as [|[r0 w0] votes IH]; intros acc r w H; [destruct H|]. rewrite sub_from_cons. destruct H as [[= -> ->]|H].
  - destruct (vadd_keys_has acc (sub_ranked S r) w) as (k & Hk & Ek). exists k. split; [apply sub_from_keys_mono, Hk|exact Ek].
  - apply (IH _ r w H).
Qed.
Lemma sub_from_weights S votes : (forall r w, In (r, w) votes -> 0 <= w) -> forall acc, (forall k w', In (k, w') acc -> 0 <= w') ->
  forall k w', In (k, w') (sub_from S votes acc) -> 0 <= w'.
Proof.
  intros Hw. apply (fold_left_inv (fun acc => forall k w', In (k, w') acc -> 0 <= w')).
  intros acc [r w] Hin. apply vadd_weights, (Hw r w Hin).
Qed.

(* f respects ballot equality among the ballots satisfying G *)
Lemma sub_from_wsum (G : ranked -> Prop) f S votes :
  (forall b b', G b -> G b' -> ballot_eqb b b' = true -> f b' = f b) ->
  (forall r w, In (r, w) votes -> G (sub_ranked S r)) ->
  forall acc, (forall k, In k (map fst acc) -> G k) ->
  wsum f (sub_from S votes acc) = wsum f acc + wsum (fun r => f (sub_ranked S r)) votes.
Proof.
  intros Hf. induction votes as [|[r w] votes IH]; intros HG acc Hacc.
  { change (sub_from S [] acc) with acc. change (wsum (fun r => f (sub_ranked S r)) []) with 0. lia. }
  rewrite sub_from_cons, IH.
  - rewrite wsum_vadd, wsum_cons; [lia|]. intros b' w' Hin E. apply Hf; [apply (HG r w); left; reflexivity| |exact E].
    apply Hacc. apply in_map_iff. exists (b', w'). auto.
  - intros r' w' H'. apply (HG r' w'). right. exact H'.
  - intros k Hk. destruct (vadd_keys _ _ _ _ Hk) as [->|H]; [apply (HG r w); left; reflexivity|apply Hacc, H].
Qed.

Lemma subset_votes_in S votes k w' : In (k, w') (subset_votes S votes) -> exists r w, In (r, w) votes /\ k = sub_ranked S r.
Proof.
  intros Hin. destruct (sub_from_keys S votes [] k) as [[]|H]; [|exact H].
  rewrite <- subset_votes_unfold. apply in_map_iff. exists (k, w'). auto.
Qed.

Lemma subset_wf S votes : wf_votes votes = true -> wf_votes (subset_votes S votes) = true.
Proof.
  intros Hwf. apply wf_votes_spec. intros k w' Hin. pose proof (proj1 (wf_votes_spec votes) Hwf) as Hv. split.
  - destruct (subset_votes_in S votes k w' Hin) as (r & w & Hr & ->).
    rewrite flatten_sub. apply nodup_filter. apply (Hv r w Hr).
  - rewrite subset_votes_unfold in Hin. revert Hin. apply sub_from_weights; [intros r w Hr; apply (Hv r w Hr)|intros ? ? []].
Qed.

Lemma subset_cands S votes x : In x (cands_of (subset_votes S votes)) <-> In x S /\ In x (cands_of votes).
Proof.
  rewrite !cands_of_spec. split.
  - intros (k & w' & Hin & Hx). destruct (subset_votes_in S votes k w' Hin) as (r & w & Hr & ->).
    rewrite flatten_sub, filter_In, cmem_In in Hx. destruct Hx as [Hx HS]. split; [exact HS|exists r, w; auto].
  - intros (HS & r & w & Hr & Hx). destruct (sub_from_keys_has S votes [] r w Hr) as (k & Hk & Ek).
    apply in_map_iff in Hk. destruct Hk as ([k' w'] & E & Hk). cbn [fst] in E. subst k'.
    exists k, w'. split; [exact Hk|]. apply (ballot_eqb_mem _ _ Ek). rewrite flatten_sub, filter_In, cmem_In. auto.
Qed.

(* restricting the ballots to a set of candidates restricts the pairwise dictionary to that set *)
Theorem subset_restriction S votes a b : wf_votes votes = true -> In a S -> In b S ->
  pget0 (pairwise (subset_votes S votes)) (a, b) = pget0 (pairwise votes) (a, b).
Proof.
  intros Hwf Ha Hb. rewrite !pairwise_get. set (cs' := cands_of (subset_votes S votes)). set (cs := cands_of votes).
  pose proof (proj1 (wf_votes_spec votes) Hwf) as Hv.
  rewrite subset_votes_unfold, (sub_from_wsum (fun k => NoDup (flatten k)) (fun r => coef cs' r a b) S votes).
  - cbn [wsum fold_right]. rewrite Z.add_0_l. apply wsum_ext. intros r w Hr. unfold coef.
    rewrite (above_sub S r a b (proj2 (cmem_In a S) Ha) (proj2 (cmem_In b S) Hb)), flatten_sub, cnt_filter, (proj2 (cmem_In a S) Ha).
    do 2 f_equal. apply cnt_iff; [apply nodup_filter, cands_of_nodup|apply nodup_filter, cands_of_nodup|].
    split; intros H; apply set_diff_in in H; apply set_diff_in; destruct H as [Hc Hn].
    + apply subset_cands in Hc. split; [apply Hc|]. intros Hf. apply Hn, filter_In. split; [exact Hf|apply cmem_In, Hb].
    + split; [apply subset_cands; auto|]. intros Hf. apply filter_In in Hf. apply Hn, Hf.
  - intros k k' Hk Hk' E. symmetry. apply ballot_eqb_coef; assumption.
  - intros r w Hr. rewrite flatten_sub. apply nodup_filter, (Hv r w Hr).
  - intros k [].
Qed.

Lemma pairwise_cw_winner votes c : wf_votes votes = true -> is_cw (pairwise votes) c -> condorcet_winner (pairwise votes) = [c].
Proof.
  intros Hwf Hcw. pose proof Hcw as [Hc _].
  apply (cw_spec (pairwise votes) (pairwise_nodup votes) (pairwise_nonneg votes Hwf) (pairwise_cands_two votes c Hwf Hc)). exact Hcw.
Qed.

Lemma firstn_nodup {X} (l : list X) : forall n, NoDup l -> NoDup (firstn n l).
Proof. intros n H. rewrite <- (firstn_skipn n l) in H. exact (nodup_app_l _ _ H). Qed.
Lemma smith_nodup v : NoDup (smith_schwartz v true).
Proof. destruct (smith_schwartz_closed v true) as (-> & _). apply firstn_nodup, order_nodup. Qed.

Lemma nodup_incl_single (l : list C) c : NoDup l -> l <> [] -> incl l [c] -> l = [c].
Proof.
  intros Hnd Hne Hi. destruct l as [|x [|y t]]; [congruence| |].
  - destruct (Hi x (or_introl eq_refl)) as [<-|[]]. reflexivity.
  - destruct (Hi x (or_introl eq_refl)) as [<-|[]]. destruct (Hi y (or_intror (or_introl eq_refl))) as [<-|[]].
    inversion Hnd as [|? ? Hn _]; subst. exfalso. apply Hn. left. reflexivity.
Qed.

Lemma smith_cw votes c : wf_votes votes = true -> is_cw (pairwise votes) c -> smith_schwartz (pairwise votes) true = [c].
Proof.
  intros Hwf Hcw. pose proof Hcw as [Hc Hall]. pose proof (pairwise_cands_two votes c Hwf Hc) as H2.
  apply nodup_incl_single; [apply smith_nodup|exact (proj1 (smith_dominating (pairwise votes) H2))|].
  apply (smith_minimal (pairwise votes) (pairwise_nonneg votes Hwf) H2 [c]); [discriminate|].
  intros a b [<-|[]] Hb Hnb. apply Hall; [exact Hb|]. intros ->. apply Hnb. left. reflexivity.
Qed.

Lemma tideman_tier_unfold fx sc f round : round <> [] ->
  tideman_tier fx sc (S f) round =
  match winner_set sc round with
  | [w] => inl (Cand w)
  | sset =>
      let round1 := subset_votes sset round in
      match eliminate_one round1 with
      | None => inr H_index
      | Some rem =>
          if fx && has_tie rem then inr H_nie
          else match rem with
               | [r] => inl r
               | _ => tideman_tier fx sc f (subset_votes (plain rem) round1)
               end
      end
  end.
Proof. destruct round; [congruence|reflexivity]. Qed.

(* with a pairwise contest the winner set is the Smith set, whether or not the fallback is there *)
Lemma winner_set_smith sc round : smith_schwartz (pairwise round) true <> [] ->
  winner_set sc round = smith_schwartz (pairwise round) true.
Proof. unfold winner_set. destruct (smith_schwartz (pairwise round) true); [congruence|reflexivity]. Qed.

Lemma smith_nonempty votes : wf_votes votes = true -> pairwise votes <> [] -> smith_schwartz (pairwise votes) true <> [].
Proof. intros Hwf Hne. exact (proj1 (smith_dominating (pairwise votes) (pairwise_two votes Hwf Hne))). Qed.

Lemma winner_set_contest sc round : wf_votes round = true -> pairwise round <> [] ->
  winner_set sc round = smith_schwartz (pairwise round) true.
Proof. intros Hwf Hne. apply winner_set_smith, smith_nonempty; assumption. Qed.

Lemma qv_in votes r w : In (r, w) votes -> In (r, inject_Z w) (qv votes).
Proof. intros H. unfold qv. apply in_map_iff. exists (r, w). auto. Qed.

Lemma cands_all_ranked votes x : In x (cands_of votes) -> In x (all_ranked_candidates (qv votes)).
Proof.
  intros H. apply cands_of_spec in H. destruct H as (r & w & Hr & Hx). unfold flatten in Hx. apply in_flat_map in Hx.
  destruct Hx as (it & Hit & Hx). exact (all_ranked_in (qv votes) r (inject_Z w) it x (qv_in votes r w Hr) Hit Hx).
Qed.

Lemma nodup_snoc {X} (l : list X) c : NoDup l -> ~ In c l -> NoDup (l ++ [c]).
Proof. intros Hn Hc. apply (Permutation_NoDup (Permutation_cons_append l c)). constructor; assumption. Qed.
Section ARC.
  Variable votes : list (ballot * Q).
  Definition ranked_somewhere (x : C) : Prop := exists b w it, In (b, w) votes /\ In it b /\ In x (members it).
  Definition arc_good (acc : list C) : Prop := NoDup acc /\ forall x, In x acc -> ranked_somewhere x.

  Lemma addall_good l : forall acc, arc_good acc -> (forall x, In x l -> ranked_somewhere x) ->
    arc_good (fold_left (fun acc c => if cmem c acc then acc else acc ++ [c]) l acc).
  Proof.
    intros acc Hg Hl. revert acc Hg. apply fold_left_inv. intros acc c Hc Hg.
    destruct (cmem c acc) eqn:E; [exact Hg|]. destruct Hg as [Hn Hr]. split.
    - apply nodup_snoc; [exact Hn|apply cmem_false, E].
    - intros x Hx. apply in_app_or in Hx. destruct Hx as [Hx|[<-|[]]]; [apply Hr, Hx|apply Hl, Hc].
  Qed.

  Lemma mid_good i (vs : list (ballot * Q)) : incl vs votes -> forall acc, arc_good acc ->
    arc_good (fold_left (fun acc (bw : ballot * Q) => match nth_error (fst bw) i with
                 | Some it => fold_left (fun acc c => if cmem c acc then acc else acc ++ [c]) (members it) acc
                 | None => acc end) vs acc).
  Proof.
    intros Hi. apply fold_left_inv. intros acc [b w] Hin Hg. cbn [fst].
    destruct (nth_error b i) as [it|] eqn:E; [|exact Hg]. apply addall_good; [exact Hg|].
    intros x Hx. exists b, w, it. split; [apply Hi, Hin|]. split; [apply (nth_error_In _ _ E)|exact Hx].
  Qed.

  Lemma arc_good_all : arc_good (all_ranked_candidates votes).
  Proof.
    unfold all_ranked_candidates. cbv zeta. apply fold_left_inv; [|split; [constructor|intros x []]].
    intros acc i _. apply mid_good, incl_refl.
  Qed.
End ARC.

Lemma arc_nodup votes : NoDup (all_ranked_candidates (qv votes)).
Proof. apply (arc_good_all (qv votes)). Qed.

Lemma arc_iff votes x : In x (all_ranked_candidates (qv votes)) <-> In x (cands_of votes).
Proof.
  split; [|apply cands_all_ranked]. intros H. apply (proj2 (arc_good_all (qv votes))) in H.
  destruct H as (b & w & it & Hb & Hit & Hx). apply cands_of_spec. unfold qv in Hb. apply in_map_iff in Hb.
  destruct Hb as ([b' w'] & [= <- _] & Hb). exists b', w'. split; [exact Hb|]. unfold flatten. apply in_flat_map. exists it. auto.
Qed.

Lemma arc_subset S votes x : incl S (all_ranked_candidates (qv votes)) ->
  In x (all_ranked_candidates (qv (subset_votes S votes))) <-> In x S.
Proof.
  intros Hi. split; intros H.
  - apply arc_iff, subset_cands in H. apply H.
  - apply arc_iff, subset_cands. split; [exact H|apply arc_iff, Hi, H].
Qed.
Lemma arc_subset_length S votes : NoDup S -> incl S (all_ranked_candidates (qv votes)) ->
  length (all_ranked_candidates (qv (subset_votes S votes))) = length S.
Proof. intros Hn Hi. apply Permutation_length, NoDup_Permutation; [apply arc_nodup|exact Hn|]. intros x. apply arc_subset, Hi. Qed.

Lemma arc_two votes : wf_votes votes = true -> pairwise votes <> [] -> (2 <= length (all_ranked_candidates (qv votes)))%nat.
Proof.
  intros Hwf Hne. etransitivity; [exact (pairwise_two votes Hwf Hne)|].
  apply NoDup_incl_length; [apply candidates_NoDup|]. intros x Hx. apply arc_iff, candidates_pairwise_in, Hx.
Qed.

(* Benham.get_condorcet_winner with two or more candidates on the ballots: CondorcetWinner's answer, repaired or not *)
Lemma benham_cw_two sc cur : (2 <= length (all_ranked_candidates (qv cur)))%nat -> benham_cw sc cur = condorcet_winner (pairwise cur).
Proof. unfold benham_cw. destruct (all_ranked_candidates (qv cur)) as [|x [|y t]]; cbn [length]; intros H; try lia; reflexivity. Qed.

Theorem cw_benham fx sc votes c : wf_votes votes = true -> is_cw (pairwise votes) c -> benham fx sc votes = H_ok [Cand c].
Proof.
  intros Hwf Hcw. pose proof Hcw as [Hc _].
  assert (Hne : pairwise votes <> []) by (intros E; rewrite E in Hc; exact Hc).
  unfold benham. cbn [benham_loop]. rewrite (benham_cw_two sc votes (arc_two votes Hwf Hne)), (pairwise_cw_winner votes c Hwf Hcw). reflexivity.
Qed.

Theorem cw_tideman fx sc tr votes c : wf_votes votes = true -> is_cw (pairwise votes) c -> tideman_alt fx sc tr votes 1 = H_ok [Cand c].
Proof.
  intros Hwf Hcw. pose proof Hcw as [Hc _]. unfold tideman_alt. cbn [tideman_loop]. unfold tier_fuel_of.
  assert (Hne : votes <> []) by (intros ->; exact Hc).
  assert (Hne2 : pairwise votes <> []) by (intros E; rewrite E in Hc; exact Hc).
  rewrite (tideman_tier_unfold fx sc _ votes Hne), (winner_set_contest sc votes Hwf Hne2), (smith_cw votes c Hwf Hcw).
  assert (Hm : cmem c (all_ranked_candidates (qv votes)) = true).
  { apply cmem_In, cands_all_ranked, candidates_pairwise_in, Hc. }
  rewrite Hm. reflexivity.
Qed.

Lemma qv_nonneg votes : wf_votes votes = true -> forall b w, In (b, w) (qv votes) -> (0 <= w)%Q.
Proof.
  intros Hwf b w H. unfold qv in H. apply in_map_iff in H. destruct H as ([b' w'] & [= <- <-] & H).
  destruct (proj1 (wf_votes_spec votes) Hwf b' w' H) as [_ Hw]. change 0%Q with (inject_Z 0). rewrite <- Zle_Qle. exact Hw.
Qed.

Lemma totals_keys votes : wf_votes votes = true ->
  map fst (some_totals (totals (initial_allocation (qv votes)))) = all_ranked_candidates (qv votes).
Proof.
  intros Hwf. change (some_totals (totals (initial_allocation (qv votes)))) with (in_play (initial_allocation (qv votes))).
  rewrite in_play_keys.
  assert (Hne : [1%positive] <> []) by discriminate.
  exact (proj1 (proj2 (proj2 (initial_psc [1%positive] (qv votes) [] Hne (qv_nonneg votes Hwf))))).
Qed.

Lemma plain_map_cand l : plain (map Cand l) = l.
Proof. induction l as [|x l IH]; cbn; [reflexivity|]. f_equal. exact IH. Qed.
Lemma map_cand_inj (a b : list C) : map (@Cand C) a = map Cand b -> a = b.
Proof. intros H. rewrite <- (plain_map_cand a), H. apply plain_map_cand. Qed.
Lemma has_tie_app (a b : list (res C)) : has_tie (a ++ b) = has_tie a || has_tie b.
Proof. unfold has_tie. apply existsb_app. Qed.

(* a selection without a tie: n distinct plain candidates, each with strictly more than every candidate left out *)
Lemma gnb_plain (tot : list (C * Q)) n : NoDup (map fst tot) -> (1 <= n)%nat -> (n < length tot)%nat ->
  has_tie (get_n_best Qle_bool tot n) = false ->
  exists R, get_n_best Qle_bool tot n = map Cand R /\ NoDup R /\ incl R (map fst tot) /\ length R = n /\
            forall a va c vc, In (a, va) tot -> In (c, vc) tot -> In a R -> ~ In c R -> (vc < va)%Q.
Proof.
  intros Hnd H1 Hlt Ht.
  destruct (get_n_best_keys Qle_bool Qle_bool_total Qle_bool_trans tot n H1 Hnd)
    as [(R & E & NR & IR & Hlen & Hsep)|(A & T & thr & k & E & _ & _ & _ & _ & _ & Hk)].
  - exists R. split; [exact E|]. split; [exact NR|]. split; [exact IR|]. split; [lia|].
    intros a va c vc Ha Hc HaR HcR. apply ltb_Qlt. exact (Hsep a va c vc HaR Ha Hc HcR).
  - exfalso. rewrite E, has_tie_app in Ht. destruct k as [|k]; [lia|].
    cbn [repeat has_tie existsb] in Ht. rewrite orb_true_r in Ht. discriminate.
Qed.

(* what eliminate_one answers with: nothing when one candidate is left, else all but the last of the first-preference totals *)
Lemma eliminate_one_some cur rem : eliminate_one cur = Some rem ->
  (length (all_ranked_candidates (qv cur)) = 1 /\ rem = [])%nat \/
  exists m, length (all_ranked_candidates (qv cur)) = S (S m) /\
            rem = get_n_best Qle_bool (some_totals (totals (initial_allocation (qv cur)))) (S m).
Proof.
  unfold eliminate_one. destruct (length (all_ranked_candidates (qv cur))) as [|[|m]]; [discriminate| |]; intros [= <-].
  - left. split; reflexivity.
  - right. exists m. split; reflexivity.
Qed.

Lemma has_tie_map_cand (R : list C) : has_tie (map Cand R) = false.
Proof. induction R as [|x R IH]; [reflexivity|exact IH]. Qed.

(* the survivors of an elimination without a tie: all candidates but one, which had strictly fewer first preferences *)
Lemma elim_strict cur rem : wf_votes cur = true -> eliminate_one cur = Some rem -> has_tie rem = false ->
  exists R, rem = map Cand R /\ NoDup R /\ incl R (all_ranked_candidates (qv cur)) /\
            length R = (length (all_ranked_candidates (qv cur)) - 1)%nat /\
            forall a va c vc, In (a, va) (some_totals (totals (initial_allocation (qv cur)))) ->
              In (c, vc) (some_totals (totals (initial_allocation (qv cur)))) -> In a R -> ~ In c R -> (vc < va)%Q.
Proof.
  intros Hwf He Ht. pose proof (totals_keys cur Hwf) as Hk.
  destruct (eliminate_one_some cur rem He) as [[El ->]|(m & El & ->)].
  - exists []. rewrite El. split; [reflexivity|]. split; [constructor|]. split; [intros x []|]. split; [reflexivity|intros a va c vc _ _ []].
  - set (tot := some_totals (totals (initial_allocation (qv cur)))) in *.
    assert (Hlen : length tot = S (S m)) by (rewrite <- El, <- Hk, map_length; reflexivity).
    destruct (gnb_plain tot (S m)) as (R & E1 & E2 & E3 & E4 & E5); [rewrite Hk; apply arc_nodup|lia|lia|exact Ht|].
    exists R. rewrite El, E4, <- Hk. split; [exact E1|]. split; [exact E2|]. split; [exact E3|]. split; [lia|exact E5].
Qed.

Lemma elim_spec cur rem : wf_votes cur = true -> eliminate_one cur = Some rem -> has_tie rem = false ->
  exists R, rem = map Cand R /\ NoDup R /\ incl R (all_ranked_candidates (qv cur)) /\
            length R = (length (all_ranked_candidates (qv cur)) - 1)%nat.
Proof.
  intros Hwf He Ht. destruct (elim_strict cur rem Hwf He Ht) as (R & E1 & E2 & E3 & E4 & _). exists R. auto.
Qed.

(* at most one candidate is dropped *)
Lemma drop_one (R K : list C) x y : NoDup R -> incl R K -> (length R = length K - 1)%nat ->
  In x K -> In y K -> ~ In x R -> ~ In y R -> x = y.
Proof.
  intros Hn Hi Hl Hx Hy Hnx Hny. destruct (Pos.eq_dec x y) as [E|E]; [exact E|exfalso].
  assert (Hn2 : NoDup (x :: y :: R)).
  { constructor; [intros [H|H]; [exact (E (eq_sym H))|exact (Hnx H)]|]. constructor; assumption. }
  assert (Hi2 : incl (x :: y :: R) K) by (intros z [<-|[<-|Hz]]; auto).
  pose proof (NoDup_incl_length Hn2 Hi2) as H. cbn [length] in H. destruct K; [destruct Hx|]. cbn [length] in *. lia.
Qed.

Lemma smith_in_cands v x : In x (smith_schwartz v true) -> In x (candidates v).
Proof.
  destruct (le_lt_dec 2 (length (candidates v))) as [H2|H2]; [apply (smith_subset v H2)|].
  assert (Hc : complete v = []).
  { unfold complete. destruct (candidates v) as [|c [|d t]]; [reflexivity| |cbn [length] in H2; lia].
    cbn [flat_map]. rewrite ceqb_refl. reflexivity. }
  unfold smith_schwartz. rewrite Hc. cbn. intros [].
Qed.

Lemma smith_empty : smith_schwartz [] true = [].
Proof. reflexivity. Qed.

Lemma winner_set_cands sc round x : In x (winner_set sc round) -> In x (cands_of round).
Proof.
  unfold winner_set. destruct (smith_schwartz (pairwise round) true) as [|s t] eqn:E.
  - destruct sc; [apply arc_iff|intros []].
  - intros H. apply candidates_pairwise_in, smith_in_cands. rewrite E. exact H.
Qed.

(* a round of a tier once its winner set does not consist of a single candidate *)
Definition tier_elim (fx sc : bool) (f : nat) (round1 : rvotes) : res C + hres :=
  match eliminate_one round1 with
  | None => inr H_index
  | Some rem => if fx && has_tie rem then inr H_nie
                else match rem with [r] => inl r | _ => tideman_tier fx sc f (subset_votes (plain rem) round1) end
  end.

Lemma tier_cases fx sc f round : round <> [] ->
  (exists w, winner_set sc round = [w] /\ tideman_tier fx sc (S f) round = inl (Cand w)) \/
  (forall w, winner_set sc round <> [w]) /\
  tideman_tier fx sc (S f) round = tier_elim fx sc f (subset_votes (winner_set sc round) round).
Proof.
  intros Hne. rewrite (tideman_tier_unfold fx sc f round Hne).
  destruct (winner_set sc round) as [|s [|s2 ss]]; [right|left; exists s; split; reflexivity|right]; (split; [discriminate|reflexivity]).
Qed.

Lemma tier_elim_cases fx sc f round1 :
  (eliminate_one round1 = None /\ tier_elim fx sc f round1 = inr H_index) \/
  (exists rem, eliminate_one round1 = Some rem /\
     (fx && has_tie rem = true /\ tier_elim fx sc f round1 = inr H_nie \/
      fx && has_tie rem = false /\
      ((exists r, rem = [r] /\ tier_elim fx sc f round1 = inl r) \/
       tier_elim fx sc f round1 = tideman_tier fx sc f (subset_votes (plain rem) round1)))).
Proof.
  unfold tier_elim. destruct (eliminate_one round1) as [rem|]; [right; exists rem; split; [reflexivity|]|left; split; reflexivity].
  destruct (fx && has_tie rem); [left; split; reflexivity|right; split; [reflexivity|]].
  destruct rem as [|r [|r2 rr]]; [right; reflexivity|left; exists r; split; reflexivity|right; reflexivity].
Qed.

Lemma tier_step_in fx sc T f round w : wf_votes round = true ->
  tideman_tier fx sc (S f) round = inl (Cand w) ->
  (forall x, In x (winner_set sc round) -> In x T) ->
  (forall round', wf_votes round' = true -> (forall x, In x (cands_of round') -> In x T) ->
                  tideman_tier fx sc f round' = inl (Cand w) -> In w T) ->
  In w T.
Proof.
  intros Hwf H HS IH.
  assert (Hne : round <> []) by (intros ->; discriminate H).
  destruct (tier_cases fx sc f round Hne) as [(s & Es & E)|(_ & E)]; rewrite E in H.
  { injection H as <-. apply HS. rewrite Es. left. reflexivity. }
  set (round1 := subset_votes (winner_set sc round) round) in *.
  pose proof (subset_wf (winner_set sc round) round Hwf) as Hwf1. fold round1 in Hwf1.
  assert (HT1 : forall x, In x (cands_of round1) -> In x T).
  { intros x Hx. apply subset_cands in Hx. apply HS, Hx. }
  destruct (tier_elim_cases fx sc f round1) as [(_ & E1)|(rem & Ee & [(_ & E1)|(_ & [(r & -> & E1)|E1])])];
    rewrite E1 in H; try discriminate H.
  - injection H as ->. destruct (elim_spec _ [Cand w] Hwf1 Ee eq_refl) as (R & ER & _ & E3 & _).
    destruct R as [|x [|y R]]; try discriminate ER. injection ER as <-. apply HT1, arc_iff, E3. left. reflexivity.
  - refine (IH _ (subset_wf _ _ Hwf1) _ H). intros x Hx. apply subset_cands in Hx. apply HT1, Hx.
Qed.

Lemma tier_in fx sc T : forall fuel round w, wf_votes round = true -> (forall x, In x (cands_of round) -> In x T) ->
  tideman_tier fx sc fuel round = inl (Cand w) -> In w T.
Proof.
  induction fuel as [|f IH]; intros round w Hwf HT H.
  - destruct round; discriminate H.
  - apply (tier_step_in fx sc T f round w Hwf H).
    + intros x Hx. apply HT. apply (winner_set_cands sc round x Hx).
    + intros round' Hwf' HT' H'. exact (IH round' w Hwf' HT' H').
Qed.

(* the winner of a tier belongs to the winner set of the tier's first round *)
Lemma tier_in_winner_set fx sc fuel round w : wf_votes round = true ->
  tideman_tier fx sc fuel round = inl (Cand w) -> In w (winner_set sc round).
Proof.
  intros Hwf H. destruct fuel as [|f]; [destruct round; discriminate H|].
  apply (tier_step_in fx sc _ f round w Hwf H); [auto|].
  intros round' Hwf' HT' H'. exact (tier_in fx sc _ f round' w Hwf' HT' H').
Qed.

Lemma tier_not_ok fx sc : forall fuel round r, tideman_tier fx sc fuel round <> inr (H_ok r).
Proof.
  induction fuel as [|f IH]; intros round r; [destruct round; discriminate|].
  destruct round as [|bw t]; [discriminate|].
  destruct (tier_cases fx sc f (bw :: t)) as [(w & _ & E)|(_ & E)]; [discriminate|..]; rewrite E; [discriminate|].
  destruct (tier_elim_cases fx sc f (subset_votes (winner_set sc (bw :: t)) (bw :: t)))
    as [(_ & E1)|(rem & _ & [(_ & E1)|(_ & [(r0 & _ & E1)|E1])])]; rewrite E1; try discriminate. apply IH.
Qed.

Lemma tideman_loop_S fx sc tr k tv elig n acc : tideman_loop fx sc tr (S k) tv elig n acc =
  match tideman_tier fx sc (tier_fuel_of tv) tv with
  | inr e => e
  | inl (TieR _) => H_key
  | inl (Cand w) =>
      if cmem w elig then
        if Nat.eqb (length (acc ++ [Cand w])) n || (match filter (fun c => negb (ceqb c w)) elig with [] => true | _ => false end)
        then H_ok (acc ++ [Cand w])
        else if tr then tideman_loop fx sc tr k (subset_votes (filter (fun c => negb (ceqb c w)) elig) tv)
                                      (filter (fun c => negb (ceqb c w)) elig) n (acc ++ [Cand w])
        else H_type
      else H_key
  end.
Proof. reflexivity. Qed.

Lemma tideman_loop_prefix fx sc tr n : forall k tv elig acc r,
  tideman_loop fx sc tr k tv elig n acc = H_ok r ->
  exists w r', r = acc ++ Cand w :: r' /\ tideman_tier fx sc (tier_fuel_of tv) tv = inl (Cand w).
Proof.
  induction k as [|k IH]; intros tv elig acc r H; [discriminate H|]. rewrite tideman_loop_S in H.
  destruct (tideman_tier fx sc (tier_fuel_of tv) tv) as [[w|l]|e] eqn:Et.
  - destruct (cmem w elig); [|discriminate H].
    destruct (Nat.eqb _ n || _).
    + injection H as <-. exists w, []. split; reflexivity.
    + destruct tr; [|discriminate H]. destruct (IH _ _ _ _ H) as (w' & r' & -> & _).
      exists w, (Cand w' :: r'). rewrite <- app_assoc. split; reflexivity.
  - discriminate H.
  - subst e. destruct (tier_not_ok fx sc _ _ _ Et).
Qed.

Lemma tideman_first fx sc tr votes n r : tideman_alt fx sc tr votes n = H_ok r ->
  exists w rest, r = Cand w :: rest /\ tideman_tier fx sc (tier_fuel_of votes) votes = inl (Cand w).
Proof.
  unfold tideman_alt. intros H. destruct (tideman_loop_prefix _ _ _ _ _ _ _ _ _ H) as (w & r' & -> & Et).
  exists w, r'. split; [reflexivity|exact Et].
Qed.

(* whatever repairs the code has and however many seats are asked for: the first winner lies in the Smith set of the profile *)
Theorem smith_tideman fx sc tr votes n c rest : wf_votes votes = true -> pairwise votes <> [] ->
  tideman_alt fx sc tr votes n = H_ok (Cand c :: rest) -> In c (smith_schwartz (pairwise votes) true).
Proof.
  intros Hwf Hne H. destruct (tideman_first fx sc tr votes n _ H) as (w & rest' & E & Et). injection E as <- _.
  rewrite <- (winner_set_contest sc votes Hwf Hne). exact (tier_in_winner_set fx sc _ votes c Hwf Et).
Qed.

Lemma pos_key (v : pvotes) a b : 0 < pget0 v (a, b) -> In a (candidates v) /\ In b (candidates v).
Proof.
  unfold pget0. destruct (pget v (a, b)) as [n|] eqn:E; [|lia]. intros _. apply pget_In in E.
  split; apply (candidates_spec v); exists (a, b), n; cbn [fst snd]; auto.
Qed.

Lemma cw_head cur c0 l : wf_votes cur = true -> condorcet_winner (pairwise cur) = c0 :: l -> is_cw (pairwise cur) c0.
Proof.
  intros Hwf E.
  assert (Hne : pairwise cur <> []) by (intros E0; rewrite E0 in E; discriminate E).
  destruct (cw_spec (pairwise cur) (pairwise_nodup cur) (pairwise_nonneg cur Hwf) (pairwise_two cur Hwf Hne)) as [H1 H2].
  destruct H2 as [H2|(c' & H2)]; [congruence|]. apply H1. rewrite H2 in E. injection E as <- _. exact H2.
Qed.

Lemma benham_loop_S fx sc f v0 cur : benham_loop fx sc (S f) v0 cur =
  match benham_cw sc cur with
  | c :: _ => H_ok [Cand c]
  | [] => match eliminate_one cur with
          | None => H_index
          | Some remains =>
              match remains with
              | [_] => H_ok remains
              | _ => if fx && has_tie remains then H_nie else benham_loop fx sc f v0 (subset_votes (plain remains) v0)
              end
          end
  end.
Proof. reflexivity. Qed.
Lemma benham_loop_0 fx sc v0 cur : benham_loop fx sc 0 v0 cur =
  match benham_cw sc cur with c :: _ => H_ok [Cand c] | [] => H_fuel end.
Proof. reflexivity. Qed.

Section BENHAM.
  Variable votes : rvotes.
  Hypothesis Hwf : wf_votes votes = true.
  Hypothesis Hne : pairwise votes <> [].
  Let P := pairwise votes.
  Let Sm := smith_schwartz P true.
  Let K (cur : rvotes) := all_ranked_candidates (qv cur).

  Definition binv (cur : rvotes) : Prop :=
    wf_votes cur = true /\
    (forall x, In x (K cur) -> In x (cands_of votes)) /\
    (forall a b, In a (K cur) -> In b (K cur) -> pget0 (pairwise cur) (a, b) = pget0 P (a, b)) /\
    (exists s, In s Sm /\ In s (K cur)) /\
    (exists x y, In x (K cur) /\ In y (K cur) /\ x <> y).

  Lemma P_two : (2 <= length (candidates P))%nat.
  Proof. apply pairwise_two; assumption. Qed.
  Lemma P_nonneg p : 0 <= pget0 P p.
  Proof. apply (pget0_nonneg P (pairwise_nonneg votes Hwf)). Qed.
  Lemma K_in_P cur x : binv cur -> In x (K cur) -> In x (candidates P).
  Proof. intros (_ & HK & _) Hx. apply cands_in_pairwise; [exact Hwf|exact Hne|apply HK, Hx]. Qed.
  Lemma candP_in_K cur x : In x (candidates (pairwise cur)) -> In x (K cur).
  Proof. intros H. apply arc_iff, candidates_pairwise_in, H. Qed.

  Lemma binv_start : binv votes.
  Proof.
    split; [exact Hwf|]. split; [intros x Hx; apply arc_iff, Hx|]. split; [reflexivity|].
    destruct (smith_dominating P P_two) as [HneS _]. split.
    - fold Sm in HneS. destruct Sm as [|s t] eqn:E; [congruence|]. exists s. split; [left; reflexivity|].
      apply candP_in_K. apply (smith_subset P P_two). fold Sm. rewrite E. left. reflexivity.
    - destruct (nodup_two _ (candidates_NoDup P) P_two) as (x & y & Hx & Hy & Hxy).
      exists x, y. split; [apply candP_in_K, Hx|]. split; [apply candP_in_K, Hy|exact Hxy].
  Qed.

  (* a victory in P between two candidates of the current round is a victory in the current dictionary,
     and the victor is a candidate there *)
  Lemma beats_cur cur a b : binv cur -> In a (K cur) -> In b (K cur) -> beats P a b ->
    beats (pairwise cur) a b /\ In a (candidates (pairwise cur)).
  Proof.
    intros (_ & _ & Hpw & _) Ha Hb H. unfold beats in *. rewrite <- (Hpw a b Ha Hb), <- (Hpw b a Hb Ha) in H.
    split; [exact H|]. apply (pos_key (pairwise cur) a b).
    pose proof (P_nonneg (b, a)) as H0. rewrite <- (Hpw b a Hb Ha) in H0. lia.
  Qed.

  Lemma cw_in_smith cur c : binv cur -> is_cw (pairwise cur) c -> In c Sm.
  Proof.
    intros Hb [Hc Hall]. pose proof Hb as (_ & _ & _ & (s & Hs & HsK) & _).
    destruct (in_dec Pos.eq_dec c Sm) as [Hin|Hout]; [exact Hin|exfalso].
    pose proof (candP_in_K cur c Hc) as HcK.
    destruct (smith_dominating P P_two) as [_ Hdom].
    destruct (beats_cur cur s c Hb HsK HcK (Hdom s c Hs (K_in_P cur c Hb HcK) Hout)) as [Hb1 HsC].
    assert (Hsc : s <> c) by (intros ->; exact (Hout Hs)).
    pose proof (Hall s HsC Hsc) as Hb2. unfold beats in Hb1, Hb2. lia.
  Qed.

  Lemma survive cur R : binv cur -> condorcet_winner (pairwise cur) = [] ->
    NoDup R -> incl R (K cur) -> length R = (length (K cur) - 1)%nat -> exists s', In s' Sm /\ In s' R.
  Proof.
    intros Hb Hcw Hn Hi Hl. pose proof Hb as (Hwfc & HK & Hpw & (s & Hs & HsK) & (x0 & y0 & Hx0 & Hy0 & Hxy)).
    destruct (in_dec Pos.eq_dec s R) as [HsR|HsR]; [exists s; auto|].
    destruct (existsb (fun x => cmem x Sm) R) eqn:Ex.
    { apply existsb_exists in Ex. destruct Ex as (x & Hx & Hm). exists x. split; [apply cmem_In, Hm|exact Hx]. }
    exfalso.
    assert (Hall : forall x, In x (K cur) -> x <> s -> beats (pairwise cur) s x /\ In s (candidates (pairwise cur))).
    { intros x Hx Hxs.
      assert (HxR : In x R).
      { destruct (in_dec Pos.eq_dec x R) as [H|H]; [exact H|exfalso]. apply Hxs. exact (drop_one R (K cur) x s Hn Hi Hl Hx HsK H HsR). }
      assert (HxS : ~ In x Sm).
      { intros H. assert (existsb (fun x => cmem x Sm) R = true); [|congruence]. apply existsb_exists. exists x. split; [exact HxR|apply cmem_In, H]. }
      destruct (smith_dominating P P_two) as [_ Hdom].
      exact (beats_cur cur s x Hb HsK Hx (Hdom s x Hs (K_in_P cur x Hb Hx) HxS)). }
    (* somebody else is there, so s is a candidate of the current dictionary and its Condorcet winner *)
    assert (Hother : exists x1, In x1 (K cur) /\ x1 <> s).
    { destruct (Pos.eq_dec x0 s) as [E|E]; [exists y0; split; [exact Hy0|intros E2; apply Hxy; congruence]|exists x0; auto]. }
    destruct Hother as (x1 & Hx1 & Hx1s). destruct (Hall x1 Hx1 Hx1s) as [_ HsC].
    assert (Hne2 : pairwise cur <> []) by (intros E; rewrite E in HsC; exact HsC).
    assert (Hiscw : is_cw (pairwise cur) s).
    { split; [exact HsC|]. intros x Hx Hxs. apply Hall; [apply candP_in_K, Hx|exact Hxs]. }
    apply (cw_spec (pairwise cur) (pairwise_nodup cur) (pairwise_nonneg cur Hwfc) (pairwise_two cur Hwfc Hne2)) in Hiscw.
    congruence.
  Qed.

  Lemma binv_next cur R : binv cur -> NoDup R -> incl R (K cur) -> (exists s', In s' Sm /\ In s' R) -> (2 <= length R)%nat ->
    binv (subset_votes R votes).
  Proof.
    intros Hb Hn Hi (s' & Hs' & Hs'R) H2. pose proof Hb as (_ & HK & _).
    assert (HK' : forall x, In x (K (subset_votes R votes)) <-> In x R /\ In x (cands_of votes)).
    { intros x. unfold K. rewrite arc_iff. apply subset_cands. }
    assert (HRK : forall x, In x R -> In x (K (subset_votes R votes))).
    { intros x Hx. apply HK'. split; [exact Hx|apply HK, Hi, Hx]. }
    split; [apply subset_wf, Hwf|]. split; [intros x Hx; apply HK', Hx|]. split; [|split].
    - intros a b Ha Hb'. apply subset_restriction; [exact Hwf|apply HK', Ha|apply HK', Hb'].
    - exists s'. split; [exact Hs'|apply HRK, Hs'R].
    - destruct (nodup_two R Hn H2) as (x & y & Hx & Hy & Hxy).
      exists x, y. split; [apply HRK, Hx|]. split; [apply HRK, Hy|exact Hxy].
  Qed.

  Lemma binv_two cur : binv cur -> (2 <= length (K cur))%nat.
  Proof. intros (_ & _ & _ & _ & (x0 & y0 & Hx0 & Hy0 & Hxy)). exact (two_in_length _ x0 y0 Hx0 Hy0 Hxy). Qed.

  Lemma benham_cw_smith sc cur c0 l : binv cur -> benham_cw sc cur = c0 :: l -> In c0 Sm.
  Proof.
    intros Hb E. pose proof Hb as (Hwfc & _). rewrite (benham_cw_two sc cur (binv_two cur Hb)) in E.
    exact (cw_in_smith cur c0 Hb (cw_head cur c0 l Hwfc E)).
  Qed.

  Lemma benham_smith_loop sc : forall fuel cur c, binv cur -> benham_loop true sc fuel votes cur = H_ok [Cand c] -> In c Sm.
  Proof.
    induction fuel as [|f IH]; intros cur c Hb H; [rewrite benham_loop_0 in H|rewrite benham_loop_S in H];
      (destruct (benham_cw sc cur) as [|c0 l] eqn:Ec; [|injection H as <-; exact (benham_cw_smith sc cur c0 l Hb Ec)]).
    - discriminate H.
    - rewrite (benham_cw_two sc cur (binv_two cur Hb)) in Ec. pose proof Hb as (Hwfc & _).
      destruct (eliminate_one cur) as [rem|] eqn:Ee; [|discriminate H].
      (* a result or a further round comes only after a strict elimination: the survivors R are all of K cur but one *)
      assert (Et : has_tie rem = false).
      { destruct rem as [|r [|r2 rr]]; [reflexivity|injection H as ->; reflexivity|]. destruct (has_tie _); [discriminate H|reflexivity]. }
      destruct (elim_spec cur rem Hwfc Ee Et) as (R & -> & E2 & E3 & E4).
      destruct (survive cur R Hb Ec E2 E3 E4) as (s' & Hs' & Hs'R).
      destruct R as [|x [|y R]].
      + destruct Hs'R.
      + injection H as <-. destruct Hs'R as [<-|[]]. exact Hs'.
      + rewrite Et, plain_map_cand in H. change (benham_loop true sc f votes (subset_votes (x :: y :: R) votes) = H_ok [Cand c]) in H.
        refine (IH _ c (binv_next cur _ Hb E2 E3 (ex_intro _ s' (conj Hs' Hs'R)) _) H). cbn [length]. lia.
  Qed.

  Theorem smith_benham_sec sc c : benham true sc votes = H_ok [Cand c] -> In c Sm.
  Proof. intros H. exact (benham_smith_loop sc _ votes c binv_start H). Qed.
End BENHAM.

Theorem smith_benham sc votes c : wf_votes votes = true -> pairwise votes <> [] ->
  benham true sc votes = H_ok [Cand c] -> In c (smith_schwartz (pairwise votes) true).
Proof. intros Hwf Hne. exact (smith_benham_sec votes Hwf Hne sc c). Qed.

Lemma plain_length (r : list (res C)) : (length (plain r) <= length r)%nat.
Proof. unfold plain. induction r as [|[c|l] r IH]; simpl; lia. Qed.

Lemma elim_length cur rem : wf_votes cur = true -> eliminate_one cur = Some rem ->
  (length (plain rem) < length (all_ranked_candidates (qv cur)))%nat.
Proof.
  intros Hwf He. pose proof (totals_keys cur Hwf) as Hk.
  destruct (eliminate_one_some cur rem He) as [[El ->]|(m & El & ->)]; rewrite El; [cbn; lia|].
  set (tot := some_totals (totals (initial_allocation (qv cur)))) in *.
  assert (Hlen : length tot = S (S m)) by (rewrite <- El, <- Hk, map_length; reflexivity).
  pose proof (plain_length (get_n_best Qle_bool tot (S m))) as Hp. rewrite (get_n_best_length Qle_bool Qle_bool_total Qle_bool_trans) in Hp; lia.
Qed.

Lemma arc_subset_le S votes (L : list C) : (forall x, In x S -> In x (cands_of votes) -> In x L) ->
  (length (all_ranked_candidates (qv (subset_votes S votes))) <= length L)%nat.
Proof.
  intros H. apply NoDup_incl_length; [apply arc_nodup|]. intros x Hx. apply arc_iff, subset_cands in Hx. apply H; apply Hx.
Qed.

Lemma benham_loop_fuel fx sc votes0 : wf_votes votes0 = true -> forall fuel cur, wf_votes cur = true ->
  (length (all_ranked_candidates (qv cur)) < fuel)%nat -> benham_loop fx sc fuel votes0 cur <> H_fuel.
Proof.
  intros Hwf0. induction fuel as [|f IH]; intros cur Hwf Hlt; [lia|].
  rewrite benham_loop_S. destruct (benham_cw sc cur); [|discriminate].
  destruct (eliminate_one cur) as [rem|] eqn:Ee; [|discriminate].
  pose proof (elim_length cur rem Hwf Ee) as Hl.
  assert (Hnext : benham_loop fx sc f votes0 (subset_votes (plain rem) votes0) <> H_fuel).
  { apply IH; [apply subset_wf, Hwf0|].
    pose proof (arc_subset_le (plain rem) votes0 (plain rem) (fun x H _ => H)). lia. }
  destruct rem as [|r [|r2 rr]]; [|discriminate|]; (destruct (fx && has_tie _); [discriminate|exact Hnext]).
Qed.

Theorem benham_fuel fx sc votes : wf_votes votes = true -> benham fx sc votes <> H_fuel.
Proof. intros Hwf. unfold benham. apply benham_loop_fuel; [exact Hwf|exact Hwf|lia]. Qed.

Lemma tier_fuel fx sc : forall fuel round, wf_votes round = true ->
  (length (all_ranked_candidates (qv round)) < fuel)%nat -> tideman_tier fx sc fuel round <> inr H_fuel.
Proof.
  induction fuel as [|f IH]; intros round Hwf Hlt; [lia|].
  destruct round as [|bw t]; [discriminate|]. set (round := bw :: t) in *.
  destruct (tier_cases fx sc f round) as [(w & _ & E)|(_ & E)]; [discriminate|..]; rewrite E; [discriminate|].
  set (round1 := subset_votes (winner_set sc round) round).
  pose proof (subset_wf (winner_set sc round) round Hwf) as Hwf1. fold round1 in Hwf1.
  destruct (tier_elim_cases fx sc f round1) as [(_ & E1)|(rem & Ee & [(_ & E1)|(_ & [(r0 & _ & E1)|E1])])];
    rewrite E1; try discriminate.
  apply IH; [apply subset_wf, Hwf1|].
  pose proof (elim_length round1 rem Hwf1 Ee) as Hl.
  pose proof (arc_subset_le (winner_set sc round) round _ (fun x _ Hx => proj2 (arc_iff round x) Hx)) as Hle1. fold round1 in Hle1.
  pose proof (arc_subset_le (plain rem) round1 (plain rem) (fun x H _ => H)) as Hle2. lia.
Qed.

Lemma tier_fuel_of_ok fx sc round : wf_votes round = true -> tideman_tier fx sc (tier_fuel_of round) round <> inr H_fuel.
Proof. intros Hwf. apply tier_fuel; [exact Hwf|unfold tier_fuel_of; lia]. Qed.

Lemma remove_length (w : C) (l : list C) : In w l -> (length (filter (fun c => negb (ceqb c w)) l) < length l)%nat.
Proof. intros H. apply (filter_length_drop _ l w H). rewrite ceqb_refl. reflexivity. Qed.

Lemma tideman_loop_fuel fx sc tr n : forall k tv elig acc, wf_votes tv = true -> (length elig < k)%nat ->
  tideman_loop fx sc tr k tv elig n acc <> H_fuel.
Proof.
  induction k as [|k IH]; intros tv elig acc Hwf Hlt; [lia|]. rewrite tideman_loop_S.
  destruct (tideman_tier fx sc (tier_fuel_of tv) tv) as [[w|l]|e] eqn:Et.
  - destruct (cmem w elig) eqn:Em; [|discriminate]. destruct (Nat.eqb _ n || _); [discriminate|]. destruct tr; [|discriminate].
    apply IH; [apply subset_wf, Hwf|]. apply cmem_In in Em. pose proof (remove_length w elig Em). lia.
  - discriminate.
  - intros ->. exact (tier_fuel_of_ok fx sc tv Hwf Et).
Qed.

Theorem tideman_fuel fx sc tr votes n : wf_votes votes = true -> tideman_alt fx sc tr votes n <> H_fuel.
Proof. intros Hwf. unfold tideman_alt. apply tideman_loop_fuel; [exact Hwf|lia]. Qed.
