(* Proportionality for solid coalitions under the Hare (random whole-ballot) transferer (C04), for EVERY oracle.
   Model/STVHare.v; the invariant [Inv] and the counting lemmas are those of Proofs/STV_psc_proofs.v - only the two
   moves of a count (drawing ballots away from an elected candidate, pouring the pile of a removed candidate) differ:
     - whatever ballots the oracle draws from the pile of an elected member of the coalition, the solid ballots on it
       lose at most the quota drawn (cwp_hare);
     - a solid ballot leaving a member of the coalition goes WHOLE to the next continuing member (one target: no split,
       no draw), and shares of other ballots are never negative. *)
From Coq Require Import ZArith QArith Qround Qreduction Setoid List Bool Arith Lia Lqa Permutation.
From VL Require Import Prelude.PyDict Model.GetNBest Model.Convert Model.STV Model.STVHare Model.Quota Proofs.Dict_proofs
     Proofs.GetNBest_proofs Proofs.STV_proofs Proofs.STV_elim_proofs Proofs.STV_majority_proofs Proofs.STV_psc_proofs
     Proofs.STVHare_draws_proofs Proofs.STVHare_proofs Proofs.STVHare_count_proofs.
From VL Require Proofs.Threshold_proofs.
Import ListNotations.
Open Scope Q_scope.

Lemma pile_whole_nonneg p : pile_whole p -> pile_nonneg p.
Proof. unfold pile_whole, pile_nonneg. intros H. eapply Forall_impl; [|exact H]. intros bw. apply whole_nonneg_ge0. Qed.

Section HPSC.
  Variable SS : list C.

  Lemma cwa_gives_ge b L : (forall k s, In (k, s) L -> 0 <= s) -> forall a, cwa SS a <= cwa SS (gives a b L).
  Proof.
    intros HL a. unfold gives. apply (fold_left_inv (fun a' => cwa SS a <= cwa SS a')); [|apply Qle_refl].
    intros a0 [k s] Hin H0. cbn [fst snd]. rewrite cwa_alloc_add.
    destruct (sw_bounds SS b s (HL k s Hin)). destruct (inS SS k); lra.
  Qed.

  Lemma cwa_gives_nonsolid b L : solid_b SS b = false -> forall a, cwa SS (gives a b L) == cwa SS a.
  Proof.
    intros Hs. assert (H0 : forall x, sw SS b x = 0) by (intros x; unfold sw; rewrite Hs; reflexivity).
    intros a. unfold gives. apply (fold_left_inv (fun a' => cwa SS a' == cwa SS a)); [|reflexivity].
    intros a0 [k s] _ Ha. cbn [fst snd]. rewrite cwa_alloc_add, H0, Ha. destruct (inS SS k); ring.
  Qed.

  Lemma BB_gives K b L : (forall c, In (Some c) (map fst L) -> solid_b SS b = true -> okb SS K c b = true) ->
    forall a, BB SS K a -> BB SS K (gives a b L).
  Proof.
    intros HL a HB. unfold gives. apply fold_left_inv; [|exact HB].
    intros a0 [k s] Hin H0. cbn [fst snd]. apply BB_alloc_add; [exact H0|].
    intros c ->. apply HL. exact (in_map fst _ _ Hin).
  Qed.

  Lemma keys_some_gives b L : forall a, (forall t, In (Some t) (map fst L) -> In t (keys_some a)) ->
    keys_some (gives a b L) = keys_some a.
  Proof.
    intros a HL. unfold gives. apply (fold_left_inv (fun a' => keys_some a' = keys_some a)); [|reflexivity].
    intros a0 [k s] Hin H0. cbn [fst snd]. rewrite <- H0. destruct k as [t|]; [|apply keys_some_add_none].
    apply keys_some_add_some. rewrite H0. apply HL. exact (in_map fst _ _ Hin).
  Qed.

  Lemma pour_h_psc cont c : ~ In c cont -> forall p a0 o r o',
    NoDup (akeys a0) -> alloc_whole a0 -> pile_whole p -> BB SS cont a0 -> incl cont (keys_some a0) ->
    (forall b w, In (b, w) p -> solid_b SS b = true -> okb SS cont c b = true) ->
    pour_h cont c p a0 o = HOk r o' ->
    NoDup (akeys r) /\ alloc_whole r /\ BB SS cont r /\ keys_some r = keys_some a0 /\
    alloc_get r (Some c) = alloc_get a0 (Some c) /\ cwa SS a0 <= cwa SS r /\
    (cmem c SS = true -> (exists d', In d' SS /\ In d' cont) -> cwa SS a0 + cwp SS p <= cwa SS r).
  Proof.
    intros Hc. induction p as [|[b w] p IH]; intros a0 o r o' Hnd Hwh Hp HB Hk Hok; cbn [pour_h].
    - intros [= <- <-]. repeat split; try assumption; try reflexivity; [lra|]. intros _ _. simpl. lra.
    - cbn [fst snd]. set (tg := ranked_next b c cont).
      destruct (move_h a0 tg b w o) as [a1 o1|s] eqn:Em; [|discriminate]. intros Hpour.
      inversion Hp as [|? ? Hw Hp']; subst. cbn [snd] in Hw.
      assert (Htg : incl tg cont) by apply ranked_next_allowed.
      assert (Hnc : ~ In c tg) by (intros H; apply Hc, Htg, H).
      destruct (move_h_keep a0 tg b w o a1 o1 c Hnc Hnd Em) as [G1 N1].
      destruct (move_h_gives _ _ _ _ _ _ _ Em) as (L & Ea1 & HL & HT & HW).
      assert (HTs : forall t, In (Some t) (map fst L) -> In t tg) by (intros t Ht; exact (HT _ Ht)).
      assert (K1 : keys_some a1 = keys_some a0).
      { rewrite Ea1. apply keys_some_gives. intros t Ht. apply Hk, Htg, HTs, Ht. }
      assert (B1 : BB SS cont a1).
      { rewrite Ea1. apply BB_gives; [|exact HB]. intros t Ht Hs.
        apply (proj1 (okb_targets SS cont cont c b Hs (Hok b w (or_introl eq_refl) Hs) (incl_refl _) Hc)). exact (HTs t Ht). }
      assert (W1 : alloc_whole a1) by (eapply move_h_whole; eassumption).
      destruct (IH a1 o1 r o' N1 W1 Hp' B1) as (R1 & R2 & R3 & R4 & R5 & R6 & R7).
      { rewrite K1. exact Hk. }
      { intros b0 w0 Hin. apply (Hok b0 w0). right. exact Hin. }
      { exact Hpour. }
      split; [exact R1|]. split; [exact R2|]. split; [exact R3|]. split; [rewrite R4; exact K1|].
      split; [rewrite R5; exact G1|].
      assert (M1 : cwa SS a0 <= cwa SS a1).
      { rewrite Ea1. apply cwa_gives_ge. intros k s Hin. apply whole_nonneg_ge0. exact (HW Hw k s Hin). }
      split; [lra|]. intros Ec Hex. specialize (R7 Ec Hex). cbn [cwp fold_right fst snd].
      fold (cwp SS p).
      assert (M2 : cwa SS a0 + sw SS b w <= cwa SS a1).
      { unfold sw. destruct (solid_b SS b) eqn:Hs; [|lra].
        destruct (proj2 (okb_targets SS cont cont c b Hs (Hok b w (or_introl eq_refl) Hs) (incl_refl _) Hc) Ec Hex) as (d & Hd1 & Hd2).
        fold tg in Hd1. rewrite Hd1 in Em. cbn [move_h] in Em. injection Em as <- _.
        rewrite cwa_alloc_add. cbn [inS]. apply cmem_In in Hd2. rewrite Hd2. unfold sw. rewrite Hs. lra. }
      lra.
  Qed.

  Lemma transfer_loop_psc cont : forall rem a0 o r o', (forall c, In c rem -> ~ In c cont) ->
    NoDup (akeys a0) -> alloc_whole a0 -> BB SS cont a0 -> incl cont (keys_some a0) ->
    transfer_loop cont rem a0 o = HOk r o' ->
    NoDup (akeys r) /\ alloc_whole r /\ BB SS cont r /\
    keys_some r = filter (fun x => negb (cmem x rem)) (keys_some a0) /\
    ((exists d', In d' SS /\ In d' cont) -> cwa SS a0 <= cwa SS r).
  Proof.
    induction rem as [|c rem IH]; intros a0 o r o' Hr Hnd Hwh HB Hk; cbn [transfer_loop].
    - intros [= <- <-]. repeat split; try assumption; [|intros _; lra].
      cbn [cmem negb]. clear. induction (keys_some a0) as [|x l IHl]; simpl; [reflexivity|]. rewrite <- IHl. reflexivity.
    - set (p := match alloc_get a0 (Some c) with Some p => p | None => [] end).
      destruct (pour_h cont c p a0 o) as [r0 o1|s] eqn:Ep; [|discriminate]. intros Hloop.
      assert (Hp : pile_whole p).
      { unfold p. destruct (alloc_get a0 (Some c)) eqn:E; [eapply alloc_get_whole; eassumption|constructor]. }
      assert (Hok : forall b w, In (b, w) p -> solid_b SS b = true -> okb SS cont c b = true).
      { unfold p. destruct (alloc_get a0 (Some c)) as [p0|] eqn:E; [|intros b w []].
        intros b w Hin Hs. apply (HB c p0 b w); [apply alloc_get_some_in, E|exact Hin|exact Hs]. }
      destruct (pour_h_psc cont c (Hr c (or_introl eq_refl)) p a0 o r0 o1 Hnd Hwh Hp HB Hk Hok Ep) as (P1 & P2 & P3 & P4 & P5 & P6 & P7).
      (* the step: remove the emptied pile *)
      pose proof (alloc_del_nodup r0 (Some c) P1) as T1.
      assert (T4 : keys_some (alloc_del r0 (Some c)) = filter (fun x => negb (ceqb c x)) (keys_some a0))
        by (rewrite keys_some_alloc_del, P4; reflexivity).
      assert (T5 : (exists d', In d' SS /\ In d' cont) -> cwa SS a0 <= cwa SS (alloc_del r0 (Some c))).
      { intros Hex. destruct (alloc_get a0 (Some c)) as [p0|] eqn:E.
        - rewrite (cwa_alloc_del SS r0 (Some c) p0 P1) by (rewrite P5; reflexivity). cbn [inS].
          destruct (cmem c SS) eqn:Ec; [specialize (P7 eq_refl Hex); unfold p in P7; lra|lra].
        - rewrite (alloc_del_none r0 (Some c)) by (rewrite P5; reflexivity). exact P6. }
      destruct (IH (alloc_del r0 (Some c)) o1 r o' (fun x Hx => Hr x (or_intror Hx)) T1 (alloc_del_whole _ _ P2)
                   (BB_alloc_del SS cont r0 (Some c) P3)) as (R1 & R2 & R3 & R4 & R5); [|exact Hloop|].
      { rewrite T4. intros x Hx. apply filter_In. split; [apply Hk, Hx|].
        apply negb_true_iff, ceqb_neq. intros ->. exact (Hr x (or_introl eq_refl) Hx). }
      split; [exact R1|]. split; [exact R2|]. split; [exact R3|]. split.
      + rewrite R4, T4, filter_and. apply filter_ext. intros x. cbn [cmem]. unfold ceqb. rewrite (Pos.eqb_sym x c).
        rewrite negb_orb. reflexivity.
      + intros Hex. specialize (T5 Hex). specialize (R5 Hex). lra.
  Qed.

  Theorem transfer_h_psc a elim o r o' : NoDup (akeys a) -> alloc_whole a -> BB SS (keys_some a) a ->
    transfer_h a elim o = HOk r o' ->
    let cont := filter (fun c => negb (cmem c elim)) (keys_some a) in
    NoDup (akeys r) /\ alloc_whole r /\ BB SS cont r /\ keys_some r = cont /\
    ((exists d', In d' SS /\ In d' cont) -> cwa SS a <= cwa SS r).
  Proof.
    intros Hnd Hwh HB Ht cont. unfold transfer_h in Ht. fold cont in Ht.
    set (rem := filter (fun c => cmem c elim) (keys_some a)) in *.
    assert (Hrem : forall c, In c rem -> ~ In c cont) by (apply transfer_split).
    assert (Hcont : incl cont (keys_some a)) by (intros x Hx; apply filter_In in Hx; tauto).
    destruct (transfer_loop_psc cont rem a o r o' Hrem Hnd Hwh (BB_mono SS _ _ a Hcont HB) Hcont Ht) as (R1 & R2 & R3 & R4 & R5).
    split; [exact R1|]. split; [exact R2|]. split; [exact R3|]. split; [|exact R5].
    rewrite R4. unfold cont. apply filter_ext_in. intros x Hx. f_equal.
    unfold rem. destruct (cmem x elim) eqn:E.
    - apply cmem_In. apply filter_In. split; [exact Hx|exact E].
    - apply cmem_false. intros H. apply filter_In in H. destruct H as [_ H]. congruence.
  Qed.

  (* whatever is drawn, the solid ballots of the pile lose at most the number of draws *)
  Lemma cwp_hare_sub ds : nodupb ds = true -> forall p lo, pile_whole p ->
    cwp SS p - inject_Z (cnt_in ds lo (lo + pile_total p)) <= cwp SS (hare_sub_pile p lo ds).
  Proof.
    intros Hn. induction p as [|[b w] p IH]; intros lo Hp.
    - pose proof (cnt_in_nonneg ds lo (lo + 0)) as H0. rewrite Zle_Qle in H0. change (inject_Z 0) with 0 in H0.
      cbn [hare_sub_pile pile_total cwp fold_right]. lra.
    - inversion Hp as [|? ? Hw Hp']; subst. specialize (IH (lo + Qfloor w)%Z Hp').
      destruct (hare_sub_pile_cons ds b w p lo Hn Hw Hp') as (k & hd & Hk & -> & -> & Hhd).
      rewrite inject_Z_plus. rewrite Zle_Qle in Hk. change (inject_Z 0) with 0 in Hk.
      pose proof (whole_nonneg_ge0 _ Hw) as Hw0. set (r := hare_sub_pile p (lo + Qfloor w) ds) in *.
      change (cwp SS ((b, w) :: p)) with (sw SS b w + cwp SS p).
      destruct Hhd as [[-> Hkw]|(w' & -> & Hw' & _)].
      + destruct (sw_bounds SS b w Hw0). cbn [app]. lra.
      + change (cwp SS ([(b, w')] ++ r)) with (sw SS b w' + cwp SS r). unfold sw. destruct (solid_b SS b); lra.
  Qed.

  Lemma cwp_hare p amt o p' o' : hare_subtract p amt o = HOk p' o' -> cwp SS p - amt <= cwp SS p'.
  Proof.
    intros H. destruct (hare_subtract_ok _ _ _ _ _ H) as (Hp & _ & _ & Hi & ds & _ & Hd & ->).
    destruct (draws_ok_spec _ _ _ Hd) as [D1 D2].
    pose proof (cwp_hare_sub ds D1 p 0%Z Hp) as Hc. rewrite Z.add_0_l, D2, <- Hi in Hc. exact Hc.
  Qed.

  Theorem subtract_h_psc K elected : forall a o a' o', NoDup (akeys a) -> NoDup (map fst elected) -> BB SS K a ->
    subtract_h a elected o = HOk a' o' ->
    cwa SS a - sumS SS elected <= cwa SS a' /\ BB SS K a'.
  Proof.
    induction elected as [|[c amt] t IH]; intros a o a' o' Hnd Hd HB; cbn [subtract_h].
    - intros [= <- <-]. split; [simpl; lra|exact HB].
    - destruct (alloc_get a (Some c)) as [p|] eqn:Eg; [|discriminate].
      destruct (hare_subtract p amt o) as [p' o1|s] eqn:Es; [|discriminate]. intros Hsub.
      destruct (replace_pile_sum a c p p' Hnd Eg) as [_ H2].
      pose proof (cwa_replace SS a c p p' Hnd Eg) as H1. fold (set_pile a c p') in H1, H2.
      inversion Hd as [|? ? Hc Hd']; subst.
      destruct (IH (set_pile a c p') o1 a' o') as [H3 H4].
      + unfold akeys in *. rewrite H2. exact Hnd.
      + exact Hd'.
      + intros c0 p0 b w Hin Hb Hs.
        destruct (set_pile_holds a c p p' (Some c0) b Eg) as (p1 & w1 & H5 & H6);
          [apply (hare_subtract_spec _ _ _ _ _ Es)|exists p0, w; auto|]. exact (HB c0 p1 b w1 H5 H6 Hs).
      + exact Hsub.
      + split; [|exact H4].
        pose proof (cwp_hare p amt o p' o1 Es) as Hg.
        cbn [sumS fold_right fst snd]. fold (sumS SS t). destruct (cmem c SS); lra.
  Qed.

  Section RUNHPSC.
    Variable cf : cfg.
    Hypothesis Hae : c_accept_equal cf = true.
    Hypothesis Hstep : c_step cf = (-1)%Z.
    Variable qf : Q -> Z -> Q.
    Hypothesis Hqf : c_quota cf = Some qf.
    Variable n : Z.
    Variable total : Q.
    Hypothesis Htot : Qeq_bool total 0 = false.
    Hypothesis Hn0 : (n =? 0)%Z = false.
    Let q := qf total n.
    Hypothesis Hq : 0 < q.
    Variable caps : list (C * Z).
    Variable k : nat.

    Definition HInv (a : alloc) (seats : list (C * Z)) : Prop :=
      Inv SS qf n total caps k a seats /\ alloc_whole a.

    Lemma step_elect_h a seats el0 a1 o o1 a2 o2 : HInv a seats ->
      (forall c s, In (c, s) el0 -> s = 1%Z /\ exists p, alloc_get a (Some c) = Some p /\ inject_Z s * q <= wsum p) ->
      NoDup (map fst el0) ->
      subtract_h a (map (fun cs : C * Z => (fst cs, inject_Z (snd cs) * q)) el0) o = HOk a1 o1 ->
      transfer_h a1 (map fst el0) o1 = HOk a2 o2 ->
      asum a2 + inject_Z (seats_sum el0) * q == asum a ->
      HInv a2 (add_seats seats el0).
    Proof.
      intros [I Iw] Hel Hnd Hsub Htr Hcons. pose proof I as [I1 _ _ _ _ _ _ _ I7 _ _].
      set (amts := map (fun cs : C * Z => (fst cs, inject_Z (snd cs) * q)) el0) in *.
      assert (Hndk : NoDup (map fst amts)) by (unfold amts; rewrite map_map; exact Hnd).
      destruct (subtract_h_psc (keys_some a) amts a o a1 o1 I1 Hndk I7 Hsub) as [S1 S2].
      destruct (subtract_h_conserves amts a o a1 o1 I1 Hndk Hsub) as [_ S3].
      pose proof (keys_some_akeys_eq a1 a S3) as S5.
      assert (HsumS : sumS SS amts == inject_Z (Z.of_nat (cnt SS (map fst el0))) * q).
      { apply sumS_amounts. intros c s Hin. apply (Hel c s Hin). }
      destruct (transfer_h_psc a1 (map fst el0) o1 a2 o2) as (R1 & R2 & R3 & R4 & R5);
        [rewrite S3; exact I1|exact (subtract_h_whole amts a o a1 o1 Iw Hsub)|rewrite S5; exact S2|exact Htr|].
      rewrite S5 in R3, R4, R5.
      split; [|exact R2]. apply (Inv_elect SS qf n total caps k a seats el0 _ I); try assumption.
      - intros c s Hin. destruct (Hel c s Hin) as (H1 & p & Hg & _). split; [exact H1|].
        apply keys_some_akeys, (in_map fst _ _ (alloc_get_some_in _ _ _ Hg)).
      - apply alloc_whole_nonneg, R2.
      - intros Hex. specialize (R5 Hex). fold q. lra.
    Qed.

    Lemma step_elim_h a seats elim o a2 o2 : HInv a seats ->
      (forall c p, In (Some c, p) a -> wsum p < q) ->
      incl elim (keys_some a) -> NoDup elim -> (length elim <= 1)%nat ->
      transfer_h a elim o = HOk a2 o2 ->
      HInv a2 seats.
    Proof.
      intros [I Iw] Hlt HE Hnd Hlen Htr.
      destruct (transfer_h_psc a elim o a2 o2 (i_nd _ _ _ _ _ _ _ _ I) Iw (i_B _ _ _ _ _ _ _ _ I) Htr) as (R1 & R2 & R3 & R4 & R5).
      split; [|exact R2].
      exact (Inv_elim SS qf n total Hq caps k a seats elim _ I Hlt HE Hnd Hlen R1 (alloc_whole_nonneg _ R2) R3 R4 R5
               (proj1 (transfer_h_conserves a elim o a2 o2 (i_nd _ _ _ _ _ _ _ _ I) Htr))).
    Qed.

    Lemma quota_is_h : quota_of cf total n = Some q.
    Proof. unfold quota_of. rewrite Hqf, Htot, Hn0. reflexivity. Qed.

    (* the invariant survives every count, whatever the oracle draws *)
    Theorem next_count_h_psc a seats o a' el o' : HInv a seats ->
      next_count_h cf a n total seats caps o = HC_next a' el o' -> HInv a' (add_seats seats el).
    Proof.
      intros HI Hn. pose proof HI as [I Iw].
      destruct (next_count_h_next _ _ _ _ _ _ _ _ _ _ Hn) as [(qv & a1 & o1 & Eq & Ee & Es & Ht)|(-> & Ee & Etie & Ht)].
      - destruct (next_count_h_conserves cf a n total seats caps o a' el o' (i_nd _ _ _ _ _ _ _ _ I) (i_sn _ _ _ _ _ _ _ _ I))
          as (_ & _ & N3); [intros qv0 Hqv; rewrite quota_is_h in Hqv; injection Hqv as <-; exact Hq|exact Hn|].
        rewrite quota_is_h in N3, Eq. injection Eq as <-.
        destruct (elected_ok SS cf qf n total Hq caps k a seats _ el I Ee) as (Hk & Hel & Hc).
        rewrite (elim_map_fst caps seats el Hc) in Ht.
        exact (step_elect_h a seats el a1 o o1 a' o' HI Hel Hk Es Ht N3).
      - rewrite quota_is_h in Ee.
        destruct (eliminated_ok SS cf Hae Hstep qf n total Hq caps k a seats I Ee Etie) as (Hlt & HE & Hnde & Hlen).
        exact (step_elim_h a seats (eliminated cf a) o a' o' HI Hlt HE Hnde Hlen Ht).
    Qed.

    Theorem run_h_psc fuel : forall a seats o acc a0, HInv a seats -> total < inject_Z (n + 1) * q ->
      h_stop (run_h cf fuel a n total seats caps o acc a0) = None ->
      (Nat.min k (length SS) <= cnt SS (map fst (h_seats (run_h cf fuel a n total seats caps o acc a0))))%nat /\
      (forall c s, In (c, s) (h_seats (run_h cf fuel a n total seats caps o acc a0)) -> s = 1%Z) /\
      NoDup (map fst (h_seats (run_h cf fuel a n total seats caps o acc a0))).
    Proof.
      intros a seats o acc a0 HI Hd Hstop.
      destruct (run_h_final cf n total caps (fun a seats _ => HInv a seats)
                  (fun a seats o a' el o' => next_count_h_psc a seats o a' el o') fuel a seats o acc a0 HI)
        as [a1 seats1 o1 [I1 _] Hz _ ->|a1 seats1 o1 el [I1 _] Hall _ ->|a1 seats1 o1 s _ Hs _]; [| |congruence].
      - split; [exact (done_psc SS qf n total Hq caps k a1 seats1 I1 Hz Hd)|].
        split; [exact (i_one _ _ _ _ _ _ _ _ I1)|exact (i_ndk _ _ _ _ _ _ _ _ I1)].
      - exact (all_psc SS cf qf n total caps k a1 seats1 el I1 (next_count_h_all_eq _ _ _ _ _ _ _ _ Hall)).
    Qed.
  End RUNHPSC.

  Theorem initial_h_psc (votes : list (ballot * Q)) (K : list C) o a0 o' : SS <> [] -> votes_whole votes ->
    initial_allocation_h votes o = HOk a0 o' ->
    BB SS K a0 /\ keys_some a0 = all_ranked_candidates votes /\ cwa SS a0 == coalition_weight SS votes.
  Proof.
    intros Hne Hw. unfold initial_allocation_h. set (cands := all_ranked_candidates votes).
    assert (Hd : BB SS K (initial_direct votes) /\ keys_some (initial_direct votes) = cands /\
                 cwa SS (initial_direct votes) == coalition_weight SS votes).
    { unfold initial_direct. fold cands. set (base := map (fun c => (Some c, @nil (ballot * Q))) cands).
      assert (Hb : BB SS K base /\ keys_some base = cands /\ cwa SS base == 0).
      { unfold base. clear. induction cands as [|c l IH]; [repeat split; intros c p b w []|].
        destruct IH as (I2 & I3 & I4). cbn [map]. repeat split.
        - intros c0 p b w [H|H] Hb; [injection H as _ <-; destruct Hb|exact (I2 c0 p b w H Hb)].
        - change (keys_some ((Some c, []) :: map (fun c0 : C => (Some c0, [])) l)) with (c :: keys_some (map (fun c0 : C => (Some c0, @nil (ballot * Q))) l)).
          rewrite I3. reflexivity.
        - cbn [cwa fold_right fst snd]. fold (cwa SS (map (fun c0 : C => (Some c0, @nil (ballot * Q))) l)). rewrite I4.
          destruct (inS SS (Some c)); simpl; ring. }
      destruct Hb as (B1 & B2 & B3). split; [|split].
      - apply fold_left_inv; [|exact B1]. intros a [[|[c|l] t] w] _ HB; cbn [fst snd]; try exact HB.
        apply BB_alloc_add; [exact HB|]. intros c0 [= <-] Hs. unfold okb.
        destruct (solid_b_first SS _ Hne Hs) as (c1 & t1 & Heq & Hc1). injection Heq as <- _.
        apply cmem_In in Hc1. rewrite Hc1. cbn [STV_psc_proofs.rests_ok]. rewrite ceqb_refl. reflexivity.
      - apply (fold_left_inv (fun a => keys_some a = cands)); [|exact B2]. intros a [[|[c|l] t] w] Hin Hk; cbn [fst snd]; try exact Hk.
        rewrite keys_some_add_some; [exact Hk|]. rewrite Hk.
        apply (all_ranked_in votes (IP c :: t) w (IP c) c Hin); left; reflexivity.
      - match goal with |- _ == ?s => transitivity (cwa SS base + s); [|rewrite B3; ring] end. generalize base. clear -Hne.
        induction votes as [|[b w] vs IH]; intros a; [simpl; ring|].
        cbn [fold_left coalition_weight fold_right fst snd]. fold (coalition_weight SS vs). rewrite IH.
        destruct b as [|[c|l] t].
        + rewrite (solid_not_empty SS Hne). ring.
        + rewrite cwa_alloc_add. cbn [inS]. unfold sw.
          destruct (solid_b SS (IP c :: t)) eqn:Hs; [|destruct (cmem c SS); ring].
          destruct (solid_b_first SS _ Hne Hs) as (c1 & t1 & Heq & Hc1). injection Heq as <- _.
          apply cmem_In in Hc1. rewrite Hc1. ring.
        + rewrite (solid_not_shared SS l t Hne). ring. }
    destruct Hd as (D1 & D2 & D3). rewrite <- D3.
    apply (initial_shared_inv (fun a => BB SS K a /\ keys_some a = cands /\ cwa SS a == cwa SS (initial_direct votes)));
      [|repeat split; [exact D1|exact D2]].
    intros a l t w o1 a2 o2 _ (H1 & H2 & H3) Em. destruct (move_h_gives _ _ _ _ _ _ _ Em) as (L & -> & _ & HT & _).
    split; [|split].
    - apply BB_gives; [|exact H1]. intros t0 _ Hsol. rewrite (solid_not_shared SS l t Hne) in Hsol. discriminate.
    - rewrite keys_some_gives; [exact H2|]. intros t0 Ht0. rewrite H2.
      apply (next_after_allowed (IS l :: t) cands). exact (HT _ Ht0).
    - rewrite <- H3. apply cwa_gives_nonsolid, solid_not_shared, Hne.
  Qed.
End HPSC.

Theorem psc_strong_h (cf : cfg) (qf : Q -> Z -> Q) (votes : list (ballot * Q)) (n : Z) (caps : list (C * Z)) (SS : list C) (k : nat)
        (orc : oracle) :
  c_accept_equal cf = true -> c_step cf = (-1)%Z -> c_quota cf = Some qf ->
  (forall c, In c (all_ranked_candidates votes) -> dget caps c = Some 1%Z) ->
  NoDup SS -> SS <> [] ->
  votes_whole votes ->
  let total := Qred (fold_left Qplus (map snd votes) 0) in
  let q := qf total n in
  0 < q -> total < inject_Z (n + 1) * q ->
  let t := stv_h cf votes n [] caps orc in
  h_stop t = None ->
  inject_Z (Z.of_nat k) * q <= coalition_weight SS votes -> (1 <= k)%nat ->
  (Nat.min k (length SS) <= length (filter (fun c => cmem c SS) (map fst (h_seats t))))%nat /\
  (forall c s, In (c, s) (h_seats t) -> s = 1%Z) /\ NoDup (map fst (h_seats t)).
Proof.
  intros Hae Hstep Hqf Hcaps Hnd Hne Hwh total q Hq Hdroop t Hstop Hk Hk1.
  assert (Hw : forall b w, In (b, w) votes -> 0 <= w) by (intros b w Hin; apply whole_nonneg_ge0, (Hwh b w Hin)).
  revert Hstop. unfold t, stv_h. fold total.
  destruct (initial_allocation_h votes orc) as [a0 o0|s] eqn:Ei; [|discriminate].
  destruct (initial_h_psc SS votes (keys_some a0) orc a0 o0 Hne Hwh Ei) as (P2 & P3 & P4).
  destruct (initial_allocation_h_spec votes orc a0 o0 Ei) as (C1 & C2 & C3 & _).
  destruct (Inv_initial qf votes n caps SS k a0 Hcaps Hnd Hw Hq Hdroop Hk Hk1 C1 C2 (alloc_whole_nonneg _ (C3 Hwh)) P2 P3 P4)
    as (Htot & Hn0 & Hinv).
  intros Hstop.
  exact (run_h_psc SS cf Hae Hstep qf Hqf n total Htot Hn0 Hq caps k _ _ _ _ _ _ (conj Hinv (C3 Hwh)) Hdroop Hstop).
Qed.

(* declarative form: a set W of distinct members of SS, each holding exactly one seat, with |W| >= min(k, |SS|) *)
Theorem psc_winners_h (cf : cfg) (qf : Q -> Z -> Q) (votes : list (ballot * Q)) (n : Z) (caps : list (C * Z)) (SS : list C) (k : nat)
        (orc : oracle) :
  c_accept_equal cf = true -> c_step cf = (-1)%Z -> c_quota cf = Some qf ->
  (forall c, In c (all_ranked_candidates votes) -> dget caps c = Some 1%Z) ->
  NoDup SS -> SS <> [] ->
  votes_whole votes ->
  let total := Qred (fold_left Qplus (map snd votes) 0) in
  let q := qf total n in
  0 < q -> total < inject_Z (n + 1) * q ->
  let t := stv_h cf votes n [] caps orc in
  h_stop t = None ->
  inject_Z (Z.of_nat k) * q <= coalition_weight SS votes ->
  exists W : list C, NoDup W /\ incl W SS /\ (forall c, In c W -> In (c, 1%Z) (h_seats t)) /\
                     (Nat.min k (length SS) <= length W)%nat.
Proof.
  intros Hae Hstep Hqf Hcaps Hnd Hne Hw total q Hq Hdroop t Hstop Hk.
  destruct k as [|k']; [exists []; repeat split; [constructor|intros x []|intros c []|simpl; lia]|].
  destruct (psc_strong_h cf qf votes n caps SS (S k') orc Hae Hstep Hqf Hcaps Hnd Hne Hw Hq Hdroop Hstop Hk ltac:(lia)) as (P1 & P2 & P3).
  exact (winners_of_seats SS (S k') _ P1 P2 P3).
Qed.
