(* fixes/C12-mj-default-exhausted: the default tie-break of majority judgment with the rule "a level candidate
   that has run out of grades ranks below those that still have some" (Model/Cardinal.v mj_default_x with rp_mj).
   Reference order: the removal sequences of MJ_seats_proofs compared lexicographically, where a sequence that ends
   (the candidate has no grade left) is below one that goes on - [mj_lex_below].
   Proved for every number of seats: an answer holds no tie object and every elected candidate is strictly above every
   candidate left out; the loop never raises StatisticsError (or any error but the refusal of a lasting tie). *)
From Coq Require Import ZArith QArith Qround Qabs List Bool Arith Lia Lqa Permutation.
From VL Require Import Prelude.PyDict Model.GetNBest Model.Convert Model.Cardinal
     Proofs.GetNBest_proofs Proofs.QOrd Proofs.Dict_proofs Proofs.MJ_proofs Proofs.MJ_removal_proofs Proofs.MJ_seats_proofs
     Proofs.ScoreDict_proofs Proofs.Truncation_proofs Proofs.Scale2Dup_proofs Proofs.Scale2Med_proofs Proofs.Repair_proofs Proofs.TruncRepair_proofs.
Import ListNotations.
Open Scope Q_scope.

Definition mj_lex_below (d' d : cscores) : Prop :=
  exists k m, mj_seq k d = Some m /\
    match mj_seq k d' with Some m' => m' < m | None => True end /\
    forall j, (j < k)%nat -> exists x x', mj_seq j d = Some x /\ mj_seq j d' = Some x' /\ x' == x.

Lemma mj_lex_lt_below d' d : mj_lex_lt d' d -> mj_lex_below d' d.
Proof. intros (k & m & m' & H1 & H2 & H3 & H4). exists k, m. rewrite H2. auto. Qed.

Lemma mj_below_0 d d' v v' :
  aggregate_one FMedianLow d = inl v -> aggregate_one FMedianLow d' = inl v' -> v' < v -> mj_lex_below d' d.
Proof. intros H H' Hlt. apply mj_lex_lt_below. exact (mj_lex_lt_0 d d' v v' H H' Hlt). Qed.

(* a candidate without grades is below every candidate that holds one *)
Lemma mj_below_empty d d' v : aggregate_one FMedianLow d = inl v -> cs_nonneg d' -> cs_total d' = 0%Z -> mj_lex_below d' d.
Proof.
  intros H Hn HT. exists 0%nat, v. unfold mj_seq. cbn [mj_rmk]. rewrite H.
  destruct (nonneg_total_zero d' Hn HT) as (_ & He). unfold aggregate_one at 1. rewrite He.
  split; [reflexivity|]. split; [exact I|]. intros j Hj. lia.
Qed.

Lemma mj_below_lift ch d d' dn dn' m m' :
  mj_rmk ch d = inl dn -> mj_rmk ch d' = inl dn' ->
  (forall j, (j < ch)%nat -> mj_seq j d = Some m) -> (forall j, (j < ch)%nat -> mj_seq j d' = Some m') -> m' == m ->
  mj_lex_below dn' dn -> mj_lex_below d' d.
Proof.
  intros Hd Hd' Hs Hs' Hmm (k & x & H1 & H2 & Hpre).
  exists (ch + k)%nat, x. rewrite (mj_seq_add ch k d dn Hd), (mj_seq_add ch k d' dn' Hd').
  split; [exact H1|]. split; [exact H2|]. exact (mj_seq_prefix_lift ch d d' dn dn' m m' k Hd Hd' Hs Hs' Hmm Hpre).
Qed.

Lemma aggregate_x_ok rp fn sub : Forall cs_ok sub -> aggregate_x rp fn sub = aggregate fn sub.
Proof.
  intros H. unfold aggregate_x, aggregate. f_equal. apply map_ext_in. intros cd Hin. f_equal.
  rewrite Forall_forall in H. unfold aggregate_one_x. destruct (rp_counted rp); [|reflexivity]. apply okd_counted. exact (H cd Hin).
Qed.

Lemma mj_plus_x_ok rp sub n : Forall cs_ok sub -> mj_plus_x rp sub n = mj_plus sub n.
Proof.
  intros H. unfold mj_plus_x, mj_plus. destruct sub as [|[c d0] sub']; [reflexivity|].
  inversion H as [|? ? H0 _]; subst. unfold aggregate_one_x. destruct (rp_counted rp); [rewrite (okd_counted _ d0 H0)|]; reflexivity.
Qed.

(* the number of scores held by the candidates of the contest *)
Definition stot (sub : list (C * cscores)) : Z := fold_left Z.add (map (fun cd : C * cscores => cs_total (snd cd)) sub) 0%Z.

Lemma majority_judgment_x_unfold rp plus cf votes n :
  majority_judgment_x rp plus cf votes n =
  match corrected_scores_x rp cf votes with
  | inr e => inr e
  | inl sc =>
      match aggregate_x rp FMedianLow sc with
      | inr e => inr e
      | inl med =>
          mj_outer (fun sub k => if plus then mj_plus_x rp sub k else mj_default_x rp (Z.to_nat (stot sub) + 2) sub k) sc med n
      end
  end.
Proof. reflexivity. Qed.

Lemma mj_live_in cd sub : In cd (mj_live sub) <-> In cd sub /\ cs_total (snd cd) <> 0%Z.
Proof. unfold mj_live. rewrite filter_In, negb_true_iff, Z.eqb_neq. tauto. Qed.

(* every live candidate has a median *)
Lemma mj_live_medians sub : Forall cs_ok sub -> exists medians, aggregate FMedianLow (mj_live sub) = inl medians.
Proof.
  intros Hok. apply aggregate_total. intros cd Hin. apply mj_live_in in Hin. destruct Hin as (Hin & HT).
  rewrite Forall_forall in Hok. pose proof (Hok cd Hin) as Hcd. apply aggregate_one_total; [exact Hcd|].
  pose proof (cs_total_nonneg _ (proj1 Hcd)). lia.
Qed.

Lemma mj_wf_live sub : mj_wf sub -> mj_wf (mj_live sub).
Proof. apply mj_wf_filter. Qed.

(* the repaired loop on a well-formed state: the pass is made among the live candidates *)
Lemma mj_default_x_live rp f sub n : rp_mj rp = true -> mj_wf sub ->
  mj_default_x rp (S f) sub n =
  if (fold_left Z.max (map (fun cd : C * cscores => cs_total (snd cd)) sub) 0%Z <=? 0)%Z then inr SE_vse else
  if Nat.ltb (length (mj_live sub)) n then inr SE_vse else
  match aggregate FMedianLow (mj_live sub) with
  | inr e => inr e
  | inl medians => mj_body (mj_default_x rp f) (mj_live sub) medians n
  end.
Proof.
  intros Hrp Hwf. rewrite mj_default_x_unfold, Hrp. cbv zeta. rewrite (aggregate_x_ok rp _ _ (proj2 (mj_wf_live _ Hwf))).
  reflexivity.
Qed.

Lemma mj_default_x_seated rp : rp_mj rp = true -> forall fuel sub n r,
  mj_wf sub -> (1 <= n)%nat -> mj_default_x rp fuel sub n = inl r -> seated mj_lex_below sub r.
Proof.
  intros Hrp. induction fuel as [|f IH]; intros sub0 n r Hwf0 Hn; [discriminate|].
  rewrite (mj_default_x_live rp f sub0 n Hrp Hwf0). destruct (_ <=? 0)%Z; [discriminate|].
  destruct (Nat.ltb _ n); [discriminate|]. destruct (mj_wf_live sub0 Hwf0) as (Hnd & Hok). set (sub := mj_live sub0) in *.
  destruct (aggregate FMedianLow sub) as [medians|e] eqn:Ea; [|discriminate]. intros Hr.
  assert (Hs : seated mj_lex_below sub r).
  { apply (mj_body_seated mj_lex_below mj_below_0 mj_below_lift (mj_default_x rp f) _ _ _ _ Hnd Hok Hn Ea); [| |exact Hr].
    - intros T r'. apply IH; [apply mj_wf_round; [split; assumption|exact Ea]|exact Hn].
    - intros A k r'. apply IH; [apply mj_wf_filter; split; assumption|lia]. }
  (* it is enough to compare inside the live candidates: an exhausted candidate is below every winner *)
  destruct Hs as (Hplain & Hcands & Hlex). split; [exact Hplain|].
  split; [intros c Hc; apply Hcands, filter_keys_incl in Hc; exact Hc|].
  intros c d c' d' Hc Hd Hd' Hnc. destruct (proj1 (in_keys _ _) (Hcands c Hc)) as (d1 & Hd1).
  rewrite (NoDup_fst_eq _ _ _ _ (proj1 Hwf0) (proj1 (proj1 (mj_live_in _ _) Hd1)) Hd) in Hd1.
  destruct (Z.eq_dec (cs_total d') 0) as [Hz|Hnz].
  - destruct (medians_in _ _ _ _ Hnd Ea Hd1) as (v & _ & Hav & _).
    pose proof (proj2 Hwf0) as Hok0. rewrite Forall_forall in Hok0. exact (mj_below_empty d d' v Hav (proj1 (Hok0 _ Hd')) Hz).
  - apply (Hlex c d c' d' Hc Hd1); [|exact Hnc]. apply mj_live_in. split; [exact Hd'|exact Hnz].
Qed.

Theorem mj_default_x_seats rp : rp_mj rp = true -> forall fuel sub n r,
  mj_wf sub -> (1 <= n)%nat ->
  mj_default_x rp fuel sub n = inl r ->
  (forall x, In x r -> exists c, x = Cand c) /\
  (forall c d c' d', In (Cand c) r -> In (c, d) sub -> In (c', d') sub -> ~ In (Cand c') r -> mj_lex_below d' d).
Proof.
  intros Hrp fuel sub n r Hwf Hn Hr. destruct (mj_default_x_seated rp Hrp fuel sub n r Hwf Hn Hr) as (H1 & _ & H2).
  split; assumption.
Qed.

(* the repaired loop raises no StatisticsError *)
Theorem mj_default_x_no_crash rp : rp_mj rp = true -> forall fuel sub n, mj_wf sub ->
  match mj_default_x rp fuel sub n with inl _ => True | inr e => e = SE_vse \/ e = SE_fuel end.
Proof.
  intros Hrp. induction fuel as [|f IH]; intros sub0 n Hwf0; [right; reflexivity|].
  rewrite (mj_default_x_live rp f sub0 n Hrp Hwf0).
  destruct (_ <=? 0)%Z; [left; reflexivity|]. destruct (Nat.ltb _ n); [left; reflexivity|].
  pose proof (mj_wf_live sub0 Hwf0) as Hwf. destruct (mj_live_medians sub0 (proj2 Hwf0)) as (medians & Ea). rewrite Ea.
  unfold mj_body. destruct (Nat.eqb _ 0); [exact I|]. destruct (Nat.ltb 0 _).
  - match goal with |- context [mj_default_x rp f ?s ?m] => pose proof (IH s m (mj_wf_filter _ _ Hwf)) as H; destruct (mj_default_x rp f s m) end;
      [exact I|exact H].
  - apply IH. apply (mj_wf_round _ _ _ Hwf Ea).
Qed.

Theorem mj_default_x_seats_count rp : rp_mj rp = true -> forall fuel sub n r,
  mj_wf sub -> (1 <= n)%nat ->
  mj_default_x rp fuel sub n = inl r -> length r = n /\ NoDup r.
Proof.
  intros Hrp. induction fuel as [|f IH]; intros sub0 n r Hwf0 Hn; [discriminate|].
  rewrite (mj_default_x_live rp f sub0 n Hrp Hwf0). destruct (_ <=? 0)%Z; [discriminate|].
  destruct (Nat.ltb _ n) eqn:Elive; [discriminate|]. apply Nat.ltb_ge in Elive.
  pose proof (mj_wf_live sub0 Hwf0) as Hwf. set (sub := mj_live sub0) in *.
  destruct (aggregate FMedianLow sub) as [medians|e] eqn:Ea; [|discriminate]. intros Hr.
  apply (mj_body_count (mj_default_x rp f) sub medians n r (proj1 Hwf) Hn Ea) in Hr; [destruct Hr as (H1 & H2); split; [lia|exact H2]| |].
  - intros T r' _. exact (IH _ _ _ (mj_wf_round _ _ T Hwf Ea) Hn).
  - intros A k r' _ Hr'. pose proof (mj_wf_filter (fun cd : C * cscores => negb (cmem (fst cd) A)) sub Hwf) as Hwf'.
    destruct (IH _ _ _ Hwf' (le_n_S _ _ (Nat.le_0_l k)) Hr') as (Hl1 & Hl2). split; [exact Hl1|]. split; [exact Hl2|].
    exact (proj1 (proj2 (mj_default_x_seated rp Hrp _ _ _ _ Hwf' (le_n_S _ _ (Nat.le_0_l k)) Hr'))).
Qed.

Theorem corrected_scores_x_ok rp cf votes sc : profile_ok votes -> corrected_scores_x rp cf votes = inl sc -> Forall cs_ok sc.
Proof.
  intros Hv Hsc. apply (sequence_map_ok (fun d => correct_scores_x rp cf d (fold_left Z.add (map snd votes) 0%Z)) _ _ Hsc).
  intros cd d' Hcd. apply correct_scores_x_okd; [exact (raw_scores_okd votes (fun bn H => proj1 (Hv bn H)) cd Hcd)|].
  right. exact (raw_scores_bound votes Hv cd Hcd).
Qed.

Lemma corrected_scores_x_nodup rp cf votes sc : corrected_scores_x rp cf votes = inl sc -> NoDup (map fst sc).
Proof.
  unfold corrected_scores_x. cbv zeta. intros H. rewrite (sequence_keys _ _ H), map_map. cbn [fst].
  rewrite <- (map_ext fst (fun x : C * cscores => fst x) (fun _ => eq_refl)). apply raw_scores_nodup.
Qed.

Theorem mj_x_default_rule rp cf votes n sc r : rp_mj rp = true ->
  (1 <= n)%nat -> corrected_scores_x rp cf votes = inl sc -> Forall cs_ok sc ->
  majority_judgment_x rp false cf votes n = inl r ->
  (forall x, In x r -> exists c, x = Cand c) /\ length r = Nat.min n (length sc) /\ NoDup r /\
  (forall c, In (Cand c) r -> In c (map fst sc)) /\
  (forall c d c' d', In (Cand c) r -> In (c, d) sc -> In (c', d') sc -> ~ In (Cand c') r -> mj_lex_below d' d).
Proof.
  intros Hrp Hn Hsc Hok. pose proof (corrected_scores_x_nodup _ _ _ _ Hsc) as Hnd.
  rewrite majority_judgment_x_unfold, Hsc, (aggregate_x_ok rp _ _ Hok).
  destruct (aggregate FMedianLow sc) as [med|e] eqn:Ea; [|discriminate]. intros Hr.
  apply (mj_outer_seated mj_lex_below mj_below_0 _ sc med n r Hnd Hn Ea) in Hr; [destruct Hr as ((H1 & H2 & H3) & H4 & H5); tauto|].
  intros T k r' Hk Er. cbv beta iota in Er.
  assert (Hwf' : mj_wf (mj_level sc T)) by (apply mj_wf_filter; split; assumption).
  split; [exact (mj_default_x_seated rp Hrp _ _ _ _ Hwf' (le_n_S _ _ (Nat.le_0_l k)) Er)|].
  exact (mj_default_x_seats_count rp Hrp _ _ _ _ Hwf' (le_n_S _ _ (Nat.le_0_l k)) Er).
Qed.

(* the plus rule on candidates that all hold a score: the median of the first one exists *)
Lemma mj_plus_x_held rp sub n : (forall cd, In cd sub -> held cd) -> sub <> [] -> exists r, mj_plus_x rp sub n = inl r.
Proof.
  intros Hheld Hne. unfold mj_plus_x. destruct sub as [|[c0 d0] sub']; [contradiction|].
  destruct (Hheld (c0, d0) (or_introl eq_refl)) as (Hd & HT).
  destruct (aggregate_one_x_total rp FMedianLow d0 Hd HT) as (v & ->). eexists. reflexivity.
Qed.

Theorem majority_judgment_x_no_crash rp plus cf votes n : rp_trunc rp = true -> rp_mj rp = true -> (1 <= n)%nat ->
  profile_pos votes ->
  match majority_judgment_x rp plus cf votes n with inl _ => True | inr e => e = SE_vse \/ e = SE_fuel end.
Proof.
  intros Hrt Hrp Hn Hv. rewrite majority_judgment_x_unfold.
  destruct (corrected_scores_x_held rp cf votes Hrt Hv) as (sc & Hsc & Hheld). rewrite Hsc.
  assert (Hok : Forall cs_ok sc) by (apply Forall_forall; intros cd Hcd; exact (proj1 (Hheld cd Hcd))).
  pose proof (corrected_scores_x_nodup _ _ _ _ Hsc) as Hnd.
  rewrite (aggregate_x_ok rp _ _ Hok).
  destruct (aggregate_total sc) as (med & Ea).
  { intros cd Hcd. destruct (Hheld cd Hcd). apply aggregate_one_total; assumption. }
  rewrite Ea. pose proof (aggregate_keys _ _ _ Ea) as Hkeys.
  assert (Hndm : NoDup (map fst med)) by (rewrite Hkeys; exact Hnd).
  destruct (gnb_keys med n Hn Hndm) as [(A & E & _)|(A & T & thr & k & E & Hts & _ & HkT)].
  { rewrite (mj_outer_clean _ _ _ _ _ E). exact I. }
  rewrite (mj_outer_tie _ _ _ _ _ _ _ E). set (sub := mj_level sc T).
  assert (Hwf' : mj_wf sub) by (apply mj_wf_filter; split; assumption).
  destruct plus.
  - destruct (level_stays _ _ _ _ sc med Hts Hkeys) as (Hge & _). fold sub in Hge.
    destruct (mj_plus_x_held rp sub (S k)) as (r & ->); [|destruct sub; [cbn [length] in Hge; lia|discriminate]|exact I].
    intros cd Hcd. apply Hheld. unfold sub, mj_level in Hcd. apply filter_In in Hcd. tauto.
  - pose proof (mj_default_x_no_crash rp Hrp (Z.to_nat (stot sub) + 2) sub (S k) Hwf') as H.
    destruct (mj_default_x rp _ sub (S k)); [exact I|exact H].
Qed.

(* the only error of the low median is StatisticsError *)
Lemma aggregate_median_error sub e : aggregate FMedianLow sub = inr e -> e = SE_stats.
Proof.
  induction sub as [|cd sub IHs]; [discriminate|]. rewrite aggregate_cons.
  destruct (aggregate_one FMedianLow (snd cd)) as [y|e0] eqn:Ey.
  - destruct (aggregate FMedianLow sub) as [r|e1]; [discriminate|]. intros [= <-]. apply IHs. reflexivity.
  - intros [= <-]. rewrite median_unfold in Ey. destruct (expand (snd cd)); [injection Ey as <-; reflexivity|discriminate].
Qed.

(* wherever the pinned tie-break does not end in StatisticsError - it answers, refuses a lasting tie, or runs out of the
   model's fuel - the repaired one does the same: nobody was exhausted before the others on the way *)
Theorem mj_default_x_conservative rp : forall fuel sub n, mj_wf sub -> (1 <= n <= length sub)%nat ->
  mj_default fuel sub n <> inr SE_stats -> mj_default_x rp fuel sub n = mj_default fuel sub n.
Proof.
  induction fuel as [|f IH]; intros sub n Hwf Hn Hns; [reflexivity|].
  rewrite mj_default_unfold in Hns |- *. rewrite mj_default_x_unfold.
  destruct (_ <=? 0)%Z; [reflexivity|].
  destruct (aggregate FMedianLow sub) as [medians|e] eqn:Ea; [|rewrite (aggregate_median_error _ _ Ea) in Hns; contradiction].
  (* every candidate has a median, hence a score: nobody is dropped *)
  pose proof Hwf as (Hnd & Hok).
  assert (Hlive : mj_live sub = sub).
  { unfold mj_live. apply filter_all_true. intros [c d] Hcd. apply negb_true_iff, Z.eqb_neq. intros Hz. cbn [snd] in Hz.
    destruct (medians_in sub medians c d Hnd Ea Hcd) as (v & _ & Hav & _).
    rewrite Forall_forall in Hok. destruct (nonneg_total_zero d (proj1 (Hok _ Hcd)) Hz) as (_ & He).
    rewrite median_unfold, He in Hav. discriminate. }
  assert (Hs1 : (if rp_mj rp then mj_live sub else sub) = sub) by (destruct (rp_mj rp); [exact Hlive|reflexivity]).
  assert (Hlen : rp_mj rp && Nat.ltb (length sub) n = false) by (destruct (rp_mj rp); [apply Nat.ltb_ge; lia|reflexivity]).
  cbv zeta. rewrite Hs1, Hlen, (aggregate_x_ok rp _ _ Hok), Ea.
  pose proof (aggregate_keys _ _ _ Ea) as Hkeys.
  assert (Hndm : NoDup (map fst medians)) by (rewrite Hkeys; exact Hnd).
  destruct (gnb_keys medians n (proj1 Hn) Hndm) as [(A & E & _)|(A & T & thr & k & E & Hts & HlenA & HkT)].
  { rewrite !(mj_body_clean _ _ _ _ _ E). reflexivity. }
  rewrite (mj_body_tie _ _ _ _ _ _ _ E HlenA) in Hns. rewrite !(mj_body_tie _ _ _ _ _ _ _ E HlenA).
  destruct (level_stays _ _ _ _ sub medians Hts Hkeys) as (_ & Hge1 & Hge2). destruct A as [|a A'].
  - cbn [length] in HlenA. apply IH; [exact (mj_wf_round _ _ _ Hwf Ea)|lia|exact Hns].
  - cbv iota in Hns |- *. rewrite IH; [reflexivity|apply mj_wf_filter, Hwf|lia|].
    intros E'. apply Hns. rewrite E'. reflexivity.
Qed.

(* a dictionary whose mean / low median exists holds a score *)
Lemma aggregate_one_holds fn d v : fn <> FSum -> cs_okd d -> aggregate_one fn d = inl v -> (1 <= cs_total d)%Z.
Proof.
  intros Hfn Hd Ha. pose proof (expand_length d (proj1 Hd)) as Hl. pose proof (cs_total_nonneg d (proj1 Hd)) as H0.
  destruct (Z.eq_dec (cs_total d) 0) as [Hz|Hz]; [exfalso|lia].
  destruct (nonneg_total_zero d (proj1 Hd) Hz) as (_ & He). destruct fn; [|congruence|]; unfold aggregate_one in Ha; rewrite He in Ha; discriminate.
Qed.

(* the corrections of one candidate: when the pinned code leaves a score, the repaired code gives the same dictionary *)
Lemma correct_scores_x_same rp cf d nv d3 : cs_okd d -> (sc_unscored cf = UNone \/ (cs_total d <= nv)%Z) -> (0 <= nv)%Z ->
  correct_scores cf d nv = inl d3 -> (1 <= cs_total d3)%Z -> correct_scores_x rp cf d nv = inl d3.
Proof.
  intros Hd Hb Hnv Hc HT. rewrite <- Hc. rewrite correct_scores_unfold in Hc. rewrite correct_scores_x_unfold, correct_scores_unfold.
  destruct (cs_total d <? sc_min_count cf)%Z; [reflexivity|].
  destruct (unscored_fill cf d nv) as [d1|e] eqn:E1; [|reflexivity].
  destruct (Qle_bool (sc_trunc cf) 0) eqn:Et; [reflexivity|]. cbv zeta.
  destruct (rp_trunc rp); [|reflexivity].
  pose proof (trunc_cutoff_nonneg cf d nv Hd Hnv Et) as Hc0.
  destruct (truncation_total d1 (trunc_cutoff cf d nv) (unscored_fill_okd _ _ _ _ Hd Hb E1) Hc0) as (d2 & d3' & E2 & E3 & Htot).
  rewrite E2, E3 in Hc. injection Hc as <-.
  destruct (mid_cutoff_bounds (trunc_cutoff cf d nv) (cs_total d1)) as (_ & _ & Hmid). rewrite (Hmid Hc0 ltac:(lia)). reflexivity.
Qed.

Lemma corrected_scores_x_same rp cf votes sc : profile_ok votes -> corrected_scores cf votes = inl sc ->
  (forall cd, In cd sc -> (1 <= cs_total (snd cd))%Z) -> corrected_scores_x rp cf votes = inl sc.
Proof.
  intros Hv Hsc Hheld. unfold corrected_scores_x, corrected_scores in *. cbv zeta in *.
  set (nv := fold_left Z.add (map snd votes) 0%Z) in *.
  assert (Hnv : (0 <= nv)%Z).
  { unfold nv. clear -Hv. assert (G : forall (l : sprofile) a, (forall bn, In bn l -> (0 <= snd bn)%Z) -> (0 <= a)%Z -> (0 <= fold_left Z.add (map snd l) a)%Z).
    { induction l as [|bn l IHl]; intros a Hl Ha; [exact Ha|]. cbn [map fold_left]. apply IHl; [intros b Hb; apply Hl; right; exact Hb|].
      pose proof (Hl bn (or_introl eq_refl)). lia. }
    apply G; [intros bn Hbn; exact (proj1 (Hv bn Hbn))|lia]. }
  revert sc Hsc Hheld. generalize (raw_scores_okd votes (fun bn H => proj1 (Hv bn H))) (raw_scores_bound votes Hv).
  fold nv. generalize (raw_scores votes) as raw. induction raw as [|[c d] raw IHr]; intros Hokd Hbound sc Hsc Hheld; [exact Hsc|].
  cbn [map sequence fst snd] in Hsc |- *.
  destruct (correct_scores cf d nv) as [d3|e] eqn:Ec; [|discriminate].
  destruct (sequence (map (fun cd : C * cscores => (fst cd, correct_scores cf (snd cd) nv)) raw)) as [r|e] eqn:Er; [|discriminate].
  injection Hsc as <-.
  rewrite (correct_scores_x_same rp cf d nv d3 (Hokd (c, d) (or_introl eq_refl)) (or_intror (Hbound (c, d) (or_introl eq_refl))) Hnv Ec
             (Hheld (c, d3) (or_introl eq_refl))).
  rewrite (IHr (fun cd H => Hokd cd (or_intror H)) (fun cd H => Hbound cd (or_intror H)) r eq_refl (fun cd H => Hheld cd (or_intror H))).
  reflexivity.
Qed.

Lemma aggregate_holds fn sc agg : fn <> FSum -> Forall cs_ok sc -> aggregate fn sc = inl agg -> forall cd, In cd sc -> (1 <= cs_total (snd cd))%Z.
Proof.
  intros Hfn Hok Ha [c d] Hin. revert agg Ha. induction sc as [|cd0 sc IHs]; intros agg Ha; [destruct Hin|].
  rewrite aggregate_cons in Ha. destruct (aggregate_one fn (snd cd0)) as [y|] eqn:Ey; [|discriminate].
  destruct (aggregate fn sc) as [r|] eqn:Er; [|discriminate]. inversion Hok as [|? ? H0 Hok']; subst.
  destruct Hin as [->|Hin]; [exact (aggregate_one_holds fn d y Hfn H0 Ey)|exact (IHs Hok' Hin r eq_refl)].
Qed.

(* score voting by mean or low median: an answer of the pinned code is the answer of the repaired code (every repair) *)
Theorem score_voting_x_conservative rp cf votes n r : profile_ok votes -> sc_fn cf <> FSum ->
  score_voting cf votes n = inl r -> score_voting_x rp cf votes n = inl r.
Proof.
  intros Hv Hfn. unfold score_voting, score_voting_x, score_to_simple, score_to_simple_x.
  destruct (corrected_scores cf votes) as [sc|e] eqn:Esc; [|discriminate].
  pose proof (corrected_scores_ok cf votes sc Hv Esc) as Hok.
  destruct (aggregate (sc_fn cf) sc) as [agg|e] eqn:Ea; [|discriminate].
  rewrite (corrected_scores_x_same rp cf votes sc Hv Esc (aggregate_holds _ _ _ Hfn Hok Ea)), (aggregate_x_ok rp _ _ Hok), Ea.
  intros H. exact H.
Qed.

(* majority judgment, either rule *)
Theorem majority_judgment_x_conservative rp plus cf votes n r : profile_ok votes -> (1 <= n)%nat ->
  majority_judgment plus cf votes n = inl r -> majority_judgment_x rp plus cf votes n = inl r.
Proof.
  intros Hv Hn. rewrite majority_judgment_unfold, majority_judgment_x_unfold.
  destruct (corrected_scores cf votes) as [sc|e] eqn:Esc; [|discriminate].
  pose proof (corrected_scores_ok cf votes sc Hv Esc) as Hok. pose proof (corrected_scores_nodup _ _ _ Esc) as Hnd.
  destruct (aggregate FMedianLow sc) as [med|e] eqn:Ea; [|discriminate].
  assert (Hfn : FMedianLow <> FSum) by discriminate.
  rewrite (corrected_scores_x_same rp cf votes sc Hv Esc (aggregate_holds _ _ _ Hfn Hok Ea)), (aggregate_x_ok rp _ _ Hok), Ea.
  pose proof (aggregate_keys _ _ _ Ea) as Hkeys.
  assert (Hndm : NoDup (map fst med)) by (rewrite Hkeys; exact Hnd).
  destruct (gnb_keys med n Hn Hndm) as [(A & E & _)|(A & T & thr & k & E & Hts & _ & HkT)].
  { rewrite !(mj_outer_clean _ _ _ _ _ E). intros H. exact H. }
  rewrite !(mj_outer_tie _ _ _ _ _ _ _ E). set (sub := mj_level sc T).
  assert (Hwf : mj_wf sub) by (apply mj_wf_filter; split; assumption).
  destruct plus.
  - rewrite (mj_plus_x_ok rp sub (S k) (proj2 Hwf)). intros H. exact H.
  - destruct (level_stays _ _ _ _ sc med Hts Hkeys) as (Hge & _). fold sub in Hge. fold (stot sub).
    destruct (mj_default (Z.to_nat (stot sub) + 2) sub (S k)) as [r'|e] eqn:Er; [|discriminate].
    rewrite (mj_default_x_conservative rp _ sub (S k) Hwf ltac:(lia)); [rewrite Er; intros H; exact H|rewrite Er; discriminate].
Qed.

Lemma stot_cons cd sub : stot (cd :: sub) = (cs_total (snd cd) + stot sub)%Z.
Proof. unfold stot. cbn [map fold_left]. rewrite fold_add_shift. lia. Qed.

Lemma ok_total_nonneg cd : cs_ok cd -> (0 <= cs_total (snd cd))%Z.
Proof. intros (Hn & _). apply cs_total_nonneg, Hn. Qed.

Lemma stot_nonneg sub : Forall cs_ok sub -> (0 <= stot sub)%Z.
Proof. induction 1 as [|cd sub Hcd _ IH]; [unfold stot; cbn; lia|]. rewrite stot_cons. pose proof (ok_total_nonneg cd Hcd). lia. Qed.

Lemma stot_filter_le (f : C * cscores -> bool) sub : Forall cs_ok sub -> (stot (filter f sub) <= stot sub)%Z.
Proof.
  induction 1 as [|cd sub Hcd _ IH]; [cbn; lia|]. cbn [filter]. pose proof (ok_total_nonneg cd Hcd).
  destruct (f cd); rewrite !stot_cons; lia.
Qed.

Lemma stot_filter_drop (f : C * cscores -> bool) sub cd : Forall cs_ok sub -> In cd sub -> f cd = false ->
  (stot (filter f sub) + cs_total (snd cd) <= stot sub)%Z.
Proof.
  induction 1 as [|cd0 sub Hcd Hsub IH]; intros Hin Hf; [destruct Hin|]. cbn [filter]. pose proof (ok_total_nonneg cd0 Hcd).
  destruct Hin as [->|Hin].
  - rewrite Hf, stot_cons. pose proof (stot_filter_le f sub Hsub). lia.
  - specialize (IH Hin Hf). destruct (f cd0); rewrite !stot_cons; lia.
Qed.

Lemma stot_live sub : stot (mj_live sub) = stot sub.
Proof.
  unfold mj_live. induction sub as [|cd sub IH]; [reflexivity|]. cbn [filter]. destruct (cs_total (snd cd) =? 0)%Z eqn:E; cbn [negb].
  - apply Z.eqb_eq in E. rewrite stot_cons, IH. lia.
  - rewrite !stot_cons, IH. reflexivity.
Qed.

Lemma stot_remove sub medians ch : stot (mj_remove sub medians ch) = (stot sub - ch * Z.of_nat (length sub))%Z.
Proof.
  unfold mj_remove. induction sub as [|cd sub IH]; [unfold stot; cbn; lia|]. cbn [map]. rewrite !stot_cons, IH. cbn [snd length].
  rewrite cs_total_set, Nat2Z.inj_succ. lia.
Qed.

Lemma stot_in cd sub : Forall cs_ok sub -> In cd sub -> (cs_total (snd cd) <= stot sub)%Z.
Proof.
  induction 1 as [|cd0 sub Hcd Hsub IH]; intros Hin; [destruct Hin|]. rewrite stot_cons.
  pose proof (ok_total_nonneg cd0 Hcd). pose proof (stot_nonneg sub Hsub). destruct Hin as [->|Hin]; [lia|].
  specialize (IH Hin). lia.
Qed.

(* the number of scores held by the candidates of the contest goes down in every pass of the repaired loop, so it ends before the fuel does *)
Theorem mj_default_x_fuel rp : rp_mj rp = true -> forall fuel sub n, mj_wf sub -> (Z.to_nat (stot sub) < fuel)%nat ->
  mj_default_x rp fuel sub n <> inr SE_fuel.
Proof.
  intros Hrp. induction fuel as [|f IH]; intros sub0 n Hwf0 Hfuel; [lia|].
  rewrite (mj_default_x_live rp f sub0 n Hrp Hwf0). destruct (_ <=? 0)%Z; [discriminate|].
  destruct (Nat.ltb _ n); [discriminate|].
  pose proof (mj_wf_live sub0 Hwf0) as Hwf. pose proof (stot_live sub0) as Hsl.
  destruct (mj_live_medians sub0 (proj2 Hwf0)) as (medians & Ea). rewrite Ea.
  assert (Hlive : forall cd, In cd (mj_live sub0) -> (1 <= cs_total (snd cd))%Z).
  { intros cd Hcd. pose proof (proj2 (proj1 (mj_live_in cd sub0) Hcd)). pose proof (proj2 Hwf) as Hok. rewrite Forall_forall in Hok.
    pose proof (ok_total_nonneg _ (Hok _ Hcd)). lia. }
  set (sub := mj_live sub0) in *. destruct Hwf as (Hnd & Hok).
  pose proof (aggregate_keys _ _ _ Ea) as Hkeys.
  assert (Hndm : NoDup (map fst medians)) by (rewrite Hkeys; exact Hnd).
  destruct n as [|n']; [unfold mj_body; rewrite (get_n_best_0 Qle_bool Qle_bool_total); discriminate|].
  destruct (gnb_keys medians (S n') (le_n_S _ _ (Nat.le_0_l n')) Hndm) as [(A & E & _)|(A & T & thr & k & E & Hts & HlenA & HkT)].
  { rewrite (mj_body_clean _ _ _ _ _ E). discriminate. }
  rewrite (mj_body_tie _ _ _ _ _ _ _ E HlenA). destruct (level_stays _ _ _ _ sub medians Hts Hkeys) as (Hge & _).
  destruct A as [|a A'].
  - (* a shared lead: at least one score leaves each of the level candidates, and one of them is there *)
    apply IH; [exact (mj_wf_round sub medians T (conj Hnd Hok) Ea)|].
    unfold mj_round. rewrite stot_remove. pose proof (mj_ch_pos (mj_level sub T) medians) as Hch.
    pose proof (stot_filter_le (fun cd : C * cscores => cmem (fst cd) T) sub Hok) as Hle. fold (mj_level sub T) in Hle.
    assert (Hs1 : (1 <= stot sub)%Z).
    { destruct (mj_level sub T) as [|cd l] eqn:El; [cbn [length] in Hge; lia|].
      assert (Hin : In cd sub).
      { assert (H : In cd (mj_level sub T)) by (rewrite El; left; reflexivity). unfold mj_level in H. apply filter_In in H. tauto. }
      pose proof (stot_in cd sub Hok Hin). pose proof (Hlive cd Hin). lia. }
    nia.
  - (* at least one candidate is seated outright and leaves the contest with its scores *)
    cbv iota. set (sub' := filter (fun cd : C * cscores => negb (cmem (fst cd) (a :: A'))) sub).
    assert (Hlt : (stot sub' < stot sub)%Z).
    { destruct Hts as [_ _ _ HkAT]. assert (Ha : In a (map fst sub)) by (rewrite <- Hkeys; apply HkAT; left; reflexivity).
      apply in_keys in Ha. destruct Ha as (d0 & Hd0).
      assert (Hdrop : negb (cmem (fst (a, d0)) (a :: A')) = false) by (apply negb_false_iff, cmem_In; left; reflexivity).
      pose proof (stot_filter_drop (fun cd : C * cscores => negb (cmem (fst cd) (a :: A'))) sub (a, d0) Hok Hd0 Hdrop) as Hd.
      fold sub' in Hd. pose proof (Hlive _ Hd0). lia. }
    pose proof (mj_wf_filter (fun cd : C * cscores => negb (cmem (fst cd) (a :: A'))) sub (conj Hnd Hok)) as Hwf'. fold sub' in Hwf'.
    pose proof (stot_nonneg sub' (proj2 Hwf')) as Hs'.
    pose proof (IH sub' (S k) Hwf' ltac:(lia)) as Hrec.
    destruct (mj_default_x rp f sub' (S k)) as [r|e]; [discriminate|]. intros [= ->]. apply Hrec. reflexivity.
Qed.

(* with the fuel the evaluator hands over (number of scores of the level candidates + 2) the loop ends by itself *)
Theorem majority_judgment_x_answers_or_refuses rp plus cf votes n : rp_trunc rp = true -> rp_mj rp = true -> (1 <= n)%nat ->
  profile_pos votes ->
  match majority_judgment_x rp plus cf votes n with inl _ => True | inr e => e = SE_vse end.
Proof.
  intros Hrt Hrp Hn Hv. pose proof (majority_judgment_x_no_crash rp plus cf votes n Hrt Hrp Hn Hv) as H.
  destruct (majority_judgment_x rp plus cf votes n) as [r|e] eqn:E; [exact I|].
  destruct H as [H|H]; [exact H|exfalso]. subst e. revert E. rewrite majority_judgment_x_unfold.
  destruct (corrected_scores_x_held rp cf votes Hrt Hv) as (sc & Hsc & Hheld). rewrite Hsc.
  assert (Hok : Forall cs_ok sc) by (apply Forall_forall; intros cd Hcd; exact (proj1 (Hheld cd Hcd))).
  pose proof (corrected_scores_x_nodup _ _ _ _ Hsc) as Hnd.
  rewrite (aggregate_x_ok rp _ _ Hok). destruct (aggregate_total sc) as (med & ->).
  { intros cd Hcd. destruct (Hheld cd Hcd). apply aggregate_one_total; assumption. }
  unfold mj_outer.
  destruct (last_tie (get_n_best Qle_bool med n)) as [tied|]; [|discriminate].
  set (sub := mj_level sc tied).
  assert (Hwf : mj_wf sub) by (apply mj_wf_filter; split; assumption).
  destruct plus.
  - destruct sub as [|cd sub'] eqn:Es; [discriminate|].
    destruct (mj_plus_x_held rp (cd :: sub') (count_tie (get_n_best Qle_bool med n))) as (r & ->); [|discriminate|discriminate].
    intros cd' Hcd'. apply Hheld. rewrite <- Es in Hcd'. unfold sub, mj_level in Hcd'. apply filter_In in Hcd'. tauto.
  - pose proof (mj_default_x_fuel rp Hrp (Z.to_nat (stot sub) + 2) sub (count_tie (get_n_best Qle_bool med n)) Hwf ltac:(lia)) as Hf.
    destruct (mj_default_x rp (Z.to_nat (stot sub) + 2) sub (count_tie (get_n_best Qle_bool med n))) as [r|e]; [discriminate|].
    intros [= ->]. apply Hf. reflexivity.
Qed.
