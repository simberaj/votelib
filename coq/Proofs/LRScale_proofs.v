(* Scale invariance (C11) of the quota family: QuotaDistributor.evaluate, _subtract_overaward and
   LargestRemainder.evaluate give the same seats for votes and for k * votes (k > 0 rational) whenever the
   quota function is homogeneous (quota (k v) n == k quota v n): Hare, Hagenbach-Bischoff, Imperiali.
   The rounded quotas (Droop, *_rounded, *_ceil) are not homogeneous and are genuinely not scale-free.
   The proof is a simulation through every branch of the model, including the over-award subtraction, and rests on a relational version of get_n_best's order-embedding lemma.
   The file begins with what all the scale-invariance proofs share: folds, maps and filters over lists related
   element by element, and the arithmetic of the relation x' == k x. *)
From Coq Require Import ZArith QArith Qround List Bool Lia Lqa Qfield.
From VL Require Import Prelude.PyDict Model.GetNBest Model.Quota Model.QuotaDistributor
     Proofs.Dict_proofs Proofs.GetNBest_proofs Proofs.QOrd Proofs.QD_proofs.
Import ListNotations.

Lemma Forall2_firstn {A B} (R : A -> B -> Prop) n l l' : Forall2 R l l' -> Forall2 R (firstn n l) (firstn n l').
Proof.
  intros H. revert n. induction H as [|a b l l' Hab _ IH]; intros [|n]; cbn [firstn]; constructor; auto.
Qed.

Lemma Forall2_map {A A' B B'} (RA : A -> A' -> Prop) (RB : B -> B' -> Prop) (h : A -> B) (h' : A' -> B') l l' :
  (forall x x', RA x x' -> RB (h x) (h' x')) -> Forall2 RA l l' -> Forall2 RB (map h l) (map h' l').
Proof. intros Hh H. induction H; cbn [map]; constructor; auto. Qed.

Lemma Forall2_map_same {A B B'} (RB : B -> B' -> Prop) (h : A -> B) (h' : A -> B') l :
  (forall x, RB (h x) (h' x)) -> Forall2 RB (map h l) (map h' l).
Proof. intros Hh. induction l; cbn [map]; constructor; auto. Qed.

Lemma Forall2_flat_map {A A' B B'} (RA : A -> A' -> Prop) (RB : B -> B' -> Prop) (h : A -> list B) (h' : A' -> list B') l l' :
  (forall x x', RA x x' -> Forall2 RB (h x) (h' x')) -> Forall2 RA l l' -> Forall2 RB (flat_map h l) (flat_map h' l').
Proof. intros Hh H. induction H; cbn [flat_map]; [constructor|apply Forall2_app; auto]. Qed.

(* what maps related elements to equal values cannot tell related lists apart *)
Section Forall2Eq.
  Context {A A' B : Type} (R : A -> A' -> Prop).

  Lemma Forall2_map_eq (h : A -> B) (h' : A' -> B) l l' :
    (forall x x', R x x' -> h' x' = h x) -> Forall2 R l l' -> map h' l' = map h l.
  Proof. intros Hh H. induction H as [|x x' l l' Hx _ IH]; cbn [map]; [reflexivity|]. rewrite IH, (Hh _ _ Hx). reflexivity. Qed.

  Lemma Forall2_flat_map_eq (h : A -> list B) (h' : A' -> list B) l l' :
    (forall x x', R x x' -> h' x' = h x) -> Forall2 R l l' -> flat_map h' l' = flat_map h l.
  Proof. intros Hh H. induction H as [|x x' l l' Hx _ IH]; cbn [flat_map]; [reflexivity|]. rewrite IH, (Hh _ _ Hx). reflexivity. Qed.

  Variables (f : A -> bool) (f' : A' -> bool).
  Hypothesis Hf : forall x x', R x x' -> f' x' = f x.

  Lemma Forall2_existsb l l' : Forall2 R l l' -> existsb f' l' = existsb f l.
  Proof. intros H. induction H as [|x x' l l' Hx _ IH]; cbn [existsb]; [reflexivity|]. rewrite IH, (Hf _ _ Hx). reflexivity. Qed.

  Lemma Forall2_forallb l l' : Forall2 R l l' -> forallb f' l' = forallb f l.
  Proof. intros H. induction H as [|x x' l l' Hx _ IH]; cbn [forallb]; [reflexivity|]. rewrite IH, (Hf _ _ Hx). reflexivity. Qed.

  Lemma Forall2_filter l l' : Forall2 R l l' -> Forall2 R (filter f l) (filter f' l').
  Proof.
    intros H. induction H as [|x x' l l' Hx _ IH]; cbn [filter]; [constructor|].
    rewrite (Hf _ _ Hx). destruct (f x); [constructor; assumption|exact IH].
  Qed.
End Forall2Eq.

(* a fold whose step preserves a relation between the accumulators, over related lists / over one list *)
Lemma fold_left_rel {A A' B B'} (RA : A -> A' -> Prop) (RB : B -> B' -> Prop) (f : A -> B -> A) (f' : A' -> B' -> A') l l' :
  (forall a a' b b', RA a a' -> RB b b' -> RA (f a b) (f' a' b')) -> Forall2 RB l l' ->
  forall a a', RA a a' -> RA (fold_left f l a) (fold_left f' l' a').
Proof. intros Hf H. induction H; intros a a' Ha; cbn [fold_left]; auto. Qed.

Lemma fold_left_rel_same {A A' B} (RA : A -> A' -> Prop) (f : A -> B -> A) (f' : A' -> B -> A') l :
  (forall a a' b, RA a a' -> RA (f a b) (f' a' b)) -> forall a a', RA a a' -> RA (fold_left f l a) (fold_left f' l a').
Proof. intros Hf. induction l as [|b l IH]; intros a a' Ha; cbn [fold_left]; auto. Qed.

Section GNBrel.
  Context {K V W : Type}.
  Variable leb : V -> V -> bool.
  Variable leb' : W -> W -> bool.
  Variable R : V -> W -> Prop.
  Hypothesis R_emb : forall a a' b b', R a a' -> R b b' -> leb' a' b' = leb a b.

  Definition prel (x : K * V) (y : K * W) : Prop := fst x = fst y /\ R (snd x) (snd y).
  Definition lrel : list (K * V) -> list (K * W) -> Prop := Forall2 prel.

  Lemma lrel_keys l l' : lrel l l' -> map fst l' = map fst l.
  Proof. apply Forall2_map_eq. intros x x' [E _]. symmetry. exact E. Qed.

  Lemma lrel_map_snd (g : V -> W) l : (forall v, R v (g v)) -> lrel l (map (fun x => (fst x, g (snd x))) l).
  Proof. intros Hg. induction l as [|x l IH]; cbn [map]; constructor; [split; [reflexivity|apply Hg]|exact IH]. Qed.

  Lemma lrel_length l l' : lrel l l' -> length l' = length l.
  Proof. intros H. induction H; simpl; congruence. Qed.

  Lemma lrel_filter_fst (g : K -> bool) l l' : lrel l l' ->
    lrel (filter (fun kt => g (fst kt)) l) (filter (fun kt => g (fst kt)) l').
  Proof. apply Forall2_filter. intros x x' [E _]. rewrite E. reflexivity. Qed.

  Lemma insert_desc_rel x x' l l' : prel x x' -> lrel l l' ->
    lrel (insert_desc leb x l) (insert_desc leb' x' l').
  Proof.
    intros Hx Hl. induction Hl as [|y y' l l' Hy Hl IH]; simpl.
    - constructor; [exact Hx|constructor].
    - rewrite (R_emb _ _ _ _ (proj2 Hy) (proj2 Hx)).
      destruct (leb (snd y) (snd x)).
      + constructor; [exact Hx|]. constructor; assumption.
      + constructor; assumption.
  Qed.

  Lemma sort_desc_rel l l' : lrel l l' -> lrel (sort_desc leb l) (sort_desc leb' l').
  Proof.
    intros Hl. induction Hl as [|y y' l l' Hy Hl IH]; simpl; [constructor|].
    apply insert_desc_rel; assumption.
  Qed.

  Lemma eqv_rel a a' b b' : R a a' -> R b b' -> eqv leb' a' b' = eqv leb a b.
  Proof. intros Ha Hb. unfold eqv. rewrite (R_emb _ _ _ _ Ha Hb), (R_emb _ _ _ _ Hb Ha). reflexivity. Qed.

  Lemma lrel_nth l l' n : lrel l l' ->
    match nth_error l n, nth_error l' n with
    | Some x, Some y => prel x y
    | None, None => True
    | _, _ => False
    end.
  Proof.
    intros H. revert n. induction H as [|y y' l l' Hy Hl IH]; intros [|n]; simpl; auto.
    apply IH.
  Qed.

  Lemma first_eq_index_rel thr thr' l l' : R thr thr' -> lrel l l' ->
    first_eq_index leb' thr' l' = first_eq_index leb thr l.
  Proof.
    intros Ht Hl. induction Hl as [|y y' l l' Hy Hl IH]; simpl; [reflexivity|].
    rewrite (eqv_rel _ _ _ _ (proj2 Hy) Ht), IH. reflexivity.
  Qed.

  Lemma filter_level_rel thr thr' l l' : R thr thr' -> lrel l l' ->
    map fst (filter (fun it => eqv leb' (snd it) thr') l') = map fst (filter (fun it => eqv leb (snd it) thr) l).
  Proof.
    intros Ht Hl. apply lrel_keys, Forall2_filter; [|exact Hl].
    intros x x' [_ Hx]. apply eqv_rel; assumption.
  Qed.

  Lemma map_cand_rel l l' : lrel l l' ->
    map (fun it : K * W => Cand (fst it)) l' = map (fun it : K * V => Cand (fst it)) l.
  Proof. apply Forall2_map_eq. intros x x' [E _]. rewrite E. reflexivity. Qed.

  Theorem get_n_best_rel votes votes' n : lrel votes votes' ->
    get_n_best leb' votes' n = get_n_best leb votes n.
  Proof.
    intros Hl. unfold get_n_best.
    pose proof (sort_desc_rel _ _ Hl) as Hs.
    set (s := sort_desc leb votes) in *. set (s' := sort_desc leb' votes') in *.
    rewrite (lrel_length _ _ Hs).
    destruct (Nat.ltb n (length s)); [|apply map_cand_rel; exact Hs].
    pose proof (lrel_nth _ _ (n - 1) Hs) as H1. pose proof (lrel_nth _ _ n Hs) as H2.
    destruct (nth_error s (n - 1)) as [[c1 thr]|], (nth_error s' (n - 1)) as [[c1' thr']|]; try contradiction; [|reflexivity].
    destruct (nth_error s n) as [[c2 nxt]|], (nth_error s' n) as [[c2' nxt']|]; try contradiction; [|reflexivity].
    destruct H1 as [_ H1], H2 as [_ H2]. simpl in H1, H2.
    rewrite (eqv_rel _ _ _ _ H2 H1). destruct (eqv leb nxt thr).
    - rewrite (first_eq_index_rel _ _ _ _ H1 Hs), (filter_level_rel _ _ _ _ H1 Hs).
      rewrite (map_cand_rel _ _ (Forall2_firstn _ _ _ _ Hs)). reflexivity.
    - apply map_cand_rel, Forall2_firstn, Hs.
  Qed.
End GNBrel.

Lemma dset_lrel {V W} (R : V -> W -> Prop) (d : list (C * V)) (d' : list (C * W)) c x x' :
  lrel R d d' -> R x x' -> lrel R (dset d c x) (dset d' c x').
Proof.
  intros H Hx. induction H as [|[c0 v] [c0' v'] d d' [Hc Hv] Hd IH]; cbn [dset].
  - constructor; [split; [reflexivity|exact Hx]|constructor].
  - cbn [fst snd] in Hc, Hv. subst c0'. destruct (ceqb c c0).
    + constructor; [split; [reflexivity|exact Hx]|exact Hd].
    + constructor; [split; [reflexivity|exact Hv]|exact IH].
Qed.

Lemma Qle_bool_Qeq a a' b b' : (a' == a)%Q -> (b' == b)%Q -> Qle_bool a' b' = Qle_bool a b.
Proof. intros Ha Hb. apply Qleb_comp; assumption. Qed.

Lemma Qeq_bool_Qeq a a' b b' : (a' == a)%Q -> (b' == b)%Q -> Qeq_bool a' b' = Qeq_bool a b.
Proof. intros Ha Hb. apply Qeqb_comp; assumption. Qed.

Lemma py_trunc_opp x : py_trunc (- x) = (- py_trunc x)%Z.
Proof. unfold py_trunc. destruct x as [n d]. simpl. apply Z.quot_opp_l. lia. Qed.

Lemma py_trunc_Qeq x y : (x == y)%Q -> py_trunc x = py_trunc y.
Proof.
  intros H. destruct (Qlt_le_dec x 0) as [Hn|Hp].
  - assert (Hx : (0 <= - x)%Q) by lra. assert (Hy : (0 <= - y)%Q) by lra.
    pose proof (py_trunc_floor _ Hx) as E1. pose proof (py_trunc_floor _ Hy) as E2.
    rewrite py_trunc_opp in E1, E2.
    assert (E : Qfloor (- x) = Qfloor (- y)) by (apply Qfloor_comp; rewrite H; reflexivity).
    lia.
  - rewrite (py_trunc_floor x Hp), (py_trunc_floor y) by lra. apply Qfloor_comp, H.
Qed.

Section QScale.
  Variable k : Q.
  Hypothesis Hk : (0 < k)%Q.

  Definition qsc (a a' : Q) : Prop := (a' == k * a)%Q.

  Lemma qsc_0 : qsc 0 0.
  Proof. unfold qsc. ring. Qed.

  Lemma qsc_plus a a' b b' : qsc a a' -> qsc b b' -> qsc (a + b) (a' + b').
  Proof. unfold qsc. intros -> ->. ring. Qed.

  Lemma qsc_opp a a' : qsc a a' -> qsc (- a) (- a').
  Proof. unfold qsc. intros ->. ring. Qed.

  Lemma qsc_minus a a' b b' : qsc a a' -> qsc b b' -> qsc (a - b) (a' - b').
  Proof. unfold qsc. intros -> ->. ring. Qed.

  (* a factor that is the same in both runs, possibly only up to == *)
  Lemma qsc_mult a a' c c' : qsc a a' -> (c' == c)%Q -> qsc (a * c) (a' * c').
  Proof. unfold qsc. intros -> ->. ring. Qed.

  Lemma qsc_mult_l c a a' : qsc a a' -> qsc (c * a) (c * a').
  Proof. unfold qsc. intros ->. ring. Qed.

  Lemma qsc_red a a' : qsc a a' -> qsc (Qred a) (Qred a').
  Proof. unfold qsc. rewrite !Qred_correct. tauto. Qed.

  Lemma qsc_le a a' b b' : qsc a a' -> qsc b b' -> Qle_bool a' b' = Qle_bool a b.
  Proof.
    unfold qsc. intros Ha Hb. apply eq_true_iff_eq. rewrite !Qle_bool_iff, Ha, Hb. apply Qmult_le_l, Hk.
  Qed.

  Lemma qsc_eq a a' b b' : qsc a a' -> qsc b b' -> Qeq_bool a' b' = Qeq_bool a b.
  Proof.
    unfold qsc. intros Ha Hb. apply eq_true_iff_eq. rewrite !Qeq_bool_iff, Ha, Hb. apply Qmult_inj_l. lra.
  Qed.

  Lemma qsc_div v v' q q' : qsc v v' -> qsc q q' -> (v' / q' == v / q)%Q.
  Proof.
    unfold qsc. intros Hv Hq. rewrite Hv, Hq.
    destruct (Qeq_dec q 0) as [E|E].
    - rewrite E. assert (Z0 : (k * 0 == 0)%Q) by ring. rewrite Z0. unfold Qdiv. assert (I0 : (/ 0 == 0)%Q) by reflexivity. rewrite I0. ring.
    - field. split; [exact E|lra].
  Qed.

  Lemma lrel_scale {K} (l : list (K * Q)) : lrel qsc l (map (fun x => (fst x, (k * snd x)%Q)) l).
  Proof. apply lrel_map_snd. intros v. apply Qeq_refl. Qed.

  (* vote dicts related by the scaling (up to == on the values) *)
  Definition vrel : list (C * Q) -> list (C * Q) -> Prop := lrel (K := C) qsc.

  Lemma vrel_keys l l' : vrel l l' -> map fst l' = map fst l.
  Proof. apply lrel_keys. Qed.

  Lemma qsum_acc_rel {K} (l l' : list (K * Q)) : lrel qsc l l' -> forall a a', qsc a a' ->
    qsc (fold_left Qplus (map snd l) a) (fold_left Qplus (map snd l') a').
  Proof.
    intros H. apply fold_left_rel with (RB := qsc); [apply qsc_plus|].
    apply Forall2_map with (RA := prel qsc); [intros x x' Hx; exact (proj2 Hx)|exact H].
  Qed.

  Lemma qsumv_rel l l' : vrel l l' -> qsc (qsumv l) (qsumv l').
  Proof. intros H. exact (qsum_acc_rel l l' H 0%Q 0%Q qsc_0). Qed.

  Lemma dget_or_rel l l' c : vrel l l' -> qsc (dget_or l c 0%Q) (dget_or l' c 0%Q).
  Proof.
    intros H. unfold dget_or. induction H as [|[c1 v1] [c1' v1'] l l' Hy Hl IH]; simpl.
    - exact qsc_0.
    - destruct Hy as [Hc Hv]. simpl in Hc, Hv. subst c1'. destruct (ceqb c c1); [exact Hv|exact IH].
  Qed.

  (* d[c] = d.get(c, 0) + x *)
  Lemma dset_add_rel l l' c x x' : vrel l l' -> qsc x x' ->
    vrel (dset l c (dget_or l c 0 + x)%Q) (dset l' c (dget_or l' c 0 + x')%Q).
  Proof. intros H Hx. apply dset_lrel; [exact H|]. apply qsc_plus; [apply dget_or_rel, H|exact Hx]. Qed.

  Lemma vrel_filter (f : C -> bool) l l' : vrel l l' ->
    vrel (filter (fun cv => f (fst cv)) l) (filter (fun cv => f (fst cv)) l').
  Proof. apply lrel_filter_fst. Qed.

  Section WithQuota.
    Variable quota : Q -> Z -> Q.
    Variable accept_equal : bool.
    Variable pol : policy.
    Hypothesis quota_homog : forall v v' n, qsc v v' -> qsc (quota v n) (quota v' n).

    Notation fulfills := (fulfills accept_equal).

    Lemma fulfills_rel v v' q q' : qsc v v' -> qsc q q' -> fulfills v' q' = fulfills v q.
    Proof. intros Hv Hq. unfold QuotaDistributor.fulfills. rewrite (qsc_le _ _ _ _ Hv Hq), (qsc_eq _ _ _ _ Hv Hq). reflexivity. Qed.

    Lemma scan_rel q q' prev caps : qsc q q' -> forall l l', vrel l l' -> forall sel,
      scan accept_equal l' q' prev caps sel = scan accept_equal l q prev caps sel.
    Proof.
      intros Hq l l' H. induction H as [|[c v] [c' v'] l l' Hy Hl IH]; intros sel; simpl; [reflexivity|].
      destruct Hy as [Hc Hv]. simpl in Hc, Hv. subst c'.
      rewrite (fulfills_rel _ _ _ _ Hv Hq), (py_trunc_Qeq _ _ (qsc_div _ _ _ _ Hv Hq)). apply IH.
    Qed.

    Lemma existsb_fulfills_rel q q' l l' : qsc q q' -> vrel l l' ->
      existsb (fun cv : C * Q => fulfills (snd cv) q') l' = existsb (fun cv : C * Q => fulfills (snd cv) q) l.
    Proof. intros Hq. apply Forall2_existsb. intros x x' [_ Hx]. apply fulfills_rel; assumption. Qed.

    Lemma krem_rel votes votes' q q' prev ks : vrel votes votes' -> qsc q q' ->
      qsc (krem votes q prev ks) (krem votes' q' prev ks).
    Proof.
      intros Hv Hq. unfold krem.
      destruct (fst ks); apply qsc_opp, qsc_minus; try (apply qsc_mult; [exact Hq|reflexivity]);
        [apply dget_or_rel, Hv|exact qsc_0].
    Qed.

    Lemma ksubtract_rel votes votes' q q' prev : vrel votes votes' -> qsc q q' -> forall fuel sel over,
      ksubtract fuel votes' q' prev sel over = ksubtract fuel votes q prev sel over.
    Proof.
      intros Hv Hq fuel. induction fuel as [|f IH]; intros sel over; cbn [ksubtract]; [reflexivity|].
      destruct (over <=? 0)%Z; [reflexivity|].
      assert (E : lrel qsc (map (fun ks : key * Z => (fst ks, krem votes q prev ks)) sel)
                           (map (fun ks : key * Z => (fst ks, krem votes' q' prev ks)) sel)).
      { apply Forall2_map_same. intros ks. split; [reflexivity|apply krem_rel; assumption]. }
      rewrite (get_n_best_rel Qle_bool Qle_bool qsc qsc_le _ _ 1%nat E).
      destruct (get_n_best Qle_bool _ 1) as [|[ky|ks] rest]; [reflexivity|apply IH|].
      destruct (all_plain ks); [|reflexivity]. destruct (kmem sel _); apply IH.
    Qed.

    Lemma subtract_rel votes votes' q q' prev : vrel votes votes' -> qsc q q' -> forall fuel sel over,
      subtract fuel votes' q' prev sel over = subtract fuel votes q prev sel over.
    Proof.
      intros Hv Hq fuel. induction fuel as [|f IH]; intros sel over; cbn [subtract]; [reflexivity|].
      destruct (over <=? 0)%Z; [reflexivity|].
      match goal with |- match get_n_best _ (map ?h' sel) 1 with _ => _ end = match get_n_best _ (map ?h sel) 1 with _ => _ end =>
        assert (E : lrel qsc (map h sel) (map h' sel)) end.
      { apply Forall2_map_same. intros [c s]. split; [reflexivity|].
        exact (krem_rel votes votes' q q' prev (K c, s) Hv Hq). }
      rewrite (get_n_best_rel Qle_bool Qle_bool qsc qsc_le _ _ 1%nat E).
      destruct (get_n_best Qle_bool _ 1) as [|[c|l] rest]; [reflexivity|apply IH|].
      destruct (over - 1 <=? 0)%Z; [reflexivity|]. apply ksubtract_rel; assumption.
    Qed.

    Lemma quota_zero_rel votes votes' n : vrel votes votes' ->
      qsc (quota (qsumv votes) n) (quota (qsumv votes') n) /\
      Qeq_bool (quota (qsumv votes') n) 0 = Qeq_bool (quota (qsumv votes) n) 0.
    Proof.
      intros Hv. pose proof (quota_homog _ _ n (qsumv_rel _ _ Hv)) as Hq.
      split; [exact Hq|exact (qsc_eq _ _ _ _ Hq qsc_0)].
    Qed.

    Theorem qd_evaluate_rel votes votes' n prev caps : vrel votes votes' ->
      qd_evaluate quota accept_equal pol votes' n prev caps = qd_evaluate quota accept_equal pol votes n prev caps.
    Proof.
      intros Hv. unfold qd_evaluate. destruct (quota_zero_rel _ _ n Hv) as [Hq Hz].
      rewrite Hz, (existsb_fulfills_rel _ _ _ _ Hq Hv).
      destruct (Qeq_bool _ 0 && existsb _ votes); [reflexivity|].
      rewrite (scan_rel _ _ prev caps Hq _ _ Hv).
      destruct (n <? _)%Z; [|reflexivity].
      destruct pol; try reflexivity. apply subtract_rel; assumption.
    Qed.

    Theorem lr_evaluate_rel votes votes' n prev caps : vrel votes votes' ->
      lr_evaluate quota accept_equal pol votes' n prev caps = lr_evaluate quota accept_equal pol votes n prev caps.
    Proof.
      intros Hv. unfold lr_evaluate. rewrite (qd_evaluate_rel _ _ n prev caps Hv).
      destruct (qd_evaluate quota accept_equal pol votes n prev caps) as [qe| | | | |]; try reflexivity.
      destruct (existsb _ qe); [reflexivity|].
      destruct (quota_zero_rel _ _ n Hv) as [Hq Hz]. rewrite Hz.
      set (q := quota (qsumv votes) n) in *. set (q' := quota (qsumv votes') n) in *.
      destruct (Qeq_bool q 0); [reflexivity|].
      destruct (_ <=? 0)%Z; [reflexivity|].
      (* the remainders v / q - seats are the same rationals up to == *)
      match goal with |- LR_ok (fold_left _ (get_n_best _ ?r' ?m) _) = LR_ok (fold_left _ (get_n_best _ ?r ?m) _) =>
        assert (E : get_n_best Qle_bool r' m = get_n_best Qle_bool r m) end.
      { apply (get_n_best_rel Qle_bool Qle_bool Qeq (fun a a' b b' Ha Hb => Qle_bool_Qeq a a' b b' (Qeq_sym _ _ Ha) (Qeq_sym _ _ Hb))).
        apply Forall2_flat_map with (RA := prel qsc); [|exact Hv].
        intros [c v] [c' v'] [Hc Hvv]. cbn [fst snd] in Hc, Hvv. subst c'.
        assert (Hp : forall g, lrel (K := C) Qeq [(c, (v / q - g)%Q)] [(c, (v' / q' - g)%Q)]).
        { intros g. constructor; [|constructor]. split; [reflexivity|]. cbn [snd].
          rewrite (qsc_div _ _ _ _ Hvv Hq). reflexivity. }
        destruct (dget caps c) as [m|]; [destruct (_ <? m)%Z; [apply Hp|constructor]|apply Hp]. }
      rewrite E. reflexivity.
    Qed.
  End WithQuota.

  Lemma hare_homog v v' n : qsc v v' -> qsc (hare v n) (hare v' n).
  Proof. intros H. apply qsc_mult; [exact H|reflexivity]. Qed.
  Lemma hb_homog v v' n : qsc v v' -> qsc (hagenbach_bischoff v n) (hagenbach_bischoff v' n).
  Proof. intros H. apply qsc_mult; [exact H|reflexivity]. Qed.
  Lemma imperiali_homog v v' n : qsc v v' -> qsc (imperiali v n) (imperiali v' n).
  Proof. intros H. apply qsc_mult; [exact H|reflexivity]. Qed.

  Lemma vrel_scale votes : vrel votes (map (fun cv : C * Q => (fst cv, (k * snd cv)%Q)) votes).
  Proof. apply lrel_scale. Qed.
End QScale.

Section ZScale.
  Variable k : Z.
  Hypothesis Hk : (0 < k)%Z.

  Lemma Zltb_scale a b : (k * a <? k * b)%Z = (a <? b)%Z.
  Proof. apply eq_true_iff_eq. rewrite !Z.ltb_lt. symmetry. apply Z.mul_lt_mono_pos_l, Hk. Qed.

  Lemma Zleb_scale a b : (k * a <=? k * b)%Z = (a <=? b)%Z.
  Proof. apply eq_true_iff_eq. rewrite !Z.leb_le. symmetry. apply Z.mul_le_mono_pos_l, Hk. Qed.

  Lemma Zeqb_scale a b : (k * a =? k * b)%Z = (a =? b)%Z.
  Proof. apply eq_true_iff_eq. rewrite !Z.eqb_eq. apply Z.mul_cancel_l. lia. Qed.

  Lemma Zltb_scale_0 a : (k * a <? 0)%Z = (a <? 0)%Z.
  Proof. rewrite <- (Zltb_scale a 0), Z.mul_0_r. reflexivity. Qed.

  Lemma Zeqb_scale_0 a : (k * a =? 0)%Z = (a =? 0)%Z.
  Proof. rewrite <- (Zeqb_scale a 0), Z.mul_0_r. reflexivity. Qed.
End ZScale.

(* the ids of Model/Quota.v [quota_fn]: 1 Hare, 4 Hagenbach-Bischoff, 7 Imperiali *)
Definition homogeneous_quota (i : Z) : bool := ((i =? 1) || (i =? 4) || (i =? 7))%Z.

Lemma quota_fn_homog k i : homogeneous_quota i = true ->
  forall v v' n, qsc k v v' -> qsc k (quota_fn (QNamed i) v n) (quota_fn (QNamed i) v' n).
Proof.
  intros Hi v v' n Hv. unfold homogeneous_quota in Hi. rewrite !orb_true_iff, !Z.eqb_eq in Hi.
  destruct Hi as [[Hi|Hi]|Hi]; subst i; [apply hare_homog|apply hb_homog|apply imperiali_homog]; exact Hv.
Qed.
