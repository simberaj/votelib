(* Thresholds and open lists (Model/Threshold.v). *)
From Coq Require Import ZArith QArith List Bool Arith Lia Permutation.
From VL Require Import Prelude.PyDict Model.GetNBest Model.QuotaDistributor Model.Threshold
     Proofs.Dict_proofs Proofs.GetNBest_proofs Proofs.QOrd.
From VL Require Prelude.PyList.
Import ListNotations.

Lemma passes_spec ae v thr :
  passes ae v thr = true <-> (thr < v)%Q \/ (ae = true /\ (v == thr)%Q).
Proof.
  unfold passes. rewrite orb_true_iff, andb_true_iff, negb_true_iff, Qeq_bool_iff, Qle_bool_false. reflexivity.
Qed.

Lemma in_sorted_filter (f : C * Q -> bool) votes c :
  In c (map fst (filter f (sort_desc Qle_bool votes))) <-> exists v, In (c, v) votes /\ f (c, v) = true.
Proof.
  rewrite in_map_iff. split.
  - intros ([c' v] & Hc & Hin). simpl in Hc. subst c'. apply filter_In in Hin. destruct Hin as [Hin Hf].
    exists v. split; [|exact Hf]. eapply Permutation_in; [apply sort_desc_perm|exact Hin].
  - intros (v & Hin & Hf). exists (c, v). split; [reflexivity|]. apply filter_In. split; [|exact Hf].
    eapply Permutation_in; [apply Permutation_sym, sort_desc_perm|exact Hin].
Qed.

(* the members of the sorted votes whose value, seen through g, passes the threshold *)
Lemma in_sorted_passes ae (g : Q -> Q) thr (votes : list (C * Q)) c :
  In c (map fst (filter (fun cv => passes ae (g (snd cv)) thr) (sort_desc Qle_bool votes))) <->
  exists v, In (c, v) votes /\ ((thr < g v)%Q \/ (ae = true /\ (g v == thr)%Q)).
Proof.
  rewrite in_sorted_filter. split; intros (v & Hin & H); exists v; (split; [exact Hin|]); apply passes_spec; exact H.
Qed.

Theorem absolute_spec thr ae votes c :
  In c (sel_eval (SAbs thr ae) votes) <->
  exists v, In (c, v) votes /\ ((thr < v)%Q \/ (ae = true /\ (v == thr)%Q)).
Proof. exact (in_sorted_passes ae (fun v => v) thr votes c). Qed.

Theorem relative_spec thr ae votes c :
  In c (sel_eval (SRel thr ae) votes) <->
  exists v, In (c, v) votes /\
    ((thr < v / qsumv votes)%Q \/ (ae = true /\ (v / qsumv votes == thr)%Q)).
Proof. exact (in_sorted_passes ae (fun v => (v / qsumv votes)%Q) thr votes c). Qed.

Lemma dedup_In c l : In c (dedup l) <-> In c l.
Proof.
  induction l as [|x t IH]; simpl; [tauto|].
  destruct (cmem x t) eqn:E.
  - rewrite IH. apply cmem_In in E. split; [tauto|]. intros [->|H]; assumption.
  - simpl. rewrite IH. tauto.
Qed.

Lemma dedup_NoDup l : NoDup (dedup l).
Proof.
  induction l as [|x t IH]; simpl; [constructor|].
  destruct (cmem x t) eqn:E; [exact IH|]. constructor; [|exact IH].
  rewrite dedup_In. intros H. apply cmem_In in H. congruence.
Qed.

Theorem alternative_spec parts votes c :
  In c (sel_eval (SAlt parts) votes) <-> exists p, In p parts /\ In c (sel_eval p votes).
Proof.
  simpl. rewrite dedup_In, in_flat_map. tauto.
Qed.

Lemma cmem_app c a b : cmem c (a ++ b) = cmem c a || cmem c b.
Proof. induction a as [|x a IH]; simpl; [reflexivity|]. rewrite IH, orb_assoc. reflexivity. Qed.

Theorem fill_spec n lst : NoDup lst -> forall elected, (length elected <= n)%nat ->
  fill n elected lst =
  elected ++ firstn (n - length elected) (filter (fun c => negb (cmem c elected)) lst).
Proof.
  induction 1 as [|c t Hc Hnd IH]; intros elected Hle; simpl.
  - rewrite firstn_nil, app_nil_r. reflexivity.
  - destruct (Nat.eqb (length elected) n) eqn:E.
    + apply Nat.eqb_eq in E. rewrite E, Nat.sub_diag. simpl. rewrite app_nil_r. reflexivity.
    + apply Nat.eqb_neq in E. destruct (cmem c elected) eqn:Em; simpl.
      * apply IH. exact Hle.
      * rewrite IH by (rewrite app_length; simpl; lia).
        rewrite app_length. simpl length.
        replace (n - length elected)%nat with (S (n - (length elected + 1)))%nat by lia.
        simpl. rewrite <- app_assoc. simpl. f_equal. f_equal. f_equal.
        apply filter_ext_in. intros x Hx. rewrite cmem_app. simpl. rewrite orb_false_r.
        assert (ceqb x c = false) as ->; [|rewrite orb_false_r; reflexivity].
        apply ceqb_neq. intros ->. exact (Hc Hx).
  Qed.

Lemma filter_split_length {X} (f : X -> bool) l :
  (length (filter f l) + length (filter (fun x => negb (f x)) l) = length l)%nat.
Proof. induction l as [|x t IH]; simpl; [reflexivity|]. destruct (f x); simpl; lia. Qed.

Lemma filter_mem_length (E lst : list C) : NoDup E -> NoDup lst -> incl E lst ->
  length (filter (fun c => cmem c E) lst) = length E.
Proof.
  intros HE Hl Hin. apply Permutation_length. apply NoDup_Permutation.
  - apply NoDup_filter. exact Hl.
  - exact HE.
  - intros x. rewrite filter_In, cmem_In. split; [tauto|]. intros H. split; [apply Hin, H|exact H].
Qed.

Lemma firstn_NoDup {X} k (l : list X) : NoDup l -> NoDup (firstn k l).
Proof. intros H. rewrite <- (firstn_skipn k l) in H. exact (nodup_app_l _ _ H). Qed.

(* with enough list members the fill-up yields exactly n distinct members, the
   already elected (jumpers) first, then list members in list order *)
Theorem fill_count n lst elected : NoDup lst -> NoDup elected -> incl elected lst ->
  (length elected <= n <= length lst)%nat ->
  length (fill n elected lst) = n /\ NoDup (fill n elected lst) /\ incl (fill n elected lst) lst.
Proof.
  intros Hl He Hin [H1 H2]. rewrite (fill_spec n lst Hl elected H1).
  set (rest := filter (fun c => negb (cmem c elected)) lst).
  assert (Hrl : (length rest = length lst - length elected)%nat).
  { pose proof (filter_split_length (fun c => cmem c elected) lst) as H.
    rewrite (filter_mem_length elected lst He Hl Hin) in H. unfold rest. lia. }
  split; [|split].
  - rewrite app_length, firstn_length. lia.
  - apply nodup_app_intro; [exact He|apply firstn_NoDup, NoDup_filter, Hl|].
    intros x Hx Hf. apply firstn_incl in Hf. unfold rest in Hf. apply filter_In in Hf.
    destruct Hf as [_ Hf]. apply negb_true_iff in Hf. apply cmem_In in Hx. congruence.
  - intros x Hx. apply in_app_or in Hx. destruct Hx as [Hx|Hx]; [apply Hin, Hx|].
    apply firstn_incl in Hx. unfold rest in Hx. apply filter_In in Hx. tauto.
Qed.

(* a prefix of p ++ q that reaches into q holds all of p *)
Lemma firstn_past {X} k (p q : list X) b : In b (firstn k (p ++ q)) -> ~ In b p -> incl p (firstn k (p ++ q)).
Proof.
  rewrite firstn_app. intros H Hb. apply in_app_or in H. destruct H as [H|H]; [destruct (Hb (firstn_incl k p b H))|].
  destruct (k - length p)%nat eqn:E; [destruct H|].
  rewrite firstn_all2 by lia. apply incl_appl, incl_refl.
Qed.

(* nobody is passed over by a lower-listed colleague who did not jump *)
Theorem fill_no_leapfrog n elected pre a mid b post :
  NoDup (pre ++ a :: mid ++ b :: post) -> (length elected <= n)%nat ->
  ~ In a elected -> ~ In b elected ->
  In b (fill n elected (pre ++ a :: mid ++ b :: post)) ->
  In a (fill n elected (pre ++ a :: mid ++ b :: post)).
Proof.
  intros Hnd Hle Ha Hb. rewrite (fill_spec n _ Hnd elected Hle), !in_app_iff.
  intros [H|H]; [contradiction|]. right. revert H.
  set (f := fun c => negb (cmem c elected)).
  assert (Hfa : f a = true) by (unfold f; apply negb_true_iff, not_true_iff_false; rewrite cmem_In; exact Ha).
  replace (pre ++ a :: mid ++ b :: post) with ((pre ++ a :: mid) ++ b :: post) in * by (rewrite <- app_assoc; reflexivity).
  rewrite (filter_app f (pre ++ a :: mid)). intros H.
  (* b sits behind a in the filtered list: a prefix that holds b holds everything before it *)
  apply (firstn_past _ _ _ b H).
  - intros Hin. apply filter_In in Hin. apply (NoDup_remove_2 _ _ _ Hnd), in_or_app. left. apply Hin.
  - apply filter_In. split; [apply in_or_app; right; left; reflexivity|exact Hfa].
Qed.

Lemma sort_desc_keys (l : list (C * Q)) : Permutation (map fst (sort_desc Qle_bool l)) (map fst l).
Proof. apply Permutation_map, sort_desc_perm. Qed.

Lemma filter_keys_NoDup (f : C * Q -> bool) (l : list (C * Q)) :
  NoDup (map fst l) -> NoDup (map fst (filter f l)).
Proof. exact (nodup_keys_filter f l). Qed.

Lemma jumping_keys cfg votes thr : NoDup (map fst votes) ->
  NoDup (map fst (ol_jumping cfg votes thr)) /\ incl (map fst (ol_jumping cfg votes thr)) (map fst votes).
Proof.
  intros H. unfold ol_jumping. split.
  - apply nodup_keys_filter. eapply Permutation_NoDup; [apply Permutation_sym, sort_desc_keys|exact H].
  - intros c Hc. apply in_map_iff in Hc. destruct Hc as (y & <- & Hy). apply filter_In in Hy.
    eapply Permutation_in; [apply sort_desc_keys|]. apply in_map. tauto.
Qed.

Lemma firstn_map {X Y} (f : X -> Y) k l : firstn k (map f l) = map f (firstn k l).
Proof. apply List.firstn_map. Qed.

Lemma sort_asc_nat_perm {X} (l : list (X * nat)) : Permutation (sort_asc Nat.leb l) l.
Proof. apply sort_asc_perm. Qed.

(* exactly n distinct list members are seated *)
Theorem openlist_count cfg votes n lst :
  NoDup lst -> NoDup (map fst votes) -> incl (map fst votes) lst -> (1 <= n <= length lst)%nat ->
  let r := openlist_eval cfg votes n lst in
  length r = n /\ NoDup r /\ incl r lst.
Proof.
  intros Hl Hv Hin [Hn1 Hn2] r. subst r. unfold openlist_eval.
  destruct (ol_threshold cfg (qsumv votes) (Z.of_nat n)) as [thr|].
  2:{ split; [rewrite firstn_length; lia|]. split; [apply firstn_NoDup, Hl|apply firstn_incl]. }
  destruct (jumping_keys cfg votes thr Hv) as [Hjn Hji].
  set (jumping := ol_jumping cfg votes thr) in *.
  destruct (Nat.ltb n (length jumping)) eqn:E.
  - apply Nat.ltb_lt in E. destruct (ol_list_precedence cfg).
    + set (by_list := sort_asc Nat.leb (map (fun cv : C * Q => (cv, index_of (fst cv) lst)) jumping)).
      assert (Hp : Permutation (map fst by_list) jumping).
      { unfold by_list. rewrite sort_asc_nat_perm. rewrite map_map. simpl. rewrite map_id. reflexivity. }
      set (kept := map fst (firstn n by_list)).
      assert (Hk : kept = firstn n (map fst by_list)) by (unfold kept; rewrite firstn_map; reflexivity).
      assert (Hkn : NoDup (map fst kept)).
      { rewrite Hk, <- firstn_map. apply firstn_NoDup.
        eapply Permutation_NoDup; [apply Permutation_map, Permutation_sym, Hp|exact Hjn]. }
      assert (Hki : incl (map fst kept) (map fst jumping)).
      { rewrite Hk, <- firstn_map. intros x Hx. apply firstn_incl in Hx.
        eapply Permutation_in; [apply Permutation_map, Hp|exact Hx]. }
      split; [|split].
      * rewrite map_length, sort_desc_length. unfold kept. rewrite map_length, firstn_length.
        assert (length by_list = length jumping) by (rewrite <- (Permutation_length Hp), map_length; reflexivity). lia.
      * eapply Permutation_NoDup; [apply Permutation_sym, sort_desc_keys|exact Hkn].
      * intros x Hx. apply Hin, Hji, Hki. eapply Permutation_in; [apply sort_desc_keys|exact Hx].
    + split; [|split].
      * rewrite map_length, firstn_length. lia.
      * rewrite <- firstn_map. apply firstn_NoDup, Hjn.
      * rewrite <- firstn_map. intros x Hx. apply Hin, Hji. apply firstn_incl in Hx. exact Hx.
  - apply Nat.ltb_ge in E. apply fill_count; [exact Hl|exact Hjn| |].
    + intros x Hx. apply Hin, Hji, Hx.
    + rewrite map_length. lia.
Qed.

(* when the jumpers fit: jumpers first, in non-increasing order of votes, then the list *)
Theorem openlist_structure cfg votes n lst thr :
  NoDup lst -> ol_threshold cfg (qsumv votes) (Z.of_nat n) = Some thr ->
  (length (ol_jumping cfg votes thr) <= n)%nat ->
  let jumping := ol_jumping cfg votes thr in
  openlist_eval cfg votes n lst =
    map fst jumping ++ firstn (n - length jumping) (filter (fun c => negb (cmem c (map fst jumping))) lst)
  /\ (forall c, In c (map fst jumping) <->
        exists v, In (c, v) votes /\ ((thr < v)%Q \/ (ol_accept_equal cfg = true /\ (v == thr)%Q)))
  /\ @sorted_desc C Q Qle_bool jumping.
Proof.
  intros Hl Ht Hle jumping. unfold openlist_eval. rewrite Ht. fold jumping.
  assert (Nat.ltb n (length jumping) = false) as -> by (apply Nat.ltb_ge; exact Hle).
  split; [|split].
  - rewrite fill_spec; [rewrite map_length; reflexivity|exact Hl|rewrite map_length; exact Hle].
  - intros c. exact (in_sorted_passes _ (fun v => v) thr votes c).
  - unfold jumping, ol_jumping.
    pose proof (sort_desc_sorted Qle_bool Qle_bool_total Qle_bool_trans votes) as Hs.
    revert Hs. generalize (sort_desc Qle_bool votes). intros s Hs.
    induction Hs as [|x t Hs IH Hall]; simpl; [constructor|].
    destruct (passes _ _ _); [|exact IH]. constructor; [exact IH|].
    apply Forall_forall. intros y Hy. apply filter_In in Hy. rewrite Forall_forall in Hall. apply Hall. tauto.
Qed.

Definition bracket_pick (evals : list (Z * option sel)) (default : option sel) (b : Z) : option sel :=
  match find (fun e => Z.eqb (fst e) b) evals with Some e => snd e | None => default end.

(* a candidate passes a bracketer exactly when the selector configured for its bracket value passes it
   (no selector for that bracket: it passes); the result lists the passing candidates by descending votes *)
Theorem bracket_eval_spec evals default bracket votes c :
  In c (bracket_eval evals default bracket votes) <->
  exists v, In (c, v) votes /\
    match bracket_pick evals default (dget_or bracket c 1%Z) with
    | Some s => In c (sel_eval s votes)
    | None => True
    end.
Proof.
  assert (E : forall pk : option sel,
    match pk with Some s => cmem c (sel_eval s votes) | None => true end = true <->
    match pk with Some s => In c (sel_eval s votes) | None => True end) by (intros [s|]; [apply cmem_In|tauto]).
  unfold bracket_eval, bracket_pick. rewrite in_sorted_filter. cbn [fst].
  split; intros (v & Hin & Hp); exists v; (split; [exact Hin|apply E, Hp]).
Qed.

(* The bracket table and [bracket_pick] with every bracket configured, as Props/GenTie_Threshold.v meets them in the
   generated AlternativeThresholds / CoalitionMemberBracketer code.  The default 1 is the bracket of a candidate the
   table does not list ([bracket_eval]). *)
Lemma dget_or_tabulate (br : C -> Z) (votes : list (C * Q)) c :
  In c (map fst votes) -> dget_or (map (fun cv => (fst cv, br (fst cv))) votes) c 1%Z = br c.
Proof.
  unfold dget_or. induction votes as [|[k v] t IH]; intros H; [destruct H|]. cbn [map dget fst].
  destruct (ceqb c k) eqn:E.
  - apply Pos.eqb_eq in E. subst k. reflexivity.
  - apply IH. destruct H as [H|H]; [|exact H]. cbn [fst] in H. subst k. rewrite Pos.eqb_refl in E. discriminate.
Qed.

Lemma pick_configured (evals : list (Z * sel)) (dflt : sel) votes b :
  match bracket_pick (map (fun e => (fst e, Some (snd e))) evals) (Some dflt) b with
  | Some s => sel_eval s votes
  | None => []
  end = PyList.py_get_z (map (fun e => (fst e, sel_eval (snd e))) evals) b (sel_eval dflt) votes /\
  bracket_pick (map (fun e => (fst e, Some (snd e))) evals) (Some dflt) b <> None.
Proof.
  unfold bracket_pick, PyList.py_get_z. induction evals as [|[k s] t IH]; cbn [map find fst snd].
  - split; [reflexivity|discriminate].
  - destruct (Z.eqb k b); [split; [reflexivity|discriminate]|exact IH].
Qed.
