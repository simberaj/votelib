(* Lemmas for property C07: TERMINATION of tie-and-transfer (the whole-loop model Model/BipropLoop.v).

   1. the labelling search [_labeled] computes exactly the set of districts / parties reachable from the over-represented
      districts along tied cells (sound: every label is reachable; complete: when the search ends without reaching an
      under-represented district it is closed under the two labelling rules); its label dictionaries have no repeated key;
      its fuel and the fuel of the path walk are never exhausted;
   2. the multiplier update: the accepted adjustment coefficient is ATTAINED at a cell (labelled district x unlabelled
      party at its lower signpost, or unlabelled district x labelled party at its upper signpost); the update leaves the
      quotient of every cell between two labelled lines alone, so every label survives it, and it puts the attaining cell
      exactly on a signpost: in the next iteration either one more line is labelled or the adjustment coefficient is >= 1
      (a refusal).  Hence at most |districts| + |parties| + 1 multiplier updates follow one another;
   3. with the transfer bound flaw/2 of Proofs/BipropProgress_proofs.v: from any state satisfying the loop invariant the loop
      ends within (flaw/2 + 1) * (|districts| + |parties| + 2) iterations - [BP_out_of_fuel] is unreachable. *)
From Coq Require Import ZArith QArith Qround List Bool Lia Lqa Arith Permutation.
From VL Require Import Prelude.PyDict Model.Divisor Model.HighestAverages Model.Biprop Model.BipropLoop
     Proofs.Dict_proofs Proofs.Divisor_proofs Proofs.Biprop_proofs Proofs.Biprop_steps Proofs.BipropLoop_proofs
     Proofs.BipropInit_proofs Proofs.BipropProgress_proofs.
Import ListNotations.
Open Scope Z_scope.

Lemma dmem_keys {X} (L : list (C * X)) k : dmem L k = true <-> In k (map fst L).
Proof.
  unfold dmem. destruct (dget L k) as [v|] eqn:E.
  - split; [intros _; apply (dget_In_key _ _ _ E)|reflexivity].
  - split; [discriminate|]. intros H. exfalso. apply (dget_none_notin _ _ E H).
Qed.

Lemma fold_left_ext_in {A B} (f g : A -> B -> A) (l : list B) : (forall a x, In x l -> f a x = g a x) ->
  forall a, fold_left f l a = fold_left g l a.
Proof.
  induction l as [|x l IH]; intros H a; simpl; [reflexivity|].
  rewrite (H a x (or_introl eq_refl)). apply IH. intros a' x' Hx. apply H. right. exact Hx.
Qed.

(* two nested loops visit the pairs of [list_prod xs ys] in order *)
Lemma fold_left_prod {A X Y} (f : X -> A -> Y -> A) (ys : list Y) : forall (xs : list X) a,
  fold_left (fun a x => fold_left (f x) ys a) xs a =
  fold_left (fun a xy => f (fst xy) a (snd xy)) (list_prod xs ys) a.
Proof.
  induction xs as [|x xs IH]; intros a; simpl; [reflexivity|].
  rewrite fold_left_app, <- IH. f_equal.
  clear IH. revert a. induction ys as [|y ys IHy]; intros a; simpl; [reflexivity|apply IHy].
Qed.

(* the two sweeps of _labeled, generically: an outer node that is already labelled looks at every inner node and labels
   those that pass the test and have no label yet; reading a missing row ([avail] false) is the KeyError *)
Section GSweep.
  Context {V : Type}.
  Variables avail test : C -> C -> bool.     (* outer node, inner node *)
  Variable val : C -> V.

  Definition gstep (o : C) (acc : option (list (C * V))) (k : C) : option (list (C * V)) :=
    match acc with
    | None => None
    | Some L => if dmem L k then Some L
                else if avail o k then (if test o k then Some (L ++ [(k, val o)]) else Some L) else None
    end.
  Definition gsweep (outer inner : list C) (acc : option (list (C * V))) : option (list (C * V)) :=
    fold_left (fun acc o => fold_left (gstep o) inner acc) outer acc.

  Notation gvisit := (fun acc ok => gstep (fst ok) acc (snd ok)).

  Lemma gsweep_pairs outer inner acc : gsweep outer inner acc = fold_left gvisit (list_prod outer inner) acc.
  Proof. apply (fold_left_prod (fun o acc k => gstep o acc k)). Qed.

  Lemma gvisit_none l : fold_left gvisit l None = None.
  Proof. induction l as [|x t IH]; simpl; [reflexivity|exact IH]. Qed.

  Lemma gstep_some o L k L1 : gstep o (Some L) k = Some L1 ->
    (L1 = L /\ (In k (map fst L) \/ avail o k = true /\ test o k = false)) \/
    (L1 = L ++ [(k, val o)] /\ ~ In k (map fst L) /\ avail o k = true /\ test o k = true).
  Proof.
    unfold gstep. destruct (dmem L k) eqn:Em.
    - intros [= <-]. left. split; [reflexivity|left; apply dmem_keys, Em].
    - destruct (avail o k); [|discriminate]. destruct (test o k); intros [= <-].
      + right. split; [reflexivity|]. split; [|split; reflexivity]. intros Hi. apply dmem_keys in Hi. congruence.
      + left. split; [reflexivity|]. right. split; reflexivity.
  Qed.

  Lemma gvisit_spec : forall l L L', fold_left gvisit l (Some L) = Some L' ->
    exists add, L' = L ++ add /\
      (forall k v, In (k, v) add -> exists o, In (o, k) l /\ v = val o /\ test o k = true) /\
      (NoDup (map fst L) -> NoDup (map fst L')) /\
      (forall o k, In (o, k) l -> test o k = true -> In k (map fst L')) /\
      (forall o k, In (o, k) l -> ~ In k (map fst L') -> avail o k = true).
  Proof.
    induction l as [|[o k] t IH]; intros L L' H; cbn [fold_left fst snd] in H.
    - injection H as <-. exists []. rewrite app_nil_r. split; [reflexivity|]. split; [intros ? ? []|]. split; [auto|]. split; intros ? ? [].
    - destruct (gstep o (Some L) k) as [L1|] eqn:E1; [|rewrite gvisit_none in H; discriminate].
      destruct (IH L1 L' H) as (add & E & A & N & Cl & Av).
      assert (Hmono : forall x, In x (map fst L1) -> In x (map fst L')).
      { intros x Hx. rewrite E, map_app. apply in_or_app. left. exact Hx. }
      destruct (gstep_some o L k L1 E1) as [[-> Hk]|(-> & Hk & Ea & Et)].
      + exists add. split; [exact E|]. split; [|split; [exact N|split]].
        * intros k0 v0 H0. destruct (A k0 v0 H0) as (o' & H1 & H2). exists o'. split; [right; exact H1|exact H2].
        * intros o' k' [[= <- <-]|H0] Ht; [|apply (Cl o' k' H0 Ht)]. destruct Hk as [Hk|[_ Hk]]; [apply Hmono, Hk|congruence].
        * intros o' k' [[= <- <-]|H0] Hn; [|apply (Av o' k' H0 Hn)]. destruct Hk as [Hk|[Hk _]]; [exfalso; apply Hn, Hmono, Hk|exact Hk].
      + exists ((k, val o) :: add). split; [rewrite E, <- app_assoc; reflexivity|]. split; [|split; [|split]].
        * intros k0 v0 [[= <- <-]|H0]; [exists o; split; [left; reflexivity|split; [reflexivity|exact Et]]|].
          destruct (A k0 v0 H0) as (o' & H1 & H2). exists o'. split; [right; exact H1|exact H2].
        * intros Hnd. apply N. rewrite map_app. apply (Permutation_NoDup (Permutation_cons_append _ _)). constructor; assumption.
        * intros o' k' [[= <- <-]|H0] Ht; [|apply (Cl o' k' H0 Ht)]. apply Hmono. rewrite map_app. apply in_or_app. right. left. reflexivity.
        * intros o' k' [[= <- <-]|H0] Hn; [exact Ea|apply (Av o' k' H0 Hn)].
  Qed.

  Lemma gsweep_spec inner outer L L' : gsweep outer inner (Some L) = Some L' ->
    exists add, L' = L ++ add /\
      (forall k v, In (k, v) add -> In k inner /\ exists o, In o outer /\ v = val o /\ test o k = true) /\
      (NoDup (map fst L) -> NoDup (map fst L')) /\
      (forall o k, In o outer -> In k inner -> test o k = true -> In k (map fst L')) /\
      (forall o k, In o outer -> In k inner -> ~ In k (map fst L') -> avail o k = true).
  Proof.
    rewrite gsweep_pairs. intros H. destruct (gvisit_spec _ L L' H) as (add & E & A & N & Cl & Av).
    exists add. split; [exact E|]. split; [|split; [exact N|split]].
    - intros k v Hin. destruct (A k v Hin) as (o & Ho & Hv). apply in_prod_iff in Ho. split; [apply Ho|]. exists o. split; [apply Ho|exact Hv].
    - intros o k Ho Hk. apply Cl, in_prod; assumption.
    - intros o k Ho Hk. apply Av, in_prod; assumption.
  Qed.
End GSweep.

Section Lab.
  Variable q : Q.
  Variable quots : qmat.
  Variable res : mat.
  Variables sp dl0 : list C.          (* sorted parties; quotients.keys() *)
  Variables under over : list C.
  Hypothesis Hover : NoDup over.

  Definition availd (i : C) : bool :=
    match dget quots i, dget res i with Some _, Some _ => true | _, _ => false end.
  Definition dtest (i j : C) : bool :=
    match dget quots i, dget res i with
    | Some qr, Some rr => is_downgradable q (dget_or qr j 0%Q) (dget_or rr j 0)
    | _, _ => false
    end.
  Definition utest (i j : C) : bool :=
    match dget quots i, dget res i with
    | Some qr, Some rr => is_upgradable q (dget_or qr j 0%Q) (dget_or rr j 0)
    | _, _ => false
    end.

  Lemma down_scan_gstep i acc j :
    down_scan q quots res i acc j = gstep (fun o _ => availd o) dtest (fun o => o) i acc j.
  Proof.
    unfold down_scan, gstep, availd, dtest. destruct acc as [LP|]; [|reflexivity]. destruct (dmem LP j); [reflexivity|].
    destruct (dget quots i); [|reflexivity]. destruct (dget res i); reflexivity.
  Qed.
  Lemma up_scan_gstep j acc i :
    up_scan q quots res j acc i = gstep (fun _ k => availd k) (fun o k => utest k o) (fun o => Some o) j acc i.
  Proof.
    unfold up_scan, gstep, availd, utest. destruct acc as [LD|]; [|reflexivity]. destruct (dmem LD i); [reflexivity|].
    destruct (dget quots i); [|reflexivity]. destruct (dget res i); reflexivity.
  Qed.

  Lemma down_sweep_g dl acc :
    fold_left (fun acc i => fold_left (down_scan q quots res i) sp acc) dl acc
    = gsweep (fun o _ => availd o) dtest (fun o => o) dl sp acc.
  Proof.
    unfold gsweep. apply fold_left_ext_in. intros a i _. apply fold_left_ext_in. intros a' j _. apply down_scan_gstep.
  Qed.
  Lemma up_sweep_g pl acc :
    fold_left (fun acc j => fold_left (up_scan q quots res j) dl0 acc) pl acc
    = gsweep (fun _ k => availd k) (fun o k => utest k o) (fun o => Some o) pl dl0 acc.
  Proof.
    unfold gsweep. apply fold_left_ext_in. intros a j _. apply fold_left_ext_in. intros a' i _. apply up_scan_gstep.
  Qed.

  Lemma row_test_iff (f : Q -> Z -> bool) i j :
    match dget quots i, dget res i with Some qr, Some rr => f (dget_or qr j 0%Q) (dget_or rr j 0) | _, _ => false end = true <->
    exists qr rr, dget quots i = Some qr /\ dget res i = Some rr /\ f (dget_or qr j 0%Q) (dget_or rr j 0) = true.
  Proof.
    split.
    - destruct (dget quots i) as [qr|]; [|discriminate]. destruct (dget res i) as [rr|]; [|discriminate].
      intros H. exists qr, rr. auto.
    - intros (qr & rr & -> & -> & H). exact H.
  Qed.
  Lemma dtest_Down i j : dtest i j = true <-> Down q quots res i j.
  Proof. apply (row_test_iff (is_downgradable q)). Qed.
  Lemma utest_Up i j : utest i j = true <-> Up q quots res i j.
  Proof. apply (row_test_iff (is_upgradable q)). Qed.

  (* nodes: inl = a district, inr = a party *)
  Inductive Reach : C + C -> Prop :=
  | R_over i : In i over -> Reach (inl i)
  | R_down i p : Reach (inl i) -> In p sp -> dtest i p = true -> Reach (inr p)
  | R_up p i : Reach (inr p) -> In i dl0 -> utest i p = true -> Reach (inl i).

  Definition LD0 : LDt := map (fun i => (i, @None C)) over.

  Record LInv (LD : LDt) (LP : LPt) : Prop := {
    li_prefix : exists addD, LD = LD0 ++ addD /\ forall i v, In (i, v) addD -> In i dl0;
    li_ndD : NoDup (map fst LD);
    li_ndP : NoDup (map fst LP);
    li_keysP : forall p, In p (map fst LP) -> In p sp;
    li_reachD : forall i, In i (map fst LD) -> Reach (inl i);
    li_reachP : forall p, In p (map fst LP) -> Reach (inr p)
  }.

  Definition closed (LD : LDt) (LP : LPt) : Prop :=
    (forall i j, In i (map fst LD) -> In j sp -> dtest i j = true -> In j (map fst LP)) /\
    (forall j i, In j (map fst LP) -> In i dl0 -> utest i j = true -> In i (map fst LD)) /\
    (* no KeyError: the rows the search read exist *)
    (forall j i, In j (map fst LP) -> In i dl0 -> ~ In i (map fst LD) -> availd i = true).

  Lemma LD0_keys : map fst LD0 = over.
  Proof. unfold LD0. rewrite map_map. simpl. apply map_id. Qed.

  Lemma LInv_init : LInv LD0 [].
  Proof.
    constructor.
    - exists []. rewrite app_nil_r. split; [reflexivity|intros ? ? []].
    - rewrite LD0_keys. exact Hover.
    - constructor.
    - intros p [].
    - intros i Hi. rewrite LD0_keys in Hi. apply R_over, Hi.
    - intros p [].
  Qed.

  Lemma LInv_over LD LP : LInv LD LP -> incl over (map fst LD).
  Proof.
    intros I i Hi. destruct (li_prefix _ _ I) as (addD & -> & _). rewrite map_app, LD0_keys. apply in_or_app. left. exact Hi.
  Qed.

  Lemma LInv_keysD LD LP : LInv LD LP -> incl (map fst LD) (dl0 ++ over).
  Proof.
    intros I i Hi. destruct (li_prefix _ _ I) as (addD & E & Hk). rewrite E, map_app, LD0_keys in Hi.
    apply in_or_app. apply in_app_or in Hi. destruct Hi as [Hi|Hi]; [right; exact Hi|left].
    apply in_map_iff in Hi. destruct Hi as ([i0 v] & <- & Hin). apply (Hk i0 v Hin).
  Qed.

  Lemma LInv_count LD LP : LInv LD LP -> (length LD + length LP <= length over + length dl0 + length sp)%nat.
  Proof.
    intros I. pose proof (NoDup_incl_length (li_ndD _ _ I) (LInv_keysD _ _ I)) as H1.
    pose proof (NoDup_incl_length (li_ndP _ _ I) (li_keysP _ _ I)) as H2.
    rewrite map_length, app_length in H1. rewrite map_length in H2. lia.
  Qed.

  (* one round of the while loop of _labeled *)
  Lemma round_spec LD LP LP1 LD1 : LInv LD LP ->
    fold_left (fun acc i => fold_left (down_scan q quots res i) sp acc) (map fst LD) (Some LP) = Some LP1 ->
    fold_left (fun acc j => fold_left (up_scan q quots res j) dl0 acc) (map fst LP1) (Some LD) = Some LD1 ->
    LInv LD1 LP1 /\ (exists aP, LP1 = LP ++ aP) /\ (exists aD, LD1 = LD ++ aD) /\
    (forall i j, In i (map fst LD) -> In j sp -> dtest i j = true -> In j (map fst LP1)) /\
    (forall j i, In j (map fst LP1) -> In i dl0 -> utest i j = true -> In i (map fst LD1)) /\
    (forall j i, In j (map fst LP1) -> In i dl0 -> ~ In i (map fst LD1) -> availd i = true).
  Proof.
    intros [(addD & E & Hk) HD HP KP RD RP] H1 H2.
    rewrite down_sweep_g in H1. rewrite up_sweep_g in H2.
    destruct (gsweep_spec _ _ _ sp (map fst LD) LP LP1 H1) as (aP & EP & AP & NP & CP & _).
    destruct (gsweep_spec _ _ _ dl0 (map fst LP1) LD LD1 H2) as (aD & ED & AD & ND & CD & VD).
    assert (KP1 : forall p, In p (map fst LP1) -> In p sp).
    { intros p Hp. rewrite EP, map_app in Hp. apply in_app_or in Hp. destruct Hp as [Hp|Hp]; [apply KP, Hp|].
      apply in_map_iff in Hp. destruct Hp as ([p0 v] & <- & Hin). apply (AP p0 v Hin). }
    assert (RP1 : forall p, In p (map fst LP1) -> Reach (inr p)).
    { intros p Hp. rewrite EP, map_app in Hp. apply in_app_or in Hp. destruct Hp as [Hp|Hp]; [apply RP, Hp|].
      apply in_map_iff in Hp. destruct Hp as ([p0 v] & <- & Hin). destruct (AP p0 v Hin) as (Hsp & o & Ho & _ & Ht).
      apply (R_down o p0); [apply RD, Ho|exact Hsp|exact Ht]. }
    split; [constructor|].
    - exists (addD ++ aD). split; [rewrite ED, E, app_assoc; reflexivity|].
      intros i v Hin. apply in_app_or in Hin. destruct Hin as [Hin|Hin]; [apply (Hk i v Hin)|apply (AD i v Hin)].
    - apply ND, HD.
    - apply NP, HP.
    - exact KP1.
    - intros i Hi. rewrite ED, map_app in Hi. apply in_app_or in Hi. destruct Hi as [Hi|Hi]; [apply RD, Hi|].
      apply in_map_iff in Hi. destruct Hi as ([i0 v] & <- & Hin). destruct (AD i0 v Hin) as (Hdl & o & Ho & _ & Ht).
      apply (R_up o i0); [apply RP1, Ho|exact Hdl|exact Ht].
    - exact RP1.
    - split; [exists aP; exact EP|]. split; [exists aD; exact ED|]. split; [exact CP|]. split.
      + intros j i Hj Hi Ht. apply (CD j i Hj Hi Ht).
      + intros j i Hj Hi Hn. apply (VD j i Hj Hi Hn).
  Qed.

  Lemma app_same_length {X} (l a : list X) : length (l ++ a) = length l -> a = [].
  Proof. rewrite app_length. destruct a; [reflexivity|simpl; lia]. Qed.

  Lemma lab_loop_spec : forall fuel LD LP LD' LP', LInv LD LP ->
    lab_loop q fuel under sp dl0 quots res LD LP = Lab LD' LP' ->
    LInv LD' LP' /\ (existsb (fun i => cmem i under) (map fst LD') = false -> closed LD' LP').
  Proof.
    induction fuel as [|f IH]; intros LD LP LD' LP' I H; simpl in H; [discriminate|].
    destruct (fold_left (fun acc i => fold_left (down_scan q quots res i) sp acc) (map fst LD) (Some LP)) as [LP1|] eqn:E1; [|discriminate].
    destruct (fold_left (fun acc j => fold_left (up_scan q quots res j) dl0 acc) (map fst LP1) (Some LD)) as [LD1|] eqn:E2; [|discriminate].
    destruct (round_spec LD LP LP1 LD1 I E1 E2) as (I1 & (aP & EP) & (aD & ED) & CP & CD & VD).
    destruct (existsb (fun i => cmem i under) (map fst LD1)) eqn:Ex.
    - injection H as <- <-. split; [exact I1|]. intros Hf. congruence.
    - destruct (Nat.eqb (length LD1 + length LP1) (length LD + length LP)) eqn:En.
      + injection H as <- <-. split; [exact I1|]. intros _.
        apply Nat.eqb_eq in En. rewrite ED, EP, !app_length in En.
        assert (aD = []) by (destruct aD; [reflexivity|simpl in En; lia]).
        assert (aP = []) by (destruct aP; [reflexivity|simpl in En; lia]). subst aD aP. rewrite app_nil_r in ED, EP. subst LD1 LP1.
        split; [assumption|split; assumption].
      + apply (IH LD1 LP1 LD' LP' I1 H).
  Qed.

  Lemma lab_loop_fuel : forall fuel LD LP, LInv LD LP ->
    (length over + length dl0 + length sp < fuel + (length LD + length LP))%nat ->
    lab_loop q fuel under sp dl0 quots res LD LP <> LabFuel.
  Proof.
    induction fuel as [|f IH]; intros LD LP I Hf; simpl.
    - pose proof (LInv_count LD LP I). lia.
    - destruct (fold_left (fun acc i => fold_left (down_scan q quots res i) sp acc) (map fst LD) (Some LP)) as [LP1|] eqn:E1; [|discriminate].
      destruct (fold_left (fun acc j => fold_left (up_scan q quots res j) dl0 acc) (map fst LP1) (Some LD)) as [LD1|] eqn:E2; [|discriminate].
      destruct (round_spec LD LP LP1 LD1 I E1 E2) as (I1 & (aP & EP) & (aD & ED) & _).
      destruct (existsb (fun i => cmem i under) (map fst LD1)); [discriminate|].
      destruct (Nat.eqb (length LD1 + length LP1) (length LD + length LP)) eqn:En; [discriminate|].
      apply Nat.eqb_neq in En. apply (IH LD1 LP1 I1). rewrite ED, EP, !app_length in En |- *. lia.
  Qed.

  Lemma closed_complete LD LP : LInv LD LP -> closed LD LP ->
    forall x, Reach x -> match x with inl i => In i (map fst LD) | inr p => In p (map fst LP) end.
  Proof.
    intros I (C1 & C2 & _) x Hx. induction Hx as [i Hi|i p _ IH Hp Ht|p i _ IH Hi Ht].
    - apply (LInv_over LD LP I i Hi).
    - apply (C1 i p IH Hp Ht).
    - apply (C2 p i IH Hi Ht).
  Qed.
End Lab.

Lemma walk_fuel LD LP over : forall fuel cur seenD seenP, NoDup seenD -> incl seenD (map fst LD) ->
  (length LD < fuel + length seenD)%nat -> walk fuel LD LP over cur seenD seenP <> WalkFuel.
Proof.
  induction fuel as [|f IH]; intros cur seenD seenP Hnd Hin Hf.
  - exfalso. pose proof (NoDup_incl_length Hnd Hin) as H. rewrite map_length in H. simpl in Hf. lia.
  - simpl. destruct (cmem cur over); [discriminate|]. destruct (cmem cur seenD) eqn:Es; [discriminate|].
    destruct (dget LD cur) as [[p|]|] eqn:El; try discriminate.
    destruct (cmem p seenP); [discriminate|]. destruct (dget LP p) as [i'|]; [|discriminate].
    assert (Hw : walk f LD LP over i' (cur :: seenD) (p :: seenP) <> WalkFuel).
    { apply IH.
      - constructor; [|exact Hnd]. intros Hi. apply cmem_In in Hi. congruence.
      - intros x [<-|Hx]; [apply (dget_In_key _ _ _ El)|apply Hin, Hx].
      - simpl. lia. }
    destruct (walk f LD LP over i' (cur :: seenD) (p :: seenP)); [discriminate|discriminate|congruence].
Qed.

(* the cell tests depend on the VALUE of the quotient only *)
Lemma Qtrunc_comp x y : (x == y)%Q -> Qtrunc x = Qtrunc y.
Proof.
  unfold Qeq, Qtrunc. intros E.
  rewrite <- (Z.quot_mul_cancel_r (Qnum x) (Zpos (Qden x)) (Zpos (Qden y))) by discriminate.
  rewrite <- (Z.quot_mul_cancel_r (Qnum y) (Zpos (Qden y)) (Zpos (Qden x))) by discriminate.
  rewrite E. f_equal. apply Z.mul_comm.
Qed.
Lemma is_upgradable_comp q x y s : (x == y)%Q -> is_upgradable q x s = is_upgradable q y s.
Proof. intros E. unfold is_upgradable, at_signpost. rewrite (Qtrunc_comp x y E), E. reflexivity. Qed.
Lemma is_downgradable_comp q x y s : (x == y)%Q -> is_downgradable q x s = is_downgradable q y s.
Proof. intros E. unfold is_downgradable, at_signpost. rewrite (Qtrunc_comp x y E), E. reflexivity. Qed.

Section Attain.
  Variable q : Q.
  Variable res : mat.
  Variables DL PL : list C.
  Notation sg i j := (signpost q (mget res i j)).
  Notation step := (scan_cell q res DL PL).

  Definition attA (a : Q) (cell : C * C * Q) : Prop :=
    condA q res DL PL cell /\ a = (sg (fst (fst cell)) (snd (fst cell)) / snd cell)%Q.
  Definition attB (b : option Q) (cell : C * C * Q) : Prop :=
    condB DL PL cell /\ b = Some ((sg (fst (fst cell)) (snd (fst cell)) + 1) / snd cell)%Q.

  Lemma step_attain st cell :
    (sc_alpha (step st cell) = sc_alpha st \/ attA (sc_alpha (step st cell)) cell) /\
    (sc_beta (step st cell) = sc_beta st \/ attB (sc_beta (step st cell)) cell).
  Proof.
    destruct cell as [[i j] x]. unfold scan_cell, attA, attB, condA, condB. cbn [fst snd].
    destruct (sc_zerodiv st); [split; left; reflexivity|].
    destruct (cmem i DL) eqn:Ei, (cmem j PL) eqn:Ej; cbn [eqb negb andb]; try (split; left; reflexivity).
    - destruct (Qpos_b (sg i j)) eqn:Es; [|split; left; reflexivity].
      destruct (Qeq_bool x 0); [split; left; reflexivity|].
      destruct (Qpos_b (sg i j / x - sc_alpha st)); [|split; left; reflexivity].
      cbn [sc_alpha sc_beta]. split; [right|left; reflexivity].
      split; [|reflexivity]. split; [reflexivity|]. split; [reflexivity|apply Qpos_b_iff, Es].
    - destruct (Qpos_b x) eqn:Ex; [|split; left; reflexivity]. apply Qpos_b_iff in Ex.
      destruct (sc_beta st) as [b0|] eqn:Eb; [destruct (Qpos_b (b0 - (sg i j + 1) / x)); [|rewrite Eb; split; left; reflexivity]|];
        cbn [sc_alpha sc_beta]; (split; [left; reflexivity|right]);
        (split; [split; [reflexivity|split; [reflexivity|exact Ex]]|reflexivity]).
  Qed.

  Lemma scan_attain : forall cells st,
    (sc_alpha (fold_left step cells st) = sc_alpha st \/ exists cell, In cell cells /\ attA (sc_alpha (fold_left step cells st)) cell) /\
    (sc_beta (fold_left step cells st) = sc_beta st \/ exists cell, In cell cells /\ attB (sc_beta (fold_left step cells st)) cell).
  Proof.
    induction cells as [|cell cells IH]; intros st; simpl; [split; left; reflexivity|].
    destruct (IH (step st cell)) as [IA IB]. destruct (step_attain st cell) as [SA SB]. split.
    - destruct IA as [->|(c & Hc & A)]; [|right; exists c; split; [right; exact Hc|exact A]].
      destruct SA as [A0|A0]; [left; exact A0|right; exists cell; split; [left; reflexivity|exact A0]].
    - destruct IB as [->|(c & Hc & B)]; [|right; exists c; split; [right; exact Hc|exact B]].
      destruct SB as [B0|B0]; [left; exact B0|right; exists cell; split; [left; reflexivity|exact B0]].
  Qed.

  (* the value returned by _adj_coef: at least alpha and 1 / beta, and, when positive, equal to one of them at a cell *)
  Lemma adj_attain quots a : adj_coef q quots res DL PL = Adj a -> (0 < a)%Q ->
    exists cell, In cell (cells_of quots) /\
      ((condA q res DL PL cell /\ a = (sg (fst (fst cell)) (snd (fst cell)) / snd cell)%Q) \/
       (condB DL PL cell /\ a = (1 / ((sg (fst (fst cell)) (snd (fst cell)) + 1) / snd cell))%Q)).
  Proof.
    unfold adj_coef. destruct (scan_attain (cells_of quots) (mk_scan 0 None false)) as [HA HB].
    set (fin := fold_left step (cells_of quots) (mk_scan 0 None false)) in *. cbn [sc_alpha sc_beta] in HA, HB.
    destruct (sc_zerodiv fin); [discriminate|].
    assert (Halpha : (0 < sc_alpha fin)%Q -> exists cell, In cell (cells_of quots) /\ condA q res DL PL cell /\
               sc_alpha fin = (sg (fst (fst cell)) (snd (fst cell)) / snd cell)%Q).
    { intros Hp. destruct HA as [E|(c & Hc & [H1 H2])]; [rewrite E in Hp; lra|]. exists c. auto. }
    destruct (sc_beta fin) as [b|] eqn:Eb.
    - destruct (Qle_bool (1 / b) (sc_alpha fin)); intros [= <-] Hp.
      + destruct (Halpha Hp) as (c & Hc & H1 & H2). exists c. split; [exact Hc|left; split; assumption].
      + destruct HB as [E|(c & Hc & [H1 H2])]; [discriminate|]. injection H2 as ->. exists c. split; [exact Hc|right; split; [exact H1|reflexivity]].
    - destruct (Qle_bool 0 (sc_alpha fin)); intros [= <-] Hp; [|lra].
      destruct (Halpha Hp) as (c & Hc & H1 & H2). exists c. split; [exact Hc|left; split; assumption].
  Qed.

  (* every candidate bounds the coefficient: a candidate of alpha directly; a candidate of beta through the final beta, which
     is positive when no cell holds a negative number of seats *)
  Lemma adj_lower quots a : (q < 1)%Q -> (forall i j, 0 <= mget res i j) -> adj_coef q quots res DL PL = Adj a ->
    forall i j x, In (i, j, x) (cells_of quots) ->
      (condA q res DL PL (i, j, x) -> ~ (x == 0)%Q /\ (sg i j / x <= a)%Q) /\
      (condB DL PL (i, j, x) -> exists b, (0 < b)%Q /\ (b <= (sg i j + 1) / x)%Q /\ (1 / b <= a)%Q).
  Proof.
    intros Hq1 Hnn Ha i j x Hc. destruct (adj_coef_ge q res DL PL quots a Ha) as (Gz & Galpha & Gbeta).
    destruct (scan_facts q res DL PL (cells_of quots) (mk_scan 0 None false) Gz) as (_ & _ & _ & CA & CB & PB). split.
    - intros HA. destruct (CA _ Hc HA) as [Hx Hle]. split; [exact Hx|]. cbn [fst snd] in Hle. lra.
    - intros HB. destruct (CB _ Hc HB) as (b & Eb & Hle). exists b. split; [|split; [exact Hle|exact (Gbeta b Eb)]].
      apply (PB (fun b0 (H : None = Some b0) => ltac:(discriminate))); [|exact Eb].
      intros [[i1 j1] x1] _ (_ & _ & Hx1). cbn [fst snd].
      pose proof (inj_le 0 _ (Hnn i1 j1)) as Hs1. change (inject_Z 0) with 0%Q in Hs1.
      apply Qlt_shift_div_l; [exact Hx1|]. unfold signpost. lra.
  Qed.

  (* a candidate that sits on its signpost (of alpha on the lower one, of beta on the upper one) makes the coefficient
     at least 1 *)
  Lemma adj_on_signpost quots a i j x : (q < 1)%Q -> (forall i j, 0 <= mget res i j) -> adj_coef q quots res DL PL = Adj a ->
    In (i, j, x) (cells_of quots) ->
    (cmem i DL = true /\ cmem j PL = false /\ (0 < sg i j)%Q /\ (x == sg i j)%Q) \/
    (cmem i DL = false /\ cmem j PL = true /\ (x == sg i j + 1)%Q) -> (1 <= a)%Q.
  Proof.
    intros Hq1 Hnn Ha Hc. destruct (adj_lower quots a Hq1 Hnn Ha i j x Hc) as [LA LB].
    intros [(Hi & Hj & Hsg & Ex)|(Hi & Hj & Ex)].
    - destruct (LA (conj Hi (conj Hj Hsg))) as [_ Hle].
      assert (H1 : (1 <= sg i j / x)%Q) by (apply Qle_shift_div_l; lra). lra.
    - pose proof (inj_le 0 _ (Hnn i j)) as Hs. change (inject_Z 0) with 0%Q in Hs.
      assert (Hx : (0 < x)%Q) by (unfold signpost in Ex; lra).
      destruct (LB (conj Hi (conj Hj Hx))) as (b & Hb & Hle & Hge).
      assert (H2 : ((sg i j + 1) / x <= 1)%Q) by (apply Qle_shift_div_r; lra).
      assert (H1 : (1 <= 1 / b)%Q) by (apply Qle_shift_div_l; lra). lra.
  Qed.
End Attain.

Lemma strict_count (l l' : list C) x : NoDup l -> incl l l' -> In x l' -> ~ In x l -> (length l < length l')%nat.
Proof.
  intros Hnd Hin Hx Hnx. apply (NoDup_incl_length (l := x :: l)); [constructor; assumption|].
  intros y [<-|Hy]; [exact Hx|apply Hin, Hy].
Qed.

Lemma sort_pos_length l : length (sort_pos l) = length l.
Proof. apply Permutation_length, sort_pos_perm. Qed.

Lemma sort_pos_nil l : sort_pos l = [] -> l = [].
Proof. intros H. apply length_zero_iff_nil. rewrite <- (sort_pos_length l), H. reflexivity. Qed.

Lemma no_under_labelled (LD : LDt) under : sort_pos (filter (fun i => dmem LD i) under) = [] ->
  existsb (fun i => cmem i under) (map fst LD) = false.
Proof.
  intros H. apply sort_pos_nil in H. destruct (existsb (fun i => cmem i under) (map fst LD)) eqn:E; [|reflexivity].
  apply existsb_exists in E. destruct E as (i & Hi & Hu). apply cmem_In in Hu.
  pose proof (filter_nil _ _ H i Hu) as Hf. cbv beta in Hf. apply dmem_keys in Hi. congruence.
Qed.

Section Tests.
  Variable q : Q.
  Variable votes : mat.

  (* _calc_quots keeps the rows of votes *)
  Lemma calc_quots_row rho gamma i :
    match dget (calc_quots votes rho gamma) i, dget votes i with
    | Some qr, Some _ => forall j, (dget_or qr j 0 == quot (mget votes i j) (mul rho i) (mul gamma j))%Q
    | None, None => True
    | _, _ => False
    end.
  Proof.
    pose proof (quots_cell votes rho gamma i) as Hc. unfold calc_quots in *.
    rewrite (dget_map_keyed (fun i0 row => map (fun kv => (fst kv, quot (snd kv) (mul rho i0) (mul gamma (fst kv)))) row) votes i) in *.
    destruct (dget votes i); cbn [option_map] in *; [|exact I]. intros j. apply (Hc _ j eq_refl).
  Qed.

  Lemma cell_test_calc (f : Q -> Z -> bool) : (forall x y s, (x == y)%Q -> f x s = f y s) -> forall rho gamma res i j,
    match dget (calc_quots votes rho gamma) i, dget res i with
    | Some qr, Some rr => f (dget_or qr j 0%Q) (dget_or rr j 0)
    | _, _ => false
    end =
    match dget votes i, dget res i with
    | Some _, Some rr => f (quot (mget votes i j) (mul rho i) (mul gamma j)) (dget_or rr j 0)
    | _, _ => false
    end.
  Proof.
    intros Hf rho gamma res i j. pose proof (calc_quots_row rho gamma i) as H.
    destruct (dget (calc_quots votes rho gamma) i), (dget votes i); try contradiction; [|reflexivity].
    destruct (dget res i); [apply Hf, H|reflexivity].
  Qed.

  Lemma dtest_calc rho gamma res i j :
    dtest q (calc_quots votes rho gamma) res i j =
    match dget votes i, dget res i with
    | Some _, Some rr => is_downgradable q (quot (mget votes i j) (mul rho i) (mul gamma j)) (dget_or rr j 0)
    | _, _ => false
    end.
  Proof. apply (cell_test_calc (is_downgradable q) (is_downgradable_comp q)). Qed.
  Lemma utest_calc rho gamma res i j :
    utest q (calc_quots votes rho gamma) res i j =
    match dget votes i, dget res i with
    | Some _, Some rr => is_upgradable q (quot (mget votes i j) (mul rho i) (mul gamma j)) (dget_or rr j 0)
    | _, _ => false
    end.
  Proof. apply (cell_test_calc (is_upgradable q) (is_upgradable_comp q)). Qed.

  Lemma tests_same rho gamma rho' gamma' res i j :
    (quot (mget votes i j) (mul rho i) (mul gamma j) == quot (mget votes i j) (mul rho' i) (mul gamma' j))%Q ->
    dtest q (calc_quots votes rho gamma) res i j = dtest q (calc_quots votes rho' gamma') res i j /\
    utest q (calc_quots votes rho gamma) res i j = utest q (calc_quots votes rho' gamma') res i j.
  Proof.
    intros E. rewrite !dtest_calc, !utest_calc. destruct (dget votes i); [|split; reflexivity]. destruct (dget res i); [|split; reflexivity].
    split; [apply is_downgradable_comp, E|apply is_upgradable_comp, E].
  Qed.
End Tests.

(* the quotient of a cell after district_coefs[d] *= a (d labelled), party_coefs[p] /= a (p labelled) *)
Lemma quot_update v DL PL a rho gamma i j : ~ (a == 0)%Q ->
  (quot v (mul (scale_rho_r DL a rho) i) (mul (scale_gamma_r PL a gamma) j) ==
   quot v (mul rho i) (mul gamma j) * (if cmem i DL then a else 1) * (if cmem j PL then / a else 1))%Q.
Proof.
  intros Ha. unfold quot. rewrite mul_scale_rho, (mul_scale_gamma PL a gamma j Ha).
  destruct (cmem i DL), (cmem j PL); unfold Qdiv; ring.
Qed.

(* the labels of a closed labelling are found again by a closed labelling for another quotient matrix, if the tests
   between the lines that are labelled are the same for both: by induction on how a label was reached *)
Lemma closed_mono q quots quots' res sp dl0 over LD LP LD' LP' :
  LInv q quots res sp dl0 over LD LP -> closed q quots res sp dl0 LD LP ->
  incl over (map fst LD') -> closed q quots' res sp dl0 LD' LP' ->
  (forall i j, In i (map fst LD) -> In j (map fst LP) ->
     dtest q quots res i j = dtest q quots' res i j /\ utest q quots res i j = utest q quots' res i j) ->
  incl (map fst LD) (map fst LD') /\ incl (map fst LP) (map fst LP').
Proof.
  intros LI (C1 & C2 & _) Ho' (C1' & C2' & _) Hsame.
  assert (Hsup : forall x, Reach q quots res sp dl0 over x ->
            match x with
            | inl i => In i (map fst LD) /\ In i (map fst LD')
            | inr p => In p (map fst LP) /\ In p (map fst LP')
            end).
  { intros x Hx. induction Hx as [i Hi|i p _ [IH IH'] Hp Ht|p i _ [IH IH'] Hi Ht].
    - split; [apply (LInv_over _ _ _ _ _ _ _ _ LI), Hi|apply Ho', Hi].
    - pose proof (C1 i p IH Hp Ht) as HpL. split; [exact HpL|].
      apply (C1' i p IH' Hp). rewrite <- (proj1 (Hsame i p IH HpL)). exact Ht.
    - pose proof (C2 p i IH Hi Ht) as HiL. split; [exact HiL|].
      apply (C2' p i IH' Hi). rewrite <- (proj2 (Hsame i p HiL IH)). exact Ht. }
  split.
  - intros i Hi. exact (proj2 (Hsup (inl i) (li_reachD _ _ _ _ _ _ _ _ LI i Hi))).
  - intros p Hp. exact (proj2 (Hsup (inr p) (li_reachP _ _ _ _ _ _ _ _ LI p Hp))).
Qed.

(* an accepted coefficient lies strictly between 0 and 1 *)
Lemma accepted_range q quots res DL PL a : adj_coef q quots res DL PL = Adj a ->
  Qeq_bool a 0 || Qle_bool 1 a = false -> (0 < a)%Q /\ (a < 1)%Q.
Proof.
  intros Ha Hacc. apply orb_false_iff in Hacc. destruct Hacc as [Hc0 Hc1].
  pose proof (adj_nonneg q _ _ _ _ _ Ha) as H0. split.
  - destruct (Qlt_le_dec 0 a) as [L|L]; [exact L|]. assert (E : (a == 0)%Q) by lra. apply Qeq_bool_iff in E. congruence.
  - destruct (Qlt_le_dec a 1) as [L|L]; [exact L|]. apply Qle_bool_iff in L. congruence.
Qed.

(* the fuel measure t * (k + 2) + (k + 1 - m) + 1 of the loop, lexicographic in (t, k + 1 - m): it goes down when t does,
   and when t stays and m grows within k + 1 *)
Lemma fuel_descent k t m t' m' f : (t * (k + 2) + (k + 1 - m) + 1 <= S f)%nat ->
  t = S t' \/ (t = t' /\ m < m' <= k + 1)%nat -> (t' * (k + 2) + (k + 1 - m') + 1 <= f)%nat.
Proof. intros Hf [->|[-> Hm]]; lia. Qed.

Section Term.
  Variable q : Q.
  Hypothesis Hq0 : (0 <= q)%Q.
  Hypothesis Hq1 : (q < 1)%Q.
  Variable votes : mat.
  Hypothesis Hwf : wf_votes votes.
  Variable pseats : list (C * Z).
  Notation ds := (districts votes).
  Notation ps := (parties votes).
  Notation quots s := (calc_quots votes (b_rho s) (b_gamma s)).

  Lemma labeled_spec quots res under over LD LP : NoDup over ->
    labeled q ps ds quots res under over = Lab LD LP ->
    LInv q quots res (sort_pos ps) ds over LD LP /\
    (sort_pos (filter (fun i => dmem LD i) under) = [] -> closed q quots res (sort_pos ps) ds LD LP).
  Proof.
    intros Hov H. unfold labeled in H. change (map (fun i => (i, @None C)) over) with (LD0 over) in H.
    destruct (lab_loop_spec q quots res (sort_pos ps) ds under over _ _ _ _ _ (LInv_init q quots res (sort_pos ps) ds over Hov) H) as [I Cl].
    split; [exact I|]. intros Hn. apply Cl, no_under_labelled, Hn.
  Qed.

  (* neither the labelling search nor the path walk runs out of its fuel *)
  Lemma bstep_body_fuel s under over : NoDup over -> bstep_body q votes s under over <> Stop BP_out_of_fuel.
  Proof.
    intros Hov. destruct (bstep_body_case q votes s under over) as [ |El| |LD LP start rest El Es Ew| | | | | ]; try discriminate; exfalso.
    - revert El. unfold labeled. change (map (fun i => (i, @None C)) over) with (LD0 over).
      apply (lab_loop_fuel q (quots s) (b_res s) (sort_pos ps) ds under over); [apply LInv_init, Hov|].
      unfold LD0. rewrite map_length, sort_pos_length. simpl. lia.
    - revert Ew. apply walk_fuel; [constructor|intros x []|simpl; lia].
  Qed.

  (* an accepted update puts the cell that attains the coefficient exactly on a signpost: a labelled district and an
     unlabelled party on the lower one, an unlabelled district and a labelled party on the upper one *)
  Lemma update_on_signpost res rho gamma DL PL a : (forall i j, 0 <= mget res i j) ->
    adj_coef q (calc_quots votes rho gamma) res DL PL = Adj a -> (0 < a)%Q ->
    exists i j x', In (i, j, x') (cells_of (calc_quots votes (scale_rho_r DL a rho) (scale_gamma_r PL a gamma))) /\
      ((cmem i DL = true /\ cmem j PL = false /\ (0 < signpost q (mget res i j))%Q /\ (x' == signpost q (mget res i j))%Q) \/
       (cmem i DL = false /\ cmem j PL = true /\ (x' == signpost q (mget res i j) + 1)%Q)).
  Proof.
    intros Hnn Ha Hpos. assert (Hne : ~ (a == 0)%Q) by lra.
    destruct (adj_attain q res DL PL _ a Ha Hpos) as ([[i j] x] & Hcell & Hatt).
    destruct (cells_of_quots votes rho gamma _ Hwf Hcell) as (_ & _ & Ex). cbn [fst snd] in Ex, Hatt.
    pose proof (quot_update (mget votes i j) DL PL a rho gamma i j Hne) as Ex'. rewrite <- Ex in Ex'.
    exists i, j, (quot (mget votes i j) (mul (scale_rho_r DL a rho) i) (mul (scale_gamma_r PL a gamma) j)).
    assert (Hv : ~ (x == 0)%Q -> mget votes i j <> 0).
    { intros Hx E. apply Hx. rewrite Ex, E. unfold quot. change (inject_Z 0) with 0%Q. ring. }
    destruct Hatt as [[(HiD & HjP & Hsg) Ea]|[(HiD & HjP & Hx) Ea]]; rewrite HiD, HjP in Ex'.
    - assert (Hx0 : ~ (x == 0)%Q).
      { intros E. rewrite Ea, E in Hpos. unfold Qdiv in Hpos. change (/ 0)%Q with 0%Q in Hpos. lra. }
      split; [apply (stored_cell votes Hwf), Hv, Hx0|left]. split; [exact HiD|]. split; [exact HjP|]. split; [exact Hsg|].
      rewrite Ex', Ea. field. exact Hx0.
    - pose proof (inj_le 0 _ (Hnn i j)) as Hs. change (inject_Z 0) with 0%Q in Hs.
      split; [apply (stored_cell votes Hwf), Hv; lra|right]. split; [exact HiD|]. split; [exact HjP|].
      rewrite Ex', Ea. unfold signpost. field. split; lra.
  Qed.

  (* THE PROGRESS OF A MULTIPLIER UPDATE: if an accepted update is followed by another accepted update, the second one has
     strictly more labelled lines.  The update leaves the quotients between two labelled lines alone, so every label
     survives; the cell that attained the coefficient is on a signpost now, next to a labelled line: unless its other
     line is labelled too, the next coefficient is at least 1 and is not accepted. *)
  Lemma update_progress s under over LD LP a LD' LP' a' :
    BInv q votes pseats s -> NoDup over ->
    labeled q ps ds (quots s) (b_res s) under over = Lab LD LP ->
    sort_pos (filter (fun i => dmem LD i) under) = [] ->
    adj_coef q (quots s) (b_res s) (map fst LD) (map fst LP) = Adj a ->
    Qeq_bool a 0 || Qle_bool 1 a = false ->
    let s' := mk_bstate (b_res s) (scale_rho_r (map fst LD) a (b_rho s)) (scale_gamma_r (map fst LP) a (b_gamma s)) in
    labeled q ps ds (quots s') (b_res s) under over = Lab LD' LP' ->
    sort_pos (filter (fun i => dmem LD' i) under) = [] ->
    adj_coef q (quots s') (b_res s) (map fst LD') (map fst LP') = Adj a' ->
    Qeq_bool a' 0 || Qle_bool 1 a' = false ->
    (length LD + length LP < length LD' + length LP')%nat.
  Proof.
    intros I Hov El Hnu Ha Hacc s' El' Hnu' Ha' Hacc'. unfold s' in El', Ha'. clear s'. cbn [b_rho b_gamma] in El', Ha'.
    rewrite <- (map_length fst LD), <- (map_length fst LP), <- (map_length fst LD'), <- (map_length fst LP').
    set (DL := map fst LD) in *. set (PL := map fst LP) in *. set (DL' := map fst LD') in *. set (PL' := map fst LP') in *.
    destruct (labeled_spec _ _ _ _ _ _ Hov El) as [LI Cl]. specialize (Cl Hnu).
    destruct (labeled_spec _ _ _ _ _ _ Hov El') as [LI' Cl']. specialize (Cl' Hnu').
    destruct (accepted_range _ _ _ _ _ _ Ha Hacc) as [Hpos _]. destruct (accepted_range _ _ _ _ _ _ Ha' Hacc') as [_ Hlt1'].
    assert (Hne : ~ (a == 0)%Q) by lra.
    destruct (closed_mono q _ _ (b_res s) _ _ over LD LP LD' LP' LI Cl (LInv_over _ _ _ _ _ _ _ _ LI') Cl') as [HinD HinP].
    { intros i j Hi Hj. apply tests_same. rewrite quot_update by exact Hne.
      apply cmem_In in Hi. apply cmem_In in Hj. fold DL in Hi. fold PL in Hj. rewrite Hi, Hj. field. exact Hne. }
    fold DL PL DL' PL' in HinD, HinP.
    pose proof (@NoDup_incl_length _ DL DL' (li_ndD _ _ _ _ _ _ _ _ LI) HinD) as LeD.
    pose proof (@NoDup_incl_length _ PL PL' (li_ndP _ _ _ _ _ _ _ _ LI) HinP) as LeP.
    destruct (update_on_signpost (b_res s) (b_rho s) (b_gamma s) DL PL a (bi_nonneg _ _ _ _ I) Ha Hpos) as (i & j & x' & Hv & Hcase).
    pose proof (adj_on_signpost q (b_res s) DL' PL' _ a' i j x' Hq1 (bi_nonneg _ _ _ _ I) Ha' Hv) as Hnext.
    destruct Hcase as [(HiD & HjP & Hsg & Es)|(HiD & HjP & Es)].
    - destruct (in_dec Pos.eq_dec j PL') as [HjP'|HjP'].
      + pose proof (strict_count PL PL' j (li_ndP _ _ _ _ _ _ _ _ LI) HinP HjP' (proj1 (cmem_false j PL) HjP)). lia.
      + assert (1 <= a')%Q; [apply Hnext; left|lra].
        split; [apply cmem_In, HinD, cmem_In, HiD|]. split; [apply cmem_false, HjP'|]. split; assumption.
    - destruct (in_dec Pos.eq_dec i DL') as [HiD'|HiD'].
      + pose proof (strict_count DL DL' i (li_ndD _ _ _ _ _ _ _ _ LI) HinD HiD' (proj1 (cmem_false i DL) HiD)). lia.
      + assert (1 <= a')%Q; [apply Hnext; right|lra].
        split; [apply cmem_false, HiD'|]. split; [apply cmem_In, HinP, cmem_In, HjP|exact Es].
  Qed.
  Variable tgt : list (C * Z).
  Variable dorder : list C.
  Hypothesis Hdo : NoDup dorder.
  Notation under_of s := (fst (unsat dorder (b_res s) tgt)).
  Notation over_of s := (snd (unsat dorder (b_res s) tgt)).

  Lemma over_nodup s : NoDup (over_of s).
  Proof. unfold unsat. cbn [snd]. apply NoDup_filter, Hdo. Qed.

  Lemma bstep_fuel s : bstep q votes tgt dorder s <> Stop BP_out_of_fuel.
  Proof.
    destruct (bstep_unfold q votes tgt dorder s) as [[_ ->]|[_ ->]]; [discriminate|apply bstep_body_fuel, over_nodup].
  Qed.

  Definition K : nat := (length ds + length ps)%nat.

  (* [upd_min s m]: if the iteration at [s] is an accepted multiplier update, it labels at least [m] lines beyond the
     over-represented districts it starts from *)
  Definition upd_min (s : bstate) (m : nat) : Prop :=
    forall LD LP a,
      labeled q ps ds (quots s) (b_res s) (under_of s) (over_of s) = Lab LD LP ->
      sort_pos (filter (fun i => dmem LD i) (under_of s)) = [] ->
      adj_coef q (quots s) (b_res s) (map fst LD) (map fst LP) = Adj a ->
      Qeq_bool a 0 || Qle_bool 1 a = false ->
      (length (over_of s) + m <= length LD + length LP)%nat.

  Lemma labeled_count quots res under over LD LP : NoDup over ->
    labeled q ps ds quots res under over = Lab LD LP ->
    (length over <= length LD + length LP <= length over + K)%nat.
  Proof.
    intros Hov H. destruct (labeled_spec _ _ _ _ _ _ Hov H) as [LI _].
    pose proof (NoDup_incl_length Hov (LInv_over _ _ _ _ _ _ _ _ LI)) as H1. rewrite map_length in H1.
    pose proof (LInv_count _ _ _ _ _ _ _ _ LI) as H2. rewrite sort_pos_length in H2. unfold K. lia.
  Qed.

  Lemma upd_min_0 s : upd_min s 0.
  Proof. intros LD LP a El _ _ _. pose proof (labeled_count _ _ _ _ _ _ (over_nodup s) El). lia. Qed.

  Lemma flaw_nonneg res : 0 <= flaw tgt dorder res.
  Proof. unfold flaw. apply zsum_map_nonneg. intros i _. apply Z.abs_nonneg. Qed.

  (* at most (flaw / 2 + 1) * (|districts| + |parties| + 2) iterations: the out-of-fuel answer is unreachable *)
  Theorem bloop_terminates : forall fuel s m, BInv q votes pseats s -> upd_min s m -> (m <= K + 1)%nat ->
    (Z.to_nat (flaw tgt dorder (b_res s) / 2) * (K + 2) + (K + 1 - m) + 1 <= fuel)%nat ->
    bloop q votes tgt dorder fuel s <> BP_out_of_fuel.
  Proof.
    induction fuel as [|f IH]; intros s m I Hm HmK Hf; [lia|]. simpl.
    pose proof (bstep_inv q Hq0 Hq1 votes Hwf pseats tgt dorder s I) as I'.
    destruct (bstep q votes tgt dorder s) as [|s'|r] eqn:Es; [discriminate| |intros ->; apply (bstep_fuel s Es)].
    destruct (bstep_cases q Hq1 votes Hwf pseats tgt dorder Hdo s s' I Es) as [(Hfl & _ & _)|(LD & LP & a & El & Hnu & Ha & Hacc & ->)].
    - (* a seat transfer *)
      pose proof (flaw_nonneg (b_res s')) as H0.
      assert (E : Z.to_nat (flaw tgt dorder (b_res s) / 2) = S (Z.to_nat (flaw tgt dorder (b_res s') / 2))).
      { rewrite <- Z2Nat.inj_succ by (apply Z.div_pos; lia). f_equal.
        replace (flaw tgt dorder (b_res s)) with (flaw tgt dorder (b_res s') + 1 * 2) by lia. apply Z.div_add. lia. }
      apply (IH s' 0%nat I' (upd_min_0 s')); [lia|]. apply (fuel_descent K _ m _ 0%nat f Hf). left. exact E.
    - (* an accepted multiplier update *)
      pose proof (labeled_count _ _ _ _ _ _ (over_nodup s) El) as [Hc1 Hc2].
      pose proof (Hm LD LP a El Hnu Ha Hacc) as Hc3.
      set (m' := S (length LD + length LP - length (over_of s))).
      assert (Hm' : (m < m' <= K + 1)%nat) by (unfold m'; clear - Hc1 Hc2 Hc3; lia).
      apply (IH _ m' I'); unfold upd_min; cbn [b_res b_rho b_gamma].
      + intros LD' LP' a' El' Hnu' Ha' Hacc'.
        pose proof (update_progress s (under_of s) (over_of s) LD LP a LD' LP' a' I (over_nodup s) El Hnu Ha Hacc El' Hnu' Ha' Hacc').
        unfold m'. lia.
      + apply Hm'.
      + apply (fuel_descent K _ m _ m' f Hf). right. split; [reflexivity|exact Hm'].
  Qed.
End Term.

(* an explicit fuel that suffices: (initial flaw / 2 + 1) * (|districts| + |parties| + 2) *)
Definition fuel_bound (d : Z -> Q) (q : Q) (votes : mat) (tgt : list (C * Z)) (dorder : list C) (n : Z) : nat :=
  match binit d q votes n with
  | inr s => ((Z.to_nat (flaw tgt dorder (b_res s) / 2) + 1) * (length (districts votes) + length (parties votes) + 2))%nat
  | inl _ => 0%nat
  end.
Definition fuel_bound_total (d : Z -> Q) (q : Q) (votes : mat) (dorder : list C) (n : Z) : nat :=
  match HighestAverages.evaluate d (district_totals votes) n [] [] with
  | HA_ok tgt None => fuel_bound d q votes tgt dorder n
  | _ => 0%nat
  end.

Section WholeTerm.
  Variable d : Z -> Q.
  Variables q k : Q.
  Hypothesis Hq0 : (0 <= q)%Q.
  Hypothesis Hq1 : (q < 1)%Q.
  Hypothesis Hk : (0 < k)%Q.
  Hypothesis Hd : forall s, (d s == k * (inject_Z s + 1 - q))%Q.
  Variable votes : mat.
  Hypothesis Hwf : wf_votes votes.
  Hypothesis Hvnn : forall i j, 0 <= mget votes i j.
  Variable dorder : list C.
  Hypothesis Hdo : NoDup dorder.

  Theorem evaluate_core_terminates strict tgt n fuel : strict = true \/ (exists i j, 0 < mget votes i j) ->
    (fuel_bound d q votes tgt dorder n <= fuel)%nat ->
    evaluate_core d q votes tgt dorder strict n fuel <> BP_out_of_fuel.
  Proof.
    intros Hs Hf. unfold evaluate_core. destruct (refuses_empty votes strict) eqn:Er; [discriminate|].
    unfold fuel_bound in Hf. destruct (binit d q votes n) as [e|s] eqn:Ei; [destruct (binit_errors _ _ _ _ _ Ei) as [-> | [-> | ->]]; discriminate|].
    destruct (Z_lt_le_dec n 0) as [Hn|Hn].
    { exfalso. unfold binit, initial_solution in Ei. rewrite (evaluate_nonpos d (party_totals votes) n) in Ei by lia. discriminate. }
    pose proof (not_refused_some votes Hwf Hvnn strict Hs Er) as Hsome.
    destruct (binit_inv d q k Hq0 Hq1 Hk Hd votes Hwf Hvnn Hsome n Hn s Ei) as (pseats & _ & I).
    apply (bloop_terminates q Hq0 Hq1 votes Hwf pseats tgt dorder Hdo fuel s 0%nat I (upd_min_0 q votes tgt dorder Hdo s)); [lia|].
    unfold K. nia.
  Qed.

  Theorem evaluate_total_terminates strict n fuel : strict = true \/ (exists i j, 0 < mget votes i j) ->
    (fuel_bound_total d q votes dorder n <= fuel)%nat ->
    evaluate_total d q votes strict n dorder fuel <> BP_out_of_fuel.
  Proof.
    intros Hs Hf. unfold evaluate_total. destruct (refuses_empty votes strict) eqn:Er; [discriminate|].
    destruct (binit d q votes n) as [e|s] eqn:Ei; [destruct (binit_errors _ _ _ _ _ Ei) as [-> | [-> | ->]]; discriminate|].
    unfold fuel_bound_total in Hf.
    destruct (evaluate d (district_totals votes) n [] []) as [tgt [t|]|]; try discriminate.
    apply (evaluate_core_terminates strict tgt n fuel Hs Hf).
  Qed.
End WholeTerm.
