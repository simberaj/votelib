(* The repaired score family (Model/Cardinal.v [repairs], fixes/C12-truncation-middle, C12-mj-default-exhausted,
   C12-score-counted).
   1. With no repair applied the flagged definitions ARE the pinned ones ([pinned]).
   2. C12-score-counted: the aggregates computed from the (score -> count) dictionary are the aggregates of the list
      with one element per voter, for every dictionary with counts >= 0 and numerically distinct keys
      ([aggregate_one_w_eq]); likewise the minimum used for unscored_value = 'min'. *)
From Coq Require Import ZArith QArith Qround Qabs List Bool Arith Lia Lqa Sorted Permutation.
From VL Require Import Prelude.PyDict Model.GetNBest Model.Convert Model.Cardinal Proofs.QOrd
     Proofs.MJ_proofs Proofs.MJ_removal_proofs Proofs.ScoreDict_proofs Proofs.Scale2Dup_proofs Proofs.Scale2Med_proofs.
Import ListNotations.

Lemma aggregate_one_x_pinned fn d : aggregate_one_x pinned fn d = aggregate_one fn d.
Proof. reflexivity. Qed.
Lemma correct_scores_x_pinned cf d nv : correct_scores_x pinned cf d nv = correct_scores cf d nv.
Proof. reflexivity. Qed.
Lemma corrected_scores_x_pinned cf votes : corrected_scores_x pinned cf votes = corrected_scores cf votes.
Proof. reflexivity. Qed.
Lemma aggregate_x_pinned fn sc : aggregate_x pinned fn sc = aggregate fn sc.
Proof. reflexivity. Qed.
Lemma score_to_simple_x_pinned cf votes : score_to_simple_x pinned cf votes = score_to_simple cf votes.
Proof. reflexivity. Qed.
Lemma score_voting_x_pinned cf votes n : score_voting_x pinned cf votes n = score_voting cf votes n.
Proof. reflexivity. Qed.
Lemma mj_plus_x_pinned sub n : mj_plus_x pinned sub n = mj_plus sub n.
Proof. reflexivity. Qed.
Lemma mj_default_x_pinned : forall fuel sub n, mj_default_x pinned fuel sub n = mj_default fuel sub n.
Proof.
  induction fuel as [|f IH]; intros sub n; [reflexivity|]. rewrite mj_default_x_unfold, mj_default_unfold.
  cbv zeta. cbn [pinned rp_mj andb]. destruct (_ <=? 0)%Z; [reflexivity|].
  change (aggregate_x pinned FMedianLow sub) with (aggregate FMedianLow sub).
  destruct (aggregate FMedianLow sub) as [medians|e]; [|reflexivity]. apply mj_body_ext, IH.
Qed.
Lemma majority_judgment_x_pinned plus cf votes n : majority_judgment_x pinned plus cf votes n = majority_judgment plus cf votes n.
Proof.
  unfold majority_judgment_x, majority_judgment. rewrite corrected_scores_x_pinned.
  destruct (corrected_scores cf votes) as [sc|e]; [|reflexivity]. rewrite aggregate_x_pinned.
  destruct (aggregate FMedianLow sc) as [med|e]; [|reflexivity]. cbv zeta.
  destruct (last_tie _); [|reflexivity]. destruct plus; [reflexivity|]. rewrite mj_default_x_pinned. reflexivity.
Qed.

Local Open Scope Q_scope.

Lemma wsum_acc d : forall a, fold_left (fun acc (sn : Q * Z) => acc + fst sn * inject_Z (snd sn)) d a == a + cs_wsum d.
Proof.
  unfold cs_wsum. induction d as [|sn d IH]; intros a; cbn [fold_left]; [ring|].
  rewrite (IH (a + fst sn * inject_Z (snd sn))), (IH (0 + fst sn * inject_Z (snd sn))). ring.
Qed.

Lemma cs_wsum_cons sn d : cs_wsum (sn :: d) == fst sn * inject_Z (snd sn) + cs_wsum d.
Proof. unfold cs_wsum at 1. cbn [fold_left]. rewrite wsum_acc. ring. Qed.

Lemma expand_cons s n d : expand ((s, n) :: d) = repeat s (Z.to_nat n) ++ expand d.
Proof. reflexivity. Qed.

Lemma sum_expand d : nonneg d -> fold_left Qplus (expand d) 0 == cs_wsum d.
Proof.
  induction 1 as [|[s n] d Hn _ IH]; [reflexivity|]. cbn [snd] in Hn.
  rewrite expand_cons, fold_left_app, qsum_shift, qsum_repeat, IH, cs_wsum_cons, Z2Nat.id by exact Hn. reflexivity.
Qed.

(* the sum of a function over a list of keys, stable under sort_q *)
Section KeySum.
  Variable d : cscores.
  Definition ksum (f : Q -> bool) (l : list Q) : Z :=
    fold_right (fun x acc => if f x then (get0 d x + acc)%Z else acc) 0%Z l.

  Lemma ksum_cons f x l : ksum f (x :: l) = if f x then (get0 d x + ksum f l)%Z else ksum f l.
  Proof. reflexivity. Qed.

  Lemma ksum_app f a b : ksum f (a ++ b) = (ksum f a + ksum f b)%Z.
  Proof. induction a as [|x a IH]; [reflexivity|]. cbn [app]. rewrite !ksum_cons, IH. destruct (f x); lia. Qed.

  Lemma ksum_insert f x l : ksum f (insert_q x l) = ksum f (x :: l).
  Proof.
    induction l as [|y l IH]; [reflexivity|]. cbn [insert_q]. destruct (Qle_bool x y); [reflexivity|].
    rewrite (ksum_cons f y), IH, !ksum_cons. destruct (f x), (f y); lia.
  Qed.

  Lemma ksum_sort f l : ksum f (sort_q l) = ksum f l.
  Proof.
    unfold sort_q. induction l as [|x l IH]; [reflexivity|]. cbn [fold_right]. rewrite ksum_insert, !ksum_cons, IH. reflexivity.
  Qed.

  Lemma ksum_ext f g l : (forall x, In x l -> f x = g x) -> ksum f l = ksum g l.
  Proof.
    induction l as [|x l IH]; intros H; [reflexivity|]. rewrite !ksum_cons, (H x (or_introl eq_refl)), IH; [reflexivity|].
    intros y Hy. apply H. right. exact Hy.
  Qed.

  Lemma ksum_none f l : (forall x, In x l -> f x = false) -> ksum f l = 0%Z.
  Proof. intros H. rewrite (ksum_ext f (fun _ => false) l H). clear H. induction l as [|x l IH]; [reflexivity|exact IH]. Qed.
End KeySum.

Lemma get0_own d s n : keys_nd (map fst d) -> In (s, n) d -> get0 d s = n.
Proof.
  unfold get0. induction d as [|[s0 n0] d IH]; intros Hk Hin; [destruct Hin|].
  cbn [map fst keys_nd] in Hk. destruct Hk as [Hk0 Hk]. cbn [cs_get]. destruct Hin as [[= -> ->]|Hin].
  - assert (E : Qeq_bool s s = true) by (apply Qeq_bool_iff; reflexivity). rewrite E. reflexivity.
  - destruct (Qeq_bool s s0) eqn:E; [|apply IH; assumption]. apply Qeq_bool_iff in E. exfalso.
    apply (Hk0 s); [apply in_map_iff; exists (s, n); auto|symmetry; exact E].
Qed.

(* the weighted count of the scores satisfying f = the sum over the keys with a positive count *)
Lemma sumf_ksum d f : nonneg d -> keys_nd (map fst d) -> sumf f d = ksum d f (pos_keys d).
Proof.
  intros Hn Hk.
  assert (H : forall d', incl d' d -> sumf f d' = ksum d f (pos_keys d')).
  { induction d' as [|[s n] d' IH]; intros Hi; [reflexivity|].
    cbn [sumf fold_right fst snd]. fold (sumf f d'). rewrite IH by (intros x Hx; apply Hi; right; exact Hx).
    assert (Hin : In (s, n) d) by (apply Hi; left; reflexivity).
    unfold pos_keys. cbn [filter snd]. destruct (0 <? n)%Z eqn:E.
    - cbn [map fst ksum fold_right]. rewrite (get0_own d s n Hk Hin). reflexivity.
    - unfold nonneg in Hn. rewrite Forall_forall in Hn. pose proof (Hn _ Hin) as H0. cbn [snd] in H0.
      assert (n = 0%Z) by lia. subst n. destruct (f s); reflexivity. }
  apply H. apply incl_refl.
Qed.

Lemma insert_q_strict x l : StronglySorted Qlt l -> (forall y, In y l -> ~ x == y) -> StronglySorted Qlt (insert_q x l).
Proof.
  induction l as [|y t IH]; intros Hs Hx; [repeat constructor|]. cbn [insert_q].
  inversion Hs as [|? ? Hst Hall]; subst. rewrite Forall_forall in Hall.
  destruct (Qle_bool x y) eqn:E.
  - apply Qle_bool_iff in E. assert (Hlt : x < y).
    { apply Qle_lt_or_eq in E. destruct E as [E|E]; [exact E|]. exfalso. apply (Hx y (or_introl eq_refl) E). }
    constructor; [exact Hs|]. constructor; [exact Hlt|]. apply Forall_forall. intros z Hz. specialize (Hall z Hz). lra.
  - apply Qle_bool_false in E. constructor.
    + apply IH; [exact Hst|]. intros z Hz. apply Hx. right. exact Hz.
    + apply Forall_forall. intros z Hz. apply insert_q_In in Hz. destruct Hz as [->|Hz]; [exact E|apply Hall, Hz].
Qed.

Lemma sort_q_strict l : keys_nd l -> StronglySorted Qlt (sort_q l).
Proof.
  unfold sort_q. induction l as [|x l IH]; intros Hk; [constructor|]. cbn [keys_nd] in Hk. destruct Hk as [Hk0 Hk].
  cbn [fold_right]. apply insert_q_strict; [apply IH, Hk|]. intros y Hy. apply Hk0. apply (sort_q_In l y). exact Hy.
Qed.

Lemma pos_keys_nd d : keys_nd (map fst d) -> keys_nd (pos_keys d).
Proof.
  unfold pos_keys. induction d as [|[s n] d IH]; intros Hk; [exact I|]. cbn [map fst keys_nd] in Hk. destruct Hk as [Hk0 Hk].
  cbn [filter snd]. destruct (0 <? n)%Z; [|apply IH, Hk]. cbn [map fst keys_nd]. split; [|apply IH, Hk].
  intros s' Hs'. apply Hk0. apply in_map_iff in Hs'. destruct Hs' as (sn & <- & Hin). apply filter_In in Hin. apply in_map, Hin.
Qed.

Lemma pos_keys_in d x : In x (pos_keys d) -> In x (map fst d).
Proof. unfold pos_keys. intros H. apply in_map_iff in H. destruct H as (sn & <- & Hin). apply filter_In in Hin. apply in_map, Hin. Qed.

Lemma sorted_app_lt (P t : list Q) : StronglySorted Qlt (P ++ t) -> forall x y, In x P -> In y t -> x < y.
Proof.
  induction P as [|p P IH]; intros Hs x y Hx Hy; [destruct Hx|]. cbn [app] in Hs. inversion Hs as [|? ? Hst Hall]; subst.
  destruct Hx as [->|Hx]; [|apply IH; assumption]. rewrite Forall_forall in Hall. apply Hall. apply in_or_app. right. exact Hy.
Qed.

Lemma sorted_app_r (P t : list Q) : StronglySorted Qlt (P ++ t) -> StronglySorted Qlt t.
Proof. induction P as [|p P IH]; intros Hs; [exact Hs|]. cbn [app] in Hs. inversion Hs; subst. apply IH. assumption. Qed.

Lemma split_counts d P v t : StronglySorted Qlt (P ++ v :: t) ->
  ksum d (fun s => qlt s v) (P ++ v :: t) = ksum d (fun _ => true) P /\
  ksum d (fun s => Qle_bool s v) (P ++ v :: t) = (ksum d (fun _ => true) P + get0 d v)%Z.
Proof.
  intros Hs. pose proof (sorted_app_lt _ _ Hs) as Hlt. pose proof (sorted_app_r _ _ Hs) as Hr.
  inversion Hr as [|? ? _ Hall]; subst. rewrite Forall_forall in Hall.
  rewrite !ksum_app. split.
  - rewrite (ksum_ext d (fun s => qlt s v) (fun _ => true) P) by (intros x Hx; apply qlt_iff, Hlt; [exact Hx|left; reflexivity]).
    rewrite (ksum_none d (fun s => qlt s v) (v :: t)); [lia|].
    intros x [<-|Hx]; apply not_true_iff_false; rewrite qlt_iff; [apply Qlt_irrefl|]. specialize (Hall x Hx). lra.
  - rewrite (ksum_ext d (fun s => Qle_bool s v) (fun _ => true) P) by (intros x Hx; apply Qle_bool_iff, Qlt_le_weak, Hlt; [exact Hx|left; reflexivity]).
    rewrite ksum_cons, Qle_bool_refl.
    rewrite (ksum_none d (fun s => Qle_bool s v) t); [lia|].
    intros x Hx. apply Qle_bool_false. apply Hall, Hx.
Qed.

(* _counted_middle finds the low median *)
Lemma counted_middle_spec d : nonneg d -> keys_nd (map fst d) -> (0 < cs_total d)%Z ->
  let L := sort_q (pos_keys d) in let T := cs_total d in
  forall t P running low, P ++ t = L -> running = ksum d (fun _ => true) P ->
    (P <> [] -> (2 * running <= T)%Z) ->
    match low with None => (2 * running < T)%Z | Some l => is_med d l /\ In l L end ->
    exists l h, counted_middle d t T running low = Some (l, h) /\ is_med d l /\ In l L.
Proof.
  intros Hn Hk HT L T.
  assert (HS : StronglySorted Qlt L) by (apply sort_q_strict, pos_keys_nd, Hk).
  assert (Hsum : forall f, sumf f d = ksum d f L) by (intros f; unfold L; rewrite ksum_sort; apply sumf_ksum; assumption).
  assert (HTL : T = ksum d (fun _ => true) L) by (unfold T; rewrite cs_total_sumf; apply Hsum).
  induction t as [|v t IH]; intros P running low HL Hrun Hnr Hlow.
  - rewrite app_nil_r in HL. subst P. rewrite <- HTL in Hrun. exfalso. destruct low as [l|]; [|lia].
    destruct L as [|x L']; [cbn in HTL; lia|]. specialize (Hnr ltac:(discriminate)). lia.
  - cbn [counted_middle]. fold (get0 d v). cbv zeta.
    rewrite <- HL in HS. destruct (split_counts d P v t HS) as (Hb & Ha). rewrite HL in Hb, Ha.
    rewrite <- (Hsum (fun s => qlt s v)) in Hb. rewrite <- (Hsum (fun s => Qle_bool s v)) in Ha.
    fold (below d v) in Hb. fold (atmost d v) in Ha. rewrite <- Hrun in Hb, Ha.
    set (r' := (running + get0 d v)%Z) in *.
    assert (HvL : In v L) by (rewrite <- HL; apply in_or_app; right; left; reflexivity).
    set (low' := match low with Some l => Some l | None => if (T <=? 2 * r')%Z then Some v else None end).
    assert (Hlow' : match low' with None => (2 * r' < T)%Z | Some l => is_med d l /\ In l L end).
    { unfold low'. destruct low as [l|]; [exact Hlow|]. destruct (T <=? 2 * r')%Z eqn:E; [|lia].
      split; [|exact HvL]. unfold is_med. fold T. lia. }
    destruct (T <? 2 * r')%Z eqn:E.
    + destruct low' as [l|]; [|lia]. exists l, v. split; [reflexivity|exact Hlow'].
    + apply (IH (P ++ [v]) r' low').
      * rewrite <- app_assoc. exact HL.
      * rewrite ksum_app, <- Hrun. cbn [ksum fold_right]. unfold r'. lia.
      * intros _. lia.
      * exact Hlow'.
Qed.

Lemma keys_nd_eq l a b : keys_nd l -> In a l -> In b l -> a == b -> a = b.
Proof.
  induction l as [|x l IH]; intros Hk Ha Hb He; [destruct Ha|]. cbn [keys_nd] in Hk. destruct Hk as [Hk0 Hk].
  destruct Ha as [->|Ha], Hb as [->|Hb]; [reflexivity| | |apply IH; assumption]; exfalso.
  - apply (Hk0 b Hb He).
  - apply (Hk0 a Ha). symmetry. exact He.
Qed.

Lemma nonneg_total_zero d : nonneg d -> cs_total d = 0%Z -> pos_keys d = [] /\ expand d = [].
Proof.
  induction 1 as [|[s n] d Hn Hd IH]; intros HT; [split; reflexivity|]. cbn [snd] in Hn.
  rewrite cs_total_cons in HT. cbn [snd] in HT.
  assert (H0 : (0 <= cs_total d)%Z) by (rewrite cs_total_sumf; apply sumf_nonneg, Hd).
  assert (n = 0%Z) by lia. subst n. destruct (IH ltac:(lia)) as (H1 & H2). split.
  - unfold pos_keys in *. cbn [filter snd]. exact H1.
  - rewrite expand_cons, H2. reflexivity.
Qed.

(* fixes/C12-score-counted: the aggregate computed from the counts is the aggregate of the list with one element per
   voter - the same rational, in the same representation *)
Theorem aggregate_one_w_eq fn d : nonneg d -> keys_nd (map fst d) -> aggregate_one_w fn d = aggregate_one fn d.
Proof.
  intros Hn Hk. pose proof (expand_length d Hn) as Hlen. pose proof (sum_expand d Hn) as Hsum.
  destruct fn.
  - (* mean *)
    unfold aggregate_one_w, aggregate_one. cbv zeta. destruct (expand d) as [|x l] eqn:E.
    + cbn [length] in Hlen. rewrite <- Hlen. reflexivity.
    + rewrite <- E in *. assert (Hpos : (0 < cs_total d)%Z) by (rewrite <- Hlen, E; cbn [length]; lia).
      destruct (cs_total d =? 0)%Z eqn:E0; [lia|]. f_equal. apply Qred_complete. rewrite Hsum, Hlen. reflexivity.
  - (* sum *)
    unfold aggregate_one_w, aggregate_one. cbv zeta. f_equal. apply Qred_complete. symmetry. exact Hsum.
  - (* low median *)
    assert (H0 : (0 <= cs_total d)%Z) by (rewrite cs_total_sumf; apply sumf_nonneg, Hn).
    destruct (Z.eq_dec (cs_total d) 0) as [HT|HT].
    + destruct (nonneg_total_zero d Hn HT) as (H1 & H2). unfold aggregate_one_w, aggregate_one. rewrite H1, H2. reflexivity.
    + assert (Hpos : (0 < cs_total d)%Z) by lia.
      destruct (counted_middle_spec d Hn Hk Hpos (sort_q (pos_keys d)) [] 0%Z None eq_refl eq_refl) as (l & h & Hcm & Hmed & Hin);
        [intros H; contradiction|cbn; lia|].
      unfold aggregate_one_w. rewrite Hcm.
      destruct (median_char d l Hn Hpos Hmed) as (g0 & Hg & He & Hg0). rewrite Hg. f_equal.
      apply (keys_nd_eq (map fst d)); [exact Hk| |exact Hg0|symmetry; exact He].
      apply pos_keys_in. apply (sort_q_In (pos_keys d) l). exact Hin.
Qed.

(* unscored_value = 'min': the minimum over the values with a positive count *)
Lemma lm_fold_repeat s k m : fold_left min_step (repeat s (S k)) m = min_step m s.
Proof.
  cbn [repeat fold_left]. induction k as [|k IH]; [reflexivity|]. cbn [repeat fold_left]. rewrite min_step_idem. exact IH.
Qed.

Lemma lm_fold_expand d : forall m, fold_left min_step (expand d) m = fold_left min_step (pos_keys d) m.
Proof.
  induction d as [|[s n] d IH]; intros m; [reflexivity|]. rewrite expand_cons, fold_left_app. unfold pos_keys. cbn [filter snd].
  destruct (0 <? n)%Z eqn:E.
  - destruct (Z.to_nat n) as [|k] eqn:Ek; [lia|]. rewrite lm_fold_repeat. cbn [map fst fold_left]. apply IH.
  - assert (Ek : Z.to_nat n = 0%nat) by lia. rewrite Ek. cbn [repeat fold_left]. apply IH.
Qed.

Lemma list_min_counted d : list_min (pos_keys d) = list_min (expand d).
Proof.
  induction d as [|[s n] d IH]; [reflexivity|]. rewrite expand_cons. unfold pos_keys in *. cbn [filter snd].
  destruct (0 <? n)%Z eqn:E.
  - destruct (Z.to_nat n) as [|k] eqn:Ek; [lia|]. cbn [map fst repeat app list_min]. f_equal.
    change (fun m y : Q => if Qle_bool y m then y else m) with min_step.
    rewrite fold_left_app. assert (Hs : fold_left min_step (repeat s k) s = s).
    { destruct k as [|k]; [reflexivity|]. rewrite lm_fold_repeat. unfold min_step. rewrite Qle_bool_refl. reflexivity. }
    rewrite Hs. symmetry. apply lm_fold_expand.
  - assert (Ek : Z.to_nat n = 0%nat) by lia. rewrite Ek. cbn [repeat app]. exact IH.
Qed.

(* the corrections: only the truncation repair changes them *)
Lemma correct_scores_x_counted rp cf d nv : rp_trunc rp = false -> correct_scores_x rp cf d nv = correct_scores cf d nv.
Proof.
  intros Ht. unfold correct_scores_x, correct_scores. rewrite Ht.
  destruct (rp_counted rp); [rewrite list_min_counted|]; reflexivity.
Qed.
