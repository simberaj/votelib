(* Qle_bool is a total preorder: the instance at which the generic
   get_n_best theorems are used (Python int / Fraction / Decimal values).
   Also sums of rationals as Python's sum() computes them, by fold_left. *)
From Coq Require Import QArith Bool List Permutation.
From VL Require Import Model.GetNBest.
Lemma Qle_bool_total a b : Qle_bool a b = true \/ Qle_bool b a = true.
Proof.
  destruct (Qlt_le_dec a b) as [H|H].
  - left. apply Qle_bool_iff. apply Qlt_le_weak. exact H.
  - right. apply Qle_bool_iff. exact H.
Qed.
Lemma Qle_bool_refl x : Qle_bool x x = true.
Proof. apply Qle_bool_iff, Qle_refl. Qed.
Lemma Qle_bool_trans a b c : Qle_bool a b = true -> Qle_bool b c = true -> Qle_bool a c = true.
Proof.
  rewrite !Qle_bool_iff. apply Qle_trans.
Qed.

Lemma Qle_bool_false x y : Qle_bool x y = false <-> (y < x)%Q.
Proof.
  rewrite <- not_true_iff_false, Qle_bool_iff. split; [apply Qnot_le_lt|apply Qlt_not_le].
Qed.

Lemma ltb_Qlt a b : ltb Qle_bool a b = true <-> (a < b)%Q.
Proof. unfold ltb. rewrite negb_true_iff. apply Qle_bool_false. Qed.

Lemma eqv_Qeq a b : eqv Qle_bool a b = true <-> (a == b)%Q.
Proof.
  unfold eqv. rewrite andb_true_iff, !Qle_bool_iff. split.
  - intros [H1 H2]. apply Qle_antisym; assumption.
  - intros H. rewrite H. split; apply Qle_refl.
Qed.

Lemma qsum_shift l : forall a, fold_left Qplus l a == a + fold_left Qplus l 0.
Proof. induction l as [|x l IH]; intros a; cbn [fold_left]; [ring|]. rewrite IH, (IH (0 + x)). ring. Qed.

Lemma qsum_repeat s k : fold_left Qplus (repeat s k) 0 == s * inject_Z (Z.of_nat k).
Proof.
  induction k as [|k IH]; [cbn; ring|]. cbn [repeat fold_left]. rewrite qsum_shift, IH, Nat2Z.inj_succ.
  unfold Z.succ. rewrite inject_Z_plus. ring.
Qed.

Lemma fold_Qplus_perm l l' : Permutation l l' -> forall a, fold_left Qplus l a == fold_left Qplus l' a.
Proof.
  induction 1 as [|x l l' _ IH|x y l|l l' l'' _ IH1 _ IH2]; intros a; cbn [fold_left].
  - reflexivity.
  - apply IH.
  - rewrite (qsum_shift l (a + y + x)), (qsum_shift l (a + x + y)). ring.
  - rewrite IH1. apply IH2.
Qed.
