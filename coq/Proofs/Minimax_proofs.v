(* Minimax (winning votes / margins) elects the Condorcet winner, and with as many seats as candidates nobody is
   dropped (C05).  The max-counterscore dictionary of Model/Condorcet.v [minimax] is characterised first.
   Then monotonicity (C17): a sole winner stays one under a uniform shift of the scores in its favour
   (minimax_sole_shift), in particular under [raises]; and scale invariance (C11, Section MMSCALE). *)
From Coq Require Import ZArith List Bool Lia Arith Permutation.
From VL Require Import Prelude.PyDict Model.GetNBest Model.Condorcet Proofs.Dict_proofs Proofs.GetNBest_proofs
     Proofs.Condorcet_proofs Proofs.Smith_proofs Proofs.CopelandMono_proofs.
Import ListNotations.
Open Scope Z_scope.

Definition mc_step (d : list (C * Z)) (pn : pair * Z) : list (C * Z) :=
  let c := snd (fst pn) in
  match dget d c with
  | Some old => dset d c (Z.max old (snd pn))
  | None => dset d c (snd pn)
  end.
Definition mc_of (scored : pvotes) : list (C * Z) := fold_left mc_step scored [].

Lemma minimax_unfold s v0 n :
  minimax s v0 n = get_n_best zle_bool (map (fun cs => (fst cs, - snd cs)) (mc_of (score_pairs s (complete v0)))) n.
Proof. reflexivity. Qed.

(* every stored value is the maximum of the scores of the pairs with that loser seen so far *)
Lemma mc_fold (l : pvotes) : forall d,
  let d' := fold_left mc_step l d in
  (NoDup (map fst d) -> NoDup (map fst d')) /\
  (forall c, In c (map fst d') <-> In c (map fst d) \/ exists pn, In pn l /\ snd (fst pn) = c) /\
  (forall c m, dget d' c = Some m ->
     (forall pn, In pn l -> snd (fst pn) = c -> snd pn <= m) /\
     (forall old, dget d c = Some old -> old <= m) /\
     (dget d c = Some m \/ exists pn, In pn l /\ snd (fst pn) = c /\ snd pn = m)).
Proof.
  induction l as [|pn l IH]; intros d; simpl.
  - split; [auto|]. split; [intros c; split; [auto|intros [H|(x & [] & _)]; exact H]|].
    intros c m H. split; [intros x []|]. split; [intros old Ho; rewrite Ho in H; injection H as ->; lia|left; exact H].
  - destruct (IH (mc_step d pn)) as (I1 & I2 & I3). set (c0 := snd (fst pn)) in *.
    (* one step stores at c0 a value [new] that bounds the old one and the score of pn, and is one of the two *)
    set (new := match dget d c0 with Some old => Z.max old (snd pn) | None => snd pn end).
    assert (Hs : mc_step d pn = dset d c0 new) by (unfold mc_step, new; fold c0; destruct (dget d c0); reflexivity).
    assert (Hnew : snd pn <= new /\ (forall old, dget d c0 = Some old -> old <= new) /\ (new = snd pn \/ dget d c0 = Some new)).
    { unfold new. destruct (dget d c0) as [old|]; [|split; [lia|split; [discriminate|left; reflexivity]]].
      split; [lia|]. split; [intros o Ho; injection Ho as <-; lia|].
      destruct (Z.max_spec old (snd pn)) as [[_ ->]|[_ ->]]; [left|right]; reflexivity. }
    destruct Hnew as (N1 & N2 & N3). rewrite Hs in I1, I2, I3 |- *. clearbody new.
    split; [intros H; apply I1, (dset_keys d c0 _ H)|]. split.
    + intros c. rewrite I2, dset_keys_in. split.
      * intros [[->|H]|(x & Hx & Hc)]; [right; exists pn; split; [left; reflexivity|reflexivity]|left; exact H|right; exists x; split; [right; exact Hx|exact Hc]].
      * intros [H|(x & [<-|Hx] & Hc)]; [left; right; exact H|left; left; symmetry; exact Hc|right; exists x; split; assumption].
    + intros c m Hm. destruct (I3 c m Hm) as (J1 & J2 & J3). rewrite dget_dset in J2, J3.
      assert (J3' : dget d c = Some m \/ (c = c0 /\ new = m) \/ exists x, In x l /\ snd (fst x) = c /\ snd x = m).
      { destruct J3 as [J3|J3]; [|right; right; exact J3]. destruct (ceqb c c0) eqn:E; [|left; exact J3].
        right. left. apply ceqb_eq in E. injection J3 as J3. split; assumption. }
      split; [|split].
      * intros x [<-|Hx] Hc; [|apply J1; assumption]. fold c0 in Hc. subst c. rewrite ceqb_refl in J2.
        specialize (J2 new eq_refl). lia.
      * intros old Ho. destruct (ceqb c c0) eqn:E; [|apply J2, Ho]. apply ceqb_eq in E. subst c.
        specialize (J2 new eq_refl). specialize (N2 old Ho). lia.
      * destruct J3' as [H|[[-> <-]|(x & Hx & Hc & Hv)]]; [left; exact H| |right; exists x; split; [right; exact Hx|split; assumption]].
        destruct N3 as [N3|N3]; [right; exists pn; split; [left; reflexivity|split; [reflexivity|symmetry; exact N3]]|left; exact N3].
Qed.

Definition sc (v : pvotes) (s : scorer) (a b : C) : Z :=
  match s with
  | WinningVotes => if pget0 v (b, a) <? pget0 v (a, b) then pget0 v (a, b) else 0
  | Margins => pget0 v (a, b) - pget0 v (b, a)
  | PairwiseOpposition => pget0 v (a, b)
  end.

Lemma pget0_nn (v : pvotes) : (forall p n, In (p, n) v -> 0 <= n) -> forall p, 0 <= pget0 v p.
Proof. exact (pget0_nonneg v). Qed.

(* every scorer grows with the count for the pair and falls with the count against it *)
Lemma sc_mono (u u' : pvotes) s a b :
  0 <= pget0 u' (a, b) -> pget0 u (a, b) <= pget0 u' (a, b) -> pget0 u' (b, a) <= pget0 u (b, a) -> sc u s a b <= sc u' s a b.
Proof.
  intros H0 Hf Ha. unfold sc. destruct s; [|lia|lia].
  destruct (Z.ltb_spec (pget0 u (b, a)) (pget0 u (a, b))), (Z.ltb_spec (pget0 u' (b, a)) (pget0 u' (a, b))); lia.
Qed.

Section MM.
  Variable v : pvotes.
  Hypothesis Hnn : forall p n, In (p, n) v -> 0 <= n.
  Hypothesis H2 : (2 <= length (candidates v))%nat.
  Notation cs := (candidates v).
  Notation cv := (complete v).

  Lemma score_pairs_in s a b m : In ((a, b), m) (score_pairs s cv) ->
    In a cs /\ In b cs /\ a <> b /\
    m = match s with
        | WinningVotes => if pget0 v (b, a) <? pget0 v (a, b) then pget0 v (a, b) else 0
        | Margins => pget0 v (a, b) - pget0 v (b, a)
        | PairwiseOpposition => pget0 v (a, b)
        end.
  Proof.
    destruct s; simpl; intros H; [| |apply complete_in in H; tauto].
    all: apply in_map_iff in H; destruct H as ([[a' b'] n] & Hf & Hin); simpl in Hf; injection Hf as -> -> <-.
    all: apply complete_in in Hin; destruct Hin as (Ha & Hb & Hab & ->); unfold swap; simpl.
    all: rewrite (complete_pget0 v b a Hb Ha) by congruence; tauto.
  Qed.

  Lemma score_pairs_has s a b : In a cs -> In b cs -> a <> b -> exists m, In ((a, b), m) (score_pairs s cv).
  Proof.
    intros Ha Hb Hab. assert (Hin : In ((a, b), pget0 v (a, b)) cv) by (apply complete_in; tauto).
    destruct s; simpl; eexists; [| |exact Hin].
    all: apply in_map_iff; exists ((a, b), pget0 v (a, b)); split; [reflexivity|exact Hin].
  Qed.

  Lemma other_candidate x : In x cs -> exists y, In y cs /\ y <> x.
  Proof.
    intros Hx. pose proof (candidates_NoDup v) as Hn. pose proof H2 as Hl. destruct cs as [|c1 [|c2 t]]; simpl in Hl; try lia.
    destruct (Pos.eq_dec c1 x) as [->|N1]; [exists c2; split; [right; left; reflexivity|]|exists c1; split; [left; reflexivity|exact N1]].
    inversion Hn as [|? ? Hc _]; subst. intros ->. apply Hc. left. reflexivity.
  Qed.

  Notation mcs s := (mc_of (score_pairs s cv)).

  Lemma mc_keys s : NoDup (map fst (mcs s)) /\ forall c, In c (map fst (mcs s)) <-> In c cs.
  Proof.
    destruct (mc_fold (score_pairs s cv) []) as (I1 & I2 & _). split; [apply I1; constructor|].
    intros c. unfold mc_of. rewrite I2. simpl. split.
    - intros [[]|([[a b] m] & Hin & Hc)]. simpl in Hc. subst b. apply score_pairs_in in Hin. tauto.
    - intros Hc. right. destruct (other_candidate c Hc) as (y & Hy & Hyc).
      destruct (score_pairs_has s y c Hy Hc Hyc) as (m & Hm). exists ((y, c), m). split; [exact Hm|reflexivity].
  Qed.

  Lemma mc_entry s c m : In (c, m) (mcs s) ->
    In c cs /\ (forall a, In a cs -> a <> c -> sc v s a c <= m) /\ (exists a, In a cs /\ a <> c /\ sc v s a c = m).
  Proof.
    intros Hin. destruct (mc_keys s) as [Kn Kk]. destruct (mc_fold (score_pairs s cv) []) as (_ & _ & I3).
    assert (Hc : In c cs) by (apply Kk, in_map_iff; exists (c, m); split; [reflexivity|exact Hin]).
    destruct (I3 c m (In_dget _ c m Kn Hin)) as (Hub & _ & Hex). split; [exact Hc|]. split.
    - intros a Ha Hac. destruct (score_pairs_has s a c Ha Hc Hac) as (m' & Hm').
      pose proof (Hub _ Hm' eq_refl) as Hle. destruct (score_pairs_in s a c m' Hm') as (_ & _ & _ & ->). exact Hle.
    - destruct Hex as [Hex|([[a b] m'] & Hin' & Hl & Hv)]; [discriminate Hex|]. simpl in Hl, Hv. subst b m'.
      destruct (score_pairs_in s a c m Hin') as (Ha & _ & Hac & Hm). exists a. split; [exact Ha|]. split; [exact Hac|].
      symmetry. exact Hm.
  Qed.

  (* the stored worst defeat of c is the maximum of the scores of the other candidates against c *)
  Lemma mc_value s c : In c cs -> exists m, In (c, m) (mc_of (score_pairs s (complete v))) /\
    (forall a, In a cs -> a <> c -> sc v s a c <= m) /\ (exists a, In a cs /\ a <> c /\ sc v s a c = m).
  Proof.
    intros Hc. apply (mc_keys s), in_map_iff in Hc. destruct Hc as ([c' m] & Hf & Hin). simpl in Hf. subst c'.
    exists m. split; [exact Hin|]. apply (mc_entry s c m Hin).
  Qed.

  (* w alone is elected iff its worst defeat is strictly the smallest *)
  Lemma minimax_sole s w : minimax s v 1 = [Cand w] <->
    exists mw, In (w, mw) (mcs s) /\ forall x mx, In (x, mx) (mcs s) -> x <> w -> mw < mx.
  Proof.
    rewrite minimax_unfold. destruct (mc_keys s) as [Kn _].
    set (neg := fun cm : C * Z => (fst cm, - snd cm)).
    assert (Nn : NoDup (map fst (map neg (mcs s)))) by (rewrite map_map; exact Kn).
    split.
    - intros Hwin. destruct (get_n_best_1_cand zle_bool zle_total zle_trans _ w [] Nn Hwin) as (_ & uw & Hinw & Hmax).
      apply in_map_iff in Hinw. destruct Hinw as ([w' mw] & Hf & Hin). injection Hf as -> <-. exists mw. split; [exact Hin|].
      intros x mx Hx Hne. pose proof (Hmax x (- mx) (in_map neg _ _ Hx) Hne) as Hlt. apply zlt_ltb in Hlt. simpl in Hlt. lia.
    - intros (mw & Hin & Hlt).
      apply (get_n_best_unique_max zle_bool zle_total zle_trans Pos.eq_dec _ w (- mw) Nn (in_map neg _ _ Hin)).
      intros x u Hx Hne. apply in_map_iff in Hx. destruct Hx as ([x' mx] & Hf & Hx). injection Hf as -> <-.
      apply zlt_ltb. specialize (Hlt x mx Hx Hne). simpl. lia.
  Qed.

  (* Condorcet winner: worst defeat <= 0, everybody else has a positive worst defeat (winning votes, margins) *)
  Theorem minimax_elects_cw s c : s <> PairwiseOpposition -> is_cw v c -> minimax s v 1 = [Cand c].
  Proof.
    intros Hs [Hc Hall]. apply minimax_sole.
    destruct (mc_value s c Hc) as (mc & Hin & _ & a & Ha & Hac & Ea). exists mc. split; [exact Hin|].
    intros x mx Hx Hne. destruct (mc_entry s x mx Hx) as (Hxc & Hub & _). specialize (Hub c Hc (not_eq_sym Hne)).
    pose proof (Hall a Ha Hac) as Hba. pose proof (Hall x Hxc Hne) as Hbx. unfold beats in Hba, Hbx.
    pose proof (pget0_nn v Hnn (x, c)).
    assert (mc <= 0 < sc v s c x); [|lia]. rewrite <- Ea. unfold sc. destruct s; [|lia|congruence].
    destruct (Z.ltb_spec (pget0 v (c, a)) (pget0 v (a, c))), (Z.ltb_spec (pget0 v (x, c)) (pget0 v (c, x))); lia.
  Qed.

  (* with as many seats as candidates every candidate is in the result *)
  Theorem minimax_nobody_dropped s x : In x cs -> In (Cand x) (minimax s v (length cs)).
  Proof.
    intros Hx. rewrite minimax_unfold. destruct (mc_keys s) as [Kn Kk].
    set (negd := map (fun cs0 : C * Z => (fst cs0, - snd cs0)) (mcs s)).
    assert (Hlen : length negd = length cs).
    { unfold negd. rewrite map_length, <- (map_length fst (mcs s)). apply Permutation_length.
      apply NoDup_Permutation; [exact Kn|apply candidates_NoDup|exact Kk]. }
    assert (Hn1 : (1 <= length cs)%nat) by lia.
    destruct (get_n_best_spec zle_bool zle_total zle_trans negd (length cs) Hn1) as [Hsmall _].
    destruct (Hsmall ltac:(lia)) as (sl & Hp & _ & Hr). rewrite Hr.
    assert (Hk : In x (map fst negd)) by (unfold negd; rewrite map_map; simpl; apply Kk, Hx).
    apply in_map_iff in Hk. destruct Hk as ([x' u] & Hf & Hin). simpl in Hf. subst x'.
    apply in_map_iff. exists (x, u). split; [reflexivity|]. apply (Permutation_in _ (Permutation_sym Hp)). exact Hin.
  Qed.
End MM.

(* monotonicity (C17).  Minimax under a uniform shift e of the scores: every defeat of w shrinks by at least e, no defeat of another
   candidate shrinks by more than e; the two dictionaries list the same candidates, in any order *)
Theorem minimax_sole_shift (v v' : pvotes) (w : C) (s : scorer) (e : Z) :
  (2 <= length (candidates v))%nat ->
  (forall c, In c (candidates v') <-> In c (candidates v)) ->
  (forall a, In a (candidates v) -> a <> w -> sc v' s a w <= sc v s a w - e) ->
  (forall a c, In a (candidates v) -> In c (candidates v) -> c <> w -> a <> c -> sc v s a c - e <= sc v' s a c) ->
  minimax s v 1 = [Cand w] -> minimax s v' 1 = [Cand w].
Proof.
  intros H2 Hc Hdw Hdo Hwin.
  assert (H2' : (2 <= length (candidates v'))%nat).
  { eapply Nat.le_trans; [exact H2|]. apply NoDup_incl_length; [apply candidates_NoDup|]. intros c. apply Hc. }
  apply (minimax_sole v H2) in Hwin. destruct Hwin as (mw & Hw & Hlt).
  destruct (mc_entry v H2 s w mw Hw) as (Hwc & Hubw & _).
  destruct (mc_value v' H2' s w (proj2 (Hc w) Hwc)) as (mw' & Hw' & _ & a0 & Ha0 & Ha0w & Ea0).
  apply (minimax_sole v' H2'). exists mw'. split; [exact Hw'|]. intros x mx' Hx' Hne.
  destruct (mc_entry v' H2' s x mx' Hx') as (Hxc & Hubx' & _). apply Hc in Hxc.
  destruct (mc_value v H2 s x Hxc) as (mx & Hx & _ & a1 & Ha1 & Ha1x & Ea1).
  specialize (Hlt x mx Hx Hne). apply Hc in Ha0.
  (* w's worst defeat shrinks by at least e, x's by at most e *)
  pose proof (Hdw a0 Ha0 Ha0w). pose proof (Hubw a0 Ha0 Ha0w).
  pose proof (Hdo a1 x Ha1 Hxc Hne Ha1x). pose proof (Hubx' a1 (proj2 (Hc a1) Ha1) Ha1x). lia.
Qed.

(* the counts change only in favour of w (as in [raises], with the candidates compared as sets): the shift is 0 *)
Theorem minimax_raised (v v' : pvotes) (w : C) :
  (forall p n, In (p, n) v -> 0 <= n) -> (forall p n, In (p, n) v' -> 0 <= n) -> (2 <= length (candidates v))%nat ->
  (forall c, In c (candidates v') <-> In c (candidates v)) ->
  (forall x, pget0 v (w, x) <= pget0 v' (w, x) /\ pget0 v' (x, w) <= pget0 v (x, w)) ->
  (forall a b, a <> w -> b <> w -> pget0 v' (a, b) = pget0 v (a, b)) ->
  forall s, minimax s v 1 = [Cand w] -> minimax s v' 1 = [Cand w].
Proof.
  intros Hnn Hnn' H2 Hc Hup Hoth s. apply (minimax_sole_shift v v' w s 0 H2 Hc).
  - intros a _ _. rewrite Z.sub_0_r. apply sc_mono; [apply pget0_nn, Hnn|apply Hup|apply Hup].
  - intros a c _ _ Hcw _. rewrite Z.sub_0_r. destruct (Pos.eq_dec a w) as [->|Ha].
    + apply sc_mono; [apply pget0_nn, Hnn'|apply Hup|apply Hup].
    + unfold sc. rewrite (Hoth a c Ha Hcw), (Hoth c a Hcw Ha). apply Z.le_refl.
Qed.

Theorem minimax_monotone (v v' : pvotes) (w : C) :
  (forall p n, In (p, n) v -> 0 <= n) -> (forall p n, In (p, n) v' -> 0 <= n) -> (2 <= length (candidates v))%nat ->
  raises v v' w -> forall s, minimax s v 1 = [Cand w] -> minimax s v' 1 = [Cand w].
Proof.
  intros Hnn Hnn' H2 (Hc & Hup & Hoth). apply minimax_raised; try assumption. intros c. rewrite Hc. reflexivity.
Qed.

(* scale invariance (C11) *)
From VL Require Import Proofs.Scale_proofs.

Section MMSCALE.
  Variable k : Z.
  Hypothesis Hk : 0 < k.

  Lemma score_pairs_scale s u : score_pairs s (scalez k u) = scalez k (score_pairs s u).
  Proof.
    destruct s; cbn [score_pairs].
    - unfold scalez. rewrite !map_map. apply map_ext. intros [p m]. cbn [fst snd]. fold (scalez k u). rewrite (pget0_scale k u).
      assert (E : (k * pget0 u (swap p) <? k * m) = (pget0 u (swap p) <? m)).
      { destruct (pget0 u (swap p) <? m) eqn:E; [apply Z.ltb_lt in E; apply Z.ltb_lt; nia|apply Z.ltb_ge in E; apply Z.ltb_ge; nia]. }
      rewrite E. destruct (pget0 u (swap p) <? m); f_equal; lia.
    - unfold scalez. rewrite !map_map. apply map_ext. intros [p m]. cbn [fst snd]. fold (scalez k u). rewrite (pget0_scale k u). f_equal. lia.
    - reflexivity.
  Qed.

  Lemma dget_scaled d c : dget (mapv (Z.mul k) d) c = option_map (Z.mul k) (dget d c).
  Proof. unfold mapv. induction d as [|[c0 m] d IH]; simpl; [reflexivity|]. destruct (ceqb c c0); [reflexivity|exact IH]. Qed.

  Lemma dset_scaled d c m : dset (mapv (Z.mul k) d) c (k * m) = mapv (Z.mul k) (dset d c m).
  Proof. unfold mapv. induction d as [|[c0 m0] d IH]; simpl; [reflexivity|]. destruct (ceqb c c0); simpl; [reflexivity|]. rewrite IH. reflexivity. Qed.

  Lemma mc_step_scaled d pn : mc_step (mapv (Z.mul k) d) (fst pn, k * snd pn) = mapv (Z.mul k) (mc_step d pn).
  Proof.
    unfold mc_step. cbn [fst snd]. rewrite dget_scaled. destruct (dget d (snd (fst pn))) as [old|]; simpl.
    - rewrite <- dset_scaled. f_equal. rewrite Z.mul_max_distr_nonneg_l by lia. reflexivity.
    - apply dset_scaled.
  Qed.

  Lemma mc_of_scale l : mc_of (scalez k l) = mapv (Z.mul k) (mc_of l).
  Proof.
    unfold mc_of. change (@nil (C * Z)) with (mapv (Z.mul k) (@nil (C * Z))) at 1. generalize (@nil (C * Z)) as d.
    induction l as [|pn l IH]; intros d; simpl; [reflexivity|].
    rewrite mc_step_scaled. apply IH.
  Qed.

  Lemma zle_scale a b : zle_bool (k * a) (k * b) = zle_bool a b.
  Proof. unfold zle_bool. destruct (a <=? b) eqn:E; [apply Z.leb_le in E; apply Z.leb_le; nia|apply Z.leb_gt in E; apply Z.leb_gt; nia]. Qed.

  Theorem minimax_scale s v n : minimax s (scalez k v) n = minimax s v n.
  Proof.
    rewrite !minimax_unfold, (complete_scale k v), score_pairs_scale, mc_of_scale.
    set (m := mc_of (score_pairs s (complete v))).
    assert (E : map (fun cs0 : C * Z => (fst cs0, - snd cs0)) (mapv (Z.mul k) m)
                = mapv (Z.mul k) (map (fun cs0 : C * Z => (fst cs0, - snd cs0)) m)).
    { unfold mapv. rewrite !map_map. apply map_ext. intros [c x]. simpl. f_equal. lia. }
    rewrite E. apply (get_n_best_map zle_bool zle_bool (Z.mul k)). intros a b. apply zle_scale.
  Qed.
End MMSCALE.
