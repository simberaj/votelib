(* Whole-quota stage (cut at the caps) and remainder stage of QuotaDistributor / LargestRemainder
   (Model/QuotaDistributor.v). *)
From Coq Require Import ZArith QArith Qround List Bool Lia Permutation.
From VL Require Import Prelude.PyDict Model.GetNBest Model.Quota Model.QuotaDistributor
     Proofs.Dict_proofs Proofs.GetNBest_proofs Proofs.QOrd.
Import ListNotations.
Open Scope Z_scope.

Lemma py_trunc_floor x : (0 <= x)%Q -> py_trunc x = Qfloor x.
Proof.
  intros H. unfold py_trunc, Qfloor. destruct x as [n d]. simpl.
  apply Z.quot_div_nonneg; [|lia]. unfold Qle in H. simpl in H. lia.
Qed.

Lemma Qeq_bool_false a b : ~ (a == b)%Q -> Qeq_bool a b = false.
Proof. intros H. apply not_true_iff_false. rewrite Qeq_bool_iff. exact H. Qed.

Lemma perm_prefix_nodup {X Y} (a b l : list (X * Y)) :
  Permutation (a ++ b) l -> NoDup (map fst l) -> NoDup (map fst a).
Proof.
  intros Hp Hn. apply (nodup_app_l _ (map fst b)). rewrite <- map_app.
  apply (Permutation_NoDup (Permutation_map fst (Permutation_sym Hp))), Hn.
Qed.

(* get_n_best on the rationals: either the min(k, length) best items, all plain, or the items strictly above a
   level followed by copies of one tie object for the level *)
Lemma gnb_shapes {X} (l : list (X * Q)) k : (1 <= k)%nat ->
  (exists top below, Permutation (top ++ below) l /\ length top = Nat.min k (length l) /\
     (forall a b, In a top -> In b below -> (snd b < snd a)%Q) /\
     get_n_best Qle_bool l k = map (@cand_of X Q) top) \/
  (exists above level below thr, Permutation (above ++ level ++ below) l /\
     Forall (fun it => (thr < snd it)%Q) above /\ Forall (fun it => (snd it == thr)%Q) level /\
     Forall (fun it => (snd it < thr)%Q) below /\
     (length above < k < length above + length level)%nat /\
     get_n_best Qle_bool l k = map (@cand_of X Q) above ++ repeat (TieR (map fst level)) (k - length above)).
Proof.
  intros Hk. destruct (get_n_best_cut Qle_bool Qle_bool_total Qle_bool_trans l k Hk)
    as [(top & below & Hp & Hlen & Hsep & E)|(above & level & below & thr & Hp & Ha & Hl & Hb & Hpos & E)].
  - left. exists top, below. split; [exact Hp|]. split; [exact Hlen|]. split; [|exact E].
    intros a b Hi Hj. apply ltb_Qlt, Hsep; assumption.
  - right. exists above, level, below, thr. split; [exact Hp|].
    split; [exact (Forall_impl _ (fun it => proj1 (ltb_Qlt thr (snd it))) Ha)|].
    split; [exact (Forall_impl _ (fun it => proj1 (eqv_Qeq (snd it) thr)) Hl)|].
    split; [exact (Forall_impl _ (fun it => proj1 (ltb_Qlt (snd it) thr)) Hb)|]. split; [exact Hpos|exact E].
Qed.

Lemma in_dset_inv (sel : list (C * Z)) c x c' s :
  In (c', s) (dset sel c x) -> In (c', s) sel \/ (c' = c /\ s = x).
Proof.
  induction sel as [|[k0 v0] sel IHs]; simpl; intros Hin.
  - destruct Hin as [H|[]]. injection H as <- <-. right. split; reflexivity.
  - destruct (ceqb c k0) eqn:E.
    + apply ceqb_eq in E. subst k0. destruct Hin as [H|H].
      * injection H as <- <-. right. split; reflexivity.
      * left. right. exact H.
    + destruct Hin as [H|H]; [left; left; exact H|].
      destruct (IHs H) as [H1|H1]; [left; right; exact H1|right; exact H1].
Qed.

Section QDP.
  Variable quota : Q -> Z -> Q.
  Variable accept_equal : bool.
  Variable pol : policy.

  Notation fulfills := (fulfills accept_equal).

  (* seats a party gets from whole quotas: int(v/q) - prev when positive *)
  Definition whole_add (q : Q) (prev : list (C * Z)) (c : C) (v : Q) : Z :=
    if fulfills v q then
      let add := py_trunc (v / q)%Q - dget_or prev c 0 in
      if 0 <? add then add else 0
    else 0.

  Definition no_overshoot (votes : list (C * Q)) (q : Q) (n : Z) (prev caps : list (C * Z)) : Prop :=
    forall c v, In (c, v) votes -> fulfills v q = true ->
      0 < py_trunc (v / q)%Q - dget_or prev c 0 -> py_trunc (v / q)%Q <= dget_or caps c n.

  (* seats a party gets from whole quotas cut at its cap: min(int(v/q), cap) - prev when positive *)
  Definition cap_add (q : Q) (prev caps : list (C * Z)) (c : C) (v : Q) : Z :=
    if fulfills v q then
      let add := cap_whole caps c (py_trunc (v / q)%Q) - dget_or prev c 0 in
      if 0 <? add then add else 0
    else 0.

  Lemma cap_add_nonneg q prev caps c v : 0 <= cap_add q prev caps c v.
  Proof.
    unfold cap_add. destruct (fulfills v q); [|lia].
    destruct (0 <? _) eqn:E; [apply Z.ltb_lt in E; lia|lia].
  Qed.

  (* where no whole-quota count exceeds a cap the cap changes nothing (the default cap n included) *)
  Lemma cap_add_no_overshoot votes q n prev caps c v :
    no_overshoot votes q n prev caps -> In (c, v) votes -> cap_add q prev caps c v = whole_add q prev c v.
  Proof.
    intros Hno Hin. unfold cap_add, whole_add, cap_whole. destruct (fulfills v q) eqn:Ef; [|reflexivity].
    destruct (dget caps c) as [m|] eqn:Ec; [|reflexivity].
    destruct (0 <? py_trunc (v / q) - dget_or prev c 0) eqn:Ea.
    - apply Z.ltb_lt in Ea. specialize (Hno c v Hin Ef Ea). unfold dget_or in Hno. rewrite Ec in Hno.
      rewrite Z.min_l by exact Hno. apply Z.ltb_lt in Ea. rewrite Ea. reflexivity.
    - apply Z.ltb_ge in Ea. destruct (0 <? Z.min (py_trunc (v / q)) m - dget_or prev c 0) eqn:Eb; [|reflexivity].
      apply Z.ltb_lt in Eb. lia.
  Qed.

  (* the loop over the votes, for every input with distinct parties: each party holds cap_add seats *)
  Lemma scan_spec votes q prev caps : forall sel,
    NoDup (map fst votes) ->
    (forall c, In c (map fst votes) -> dget_or sel c 0 = 0) ->
    (forall c v, In (c, v) votes -> dget_or (scan accept_equal votes q prev caps sel) c 0 = cap_add q prev caps c v) /\
    (forall c, ~ In c (map fst votes) -> dget_or (scan accept_equal votes q prev caps sel) c 0 = dget_or sel c 0) /\
    (forall c s, In (c, s) (scan accept_equal votes q prev caps sel) -> In (c, s) sel \/ (0 < s /\ exists v, In (c, v) votes)).
  Proof.
    induction votes as [|[c v] t IH]; intros sel Hnd Hz; cbn [scan].
    - split; [intros ? ? []|]. split; [reflexivity|]. intros; left; assumption.
    - inversion Hnd as [|? ? Hc Hnd']; subst.
      set (add := cap_whole caps c (py_trunc (v / q)%Q) - dget_or prev c 0).
      set (sel1 := if fulfills v q then if 0 <? add then dset sel c add else sel else sel).
      assert (Hstep : dget_or sel1 c 0 = cap_add q prev caps c v /\
        (forall c', c' <> c -> dget_or sel1 c' 0 = dget_or sel c' 0) /\
        (forall c' s, In (c', s) sel1 -> In (c', s) sel \/ (0 < s /\ c' = c))).
      { unfold sel1, cap_add. fold add. destruct (fulfills v q) eqn:Ef.
        - destruct (0 <? add) eqn:Ea.
          + split; [rewrite dget_or_dset, ceqb_refl; reflexivity|]. split.
            * intros c' Hne. rewrite dget_or_dset. apply ceqb_neq in Hne. rewrite Hne. reflexivity.
            * intros c' s Hin. apply Z.ltb_lt in Ea. destruct (in_dset_inv _ _ _ _ _ Hin) as [H|[-> ->]]; [left; exact H|].
              right. split; [exact Ea|reflexivity].
          + split; [apply Hz; left; reflexivity|]. split; [reflexivity|]. intros; left; assumption.
        - split; [apply Hz; left; reflexivity|]. split; [reflexivity|]. intros; left; assumption. }
      destruct Hstep as (Hc1 & Hother & Hin1).
      destruct (IH sel1 Hnd') as (Hv & Hn & Hin').
      { intros c' Hc'. rewrite Hother; [apply Hz; right; exact Hc'|]. intros ->. exact (Hc Hc'). }
      split; [|split].
      + intros c' v' [H|H].
        * injection H as <- <-. rewrite Hn; [exact Hc1|exact Hc].
        * apply Hv. exact H.
      + intros c' Hc'. rewrite Hn; [|intros H; apply Hc'; right; exact H].
        apply Hother. intros ->. apply Hc'. left. reflexivity.
      + intros c' s Hin. destruct (Hin' c' s Hin) as [H|(Hs0 & v' & Hv')].
        * destruct (Hin1 c' s H) as [H2|(H2 & ->)]; [left; exact H2|].
          right. split; [exact H2|]. exists v. left. reflexivity.
        * right. split; [exact Hs0|]. exists v'. right. exact Hv'.
  Qed.

  Definition plain (sel : list (C * Z)) : list (key * Z) := map (fun kv => (K (fst kv), snd kv)) sel.

  (* the whole-quota stage cut at the caps and the three over-award policies, for every input with a quota
     other than zero and distinct parties *)
  Theorem qd_capped_quotas votes n prev caps :
    let q := quota (qsumv votes) n in
    ~ (q == 0)%Q -> NoDup (map fst votes) ->
    exists sel,
      (forall c v, In (c, v) votes -> dget_or sel c 0 = cap_add q prev caps c v) /\
      (forall c, ~ In c (map fst votes) -> dget_or sel c 0 = 0) /\
      (forall c s, In (c, s) sel -> 0 < s /\ In c (map fst votes)) /\
      qd_evaluate quota accept_equal pol votes n prev caps =
        (if n <? zsumv sel + zsumv prev then
           match pol with
           | PIgnore => QD_ok (plain sel)
           | PError => QD_vse
           | PSubtract => subtract (Z.to_nat (zsumv sel + zsumv prev - n)) votes q prev sel
                                   (zsumv sel + zsumv prev - n)
           end
         else QD_ok (plain sel)).
  Proof.
    intros q Hq Hnd. unfold qd_evaluate. fold q. rewrite (Qeq_bool_false q 0 Hq). cbn [andb].
    destruct (scan_spec votes q prev caps [] Hnd) as (Hv & Hn & Hin).
    { intros; reflexivity. }
    exists (scan accept_equal votes q prev caps []). split; [exact Hv|]. split; [exact Hn|]. split.
    - intros c s H. destruct (Hin c s H) as [[]|[H0 (v & Hv')]]. split; [exact H0|].
      apply in_map_iff. exists (c, v). split; [reflexivity|exact Hv'].
    - reflexivity.
  Qed.

  (* the whole-quota stage and the three over-award policies, on the domain
     where no party's whole quotas exceed its cap *)
  Theorem qd_whole_quotas votes n prev caps :
    let q := quota (qsumv votes) n in
    ~ (q == 0)%Q -> NoDup (map fst votes) -> no_overshoot votes q n prev caps ->
    exists sel,
      (forall c v, In (c, v) votes -> dget_or sel c 0 = whole_add q prev c v) /\
      (forall c, ~ In c (map fst votes) -> dget_or sel c 0 = 0) /\
      (forall c s, In (c, s) sel -> 0 < s) /\
      qd_evaluate quota accept_equal pol votes n prev caps =
        (if n <? zsumv sel + zsumv prev then
           match pol with
           | PIgnore => QD_ok (plain sel)
           | PError => QD_vse
           | PSubtract => subtract (Z.to_nat (zsumv sel + zsumv prev - n)) votes q prev sel
                                   (zsumv sel + zsumv prev - n)
           end
         else QD_ok (plain sel)).
  Proof.
    intros q Hq Hnd Hno.
    destruct (qd_capped_quotas votes n prev caps Hq Hnd) as (sel & Hv & Hn & Hin & He). fold q in Hv, He.
    exists sel. split; [|split; [exact Hn|split; [intros c s H; apply (Hin c s H)|exact He]]].
    intros c v Hcv. rewrite (Hv c v Hcv). apply (cap_add_no_overshoot votes q n prev caps c v Hno Hcv).
  Qed.

  Lemma plain_no_tie sel :
    existsb (fun kv : key * Z => match fst kv with KT _ => true | _ => false end) (plain sel) = false.
  Proof. unfold plain. induction sel as [|x t IH]; simpl; [reflexivity|exact IH]. Qed.
  Lemma plain_flat sel :
    flat_map (fun kv : key * Z => match fst kv with K c => [(c, snd kv)] | _ => [] end) (plain sel) = sel.
  Proof. unfold plain. induction sel as [|[c s] t IH]; simpl; [reflexivity|]. rewrite IH. reflexivity. Qed.

  (* the remainder stage of LargestRemainder is get_n_best on the exact remainders *)
  Definition remainders (votes : list (C * Q)) (q : Q) (gained caps : list (C * Z)) : list (C * Q) :=
    flat_map (fun cv : C * Q =>
      let (c, v) := cv in
      match dget caps c with
      | Some m => if dget_or gained c 0 <? m then [(c, (v / q - inject_Z (dget_or gained c 0%Z))%Q)] else []
      | None => [(c, (v / q - inject_Z (dget_or gained c 0%Z))%Q)]
      end) votes.

  Definition seat_best (qe : list (key * Z)) (best : list (res C)) : list (key * Z) :=
    fold_left (fun d r => match r with Cand c => kincr d (K c) | TieR l => kincr d (KT l) end) best qe.

  Theorem lr_structure votes n prev caps sel :
    let q := quota (qsumv votes) n in
    ~ (q == 0)%Q ->
    qd_evaluate quota accept_equal pol votes n prev caps = QD_ok (plain sel) ->
    let gained := add_dict sel prev in
    let nrem := n - zsumv gained in
    lr_evaluate quota accept_equal pol votes n prev caps =
      if nrem <=? 0 then LR_ok (plain sel)
      else LR_ok (seat_best (plain sel)
                   (get_n_best Qle_bool (remainders votes q gained caps) (Z.to_nat nrem))).
  Proof.
    intros q Hq Hqd gained nrem. unfold lr_evaluate. rewrite Hqd.
    rewrite plain_no_tie, plain_flat. fold q. fold gained. fold nrem. rewrite (Qeq_bool_false q 0 Hq).
    reflexivity.
  Qed.

  (* the parties that take part in the remainder stage: those still below their cap *)
  Definition has_room (gained caps : list (C * Z)) (cv : C * Q) : bool :=
    match dget caps (fst cv) with Some m => dget_or gained (fst cv) 0 <? m | None => true end.

  Lemma remainders_eq votes q gained caps :
    remainders votes q gained caps =
    map (fun cv => (fst cv, (snd cv / q - inject_Z (dget_or gained (fst cv) 0%Z))%Q)) (filter (has_room gained caps) votes).
  Proof.
    unfold remainders, has_room. induction votes as [|[c v] t IH]; [reflexivity|]. cbn [flat_map filter fst]. rewrite IH.
    destruct (dget caps c) as [m|]; [destruct (_ <? m)|]; reflexivity.
  Qed.

  (* remainders have distinct keys, so the C09 theorems apply to the remainder stage *)
  Lemma remainders_nodup votes q gained caps :
    NoDup (map fst votes) -> NoDup (map fst (remainders votes q gained caps)).
  Proof. intros H. rewrite remainders_eq, map_map. apply nodup_keys_filter, H. Qed.

  Lemma remainders_in votes q gained caps c x : In (c, x) (remainders votes q gained caps) ->
    exists v, In (c, v) votes /\ has_room gained caps (c, v) = true.
  Proof.
    rewrite remainders_eq, in_map_iff. intros ([c0 v] & [= -> _] & H). apply filter_In in H. exists v. exact H.
  Qed.

  (* every party receives at most one remainder seat (a tie object aside) *)
  Theorem lr_at_most_one votes q gained caps nrem : (1 <= nrem)%nat -> NoDup (map fst votes) ->
    NoDup (flat_map (fun r => match r with Cand c => [c] | TieR _ => [] end)
             (get_n_best Qle_bool (remainders votes q gained caps) nrem)).
  Proof.
    intros Hn Hnd. pose proof (remainders_nodup votes q gained caps Hnd) as Hr.
    assert (Hcands : forall l : list (C * Q), flat_map (fun r => match r with Cand c => [c] | TieR _ => [] end)
               (map (@cand_of C Q) l) = map fst l).
    { induction l as [|x l IHl]; simpl; [reflexivity|]. rewrite IHl. reflexivity. }
    destruct (gnb_shapes (remainders votes q gained caps) nrem Hn)
      as [(top & below & Hp & _ & _ & ->)|(above & level & below & thr & Hp & _ & _ & _ & _ & ->)].
    - rewrite Hcands. exact (perm_prefix_nodup _ _ _ Hp Hr).
    - rewrite flat_map_app, Hcands. 
      assert (Hrep : forall T k, flat_map (fun r : res C => match r with Cand c => [c] | TieR _ => [] end)
                 (repeat (TieR T) k) = []) by (intros T k; induction k; simpl; [reflexivity|assumption]).
      rewrite Hrep, app_nil_r. exact (perm_prefix_nodup _ _ _ Hp Hr).
  Qed.

  Definition ksum (d : list (key * Z)) : Z := fold_right (fun kv acc => snd kv + acc) 0 d.

  Lemma ksum_kincr d k : ksum (kincr d k) = ksum d + 1.
  Proof.
    induction d as [|[k' s] t IH]; simpl; [lia|].
    destruct (key_eqb k k'); simpl; lia.
  Qed.

  Lemma ksum_seat_best best : forall qe, ksum (seat_best qe best) = ksum qe + Z.of_nat (length best).
  Proof.
    unfold seat_best. induction best as [|r best IH]; intros qe; simpl fold_left; [simpl; lia|].
    rewrite IH. destruct r; rewrite ksum_kincr; simpl length; lia.
  Qed.

  (* LargestRemainder fills the house exactly when the open seats do not outnumber the eligible parties *)
  Theorem lr_total votes q gained caps sel nrem :
    0 < nrem -> (Z.to_nat nrem <= length (remainders votes q gained caps))%nat ->
    ksum (seat_best (plain sel) (get_n_best Qle_bool (remainders votes q gained caps) (Z.to_nat nrem)))
    = ksum (plain sel) + nrem.
  Proof.
    intros Hn Hle. rewrite ksum_seat_best, (get_n_best_length Qle_bool Qle_bool_total Qle_bool_trans); lia.
  Qed.
End QDP.
