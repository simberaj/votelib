(* Result shape (C08) of allocated score with the repairs fixes/C12-allocated-score-exhausted and
   fixes/C12-allocated-score-tie-seats: AllocatedScoreSelector (Model/AllocScore.v alloc_select_x) returns a well-shaped selection
   ([nform], Proofs/Shape2_proofs.v): n entries - distinct plain winners of the votes, then possibly one tie listed once
   per seat it contests, with more members than those seats and none of the winners - for every profile with positive
   weights, a positive quota and at least n candidates.  The iteration orders handed to the model list every tie
   without repetition (as the iteration of a frozenset does). *)
From Coq Require Import ZArith QArith Qminmax Qround List Bool Arith Lia Lqa Permutation.
From VL Require Import Prelude.PyDict Model.GetNBest Model.Convert Model.Quota Model.AllocScore
     Proofs.GetNBest_proofs Proofs.QOrd Proofs.Dict_proofs Proofs.JR_proofs Proofs.MJ_proofs Proofs.AllocScore_proofs
     Proofs.AllocRepair_proofs Proofs.Shape_proofs Proofs.Shape2_proofs Proofs.MJ_seats_proofs.
Import ListNotations.
Open Scope Q_scope.

Definition seated (ws : list C) : elected := map (fun c => (Cand c, 1%Z)) ws.

Lemma eget_seated ws x : eget (seated ws) x = if cmem x ws then 1%Z else 0%Z.
Proof.
  induction ws as [|y ws IH]; [reflexivity|]. cbn [seated map eget fst snd res_is cmem]. fold (seated ws).
  destruct (ceqb x y); [reflexivity|exact IH].
Qed.

Lemma eincr_seated ws c : ~ In c ws -> eincr (seated ws) c = seated (ws ++ [c]).
Proof.
  induction ws as [|y ws IH]; intros Hn; [reflexivity|]. cbn [seated map eincr fst snd res_is app]. fold (seated ws). fold (seated (ws ++ [c])).
  destruct (ceqb c y) eqn:E; [apply ceqb_eq in E; subst y; exfalso; apply Hn; left; reflexivity|].
  rewrite IH; [reflexivity|]. intros H. apply Hn. right. exact H.
Qed.

Lemma same_set_incl a b : AllocScore.same_set a b = true -> incl a b /\ incl b a.
Proof.
  unfold AllocScore.same_set. intros H. apply andb_true_iff in H. destruct H as (H1 & H2).
  rewrite List.forallb_forall in H1. rewrite List.forallb_forall in H2.
  split; intros x Hx; apply cmem_In; [apply H1|apply H2]; exact Hx.
Qed.

Lemma tie_iter_spec orders t : Forall (@NoDup C) orders -> NoDup t ->
  NoDup (tie_iter orders t) /\ incl (tie_iter orders t) t /\ length (tie_iter orders t) = length t.
Proof.
  intros Hord Ht. unfold tie_iter. destruct (find (AllocScore.same_set t) orders) as [o|] eqn:E; [|split; [exact Ht|split; [apply incl_refl|reflexivity]]].
  apply find_some in E. destruct E as (Hin & Hs). rewrite Forall_forall in Hord. pose proof (Hord o Hin) as Ho.
  destruct (same_set_incl _ _ Hs) as (H1 & H2). split; [exact Ho|]. split; [exact H2|].
  apply Nat.le_antisymm; apply NoDup_incl_length; assumption.
Qed.

Section Shape.
  Variable ra : arepairs.
  Hypothesis Hra : ra_exhausted ra = true.
  Variable votes : wprofile.
  Variable cf : acfg.
  Hypothesis Hsel : sel_like votes cf.
  Hypothesis Hq : 0 < ac_quota cf.
  Hypothesis Hord : Forall (@NoDup C) (ac_orders cf).
  Variable n : nat.
  Let cands := cands_score votes.
  Hypothesis Hn : (n <= length cands)%nat.

  Lemma cands_all x : In x cands <-> In x (all_scored votes).
  Proof. unfold cands, cands_score, all_scored. apply (proj2 (canon_set_spec _)). Qed.
  Lemma cands_nodup : NoDup cands.
  Proof. unfold cands, cands_score. apply (proj1 (canon_set_spec _)). Qed.

  (* the state of the selector's run: [ws] hold a seat, [rem] seats are open *)
  Definition SInv (ws : list C) (cur : wprofile) (rem : nat) : Prop :=
    NoDup ws /\ incl ws cands /\ (length ws + rem = n)%nat /\ wpos cur /\
    forall x, scored x cur -> ~ In x ws /\ In x cands.

  Lemma may_gain_seated ws x : In x cands -> may_gain cf (seated ws) x = negb (cmem x ws).
  Proof.
    intros Hx. destruct Hsel as (Hprev & Hmax). unfold may_gain. rewrite Hmax, (dget_map_one _ _ (proj1 (cands_all x) Hx)), Hprev, eget_seated.
    unfold dget_or. cbn [dget]. destruct (cmem x ws); reflexivity.
  Qed.

  (* electing a candidate of the votes that holds no seat: it takes the next seat and leaves every ballot *)
  Lemma elect_one_x_shape ws cur c : wpos cur -> ~ In c ws -> In c cands ->
    exists cur', elect_one_x ra cf cur (seated ws) c = inl (cur', seated (ws ++ [c])) /\ wpos cur' /\
                 forall x, scored x cur' -> scored x cur /\ ~ In x [c].
  Proof.
    intros Hp Hnw Hc. destruct (elect_one_x_spec ra Hra cf cur (seated ws) c Hp Hq) as (cur' & E & mid & Hspec & Hcur' & _ & Hp').
    rewrite (eincr_seated ws c Hnw) in E. exists cur'. split; [exact E|]. split; [exact Hp'|].
    assert (Helim : eliminated (gained_of cf (seated ws) c) (dget (ac_max cf) c) = true).
    { destruct Hsel as (Hprev & Hmax). unfold gained_of, eliminated.
      rewrite Hmax, (dget_map_one _ _ (proj1 (cands_all c) Hc)), Hprev, eget_eincr, ceqb_refl, eget_seated.
      apply cmem_false in Hnw. rewrite Hnw. reflexivity. }
    rewrite Helim in Hcur'. subst cur'. intros x Hx. apply (subset_out_spec c mid) in Hx. destruct Hx as (Hne & Hx).
    destruct Hspec as (t & f & -> & _). split; [exact (cut_at_scored _ _ _ _ _ Hx)|]. intros [<-|[]]. exact (Hne eq_refl).
  Qed.

  Lemma elect_all_x_shape : forall o ws cur, wpos cur -> NoDup o -> (forall x, In x o -> ~ In x ws /\ In x cands) ->
    exists cur', elect_all_x ra cf o cur (seated ws) = inl (cur', seated (ws ++ o)) /\ wpos cur' /\
                 forall x, scored x cur' -> scored x cur /\ ~ In x o.
  Proof.
    induction o as [|c o IH]; intros ws cur Hp Hnd Ho.
    - exists cur. cbn [elect_all_x]. rewrite app_nil_r. split; [reflexivity|]. split; [exact Hp|]. intros x Hx. split; [exact Hx|intros []].
    - inversion Hnd as [|? ? Hc Hnd']; subst. destruct (Ho c (or_introl eq_refl)) as (Hcw & Hcc).
      destruct (elect_one_x_shape ws cur c Hp Hcw Hcc) as (cur1 & E1 & Hp1 & Hs1). cbn [elect_all_x]. rewrite E1.
      destruct (IH (ws ++ [c]) cur1 Hp1 Hnd') as (cur' & E & Hp' & Hs').
      { intros x Hx. destruct (Ho x (or_intror Hx)) as (H1 & H2). split; [|exact H2].
        intros H. apply in_app_or in H. destruct H as [H|[<-|[]]]; [exact (H1 H)|exact (Hc Hx)]. }
      exists cur'. rewrite <- app_assoc in E. split; [exact E|]. split; [exact Hp'|].
      intros x Hx. destruct (Hs' x Hx) as (H1 & H2). destruct (Hs1 x H1) as (H3 & H4). split; [exact H3|].
      intros [<-|H]; [apply H4; left; reflexivity|exact (H2 H)].
  Qed.

  (* the candidates of a round: not seated, of the votes; distinct *)
  Lemma round_keys ws cur rem x : SInv ws cur rem -> In x (map fst (round_scores ra cands cf cur (seated ws))) -> ~ In x ws /\ In x cands.
  Proof.
    intros (_ & _ & _ & _ & Hsc) Hx. unfold round_scores in Hx. destruct (sum_scores cur) as [|p l] eqn:E.
    - rewrite Hra in Hx. rewrite map_map in Hx. cbn [fst] in Hx. rewrite map_id in Hx. apply filter_In in Hx. destruct Hx as (Hc & Hg).
      rewrite (may_gain_seated ws x Hc) in Hg. apply negb_true_iff, cmem_false in Hg. split; assumption.
    - rewrite <- E in Hx. apply in_map_iff in Hx. destruct Hx as ([x0 v] & Hx0 & Hin). cbn [fst] in Hx0. subst x0.
      apply Hsc. exact (proj2 (sum_scores_in cur x v Hin)).
  Qed.

  Lemma round_nodup ws cur : NoDup (map fst (round_scores ra cands cf cur (seated ws))).
  Proof.
    unfold round_scores. destruct (sum_scores cur) as [|p l] eqn:E; [|rewrite <- E; apply sum_scores_nodup].
    rewrite Hra, map_map. cbn [fst]. rewrite map_id. apply NoDup_filter, cands_nodup.
  Qed.

  Lemma round_nonempty ws cur rem : SInv ws cur (S rem) -> round_scores ra cands cf cur (seated ws) <> [].
  Proof.
    intros (Hnd & Hincl & Hlen & _ & _). unfold round_scores. destruct (sum_scores cur) as [|p l]; [|discriminate]. rewrite Hra.
    destruct (exists_not_in cands ws cands_nodup ltac:(lia)) as (x & Hx & Hxw).
    assert (H : In x (filter (may_gain cf (seated ws)) cands)).
    { apply filter_In. split; [exact Hx|]. rewrite (may_gain_seated ws x Hx). apply negb_true_iff, cmem_false, Hxw. }
    intros E. apply map_eq_nil in E. rewrite E in H. exact H.
  Qed.

  (* the candidates [o], none of them seated, take the next seats and leave the ballots *)
  Lemma SInv_seat ws cur rem o cur' : SInv ws cur rem -> NoDup o -> (forall x, In x o -> ~ In x ws /\ In x cands) ->
    (length o <= rem)%nat -> wpos cur' -> (forall x, scored x cur' -> scored x cur /\ ~ In x o) ->
    SInv (ws ++ o) cur' (rem - length o).
  Proof.
    intros (Hnd & Hincl & Hlen & _ & Hsc) Hno Ho Hle Hp' Hs'. split; [|split; [|split; [|split]]].
    - apply nodup_app_intro; [exact Hnd|exact Hno|]. intros x Hx Hx'. exact (proj1 (Ho x Hx') Hx).
    - apply incl_app; [exact Hincl|]. intros x Hx. apply Ho, Hx.
    - rewrite app_length. lia.
    - exact Hp'.
    - intros x Hx. destruct (Hs' x Hx) as (H1 & H2). destruct (Hsc x H1) as (H3 & H4). split; [|exact H4].
      intros H. apply in_app_or in H. destruct H as [H|H]; [exact (H3 H)|exact (H2 H)].
  Qed.

  Definition Final (e : elected) : Prop :=
    exists ws T k, e = seated ws ++ match k with O => [] | S _ => [(TieR T, Z.of_nat k)] end /\
      (length ws + k = n)%nat /\ (k = 0%nat \/ (k < length T)%nat) /\ NoDup (ws ++ T) /\ incl (ws ++ T) cands.

  Theorem alloc_loop_x_shape : forall fuel ws cur rem, (rem < fuel)%nat -> SInv ws cur rem ->
    exists e, alloc_loop_x ra cands fuel cf cur (seated ws) rem = inl e /\ Final e.
  Proof.
    induction fuel as [|fuel IH]; intros ws cur rem Hlt HI; [lia|]. cbn [alloc_loop_x]. unfold alloc_step_x.
    pose proof HI as (Hnd & Hincl & Hlen & Hp & Hsc).
    destruct rem as [|r].
    - eexists. split; [reflexivity|]. exists ws, [], 0%nat. cbn [app]. rewrite !app_nil_r.
      split; [reflexivity|]. split; [exact Hlen|]. split; [left; reflexivity|]. split; assumption.
    - destruct (gnb_one Qle_bool Qle_bool_total Qle_bool_trans _ (round_nonempty ws cur r HI) (round_nodup ws cur))
        as [(c & E & Hc)|(t & E & Hnt & Hit & Hlt2)]; rewrite E.
      + destruct (round_keys ws cur (S r) c HI Hc) as (Hcw & Hcc).
        destruct (elect_one_x_shape ws cur c Hp Hcw Hcc) as (cur' & E1 & Hp' & Hs'). rewrite E1.
        apply IH; [lia|]. apply (SInv_seat ws cur (S r) [c]); [exact HI|repeat constructor; intros []| |cbn [length]; lia|exact Hp'|exact Hs'].
        intros x [<-|[]]. split; assumption.
      + assert (Htk : forall x, In x t -> ~ In x ws /\ In x cands) by (intros x Hx; apply (round_keys ws cur (S r) x HI), Hit, Hx).
        destruct (Nat.leb (length t) (S r)) eqn:El.
        * apply Nat.leb_le in El. destruct (tie_iter_spec (ac_orders cf) t Hord Hnt) as (Hno & Hio & Hlo).
          assert (Hok : forall x, In x (tie_iter (ac_orders cf) t) -> ~ In x ws /\ In x cands) by (intros x Hx; apply Htk, Hio, Hx).
          destruct (elect_all_x_shape (tie_iter (ac_orders cf) t) ws cur Hp Hno Hok) as (cur' & E1 & Hp' & Hs').
          rewrite E1. apply IH; [lia|]. rewrite <- Hlo. apply (SInv_seat ws cur (S r)); [exact HI|exact Hno|exact Hok|lia|exact Hp'|exact Hs'].
        * apply Nat.leb_gt in El. eexists. split; [reflexivity|]. exists ws, t, (S r). split; [reflexivity|]. split; [exact Hlen|].
          split; [right; exact El|]. split.
          -- apply nodup_app_intro; [exact Hnd|exact Hnt|]. intros x Hx Hx'. exact (proj1 (Htk x Hx') Hx).
          -- apply incl_app; [exact Hincl|]. intros x Hx. apply Htk, Hx.
  Qed.
End Shape.

Lemma seated_expand ws : flat_map (fun rk : res C * Z => repeat (fst rk) (Z.to_nat (snd rk))) (seated ws) = map Cand ws.
Proof. induction ws as [|c ws IH]; [reflexivity|]. cbn [seated map flat_map fst snd]. fold (seated ws). rewrite IH. reflexivity. Qed.

Theorem alloc_select_x_shape ra qs orders votes n :
  ra_exhausted ra = true -> ra_tieseats ra = true ->
  wpos votes -> Forall (@NoDup C) orders ->
  0 < ac_quota (alloc_cfg qs orders votes n [] (map (fun c => (c, 1%Z)) (all_scored votes))) ->
  (1 <= n <= length (cands_score votes))%nat ->
  exists r, alloc_select_x ra qs orders votes n = inl r /\ nform (cands_score votes) n r.
Proof.
  intros Hra Hts Hp Hord Hq (Hn1 & Hn). unfold alloc_select_x, alloc_distribute_x.
  assert (Hz : quota_divides_by_seats qs && Nat.eqb n 0 = false).
  { destruct n; [lia|]. cbn [Nat.eqb]. apply andb_false_r. }
  rewrite Hz. set (cf := alloc_cfg qs orders votes n [] (map (fun c => (c, 1%Z)) (all_scored votes))) in *.
  assert (Hsel : sel_like votes cf) by (split; reflexivity).
  assert (HI : SInv votes n [] votes n).
  { split; [constructor|]. split; [intros ? []|]. split; [reflexivity|]. split; [exact Hp|].
    intros x Hx. split; [intros []|]. apply (cands_all votes), scored_all_scored, Hx. }
  destruct (alloc_loop_x_shape ra Hra votes cf Hsel Hq Hord n Hn (S n) [] votes n (Nat.lt_succ_diag_r n) HI) as (e & E & ws & T & k & -> & Hlen & Hk & Hnd & Hincl).
  change (seated []) with (@nil (res C * Z)) in E. rewrite E, Hts. eexists. split; [reflexivity|].
  rewrite flat_map_app, seated_expand.
  exists ws, T, k. split; [|split; [exact Hlen|split; [exact Hk|split; assumption]]].
  f_equal. destruct k as [|k]; [reflexivity|]. cbn [flat_map fst snd]. rewrite app_nil_r, Nat2Z.id. reflexivity.
Qed.
