(* The repairs fixes/C12-allocated-score-exhausted and C12-allocated-score-tie-seats (Model/AllocScore.v, the [_x]
   definitions with [arepairs]):
   - the subtraction loop without the overall-minimum bootstrap never fails: on positive weights it removes
     min(quota, support) from the strongest supporters first, whatever the ballots look like (empty ballots, nothing
     left) - the crash condition of the pinned loop is gone;
   - the allocation loop has no error outcome besides ZeroDivisionError of the quota for no seats;
   - with no repair applied the flagged definitions are the pinned ones. *)
From Coq Require Import ZArith QArith Qminmax Qround List Bool Arith Lia Lqa Permutation.
From VL Require Import Prelude.PyDict Model.GetNBest Model.Convert Model.Quota Model.AllocScore
     Proofs.GetNBest_proofs Proofs.QOrd Proofs.Dict_proofs Proofs.JR_proofs Proofs.AllocScore_proofs.
Import ListNotations.
Open Scope Q_scope.
Lemma subtract_votes_x_pinned cur c g mx q : subtract_votes_x apinned cur c g mx q = subtract_votes cur c g mx q.
Proof. reflexivity. Qed.
Lemma elect_one_x_pinned cf cur el c : elect_one_x apinned cf cur el c = elect_one cf cur el c.
Proof. reflexivity. Qed.
Lemma elect_all_x_pinned cf tied : forall cur el, elect_all_x apinned cf tied cur el = elect_all cf tied cur el.
Proof.
  induction tied as [|c t IH]; intros cur el; [reflexivity|]. cbn [elect_all_x elect_all]. rewrite elect_one_x_pinned.
  destruct (elect_one cf cur el c) as [[cur' el']|e]; [apply IH|reflexivity].
Qed.
Lemma round_scores_pinned cands cf cur el : round_scores apinned cands cf cur el = sum_scores cur.
Proof. unfold round_scores. destruct (sum_scores cur); reflexivity. Qed.
Lemma alloc_step_x_pinned cands cf cur el rem : alloc_step_x apinned cands cf cur el rem = alloc_step cf cur el rem.
Proof.
  unfold alloc_step_x, alloc_step. destruct rem as [|rem]; [reflexivity|]. rewrite round_scores_pinned.
  destruct (get_n_best Qle_bool (sum_scores cur) 1) as [|[c|t] rest]; [reflexivity| |].
  - rewrite elect_one_x_pinned. reflexivity.
  - rewrite elect_all_x_pinned. reflexivity.
Qed.
Lemma alloc_loop_x_pinned cands cf : forall fuel cur el rem, alloc_loop_x apinned cands fuel cf cur el rem = alloc_loop fuel cf cur el rem.
Proof.
  induction fuel as [|f IH]; intros cur el rem; [reflexivity|]. cbn [alloc_loop_x alloc_loop]. rewrite alloc_step_x_pinned.
  destruct (alloc_step cf cur el rem); [apply IH|reflexivity|reflexivity].
Qed.
Lemma alloc_distribute_x_pinned qs orders votes n prev mx :
  alloc_distribute_x apinned qs orders votes n prev mx = alloc_distribute qs orders votes n prev mx.
Proof. unfold alloc_distribute_x, alloc_distribute. rewrite alloc_loop_x_pinned. reflexivity. Qed.
Lemma alloc_select_x_pinned qs orders votes n : alloc_select_x apinned qs orders votes n = alloc_select qs orders votes n.
Proof. unfold alloc_select_x, alloc_select. rewrite alloc_distribute_x_pinned. reflexivity. Qed.
Lemma first_score_none cur c : first_score cur c = None -> no_supporters c cur.
Proof.
  unfold first_score. induction cur as [|bw cur IH]; intros H bw' Hin; [destruct Hin|]. cbn [flat_map] in H.
  destruct (dget (fst bw) c) as [s|] eqn:E; [discriminate|]. cbn [app] in H. destruct Hin as [<-|Hin]; [exact E|exact (IH H bw' Hin)].
Qed.

Lemma first_score_some cur c s : first_score cur c = Some s -> exists bw, In bw cur /\ dget (fst bw) c = Some s.
Proof.
  unfold first_score. induction cur as [|bw cur IH]; [discriminate|]. cbn [flat_map].
  destruct (dget (fst bw) c) as [s0|] eqn:E; cbn [app].
  - intros [= <-]. exists bw. split; [left; reflexivity|exact E].
  - intros H. destruct (IH H) as (bw' & Hin & Hs). exists bw'. split; [right; exact Hin|exact Hs].
Qed.

Theorem fraction_out_r_spec c : forall fuel cur ss, wpos cur -> (length cur < fuel)%nat -> 0 < ss ->
  match fraction_out_r fuel cur c ss with
  | inr _ => False
  | inl cur' =>
      exists t f, cur' = cut_at c t f cur /\ 0 <= f /\ f < 1 /\ (no_supporters c cur \/ has_score c cur t) /\
                  wtotal cur' == wtotal cur - Qmin ss (asupport c cur)
  end.
Proof.
  induction fuel as [|fuel IH]; intros cur ss Hp Hfuel Hss; [lia|].
  cbn [fraction_out_r]. assert (E0 : Qle_bool ss 0 = false) by (apply Qle_bool_false; exact Hss). rewrite E0.
  destruct (first_score cur c) as [bs0|] eqn:Efs; [|exact (removal_none c ss cur Hss (first_score_none cur c Efs))].
  destruct (first_score_some cur c bs0 Efs) as (bw0 & Hin0 & Hs0).
  destruct (best_score_spec c cur bs0) as (Hbs0 & Hmax & Hbs). cbv zeta in Hbs0, Hmax, Hbs.
  set (bs := best_score cur c bs0) in *.
  set (size := Qred (qsum (map snd (filter (fun bw : sballot * Q => is_best c bs (fst bw)) cur)))).
  assert (Hsize : size == lvl c bs cur).
  { unfold size. rewrite Qred_correct. apply (qsum_filter_lsum (fun bw => is_best c bs (fst bw))). }
  assert (Hhas : has_score c cur bs).
  { destruct Hbs as [Hbs|(bw' & Hin' & Hs')]; [exists bw0, bs0; rewrite Hbs; split; [exact Hin0|split; [exact Hs0|reflexivity]]|].
    exists bw', bs. split; [exact Hin'|split; [exact Hs'|reflexivity]]. }
  assert (Hlpos : 0 < lvl c bs cur) by (apply lvl_pos_iff; assumption).
  assert (Ez : Qeq_bool size 0 = false) by (apply Qeq_bool_false; lra). rewrite Ez.
  destruct (Qle_bool size ss) eqn:Ele.
  - (* remove all best votes, one more round *)
    apply Qle_bool_iff in Ele. set (P1 := filter (fun bw : sballot * Q => negb (is_best c bs (fst bw))) cur).
    pose proof (filter_top_shorter c bs cur Hhas) as Hlen. fold P1 in Hlen.
    assert (Hss1 : Qred (ss - size) == ss - lvl c bs cur) by (rewrite Qred_correct, Hsize; reflexivity).
    destruct (Qlt_le_dec 0 (Qred (ss - size))) as [Hpos1|Hnp1].
    + specialize (IH P1 (Qred (ss - size)) (wpos_filter _ _ Hp) ltac:(lia) Hpos1).
      destruct (fraction_out_r fuel P1 c (Qred (ss - size))) as [cur'|e]; [|exact IH].
      exact (removal_below c bs ss _ cur cur' Hmax Hhas Hss1 IH).
    + assert (Hnp : fraction_out_r fuel P1 c (Qred (ss - size)) = inl P1).
      { apply Qle_bool_iff in Hnp1. destruct fuel; cbn [fraction_out_r]; rewrite Hnp1; reflexivity. }
      rewrite Hnp. apply removal_top; try assumption. lra.
  - (* spread the subtraction across the best votes *)
    apply Qle_bool_false in Ele. apply removal_share; try assumption; [lra|]. rewrite Qred_correct, Hsize. reflexivity.
Qed.
Section Exhausted.
  Variable ra : arepairs.
  Hypothesis Hra : ra_exhausted ra = true.

  Theorem elect_one_x_spec cf cur el c : wpos cur -> 0 < ac_quota cf ->
    exists cur', elect_one_x ra cf cur el c = inl (cur', eincr el c) /\
      exists mid, removal_spec c (ac_quota cf) cur mid /\
                  cur' = (if eliminated (gained_of cf el c) (dget (ac_max cf) c) then subset_out c mid else mid) /\
                  wtotal cur' == wtotal cur - Qmin (ac_quota cf) (asupport c cur) /\ wpos cur'.
  Proof.
    intros Hp Hq. unfold elect_one_x, subtract_votes_x, fraction_out_x. rewrite Hra. fold (gained_of cf el c).
    pose proof (fraction_out_r_spec c (S (length cur)) cur (ac_quota cf) Hp (Nat.lt_succ_diag_r _) Hq) as H.
    destruct (fraction_out_r (S (length cur)) cur c (ac_quota cf)) as [mid|e]; [|destruct H].
    unfold eliminated. destruct (dget (ac_max cf) c) as [m|]; [destruct (gained_of cf el c =? m)%Z|];
      (eexists; split; [reflexivity|]);
      [exact (removal_done _ _ true _ _ Hp H)|exact (removal_done _ _ false _ _ Hp H)|exact (removal_done _ _ false _ _ Hp H)].
  Qed.

  Lemma elect_all_x_ok cf tied : forall cur el, wpos cur -> 0 < ac_quota cf ->
    exists cur' el', elect_all_x ra cf tied cur el = inl (cur', el') /\ wpos cur'.
  Proof.
    induction tied as [|c tied IH]; intros cur el Hp Hq; cbn [elect_all_x]; [exists cur, el; split; [reflexivity|exact Hp]|].
    destruct (elect_one_x_spec cf cur el c Hp Hq) as (cur1 & E & _ & _ & _ & _ & Hp1). rewrite E. exact (IH _ _ Hp1 Hq).
  Qed.

  (* a pass of the loop ends the count or fills at least one seat; it never fails *)
  Lemma alloc_step_x_ok cands cf cur el rem : wpos cur -> 0 < ac_quota cf ->
    match alloc_step_x ra cands cf cur el rem with
    | AS_next cur' el' rem' => wpos cur' /\ (rem' < rem)%nat
    | AS_done _ => True
    | AS_err _ => False
    end.
  Proof.
    intros Hp Hq. unfold alloc_step_x. destruct rem as [|r]; [exact I|]. rewrite Hra.
    destruct (get_n_best Qle_bool (round_scores ra cands cf cur el) 1) as [|[c|t] rest] eqn:Eb; [exact I| |].
    - destruct (elect_one_x_spec cf cur el c Hp Hq) as (cur1 & E & _ & _ & _ & _ & Hp1). rewrite E. split; [exact Hp1|lia].
    - destruct (Nat.leb (length t) (S r)); [|exact I].
      destruct (elect_all_x_ok cf (tie_iter (ac_orders cf) t) cur el Hp Hq) as (cur1 & el1 & E & Hp1). rewrite E. split; [exact Hp1|].
      assert (Ht : t <> []) by (apply (tie_nonempty (round_scores ra cands cf cur el) 1); rewrite Eb; left; reflexivity).
      destruct t; [congruence|]. cbn [length]. lia.
  Qed.

  Theorem alloc_loop_x_answers cands cf : forall fuel cur el rem, wpos cur -> 0 < ac_quota cf -> (rem < fuel)%nat ->
    exists e, alloc_loop_x ra cands fuel cf cur el rem = inl e.
  Proof.
    induction fuel as [|fuel IH]; intros cur el rem Hp Hq Hlt; [lia|]. cbn [alloc_loop_x].
    pose proof (alloc_step_x_ok cands cf cur el rem Hp Hq) as H.
    destruct (alloc_step_x ra cands cf cur el rem) as [cur' el' rem'|e'|e'].
    - destruct H as (Hp' & Hr). apply IH; [exact Hp'|exact Hq|lia].
    - eexists. reflexivity.
    - destruct H.
  Qed.

  (* fixes/C12-allocated-score-exhausted: the distributor and the selector answer for every profile with positive
     weights and a positive quota - no ValueError, no IndexError *)
  Theorem alloc_distribute_x_answers qs orders votes n prev mx :
    wpos votes -> 0 < ac_quota (alloc_cfg qs orders votes n prev mx) ->
    quota_divides_by_seats qs && Nat.eqb n 0 = false ->
    exists el, alloc_distribute_x ra qs orders votes n prev mx = inl el.
  Proof.
    intros Hp Hq Hz. unfold alloc_distribute_x. rewrite Hz.
    exact (alloc_loop_x_answers _ _ (S n) votes [] n Hp Hq (Nat.lt_succ_diag_r n)).
  Qed.

  Theorem alloc_select_x_answers qs orders votes n :
    wpos votes -> 0 < ac_quota (alloc_cfg qs orders votes n [] (map (fun c => (c, 1%Z)) (all_scored votes))) ->
    quota_divides_by_seats qs && Nat.eqb n 0 = false ->
    exists r, alloc_select_x ra qs orders votes n = inl r.
  Proof.
    intros Hp Hq Hz. unfold alloc_select_x.
    destruct (alloc_distribute_x_answers qs orders votes n [] _ Hp Hq Hz) as (el & ->). eexists. reflexivity.
  Qed.
End Exhausted.
Lemma is_best_compat c a b x : a == b -> is_best c a x = is_best c b x.
Proof.
  intros E. unfold is_best. destruct (dget x c) as [s|]; [|reflexivity].
  destruct (Qeq_bool s a) eqn:E1, (Qeq_bool s b) eqn:E2; try reflexivity.
  - apply Qeq_bool_iff in E1. apply Qeq_bool_false in E2. exfalso. apply E2. rewrite E1. exact E.
  - apply Qeq_bool_iff in E2. apply Qeq_bool_false in E1. exfalso. apply E1. rewrite E2. symmetry. exact E.
Qed.

Lemma best_score_start cur c m bs0 : overall_min cur = Some m -> first_score cur c = Some bs0 ->
  best_score cur c m == best_score cur c bs0.
Proof.
  intros Hm Hf. destruct (overall_min_some cur m Hm) as (_ & _ & Hmin).
  destruct (first_score_some cur c bs0 Hf) as (bw0 & Hin0 & Hs0).
  destruct (best_score_spec c cur m) as (A1 & A2 & A3). destruct (best_score_spec c cur bs0) as (B1 & B2 & B3). cbv zeta in *.
  apply Qle_antisym.
  - destruct A3 as [A3|(bw & Hin & Hs)]; [|exact (B2 bw _ Hin Hs)].
    rewrite A3. pose proof (Hmin bw0 (c, bs0) Hin0 (dget_In _ _ _ Hs0)) as H. cbn [snd] in H. lra.
  - destruct B3 as [B3|(bw & Hin & Hs)]; [|exact (A2 bw _ Hin Hs)].
    rewrite B3. exact (A2 bw0 bs0 Hin0 Hs0).
Qed.

Lemma fraction_out_conservative c : forall fuel cur ss cur',
  fraction_out fuel cur c ss = inl cur' -> fraction_out_r fuel cur c ss = inl cur'.
Proof.
  induction fuel as [|fuel IH]; intros cur ss cur'; cbn [fraction_out fraction_out_r]; destruct (Qle_bool ss 0); try (intros H; exact H).
  destruct (overall_min cur) as [m|] eqn:Em; [|discriminate].
  destruct (first_score cur c) as [bs0|] eqn:Ef.
  - pose proof (best_score_start cur c m bs0 Em Ef) as Hbs.
    assert (Hb : forall b, is_best c (best_score cur c m) b = is_best c (best_score cur c bs0) b) by (intros b; apply is_best_compat, Hbs).
    rewrite (filter_ext _ _ (fun bw : sballot * Q => Hb (fst bw))).
    set (size := Qred (qsum (map snd (filter (fun bw : sballot * Q => is_best c (best_score cur c bs0) (fst bw)) cur)))).
    destruct (Qeq_bool size 0); [intros H; exact H|].
    destruct (Qle_bool size ss).
    + rewrite (filter_ext (fun bw : sballot * Q => negb (is_best c (best_score cur c m) (fst bw))) (fun bw : sballot * Q => negb (is_best c (best_score cur c bs0) (fst bw))))
        by (intros bw; rewrite Hb; reflexivity).
      apply IH.
    + intros [= <-]. f_equal. apply map_ext. intros bw. rewrite Hb. reflexivity.
  - pose proof (first_score_none cur c Ef) as Hns.
    assert (Hnil : filter (fun bw : sballot * Q => is_best c (best_score cur c m) (fst bw)) cur = []).
    { assert (G : forall l : wprofile, (forall bw, In bw l -> dget (fst bw) c = None) ->
                filter (fun bw : sballot * Q => is_best c (best_score cur c m) (fst bw)) l = []).
      { induction l as [|bw l IHl]; intros Hl; [reflexivity|]. cbn [filter]. unfold is_best at 1. rewrite (Hl bw (or_introl eq_refl)).
        apply IHl. intros bw' Hin. apply Hl. right. exact Hin. }
      apply G, Hns. }
    rewrite Hnil. cbn [map qsum fold_left]. change (Qeq_bool (Qred 0) 0) with true. cbn iota. intros H. exact H.
Qed.

Section Conservative.
  Variable ra : arepairs.

  Lemma elect_one_x_conservative cf cur el c r : elect_one cf cur el c = inl r -> elect_one_x ra cf cur el c = inl r.
  Proof.
    unfold elect_one, elect_one_x, subtract_votes, subtract_votes_x, fraction_out_x.
    destruct (fraction_out (S (length cur)) cur c (ac_quota cf)) as [mid|e] eqn:E; [|discriminate].
    destruct (ra_exhausted ra); [rewrite (fraction_out_conservative c _ _ _ _ E)|]; intros H; exact H.
  Qed.

  Lemma elect_all_x_conservative cf tied : forall cur el r, elect_all cf tied cur el = inl r -> elect_all_x ra cf tied cur el = inl r.
  Proof.
    induction tied as [|c t IH]; intros cur el r; cbn [elect_all elect_all_x]; [intros H; exact H|].
    destruct (elect_one cf cur el c) as [[cur1 el1]|e] eqn:E; [|discriminate].
    rewrite (elect_one_x_conservative cf cur el c _ E). apply IH.
  Qed.

  Lemma alloc_step_x_conservative cands cf cur el rem : (forall e, alloc_step cf cur el rem <> AS_err e) ->
    alloc_step_x ra cands cf cur el rem = alloc_step cf cur el rem.
  Proof.
    unfold alloc_step, alloc_step_x. destruct rem as [|r]; [reflexivity|]. unfold round_scores.
    destruct (sum_scores cur) as [|p l] eqn:Es.
    - intros H. exfalso. apply (H AE_index). reflexivity.
    - rewrite <- Es. destruct (get_n_best Qle_bool (sum_scores cur) 1) as [|[c|t] rest].
      + intros H. exfalso. apply (H AE_index). reflexivity.
      + destruct (elect_one cf cur el c) as [[cur1 el1]|e] eqn:E; [|intros H; exfalso; apply (H e); reflexivity].
        rewrite (elect_one_x_conservative cf cur el c _ E). reflexivity.
      + destruct (Nat.leb (length t) (S r)); [|reflexivity].
        destruct (elect_all cf (tie_iter (ac_orders cf) t) cur el) as [[cur1 el1]|e] eqn:E; [|intros H; exfalso; apply (H e); reflexivity].
        rewrite (elect_all_x_conservative cf _ cur el _ E). reflexivity.
  Qed.

  Lemma alloc_loop_x_conservative cands cf : forall fuel cur el rem e,
    alloc_loop fuel cf cur el rem = inl e -> alloc_loop_x ra cands fuel cf cur el rem = inl e.
  Proof.
    induction fuel as [|f IH]; intros cur el rem e; cbn [alloc_loop alloc_loop_x]; [discriminate|].
    destruct (alloc_step cf cur el rem) as [cur' el' rem'|e'|e'] eqn:E; [| |discriminate];
      (rewrite (alloc_step_x_conservative cands cf cur el rem) by (intros e0; rewrite E; discriminate)); rewrite E; [apply IH|intros H; exact H].
  Qed.

  (* whatever the pinned distributor answered, the repaired one answers the same *)
  Theorem alloc_distribute_x_conservative qs orders votes n prev mx e :
    alloc_distribute qs orders votes n prev mx = inl e -> alloc_distribute_x ra qs orders votes n prev mx = inl e.
  Proof.
    unfold alloc_distribute, alloc_distribute_x. destruct (quota_divides_by_seats qs && Nat.eqb n 0); [discriminate|].
    apply alloc_loop_x_conservative.
  Qed.
End Conservative.
Theorem alloc_round_x ra cands cf cur el rem c rest : ra_exhausted ra = true -> NoDup cands ->
  wpos cur -> 0 < ac_quota cf -> (0 < rem)%nat ->
  get_n_best Qle_bool (round_scores ra cands cf cur el) 1 = Cand c :: rest ->
  ((sum_scores cur <> [] -> scored c cur /\ forall d, scored d cur -> d <> c -> wscore cur d < wscore cur c) /\
   (sum_scores cur = [] -> In c cands /\ may_gain cf el c = true /\ forall d, In d cands -> may_gain cf el d = true -> d = c)) /\
  exists cur', alloc_step_x ra cands cf cur el rem = AS_next cur' (eincr el c) (rem - 1) /\
    exists mid, removal_spec c (ac_quota cf) cur mid /\
                cur' = (if eliminated (gained_of cf el c) (dget (ac_max cf) c) then subset_out c mid else mid) /\
                wtotal cur' == wtotal cur - Qmin (ac_quota cf) (asupport c cur) /\ wpos cur'.
Proof.
  intros Hra Hnd Hp Hq Hrem Hbest. split.
  - unfold round_scores in Hbest. destruct (sum_scores cur) as [|p l] eqn:Es.
    + split; [congruence|]. intros _. rewrite Hra in Hbest.
      set (z := map (fun c0 : C => (c0, 0)) (filter (may_gain cf el) cands)) in *.
      assert (Hkz : map fst z = filter (may_gain cf el) cands) by (unfold z; rewrite map_map; cbn [fst]; apply map_id).
      assert (Hndz : NoDup (map fst z)) by (rewrite Hkz; apply NoDup_filter, Hnd).
      destruct (get_n_best_1_cand Qle_bool Qle_bool_total Qle_bool_trans z c rest Hndz Hbest) as (_ & v & Hin & Hmax).
      assert (Hc : In c (filter (may_gain cf el) cands)) by (rewrite <- Hkz; apply in_map_iff; exists (c, v); auto).
      apply filter_In in Hc. split; [apply Hc|]. split; [apply Hc|]. intros d Hd Hg.
      destruct (Pos.eq_dec d c) as [E|E]; [exact E|exfalso].
      assert (Hdz : In (d, 0) z) by (unfold z; apply in_map_iff; exists d; split; [reflexivity|apply filter_In; auto]).
      assert (Hv : v = 0) by (unfold z in Hin; apply in_map_iff in Hin; destruct Hin as (x & Hx & _); congruence).
      specialize (Hmax d 0 Hdz E). rewrite Hv in Hmax. discriminate.
    + split; [|discriminate]. intros _. rewrite <- Es in Hbest. exact (alloc_winner_greatest cur c rest Hbest).
  - unfold alloc_step_x. destruct rem as [|r]; [lia|]. rewrite Hbest.
    destruct (elect_one_x_spec ra Hra cf cur el c Hp Hq) as (cur' & E & H). rewrite E. exists cur'. split; [reflexivity|exact H].
Qed.
