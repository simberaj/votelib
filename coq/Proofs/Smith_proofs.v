(* The Smith-set routine computes exactly the Smith set (C06): the output of [smith_schwartz v true]
   is a dominating set (non-empty, every member beats every outsider) and is contained in every dominating
   set.  Ingredients: the completed dictionary, the win-or-tie relation, Copeland scores (a member of a
   dominating set outscores every outsider by at least 2, so dominating sets are prefixes of the Copeland
   order), the closure of the single sorted pass (Condorcet_proofs.smith_schwartz_closed) and an upper bound
   on the pass by any dominating prefix.
   Last, Copeland is Smith-efficient (C05): a sole Copeland winner (first-order scores) lies in the Smith set, by the
   counting argument of copeland_gap for the strict win relation of the dictionary itself. *)
From Coq Require Import ZArith List Bool Lia Arith Permutation Sorted.
From VL Require Import Prelude.PyDict Model.GetNBest Model.Condorcet Proofs.Dict_proofs Proofs.GetNBest_proofs
     Proofs.Condorcet_proofs Proofs.CopelandMono_proofs.
Import ListNotations.
Open Scope Z_scope.

Lemma cscore_keys (ws : list pair) : NoDup (map fst (copeland_scores ws)) /\
  forall x, In x (map fst (copeland_scores ws)) <-> exists p, In p ws /\ (x = fst p \/ x = snd p).
Proof.
  destruct (tally_keys (-1) ws [] (NoDup_nil _)) as [Hn Hk]. split; [exact Hn|].
  intros x. rewrite (Hk x). simpl. tauto.
Qed.

Section INS.
  Variable D : list C.
  Definition inS (x : C) : bool := if in_dec Pos.eq_dec x D then true else false.
  Lemma inS_iff x : inS x = true <-> In x D.
  Proof. unfold inS. destruct (in_dec Pos.eq_dec x D); split; auto; discriminate. Qed.
  Lemma inS_false x : inS x = false <-> ~ In x D.
  Proof. unfold inS. destruct (in_dec Pos.eq_dec x D); split; auto; try discriminate; tauto. Qed.
End INS.

Section GAP.
  Variables cs D : list C.
  Hypothesis Hcs : NoDup cs.

  Definition ins : list C := filter (inS D) cs.
  Definition outs : list C := filter (fun x => negb (inS D x)) cs.
  Lemma ins_iff x : In x ins <-> In x cs /\ In x D.
  Proof. unfold ins. rewrite filter_In, inS_iff. tauto. Qed.
  Lemma outs_iff x : In x outs <-> In x cs /\ ~ In x D.
  Proof. unfold outs. rewrite filter_In, negb_true_iff, inS_false. tauto. Qed.
  Lemma ins_nodup : NoDup ins.
  Proof. apply NoDup_filter, Hcs. Qed.
  Lemma outs_nodup : NoDup outs.
  Proof. apply NoDup_filter, Hcs. Qed.

  (* R relates candidates; every member of D is related to every outsider and only members are related to a member
     (R = strict wins, or wins and ties).  Then a member has a win over each outsider and loses to other members only,
     an outsider wins against other outsiders only and loses to each member. *)
  Variable R : list pair.
  Hypothesis HR : NoDup R.
  Hypothesis Hends : forall x y, In (x, y) R -> In x cs /\ In y cs /\ x <> y.
  Hypothesis Hwin : forall x y, In x D -> In x cs -> In y cs -> ~ In y D -> In (x, y) R.
  Hypothesis Hback : forall x y, In (x, y) R -> In y D -> In x D.

  Lemma copeland_gap a b : In a D -> In a cs -> In b cs -> ~ In b D ->
    dget_or (copeland_scores R) b 0 + 2 <= dget_or (copeland_scores R) a 0.
  Proof.
    intros HaD Ha Hb HbD. rewrite !copeland_scores_count.
    assert (E1 : (length outs <= length (filter (fun p : pair => ceqb (fst p) a) R))%nat).
    { rewrite <- (@map_length pair C snd). apply NoDup_incl_length; [apply outs_nodup|].
      intros y Hy. apply outs_iff in Hy. destruct Hy as [Hyc HyD]. apply In_filter_fst, Hwin; assumption. }
    assert (E2 : (S (length (filter (fun p : pair => ceqb (snd p) a) R)) <= length ins)%nat).
    { rewrite <- (@map_length pair C fst). apply (NoDup_incl_length (l := a :: _)).
      - constructor; [|apply filter_pairs_snd_nodup, HR]. intros H. apply In_filter_snd, Hends in H. tauto.
      - intros x [<-|Hx]; apply ins_iff; [split; assumption|]. apply In_filter_snd in Hx.
        split; [apply (Hends _ _ Hx)|apply (Hback _ _ Hx HaD)]. }
    assert (E3 : (S (length (filter (fun p : pair => ceqb (fst p) b) R)) <= length outs)%nat).
    { rewrite <- (@map_length pair C snd). apply (NoDup_incl_length (l := b :: _)).
      - constructor; [|apply filter_pairs_fst_nodup, HR]. intros H. apply In_filter_fst, Hends in H. tauto.
      - intros y [<-|Hy]; apply outs_iff; [split; assumption|]. apply In_filter_fst in Hy.
        split; [apply (Hends _ _ Hy)|]. intros HyD. exact (HbD (Hback _ _ Hy HyD)). }
    assert (E4 : (length ins <= length (filter (fun p : pair => ceqb (snd p) b) R))%nat).
    { rewrite <- (@map_length pair C fst). apply NoDup_incl_length; [apply ins_nodup|].
      intros x Hx. apply ins_iff in Hx. destruct Hx as [Hxc HxD]. apply In_filter_snd, Hwin; assumption. }
    lia.
  Qed.
End GAP.

Section SMITH.
  Variable v : pvotes.
  Hypothesis Hnn : forall p n, In (p, n) v -> 0 <= n.
  Hypothesis Hndv : NoDup (map fst v).
  Notation cs := (candidates v).
  Notation cv := (complete v).
  Hypothesis H2 : (2 <= length cs)%nat.

  Lemma complete_in a b n : In ((a, b), n) cv <-> In a cs /\ In b cs /\ a <> b /\ n = pget0 v (a, b).
  Proof.
    unfold complete. rewrite in_flat_map. split.
    - intros (c1 & H1 & Hin). apply in_flat_map in Hin. destruct Hin as (c2 & Hc2 & Hin).
      destruct (ceqb c1 c2) eqn:E; [destruct Hin|]. destruct Hin as [Hin|[]]. inversion Hin; subst.
      apply ceqb_neq in E. tauto.
    - intros (Ha & Hb & Hab & ->). exists a. split; [exact Ha|]. apply in_flat_map. exists b. split; [exact Hb|].
      apply ceqb_neq in Hab. rewrite Hab. left. reflexivity.
  Qed.

  Lemma complete_keys_nodup : NoDup (map fst cv).
  Proof.
    apply NoDup_map_inj.
    - (* the count of an entry is determined by its key *)
      intros [[a b] n] [[a' b'] n'] H H' E. simpl in E. injection E as <- <-.
      apply complete_in in H. apply complete_in in H'. destruct H as (_ & _ & _ & ->), H' as (_ & _ & _ & ->). reflexivity.
    - (* an entry determines the candidates it was generated from *)
      assert (Hone : forall c1 c2 y, In y (if ceqb c1 c2 then [] else [((c1, c2), pget0 v (c1, c2))]) -> fst y = (c1, c2)).
      { intros c1 c2 y Hy. destruct (ceqb c1 c2); [destruct Hy|]. destruct Hy as [<-|[]]. reflexivity. }
      unfold complete. apply NoDup_flat_map; [apply candidates_NoDup| |].
      + intros c1 _. apply NoDup_flat_map; [apply candidates_NoDup| |].
        * intros c2 _. destruct (ceqb c1 c2); [constructor|]. constructor; [intros []|constructor].
        * intros c2 c2' y _ _ H H'. apply Hone in H. apply Hone in H'. congruence.
      + intros c1 c1' y _ _ H H'. apply in_flat_map in H. apply in_flat_map in H'.
        destruct H as (c2 & _ & H), H' as (c2' & _ & H'). apply Hone in H. apply Hone in H'. congruence.
  Qed.

  Lemma complete_pget0 a b : In a cs -> In b cs -> a <> b -> pget0 cv (a, b) = pget0 v (a, b).
  Proof.
    intros Ha Hb Hab. unfold pget0 at 1.
    rewrite (In_pget cv (a, b) (pget0 v (a, b)) complete_keys_nodup); [reflexivity|].
    apply complete_in. tauto.
  Qed.

  Lemma complete_nonneg p n : In (p, n) cv -> 0 <= n.
  Proof using Hnn.
    destruct p as [a b]. intros H. apply complete_in in H. destruct H as (_ & _ & _ & ->). apply (pget0_nonneg v Hnn).
  Qed.

  (* win-or-tie relation of the completed dictionary *)
  Notation WT := (pairwise_wins cv true).

  Lemma wt_iff a b : In (a, b) WT <-> In a cs /\ In b cs /\ a <> b /\ pget0 v (b, a) <= pget0 v (a, b).
  Proof.
    rewrite pairwise_wins_In. split.
    - intros (n & Hin & H). apply complete_in in Hin. destruct Hin as (Ha & Hb & Hab & ->).
      rewrite (complete_pget0 b a Hb Ha) in H by congruence.
      split; [exact Ha|]. split; [exact Hb|]. split; [exact Hab|]. lia.
    - intros (Ha & Hb & Hab & Hle). exists (pget0 v (a, b)). split; [apply complete_in; tauto|].
      rewrite (complete_pget0 b a Hb Ha) by congruence.
      destruct (Z.eq_dec (pget0 v (b, a)) (pget0 v (a, b))); [right; tauto|left; lia].
  Qed.

  Lemma wt_nodup : NoDup WT.
  Proof. unfold pairwise_wins. apply nodup_keys_filter. exact complete_keys_nodup. Qed.

  Lemma wt_not_beaten a b : In (a, b) WT -> ~ beats v b a.
  Proof. intros H. apply wt_iff in H. unfold beats. lia. Qed.

  Notation scores := (copeland_scores WT).
  Lemma scores_keys x : In x (map fst scores) <-> In x cs.
  Proof.
    destruct (cscore_keys WT) as [_ K]. rewrite K. split.
    - intros ([a b] & Hp & Hx). apply wt_iff in Hp. simpl in Hx. destruct Hx as [->| ->]; tauto.
    - intros Hx.
      (* some other candidate exists *)
      assert (Hy : exists y, In y cs /\ y <> x).
      { pose proof (candidates_NoDup v) as Hn. destruct cs as [|c1 [|c2 t]] eqn:E; simpl in H2; try lia.
        destruct (Pos.eq_dec c1 x) as [->|N1]; [exists c2; split; [right; left; reflexivity|]|exists c1; split; [left; reflexivity|exact N1]].
        inversion Hn as [|? ? Hc _]; subst. intros ->. apply Hc. left. reflexivity. }
      destruct Hy as (y & Hy & Hyx). destruct (Z.le_ge_cases (pget0 v (y, x)) (pget0 v (x, y))) as [H|H].
      + exists (x, y). split; [apply wt_iff; repeat split; auto|left; reflexivity].
      + exists (y, x). split; [apply wt_iff; repeat split; auto; lia|right; reflexivity].
  Qed.

  Variable D : list C.
  Hypothesis Hdom : forall a b, In a D -> In b cs -> ~ In b D -> beats v a b.

  Lemma score_gap a b : In a D -> In a cs -> In b cs -> ~ In b D ->
    dget_or scores b 0 + 2 <= dget_or scores a 0.
  Proof.
    apply (copeland_gap cs D (candidates_NoDup v) WT wt_nodup).
    - intros x y H. apply wt_iff in H. tauto.
    - intros x y Hx Hxc Hyc Hy. pose proof (Hdom x y Hx Hyc Hy) as Hb. unfold beats in Hb.
      apply wt_iff. repeat split; auto; [intros ->; contradiction|lia].
    - intros x y H Hy. destruct (in_dec Pos.eq_dec x D) as [Hi|Hn]; [exact Hi|exfalso].
      apply (wt_not_beaten _ _ H). apply wt_iff in H. apply Hdom; tauto.
  Qed.
End SMITH.

Lemma complete_wins_cands (v : pvotes) p t : In p (pairwise_wins (complete v) t) -> In (fst p) (candidates v) /\ In (snd p) (candidates v).
Proof.
  destruct p as [a b]. intros H. apply pairwise_wins_In in H. destruct H as (n & Hin & _). apply complete_in in Hin. simpl. tauto.
Qed.

Close Scope Z_scope.
Open Scope nat_scope.

Lemma idx_lt_length c l : In c l -> index_of c l < length l.
Proof.
  induction l as [|x l IH]; simpl; [tauto|]. intros H. destruct (ceqb c x) eqn:E; [lia|].
  destruct H as [->|H]; [rewrite ceqb_refl in E; discriminate|]. specialize (IH H). lia.
Qed.

Lemma firstn_idx c : forall k l, In c (firstn k l) <-> (index_of c l < k /\ In c l).
Proof.
  induction k as [|k IH]; intros l; [simpl; split; [tauto|lia]|].
  destruct l as [|x l]; simpl; [tauto|]. destruct (ceqb c x) eqn:E.
  - apply ceqb_eq in E. subst. split; [intros _; split; [lia|left; reflexivity]|intros _; left; reflexivity].
  - apply ceqb_neq in E. rewrite IH. split.
    + intros [->|[H1 H2]]; [congruence|]. split; [lia|right; exact H2].
    + intros [H1 [->|H2]]; [congruence|]. right. split; [lia|exact H2].
Qed.

Lemma sorted_idx (sl : list (C * Z)) a sa b sb :
  StronglySorted (fun x y : C * Z => zle_bool (snd y) (snd x) = true) sl -> NoDup (map fst sl) ->
  In (a, sa) sl -> In (b, sb) sl -> (sb < sa)%Z -> index_of a (map fst sl) < index_of b (map fst sl).
Proof.
  induction 1 as [|[x sx] sl Hs IH Hall]; simpl; [tauto|]. intros Hnd Ha Hb Hlt.
  inversion Hnd as [|? ? Hx Hn]; subst.
  destruct Ha as [Ha|Ha]; destruct Hb as [Hb|Hb].
  - injection Ha as -> ->. injection Hb as <- <-. lia.
  - injection Ha as -> ->. rewrite ceqb_refl. destruct (ceqb b a) eqn:E; [|lia].
    apply ceqb_eq in E. subst b. exfalso. apply Hx. apply in_map_iff. exists (a, sb). auto.
  - injection Hb as -> ->. exfalso. rewrite Forall_forall in Hall. specialize (Hall (a, sa) Ha). simpl in Hall.
    unfold zle_bool in Hall. apply Z.leb_le in Hall. lia.
  - assert (Hax : ceqb a x = false).
    { apply ceqb_neq. intros ->. apply Hx. apply in_map_iff. exists (x, sa). auto. }
    assert (Hbx : ceqb b x = false).
    { apply ceqb_neq. intros ->. apply Hx. apply in_map_iff. exists (x, sb). auto. }
    rewrite Hax, Hbx. specialize (IH Hn Ha Hb Hlt). lia.
Qed.

(* a predicate whose members all precede its non-members cuts the list at some position k *)
Lemma prefix_cut (P : C -> bool) : forall l, NoDup l ->
  (forall a b, In a l -> In b l -> P a = true -> P b = false -> index_of a l < index_of b l) ->
  exists k, forall x, In x l -> (P x = true <-> index_of x l < k).
Proof.
  induction l as [|x l IH]; intros Hnd H; [exists 0; intros y []|].
  inversion Hnd as [|? ? Hx Hn]; subst.
  destruct (P x) eqn:Px.
  - destruct (IH Hn) as (k & Hk).
    { intros a b Ha Hb Pa Pb. specialize (H a b (or_intror Ha) (or_intror Hb) Pa Pb). simpl in H.
      assert (ceqb a x = false) as Ea by (apply ceqb_neq; intros ->; exact (Hx Ha)).
      assert (ceqb b x = false) as Eb by (apply ceqb_neq; intros ->; exact (Hx Hb)).
      rewrite Ea, Eb in H. lia. }
    exists (S k). intros y [<-|Hy]; simpl.
    + rewrite ceqb_refl. split; [lia|intros _; exact Px].
    + assert (ceqb y x = false) as -> by (apply ceqb_neq; intros ->; exact (Hx Hy)). rewrite (Hk y Hy). lia.
  - exists 0. intros y Hy. split; [|lia]. intros Py. exfalso.
    destruct Hy as [<-|Hy]; [congruence|].
    specialize (H y x (or_intror Hy) (or_introl eq_refl) Py Px). simpl in H. rewrite ceqb_refl in H.
    assert (ceqb y x = false) as E by (apply ceqb_neq; intros ->; exact (Hx Hy)). rewrite E in H. lia.
Qed.

(* the pass never leaves a prefix that is closed under "wins or ties against a member" *)
Lemma ss_loop_bound (order : list C) (P : C -> bool) (k : nat) :
  (forall x, In x order -> (P x = true <-> index_of x order < k)) ->
  forall ws e, (forall w l, In (w, l) ws -> In w order /\ In l order /\ (P l = true -> P w = true)) ->
  e <= k -> ss_loop order ws e <= k.
Proof.
  intros Hk. induction ws as [|[w l] ws IH]; intros e Hws He; simpl; [exact He|].
  assert (Hrest : forall w' l', In (w', l') ws -> In w' order /\ In l' order /\ (P l' = true -> P w' = true)).
  { intros w' l' Hin. apply Hws. right. exact Hin. }
  destruct (Nat.leb e (index_of w order) && Nat.ltb (index_of l order) e) eqn:Ec; [|apply IH; assumption].
  apply andb_true_iff in Ec. destruct Ec as [E1 E2]. apply Nat.leb_le in E1. apply Nat.ltb_lt in E2.
  destruct (Hws w l (or_introl eq_refl)) as (Hw & Hl & Himp).
  assert (Pw : P w = true) by (apply Himp; apply (Hk l Hl); lia).
  assert (Hwk : index_of w order < k) by (apply (Hk w Hw); exact Pw).
  destruct (Nat.eqb (length order) (S (index_of w order))); [lia|]. apply IH; [exact Hrest|lia].
Qed.

Open Scope Z_scope.
Section SMITHSET.
  Variable v : pvotes.
  Hypothesis Hnn : forall p n, In (p, n) v -> 0 <= n.
  Hypothesis Hndv : NoDup (map fst v).
  Hypothesis H2 : (2 <= length (candidates v))%nat.
  Notation cs := (candidates v).
  Notation WT := (pairwise_wins (complete v) true).
  Notation scores := (copeland_scores WT).
  Notation order := (map fst (sort_desc zle_bool scores)).

  Lemma order_perm : Permutation order (map fst scores).
  Proof. apply Permutation_map, sort_desc_perm. Qed.
  Lemma order_in x : In x order <-> In x cs.
  Proof.
    rewrite <- (scores_keys v H2 x). split; intros H; [apply (Permutation_in _ order_perm H)|apply (Permutation_in _ (Permutation_sym order_perm) H)].
  Qed.
  Lemma order_nodup : NoDup order.
  Proof. eapply Permutation_NoDup; [apply Permutation_sym, order_perm|]. apply (cscore_keys WT). Qed.

  Lemma score_of x s : In (x, s) (sort_desc zle_bool scores) -> s = dget_or scores x 0.
  Proof.
    intros H. apply (Permutation_in _ (sort_desc_perm zle_bool scores)) in H.
    symmetry. apply In_dget_or; [apply (cscore_keys WT)|exact H].
  Qed.

  Lemma order_idx_lt a b : In a cs -> In b cs -> dget_or scores b 0 < dget_or scores a 0 -> (index_of a order < index_of b order)%nat.
  Proof.
    intros Ha Hb Hlt.
    apply order_in, in_map_iff in Ha. destruct Ha as ([a' sa] & Ea & Ha). simpl in Ea. subst a'.
    apply order_in, in_map_iff in Hb. destruct Hb as ([b' sb] & Eb & Hb). simpl in Eb. subst b'.
    apply (sorted_idx (sort_desc zle_bool scores) a sa b sb).
    - pose proof (sort_desc_sorted zle_bool zle_total zle_trans scores) as Hs. exact Hs.
    - exact order_nodup.
    - exact Ha.
    - exact Hb.
    - rewrite (score_of a sa Ha), (score_of b sb Hb). exact Hlt.
  Qed.

  Lemma cs_inhabited : exists c0, In c0 cs.
  Proof. pose proof H2 as H. destruct cs as [|c0 t]; [simpl in H; lia|]. exists c0. left. reflexivity. Qed.

  Let O := smith_schwartz v true.

  Theorem smith_dominating : O <> [] /\ forall a b, In a O -> In b cs -> ~ In b O -> beats v a b.
  Proof.
    destruct (smith_schwartz_closed v true) as (HO & HE1 & Hcl). fold O in HO.
    set (E := ss_loop order (map fst (@sort_asc pair nat Nat.leb (map (fun p => (p, index_of (snd p) order)) WT))) 1) in *.
    split.
    - rewrite HO. assert (Hne : order <> []).
      { destruct cs_inhabited as (c0 & Hc0). assert (Hc : In c0 order) by (apply order_in; exact Hc0).
        intros E0. rewrite E0 in Hc. destruct Hc. }
      destruct order as [|x t]; [congruence|]. destruct E; [lia|]. simpl. discriminate.
    - intros a b Ha Hb Hnb. rewrite HO in Ha, Hnb.
      apply firstn_idx in Ha. destruct Ha as [Hia Hao]. apply order_in in Hao.
      assert (Hab : a <> b). { intros ->. apply Hnb. apply firstn_idx. split; [exact Hia|apply order_in; exact Hb]. }
      destruct (Z.lt_ge_cases (pget0 v (b, a)) (pget0 v (a, b))) as [Hlt|Hge]; [exact Hlt|exfalso].
      assert (Hwt : In (b, a) WT) by (apply (wt_iff v H2); repeat split; auto).
      apply Hnb. apply firstn_idx. split; [|apply order_in; exact Hb].
      destruct Hcl as [Hall|Hcl].
      + rewrite Hall. apply idx_lt_length. apply order_in. exact Hb.
      + apply (Hcl b a Hwt Hia).
  Qed.

  Lemma smith_subset x : In x O -> In x cs.
  Proof.
    destruct (smith_schwartz_closed v true) as (HO & _ & _). fold O in HO. rewrite HO. intros H.
    apply firstn_idx in H. apply order_in. tauto.
  Qed.

  Lemma smith_member : exists a, In a O /\ In a cs.
  Proof.
    destruct smith_dominating as [Hne _]. destruct O as [|a t] eqn:E; [congruence|].
    exists a. split; [left; reflexivity|]. apply smith_subset. rewrite E. left. reflexivity.
  Qed.

  Theorem smith_minimal (D : list C) : D <> [] ->
    (forall a b, In a D -> In b cs -> ~ In b D -> beats v a b) -> incl O D.
  Proof.
    intros Dne Hdom.
    destruct (smith_schwartz_closed v true) as (HO & _ & _). fold O in HO.
    set (ws := map fst (@sort_asc pair nat Nat.leb (map (fun p => (p, index_of (snd p) order)) WT))) in *.
    (* some member of D is a candidate: a given candidate, or whoever in D beats it *)
    assert (Hmem : exists a0, In a0 D /\ In a0 cs).
    { destruct D as [|a0 D'] eqn:ED; [congruence|]. destruct cs_inhabited as (c0 & Hc0).
      destruct (in_dec Pos.eq_dec c0 (a0 :: D')) as [Hi|Hni]; [exists c0; split; assumption|].
      exists a0. split; [left; reflexivity|]. apply (beats_cands v Hnn a0 c0). apply Hdom; [left; reflexivity|exact Hc0|exact Hni]. }
    destruct Hmem as (a0 & Ha0D & Ha0c).
    set (P := inS D).
    destruct (prefix_cut P order order_nodup) as (k & Hk).
    { intros a b Ha Hb Pa Pb. apply order_in in Ha. apply order_in in Hb.
      apply order_idx_lt; [exact Ha|exact Hb|].
      pose proof (score_gap v H2 D Hdom a b (proj1 (inS_iff D a) Pa) Ha Hb (proj1 (inS_false D b) Pb)). lia. }
    assert (Hk1 : (1 <= k)%nat).
    { assert (Hi : (index_of a0 order < k)%nat) by (apply (Hk a0 (proj2 (order_in a0) Ha0c)); apply inS_iff; exact Ha0D). lia. }
    assert (HE : (ss_loop order ws 1 <= k)%nat).
    { apply (ss_loop_bound order P k Hk); [|exact Hk1].
      intros w l Hin. assert (Hwt : In (w, l) WT).
      { destruct (sorted_wins order WT) as [Hp _]. fold ws in Hp. apply (Permutation_in _ Hp). exact Hin. }
      pose proof (wt_not_beaten v H2 _ _ Hwt) as Hnb. apply (wt_iff v H2) in Hwt. destruct Hwt as (Hw & Hl & _ & _).
      split; [apply order_in; exact Hw|]. split; [apply order_in; exact Hl|].
      intros Pl. apply inS_iff in Pl. apply inS_iff. destruct (in_dec Pos.eq_dec w D) as [Hi|Hn]; [exact Hi|].
      exfalso. apply Hnb. apply Hdom; assumption. }
    intros x Hx. rewrite HO in Hx. apply firstn_idx in Hx. destruct Hx as [Hix Hxo].
    apply (inS_iff D). apply (Hk x Hxo). fold ws in Hix. lia.
  Qed.
End SMITHSET.

Section SC.
  Variable v : pvotes.
  Hypothesis Hnd : NoDup (map fst v).
  Hypothesis Hnn : forall p n, In (p, n) v -> 0 <= n.
  Hypothesis H2 : (2 <= length (candidates v))%nat.
  Notation cs := (candidates v).
  Notation W := (pairwise_wins v false).
  Variable D : list C.
  Hypothesis Hdom : forall a b, In a D -> In b cs -> ~ In b D -> beats v a b.

  Lemma strict_gap a b : In a D -> In a cs -> In b cs -> ~ In b D ->
    nwins v b - nlosses v b + 2 <= nwins v a - nlosses v a.
  Proof using Hnd Hnn H2 Hdom.
    rewrite <- !copeland_scores_get.
    apply (copeland_gap cs D (candidates_NoDup v) W (wins_NoDup v Hnd)).
    - intros x y H. apply (wins_iff v Hnd Hnn), (beats_cands v Hnn) in H. exact H.
    - intros x y Hx _ Hyc Hy. apply (wins_iff v Hnd Hnn), Hdom; assumption.
    - intros x y H Hy. destruct (in_dec Pos.eq_dec x D) as [Hi|Hn]; [exact Hi|exfalso].
      apply (wins_iff v Hnd Hnn) in H. destruct (beats_cands v Hnn x y H) as (Hxc & _ & _).
      pose proof (Hdom y x Hy Hxc Hn) as H'. unfold beats in *. lia.
  Qed.

  (* hence an outsider's entry in the score dictionary is below that of any member *)
  Lemma outsider_outscored a c s : In a D -> In a cs -> In (c, s) (cscores v) -> ~ In c D ->
    exists sa, In (a, sa) (cscores v) /\ s < sa.
  Proof.
    intros HaD Hac Hin Hd. destruct (cscores_facts v Hnd Hnn) as (Sn & Sv & Sc).
    destruct (Sv c s Hin) as [Hs Hcc]. pose proof (strict_gap a c HaD Hac Hcc Hd) as Hgap.
    apply Sc, in_map_iff in Hac. destruct Hac as ([a' sa] & Hf & Hina). simpl in Hf. subst a'.
    exists sa. split; [exact Hina|]. destruct (Sv a sa Hina) as [Hsa _]. lia.
  Qed.
End SC.

Theorem copeland_in_smith (v : pvotes) (w : C) :
  NoDup (map fst v) -> (forall p n, In (p, n) v -> 0 <= n) -> (2 <= length (candidates v))%nat ->
  get_n_best zle_bool (cscores v) 1 = [Cand w] -> In w (smith_schwartz v true).
Proof.
  intros Hnd Hnn H2 Hwin.
  destruct (cscores_facts v Hnd Hnn) as (Sn & _ & _).
  destruct (get_n_best_1_cand zle_bool zle_total zle_trans (cscores v) w [] Sn Hwin) as (_ & sw & Hin & Hmax).
  destruct (in_dec Pos.eq_dec w (smith_schwartz v true)) as [Hi|Hn]; [exact Hi|exfalso].
  destruct (smith_member v H2) as (a & HaD & Hac).
  destruct (outsider_outscored v Hnd Hnn H2 _ (proj2 (smith_dominating v H2)) a w sw HaD Hac Hin Hn) as (sa & Hina & Hlt).
  assert (Haw : a <> w) by (intros ->; contradiction).
  specialize (Hmax a sa Hina Haw). unfold GetNBest.ltb, zle_bool in Hmax. apply negb_true_iff, Z.leb_gt in Hmax. lia.
Qed.
