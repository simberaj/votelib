(* The score dictionaries ScoreToSimpleVotes.corrected_scores builds (Model/Cardinal.v raw_scores, correct_scores:
   unscored_value, min_count, truncation) are well formed - every count >= 0 and the grades of one candidate
   numerically distinct ([cs_ok], the hypothesis of the majority-judgment removal theorems) - for every configuration,
   whenever the ballot counts are >= 0 and no ballot scores a candidate twice. *)
From Coq Require Import ZArith QArith Qround List Bool Arith Lia.
From VL Require Import Prelude.PyDict Model.GetNBest Model.Convert Model.Cardinal Proofs.QOrd Proofs.Dict_proofs
     Proofs.MJ_proofs Proofs.MJ_removal_proofs.
Import ListNotations.
Open Scope Z_scope.

Definition cs_okd (d : cscores) : Prop := cs_nonneg d /\ cs_distinct d.

Lemma cs_set_keys d s n x : In x (map fst (cs_set d s n)) -> x = s \/ In x (map fst d).
Proof.
  induction d as [|[s' n'] t IH]; cbn [cs_set map fst In]; [intros [<-|[]]; left; reflexivity|].
  destruct (Qeq_bool s s'); cbn [map fst In]; [intros [<-|H]; right; [left; reflexivity|right; exact H]|].
  intros [<-|H]; [right; left; reflexivity|]. destruct (IH H) as [->|H']; [left; reflexivity|right; right; exact H'].
Qed.

Lemma cs_set_distinct_gen d s n : cs_distinct d -> cs_distinct (cs_set d s n).
Proof.
  induction d as [|[s' n'] t IH]; cbn [cs_set cs_distinct]; [intros _; split; [intros ? []|exact I]|].
  intros (Hhead & Ht). cbn [fst] in Hhead. destruct (Qeq_bool s s') eqn:E; cbn [cs_distinct fst]; [split; assumption|].
  split; [|apply IH, Ht]. intros sn' Hin He.
  assert (Hk : In (fst sn') (map fst (cs_set t s n))) by (apply in_map, Hin).
  apply cs_set_keys in Hk. destruct Hk as [Hk|Hk].
  - rewrite Hk in He. apply Qeq_bool_iff in He. congruence.
  - apply in_map_iff in Hk. destruct Hk as (sn0 & Hf & Hin0). apply (Hhead _ Hin0). rewrite Hf. exact He.
Qed.

Lemma cs_set_nonneg_gen d s n : cs_nonneg d -> 0 <= n -> cs_nonneg (cs_set d s n).
Proof.
  unfold cs_nonneg. induction d as [|[s' n'] t IH]; cbn [cs_set]; intros H Hn; [constructor; [exact Hn|constructor]|].
  inversion H; subst. destruct (Qeq_bool s s'); [constructor; [exact Hn|assumption]|constructor; [assumption|apply IH; assumption]].
Qed.

Lemma cs_get_nonneg d s k : cs_nonneg d -> cs_get d s = Some k -> 0 <= k.
Proof.
  unfold cs_nonneg. induction d as [|[s' n'] t IH]; cbn [cs_get]; intros H; [discriminate|]. inversion H; subst.
  destruct (Qeq_bool s s'); [intros [= <-]; assumption|apply IH; assumption].
Qed.

Lemma cs_set_okd d s n : cs_okd d -> 0 <= n -> cs_okd (cs_set d s n).
Proof. intros (H1 & H2) Hn. split; [apply cs_set_nonneg_gen; assumption|apply cs_set_distinct_gen, H2]. Qed.

Lemma single_okd s n : 0 <= n -> cs_okd [(s, n)].
Proof. intros Hn. split; [constructor; [exact Hn|constructor]|split; [intros ? []|exact I]]. Qed.

(* the dictionary with n_votes - cs_total d more copies of the grade v *)
Lemma fill_okd d v n_votes : cs_okd d -> cs_total d <= n_votes ->
  cs_okd (cs_set d v (n_votes - cs_total d + match cs_get d v with Some n => n | None => 0 end)).
Proof.
  intros Hd Hle. apply cs_set_okd; [exact Hd|].
  destruct (cs_get d v) as [k|] eqn:E; [pose proof (cs_get_nonneg _ _ _ (proj1 Hd) E); lia|lia].
Qed.

Lemma filter_distinct (f : Q * Z -> bool) d : cs_distinct d -> cs_distinct (filter f d).
Proof.
  induction d as [|sn t IH]; cbn [filter cs_distinct]; [trivial|]. intros (Hhead & Ht).
  destruct (f sn); cbn [cs_distinct]; [|apply IH, Ht]. split; [|apply IH, Ht].
  intros sn' Hin. apply filter_In in Hin. apply Hhead, Hin.
Qed.

Lemma cs_del_okd d s : cs_okd d -> cs_okd (cs_del d s).
Proof.
  intros (H1 & H2). unfold cs_del. split; [|apply filter_distinct, H2].
  unfold cs_nonneg in *. rewrite Forall_forall in *. intros sn Hin. apply filter_In in Hin. apply H1, Hin.
Qed.

Lemma cs_total_cons sn d : cs_total (sn :: d) = snd sn + cs_total d.
Proof. unfold cs_total. cbn [map fold_left]. rewrite fold_add_shift. lia. Qed.

Lemma cs_total_set d s n :
  cs_total (cs_set d s n) = cs_total d - (match cs_get d s with Some k => k | None => 0 end) + n.
Proof.
  induction d as [|[s' n'] t IH]; cbn [cs_set cs_get]; [unfold cs_total; cbn; lia|].
  destruct (Qeq_bool s s'); rewrite !cs_total_cons; cbn [snd]; [lia|]. rewrite IH. lia.
Qed.

Lemma cs_total_nonneg d : cs_nonneg d -> 0 <= cs_total d.
Proof.
  unfold cs_nonneg. induction 1 as [|sn d Hsn _ IH]; [unfold cs_total; cbn; lia|]. rewrite cs_total_cons. lia.
Qed.

Lemma dset_in {X} (d : list (C * X)) k x cd : In cd (dset d k x) -> cd = (k, x) \/ In cd d.
Proof.
  induction d as [|[k' v'] t IH]; cbn [dset In]; [intros [<-|[]]; left; reflexivity|].
  destruct (ceqb k k') eqn:E; cbn [In].
  - apply ceqb_eq in E. subst k'. intros [<-|H]; [left; reflexivity|right; right; exact H].
  - intros [<-|H]; [right; left; reflexivity|]. destruct (IH H) as [->|H']; [left; reflexivity|right; right; exact H'].
Qed.

Lemma old_okd (d : list (C * cscores)) c : (forall cd, In cd d -> cs_okd (snd cd)) ->
  cs_okd (match dget d c with Some x => x | None => [] end).
Proof.
  intros H. destruct (dget d c) as [x|] eqn:E; [apply dget_In in E; apply (H _ E)|].
  split; [constructor|exact I].
Qed.

Lemma raw_step_okd w d cs : 0 <= w -> (forall cd, In cd d -> cs_okd (snd cd)) ->
  forall cd, In cd (raw_step w d cs) -> cs_okd (snd cd).
Proof.
  intros Hw H cd Hin. unfold raw_step in Hin. cbv zeta in Hin. apply dset_in in Hin. destruct Hin as [->|Hin]; [|apply H, Hin].
  cbn [snd]. pose proof (old_okd d (fst cs) H) as Hold. apply cs_set_okd; [exact Hold|].
  destruct (cs_get _ (snd cs)) as [k|] eqn:E; [pose proof (cs_get_nonneg _ _ _ (proj1 Hold) E); lia|lia].
Qed.

Lemma raw_scores_okd votes : (forall bn, In bn votes -> 0 <= snd bn) ->
  forall cd, In cd (raw_scores votes) -> cs_okd (snd cd).
Proof.
  intros Hv. rewrite raw_scores_unfold.
  apply (fold_left_inv (fun d => forall cd, In cd d -> cs_okd (snd cd))); [|intros cd []].
  intros d bn Hbn Hd. apply (fold_left_inv (fun d => forall cd, In cd d -> cs_okd (snd cd))); [|exact Hd].
  intros d' cs _. apply raw_step_okd, Hv, Hbn.
Qed.

(* no candidate holds more scores than there are voters *)
Lemma raw_step_bound w W done d cs : 0 <= w -> 0 <= W -> ~ In (fst cs) done ->
  (forall cd, In cd d -> cs_total (snd cd) <= W + (if cmem (fst cd) done then w else 0)) ->
  forall cd, In cd (raw_step w d cs) -> cs_total (snd cd) <= W + (if cmem (fst cd) (fst cs :: done) then w else 0).
Proof.
  intros Hw HW Hnd H cd Hin. unfold raw_step in Hin. cbv zeta in Hin. apply dset_in in Hin. destruct Hin as [->|Hin].
  - cbn [fst snd cmem]. rewrite ceqb_refl. cbn [orb]. rewrite cs_total_set.
    assert (Hold : cs_total (match dget d (fst cs) with Some x => x | None => [] end) <= W).
    { destruct (dget d (fst cs)) as [x|] eqn:E; [|unfold cs_total; cbn; lia]. apply dget_In in E. specialize (H _ E). cbn [fst snd] in H.
      destruct (cmem (fst cs) done) eqn:Ec; [apply cmem_In in Ec; contradiction|lia]. }
    lia.
  - specialize (H _ Hin). cbn [cmem]. destruct (ceqb (fst cd) (fst cs)); cbn [orb]; [destruct (cmem (fst cd) done); lia|exact H].
Qed.

Lemma raw_ballot_bound w W : 0 <= w -> 0 <= W -> forall (b : sballot) done d, NoDup (map fst b) ->
  (forall c, In c (map fst b) -> ~ In c done) ->
  (forall cd, In cd d -> cs_total (snd cd) <= W + (if cmem (fst cd) done then w else 0)) ->
  forall cd, In cd (fold_left (raw_step w) b d) -> cs_total (snd cd) <= W + w.
Proof.
  intros Hw HW. induction b as [|cs b IH]; intros done d Hnd Hdis H cd Hin.
  - cbn [fold_left] in Hin. specialize (H _ Hin). destruct (cmem (fst cd) done); lia.
  - cbn [fold_left] in Hin. cbn [map] in Hnd. inversion Hnd as [|? ? Hx Hn]; subst.
    apply (IH (fst cs :: done) (raw_step w d cs) Hn); [| |exact Hin].
    + intros c Hc [<-|Hd]; [exact (Hx Hc)|]. apply (Hdis c); [right; exact Hc|exact Hd].
    + apply raw_step_bound; try assumption. apply Hdis. left. reflexivity.
Qed.

Lemma raw_scores_bound votes : (forall bn, In bn votes -> 0 <= snd bn /\ NoDup (map fst (fst bn))) ->
  forall cd, In cd (raw_scores votes) -> cs_total (snd cd) <= fold_left Z.add (map snd votes) 0.
Proof.
  intros Hv. rewrite raw_scores_unfold.
  assert (H : forall (vs : sprofile) d W, 0 <= W -> (forall bn, In bn vs -> 0 <= snd bn /\ NoDup (map fst (fst bn))) ->
            (forall cd, In cd d -> cs_total (snd cd) <= W) ->
            forall cd, In cd (fold_left (fun d (bn : sballot * Z) => fold_left (raw_step (snd bn)) (fst bn) d) vs d) ->
              cs_total (snd cd) <= W + fold_left Z.add (map snd vs) 0).
  { induction vs as [|bn vs IH]; intros d W HW Hvs Hd cd Hin; [cbn in *; specialize (Hd _ Hin); lia|].
    cbn [fold_left map] in *. destruct (Hvs bn (or_introl eq_refl)) as (Hw & Hnd).
    rewrite fold_add_shift. replace (W + (0 + snd bn + fold_left Z.add (map snd vs) 0)) with ((W + snd bn) + fold_left Z.add (map snd vs) 0) by lia.
    apply (IH (fold_left (raw_step (snd bn)) (fst bn) d)); [lia| | |exact Hin].
    - intros bn' Hbn'. apply Hvs. right. exact Hbn'.
    - apply (raw_ballot_bound (snd bn) W Hw HW (fst bn) [] d Hnd); [intros c _ []|].
      intros cd' Hcd'. cbn [cmem]. specialize (Hd _ Hcd'). lia. }
  intros cd Hin. pose proof (H votes [] 0 (Z.le_refl 0) Hv (fun cd0 (F : In cd0 []) => match F with end) cd Hin) as H0. rewrite Z.add_0_l in H0. exact H0.
Qed.

Lemma subtract_lowest_okd keys : forall d cutoff cut d', cs_okd d -> subtract_lowest d keys cutoff cut = Some d' -> cs_okd d'.
Proof.
  induction keys as [|s t IH]; intros d cutoff cut d' Hd; cbn [subtract_lowest]; [intros [= <-]; exact Hd|].
  destruct (cs_get d s) as [n|] eqn:E; [|apply IH, Hd].
  destruct (n <=? cutoff - cut) eqn:En; [apply IH, cs_del_okd, Hd|]. intros [= <-]. apply Z.leb_gt in En.
  apply cs_set_okd; [exact Hd|lia].
Qed.

Lemma correct_scores_x_okd rp cf d n_votes d' : cs_okd d -> (sc_unscored cf = UNone \/ cs_total d <= n_votes) ->
  correct_scores_x rp cf d n_votes = inl d' -> cs_okd d'.
Proof.
  intros Hd Hb. unfold correct_scores_x. cbv zeta.
  pose proof (cs_total_nonneg d (proj1 Hd)) as Ht.
  destruct (cs_total d <? sc_min_count cf) eqn:Em.
  { intros [= <-]. apply Z.ltb_lt in Em. apply single_okd. lia. }
  match goal with |- match ?X with inl _ => _ | inr _ => _ end = _ -> _ => destruct X as [d1|e] eqn:E1; [|discriminate] end.
  assert (Hd1 : cs_okd d1).
  { destruct (sc_unscored cf) as [|v|]; [injection E1 as <-; exact Hd| |]; (destruct Hb as [Hb|Hb]; [discriminate|]).
    - injection E1 as <-. apply fill_okd; assumption.
    - destruct (list_min _) as [v|]; [|discriminate]. injection E1 as <-. apply fill_okd; assumption. }
  destruct (Qle_bool (sc_trunc cf) 0); [intros [= <-]; exact Hd1|].
  match goal with |- match subtract_lowest d1 ?K ?CU 0 with _ => _ end = _ -> _ =>
    destruct (subtract_lowest d1 K CU 0) as [d2|] eqn:E2; [|discriminate];
    destruct (subtract_lowest d2 (rev K) CU 0) as [d3|] eqn:E3; [|discriminate] end.
  intros [= <-]. apply (subtract_lowest_okd _ _ _ _ _ (subtract_lowest_okd _ _ _ _ _ Hd1 E2) E3).
Qed.

Lemma correct_scores_okd cf d n_votes d' : cs_okd d -> (sc_unscored cf = UNone \/ cs_total d <= n_votes) ->
  correct_scores cf d n_votes = inl d' -> cs_okd d'.
Proof. exact (correct_scores_x_okd pinned cf d n_votes d'). Qed.

(* ballots with non-negative counts that score no candidate twice *)
Definition profile_ok (votes : sprofile) : Prop :=
  forall bn, In bn votes -> 0 <= snd bn /\ NoDup (map fst (fst bn)).

(* the dictionaries of a sequenced map are what the map makes of the raw ones *)
Lemma sequence_map_ok (F : cscores -> cscores + serr) (raw sc : list (C * cscores)) :
  sequence (map (fun cd : C * cscores => (fst cd, F (snd cd))) raw) = inl sc ->
  (forall cd d', In cd raw -> F (snd cd) = inl d' -> cs_okd d') -> Forall cs_ok sc.
Proof.
  intros Hsc H. apply Forall_forall. intros [c d'] Hin. apply (sequence_in _ _ _ _ Hsc) in Hin.
  apply in_map_iff in Hin. destruct Hin as (cd & Heq & Hcd). injection Heq as _ Hcorr. exact (H cd d' Hcd Hcorr).
Qed.

Theorem corrected_scores_ok cf votes sc : profile_ok votes -> corrected_scores cf votes = inl sc -> Forall cs_ok sc.
Proof.
  intros Hv Hsc. apply (sequence_map_ok (fun d => correct_scores cf d (fold_left Z.add (map snd votes) 0)) _ _ Hsc).
  intros cd d' Hcd. apply correct_scores_okd; [exact (raw_scores_okd votes (fun bn H => proj1 (Hv bn H)) cd Hcd)|].
  right. exact (raw_scores_bound votes Hv cd Hcd).
Qed.

(* the same without the one-score-per-candidate condition when unscored candidates are not filled in *)
Theorem corrected_scores_ok_none cf votes sc : (forall bn, In bn votes -> 0 <= snd bn) -> sc_unscored cf = UNone ->
  corrected_scores cf votes = inl sc -> Forall cs_ok sc.
Proof.
  intros Hv Hu Hsc. apply (sequence_map_ok (fun d => correct_scores cf d (fold_left Z.add (map snd votes) 0)) _ _ Hsc).
  intros cd d' Hcd. apply correct_scores_okd; [exact (raw_scores_okd votes Hv cd Hcd)|left; exact Hu].
Qed.
