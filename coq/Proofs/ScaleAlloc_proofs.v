(* Scale invariance (C11) of allocated score voting (Model/AllocScore.v: AllocatedScoreDistributor / Selector) with a
   homogeneous quota (Hare, Hagenbach-Bischoff, Imperiali; a constant quota scaled with the votes): a state simulation.
   The remaining votes of the two runs hold the same ballots in the same order with weights related by x' == k x
   (the model normalises by Qred, hence ==); the weighted score sums are k-fold (same winner, same ties), the
   scan for the strongest supporters only reads the ballots, the size of the top group and the quota scale together,
   so the exhaustion loop takes the same branches and the spreading fraction (size - quota) / size is scale-free.
   The loop is simulated once, for the [_x] definitions under any set of repairs; with no repair applied they are
   the evaluator as it stands (AllocRepair_proofs.alloc_distribute_x_pinned). *)
From Coq Require Import ZArith QArith Qround List Bool Lia Lqa Qfield.
From VL Require Import Prelude.PyDict Model.GetNBest Model.Convert Model.Quota Model.AllocScore
     Proofs.Dict_proofs Proofs.GetNBest_proofs Proofs.QOrd Proofs.LRScale_proofs Proofs.STVScale_proofs Proofs.Scale2Score_proofs
     Proofs.AllocRepair_proofs.
Import ListNotations.
Open Scope Q_scope.

(* one round of _fraction_out_elected once the scan has its starting score [bs0]; [rec] is the next round *)
Definition fo_round (rec : wprofile -> Q -> wprofile + aerr) (cur : wprofile) (c : C) (ss bs0 : Q) : wprofile + aerr :=
  let bs := best_score cur c bs0 in
  let size := Qred (qsum (map snd (filter (fun bw => is_best c bs (fst bw)) cur))) in
  if Qeq_bool size 0 then inl cur
  else if Qle_bool size ss then rec (filter (fun bw => negb (is_best c bs (fst bw))) cur) (Qred (ss - size))
  else let fr := Qred ((size - ss) / size) in
       inl (map (fun bw => if is_best c bs (fst bw) then (fst bw, Qred (snd bw * fr)) else bw) cur).

Section AllocScale.
  Variable k : Q.
  Hypothesis Hk : 0 < k.
  Notation qs := (qsc k).

  Definition wprel : wprofile -> wprofile -> Prop := lrel (K := sballot) qs.
  Notation drel := (lrel (K := C) qs).

  Lemma sum_scores_rel cur cur' : wprel cur cur' -> drel (sum_scores cur) (sum_scores cur').
  Proof.
    intros H. unfold sum_scores. apply fold_left_rel with (RB := prel qs); [|exact H|constructor].
    intros d d' bw bw' Hd [Hb Hw]. rewrite <- Hb. apply fold_left_rel_same; [|exact Hd].
    intros e e' cs He. apply dset_lrel; [exact He|].
    apply qsc_red, qsc_plus; [apply dget_or_rel, He|apply qsc_mult_l, Hw].
  Qed.

  Lemma wprel_ballots cur cur' : wprel cur cur' -> map fst cur' = map fst cur.
  Proof. apply lrel_keys. Qed.

  Lemma ballot_mins_rel cur cur' : wprel cur cur' -> ballot_mins cur' = ballot_mins cur.
  Proof.
    intros H. induction H as [|y y' l l' [Hb _] Hl IH]; cbn [ballot_mins]; [reflexivity|].
    rewrite <- Hb, IH. reflexivity.
  Qed.

  Lemma best_score_rel cur cur' c : wprel cur cur' -> forall bs0, best_score cur' c bs0 = best_score cur c bs0.
  Proof.
    intros H bs0. symmetry. apply fold_left_rel with (RA := eq) (RB := prel qs); [|exact H|reflexivity].
    intros a a' y y' -> [-> _]. reflexivity.
  Qed.

  Lemma first_score_rel cur cur' c : wprel cur cur' -> first_score cur' c = first_score cur c.
  Proof.
    intros H. unfold first_score. apply (f_equal (fun l : list Q => match l with [] => None | s :: _ => Some s end)).
    apply (Forall2_flat_map_eq (prel qs)); [|exact H]. intros x x' [E _]. rewrite E. reflexivity.
  Qed.

  Lemma all_scored_rel votes votes' : wprel votes votes' -> all_scored votes' = all_scored votes.
  Proof. apply (Forall2_flat_map_eq (prel qs)). intros x x' [E _]. exact (f_equal (map fst) (eq_sym E)). Qed.

  Lemma qsum_rel (l l' : wprofile) : wprel l l' -> qs (qsum (map snd l)) (qsum (map snd l')).
  Proof. intros H. exact (qsum_acc_rel k _ _ H _ _ (qsc_0 k)). Qed.

  Definition wres_rel (x y : wprofile + aerr) : Prop :=
    match x, y with
    | inl a, inl b => wprel a b
    | inr e, inr e' => e = e'
    | _, _ => False
    end.

  (* the size of the top group and the amount still to subtract scale together, so the round takes the same branch
     and the spreading fraction (size - ss) / size is the same *)
  Lemma fo_round_rel rec rec' c bs0 :
    (forall cur cur' ss ss', wprel cur cur' -> qs ss ss' -> wres_rel (rec cur ss) (rec' cur' ss')) ->
    forall cur cur' ss ss', wprel cur cur' -> qs ss ss' -> wres_rel (fo_round rec cur c ss bs0) (fo_round rec' cur' c ss' bs0).
  Proof.
    intros Hrec cur cur' ss ss' Hc Hs. unfold fo_round. cbv zeta.
    rewrite (best_score_rel _ _ c Hc bs0). set (bs := best_score cur c bs0).
    pose proof (qsc_red k _ _ (qsum_rel _ _ (lrel_filter_fst qs (is_best c bs) _ _ Hc))) as Hsize.
    set (size := Qred (qsum (map snd (filter (fun bw : sballot * Q => is_best c bs (fst bw)) cur)))) in *.
    set (size' := Qred (qsum (map snd (filter (fun bw : sballot * Q => is_best c bs (fst bw)) cur')))) in *.
    rewrite (qsc_eq k Hk _ _ _ _ Hsize (qsc_0 k)). destruct (Qeq_bool size 0); [exact Hc|].
    rewrite (qsc_le k Hk _ _ _ _ Hsize Hs). destruct (Qle_bool size ss).
    - apply Hrec; [exact (lrel_filter_fst qs (fun b => negb (is_best c bs b)) _ _ Hc)|].
      apply qsc_red, qsc_minus; assumption.
    - cbn [wres_rel]. apply Forall2_map with (RA := prel qs); [|exact Hc].
      intros y y' [Hb Hw]. rewrite <- Hb. destruct (is_best c bs (fst y)); [|split; assumption].
      split; [reflexivity|]. apply qsc_red, qsc_mult; [exact Hw|]. rewrite !Qred_correct.
      apply (qsc_div k Hk); [apply qsc_minus; assumption|exact Hsize].
  Qed.

  Lemma fraction_out_rel c fuel : forall cur cur' ss ss', wprel cur cur' -> qs ss ss' ->
    wres_rel (fraction_out fuel cur c ss) (fraction_out fuel cur' c ss').
  Proof.
    induction fuel as [|f IH]; intros cur cur' ss ss' Hc Hs; cbn [fraction_out];
      rewrite (qsc_le k Hk _ _ _ _ Hs (qsc_0 k)); destruct (Qle_bool ss 0); try exact Hc; [reflexivity|].
    unfold overall_min. rewrite (ballot_mins_rel _ _ Hc). fold (overall_min cur).
    destruct (overall_min cur) as [bs0|]; [|reflexivity].
    exact (fo_round_rel (fun cur ss => fraction_out f cur c ss) (fun cur ss => fraction_out f cur c ss) c bs0 IH _ _ _ _ Hc Hs).
  Qed.

  Lemma fraction_out_r_rel c fuel : forall cur cur' ss ss', wprel cur cur' -> qs ss ss' ->
    wres_rel (fraction_out_r fuel cur c ss) (fraction_out_r fuel cur' c ss').
  Proof.
    induction fuel as [|f IH]; intros cur cur' ss ss' Hc Hs; cbn [fraction_out_r];
      rewrite (qsc_le k Hk _ _ _ _ Hs (qsc_0 k)); destruct (Qle_bool ss 0); try exact Hc; [reflexivity|].
    rewrite (first_score_rel _ _ c Hc). destruct (first_score cur c) as [bs0|]; [|exact Hc].
    exact (fo_round_rel (fun cur ss => fraction_out_r f cur c ss) (fun cur ss => fraction_out_r f cur c ss) c bs0 IH _ _ _ _ Hc Hs).
  Qed.

  Lemma wadd_rel d d' b w w' : wprel d d' -> qs w w' -> wprel (wadd d b w) (wadd d' b w').
  Proof.
    intros H Hw. induction H as [|[b0 w0] [b0' w0'] l l' [Hb Hw0] Hl IH]; cbn [wadd].
    - constructor; [split; [reflexivity|exact Hw]|constructor].
    - cbn [fst snd] in Hb, Hw0 |- *. subst b0'. destruct (sb_eqb b b0).
      + constructor; [|exact Hl]. split; [reflexivity|]. apply qsc_red, qsc_plus; assumption.
      + constructor; [split; [reflexivity|exact Hw0]|exact IH].
  Qed.

  Lemma subset_out_rel c cur cur' : wprel cur cur' -> wprel (subset_out c cur) (subset_out c cur').
  Proof.
    intros H. unfold subset_out. apply fold_left_rel with (RB := prel qs); [|exact H|constructor].
    intros d d' y y' Hd [Hb Hw]. rewrite <- Hb. apply wadd_rel; assumption.
  Qed.

  Lemma subtract_votes_x_rel ra cur cur' c gained mx q q' : wprel cur cur' -> qs q q' ->
    wres_rel (subtract_votes_x ra cur c gained mx q) (subtract_votes_x ra cur' c gained mx q').
  Proof.
    intros Hc Hq. unfold subtract_votes_x, fraction_out_x. rewrite (lrel_length _ _ _ Hc).
    assert (Hf : wres_rel (if ra_exhausted ra then fraction_out_r (S (length cur)) cur c q else fraction_out (S (length cur)) cur c q)
                          (if ra_exhausted ra then fraction_out_r (S (length cur)) cur' c q' else fraction_out (S (length cur)) cur' c q'))
      by (destruct (ra_exhausted ra); [apply fraction_out_r_rel|apply fraction_out_rel]; assumption).
    destruct (if ra_exhausted ra then _ else _) as [a|e], (if ra_exhausted ra then _ else _) as [a'|e'];
      cbn [wres_rel] in Hf; try contradiction; [|exact Hf].
    destruct mx as [m|]; [|exact Hf]. destruct (gained =? m)%Z; [|exact Hf]. cbn [wres_rel]. apply subset_out_rel, Hf.
  Qed.

  Definition cfrel (cf cf' : acfg) : Prop :=
    qs (ac_quota cf) (ac_quota cf') /\ ac_prev cf' = ac_prev cf /\ ac_max cf' = ac_max cf /\ ac_orders cf' = ac_orders cf.

  Definition pres_rel (x y : (wprofile * elected) + aerr) : Prop :=
    match x, y with
    | inl (a, e), inl (a', e') => wprel a a' /\ e' = e
    | inr e, inr e' => e = e'
    | _, _ => False
    end.

  Lemma elect_one_x_rel ra cf cf' cur cur' el c : cfrel cf cf' -> wprel cur cur' ->
    pres_rel (elect_one_x ra cf cur el c) (elect_one_x ra cf' cur' el c).
  Proof.
    intros (Hq & Hp & Hm & _) Hc. unfold elect_one_x. rewrite Hp, Hm.
    pose proof (subtract_votes_x_rel ra _ _ c (eget (eincr el c) c + dget_or (ac_prev cf) c 0)%Z (dget (ac_max cf) c) _ _ Hc Hq) as Hs.
    destruct (subtract_votes_x ra cur c _ _ (ac_quota cf)) as [a|e], (subtract_votes_x ra cur' c _ _ (ac_quota cf')) as [a'|e'];
      cbn [wres_rel] in Hs; try contradiction; cbn [pres_rel]; [split; [exact Hs|reflexivity]|exact Hs].
  Qed.

  Lemma elect_all_x_rel ra cf cf' tied : cfrel cf cf' -> forall cur cur' el, wprel cur cur' ->
    pres_rel (elect_all_x ra cf tied cur el) (elect_all_x ra cf' tied cur' el).
  Proof.
    intros Hcf. induction tied as [|c t IH]; intros cur cur' el Hc; cbn [elect_all_x]; [split; [exact Hc|reflexivity]|].
    pose proof (elect_one_x_rel ra cf cf' _ _ el c Hcf Hc) as H1.
    destruct (elect_one_x ra cf cur el c) as [[a e]|e], (elect_one_x ra cf' cur' el c) as [[a' e']|e'];
      cbn [pres_rel] in H1; try contradiction; [|exact H1].
    destruct H1 as [Ha ->]. apply IH, Ha.
  Qed.

  (* the round in which no remaining ballot scores anybody: the same candidates stand level at zero *)
  Lemma round_scores_rel ra cands cf cf' cur cur' el : cfrel cf cf' -> wprel cur cur' ->
    drel (round_scores ra cands cf cur el) (round_scores ra cands cf' cur' el).
  Proof.
    intros (_ & Hp & Hm & _) Hc. unfold round_scores. pose proof (sum_scores_rel _ _ Hc) as Hs.
    destruct (sum_scores cur) as [|p l], (sum_scores cur') as [|p' l']; try (inversion Hs; fail); [|exact Hs].
    destruct (ra_exhausted ra); [|constructor].
    assert (Hg : forall c, may_gain cf' el c = may_gain cf el c) by (intros c; unfold may_gain; rewrite Hp, Hm; reflexivity).
    rewrite (filter_ext _ _ Hg). apply Forall2_map_same. intros c. split; [reflexivity|exact (qsc_0 k)].
  Qed.

  Definition step_rel (x y : astep) : Prop :=
    match x, y with
    | AS_next a e r, AS_next a' e' r' => wprel a a' /\ e' = e /\ r' = r
    | AS_done e, AS_done e' => e' = e
    | AS_err e, AS_err e' => e' = e
    | _, _ => False
    end.

  Lemma step_of_pres r x y : pres_rel x y ->
    step_rel match x with inr e => AS_err e | inl (cur, el) => AS_next cur el r end
             match y with inr e => AS_err e | inl (cur, el) => AS_next cur el r end.
  Proof.
    destruct x as [[a e]|e], y as [[a' e']|e']; cbn [pres_rel step_rel]; try contradiction; [|congruence].
    intros [Ha ->]. split; [exact Ha|split; reflexivity].
  Qed.

  Lemma alloc_step_x_rel ra cands cf cf' cur cur' el rem : cfrel cf cf' -> wprel cur cur' ->
    step_rel (alloc_step_x ra cands cf cur el rem) (alloc_step_x ra cands cf' cur' el rem).
  Proof.
    intros Hcf Hc. unfold alloc_step_x. destruct rem as [|r]; [reflexivity|].
    rewrite (get_n_best_rel Qle_bool Qle_bool _ (qsc_le k Hk) _ _ 1%nat (round_scores_rel ra cands _ _ _ _ el Hcf Hc)).
    destruct (get_n_best Qle_bool (round_scores ra cands cf cur el) 1) as [|[c|t] rest]; [destruct (ra_exhausted ra); reflexivity| |].
    - apply step_of_pres, elect_one_x_rel; assumption.
    - destruct (Nat.leb (length t) (S r)); [|reflexivity].
      rewrite (proj2 (proj2 (proj2 Hcf))). apply step_of_pres, elect_all_x_rel; assumption.
  Qed.

  Lemma alloc_loop_x_rel ra cands cf cf' : cfrel cf cf' -> forall fuel cur cur' el rem, wprel cur cur' ->
    alloc_loop_x ra cands fuel cf' cur' el rem = alloc_loop_x ra cands fuel cf cur el rem.
  Proof.
    intros Hcf. induction fuel as [|f IH]; intros cur cur' el rem Hc; cbn [alloc_loop_x]; [reflexivity|].
    pose proof (alloc_step_x_rel ra cands cf cf' _ _ el rem Hcf Hc) as Hs.
    destruct (alloc_step_x ra cands cf cur el rem) as [a e r|e|e], (alloc_step_x ra cands cf' cur' el rem) as [a' e' r'|e'|e'];
      cbn [step_rel] in Hs; try contradiction; try congruence.
    destruct Hs as (Ha & -> & ->). apply IH, Ha.
  Qed.

  (* the quota spec of the k-fold election: named quotas stay, a constant quota is multiplied by k *)
  Definition qspec_scale (q : quota_spec) : quota_spec :=
    match q with QNamed i => QNamed i | QConst c => QConst (k * c) end.
  Definition qspec_homog (q : quota_spec) : bool :=
    match q with QNamed i => homogeneous_quota i | QConst _ => true end.

  Lemma qspec_rel q v v' n : qspec_homog q = true -> qs v v' -> qs (quota_fn q v n) (quota_fn (qspec_scale q) v' n).
  Proof.
    intros Hh Hv. destruct q as [i|c]; cbn [qspec_scale qspec_homog] in *.
    - exact (quota_fn_homog k i Hh v v' n Hv).
    - unfold quota_fn, qsc. reflexivity.
  Qed.

  Lemma alloc_distribute_x_rel ra q orders votes votes' n prev mx : qspec_homog q = true -> wprel votes votes' ->
    alloc_distribute_x ra (qspec_scale q) orders votes' n prev mx = alloc_distribute_x ra q orders votes n prev mx.
  Proof.
    intros Hh Hv. unfold alloc_distribute_x.
    assert (Hd : quota_divides_by_seats (qspec_scale q) = quota_divides_by_seats q) by (destruct q; reflexivity).
    rewrite Hd. destruct (quota_divides_by_seats q && Nat.eqb n 0); [reflexivity|].
    unfold cands_score. fold (all_scored votes'). fold (all_scored votes). rewrite (all_scored_rel _ _ Hv).
    apply alloc_loop_x_rel; [|exact Hv].
    unfold cfrel, alloc_cfg. cbn [ac_quota ac_prev ac_max ac_orders]. repeat split.
    apply qsc_red, qspec_rel; [exact Hh|apply qsum_rel, Hv].
  Qed.

  Theorem alloc_distribute_rel q orders votes votes' n prev mx : qspec_homog q = true -> wprel votes votes' ->
    alloc_distribute (qspec_scale q) orders votes' n prev mx = alloc_distribute q orders votes n prev mx.
  Proof. rewrite <- !alloc_distribute_x_pinned. apply alloc_distribute_x_rel. Qed.

  Theorem alloc_select_rel q orders votes votes' n : qspec_homog q = true -> wprel votes votes' ->
    alloc_select (qspec_scale q) orders votes' n = alloc_select q orders votes n.
  Proof.
    intros Hh Hv. unfold alloc_select.
    rewrite (all_scored_rel _ _ Hv), (alloc_distribute_rel q orders _ _ n [] _ Hh Hv). reflexivity.
  Qed.

  Theorem alloc_select_x_rel ra q orders votes votes' n : qspec_homog q = true -> wprel votes votes' ->
    alloc_select_x ra (qspec_scale q) orders votes' n = alloc_select_x ra q orders votes n.
  Proof.
    intros Hh Hv. unfold alloc_select_x.
    rewrite (all_scored_rel _ _ Hv), (alloc_distribute_x_rel ra q orders _ _ n [] _ Hh Hv). reflexivity.
  Qed.

  Definition wscale (votes : wprofile) : wprofile := map (fun bw => (fst bw, k * snd bw)) votes.
  Lemma wprel_scale votes : wprel votes (wscale votes).
  Proof. apply lrel_scale. Qed.
End AllocScale.
