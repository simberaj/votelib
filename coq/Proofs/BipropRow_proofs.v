(* C07 <-> C01: a district row of a certified biproportional matrix IS the answer of the HighestAverages model on that
   district's votes weighted by the party multipliers (parties without votes in the district left out), whenever
   the min-max inequality of the certificate is strict (no tie at the cut).  Rests on the uniqueness theorem
   Proofs/HAUnique_proofs.v. *)
From Coq Require Import ZArith QArith List Bool Lia Lqa.
From VL Require Import Prelude.PyDict Model.Divisor Model.HighestAverages Model.Biprop
     Proofs.Dict_proofs Proofs.Divisor_proofs Proofs.HA_proofs Proofs.Mono_proofs Proofs.HAUnique_proofs Proofs.HAMinmax_proofs Proofs.Biprop_proofs.
Import ListNotations.
Open Scope Z_scope.

Definition all_pos (t : list (C * Z)) : Prop := Forall (fun kv => 0 < snd kv) t.

Lemma all_pos_dget_or t c : all_pos t -> 0 <= dget_or t c 0.
Proof.
  unfold dget_or. induction t as [|[k v] t IH]; intros H; simpl; [lia|].
  inversion H as [|? ? Hk Ht]; subst. destruct (ceqb c k); [simpl in Hk; lia|apply IH, Ht].
Qed.

Lemma all_pos_dset t c v : all_pos t -> 0 < v -> all_pos (dset t c v).
Proof.
  induction t as [|[k w] t IH]; intros H Hv; simpl.
  - constructor; [exact Hv|constructor].
  - inversion H as [|? ? Hk Ht]; subst. destruct (ceqb c k); constructor; try assumption. apply IH; assumption.
Qed.

Lemma all_pos_incr t c : all_pos t -> all_pos (incr_t t c).
Proof. intros H. unfold incr_t. apply all_pos_dset; [exact H|]. pose proof (all_pos_dget_or t c H). lia. Qed.

(* the run only touches the totals dict by increments: what every increment keeps, the loop keeps *)
Lemma totals_loop_pres (P : list (C * Z) -> Prop) : (forall t c, P t -> P (incr_t t c)) ->
  forall d votes caps n fuel s, P (st_totals s) -> P (st_totals (loop d votes caps n fuel s)).
Proof.
  intros Hincr d votes caps n. apply (loop_ind d votes caps n (fun s => P (st_totals s))). intros s H _ _.
  unfold step. destruct (st_qs s) as [|[c0 m] qs]; [exact H|]. cbv zeta.
  destruct (_ <=? st_rem s); cbn [st_totals]; [|exact H].
  apply (fold_left_inv P); [|exact H]. intros t c _. apply Hincr.
Qed.

Lemma all_pos_loop d votes caps n fuel : forall s, all_pos (st_totals s) -> all_pos (st_totals (loop d votes caps n fuel s)).
Proof. apply (totals_loop_pres all_pos), all_pos_incr. Qed.

Lemma gains_of_pos t : all_pos t ->
  flat_map (fun ct : C * Z => let (c, t0) := ct in if 0 <? t0 - dget_or (@nil (C * Z)) c 0 then [(c, t0 - dget_or (@nil (C * Z)) c 0)] else []) t = t.
Proof.
  set (F := fun ct : C * Z => let (c, t0) := ct in if 0 <? t0 - dget_or (@nil (C * Z)) c 0 then [(c, t0 - dget_or (@nil (C * Z)) c 0)] else []).
  induction t as [|[k v] t IH]; intros H; [reflexivity|]. inversion H as [|? ? Hk Ht]; subst. simpl in Hk.
  change (flat_map F ((k, v) :: t)) with (F (k, v) ++ flat_map F t). rewrite (IH Ht).
  unfold F. change (dget_or [] k 0) with 0. rewrite Z.sub_0_r.
  destruct (0 <? v) eqn:E; [reflexivity|apply Z.ltb_ge in E; lia].
Qed.

(* evaluate returns the totals dict itself: with no previous gains every entry is a gain *)
Lemma evaluate_final d vs n :
  evaluate d vs n [] [] =
  match initial_quotients d vs [] [] n with
  | [] => HA_value_error
  | _ => HA_ok (st_totals (final_state d vs n [] [])) (st_tie (final_state d vs n [] []))
  end.
Proof.
  unfold evaluate. destruct (initial_quotients d vs [] [] n); [reflexivity|]. cbv zeta.
  rewrite gains_of_pos; [reflexivity|]. apply all_pos_loop. constructor.
Qed.

Lemma insert_asc_nonempty {K V} (leb : V -> V -> bool) (x : K * V) l : GetNBest.insert_asc leb x l <> [].
Proof. destruct l as [|y l]; simpl; [discriminate|]. destruct (leb (snd x) (snd y)); discriminate. Qed.

Definition wrow (votes : mat) (gamma : C -> Q) (ps : list C) (i : C) : list (C * Q) :=
  flat_map (fun j => if 0 <? mget votes i j then [(j, (inject_Z (mget votes i j) * gamma j)%Q)] else []) ps.

Lemma wrow_keys votes gamma ps i : map fst (wrow votes gamma ps i) = filter (fun j => 0 <? mget votes i j) ps.
Proof.
  unfold wrow. induction ps as [|j ps IH]; [reflexivity|]. simpl.
  destruct (0 <? mget votes i j); simpl; rewrite IH; reflexivity.
Qed.

Lemma wrow_in votes gamma ps i c v : In (c, v) (wrow votes gamma ps i) ->
  In c ps /\ 0 < mget votes i c /\ v = (inject_Z (mget votes i c) * gamma c)%Q.
Proof.
  unfold wrow. intros H. apply in_flat_map in H. destruct H as (j & Hj & H).
  destruct (0 <? mget votes i j) eqn:E; [|destruct H]. destruct H as [H|[]]. injection H as <- <-.
  apply Z.ltb_lt in E. auto.
Qed.

Lemma filter_sum (f g : C -> Z) l : (forall j, In j l -> f j <= 0 -> g j = 0) ->
  zsum (map g (filter (fun j => 0 <? f j) l)) = zsum (map g l).
Proof.
  induction l as [|j l IH]; intros H; [reflexivity|]. simpl.
  assert (IH' : zsum (map g (filter (fun j => 0 <? f j) l)) = zsum (map g l)) by (apply IH; intros k Hk; apply H; right; exact Hk).
  destruct (0 <? f j) eqn:E; simpl; rewrite ?zsum_cons, IH'; [reflexivity|].
  apply Z.ltb_ge in E. rewrite (H j (or_introl eq_refl) E). lia.
Qed.

Section Row.
  Variable d : Z -> Q.
  Variables ds ps : list C.
  Variable votes : mat.
  Variables dseats pseats : list (C * Z).
  Variable res : mat.
  Variables rho gamma : C -> Q.
  Hypothesis Hok : divisor_ok d.
  Hypothesis Hstrict : divisor_strict d.
  Hypothesis Hvotes : forall i j, 0 <= mget votes i j.
  Hypothesis Hps : NoDup ps.
  Hypothesis Hspec : spec_with d ds ps votes dseats pseats res rho gamma.

  Variable i : C.
  Hypothesis Hi : In i ds.
  Hypothesis Hseats : 0 < dget_or dseats i 0.
  Hypothesis Hminmax : forall j j', In j ps -> In j' ps -> 0 < mget res i j' ->
    (inject_Z (mget votes i j) * gamma j / d (mget res i j)
     < inject_Z (mget votes i j') * gamma j' / d (mget res i j' - 1)%Z)%Q.

  Notation row := (wrow votes gamma ps i).
  Notation n := (dget_or dseats i 0).

  Lemma row_pos c v : In (c, v) row -> (0 < v)%Q.
  Proof.
    intros H. destruct (wrow_in _ _ _ _ _ _ H) as (Hc & Hv & ->).
    apply Qmult_lt_0_compat; [|apply (sp_gamma _ _ _ _ _ _ _ _ _ Hspec c Hc)].
    change 0%Q with (inject_Z 0). rewrite <- Zlt_Qlt. exact Hv.
  Qed.

  Lemma row_nodup : NoDup (map fst row).
  Proof. rewrite wrow_keys. apply NoDup_filter, Hps. Qed.

  Lemma row_sum : ksum (fun j => mget res i j) (map fst row) = n.
  Proof.
    rewrite wrow_keys, <- (sp_rows _ _ _ _ _ _ _ _ _ Hspec i Hi). unfold rowsum, ksum.
    apply filter_sum. intros j _ Hle. apply (sp_zero _ _ _ _ _ _ _ _ _ Hspec i j). pose proof (Hvotes i j). lia.
  Qed.

  Theorem row_is_highest_averages :
    exists gains, evaluate d row n [] [] = HA_ok gains None /\
                  forall j, In j ps -> dget_or gains j 0 = mget res i j.
  Proof.
    destruct Hok as [Hpos Hmono].
    assert (Hmm : forall c v c' v', In (c, v) row -> In (c', v') row -> 0 < mget res i c' ->
              (v / d (mget res i c) < v' / d (mget res i c' - 1))%Q).
    { intros c v c' v' Hc Hc' Hs. destruct (wrow_in _ _ _ _ _ _ Hc) as (Hcp & _ & ->).
      destruct (wrow_in _ _ _ _ _ _ Hc') as (Hcp' & _ & ->). apply Hminmax; assumption. }
    destruct (ha_unique d row n Hpos Hstrict row_pos row_nodup (fun j => mget res i j)
                (fun c _ => sp_nonneg _ _ _ _ _ _ _ _ _ Hspec i c) row_sum Hmm) as (Htie & Hrem & Htot).
    (* the row is not empty: some party holds a seat *)
    assert (Hne : exists c v, In (c, v) row).
    { destruct row as [|[c v] r] eqn:E; [|exists c, v; left; reflexivity].
      pose proof row_sum as Hs. rewrite E in Hs. unfold ksum in Hs. simpl in Hs. rewrite zsum_nil in Hs. lia. }
    destruct Hne as (c0 & v0 & Hin0).
    assert (Hq : initial_quotients d row [] [] n <> []).
    { apply initial_quotients_nonempty; [apply Hpos; lia|exact Hseats|]. intros E. rewrite E in Hin0. exact Hin0. }
    rewrite evaluate_final. destruct (initial_quotients d row [] [] n) as [|q0 qs0]; [congruence|]. rewrite Htie.
    exists (st_totals (final_state d row n [] [])). split; [reflexivity|].
    intros j Hj. destruct (0 <? mget votes i j) eqn:E.
    - apply Htot. rewrite wrow_keys. apply filter_In. split; assumption.
    - apply Z.ltb_ge in E. assert (Hz : mget votes i j = 0) by (pose proof (Hvotes i j); lia).
      rewrite (sp_zero _ _ _ _ _ _ _ _ _ Hspec i j Hz).
      (* j holds no seat in the run either: it is not a key of the row *)
      apply (mm_t_outside d row n Hpos Hmono (fun c v H => Qlt_le_weak _ _ (row_pos c v H)) row_nodup).
      rewrite wrow_keys. intros Hin. apply filter_In in Hin. destruct Hin as [_ H]. apply Z.ltb_lt in H. lia.
  Qed.
End Row.
