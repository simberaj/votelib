(* The low median of a (score -> count) dictionary by counting (for C11, majority judgment default tie-break):
   g is the low median of d iff  2 * #(scores < g) <= T - 1  and  T <= 2 * #(scores <= g)   (T = number of scores),
   plus the algebra of the two dictionary operations of the tie-break: adding a number to the count of one score
   ([adj]) and multiplying all counts ([scalec]). *)
From Coq Require Import ZArith QArith List Bool Arith Lia Lqa Sorted.
From VL Require Import Prelude.PyDict Model.Cardinal Proofs.Dict_proofs Proofs.QOrd Proofs.LRScale_proofs Proofs.Scale2Dup_proofs.
Import ListNotations.

Definition qsorted : list Q -> Prop := StronglySorted (fun a b => (a <= b)%Q).

Definition qlt (x y : Q) : bool := negb (Qle_bool y x).

Lemma qlt_iff x y : qlt x y = true <-> (x < y)%Q.
Proof.
  unfold qlt. rewrite negb_true_iff. split; intros H.
  - apply Qnot_le_lt. intros Hle. apply Qle_bool_iff in Hle. congruence.
  - apply not_true_iff_false. intros Hle. apply Qle_bool_iff in Hle. lra.
Qed.

Lemma nth_sorted_bounds L : qsorted L -> forall i, (i < length L)%nat ->
  (length (filter (fun y => qlt y (nth i L 0%Q)) L) <= i)%nat /\
  (i < length (filter (fun y => Qle_bool y (nth i L 0%Q)) L))%nat.
Proof.
  induction 1 as [|a t Hs IH Hall]; intros i Hi; [simpl in Hi; lia|].
  rewrite Forall_forall in Hall. destruct i as [|j]; cbn [nth filter].
  - assert (E1 : qlt a a = false) by (apply not_true_iff_false; rewrite qlt_iff; lra).
    rewrite E1, Qle_bool_refl. cbn [length]. split; [|lia].
    assert (E : filter (fun y => qlt y a) t = []).
    { apply GetNBest_proofs.filter_none. apply Forall_forall. intros z Hz. apply not_true_iff_false. rewrite qlt_iff.
      specialize (Hall z Hz). cbv beta in Hall. lra. }
    rewrite E. simpl. lia.
  - cbn [length] in Hi. destruct (IH j ltac:(lia)) as [H1 H2].
    assert (Hax : (a <= nth j t 0%Q)%Q) by (apply Hall, nth_In; lia).
    assert (E2 : Qle_bool a (nth j t 0%Q) = true) by (apply Qle_bool_iff; exact Hax).
    rewrite E2. cbn [length]. split; [|lia]. destruct (qlt a (nth j t 0%Q)); cbn [length]; lia.
Qed.

Definition sumf (f : Q -> bool) (d : cscores) : Z :=
  fold_right (fun sn acc => if f (fst sn) then (snd sn + acc)%Z else acc) 0%Z d.
Definition nonneg (d : cscores) : Prop := Forall (fun sn : Q * Z => (0 <= snd sn)%Z) d.
Definition below (d : cscores) (x : Q) : Z := sumf (fun s => qlt s x) d.
Definition atmost (d : cscores) (x : Q) : Z := sumf (fun s => Qle_bool s x) d.

Lemma sumf_cons f s n d : sumf f ((s, n) :: d) = if f s then (n + sumf f d)%Z else sumf f d.
Proof. reflexivity. Qed.

Lemma fold_add_shiftZ (l : list Z) : forall a, fold_left Z.add l a = (a + fold_left Z.add l 0)%Z.
Proof. exact (zsum_acc l). Qed.

Lemma cs_total_cons s n d : cs_total ((s, n) :: d) = (n + cs_total d)%Z.
Proof. unfold cs_total. cbn [map fold_left snd]. rewrite fold_add_shiftZ. lia. Qed.

Lemma cs_total_sumf d : cs_total d = sumf (fun _ => true) d.
Proof. induction d as [|[s n] d IH]; [reflexivity|]. rewrite cs_total_cons, IH. reflexivity. Qed.

Lemma sumf_ext_in f f' d : (forall s, In s (map fst d) -> f s = f' s) -> sumf f d = sumf f' d.
Proof.
  intros H. induction d as [|[s n] d IH]; [reflexivity|]. rewrite !sumf_cons, (H s) by (left; reflexivity).
  rewrite IH; [reflexivity|]. intros s' Hs'. apply H. right. exact Hs'.
Qed.

Lemma filter_repeat {X} (f : X -> bool) x n : filter f (repeat x n) = if f x then repeat x n else [].
Proof. induction n as [|n IH]; [destruct (f x); reflexivity|]. cbn [repeat filter]. rewrite IH. destruct (f x); reflexivity. Qed.

Lemma count_expand f d : nonneg d -> Z.of_nat (length (filter f (expand d))) = sumf f d.
Proof.
  induction 1 as [|[s n] d Hn _ IH]; [reflexivity|]. unfold expand in *. cbn [flat_map fst snd] in *.
  rewrite filter_app, app_length, Nat2Z.inj_add, IH, filter_repeat, sumf_cons.
  destruct (f s); [rewrite repeat_length, Z2Nat.id by exact Hn; reflexivity|reflexivity].
Qed.

Lemma expand_length d : nonneg d -> Z.of_nat (length (expand d)) = cs_total d.
Proof.
  intros H. rewrite cs_total_sumf, <- (count_expand (fun _ => true) d H). f_equal.
  induction (expand d) as [|x l IH]; [reflexivity|]. cbn [filter length]. rewrite IH. reflexivity.
Qed.

Lemma expand_In d x : In x (expand d) -> In x (map fst d).
Proof.
  unfold expand. intros H. apply in_flat_map in H. destruct H as ([s n] & Hin & Hx). apply repeat_spec in Hx. subst x.
  apply in_map_iff. exists (s, n). auto.
Qed.

Lemma sumf_mono (f f' : Q -> bool) d : nonneg d -> (forall s, f s = true -> f' s = true) -> (sumf f d <= sumf f' d)%Z.
Proof.
  intros H Hf. induction H as [|[s n] d Hn _ IH]; [reflexivity|]. rewrite !sumf_cons. cbn [snd] in Hn.
  destruct (f s) eqn:E; [rewrite (Hf s E); lia|]. destruct (f' s); lia.
Qed.

Lemma sumf_nonneg f d : nonneg d -> (0 <= sumf f d)%Z.
Proof.
  induction 1 as [|[s n] d Hn _ IH]; [reflexivity|]. rewrite sumf_cons. cbn [snd] in Hn. destruct (f s); lia.
Qed.

Lemma atmost_below d x y : nonneg d -> (x < y)%Q -> (atmost d x <= below d y)%Z.
Proof. intros Hnn Hlt. apply sumf_mono; [exact Hnn|]. intros s Hs. apply Qle_bool_iff in Hs. apply qlt_iff. lra. Qed.

Definition is_med (d : cscores) (g : Q) : Prop :=
  (2 * below d g <= cs_total d - 1)%Z /\ (cs_total d <= 2 * atmost d g)%Z.

Theorem median_spec d : nonneg d -> (0 < cs_total d)%Z ->
  exists g, aggregate_one FMedianLow d = inl g /\ In g (map fst d) /\ is_med d g.
Proof.
  intros Hnn HT. rewrite aggregate_one_list. pose proof (expand_length d Hnn) as Hlen.
  assert (Cnt : forall f, Z.of_nat (length (filter f (expand d))) = sumf f d) by (intros f; apply count_expand, Hnn).
  assert (HIn : forall x, In x (expand d) -> In x (map fst d)) by apply expand_In.
  set (l := expand d) in *. clearbody l.
  rewrite agg_median_ne by (intros ->; simpl in Hlen; lia).
  set (L := sort_q l). set (n := length L).
  assert (Hn : n = length l) by apply sort_q_length.
  destruct (med_index_bounds n ltac:(lia)) as [B1 B2]. set (i := med_index n) in *.
  assert (Hi : (i < n)%nat) by lia.
  exists (nth i L 0%Q). split; [reflexivity|]. split.
  { apply HIn. apply sort_q_In. apply nth_In. exact Hi. }
  destruct (nth_sorted_bounds L (sort_q_sorted l) i Hi) as [H1 H2]. set (g := nth i L 0%Q) in *.
  unfold L in H1, H2. rewrite count_sort_q in H1, H2.
  pose proof (Cnt (fun y => qlt y g)) as C1. pose proof (Cnt (fun y => Qle_bool y g)) as C2.
  unfold is_med, below, atmost. rewrite <- C1, <- C2, <- Hlen, <- Hn.
  split; lia.
Qed.

Theorem median_char d g : nonneg d -> (0 < cs_total d)%Z -> is_med d g ->
  exists g0, aggregate_one FMedianLow d = inl g0 /\ (g0 == g)%Q /\ In g0 (map fst d).
Proof.
  intros Hnn HT [G1 G2]. destruct (median_spec d Hnn HT) as (g0 & E & Hin & [M1 M2]).
  exists g0. split; [exact E|]. split; [|exact Hin].
  destruct (Q_dec g0 g) as [[Hlt|Hgt]|Heq]; [| |exact Heq]; exfalso.
  - pose proof (atmost_below d g0 g Hnn Hlt). lia.
  - pose proof (atmost_below d g g0 Hnn Hgt). lia.
Qed.

Definition get0 (d : cscores) (s : Q) : Z := match cs_get d s with Some n => n | None => 0%Z end.
Definition adj (d : cscores) (s : Q) (delta : Z) : cscores :=
  map (fun sn : Q * Z => if Qeq_bool s (fst sn) then (fst sn, (snd sn + delta)%Z) else sn) d.
Definition scalec (k : Z) (d : cscores) : cscores := map (fun sn : Q * Z => (fst sn, (k * snd sn)%Z)) d.

(* keys pairwise different as rationals *)
Fixpoint keys_nd (l : list Q) : Prop :=
  match l with [] => True | s :: t => (forall s', In s' t -> ~ (s == s')%Q) /\ keys_nd t end.
Definition has (d : cscores) (s : Q) : Prop := exists key, In key (map fst d) /\ (s == key)%Q.

Lemma adj_keys d s delta : map fst (adj d s delta) = map fst d.
Proof. unfold adj. rewrite map_map. apply map_ext. intros [s0 n]. cbn [fst]. destruct (Qeq_bool s s0); reflexivity. Qed.

Lemma scalec_keys k d : map fst (scalec k d) = map fst d.
Proof. unfold scalec. rewrite map_map. reflexivity. Qed.

Lemma adj_compat d s s' delta : (s == s')%Q -> adj d s delta = adj d s' delta.
Proof. intros H. unfold adj. apply map_ext. intros [s0 n]. cbn [fst]. rewrite (Qeqb_comp s s' H s0 s0 (Qeq_refl s0)). reflexivity. Qed.

Lemma adj_none d s delta : (forall key, In key (map fst d) -> ~ (s == key)%Q) -> adj d s delta = d.
Proof.
  intros H. unfold adj. induction d as [|[s0 n] d IH]; [reflexivity|]. cbn [map fst].
  destruct (Qeq_bool s s0) eqn:E; [apply Qeq_bool_iff in E; exfalso; apply (H s0); [left; reflexivity|exact E]|].
  f_equal. apply IH. intros key Hk. apply H. right. exact Hk.
Qed.

(* on a present key, adj is the dictionary update of the model; the facts about adj below come from those about cs_set *)
Lemma dec_adj d s delta : keys_nd (map fst d) -> has d s -> cs_set d s (get0 d s + delta) = adj d s delta.
Proof.
  unfold get0. induction d as [|[s0 n] d IH]; intros Hnd (key & Hk & Hs); [destruct Hk|].
  cbn [map fst keys_nd] in Hnd. destruct Hnd as [Hnd0 Hnd]. cbn [cs_get cs_set adj map fst snd].
  destruct (Qeq_bool s s0) eqn:E.
  - f_equal. symmetry. apply adj_none. intros key' Hk' Hs'. apply Qeq_bool_iff in E. apply (Hnd0 key' Hk'). rewrite <- E. exact Hs'.
  - f_equal. apply IH; [exact Hnd|]. destruct Hk as [<-|Hk]; [apply Qeq_bool_iff in Hs; cbn [fst] in Hs; congruence|].
    exists key. split; assumption.
Qed.

Lemma sumf_cs_set f d s v : (forall a b, (a == b)%Q -> f a = f b) ->
  sumf f (cs_set d s v) = (sumf f d + if f s then v - get0 d s else 0)%Z.
Proof.
  intros Hf. unfold get0. induction d as [|[s0 n] d IH]; cbn [cs_set cs_get]; [rewrite sumf_cons; destruct (f s); cbn; lia|].
  destruct (Qeq_bool s s0) eqn:E; rewrite !sumf_cons.
  - apply Qeq_bool_iff in E. rewrite (Hf s s0 E). destruct (f s0); lia.
  - rewrite IH. destruct (f s0), (f s); lia.
Qed.

Lemma total_cs_set d s v : cs_total (cs_set d s v) = (cs_total d - get0 d s + v)%Z.
Proof. rewrite !cs_total_sumf, sumf_cs_set by reflexivity. lia. Qed.

Lemma nonneg_cs_set d s v : nonneg d -> (0 <= v)%Z -> nonneg (cs_set d s v).
Proof.
  intros H Hv. induction H as [|[s0 n0] d Hn Hd IH]; cbn [cs_set]; [repeat constructor; exact Hv|].
  destruct (Qeq_bool s s0); [constructor; [exact Hv|exact Hd]|constructor; [exact Hn|exact IH]].
Qed.

Lemma get0_nonneg d s : nonneg d -> (0 <= get0 d s)%Z.
Proof.
  unfold get0. induction 1 as [|[s0 n0] d Hn _ IH]; [cbn; lia|]. cbn [cs_get]. destruct (Qeq_bool s s0); [exact Hn|exact IH].
Qed.

Lemma sumf_adj f d s delta : keys_nd (map fst d) -> has d s -> (forall a b, (a == b)%Q -> f a = f b) ->
  sumf f (adj d s delta) = (sumf f d + if f s then delta else 0)%Z.
Proof. intros Hnd Hh Hf. rewrite <- (dec_adj d s delta Hnd Hh), (sumf_cs_set f _ _ _ Hf). destruct (f s); lia. Qed.

Lemma sumf_scalec f k d : sumf f (scalec k d) = (k * sumf f d)%Z.
Proof.
  induction d as [|[s0 n] d IH]; [cbn; lia|]. cbn [scalec map fst snd]. fold (scalec k d). rewrite !sumf_cons, IH. destruct (f s0); lia.
Qed.

Lemma qlt_compat_l a b x : (a == b)%Q -> qlt a x = qlt b x.
Proof. intros H. unfold qlt. f_equal. apply Qle_bool_Qeq; [reflexivity|exact H]. Qed.
Lemma qle_compat_l a b x : (a == b)%Q -> Qle_bool a x = Qle_bool b x.
Proof. intros H. apply Qle_bool_Qeq; [exact H|reflexivity]. Qed.

Lemma qlt_irrefl m : qlt m m = false.
Proof. unfold qlt. rewrite Qle_bool_refl. reflexivity. Qed.

(* away from g, "at most g" and "below g" agree *)
Lemma qle_qlt_neq s g : ~ (s == g)%Q -> Qle_bool s g = qlt s g.
Proof.
  intros H. unfold qlt. destruct (Qle_bool s g) eqn:E1, (Qle_bool g s) eqn:E2; try reflexivity.
  - exfalso. apply H. apply Qle_bool_iff in E1, E2. apply Qle_antisym; assumption.
  - apply Qle_bool_false in E1, E2. lra.
Qed.

Lemma below_adj d s delta x : keys_nd (map fst d) -> has d s ->
  below (adj d s delta) x = (below d x + if qlt s x then delta else 0)%Z.
Proof. intros H1 H2. unfold below. apply (sumf_adj (fun s0 => qlt s0 x)); [exact H1|exact H2|]. intros a b E. apply qlt_compat_l, E. Qed.

Lemma atmost_adj d s delta x : keys_nd (map fst d) -> has d s ->
  atmost (adj d s delta) x = (atmost d x + if Qle_bool s x then delta else 0)%Z.
Proof. intros H1 H2. unfold atmost. apply (sumf_adj (fun s0 => Qle_bool s0 x)); [exact H1|exact H2|]. intros a b E. apply qle_compat_l, E. Qed.

Lemma total_adj d s delta : keys_nd (map fst d) -> has d s -> cs_total (adj d s delta) = (cs_total d + delta)%Z.
Proof. intros H1 H2. rewrite !cs_total_sumf. rewrite (sumf_adj (fun _ => true) d s delta H1 H2); [reflexivity|reflexivity]. Qed.

Lemma below_scalec k d x : below (scalec k d) x = (k * below d x)%Z.
Proof. apply sumf_scalec. Qed.
Lemma atmost_scalec k d x : atmost (scalec k d) x = (k * atmost d x)%Z.
Proof. apply sumf_scalec. Qed.
Lemma total_scalec k d : cs_total (scalec k d) = (k * cs_total d)%Z.
Proof. rewrite !cs_total_sumf. apply sumf_scalec. Qed.

Lemma cs_get_scalec k d s : cs_get (scalec k d) s = option_map (Z.mul k) (cs_get d s).
Proof. induction d as [|[s0 n] d IH]; [reflexivity|]. cbn [scalec map cs_get fst snd]. destruct (Qeq_bool s s0); [reflexivity|exact IH]. Qed.

Lemma get0_scalec k d s : get0 (scalec k d) s = (k * get0 d s)%Z.
Proof. unfold get0. rewrite cs_get_scalec. destruct (cs_get d s); cbn [option_map]; lia. Qed.

(* the count of a score is what lies between "below" and "at most" *)
Lemma get0_cnt d g : keys_nd (map fst d) -> get0 d g = (atmost d g - below d g)%Z.
Proof.
  unfold get0, atmost, below. induction d as [|[s0 n] d IH]; intros Hnd; [reflexivity|].
  cbn [map fst keys_nd] in Hnd. destruct Hnd as [Hnd0 Hnd]. cbn [cs_get]. rewrite !sumf_cons.
  destruct (Qeq_bool g s0) eqn:E.
  - apply Qeq_bool_iff in E. symmetry in E.
    rewrite (qle_compat_l s0 g g E), (qlt_compat_l s0 g g E), Qle_bool_refl, qlt_irrefl.
    rewrite (sumf_ext_in (fun s => Qle_bool s g) (fun s => qlt s g) d); [lia|].
    intros s Hs. apply qle_qlt_neq. intros H. apply (Hnd0 s Hs). rewrite E, H. reflexivity.
  - rewrite (IH Hnd), (qle_qlt_neq s0 g); [destruct (qlt s0 g); lia|].
    intros H. apply Qeq_bool_neq in E. apply E. symmetry. exact H.
Qed.

Lemma get0_adj d s delta s' : keys_nd (map fst d) -> has d s ->
  get0 (adj d s delta) s' = (get0 d s' + if Qeq_bool s s' then delta else 0)%Z.
Proof.
  intros Hnd Hh. rewrite (get0_cnt d s' Hnd), get0_cnt, (atmost_adj d s delta s' Hnd Hh), (below_adj d s delta s' Hnd Hh)
    by (rewrite adj_keys; exact Hnd).
  destruct (Qeq_bool s s') eqn:E.
  - apply Qeq_bool_iff in E. rewrite (qle_compat_l s s' s' E), (qlt_compat_l s s' s' E), Qle_bool_refl, qlt_irrefl. lia.
  - rewrite (qle_qlt_neq s s') by (apply Qeq_bool_neq, E). destruct (qlt s s'); lia.
Qed.

Lemma nonneg_adj d s delta : keys_nd (map fst d) -> has d s -> nonneg d -> (0 <= get0 d s + delta)%Z -> nonneg (adj d s delta).
Proof. intros Hnd Hh Hnn Hge. rewrite <- (dec_adj d s delta Hnd Hh). apply nonneg_cs_set; assumption. Qed.

Lemma nonneg_scalec k d : (0 <= k)%Z -> nonneg d -> nonneg (scalec k d).
Proof.
  intros Hk H. unfold nonneg, scalec. apply Forall_map. eapply Forall_impl; [|exact H]. intros [s n] Hn. cbn [snd] in *.
  apply Z.mul_nonneg_nonneg; assumption.
Qed.

Lemma keys_nd_cs_set d s n : keys_nd (map fst d) -> keys_nd (map fst (cs_set d s n)).
Proof.
  induction d as [|[s0 n0] d IH]; intros Hnd; [cbn; tauto|]. cbn [map fst keys_nd] in Hnd. destruct Hnd as [Hnd0 Hnd].
  cbn [cs_set]. destruct (Qeq_bool s s0) eqn:E; cbn [map fst keys_nd]; [tauto|]. split; [|apply IH, Hnd].
  intros s' Hs'. assert (Hk : forall d0 : cscores, In s' (map fst (cs_set d0 s n)) -> s' = s \/ In s' (map fst d0)).
  { clear. induction d0 as [|[a b] d0 IH]; cbn [cs_set map fst In]; [intros [<-|[]]; auto|].
    destruct (Qeq_bool s a); cbn [map fst In]; [tauto|]. intros [H|H]; [tauto|destruct (IH H); tauto]. }
  destruct (Hk d Hs') as [->|H]; [|apply Hnd0, H]. intros H. apply not_true_iff_false in E. apply E. apply Qeq_bool_iff. symmetry. exact H.
Qed.
