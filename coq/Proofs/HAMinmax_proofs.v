(* The min-max characterisation of what the HighestAverages model (C01) ends with, WITHOUT strictness or positive
   votes, and including a reported tie: any way of handing the tied seats to members of the tie (at most one each)
   gives an allocation s with  v_c / d(s c) <= v_c' / d(s c' - 1)  for every c' holding a seat.  Used by C07: the
   initial column-wise solution of the biproportional evaluator is such an allocation, which makes the initial party
   multipliers consistent.  Also: the seats handed out add up to n. *)
From Coq Require Import ZArith QArith List Bool Lia Lqa Permutation.
From VL Require Import Prelude.PyDict Model.HighestAverages Proofs.Dict_proofs Proofs.HA_proofs Proofs.Mono_proofs
     Proofs.HAUnique_proofs.
Import ListNotations.
Open Scope Z_scope.

Lemma firstn_nodup {X} (k : nat) (l : list X) : NoDup l -> NoDup (firstn k l).
Proof. intros H. rewrite <- (firstn_skipn k l) in H. exact (nodup_app_l _ _ H). Qed.

Lemma nonempty_has {X} (l : list X) : l <> [] -> exists x, In x l.
Proof. destruct l as [|x l]; [congruence|]. intros _. exists x. left. reflexivity. Qed.

Section LastAward.
  Variable d : Z -> Q.
  Variable votes : list (C * Q).
  Variable caps : list (C * Z).
  Variable prev : list (C * Z).
  Variable n : Z.
  Hypothesis Hpos : forall k, 0 <= k -> (0 < d k)%Q.
  Hypothesis Hmono : forall k, 0 <= k -> (d k <= d (k + 1))%Q.
  Hypothesis Hvotes : forall c v, In (c, v) votes -> (0 <= v)%Q.
  Hypothesis Hnd : NoDup (map fst votes).
  Hypothesis Hprev : forall c, 0 <= dget_or prev c 0.

  Notation Inv1 := (Inv d votes caps prev n).

  (* the last seat of every party was awarded at its exact quotient *)
  Definition Inv3 (s : state) : Prop :=
    forall c, dget_or prev c 0 < tot s c ->
      exists v, dget votes c = Some v /\ In (c, (v / d (tot s c - 1))%Q) (st_awards s).

  Lemma step_inv3 s : Inv1 s -> Inv3 s -> Inv3 (step d votes caps n s).
  Proof. exact (step_last_award d votes caps prev n s). Qed.

  Lemma init_inv3 : Inv3 (init_state d votes n prev caps).
  Proof. intros c Hc. unfold tot, init_state in Hc. cbn [st_totals] in Hc. lia. Qed.

  Lemma loop_inv3 fuel : forall s, Inv1 s -> Inv3 s -> Inv3 (loop d votes caps n fuel s).
  Proof. exact (loop_last_award d votes caps prev n Hpos Hmono Hvotes fuel). Qed.

  Lemma final_inv3 : Inv3 (final_state d votes n prev caps).
  Proof. exact (final_last_award d votes caps prev n Hpos Hmono Hvotes Hnd Hprev). Qed.
End LastAward.

Section Minmax.
  Variable d : Z -> Q.
  Variable votes : list (C * Q).
  Variable n : Z.
  Hypothesis Hpos : forall k, 0 <= k -> (0 < d k)%Q.
  Hypothesis Hmono : forall k, 0 <= k -> (d k <= d (k + 1))%Q.
  Hypothesis Hvotes : forall c v, In (c, v) votes -> (0 <= v)%Q.
  Hypothesis Hnd : NoDup (map fst votes).
  Hypothesis Hn : 0 <= n.

  Notation fin := (final_state d votes n [] []).
  Notation keys := (map fst votes).
  Notation t := (tot fin).

  Let Hprev : forall c, 0 <= dget_or (@nil (C * Z)) c 0.
  Proof. intros c. unfold dget_or. simpl. lia. Qed.
  Let I : Inv d votes [] [] n fin := final_inv d votes [] [] n Hpos Hmono Hvotes Hnd Hprev.
  Let I3 : Inv3 d votes [] fin := final_inv3 d votes [] [] n Hpos Hmono Hvotes Hnd Hprev.

  Lemma mm_t_count c : t c = count c (map fst (st_awards fin)).
  Proof. exact (inv_account _ _ _ _ _ _ I c). Qed.
  Lemma mm_t_nonneg c : 0 <= t c.
  Proof. apply (inv_nonneg _ _ _ _ _ _ I). Qed.

  Lemma mm_awards_keys x : In x (map fst (st_awards fin)) -> In x keys.
  Proof. exact (awards_in_votes _ _ _ _ _ _ I x). Qed.

  Lemma mm_sum_t : ksum t keys = Z.of_nat (length (st_awards fin)).
  Proof. exact (sum_tot d votes [] n fin I Hnd). Qed.

  Lemma mm_t_outside c : ~ In c keys -> t c = 0.
  Proof. intros H. rewrite mm_t_count. apply count_notin. intros Hi. apply H, mm_awards_keys, Hi. Qed.

  (* every seat is awarded, tied or still open *)
  Lemma mm_account :
    st_rem fin + Z.of_nat (length (st_awards fin)) + match st_tie fin with Some (_, r) => r | None => 0 end = n.
  Proof. pose proof (inv_remacc _ _ _ _ _ _ I) as H. change (zsum (map snd [])) with 0 in H. lia. Qed.

  Lemma mm_rem_nonneg : 0 <= st_rem fin.
  Proof.
    pose proof mm_account as Hacc. destruct (inv_rem _ _ _ _ _ _ I) as [H|H]; [exact H|].
    rewrite H in Hacc. simpl in Hacc.
    destruct (st_tie fin) as [[T r]|] eqn:Et; [destruct (inv_tie _ _ _ _ _ _ I T r Et)|]; lia.
  Qed.

  Lemma mm_tie_r_nonneg : 0 <= match st_tie fin with Some (_, r) => r | None => 0 end.
  Proof. destruct (st_tie fin) as [[T r]|] eqn:Et; [destruct (inv_tie _ _ _ _ _ _ I T r Et); lia|lia]. Qed.

  Lemma mm_awards_le_n : Z.of_nat (length (st_awards fin)) <= n.
  Proof.
    pose proof mm_account. pose proof mm_rem_nonneg. pose proof mm_tie_r_nonneg. lia.
  Qed.

  Lemma mm_t_le_awards c : t c <= Z.of_nat (length (st_awards fin)).
  Proof. rewrite mm_t_count. pose proof (count_le_length c (map fst (st_awards fin))) as H. rewrite map_length in H. exact H. Qed.

  (* a reported tie leaves seats open, so nobody holds all n *)
  Lemma mm_tie_lt T r c : st_tie fin = Some (T, r) -> t c < n.
  Proof.
    intros Et. destruct (inv_tie _ _ _ _ _ _ I T r Et) as (Hr0 & Hr & _). pose proof mm_account as Hacc. rewrite Et in Hacc.
    pose proof (mm_t_le_awards c). lia.
  Qed.

  (* an entry of the queue carries the party's current quotient *)
  Lemma mm_queue_item c v x : In (c, v) votes -> In (c, x) (st_qs fin) -> x = (v / d (t c))%Q.
  Proof.
    intros Hc Hy. pose proof (inv_items _ _ _ _ _ _ I) as Hit. rewrite Forall_forall in Hit.
    destruct (Hit _ Hy) as (v0 & Hv0 & Hx & _). simpl in Hv0, Hx.
    rewrite (In_dget _ _ _ Hnd Hc) in Hv0. injection Hv0 as <-. exact Hx.
  Qed.

  (* an eligible party's current quotient is in the queue *)
  Lemma mm_in_queue c v : In (c, v) votes -> t c < n -> In (c, (v / d (t c))%Q) (st_qs fin).
  Proof. exact (waits_in_queue d votes [] [] n Hnd fin c v I). Qed.

  (* the members of the reported tie are the entries of the queue at its maximal quotient *)
  Lemma mm_tie_queue T r c : st_tie fin = Some (T, r) -> In c T ->
    exists x, In (c, x) (st_qs fin) /\ forall y, In y (st_qs fin) -> (snd y <= x)%Q.
  Proof.
    intros Et HcT. destruct (inv_tie _ _ _ _ _ _ I T r Et) as (_ & _ & m & _ & Hmax & Hperm).
    apply (Permutation_in _ Hperm) in HcT. apply in_map_iff in HcT. destruct HcT as ([c0 x] & Hc0 & Hy). simpl in Hc0. subst c0.
    apply filter_In in Hy. destruct Hy as [Hy Hxm]. simpl in Hxm. apply Qeq_bool_iff in Hxm.
    exists x. split; [exact Hy|]. intros y Hyq. rewrite Forall_forall in Hmax. rewrite Hxm. apply Hmax, Hyq.
  Qed.

  (* a member of the reported tie is eligible and sits at the maximal quotient *)
  Lemma mm_tie_member T r c v : st_tie fin = Some (T, r) -> In c T -> In (c, v) votes ->
    t c < n /\ forall y, In y (st_qs fin) -> (snd y <= v / d (t c))%Q.
  Proof.
    intros Et HcT Hc. split; [apply (mm_tie_lt T r c Et)|].
    destruct (mm_tie_queue T r c Et HcT) as (x & Hy & Hmax). rewrite <- (mm_queue_item c v x Hc Hy). exact Hmax.
  Qed.

  Lemma mm_tie_nodup T r : st_tie fin = Some (T, r) -> NoDup T /\ (forall c, In c T -> In c keys) /\ 0 < r < Z.of_nat (length T).
  Proof.
    intros Et. destruct (inv_tie _ _ _ _ _ _ I T r Et) as (Hr0 & Hr & m & _ & Hmax & Hperm).
    split; [|split; [|exact Hr]].
    - apply (Permutation_NoDup (Permutation_sym Hperm)), GetNBest_proofs.nodup_keys_filter, (inv_nodup _ _ _ _ _ _ I).
    - intros c HcT. destruct (mm_tie_queue T r c Et HcT) as (x & Hy & _).
      pose proof (inv_items _ _ _ _ _ _ I) as Hit. rewrite Forall_forall in Hit. destruct (Hit _ Hy) as (v0 & Hv0 & _).
      simpl in Hv0. apply dget_In in Hv0. apply in_map_iff. exists (c, v0). split; [reflexivity|exact Hv0].
  Qed.

  (* the min-max inequality for the totals extended by one seat for some members of the tie *)
  Theorem ha_minmax_ext (e : C -> Z) :
    (forall c, e c = 0 \/ e c = 1) ->
    (forall c, e c = 1 -> exists T r, st_tie fin = Some (T, r) /\ In c T) ->
    forall c v c' v', In (c, v) votes -> In (c', v') votes -> 0 < t c' + e c' ->
      (v / d (t c + e c) <= v' / d (t c' + e c' - 1))%Q.
  Proof.
    intros He01 HeT c v c' v' Hc Hc' Hs.
    pose proof (mm_t_nonneg c) as Htc. pose proof (mm_t_nonneg c') as Htc'.
    pose proof (Hvotes c v Hc) as Hv0.
    (* one more seat never raises the quotient *)
    assert (Hstep : (v / d (t c + e c) <= v / d (t c))%Q).
    { destruct (He01 c) as [E|E]; rewrite E; [rewrite Z.add_0_r; lra|].
      apply quot_mono; [exact Hv0|apply Hpos, Htc|apply Hmono, Htc]. }
    destruct (He01 c') as [E'|E'].
    - (* c' keeps its total: its last seat was awarded at v' / d (t c' - 1) *)
      rewrite E' in Hs |- *. rewrite Z.add_0_r in Hs |- *.
      destruct (I3 c') as (v0 & Hv0' & Hlast); [change (dget_or [] c' 0) with 0; exact Hs|].
      rewrite (In_dget _ _ _ Hnd Hc') in Hv0'. injection Hv0' as <-.
      destruct (Z.lt_ge_cases (t c) n) as [Hlt|Hge].
      + pose proof (mm_in_queue c v Hc Hlt) as Hq.
        pose proof (inv_optimal _ _ _ _ _ _ I _ Hlast) as Ho. rewrite Forall_forall in Ho. specialize (Ho _ Hq). simpl in Ho. lra.
      + (* c holds all n seats: then c' = c and there is no tie seat on c *)
        assert (Hec : e c = 0).
        { destruct (He01 c) as [E|E]; [exact E|]. destruct (HeT c E) as (T & r & Et & HcT).
          destruct (mm_tie_member T r c v Et HcT Hc) as [Hlt _]. lia. }
        assert (Hcc : c' = c).
        { destruct (Pos.eq_dec c' c) as [E|E]; [exact E|exfalso].
          pose proof (count_two c c' (map fst (st_awards fin)) E) as H2. rewrite map_length in H2.
          rewrite <- !mm_t_count in H2. pose proof mm_awards_le_n. lia. }
        subst c'. assert (v' = v).
        { pose proof (In_dget _ _ _ Hnd Hc) as H1. pose proof (In_dget _ _ _ Hnd Hc') as H2. congruence. }
        subst v'. rewrite Hec, Z.add_0_r.
        replace (t c) with (t c - 1 + 1) at 1 by lia. apply quot_mono; [exact Hv0|apply Hpos; lia|apply Hmono; lia].
    - (* c' receives a tie seat: its quotient is the maximal one of the queue *)
      rewrite E'. replace (t c' + 1 - 1) with (t c') by lia.
      destruct (HeT c' E') as (T & r & Et & HcT). destruct (mm_tie_member T r c' v' Et HcT Hc') as [_ Hmax].
      pose proof (Hmax _ (mm_in_queue c v Hc (mm_tie_lt T r c Et))) as H. simpl in H. lra.
  Qed.

  (* all n seats are handed out (definite seats + tie seats) unless nobody stands *)
  Theorem ha_all_seats : votes <> [] ->
    ksum t keys + (match st_tie fin with Some (_, r) => r | None => 0 end) = n.
  Proof.
    intros Hne. pose proof mm_account as Hacc. rewrite mm_sum_t.
    assert (Hrem : st_rem fin = 0); [|lia].
    assert (Hn' : 0 <= n - zsum (map snd (@nil (C * Z)))) by (change (zsum (map snd (@nil (C * Z)))) with 0; lia).
    destruct (ha_total d votes [] [] n Hpos Hmono Hvotes Hnd Hprev Hn') as [_ [H|(_ & Hr & Hcap)]]; [exact H|].
    destruct (nonempty_has _ Hne) as ([c v] & Hin).
    specialize (Hcap c v Hin). change (cap_of [] n c) with n in Hcap.
    pose proof (mm_t_le_awards c). pose proof mm_tie_r_nonneg. pose proof mm_rem_nonneg. lia.
  Qed.
End Minmax.
