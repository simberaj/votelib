(* Characterisations of the primitives of Prelude/PyTie.v used by the ties of C16 (Props/GenTie_TieBreak.v,
   Props/GenTie_OpenlistEval.v): list.index and the sort by it are the model's [index_of] / [sort_by_list]; a fold over
   value-or-exception states only depends on the pointwise behaviour of its step. *)
From Coq Require Import ZArith QArith List Bool Lia Arith.
From VL Require Import Prelude.PyDict Prelude.PyNum Prelude.PyList Prelude.PySeq Prelude.PyTie Model.GetNBest Model.Threshold
     Proofs.PySeq_proofs Proofs.Threshold_proofs.
Import ListNotations.
Close Scope Q_scope.

Lemma py_list_index_mem lst c : cmem c lst = true -> py_list_index lst c = Some (Z.of_nat (index_of c lst)).
Proof.
  induction lst as [|x t IH]; cbn [cmem py_list_index index_of]; [discriminate|].
  destruct (ceqb c x); cbn [orb]; [reflexivity|]. intros H. rewrite (IH H). cbn [option_map]. f_equal. lia.
Qed.
Lemma py_list_index_nomem lst c : cmem c lst = false -> py_list_index lst c = None.
Proof.
  induction lst as [|x t IH]; cbn [cmem py_list_index]; [reflexivity|].
  destruct (ceqb c x); cbn [orb]; [discriminate|]. intros H. rewrite (IH H). reflexivity.
Qed.

Lemma opt_all_index lst t :
  py_opt_all (map (fun x => option_map (fun k => (x, k)) (py_list_index lst x)) t) =
  if forallb (fun c => cmem c lst) t then Some (map (fun c => (c, Z.of_nat (index_of c lst))) t) else None.
Proof.
  induction t as [|c t IH]; cbn [map py_opt_all forallb]; [reflexivity|].
  destruct (cmem c lst) eqn:E; cbn [andb].
  - rewrite (py_list_index_mem _ _ E). cbn [option_map py_opt_all]. rewrite IH.
    destruct (forallb (fun c0 => cmem c0 lst) t); reflexivity.
  - rewrite (py_list_index_nomem _ _ E). reflexivity.
Qed.

Lemma Zleb_total a b : Z.leb a b = true \/ Z.leb b a = true.
Proof. destruct (Z.leb a b) eqn:E; [left; reflexivity|right; apply Z.leb_le; apply Z.leb_gt in E; lia]. Qed.
Lemma Zleb_trans a b c : Z.leb a b = true -> Z.leb b c = true -> Z.leb a c = true.
Proof. rewrite !Z.leb_le. lia. Qed.

Lemma insert_asc_lift {X} (x : X * nat) l :
  map (fun p => (fst p, Z.of_nat (snd p))) (insert_asc Nat.leb x l) =
  insert_asc Z.leb (fst x, Z.of_nat (snd x)) (map (fun p => (fst p, Z.of_nat (snd p))) l).
Proof.
  induction l as [|y t IH]; cbn [insert_asc map fst snd]; [reflexivity|].
  replace (Z.leb (Z.of_nat (snd x)) (Z.of_nat (snd y))) with (Nat.leb (snd x) (snd y))
    by (destruct (Nat.leb (snd x) (snd y)) eqn:E; symmetry; [apply Z.leb_le; apply Nat.leb_le in E; lia | apply Z.leb_gt; apply Nat.leb_gt in E; lia]).
  destruct (Nat.leb (snd x) (snd y)); cbn [map fst snd]; [reflexivity|]. rewrite IH. reflexivity.
Qed.
Lemma sort_asc_lift {X} (l : list (X * nat)) :
  map (fun p => (fst p, Z.of_nat (snd p))) (sort_asc Nat.leb l) = sort_asc Z.leb (map (fun p => (fst p, Z.of_nat (snd p))) l).
Proof. induction l as [|x t IH]; cbn [sort_asc map]; [reflexivity|]. rewrite insert_asc_lift, IH. reflexivity. Qed.

(* x.sort(key=lst.index) / sorted(x, key=lst.index): ValueError exactly when an item is missing from lst, else the model's order *)
Lemma py_sort_by_index_spec lst t :
  py_sort_optkey (py_list_index lst) Z.leb t false = if forallb (fun c => cmem c lst) t then Some (sort_by_list lst t) else None.
Proof.
  unfold py_sort_optkey. rewrite opt_all_index. destruct (forallb (fun c => cmem c lst) t); [|reflexivity].
  f_equal. rewrite (py_sorted_asc Z.leb Zleb_total Zleb_trans). unfold sort_by_list.
  replace (map (fun c => (c, Z.of_nat (index_of c lst))) t)
    with (map (fun p : C * nat => (fst p, Z.of_nat (snd p))) (map (fun c => (c, index_of c lst)) t))
    by (rewrite map_map; reflexivity).
  rewrite <- sort_asc_lift, map_map. reflexivity.
Qed.

Lemma fold_exn_ext {S A} (f g : S + pyexn -> A -> S + pyexn) l s :
  (forall sr it, f sr it = g sr it) -> fold_left f l s = fold_left g l s.
Proof. intros H. revert s. induction l as [|x t IH]; intros s; [reflexivity|]. cbn [fold_left]. rewrite H. apply IH. Qed.

