(* The Hare (random whole-ballot) transferer: whole weights and the counting of draws
   (Model/STVHare.v: is_int, whole_nonneg, cnt_in, draws_ok, hare_sub_pile, hare_subtract, hare_split).
   Everything is stated for an arbitrary oracle. *)
From Coq Require Import ZArith QArith Qround Qreduction Setoid List Bool Arith Lia Lqa.
From VL Require Import Prelude.PyDict Model.GetNBest Model.Convert Model.STV Model.STVHare Proofs.STV_proofs.
Import ListNotations.
Open Scope Q_scope.

Lemma is_int_spec w : is_int w = true <-> w == inject_Z (Qfloor w).
Proof. unfold is_int. apply Qeq_bool_iff. Qed.

Lemma whole_nonneg_spec w : whole_nonneg w = true <-> w == inject_Z (Qfloor w) /\ (0 <= Qfloor w)%Z.
Proof.
  unfold whole_nonneg. rewrite andb_true_iff, is_int_spec, Qle_bool_iff. split; intros [H1 H2]; split; try exact H1.
  - apply (Qfloor_resp_le 0 w) in H2. exact H2.
  - rewrite H1. rewrite <- (Zle_Qle 0). exact H2.
Qed.

Lemma whole_nonneg_inject z : (0 <= z)%Z -> whole_nonneg (inject_Z z) = true.
Proof. intros H. apply whole_nonneg_spec. rewrite Qfloor_Z. split; [reflexivity|exact H]. Qed.

Lemma whole_nonneg_eq w z : w == inject_Z z -> (0 <= z)%Z -> whole_nonneg w = true.
Proof.
  intros Hw Hz. apply whole_nonneg_spec. rewrite (Qfloor_comp _ _ Hw), Qfloor_Z. split; [exact Hw|exact Hz].
Qed.

Lemma whole_nonneg_comp w w' : w == w' -> whole_nonneg w = true -> whole_nonneg w' = true.
Proof.
  intros He H. apply whole_nonneg_spec in H. destruct H as [H1 H2].
  apply (whole_nonneg_eq w' (Qfloor w)); [rewrite <- He; exact H1|exact H2].
Qed.

Lemma whole_nonneg_add w w' : whole_nonneg w = true -> whole_nonneg w' = true -> whole_nonneg (Qred (w + w')) = true.
Proof.
  intros H H'. apply whole_nonneg_spec in H. apply whole_nonneg_spec in H'. destruct H as [H1 H2], H' as [H3 H4].
  apply (whole_nonneg_eq _ (Qfloor w + Qfloor w')%Z); [|lia].
  rewrite Qred_correct, inject_Z_plus, <- H1, <- H3. reflexivity.
Qed.

Lemma whole_nonneg_ge0 w : whole_nonneg w = true -> 0 <= w.
Proof. unfold whole_nonneg. rewrite andb_true_iff, Qle_bool_iff. tauto. Qed.

Definition pile_whole (p : pile) : Prop := Forall (fun bw => whole_nonneg (snd bw) = true) p.
Definition alloc_whole (a : alloc) : Prop := Forall (fun kp => pile_whole (snd kp)) a.

Lemma pile_whole_forallb p : forallb (fun bw : ballot * Q => whole_nonneg (snd bw)) p = true <-> pile_whole p.
Proof. unfold pile_whole. rewrite forallb_forall, Forall_forall. tauto. Qed.

Lemma alloc_whole_nonneg a : alloc_whole a -> alloc_nonneg a.
Proof.
  unfold alloc_whole, alloc_nonneg, pile_whole, pile_nonneg. intros H. eapply Forall_impl; [|exact H].
  intros kp Hp. eapply Forall_impl; [|exact Hp]. intros bw. apply whole_nonneg_ge0.
Qed.

(* the weight of a whole pile is the whole number the model draws from *)
Lemma pile_total_wsum p : pile_whole p -> wsum p == inject_Z (pile_total p).
Proof.
  induction 1 as [|[b w] p Hw _ IH]; simpl; [reflexivity|].
  apply whole_nonneg_spec in Hw. simpl in Hw. rewrite inject_Z_plus, <- IH, <- (proj1 Hw). reflexivity.
Qed.

Lemma pile_total_nonneg p : pile_whole p -> (0 <= pile_total p)%Z.
Proof.
  induction 1 as [|[b w] p Hw _ IH]; simpl; [lia|]. apply whole_nonneg_spec in Hw. simpl in Hw. lia.
Qed.

Lemma cnt_in_nonneg ds lo hi : (0 <= cnt_in ds lo hi)%Z.
Proof. unfold cnt_in. lia. Qed.

Lemma cnt_in_split ds lo mid hi : (lo <= mid <= hi)%Z -> cnt_in ds lo hi = (cnt_in ds lo mid + cnt_in ds mid hi)%Z.
Proof.
  intros H. unfold cnt_in, in_range. rewrite <- Nat2Z.inj_add. f_equal.
  induction ds as [|d ds IH]; [reflexivity|]. cbn [filter].
  (* a draw below mid can only count on the left, one from mid on only on the right *)
  destruct (Z.ltb_spec d mid) as [Hd|Hd].
  - assert ((mid <=? d)%Z = false) as -> by (apply Z.leb_gt; exact Hd).
    assert ((d <? hi)%Z = true) as -> by (apply Z.ltb_lt; lia).
    rewrite !andb_true_r. cbn [andb]. destruct (lo <=? d)%Z; cbn [length]; rewrite IH; reflexivity.
  - assert ((lo <=? d)%Z = true) as -> by (apply Z.leb_le; lia).
    assert ((mid <=? d)%Z = true) as -> by (apply Z.leb_le; exact Hd).
    cbn [andb]. destruct (d <? hi)%Z; cbn [length]; rewrite IH; [apply plus_n_Sm|reflexivity].
Qed.

Lemma cnt_in_all ds lo hi : forallb (in_range lo hi) ds = true -> cnt_in ds lo hi = Z.of_nat (length ds).
Proof.
  unfold cnt_in. intros H. f_equal. induction ds as [|d ds IH]; simpl in *; [reflexivity|].
  apply andb_true_iff in H. destruct H as [H1 H2]. rewrite H1. simpl. f_equal. apply IH, H2.
Qed.

Lemma cnt_in_empty ds lo hi : (hi <= lo)%Z -> cnt_in ds lo hi = 0%Z.
Proof.
  intros H. unfold cnt_in. induction ds as [|d ds IH]; simpl; [reflexivity|].
  unfold in_range in *. destruct ((lo <=? d)%Z && (d <? hi)%Z) eqn:E; [|exact IH].
  exfalso. rewrite andb_true_iff, Z.leb_le, Z.ltb_lt in E. lia.
Qed.

Lemma nodupb_NoDup l : nodupb l = true -> NoDup l.
Proof.
  induction l as [|x l IH]; simpl; [constructor|]. rewrite andb_true_iff, negb_true_iff. intros [H1 H2].
  constructor; [|apply IH, H2]. intros Hin.
  assert (He : existsb (Z.eqb x) l = true) by (apply existsb_exists; exists x; split; [exact Hin|apply Z.eqb_refl]).
  congruence.
Qed.

(* pigeonhole: distinct draws inside a stretch are at most as many as the stretch is long -
   a ballot of weight w can be drawn at most w times *)
Lemma cnt_in_le ds lo hi : nodupb ds = true -> (lo <= hi)%Z -> (cnt_in ds lo hi <= hi - lo)%Z.
Proof.
  intros Hn Hle. apply nodupb_NoDup in Hn. unfold cnt_in.
  assert (Hincl : incl (filter (in_range lo hi) ds) (map (fun n => (lo + Z.of_nat n)%Z) (seq 0 (Z.to_nat (hi - lo))))).
  { intros d Hd. apply filter_In in Hd. destruct Hd as [_ Hd]. unfold in_range in Hd.
    rewrite andb_true_iff, Z.leb_le, Z.ltb_lt in Hd.
    apply in_map_iff. exists (Z.to_nat (d - lo)). split; [lia|apply in_seq; lia]. }
  apply (NoDup_incl_length (NoDup_filter _ Hn)) in Hincl. rewrite map_length, seq_length in Hincl. lia.
Qed.

(* an entry the model accepts as random.sample(range(total), n): no repetition, and n numbers in range *)
Lemma draws_ok_spec ds n total : draws_ok ds n total = true -> nodupb ds = true /\ cnt_in ds 0 total = n.
Proof.
  unfold draws_ok. rewrite !andb_true_iff, Z.eqb_eq. intros [[H1 H2] H3]. split; [exact H3|].
  rewrite (cnt_in_all _ _ _ H2). exact H1.
Qed.

(* Hare._subtract on one pile (votelib/component/transfer.py) *)
(* one ballot under the draws: k of them fall on its stretch; it stays with what is left of its weight, or
   leaves the pile when nothing is *)
Lemma hare_sub_pile_cons ds b w p lo : nodupb ds = true -> whole_nonneg w = true -> pile_whole p ->
  exists k hd, (0 <= k)%Z /\
    cnt_in ds lo (lo + pile_total ((b, w) :: p)) = (k + cnt_in ds (lo + Qfloor w) (lo + Qfloor w + pile_total p))%Z /\
    hare_sub_pile ((b, w) :: p) lo ds = hd ++ hare_sub_pile p (lo + Qfloor w) ds /\
    (hd = [] /\ inject_Z k == w \/ exists w', hd = [(b, w')] /\ w' == w - inject_Z k /\ whole_nonneg w' = true).
Proof.
  intros Hn Hw Hp. pose proof Hw as Hw0. apply whole_nonneg_spec in Hw0. destruct Hw0 as [Hw1 Hw2].
  pose proof (pile_total_nonneg p Hp) as Ht.
  pose proof (cnt_in_le ds lo (lo + Qfloor w) Hn ltac:(lia)) as Hk.
  pose proof (cnt_in_nonneg ds lo (lo + Qfloor w)) as Hk0.
  assert (Hs : cnt_in ds lo (lo + pile_total ((b, w) :: p))
               = (cnt_in ds lo (lo + Qfloor w) + cnt_in ds (lo + Qfloor w) (lo + Qfloor w + pile_total p))%Z).
  { change (pile_total ((b, w) :: p)) with (Qfloor w + pile_total p)%Z.
    rewrite (cnt_in_split ds lo (lo + Qfloor w) (lo + (Qfloor w + pile_total p))) by lia. do 2 f_equal. lia. }
  cbn [hare_sub_pile]. set (k := cnt_in ds lo (lo + Qfloor w)) in *.
  destruct (k =? 0)%Z eqn:E0; [|destruct (Qfloor w <=? k)%Z eqn:E1].
  - apply Z.eqb_eq in E0. exists k, [(b, w)]. repeat split; try assumption. right. exists w. rewrite E0.
    split; [reflexivity|]. split; [ring|exact Hw].
  - apply Z.leb_le in E1. exists k, []. repeat split; try assumption. left. split; [reflexivity|].
    replace k with (Qfloor w) by lia. symmetry. exact Hw1.
  - apply Z.leb_gt in E1. exists k, [(b, inject_Z (Qfloor w - k))]. repeat split; try assumption. right. eexists.
    split; [reflexivity|]. split; [|apply whole_nonneg_inject; lia].
    unfold Zminus. rewrite inject_Z_plus, inject_Z_opp, <- Hw1. ring.
Qed.

(* the pile after the draws: its weight went down by the number of draws that fell on it, and the weights stay
   whole and non-negative *)
Lemma hare_sub_pile_spec ds : nodupb ds = true -> forall p lo, pile_whole p ->
  wsum (hare_sub_pile p lo ds) == wsum p - inject_Z (cnt_in ds lo (lo + pile_total p)) /\
  pile_whole (hare_sub_pile p lo ds).
Proof.
  intros Hn. induction p as [|[b w] p IH]; intros lo Hp.
  - simpl. rewrite Z.add_0_r, (cnt_in_empty ds lo lo) by lia. split; [simpl; ring|constructor].
  - inversion Hp as [|? ? Hw Hp']; subst. destruct (IH (lo + Qfloor w)%Z Hp') as [IH1 IH2].
    destruct (hare_sub_pile_cons ds b w p lo Hn Hw Hp') as (k & hd & _ & -> & -> & Hhd). rewrite inject_Z_plus.
    destruct Hhd as [[-> Hk]|(w' & -> & Hw' & Hwn)]; simpl.
    + split; [rewrite IH1; lra|exact IH2].
    + split; [rewrite IH1; lra|constructor; assumption].
Qed.

(* which ballots: nothing new enters the pile *)
Lemma hare_sub_pile_ballots ds p : forall lo b w, In (b, w) (hare_sub_pile p lo ds) -> exists w0, In (b, w0) p.
Proof.
  induction p as [|[b0 w0] p IH]; intros lo b w; simpl; [intros []|].
  destruct (_ =? 0)%Z.
  - intros [[= <- <-]|H]; [exists w0; left; reflexivity|]. destruct (IH _ _ _ H) as (w1 & H1). exists w1. right. exact H1.
  - destruct (_ <=? _)%Z.
    + intros H. destruct (IH _ _ _ H) as (w1 & H1). exists w1. right. exact H1.
    + intros [[= <- <-]|H]; [exists w0; left; reflexivity|]. destruct (IH _ _ _ H) as (w1 & H1). exists w1. right. exact H1.
Qed.

(* a successful draw: the pile is whole, the amount a whole number the pile can give, the oracle entry a
   possible sample *)
Lemma hare_subtract_ok p n o p' o' : hare_subtract p n o = HOk p' o' ->
  pile_whole p /\ 0 <= n /\ n <= inject_Z (pile_total p) /\ n == inject_Z (Qfloor n) /\
  exists ds, o = ds :: o' /\ draws_ok ds (Qfloor n) (pile_total p) = true /\ p' = hare_sub_pile p 0 ds.
Proof.
  unfold hare_subtract. destruct p as [|bw0 p0] eqn:Ep; [discriminate|]. rewrite <- Ep. clear Ep bw0 p0.
  destruct (forallb _ p) eqn:Ew; cbn [negb]; [|discriminate]. apply pile_whole_forallb in Ew.
  destruct (Qle_bool 0 n && Qle_bool n (inject_Z (pile_total p))) eqn:Er; cbn [negb]; [|discriminate].
  apply andb_true_iff in Er. destruct Er as [Er1 Er2]. apply Qle_bool_iff in Er1. apply Qle_bool_iff in Er2.
  destruct (is_int n) eqn:Ei; cbn [negb]; [|discriminate]. apply is_int_spec in Ei.
  destruct o as [|ds o0]; [discriminate|]. destruct (draws_ok ds (Qfloor n) (pile_total p)) eqn:Ed; [|discriminate].
  intros [= <- <-]. repeat split; try assumption. exists ds. auto.
Qed.

Theorem hare_subtract_spec p n o p' o' : hare_subtract p n o = HOk p' o' ->
  pile_whole p /\ pile_whole p' /\ wsum p' == wsum p - n /\ 0 <= n /\ n <= wsum p /\
  (exists ds, o = ds :: o' /\ draws_ok ds (Qfloor n) (pile_total p) = true /\ p' = hare_sub_pile p 0 ds) /\
  (forall b w, In (b, w) p' -> exists w0, In (b, w0) p).
Proof.
  intros H. destruct (hare_subtract_ok _ _ _ _ _ H) as (Hp & H0 & Hle & Hi & ds & Ho & Hd & ->).
  destruct (draws_ok_spec _ _ _ Hd) as [D1 D2]. destruct (hare_sub_pile_spec ds D1 p 0%Z Hp) as [S1 S2].
  split; [exact Hp|]. split; [exact S2|]. split; [rewrite S1, Z.add_0_l, D2, <- Hi; reflexivity|].
  split; [exact H0|]. split; [rewrite (pile_total_wsum p Hp); exact Hle|]. split; [exists ds; auto|].
  intros b w. apply hare_sub_pile_ballots.
Qed.

(* Hare._distribute_equal_ranking (votelib/component/transfer.py) *)
Definition ssum (l : list (C * Q)) : Q := fold_right (fun tn acc => snd tn + acc) 0 l.

Lemma split_counts_sum ds r : (0 <= r)%Z -> forall T j,
  fold_right (fun tc acc => (snd tc + acc)%Z) 0%Z (split_counts T j r ds) = cnt_in ds (j * r) ((j + Z.of_nat (length T)) * r).
Proof.
  intros Hr. induction T as [|t T IH]; intros j.
  - simpl. rewrite Z.add_0_r, cnt_in_empty by lia. reflexivity.
  - cbn [split_counts fold_right snd length]. rewrite IH.
    rewrite (cnt_in_split ds (j * r) ((j + 1) * r) ((j + Z.of_nat (S (length T))) * r)) by nia.
    replace (j + 1 + Z.of_nat (length T))%Z with (j + Z.of_nat (S (length T)))%Z by lia. reflexivity.
Qed.

Lemma split_counts_fst ds r T : forall j, map fst (split_counts T j r ds) = T.
Proof. induction T as [|t T IH]; intros j; simpl; [reflexivity|]. rewrite IH. reflexivity. Qed.

Lemma split_counts_nonneg ds r T : forall j t n, In (t, n) (split_counts T j r ds) -> (0 <= n)%Z.
Proof.
  induction T as [|t0 T IH]; intros j t n; simpl; [intros []|].
  intros [[= <- <-]|H]; [apply cnt_in_nonneg|exact (IH _ _ _ H)].
Qed.

Lemma ssum_const (T : list C) (z : Z) : ssum (map (fun t => (t, inject_Z z)) T) == inject_Z (Z.of_nat (length T) * z).
Proof.
  induction T as [|t T IH]; [simpl; reflexivity|]. cbn [map ssum fold_right snd length].
  fold (ssum (map (fun t0 : C => (t0, inject_Z z)) T)). rewrite IH.
  rewrite Nat2Z.inj_succ, <- Z.add_1_r, Z.mul_add_distr_r, inject_Z_plus, Z.mul_1_l. ring.
Qed.

Lemma ssum_counts (whole : Z) (sc : list (C * Z)) : (forall t n, In (t, n) sc -> (0 <= n)%Z) ->
  ssum (flat_map (fun tc : C * Z => if negb (whole =? 0)%Z || (0 <? snd tc)%Z then [(fst tc, inject_Z (whole + snd tc))] else []) sc)
  == inject_Z (Z.of_nat (length sc) * whole + fold_right (fun tc acc => (snd tc + acc)%Z) 0%Z sc).
Proof.
  induction sc as [|[t n] sc IH]; intros Hnn; [simpl; reflexivity|].
  cbn [flat_map length fst snd fold_right]. unfold ssum in *. rewrite fold_right_app.
  assert (IH' := IH (fun t0 n0 H0 => Hnn t0 n0 (or_intror H0))). clear IH.
  rewrite Nat2Z.inj_succ, <- Z.add_1_r, Z.mul_add_distr_r, Z.mul_1_l.
  set (rest := fold_right (fun (tn : C * Q) (acc : Q) => snd tn + acc) 0
                 (flat_map (fun tc : C * Z => if negb (whole =? 0)%Z || (0 <? snd tc)%Z then [(fst tc, inject_Z (whole + snd tc))] else []) sc)) in *.
  destruct (negb (whole =? 0)%Z || (0 <? n)%Z) eqn:E.
  - cbn [fold_right snd]. rewrite IH'. rewrite !inject_Z_plus. ring.
  - apply orb_false_iff in E. destruct E as [E1 E2]. apply negb_false_iff, Z.eqb_eq in E1. apply Z.ltb_ge in E2.
    pose proof (Hnn t n (or_introl eq_refl)). assert (n = 0)%Z by lia. subst n. cbn [fold_right]. rewrite IH', E1.
    rewrite !inject_Z_plus. ring.
Qed.

(* the shares of one ballot leaving for a shared rank: they go to targets only, add up to the weight of the
   ballot exactly, and are whole and non-negative when the weight is *)
Theorem hare_split_spec T w o shares o' : hare_split T w o = HOk shares o' ->
  ssum shares == w /\ (forall t s, In (t, s) shares -> In t T) /\
  (whole_nonneg w = true -> forall t s, In (t, s) shares -> whole_nonneg s = true).
Proof.
  unfold hare_split. destruct (is_int w) eqn:Ei; cbn [negb]; [|discriminate]. apply is_int_spec in Ei.
  set (k := Z.of_nat (length T)). set (wz := Qfloor w) in *. set (whole := (wz / k)%Z).
  (* either way r = wz - k * whole *)
  set (r := if (whole =? 0)%Z then wz else (wz - k * whole)%Z).
  assert (Hwhole : whole_nonneg w = true -> (0 <= whole)%Z).
  { intros Hw. apply whole_nonneg_spec in Hw. destruct Hw as [_ Hw]. fold wz in Hw. unfold whole.
    destruct (Z.eq_dec k 0) as [->|Hk]; [rewrite Zdiv_0_r; lia|]. apply Z.div_pos; lia. }
  destruct (negb (whole =? 0)%Z && (r =? 0)%Z) eqn:Eb.
  - intros [= <- <-]. apply andb_true_iff in Eb. destruct Eb as [Eb1 Eb2]. apply negb_true_iff, Z.eqb_neq in Eb1.
    apply Z.eqb_eq in Eb2. unfold r in Eb2. destruct (whole =? 0)%Z eqn:E0; [apply Z.eqb_eq in E0; contradiction|].
    split; [|split].
    + rewrite Ei. fold wz. replace wz with (k * whole)%Z by lia. apply ssum_const.
    + intros t s Hin. apply in_map_iff in Hin. destruct Hin as (t0 & [= <- _] & Ht). exact Ht.
    + intros Hw t s Hin. apply in_map_iff in Hin. destruct Hin as (t0 & [= _ <-] & Ht). apply whole_nonneg_inject, Hwhole, Hw.
  - destruct o as [|ds o0]; [discriminate|]. destruct (draws_ok ds r (k * r)) eqn:Ed; [|discriminate].
    intros [= <- <-]. destruct (draws_ok_spec _ _ _ Ed) as [_ D].
    assert (Hr : (0 <= r)%Z) by (rewrite <- D; apply cnt_in_nonneg).
    pose proof (split_counts_sum ds r Hr T 0%Z) as Hsum. rewrite Z.mul_0_l, Z.add_0_l in Hsum. fold k in Hsum.
    rewrite D in Hsum.
    assert (Hkw : (k * whole + r = wz)%Z).
    { unfold r. destruct (whole =? 0)%Z eqn:E0; [apply Z.eqb_eq in E0; rewrite E0; lia|lia]. }
    split; [|split].
    + rewrite Ei. fold wz.
      rewrite (ssum_counts whole _ (split_counts_nonneg ds r T 0%Z)).
      replace (length (split_counts T 0 r ds)) with (length T) by (rewrite <- (split_counts_fst ds r T 0%Z) at 1; apply map_length).
      rewrite Hsum. fold k. rewrite Hkw. reflexivity.
    + intros t s Hin. apply in_flat_map in Hin. destruct Hin as ([t0 n0] & H0 & Hin). cbn [fst snd] in Hin.
      destruct (_ || _); [|destruct Hin]. destruct Hin as [[= <- _]|[]].
      rewrite <- (split_counts_fst ds r T 0%Z). apply in_map_iff. exists (t0, n0). auto.
    + intros Hw t s Hin. apply in_flat_map in Hin. destruct Hin as ([t0 n0] & H0 & Hin). cbn [fst snd] in Hin.
      destruct (_ || _); [|destruct Hin]. destruct Hin as [[= _ <-]|[]]. apply whole_nonneg_inject.
      pose proof (split_counts_nonneg ds r T 0%Z t0 n0 H0). pose proof (Hwhole Hw). lia.
Qed.
