(* C02, the capped clause for every input: QuotaDistributor.evaluate holds every party at the whole quotas contained
   in its votes, cut at its cap (its previous gains if these are more), never above a cap, whatever on_overaward
   does afterwards; LargestRemainder.evaluate adds at most one further seat, only to parties still below their caps,
   and fills the house whenever the open seats do not outnumber these parties
   (Model/QuotaDistributor.v with fixes/C02-capbranch.diff and fixes/C02-lr-caps.diff). *)
From Coq Require Import ZArith QArith Qround List Bool Lia Permutation Arith.
From VL Require Import Prelude.PyDict Model.GetNBest Model.Quota Model.QuotaDistributor
     Proofs.Dict_proofs Proofs.GetNBest_proofs Proofs.QOrd Proofs.QD_proofs Proofs.QD2_proofs Proofs.Order_proofs
     Proofs.QDOrder_proofs Proofs.LRMono_proofs.
Import ListNotations.
Open Scope Z_scope.

(* whole quotas contained in the votes: int(v / q) when the quota is reached (equality counting iff accept_equal) *)
Definition whole_q (ae : bool) (q v : Q) : Z := if fulfills ae v q then py_trunc (v / q)%Q else 0.
(* seats held after the whole-quota stage, previous gains included: the whole quotas cut at the cap, or the previous
   gains if these are more *)
Definition held (ae : bool) (q : Q) (prev caps : list (C * Z)) (c : C) (v : Q) : Z :=
  Z.max (dget_or prev c 0) (cap_whole caps c (whole_q ae q v)).
Definition held_total (ae : bool) (q : Q) (prev caps : list (C * Z)) (votes : list (C * Q)) : Z :=
  lsumZ (map (fun cv : C * Q => held ae q prev caps (fst cv) (snd cv) - dget_or prev (fst cv) 0) votes) + zsumv prev.
(* parties that may still take a seat *)
Definition below_cap (ae : bool) (q : Q) (prev caps : list (C * Z)) (cv : C * Q) : bool :=
  match dget caps (fst cv) with Some m => held ae q prev caps (fst cv) (snd cv) <? m | None => true end.

Lemma prev_nonneg (prev : list (C * Z)) : Forall (fun cs : C * Z => 0 <= snd cs) prev -> forall c, 0 <= dget_or prev c 0.
Proof.
  intros H c. unfold dget_or. induction H as [|[k s] t Hs _ IH]; simpl; [lia|].
  destruct (ceqb c k); [exact Hs|exact IH].
Qed.

Lemma cap_add_le_held ae q prev caps c v : cap_add ae q prev caps c v + dget_or prev c 0 <= held ae q prev caps c v.
Proof.
  unfold cap_add, held, whole_q. destruct (fulfills ae v q); [|lia].
  destruct (0 <? _) eqn:E; [apply Z.ltb_lt in E|]; lia.
Qed.

Lemma cap_add_held ae q prev caps c v : 0 <= dget_or prev c 0 ->
  cap_add ae q prev caps c v + dget_or prev c 0 = held ae q prev caps c v.
Proof.
  intros Hp. unfold cap_add, held, whole_q. destruct (fulfills ae v q).
  - destruct (0 <? _) eqn:E; [apply Z.ltb_lt in E|apply Z.ltb_ge in E]; lia.
  - unfold cap_whole. destruct (dget caps c); lia.
Qed.

Lemma cap_add_cap ae q prev caps c v m : dget caps c = Some m -> dget_or prev c 0 <= m ->
  cap_add ae q prev caps c v + dget_or prev c 0 <= m.
Proof.
  intros Hc Hp. unfold cap_add, cap_whole. rewrite Hc. destruct (fulfills ae v q); [|lia].
  destruct (0 <? _) eqn:E; [apply Z.ltb_lt in E|]; lia.
Qed.

Lemma in_plain_of d c s : In (c, s) (plain_of d) <-> In (K c, s) d.
Proof.
  unfold plain_of. rewrite in_flat_map. split.
  - intros ([[c1|l] z] & Hd & Hx); simpl in Hx; [|destruct Hx]. destruct Hx as [[= -> ->]|[]]. exact Hd.
  - intros H. exists (K c, s). split; [exact H|left; reflexivity].
Qed.

Lemma keys_plain_of d c : In c (map fst (plain_of d)) -> In (K c) (keys d).
Proof.
  intros H. apply in_map_iff in H. destruct H as ([c0 s] & Hc & H). simpl in Hc. subst c0.
  apply in_plain_of in H. exact (in_keys d _ s H).
Qed.

Lemma keys_plain_of_nodup d : NoDup (keys d) -> keysnd (plain_of d).
Proof.
  unfold keysnd. induction d as [|[[c|l] z] t IH]; cbn [keys map fst]; intros H; inversion H as [|? ? Hk Hn]; subst;
    [constructor| |apply IH, Hn].
  change (plain_of ((K c, z) :: t)) with ((c, z) :: plain_of t). cbn [map fst].
  constructor; [|apply IH, Hn]. intros Hin. apply Hk, keys_plain_of, Hin.
Qed.

Lemma kdget_in d c s : NoDup (keys d) -> In (K c, s) d -> kdget d c = s.
Proof.
  intros Hn Hin. pose proof (keys_plain_of_nodup d Hn) as Hp. rewrite (kdget_plain_of d c Hp).
  unfold dget_or. rewrite (In_dget (plain_of d) c s Hp); [reflexivity|]. apply in_plain_of, Hin.
Qed.

Lemma kdget_notin d c : NoDup (keys d) -> ~ In (K c) (keys d) -> kdget d c = 0.
Proof.
  intros Hn H. rewrite (kdget_plain_of d c (keys_plain_of_nodup d Hn)). unfold dget_or.
  assert (E : dget (plain_of d) c = None) by (apply dget_none_notin; intros Hi; exact (H (keys_plain_of d c Hi))).
  rewrite E. reflexivity.
Qed.

Lemma kdget_plain sel c : NoDup (map fst sel) -> kdget (plain sel) c = dget_or sel c 0.
Proof.
  intros Hn. rewrite kdget_plain_of; change (plain sel) with (kplain sel); rewrite plain_of_kplain; [reflexivity|exact Hn].
Qed.

(* a dictionary whose entries are bounded, entry by entry, by those of a dictionary of positive numbers *)
Lemma kdget_le res (sel : list (C * Z)) : NoDup (keys res) -> NoDup (map fst sel) -> (forall c s, In (c, s) sel -> 0 < s) ->
  (forall c s, In (K c, s) res -> exists s0, In (c, s0) sel /\ s <= s0) ->
  forall c, kdget res c <= dget_or sel c 0.
Proof.
  intros Hn Hnd Hpos Hb c. destruct (in_dec key_eq_dec_aux (K c) (keys res)) as [Hin|Hnin].
  - apply in_map_iff in Hin. destruct Hin as ([k s] & Hk & Hin). simpl in Hk. subst k.
    rewrite (kdget_in res c s Hn Hin). destruct (Hb c s Hin) as (s0 & H0 & L0).
    unfold dget_or. rewrite (In_dget sel c s0 Hnd H0). exact L0.
  - rewrite (kdget_notin res c Hn Hnin). unfold dget_or. destruct (dget sel c) as [s|] eqn:E; [|lia].
    apply dget_In in E. specialize (Hpos c s E). lia.
Qed.

(* the seats the loop over the votes awards, with the previous gains, are the seats held *)
Lemma zsumv_scan_held ae q prev caps votes : NoDup (map fst votes) -> (forall c, 0 <= dget_or prev c 0) ->
  zsumv (scan ae votes q prev caps []) + zsumv prev = held_total ae q prev caps votes.
Proof.
  intros Hnd Hp. rewrite (zsumv_scan ae votes q prev caps Hnd). clear Hnd. unfold held_total. f_equal.
  induction votes as [|[c v] t IH]; [reflexivity|].
  cbn [map fst snd lsumZ fold_right]. unfold lsumZ in IH. rewrite IH, <- (cap_add_held ae q prev caps c v (Hp c)). lia.
Qed.

Section QDC.
  Variable quota : Q -> Z -> Q.
  Variable ae : bool.
  Variable pol : policy.

  (* the result against the loop over the votes: never more than the loop awarded; exactly that unless seats are withdrawn *)
  Lemma qd_result_vs_scan votes n prev caps sel : NoDup (map fst votes) -> (forall c, 0 <= dget_or prev c 0) ->
    qd_evaluate quota ae pol votes n prev caps = QD_ok sel ->
    let q := quota (qsumv votes) n in
    let S := scan ae votes q prev caps [] in
    NoDup (keys sel) /\
    (forall c s, In (K c, s) sel -> exists s0, In (c, s0) S /\ s <= s0) /\
    ((pol = PSubtract -> held_total ae q prev caps votes <= n) -> sel = plain S).
  Proof.
    intros Hnd Hp. unfold qd_evaluate. cbv zeta. set (q := quota (qsumv votes) n).
    destruct (Qeq_bool q 0 && _); [discriminate|].
    pose proof (scan_nodup ae votes q prev caps [] (NoDup_nil _)) as Hnds.
    rewrite <- (zsumv_scan_held ae q prev caps votes Hnd Hp).
    set (S := scan ae votes q prev caps []) in *. fold (plain S).
    assert (Hplain : NoDup (keys (plain S)) /\ (forall c s, In (K c, s) (plain S) -> exists s0, In (c, s0) S /\ s <= s0)).
    { split; [apply keys_plain, Hnds|]. intros c s H. apply in_plain in H. destruct H as (c' & [= <-] & H).
      exists s. split; [exact H|lia]. }
    destruct (n <? zsumv S + zsumv prev) eqn:E; [destruct pol|]; try discriminate;
      try (intros [= <-]; split; [apply Hplain|]; split; [apply Hplain|reflexivity]).
    apply Z.ltb_lt in E. intros Hr. destruct (subtract_spec votes q prev _ S _ sel Hnds Hr) as (A & _ & B).
    split; [exact A|]. split; [exact B|]. intros H. specialize (H eq_refl). lia.
  Qed.

  Theorem qd_caps votes n prev caps sel :
    NoDup (map fst votes) -> Forall (fun cs : C * Z => 0 <= snd cs) prev ->
    qd_evaluate quota ae pol votes n prev caps = QD_ok sel ->
    let q := quota (qsumv votes) n in
    (forall c m, dget caps c = Some m -> dget_or prev c 0 <= m -> kdget sel c + dget_or prev c 0 <= m) /\
    (forall c v, In (c, v) votes -> kdget sel c + dget_or prev c 0 <= held ae q prev caps c v) /\
    (forall c, ~ In c (map fst votes) -> kdget sel c = 0) /\
    ((pol = PSubtract -> held_total ae q prev caps votes <= n) ->
       forall c v, In (c, v) votes -> kdget sel c + dget_or prev c 0 = held ae q prev caps c v).
  Proof.
    intros Hnd Hprev Hr q. pose proof (prev_nonneg prev Hprev) as Hp.
    destruct (qd_result_vs_scan votes n prev caps sel Hnd Hp Hr) as (Hks & Hb & Heq). fold q in Hb, Heq.
    destruct (scan_spec ae votes q prev caps [] Hnd) as (Hv & Hn & Hin); [intros; reflexivity|].
    pose proof (scan_nodup ae votes q prev caps [] (NoDup_nil _)) as Hnds.
    set (S := scan ae votes q prev caps []) in *.
    assert (Hpos : forall c s, In (c, s) S -> 0 < s /\ exists v, In (c, v) votes).
    { intros c s H. destruct (Hin c s H) as [[]|H0]. exact H0. }
    pose proof (kdget_le sel S Hks Hnds (fun c s H => proj1 (Hpos c s H)) Hb) as Hle.
    split; [|split; [|split]].
    - intros c m Hc Hpm. specialize (Hle c).
      destruct (in_dec Pos.eq_dec c (map fst votes)) as [Hi|Hni].
      + apply in_map_iff in Hi. destruct Hi as ([c0 v] & Hc0 & Hi). simpl in Hc0. subst c0.
        rewrite (Hv c v Hi) in Hle. pose proof (cap_add_cap ae q prev caps c v m Hc Hpm). lia.
      + rewrite (Hn c Hni) in Hle. unfold dget_or in Hle at 1. simpl in Hle. lia.
    - intros c v Hi. specialize (Hle c). rewrite (Hv c v Hi) in Hle.
      pose proof (cap_add_le_held ae q prev caps c v). lia.
    - intros c Hni. apply (kdget_notin sel c Hks). intros Hk.
      apply in_map_iff in Hk. destruct Hk as ([k s] & Hkk & Hk). simpl in Hkk. subst k.
      destruct (Hb c s Hk) as (s0 & H0 & _). destruct (Hpos c s0 H0) as (_ & v & Hcv).
      apply Hni, in_map_iff. exists (c, v). split; [reflexivity|exact Hcv].
    - intros Hcond c v Hi. rewrite (Heq Hcond), (kdget_plain S c Hnds), (Hv c v Hi). apply cap_add_held, Hp.
  Qed.
End QDC.

Lemma gnb_members (rems : list (C * Q)) k c : (1 <= k)%nat ->
  In c (cands (get_n_best Qle_bool rems k)) \/ tie_has c (get_n_best Qle_bool rems k) = true -> exists x, In (c, x) rems.
Proof.
  intros Hk H. rewrite in_cands, tie_has_in in H.
  assert (Hm : In c (map fst rems)).
  { destruct (gnb_shapes rems k Hk) as [(top & below & Hp & _ & _ & E)|(above & level & below & thr & Hp & _ & _ & _ & _ & E)];
      rewrite E in H; apply (Permutation_in _ (Permutation_map fst Hp)); rewrite !map_app, !in_app_iff.
    - destruct H as [H|(T & HT & _)]; [left; apply in_cand_keys, H|destruct (tie_not_cand _ _ HT)].
    - destruct H as [H|(T & HT & HcT)]; [left; exact (proj1 (in_cand_shape _ _ _ _) H)|].
      apply in_tie_shape in HT. destruct HT as [-> _]. right. left. exact HcT. }
  apply in_map_iff in Hm. destruct Hm as ([c0 x] & Hc0 & Hm). simpl in Hc0. subst c0. exists x. exact Hm.
Qed.

(* the selection gives a party at most one further seat, for certain or as a member of the tie, and only to a party of
   the table *)
Lemma gnb_further_seat (rems : list (C * Q)) k c : (1 <= k)%nat -> NoDup (map fst rems) ->
  NoDup (cands (get_n_best Qle_bool rems k)) ->
  let e := count c (cands (get_n_best Qle_bool rems k)) + (if tie_has c (get_n_best Qle_bool rems k) then 1 else 0) in
  0 <= e <= 1 /\ (1 <= e -> exists x, In (c, x) rems).
Proof.
  intros Hk Hrnd Hcn. pose proof (gnb_members rems k c Hk) as Hmem.
  set (best := get_n_best Qle_bool rems k) in *. cbv zeta.
  destruct (in_dec Pos.eq_dec c (cands best)) as [Hi|Hni], (tie_has c best) eqn:Eth.
  - exfalso. destruct (Hmem (or_introl Hi)) as (x & Hx).
    apply (gnb_not_both rems k Hk Hrnd c x Hx); [apply in_cands, Hi|apply tie_has_in, Eth].
  - rewrite (count_nodup c _ Hcn Hi). split; [lia|]. intros _. apply Hmem. left. exact Hi.
  - rewrite (count_notin c _ Hni). split; [lia|]. intros _. apply Hmem. right. reflexivity.
  - rewrite (count_notin c _ Hni). split; [lia|]. intros H. lia.
Qed.

Lemma tmem_no_tie qe c : has_tie qe = false -> tmem qe c = false.
Proof.
  unfold has_tie, tmem. induction qe as [|[[c'|l] z] t IH]; cbn [existsb fst]; [reflexivity|exact IH|discriminate].
Qed.

Lemma ksum_no_tie qe : has_tie qe = false -> ksum qe = zsumv (plain_of qe).
Proof.
  intros H. rewrite <- (ksum_plain (plain_of qe)). f_equal.
  unfold has_tie in H. unfold plain, plain_of. induction qe as [|[[c'|l] z] t IH]; cbn [existsb fst] in *; [reflexivity| |discriminate].
  cbn [flat_map fst snd app map]. rewrite <- (IH H). reflexivity.
Qed.

Lemma lsumZ_cons a l : lsumZ (a :: l) = a + lsumZ l.
Proof. reflexivity. Qed.

Lemma zsumv_dset_nodup (d : list (C * Z)) c x : NoDup (map fst d) -> zsumv (dset d c x) = zsumv d - dget_or d c 0 + x.
Proof.
  rewrite !zsumv_lsumZ. unfold dget_or. induction d as [|[k s] t IH]; intros H.
  - cbn [dset map snd dget]. rewrite lsumZ_cons. unfold lsumZ. simpl. lia.
  - inversion H as [|? ? Hk Hn]; subst. cbn [dset dget]. destruct (ceqb c k) eqn:E.
    + cbn [map snd]. rewrite !lsumZ_cons. lia.
    + cbn [map snd]. rewrite !lsumZ_cons, (IH Hn). lia.
Qed.

Lemma zsumv_add_dict (d2 : list (C * Z)) : forall d1, NoDup (map fst d1) -> zsumv (add_dict d1 d2) = zsumv d1 + zsumv d2.
Proof.
  unfold add_dict. induction d2 as [|[k x] t IH]; intros d1 H; cbn [fold_left fst snd].
  - rewrite (zsumv_lsumZ []). unfold lsumZ. simpl. lia.
  - rewrite IH by (apply dset_nodup, H). rewrite (zsumv_dset_nodup d1 k _ H), (zsumv_lsumZ ((k, x) :: t)), (zsumv_lsumZ t).
    cbn [map snd]. rewrite lsumZ_cons. lia.
Qed.

Lemma dget_or_add_dict (d1 d2 : list (C * Z)) c : NoDup (map fst d2) ->
  dget_or (add_dict d1 d2) c 0 = dget_or d1 c 0 + dget_or d2 c 0.
Proof.
  intros H. unfold dget_or at 1 3. rewrite (dget_add_dict d2 d1 c H). destruct (dget d2 c); [reflexivity|]. unfold dget_or. lia.
Qed.

Lemma kposs_no_tie qe c : has_tie qe = false -> kposs qe c = kdget qe c.
Proof. intros Ht. unfold kposs. rewrite (tmem_no_tie qe c Ht). lia. Qed.

(* the seats gained so far, as the remainder stage sees them *)
Lemma gained_get qe prev c : NoDup (keys qe) -> NoDup (map fst prev) ->
  dget_or (add_dict (plain_of qe) prev) c 0 = kdget qe c + dget_or prev c 0.
Proof.
  intros Hks Hpnd. rewrite (dget_or_add_dict _ _ c Hpnd), (kdget_plain_of qe c (keys_plain_of_nodup qe Hks)). reflexivity.
Qed.

Lemma gained_total qe prev : NoDup (keys qe) -> has_tie qe = false -> zsumv (add_dict (plain_of qe) prev) = ksum qe + zsumv prev.
Proof. intros Hks Ht. rewrite (zsumv_add_dict prev _ (keys_plain_of_nodup qe Hks)), (ksum_no_tie qe Ht). reflexivity. Qed.

(* what seating a selection adds to a result without Tie keys *)
Lemma seat_best_adds qe best c : NoDup (keys qe) -> has_tie qe = false ->
  kdget (seat_best qe best) c = kdget qe c + count c (cands best) /\
  kposs (seat_best qe best) c = kdget qe c + (count c (cands best) + (if tie_has c best then 1 else 0)).
Proof.
  intros Hks Ht. pose proof (keys_plain_of_nodup qe Hks) as Hqc.
  assert (Hkd : kdget (seat_best qe best) c = kdget qe c + count c (cands best)).
  { rewrite kdget_plain_of; rewrite plain_of_seat_best; [|apply fold_op_nodup; [apply incr_t_nodup|exact Hqc]].
    rewrite dget_or_fold_incr, (kdget_plain_of qe c Hqc). reflexivity. }
  split; [exact Hkd|]. unfold kposs. rewrite Hkd, tmem_seat_best, (tmem_no_tie qe c Ht). cbn [orb]. lia.
Qed.

(* the remainder stage leaves every party its seats and gives it at most one further seat, for certain or as a member
   of the tie, and only to a party of the votes that has room below its cap *)
Lemma remainder_stage votes q gained caps qe k c : (1 <= k)%nat -> NoDup (map fst votes) -> NoDup (keys qe) ->
  has_tie qe = false ->
  let sel := seat_best qe (get_n_best Qle_bool (remainders votes q gained caps) k) in
  kdget qe c <= kdget sel c /\ kposs sel c <= kdget qe c + 1 /\
  (kposs sel c = kdget qe c \/ exists v, In (c, v) votes /\ has_room gained caps (c, v) = true).
Proof.
  intros Hk Hnd Hks Ht. cbv zeta.
  pose proof (gnb_further_seat _ k c Hk (remainders_nodup votes q gained caps Hnd) (lr_at_most_one votes q gained caps k Hk Hnd))
    as He. cbv zeta in He.
  set (best := get_n_best Qle_bool (remainders votes q gained caps) k) in *. destruct He as [He Hx].
  destruct (seat_best_adds qe best c Hks Ht) as [-> ->]. pose proof (count_nonneg c (cands best)).
  split; [lia|]. split; [lia|].
  destruct (Z.eq_dec (count c (cands best) + (if tie_has c best then 1 else 0)) 0) as [Ez|Ez]; [left; lia|right].
  destruct Hx as (x & Hx); [lia|]. exact (remainders_in _ _ _ _ _ _ Hx).
Qed.

Section LRC.
  Variable quota : Q -> Z -> Q.
  Variable ae : bool.
  Variable pol : policy.

  (* LargestRemainder over the whole-quota stage: a result without Tie keys, to which the remainder stage (if seats are
     open) adds one seat each for as many parties with room as there are open seats *)
  Lemma lr_over_qd votes n prev caps sel : NoDup (map fst votes) -> (forall c, 0 <= dget_or prev c 0) ->
    lr_evaluate quota ae pol votes n prev caps = LR_ok sel ->
    exists qe, qd_evaluate quota ae pol votes n prev caps = QD_ok qe /\ NoDup (keys qe) /\ has_tie qe = false /\
      let gained := add_dict (plain_of qe) prev in
      (forall c, kdget qe c <= kdget sel c /\ kposs sel c <= kdget qe c + 1 /\
         (kposs sel c = kdget qe c \/ exists v, In (c, v) votes /\ has_room gained caps (c, v) = true)) /\
      ksum sel = ksum qe + Z.min (Z.max 0 (n - zsumv gained)) (Z.of_nat (length (filter (has_room gained caps) votes))).
  Proof.
    intros Hnd Hp Hr. unfold lr_evaluate in Hr.
    destruct (qd_evaluate quota ae pol votes n prev caps) as [qe| | | | |] eqn:Hqd; try discriminate.
    fold (has_tie qe) (plain_of qe) in Hr. destruct (has_tie qe) eqn:Ht; [discriminate|]. cbv zeta in Hr.
    destruct (qd_result_vs_scan quota ae pol votes n prev caps qe Hnd Hp Hqd) as (Hks & _).
    exists qe. split; [reflexivity|]. split; [exact Hks|]. split; [exact Ht|]. cbv zeta.
    set (q := quota (qsumv votes) n) in *. set (gained := add_dict (plain_of qe) prev) in *.
    destruct (Qeq_bool q 0); [discriminate|].
    destruct (n - zsumv gained <=? 0) eqn:En; injection Hr as <-.
    - apply Z.leb_le in En. split; [|lia]. intros c. rewrite (kposs_no_tie qe c Ht). split; [lia|]. split; [lia|]. left. reflexivity.
    - apply Z.leb_gt in En. fold (remainders votes q gained caps).
      assert (Hk : (1 <= Z.to_nat (n - zsumv gained))%nat) by lia.
      fold (seat_best qe (get_n_best Qle_bool (remainders votes q gained caps) (Z.to_nat (n - zsumv gained)))).
      split; [intros c; apply remainder_stage; assumption|].
      rewrite ksum_seat_best, (get_n_best_length Qle_bool Qle_bool_total Qle_bool_trans _ _ Hk), remainders_eq, map_length. lia.
  Qed.

  Theorem lr_caps votes n prev caps sel :
    NoDup (map fst votes) -> NoDup (map fst prev) -> Forall (fun cs : C * Z => 0 <= snd cs) prev ->
    lr_evaluate quota ae pol votes n prev caps = LR_ok sel ->
    let q := quota (qsumv votes) n in
    (forall c m, dget caps c = Some m -> dget_or prev c 0 <= m -> kposs sel c + dget_or prev c 0 <= m) /\
    (forall c, ~ In c (map fst votes) -> kposs sel c = 0) /\
    ((pol = PSubtract -> held_total ae q prev caps votes <= n) ->
       forall c v, In (c, v) votes ->
         held ae q prev caps c v <= kdget sel c + dget_or prev c 0 /\
         kposs sel c + dget_or prev c 0 <= held ae q prev caps c v + 1) /\
    (held_total ae q prev caps votes <= n ->
       ksum sel + zsumv prev =
         held_total ae q prev caps votes
         + Z.min (n - held_total ae q prev caps votes) (Z.of_nat (length (filter (below_cap ae q prev caps) votes)))).
  Proof.
    intros Hnd Hpnd Hprev Hr q. pose proof (prev_nonneg prev Hprev) as Hp.
    destruct (lr_over_qd votes n prev caps sel Hnd Hp Hr) as (qe & Hqd & Hks & Ht & Hone & Hsum).
    destruct (qd_caps quota ae pol votes n prev caps qe Hnd Hprev Hqd) as (Q1 & _ & Q3 & Q4). fold q in Q1, Q3, Q4.
    pose proof (fun c => gained_get qe prev c Hks Hpnd) as Hg.
    rewrite (gained_total qe prev Hks Ht) in Hsum.
    set (gained := add_dict (plain_of qe) prev) in *.
    split; [|split; [|split]].
    - intros c m Hc Hpm. destruct (Hone c) as (_ & H1 & [->|(v & _ & Hroom)]); [exact (Q1 c m Hc Hpm)|].
      unfold has_room in Hroom. cbn [fst] in Hroom. rewrite Hc, Hg in Hroom. apply Z.ltb_lt in Hroom. lia.
    - intros c Hni. destruct (Hone c) as (_ & _ & [->|(v & Hv & _)]); [exact (Q3 c Hni)|].
      destruct Hni. apply in_map_iff. exists (c, v). split; [reflexivity|exact Hv].
    - intros Hc c v Hi. destruct (Hone c) as (H0 & H1 & _). rewrite <- (Q4 Hc c v Hi). lia.
    - intros Hle.
      destruct (qd_result_vs_scan quota ae pol votes n prev caps qe Hnd Hp Hqd) as (_ & _ & Heq).
      assert (E : ksum qe + zsumv prev = held_total ae q prev caps votes).
      { rewrite (Heq (fun _ => Hle)), ksum_plain. apply zsumv_scan_held; assumption. }
      assert (Hroom : filter (has_room gained caps) votes = filter (below_cap ae q prev caps) votes).
      { apply filter_ext_in. intros [c v] Hi.
        unfold has_room, below_cap. cbn [fst snd]. rewrite Hg, (Q4 (fun _ => Hle) c v Hi). reflexivity. }
      rewrite Hsum, Hroom. lia.
  Qed.
End LRC.
