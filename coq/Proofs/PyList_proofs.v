(* Facts about the list / dictionary primitives of Prelude/PyList.v used by the Props/GenTie_*.v files.
   Nothing here mentions a model of the library or generated code. *)
From Coq Require Import ZArith QArith List Bool Lia.
From VL Require Import Prelude.PyDict Prelude.PyList Proofs.Dict_proofs.
Import ListNotations.

Lemma concat_repeat_singleton {A} (x : A) k : concat (repeat [x] k) = repeat x k.
Proof. induction k as [|k IH]; [reflexivity|]. cbn. rewrite IH. reflexivity. Qed.

Lemma py_dict_c_nodup {X} (l : list (C * X)) : NoDup (map fst l) -> py_dict_c l = l.
Proof.
  unfold py_dict_c. intros H.
  assert (G : forall acc, NoDup (map fst (acc ++ l)) -> fold_left (fun d kv => dset d (fst kv) (snd kv)) l acc = acc ++ l).
  { clear H. induction l as [|[k v] t IH]; intros acc H; [rewrite app_nil_r; reflexivity|].
    cbn [fold_left fst snd]. rewrite dset_fresh.
    - rewrite IH; rewrite <- app_assoc; [reflexivity|exact H].
    - rewrite map_app in H. apply NoDup_remove_2 in H. intros Hin. apply H. apply in_or_app. left. exact Hin. }
  apply (G []). exact H.
Qed.

Lemma py_get_z_zset {X} (d : list (Z * X)) k' v k dflt :
  py_get_z (zset d k' v) k dflt = if Z.eqb k' k then v else py_get_z d k dflt.
Proof.
  unfold py_get_z. induction d as [|[k0 v0] t IH]; cbn [zset find fst snd].
  - destruct (Z.eqb_spec k' k); reflexivity.
  - destruct (Z.eqb_spec k' k0) as [->|Hn]; cbn [find fst snd].
    + destruct (Z.eqb_spec k0 k); reflexivity.
    + destruct (Z.eqb_spec k0 k) as [->|Hk].
      * destruct (Z.eqb_spec k' k); [contradiction|reflexivity].
      * exact IH.
Qed.

Lemma py_dict_z_tabulate {X A} (F : Z -> X) (h : A -> Z) (l : list A) k dflt :
  py_get_z (py_dict_z (map (fun x => (h x, F (h x))) l)) k dflt = if existsb (fun x => Z.eqb (h x) k) l then F k else dflt.
Proof.
  unfold py_dict_z.
  assert (G : forall acc, py_get_z (fold_left (fun d kv => zset d (fst kv) (snd kv)) (map (fun x => (h x, F (h x))) l) acc) k dflt =
                          if existsb (fun x => Z.eqb (h x) k) l then F k else py_get_z acc k dflt).
  { induction l as [|n t IH]; intros acc; [reflexivity|]. cbn [map fold_left fst snd existsb].
    rewrite IH, py_get_z_zset. destruct (Z.eqb_spec (h n) k) as [->|Hn]; cbn [orb]; [|reflexivity].
    match goal with |- context [existsb ?f t] => destruct (existsb f t) end; reflexivity. }
  rewrite G. reflexivity.
Qed.

Lemma filter_map_swap {A B} (g : A -> B) (p : B -> bool) l : filter p (map g l) = map g (filter (fun x => p (g x)) l).
Proof. induction l as [|x t IH]; [reflexivity|]. cbn [map filter]. destruct (p (g x)); cbn [map]; rewrite IH; reflexivity. Qed.

