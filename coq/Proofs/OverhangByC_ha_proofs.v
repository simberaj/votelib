(* LevelOverhangByConstituency with highest-averages evaluators (Model/OverhangByC.v, lobc_calculate):
   the party-or-Tie key equality is an equivalence, the result dictionaries of the inner evaluator and of
   ByConstituency are well formed, so that the generic theorems of Proofs/OverhangByC_proofs.v apply to every
   divisor (D'Hondt, Sainte-Lague, ...) without further hypotheses on the evaluator. *)
From Coq Require Import ZArith QArith List Bool Lia Permutation.
From VL Require Import Prelude.PyDict Model.HighestAverages Model.OverhangByC Model.Divisor
     Proofs.Dict_proofs Proofs.HA_proofs Proofs.Divisor_proofs Proofs.OverhangByC_proofs.
Import ListNotations.
Open Scope Z_scope.

Lemma subl_incl a b : subl a b = true <-> incl a b.
Proof.
  unfold subl. rewrite forallb_forall. split; intros H x Hx; apply cmem_In, H, Hx.
Qed.
Lemma pk_eqb_refl a : pk_eqb a a = true.
Proof.
  destruct a as [c|l]; simpl; [apply Pos.eqb_refl|].
  assert (subl l l = true) as -> by (apply subl_incl, incl_refl). reflexivity.
Qed.
Lemma pk_eqb_sym a b : pk_eqb a b = pk_eqb b a.
Proof. destruct a, b; simpl; try reflexivity; [apply Pos.eqb_sym|apply andb_comm]. Qed.
Lemma subl_trans a b c : subl a b = true -> subl b c = true -> subl a c = true.
Proof. intros H1 H2. apply subl_incl in H1, H2. apply subl_incl. exact (incl_tran H1 H2). Qed.
Lemma pk_eqb_trans a b c : pk_eqb a b = true -> pk_eqb b c = true -> pk_eqb a c = true.
Proof.
  destruct a as [x|l], b as [y|m], c as [z|n]; simpl; try discriminate.
  - unfold ceqb. rewrite !Pos.eqb_eq. congruence.
  - intros H1 H2. apply andb_true_iff in H1, H2. destruct H1 as [A1 A2], H2 as [B1 B2].
    rewrite (subl_trans _ _ _ A1 B1), (subl_trans _ _ _ B2 A2). reflexivity.
Qed.

Section HAW.
  Variable d : Z -> Q.
  Variable votes : list (C * Q).
  Variable caps : list (C * Z).
  Variable n : Z.

  Definition tot_wf (s : state) : Prop :=
    NoDup (map fst (st_totals s)) /\ forall T r, st_tie s = Some (T, r) -> 0 < r.

  Lemma fold_incr_nodup ks : forall t, NoDup (map fst t) -> NoDup (map fst (fold_left incr ks t)).
  Proof.
    induction ks as [|k ks IH]; intros t H; simpl; [exact H|]. apply IH. unfold incr, incr_t. apply dset_nodup, H.
  Qed.
  Lemma step_tot_wf s : 0 < st_rem s -> tot_wf s -> tot_wf (step d votes caps n s).
  Proof.
    intros Hr [H1 H2]. unfold step. destruct (st_qs s) as [|[c0 m] q]; [split; assumption|].
    destruct (Z.of_nat _ <=? st_rem s); split; simpl.
    - apply fold_incr_nodup, H1.
    - discriminate.
    - exact H1.
    - intros T r [= _ <-]. exact Hr.
  Qed.
  Lemma loop_tot_wf fuel : forall s, tot_wf s -> tot_wf (loop d votes caps n fuel s).
  Proof. apply (loop_ind d votes caps n tot_wf). intros s H Hr _. apply step_tot_wf; assumption. Qed.
End HAW.

Lemma final_tot_wf d votes n : tot_wf (final_state d votes n [] []).
Proof. unfold final_state. apply loop_tot_wf. split; simpl; [constructor|discriminate]. Qed.

Notation pknodup := (knodup pk_eqb).

Lemma gains_wf (gains : list (C * Z)) tp : NoDup (map fst gains) ->
  (tp = [] \/ exists l k, tp = [(PT l, k)]) ->
  pknodup (map (fun cs : C * Z => (PK (fst cs), snd cs)) gains ++ tp).
Proof.
  intros Hn Ht. induction gains as [|[c g] t IH]; simpl.
  - destruct Ht as [->|(l & k & ->)]; simpl; auto.
  - inversion Hn as [|? ? Hc Hn']; subst. split; [|apply IH, Hn'].
    unfold khas. rewrite existsb_app. apply orb_false_iff. split.
    + apply not_true_is_false. intros H. apply existsb_exists in H. destruct H as ([k v] & Hin & He).
      apply in_map_iff in Hin. destruct Hin as ([c' g'] & Heq & Hin). injection Heq as <- <-. simpl in He.
      apply ceqb_eq in He. subst c'. apply Hc. apply in_map_iff. exists (c, g'). auto.
    + destruct Ht as [->|(l & k & ->)]; reflexivity.
Qed.

(* the inner evaluator answers with a dictionary without repeated keys and without negative entries *)
Theorem ha_eval_wf d votes n r : ha_eval d votes n = Ok r ->
  pknodup r /\ Forall (fun kv : pk * Z => 0 <= snd kv) r.
Proof.
  unfold ha_eval. destruct (evaluate d votes n [] []) as [gains tie|] eqn:E; [|discriminate]. intros [= <-].
  apply evaluate_ok in E. destruct E as [-> ->]. destruct (final_tot_wf d votes n) as [Hn Ht]. split.
  - apply gains_wf; [exact (gain_item_keys _ _ Hn)|].
    destruct (st_tie _) as [[l k]|]; [right; exists l, k; reflexivity|left; reflexivity].
  - apply Forall_app. split.
    + rewrite Forall_map. eapply Forall_impl; [|apply gain_item_pos]. intros cs. apply Z.lt_le_incl.
    + destruct (st_tie _) as [[l k]|]; [|constructor]. constructor; [|constructor].
      exact (Z.lt_le_incl _ _ (Ht l k eq_refl)).
Qed.

Lemma ebind_Ok {X Y} (r : eres X) (f : X -> eres Y) y : ebind r f = Ok y -> exists x, r = Ok x /\ f x = Ok y.
Proof. destruct r; simpl; [eauto|discriminate|discriminate]. Qed.

Section BYCW.
  Context {K : Type}.
  Variable keqb : K -> K -> bool.
  Variable E : list (C * Q) -> Z -> eres (list (K * Z)).
  Variable P : list (K * Z) -> Prop.
  Hypothesis HE : forall v n r, E v n = Ok r -> P r.
  Hypothesis Hnil : P [].

  Lemma byc_districts_wf ap votes : forall l, byc_districts E ap votes = Ok l ->
    map fst l = map fst votes /\ Forall (fun cr => match snd cr with Some r => P r | None => True end) l.
  Proof.
    induction votes as [|[c dv] t IH]; simpl; intros l H.
    - injection H as <-. split; [reflexivity|constructor].
    - destruct (ap c =? 0).
      + apply ebind_Ok in H. destruct H as (l' & Hl' & [= <-]). destruct (IH l' Hl') as [H1 H2].
        simpl. split; [f_equal; exact H1|constructor; [exact I|exact H2]].
      + apply ebind_Ok in H. destruct H as (r & Hr & H). apply ebind_Ok in H. destruct H as (l' & Hl' & [= <-]).
        destruct (IH l' Hl') as [H1 H2].
        simpl. split; [f_equal; exact H1|constructor; [exact (HE _ _ _ Hr)|exact H2]].
  Qed.

  Lemma byc_assemble_wf l res : byc_assemble l = Ok res ->
    Forall (fun cr => match snd cr with Some r => P r | None => True end) l ->
    Permutation (map fst res) (map fst l) /\ Forall (fun cd => P (snd cd)) res.
  Proof.
    unfold byc_assemble. intros Hres Hf. revert Hres.
    set (rs := flat_map (fun cr : Cty * option (list (K * Z)) => match snd cr with Some r => [(fst cr, r)] | None => [] end)).
    set (nv := flat_map (fun cr : Cty * option (list (K * Z)) => match snd cr with Some _ => [] | None => [(fst cr, @nil (K * Z))] end)).
    assert (Hp : Permutation (map fst (rs l ++ nv l)) (map fst l) /\ Forall (fun cd => P (snd cd)) (rs l ++ nv l)).
    { induction l as [|[c o] t IH]; simpl.
      - split; constructor.
      - destruct (IH (Forall_inv_tail Hf)) as [G1 G2]. apply Forall_inv in Hf.
        destruct o as [r|]; simpl in *.
        + split; [constructor; exact G1|constructor; [exact Hf|exact G2]].
        + split.
          * rewrite map_app. simpl. eapply Permutation_trans; [apply Permutation_sym, Permutation_middle|].
            constructor. rewrite <- map_app. exact G1.
          * apply Forall_app in G2. destruct G2 as [G2 G3]. apply Forall_app. split; [exact G2|].
            constructor; [exact Hnil|exact G3]. }
    destruct (rs l) as [|x xs]; [discriminate|]. intros [= <-]. exact Hp.
  Qed.

  Theorem by_constituency_wf ap votes res : by_constituency E ap votes = Ok res -> NoDup (map fst votes) ->
    NoDup (map fst res) /\ incl (map fst res) (map fst votes) /\ Forall (fun cd => P (snd cd)) res.
  Proof.
    unfold by_constituency. destruct (byc_districts E ap votes) as [l| |] eqn:Ed; simpl; try discriminate.
    intros Ha Hn. destruct (byc_districts_wf ap votes l Ed) as [H1 H2].
    destruct (byc_assemble_wf l res Ha H2) as [H3 H4]. rewrite H1 in H3. split.
    - eapply Permutation_NoDup; [apply Permutation_sym, H3|exact Hn].
    - split; [|exact H4]. intros c Hc. eapply Permutation_in; [exact H3|exact Hc].
  Qed.

  Variable kof : C -> K.
  Theorem constituency_evaluator_wf a votes n res : constituency_evaluator keqb E kof a votes n = Ok res ->
    NoDup (map fst votes) ->
    NoDup (map fst res) /\ incl (map fst res) (map fst votes) /\ Forall (fun cd => P (snd cd)) res.
  Proof.
    unfold constituency_evaluator. destruct (apportion keqb E kof a votes n) as [ap| |]; simpl; try discriminate.
    apply by_constituency_wf.
  Qed.
End BYCW.

Definition cty_list (votes : list (Cty * list (C * Q))) (prev : list (Cty * list (pk * Z))) : list Cty :=
  nodup Pos.eq_dec (map fst votes ++ map fst prev).
Lemma cty_list_nodup votes prev : NoDup (cty_list votes prev).
Proof. apply NoDup_nodup. Qed.
Lemma cty_list_votes votes prev : incl (map fst votes) (cty_list votes prev).
Proof. intros c Hc. apply nodup_In, in_app_iff. left. exact Hc. Qed.
Lemma cty_list_prev votes prev : incl (map fst prev) (cty_list votes prev).
Proof. intros c Hc. apply nodup_In, in_app_iff. right. exact Hc. Qed.

Lemma lobc_res_wf dc a votes n res :
  constituency_evaluator pk_eqb (ha_eval dc) PK a votes n = Ok res -> NoDup (map fst votes) ->
  wf_res pk_eqb res /\ nonneg_nested res /\ incl (map fst res) (map fst votes).
Proof.
  intros H Hn.
  destruct (constituency_evaluator_wf pk_eqb (ha_eval dc)
              (fun r => pknodup r /\ Forall (fun kv : pk * Z => 0 <= snd kv) r)
              (ha_eval_wf dc) (conj I (Forall_nil _)) PK a votes n res H Hn) as (H1 & H2 & H3).
  split; [split; [exact H1|]|split; [|exact H2]].
  - eapply Forall_impl; [|exact H3]. intros cd [Hd _]. exact Hd.
  - unfold nonneg_nested. eapply Forall_impl; [|exact H3]. intros cd [_ Hd]. exact Hd.
Qed.

(* every divisor, both kinds of apportioner, both kinds of overall evaluator *)
Theorem lobc_calculate_meaning dc a o fuel votes n prev r :
  NoDup (map fst votes) -> wf_prev pk_eqb prev ->
  lobc_calculate dc a o fuel votes n prev = BC_ok r ->
  exists res, constituency_evaluator pk_eqb (ha_eval dc) PK a votes n = Ok res /\
    0 <= r /\
    (exists pr, lobc_overall dc a o votes (n - drop_of pk_eqb res prev + r) = Ok pr /\
       forall k, tier pk_eqb res k = true -> need pk_eqb res prev (cty_list votes prev) k <= kget0 pk_eqb pr k) /\
    (forall x, 0 <= x < r -> exists ph, lobc_overall dc a o votes (n - drop_of pk_eqb res prev + x) = Ok ph /\
       exists k, tier pk_eqb res k = true /\ kget0 pk_eqb ph k < need pk_eqb res prev (cty_list votes prev) k).
Proof.
  intros Hn Hwp H. unfold lobc_calculate in H.
  destruct (bc_calculate_meaning pk_eqb pk_eqb_refl pk_eqb_sym pk_eqb_trans _ _ fuel n prev r (cty_list votes prev) H)
    as (res & Hc & Hr & Hrest).
  exists res. split; [exact Hc|]. split; [exact Hr|].
  destruct (lobc_res_wf dc a votes n res Hc Hn) as (Hw & _ & Hincl).
  apply Hrest; [exact Hw|exact Hwp|apply cty_list_nodup| |apply cty_list_prev].
  eapply incl_tran; [exact Hincl|apply cty_list_votes].
Qed.

(* zero adjustment: given overall evaluator *)
Theorem lobc_zero_given dc dn a fuel votes n prev res pr :
  NoDup (map fst votes) -> wf_prev pk_eqb prev ->
  constituency_evaluator pk_eqb (ha_eval dc) PK a votes n = Ok res ->
  no_overhang pk_eqb res prev ->
  ha_eval dn (qtotals votes) n = Ok pr ->
  (forall k, tier pk_eqb res k = true ->
     zsumf (fun c => share pk_eqb res c k) (cty_list votes prev) <= kget0 pk_eqb pr k) ->
  lobc_calculate dc a (Ov_given dn) fuel votes n prev = BC_ok 0.
Proof.
  intros Hn Hwp Hc Hno He Hcov. unfold lobc_calculate. rewrite Hc.
  destruct (lobc_res_wf dc a votes n res Hc Hn) as (Hw & Hnn & Hincl).
  apply (bc_calculate_zero pk_eqb pk_eqb_refl pk_eqb_sym pk_eqb_trans _ res fuel n prev pr (cty_list votes prev));
    try assumption; [apply cty_list_nodup| |apply cty_list_prev].
  eapply incl_tran; [exact Hincl|apply cty_list_votes].
Qed.

(* zero adjustment: default overall evaluator (the merged constituency results): no further condition *)
Theorem lobc_zero_default dc a fuel votes n prev res :
  NoDup (map fst votes) -> wf_prev pk_eqb prev ->
  constituency_evaluator pk_eqb (ha_eval dc) PK a votes n = Ok res ->
  no_overhang pk_eqb res prev ->
  lobc_calculate dc a Ov_default fuel votes n prev = BC_ok 0.
Proof.
  intros Hn Hwp Hc Hno. unfold lobc_calculate. rewrite Hc.
  destruct (lobc_res_wf dc a votes n res Hc Hn) as (Hw & Hnn & Hincl).
  assert (Hir : incl (map fst res) (cty_list votes prev)) by (eapply incl_tran; [exact Hincl|apply cty_list_votes]).
  apply (bc_calculate_zero pk_eqb pk_eqb_refl pk_eqb_sym pk_eqb_trans _ res fuel n prev
           (ktotals pk_eqb (map snd res)) (cty_list votes prev));
    try assumption; [apply cty_list_nodup|apply cty_list_prev| |].
  - unfold lobc_overall. rewrite Hc. reflexivity.
  - intros k _. rewrite (ktotals_share pk_eqb pk_eqb_sym pk_eqb_trans res (cty_list votes prev) k Hw (cty_list_nodup _ _) Hir). lia.
Qed.

Theorem lobc_fuel_iff dc a o fuel votes n prev res :
  constituency_evaluator pk_eqb (ha_eval dc) PK a votes n = Ok res ->
  (lobc_calculate dc a o fuel votes n prev = BC_fuel <->
   forall x, 0 <= x <= Z.of_nat fuel ->
     exists ph, lobc_overall dc a o votes (n - drop_of pk_eqb res prev + x) = Ok ph /\
                ksatisfied pk_eqb (lowest_allowed pk_eqb res prev) ph = false).
Proof. intros Hc. unfold lobc_calculate. rewrite Hc. apply bc_calculate_fuel_iff. Qed.

Theorem lobc_fuel_mono dc a o fuel fuel' votes n prev : (fuel <= fuel')%nat ->
  lobc_calculate dc a o fuel votes n prev <> BC_fuel ->
  lobc_calculate dc a o fuel' votes n prev = lobc_calculate dc a o fuel votes n prev.
Proof. intros Hle. unfold lobc_calculate. apply bc_calculate_fuel_mono. exact Hle. Qed.

Lemma evaluate_gains_pos d v n p c gains tie :
  HighestAverages.evaluate d v n p c = HA_ok gains tie -> Forall (fun cs : C * Z => 0 < snd cs) gains.
Proof. intros E. apply evaluate_ok in E. destruct E as [-> _]. apply gain_item_pos. Qed.

(* the allocator answers with gains only if no key is a Tie, every party's allocation ends without a tie,
   and then the gains are the parties' blocks in order *)
Lemma bp_allocate_ok da votes prev k np t gains : bp_allocate da votes prev ((k, np) :: t) = BP_ok gains ->
  exists p gq l0, k = PK p /\
    HighestAverages.evaluate da (party_votes votes p) np (party_prev prev p) [] = HA_ok gq None /\
    bp_allocate da votes prev t = BP_ok l0 /\ gains = map (fun cs : Cty * Z => (fst cs, p, snd cs)) gq ++ l0.
Proof.
  destruct k as [p|l]; simpl; [|destruct (bp_allocate da votes prev t); discriminate].
  destruct (HighestAverages.evaluate da (party_votes votes p) np (party_prev prev p) []) as [gq tie|] eqn:E; [|discriminate].
  destruct (bp_allocate da votes prev t) as [l0| |]; try discriminate.
  destruct tie; [discriminate|]. intros [= <-]. exists p, gq, l0. auto.
Qed.

Lemma bp_allocate_pos da votes prev overall : forall gains,
  bp_allocate da votes prev overall = BP_ok gains -> Forall (fun g : Cty * C * Z => 0 < snd g) gains.
Proof.
  induction overall as [|[k np] t IH]; intros gains H.
  - injection H as <-. constructor.
  - apply bp_allocate_ok in H. destruct H as (p & gq & l0 & _ & E & Ht & ->).
    apply Forall_app. split; [|exact (IH l0 Ht)].
    rewrite Forall_map. exact (evaluate_gains_pos _ _ _ _ _ _ _ E).
Qed.

Theorem by_party_pos dn da votes h prev gains :
  by_party dn da votes h prev = BP_ok gains -> Forall (fun g : Cty * C * Z => 0 < snd g) gains.
Proof. unfold by_party. destruct (ha_eval dn (qtotals votes) h); try discriminate. apply bp_allocate_pos. Qed.

(* The house is the baseline plus the non-negative adjustment; the second stage only adds seats; when all first
   round seats belong to tier parties, the national distribution ByParty starts from - the one of the enlarged
   house - gives every tier party at least its first round seats and at least its constituency-wise share. *)
Theorem adjusted_byc_meaning dc a dn da fuel votes n prev adj fin :
  NoDup (map fst votes) -> wf_prev pk_eqb prev ->
  adjusted_byc dc a (Ov_given dn) dn da fuel votes n prev = ASC adj fin ->
  0 <= adj /\ fin = by_party dn da votes (n + adj) prev /\
  (forall gains, fin = BP_ok gains -> Forall (fun g : Cty * C * Z => 0 < snd g) gains) /\
  exists res, constituency_evaluator pk_eqb (ha_eval dc) PK a votes n = Ok res /\
    (direct_in_tier pk_eqb res prev ->
     exists nat, ha_eval dn (qtotals votes) (n + adj) = Ok nat /\
       forall k, tier pk_eqb res k = true ->
         zsumf (fun c => direct pk_eqb prev c k) (cty_list votes prev) <= kget0 pk_eqb nat k /\
         zsumf (fun c => share pk_eqb res c k) (cty_list votes prev) <= kget0 pk_eqb nat k).
Proof.
  intros Hn Hwp. unfold adjusted_byc.
  destruct (lobc_calculate dc a (Ov_given dn) fuel votes n prev) as [adj'| | |] eqn:Ec; try discriminate.
  intros [= <- <-].
  destruct (lobc_calculate_meaning dc a (Ov_given dn) fuel votes n prev adj' Hn Hwp Ec)
    as (res & Hc & Hr & (pr & Hp1 & Hp2) & _).
  split; [exact Hr|]. split; [reflexivity|]. split; [intros gains Hg; exact (by_party_pos _ _ _ _ _ _ Hg)|].
  exists res. split; [exact Hc|]. intros Hd.
  rewrite (drop_zero_tier pk_eqb pk_eqb_sym pk_eqb_trans res prev Hd) in Hp1.
  replace (n - 0 + adj') with (n + adj') in Hp1 by lia. simpl in Hp1.
  exists pr. split; [exact Hp1|]. intros k Ht. pose proof (Hp2 k Ht) as Hk. split.
  - eapply Z.le_trans; [apply need_ge_direct|exact Hk].
  - eapply Z.le_trans; [apply need_ge_share|exact Hk].
Qed.

Lemma kget_PT_app (gains : list (C * Z)) tp l :
  kget pk_eqb (map (fun cs : C * Z => (PK (fst cs), snd cs)) gains ++ tp) (PT l) = kget pk_eqb tp (PT l).
Proof. induction gains as [|[c g] t IH]; simpl; [reflexivity|exact IH]. Qed.

(* a Tie key of the national result holds fewer seats than there are parties: with two level parties in two
   constituencies the loop has no end *)
Theorem ha_eval_tie_bound d votes n ph l : divisor_ok d ->
  (forall c v, In (c, v) votes -> (0 <= v)%Q) -> NoDup (map fst votes) ->
  ha_eval d votes n = Ok ph ->
  kget0 pk_eqb ph (PT l) < Z.max 1 (Z.of_nat (length votes)).
Proof.
  intros [Hpos Hmono] Hv Hnd. unfold ha_eval.
  destruct (evaluate d votes n [] []) as [gains tie|] eqn:E; [|discriminate]. intros [= <-].
  apply evaluate_ok in E. destruct E as [_ ->]. unfold kget0. rewrite kget_PT_app.
  assert (Hp0 : forall c : C, 0 <= dget_or (@nil (C * Z)) c 0) by (intros c; unfold dget_or; simpl; lia).
  destruct (st_tie (final_state d votes n [] [])) as [[T r]|] eqn:Et; cbn [kget]; [|lia].
  destruct (pk_eqb (PT l) (PT T)); [|lia].
  destruct (ha_tie d votes [] [] n Hpos Hmono Hv Hnd Hp0 T r Et) as (_ & Hr & m & _ & _ & Hperm).
  destruct (ha_queue d votes [] [] n Hpos Hmono Hv Hnd Hp0) as (Hq1 & _ & Hq3).
  assert (Hlen : (length T <= length votes)%nat).
  { rewrite (Permutation_length Hperm), map_length.
    eapply Nat.le_trans; [apply filter_len_le|].
    rewrite <- (map_length fst (st_qs _)), <- (map_length fst votes).
    apply NoDup_incl_length; [exact Hq1|]. intros c Hc. apply in_map_iff in Hc. destruct Hc as (it & <- & Hit).
    rewrite Forall_forall in Hq3. destruct (Hq3 _ Hit) as (v & Hin & _). apply in_map_iff. exists (fst it, v). auto. }
  lia.
Qed.

Lemma ha_eval_answers (d : Z -> Q) votes n : (0 < d 0%Z)%Q -> 0 < n -> votes <> [] -> exists ph, ha_eval d votes n = Ok ph.
Proof.
  intros Hd Hn Hv. unfold ha_eval, evaluate.
  destruct (initial_quotients d votes [] [] n) as [|q0 qs] eqn:E; [|eexists; reflexivity].
  destruct (initial_quotients_nonempty d votes n Hd Hn Hv E).
Qed.

(* two parties level in each of two one-seat constituencies: for EVERY fuel the model is out of fuel -
   the Python loop has no end on this input *)
Theorem lobc_tie_diverges : forall fuel,
  lobc_calculate d_hondt (App_dict [(1%positive, 1); (2%positive, 1)]) (Ov_given d_hondt) fuel
    [(1%positive, [(1%positive, 1%Q); (2%positive, 1%Q)]); (2%positive, [(1%positive, 1%Q); (2%positive, 1%Q)])] 2 [] = BC_fuel.
Proof.
  intros fuel.
  set (votes := [(1%positive, [(1%positive, 1%Q); (2%positive, 1%Q)]); (2%positive, [(1%positive, 1%Q); (2%positive, 1%Q)])]).
  set (a := App_dict [(1%positive, 1); (2%positive, 1)]).
  assert (Hc : constituency_evaluator pk_eqb (ha_eval d_hondt) PK a votes 2
               = Ok [(1%positive, [(PT [1%positive; 2%positive], 1)]); (2%positive, [(PT [1%positive; 2%positive], 1)])])
    by (vm_compute; reflexivity).
  apply (lobc_fuel_iff d_hondt a (Ov_given d_hondt) fuel votes 2 [] _ Hc).
  intros x Hx.
  assert (Hlow : lowest_allowed pk_eqb [(1%positive, [(PT [1%positive; 2%positive], 1)]); (2%positive, [(PT [1%positive; 2%positive], 1)])] []
                 = [(PT [1%positive; 2%positive], 2)]) by (vm_compute; reflexivity).
  assert (Hdrop : drop_of pk_eqb [(1%positive, [(PT [1%positive; 2%positive], 1)]); (2%positive, [(PT [1%positive; 2%positive], 1)])] [] = 0)
    by (vm_compute; reflexivity).
  rewrite Hlow, Hdrop. unfold lobc_overall.
  assert (Hq : qtotals votes = [(1%positive, 2%Q); (2%positive, 2%Q)]) by (vm_compute; reflexivity).
  rewrite Hq.
  destruct (ha_eval_answers d_hondt [(1%positive, 2%Q); (2%positive, 2%Q)] (2 - 0 + x)) as (ph & Hph);
    [vm_compute; reflexivity|lia|discriminate|].
  exists ph. split; [exact Hph|].
  pose proof (ha_eval_tie_bound d_hondt [(1%positive, 2%Q); (2%positive, 2%Q)] (2 - 0 + x) ph [1%positive; 2%positive]
                (proj1 d_hondt_ok)) as Hb.
  assert (Hlt : kget0 pk_eqb ph (PT [1%positive; 2%positive]) < 2).
  { assert (H1 : forall (c : C) (v : Q), In (c, v) [(1%positive, 2%Q); (2%positive, 2%Q)] -> (0 <= v)%Q)
      by (intros c v [[= <- <-]|[[= <- <-]|[]]]; discriminate).
    assert (H2 : NoDup (map fst [(1%positive, 2%Q); (2%positive, 2%Q)]))
      by (simpl; constructor; [simpl; intros [H|[]]; discriminate|constructor; [simpl; tauto|constructor]]).
    pose proof (Hb H1 H2 Hph) as H3. cbn [length] in H3. lia. }
  unfold ksatisfied. simpl. apply andb_false_iff. left. apply negb_false_iff, Z.ltb_lt. exact Hlt.
Qed.
