(* LevelOverhangByConstituency (Model/OverhangByC.v): the minima the code accumulates are the declarative
   "sum over the constituencies of max(direct seats, proportional seats)"; the levelling loop stops at the first
   house size that meets them; non-negativity, zero adjustment, fuel. Generic in the key type (party or Tie). *)
From Coq Require Import ZArith QArith List Bool Lia Permutation.
From VL Require Import Prelude.PyDict Model.OverhangByC Proofs.Dict_proofs.
Import ListNotations.
Open Scope Z_scope.

Definition zsumf {X} (f : X -> Z) (l : list X) : Z := fold_right (fun x acc => f x + acc) 0 l.

Lemma zsumf_zsum {X} (f : X -> Z) l : zsumf f l = zsum (map f l).
Proof. induction l as [|x l IH]; [reflexivity|]. cbn [zsumf fold_right map]. rewrite zsum_cons. f_equal. exact IH. Qed.

Lemma zsumf_app {X} (f : X -> Z) a b : zsumf f (a ++ b) = zsumf f a + zsumf f b.
Proof. induction a as [|x a IH]; simpl; [reflexivity|rewrite IH; lia]. Qed.
Lemma zsumf_ext {X} (f g : X -> Z) l : (forall x, In x l -> f x = g x) -> zsumf f l = zsumf g l.
Proof. rewrite !zsumf_zsum. apply zsum_map_ext. Qed.
Lemma zsumf_plus {X} (f g : X -> Z) l : zsumf (fun x => f x + g x) l = zsumf f l + zsumf g l.
Proof. rewrite !zsumf_zsum. apply zsum_map_plus. Qed.
Lemma zsumf_nonneg {X} (f : X -> Z) l : (forall x, In x l -> 0 <= f x) -> 0 <= zsumf f l.
Proof. rewrite zsumf_zsum. apply zsum_map_nonneg. Qed.
Lemma zsumf_le {X} (f g : X -> Z) l : (forall x, In x l -> f x <= g x) -> zsumf f l <= zsumf g l.
Proof. rewrite !zsumf_zsum. apply zsum_map_le. Qed.
Lemma zsumf_map {X Y} (f : Y -> Z) (g : X -> Y) l : zsumf f (map g l) = zsumf (fun x => f (g x)) l.
Proof. induction l as [|x l IH]; simpl; [reflexivity|rewrite IH; reflexivity]. Qed.
Lemma existsb_map {X Y} (f : Y -> bool) (g : X -> Y) l : existsb f (map g l) = existsb (fun x => f (g x)) l.
Proof. induction l as [|x l IH]; simpl; [reflexivity|rewrite IH; reflexivity]. Qed.
Lemma existsb_ext' {X} (f g : X -> bool) l : (forall x, In x l -> f x = g x) -> existsb f l = existsb g l.
Proof. induction l as [|x l IH]; simpl; intros H; [reflexivity|]. rewrite (H x), IH; auto. Qed.
Lemma zsumf_zero {X} (f : X -> Z) l : (forall x, In x l -> f x = 0) -> zsumf f l = 0.
Proof. intros H. rewrite zsumf_zsum, (zsum_map_ext f (fun _ => 0) l H). apply zsum_map_zero. Qed.

Lemma zsumf_indicator (c0 : C) (a : Z) keys : NoDup keys -> In c0 keys ->
  zsumf (fun c => if ceqb c c0 then a else 0) keys = a.
Proof. rewrite zsumf_zsum. apply zsum_point. Qed.

(* a sum over an association list with distinct keys is the sum over any duplicate-free list of keys that
   covers it, of the looked-up values (the default contributing nothing): entry by entry, the head (c0, x0)
   adds F c0 x0 at the key c0 and leaves the other lookups as they are *)
Lemma zsumf_assoc {X} (F : C -> X -> Z) (dflt : X) : (forall c, F c dflt = 0) ->
  forall (l : list (C * X)), NoDup (map fst l) ->
  forall keys, NoDup keys -> incl (map fst l) keys ->
  zsumf (fun c => F c (dget_or l c dflt)) keys = zsumf (fun cx => F (fst cx) (snd cx)) l.
Proof.
  intros HF. induction l as [|[c0 x0] t IH]; intros Hnd keys Hk Hincl.
  - apply zsumf_zero. intros c _. apply HF.
  - cbn [map fst] in Hnd. apply NoDup_cons_iff in Hnd. destruct Hnd as [Hc0 Hnd]. simpl.
    rewrite <- (IH Hnd keys Hk (fun c Hc => Hincl c (or_intror Hc))),
            <- (zsumf_indicator c0 (F c0 x0) keys Hk (Hincl c0 (or_introl eq_refl))), <- zsumf_plus.
    apply zsumf_ext. intros c _. unfold dget_or. simpl. destruct (ceqb c c0) eqn:E; [|reflexivity].
    apply ceqb_eq in E. subst c. destruct (dget t c0) as [x|] eqn:Ed; [|rewrite HF; symmetry; apply Z.add_0_r].
    apply dget_In in Ed. destruct Hc0. exact (in_map fst _ _ Ed).
Qed.

Section KDP.
  Context {K : Type}.
  Variable keqb : K -> K -> bool.
  Hypothesis keqb_refl : forall a, keqb a a = true.
  Hypothesis keqb_sym : forall a b, keqb a b = keqb b a.
  Hypothesis keqb_trans : forall a b c, keqb a b = true -> keqb b c = true -> keqb a c = true.

  Notation kget := (kget keqb).
  Notation kget0 := (kget0 keqb).
  Notation kmem := (kmem keqb).
  Notation kadd := (kadd keqb).
  Notation kadd_dict := (kadd_dict keqb).
  Notation ktotals := (ktotals keqb).
  Notation dict := (list (K * Z)).

  Lemma keqb_congr a b c : keqb a b = true -> keqb a c = keqb b c.
  Proof.
    intros Hab. destruct (keqb a c) eqn:E1, (keqb b c) eqn:E2; try reflexivity.
    - rewrite keqb_sym in Hab. rewrite (keqb_trans _ _ _ Hab E1) in E2. discriminate.
    - rewrite (keqb_trans _ _ _ Hab E2) in E1. discriminate.
  Qed.

  (* every entry equal to k, added up; presence of such an entry; no two entries with equal keys *)
  Definition kcount (d : dict) (k : K) : Z := zsumf (fun kv => if keqb k (fst kv) then snd kv else 0) d.
  Definition khas (d : dict) (k : K) : bool := existsb (fun kv => keqb k (fst kv)) d.
  Fixpoint knodup (d : dict) : Prop :=
    match d with [] => True | kv :: t => khas t (fst kv) = false /\ knodup t end.

  Lemma kget_congr d a b : keqb a b = true -> kget d a = kget d b.
  Proof.
    intros H. induction d as [|[k v] t IH]; simpl; [reflexivity|].
    rewrite (keqb_congr a b k H). rewrite IH. reflexivity.
  Qed.
  Lemma kget0_congr d a b : keqb a b = true -> kget0 d a = kget0 d b.
  Proof. intros H. unfold OverhangByC.kget0. rewrite (kget_congr d a b H). reflexivity. Qed.
  Lemma kmem_congr d a b : keqb a b = true -> kmem d a = kmem d b.
  Proof. intros H. unfold OverhangByC.kmem. rewrite (kget_congr d a b H). reflexivity. Qed.
  Lemma khas_congr d a b : keqb a b = true -> khas d a = khas d b.
  Proof.
    intros H. induction d as [|[k v] t IH]; simpl; [reflexivity|]. rewrite (keqb_congr a b k H), IH. reflexivity.
  Qed.

  Lemma kmem_khas d k : kmem d k = khas d k.
  Proof.
    unfold OverhangByC.kmem. induction d as [|[k' v] t IH]; simpl; [reflexivity|].
    destruct (keqb k k'); [reflexivity|exact IH].
  Qed.
  Lemma kget0_notmem d k : kmem d k = false -> kget0 d k = 0.
  Proof. unfold OverhangByC.kmem, OverhangByC.kget0. destruct (kget d k); [discriminate|reflexivity]. Qed.
  Lemma kcount_nohas d k : khas d k = false -> kcount d k = 0.
  Proof.
    induction d as [|[k' v] t IH]; simpl; [reflexivity|]. unfold kcount in *. simpl.
    destruct (keqb k k'); simpl; [discriminate|]. intros H. rewrite (IH H). reflexivity.
  Qed.
  Lemma kcount_nodup d k : knodup d -> kcount d k = kget0 d k.
  Proof.
    unfold kcount, OverhangByC.kget0. induction d as [|[k' v] t IH]; simpl; [reflexivity|].
    intros [Hh Hn]. destruct (keqb k k') eqn:E.
    - rewrite <- (khas_congr t k k' E) in Hh. pose proof (kcount_nohas t k Hh) as Hz. unfold kcount in Hz. rewrite Hz. lia.
    - rewrite (IH Hn). lia.
  Qed.

  Lemma kget0_kadd d k' x k : kget0 (kadd d k' x) k = kget0 d k + (if keqb k k' then x else 0).
  Proof.
    unfold OverhangByC.kget0. induction d as [|[k0 v] t IH]; simpl.
    - destruct (keqb k k'); lia.
    - destruct (keqb k' k0) eqn:E0; simpl.
      + rewrite (keqb_sym k k'), (keqb_congr k' k0 k E0), (keqb_sym k0 k). destruct (keqb k k0); lia.
      + destruct (keqb k k0) eqn:E1; [|exact IH].
        rewrite (keqb_congr k k0 k' E1), (keqb_sym k0 k'), E0. lia.
  Qed.
  Lemma khas_kadd d k' x k : khas (kadd d k' x) k = khas d k || keqb k k'.
  Proof.
    induction d as [|[k0 v] t IH]; simpl.
    - destruct (keqb k k'); reflexivity.
    - destruct (keqb k' k0) eqn:E0; simpl.
      + destruct (keqb k k0) eqn:E1; simpl; [reflexivity|].
        destruct (keqb k k') eqn:E2; [|rewrite orb_false_r; reflexivity].
        rewrite (keqb_trans _ _ _ E2 E0) in E1. discriminate.
      + rewrite IH. destruct (keqb k k0); reflexivity.
  Qed.
  Lemma kmem_kadd d k' x k : kmem (kadd d k' x) k = kmem d k || keqb k k'.
  Proof. rewrite !kmem_khas. apply khas_kadd. Qed.
  Lemma knodup_kadd d k x : knodup d -> knodup (kadd d k x).
  Proof.
    induction d as [|[k0 v] t IH]; simpl; [auto|]. intros [Hh Hn].
    destruct (keqb k k0) eqn:E0; simpl; [split; assumption|].
    split; [|apply IH; exact Hn]. rewrite khas_kadd, Hh. simpl. rewrite keqb_sym. exact E0.
  Qed.

  Lemma kadd_dict_spec d2 : forall d1 k,
    kget0 (kadd_dict d1 d2) k = kget0 d1 k + kcount d2 k /\
    khas (kadd_dict d1 d2) k = khas d1 k || khas d2 k.
  Proof.
    unfold OverhangByC.kadd_dict, kcount. induction d2 as [|[k' x] t IH]; intros d1 k; simpl.
    - split; [lia|rewrite orb_false_r; reflexivity].
    - destruct (IH (kadd d1 k' x) k) as [H1 H2]. rewrite H1, H2, kget0_kadd, khas_kadd. split; [lia|].
      rewrite <- orb_assoc. reflexivity.
  Qed.
  Lemma kadd_dict_nodup d2 : forall d1, knodup d1 -> knodup (kadd_dict d1 d2).
  Proof.
    unfold OverhangByC.kadd_dict. induction d2 as [|[k' x] t IH]; intros d1 H; simpl; [exact H|].
    apply IH, knodup_kadd, H.
  Qed.

  Lemma ktotals_spec ds : forall acc k,
    kget0 (fold_left kadd_dict ds acc) k = kget0 acc k + zsumf (fun d => kcount d k) ds /\
    khas (fold_left kadd_dict ds acc) k = khas acc k || existsb (fun d => khas d k) ds.
  Proof.
    induction ds as [|d t IH]; intros acc k; simpl.
    - split; [lia|rewrite orb_false_r; reflexivity].
    - destruct (IH (kadd_dict acc d) k) as (H1 & H2). destruct (kadd_dict_spec d acc k) as [G1 G2].
      rewrite H1, H2, G1, G2. split; [lia|rewrite <- orb_assoc; reflexivity].
  Qed.
  Lemma ktotals_nodup_acc ds : forall acc, knodup acc -> knodup (fold_left kadd_dict ds acc).
  Proof. induction ds as [|d t IH]; intros acc H; simpl; [exact H|]. apply IH, kadd_dict_nodup, H. Qed.
  Lemma ktotals_get ds k : kget0 (ktotals ds) k = zsumf (fun d => kcount d k) ds.
  Proof. unfold OverhangByC.ktotals. destruct (ktotals_spec ds [] k) as (H & _). rewrite H. reflexivity. Qed.
  Lemma ktotals_mem ds k : kmem (ktotals ds) k = existsb (fun d => khas d k) ds.
  Proof. rewrite kmem_khas. unfold OverhangByC.ktotals. destruct (ktotals_spec ds [] k) as (_ & H). rewrite H. reflexivity. Qed.
  Lemma ktotals_nodup ds : knodup (ktotals ds).
  Proof. unfold OverhangByC.ktotals. apply ktotals_nodup_acc. exact I. Qed.

  Notation nested := (list (Cty * dict)).
  Definition direct (prev : nested) (c : Cty) (k : K) : Z := kget0 (dget_or prev c []) k.
  Definition share (res : nested) (c : Cty) (k : K) : Z := kget0 (dget_or res c []) k.
  (* k has an entry in the proportional result of some constituency: a party (or Tie) of the proportional tier *)
  Definition tier (res : nested) (k : K) : bool := existsb (fun cr => kmem (snd cr) k) res.
  (* what the minimum of a tier party is meant to be: over the constituencies, the larger of its first round
     seats and its proportional seats there *)
  Definition need (res prev : nested) (ctys : list Cty) (k : K) : Z :=
    zsumf (fun c => Z.max (direct prev c k) (share res c k)) ctys.

  (* dictionaries as Python has them: no key twice; first round seats are not negative *)
  Definition wf_res (res : nested) : Prop :=
    NoDup (map fst res) /\ Forall (fun cd => knodup (snd cd)) res.
  Definition wf_prev (prev : nested) : Prop :=
    NoDup (map fst prev) /\ Forall (fun cd => knodup (snd cd) /\ Forall (fun kv => 0 <= snd kv) (snd cd)) prev.

  Lemma kget0_nonneg d k : Forall (fun kv : K * Z => 0 <= snd kv) d -> 0 <= kget0 d k.
  Proof.
    unfold OverhangByC.kget0. induction d as [|[k' v] t IH]; simpl; intros H; [lia|].
    inversion H as [|? ? H1 H2]; subst. destruct (keqb k k'); [exact H1|apply IH, H2].
  Qed.
  Lemma direct_nonneg prev c k : wf_prev prev -> 0 <= direct prev c k.
  Proof.
    intros [_ Hf]. unfold direct, dget_or. destruct (dget prev c) as [g|] eqn:E; [|unfold OverhangByC.kget0; simpl; lia].
    apply dget_In in E. rewrite Forall_forall in Hf. destruct (Hf _ E) as [_ Hnn]. apply kget0_nonneg. exact Hnn.
  Qed.

  Lemma khas_map_fst (g : K * Z -> Z) r k : khas (map (fun ps => (fst ps, g ps)) r) k = khas r k.
  Proof. induction r as [|[k' v] t IH]; simpl; [reflexivity|rewrite IH; reflexivity]. Qed.

  Lemma kcount_minima (g r : dict) k : knodup r ->
    kcount (map (fun ps => (fst ps, Z.max (kget0 g (fst ps)) (snd ps))) r) k
    = if kmem r k then Z.max (kget0 g k) (kget0 r k) else 0.
  Proof.
    unfold kcount. induction r as [|[k' v] t IH]; simpl; [reflexivity|]. intros [Hh Hn].
    rewrite (IH Hn). unfold OverhangByC.kmem, OverhangByC.kget0. simpl.
    destruct (keqb k k') eqn:E.
    - rewrite <- (khas_congr t k k' E), <- kmem_khas in Hh. unfold OverhangByC.kmem in Hh.
      destruct (OverhangByC.kget keqb t k); [discriminate|].
      pose proof (kget0_congr g k k' E) as Hc. unfold OverhangByC.kget0 in Hc. rewrite Hc. lia.
    - lia.
  Qed.

  Definition need_res (res prev : nested) (k : K) : Z :=
    zsumf (fun cr => if kmem (snd cr) k then Z.max (direct prev (fst cr) k) (kget0 (snd cr) k) else 0) res.
  Definition need_prev (res prev : nested) (k : K) : Z :=
    zsumf (fun cg => if kmem (dget_or res (fst cg) []) k then 0 else kget0 (snd cg) k) prev.

  Lemma lowest0_get res prev k : wf_res res -> kget0 (lowest0 keqb res prev) k = need_res res prev k.
  Proof.
    intros [_ Hf]. unfold lowest0, cty_minima, need_res. rewrite ktotals_get, !zsumf_map. apply zsumf_ext.
    intros [c r] Hin. simpl. rewrite Forall_forall in Hf. pose proof (Hf _ Hin) as Hn. simpl in Hn.
    apply kcount_minima. exact Hn.
  Qed.
  Lemma lowest0_mem res prev k : kmem (lowest0 keqb res prev) k = tier res k.
  Proof.
    unfold lowest0, cty_minima, tier. rewrite ktotals_mem, !existsb_map. apply existsb_ext'.
    intros [c r] _. simpl. rewrite khas_map_fst, kmem_khas. reflexivity.
  Qed.
  Lemma lowest0_nodup res prev : knodup (lowest0 keqb res prev).
  Proof. apply ktotals_nodup. Qed.

  (* re-adding first round seats touches only keys that are present: membership stays, and a present key that
     has no proportional seat in the constituency gains the seats listed under it *)
  Lemma au_inner_spec (r : dict) g : forall low k,
    let low' := fold_left (fun low pg => if kmem low (fst pg) && negb (kmem r (fst pg))
                                         then kadd low (fst pg) (snd pg) else low) g low in
    (forall p, kmem low' p = kmem low p) /\
    kget0 low' k = kget0 low k + (if kmem low k && negb (kmem r k) then kcount g k else 0).
  Proof.
    unfold kcount. induction g as [|[p x] t IH]; intros low k; simpl.
    - split; [reflexivity|]. destruct (kmem low k && negb (kmem r k)); symmetry; apply Z.add_0_r.
    - set (low1 := if kmem low p && negb (kmem r p) then kadd low p x else low).
      assert (Hm1 : forall q, kmem low1 q = kmem low q).
      { intros q. unfold low1. destruct (kmem low p && negb (kmem r p)) eqn:Ec; [|reflexivity].
        rewrite kmem_kadd. destruct (keqb q p) eqn:Eq; [|apply orb_false_r].
        apply andb_true_iff in Ec. destruct Ec as [Ec _]. rewrite (kmem_congr low q p Eq), Ec. reflexivity. }
      assert (Hg1 : kget0 low1 k = kget0 low k + (if kmem low k && negb (kmem r k) then (if keqb k p then x else 0) else 0)).
      { unfold low1. destruct (keqb k p) eqn:Eq.
        - rewrite (kmem_congr low k p Eq), (kmem_congr r k p Eq).
          destruct (kmem low p && negb (kmem r p)); [rewrite kget0_kadd, Eq; reflexivity|symmetry; apply Z.add_0_r].
        - destruct (kmem low p && negb (kmem r p)); [rewrite kget0_kadd, Eq|];
            destruct (kmem low k && negb (kmem r k)); rewrite ?Z.add_0_r; reflexivity. }
      destruct (IH low1 k) as (H1 & H2). split; [intros q; rewrite H1; apply Hm1|].
      rewrite H2, Hg1, Hm1. destruct (kmem low k && negb (kmem r k)); lia.
  Qed.

  Lemma add_unlisted_spec res prev : forall low k,
    (forall p, kmem (add_unlisted keqb res prev low) p = kmem low p) /\
    kget0 (add_unlisted keqb res prev low) k
      = kget0 low k + (if kmem low k
                       then zsumf (fun cg => if kmem (dget_or res (fst cg) []) k then 0 else kcount (snd cg) k) prev
                       else 0).
  Proof.
    unfold add_unlisted. induction prev as [|[c g] t IH]; intros low k; simpl.
    - split; [reflexivity|]. destruct (kmem low k); symmetry; apply Z.add_0_r.
    - destruct (au_inner_spec (dget_or res c []) g low k) as (A1 & A2). cbv zeta in A1, A2.
      match goal with |- context [fold_left _ t ?l1] => set (low1 := l1) in * end.
      destruct (IH low1 k) as (H1 & H2).
      split; [intros p; rewrite H1; apply A1|].
      rewrite H2, A2, A1. destruct (kmem low k); simpl; [|lia].
      destruct (kmem (dget_or res c []) k); simpl; lia.
  Qed.

  Theorem lowest_allowed_mem res prev k : kmem (lowest_allowed keqb res prev) k = tier res k.
  Proof. unfold lowest_allowed. rewrite (proj1 (add_unlisted_spec res prev (lowest0 keqb res prev) k)). apply lowest0_mem. Qed.

  Lemma au_inner_nodup (r : dict) g : forall low, knodup low ->
    knodup (fold_left (fun low pg => if kmem low (fst pg) && negb (kmem r (fst pg))
                                     then kadd low (fst pg) (snd pg) else low) g low).
  Proof.
    induction g as [|[p x] t IH]; intros low Hn; simpl; [exact Hn|]. apply IH.
    destruct (kmem low p && negb (kmem r p)); [apply knodup_kadd|]; exact Hn.
  Qed.
  Lemma add_unlisted_nodup res prev : forall low, knodup low -> knodup (add_unlisted keqb res prev low).
  Proof.
    unfold add_unlisted. induction prev as [|[c g] t IH]; intros low Hn; simpl; [exact Hn|].
    apply IH, au_inner_nodup, Hn.
  Qed.
  Theorem lowest_allowed_nodup res prev : knodup (lowest_allowed keqb res prev).
  Proof. unfold lowest_allowed. apply add_unlisted_nodup, lowest0_nodup. Qed.

  Lemma tier_false res c k : tier res k = false -> kmem (dget_or res c []) k = false.
  Proof.
    unfold tier, dget_or. intros H. destruct (dget res c) as [r|] eqn:E; [|reflexivity].
    apply dget_In in E. destruct (kmem r k) eqn:Em; [|reflexivity].
    assert (existsb (fun cr : Cty * dict => kmem (snd cr) k) res = true); [|congruence].
    apply existsb_exists. exists (c, r). split; [exact E|exact Em].
  Qed.

  (* the minimum the code has accumulated for a tier party, in the two sums the code forms ... *)
  Lemma lowest_allowed_get res prev k : wf_res res -> wf_prev prev -> tier res k = true ->
    kget0 (lowest_allowed keqb res prev) k = need_res res prev k + need_prev res prev k.
  Proof.
    intros Hr [_ Hp] Ht. unfold lowest_allowed.
    rewrite (proj2 (add_unlisted_spec res prev (lowest0 keqb res prev) k)), lowest0_mem, Ht, (lowest0_get res prev k Hr). f_equal. unfold need_prev. apply zsumf_ext.
    intros [c g] Hin. simpl. rewrite Forall_forall in Hp. destruct (Hp _ Hin) as [Hn _]. simpl in Hn.
    rewrite (kcount_nodup g k Hn). reflexivity.
  Qed.

  (* ... and as the declarative sum over the constituencies *)
  Lemma need_split res prev ctys k : wf_res res -> wf_prev prev -> NoDup ctys ->
    incl (map fst res) ctys -> incl (map fst prev) ctys ->
    need_res res prev k + need_prev res prev k = need res prev ctys k.
  Proof.
    intros [Hr _] Hwp Hk Hir Hip. pose proof Hwp as [Hp _]. unfold need_res, need_prev, need.
    pose proof (zsumf_assoc (fun c r => if kmem r k then Z.max (direct prev c k) (kget0 r k) else 0) []
                  (fun c => eq_refl) res Hr ctys Hk Hir) as E1.
    assert (HF2 : forall c : C, (fun (c : C) (g : dict) => if kmem (dget_or res c []) k then 0 else kget0 g k) c [] = 0).
    { intros c. cbv beta. destruct (kmem (dget_or res c []) k); reflexivity. }
    pose proof (zsumf_assoc (fun c g => if kmem (dget_or res c []) k then 0 else kget0 g k) []
                  HF2 prev Hp ctys Hk Hip) as E2.
    cbv beta in E1, E2. unfold Cty, C in *. rewrite <- E1, <- E2. clear E1 E2.
    rewrite <- zsumf_plus. apply zsumf_ext. intros c _. unfold share. fold (direct prev c k).
    destruct (kmem (dget_or res c []) k) eqn:Em; [lia|].
    rewrite (kget0_notmem _ _ Em). pose proof (direct_nonneg prev c k Hwp). lia.
  Qed.

  Theorem lowest_allowed_need res prev ctys k : wf_res res -> wf_prev prev -> NoDup ctys ->
    incl (map fst res) ctys -> incl (map fst prev) ctys -> tier res k = true ->
    kget0 (lowest_allowed keqb res prev) k = need res prev ctys k.
  Proof.
    intros Hr Hp Hk Hir Hip Ht. rewrite (lowest_allowed_get res prev k Hr Hp Ht).
    apply need_split; assumption.
  Qed.

  Lemma need_ge_direct res prev ctys k : zsumf (fun c => direct prev c k) ctys <= need res prev ctys k.
  Proof. unfold need. apply zsumf_le. intros c _. lia. Qed.
  Lemma need_ge_share res prev ctys k : zsumf (fun c => share res c k) ctys <= need res prev ctys k.
  Proof. unfold need. apply zsumf_le. intros c _. lia. Qed.

  (* seats of the parties outside the tier *)
  Lemma nonprop_drop_spec low prev :
    nonprop_drop keqb low prev
    = zsumf (fun cg => zsumf (fun pg : K * Z => if kmem low (fst pg) then 0 else snd pg) (snd cg)) prev.
  Proof.
    unfold nonprop_drop.
    assert (Hin : forall g d, fold_left (fun d (pg : K * Z) => if kmem low (fst pg) then d else d + snd pg) g d
                              = d + zsumf (fun pg : K * Z => if kmem low (fst pg) then 0 else snd pg) g).
    { induction g as [|[p x] t IH]; intros d; simpl; [lia|]. rewrite IH. destruct (kmem low p); lia. }
    assert (Hout : forall l d, fold_left (fun d (cg : Cty * dict) =>
                       fold_left (fun d (pg : K * Z) => if kmem low (fst pg) then d else d + snd pg) (snd cg) d) l d
                     = d + zsumf (fun cg : Cty * dict => zsumf (fun pg : K * Z => if kmem low (fst pg) then 0 else snd pg) (snd cg)) l).
    { induction l as [|[c g] t IH]; intros d; simpl; [lia|]. rewrite IH, Hin. lia. }
    rewrite Hout. lia.
  Qed.
  Lemma nonprop_drop_nonneg low prev : wf_prev prev -> 0 <= nonprop_drop keqb low prev.
  Proof.
    intros [_ Hf]. rewrite nonprop_drop_spec. apply zsumf_nonneg. intros [c g] Hin. simpl.
    rewrite Forall_forall in Hf. destruct (Hf _ Hin) as [_ Hnn]. simpl in Hnn. apply zsumf_nonneg.
    intros [p x] Hp. simpl. rewrite Forall_forall in Hnn. pose proof (Hnn _ Hp). simpl in *. destruct (kmem low p); lia.
  Qed.

  Lemma knodup_In_kget d p m : knodup d -> In (p, m) d -> kget d p = Some m.
  Proof.
    induction d as [|[k v] t IH]; simpl; [tauto|]. intros [Hh Hn] [H|H].
    - injection H as -> ->. rewrite keqb_refl. reflexivity.
    - destruct (keqb p k) eqn:E; [|apply IH; assumption]. exfalso.
      rewrite <- (khas_congr t p k E) in Hh.
      assert (khas t p = true); [|congruence]. apply existsb_exists. exists (p, m). split; [exact H|apply keqb_refl].
  Qed.

  Theorem ksatisfied_true low pr : ksatisfied keqb low pr = true ->
    forall k, kmem low k = true -> kget0 low k <= kget0 pr k.
  Proof.
    unfold ksatisfied, OverhangByC.kmem. induction low as [|[p m] t IH]; simpl; [discriminate|].
    intros H k. apply andb_true_iff in H. destruct H as [H1 H2]. unfold OverhangByC.kget0 at 1. simpl.
    destruct (keqb k p) eqn:E.
    - intros _. apply negb_true_iff, Z.ltb_ge in H1. rewrite (kget0_congr pr k p E). exact H1.
    - intros Hm. apply (IH H2 k Hm).
  Qed.
  Lemma knodup_In_kget0 d p m : knodup d -> In (p, m) d -> kmem d p = true /\ kget0 d p = m.
  Proof.
    intros Hn Hin. unfold OverhangByC.kmem, OverhangByC.kget0. rewrite (knodup_In_kget d p m Hn Hin). split; reflexivity.
  Qed.

  Theorem ksatisfied_intro low pr : knodup low ->
    (forall k, kmem low k = true -> kget0 low k <= kget0 pr k) -> ksatisfied keqb low pr = true.
  Proof.
    intros Hn H. apply forallb_forall. intros [p m] Hin. simpl.
    destruct (knodup_In_kget0 low p m Hn Hin) as [Hm Hv]. apply negb_true_iff, Z.ltb_ge. rewrite <- Hv. exact (H p Hm).
  Qed.
  Theorem ksatisfied_false low pr : knodup low -> ksatisfied keqb low pr = false ->
    exists k, kmem low k = true /\ kget0 pr k < kget0 low k.
  Proof.
    intros Hn H. destruct (forallb_false _ _ H) as ([p m] & Hin & Hf). simpl in Hf.
    apply negb_false_iff, Z.ltb_lt in Hf. destruct (knodup_In_kget0 low p m Hn Hin) as [Hm Hv].
    exists p. rewrite Hv. split; assumption.
  Qed.

  Section CALCP.
    Variable OE : Z -> eres dict.
    Notation bc_loop := (bc_loop keqb OE).
    Notation bc_calculate := (bc_calculate keqb OE).
    Notation sat := (ksatisfied keqb).

    (* entered at a size with that size's result, the loop stops at the first size from there on that passes the test *)
    Theorem bc_loop_spec low : forall fuel h pr r,
      OE h = Ok pr -> bc_loop fuel low h pr = BC_ok r ->
      h <= r /\ (exists prr, OE r = Ok prr /\ sat low prr = true) /\
      (forall x, h <= x < r -> exists ph, OE x = Ok ph /\ sat low ph = false).
    Proof.
      induction fuel as [|f IH]; intros h pr r E0; simpl; destruct (sat low pr) eqn:Es.
      1,3: intros [= <-]; split; [apply Z.le_refl|]; split; [exists pr; split; assumption|intros x Hx; lia].
      - discriminate.
      - destruct (OE (h + 1)) as [pr'| |] eqn:Ee; [|discriminate|discriminate]. intros H.
        destruct (IH _ _ _ Ee H) as (H1 & H2 & H3). split; [lia|]. split; [exact H2|].
        intros x Hx. destruct (Z.eq_dec x h) as [->|Hne]; [exists pr; split; assumption|apply H3; lia].
    Qed.

    (* out of fuel = every size the loop could look at within its fuel fails *)
    Theorem bc_loop_fuel_iff low : forall fuel h pr, OE h = Ok pr ->
      (bc_loop fuel low h pr = BC_fuel <->
       forall a, 0 <= a <= Z.of_nat fuel -> exists ph, OE (h + a) = Ok ph /\ sat low ph = false).
    Proof.
      assert (H0 : forall fuel h pr, OE h = Ok pr ->
                (forall a, 0 <= a <= Z.of_nat fuel -> exists ph, OE (h + a) = Ok ph /\ sat low ph = false) ->
                sat low pr = false).
      { intros fuel h pr E0 H. destruct (H 0) as (ph & Hp1 & Hp2); [lia|].
        rewrite Z.add_0_r, E0 in Hp1. injection Hp1 as <-. exact Hp2. }
      induction fuel as [|f IH]; intros h pr E0; cbn [OverhangByC.bc_loop]; destruct (sat low pr) eqn:Es.
      1,3: split; [discriminate|]; intros H; rewrite (H0 _ _ _ E0 H) in Es; discriminate.
      - split; [|reflexivity]. intros _ a Ha. assert (a = 0) as -> by lia. rewrite Z.add_0_r. exists pr. split; assumption.
      - destruct (OE (h + 1)) as [pr'| |] eqn:Ee.
        + rewrite (IH _ _ Ee). split; intros H a Ha.
          * destruct (Z.eq_dec a 0) as [->|Hne]; [rewrite Z.add_0_r; exists pr; split; assumption|].
            replace (h + a) with (h + 1 + (a - 1)) by lia. apply H. lia.
          * replace (h + 1 + a) with (h + (a + 1)) by lia. apply H. lia.
        + split; [discriminate|]. intros H. destruct (H 1) as (ph & Hp1 & _); [lia|]. rewrite Ee in Hp1. discriminate.
        + split; [discriminate|]. intros H. destruct (H 1) as (ph & Hp1 & _); [lia|]. rewrite Ee in Hp1. discriminate.
    Qed.

    (* an answer other than "out of fuel" does not depend on the fuel *)
    Theorem bc_loop_fuel_mono low : forall fuel fuel' h pr,
      (fuel <= fuel')%nat -> bc_loop fuel low h pr <> BC_fuel ->
      bc_loop fuel' low h pr = bc_loop fuel low h pr.
    Proof.
      induction fuel as [|f IH]; intros fuel' h pr Hle Hne.
      - simpl in *. destruct (sat low pr) eqn:Es; [|congruence].
        destruct fuel'; simpl; rewrite Es; reflexivity.
      - destruct fuel' as [|f']; [lia|]. cbn [OverhangByC.bc_loop] in *. destruct (sat low pr); [reflexivity|].
        destruct (OE (h + 1)); [|reflexivity|reflexivity]. apply IH; [lia|exact Hne].
    Qed.

    Definition drop_of (res prev : nested) : Z := nonprop_drop keqb (lowest_allowed keqb res prev) prev.

    (* the answer of the calculator: non-negative; the stopping test holds at the house it stands for;
       every smaller enlargement the loop examined (0, 1, ..., r - 1 more seats than n - drop) fails it *)
    Theorem bc_calculate_ok CEn fuel n prev r : bc_calculate CEn fuel n prev = BC_ok r ->
      exists res, CEn = Ok res /\
        0 <= r /\
        (exists pr, OE (n - drop_of res prev + r) = Ok pr /\ sat (lowest_allowed keqb res prev) pr = true) /\
        (forall a, 0 <= a < r -> exists ph, OE (n - drop_of res prev + a) = Ok ph /\
                                           sat (lowest_allowed keqb res prev) ph = false).
    Proof.
      unfold OverhangByC.bc_calculate, drop_of. destruct CEn as [res| |]; [|discriminate|discriminate].
      set (low := lowest_allowed keqb res prev). set (drop := nonprop_drop keqb low prev).
      destruct (OE (n - drop)) as [pr| |] eqn:E0; [|discriminate|discriminate].
      destruct (bc_loop fuel low (n - drop) pr) as [hf| | |] eqn:El; try discriminate.
      intros [= <-]. exists res. split; [reflexivity|]. fold low. fold drop.
      destruct (bc_loop_spec low _ _ _ _ E0 El) as (H1 & H2 & H3). split; [lia|].
      replace (n - drop + (hf + drop - n)) with hf by lia. split; [exact H2|].
      intros a Ha. apply H3. lia.
    Qed.

    Theorem bc_calculate_fuel_iff res fuel n prev :
      bc_calculate (Ok res) fuel n prev = BC_fuel <->
      forall a, 0 <= a <= Z.of_nat fuel -> exists ph, OE (n - drop_of res prev + a) = Ok ph /\
                                                      sat (lowest_allowed keqb res prev) ph = false.
    Proof.
      unfold OverhangByC.bc_calculate, drop_of.
      set (low := lowest_allowed keqb res prev). set (drop := nonprop_drop keqb low prev).
      destruct (OE (n - drop)) as [pr| |] eqn:E0.
      - rewrite <- (bc_loop_fuel_iff low fuel _ pr E0). destruct (bc_loop fuel low (n - drop) pr); split; congruence.
      - split; [discriminate|]. intros H. destruct (H 0) as (ph & Hp1 & _); [lia|]. rewrite Z.add_0_r, E0 in Hp1. discriminate.
      - split; [discriminate|]. intros H. destruct (H 0) as (ph & Hp1 & _); [lia|]. rewrite Z.add_0_r, E0 in Hp1. discriminate.
    Qed.

    Theorem bc_calculate_fuel_mono CEn fuel fuel' n prev : (fuel <= fuel')%nat ->
      bc_calculate CEn fuel n prev <> BC_fuel -> bc_calculate CEn fuel' n prev = bc_calculate CEn fuel n prev.
    Proof.
      intros Hle. unfold OverhangByC.bc_calculate. destruct CEn as [res| |]; [|reflexivity|reflexivity].
      destruct (OE _) as [pr| |]; [|reflexivity|reflexivity]. intros Hne.
      rewrite (bc_loop_fuel_mono _ fuel fuel' _ _ Hle); [reflexivity|].
      intros Hf. rewrite Hf in Hne. congruence.
    Qed.

    Definition nonneg_nested (x : nested) : Prop := Forall (fun cd => Forall (fun kv : K * Z => 0 <= snd kv) (snd cd)) x.
    (* no party holds more first round seats in a constituency than it has proportional seats there *)
    Definition no_overhang (res prev : nested) : Prop :=
      Forall (fun cg => Forall (fun pg : K * Z => snd pg <= share res (fst cg) (fst pg)) (snd cg)) prev.

    Lemma share_nonneg res c k : nonneg_nested res -> 0 <= share res c k.
    Proof.
      intros Hf. unfold share, dget_or. destruct (dget res c) as [r|] eqn:E; [|unfold OverhangByC.kget0; simpl; lia].
      apply dget_In in E. unfold nonneg_nested in Hf. rewrite Forall_forall in Hf. apply kget0_nonneg. exact (Hf _ E).
    Qed.
    Lemma direct_le_share res prev c k : nonneg_nested res -> no_overhang res prev -> direct prev c k <= share res c k.
    Proof.
      intros Hnn Hno. pose proof (share_nonneg res c k Hnn) as Hs. unfold direct, dget_or at 1.
      destruct (dget prev c) as [g|] eqn:E; [|unfold OverhangByC.kget0; simpl; exact Hs].
      apply dget_In in E. unfold no_overhang in Hno. rewrite Forall_forall in Hno. pose proof (Hno _ E) as Hg. simpl in Hg.
      clear E. unfold OverhangByC.kget0 at 1. induction g as [|[p x] t IH]; simpl; [exact Hs|].
      inversion Hg as [|? ? H1 H2]; subst. destruct (keqb k p) eqn:Ek; [|apply IH, H2].
      simpl in H1. unfold share in *. rewrite (kget0_congr _ k p Ek). exact H1.
    Qed.

    Lemma drop_zero res prev : wf_prev prev -> no_overhang res prev -> drop_of res prev = 0.
    Proof.
      intros [_ Hwp] Hno. unfold drop_of. rewrite nonprop_drop_spec. apply zsumf_zero. intros [c g] Hin. simpl.
      apply zsumf_zero. intros [p x] Hp. simpl. rewrite lowest_allowed_mem.
      destruct (tier res p) eqn:Et; [reflexivity|].
      unfold no_overhang in Hno. rewrite Forall_forall in Hno, Hwp. pose proof (Hno _ Hin) as H1. destruct (Hwp _ Hin) as [_ H2].
      simpl in H1, H2. rewrite Forall_forall in H1, H2. pose proof (H1 _ Hp) as H1'. pose proof (H2 _ Hp) as H2'. simpl in *.
      unfold share in H1'. rewrite (kget0_notmem _ _ (tier_false res c p Et)) in H1'. lia.
    Qed.

    Theorem bc_calculate_zero res fuel n prev pr ctys :
      wf_res res -> wf_prev prev -> nonneg_nested res -> NoDup ctys ->
      incl (map fst res) ctys -> incl (map fst prev) ctys ->
      no_overhang res prev ->
      OE n = Ok pr ->
      (forall k, tier res k = true -> zsumf (fun c => share res c k) ctys <= kget0 pr k) ->
      bc_calculate (Ok res) fuel n prev = BC_ok 0.
    Proof.
      intros Hr Hp Hnn Hk Hir Hip Hno He Hcov. unfold OverhangByC.bc_calculate.
      pose proof (drop_zero res prev Hp Hno) as Hd. unfold drop_of in Hd. rewrite Hd.
      replace (n - 0) with n by lia. rewrite He.
      assert (Hs : sat (lowest_allowed keqb res prev) pr = true).
      { apply ksatisfied_intro; [apply lowest_allowed_nodup|]. intros k Hm. rewrite lowest_allowed_mem in Hm.
        rewrite (lowest_allowed_need res prev ctys k Hr Hp Hk Hir Hip Hm).
        eapply Z.le_trans; [|apply (Hcov k Hm)]. unfold need. apply zsumf_le. intros c _.
        pose proof (direct_le_share res prev c k Hnn Hno). lia. }
      destruct fuel; simpl; rewrite Hs; f_equal; lia.
    Qed.
  End CALCP.

  (* the merged constituency results (default overall evaluator) give every key the sum of its shares *)
  Lemma ktotals_share res ctys k : wf_res res -> NoDup ctys -> incl (map fst res) ctys ->
    kget0 (ktotals (map snd res)) k = zsumf (fun c => share res c k) ctys.
  Proof.
    intros [Hr Hf] Hk Hir. rewrite ktotals_get, zsumf_map.
    pose proof (zsumf_assoc (fun (c : C) (r : dict) => kget0 r k) [] (fun c => eq_refl) res Hr ctys Hk Hir) as E.
    cbv beta in E. unfold share. unfold Cty, C in *. rewrite E. apply zsumf_ext. intros [c r] Hin. simpl.
    rewrite Forall_forall in Hf. apply kcount_nodup. exact (Hf _ Hin).
  Qed.
End KDP.

Section MEANING.
  Context {K : Type}.
  Variable keqb : K -> K -> bool.
  Hypothesis keqb_refl : forall a, keqb a a = true.
  Hypothesis keqb_sym : forall a b, keqb a b = keqb b a.
  Hypothesis keqb_trans : forall a b c, keqb a b = true -> keqb b c = true -> keqb a c = true.
  Variable OE : Z -> eres (list (K * Z)).

  Theorem bc_calculate_meaning CEn fuel n prev r ctys :
    bc_calculate keqb OE CEn fuel n prev = BC_ok r ->
    exists res, CEn = Ok res /\ 0 <= r /\
      (wf_res keqb res -> wf_prev keqb prev -> NoDup ctys -> incl (map fst res) ctys -> incl (map fst prev) ctys ->
       (exists pr, OE (n - drop_of keqb res prev + r) = Ok pr /\
          forall k, tier keqb res k = true -> need keqb res prev ctys k <= kget0 keqb pr k) /\
       (forall a, 0 <= a < r -> exists ph, OE (n - drop_of keqb res prev + a) = Ok ph /\
          exists k, tier keqb res k = true /\ kget0 keqb ph k < need keqb res prev ctys k)).
  Proof.
    intros H. destruct (bc_calculate_ok keqb OE CEn fuel n prev r H) as (res & Hc & Hr & (pr & Hp1 & Hp2) & Hmin).
    exists res. split; [exact Hc|]. split; [exact Hr|]. intros Hwr Hwp Hk Hir Hip. split.
    - exists pr. split; [exact Hp1|]. intros k Ht.
      rewrite <- (lowest_allowed_need keqb keqb_sym keqb_trans res prev ctys k Hwr Hwp Hk Hir Hip Ht).
      apply (ksatisfied_true keqb keqb_sym keqb_trans _ _ Hp2).
      rewrite (lowest_allowed_mem keqb keqb_sym keqb_trans). exact Ht.
    - intros a Ha. destruct (Hmin a Ha) as (ph & Hq1 & Hq2). exists ph. split; [exact Hq1|].
      destruct (ksatisfied_false keqb keqb_refl keqb_sym keqb_trans _ _
                  (lowest_allowed_nodup keqb keqb_sym keqb_trans res prev) Hq2) as (k & Hm & Hlt).
      rewrite (lowest_allowed_mem keqb keqb_sym keqb_trans) in Hm. exists k. split; [exact Hm|].
      rewrite <- (lowest_allowed_need keqb keqb_sym keqb_trans res prev ctys k Hwr Hwp Hk Hir Hip Hm). exact Hlt.
  Qed.
End MEANING.

(* all first round seats belong to parties of the proportional tier: nothing is set aside *)
Section DROP.
  Context {K : Type}.
  Variable keqb : K -> K -> bool.
  Hypothesis keqb_sym : forall a b, keqb a b = keqb b a.
  Hypothesis keqb_trans : forall a b c, keqb a b = true -> keqb b c = true -> keqb a c = true.

  Definition direct_in_tier (res prev : list (Cty * list (K * Z))) : Prop :=
    Forall (fun cg => Forall (fun pg : K * Z => tier keqb res (fst pg) = true \/ snd pg = 0) (snd cg)) prev.

  Lemma drop_zero_tier res prev : direct_in_tier res prev -> drop_of keqb res prev = 0.
  Proof.
    intros H. unfold drop_of. rewrite nonprop_drop_spec. apply zsumf_zero. intros [c g] Hin. simpl.
    apply zsumf_zero. intros [p x] Hp. simpl. rewrite (lowest_allowed_mem keqb keqb_sym keqb_trans).
    unfold direct_in_tier in H. rewrite Forall_forall in H. pose proof (H _ Hin) as Hg. simpl in Hg.
    rewrite Forall_forall in Hg. destruct (Hg _ Hp) as [Ht|Hz]; simpl in *; [rewrite Ht; reflexivity|].
    destruct (tier keqb res p); [reflexivity|exact Hz].
  Qed.
End DROP.
