(* C19 - lemmas about Model/BallotFile.v *)
From Coq Require Import ZArith QArith Qcanon List Bool Lia.
From VL Require Import Model.Persist Model.BallotFile.
Import ListNotations.
Open Scope Z_scope.

Definition no_crash {X} (r : lres X) : Prop := match r with Crash _ => False | _ => True end.

Lemma tokval_total : forall fd i t, no_crash (tokval false fd i t).
Proof. intros fd i [n|q|]; simpl; try exact I; destruct (fd && Nat.eqb i 0); exact I. Qed.

Lemma tokvals_total : forall fd l i, no_crash (tokvals false fd i l).
Proof.
  intros fd l. induction l as [|t l IH]; intros i; simpl; [exact I|].
  pose proof (tokval_total fd i t) as H. destruct (tokval false fd i t); simpl in *; try exact I; [|contradiction].
  pose proof (IH (S i)) as H2. destruct (tokvals false fd (S i) l); simpl in *; try exact I. contradiction.
Qed.

Lemma parse_numline_total : forall fd l, no_crash (parse_numline false fd l).
Proof. intros fd [ts|s]; simpl; [apply tokvals_total|]. destruct fd; exact I. Qed.

Lemma parse_ballot_total : forall nums, no_crash (parse_ballot nums).
Proof.
  intros nums. unfold parse_ballot. destruct (rev nums) as [|x f]; [exact I|].
  destruct (qzero x); [|exact I]. destruct (rev f); exact I.
Qed.

Lemma parse_body_total : forall op ls b wd enc, no_crash (parse_body false op ls b wd enc).
Proof.
  intros op ls. induction ls as [|l rest IH]; intros b wd enc; simpl; [exact I|].
  pose proof (parse_numline_total true l) as H. destruct (parse_numline false true l) as [nums| |e]; simpl in *; try exact I; [|contradiction].
  destruct nums as [|x r]; [apply IH|].
  destruct (qzero x && match r with [] => true | _ => false end); [exact I|].
  destruct (qneg x).
  - destruct enc; [exact I|apply IH].
  - pose proof (parse_ballot_total (x :: r)) as H2. destruct (parse_ballot (x :: r)) as [[w bl]| |e]; simpl in *; try exact I; [|contradiction].
    destruct (op && negb (Qle_bool 1 w)); [exact I|apply IH].
Qed.

Lemma quoted_lines_total : forall ls acc es, no_crash (quoted_lines ls acc es).
Proof.
  induction ls as [|l rest IH]; intros acc es; simpl; [exact I|].
  destruct l as [ts|s].
  - destruct ts; [apply IH|exact I].
  - destruct es; [exact I|apply IH].
Qed.

Lemma parse_strings_total : forall ls n, no_crash (parse_strings false ls n).
Proof.
  intros ls n. unfold parse_strings. pose proof (quoted_lines_total ls [] false) as H.
  destruct (quoted_lines ls [] false) as [p| |e]; simpl in *; try exact I; [|contradiction].
  destruct p as [|s [|s2 p]]; try exact I.
  - destruct (n =? 1); exact I.
  - destruct (_ <? n); [exact I|]. destruct (_ =? n); [exact I|]. destruct (_ =? n + 1); exact I.
Qed.

Lemma check_ranking_total : forall n r, no_crash (check_ranking false n r).
Proof.
  intros n r. induction r as [|i t IH]; simpl; [exact I|]. unfold check_index.
  destruct ((1 <=? i) && (i <=? n)); simpl; [|exact I].
  destruct (check_ranking false n t); simpl in *; try exact I. contradiction.
Qed.

Lemma deindex_total : forall n b, no_crash (deindex false n b).
Proof.
  intros n b. induction b as [|[r w] t IH]; simpl; [exact I|].
  pose proof (check_ranking_total n r) as H. destruct (check_ranking false n r); simpl in *; try exact I; [|contradiction].
  destruct (deindex false n t); simpl in *; try exact I. contradiction.
Qed.

(* totality: the repaired parser never crashes *)
Theorem load_lines_total : forall op ls, no_crash (load_lines false op ls).
Proof.
  intros op [|h body]; simpl; [exact I|].
  pose proof (parse_numline_total false h) as H. destruct (parse_numline false false h) as [nums| |e]; simpl in *; try exact I; [|contradiction].
  destruct nums as [|nc [|ns [|x r]]]; try exact I.
  pose proof (parse_body_total op body [] [] false) as H2.
  destruct (parse_body false op body [] [] false) as [[[bl wd] rest]| |e]; simpl in *; try exact I; [|contradiction].
  pose proof (parse_strings_total rest (Qnum nc)) as H3.
  destruct (parse_strings false rest (Qnum nc)) as [nr| |e]; simpl in *; try exact I; [|contradiction].
  destruct nr as [names title|s].
  - pose proof (deindex_total (Z.of_nat (length (form_cands match names with Some l => map Named l | None => numbered (Z.to_nat (Qnum nc)) 1 end wd 1))) bl) as H4.
    destruct (deindex false _ bl); simpl in *; try exact I. contradiction.
  - pose proof (deindex_total (Z.of_nat (length (form_cands (map (fun c => Named [c]) s) wd 1))) bl) as H4.
    destruct (deindex false _ bl); simpl in *; try exact I. contradiction.
Qed.

Lemma tokvals_nats : forall fd l i, tokvals false fd i (map TNat l) = Ok (map inject_Z l).
Proof. intros fd l. induction l as [|z l IH]; intros i; simpl; [reflexivity|]. now rewrite IH. Qed.

Lemma tokval_wtok : forall w, tokval false true 0 (wtok w) = Ok w.
Proof.
  intros [n d]. unfold wtok. cbn [Qden Qnum].
  destruct (Pos.eqb d 1) eqn:Hd; destruct (0 <=? n) eqn:Hn; cbn [andb tokval Nat.eqb]; try reflexivity.
  apply Pos.eqb_eq in Hd. subst d. reflexivity.
Qed.

Lemma tokvals_ballot : forall w l,
  tokvals false true 0 (wtok w :: map TNat l ++ [TNat 0]) = Ok (w :: map inject_Z l ++ [inject_Z 0]).
Proof.
  intros w l. cbn [tokvals]. rewrite tokval_wtok.
  replace (map TNat l ++ [TNat 0]) with (map TNat (l ++ [0])) by (rewrite map_app; reflexivity).
  rewrite tokvals_nats, map_app. reflexivity.
Qed.

Lemma parse_ballot_written : forall w l,
  parse_ballot (w :: map inject_Z l ++ [inject_Z 0]) = Ok (w, l).
Proof.
  intros w l. unfold parse_ballot.
  replace (rev (w :: map inject_Z l ++ [inject_Z 0])) with (inject_Z 0 :: rev (map inject_Z l) ++ [w]).
  2:{ simpl. rewrite rev_app_distr. reflexivity. }
  replace (qzero (inject_Z 0)) with true by reflexivity.
  rewrite rev_app_distr, rev_involutive. simpl. rewrite map_map. simpl. rewrite map_id. reflexivity.
Qed.

Lemma zlist_eqb_eq : forall a b, zlist_eqb a b = true -> a = b.
Proof.
  induction a as [|x a IH]; destruct b as [|y b]; simpl; intros H; try discriminate; [reflexivity|].
  apply andb_true_iff in H. destruct H as [H1 H2]. apply Z.eqb_eq in H1. subst. f_equal. auto.
Qed.

Lemma plist_eqb_refl : forall a, plist_eqb a a = true.
Proof. induction a as [|x a IH]; simpl; [reflexivity|]. now rewrite Pos.eqb_refl. Qed.

Lemma badd_fresh : forall b r w,
  existsb (fun rw => zlist_eqb r (fst rw)) b = false -> badd b r w = b ++ [(r, Qred (0 + w))].
Proof.
  induction b as [|[r' w'] b IH]; intros r w H; simpl in *; [reflexivity|].
  apply orb_false_iff in H. destruct H as [H1 H2]. rewrite H1. f_equal. apply IH. exact H2.
Qed.

Lemma weight_reduced : forall w, weight_ok w = true -> Qred (0 + w) = w /\ qneg w = false.
Proof.
  intros w H. unfold weight_ok in H. apply andb_true_iff in H. destruct H as [H1 H2]. apply Z.eqb_eq in H2.
  split.
  - rewrite (Qred_complete (0 + w) w (Qplus_0_l w)). apply Qred_identity. exact H2.
  - unfold qneg. rewrite H1. reflexivity.
Qed.

Lemma index_of_range : forall c cands k i, index_of c cands k = Some i -> k <= i < k + Z.of_nat (length cands).
Proof.
  intros c cands. induction cands as [|[[c' nm] wd] t IH]; intros k i H; simpl in H; [discriminate|].
  destruct (Pos.eqb c c').
  - inversion H. subst. simpl length. lia.
  - apply IH in H. simpl length. lia.
Qed.

Lemma index_of_inj : forall cands c c' k i, index_of c cands k = Some i -> index_of c' cands k = Some i -> c = c'.
Proof.
  induction cands as [|[[c0 nm] wd] t IH]; intros c c' k i H H'; simpl in *; [discriminate|].
  destruct (Pos.eqb c c0) eqn:E1; destruct (Pos.eqb c' c0) eqn:E2.
  - apply Pos.eqb_eq in E1. apply Pos.eqb_eq in E2. congruence.
  - inversion H; subst. apply index_of_range in H'. lia.
  - inversion H'; subst. apply index_of_range in H. lia.
  - eapply IH; eauto.
Qed.

Lemma indices_inj : forall cands r r' l, indices r cands = Some l -> indices r' cands = Some l -> r = r'.
Proof.
  intros cands. induction r as [|c r IH]; intros r' l H H'; simpl in H.
  - inversion H; subst. destruct r' as [|c' r']; [reflexivity|]. simpl in H'.
    destruct (index_of c' cands 1); [destruct (indices r' cands)|]; discriminate.
  - destruct (index_of c cands 1) as [i|] eqn:Ei; [|discriminate].
    destruct (indices r cands) as [is_|] eqn:Er; [|discriminate]. inversion H; subst.
    destruct r' as [|c' r']; simpl in H'; [discriminate|].
    destruct (index_of c' cands 1) as [i'|] eqn:Ei'; [|discriminate].
    destruct (indices r' cands) as [is'|] eqn:Er'; [|discriminate]. inversion H'; subst.
    f_equal; [eapply index_of_inj; eauto | eapply IH; eauto].
Qed.

Lemma indices_range : forall cands r l, indices r cands = Some l ->
  Forall (fun i => 1 <= i <= Z.of_nat (length cands)) l.
Proof.
  intros cands. induction r as [|c r IH]; intros l H; simpl in H.
  - inversion H. constructor.
  - destruct (index_of c cands 1) as [i|] eqn:Ei; [|discriminate].
    destruct (indices r cands) as [is_|] eqn:Er; [|discriminate]. inversion H; subst.
    constructor; [apply index_of_range in Ei; lia | apply IH; reflexivity].
Qed.

Lemma check_ranking_ok : forall n l, Forall (fun i => 1 <= i <= n) l -> check_ranking false n l = Ok l.
Proof.
  intros n l H. induction H as [|i l Hi Hl IH]; simpl; [reflexivity|]. unfold check_index.
  replace ((1 <=? i) && (i <=? n)) with true by (symmetry; apply andb_true_iff; split; apply Z.leb_le; lia).
  rewrite IH. reflexivity.
Qed.

Lemma deindex_ok : forall n ps, Forall (fun rw => Forall (fun i => 1 <= i <= n) (fst rw)) ps -> deindex false n ps = Ok ps.
Proof.
  intros n ps H. induction H as [|[r w] ps Hr Hps IH]; simpl; [reflexivity|].
  simpl in Hr. rewrite (check_ranking_ok n r Hr), IH. reflexivity.
Qed.

Definition bline (rw : list Z * Q) : line := LToks (wtok (snd rw) :: map TNat (fst rw) ++ [TNat 0]).
Definition wdval (i : Z) : Q := Qopp (inject_Z (- (i + 1))).

Lemma withdrawn_inds_ge : forall cands k, Forall (fun i => k <= i) (withdrawn_inds cands k).
Proof.
  induction cands as [|[[c nm] w] t IH]; intros k; simpl; [constructor|].
  assert (H : Forall (fun i => k <= i) (withdrawn_inds t (k + 1))).
  { eapply Forall_impl; [|apply IH]. intros a Ha. simpl in Ha. lia. }
  destruct w; [constructor; [lia|exact H]|exact H].
Qed.

Lemma body_withdrawn : forall op inds rest b wd, Forall (fun i => 0 <= i) inds ->
  parse_body false op (map (fun i => LToks [ztok (wd_number false i)]) inds ++ rest) b wd false =
  parse_body false op rest b (wd ++ map wdval inds) false.
Proof.
  intros op inds rest b. induction inds as [|i inds IH]; intros wd H; simpl.
  - now rewrite app_nil_r.
  - inversion H as [|? ? Hi Hr]; subst. unfold wd_number, ztok.
    replace (0 <=? - (i + 1)) with false by (symmetry; apply Z.leb_gt; lia).
    cbn [parse_numline tokvals tokval andb Nat.eqb].
    assert (Hz : qzero (inject_Z (- (i + 1))) = false).
    { unfold qzero, Qeq_bool, inject_Z. simpl. destruct (- (i + 1)) eqn:E; try reflexivity. lia. }
    assert (Hn : qneg (inject_Z (- (i + 1))) = true).
    { unfold qneg, Qle_bool, inject_Z. simpl. apply negb_true_iff. apply Z.leb_gt. lia. }
    rewrite Hz, Hn. simpl andb. cbv iota. rewrite IH by exact Hr. simpl map. rewrite <- app_assoc. reflexivity.
Qed.

Lemma body_step_ballot : forall r w rest b wd enc, weight_ok w = true ->
  parse_body false false (bline (r, w) :: rest) b wd enc = parse_body false false rest (badd b r w) wd true.
Proof.
  intros r w rest b wd enc Hw. destruct (weight_reduced w Hw) as [Hred Hneg].
  unfold bline. cbn [fst snd]. cbn [parse_body]. cbn [parse_numline]. rewrite tokvals_ballot.
  assert (Hnz : (qzero w && match map inject_Z r ++ [inject_Z 0] with [] => true | _ => false end) = false).
  { destruct (map inject_Z r); simpl; apply andb_false_r. }
  rewrite Hnz, Hneg, parse_ballot_written. cbn [andb]. reflexivity.
Qed.

Lemma body_ballots : forall ps rest b wd enc,
  Forall (fun rw => weight_ok (snd rw) = true) ps ->
  (forall pre r w post, b ++ ps = pre ++ (r, w) :: post -> existsb (fun rw => zlist_eqb r (fst rw)) pre = false) ->
  exists enc', parse_body false false (map bline ps ++ rest) b wd enc = parse_body false false rest (b ++ ps) wd enc'.
Proof.
  induction ps as [|[r w] ps IH]; intros rest b wd enc Hw Hd.
  - exists enc. simpl. now rewrite app_nil_r.
  - inversion Hw as [|? ? Hw1 Hw2]; subst. simpl in Hw1. destruct (weight_reduced w Hw1) as [Hred Hneg].
    cbn [map app]. rewrite (body_step_ballot r w _ b wd enc Hw1).
    assert (Hfresh : existsb (fun rw => zlist_eqb r (fst rw)) b = false).
    { apply (Hd b r w ps). reflexivity. }
    rewrite (badd_fresh b r w Hfresh), Hred.
    destruct (IH rest (b ++ [(r, w)]) wd true Hw2) as [enc' He].
    { intros pre r0 w0 post Heq. apply (Hd pre r0 w0 post). rewrite <- Heq, <- app_assoc. reflexivity. }
    exists enc'. rewrite He, <- app_assoc. reflexivity.
Qed.

Lemma body_end : forall op rest b wd enc,
  parse_body false op (LToks [TNat 0] :: rest) b wd enc = Ok (b, wd, rest).
Proof. reflexivity. Qed.

Lemma quoted_all : forall l acc, quoted_lines (map LQuoted l) acc false = Ok (acc ++ l).
Proof.
  induction l as [|s l IH]; intros acc; simpl; [now rewrite app_nil_r|]. rewrite IH, <- app_assoc. reflexivity.
Qed.

Lemma parse_strings_written : forall names title,
  parse_strings false (map LQuoted names ++ match title with Some t => [LQuoted t] | None => [] end)
                (Z.of_nat (length names)) =
  Ok (Names (match names with [] => None | _ => Some names end) title).
Proof.
  intros names title. unfold parse_strings.
  assert (Hq : quoted_lines (map LQuoted names ++ match title with Some t => [LQuoted t] | None => [] end) [] false
               = Ok (names ++ match title with Some t => [t] | None => [] end)).
  { destruct title as [t|].
    - replace (map LQuoted names ++ [LQuoted t]) with (map LQuoted (names ++ [t])) by (rewrite map_app; reflexivity).
      exact (quoted_all (names ++ [t]) []).
    - rewrite !app_nil_r. exact (quoted_all names []). }
  rewrite Hq. destruct title as [t|].
  - destruct names as [|s1 names]; [reflexivity|].
    assert (Hlen : Z.of_nat (length ((s1 :: names) ++ [t])) = Z.of_nat (length (s1 :: names)) + 1).
    { rewrite app_length. simpl length. lia. }
    remember (s1 :: names) as nm eqn:Enm.
    destruct (nm ++ [t]) as [|a [|a2 p]] eqn:Ep.
    + subst nm. discriminate.
    + subst nm. simpl in Ep. destruct names; discriminate.
    + cbv zeta. rewrite Hlen.
      replace (_ + 1 <? _) with false by (symmetry; apply Z.ltb_ge; lia).
      replace (Z.of_nat (length nm) + 1 =? Z.of_nat (length nm)) with false by (symmetry; apply Z.eqb_neq; lia).
      rewrite Z.eqb_refl. rewrite <- Ep, removelast_last, last_last. subst nm. reflexivity.
  - rewrite app_nil_r. destruct names as [|s1 [|s2 names]]; try reflexivity.
    remember (s1 :: s2 :: names) as nm. rewrite Z.ltb_irrefl, Z.eqb_refl. subst nm. reflexivity.
Qed.

Lemma wdval_match : forall i j, Qeq_bool (wdval i) (inject_Z (j + 1)) = (i =? j).
Proof.
  intros i j. unfold wdval, Qeq_bool, Qopp, inject_Z. simpl. rewrite !Z.mul_1_r, Z.opp_involutive.
  unfold Zeq_bool. destruct (Z.compare_spec (i + 1) (j + 1)); destruct (Z.eqb_spec i j); try reflexivity; lia.
Qed.

Lemma flag_of_inds : forall inds j,
  existsb (fun q => Qeq_bool q (inject_Z (j + 1))) (map wdval inds) = existsb (fun i => i =? j) inds.
Proof.
  induction inds as [|i inds IH]; intros j; simpl; [reflexivity|]. rewrite wdval_match, IH. reflexivity.
Qed.

Definition cand_names (cands : list cand) : list str := map (fun c => match c with (_, name, _) => name end) cands.
Definition cand_loaded (cands : list cand) : list (cname * bool) :=
  map (fun c => match c with (_, name, w) => (Named name, w) end) cands.

Lemma form_cands_written : forall cands k pre,
  Forall (fun i => i < k) pre ->
  form_cands (map Named (cand_names cands)) (map wdval (pre ++ withdrawn_inds cands k)) (k + 1) = cand_loaded cands.
Proof.
  induction cands as [|[[c nm] w] t IH]; intros k pre Hpre; simpl; [reflexivity|].
  rewrite flag_of_inds. f_equal.
  - f_equal. rewrite existsb_app.
    assert (Hp : existsb (fun i => i =? k) pre = false).
    { clear - Hpre. induction Hpre as [|i pre Hi Hp IH]; simpl; [reflexivity|]. rewrite IH.
      replace (i =? k) with false by (symmetry; apply Z.eqb_neq; lia). reflexivity. }
    rewrite Hp. simpl.
    assert (Hr : existsb (fun i => i =? k) (withdrawn_inds t (k + 1)) = false).
    { pose proof (withdrawn_inds_ge t (k + 1)) as Hge. induction Hge as [|i l Hi Hl IHl]; simpl; [reflexivity|].
      rewrite IHl. replace (i =? k) with false by (symmetry; apply Z.eqb_neq; lia). reflexivity. }
    destruct w; simpl; [rewrite Z.eqb_refl; reflexivity|exact Hr].
  - destruct w.
    + replace (pre ++ k :: withdrawn_inds t (k + 1)) with ((pre ++ [k]) ++ withdrawn_inds t (k + 1))
        by (rewrite <- app_assoc; reflexivity).
      apply IH. apply Forall_app. split; [eapply Forall_impl; [|exact Hpre]; intros a Ha; simpl in Ha; lia|constructor; [lia|constructor]].
    + apply IH. eapply Forall_impl; [|exact Hpre]. intros a Ha. simpl in Ha. lia.
Qed.

Lemma Forall2_In_r : forall (A B : Type) (R : A -> B -> Prop) l l' y, Forall2 R l l' -> In y l' -> exists x, In x l /\ R x y.
Proof.
  intros A B R l l' y H Hin. induction H as [|x y' l l' Hxy _ IH]; [contradiction|].
  destruct Hin as [<-|Hin]; [exists x; split; [left; reflexivity|exact Hxy]|].
  destruct (IH Hin) as [x' [H1 H2]]. exists x'. split; [right; exact H1|exact H2].
Qed.

(* positions replaces each ranking by its indices and keeps the weight *)
Lemma positions_spec : forall votes cands ps, positions votes cands = Some ps ->
  Forall2 (fun v p => indices (fst v) cands = Some (fst p) /\ snd p = snd v) votes ps.
Proof.
  induction votes as [|[r w] t IH]; intros cands ps H; simpl in H.
  - inversion H. constructor.
  - destruct (indices r cands) as [is_|] eqn:Ei; [|discriminate].
    destruct (positions t cands) as [ps'|] eqn:Ep; [|discriminate]. inversion H; subst.
    constructor; [split; [exact Ei|reflexivity]|apply IH; exact Ep].
Qed.

Lemma positions_dump : forall votes cands ps, positions votes cands = Some ps ->
  dump_votes votes cands = Some (map bline ps).
Proof.
  intros votes cands ps H. apply positions_spec in H. induction H as [|[r w] [is_ w'] t ps' [Hi Hw] _ IH]; [reflexivity|].
  cbn [fst snd] in Hi, Hw. subst w'. cbn [dump_votes map]. rewrite Hi, IH. reflexivity.
Qed.

Lemma positions_distinct : forall votes cands ps, positions votes cands = Some ps ->
  rankings_nodup (map fst votes) = true ->
  forall pre r w post, ps = pre ++ (r, w) :: post -> existsb (fun rw => zlist_eqb r (fst rw)) pre = false.
Proof.
  intros votes cands ps H. apply positions_spec in H.
  induction H as [|[r0 w0] [is0 w0'] t ps' [Ei _] Ht IH]; intros Hnd pre r w post Heq; [destruct pre; discriminate|].
  cbn [map fst rankings_nodup] in Hnd, Ei. apply andb_true_iff in Hnd. destruct Hnd as [Hn1 Hn2]. apply negb_true_iff in Hn1.
  destruct pre as [|p pre']; [reflexivity|]. injection Heq as <- Hrest. cbn [existsb fst].
  rewrite (IH Hn2 pre' r w post Hrest), orb_false_r.
  destruct (zlist_eqb r is0) eqn:Ez; [|reflexivity]. exfalso. apply zlist_eqb_eq in Ez. subst r.
  (* a later ballot with the same positions comes from the same ranking, which occurs once *)
  destruct (Forall2_In_r _ _ _ _ _ (is0, w) Ht) as [[rv wv] [Hin [Hrv _]]]; [rewrite Hrest; apply in_or_app; right; left; reflexivity|].
  cbn [fst] in Hrv. pose proof (indices_inj cands r0 rv is0 Ei Hrv) as <-.
  assert (Hex : existsb (plist_eqb r0) (map fst t) = true).
  { apply existsb_exists. exists r0. split; [exact (in_map fst _ _ Hin)|apply plist_eqb_refl]. }
  rewrite Hex in Hn1. discriminate.
Qed.

Lemma positions_weights : forall votes cands ps, positions votes cands = Some ps ->
  forallb (fun rw => weight_ok (snd rw)) votes = true -> Forall (fun rw => weight_ok (snd rw) = true) ps.
Proof.
  intros votes cands ps H. apply positions_spec in H. induction H as [|v p t ps' [_ Hs] _ IH]; intros Hw; [constructor|].
  cbn [forallb] in Hw. apply andb_true_iff in Hw. destruct Hw as [H1 H2]. constructor; [rewrite Hs; exact H1|exact (IH H2)].
Qed.

Lemma positions_ranges : forall votes cands ps, positions votes cands = Some ps ->
  Forall (fun rw => Forall (fun i => 1 <= i <= Z.of_nat (length cands)) (fst rw)) ps.
Proof.
  intros votes cands ps H. apply positions_spec in H.
  induction H as [|v p t ps' [Hi _] _ IH]; constructor; [exact (indices_range cands _ _ Hi)|exact IH].
Qed.

Theorem blt_roundtrip : forall e x, wf_election e = true -> expected e = Some x ->
  exists ls, dump_lines false e = DumpOk ls /\ load_lines false false ls = Ok x.
Proof.
  intros [[[votes seats] cands] title] x Hwf Hex. unfold expected in Hex.
  destruct (positions votes cands) as [ps|] eqn:Ep; [|discriminate]. inversion Hex; subst x. clear Hex.
  unfold wf_election in Hwf.
  apply andb_true_iff in Hwf. destruct Hwf as [Hwf Hseats]. apply andb_true_iff in Hwf. destruct Hwf as [Hwf Hw].
  apply andb_true_iff in Hwf. destruct Hwf as [Hwf Hnd]. apply Z.leb_le in Hseats.
  unfold dump_lines. rewrite (positions_dump votes cands ps Ep). eexists. split; [reflexivity|].
  unfold load_lines.
  assert (Hh : parse_numline false false (LToks [ztok (Z.of_nat (length cands)); ztok seats])
               = Ok [inject_Z (Z.of_nat (length cands)); inject_Z seats]).
  { unfold ztok. replace (0 <=? Z.of_nat (length cands)) with true by (symmetry; apply Z.leb_le; lia).
    replace (0 <=? seats) with true by (symmetry; apply Z.leb_le; lia). reflexivity. }
  rewrite Hh. cbn [Qnum inject_Z].
  rewrite body_withdrawn by (eapply Forall_impl; [|apply withdrawn_inds_ge]; intros a Ha; exact Ha).
  match goal with
  | |- context [parse_body false false (map bline ps ++ ?R) [] ?W false] =>
      destruct (body_ballots ps R [] W false (positions_weights votes cands ps Ep Hw)) as [enc' Hb]
  end.
  { intros pre r w post Heq. simpl in Heq. eapply positions_distinct; eauto. }
  rewrite Hb. cbn [app]. rewrite body_end.
  assert (Hnm : forall l : list cand,
            map (fun c : positive * str * bool => let (y, _) := c in let (_, name) := y in LQuoted name) l
            = map LQuoted (cand_names l)).
  { intros l. unfold cand_names. rewrite map_map. apply map_ext. intros [[c nm] w]. reflexivity. }
  rewrite Hnm.
  replace (Z.of_nat (length cands)) with (Z.of_nat (length (cand_names cands))) by (unfold cand_names; now rewrite map_length).
  rewrite parse_strings_written.
  assert (Hcn : match match cand_names cands with [] => None | _ :: _ => Some (cand_names cands) end with
                | Some l => map Named l
                | None => numbered (Z.to_nat (Z.of_nat (length (cand_names cands)))) 1
                end = map Named (cand_names cands)).
  { destruct (cand_names cands); reflexivity. }
  rewrite Hcn.
  pose proof (form_cands_written cands 0 [] (Forall_nil _)) as Hf. simpl app in Hf. change (0 + 1) with 1 in Hf.
  rewrite Hf.
  replace (Z.of_nat (length (cand_loaded cands))) with (Z.of_nat (length cands)) by (unfold cand_loaded; now rewrite map_length).
  rewrite (deindex_ok _ ps (positions_ranges votes cands ps Ep)). reflexivity.
Qed.
