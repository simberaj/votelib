(* Scale invariance (C11): multiplying every vote count by the same positive rational leaves the
   outcome of get_n_best, of the highest-averages loop and of the win/loss based Condorcet
   evaluators unchanged.  Everything is exact arithmetic in Q / Z: there is no magnitude at which
   the statements stop holding. *)
From Coq Require Import ZArith QArith List Bool Lia Lqa Permutation.
From VL Require Import Prelude.PyDict Model.GetNBest Model.HighestAverages Model.Condorcet
     Proofs.Dict_proofs Proofs.GetNBest_proofs Proofs.QOrd Proofs.LRScale_proofs.
Import ListNotations.

Definition graph {V W} (g : V -> W) (a : V) (a' : W) : Prop := a' = g a.

Section GNBmap.
  Context {C V W : Type}.
  Variable leb : V -> V -> bool.
  Variable leb' : W -> W -> bool.
  Variable g : V -> W.
  Hypothesis g_emb : forall a b, leb' (g a) (g b) = leb a b.

  Definition mapv (l : list (C * V)) : list (C * W) := map (fun cv => (fst cv, g (snd cv))) l.

  (* [mapv l] is the one list related to [l] by the graph of g *)
  Lemma graph_emb a a' b b' : graph g a a' -> graph g b b' -> leb' a' b' = leb a b.
  Proof. unfold graph. intros -> ->. apply g_emb. Qed.

  Lemma lrel_mapv l : lrel (graph g) l (mapv l).
  Proof. apply lrel_map_snd. reflexivity. Qed.

  Lemma lrel_mapv_eq l l' : lrel (graph g) l l' -> l' = mapv l.
  Proof.
    intros H. induction H as [|[c v] [c' v'] l l' [Hc Hv] _ IH]; cbn [mapv map]; [reflexivity|].
    cbn [fst snd] in Hc, Hv |- *. unfold graph in Hv. subst c' v'. f_equal. exact IH.
  Qed.

  Lemma sort_desc_map l : sort_desc leb' (mapv l) = mapv (sort_desc leb l).
  Proof. apply lrel_mapv_eq, (sort_desc_rel leb leb' (graph g) graph_emb), lrel_mapv. Qed.

  Theorem get_n_best_map votes n : get_n_best leb' (mapv votes) n = get_n_best leb votes n.
  Proof. apply (get_n_best_rel leb leb' (graph g) graph_emb), lrel_mapv. Qed.
End GNBmap.

Definition scaleq (k : Q) (votes : list (C * Q)) : list (C * Q) := mapv (Qmult k) votes.

Theorem get_n_best_scale (k : Q) votes n : (0 < k)%Q ->
  get_n_best Qle_bool (scaleq k votes) n = get_n_best Qle_bool votes n.
Proof. intros Hk. apply get_n_best_map. intros a b. apply (qsc_le k Hk); apply Qeq_refl. Qed.

Section HAscale.
  Variable d : Z -> Q.
  Variable k : Q.
  Hypothesis Hk : (0 < k)%Q.
  Variable votes : list (C * Q).
  Variable caps : list (C * Z).
  Variable n : Z.
  Notation votes' := (scaleq k votes).

  (* related quotient items: same party, quotient multiplied by k (as rationals) *)
  Definition irel (a b : qitem) : Prop := fst a = fst b /\ (snd b == k * snd a)%Q.
  Definition qrel (l l' : list qitem) : Prop := Forall2 irel l l'.

  Lemma qrel_length l l' : qrel l l' -> length l = length l'.
  Proof. apply F2_length. Qed.

  Lemma insert_after_ge_rel x x' l l' : irel x x' -> qrel l l' ->
    qrel (insert_after_ge x l) (insert_after_ge x' l').
  Proof.
    intros Hx H. induction H as [|a b l l' Hab Hl IH]; simpl; [constructor; [exact Hx|constructor]|].
    rewrite (qsc_le k Hk _ _ _ _ (proj2 Hx) (proj2 Hab)).
    destruct (Qle_bool (snd x) (snd a)); constructor; auto.
  Qed.

  Lemma insert_asc_rel x x' l l' : irel x x' -> qrel l l' ->
    qrel (insert_asc Qle_bool x l) (insert_asc Qle_bool x' l').
  Proof.
    intros Hx H. induction H as [|a b l l' Hab Hl IH]; simpl; [constructor; [exact Hx|constructor]|].
    rewrite (qsc_le k Hk _ _ _ _ (proj2 Hx) (proj2 Hab)).
    destruct (Qle_bool (snd x) (snd a)); constructor; auto.
  Qed.

  Lemma sort_asc_rel l l' : qrel l l' -> qrel (sort_asc Qle_bool l) (sort_asc Qle_bool l').
  Proof. induction 1 as [|a b l l' Hab _ IH]; simpl; [constructor|]. apply insert_asc_rel; assumption. Qed.

  Lemma run_length_rel m m' l l' : (m' == k * m)%Q -> qrel l l' -> run_length m' l' = run_length m l.
  Proof.
    intros Hm H. induction H as [|a b l l' Hab _ IH]; simpl; [reflexivity|].
    rewrite (qsc_eq k Hk _ _ _ _ (proj2 Hab) Hm). destruct (Qeq_bool (snd a) m); [rewrite IH|]; reflexivity.
  Qed.

  Lemma dget_scale c : dget votes' c = option_map (Qmult k) (dget votes c).
  Proof.
    unfold scaleq, mapv. induction votes as [|[c0 v] vs IH]; simpl; [reflexivity|].
    destruct (ceqb c c0); [reflexivity|exact IH].
  Qed.

  Lemma quot_scale v t : ((k * v) / d t == k * (v / d t))%Q.
  Proof. unfold Qdiv. ring. Qed.

  Lemma pop_reinsert_rel totals : forall j qs qs', qrel qs qs' ->
    qrel (pop_reinsert d votes caps n totals j qs) (pop_reinsert d votes' caps n totals j qs').
  Proof.
    induction j as [|j IH]; intros qs qs' H; simpl; [exact H|].
    destruct H as [|[c x] [c' x'] rest rest' [Hc _] Hrest]; [constructor|]. simpl in Hc. subst c'.
    apply IH. destruct (dget_or totals c 0 <? cap_of caps n c)%Z; [|exact Hrest].
    rewrite dget_scale. destruct (dget votes c) as [v|]; simpl; [|exact Hrest].
    apply insert_after_ge_rel; [|exact Hrest]. split; [reflexivity|]. simpl. apply quot_scale.
  Qed.

  (* related states: identical except that every quotient is multiplied by k *)
  Definition srel (s s' : state) : Prop :=
    qrel (st_qs s) (st_qs s') /\ st_totals s = st_totals s' /\ st_rem s = st_rem s' /\
    st_tie s = st_tie s' /\ qrel (st_awards s) (st_awards s').

  Lemma step_rel s s' : srel s s' -> srel (step d votes caps n s) (step d votes' caps n s').
  Proof.
    intros (Hq & Ht & Hr & Hti & Ha). unfold step.
    remember (st_qs s) as q0 eqn:E0. remember (st_qs s') as q0' eqn:E0'.
    destruct Hq as [|[c0 m] [c0' m'] qs qs' Hhd Htl].
    - unfold srel. rewrite <- E0, <- E0'. repeat split; auto. constructor.
    - cbv zeta.
      assert (Hqq : qrel (@cons qitem (c0, m) qs) (@cons qitem (c0', m') qs')) by (constructor; assumption).
      assert (Hm : (m' == k * m)%Q) by (destruct Hhd as [_ Hm]; exact Hm).
      rewrite (run_length_rel m m' _ _ Hm Hqq).
      set (j := run_length m (@cons qitem (c0, m) qs)).
      rewrite <- Hr, <- Ht.
      pose proof (Forall2_rev _ _ _ (Forall2_firstn _ j _ _ Hqq)) as Hrb.
      rewrite (lrel_keys (qsc k) _ _ Hrb).
      destruct (Z.of_nat j <=? st_rem s)%Z; unfold srel; cbn [st_qs st_totals st_rem st_tie st_awards].
      + split; [apply pop_reinsert_rel; exact Hqq|]. repeat split; auto. apply Forall2_app; assumption.
      + split; [apply pop_reinsert_rel; exact Hqq|]. repeat split; auto.
  Qed.

  Lemma loop_rel fuel : forall s s', srel s s' ->
    srel (loop d votes caps n fuel s) (loop d votes' caps n fuel s').
  Proof.
    induction fuel as [|f IH]; intros s s' H; simpl; [exact H|].
    destruct H as (Hq & Ht & Hr & Hti & Ha). rewrite <- Hr.
    assert (Hempty : match st_qs s' with [] => true | _ => false end = match st_qs s with [] => true | _ => false end).
    { destruct Hq; reflexivity. }
    rewrite Hempty.
    destruct ((0 <? st_rem s)%Z && negb match st_qs s with [] => true | _ => false end).
    - apply IH, step_rel. repeat split; assumption.
    - repeat split; assumption.
  Qed.

  Lemma initial_rel prev : qrel (initial_quotients d votes prev caps n) (initial_quotients d votes' prev caps n).
  Proof.
    unfold initial_quotients. apply Forall2_rev, sort_asc_rel.
    unfold scaleq, mapv. induction votes as [|[c v] vs IH]; simpl; [constructor|].
    destruct (Qle_bool (d (dget_or prev c 0%Z)) 0); [exact IH|].
    destruct (dget_or prev c 0 <? cap_of caps n c)%Z; [|exact IH].
    simpl. constructor; [|exact IH]. split; [reflexivity|]. simpl. apply quot_scale.
  Qed.

  Lemma final_rel prev : srel (final_state d votes n prev caps) (final_state d votes' n prev caps).
  Proof.
    unfold final_state. cbn [init_state st_rem]. apply loop_rel.
    unfold init_state, srel. cbn [st_qs st_totals st_rem st_tie st_awards].
    split; [apply initial_rel|]. repeat split; auto. constructor.
  Qed.

  Theorem ha_scale prev : evaluate d votes' n prev caps = evaluate d votes n prev caps.
  Proof.
    unfold evaluate. pose proof (initial_rel prev) as Hi. pose proof (final_rel prev) as (_ & Ht & _ & Hti & _).
    destruct Hi as [|a b l l' _ _]; [reflexivity|]. rewrite <- Ht, <- Hti. reflexivity.
  Qed.
End HAscale.

Definition scalez (k : Z) (v : pvotes) : pvotes := map (fun pn => (fst pn, (k * snd pn)%Z)) v.

Section PWscale.
  Variable k : Z.
  Hypothesis Hk : (0 < k)%Z.

  Lemma pget_scale v p : pget (scalez k v) p = option_map (Z.mul k) (pget v p).
  Proof.
    unfold scalez. induction v as [|[p0 m] v IH]; simpl; [reflexivity|].
    destruct (peqb p p0); [reflexivity|exact IH].
  Qed.

  Lemma pget0_scale v p : pget0 (scalez k v) p = (k * pget0 v p)%Z.
  Proof. unfold pget0. rewrite pget_scale. destruct (pget v p); simpl; lia. Qed.

  Lemma candidates_scale v : candidates (scalez k v) = candidates v.
  Proof.
    unfold candidates, scalez. generalize (@nil C) as acc.
    induction v as [|[p m] v IH]; intros acc; simpl; [reflexivity|]. apply IH.
  Qed.

  Lemma filter_map_fst {X Y} (g : X * Y -> X * Y) (f f' : X * Y -> bool) (l : list (X * Y)) :
    (forall x, f (g x) = f' x) -> (forall x, fst (g x) = fst x) ->
    map fst (filter f (map g l)) = map fst (filter f' l).
  Proof.
    intros Hf Hg. induction l as [|x l IH]; [reflexivity|]. cbn [map filter]. rewrite Hf.
    destruct (f' x); cbn [map]; rewrite IH; [rewrite Hg|]; reflexivity.
  Qed.

  Definition winf (v0 : pvotes) (ties : bool) (pn : pair * Z) : bool :=
    let anti := pget0 v0 (swap (fst pn)) in (anti <? snd pn)%Z || (ties && (anti =? snd pn)%Z).

  Lemma winf_scale v0 ties pn : winf (scalez k v0) ties (fst pn, (k * snd pn)%Z) = winf v0 ties pn.
  Proof.
    destruct pn as [p m]. unfold winf. cbn [fst snd]. rewrite pget0_scale.
    rewrite (Zltb_scale k Hk), (Zeqb_scale k Hk). reflexivity.
  Qed.

  Theorem pairwise_wins_scale v ties : pairwise_wins (scalez k v) ties = pairwise_wins v ties.
  Proof.
    unfold pairwise_wins. change (map fst (filter (winf (scalez k v) ties) (scalez k v)) = map fst (filter (winf v ties) v)).
    unfold scalez at 2. apply filter_map_fst; [intros x; apply winf_scale|reflexivity].
  Qed.

  Theorem condorcet_winner_scale v : condorcet_winner (scalez k v) = condorcet_winner v.
  Proof. unfold condorcet_winner, beat_counts. rewrite pairwise_wins_scale, candidates_scale. reflexivity. Qed.

  Theorem copeland_scale so v n : copeland so (scalez k v) n = copeland so v n.
  Proof. unfold copeland. rewrite pairwise_wins_scale, candidates_scale. reflexivity. Qed.

  Lemma map_flat_map_l {X Y Z0} (g : Y -> Z0) (f : X -> list Y) (l : list X) :
    map g (flat_map f l) = flat_map (fun x => map g (f x)) l.
  Proof. induction l as [|x l IH]; simpl; [reflexivity|]. rewrite map_app, IH. reflexivity. Qed.

  Lemma complete_scale v : complete (scalez k v) = scalez k (complete v).
  Proof.
    unfold complete. rewrite candidates_scale. set (cs := candidates v).
    unfold scalez at 2. rewrite map_flat_map_l. apply flat_map_ext. intros c1.
    rewrite map_flat_map_l. apply flat_map_ext. intros c2.
    destruct (ceqb c1 c2); simpl; [reflexivity|]. rewrite pget0_scale. reflexivity.
  Qed.

  Theorem smith_schwartz_scale v ties : smith_schwartz (scalez k v) ties = smith_schwartz v ties.
  Proof. unfold smith_schwartz. rewrite complete_scale, pairwise_wins_scale. reflexivity. Qed.
End PWscale.

Lemma tie_member_level (votes : list (C * Q)) thr c v : NoDup (map fst votes) -> In (c, v) votes ->
  (In c (map fst (filter (fun it => eqv Qle_bool (snd it) thr) votes)) <-> (v == thr)%Q).
Proof.
  intros Hnd Hin. rewrite <- eqv_Qeq. split.
  - intros H. apply in_map_iff in H. destruct H as ([c' v'] & Hf & Hin'). simpl in Hf. subst c'.
    apply filter_In in Hin'. destruct Hin' as [Hin' He]. simpl in He.
    rewrite (NoDup_fst_eq votes c v v' Hnd Hin Hin'). exact He.
  - intros H. apply in_map_iff. exists (c, v). split; [reflexivity|]. apply filter_In. split; assumption.
Qed.
