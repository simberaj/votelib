(* Allocated score (Model/AllocScore.v): one round elects the candidate with the strictly greatest weighted
   score sum and removes exactly one quota of ballot weight from its strongest supporters first (or all of
   its supporters' weight when they hold less), for every round of the run.  Exact crash condition of the
   subtraction loop. *)
From Coq Require Import ZArith QArith Qminmax Qround List Bool Arith Lia Lqa Permutation.
From VL Require Import Prelude.PyDict Model.GetNBest Model.Convert Model.Quota Model.AllocScore
     Proofs.GetNBest_proofs Proofs.QOrd Proofs.Dict_proofs Proofs.JR_proofs.
Import ListNotations.
Open Scope Q_scope.

Definition wtotal (cur : wprofile) : Q := lsum (fun bw : sballot * Q => snd bw) cur.
(* the supporters of [c]: the ballots that score it (at any level) *)
Definition asupport (c : C) (cur : wprofile) : Q :=
  lsum (fun bw : sballot * Q => if dmem (fst bw) c then snd bw else 0) cur.
Definition wpos (cur : wprofile) : Prop := Forall (fun bw : sballot * Q => 0 < snd bw) cur.
Definition wposb (cur : wprofile) : bool := forallb (fun bw : sballot * Q => negb (Qle_bool (snd bw) 0)) cur.
Definition has_empty (cur : wprofile) : Prop := exists bw, In bw cur /\ fst bw = [].
Definition no_supporters (c : C) (cur : wprofile) : Prop := forall bw, In bw cur -> dget (fst bw) c = None.
Definition all_support (c : C) (cur : wprofile) : Prop := forall bw, In bw cur -> dget (fst bw) c <> None.
Definition has_score (c : C) (cur : wprofile) (t : Q) : Prop :=
  exists bw s, In bw cur /\ dget (fst bw) c = Some s /\ s == t.
Definition maxsc (c : C) (cur : wprofile) (T : Q) : Prop :=
  forall bw s, In bw cur -> dget (fst bw) c = Some s -> s <= T.

Lemma wposb_iff cur : wposb cur = true <-> wpos cur.
Proof.
  unfold wposb, wpos. rewrite forallb_forall, Forall_forall. split; intros H bw Hin; specialize (H bw Hin).
  - apply negb_true_iff, Qle_bool_false in H. exact H.
  - apply negb_true_iff, Qle_bool_false, H.
Qed.

(* the profile after [c]'s supporters above level [t] are exhausted, those at [t] keep the share [f] of their
   weight (nothing when f = 0), everybody else keeps all of it *)
Definition cut_one (c : C) (t f : Q) (bw : sballot * Q) : list (sballot * Q) :=
  match dget (fst bw) c with
  | None => [bw]
  | Some s => if Qle_bool s t then
                if Qeq_bool s t then (if Qeq_bool f 0 then [] else [(fst bw, Qred (snd bw * f))]) else [bw]
              else []
  end.
Definition cut_at (c : C) (t f : Q) (cur : wprofile) : wprofile := flat_map (cut_one c t f) cur.

Lemma qsum_filter_lsum (p : sballot * Q -> bool) cur :
  qsum (map snd (filter p cur)) == lsum (fun bw => if p bw then snd bw else 0) cur.
Proof.
  rewrite qsum_lsum, lsum_map. induction cur as [|bw cur IH]; [reflexivity|].
  cbn [filter]. rewrite lsum_cons. destruct (p bw); [rewrite lsum_cons|]; lra.
Qed.

Lemma lsum_filter_split (g : sballot * Q -> Q) (p : sballot * Q -> bool) cur :
  lsum g cur == lsum g (filter (fun bw => negb (p bw)) cur) + lsum (fun bw => if p bw then g bw else 0) cur.
Proof.
  induction cur as [|bw cur IH]; [simpl; lra|].
  cbn [filter]. rewrite !lsum_cons. destruct (p bw); cbn [negb]; [|rewrite lsum_cons]; lra.
Qed.

Lemma wtotal_filter_split (p : sballot * Q -> bool) cur :
  wtotal cur == wtotal (filter (fun bw => negb (p bw)) cur) + lsum (fun bw => if p bw then snd bw else 0) cur.
Proof. apply (lsum_filter_split (fun bw => snd bw)). Qed.

Lemma lsum_nonneg_pos {X} (f : X -> Q) l : (forall x, In x l -> 0 <= f x) -> 0 <= lsum f l.
Proof.
  induction l as [|x l IH]; intros H; [simpl; lra|]. rewrite lsum_cons.
  pose proof (H x (or_introl eq_refl)). assert (0 <= lsum f l) by (apply IH; intros y Hy; apply H; right; exact Hy). lra.
Qed.

Lemma lsum_pos_in {X} (f : X -> Q) l x : (forall y, In y l -> 0 <= f y) -> In x l -> 0 < f x -> 0 < lsum f l.
Proof.
  induction l as [|y l IH]; intros H Hin Hx; [destruct Hin|]. rewrite lsum_cons.
  assert (Hl : 0 <= lsum f l) by (apply lsum_nonneg_pos; intros z Hz; apply H; right; exact Hz).
  pose proof (H y (or_introl eq_refl)). destruct Hin as [->|Hin]; [lra|].
  assert (0 < lsum f l) by (apply IH; [intros z Hz; apply H; right; exact Hz|exact Hin|exact Hx]). lra.
Qed.

Lemma qmin_le_l a b : qmin a b <= a.
Proof. unfold qmin. destruct (Qle_bool b a) eqn:E; [apply Qle_bool_iff in E; exact E|lra]. Qed.
Lemma qmin_le_r a b : qmin a b <= b.
Proof.
  unfold qmin. destruct (Qle_bool b a) eqn:E; [lra|]. apply Qle_bool_false in E. lra.
Qed.

Lemma fold_qmin_le l : forall x, fold_left qmin l x <= x /\ forall y, In y l -> fold_left qmin l x <= y.
Proof.
  induction l as [|z l IH]; intros x; cbn [fold_left]; [split; [lra|intros y []]|].
  destruct (IH (qmin x z)) as [H1 H2]. pose proof (qmin_le_l x z). pose proof (qmin_le_r x z). split; [lra|].
  intros y [->|Hy]; [lra|apply H2, Hy].
Qed.

Lemma min_list_le l m : min_list l = Some m -> forall y, In y l -> m <= y.
Proof.
  destruct l as [|x l]; [discriminate|]. cbn [min_list]. intros [= <-] y Hy.
  destruct (fold_qmin_le l x) as [H1 H2]. destruct Hy as [<-|Hy]; [exact H1|exact (H2 y Hy)].
Qed.

Lemma min_list_in l m : min_list l = Some m -> In m l.
Proof.
  destruct l as [|x l]; [discriminate|]. cbn [min_list]. intros [= <-]. revert x.
  induction l as [|z l IH]; intros x; cbn [fold_left]; [left; reflexivity|].
  destruct (IH (qmin x z)) as [H|H]; [|right; right; exact H].
  unfold qmin in H at 1. destruct (Qle_bool z x); [right; left; exact H|left; exact H].
Qed.

Lemma min_list_none l : min_list l = None <-> l = [].
Proof. destruct l; cbn; split; congruence. Qed.

Lemma ballot_mins_some cur l : ballot_mins cur = Some l ->
  length l = length cur /\ (forall bw, In bw cur -> fst bw <> []) /\
  forall bw p, In bw cur -> In p (fst bw) -> exists m, In m l /\ m <= snd p.
Proof.
  revert l. induction cur as [|bw cur IH]; intros l; cbn [ballot_mins].
  - intros [= <-]. split; [reflexivity|]. split; intros ? ? []; contradiction.
  - destruct (min_list (map snd (fst bw))) as [m|] eqn:Em; [|discriminate].
    destruct (ballot_mins cur) as [r|]; [|discriminate]. intros [= <-].
    destruct (IH r eq_refl) as (Hl & Hne & Hle). split; [simpl; congruence|]. split.
    + intros bw' [<-|Hin]; [intros E; rewrite E in Em; discriminate|apply Hne, Hin].
    + intros bw' p [<-|Hin] Hp.
      * exists m. split; [left; reflexivity|]. apply (min_list_le _ _ Em). apply in_map, Hp.
      * destruct (Hle bw' p Hin Hp) as (m' & Hm' & Hle'). exists m'. split; [right; exact Hm'|exact Hle'].
Qed.

Lemma ballot_mins_none cur : ballot_mins cur = None -> has_empty cur.
Proof.
  induction cur as [|bw cur IH]; cbn [ballot_mins]; [discriminate|].
  destruct (min_list (map snd (fst bw))) as [m|] eqn:Em.
  - destruct (ballot_mins cur); [discriminate|]. intros _. destruct (IH eq_refl) as (bw' & Hin & He).
    exists bw'. split; [right; exact Hin|exact He].
  - intros _. apply min_list_none in Em. exists bw. split; [left; reflexivity|].
    destruct (fst bw); [reflexivity|discriminate].
Qed.

(* the bootstrap value: defined exactly when there is a ballot and no ballot is empty; below every score *)
Lemma overall_min_some cur m : overall_min cur = Some m ->
  cur <> [] /\ ~ has_empty cur /\ forall bw p, In bw cur -> In p (fst bw) -> m <= snd p.
Proof.
  unfold overall_min. destruct (ballot_mins cur) as [l|] eqn:E; [|discriminate]. intros Hm.
  destruct (ballot_mins_some cur l E) as (Hl & Hne & Hle). split; [|split].
  - intros ->. destruct l; [discriminate|discriminate].
  - intros (bw & Hin & He). exact (Hne bw Hin He).
  - intros bw p Hin Hp. destruct (Hle bw p Hin Hp) as (m' & Hm' & Hle'). pose proof (min_list_le _ _ Hm m' Hm'). lra.
Qed.

Lemma overall_min_none cur : overall_min cur = None -> cur = [] \/ has_empty cur.
Proof.
  unfold overall_min. destruct (ballot_mins cur) as [l|] eqn:E; [|intros _; right; apply ballot_mins_none, E].
  intros Hm. apply min_list_none in Hm. subst l. destruct (ballot_mins_some cur [] E) as (Hl & _).
  left. destruct cur; [reflexivity|discriminate].
Qed.

Definition bs_next (c : C) (bs : Q) (bw : sballot * Q) : Q :=
  match dget (fst bw) c with Some s => if Qle_bool s bs then bs else s | None => bs end.

Lemma bs_next_spec c bw bs0 :
  bs0 <= bs_next c bs0 bw /\ (forall s, dget (fst bw) c = Some s -> s <= bs_next c bs0 bw) /\
  (bs_next c bs0 bw = bs0 \/ dget (fst bw) c = Some (bs_next c bs0 bw)).
Proof.
  unfold bs_next. destruct (dget (fst bw) c) as [s|]; [|split; [lra|split; [discriminate|left; reflexivity]]].
  destruct (Qle_bool s bs0) eqn:E.
  - apply Qle_bool_iff in E. split; [lra|]. split; [intros ? [= <-]; exact E|left; reflexivity].
  - apply Qle_bool_false in E. split; [lra|]. split; [intros ? [= <-]; lra|right; reflexivity].
Qed.

Lemma best_score_fold c cur bs0 : best_score cur c bs0 = fold_left (bs_next c) cur bs0.
Proof. reflexivity. Qed.

Lemma best_score_spec c cur : forall bs0,
  let bs := best_score cur c bs0 in
  bs0 <= bs /\ maxsc c cur bs /\ (bs = bs0 \/ exists bw, In bw cur /\ dget (fst bw) c = Some bs).
Proof.
  intros bs0. cbv zeta. rewrite best_score_fold. unfold maxsc. revert bs0.
  induction cur as [|bw cur IH]; intros bs0; cbn [fold_left].
  - split; [lra|]. split; [intros ? ? []|left; reflexivity].
  - destruct (IH (bs_next c bs0 bw)) as (H1 & H2 & H3).
    destruct (bs_next_spec c bw bs0) as (Ha & Hb & Hc). split; [eapply Qle_trans; [exact Ha|exact H1]|]. split.
    + intros bw' s [<-|Hin] Hs; [eapply Qle_trans; [exact (Hb s Hs)|exact H1]|exact (H2 bw' s Hin Hs)].
    + destruct H3 as [H3|(bw' & Hin & Hs)].
      * destruct Hc as [Hc|Hc]; [left; rewrite H3; exact Hc|]. right. exists bw. split; [left; reflexivity|]. rewrite H3. exact Hc.
      * right. exists bw'. split; [right; exact Hin|exact Hs].
Qed.

Lemma dget_in_score (b : sballot) c s : dget b c = Some s -> In (c, s) b.
Proof. apply dget_In. Qed.

Lemma is_best_true c bs b : is_best c bs b = true <-> exists s, dget b c = Some s /\ s == bs.
Proof.
  unfold is_best. destruct (dget b c) as [s|].
  - rewrite Qeq_bool_iff. split; [intros H; exists s; split; [reflexivity|exact H]|intros (s' & [= <-] & H); exact H].
  - split; [discriminate|intros (s' & H & _); discriminate].
Qed.

Lemma Qeq_bool_false a b : Qeq_bool a b = false <-> ~ a == b.
Proof.
  split; intros H.
  - intros He. apply Qeq_bool_iff in He. congruence.
  - destruct (Qeq_bool a b) eqn:E; [apply Qeq_bool_iff in E; contradiction|reflexivity].
Qed.

Lemma cut_at_cons c t f bw cur : cut_at c t f (bw :: cur) = cut_one c t f bw ++ cut_at c t f cur.
Proof. reflexivity. Qed.

Lemma cut_at_no_supporters c t f cur : no_supporters c cur -> cut_at c t f cur = cur.
Proof.
  induction cur as [|bw cur IH]; intros H; [reflexivity|]. rewrite cut_at_cons, IH by (intros x Hx; apply H; right; exact Hx).
  unfold cut_one. rewrite (H bw (or_introl eq_refl)). reflexivity.
Qed.

Lemma cut_at_filter_top c t f bs cur : t < bs ->
  cut_at c t f (filter (fun bw => negb (is_best c bs (fst bw))) cur) = cut_at c t f cur.
Proof.
  intros Hlt. induction cur as [|bw cur IH]; [reflexivity|]. cbn [filter]. rewrite cut_at_cons, <- IH.
  destruct (is_best c bs (fst bw)) eqn:E; cbn [negb]; [|reflexivity].
  apply is_best_true in E. destruct E as (s & Hs & Heq). unfold cut_one. rewrite Hs.
  destruct (Qle_bool s t) eqn:E2; [|reflexivity]. apply Qle_bool_iff in E2. lra.
Qed.

Lemma filter_top_cut c bs cur : maxsc c cur bs ->
  filter (fun bw => negb (is_best c bs (fst bw))) cur = cut_at c bs 0 cur.
Proof.
  intros Hmax. induction cur as [|bw cur IH]; [reflexivity|]. cbn [filter]. rewrite cut_at_cons.
  rewrite IH by (intros x s Hx; apply Hmax; right; exact Hx).
  unfold cut_one, is_best. destruct (dget (fst bw) c) as [s|] eqn:Es; [|reflexivity].
  assert (Hle : s <= bs) by (apply (Hmax bw s (or_introl eq_refl) Es)). apply Qle_bool_iff in Hle. rewrite Hle.
  destruct (Qeq_bool s bs); reflexivity.
Qed.

Lemma scale_top_cut c bs fr cur : maxsc c cur bs -> ~ fr == 0 ->
  map (fun bw => if is_best c bs (fst bw) then (fst bw, Qred (snd bw * fr)) else bw) cur = cut_at c bs fr cur.
Proof.
  intros Hmax Hfr. induction cur as [|bw cur IH]; [reflexivity|]. cbn [map]. rewrite cut_at_cons.
  rewrite IH by (intros x s Hx; apply Hmax; right; exact Hx).
  unfold cut_one, is_best. destruct (dget (fst bw) c) as [s|] eqn:Es; [|reflexivity].
  assert (Hle : s <= bs) by (apply (Hmax bw s (or_introl eq_refl) Es)). apply Qle_bool_iff in Hle. rewrite Hle.
  rewrite (proj2 (Qeq_bool_false fr 0) Hfr). destruct (Qeq_bool s bs); reflexivity.
Qed.

Lemma cut_at_members c t f cur b' w' :
  In (b', w') (cut_at c t f cur) <->
  exists w, In (b', w) cur /\
    (   (dget b' c = None /\ w' = w)
     \/ (exists s, dget b' c = Some s /\ s < t /\ w' = w)
     \/ (exists s, dget b' c = Some s /\ s == t /\ ~ f == 0 /\ w' = Qred (w * f))).
Proof.
  unfold cut_at. rewrite in_flat_map. split.
  - intros ([b w] & Hin & Hc). unfold cut_one in Hc. cbn [fst snd] in Hc.
    destruct (dget b c) as [s|] eqn:Es.
    + destruct (Qle_bool s t) eqn:E1; [|destruct Hc]. apply Qle_bool_iff in E1.
      destruct (Qeq_bool s t) eqn:E2.
      * apply Qeq_bool_iff in E2. destruct (Qeq_bool f 0) eqn:E3; [destruct Hc|]. destruct Hc as [Hc|[]].
        injection Hc as <- <-. exists w. split; [exact Hin|]. right. right. exists s. repeat split; try assumption.
        apply Qeq_bool_false, E3.
      * destruct Hc as [Hc|[]]. injection Hc as <- <-. exists w. split; [exact Hin|]. right. left. exists s.
        repeat split; try assumption. apply Qle_lt_or_eq in E1. destruct E1 as [E1|E1]; [exact E1|].
        apply Qeq_bool_iff in E1. congruence.
    + destruct Hc as [Hc|[]]. injection Hc as <- <-. exists w. split; [exact Hin|]. left. split; [exact Es|reflexivity].
  - intros (w & Hin & Hcase). exists (b', w). split; [exact Hin|]. unfold cut_one. cbn [fst snd].
    destruct Hcase as [(Hn & ->)|[(s & Hs & Hlt & ->)|(s & Hs & Heq & Hf & ->)]].
    + rewrite Hn. left. reflexivity.
    + rewrite Hs. assert (H1 : Qle_bool s t = true) by (apply Qle_bool_iff; lra). rewrite H1.
      destruct (Qeq_bool s t) eqn:E; [apply Qeq_bool_iff in E; lra|left; reflexivity].
    + rewrite Hs. assert (H1 : Qle_bool s t = true) by (apply Qle_bool_iff; lra). rewrite H1.
      rewrite (proj2 (Qeq_bool_iff s t) Heq), (proj2 (Qeq_bool_false f 0) Hf). left. reflexivity.
Qed.

Lemma cut_at_wpos c t f cur : 0 <= f -> wpos cur -> wpos (cut_at c t f cur).
Proof.
  intros Hf Hp. unfold wpos in *. rewrite Forall_forall in *. intros [b' w'] Hin.
  apply cut_at_members in Hin. destruct Hin as (w & Hin & Hcase). pose proof (Hp _ Hin) as Hw. cbn [snd] in *.
  destruct Hcase as [(_ & ->)|[(s & _ & _ & ->)|(s & _ & _ & Hf0 & ->)]]; try exact Hw.
  rewrite Qred_correct. apply Qmult_lt_0_compat; [exact Hw|]. apply Qle_lt_or_eq in Hf. destruct Hf as [Hf|Hf]; [exact Hf|].
  exfalso. apply Hf0. symmetry. exact Hf.
Qed.

Definition lvl (c : C) (bs : Q) (cur : wprofile) : Q :=
  lsum (fun bw : sballot * Q => if is_best c bs (fst bw) then snd bw else 0) cur.

Lemma is_best_dmem c bs b : is_best c bs b = true -> dmem b c = true.
Proof. unfold is_best, dmem. destruct (dget b c); [reflexivity|discriminate]. Qed.

Lemma wpos_in cur bw : wpos cur -> In bw cur -> 0 < snd bw.
Proof. unfold wpos. rewrite Forall_forall. intros H Hin. exact (H bw Hin). Qed.

Lemma lvl_le_support c bs cur : wpos cur -> lvl c bs cur <= asupport c cur.
Proof.
  intros Hp. apply lsum_le. intros bw Hin. pose proof (wpos_in _ _ Hp Hin).
  destruct (is_best c bs (fst bw)) eqn:E; [rewrite (is_best_dmem _ _ _ E); lra|].
  destruct (dmem (fst bw) c); lra.
Qed.

Lemma support_le_total c cur : wpos cur -> asupport c cur <= wtotal cur.
Proof.
  intros Hp. apply lsum_le. intros bw Hin. pose proof (wpos_in _ _ Hp Hin). destruct (dmem (fst bw) c); lra.
Qed.

Lemma support_nonneg c cur : wpos cur -> 0 <= asupport c cur.
Proof.
  intros Hp. apply lsum_nonneg_pos. intros bw Hin. pose proof (wpos_in _ _ Hp Hin). destruct (dmem (fst bw) c); lra.
Qed.

Lemma support_all c cur : all_support c cur -> asupport c cur == wtotal cur.
Proof.
  intros H. apply lsum_eq. intros bw Hin. specialize (H bw Hin). unfold dmem. destruct (dget (fst bw) c); [reflexivity|congruence].
Qed.

Lemma support_none c cur : no_supporters c cur -> asupport c cur == 0.
Proof.
  intros H. unfold asupport. rewrite (lsum_eq _ (fun _ => 0)).
  - rewrite lsum_const. lra.
  - intros bw Hin. unfold dmem. rewrite (H bw Hin). reflexivity.
Qed.

Lemma wtotal_filter_top c bs cur :
  wtotal (filter (fun bw => negb (is_best c bs (fst bw))) cur) == wtotal cur - lvl c bs cur.
Proof.
  unfold lvl. rewrite (wtotal_filter_split (fun bw => is_best c bs (fst bw)) cur). lra.
Qed.

Lemma support_filter_top c bs cur :
  asupport c (filter (fun bw => negb (is_best c bs (fst bw))) cur) == asupport c cur - lvl c bs cur.
Proof.
  unfold asupport. rewrite (lsum_filter_split (fun bw => if dmem (fst bw) c then snd bw else 0) (fun bw => is_best c bs (fst bw)) cur).
  assert (H : lsum (fun bw : sballot * Q => if is_best c bs (fst bw) then if dmem (fst bw) c then snd bw else 0 else 0) cur == lvl c bs cur).
  { apply lsum_eq. intros bw _. destruct (is_best c bs (fst bw)) eqn:E; [rewrite (is_best_dmem _ _ _ E)|]; reflexivity. }
  rewrite H. lra.
Qed.

Lemma wtotal_scale_top c bs fr cur :
  wtotal (map (fun bw : sballot * Q => if is_best c bs (fst bw) then (fst bw, Qred (snd bw * fr)) else bw) cur)
  == wtotal cur - lvl c bs cur + lvl c bs cur * fr.
Proof.
  unfold wtotal, lvl. induction cur as [|bw cur IH]; [simpl; lra|]. cbn [map]. rewrite !lsum_cons.
  destruct (is_best c bs (fst bw)); cbn [snd]; [rewrite Qred_correct|]; lra.
Qed.

Lemma wpos_filter p cur : wpos cur -> wpos (filter p cur).
Proof.
  unfold wpos. rewrite !Forall_forall. intros H bw Hin. apply filter_In in Hin. apply H, Hin.
Qed.

Lemma lvl_pos_iff c bs cur : wpos cur -> (0 < lvl c bs cur <-> has_score c cur bs).
Proof.
  intros Hp. split.
  - clear Hp. unfold lvl. induction cur as [|bw cur IH]; [cbn; lra|]. rewrite lsum_cons.
    destruct (is_best c bs (fst bw)) eqn:E.
    + intros _. apply is_best_true in E. destruct E as (s & Hs & He). exists bw, s. split; [left; reflexivity|auto].
    + intros Hl. destruct IH as (bw' & s & Hin & Hs); [lra|]. exists bw', s. split; [right; exact Hin|exact Hs].
  - intros (bw & s & Hin & Hs & He). apply (lsum_pos_in _ cur bw); [|exact Hin|].
    + intros y Hy. pose proof (wpos_in _ _ Hp Hy). destruct (is_best c bs (fst y)); lra.
    + assert (E : is_best c bs (fst bw) = true) by (apply is_best_true; exists s; auto). rewrite E. exact (wpos_in _ _ Hp Hin).
Qed.

Lemma lvl_nonneg c bs cur : wpos cur -> 0 <= lvl c bs cur.
Proof.
  intros Hp. apply lsum_nonneg_pos. intros bw Hin. pose proof (wpos_in _ _ Hp Hin). destruct (is_best c bs (fst bw)); lra.
Qed.

Lemma filter_top_shorter c bs cur : has_score c cur bs ->
  (length (filter (fun bw => negb (is_best c bs (fst bw))) cur) < length cur)%nat.
Proof.
  intros (bw & s & Hin & Hs & He). apply (filter_length_drop _ cur bw Hin).
  assert (E : is_best c bs (fst bw) = true) by (apply is_best_true; exists s; auto). rewrite E. reflexivity.
Qed.

Definition crash_cond (c : C) (cur : wprofile) (ss : Q) : Prop :=
  has_empty cur \/ (all_support c cur /\ wtotal cur < ss).

(* [mid] is [cur] after one quota [q] was taken from [c]'s strongest supporters: every supporter above some level
   t is exhausted, those at t keep the common share f < 1 (none of it when f = 0), everybody below t and every
   ballot that does not score [c] keeps its weight; the weight removed is min(q, weight of all supporters) *)
Definition removal_spec (c : C) (q : Q) (cur mid : wprofile) : Prop :=
  exists t f, mid = cut_at c t f cur /\ 0 <= f /\ f < 1 /\ (no_supporters c cur \/ has_score c cur t) /\
              wtotal mid == wtotal cur - Qmin q (asupport c cur).

Lemma removal_spec_wpos c q cur mid : wpos cur -> removal_spec c q cur mid -> wpos mid.
Proof. intros Hp (t & f & -> & Hf & _). apply cut_at_wpos; assumption. Qed.

Lemma removal_none c q cur : 0 < q -> no_supporters c cur -> removal_spec c q cur cur.
Proof.
  intros Hq Hns. exists 0, 0. split; [symmetry; apply cut_at_no_supporters, Hns|]. split; [lra|]. split; [lra|].
  split; [left; exact Hns|]. rewrite (support_none c cur Hns), Q.min_r; lra.
Qed.

(* one level of the loop, the top level [bs] of [c]'s supporters weighing [lvl c bs cur]: it goes whole when the
   quota covers it, and what is then taken below it completes the removal; otherwise it keeps an equal share *)
Lemma removal_top c bs q cur : wpos cur -> maxsc c cur bs -> has_score c cur bs -> q == lvl c bs cur ->
  removal_spec c q cur (filter (fun bw => negb (is_best c bs (fst bw))) cur).
Proof.
  intros Hp Hmax Hhas Hq. exists bs, 0. split; [apply filter_top_cut, Hmax|]. split; [lra|]. split; [lra|].
  split; [right; exact Hhas|]. pose proof (lvl_le_support c bs cur Hp). pose proof (wtotal_filter_top c bs cur).
  rewrite Q.min_l; lra.
Qed.

Lemma removal_below c bs q q1 cur mid : maxsc c cur bs -> has_score c cur bs -> q1 == q - lvl c bs cur ->
  removal_spec c q1 (filter (fun bw => negb (is_best c bs (fst bw))) cur) mid -> removal_spec c q cur mid.
Proof.
  intros Hmax Hhas Hq1 (t & f & Hcut & Hf0 & Hf1 & Hwhere & Htot).
  assert (Htot' : wtotal mid == wtotal cur - Qmin q (asupport c cur)).
  { pose proof (Q.plus_min_distr_r q (asupport c cur) (- lvl c bs cur)) as Hm.
    rewrite Htot, wtotal_filter_top, support_filter_top, Hq1. unfold Qminus at 2 3. rewrite Hm. lra. }
  destruct Hwhere as [Hns1|(bw1 & s1 & Hin1 & Hs1 & Heq1)].
  - exists bs, 0. split; [rewrite Hcut, (cut_at_no_supporters _ _ _ _ Hns1); apply filter_top_cut, Hmax|].
    split; [lra|]. split; [lra|]. split; [right; exact Hhas|exact Htot'].
  - apply filter_In in Hin1. destruct Hin1 as (Hin1 & Hnb1). apply negb_true_iff in Hnb1.
    unfold is_best in Hnb1. rewrite Hs1 in Hnb1. apply Qeq_bool_false in Hnb1.
    pose proof (Hmax bw1 s1 Hin1 Hs1) as Hle1.
    assert (Hlt : t < bs) by (apply Qle_lt_or_eq in Hle1; destruct Hle1 as [H|H]; [lra|contradiction]).
    exists t, f. split; [rewrite Hcut; apply cut_at_filter_top, Hlt|]. split; [exact Hf0|]. split; [exact Hf1|].
    split; [right; exists bw1, s1; auto|exact Htot'].
Qed.

Lemma removal_share c bs q fr cur : wpos cur -> maxsc c cur bs -> has_score c cur bs -> 0 < q -> q < lvl c bs cur ->
  fr == (lvl c bs cur - q) / lvl c bs cur ->
  removal_spec c q cur (map (fun bw => if is_best c bs (fst bw) then (fst bw, Qred (snd bw * fr)) else bw) cur).
Proof.
  intros Hp Hmax Hhas Hq Hlt Hfr.
  assert (Hfrl : lvl c bs cur * fr == lvl c bs cur - q) by (rewrite Hfr; field; lra).
  assert (Hfr0 : 0 < fr) by (rewrite Hfr; apply Qlt_shift_div_l; lra).
  assert (Hfr1 : fr < 1) by (rewrite Hfr; apply Qlt_shift_div_r; lra).
  exists bs, fr. split; [apply scale_top_cut; [exact Hmax|lra]|]. split; [lra|]. split; [exact Hfr1|].
  split; [right; exact Hhas|]. pose proof (lvl_le_support c bs cur Hp). pose proof (wtotal_scale_top c bs fr cur).
  rewrite Q.min_l; lra.
Qed.

Lemma crash_cond_below c bs q q1 cur : q1 == q - lvl c bs cur ->
  crash_cond c (filter (fun bw => negb (is_best c bs (fst bw))) cur) q1 <-> crash_cond c cur q.
Proof.
  intros Hq1. set (P1 := filter _ cur).
  assert (Hin1 : forall bw, In bw P1 <-> In bw cur /\ is_best c bs (fst bw) = false)
    by (intros bw; unfold P1; rewrite filter_In, negb_true_iff; reflexivity).
  assert (Hbest : forall bw : sballot * Q, is_best c bs (fst bw) = true -> dget (fst bw) c <> None)
    by (intros bw E; apply is_best_true in E; destruct E as (s & Hs & _); congruence).
  assert (He : has_empty P1 <-> has_empty cur).
  { split; intros (bw & Hin & E); exists bw; (split; [|exact E]); [apply Hin1, Hin|]. apply Hin1. split; [exact Hin|].
    unfold is_best. rewrite E. reflexivity. }
  assert (Ha : all_support c P1 <-> all_support c cur).
  { split; intros H bw Hin; [|apply H, Hin1, Hin]. destruct (is_best c bs (fst bw)) eqn:E; [apply Hbest, E|apply H, Hin1; auto]. }
  pose proof (wtotal_filter_top c bs cur) as Ht. fold P1 in Ht. unfold crash_cond.
  split; (intros [H|[H1 H2]]; [left; apply He, H|right; split; [apply Ha, H1|lra]]).
Qed.

Lemma fraction_out_nonpos fuel cur c ss : ss <= 0 -> fraction_out fuel cur c ss = inl cur.
Proof. intros H. apply Qle_bool_iff in H. destruct fuel; cbn [fraction_out]; rewrite H; reflexivity. Qed.

Lemma fraction_out_spec c : forall fuel cur ss, wpos cur -> (length cur < fuel)%nat -> 0 < ss ->
  match fraction_out fuel cur c ss with
  | inr AE_value => crash_cond c cur ss
  | inr _ => False
  | inl cur' =>
      ~ crash_cond c cur ss /\
      exists t f, cur' = cut_at c t f cur /\ 0 <= f /\ f < 1 /\ (no_supporters c cur \/ has_score c cur t) /\
                  wtotal cur' == wtotal cur - Qmin ss (asupport c cur)
  end.
Proof.
  induction fuel as [|fuel IH]; intros cur ss Hp Hfuel Hss; [lia|].
  cbn [fraction_out]. assert (E0 : Qle_bool ss 0 = false) by (apply Qle_bool_false; exact Hss). rewrite E0.
  destruct (overall_min cur) as [bs0|] eqn:Emin.
  2:{ apply overall_min_none in Emin. destruct Emin as [->|He]; [|left; exact He].
      right. split; [intros ? []|]. unfold wtotal. simpl. exact Hss. }
  destruct (overall_min_some cur bs0 Emin) as (Hne & Hnoempty & Hmin).
  destruct (best_score_spec c cur bs0) as (Hbs0 & Hmax & Hbs). cbv zeta in Hbs0, Hmax, Hbs.
  set (bs := best_score cur c bs0) in *.
  set (size := Qred (qsum (map snd (filter (fun bw : sballot * Q => is_best c bs (fst bw)) cur)))).
  assert (Hsize : size == lvl c bs cur).
  { unfold size. rewrite Qred_correct. apply (qsum_filter_lsum (fun bw => is_best c bs (fst bw))). }
  pose proof (lvl_nonneg c bs cur Hp) as Hl0. pose proof (support_le_total c cur Hp) as Hst.
  pose proof (lvl_le_support c bs cur Hp) as Hls. pose proof (lvl_pos_iff c bs cur Hp) as Hlvl.
  destruct (Qeq_bool size 0) eqn:Ez.
  - (* no more votes for the candidate: with the scan started at the overall minimum, nobody scores it *)
    apply Qeq_bool_iff in Ez.
    assert (Hns : no_supporters c cur).
    { intros bw Hin. destruct (dget (fst bw) c) as [s|] eqn:Es; [exfalso|reflexivity].
      assert (Hhas : has_score c cur bs); [|apply Hlvl in Hhas; lra].
      destruct Hbs as [Hbs|(bw' & Hin' & Hs')]; [|exists bw', bs; split; [exact Hin'|split; [exact Hs'|reflexivity]]].
      exists bw, s. split; [exact Hin|]. split; [exact Es|].
      pose proof (Hmin bw (c, s) Hin (dget_In _ _ _ Es)) as H1. cbn [snd] in H1. pose proof (Hmax bw s Hin Es) as H2.
      rewrite Hbs in *. apply Qle_antisym; assumption. }
    split; [|apply removal_none; assumption].
    intros [He|(Hall & _)]; [exact (Hnoempty He)|]. destruct cur as [|bw cur]; [congruence|].
    exact (Hall bw (or_introl eq_refl) (Hns bw (or_introl eq_refl))).
  - apply Qeq_bool_false in Ez. assert (Hhas : has_score c cur bs) by (apply Hlvl; lra).
    assert (Hnc : ss <= lvl c bs cur -> ~ crash_cond c cur ss) by (intros Hle [He|(_ & Hlt)]; [exact (Hnoempty He)|lra]).
    destruct (Qle_bool size ss) eqn:Ele.
    + (* remove all best votes, one more round *)
      apply Qle_bool_iff in Ele. set (P1 := filter (fun bw : sballot * Q => negb (is_best c bs (fst bw))) cur).
      pose proof (filter_top_shorter c bs cur Hhas) as Hlen. fold P1 in Hlen.
      assert (Hss1 : Qred (ss - size) == ss - lvl c bs cur) by (rewrite Qred_correct, Hsize; reflexivity).
      destruct (Qlt_le_dec 0 (Qred (ss - size))) as [Hpos1|Hnp1].
      * specialize (IH P1 (Qred (ss - size)) (wpos_filter _ _ Hp) ltac:(lia) Hpos1).
        destruct (fraction_out fuel P1 c (Qred (ss - size))) as [cur'|e].
        -- destruct IH as (Hnc1 & Hrem). split; [|exact (removal_below c bs ss _ cur cur' Hmax Hhas Hss1 Hrem)].
           intros Hc. apply Hnc1, (crash_cond_below c bs ss _ cur Hss1), Hc.
        -- destruct e; try contradiction. exact (proj1 (crash_cond_below c bs ss _ cur Hss1) IH).
      * rewrite (fraction_out_nonpos fuel P1 c _ Hnp1). split; [apply Hnc; lra|apply removal_top; try assumption; lra].
    + (* spread the subtraction across the best votes *)
      apply Qle_bool_false in Ele. split; [apply Hnc; lra|]. apply removal_share; try assumption; [lra|].
      rewrite Qred_correct, Hsize. reflexivity.
Qed.

Definition bscore (b : sballot) (x : C) : Q := lsum (fun p : C * Q => if ceqb x (fst p) then snd p else 0) b.
(* the weighted score sum of [x] over the remaining ballots *)
Definition wscore (cur : wprofile) (x : C) : Q := lsum (fun bw : sballot * Q => bscore (fst bw) x * snd bw) cur.
Definition scored (x : C) (cur : wprofile) : Prop := exists bw, In bw cur /\ dmem (fst bw) x = true.

(* [scored] as a boolean: what the dictionaries of a round hold is then stated by equations *)
Definition scoredb (x : C) (cur : wprofile) : bool := existsb (fun bw : sballot * Q => dmem (fst bw) x) cur.

Lemma scoredb_iff x cur : scoredb x cur = true <-> scored x cur.
Proof. apply existsb_exists. Qed.

Lemma scoredb_cons x bw cur : scoredb x (bw :: cur) = dmem (fst bw) x || scoredb x cur.
Proof. reflexivity. Qed.

Lemma dmem_dset {X} (d : list (C * X)) k v x : dmem (dset d k v) x = ceqb x k || dmem d x.
Proof. unfold dmem. rewrite dget_dset. destruct (ceqb x k); reflexivity. Qed.

Lemma dmem_keys {X} (d : list (C * X)) x : dmem d x = true <-> In x (map fst d).
Proof.
  unfold dmem. induction d as [|[k v] d IH]; cbn [dget map fst In]; [split; [discriminate|tauto]|].
  destruct (ceqb x k) eqn:E.
  - apply ceqb_eq in E. split; auto.
  - apply ceqb_neq in E. rewrite IH. split; [auto|intros [H|H]; [congruence|exact H]].
Qed.

Definition ss_inner (w : Q) (d : list (C * Q)) (cs : C * Q) : list (C * Q) :=
  dset d (fst cs) (Qred (dget_or d (fst cs) 0 + snd cs * w)).

Lemma ss_inner_get w d k s x : dget_or (ss_inner w d (k, s)) x 0 == dget_or d x 0 + (if ceqb x k then s * w else 0).
Proof.
  unfold ss_inner. cbn [fst snd]. rewrite dget_or_dset.
  destruct (ceqb x k) eqn:E; [apply ceqb_eq in E; subst k; rewrite Qred_correct|]; lra.
Qed.

Lemma ss_inner_fold w b : forall d x,
  dget_or (fold_left (ss_inner w) b d) x 0 == dget_or d x 0 + bscore b x * w /\
  dmem (fold_left (ss_inner w) b d) x = dmem d x || dmem b x /\
  (NoDup (map fst d) -> NoDup (map fst (fold_left (ss_inner w) b d))).
Proof.
  induction b as [|[k s] b IH]; intros d x; cbn [fold_left].
  - unfold bscore. cbn. split; [lra|]. split; [destruct (dmem d x); reflexivity|auto].
  - destruct (IH (ss_inner w d (k, s)) x) as (H1 & H2 & H3). split; [|split].
    + pose proof (ss_inner_get w d k s x) as G. unfold bscore in *. rewrite lsum_cons. cbn [fst snd].
      destruct (ceqb x k); lra.
    + rewrite H2. unfold ss_inner. cbn [fst]. rewrite dmem_dset. unfold dmem at 4. cbn [dget]. fold (dmem b x).
      destruct (ceqb x k), (dmem d x); reflexivity.
    + intros Hnd. apply H3, dset_nodup, Hnd.
Qed.

Lemma sum_scores_fold cur : forall d x,
  let r := fold_left (fun d (bw : sballot * Q) => fold_left (ss_inner (snd bw)) (fst bw) d) cur d in
  dget_or r x 0 == dget_or d x 0 + wscore cur x /\
  dmem r x = dmem d x || scoredb x cur /\
  (NoDup (map fst d) -> NoDup (map fst r)).
Proof.
  induction cur as [|bw cur IH]; intros d x; cbn [fold_left].
  - unfold wscore. cbn. split; [lra|]. split; [symmetry; apply orb_false_r|auto].
  - destruct (IH (fold_left (ss_inner (snd bw)) (fst bw) d) x) as (H1 & H2 & H3).
    destruct (ss_inner_fold (snd bw) (fst bw) d x) as (G1 & G2 & G3). cbv zeta in *. split; [|split].
    + unfold wscore in *. rewrite lsum_cons. lra.
    + rewrite H2, G2, scoredb_cons. symmetry. apply orb_assoc.
    + intros Hnd. apply H3, G3, Hnd.
Qed.

Lemma sum_scores_eq cur : sum_scores cur = fold_left (fun d (bw : sballot * Q) => fold_left (ss_inner (snd bw)) (fst bw) d) cur [].
Proof. reflexivity. Qed.

Lemma sum_scores_nodup cur : NoDup (map fst (sum_scores cur)).
Proof. rewrite sum_scores_eq. apply (sum_scores_fold cur [] 1%positive). constructor. Qed.

Lemma sum_scores_in cur x v : In (x, v) (sum_scores cur) -> v == wscore cur x /\ scored x cur.
Proof.
  intros Hin. pose proof (In_dget _ _ _ (sum_scores_nodup cur) Hin) as Hg.
  rewrite sum_scores_eq in Hg. destruct (sum_scores_fold cur [] x) as (H1 & H2 & _). cbv zeta in *. split.
  - unfold dget_or in H1 at 1. rewrite Hg in H1. rewrite H1. unfold dget_or. cbn. lra.
  - apply scoredb_iff. unfold dmem in H2 at 1. rewrite Hg in H2. symmetry. exact H2.
Qed.

Lemma sum_scores_scored cur x : scored x cur -> exists v, In (x, v) (sum_scores cur).
Proof.
  intros Hs. apply scoredb_iff in Hs. destruct (sum_scores_fold cur [] x) as (_ & H2 & _). cbv zeta in *.
  rewrite <- sum_scores_eq, Hs in H2. unfold dmem in H2.
  destruct (dget (sum_scores cur) x) as [v|] eqn:E; [|discriminate]. exists v. apply dget_In, E.
Qed.

(* the winner of a round without a tie: strictly the greatest weighted score sum among the candidates that
   are still scored on some remaining ballot *)
Theorem alloc_winner_greatest cur c rest :
  get_n_best Qle_bool (sum_scores cur) 1 = Cand c :: rest ->
  scored c cur /\ forall d, scored d cur -> d <> c -> wscore cur d < wscore cur c.
Proof.
  intros H.
  destruct (get_n_best_1_cand Qle_bool Qle_bool_total Qle_bool_trans (sum_scores cur) c rest (sum_scores_nodup cur) H)
    as (_ & v & Hin & Hmax).
  destruct (sum_scores_in cur c v Hin) as (Hv & Hsc). split; [exact Hsc|]. intros d Hd Hne.
  destruct (sum_scores_scored cur d Hd) as (v' & Hin'). destruct (sum_scores_in cur d v' Hin') as (Hv' & _).
  specialize (Hmax d v' Hin' Hne). apply ltb_Qlt in Hmax. lra.
Qed.

Lemma sb_eqb_bscore a : forall b x, sb_eqb a b = true -> bscore a x == bscore b x.
Proof.
  induction a as [|[k s] a IH]; intros [|[k' s'] b] x H; cbn [sb_eqb] in H; try discriminate; [reflexivity|].
  cbn [fst snd] in H. apply andb_true_iff in H. destruct H as [H H3]. apply andb_true_iff in H. destruct H as [H1 H2].
  apply ceqb_eq in H1. subst k'. apply Qeq_bool_iff in H2. unfold bscore. rewrite !lsum_cons. cbn [fst snd].
  fold (bscore a x). fold (bscore b x). rewrite (IH b x H3). destruct (ceqb x k); lra.
Qed.

Lemma sb_eqb_dmem a : forall b x, sb_eqb a b = true -> dmem a x = dmem b x.
Proof.
  induction a as [|[k s] a IH]; intros [|[k' s'] b] x H; cbn [sb_eqb] in H; try discriminate; [reflexivity|].
  cbn [fst snd] in H. apply andb_true_iff in H. destruct H as [H H3]. apply andb_true_iff in H. destruct H as [H1 _].
  apply ceqb_eq in H1. subst k'. unfold dmem. cbn [dget]. destruct (ceqb x k); [reflexivity|]. apply (IH b x H3).
Qed.

Lemma wadd_spec d b w :
  wtotal (wadd d b w) == wtotal d + w /\
  (forall x, wscore (wadd d b w) x == wscore d x + bscore b x * w) /\
  (wpos d -> 0 < w -> wpos (wadd d b w)) /\
  (forall x, scoredb x (wadd d b w) = scoredb x d || dmem b x).
Proof.
  unfold wtotal, wscore. induction d as [|bw d IH]; cbn [wadd].
  - unfold lsum. cbn [fold_right fst snd]. split; [lra|]. split; [intros; lra|].
    split; [intros _ H; constructor; [exact H|constructor]|]. intros x. apply orb_false_r.
  - destruct (sb_eqb b (fst bw)) eqn:E.
    + pose proof (Qred_correct (snd bw + w)) as Hred. split; [rewrite !lsum_cons; cbn [snd]; lra|]. split; [|split].
      * intros x. pose proof (sb_eqb_bscore _ _ x E) as Hx. rewrite !lsum_cons. cbn [fst snd]. nra.
      * intros Hp Hw. pose proof (Forall_inv Hp) as Hb. constructor; [cbn [snd] in *; lra|exact (Forall_inv_tail Hp)].
      * intros x. rewrite !scoredb_cons, (sb_eqb_dmem _ _ x E). cbn [fst]. destruct (dmem (fst bw) x), (scoredb x d); reflexivity.
    + destruct IH as (I1 & I2 & I3 & I4). split; [rewrite !lsum_cons; lra|]. split; [|split].
      * intros x. pose proof (I2 x). rewrite !lsum_cons. lra.
      * intros Hp Hw. constructor; [exact (Forall_inv Hp)|exact (I3 (Forall_inv_tail Hp) Hw)].
      * intros x. rewrite !scoredb_cons, I4. apply orb_assoc.
Qed.

Lemma drop_cand_bscore c b x : x <> c -> bscore (drop_cand c b) x == bscore b x.
Proof.
  intros Hne. unfold bscore, drop_cand. induction b as [|[k s] b IH]; [reflexivity|]. cbn [filter fst]. rewrite lsum_cons. cbn [fst snd].
  destruct (ceqb k c) eqn:E; cbn [negb].
  - apply ceqb_eq in E. subst k. assert (ceqb x c = false) as -> by (apply ceqb_neq; exact Hne). rewrite IH. lra.
  - rewrite lsum_cons, IH. reflexivity.
Qed.

Lemma drop_cand_dmem c b x : dmem (drop_cand c b) x = negb (ceqb x c) && dmem b x.
Proof.
  unfold dmem, drop_cand. induction b as [|[k s] b IH]; [destruct (ceqb x c); reflexivity|]. cbn [filter fst dget].
  destruct (ceqb k c) eqn:E; cbn [negb dget].
  - apply ceqb_eq in E. subst k. rewrite IH. destruct (ceqb x c); reflexivity.
  - destruct (ceqb x k) eqn:E2; [|exact IH]. apply ceqb_eq in E2. subst k. rewrite E. reflexivity.
Qed.

Lemma subset_out_fold c cur : forall d,
  let r := fold_left (fun d (bw : sballot * Q) => wadd d (drop_cand c (fst bw)) (snd bw)) cur d in
  wtotal r == wtotal d + wtotal cur /\
  (forall x, x <> c -> wscore r x == wscore d x + wscore cur x) /\
  (wpos d -> wpos cur -> wpos r) /\
  (forall x, scoredb x r = scoredb x d || negb (ceqb x c) && scoredb x cur).
Proof.
  induction cur as [|bw cur IH]; intros d; cbn [fold_left].
  - unfold wtotal, wscore. cbn. split; [lra|]. split; [intros; lra|]. split; [auto|].
    intros x. rewrite andb_false_r. symmetry. apply orb_false_r.
  - destruct (IH (wadd d (drop_cand c (fst bw)) (snd bw))) as (I1 & I2 & I3 & I4).
    destruct (wadd_spec d (drop_cand c (fst bw)) (snd bw)) as (W1 & W2 & W3 & W4). cbv zeta in *. split; [|split; [|split]].
    + unfold wtotal in *. rewrite lsum_cons. lra.
    + intros x Hne. pose proof (I2 x Hne) as J. pose proof (W2 x) as K. rewrite (drop_cand_bscore c _ x Hne) in K.
      unfold wscore in *. rewrite lsum_cons. lra.
    + intros Hd Hc. exact (I3 (W3 Hd (Forall_inv Hc)) (Forall_inv_tail Hc)).
    + intros x. rewrite I4, W4, drop_cand_dmem, scoredb_cons, andb_orb_distrib_r. symmetry. apply orb_assoc.
Qed.

Lemma subset_out_spec c cur :
  wtotal (subset_out c cur) == wtotal cur /\
  (forall x, x <> c -> wscore (subset_out c cur) x == wscore cur x) /\
  (wpos cur -> wpos (subset_out c cur)) /\
  (forall x, scored x (subset_out c cur) <-> x <> c /\ scored x cur).
Proof.
  destruct (subset_out_fold c cur []) as (H1 & H2 & H3 & H4). cbv zeta in *. fold (subset_out c cur) in *.
  split; [rewrite H1; unfold wtotal; simpl; lra|]. split; [|split].
  - intros x Hne. rewrite (H2 x Hne). unfold wscore. simpl. lra.
  - intros Hp. apply H3; [constructor|exact Hp].
  - intros x. rewrite <- !scoredb_iff, (H4 x : _ = negb (ceqb x c) && scoredb x cur), andb_true_iff, negb_true_iff, ceqb_neq. reflexivity.
Qed.

Lemma cut_at_scored c t f cur x : scored x (cut_at c t f cur) -> scored x cur.
Proof.
  intros ([b w] & Hin & Hm). apply cut_at_members in Hin. destruct Hin as (w0 & Hin & _). exists (b, w0). auto.
Qed.

Definition eliminated (gained : Z) (mx : option Z) : bool :=
  match mx with Some m => (gained =? m)%Z | None => false end.

(* one quota removed from [c]'s supporters, and [c] removed from every ballot when [elim] *)
Definition quota_removed (c : C) (q : Q) (elim : bool) (cur cur' : wprofile) : Prop :=
  exists mid, removal_spec c q cur mid /\ cur' = (if elim then subset_out c mid else mid) /\
              wtotal cur' == wtotal cur - Qmin q (asupport c cur) /\ wpos cur'.

Lemma removal_done c q elim cur mid : wpos cur -> removal_spec c q cur mid ->
  quota_removed c q elim cur (if elim then subset_out c mid else mid).
Proof.
  intros Hp Hspec. pose proof (removal_spec_wpos _ _ _ _ Hp Hspec) as Hpm. destruct Hspec as (t & f & Hspec).
  assert (Htot : wtotal mid == wtotal cur - Qmin q (asupport c cur)) by apply Hspec.
  destruct (subset_out_spec c mid) as (S1 & _ & S3 & _).
  exists mid. split; [exists t, f; exact Hspec|]. split; [reflexivity|].
  destruct elim; [split; [rewrite S1; exact Htot|apply S3, Hpm]|split; [exact Htot|exact Hpm]].
Qed.

Definition gained_of (cf : acfg) (el : elected) (c : C) : Z := (eget (eincr el c) c + dget_or (ac_prev cf) c 0)%Z.

Theorem elect_one_spec cf cur el c : wpos cur -> 0 < ac_quota cf ->
  match elect_one cf cur el c with
  | inr e => e = AE_value /\ crash_cond c cur (ac_quota cf)
  | inl (cur', el') =>
      el' = eincr el c /\ ~ crash_cond c cur (ac_quota cf) /\
      quota_removed c (ac_quota cf) (eliminated (gained_of cf el c) (dget (ac_max cf) c)) cur cur'
  end.
Proof.
  intros Hp Hq. unfold elect_one, subtract_votes. fold (gained_of cf el c).
  pose proof (fraction_out_spec c (S (length cur)) cur (ac_quota cf) Hp (Nat.lt_succ_diag_r _) Hq) as H.
  destruct (fraction_out (S (length cur)) cur c (ac_quota cf)) as [mid|e].
  - destruct H as (Hnc & Hspec). unfold eliminated.
    destruct (dget (ac_max cf) c) as [m|]; [destruct (gained_of cf el c =? m)%Z|];
      (split; [reflexivity|]; split; [exact Hnc|]); exact (removal_done _ _ _ _ _ Hp Hspec).
  - destruct e; try contradiction. split; [reflexivity|exact H].
Qed.

(* a round without a tie *)
Theorem alloc_round cf cur el rem c rest : wpos cur -> 0 < ac_quota cf -> (0 < rem)%nat ->
  get_n_best Qle_bool (sum_scores cur) 1 = Cand c :: rest ->
  (scored c cur /\ forall d, scored d cur -> d <> c -> wscore cur d < wscore cur c) /\
  match alloc_step cf cur el rem with
  | AS_next cur' el' rem' =>
      el' = eincr el c /\ rem' = (rem - 1)%nat /\ ~ crash_cond c cur (ac_quota cf) /\
      exists mid, removal_spec c (ac_quota cf) cur mid /\
                  cur' = (if eliminated (gained_of cf el c) (dget (ac_max cf) c) then subset_out c mid else mid) /\
                  wtotal cur' == wtotal cur - Qmin (ac_quota cf) (asupport c cur) /\ wpos cur'
  | AS_err e => e = AE_value /\ crash_cond c cur (ac_quota cf)
  | AS_done _ => False
  end.
Proof.
  intros Hp Hq Hrem Hbest. split; [exact (alloc_winner_greatest cur c rest Hbest)|].
  unfold alloc_step. destruct rem as [|rem']; [lia|]. rewrite Hbest.
  pose proof (elect_one_spec cf cur el c Hp Hq) as H.
  destruct (elect_one cf cur el c) as [[cur' el']|e]; [|exact H].
  destruct H as (H1 & H2 & H3). split; [exact H1|]. split; [reflexivity|]. split; [exact H2|exact H3].
Qed.

Lemma tie_nonempty (votes : list (C * Q)) n T : In (TieR T) (get_n_best Qle_bool votes n) -> T <> [].
Proof.
  intros H. destruct (get_n_best_tie_members Qle_bool Qle_bool_trans votes n T H) as (thr & -> & c & Hin).
  intros Hnil.
  assert (Hf : In (c, thr) (filter (fun it : C * Q => GetNBest.eqv Qle_bool (snd it) thr) votes)).
  { apply filter_In. split; [exact Hin|]. apply eqv_refl. exact Qle_bool_total. }
  apply (in_map fst) in Hf. rewrite Hnil in Hf. destruct Hf.
Qed.

Lemma elect_all_ok cf tied : forall cur el, wpos cur -> 0 < ac_quota cf ->
  match elect_all cf tied cur el with inl (cur', _) => wpos cur' | inr e => e = AE_value end.
Proof.
  induction tied as [|c tied IH]; intros cur el Hp Hq; cbn [elect_all]; [exact Hp|].
  pose proof (elect_one_spec cf cur el c Hp Hq) as H.
  destruct (elect_one cf cur el c) as [[cur1 el1]|e]; [|apply H].
  destruct H as (_ & _ & mid & _ & _ & _ & Hp1). exact (IH _ _ Hp1 Hq).
Qed.

(* a pass of the loop keeps the weights positive and fills at least one seat; it fails with ValueError or IndexError only *)
Lemma alloc_step_ok cf cur el rem : wpos cur -> 0 < ac_quota cf ->
  match alloc_step cf cur el rem with
  | AS_next cur' _ rem' => wpos cur' /\ (rem' < rem)%nat
  | AS_done _ => True
  | AS_err e => e = AE_value \/ e = AE_index
  end.
Proof.
  intros Hp Hq. unfold alloc_step. destruct rem as [|r]; [exact I|].
  destruct (get_n_best Qle_bool (sum_scores cur) 1) as [|[c|t] rest] eqn:Eb; [right; reflexivity| |].
  - pose proof (elect_one_spec cf cur el c Hp Hq) as H.
    destruct (elect_one cf cur el c) as [[cur1 el1]|e]; [|left; apply H].
    destruct H as (_ & _ & mid & _ & _ & _ & Hp1). split; [exact Hp1|lia].
  - destruct (Nat.leb (length t) (S r)); [|exact I].
    pose proof (elect_all_ok cf (tie_iter (ac_orders cf) t) cur el Hp Hq) as H.
    destruct (elect_all cf (tie_iter (ac_orders cf) t) cur el) as [[cur1 el1]|e]; [|left; exact H]. split; [exact H|].
    assert (Ht : t <> []) by (apply (tie_nonempty (sum_scores cur) 1); rewrite Eb; left; reflexivity).
    destruct t; [congruence|]. cbn [length]. lia.
Qed.

(* the states the loop goes through *)
Inductive areach (cf : acfg) (cur0 : wprofile) (el0 : elected) (rem0 : nat) : wprofile -> elected -> nat -> Prop :=
| AR_start : areach cf cur0 el0 rem0 cur0 el0 rem0
| AR_step cur el rem cur' el' rem' :
    areach cf cur0 el0 rem0 cur el rem -> alloc_step cf cur el rem = AS_next cur' el' rem' ->
    areach cf cur0 el0 rem0 cur' el' rem'.

Lemma areach_wpos cf cur0 el0 rem0 cur el rem : wpos cur0 -> 0 < ac_quota cf ->
  areach cf cur0 el0 rem0 cur el rem -> wpos cur.
Proof.
  intros Hp Hq H. induction H as [|cur el rem cur' el' rem' _ IH Hstep]; [exact Hp|].
  pose proof (alloc_step_ok cf cur el rem IH Hq) as H. rewrite Hstep in H. apply H.
Qed.

Lemma areach_trans cf c0 e0 r0 c1 e1 r1 c2 e2 r2 :
  areach cf c0 e0 r0 c1 e1 r1 -> areach cf c1 e1 r1 c2 e2 r2 -> areach cf c0 e0 r0 c2 e2 r2.
Proof. intros H1 H2. induction H2; [exact H1|]. eapply AR_step; eassumption. Qed.

Lemma alloc_loop_reach cf : forall fuel cur el rem e, alloc_loop fuel cf cur el rem = inl e ->
  exists cur1 el1 rem1, areach cf cur el rem cur1 el1 rem1 /\ alloc_step cf cur1 el1 rem1 = AS_done e.
Proof.
  induction fuel as [|fuel IH]; intros cur el rem e; cbn [alloc_loop]; [discriminate|].
  destruct (alloc_step cf cur el rem) as [cur' el' rem'|e'|e'] eqn:E.
  - intros H. destruct (IH _ _ _ _ H) as (c1 & e1 & r1 & Hr & Hd). exists c1, e1, r1. split; [|exact Hd].
    eapply areach_trans; [|exact Hr]. eapply AR_step; [apply AR_start|exact E].
  - intros [= <-]. exists cur, el, rem. split; [apply AR_start|exact E].
  - discriminate.
Qed.

Lemma alloc_loop_err_reach cf : forall fuel cur el rem e, alloc_loop fuel cf cur el rem = inr e -> e <> AE_fuel ->
  exists cur1 el1 rem1, areach cf cur el rem cur1 el1 rem1 /\ alloc_step cf cur1 el1 rem1 = AS_err e.
Proof.
  induction fuel as [|fuel IH]; intros cur el rem e; cbn [alloc_loop]; [intros [= <-] H; congruence|].
  destruct (alloc_step cf cur el rem) as [cur' el' rem'|e'|e'] eqn:E.
  - intros H Hne. destruct (IH _ _ _ _ H Hne) as (c1 & e1 & r1 & Hr & Hd). exists c1, e1, r1. split; [|exact Hd].
    eapply areach_trans; [|exact Hr]. eapply AR_step; [apply AR_start|exact E].
  - discriminate.
  - intros [= <-] _. exists cur, el, rem. split; [apply AR_start|exact E].
Qed.

(* the loop never runs out of its fuel *)
Theorem alloc_loop_fuel cf : forall fuel cur el rem, wpos cur -> 0 < ac_quota cf -> (rem < fuel)%nat ->
  alloc_loop fuel cf cur el rem <> inr AE_fuel.
Proof.
  induction fuel as [|fuel IH]; intros cur el rem Hp Hq Hlt; [lia|]. cbn [alloc_loop].
  pose proof (alloc_step_ok cf cur el rem Hp Hq) as H.
  destruct (alloc_step cf cur el rem) as [cur' el' rem'|e'|e'].
  - apply IH; [apply H|exact Hq|]. destruct H as [_ H]. lia.
  - discriminate.
  - destruct H as [->| ->]; discriminate.
Qed.

(* every round without a tie, anywhere in the run *)
Theorem alloc_every_round cf votes n cur el rem c rest : wpos votes -> 0 < ac_quota cf ->
  areach cf votes [] n cur el rem -> (0 < rem)%nat ->
  get_n_best Qle_bool (sum_scores cur) 1 = Cand c :: rest ->
  (scored c cur /\ forall d, scored d cur -> d <> c -> wscore cur d < wscore cur c) /\
  match alloc_step cf cur el rem with
  | AS_next cur' el' rem' =>
      el' = eincr el c /\ rem' = (rem - 1)%nat /\ ~ crash_cond c cur (ac_quota cf) /\
      exists mid, removal_spec c (ac_quota cf) cur mid /\
                  cur' = (if eliminated (gained_of cf el c) (dget (ac_max cf) c) then subset_out c mid else mid) /\
                  wtotal cur' == wtotal cur - Qmin (ac_quota cf) (asupport c cur) /\ wpos cur'
  | AS_err e => e = AE_value /\ crash_cond c cur (ac_quota cf)
  | AS_done _ => False
  end.
Proof.
  intros Hp Hq Hr Hrem Hb. apply (alloc_round cf cur el rem c rest); try assumption. exact (areach_wpos _ _ _ _ _ _ _ Hp Hq Hr).
Qed.

Lemma eget_eincr el c x : eget (eincr el c) x = if ceqb x c then (eget el c + 1)%Z else eget el x.
Proof.
  induction el as [|[r k] el IH]; cbn [eincr eget].
  - cbn [res_is fst snd]. destruct (ceqb x c); reflexivity.
  - cbn [fst snd]. destruct (res_is c r) eqn:Ec; cbn [eget fst snd].
    + destruct r as [c'|t]; [|discriminate]. cbn [res_is] in *. apply ceqb_eq in Ec. subst c'.
      destruct (ceqb x c); reflexivity.
    + rewrite IH. destruct (ceqb x c) eqn:Ex; [|reflexivity].
      apply ceqb_eq in Ex. subst x. rewrite Ec. reflexivity.
Qed.

Lemma dget_map_one (l : list C) x : In x l -> dget (map (fun c => (c, 1%Z)) l) x = Some 1%Z.
Proof.
  induction l as [|y l IH]; intros Hin; [destruct Hin|]. cbn [map dget].
  destruct (ceqb x y) eqn:E; [reflexivity|]. apply IH. destruct Hin as [->|H]; [rewrite ceqb_refl in E; discriminate|exact H].
Qed.

Lemma scored_all_scored x votes : scored x votes -> In x (all_scored votes).
Proof.
  intros (bw & Hin & Hm). unfold all_scored. apply in_flat_map. exists bw. split; [exact Hin|]. apply dmem_keys, Hm.
Qed.

Definition sel_like (votes : wprofile) (cf : acfg) : Prop :=
  ac_prev cf = [] /\ ac_max cf = map (fun c => (c, 1%Z)) (all_scored votes).
(* nobody who holds a seat is scored on a remaining ballot, and only candidates of the election are *)
Definition sel_inv (votes cur : wprofile) (el : elected) : Prop :=
  forall x, scored x cur -> eget el x = 0%Z /\ In x (all_scored votes).

Lemma elect_one_sel votes cf cur el c cur' el' : sel_like votes cf -> wpos cur -> 0 < ac_quota cf ->
  sel_inv votes cur el -> elect_one cf cur el c = inl (cur', el') ->
  sel_inv votes cur' el' /\
  (scored c cur -> exists mid, removal_spec c (ac_quota cf) cur mid /\ cur' = subset_out c mid).
Proof.
  intros (Hprev & Hmax) Hp Hq HJ He. pose proof (elect_one_spec cf cur el c Hp Hq) as H. rewrite He in H.
  destruct H as (-> & _ & mid & Hspec & Hcur' & _ & _).
  assert (Helim : scored c cur -> eliminated (gained_of cf el c) (dget (ac_max cf) c) = true).
  { intros Hsc. destruct (HJ c Hsc) as (H0 & Hin). unfold gained_of, eliminated.
    rewrite Hmax, (dget_map_one _ _ Hin), Hprev, eget_eincr, ceqb_refl, H0. reflexivity. }
  assert (Hsub : forall x, scored x cur' -> scored x cur /\ x <> c).
  { intros x Hx. destruct Hspec as (t & f & Hmid & _).
    destruct (eliminated (gained_of cf el c) (dget (ac_max cf) c)) eqn:Ee; subst cur'.
    - apply (subset_out_spec c mid) in Hx. destruct Hx as (Hne & Hx). subst mid. split; [exact (cut_at_scored _ _ _ _ _ Hx)|exact Hne].
    - subst mid. pose proof (cut_at_scored _ _ _ _ _ Hx) as Hx'. split; [exact Hx'|]. intros Hxc. subst x.
      pose proof (Helim Hx') as Ht. congruence. }
  split.
  - intros x Hx. destruct (Hsub x Hx) as (Hx' & Hne). destruct (HJ x Hx') as (H0 & Hin). split; [|exact Hin].
    rewrite eget_eincr. assert (ceqb x c = false) as -> by (apply ceqb_neq; exact Hne). exact H0.
  - intros Hsc. exists mid. split; [exact Hspec|]. rewrite (Helim Hsc) in Hcur'. exact Hcur'.
Qed.

Lemma elect_all_sel votes cf tied : forall cur el cur' el', sel_like votes cf -> wpos cur -> 0 < ac_quota cf ->
  sel_inv votes cur el -> elect_all cf tied cur el = inl (cur', el') -> sel_inv votes cur' el'.
Proof.
  induction tied as [|c tied IH]; intros cur el cur' el' Hs Hp Hq HJ; cbn [elect_all]; [intros [= <- <-]; exact HJ|].
  destruct (elect_one cf cur el c) as [[cur1 el1]|e] eqn:E; [|discriminate]. intros Hall.
  destruct (elect_one_sel votes cf cur el c cur1 el1 Hs Hp Hq HJ E) as (HJ1 & _).
  pose proof (elect_one_spec cf cur el c Hp Hq) as H. rewrite E in H. destruct H as (_ & _ & mid & _ & _ & _ & Hp1).
  exact (IH _ _ _ _ Hs Hp1 Hq HJ1 Hall).
Qed.

Lemma areach_sel votes cf n cur el rem : sel_like votes cf -> wpos votes -> 0 < ac_quota cf ->
  areach cf votes [] n cur el rem -> sel_inv votes cur el.
Proof.
  intros Hs Hp Hq H. induction H as [|cur el rem cur' el' rem' Hr IH Hstep].
  - intros x Hx. split; [reflexivity|apply scored_all_scored, Hx].
  - pose proof (areach_wpos _ _ _ _ _ _ _ Hp Hq Hr) as Hpc. revert Hstep. unfold alloc_step.
    destruct rem as [|r]; [discriminate|].
    destruct (get_n_best Qle_bool (sum_scores cur) 1) as [|[c|t] rest]; [discriminate| |].
    + destruct (elect_one cf cur el c) as [[cur1 el1]|e] eqn:E; [|discriminate]. intros [= <- <- _].
      exact (proj1 (elect_one_sel votes cf cur el c cur1 el1 Hs Hpc Hq IH E)).
    + destruct (Nat.leb (length t) (S r)); [|discriminate].
      destruct (elect_all cf (tie_iter (ac_orders cf) t) cur el) as [[cur1 el1]|e] eqn:E; [|discriminate].
      intros [= <- <- _]. exact (elect_all_sel votes cf _ _ _ _ _ Hs Hpc Hq IH E).
Qed.

(* AllocatedScoreSelector, every round without a tie: the winner holds no seat yet, has strictly the greatest
   weighted score sum among the candidates still scored (nobody who holds a seat is), exactly one quota - or all
   it has - leaves its strongest supporters first, and it then leaves every ballot (the other candidates' score
   sums over the cut ballots are untouched) *)
Theorem alloc_select_round votes cf n cur el rem c rest cur' el' rem' :
  sel_like votes cf -> wpos votes -> 0 < ac_quota cf ->
  areach cf votes [] n cur el rem -> (0 < rem)%nat ->
  get_n_best Qle_bool (sum_scores cur) 1 = Cand c :: rest ->
  alloc_step cf cur el rem = AS_next cur' el' rem' ->
  eget el c = 0%Z /\ (forall x, eget el x <> 0%Z -> ~ scored x cur) /\
  (scored c cur /\ forall d, scored d cur -> d <> c -> wscore cur d < wscore cur c) /\
  el' = eincr el c /\ rem' = (rem - 1)%nat /\
  exists mid, removal_spec c (ac_quota cf) cur mid /\ cur' = subset_out c mid /\
              wtotal cur' == wtotal cur - Qmin (ac_quota cf) (asupport c cur) /\
              ~ scored c cur' /\ forall x, x <> c -> wscore cur' x == wscore mid x.
Proof.
  intros Hs Hp Hq Hr Hrem Hb Hstep.
  pose proof (areach_sel votes cf n cur el rem Hs Hp Hq Hr) as HJ.
  pose proof (areach_wpos _ _ _ _ _ _ _ Hp Hq Hr) as Hpc.
  destruct (alloc_round cf cur el rem c rest Hpc Hq Hrem Hb) as (Hwin & Hst). rewrite Hstep in Hst.
  destruct Hst as (Hel & Hrem' & _ & mid0 & _ & _ & Htot & _).
  split; [exact (proj1 (HJ c (proj1 Hwin)))|]. split; [intros x Hx Hsc; exact (Hx (proj1 (HJ x Hsc)))|].
  split; [exact Hwin|]. split; [exact Hel|]. split; [exact Hrem'|].
  assert (E : elect_one cf cur el c = inl (cur', el')).
  { revert Hstep. unfold alloc_step. destruct rem as [|r]; [lia|]. rewrite Hb.
    destruct (elect_one cf cur el c) as [[c1 e1]|e]; [|discriminate]. intros [= <- <- _]. reflexivity. }
  destruct (elect_one_sel votes cf cur el c cur' el' Hs Hpc Hq HJ E) as (_ & Hsub).
  destruct (Hsub (proj1 Hwin)) as (mid & Hspec & Hcur'). exists mid. split; [exact Hspec|]. split; [exact Hcur'|].
  split; [exact Htot|]. destruct (subset_out_spec c mid) as (_ & S2 & _ & S4). subst cur'. split.
  - intros Hsc. apply S4 in Hsc. destruct Hsc as (Hne & _). congruence.
  - exact S2.
Qed.

Lemma wtotal_pos votes : wpos votes -> votes <> [] -> 0 < wtotal votes.
Proof.
  intros Hp Hne. destruct votes as [|bw votes]; [congruence|]. unfold wtotal.
  apply (lsum_pos_in (fun bw : sballot * Q => snd bw) (bw :: votes) bw).
  - intros y Hy. pose proof (wpos_in _ _ Hp Hy). lra.
  - left. reflexivity.
  - exact (wpos_in _ _ Hp (or_introl eq_refl)).
Qed.

(* the quota of the named functions used here is positive for a non-empty electorate *)
Lemma alloc_quota_pos i orders votes n prev mx : (i = 1 \/ i = 3)%Z -> wpos votes -> votes <> [] -> (1 <= n)%nat ->
  0 < ac_quota (alloc_cfg (QNamed i) orders votes n prev mx).
Proof.
  intros Hi Hp Hne Hn. unfold alloc_cfg. cbn [ac_quota]. rewrite Qred_correct.
  pose proof (wtotal_pos votes Hp Hne) as Ht. unfold wtotal in Ht. rewrite <- (lsum_map snd (fun x => x)), <- qsum_lsum in Ht.
  assert (Hnz : 0 < inject_Z (Z.of_nat n)). { change 0 with (inject_Z 0). rewrite <- Zlt_Qlt. lia. }
  destruct Hi as [-> | ->]; cbn [quota_fn Z.eqb Pos.eqb].
  - unfold hare. apply Qlt_shift_div_l; [exact Hnz|lra].
  - unfold droop, qfloor.
    assert (H0 : 0 <= qsum (map snd votes) / inject_Z (Z.of_nat n + 1)).
    { apply Qle_shift_div_l; [change 0 with (inject_Z 0); rewrite <- Zlt_Qlt; lia|lra]. }
    assert (Hfl : (0 <= Qfloor (qsum (map snd votes) / inject_Z (Z.of_nat n + 1)))%Z).
    { change 0%Z with (Qfloor 0). apply Qfloor_resp_le, H0. }
    assert (0 <= inject_Z (Qfloor (qsum (map snd votes) / inject_Z (Z.of_nat n + 1)))).
    { change 0 with (inject_Z 0). rewrite <- Zle_Qle. exact Hfl. }
    lra.
Qed.

Theorem alloc_distribute_run qs orders votes n prev mx :
  let cf := alloc_cfg qs orders votes n prev mx in
  wpos votes -> 0 < ac_quota cf ->
  match alloc_distribute qs orders votes n prev mx with
  | inl e => exists cur el rem, areach cf votes [] n cur el rem /\ alloc_step cf cur el rem = AS_done e
  | inr AE_fuel => False
  | inr AE_zerodiv => n = 0%nat
  | inr e => exists cur el rem, areach cf votes [] n cur el rem /\ alloc_step cf cur el rem = AS_err e
  end.
Proof.
  intros cf Hp Hq. unfold alloc_distribute.
  destruct (quota_divides_by_seats qs && Nat.eqb n 0) eqn:E0.
  { apply andb_true_iff in E0. apply Nat.eqb_eq, E0. }
  fold cf. pose proof (alloc_loop_fuel cf (S n) votes [] n Hp Hq (Nat.lt_succ_diag_r n)) as Hfuel.
  destruct (alloc_loop (S n) cf votes [] n) as [e|e] eqn:E.
  - exact (alloc_loop_reach cf _ _ _ _ _ E).
  - assert (Hne : e <> AE_fuel) by (intros ->; apply Hfuel; reflexivity).
    destruct (alloc_loop_err_reach cf _ _ _ _ _ E Hne) as (c1 & e1 & r1 & Hr & Hs).
    pose proof (areach_wpos _ _ _ _ _ _ _ Hp Hq Hr) as Hp1.
    pose proof (alloc_step_ok cf c1 e1 r1 Hp1 Hq) as Hok. rewrite Hs in Hok.
    destruct Hok as [-> | ->]; exists c1, e1, r1; split; assumption.
Qed.

(* strongest first, ballot by ballot: when a supporter loses anything, every supporter who scored the winner
   strictly higher is exhausted *)
Lemma cut_one_order c t f (bw1 bw2 : sballot * Q) s1 s2 :
  dget (fst bw1) c = Some s1 -> dget (fst bw2) c = Some s2 -> s2 < s1 ->
  cut_one c t f bw2 <> [bw2] -> cut_one c t f bw1 = [].
Proof.
  intros H1 H2 Hlt Hne. unfold cut_one in *. rewrite H1. rewrite H2 in Hne.
  destruct (Qle_bool s2 t) eqn:E2.
  - apply Qle_bool_iff in E2. destruct (Qeq_bool s2 t) eqn:E3; [|congruence].
    apply Qeq_bool_iff in E3. assert (E1 : Qle_bool s1 t = false) by (apply Qle_bool_false; lra). rewrite E1. reflexivity.
  - apply Qle_bool_false in E2. assert (E1 : Qle_bool s1 t = false) by (apply Qle_bool_false; lra). rewrite E1. reflexivity.
Qed.

Definition b1 (l : list (positive * Z)) : sballot := map (fun cs => (fst cs, inject_Z (snd cs))) l.

(* an ordinary two-party election, Hare quota, two seats: the larger party's leftover ballot becomes an EMPTY
   ballot once its candidate is elected and removed, and the next subtraction raises ValueError *)
Definition w_crash : wprofile := [(b1 [(1%positive, 5%Z)], 4); (b1 [(2%positive, 5%Z)], 2)].
Lemma alloc_crash_witness :
  wposb w_crash = true /\ alloc_select (QNamed 1) [] w_crash 2 = inr AE_value /\
  alloc_select (QNamed 3) [] [(b1 [(1%positive, 5%Z)], 2); (b1 [(2%positive, 5%Z)], 1)] 2 = inr AE_value.
Proof. vm_compute. auto. Qed.

(* three candidates level for two seats: ONE tie entry stands for both seats *)
Definition w_tie3 : wprofile := [(b1 [(1%positive, 1%Z)], 1); (b1 [(2%positive, 1%Z)], 1); (b1 [(3%positive, 1%Z)], 1)].
Lemma alloc_tie_shape_witness :
  alloc_select (QNamed 1) [] w_tie3 2 = inl [TieR [1%positive; 2%positive; 3%positive]].
Proof. vm_compute. reflexivity. Qed.

(* two candidates level for two seats are both elected, one after the other in the iteration order of the Tie
   frozenset: one order crashes, the other answers *)
Definition w_order : wprofile := [(b1 [(1%positive, 3%Z); (2%positive, 4%Z)], 4); (b1 [(1%positive, 1%Z)], 4)].
Lemma alloc_tie_order_witness :
  alloc_select (QNamed 1) [[1%positive; 2%positive]] w_order 2 = inr AE_value /\
  alloc_select (QNamed 1) [[2%positive; 1%positive]] w_order 2 = inl [Cand 2%positive; Cand 1%positive].
Proof. vm_compute. auto. Qed.

(* ... and the second of them gets its seat although it is not scored on any remaining ballot (score sum 0)
   while another candidate has a positive score sum *)
Definition w_second : wprofile := [(b1 [(1%positive, 5%Z); (2%positive, 5%Z)], 2); (b1 [(3%positive, 4%Z)], 2)].
Lemma alloc_tie_second_witness :
  let cf := alloc_cfg (QNamed 1) [[2%positive; 1%positive]] w_second 2 [] (map (fun c => (c, 1%Z)) (all_scored w_second)) in
  alloc_select (QNamed 1) [[2%positive; 1%positive]] w_second 2 = inl [Cand 2%positive; Cand 1%positive] /\
  exists cur1 el1, elect_one cf w_second [] 2%positive = inl (cur1, el1) /\
                   wscore cur1 1%positive < wscore cur1 3%positive /\ wscore cur1 1%positive == 0.
Proof.
  cbv zeta. split; [vm_compute; reflexivity|].
  eexists. eexists. split; [vm_compute; reflexivity|]. split; vm_compute; reflexivity.
Qed.

(* a ballot of weight 0 at the winner's top level stops the subtraction: positive weights are needed *)
Definition w_zero : wprofile := [(b1 [(1%positive, 5%Z)], 0); (b1 [(1%positive, 3%Z)], 2); (b1 [(2%positive, 1%Z)], 1)].
Lemma alloc_zero_weight_witness :
  fraction_out 4 w_zero 1%positive 2 = inl w_zero /\ asupport 1%positive w_zero == 2 /\ wposb w_zero = false.
Proof. vm_compute. auto. Qed.

(* the hypotheses are satisfiable: a run of three rounds *)
Definition w_example : wprofile :=
  [(b1 [(1%positive, 5%Z); (2%positive, 4%Z); (3%positive, 0%Z)], 3); (b1 [(1%positive, 4%Z); (2%positive, 5%Z)], 2);
   (b1 [(2%positive, 0%Z); (3%positive, 5%Z)], 3); (b1 [(1%positive, 1%Z); (3%positive, 2%Z); (4%positive, 3%Z)], 2)].
Lemma alloc_example :
  wposb w_example = true /\
  alloc_select (QNamed 3) [] w_example 3 = inl [Cand 1%positive; Cand 3%positive; Cand 2%positive] /\
  alloc_select (QNamed 1) [] w_example 2 = inl [Cand 1%positive; Cand 3%positive].
Proof. vm_compute. auto. Qed.
