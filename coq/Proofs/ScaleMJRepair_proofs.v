(* Scale invariance (C11) of the score family with the repairs (Model/Cardinal.v, the [_x] definitions):
   - without the truncation repair, or with no truncation configured, the repaired aggregation IS the unrepaired one on
     well-formed profiles (the counted aggregates equal the expanded ones), so the C11 theorems carry over;
   - on balanced score dictionaries (Scale2MJ_proofs.Inv: complete ballots) the repaired default tie-break of majority
     judgment IS the unrepaired one: nobody runs out of scores before the others. *)
From Coq Require Import ZArith QArith Qround Qabs List Bool Arith Lia Lqa Permutation.
From VL Require Import Prelude.PyDict Model.GetNBest Model.Convert Model.Cardinal
     Proofs.GetNBest_proofs Proofs.QOrd Proofs.Dict_proofs Proofs.MJ_proofs Proofs.MJ_removal_proofs Proofs.MJ_seats_proofs
     Proofs.ScoreDict_proofs Proofs.Truncation_proofs Proofs.Scale2Med_proofs Proofs.Scale2Score_proofs Proofs.Scale2MJ_proofs
     Proofs.Repair_proofs Proofs.TruncRepair_proofs Proofs.MJ_repair_proofs.
Import ListNotations.

Definition trunc_untouched (rp : repairs) (cf : score_cfg) : Prop := rp_trunc rp = false \/ Qle_bool (sc_trunc cf) 0 = true.

Lemma correct_scores_x_untouched rp cf d nv : trunc_untouched rp cf -> correct_scores_x rp cf d nv = correct_scores cf d nv.
Proof.
  intros [H|H]; [apply correct_scores_x_counted, H|]. rewrite correct_scores_x_unfold, correct_scores_unfold, H.
  destruct (cs_total d <? sc_min_count cf)%Z; [reflexivity|]. destruct (unscored_fill cf d nv); reflexivity.
Qed.

Lemma corrected_scores_x_untouched rp cf votes : trunc_untouched rp cf -> corrected_scores_x rp cf votes = corrected_scores cf votes.
Proof.
  intros H. unfold corrected_scores_x, corrected_scores. cbv zeta. f_equal. apply map_ext. intros cd. rewrite (correct_scores_x_untouched rp cf _ _ H). reflexivity.
Qed.

Theorem score_to_simple_x_eq rp cf votes : trunc_untouched rp cf -> profile_ok votes ->
  score_to_simple_x rp cf votes = score_to_simple cf votes.
Proof.
  intros Ht Hv. unfold score_to_simple_x, score_to_simple. rewrite (corrected_scores_x_untouched rp cf votes Ht).
  destruct (corrected_scores cf votes) as [sc|e] eqn:E; [|reflexivity]. apply aggregate_x_ok. exact (corrected_scores_ok cf votes sc Hv E).
Qed.

Theorem score_voting_x_eq rp cf votes n : trunc_untouched rp cf -> profile_ok votes ->
  score_voting_x rp cf votes n = score_voting cf votes n.
Proof. intros Ht Hv. unfold score_voting_x, score_voting. rewrite (score_to_simple_x_eq rp cf votes Ht Hv). reflexivity. Qed.

(* majority judgment with the plus rule: the repairs change nothing on well-formed profiles *)
Theorem mj_plus_x_eq rp cf votes n : trunc_untouched rp cf -> profile_ok votes ->
  majority_judgment_x rp true cf votes n = majority_judgment true cf votes n.
Proof.
  intros Ht Hv. unfold majority_judgment_x, majority_judgment. rewrite (corrected_scores_x_untouched rp cf votes Ht).
  destruct (corrected_scores cf votes) as [sc|e] eqn:E; [|reflexivity].
  pose proof (corrected_scores_ok cf votes sc Hv E) as Hok. rewrite (aggregate_x_ok rp _ _ Hok).
  destruct (aggregate FMedianLow sc) as [med|e']; [|reflexivity]. cbv zeta.
  destruct (last_tie (get_n_best Qle_bool med n)) as [tied|]; [|reflexivity].
  rewrite (mj_plus_x_ok rp _ _ (filter_ok _ _ Hok)). reflexivity.
Qed.

Lemma good_ok d : good d -> cs_okd d.
Proof. intros (Hk & Hn). split; [exact Hn|apply distinct_keys_nd, Hk]. Qed.

Lemma Inv_ok S T : Inv S T -> Forall cs_ok S.
Proof. intros (_ & H). apply Forall_forall. intros cd Hcd. rewrite Forall_forall in H. exact (good_ok _ (proj1 (H cd Hcd))). Qed.

Lemma mj_live_Inv S T : Inv S T -> (0 < T)%Z -> mj_live S = S.
Proof.
  intros (_ & H) HT. unfold mj_live. apply filter_all_true. intros cd Hcd. rewrite Forall_forall in H.
  destruct (H cd Hcd) as (_ & Ht). rewrite Ht. apply negb_true_iff, Z.eqb_neq. lia.
Qed.

Theorem mj_default_x_balanced rp : forall fuel S n T, Inv S T -> (0 <= T)%Z -> (1 <= n <= length S)%nat ->
  mj_default_x rp fuel S n = mj_default fuel S n.
Proof.
  induction fuel as [|f IH]; intros S n T HI HT0 Hn; [reflexivity|].
  rewrite MJ_proofs.mj_default_unfold, mj_default_x_unfold. fold (mx S).
  destruct (mx S <=? 0)%Z eqn:Hm; [reflexivity|].
  destruct (proj1 (mx_pos S T HI HT0) Hm) as [Hne HT].
  assert (Hlive : (if rp_mj rp then mj_live S else S) = S) by (destruct (rp_mj rp); [apply (mj_live_Inv S T HI HT)|reflexivity]).
  assert (Hlen : rp_mj rp && Nat.ltb (length S) n = false) by (destruct (rp_mj rp); [apply Nat.ltb_ge; lia|reflexivity]).
  cbv zeta. rewrite Hlive, Hlen, (aggregate_x_ok rp _ _ (Inv_ok S T HI)), (aggregate_Inv S T HI HT).
  pose proof (canon_keys S) as Hkeys.
  assert (Hndm : NoDup (map fst (canon S))) by (rewrite Hkeys; exact (proj1 HI)).
  destruct (gnb_keys (canon S) n (proj1 Hn) Hndm) as [(A & E & _)|(A & L & thr & k & E & Hts & HlenA & HkL)].
  { rewrite !(mj_body_clean _ _ _ _ _ E). reflexivity. }
  rewrite !(mj_body_tie _ _ _ _ _ _ _ E HlenA).
  destruct (level_stays _ _ _ _ S (canon S) Hts Hkeys) as (_ & Hge1 & Hge2). destruct A as [|a A'].
  - (* a shared lead: one block of removals among the level candidates *)
    assert (Hn' : (1 <= n <= length (mj_round S (canon S) L))%nat) by (cbn [length] in HlenA; lia).
    assert (Hc : Nat.eqb (count_tie (gnb (canon S) n)) 0 = false) by (unfold gnb; rewrite E, MJ_proofs.count_tie_cands; reflexivity).
    assert (Hu : Nat.ltb 0 (untied_of (gnb (canon S) n)) = false) by (unfold gnb; rewrite E, untied_shape; reflexivity).
    assert (Htied : tied_of (gnb (canon S) n) = L) by (unfold gnb; rewrite E; reflexivity).
    destruct (block_state S T n HI HT Hc Hu) as (Er & HI' & Hch & _).
    revert Hn'. unfold mj_round. rewrite <- Htied, Er. intros Hn'. apply (IH _ _ _ HI'); [lia|exact Hn'].
  - (* winners are seated; the rest goes on for the remaining seats *)
    cbv iota. rewrite (IH _ (Datatypes.S k) T (Inv_filter _ S T HI) HT0); [reflexivity|lia].
Qed.

(* majority judgment, default rule, on a profile whose corrected dictionaries are balanced: the repairs change nothing *)
Theorem mj_default_x_eq_balanced rp cf votes n : trunc_untouched rp cf -> profile_ok votes -> (1 <= n)%nat ->
  (forall sc, corrected_scores cf votes = inl sc -> exists T, Inv sc T) ->
  majority_judgment_x rp false cf votes n = majority_judgment false cf votes n.
Proof.
  intros Ht Hv Hn Hbal.
  rewrite majority_judgment_unfold, majority_judgment_x_unfold, (corrected_scores_x_untouched rp cf votes Ht).
  destruct (corrected_scores cf votes) as [sc|e] eqn:E; [|reflexivity].
  pose proof (corrected_scores_ok cf votes sc Hv E) as Hok. rewrite (aggregate_x_ok rp _ _ Hok).
  destruct (aggregate FMedianLow sc) as [med|e'] eqn:Ea; [|reflexivity].
  destruct (Hbal sc eq_refl) as (T & HI).
  pose proof (aggregate_keys _ _ _ Ea) as Hkeys.
  assert (Hndm : NoDup (map fst med)) by (rewrite Hkeys; exact (proj1 HI)).
  destruct (gnb_keys med n Hn Hndm) as [(A & Eb & _)|(A & L & thr & k & Eb & Hts & _ & HkL)].
  { rewrite !(mj_outer_clean _ _ _ _ _ Eb). reflexivity. }
  rewrite !(mj_outer_tie _ _ _ _ _ _ _ Eb).
  destruct (level_stays _ _ _ _ sc med Hts Hkeys) as (Hge & _). set (sub := mj_level sc L) in *.
  assert (HIs : Inv sub T) by (apply Inv_filter, HI).
  assert (Hne : sub <> []) by (intros Es; rewrite Es in Hge; cbn [length] in Hge; lia).
  rewrite (mj_default_x_balanced rp _ sub (Datatypes.S k) T HIs (Inv_nonneg sub T HIs Hne)); [reflexivity|lia].
Qed.
