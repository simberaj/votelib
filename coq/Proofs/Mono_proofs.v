(* Monotonicity of the highest-averages model (C17): house monotonicity (Section House) and vote monotonicity (after it).
   House monotonicity, by simulation of the run for n+1 seats by the run for n seats:
   while the smaller run still has seats to give, both runs are in the same state except for
   the number of remaining seats; when the smaller run stops, with or without a reported tie, the
   larger one has one more step to make ([tie_rel]).  No hypothesis on the divisor or the votes is
   needed; previous gains must be non-negative (then the default cap n / n+1 never distinguishes
   the two runs before the smaller one has stopped). *)
From Coq Require Import ZArith QArith List Bool Lia Lqa Permutation.
From VL Require Import Prelude.PyDict Model.GetNBest Model.HighestAverages Proofs.Dict_proofs Proofs.HA_proofs.
Import ListNotations.
Open Scope Z_scope.

Lemma zsum_nonneg l : Forall (fun x => 0 <= x) l -> 0 <= zsum l.
Proof. induction 1 as [|x l Hx _ IH]; [unfold zsum; simpl; lia|rewrite zsum_cons; lia]. Qed.

Lemma dget_or_le_zsum (prev : list (C * Z)) c :
  Forall (fun cv => 0 <= snd cv) prev -> 0 <= dget_or prev c 0 <= zsum (map snd prev).
Proof.
  unfold dget_or. induction 1 as [|[k v] t Hk Ht IH]; simpl.
  - unfold zsum. simpl. lia.
  - rewrite zsum_cons. simpl in Hk.
    assert (0 <= zsum (map snd t)).
    { apply zsum_nonneg. rewrite Forall_map. exact Ht. }
    destruct (ceqb c k); lia.
Qed.

Section House.
  Variable d : Z -> Q.
  Variable votes : list (C * Q).
  Variable caps : list (C * Z).

  Definition tot_s (s : state) (c : C) : Z := dget_or (st_totals s) c 0.

  Lemma step_tot_mono n s c : tot_s s c <= tot_s (step d votes caps n s) c.
  Proof.
    unfold step. destruct (st_qs s) as [|[c0 m] qs'] eqn:E; [lia|]. cbv zeta.
    destruct (_ <=? _); unfold tot_s; cbn [st_totals]; [|lia].
    unfold incr. rewrite dget_or_fold_incr.
    match goal with |- context [count ?a ?l] => pose proof (count_nonneg a l) end. lia.
  Qed.

  Lemma loop_tot_mono n f : forall s c, tot_s s c <= tot_s (loop d votes caps n f s) c.
  Proof.
    induction f as [|f IH]; intros s c; simpl; [lia|].
    destruct (_ && _); [|lia]. etransitivity; [apply (step_tot_mono n)|apply IH].
  Qed.

  Lemma loop_stopped n f s : st_rem s <= 0 -> loop d votes caps n f s = s.
  Proof.
    destruct f; simpl; [reflexivity|]. intros H.
    assert (0 <? st_rem s = false) as -> by (apply Z.ltb_ge; exact H). reflexivity.
  Qed.

  (* the two cap tests agree while every total is below n *)
  Lemma cap_agree n t c : t < n ->
    (t <? cap_of caps n c) = (t <? cap_of caps (n + 1) c).
  Proof.
    intros H. unfold cap_of, dget_or. destruct (dget caps c); [reflexivity|].
    assert (t <? n = true) as -> by (apply Z.ltb_lt; lia).
    symmetry. apply Z.ltb_lt. lia.
  Qed.

  Lemma pop_reinsert_agree n t : (forall c, dget_or t c 0 < n) ->
    forall k qs, pop_reinsert d votes caps n t k qs = pop_reinsert d votes caps (n + 1) t k qs.
  Proof.
    intros Ht. induction k as [|k IH]; intros qs; simpl; [reflexivity|].
    destruct qs as [|[c x] rest]; [reflexivity|].
    rewrite <- (cap_agree n _ c (Ht c)). apply IH.
  Qed.

  Lemma initial_quotients_agree n prev : (forall c, dget_or prev c 0 < n) ->
    initial_quotients d votes prev caps n = initial_quotients d votes prev caps (n + 1).
  Proof.
    intros Ht. unfold initial_quotients. apply (f_equal (fun items => rev (@sort_asc C Q Qle_bool items))).
    induction votes as [|[c v] vs IH]; simpl; [reflexivity|].
    rewrite IH. rewrite <- (cap_agree n _ c (Ht c)). reflexivity.
  Qed.

  (* the bound: totals + remaining seats never exceed the house *)
  Definition J (n : Z) (s : state) : Prop := 0 <= st_rem s /\ forall c, tot_s s c + st_rem s <= n.

  Lemma step_J n s : J n s -> J n (step d votes caps n s).
  Proof.
    intros [Hr Hb]. unfold step. destruct (st_qs s) as [|[c0 m] qs'] eqn:E; [split; assumption|]. cbv zeta.
    match goal with |- context [Z.of_nat ?x <=? _] => set (k := x) in * end.
    destruct (Z.of_nat k <=? st_rem s) eqn:Ek; unfold J, tot_s; cbn [st_totals st_rem].
    - apply Z.leb_le in Ek. split; [lia|]. intros c. unfold incr. rewrite dget_or_fold_incr.
      match goal with |- context [count ?a ?l] => pose proof (count_le_length a l) as Hc end.
      rewrite map_length, rev_length, firstn_length in Hc.
      specialize (Hb c). unfold tot_s in Hb. lia.
    - split; [lia|]. intros c. specialize (Hb c). unfold tot_s in Hb. lia.
  Qed.

  (* what one step does, by cases on the head run of the quotient list *)
  Lemma step_award n s c0 m qs' : st_qs s = (c0, m) :: qs' ->
    let k := run_length m ((c0, m) :: qs') in
    let T := map fst (rev (firstn k ((c0, m) :: qs'))) in
    Z.of_nat k <= st_rem s ->
    st_totals (step d votes caps n s) = fold_left incr T (st_totals s) /\
    st_rem (step d votes caps n s) = st_rem s - Z.of_nat k /\ st_tie (step d votes caps n s) = None /\
    st_qs (step d votes caps n s) = pop_reinsert d votes caps n (fold_left incr T (st_totals s)) k ((c0, m) :: qs').
  Proof.
    intros E k T Hk. unfold step. rewrite E. cbv zeta. fold k. rewrite (proj2 (Z.leb_le _ _) Hk). repeat split.
  Qed.

  Lemma step_tied n s c0 m qs' : st_qs s = (c0, m) :: qs' ->
    let k := run_length m ((c0, m) :: qs') in
    st_rem s < Z.of_nat k ->
    st_totals (step d votes caps n s) = st_totals s /\ st_rem (step d votes caps n s) = 0 /\
    st_tie (step d votes caps n s) = Some (map fst (rev (firstn k ((c0, m) :: qs'))), st_rem s).
  Proof.
    intros E k Hk. unfold step. rewrite E. cbv zeta. fold k. rewrite (proj2 (Z.leb_gt _ _) Hk). repeat split.
  Qed.

  Lemma run_length_le m (l : list qitem) : (run_length m l <= length l)%nat.
  Proof. induction l as [|y l IH]; simpl; [lia|]. destruct (Qeq_bool (snd y) m); simpl; lia. Qed.

  (* the simulation of the run sb for n + 1 seats by the run sa for n seats: same totals, one more seat to give in sb,
     the same queue while sa has seats to give, and sa within the house of n *)
  Definition R (n : Z) (sa sb : state) : Prop :=
    st_totals sa = st_totals sb /\ st_rem sb = st_rem sa + 1 /\
    (0 < st_rem sa -> st_qs sa = st_qs sb) /\ J n sa.

  (* the outcome of the smaller run sa and of the larger run sb: sa ends without a tie and nobody's total is smaller in sb;
     or sa ends with Tie(T, r), and sb either reports Tie(T, r + 1) with the same totals, or - when r + 1 = |T| - gives
     every member of T one more seat and reports no tie *)
  Definition tie_rel (sa sb : state) : Prop :=
    (st_tie sa = None /\ forall c, tot_s sa c <= tot_s sb c) \/
    (exists T r, st_tie sa = Some (T, r) /\
       ((st_tie sb = Some (T, r + 1) /\ st_totals sb = st_totals sa) \/
        (st_tie sb = None /\ Z.of_nat (length T) = r + 1 /\ forall c, tot_s sb c = tot_s sa c + count c T))).

  Lemma tie_rel_tot sa sb : tie_rel sa sb -> forall c, tot_s sa c <= tot_s sb c.
  Proof.
    intros [[_ H]|(T & r & _ & [[_ H]|(_ & _ & H)])] c; [apply H|unfold tot_s; rewrite H; lia|].
    rewrite H. pose proof (count_nonneg c T). lia.
  Qed.

  (* the smaller run has stopped without a tie *)
  Lemma stopped_rel n f sa sb : st_totals sa = st_totals sb -> st_tie sa = None -> tie_rel sa (loop d votes caps n f sb).
  Proof.
    intros Ht Htie. left. split; [exact Htie|]. intros c. etransitivity; [|apply loop_tot_mono]. unfold tot_s. rewrite Ht. lia.
  Qed.

  Lemma loop_S n f s : loop d votes caps n (S f) s =
    if (0 <? st_rem s) && negb match st_qs s with [] => true | _ => false end
    then loop d votes caps n f (step d votes caps n s) else s.
  Proof. reflexivity. Qed.

  Lemma loop_sim n : forall f sa sb, R n sa sb -> st_tie sa = None -> st_rem sa <= Z.of_nat f ->
    tie_rel (loop d votes caps n f sa) (loop d votes caps (n + 1) (S f) sb).
  Proof.
    induction f as [|f IH]; intros sa sb (Ht & Hr & Hq & HJ) Htie Hf; [apply stopped_rel; assumption|].
    rewrite (loop_S n f sa).
    destruct ((0 <? st_rem sa) && negb match st_qs sa with [] => true | _ => false end) eqn:Eg;
      [|apply stopped_rel; assumption].
    apply andb_true_iff in Eg. destruct Eg as [Era Eqa]. apply Z.ltb_lt in Era. specialize (Hq Era).
    rewrite (loop_S (n + 1) (S f) sb), <- Hq, Eqa, (proj2 (Z.ltb_lt 0 (st_rem sb))) by lia. cbn [andb].
    (* one step on both sides *)
    destruct (st_qs sa) as [|[c0 m] qs'] eqn:Eqs; [discriminate|]. symmetry in Hq.
    set (k := run_length m ((c0, m) :: qs')). set (T := map fst (rev (firstn k ((c0, m) :: qs')))).
    destruct (Z_le_gt_dec (Z.of_nat k) (st_rem sa)) as [Hka|Hka].
    - (* both runs award the batch *)
      destruct (step_award n sa c0 m qs' Eqs Hka) as (Ta & Ra & Tia & Qa).
      destruct (step_award (n + 1) sb c0 m qs' Hq) as (Tb & Rb & _ & Qb); [fold k; lia|]. fold k T in Ta, Ra, Qa, Tb, Rb, Qb.
      pose proof (step_J n sa HJ) as HJ'. pose proof (step_rem d votes caps n sa Era) as Hdec. rewrite Eqs in Hdec.
      apply IH; [|exact Tia|specialize (Hdec ltac:(discriminate)); lia]. split; [rewrite Ta, Tb, Ht; reflexivity|]. split; [lia|]. split; [|exact HJ'].
      intros Hpos. rewrite Qa, Qb, Ht. apply pop_reinsert_agree. intros c'.
      destruct HJ' as [_ Hb]. specialize (Hb c'). unfold tot_s in Hb. rewrite Ta, Ht in Hb. lia.
    - (* the smaller run reports a tie and stops *)
      destruct (step_tied n sa c0 m qs' Eqs) as (Ta & Ra & Tia); [fold k; lia|]. fold k T in Tia.
      rewrite (loop_stopped n f _) by lia. right. exists T, (st_rem sa). split; [exact Tia|].
      destruct (Z_le_gt_dec (Z.of_nat k) (st_rem sb)) as [Hkb|Hkb].
      + (* one more seat is exactly what the tie needed *)
        destruct (step_award (n + 1) sb c0 m qs' Hq Hkb) as (Tb & Rb & Tib & _). fold k T in Tb, Rb.
        rewrite (loop_stopped (n + 1) (S f) _) by lia. right. split; [exact Tib|]. split.
        * unfold T. rewrite map_length, rev_length, firstn_length, Nat.min_l by apply run_length_le. lia.
        * intros c. unfold tot_s. rewrite Tb, Ta, <- Ht. unfold incr. apply dget_or_fold_incr.
      + (* the tie stays, with one more seat open *)
        destruct (step_tied (n + 1) sb c0 m qs' Hq) as (Tb & Rb & Tib); [fold k; lia|]. fold k T in Tib.
        rewrite (loop_stopped (n + 1) (S f) _) by lia. left. rewrite Tib, Tb, Ta, Hr, Ht. split; reflexivity.
  Qed.

  Lemma final_sim n prev : Forall (fun cv => 0 <= snd cv) prev ->
    tie_rel (final_state d votes n prev caps) (final_state d votes (n + 1) prev caps).
  Proof.
    intros Hp. unfold final_state.
    set (ra := n - zsum (map snd prev)).
    assert (Hrb : st_rem (init_state d votes (n + 1) prev caps) = ra + 1) by (unfold init_state, ra; cbn [st_rem]; lia).
    assert (Hra : st_rem (init_state d votes n prev caps) = ra) by reflexivity.
    rewrite Hrb, Hra.
    destruct (Z.lt_ge_cases ra 0) as [Hneg|Hge].
    - (* no seat open in the smaller house: it keeps the previous gains *)
      assert (Z.to_nat ra = 0%nat) as -> by lia. apply (stopped_rel (n + 1)); reflexivity.
    - replace (Z.to_nat (ra + 1)) with (S (Z.to_nat ra)) by lia.
      apply loop_sim; [|reflexivity|rewrite Hra; lia].
      unfold R, init_state. cbn [st_totals st_rem st_qs]. split; [reflexivity|]. split; [lia|].
      assert (Hb : forall c', dget_or prev c' 0 + ra <= n).
      { intros c'. pose proof (dget_or_le_zsum prev c' Hp). unfold ra. lia. }
      split.
      + fold ra. intros Hpos. apply initial_quotients_agree. intros c'. specialize (Hb c'). lia.
      + unfold J, tot_s. cbn [st_totals st_rem]. fold ra. split; [exact Hge|exact Hb].
  Qed.

  Theorem house_monotone n prev : Forall (fun cv => 0 <= snd cv) prev ->
    forall c, tot_s (final_state d votes n prev caps) c <= tot_s (final_state d votes (n + 1) prev caps) c.
  Proof. intros Hp. apply tie_rel_tot, final_sim, Hp. Qed.
End House.

(* Vote monotonicity.  Declarative argument from the invariants of Proofs/HA_proofs.v
   (optimality; the last seat of every party was awarded at its exact quotient), strengthened by
   one that needs a STRICTLY increasing divisor and positive votes: every waiting quotient is
   strictly below every awarded one. *)
Lemma quot_strict (v a b : Q) : (0 < v -> 0 < a -> a < b -> v / b < v / a)%Q.
Proof.
  intros Hv Ha Hab. assert (Hb : (0 < b)%Q) by lra.
  apply Qlt_shift_div_r; [exact Hb|].
  unfold Qdiv.
  assert (Hi : (0 < / a)%Q) by (apply Qinv_lt_0_compat; exact Ha).
  assert (Hone : (a * / a == 1)%Q) by (apply Qmult_inv_r; lra).
  set (i := (/ a)%Q) in *.
  assert (Hvi : (0 < v * i)%Q) by (apply Qmult_lt_0_compat; lra).
  assert (H2 : (v * i * a == v)%Q) by (rewrite <- Qmult_assoc, (Qmult_comm i a), Hone; ring).
  rewrite <- H2 at 1.
  rewrite !(Qmult_comm (v * i)).
  apply Qmult_lt_compat_r; assumption.
Qed.

Lemma count_split c u x w : count c (u ++ x :: w) = count c (u ++ w) + (if ceqb c x then 1 else 0).
Proof. rewrite !count_app. simpl. lia. Qed.

(* a sub-multiset is not longer; finds a party that gained a seat *)
Lemma submultiset_length p : forall l2 l1, (forall q, count q l2 <= count q l1) ->
  Z.of_nat (length l2) + (count p l1 - count p l2) <= Z.of_nat (length l1).
Proof.
  induction l2 as [|x l2 IH]; intros l1 H.
  - simpl. pose proof (count_le_length p l1). lia.
  - assert (Hx : In x l1).
    { destruct (in_dec Pos.eq_dec x l1) as [Hi|Hn]; [exact Hi|].
      specialize (H x). simpl in H. rewrite ceqb_refl in H. rewrite (count_notin _ _ Hn) in H.
      pose proof (count_nonneg x l2). lia. }
    destruct (in_split _ _ Hx) as (u & w & ->).
    specialize (IH (u ++ w)).
    assert (Hsub : forall q, count q l2 <= count q (u ++ w)).
    { intros q. specialize (H q). rewrite count_split in H. simpl in H. lia. }
    specialize (IH Hsub). rewrite count_split. cbn [count length]. rewrite !app_length in *. cbn [length].
    destruct (ceqb p x); lia.
Qed.

(* either l2 is a sub-multiset of l1, or some element occurs more often in l2 *)
Lemma count_le_dec (l1 l2 : list C) : (forall q, count q l2 <= count q l1) \/ exists q, count q l1 < count q l2.
Proof.
  destruct (existsb (fun q => count q l1 <? count q l2) l2) eqn:E.
  - right. apply existsb_exists in E. destruct E as (q & _ & Hq). exists q. apply Z.ltb_lt. exact Hq.
  - left. intros q. destruct (in_dec Pos.eq_dec q l2) as [Hi|Hn]; [|rewrite (count_notin _ _ Hn); apply count_nonneg].
    destruct (Z.lt_ge_cases (count q l1) (count q l2)) as [Hlt|Hge]; [|lia].
    assert (existsb (fun q => count q l1 <? count q l2) l2 = true); [|congruence].
    apply existsb_exists. exists q. split; [exact Hi|apply Z.ltb_lt; exact Hlt].
Qed.

Lemma count_pigeon p l1 l2 : (length l1 <= length l2)%nat -> count p l2 < count p l1 ->
  exists q, count q l1 < count q l2.
Proof.
  intros Hlen Hp. destruct (count_le_dec l1 l2) as [Hall|H]; [exfalso|exact H].
  pose proof (submultiset_length p l2 l1 Hall). lia.
Qed.

Section Strict.
  Variable d : Z -> Q.
  Variable votes : list (C * Q).
  Variable caps : list (C * Z).
  Variable prev : list (C * Z).
  Variable n : Z.
  Hypothesis Hpos : forall k, 0 <= k -> (0 < d k)%Q.
  Hypothesis Hmono : forall k, 0 <= k -> (d k <= d (k + 1)%Z)%Q.
  Hypothesis Hstrict : forall k, 0 <= k -> (d k < d (k + 1)%Z)%Q.
  Hypothesis Hvpos : forall c v, In (c, v) votes -> (0 < v)%Q.
  Hypothesis Hnd : NoDup (map fst votes).
  Hypothesis Hprev : forall c, 0 <= dget_or prev c 0.

  Lemma Hvotes0 : forall c v, In (c, v) votes -> (0 <= v)%Q.
  Proof. intros c v H. apply Qlt_le_weak, (Hvpos c v H). Qed.

  Notation cap := (cap_of caps n).
  Notation Inv1 := (Inv d votes caps prev n).

  Definition Inv2 (s : state) : Prop :=
    forall a y, In a (st_awards s) -> In y (st_qs s) -> (snd y < snd a)%Q.

  Lemma newq_lt t t' b x : item_ok d votes caps n t b -> tot_of t' (fst b) = tot_of t (fst b) + 1 ->
    In x (newq d votes caps n t' b) -> (snd x < snd b)%Q.
  Proof.
    intros (v & Hv & Hs & H0 & _) Ht'. unfold newq. rewrite Hv, Ht', Hs.
    destruct (_ <? _); [|intros []]. intros [<-|[]]. cbn [snd].
    apply quot_strict; [exact (Hvpos _ _ (dget_In _ _ _ Hv))|apply Hpos, H0|apply Hstrict, H0].
  Qed.

  Lemma step_inv2 s : Inv1 s -> Inv2 s -> st_qs s <> [] -> Inv2 (step d votes caps n s).
  Proof.
    intros I S1 Hne.
    destruct (step_open d votes caps prev n Hpos Hmono Hvotes0 s I Hne)
      as (m & batch & rest & Hqs & Hbne & Hmax & Hlev & Hrest & Hndb & _ & Hitb & _ & ->).
    pose proof (reins_perm d votes caps n) as Hperm.
    destruct (Z.of_nat (length batch) <=? st_rem s); intros a y; cbn [st_awards st_qs]; intros Ha Hy.
    - (* the batch is elected *)
      assert (Ham : (m <= snd a)%Q).
      { apply in_app_or in Ha. destruct Ha as [Ha|Ha]; [|apply in_rev in Ha; rewrite (Hlev a Ha); apply Qle_refl].
        destruct batch as [|b0 batch']; [congruence|]. rewrite <- (Hlev b0 (or_introl eq_refl)).
        pose proof (inv_optimal _ _ _ _ _ _ I a Ha) as Ho. rewrite Forall_forall in Ho. apply Ho. rewrite Hqs. left. reflexivity. }
      apply (Permutation_in _ (Hperm _ batch rest)), in_app_or in Hy. destruct Hy as [Hy|Hy].
      + apply in_flat_map in Hy. destruct Hy as (b & Hb & Hy).
        pose proof (newq_lt (st_totals s) _ b y (Hitb b Hb) (proj1 (elect_totals (st_totals s) batch Hndb) _ (in_map fst _ _ Hb)) Hy) as Hlt.
        rewrite (Hlev b Hb) in Hlt. lra.
      + assert (Hyq : In y (st_qs s)) by (rewrite Hqs; apply in_or_app; right; exact Hy).
        pose proof (Hmax y Hyq). pose proof (Hrest y Hy). lra.
    - (* tie: the queue is permuted, the awards stay *)
      apply (S1 a y Ha). apply (Permutation_in _ (Hperm _ batch rest)) in Hy.
      rewrite (flat_map_newq_same d votes caps n _ batch), <- Hqs in Hy by (apply Forall_forall; exact Hitb). exact Hy.
  Qed.

  Lemma final_inv2 : Inv2 (final_state d votes n prev caps).
  Proof.
    unfold final_state. apply (loop_ind d votes caps n (fun s => Inv1 s /\ Inv2 s)).
    - intros s [I I2] Hrem Hne. split; [apply (step_inv d votes caps prev n Hpos Hmono Hvotes0)|apply step_inv2]; assumption.
    - split; [apply init_inv; assumption|]. intros a y [].
  Qed.

  Lemma waiting_below_last s c v q : Inv1 s -> Inv2 s -> last_award d votes prev s -> In (c, v) votes -> tot s c < cap c ->
    dget_or prev q 0 < tot s q -> exists vq, dget votes q = Some vq /\ (v / d (tot s c) < vq / d (tot s q - 1))%Q.
  Proof.
    intros I S1 S2 Hc Hlt Hq. destruct (S2 q Hq) as (vq & Hvq & Haw). exists vq. split; [exact Hvq|].
    exact (S1 _ _ Haw (waits_in_queue d votes caps prev n Hnd s c v I Hc Hlt)).
  Qed.
End Strict.

Section Votes.
  Variable d : Z -> Q.
  Variables votes votes' : list (C * Q).
  Variable caps : list (C * Z).
  Variable prev : list (C * Z).
  Variable n : Z.
  Hypothesis Hpos : forall k, 0 <= k -> (0 < d k)%Q.
  Hypothesis Hstrict : forall k, 0 <= k -> (d k < d (k + 1)%Z)%Q.
  Hypothesis Hvpos : forall c v, In (c, v) votes -> (0 < v)%Q.
  Hypothesis Hvpos' : forall c v, In (c, v) votes' -> (0 < v)%Q.
  Hypothesis Hnd : NoDup (map fst votes).
  Hypothesis Hnd' : NoDup (map fst votes').
  Hypothesis Hprev : forall c, 0 <= dget_or prev c 0.
  (* votes' = votes except that party p has at least as many votes *)
  Variable p : C.
  Variables vp vp' : Q.
  Hypothesis Hp : dget votes p = Some vp.
  Hypothesis Hp' : dget votes' p = Some vp'.
  Hypothesis Hmore : (vp <= vp')%Q.
  Hypothesis Hothers : forall c, c <> p -> dget votes' c = dget votes c.

  Notation fa := (final_state d votes n prev caps).
  Notation fb := (final_state d votes' n prev caps).
  Notation cap := (cap_of caps n).

  Lemma Hmono_of_strict : forall k, 0 <= k -> (d k <= d (k + 1)%Z)%Q.
  Proof. intros k Hk. apply Qlt_le_weak, Hstrict, Hk. Qed.

  Theorem votes_monotone : st_tie fb = None -> st_rem fb <= 0 -> tot fa p <= tot fb p.
  Proof.
    intros Htie Hrem.
    pose proof Hmono_of_strict as Hmono.
    pose proof (final_inv d votes caps prev n Hpos Hmono (Hvotes0 votes Hvpos) Hnd Hprev) as Ia.
    pose proof (final_inv d votes' caps prev n Hpos Hmono (Hvotes0 votes' Hvpos') Hnd' Hprev) as Ib.
    pose proof (final_inv2 d votes caps prev n Hpos Hmono Hstrict Hvpos Hnd Hprev) as I2a.
    pose proof (final_inv2 d votes' caps prev n Hpos Hmono Hstrict Hvpos' Hnd' Hprev) as I2b.
    pose proof (final_last_award d votes caps prev n Hpos Hmono (Hvotes0 votes Hvpos) Hnd Hprev) as La.
    pose proof (final_last_award d votes' caps prev n Hpos Hmono (Hvotes0 votes' Hvpos') Hnd' Hprev) as Lb.
    destruct (Z.lt_ge_cases (tot fb p) (tot fa p)) as [Hlt|Hge]; [exfalso|lia].
    (* p holds fewer seats in b; b has handed out all seats, so somebody else holds more *)
    pose proof (inv_account _ _ _ _ _ _ Ia) as Acca. pose proof (inv_account _ _ _ _ _ _ Ib) as Accb.
    pose proof (count_nonneg p (map fst (st_awards fb))) as Hpb0.
    assert (Hcp : count p (map fst (st_awards fb)) < count p (map fst (st_awards fa))).
    { rewrite (Acca p), (Accb p) in Hlt. lia. }
    assert (Hlen : (length (map fst (st_awards fa)) <= length (map fst (st_awards fb)))%nat).
    { rewrite !map_length.
      pose proof (inv_remacc _ _ _ _ _ _ Ia) as Ra. pose proof (inv_remacc _ _ _ _ _ _ Ib) as Rb. rewrite Htie in Rb.
      destruct (inv_rem _ _ _ _ _ _ Ia) as [Hra|Ha]; [|rewrite Ha in Hcp; simpl in Hcp; lia].
      destruct (st_tie fa) as [[T r]|] eqn:Et; [destruct (inv_tie _ _ _ _ _ _ Ia T r Et) as (_ & Hr & _)|]; lia. }
    destruct (count_pigeon p _ _ Hlen Hcp) as (q & Hq).
    assert (Hqp : q <> p) by (intros ->; lia).
    pose proof (count_nonneg q (map fst (st_awards fa))) as Hqa0.
    pose proof (Acca p) as Ap. pose proof (Accb p) as Bp. pose proof (Acca q) as Aq. pose proof (Accb q) as Bq.
    (* p waits in b, strictly below q's last seat there *)
    assert (Hcapp : tot fb p < cap p) by (destruct (inv_caps _ _ _ _ _ _ Ia p) as [H|H]; lia).
    destruct (waiting_below_last d votes' caps prev n Hnd' fb p vp' q Ib I2b Lb (dget_In _ _ _ Hp') Hcapp) as (vq & Hvq' & Hb); [lia|].
    assert (Hvq : dget votes q = Some vq) by (rewrite <- (Hothers q Hqp); exact Hvq').
    (* q waits in a, strictly below p's last seat there *)
    assert (Hcapq : tot fa q < cap q) by (destruct (inv_caps _ _ _ _ _ _ Ib q) as [H|H]; lia).
    destruct (waiting_below_last d votes caps prev n Hnd fa q vq p Ia I2a La (dget_In _ _ _ Hvq) Hcapq) as (vp0 & Hvp0 & Ha); [lia|].
    rewrite Hp in Hvp0. injection Hvp0 as <-.
    (* the quotients fall with the seat index and rise with the votes *)
    pose proof (Hprev p) as Hp0. pose proof (Hprev q) as Hq0.
    assert (H1 : (vp / d (tot fa p - 1) <= vp / d (tot fb p))%Q).
    { apply (quot_seat_mono d Hpos Hmono); [apply Qlt_le_weak, (Hvpos p), dget_In, Hp|lia]. }
    assert (H2 : (vp / d (tot fb p) <= vp' / d (tot fb p))%Q).
    { apply quot_num_mono; [apply Hpos; lia|exact Hmore]. }
    assert (H3 : (vq / d (tot fb q - 1) <= vq / d (tot fa q))%Q).
    { apply (quot_seat_mono d Hpos Hmono); [apply Qlt_le_weak, (Hvpos q), dget_In, Hvq|lia]. }
    lra.
  Qed.
End Votes.
