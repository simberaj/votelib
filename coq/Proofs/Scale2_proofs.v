(* Scale invariance (C11) of four evaluators that need no relation of their own.
   Ranked pairs and Kemeny-Young under [scalez k] of the pairwise dictionary: pair strengths and Kemeny scores are
   multiplied by k > 0, so the two stable sorts of ranked pairs produce the same pair order (the rest of the evaluator
   only looks at that order), and the set of score-maximising rankings of Kemeny-Young is the same.
   STAR (Model/Star.v): the score sums of a k-fold electorate are k-fold, so the run-off members (get_n_best of the
   sums) are the same; every pairwise support of the run-off is k-fold
   (star_pairwise (k votes) = scalez k (star_pairwise votes)); Schulze over k-fold supports is scale-free by
   Schulze_proofs.schulze_scale.  Ballot counts of score profiles are integers: the factor is a positive integer.
   PureProportionality (Model/PureProp.v): the seats are shares of the house, votes enter only through v / total, so
   every pass of the loop computes the same (normalised) fractions, fixes the same candidates and raises the same
   ZeroDivisionError on the k-fold votes. *)
From Coq Require Import ZArith QArith List Bool Lia Lqa Qfield.
From VL Require Import Prelude.PyDict Model.GetNBest Model.Convert Model.Cardinal Model.Condorcet Model.Star
     Model.QuotaDistributor Model.PureProp
     Proofs.Dict_proofs Proofs.GetNBest_proofs Proofs.Scale_proofs Proofs.Minimax_proofs
     Proofs.RankedPairs_proofs Proofs.Kemeny_proofs Proofs.LRScale_proofs Proofs.Schulze_proofs Proofs.Scale2Score_proofs.
Import ListNotations.

Section StarScale.
  Variable k : Z.
  Hypothesis Hk : (0 < k)%Z.

  Lemma star_padd_scale pv p n : Star.padd (scalez k pv) p (k * n) = scalez k (Star.padd pv p n).
  Proof. unfold Star.padd. rewrite pget0_scale, <- Z.mul_add_distr_l. apply pset_scale. Qed.

  Lemma star_inner_scale (b : sballot) (w : Z) (x : C) (l : list C) : forall pv,
    fold_left (fun pv y => if prefers b x y then Star.padd pv (x, y) (k * w) else pv) l (scalez k pv)
    = scalez k (fold_left (fun pv y => if prefers b x y then Star.padd pv (x, y) w else pv) l pv).
  Proof.
    induction l as [|y l IH]; intros pv; cbn [fold_left]; [reflexivity|].
    destruct (prefers b x y); [rewrite star_padd_scale|]; apply IH.
  Qed.

  Lemma star_outer_scale (b : sballot) (w : Z) (members l : list C) : forall pv,
    fold_left (fun pv x => fold_left (fun pv y => if prefers b x y then Star.padd pv (x, y) (k * w) else pv) members pv) l (scalez k pv)
    = scalez k (fold_left (fun pv x => fold_left (fun pv y => if prefers b x y then Star.padd pv (x, y) w else pv) members pv) l pv).
  Proof.
    induction l as [|x l IH]; intros pv; cbn [fold_left]; [reflexivity|].
    rewrite star_inner_scale. apply IH.
  Qed.

  Theorem star_pairwise_scale votes members :
    star_pairwise (scale_z k votes) members = scalez k (star_pairwise votes members).
  Proof.
    unfold star_pairwise. change (@nil (pair * Z)) with (scalez k []) at 1. generalize (@nil (pair * Z)) as pv.
    induction votes as [|bw votes IH]; intros pv; cbn [scale_z map fold_left fst snd]; [reflexivity|].
    rewrite star_outer_scale. apply IH.
  Qed.

  Lemma star_runoff_scale votes n :
    match score_to_simple star_cfg votes, score_to_simple star_cfg (scale_z k votes) with
    | inl a, inl a' => get_n_best Qle_bool a' n = get_n_best Qle_bool a n
    | inr e, inr e' => e = e'
    | _, _ => False
    end.
  Proof.
    pose proof (score_to_simple_rel k Hk star_cfg votes _ (cfg_ok_no_truncation k star_cfg _ eq_refl eq_refl)
                  (sprel_scale k votes)) as Hs.
    destruct (score_to_simple star_cfg votes) as [a|e], (score_to_simple star_cfg (scale_z k votes)) as [a'|e'];
      cbn [sumrel] in Hs; try contradiction; [|exact Hs].
    exact (get_n_best_rel Qle_bool Qle_bool _ (qsc_le _ (agg_factor_pos k Hk (sc_fn star_cfg))) _ _ n Hs).
  Qed.

  Theorem star_scale votes order n : star (scale_z k votes) order n = star votes order n.
  Proof.
    unfold star. pose proof (star_runoff_scale votes (n + 1)) as Hr.
    destruct (score_to_simple star_cfg votes) as [a|e], (score_to_simple star_cfg (scale_z k votes)) as [a'|e'];
      try contradiction; [|congruence].
    rewrite Hr, star_pairwise_scale. f_equal. apply schulze_scale, Hk.
  Qed.

  Theorem star_auto_scale votes n : star_auto (scale_z k votes) n = star_auto votes n.
  Proof.
    unfold star_auto. pose proof (star_runoff_scale votes (n + 1)) as Hr.
    destruct (score_to_simple star_cfg votes) as [a|e] eqn:Ea, (score_to_simple star_cfg (scale_z k votes)) as [a'|e'] eqn:Ea';
      try contradiction; [|congruence].
    rewrite Hr, star_pairwise_scale, candidates_scale. apply star_scale.
  Qed.
End StarScale.

Local Open Scope Z_scope.

Section RPKscale.
  Variable k : Z.
  Hypothesis Hk : 0 < k.

  Lemma sort_desc_by_scale {X} (key key' : X -> Z) (l : list X) :
    (forall x, key' x = k * key x) -> sort_desc_by key' l = sort_desc_by key l.
  Proof.
    intros Hkey. unfold sort_desc_by.
    assert (E : map (fun x => (x, key' x)) l = mapv (Z.mul k) (map (fun x => (x, key x)) l)).
    { unfold mapv. rewrite map_map. apply map_ext. intros x. cbn [fst snd]. rewrite Hkey. reflexivity. }
    rewrite E, (sort_desc_map zle_bool zle_bool (Z.mul k) (zle_scale k Hk)).
    unfold mapv. rewrite map_map. reflexivity.
  Qed.

  Lemma scalez_keys v : map fst (scalez k v) = map fst v.
  Proof. unfold scalez. rewrite map_map. reflexivity. Qed.

  Lemma rp_pairs_scale s v : rp_pairs s (scalez k v) = rp_pairs s v.
  Proof.
    unfold rp_pairs. cbv zeta. rewrite (complete_scale k v), (score_pairs_scale k Hk), scalez_keys.
    rewrite (sort_desc_by_scale (fun p => pget0 (score_pairs s (complete v)) p)
                                (fun p => pget0 (scalez k (score_pairs s (complete v))) p))
      by (intros p; apply pget0_scale).
    rewrite (sort_desc_by_scale (fun p => pget0 (complete v) p) (fun p => pget0 (scalez k (complete v)) p))
      by (intros p; apply pget0_scale).
    reflexivity.
  Qed.

  Theorem ranked_pairs_scale s v n : ranked_pairs s (scalez k v) n = ranked_pairs s v n.
  Proof. rewrite !ranked_pairs_unfold, rp_pairs_scale. reflexivity. Qed.

  Lemma row_scale v u t : row (scalez k v) u t = k * row v u t.
  Proof.
    induction t as [|a t IH]; [unfold row; simpl; lia|]. rewrite !row_cons, IH, pget0_scale. lia.
  Qed.

  Lemma kemeny_score_scale v p : kemeny_score (scalez k v) p = k * kemeny_score v p.
  Proof.
    induction p as [|u t IH]; [simpl; lia|]. rewrite !kemeny_score_cons, IH, row_scale. lia.
  Qed.

  Lemma k_scored_scale v : k_scored (scalez k v) = map (fun ps => (fst ps, k * snd ps)) (k_scored v).
  Proof.
    unfold k_scored. rewrite candidates_scale, map_map. apply map_ext. intros p. cbn [fst snd].
    rewrite kemeny_score_scale. reflexivity.
  Qed.

  Lemma fold_max_scale (l : list (list C * Z)) : forall b,
    fold_left (fun b ps => Z.max b (snd ps)) (map (fun ps : list C * Z => (fst ps, k * snd ps)) l) (k * b)
    = k * fold_left (fun b ps => Z.max b (snd ps)) l b.
  Proof.
    induction l as [|x l IH]; intros b; cbn [map fold_left fst snd]; [reflexivity|].
    rewrite <- IH. f_equal. rewrite Z.mul_max_distr_nonneg_l by lia. reflexivity.
  Qed.

  Lemma k_best_scale v : k_best (scalez k v) = k * k_best v.
  Proof.
    unfold k_best. rewrite k_scored_scale. rewrite <- fold_max_scale. f_equal. lia.
  Qed.

  Lemma k_list_scale v : map fst (k_list (scalez k v)) = map fst (k_list v).
  Proof.
    unfold k_list. rewrite k_best_scale, k_scored_scale.
    apply (filter_map_fst (fun ps : list C * Z => (fst ps, k * snd ps))); [|reflexivity].
    intros [p m]. cbn [fst snd]. apply (LRScale_proofs.Zeqb_scale k Hk).
  Qed.

  Theorem kemeny_scale v n : kemeny (scalez k v) n = kemeny v n.
  Proof.
    rewrite !kemeny_unfold.
    assert (E : forall l : list (list C * Z), map (fun ps : list C * Z => firstn n (fst ps)) l = map (firstn n) (map fst l))
      by (intros l; rewrite map_map; reflexivity).
    rewrite !E, k_list_scale. reflexivity.
  Qed.
End RPKscale.

Local Open Scope Q_scope.

Section PPScale.
  Variable k : Q.
  Hypothesis Hk : 0 < k.

  Lemma filter_scaleq (g : C -> bool) votes :
    filter (fun cv : C * Q => g (fst cv)) (scaleq k votes) = scaleq k (filter (fun cv : C * Q => g (fst cv)) votes).
  Proof.
    unfold scaleq, mapv. induction votes as [|[c v] votes IH]; cbn [map filter fst]; [reflexivity|].
    destruct (g c); cbn [map fst snd]; rewrite IH; reflexivity.
  Qed.

  Lemma qsumv_scaleq votes : qsumv (scaleq k votes) == k * qsumv votes.
  Proof. exact (qsumv_rel k _ _ (vrel_scale k votes)). Qed.

  Lemma pp_cand_scale prev caps budget total total' st c v : total' == k * total -> ~ total == 0 ->
    pp_cand prev caps budget total' st (c, k * v) = pp_cand prev caps budget total st (c, v).
  Proof.
    intros Ht Hnz. unfold pp_cand. cbn [fst snd].
    assert (E : Qred (k * v * (budget / total')) = Qred (v * (budget / total))).
    { apply Qred_complete. rewrite Ht. field. split; [exact Hnz|lra]. }
    rewrite E. reflexivity.
  Qed.

  Lemma pp_pass_scale votes n prev caps st : pp_pass (scaleq k votes) n prev caps st = pp_pass votes n prev caps st.
  Proof.
    unfold pp_pass. rewrite (filter_scaleq (fun c => negb (cmem c (fst st)))).
    set (current := filter (fun cv : C * Q => negb (cmem (fst cv) (fst st))) votes).
    pose proof (qsumv_scaleq current) as Ht.
    rewrite (qsc_eq k Hk _ _ _ _ Ht (qsc_0 k)). destruct (Qeq_bool (qsumv current) 0) eqn:E; [reflexivity|]. f_equal.
    assert (Hnz : ~ qsumv current == 0) by (intros H; apply Qeq_bool_iff in H; congruence).
    generalize (fst st, filter (fun cs : C * Q => cmem (fst cs) (fst st)) (snd st)) as s0.
    generalize (inject_Z n - qsum (map snd (filter (fun cs : C * Q => cmem (fst cs) (fst st)) (snd st)))) as budget.
    intros budget. clearbody current. clear E.
    set (total := qsumv current) in *. set (total' := qsumv (scaleq k current)) in *. clearbody total total'.
    induction current as [|[c v] cur IH]; intros s0; cbn [scaleq mapv map fold_left fst snd]; [reflexivity|].
    rewrite (pp_cand_scale prev caps budget total total' s0 c v Ht Hnz). apply IH.
  Qed.

  Lemma pp_loop_scale fuel votes n prev caps : forall st,
    pp_loop fuel (scaleq k votes) n prev caps st = pp_loop fuel votes n prev caps st.
  Proof.
    induction fuel as [|f IH]; intros st; cbn [pp_loop]; [reflexivity|]. rewrite pp_pass_scale.
    destruct (pp_pass votes n prev caps st) as [st'|]; [|reflexivity].
    destruct (Nat.eqb (length (fst st')) (length (fst st))); [reflexivity|apply IH].
  Qed.

  Theorem pp_evaluate_scale votes n prev caps : pp_evaluate (scaleq k votes) n prev caps = pp_evaluate votes n prev caps.
  Proof.
    unfold pp_evaluate. unfold scaleq at 1, mapv. rewrite map_length. apply pp_loop_scale.
  Qed.
End PPScale.
