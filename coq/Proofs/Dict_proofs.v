(* Facts about the association-list dictionaries of Prelude/PyDict.v ([dget], [dset], [cmem]), the generic list lemmas the
   proof files share (NoDup of an append, filter, fold_left, Forall2), the sums [zsum], and [count], the number of
   occurrences of a candidate in a list. *)
From Coq Require Import ZArith QArith List Bool Lia Permutation.
From VL Require Import Prelude.PyDict.
Import ListNotations.
Open Scope Z_scope.

Lemma ceqb_eq a b : ceqb a b = true <-> a = b.
Proof. apply Pos.eqb_eq. Qed.
Lemma ceqb_refl a : ceqb a a = true.
Proof. apply Pos.eqb_refl. Qed.
Lemma ceqb_neq a b : ceqb a b = false <-> a <> b.
Proof. apply Pos.eqb_neq. Qed.

Lemma cmem_In c l : cmem c l = true <-> In c l.
Proof.
  induction l as [|x t IH]; simpl; [split; [discriminate|tauto]|].
  rewrite orb_true_iff, IH, ceqb_eq. split; intros [H|H]; auto.
Qed.

Lemma cmem_refl_all l : forallb (fun c => cmem c l) l = true.
Proof. apply forallb_forall. intros c Hc. apply cmem_In, Hc. Qed.

Lemma cmem_false c l : cmem c l = false <-> ~ In c l.
Proof. rewrite <- cmem_In. destruct (cmem c l); split; congruence. Qed.

Lemma cmem_ext l l' : (forall x, In x l <-> In x l') -> forall x, cmem x l = cmem x l'.
Proof. intros H x. apply eq_true_iff_eq. rewrite !cmem_In. apply H. Qed.

Lemma cmem_perm c l l' : Permutation l l' -> cmem c l = cmem c l'.
Proof.
  intros Hp. apply cmem_ext. intros x.
  split; apply Permutation_in; [exact Hp|apply Permutation_sym, Hp].
Qed.

Section Lists.
  Context {X : Type}.

  Lemma nodup_app_iff (a b : list X) :
    NoDup (a ++ b) <-> NoDup a /\ NoDup b /\ forall x, In x a -> ~ In x b.
  Proof.
    induction a as [|y a IH]; cbn [app].
    - split; [intros H; split; [constructor|split; [exact H|intros x []]]|intros (_ & H & _); exact H].
    - rewrite !NoDup_cons_iff, IH, in_app_iff. split.
      + intros (Hy & Ha & Hb & Hd). split; [split; [tauto|exact Ha]|split; [exact Hb|]].
        intros x [<-|Hx]; [tauto|exact (Hd x Hx)].
      + intros ((Hya & Ha) & Hb & Hd). split; [intros [H|H]; [exact (Hya H)|exact (Hd y (or_introl eq_refl) H)]|].
        split; [exact Ha|split; [exact Hb|intros x Hx; apply Hd; right; exact Hx]].
  Qed.

  Lemma nodup_app_l (a b : list X) : NoDup (a ++ b) -> NoDup a.
  Proof. intros H. apply nodup_app_iff in H. apply H. Qed.

  Lemma nodup_app_r (a b : list X) : NoDup (a ++ b) -> NoDup b.
  Proof. intros H. apply nodup_app_iff in H. apply H. Qed.

  Lemma nodup_app_disj (a b : list X) : NoDup (a ++ b) -> forall x, In x a -> ~ In x b.
  Proof. intros H. apply nodup_app_iff in H. apply H. Qed.

  Lemma nodup_app_intro (a b : list X) :
    NoDup a -> NoDup b -> (forall x, In x a -> ~ In x b) -> NoDup (a ++ b).
  Proof. intros Ha Hb Hd. apply nodup_app_iff. auto. Qed.

  Lemma forallb_false (f : X -> bool) l : forallb f l = false -> exists x, In x l /\ f x = false.
  Proof.
    induction l as [|y l IH]; simpl; [discriminate|]. destruct (f y) eqn:E; simpl.
    - intros H. destruct (IH H) as (x & Hx & Hf). exists x. split; [right; exact Hx|exact Hf].
    - intros _. exists y. split; [left; reflexivity|exact E].
  Qed.

  Lemma firstn_incl k (l : list X) : incl (firstn k l) l.
  Proof. rewrite <- (firstn_skipn k l) at 2. apply incl_appl, incl_refl. Qed.

  Lemma firstn_length_app (a b : list X) : firstn (length a) (a ++ b) = a.
  Proof. rewrite firstn_app, firstn_all, Nat.sub_diag, firstn_O, app_nil_r. reflexivity. Qed.

  Lemma filter_len_le (f : X -> bool) l : (length (filter f l) <= length l)%nat.
  Proof. induction l as [|y l IH]; [reflexivity|]. cbn [filter]. destruct (f y); cbn [length]; lia. Qed.

  Lemma filter_length_drop (f : X -> bool) l x :
    In x l -> f x = false -> (length (filter f l) < length l)%nat.
  Proof.
    induction l as [|y l IH]; intros Hin Hf; [destruct Hin|]. cbn [filter]. destruct Hin as [->|Hin].
    - rewrite Hf. pose proof (filter_len_le f l). cbn [length]. lia.
    - specialize (IH Hin Hf). destruct (f y); cbn [length]; lia.
  Qed.

  Lemma filter_all_true (f : X -> bool) l : (forall x, In x l -> f x = true) -> filter f l = l.
  Proof.
    induction l as [|x l IH]; intros H; [reflexivity|]. cbn [filter].
    rewrite (H x (or_introl eq_refl)), IH; [reflexivity|]. intros y Hy. apply H. right. exact Hy.
  Qed.

  Lemma fold_left_inv {Y} (P : X -> Prop) (f : X -> Y -> X) (l : list Y) :
    (forall a b, In b l -> P a -> P (f a b)) -> forall a, P a -> P (fold_left f l a).
  Proof.
    induction l as [|b l IH]; intros Hf a Ha; [exact Ha|]. cbn [fold_left].
    apply IH; [intros a' b' Hb'; apply Hf; right; exact Hb'|apply Hf; [left; reflexivity|exact Ha]].
  Qed.

  Lemma fold_left_ext {Y} (f g : X -> Y -> X) l : (forall a y, f a y = g a y) ->
    forall a, fold_left f l a = fold_left g l a.
  Proof. intros H. induction l as [|y l IH]; intros a; cbn [fold_left]; [reflexivity|]. rewrite H. apply IH. Qed.

  Lemma in_map_involution (t : X -> X) l a : (forall x, t (t x) = x) -> In a (map t l) <-> In (t a) l.
  Proof.
    intros t_inv. rewrite in_map_iff. split.
    - intros (x & <- & Hx). rewrite t_inv. exact Hx.
    - intros H. exists (t a). split; [apply t_inv|exact H].
  Qed.

  (* a list that an involution merely rearranges holds [a] exactly when it holds the image of [a] *)
  Lemma perm_involution_in (t : X -> X) l a : (forall x, t (t x) = x) -> Permutation l (map t l) ->
    In a l <-> In (t a) l.
  Proof.
    intros t_inv P. rewrite <- (in_map_involution t l a t_inv).
    split; apply Permutation_in; [exact P|apply Permutation_sym, P].
  Qed.

  Lemma F2_length {Y} (R : X -> Y -> Prop) l l' : Forall2 R l l' -> length l = length l'.
  Proof. induction 1; simpl; congruence. Qed.

  Lemma Forall2_impl {Y} (P Q : X -> Y -> Prop) l l' :
    (forall x y, P x y -> Q x y) -> Forall2 P l l' -> Forall2 Q l l'.
  Proof. intros H. induction 1; constructor; auto. Qed.

  Lemma Forall2_rev {Y} (R : X -> Y -> Prop) l l' : Forall2 R l l' -> Forall2 R (rev l) (rev l').
  Proof.
    intros H. induction H as [|x y l l' Hx Hl IH]; cbn [rev]; [constructor|].
    apply Forall2_app; [exact IH|constructor; [exact Hx|constructor]].
  Qed.
End Lists.

Lemma fold_min_le (l : list Z) : forall x,
  fold_left Z.min l x <= x /\ forall y, In y l -> fold_left Z.min l x <= y.
Proof.
  induction l as [|z l IH]; intros x; cbn [fold_left]; [split; [lia|intros y []]|].
  destruct (IH (Z.min x z)) as [H1 H2]. split; [lia|]. intros y [<-|Hy]; [lia|apply H2, Hy].
Qed.

Lemma zsum_acc l : forall a, fold_left Z.add l a = a + zsum l.
Proof.
  unfold zsum. induction l as [|x l IH]; intros a; simpl; [lia|].
  rewrite IH, (IH x). lia.
Qed.
Lemma zsum_nil : zsum [] = 0.
Proof. reflexivity. Qed.
Lemma zsum_cons x l : zsum (x :: l) = x + zsum l.
Proof. unfold zsum at 1. simpl. rewrite zsum_acc. lia. Qed.
Lemma zsum_app a b : zsum (a ++ b) = zsum a + zsum b.
Proof. induction a as [|x a IH]; cbn [app]; [rewrite zsum_nil; lia|]. rewrite !zsum_cons, IH. lia. Qed.

(* sums of a function over a list, compared pointwise *)
Lemma zsum_map_zero {X} (l : list X) : zsum (map (fun _ => 0) l) = 0.
Proof. induction l as [|x l IH]; cbn [map]; [reflexivity|]. rewrite zsum_cons, IH. reflexivity. Qed.
Lemma zsum_map_plus {X} (f g : X -> Z) l :
  zsum (map (fun x => f x + g x) l) = zsum (map f l) + zsum (map g l).
Proof. induction l as [|x l IH]; cbn [map]; [reflexivity|]. rewrite !zsum_cons, IH. lia. Qed.
Lemma zsum_map_le {X} (f g : X -> Z) l : (forall x, In x l -> f x <= g x) -> zsum (map f l) <= zsum (map g l).
Proof.
  induction l as [|x l IH]; intros H; cbn [map]; [rewrite zsum_nil; lia|].
  rewrite !zsum_cons. assert (f x <= g x) by (apply H; left; reflexivity).
  assert (zsum (map f l) <= zsum (map g l)) by (apply IH; intros y Hy; apply H; right; exact Hy). lia.
Qed.
Lemma zsum_map_minus {X} (f g : X -> Z) l :
  zsum (map (fun x => f x - g x) l) = zsum (map f l) - zsum (map g l).
Proof. induction l as [|x l IH]; cbn [map]; [reflexivity|]. rewrite !zsum_cons, IH. lia. Qed.
Lemma zsum_map_ext {X} (f g : X -> Z) l : (forall x, In x l -> f x = g x) -> zsum (map f l) = zsum (map g l).
Proof. intros H. f_equal. apply map_ext_in, H. Qed.
Lemma zsum_map_nonneg {X} (f : X -> Z) l : (forall x, In x l -> 0 <= f x) -> 0 <= zsum (map f l).
Proof. intros H. rewrite <- (zsum_map_zero l). apply zsum_map_le, H. Qed.
Lemma zsum_map_lt {X} (f g : X -> Z) l a : (forall x, In x l -> f x <= g x) -> In a l -> f a < g a ->
  zsum (map f l) < zsum (map g l).
Proof.
  induction l as [|x l IH]; intros H Ha Hlt; cbn [map]; [destruct Ha|]. rewrite !zsum_cons.
  assert (Hx : f x <= g x) by (apply H; left; reflexivity).
  assert (Hl : zsum (map f l) <= zsum (map g l)) by (apply zsum_map_le; intros y Hy; apply H; right; exact Hy).
  destruct Ha as [->|Ha]; [lia|].
  assert (zsum (map f l) < zsum (map g l)) by (apply IH; [intros y Hy; apply H; right; exact Hy|exact Ha|exact Hlt]). lia.
Qed.

Section D.
  Context {X : Type}.
  Lemma dget_dset (t : list (C * X)) k v k' :
    dget (dset t k v) k' = if ceqb k' k then Some v else dget t k'.
  Proof.
    induction t as [|[k0 v0] t IH]; simpl.
    - destruct (ceqb k' k); reflexivity.
    - destruct (ceqb k k0) eqn:E; simpl.
      + apply ceqb_eq in E. subst k0. destruct (ceqb k' k); reflexivity.
      + destruct (ceqb k' k0) eqn:E2.
        * apply ceqb_eq in E2. subst k0.
          assert (ceqb k' k = false) as ->; [|reflexivity].
          apply ceqb_neq. apply ceqb_neq in E. congruence.
        * exact IH.
  Qed.

  Lemma dget_or_dset (t : list (C * X)) k v k' dflt :
    dget_or (dset t k v) k' dflt = if ceqb k' k then v else dget_or t k' dflt.
  Proof. unfold dget_or. rewrite dget_dset. destruct (ceqb k' k); reflexivity. Qed.

  Lemma dset_keys_in (t : list (C * X)) k v c :
    In c (map fst (dset t k v)) <-> c = k \/ In c (map fst t).
  Proof.
    induction t as [|[k0 v0] t IH]; simpl.
    - split; intros [H|[]]; left; symmetry; exact H.
    - destruct (ceqb k k0) eqn:E; simpl; [|tauto].
      apply ceqb_eq in E. subst k0. split; [intros H; right; exact H|intros [H|H]; [left; symmetry; exact H|exact H]].
  Qed.

  Lemma dset_nodup (t : list (C * X)) k v : NoDup (map fst t) -> NoDup (map fst (dset t k v)).
  Proof.
    induction t as [|[k0 v0] t IH]; simpl; intros H.
    - constructor; [intros []|constructor].
    - inversion H as [|? ? Hk Ht]; subst. destruct (ceqb k k0) eqn:E; simpl.
      + constructor; assumption.
      + constructor; [|apply IH, Ht]. rewrite dset_keys_in. intros [->|Hin]; [|tauto].
        rewrite ceqb_refl in E. discriminate.
  Qed.

  Lemma dset_fresh (t : list (C * X)) k v : ~ In k (map fst t) -> dset t k v = t ++ [(k, v)].
  Proof.
    induction t as [|[k' v'] t IH]; simpl; intros H; [reflexivity|].
    destruct (ceqb k k') eqn:E; [apply ceqb_eq in E; subst; tauto|].
    rewrite IH by tauto. reflexivity.
  Qed.

  Lemma dget_In (t : list (C * X)) k v : dget t k = Some v -> In (k, v) t.
  Proof.
    induction t as [|[k0 v0] t IH]; simpl; [discriminate|].
    destruct (ceqb k k0) eqn:E.
    - apply ceqb_eq in E. subst. intros [= ->]. left. reflexivity.
    - intros H. right. apply IH, H.
  Qed.

  Lemma In_dget (t : list (C * X)) k v : NoDup (map fst t) -> In (k, v) t -> dget t k = Some v.
  Proof.
    induction t as [|[k0 v0] t IH]; simpl; [tauto|].
    intros Hnd [H|H].
    - injection H as -> ->. rewrite ceqb_refl. reflexivity.
    - inversion Hnd as [|? ? Hk Hnd']; subst.
      destruct (ceqb k k0) eqn:E.
      + apply ceqb_eq in E. subst. exfalso. apply Hk. apply in_map_iff. exists (k0, v). auto.
      + apply IH; assumption.
  Qed.
End D.

Lemma dget_or_incr t c c' :
  dget_or (incr_t t c) c' 0 = dget_or t c' 0 + (if ceqb c' c then 1 else 0).
Proof.
  unfold incr_t. rewrite dget_or_dset. destruct (ceqb c' c) eqn:E; [|lia].
  apply ceqb_eq in E. subst. reflexivity.
Qed.

(* [count_occ] with a result in Z *)
Fixpoint count (c : C) (l : list C) : Z :=
  match l with [] => 0 | x :: t => (if ceqb c x then 1 else 0) + count c t end.

Lemma dget_or_fold_incr ks : forall t c',
  dget_or (fold_left incr_t ks t) c' 0 = dget_or t c' 0 + count c' ks.
Proof.
  induction ks as [|k ks IH]; intros t c'; simpl; [lia|].
  rewrite IH, dget_or_incr. lia.
Qed.

Lemma count_notin c l : ~ In c l -> count c l = 0.
Proof.
  induction l as [|x t IH]; simpl; intros H; [reflexivity|].
  destruct (ceqb c x) eqn:E; [apply ceqb_eq in E; subst; tauto|]. rewrite IH; tauto.
Qed.

Lemma count_nodup c l : NoDup l -> In c l -> count c l = 1.
Proof.
  induction 1 as [|x t Hx Hnd IH]; simpl; [tauto|].
  intros [->|H].
  - rewrite ceqb_refl, count_notin; [reflexivity|assumption].
  - destruct (ceqb c x) eqn:E; [apply ceqb_eq in E; subst; tauto|]. rewrite IH; [reflexivity|assumption].
Qed.

(* adding delta to the summand at the key a adds delta for every occurrence of a *)
Lemma zsum_map_point (f g : C -> Z) a delta l :
  (forall x, g x = f x + (if ceqb x a then delta else 0)) ->
  zsum (map g l) = zsum (map f l) + delta * count a l.
Proof.
  intros H. induction l as [|x l IH]; cbn [map count]; [rewrite zsum_nil; lia|].
  rewrite !zsum_cons, IH, H.
  destruct (ceqb x a) eqn:E.
  - apply ceqb_eq in E. subst x. rewrite ceqb_refl. lia.
  - assert (ceqb a x = false) as -> by (apply ceqb_neq; apply ceqb_neq in E; congruence). lia.
Qed.
Lemma zsum_point a delta l : NoDup l -> In a l -> zsum (map (fun x => if ceqb x a then delta else 0) l) = delta.
Proof.
  intros Hnd Hin.
  rewrite (zsum_map_point (fun _ => 0) (fun x => if ceqb x a then delta else 0) a delta l) by (intros x; destruct (ceqb x a); lia).
  rewrite zsum_map_zero, (count_nodup a l Hnd Hin). lia.
Qed.

Lemma count_nonneg c l : 0 <= count c l.
Proof. induction l as [|x t IH]; simpl; [lia|]. destruct (ceqb c x); lia. Qed.

Lemma count_app c a b : count c (a ++ b) = count c a + count c b.
Proof. induction a as [|y a IH]; simpl; [reflexivity|]. rewrite IH. lia. Qed.

Lemma count_rev c l : count c (rev l) = count c l.
Proof. induction l as [|x t IH]; simpl; [reflexivity|]. rewrite count_app, IH. simpl. lia. Qed.

Lemma count_in_pos c l : In c l -> 1 <= count c l.
Proof.
  induction l as [|x l IH]; intros Hin; [destruct Hin|]. simpl.
  destruct (ceqb c x) eqn:E.
  - pose proof (count_nonneg c l). lia.
  - destruct Hin as [->|Hin]; [rewrite ceqb_refl in E; discriminate|apply IH, Hin].
Qed.

Lemma count_le_length c l : count c l <= Z.of_nat (length l).
Proof. induction l as [|x l IH]; simpl; [lia|]. destruct (ceqb c x); lia. Qed.

Lemma count_cmem c l : NoDup l -> count c l = if cmem c l then 1 else 0.
Proof.
  intros H. destruct (cmem c l) eqn:E.
  - apply count_nodup; [exact H|apply cmem_In, E].
  - apply count_notin, cmem_false, E.
Qed.
