(* Shared by the Props/GenTie_*.v files that tie generated comparison code (tools/py2v.py) to the hand-written
   predicates [passes] (Model/Threshold.v) and [fulfills] (Model/QuotaDistributor.v): a decision tactic for boolean
   identities over exact-rational comparisons.  No statements about the models live here. *)
From Coq Require Import ZArith QArith List Bool Lia Lqa.
From VL Require Import Prelude.PyDict Prelude.PyNum Model.QuotaDistributor Model.Threshold Proofs.QOrd.
Close Scope Q_scope.

(* Deciding boolean identities over Q comparisons: every [Qle_bool] / [Qeq_bool] atom is split into its two
   cases with the corresponding order fact, booleans are evaluated, contradictory cases are closed by [lra].
   [lra] is linear, so each quotient [v / t] is first replaced by an opaque variable. *)
Ltac q_atoms :=
  repeat match goal with
  | |- context [Qle_bool ?a ?b] =>
      let E := fresh "E" in destruct (Qle_bool a b) eqn:E; [apply Qle_bool_iff in E | apply Qle_bool_false in E]
  | |- context [Qeq_bool ?a ?b] =>
      let E := fresh "E" in destruct (Qeq_bool a b) eqn:E; [apply Qeq_bool_iff in E | apply Qeq_bool_neq in E]
  end.
Ltac q_bool :=
  unfold py_gt, py_ge, py_lt, py_le, py_eq, py_frac, passes, fulfills in *;
  repeat match goal with
  | |- context [(?v / ?t)%Q] => let x := fresh "x" in set (x := (v / t)%Q) in *; clearbody x
  end;
  q_atoms;
  repeat match goal with b : bool |- _ => destruct b end;
  cbn [negb orb andb]; try reflexivity; exfalso;
  solve [ lra | match goal with H : ~ (?a == ?b)%Q |- _ => apply H; lra end ].

Lemma map_filter_ext {A B} (f g : A -> B) (p q : A -> bool) l :
  (forall a, f a = g a) -> (forall a, p a = q a) -> map f (filter p l) = map g (filter q l).
Proof. intros Hf Hp. rewrite (filter_ext _ _ Hp). apply map_ext. exact Hf. Qed.

Lemma map_filter_ext_in {A B} (f g : A -> B) (p q : A -> bool) l :
  (forall a, f a = g a) -> (forall a, In a l -> p a = q a) -> map f (filter p l) = map g (filter q l).
Proof. intros Hf Hp. rewrite (filter_ext_in _ _ _ Hp). apply map_ext. exact Hf. Qed.
