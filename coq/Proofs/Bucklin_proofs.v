(* Monotonicity of PreferenceAddition (Bucklin / Oklahoma; Model/Bucklin.v) for one seat (C17).

   Plan.  [cumb coef b r c] is what one unit of ballot b has given candidate c in the rounds < r, [cum] its weighted
   sum over a profile.  With nobody elected yet the dictionary total_votes after r rounds holds exactly [cum .. r]
   ([add_round_spec], [Inv]); the one-seat loop returns [Cand w] iff there is a round R at which w is above the
   quota and strictly above everybody else while nobody was above the quota before ([loop1_char]).  From that
   characterisation monotonicity is arithmetic ([core_mono]): w's cumulated totals do not drop relative to the
   quota, the others' do not rise.  [_decouple_equal_rankings] is linear in the ballots WITHOUT shared ranks:
   two profiles that differ in such ballots only keep their difference through it, for every linear functional
   of the profile ([decouple_rel]) - although the function as written loses weight of ballots with shared ranks. *)
From Coq Require Import ZArith QArith List Bool Arith Lia Lqa Permutation.
From VL Require Import Prelude.Sx Prelude.PyDict Prelude.GDict Model.GetNBest Model.Convert Model.Bucklin
     Proofs.Dict_proofs Proofs.QOrd Proofs.GetNBest_proofs Proofs.Additive_proofs.
Import ListNotations.
Open Scope Q_scope.

Lemma tadd_get T c x c' : dget_or (tadd T c x) c' 0 = if ceqb c' c then dget_or T c 0 + x else dget_or T c' 0.
Proof. unfold tadd. apply dget_or_dset. Qed.

Lemma notin_get (T : list (C * Q)) c : ~ In c (map fst T) -> dget_or T c 0 = 0.
Proof.
  unfold dget_or. induction T as [|[k v] T IH]; simpl; intros H; [reflexivity|].
  destruct (ceqb c k) eqn:E; [apply ceqb_eq in E; subst; tauto|]. apply IH. tauto.
Qed.

Lemma in_get (T : list (C * Q)) c v : NoDup (map fst T) -> In (c, v) T -> dget_or T c 0 = v.
Proof. intros Hnd Hin. unfold dget_or. rewrite (In_dget T c v Hnd Hin). reflexivity. Qed.

Fixpoint hitq (c : C) (l : list C) : Q :=
  match l with
  | [] => 0
  | x :: t => (if ceqb c x then 1 else 0) + hitq c t
  end.

Lemma hitq_nonneg c l : 0 <= hitq c l.
Proof. induction l as [|x t IH]; simpl; [lra|]. destruct (ceqb c x); lra. Qed.

Lemma hitq_notin c l : ~ In c l -> hitq c l = 0.
Proof.
  induction l as [|x t IH]; simpl; intros H; [reflexivity|].
  destruct (ceqb c x) eqn:E; [apply ceqb_eq in E; subst; tauto|]. rewrite IH by tauto. reflexivity.
Qed.

Lemma hitq_nodup_le1 c l : NoDup l -> hitq c l <= 1.
Proof.
  induction l as [|x t IH]; simpl; intros H; [lra|]. inversion H as [|? ? Hx Ht]; subst.
  destruct (ceqb c x) eqn:E.
  - apply ceqb_eq in E. subst x. rewrite (hitq_notin c t Hx). lra.
  - specialize (IH Ht). lra.
Qed.

(* round i of ballot b, per unit of weight *)
Definition contrib (coef : nat -> Q) (b : ranked) (i : nat) (c : C) : Q :=
  match nth_error b i with
  | None => 0
  | Some it => coef i * hitq c (members it)
  end.

Definition shift (coef : nat -> Q) : nat -> Q := fun i => coef (S i).

(* rounds < r of ballot b *)
Fixpoint cumb (coef : nat -> Q) (b : ranked) (r : nat) (c : C) {struct b} : Q :=
  match b with
  | [] => 0
  | it :: t =>
      match r with
      | O => 0
      | S r' => coef O * hitq c (members it) + cumb (shift coef) t r' c
      end
  end.

Lemma cumb_0 coef b c : cumb coef b 0 c = 0.
Proof. destruct b; reflexivity. Qed.

Lemma cumb_S b : forall coef r c, cumb coef b (S r) c == cumb coef b r c + contrib coef b r c.
Proof.
  induction b as [|it t IH]; intros coef r c.
  - unfold contrib. destruct r; simpl; lra.
  - destruct r as [|r].
    + cbn [cumb]. rewrite cumb_0. unfold contrib. simpl. lra.
    + cbn [cumb]. rewrite (IH (shift coef) r c). unfold contrib. simpl. unfold shift. lra.
Qed.

Lemma contrib_beyond coef b i c : (length b <= i)%nat -> contrib coef b i c = 0.
Proof. intros H. unfold contrib. apply nth_error_None in H. rewrite H. reflexivity. Qed.

Lemma cumb_beyond coef b c m : (length b <= m)%nat -> forall r, (m <= r)%nat -> cumb coef b r c == cumb coef b m c.
Proof.
  intros Hm r Hr. induction Hr as [|r Hr IH]; [reflexivity|].
  rewrite cumb_S, IH, contrib_beyond by lia. lra.
Qed.

Lemma cumb_nonneg b : forall coef r c, (forall i, 0 <= coef i) -> 0 <= cumb coef b r c.
Proof.
  induction b as [|it t IH]; intros coef r c Hc; simpl; [lra|]. destruct r; [lra|].
  pose proof (hitq_nonneg c (members it)) as Hh. pose proof (Hc O) as H0.
  assert (0 <= cumb (shift coef) t r c) by (apply IH; intros i; apply Hc).
  assert (0 <= coef O * hitq c (members it)) by (apply Qmult_le_0_compat; assumption). lra.
Qed.

Lemma cumb_notin b : forall coef r c, ~ In c (flatten b) -> cumb coef b r c == 0.
Proof.
  induction b as [|it t IH]; intros coef r c H; simpl; [reflexivity|]. destruct r; [reflexivity|].
  unfold flatten in H. simpl in H. rewrite in_app_iff in H.
  rewrite hitq_notin by tauto. rewrite IH by (unfold flatten; tauto). lra.
Qed.

Definition rsum (f : ranked -> Q) (d : list (ranked * Q)) : Q :=
  fold_right (fun bw acc => snd bw * f (fst bw) + acc) 0 d.

Lemma rsum_app f a b : rsum f (a ++ b) == rsum f a + rsum f b.
Proof. induction a as [|x a IH]; simpl; [lra|]. rewrite IH. lra. Qed.

Lemma rsum_plus f g d : rsum (fun b => f b + g b) d == rsum f d + rsum g d.
Proof. induction d as [|x d IH]; simpl; [lra|]. rewrite IH. lra. Qed.

Lemma rsum_ext_in f g d : (forall bw, In bw d -> f (fst bw) == g (fst bw)) -> rsum f d == rsum g d.
Proof.
  induction d as [|x d IH]; simpl; intros H; [reflexivity|].
  rewrite IH by (intros bw Hb; apply H; auto). rewrite (H x) by auto. reflexivity.
Qed.

Lemma rsum_zero d : rsum (fun _ => 0) d == 0.
Proof. induction d as [|x d IH]; simpl; [reflexivity|]. rewrite IH. lra. Qed.

Definition cum (coef : nat -> Q) (d : list (ranked * Q)) (r : nat) (c : C) : Q := rsum (fun b => cumb coef b r c) d.

Lemma cum_0 coef d c : cum coef d 0 c == 0.
Proof. unfold cum. rewrite <- (rsum_zero d). apply rsum_ext_in. intros bw _. rewrite cumb_0. reflexivity. Qed.

Lemma cum_S coef d r c : cum coef d (S r) c == cum coef d r c + rsum (fun b => contrib coef b r c) d.
Proof.
  unfold cum. rewrite <- rsum_plus. apply rsum_ext_in. intros bw _. apply cumb_S.
Qed.

Lemma max_pref_len_ge d bw : In bw d -> (length (fst bw) <= max_pref_len d)%nat.
Proof.
  induction d as [|x d IH]; simpl; [tauto|]. intros [->|H]; [lia|]. specialize (IH H). lia.
Qed.

Lemma cum_beyond coef d c r : (max_pref_len d <= r)%nat -> cum coef d r c == cum coef d (max_pref_len d) c.
Proof.
  intros H. unfold cum. apply rsum_ext_in. intros bw Hb.
  apply cumb_beyond; [apply max_pref_len_ge, Hb|exact H].
Qed.

Lemma wsum_rsum d : wsum d == rsum (fun _ => 1) d.
Proof. induction d as [|x d IH]; simpl; [reflexivity|]. rewrite IH. lra. Qed.

Lemma wsum_nonneg d : Forall (fun bw => 0 <= snd bw) d -> 0 <= wsum d.
Proof. induction 1 as [|x d Hx _ IH]; simpl; lra. Qed.

(* one round, nobody elected yet *)
Lemma add_members_spec y l : forall T, NoDup (map fst T) ->
  NoDup (map fst (fold_left (add_cand [] y) l T)) /\
  forall c, dget_or (fold_left (add_cand [] y) l T) c 0 == dget_or T c 0 + y * hitq c l.
Proof.
  induction l as [|x l IH]; intros T Hnd; simpl.
  - split; [exact Hnd|]. intros c. lra.
  - change (add_cand [] y T x) with (tadd T x y).
    destruct (IH (tadd T x y) (dset_nodup T x _ Hnd)) as [N V]. split; [exact N|].
    intros c. rewrite V, tadd_get. destruct (ceqb c x) eqn:E.
    + apply ceqb_eq in E. subst x. lra.
    + lra.
Qed.

Lemma add_ballot_spec coef r T bw : NoDup (map fst T) ->
  NoDup (map fst (add_ballot (coef r) r [] T bw)) /\
  forall c, dget_or (add_ballot (coef r) r [] T bw) c 0 == dget_or T c 0 + snd bw * contrib coef (fst bw) r c.
Proof.
  intros Hnd. unfold add_ballot, contrib. destruct (nth_error (fst bw) r) as [it|].
  - destruct (add_members_spec (snd bw * coef r) (members it) T Hnd) as [N V]. split; [exact N|].
    intros c. rewrite V. lra.
  - split; [exact Hnd|]. intros c. lra.
Qed.

Lemma add_round_spec coef r d : forall T, NoDup (map fst T) ->
  NoDup (map fst (add_round coef d r [] T)) /\
  forall c, dget_or (add_round coef d r [] T) c 0 == dget_or T c 0 + rsum (fun b => contrib coef b r c) d.
Proof.
  unfold add_round. induction d as [|bw d IH]; intros T Hnd; simpl.
  - split; [exact Hnd|]. intros c. lra.
  - destruct (add_ballot_spec coef r T bw Hnd) as [N1 V1].
    destruct (IH _ N1) as [N V]. split; [exact N|]. intros c. rewrite V, V1. lra.
Qed.

Definition Inv (coef : nat -> Q) (d : list (ranked * Q)) (r : nat) (T : list (C * Q)) : Prop :=
  NoDup (map fst T) /\ forall c, dget_or T c 0 == cum coef d r c.

Lemma Inv_0 coef d : Inv coef d 0 [].
Proof. split; [constructor|]. intros c. rewrite cum_0. reflexivity. Qed.

Lemma Inv_step coef d r T : Inv coef d r T -> Inv coef d (S r) (add_round coef d r [] T).
Proof.
  intros [Hnd Hv]. destruct (add_round_spec coef r d T Hnd) as [N V]. split; [exact N|].
  intros c. rewrite V, Hv, cum_S. reflexivity.
Qed.

Lemma majority_in q (T : list (C * Q)) c v : In (c, v) (majority_of q T) <-> In (c, v) T /\ q < v.
Proof.
  unfold majority_of. rewrite filter_In. simpl. rewrite ltb_Qlt.
  split; intros [H1 H2]; (split; [|exact H2]).
  - eapply Permutation_in; [apply (sort_desc_perm Qle_bool)|exact H1].
  - eapply Permutation_in; [apply Permutation_sym, (sort_desc_perm Qle_bool)|exact H1].
Qed.

Lemma majority_nodup q (T : list (C * Q)) : NoDup (map fst T) -> NoDup (map fst (majority_of q T)).
Proof.
  intros H. unfold majority_of. apply nodup_keys_filter.
  eapply Permutation_NoDup; [apply Permutation_map, Permutation_sym, (sort_desc_perm Qle_bool)|exact H].
Qed.

Lemma gnb1_length (l : list (C * Q)) : l <> [] -> length (get_n_best Qle_bool l 1) = 1%nat.
Proof.
  intros Hne. rewrite (get_n_best_length Qle_bool Qle_bool_total Qle_bool_trans l 1 (le_n 1)).
  destruct l; [congruence|reflexivity].
Qed.

Lemma drop_best_nil (T : list (C * Q)) : drop_best [] T = T.
Proof.
  unfold drop_best. induction T as [|x T IH]; [reflexivity|]. cbn [filter].
  change (elected_mem (fst x) []) with false. cbn [negb]. rewrite IH. reflexivity.
Qed.

Section LOOP1.
  Variable coef : nat -> Q.
  Variable d : list (ranked * Q).
  Variable q : Q.
  Hypothesis Hq : 0 <= q.
  Variable w : C.

  Definition wins_at (r k : nat) : Prop :=
    exists R, (r <= R < r + k)%nat /\
      (forall i c, (r <= i < R)%nat -> cum coef d (S i) c <= q) /\
      q < cum coef d (S R) w /\
      forall c, c <> w -> cum coef d (S R) c < cum coef d (S R) w.

  (* the entries of a dictionary satisfying the invariant *)
  Lemma inv_entry r T c v : Inv coef d r T -> In (c, v) T -> v == cum coef d r c.
  Proof. intros [Hnd Hv] Hin. rewrite <- (Hv c), (in_get T c v Hnd Hin). reflexivity. Qed.

  Lemma inv_value r T c : Inv coef d r T ->
    (exists v, In (c, v) T /\ v == cum coef d r c) \/ (~ In c (map fst T) /\ cum coef d r c == 0).
  Proof.
    intros HI. destruct (in_dec Pos.eq_dec c (map fst T)) as [Hin|Hnin].
    - left. apply in_map_iff in Hin. destruct Hin as ([c' v] & Hf & Hin). simpl in Hf. subst c'.
      exists v. split; [exact Hin|exact (inv_entry r T c v HI Hin)].
    - right. split; [exact Hnin|]. destruct HI as [_ Hv]. rewrite <- (Hv c), (notin_get T c Hnin). reflexivity.
  Qed.

  Lemma loop1_char : forall k r T, Inv coef d r T ->
    (pa_loop coef d q 1 (seq r k) T [] = [Cand w] <-> wins_at r k).
  Proof.
    induction k as [|k IH]; intros r T HI.
    - simpl. split; [discriminate|]. intros (R & HR & _). lia.
    - cbn [seq pa_loop]. set (T1 := add_round coef d r [] T).
      pose proof (Inv_step coef d r T HI) as HI1. fold T1 in HI1.
      pose proof (majority_nodup q T1 (proj1 HI1)) as HndM.
      change (length (@nil (res C))) with 0%nat. change (1 - 0)%nat with 1%nat. cbn [app].
      destruct (majority_of q T1) as [|m0 M] eqn:EM.
      + (* nobody above the quota: next round *)
        change (get_n_best Qle_bool [] 1) with (@nil (res C)). cbn [length Nat.eqb].
        rewrite drop_best_nil.
        assert (Hall : forall c, cum coef d (S r) c <= q).
        { intros c. destruct (inv_value (S r) T1 c HI1) as [(v & Hin & Hv)|[_ H0]]; [|rewrite H0; exact Hq].
          rewrite <- Hv. apply Qnot_lt_le. intros Hlt.
          assert (Hm : In (c, v) (majority_of q T1)) by (apply majority_in; auto). rewrite EM in Hm. destruct Hm. }
        rewrite (IH (S r) T1 HI1). split.
        * intros (R & HR & Hb & Hw & Ho). exists R. split; [lia|]. split; [|auto].
          intros i c Hi. destruct (Nat.eq_dec i r) as [->|Hne]; [apply Hall|apply Hb; lia].
        * intros (R & HR & Hb & Hw & Ho). destruct (Nat.eq_dec R r) as [->|Hne].
          { pose proof (Hall w). lra. }
          exists R. split; [lia|]. split; [|auto]. intros i c Hi. apply Hb. lia.
      + (* somebody is above the quota: the loop ends here *)
        rewrite <- EM in *. assert (Hne : majority_of q T1 <> []) by (rewrite EM; discriminate).
        pose proof (gnb1_length _ Hne) as Hlen. rewrite Hlen. cbn [Nat.eqb].
        assert (Hsome : exists c v, In (c, v) T1 /\ q < v).
        { destruct m0 as [c v]. exists c, v. apply majority_in. rewrite EM. left. reflexivity. }
        split.
        * intros Hres.
          destruct (get_n_best_1_cand Qle_bool Qle_bool_total Qle_bool_trans _ w [] HndM Hres) as (_ & v & Hin & Hmax).
          apply majority_in in Hin. destruct Hin as [Hin Hqv].
          pose proof (inv_entry _ _ _ _ HI1 Hin) as Hvw.
          exists r. split; [lia|]. split; [intros i c Hi; lia|]. split; [rewrite <- Hvw; exact Hqv|].
          intros c Hc. rewrite <- Hvw.
          destruct (inv_value (S r) T1 c HI1) as [(v' & Hin' & Hv')|[_ H0]]; [|rewrite H0; lra].
          rewrite <- Hv'. destruct (Qlt_le_dec q v') as [Hlt|Hle]; [|lra].
          apply ltb_Qlt. apply (Hmax c v'); [apply majority_in; auto|exact Hc].
        * intros (R & HR & Hb & Hw & Ho). destruct (Nat.eq_dec R r) as [->|Hne2].
          { destruct (inv_value (S r) T1 w HI1) as [(v & Hin & Hv)|[_ H0]]; [|rewrite H0 in Hw; lra].
            apply (get_n_best_unique_max Qle_bool Qle_bool_total Qle_bool_trans Pos.eq_dec _ w v HndM).
            - apply majority_in. split; [exact Hin|]. rewrite Hv. exact Hw.
            - intros c' v' Hin' Hc'. apply majority_in in Hin'. destruct Hin' as [Hin' _]. apply ltb_Qlt.
              rewrite (inv_entry _ _ _ _ HI1 Hin'), Hv. apply Ho, Hc'. }
          exfalso. destruct Hsome as (c & v & Hin & Hqv).
          assert (Hle : cum coef d (S r) c <= q) by (apply Hb; lia).
          rewrite (inv_entry _ _ _ _ HI1 Hin) in Hqv. lra.
  Qed.
End LOOP1.

Lemma core_char coef d w : 0 <= wsum d ->
  (pa_core coef d 1 = [Cand w] <-> wins_at coef d (wsum d * (1 # 2)) w 0 (max_pref_len d)).
Proof.
  intros H. unfold pa_core. apply loop1_char; [lra|apply Inv_0].
Qed.

Theorem core_mono coef d1 d2 w delta :
  Forall (fun bw => 0 <= snd bw) d1 -> Forall (fun bw => 0 <= snd bw) d2 ->
  0 <= delta -> wsum d2 * (1 # 2) == wsum d1 * (1 # 2) + delta ->
  (forall r, cum coef d1 (S r) w + delta <= cum coef d2 (S r) w) ->
  (forall r c, c <> w -> cum coef d2 (S r) c <= cum coef d1 (S r) c + delta) ->
  pa_core coef d1 1 = [Cand w] -> pa_core coef d2 1 = [Cand w].
Proof.
  intros Hn1 Hn2 Hdelta Hq Hup Hdown Hwin.
  pose proof (wsum_nonneg d1 Hn1) as Hw1. pose proof (wsum_nonneg d2 Hn2) as Hw2.
  apply (core_char coef d1 w Hw1) in Hwin. apply (core_char coef d2 w Hw2).
  set (q1 := wsum d1 * (1 # 2)) in *. set (q2 := wsum d2 * (1 # 2)) in *.
  destruct Hwin as (R1 & HR1 & Hb1 & Hw & Ho1).
  set (m2 := max_pref_len d2).
  set (P := fun r => q2 < cum coef d2 (S r) w).
  assert (Pdec : forall n, P n \/ ~ P n).
  { intros n. unfold P. destruct (Qlt_le_dec q2 (cum coef d2 (S n) w)) as [H|H]; [left; exact H|right; lra]. }
  assert (HP1 : P R1) by (unfold P; specialize (Hup R1); lra).
  (* a round of the second run, not later than R1, at which w is above the quota *)
  assert (Hr0 : exists r0, (r0 <= R1)%nat /\ (r0 < m2)%nat /\ P r0).
  { destruct (Nat.lt_ge_cases R1 m2) as [Hlt|Hge]; [exists R1; split; [lia|split; assumption]|].
    assert (Hc : cum coef d2 (S R1) w == cum coef d2 m2 w) by (apply cum_beyond; unfold m2 in *; lia).
    destruct m2 as [|m2'] eqn:Em.
    - exfalso. unfold P in HP1. rewrite Hc, cum_0 in HP1. unfold q2 in HP1. lra.
    - exists m2'. split; [lia|]. split; [lia|]. unfold P in *. rewrite <- Hc. exact HP1. }
  destruct Hr0 as (r0 & Hr01 & Hr0m & HPr0).
  (* the first such round *)
  destruct (dec_inh_nat_subset_has_unique_least_element P Pdec (ex_intro _ r0 HPr0)) as (R2 & [HPR2 Hmin] & _).
  pose proof (Hmin r0 HPr0) as HR2.
  exists R2. split; [unfold m2 in *; lia|]. split; [|split; [exact HPR2|]].
  - intros i c Hi. destruct (Pos.eq_dec c w) as [->|Hc].
    + apply Qnot_lt_le. intros HP. apply Hmin in HP. lia.
    + assert (cum coef d1 (S i) c <= q1) by (apply Hb1; lia). specialize (Hdown i c Hc). lra.
  - intros c Hc. unfold P in HPR2. destruct (Nat.eq_dec R2 R1) as [->|Hne].
    + specialize (Ho1 c Hc). specialize (Hdown R1 c Hc). specialize (Hup R1). lra.
    + assert (cum coef d1 (S R2) c <= q1) by (apply Hb1; lia). specialize (Hdown R2 c Hc). lra.
Qed.

Lemma list_eqb_eq {X} (e : X -> X -> bool) (He : forall a b, e a b = true -> a = b) :
  forall l m, list_eqb e l m = true -> l = m.
Proof.
  induction l as [|x l IH]; intros [|y m] H; simpl in H; try discriminate; [reflexivity|].
  apply andb_true_iff in H. destruct H as [H1 H2]. rewrite (He _ _ H1), (IH _ H2). reflexivity.
Qed.

Lemma item_eqb_eq a b : item_eqb a b = true -> a = b.
Proof.
  destruct a as [x|l], b as [y|m]; simpl; try discriminate.
  - intros H. apply Pos.eqb_eq in H. subst. reflexivity.
  - intros H. apply (list_eqb_eq Pos.eqb (fun a b => proj1 (Pos.eqb_eq a b))) in H. subst. reflexivity.
Qed.

Lemma ranked_eqb_eq a b : ranked_eqb a b = true -> a = b.
Proof. apply list_eqb_eq. exact item_eqb_eq. Qed.

(* indicator of one ballot *)
Definition ind (k : ranked) : ranked -> Q := fun b => if ranked_eqb k b then 1 else 0.

Lemma rsum_gadd f d k y : rsum f (gadd ranked_eqb d k y) == rsum f d + y * f k.
Proof.
  induction d as [|[k0 v] d IH]; simpl; [lra|].
  destruct (ranked_eqb k k0) eqn:E; simpl.
  - apply ranked_eqb_eq in E. subst k0. lra.
  - rewrite IH. lra.
Qed.

Lemma rsum_rdel f d k : rsum f (rdel d k) == rsum f d - f k * rsum (ind k) d.
Proof.
  unfold rdel, ind. induction d as [|[k0 v] d IH]; simpl; [lra|].
  destruct (ranked_eqb k k0) eqn:E; simpl.
  - apply ranked_eqb_eq in E. subst k0. rewrite IH. lra.
  - rewrite IH. lra.
Qed.

Definition lsum (f : ranked -> Q) (vs : list ranked) : Q := fold_right (fun v acc => f v + acc) 0 vs.

Lemma rsum_add_variants f s vs : forall d,
  rsum f (fold_left (fun acc v => gadd ranked_eqb acc v s) vs d) == rsum f d + s * lsum f vs.
Proof.
  induction vs as [|v vs IH]; intros d; simpl; [lra|]. rewrite IH, rsum_gadd. lra.
Qed.

Lemma rsum_decouple_step fx f new bw : has_shared (fst bw) = true ->
  rsum f (decouple_step fx new bw) ==
  rsum f new - f (fst bw) * rsum (ind (fst bw)) new
  + (snd bw / inject_Z (Z.of_nat (length (variants fx (fst bw))))) * lsum f (variants fx (fst bw)).
Proof.
  intros H. unfold decouple_step. rewrite H. cbv zeta. rewrite rsum_add_variants, rsum_rdel. reflexivity.
Qed.

(* two profiles that differ only in ballots without shared ranks *)
Inductive plain_diff : list (ranked * Q) -> list (ranked * Q) -> Prop :=
| pd_nil : plain_diff [] []
| pd_same bw l1 l2 : plain_diff l1 l2 -> plain_diff (bw :: l1) (bw :: l2)
| pd_left bw l1 l2 : has_shared (fst bw) = false -> plain_diff l1 l2 -> plain_diff (bw :: l1) l2
| pd_right bw l1 l2 : has_shared (fst bw) = false -> plain_diff l1 l2 -> plain_diff l1 (bw :: l2).

Lemma plain_diff_refl l : plain_diff l l.
Proof. induction l; constructor; assumption. Qed.

Lemma plain_diff_app p l1 l2 : plain_diff l1 l2 -> plain_diff (p ++ l1) (p ++ l2).
Proof. intros H. induction p; simpl; [exact H|]. constructor. exact IHp. Qed.

Lemma decouple_rel fx (D : (ranked -> Q) -> Q) :
  (forall k, has_shared k = true -> D (ind k) == 0) ->
  forall L1 L2, plain_diff L1 L2 -> forall n1 n2,
  (forall f, rsum f n1 - rsum f n2 == D f) ->
  forall f, rsum f (fold_left (decouple_step fx) L1 n1) - rsum f (fold_left (decouple_step fx) L2 n2) == D f.
Proof.
  intros HD L1 L2 H. induction H as [|bw l1 l2 _ IH|bw l1 l2 Hp _ IH|bw l1 l2 Hp _ IH]; intros n1 n2 Hn f; simpl.
  - apply Hn.
  - apply IH. intros g. destruct (has_shared (fst bw)) eqn:E.
    + rewrite !(rsum_decouple_step fx) by exact E.
      pose proof (Hn g) as H1. pose proof (Hn (ind (fst bw))) as H2. rewrite (HD _ E) in H2.
      assert (E2 : rsum (ind (fst bw)) n1 == rsum (ind (fst bw)) n2) by lra. rewrite E2. lra.
    + unfold decouple_step. rewrite E. apply Hn.
  - apply IH. intros g. unfold decouple_step. rewrite Hp. apply Hn.
  - apply IH. intros g. unfold decouple_step. rewrite Hp. apply Hn.
Qed.

Lemma ind_plain k b : has_shared k = true -> has_shared b = false -> ind k b = 0.
Proof.
  intros Hk Hb. unfold ind. destruct (ranked_eqb k b) eqn:E; [|reflexivity].
  apply ranked_eqb_eq in E. subst. congruence.
Qed.

Lemma gadd_nonneg (d : list (ranked * Q)) k y : 0 <= y ->
  Forall (fun bw => 0 <= snd bw) d -> Forall (fun bw => 0 <= snd bw) (gadd ranked_eqb d k y).
Proof.
  intros Hy. induction 1 as [|[k0 v] d Hx Hd IH]; simpl.
  - constructor; [exact Hy|constructor].
  - destruct (ranked_eqb k k0).
    + constructor; [simpl in *; lra|exact Hd].
    + constructor; [exact Hx|exact IH].
Qed.

Lemma share_nonneg y n : 0 <= y -> 0 <= y / inject_Z (Z.of_nat n).
Proof.
  intros Hy. unfold Qdiv. apply Qmult_le_0_compat; [exact Hy|]. apply Qinv_le_0_compat.
  change 0 with (inject_Z 0). rewrite <- Zle_Qle. lia.
Qed.

Lemma decouple_step_nonneg fx new bw : 0 <= snd bw ->
  Forall (fun bw => 0 <= snd bw) new -> Forall (fun bw => 0 <= snd bw) (decouple_step fx new bw).
Proof.
  intros Hy Hn. unfold decouple_step. destruct (has_shared (fst bw)); [|exact Hn]. cbv zeta.
  apply fold_left_inv.
  - intros acc v _. apply gadd_nonneg, share_nonneg, Hy.
  - exact (incl_Forall (incl_filter _ new) Hn).
Qed.

Lemma decouple_nonneg fx votes : Forall (fun bw => 0 <= snd bw) votes -> Forall (fun bw => 0 <= snd bw) (decouple fx votes).
Proof.
  intros H. unfold decouple. apply fold_left_inv; [|exact H].
  intros new bw Hbw. apply decouple_step_nonneg. exact (proj1 (Forall_forall _ votes) H bw Hbw).
Qed.

Definition prep (fx split : bool) (votes : list (ranked * Q)) : list (ranked * Q) := if split then decouple fx votes else votes.

Lemma pa_eval_1 fx coef split votes w :
  pa_eval fx coef split votes 1 = PA_ok [Cand w] <-> pa_core coef (prep fx split votes) 1 = [Cand w].
Proof.
  unfold pa_eval. fold (prep fx split votes). split.
  - destruct (prep fx split votes) as [|x t] eqn:E; [discriminate|]. unfold reconcile.
    destruct (existsb _ _); [discriminate|]. intros [= H]. exact H.
  - intros H. destruct (prep fx split votes) as [|x t] eqn:E; [vm_compute in H; discriminate|].
    rewrite H. reflexivity.
Qed.

Lemma prep_nonneg fx split votes : Forall (fun bw => 0 <= snd bw) votes -> Forall (fun bw => 0 <= snd bw) (prep fx split votes).
Proof. destruct split; [apply decouple_nonneg|auto]. Qed.

(* the difference of two profiles that differ in ballots without shared ranks survives the preparation *)
Lemma prep_rel fx split L1 L2 (D : (ranked -> Q) -> Q) :
  (split = true -> plain_diff L1 L2 /\ forall k, has_shared k = true -> D (ind k) == 0) ->
  (forall f, rsum f L1 - rsum f L2 == D f) ->
  forall f, rsum f (prep fx split L1) - rsum f (prep fx split L2) == D f.
Proof.
  intros Hs H0. destruct split; [|exact H0]. destruct (Hs eq_refl) as [Hpd HD].
  unfold prep, decouple. apply decouple_rel; assumption.
Qed.

Lemma nonneg_insert pre post (b : ranked) (x : Q) :
  Forall (fun bw => 0 <= snd bw) (pre ++ post) -> 0 <= x -> Forall (fun bw => 0 <= snd bw) (pre ++ (b, x) :: post).
Proof. intros H Hx. apply Forall_app in H. apply Forall_app. split; [|constructor]; tauto. Qed.

(* [core_mono] for two profiles whose difference, as a functional of the profile, is x times a functional u of the changed
   ballot: u gives the weight 2 h, w at least h at every round, everybody else at most h *)
Lemma core_mono_gain coef P1 P2 w (x h : Q) (u : (ranked -> Q) -> Q) :
  Forall (fun bw => 0 <= snd bw) P1 -> Forall (fun bw => 0 <= snd bw) P2 -> 0 <= x -> 0 <= h ->
  (forall f, rsum f P2 - rsum f P1 == x * u f) ->
  u (fun _ => 1) == 2 * h ->
  (forall r, h <= u (fun b => cumb coef b (S r) w)) ->
  (forall r c, c <> w -> u (fun b => cumb coef b (S r) c) <= h) ->
  pa_core coef P1 1 = [Cand w] -> pa_core coef P2 1 = [Cand w].
Proof.
  intros H1 H2 Hx Hh Hrel Hone Hup Hdown.
  apply (core_mono coef P1 P2 w (x * h)); [exact H1|exact H2|apply Qmult_le_0_compat; assumption| | |].
  - rewrite !wsum_rsum. pose proof (Hrel (fun _ => 1)) as H. rewrite Hone in H. lra.
  - intros r. unfold cum. pose proof (Hrel (fun b => cumb coef b (S r) w)) as H.
    pose proof (qmul_le_l x _ _ Hx (Hup r)). lra.
  - intros r c Hc. unfold cum. pose proof (Hrel (fun b => cumb coef b (S r) c)) as H.
    pose proof (qmul_le_l x _ _ Hx (Hdown r c Hc)). lra.
Qed.

(* what the changed ballot must satisfy (per unit of weight): w is at no round worse off, nobody else better off *)
Definition pa_lifts (coef : nat -> Q) (b b' : ranked) (w : C) : Prop :=
  (forall r, cumb coef b r w <= cumb coef b' r w) /\
  (forall r c, c <> w -> cumb coef b' r c <= cumb coef b r c).

Theorem pa_mono_replace fx coef split pre post (b b' : ranked) (x : Q) (w : C) :
  Forall (fun bw => 0 <= snd bw) (pre ++ post) -> 0 <= x ->
  (split = true -> has_shared b = false /\ has_shared b' = false) ->
  pa_lifts coef b b' w ->
  pa_eval fx coef split (pre ++ (b, x) :: post) 1 = PA_ok [Cand w] ->
  pa_eval fx coef split (pre ++ (b', x) :: post) 1 = PA_ok [Cand w].
Proof.
  intros Hnn Hx Hsh [Hup Hdown]. rewrite !pa_eval_1.
  apply (core_mono_gain coef _ _ w x 0 (fun f => f b' - f b)).
  - apply prep_nonneg, nonneg_insert; assumption.
  - apply prep_nonneg, nonneg_insert; assumption.
  - exact Hx.
  - lra.
  - apply (prep_rel fx split _ _ (fun f => x * (f b' - f b))).
    + intros Hs. destruct (Hsh Hs) as [Hb Hb']. split.
      * apply plain_diff_app, pd_left; [exact Hb'|]. apply pd_right; [exact Hb|]. apply plain_diff_refl.
      * intros k Hk. rewrite (ind_plain k b Hk Hb), (ind_plain k b' Hk Hb'). lra.
    + intros f. rewrite !rsum_app. simpl. lra.
  - lra.
  - intros r. specialize (Hup (S r)). lra.
  - intros r c Hc. specialize (Hdown (S r) c Hc). lra.
Qed.

(* an added ballot: per unit of weight it must give w at least the half vote by which it raises the quota, and
   nobody else more than that *)
Definition pa_add_ok (coef : nat -> Q) (b0 : ranked) (w : C) : Prop :=
  (forall r, (1 # 2) <= cumb coef b0 (S r) w) /\
  (forall r c, c <> w -> cumb coef b0 r c <= (1 # 2)).

Theorem pa_mono_add fx coef split pre post (b0 : ranked) (x : Q) (w : C) :
  Forall (fun bw => 0 <= snd bw) (pre ++ post) -> 0 <= x ->
  (split = true -> has_shared b0 = false) ->
  pa_add_ok coef b0 w ->
  pa_eval fx coef split (pre ++ post) 1 = PA_ok [Cand w] ->
  pa_eval fx coef split (pre ++ (b0, x) :: post) 1 = PA_ok [Cand w].
Proof.
  intros Hnn Hx Hsh [Hup Hdown]. rewrite !pa_eval_1.
  apply (core_mono_gain coef _ _ w x (1 # 2) (fun f => f b0)).
  - apply prep_nonneg, Hnn.
  - apply prep_nonneg, nonneg_insert; assumption.
  - exact Hx.
  - lra.
  - apply (prep_rel fx split _ _ (fun f => x * f b0)).
    + intros Hs. specialize (Hsh Hs). split.
      * apply plain_diff_app, pd_left; [exact Hsh|]. apply plain_diff_refl.
      * intros k Hk. rewrite (ind_plain k b0 Hk Hsh). lra.
    + intros f. rewrite !rsum_app. simpl. lra.
  - lra.
  - exact Hup.
  - intros r c Hc. exact (Hdown (S r) c Hc).
Qed.

Definition coef_good (coef : nat -> Q) : Prop := (forall i, 0 <= coef i) /\ (forall i, coef (S i) <= coef i).

Lemma coef_good_shift coef : coef_good coef -> coef_good (shift coef).
Proof. intros [H1 H2]. split; intros i; unfold shift; auto. Qed.

Lemma pa_lifts_refl coef b w : pa_lifts coef b b w.
Proof. split; intros; lra. Qed.

Lemma pa_lifts_trans coef a b c w : pa_lifts coef a b w -> pa_lifts coef b c w -> pa_lifts coef a c w.
Proof.
  intros [U1 D1] [U2 D2]. split.
  - intros r. specialize (U1 r). specialize (U2 r). lra.
  - intros r x Hx. specialize (D1 r x Hx). specialize (D2 r x Hx). lra.
Qed.

(* a common prefix changes nothing *)
Lemma pa_lifts_prefix p : forall coef b b' w,
  (forall coef', coef_good coef' -> pa_lifts coef' b b' w) -> coef_good coef -> pa_lifts coef (p ++ b) (p ++ b') w.
Proof.
  induction p as [|it p IH]; intros coef b b' w H Hg; simpl; [apply H, Hg|].
  destruct (IH (shift coef) b b' w H (coef_good_shift coef Hg)) as [U D]. split.
  - intros [|r]; cbn [cumb]; [lra|]. specialize (U r). lra.
  - intros [|r] c Hc; cbn [cumb]; [lra|]. specialize (D r c Hc). lra.
Qed.

(* w passes the item directly above it *)
Lemma swap_lifts coef (it : item) (w : C) (s : ranked) : coef_good coef -> ~ In w (members it) ->
  pa_lifts coef (it :: IP w :: s) (IP w :: it :: s) w.
Proof.
  intros [Hnn Hdec] Hw.
  pose proof (Hnn 0%nat) as N0. pose proof (Hnn 1%nat) as N1. pose proof (Hdec 0%nat) as D0.
  split.
  - intros [|[|r]]; cbn [cumb members hitq]; unfold shift; rewrite ?cumb_0, ?(hitq_notin w (members it) Hw), ?ceqb_refl; lra.
  - intros r c Hc. assert (E : ceqb c w = false) by (apply ceqb_neq; exact Hc).
    pose proof (hitq_nonneg c (members it)) as Hh.
    assert (M0 : 0 <= coef 0%nat * hitq c (members it)) by (apply Qmult_le_0_compat; assumption).
    assert (M1 : coef 1%nat * hitq c (members it) <= coef 0%nat * hitq c (members it)) by (apply Qmult_le_compat_r; assumption).
    destruct r as [|[|r]]; cbn [cumb members hitq]; unfold shift; rewrite ?cumb_0, ?E; lra.
Qed.

Theorem move_up_lifts coef (p1 p2 p3 : ranked) (w : C) : coef_good coef -> ~ In w (flatten p2) ->
  pa_lifts coef (p1 ++ p2 ++ IP w :: p3) (p1 ++ IP w :: p2 ++ p3) w.
Proof.
  intros Hg Hw. apply pa_lifts_prefix; [|exact Hg]. clear coef Hg. intros coef Hg.
  revert p3. induction p2 as [|it p2 IH] using rev_ind; intros p3; [apply pa_lifts_refl|].
  assert (Hw2 : ~ In w (flatten p2) /\ ~ In w (members it)).
  { unfold flatten in *. rewrite flat_map_app, in_app_iff in Hw. simpl in Hw. rewrite app_nil_r in Hw. tauto. }
  destruct Hw2 as [Hw2 Hwi].
  apply (pa_lifts_trans coef _ (p2 ++ IP w :: it :: p3)).
  - rewrite <- app_assoc. simpl. apply pa_lifts_prefix; [|exact Hg]. intros coef' Hg'. apply swap_lifts; assumption.
  - specialize (IH Hw2 (it :: p3)). rewrite <- app_assoc. simpl. exact IH.
Qed.

Lemma cumb_bounded b : forall coef h r c, 0 <= h -> NoDup (flatten b) -> (forall i, 0 <= coef i) ->
  (forall i, (i < length b)%nat -> coef i <= h) -> cumb coef b r c <= h.
Proof.
  induction b as [|it t IH]; intros coef h r c Hh Hnd Hnn Hle; simpl; [exact Hh|]. destruct r; [exact Hh|].
  unfold flatten in Hnd. simpl in Hnd. fold (flatten t) in Hnd.
  pose proof (Hnn 0%nat) as N0. pose proof (Hle 0%nat ltac:(simpl; lia)) as L0.
  destruct (in_dec Pos.eq_dec c (members it)) as [Hin|Hnin].
  - rewrite (cumb_notin t (shift coef) r c (nodup_app_disj _ _ Hnd c Hin)).
    pose proof (hitq_nodup_le1 c (members it) (nodup_app_l _ _ Hnd)) as H1.
    assert (coef 0%nat * hitq c (members it) <= coef 0%nat * 1) by (apply qmul_le_l; assumption). lra.
  - rewrite (hitq_notin c (members it) Hnin).
    assert (cumb (shift coef) t r c <= h).
    { apply IH; [exact Hh|apply (nodup_app_r _ _ Hnd)|intros i; apply Hnn|].
      intros i Hi. unfold shift. apply Hle. simpl. lia. }
    lra.
Qed.

Theorem top_add_ok coef (rest : ranked) (w : C) :
  (forall i, 0 <= coef i) -> (1 # 2) <= coef 0%nat ->
  (forall i, (1 <= i < S (length rest))%nat -> coef i <= (1 # 2)) -> NoDup (flatten rest) ->
  pa_add_ok coef (IP w :: rest) w.
Proof.
  intros Hnn H0 Hle Hnd. split.
  - intros r. cbn [cumb members hitq]. rewrite ceqb_refl.
    assert (0 <= cumb (shift coef) rest r w) by (apply cumb_nonneg; intros i; apply Hnn). lra.
  - intros [|r] c Hc; cbn [cumb members hitq]; [lra|].
    assert (E : ceqb c w = false) by (apply ceqb_neq; exact Hc). rewrite E.
    assert (cumb (shift coef) rest r c <= 1 # 2).
    { apply cumb_bounded; [lra|exact Hnd|intros i; apply Hnn|]. intros i Hi. unfold shift. apply Hle. lia. }
    lra.
Qed.

Lemma bucklin_coef_good : coef_good bucklin_coef.
Proof. split; intros i; unfold bucklin_coef; lra. Qed.

Lemma oklahoma_coef_good : coef_good oklahoma_coef.
Proof.
  split; intros i; unfold oklahoma_coef, Qle; cbn [Qnum Qden].
  - lia.
  - rewrite !Z.mul_1_l. apply Pos2Z.pos_le_pos. apply of_nat_S_le.
Qed.

Lemma oklahoma_coef_half i : (1 <= i)%nat -> oklahoma_coef i <= 1 # 2.
Proof.
  intros Hi. unfold oklahoma_coef, Qle. cbn [Qnum Qden]. destruct i as [|i]; [lia|].
  rewrite Nat2Pos.inj_succ by lia. lia.
Qed.

Lemma has_shared_app a b : has_shared (a ++ b) = has_shared a || has_shared b.
Proof. apply existsb_app. Qed.

Lemma has_shared_move p1 p2 p3 w : has_shared (p1 ++ IP w :: p2 ++ p3) = has_shared (p1 ++ p2 ++ IP w :: p3).
Proof.
  rewrite !has_shared_app. change (IP w :: p2 ++ p3) with ([IP w] ++ p2 ++ p3). change (IP w :: p3) with ([IP w] ++ p3).
  rewrite !has_shared_app. simpl. reflexivity.
Qed.

Lemma has_shared_plain l : has_shared (plain_ballot l) = false.
Proof. unfold plain_ballot. induction l; simpl; auto. Qed.

Lemma flatten_plain l : flatten (plain_ballot l) = l.
Proof. unfold plain_ballot, flatten. induction l as [|x l IH]; simpl; [reflexivity|]. rewrite IH. reflexivity. Qed.

Theorem pa_move_up fx coef split pre post (p1 p2 p3 : ranked) (x : Q) (w : C) :
  (forall i, 0 <= coef i) -> (forall i, coef (S i) <= coef i) ->
  Forall (fun bw => 0 <= snd bw) (pre ++ post) -> 0 <= x ->
  ~ In w (flatten p2) ->
  (split = true -> has_shared (p1 ++ p2 ++ IP w :: p3) = false) ->
  pa_eval fx coef split (pre ++ (p1 ++ p2 ++ IP w :: p3, x) :: post) 1 = PA_ok [Cand w] ->
  pa_eval fx coef split (pre ++ (p1 ++ IP w :: p2 ++ p3, x) :: post) 1 = PA_ok [Cand w].
Proof.
  intros Hnn Hdec Hw Hx Hp2 Hsh. apply pa_mono_replace; [exact Hw|exact Hx| |].
  - intros Hs. split; [apply Hsh, Hs|]. rewrite has_shared_move. apply Hsh, Hs.
  - apply move_up_lifts; [split; assumption|exact Hp2].
Qed.

Theorem pa_move_up_plain fx coef pre post (l1 l2 l3 : list C) (x : Q) (w : C) : coef_good coef ->
  Forall (fun bw => 0 <= snd bw) (pre ++ post) -> 0 <= x -> ~ In w l2 ->
  pa_eval fx coef true (pre ++ (plain_ballot (l1 ++ l2 ++ w :: l3), x) :: post) 1 = PA_ok [Cand w] ->
  pa_eval fx coef true (pre ++ (plain_ballot (l1 ++ w :: l2 ++ l3), x) :: post) 1 = PA_ok [Cand w].
Proof.
  intros [Hnn Hdec] Hw Hx Hl2. unfold plain_ballot. rewrite !map_app. cbn [map]. rewrite !map_app.
  apply pa_move_up; try assumption.
  - fold (plain_ballot l2). rewrite flatten_plain. exact Hl2.
  - intros _. change (IP w :: map IP l3) with (plain_ballot (w :: l3)). fold (plain_ballot l1). fold (plain_ballot l2).
    rewrite !has_shared_app, !has_shared_plain. reflexivity.
Qed.

Theorem pa_add_top fx coef split pre post (rest : ranked) (x : Q) (w : C) :
  (forall i, 0 <= coef i) -> (1 # 2) <= coef 0%nat ->
  (forall i, (1 <= i < S (length rest))%nat -> coef i <= (1 # 2)) -> NoDup (flatten rest) ->
  (split = true -> has_shared rest = false) ->
  Forall (fun bw => 0 <= snd bw) (pre ++ post) -> 0 <= x ->
  pa_eval fx coef split (pre ++ post) 1 = PA_ok [Cand w] ->
  pa_eval fx coef split (pre ++ (IP w :: rest, x) :: post) 1 = PA_ok [Cand w].
Proof.
  intros Hnn H0 Hle Hnd Hsh Hw Hx. apply pa_mono_add; [exact Hw|exact Hx| |].
  - intros Hs. simpl. apply Hsh, Hs.
  - apply top_add_ok; assumption.
Qed.
