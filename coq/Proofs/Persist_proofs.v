(* C19 - lemmas about Model/Persist.v *)
From Coq Require Import ZArith List Bool Lia.
From VL Require Import Model.Persist.
Import ListNotations.
Open Scope Z_scope.

(* induction on pval with a hypothesis for every member of a contained list, key or value *)
Section PvalInd.
  Variable P : pval -> Prop.
  Hypothesis HNone : P PNone.
  Hypothesis HBool : forall b, P (PBool b).
  Hypothesis HInt : forall z, P (PInt z).
  Hypothesis HFloat : forall i, P (PFloat i).
  Hypothesis HStr : forall s, P (PStr s).
  Hypothesis HFrac : forall n d, P (PFrac n d).
  Hypothesis HDec : forall s, P (PDec s).
  Hypothesis HTuple : forall l, Forall P l -> P (PTuple l).
  Hypothesis HFrozenset : forall l, Forall P l -> P (PFrozenset l).
  Hypothesis HList : forall l, Forall P l -> P (PList l).
  Hypothesis HSet : forall l, Forall P l -> P (PSet l).
  Hypothesis HDict : forall d, Forall P (map fst d) -> Forall P (map snd d) -> P (PDict d).
  Hypothesis HObj : forall c ps, Forall P (map snd ps) -> P (PObj c ps).
  Hypothesis HCallable : forall n, P (PCallable n).
  Hypothesis HOpaque : forall i, P (POpaque i).

  Fixpoint pval_nested_ind (v : pval) : P v :=
    let fix go (l : list pval) : Forall P l :=
        match l with
        | [] => Forall_nil _
        | x :: t => Forall_cons _ (pval_nested_ind x) (go t)
        end in
    match v with
    | PNone => HNone
    | PBool b => HBool b
    | PInt z => HInt z
    | PFloat i => HFloat i
    | PStr s => HStr s
    | PFrac n d => HFrac n d
    | PDec s => HDec s
    | PTuple l => HTuple l (go l)
    | PFrozenset l => HFrozenset l (go l)
    | PList l => HList l (go l)
    | PSet l => HSet l (go l)
    | PDict d =>
        HDict d ((fix gk (l : list (pval * pval)) : Forall P (map fst l) :=
                    match l with
                    | [] => Forall_nil _
                    | (k, _) :: t => Forall_cons _ (pval_nested_ind k) (gk t)
                    end) d)
                ((fix gv (l : list (pval * pval)) : Forall P (map snd l) :=
                    match l with
                    | [] => Forall_nil _
                    | (_, x) :: t => Forall_cons _ (pval_nested_ind x) (gv t)
                    end) d)
    | PObj c ps =>
        HObj c ps ((fix go (l : list (str * pval)) : Forall P (map snd l) :=
                      match l with
                      | [] => Forall_nil _
                      | (_, x) :: t => Forall_cons _ (pval_nested_ind x) (go t)
                      end) ps)
    | PCallable n => HCallable n
    | POpaque i => HOpaque i
    end.
End PvalInd.

Lemma str_eqb_refl : forall s, str_eqb s s = true.
Proof. induction s as [|c s IH]; simpl; [reflexivity|]. rewrite Z.eqb_refl. exact IH. Qed.

Lemma str_eqb_eq : forall a b, str_eqb a b = true -> a = b.
Proof.
  induction a as [|x a IH]; destruct b as [|y b]; simpl; intros H; try discriminate; [reflexivity|].
  apply andb_true_iff in H. destruct H as [H1 H2]. apply Z.eqb_eq in H1. subst. f_equal. apply IH. exact H2.
Qed.

Section AssocFacts.
  Context {K V : Type}.
  Variable eqb : K -> K -> bool.

  Lemma aset_fresh : forall (acc : list (K * V)) k v,
    memb eqb k (map fst acc) = false -> aset eqb acc k v = acc ++ [(k, v)].
  Proof.
    induction acc as [|[k' v'] acc IH]; intros k v H; simpl in *; [reflexivity|].
    apply orb_false_iff in H. destruct H as [H1 H2]. rewrite H1. f_equal. apply IH. exact H2.
  Qed.

  Lemma of_pairs_acc : forall (l acc : list (K * V)),
    nodup_acc eqb (map fst acc) (map fst l) = true ->
    fold_left (fun a kv => aset eqb a (fst kv) (snd kv)) l acc = acc ++ l.
  Proof.
    induction l as [|[k v] l IH]; intros acc H; simpl in *; [now rewrite app_nil_r|].
    apply andb_true_iff in H. destruct H as [H1 H2]. apply negb_true_iff in H1.
    rewrite (aset_fresh acc k v H1). rewrite IH.
    - rewrite <- app_assoc. reflexivity.
    - rewrite map_app. simpl. exact H2.
  Qed.

  Lemma of_pairs_nodup : forall (l : list (K * V)),
    nodupb eqb (map fst l) = true -> of_pairs eqb l = l.
  Proof. intros l H. unfold of_pairs. rewrite of_pairs_acc; [reflexivity|exact H]. Qed.

  Lemma dedupe_acc_nodup : forall (l acc : list K),
    nodup_acc eqb acc l = true -> dedupe_acc eqb acc l = acc ++ l.
  Proof.
    induction l as [|x l IH]; intros acc H; simpl in *; [now rewrite app_nil_r|].
    apply andb_true_iff in H. destruct H as [H1 H2]. apply negb_true_iff in H1. rewrite H1.
    rewrite IH by exact H2. rewrite <- app_assoc. reflexivity.
  Qed.

  Lemma dedupe_nodup : forall l : list K, nodupb eqb l = true -> dedupe eqb l = l.
  Proof. intros l H. unfold dedupe. rewrite dedupe_acc_nodup; [reflexivity|exact H]. Qed.
End AssocFacts.

Lemma combine_fst_snd : forall {X Y} (d : list (X * Y)), combine (map fst d) (map snd d) = d.
Proof. induction d as [|[a b] d IH]; simpl; [reflexivity|]. now rewrite IH. Qed.

Lemma map_let_fst : forall {A B X} (f : A -> X) (l : list (A * B)),
  map (fun kv : A * B => let (k, _) := kv in f k) l = map f (map fst l).
Proof. intros A B X f l. rewrite map_map. apply map_ext. intros [k x]. reflexivity. Qed.

Lemma map_let_snd : forall {A B X} (f : B -> X) (l : list (A * B)),
  map (fun kv : A * B => let (_, x) := kv in f x) l = map f (map snd l).
Proof. intros A B X f l. rewrite map_map. apply map_ext. intros [k x]. reflexivity. Qed.

Lemma forallb_snd_obj : forall (g : pval -> bool) (ps : list (str * pval)),
  forallb (fun kv : str * pval => let (_, x) := kv in g x) ps = forallb g (map snd ps).
Proof. intros g ps. induction ps as [|[k x] ps IH]; simpl; [reflexivity|]. now rewrite IH. Qed.

Lemma forallb_pair : forall (g : pval -> bool) (d : list (pval * pval)),
  forallb (fun kv : pval * pval => let (k, x) := kv in g k && g x) d = forallb g (map fst d) && forallb g (map snd d).
Proof.
  intros g d. induction d as [|[k x] d IH]; simpl; [reflexivity|]. rewrite IH.
  destruct (g k), (g x), (forallb g (map fst d)), (forallb g (map snd d)); reflexivity.
Qed.

(* pval_eqb is reflexive: the duplicate test really excludes structural duplicates *)
Lemma pval_eqb_refl : forall v, pval_eqb v v = true.
Proof.
  induction v using pval_nested_ind; simpl;
    try reflexivity; try apply Z.eqb_refl; try apply str_eqb_refl.
  3-6: induction H as [|x l Hx Hl IH]; [reflexivity|]; rewrite Hx; exact IH.
  - destruct b; reflexivity.
  - rewrite Z.eqb_refl, Pos.eqb_refl. reflexivity.
  - induction d as [|[k x] d IH]; [reflexivity|]. cbn [map fst snd] in H, H0. apply Forall_cons_iff in H, H0.
    destruct H as [Hk H], H0 as [Hx H0]. simpl. rewrite Hk, Hx. exact (IH H H0).
  - rewrite str_eqb_refl. simpl.
    induction ps as [|[k x] ps IH]; [reflexivity|]. cbn [map snd] in H. apply Forall_cons_iff in H. destruct H as [Hx H].
    simpl. rewrite str_eqb_refl, Hx. exact (IH H).
Qed.

Section RT.
  Variable E : env.

  Definition rt (v : pval) : Prop := forall tup, exists j, ser tup v = SOk j /\ deser E j = DOk v.

  Lemma deser_dict : forall d, deser E (JDict d) = interp E d (map (child_of E) d).
  Proof. reflexivity. Qed.

  Lemma deser_typed_seq_tuple : forall js vs, collect_d (map (deser E) js) = inl vs ->
    deser E (JDict [(s_type, JStr s_tuple); (s_value, JList false js)]) = DOk (PTuple vs).
  Proof. intros js vs H. rewrite deser_dict. cbn. rewrite H. reflexivity. Qed.

  Lemma deser_typed_seq_frozenset : forall js vs, collect_d (map (deser E) js) = inl vs ->
    deser E (JDict [(s_type, JStr s_frozenset); (s_value, JList false js)]) =
    if forallb hashable vs then DOk (PFrozenset (dedupe pval_eqb vs)) else DErr E_TYPE.
  Proof. intros js vs H. rewrite deser_dict. cbn. rewrite H. reflexivity. Qed.

  Lemma deser_typed_dict : forall ks vs kk vv,
    collect_d (map (deser E) ks) = inl kk -> collect_d (map (deser E) vs) = inl vv ->
    deser E (JDict [(s_type, JStr s_dict); (s_keys, JList false ks); (s_values, JList false vs)]) =
    if forallb hashable (map fst (combine kk vv))
    then DOk (PDict (of_pairs pval_eqb (combine kk vv))) else DErr E_TYPE.
  Proof. intros ks vs kk vv H1 H2. rewrite deser_dict. cbn. rewrite H1, H2. reflexivity. Qed.

  Lemma deser_frac : forall tup n d,
    deser E (JDict [(s_type, JStr s_Fraction); (s_arguments, JList tup [JInt n; JInt (Zpos d)])]) =
    DOk (mk_frac n (Zpos d)).
  Proof. intros tup n d. rewrite deser_dict. destruct tup; cbn; reflexivity. Qed.

  Lemma deser_dec : forall s,
    deser E (JDict [(s_type, JStr s_Decimal); (s_value, JStr s)]) =
    match dec_canon E s with Some s' => DOk (PDec s') | None => DErr E_OTHER end.
  Proof. intros s. rewrite deser_dict. cbn. reflexivity. Qed.

  Lemma deser_callable : forall n, is_scoped_identifier E n = true ->
    deser E (JDict [(s_callable, JStr n)]) =
    if callable_resolves E n then DOk (PCallable n) else DErr E_ATTR.
  Proof.
    intros n H. rewrite deser_dict. unfold interp, sniff. cbn [aget map str_eqb s_type s_class s_callable Z.eqb Pos.eqb andb].
    cbn. rewrite H. reflexivity.
  Qed.

  Lemma mk_frac_reduced : forall n d, Z.gcd n (Zpos d) = 1 -> mk_frac n (Zpos d) = PFrac n d.
  Proof.
    intros n d H. unfold mk_frac. rewrite H. simpl Z.sgn. rewrite Z.mul_1_l, !Z.div_1_r. reflexivity.
  Qed.

  Lemma rt_list : forall tup l,
    Forall (fun x => representable E x = true -> rt x) l ->
    forallb (representable E) l = true ->
    exists js, collect (map (ser tup) l) = Some js /\ collect_d (map (deser E) js) = inl l.
  Proof.
    intros tup l HF. induction HF as [|x l Hx HF IH]; intros Hr; simpl in *.
    - exists []. split; reflexivity.
    - apply andb_true_iff in Hr. destruct Hr as [Hr1 Hr2].
      destruct (Hx Hr1 tup) as [j [Hs Hd]]. destruct (IH Hr2) as [js [Hc Hcd]].
      exists (j :: js). rewrite Hs, Hc. split; [reflexivity|]. simpl. rewrite Hd, Hcd. reflexivity.
  Qed.

  (* serialisation yields a JSON string only for a string *)
  Lemma ser_str_inv : forall tup x s, ser tup x = SOk (JStr s) -> x = PStr s.
  Proof.
    intros tup x s H. destruct x; simpl in H; try discriminate.
    - inversion H. reflexivity.
    - destruct (collect (map (ser tup) l)); discriminate.
    - destruct (collect (map (ser tup) l)); discriminate.
    - destruct (collect (map (ser tup) l)); discriminate.
    - destruct (collect (map (ser tup) l)); discriminate.
    - destruct (str_keys d).
      + destruct (collect _); discriminate.
      + destruct (collect _); [destruct (collect _)|]; discriminate.
    - destruct (collect _); discriminate.
  Qed.

  (* what the saved dictionary carries under a key is a string exactly when the value is that string *)
  Lemma sniff_collect : forall tup (ps : list (str * pval)) js,
    collect (map (ser tup) (map snd ps)) = Some js ->
    forall k, sniff E (combine (map fst ps) js) k = psniff E ps k.
  Proof.
    intros tup. induction ps as [|[k x] ps IH]; intros js Hc k0; simpl in *.
    - reflexivity.
    - destruct (ser tup x) as [j|] eqn:Hs; [|discriminate].
      destruct (collect (map (ser tup) (map snd ps))) as [js'|] eqn:Hc'; [|discriminate].
      inversion Hc; subst js. unfold sniff, psniff. simpl. destruct (str_eqb k0 k).
      + assert (Hj : forall s, j = JStr s -> x = PStr s).
        { intros s Ej. subst j. eapply ser_str_inv. exact Hs. }
        destruct x eqn:Ex;
          try (destruct j; try reflexivity; specialize (Hj _ eq_refl); discriminate).
        simpl in Hs. inversion Hs. reflexivity.
      + apply (IH js' eq_refl).
  Qed.

  Lemma rt_params : forall tup (ps : list (str * pval)),
    Forall (fun x => representable E x = true -> rt x) (map snd ps) ->
    forallb (representable E) (map snd ps) = true ->
    exists js,
      collect (map (ser tup) (map snd ps)) = Some js /\
      collect_params (map (child_of E) (combine (map fst ps) js)) = inl ps /\
      map fst (map (child_of E) (combine (map fst ps) js)) = map fst ps.
  Proof.
    intros tup ps. induction ps as [|[k x] ps IH]; intros HF Hr; simpl in *.
    - exists []. repeat split; reflexivity.
    - apply Forall_cons_iff in HF. destruct HF as [Hx HF]. apply andb_true_iff in Hr. destruct Hr as [Hr1 Hr2].
      destruct (Hx Hr1 tup) as [j [Hs Hd]]. destruct (IH HF Hr2) as [js [Hc [Hcp Hfst]]].
      exists (j :: js). rewrite Hs, Hc. split; [reflexivity|]. split.
      + simpl. rewrite Hd, Hcp. reflexivity.
      + simpl. rewrite Hfst. reflexivity.
  Qed.

  Lemma sniff_cons_ne : forall k k' j d, str_eqb k k' = false -> sniff E ((k', j) :: d) k = sniff E d k.
  Proof. intros k k' j d H. unfold sniff. simpl. rewrite H. reflexivity. Qed.

  Lemma filter_noclass : forall (l : list (str * child)),
    memb str_eqb s_class (map fst l) = false ->
    filter (fun kr => negb (str_eqb s_class (fst kr))) l = l.
  Proof.
    induction l as [|[k r] l IH]; intros H; [reflexivity|]. unfold memb in *. simpl in *.
    apply orb_false_iff in H. destruct H as [H1 H2]. rewrite H1. simpl. f_equal. apply IH. exact H2.
  Qed.

  Lemma str_keys_spec : forall d sd, str_keys d = Some sd ->
    d = map (fun kv => (PStr (fst kv), snd kv)) sd.
  Proof.
    induction d as [|[k x] d IH]; intros sd H; simpl in H.
    - inversion H. reflexivity.
    - destruct k; try discriminate. destruct (str_keys d) as [r|]; [|discriminate].
      inversion H. subst sd. simpl. f_equal. apply IH. reflexivity.
  Qed.

  Lemma str_keys_map_snd : forall d sd, str_keys d = Some sd -> map snd d = map snd sd.
  Proof.
    intros d sd H. rewrite (str_keys_spec d sd H). rewrite map_map. reflexivity.
  Qed.

  Lemma negb_orb3 : forall a b c, negb (a || b || c) = true -> a = false /\ b = false /\ c = false.
  Proof. intros [] [] []; simpl; intros H; try discriminate; repeat split. Qed.

  Theorem roundtrip : forall v, representable E v = true -> rt v.
  Proof.
    induction v using pval_nested_ind; intros Hr tup; simpl in Hr; try discriminate.
    1-5: eexists; split; reflexivity.
    - (* Fraction *)
      apply Z.eqb_eq in Hr. eexists. split; [reflexivity|]. rewrite deser_frac. f_equal. apply mk_frac_reduced. exact Hr.
    - (* Decimal *)
      destruct (dec_canon E s) as [s'|] eqn:Hc; [|discriminate]. apply str_eqb_eq in Hr. subst s'.
      eexists. split; [reflexivity|]. rewrite deser_dec, Hc. reflexivity.
    - (* tuple *)
      destruct (rt_list tup l H Hr) as [js [Hc Hd]]. simpl. rewrite Hc. eexists. split; [reflexivity|].
      apply deser_typed_seq_tuple. exact Hd.
    - (* frozenset *)
      apply andb_true_iff in Hr. destruct Hr as [Hr Hnd]. apply andb_true_iff in Hr. destruct Hr as [Hr Hh].
      destruct (rt_list tup l H Hr) as [js [Hc Hd]]. simpl. rewrite Hc. eexists. split; [reflexivity|].
      rewrite (deser_typed_seq_frozenset js l Hd), Hh, dedupe_nodup by exact Hnd. reflexivity.
    - (* list *)
      destruct (rt_list tup l H Hr) as [js [Hc Hd]]. simpl. rewrite Hc. eexists. split; [reflexivity|].
      simpl. rewrite Hd. reflexivity.
    - (* dict *)
      apply andb_true_iff in Hr. destruct Hr as [Hr Hres]. apply andb_true_iff in Hr. destruct Hr as [Hr Hnd].
      apply andb_true_iff in Hr. destruct Hr as [Hr Hh].
      rewrite forallb_pair in Hr. apply andb_true_iff in Hr. destruct Hr as [Hrk Hrv].
      destruct (str_keys d) as [sd|] eqn:Hsk.
      + (* all keys are strings *)
        pose proof (str_keys_map_snd d sd Hsk) as Hsnd. rewrite Hsnd in H0, Hrv.
        destruct (rt_params tup sd H0 Hrv) as [js [Hc [Hcp Hfst]]]. pose proof (sniff_collect tup sd js Hc) as Hsn.
        simpl. rewrite Hsk, map_let_snd, Hsnd, Hc. eexists. split; [reflexivity|].
        rewrite deser_dict. unfold interp. rewrite !Hsn.
        apply negb_orb3 in Hres. destruct Hres as [H1 [H2 H3]]. rewrite H1, H2, H3.
        unfold plain. rewrite Hcp, <- (str_keys_spec d sd Hsk). reflexivity.
      + (* some key is not a string: the typed form *)
        destruct (rt_list tup _ H Hrk) as [ks [Hck Hdk]].
        destruct (rt_list tup _ H0 Hrv) as [vs [Hcv Hdv]].
        simpl. rewrite Hsk.
        rewrite map_let_fst, map_let_snd, Hck, Hcv. eexists. split; [reflexivity|].
        rewrite (deser_typed_dict ks vs _ _ Hdk Hdv). rewrite combine_fst_snd, Hh.
        rewrite of_pairs_nodup by exact Hnd. reflexivity.
    - (* object *)
      apply andb_true_iff in Hr. destruct Hr as [Hr Hty]. apply andb_true_iff in Hr. destruct Hr as [Hr Hcl].
      apply andb_true_iff in Hr. destruct Hr as [Hr Hacc]. apply andb_true_iff in Hr. destruct Hr as [Hr Hex].
      apply andb_true_iff in Hr. destruct Hr as [Hr Hid].
      apply negb_true_iff in Hty. apply negb_true_iff in Hcl. rewrite forallb_snd_obj in Hr.
      destruct (rt_params tup ps H Hr) as [js [Hc [Hcp Hfst]]]. pose proof (sniff_collect tup ps js Hc) as Hsn.
      simpl. rewrite map_let_snd, Hc. eexists. split; [reflexivity|].
      rewrite deser_dict. unfold interp.
      rewrite (sniff_cons_ne s_type s_class) by reflexivity. rewrite Hsn, Hty.
      assert (Hs2 : sniff E ((s_class, JStr c) :: combine (map fst ps) js) s_class = true).
      { unfold sniff. simpl. exact Hid. }
      rewrite Hs2. unfold klass. simpl aget. cbv iota beta. rewrite Hex.
      cbn [map child_of filter fst str_eqb s_class Z.eqb Pos.eqb andb negb].
      rewrite filter_noclass by (rewrite Hfst; exact Hcl).
      rewrite Hcp, Hacc. reflexivity.
    - (* callable *)
      apply andb_true_iff in Hr. destruct Hr as [Hid Hres].
      eexists. split; [reflexivity|]. rewrite deser_callable by exact Hid. rewrite Hres. reflexivity.
  Qed.
End RT.

Lemma collect_json_rt : forall (l : list pval) tup js,
  Forall (fun x => forall tup j, ser tup x = SOk j -> ser false x = SOk (json_rt j)) l ->
  collect (map (ser tup) l) = Some js ->
  collect (map (ser false) l) = Some (map json_rt js).
Proof.
  induction l as [|x l IH]; intros tup js HF Hc; simpl in *.
  - inversion Hc. reflexivity.
  - inversion HF as [|? ? Hx HF']; subst.
    destruct (ser tup x) as [j|] eqn:Hs; [|discriminate].
    destruct (collect (map (ser tup) l)) as [js'|] eqn:Hc'; [|discriminate].
    inversion Hc; subst. rewrite (Hx tup j Hs). rewrite (IH tup js' HF' Hc'). reflexivity.
Qed.

Lemma map_json_rt_combine : forall (ks : list str) (js : list jval),
  map (fun kv : str * jval => let (k, x) := kv in (k, json_rt x)) (combine ks js) = combine ks (map json_rt js).
Proof.
  induction ks as [|k ks IH]; intros [|j js]; simpl; try reflexivity. now rewrite IH.
Qed.

Lemma json_rt_ser : forall v tup j, ser tup v = SOk j -> ser false v = SOk (json_rt j).
Proof.
  induction v using pval_nested_ind; intros tup j Hs; simpl in Hs; try (inversion Hs; reflexivity).
  1-4: destruct (collect (map (ser tup) l)) as [js|] eqn:Hc; [|discriminate]; inversion Hs; subst;
    simpl; rewrite (collect_json_rt l tup js H Hc); reflexivity.
  - (* dict *)
    simpl. rewrite !map_let_fst, !map_let_snd in *. destruct (str_keys d) as [sd|].
    + destruct (collect (map (ser tup) (map snd d))) as [js|] eqn:Hc; [|discriminate]. inversion Hs; subst.
      rewrite (collect_json_rt _ tup js H0 Hc). simpl. rewrite map_json_rt_combine. reflexivity.
    + destruct (collect (map (ser tup) (map fst d))) as [ks|] eqn:Hck; [|discriminate].
      destruct (collect (map (ser tup) (map snd d))) as [vs|] eqn:Hcv; [|discriminate]. inversion Hs; subst.
      rewrite (collect_json_rt _ tup ks H Hck), (collect_json_rt _ tup vs H0 Hcv). reflexivity.
  - (* object *)
    simpl. rewrite !map_let_snd in *.
    destruct (collect (map (ser tup) (map snd ps))) as [js|] eqn:Hc; [|discriminate]. inversion Hs; subst.
    rewrite (collect_json_rt _ tup js H Hc). simpl. rewrite map_json_rt_combine. reflexivity.
Qed.

(* the round trip, also with the JSON text in between ([json_rt]) *)
Theorem roundtrip_json_pinned : forall E v, representable E v = true ->
  exists j, serialize_value_pinned v = SOk j /\ deser E j = DOk v /\ deser E (json_rt j) = DOk v.
Proof.
  intros E v Hr. destruct (roundtrip E v Hr true) as [j [Hs Hd]].
  exists j. split; [exact Hs|]. split; [exact Hd|].
  destruct (roundtrip E v Hr false) as [j' [Hs' Hd']].
  pose proof (json_rt_ser v true j Hs) as Hj. rewrite Hs' in Hj. inversion Hj; subst. exact Hd'.
Qed.

Lemma collect_none_iff : forall {X} (f : X -> sres) (g : X -> bool) l,
  Forall (fun x => f x = SErr <-> g x = true) l ->
  (collect (map f l) = None <-> existsb g l = true).
Proof.
  intros X f g l HF. induction HF as [|x l Hx HF IH]; simpl.
  - split; discriminate.
  - destruct (f x) as [j|] eqn:Hf.
    + assert (Hg : g x = false).
      { destruct (g x) eqn:Hg; [|reflexivity]. destruct Hx as [_ Hx]. specialize (Hx eq_refl). discriminate. }
      rewrite Hg. simpl. destruct (collect (map f l)) as [js|].
      * split; intros H0; [discriminate|]. apply IH in H0. discriminate.
      * split; intros _; [apply IH; reflexivity | reflexivity].
    + destruct Hx as [Hx _]. rewrite (Hx eq_refl). simpl. split; reflexivity.
Qed.

Lemma existsb_pair : forall (g : pval -> bool) (d : list (pval * pval)),
  existsb (fun kv => match kv with (k, x) => g k || g x end) d = existsb g (map fst d) || existsb g (map snd d).
Proof.
  induction d as [|[k x] d IH]; simpl; [reflexivity|]. rewrite IH.
  destruct (g k), (g x), (existsb g (map fst d)), (existsb g (map snd d)); reflexivity.
Qed.

Lemma str_keys_no_opaque : forall d sd, str_keys d = Some sd -> existsb has_opaque (map fst d) = false.
Proof.
  induction d as [|[k x] d IH]; intros sd H; simpl in *; [reflexivity|].
  destruct k; try discriminate. destruct (str_keys d) as [r|]; [|discriminate]. simpl. eapply IH. reflexivity.
Qed.

Theorem ser_refuses_iff : forall v tup, ser tup v = SErr <-> has_opaque v = true.
Proof.
  induction v using pval_nested_ind; intros tup; simpl; try (split; discriminate).
  1-4: pose proof (collect_none_iff (ser tup) has_opaque l) as C;
    destruct (collect (map (ser tup) l)); rewrite <- C by (eapply Forall_impl; [|exact H]; intros a Ha; apply Ha);
      split; intros; try discriminate; reflexivity.
  - (* dict *)
    assert (HFk : Forall (fun x => ser tup x = SErr <-> has_opaque x = true) (map fst d))
      by (eapply Forall_impl; [|exact H]; intros a Ha; apply Ha).
    assert (HFv : Forall (fun x => ser tup x = SErr <-> has_opaque x = true) (map snd d))
      by (eapply Forall_impl; [|exact H0]; intros a Ha; apply Ha).
    rewrite map_let_fst, map_let_snd, existsb_pair.
    pose proof (collect_none_iff (ser tup) has_opaque _ HFk) as Ck.
    pose proof (collect_none_iff (ser tup) has_opaque _ HFv) as Cv.
    destruct (str_keys d) as [sd|] eqn:Hsk.
    + rewrite (str_keys_no_opaque d sd Hsk). simpl.
      destruct (collect (map (ser tup) (map snd d))); rewrite <- Cv; split; intros; try discriminate; reflexivity.
    + destruct (collect (map (ser tup) (map fst d))) eqn:Ek.
      * assert (Hk0 : existsb has_opaque (map fst d) = false).
        { destruct (existsb has_opaque (map fst d)); [|reflexivity]. destruct Ck as [_ Ck]. specialize (Ck eq_refl). discriminate. }
        rewrite Hk0. simpl.
        destruct (collect (map (ser tup) (map snd d))); rewrite <- Cv; split; intros; try discriminate; reflexivity.
      * destruct Ck as [Ck _]. rewrite (Ck eq_refl). simpl. split; reflexivity.
  - (* object *)
    assert (HFv : Forall (fun x => ser tup x = SErr <-> has_opaque x = true) (map snd ps)).
    { eapply Forall_impl; [|exact H]. intros a Ha. apply Ha. }
    assert (He : existsb (fun kv : str * pval => let (_, x) := kv in has_opaque x) ps = existsb has_opaque (map snd ps)).
    { clear. induction ps as [|[k x] ps IH]; simpl; [reflexivity|]. now rewrite IH. }
    rewrite map_let_snd, He. pose proof (collect_none_iff (ser tup) has_opaque _ HFv) as Cv.
    destruct (collect (map (ser tup) (map snd ps))); rewrite <- Cv; split; intros; try discriminate; reflexivity.
  - split; reflexivity.
Qed.

Theorem system_roundtrip_pinned : forall E c ps, representable E (PObj c ps) = true ->
  exists j, serialize_value_pinned (PObj c ps) = SOk j /\
            from_dict E j = DOk (PObj c ps) /\ from_dict E (json_rt j) = DOk (PObj c ps).
Proof.
  intros E c ps Hr. destruct (roundtrip_json_pinned E _ Hr) as [j [Hs [Hd Hdj]]].
  exists j. split; [exact Hs|].
  assert (Hid : is_scoped_identifier E c = true).
  { simpl in Hr. repeat (apply andb_true_iff in Hr; destruct Hr as [Hr ?]). assumption. }
  unfold serialize_value_pinned in Hs. simpl in Hs.
  destruct (collect _) as [js|]; [|discriminate]. inversion Hs; subst j. clear Hs.
  split.
  - unfold from_dict. simpl aget. cbv iota beta. rewrite Hid. exact Hd.
  - simpl json_rt in *. unfold from_dict. simpl aget. cbv iota beta. rewrite Hid. exact Hdj.
Qed.
