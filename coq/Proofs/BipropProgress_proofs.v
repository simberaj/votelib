(* Lemmas for property C07: a progress measure of tie-and-transfer.  The flaw count (sum over the districts of
   |seats held - seats due|) never grows; every seat transfer lowers it by exactly 2 and leaves the multipliers alone; a
   multiplier update leaves the seat matrix (hence the flaw count) alone.  So at most flaw/2 transfers happen.  This is
   NOT a termination proof: the number of consecutive multiplier updates is not bounded here. *)
From Coq Require Import ZArith QArith List Bool Lia Lqa.
From VL Require Import Prelude.PyDict Model.Divisor Model.HighestAverages Model.Biprop Model.BipropLoop
     Proofs.Dict_proofs Proofs.Divisor_proofs Proofs.Biprop_proofs Proofs.Biprop_steps Proofs.BipropLoop_proofs.
Import ListNotations.
Open Scope Z_scope.

Definition flaw (tgt : list (C * Z)) (dorder : list C) (res : mat) : Z :=
  zsum (map (fun i => Z.abs (cur_seats res i - dget_or tgt i 0)) dorder).

Lemma walk_end LD LP over : forall fuel cur sD sP hops,
  walk fuel LD LP over cur sD sP = WalkDone hops -> cmem (path_end cur hops) over = true.
Proof.
  induction fuel as [|f IH]; intros cur sD sP hops H; simpl in H; [discriminate|].
  destruct (cmem cur over) eqn:Eo; [injection H as <-; exact Eo|].
  destruct (cmem cur sD); [discriminate|].
  destruct (dget LD cur) as [[p|]|]; try discriminate.
  destruct (cmem p sP); [discriminate|].
  destruct (dget LP p) as [i'|]; [|discriminate].
  destruct (walk f LD LP over i' (cur :: sD) (p :: sP)) as [hops'| |] eqn:Ew; try discriminate.
  injection H as <-. unfold path_end. simpl map. rewrite last_cons. apply (IH _ _ _ _ Ew).
Qed.

Lemma zsum_two_points (f g : C -> Z) a b l : NoDup l -> In a l -> In b l -> a <> b ->
  (forall x, x <> a -> x <> b -> g x = f x) -> g a = f a - 1 -> g b = f b - 1 ->
  zsum (map g l) = zsum (map f l) - 2.
Proof.
  intros Hnd Ha Hb Hab Hoth Hga Hgb.
  rewrite (zsum_map_ext g (fun x => f x + ((if ceqb x a then -1 else 0) + (if ceqb x b then -1 else 0))) l).
  - rewrite zsum_map_plus, zsum_map_plus.
    rewrite (zsum_point a (-1) l Hnd Ha), (zsum_point b (-1) l Hnd Hb). lia.
  - intros x _. destruct (ceqb x a) eqn:E1; [apply ceqb_eq in E1; subst x|].
    + assert (ceqb a b = false) as -> by (apply ceqb_neq; exact Hab). lia.
    + destruct (ceqb x b) eqn:E2; [apply ceqb_eq in E2; subst x; lia|].
      rewrite Hoth; [lia|apply ceqb_neq, E1|apply ceqb_neq, E2].
Qed.

(* the loop is entered unless the initial solution fails *)
Lemma binit_errors d q votes n e : binit d q votes n = inl e -> e = BP_party_tie \/ e = BP_value_error \/ e = BP_key_error.
Proof. unfold binit. destruct (initial_solution d votes n); intros [= <-]; auto. Qed.

Section Progress.
  Variable q : Q.
  Hypothesis Hq0 : (0 <= q)%Q.
  Hypothesis Hq1 : (q < 1)%Q.
  Variable votes : mat.
  Hypothesis Hwf : wf_votes votes.
  Variable pseats : list (C * Z).
  Variable tgt : list (C * Z).
  Variable dorder : list C.
  Hypothesis Hdo : NoDup dorder.
  Notation ds := (districts votes).
  Notation ps := (parties votes).

  (* what an iteration that goes on is: a seat transfer (flaw - 2, multipliers untouched) or an accepted multiplier update
     (the labelling found no under-represented district; seat matrix untouched) *)
  Definition is_update (s s' : bstate) : Prop :=
    let under := fst (unsat dorder (b_res s) tgt) in
    let over := snd (unsat dorder (b_res s) tgt) in
    exists LD LP a,
      labeled q ps ds (calc_quots votes (b_rho s) (b_gamma s)) (b_res s) under over = Lab LD LP /\
      sort_pos (filter (fun i => dmem LD i) under) = [] /\
      adj_coef q (calc_quots votes (b_rho s) (b_gamma s)) (b_res s) (map fst LD) (map fst LP) = Adj a /\
      Qeq_bool a 0 || Qle_bool 1 a = false /\
      s' = mk_bstate (b_res s) (scale_rho_r (map fst LD) a (b_rho s)) (scale_gamma_r (map fst LP) a (b_gamma s)).

  Theorem bstep_cases s s' : BInv q votes pseats s -> bstep q votes tgt dorder s = Next s' ->
    (flaw tgt dorder (b_res s') = flaw tgt dorder (b_res s) - 2 /\ b_rho s' = b_rho s /\ b_gamma s' = b_gamma s) \/
    is_update s s'.
  Proof.
    intros HI H. destruct (bstep_unfold q votes tgt dorder s) as [[_ E]|[_ E]]; rewrite E in H; [discriminate|]. clear E.
    unfold is_update. cbv zeta. revert H.
    set (under := fst (unsat dorder (b_res s) tgt)). set (over := snd (unsat dorder (b_res s) tgt)).
    destruct (bstep_body_case q votes s under over) as [ | | | | |LD LP start rest hops res' El Es Ew Eg| | |LD LP a El Es Ea Ec];
      intros Hs'; try discriminate Hs'; injection Hs' as <-.
    2:{ right. exists LD, LP, a. repeat split; assumption. }
    left. cbn [b_res b_rho b_gamma]. split; [|split; reflexivity].
    destruct (labeled_ok q _ _ _ _ _ _ _ _ El) as [HD HP].
    (* the start is under-represented, the end over-represented *)
    assert (Hst : In start (filter (fun i => dmem LD i) under)) by (apply sort_pos_in; rewrite Es; left; reflexivity).
    apply filter_In in Hst. destruct Hst as [Hsu _].
    unfold under, unsat in Hsu. cbn [fst] in Hsu. apply filter_In in Hsu. destruct Hsu as [Hsd Hslt]. apply Z.ltb_lt in Hslt.
    pose proof (walk_end _ _ _ _ _ _ _ _ Ew) as Hend. apply cmem_In in Hend.
    unfold over, unsat in Hend. cbn [snd] in Hend. apply filter_In in Hend. destruct Hend as [Hed Hegt]. apply Z.ltb_lt in Hegt.
    set (fin := path_end start hops) in *.
    assert (Hne : start <> fin) by (intros E; rewrite <- E in Hegt; lia).
    (* the row sums after the transfer *)
    pose proof (augment_inv q Hq1 votes Hwf pseats s LD LP over start hops res' HI HD HP Ew Eg) as HI'.
    destruct (walk_delta q _ (b_res s) (sort_pos ps) LD LP over HD HP _ start [] [] hops (fun x (H : In x []) => match H with end) Ew)
      as (A & B & _).
    assert (Hhops : forall p i', In (p, i') hops -> In p ps /\ In i' ds).
    { intros p i' H. destruct (A p i' H) as [H1 (p' & H2)]. split; [apply sort_pos_in, H1|].
      apply (proj1 (down_sem q votes _ _ _ _ _ H2)). }
    destruct B as [->|(p & Hup)]; [exfalso; apply Hne; reflexivity|].
    destruct (augment_totals _ _ _ _ ds ps Eg (proj1 Hwf) (parties_nodup votes) (proj1 (up_sem q votes _ _ _ _ _ Hup)) Hhops) as [_ Hr].
    assert (Hcur : forall i, cur_seats res' i = cur_seats (b_res s) i + (if ceqb i start then 1 else 0) - (if ceqb i fin then 1 else 0)).
    { intros i. rewrite (cur_seats_rowsum votes res' i (bi_wf _ _ _ _ HI')), (cur_seats_rowsum votes (b_res s) i (bi_wf _ _ _ _ HI)).
      apply Hr. }
    unfold flaw.
    apply (zsum_two_points (fun i => Z.abs (cur_seats (b_res s) i - dget_or tgt i 0))
                           (fun i => Z.abs (cur_seats res' i - dget_or tgt i 0)) start fin dorder Hdo Hsd Hed Hne).
    - intros x H1 H2. rewrite Hcur, (proj2 (ceqb_neq x start) H1), (proj2 (ceqb_neq x fin) H2). f_equal. lia.
    - rewrite Hcur, ceqb_refl, (proj2 (ceqb_neq start fin) Hne). lia.
    - rewrite Hcur, ceqb_refl, (proj2 (ceqb_neq fin start) (not_eq_sym Hne)). lia.
  Qed.

  Theorem bstep_progress s s' : BInv q votes pseats s -> bstep q votes tgt dorder s = Next s' ->
    (flaw tgt dorder (b_res s') = flaw tgt dorder (b_res s) - 2 /\ b_rho s' = b_rho s /\ b_gamma s' = b_gamma s) \/
    b_res s' = b_res s.
  Proof.
    intros HI H. destruct (bstep_cases s s' HI H) as [L|(LD & LP & a & _ & _ & _ & _ & ->)]; [left; exact L|right; reflexivity].
  Qed.
End Progress.
