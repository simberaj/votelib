(* The repaired Tideman alternative for any number of seats (Model/Hybrids.v with fx = sc = tr = true: the elimination step
   refuses ties, get_winner_set falls back to all candidates of a round without a pairwise contest, the tiers after the first
   run on the votes restricted to the still eligible candidates):

   - one tier on a profile on which somebody stands answers with a plain candidate of the profile or refuses
     (NotImplementedError: a tie among the candidates to eliminate) - never IndexError, whatever the ballots look like;
   - TidemanAlternative.evaluate for n >= 1 seats returns min(n, #candidates) distinct plain candidates of the votes, or refuses;
   - the winner of every tier lies in every dominating set of the candidates not elected before it, with respect to the
     pairwise dictionary of the ORIGINAL profile - i.e. in the Smith set of the remaining candidates (restricting the ballots
     restricts the dictionary, tier after tier);
   - a candidate that stands alone is elected (tideman_single; for Benham see ShapeElim_proofs.benham_single). *)
From Coq Require Import ZArith QArith List Bool Lia Permutation Arith.
From VL Require Import Prelude.PyDict Model.GetNBest Model.Convert Model.STV Model.Condorcet Model.Hybrids
     Proofs.Dict_proofs Proofs.GetNBest_proofs Proofs.Condorcet_proofs Proofs.Smith_proofs Proofs.Shape_proofs Proofs.Shape2_proofs
     Proofs.Hybrids_proofs Proofs.ShapeElim_proofs.
Import ListNotations.
Close Scope Q_scope.
Close Scope Z_scope.
Open Scope nat_scope.

Lemma Kc_nil : Kc [] = [].
Proof. reflexivity. Qed.

Lemma winner_set_nodup sc round : NoDup (winner_set sc round).
Proof.
  unfold winner_set. pose proof (smith_nodup (pairwise round)) as Hs.
  destruct (smith_schwartz (pairwise round) true) as [|s t]; [|exact Hs]. destruct sc; [apply arc_nodup|constructor].
Qed.

Lemma winner_set_nonempty round : Kc round <> [] -> winner_set true round <> [].
Proof. unfold winner_set. destruct (smith_schwartz (pairwise round) true); [auto|discriminate]. Qed.

Lemma winner_set_Kc sc round x : In x (winner_set sc round) -> In x (Kc round).
Proof. intros H. apply arc_iff. exact (winner_set_cands sc round x H). Qed.

Lemma remove_one_length (w : C) (l : list C) : NoDup l -> In w l -> S (length (filter (fun c => negb (ceqb c w)) l)) = length l.
Proof. exact (filter_neq_length w l). Qed.

Lemma remove_in (w : C) (l : list C) x : In x (filter (fun c => negb (ceqb c w)) l) <-> In x l /\ x <> w.
Proof.
  rewrite filter_In, negb_true_iff. split; intros [H1 H2]; (split; [exact H1|]).
  - intros ->. rewrite ceqb_refl in H2. discriminate.
  - apply not_true_iff_false. intros E. apply ceqb_eq in E. exact (H2 E).
Qed.

Lemma tier_answers : forall fuel round, wf_votes round = true -> Kc round <> [] -> length (Kc round) < fuel ->
  (exists w, tideman_tier true true fuel round = inl (Cand w) /\ In w (Kc round)) \/
  tideman_tier true true fuel round = inr H_nie.
Proof.
  induction fuel as [|f IH]; intros round Hwf HK Hlt; [lia|].
  assert (Hrne : round <> []) by (intros ->; apply HK; reflexivity).
  pose proof (winner_set_Kc true round) as HwK.
  destruct (tier_cases true true f round Hrne) as [(s & Es & E)|(Hns & E)]; rewrite E.
  { left. exists s. split; [reflexivity|]. apply HwK. rewrite Es. left. reflexivity. }
  set (sset := winner_set true round) in *. set (round1 := subset_votes sset round).
  pose proof (winner_set_nodup true round) as Hwnd. fold sset in Hwnd.
  pose proof (subset_wf sset round Hwf) as Hwf1. fold round1 in Hwf1.
  pose proof (fun x => arc_subset sset round x HwK) as HK1. fold round1 in HK1.
  pose proof (arc_subset_length sset round Hwnd HwK) as HlenK. fold round1 in HlenK.
  assert (Hle : length sset <= length (Kc round)) by (apply NoDup_incl_length; [exact Hwnd|exact HwK]).
  assert (H2 : 2 <= length (Kc round1)).
  { rewrite HlenK. pose proof (winner_set_nonempty round HK) as Hwne. fold sset in Hwne.
    destruct sset as [|s [|s2 ss]]; [congruence|destruct (Hns s eq_refl)|cbn [length]; lia]. }
  destruct (tier_elim_cases true true f round1) as [(Ee & E1)|(rem & Ee & [(_ & E1)|(Et & [(r & -> & E1)|E1])])]; rewrite E1.
  - destruct (elim_nform round1 Hwf1 H2) as (rem & Ee' & _). congruence.
  - right. reflexivity.
  - left. destruct (elim_spec round1 [r] Hwf1 Ee Et) as (R & ER & _ & E3 & _).
    destruct R as [|x [|y R]]; try discriminate. injection ER as ->. exists x. split; [reflexivity|].
    apply HwK, HK1, E3. left. reflexivity.
  - destruct (elim_spec round1 rem Hwf1 Ee Et) as (R & -> & E2 & E3 & E4). rewrite plain_map_cand.
    pose proof (fun x => arc_subset R round1 x E3) as HKn.
    destruct (IH (subset_votes R round1)) as [(w & Ew & Hw)|Ew].
    + apply subset_wf, Hwf1.
    + destruct R as [|x R']; [cbn [length] in E4; lia|]. intros E0.
      assert (Hx : In x (Kc (subset_votes (x :: R') round1))) by (apply HKn; left; reflexivity). rewrite E0 in Hx. exact Hx.
    + rewrite (arc_subset_length R round1 E2 E3). lia.
    + left. exists w. split; [exact Ew|]. apply HwK, HK1, E3, HKn, Hw.
    + right. exact Ew.
Qed.

Lemma tier_answers_of round : wf_votes round = true -> Kc round <> [] ->
  (exists w, tideman_tier true true (tier_fuel_of round) round = inl (Cand w) /\ In w (Kc round)) \/
  tideman_tier true true (tier_fuel_of round) round = inr H_nie.
Proof. intros Hwf HK. apply tier_answers; [exact Hwf|exact HK|unfold tier_fuel_of; lia]. Qed.

Open Scope Z_scope.
(* D is a non-empty set of candidates among E every member of which beats every candidate of E outside D *)
Definition dominating (P : pvotes) (E D : list C) : Prop :=
  D <> [] /\ incl D E /\ forall a b, In a D -> In b E -> ~ In b D -> beats P a b.
Close Scope Z_scope.

Definition remaining (CS done : list C) : list C := filter (fun c => negb (cmem c done)) CS.

Lemma remaining_in CS done x : In x (remaining CS done) <-> In x CS /\ ~ In x done.
Proof. unfold remaining. rewrite filter_In, negb_true_iff, cmem_false. reflexivity. Qed.

Lemma dominating_ext P E E' D : (forall x, In x E <-> In x E') -> dominating P E D -> dominating P E' D.
Proof.
  intros H (Hne & Hi & Hd). split; [exact Hne|]. split; [intros x Hx; apply H, Hi, Hx|].
  intros a b Ha Hb Hnb. apply Hd; [exact Ha|apply H, Hb|exact Hnb].
Qed.

(* the winner with index i lies in every dominating set of the candidates not among [done] and the winners before it *)
Definition tier_smith (P : pvotes) (CS done ws : list C) : Prop :=
  forall i w, nth_error ws i = Some w -> forall D, dominating P (remaining CS (done ++ firstn i ws)) D -> In w D.

Section TIERS.
  Variable votes : rvotes.
  Variable n : nat.
  Hypothesis Hwf : wf_votes votes = true.
  Let P := pairwise votes.
  Let CS := cands_of votes.

  (* the state of the tier loop: [tv] are the votes restricted to the eligible candidates [elig] = the candidates not yet
     elected [ws]; its pairwise counts are those of the original profile *)
  Definition linv (tv : rvotes) (elig ws : list C) : Prop :=
    wf_votes tv = true /\ NoDup elig /\ NoDup ws /\
    (forall x, In x (Kc tv) <-> In x elig) /\
    (forall x, In x elig <-> In x CS /\ ~ In x ws) /\
    incl ws CS /\ length ws + length elig = length CS /\
    (forall a b, In a elig -> In b elig -> pget0 (pairwise tv) (a, b) = pget0 P (a, b)).

  Lemma linv_start : linv votes (Kc votes) [].
  Proof.
    split; [exact Hwf|]. split; [apply arc_nodup|]. split; [constructor|]. split; [reflexivity|]. split.
    - intros x. rewrite arc_iff. unfold CS. split; [intros H; split; [exact H|intros []]|intros [H _]; exact H].
    - split; [intros x []|]. split; [|reflexivity]. cbn [length].
      apply same_keys_length; [apply arc_nodup|apply cands_of_nodup|intros x; apply arc_iff].
  Qed.

  Lemma linv_next tv elig ws w : linv tv elig ws -> In w elig ->
    linv (subset_votes (filter (fun c => negb (ceqb c w)) elig) tv) (filter (fun c => negb (ceqb c w)) elig) (ws ++ [w]).
  Proof.
    intros (Hwft & Hne & Hnw & HK & HE & Hi & Hl & Hc) Hw. set (elig' := filter (fun c => negb (ceqb c w)) elig).
    destruct (proj1 (HE w) Hw) as [HwC Hww].
    assert (Hsub : incl elig' (Kc tv)) by (intros x Hx; apply HK; apply remove_in in Hx; apply Hx).
    split; [apply subset_wf, Hwft|]. split; [apply NoDup_filter, Hne|]. split; [apply nodup_snoc; assumption|]. split; [|split; [|split; [|split]]].
    - intros x. apply arc_subset, Hsub.
    - intros x. split.
      + intros Hx. apply remove_in in Hx. destruct Hx as [Hx Hxw]. apply HE in Hx. split; [apply Hx|].
        intros H. apply in_app_or in H. destruct H as [H|[H|[]]]; [exact (proj2 Hx H)|exact (Hxw (eq_sym H))].
      + intros [H1 H2]. apply remove_in. split; [apply HE; split; [exact H1|]|]; [intros H|intros ->]; apply H2, in_or_app; [left; exact H|right; left; reflexivity].
    - intros x Hx. apply in_app_or in Hx. destruct Hx as [Hx|[<-|[]]]; [apply Hi, Hx|exact HwC].
    - rewrite app_length. cbn [length]. pose proof (remove_one_length w elig Hne Hw) as Hr. fold elig' in Hr. lia.
    - intros a b Ha Hb. rewrite (subset_restriction elig' tv a b Hwft Ha Hb). unfold elig' in Ha, Hb. apply remove_in in Ha, Hb. apply Hc; [exact (proj1 Ha)|exact (proj1 Hb)].
  Qed.

  (* the winner set of the tier is contained in every dominating set of the eligible candidates *)
  Lemma tier_winner_dominates tv elig ws w : linv tv elig ws -> In w (winner_set true tv) ->
    forall D, dominating P elig D -> In w D.
  Proof.
    intros (Hwft & Hne & Hnw & HK & HE & Hi & Hl & Hc) Hw D (HDne & HDi & HDd).
    destruct (pairwise tv) as [|p0 pt] eqn:Ep.
    - (* no pairwise contest among the eligible candidates: nobody beats anybody, D is everybody *)
      destruct (in_dec Pos.eq_dec w D) as [H|Hout]; [exact H|exfalso].
      assert (HwE : In w elig) by (apply HK, (winner_set_Kc true tv w Hw)).
      destruct D as [|a D']; [congruence|].
      assert (Ha : In a elig) by (apply HDi; left; reflexivity).
      pose proof (HDd a w (or_introl eq_refl) HwE Hout) as Hb. unfold beats in Hb.
      rewrite <- (Hc w a HwE Ha), <- (Hc a w Ha HwE) in Hb. unfold pget0 in Hb. cbn in Hb. lia.
    - assert (Hpne : pairwise tv <> []) by (rewrite Ep; discriminate). rewrite <- Ep in *. clear Ep p0 pt.
      rewrite (winner_set_contest true tv Hwft Hpne) in Hw.
      refine (smith_minimal (pairwise tv) (pairwise_nonneg tv Hwft) (pairwise_two tv Hwft Hpne) D HDne _ w Hw).
      intros a b Ha Hb Hnb.
      assert (HaE : In a elig) by (apply HDi, Ha).
      assert (HbE : In b elig) by (apply HK, arc_iff, candidates_pairwise_in, Hb).
      pose proof (HDd a b Ha HbE Hnb) as Hbt. unfold beats in *. rewrite (Hc a b HaE HbE), (Hc b a HbE HaE). exact Hbt.
  Qed.

  Lemma map_cand_snoc (ws : list C) w : map (@Cand C) ws ++ [Cand w] = map Cand (ws ++ [w]).
  Proof. rewrite map_app. reflexivity. Qed.

  Definition tiers_good (ws : list C) (x : hres) : Prop :=
    (exists ws', x = H_ok (map Cand (ws ++ ws')) /\ NoDup (ws ++ ws') /\ incl (ws ++ ws') CS /\
                 length (ws ++ ws') = Nat.min n (length CS) /\ tier_smith P CS ws ws') \/
    x = H_nie.

  Lemma loop_spec : forall k tv elig ws, linv tv elig ws -> elig <> [] -> length ws < n -> length elig < k ->
    tiers_good ws (tideman_loop true true true k tv elig n (map Cand ws)).
  Proof.
    induction k as [|k IH]; intros tv elig ws Hinv Hene Hlw Hlk; [lia|].
    pose proof Hinv as (Hwft & Hne & Hnw & HK & HE & Hi & Hl & Hc).
    rewrite tideman_loop_S.
    assert (HKne : Kc tv <> []).
    { destruct elig as [|e0 et]; [congruence|]. intros E0. assert (H : In e0 (Kc tv)) by (apply HK; left; reflexivity). rewrite E0 in H. exact H. }
    destruct (tier_answers_of tv Hwft HKne) as [(w & Et & Hw)|Et]; rewrite Et; [|right; reflexivity].
    assert (HwE : In w elig) by (apply HK, Hw).
    assert (Hm : cmem w elig = true) by (apply cmem_In, HwE). rewrite Hm.
    assert (HwS : In w (winner_set true tv)) by (exact (tier_in_winner_set true true _ tv w Hwft Et)).
    set (elig' := filter (fun c => negb (ceqb c w)) elig).
    pose proof (remove_one_length w elig Hne HwE) as Hrl. fold elig' in Hrl.
    assert (Hw' : In w CS /\ ~ In w ws) by (apply HE, HwE).
    rewrite map_cand_snoc. rewrite map_length.
    assert (Hhead : forall D, dominating P (remaining CS (ws ++ firstn 0 [w])) D -> In w D).
    { intros D HD. apply (tier_winner_dominates tv elig ws w Hinv HwS). refine (dominating_ext P _ _ D _ HD).
      intros x. cbn [firstn]. rewrite app_nil_r. split; intros H; [apply HE, remaining_in, H|apply remaining_in, HE, H]. }
    destruct (Nat.eqb (length (ws ++ [w])) n || match elig' with [] => true | _ :: _ => false end) eqn:Econd.
    - left. exists [w]. split; [reflexivity|]. split; [apply nodup_snoc; [exact Hnw|apply Hw']|]. split.
      + intros x Hx. apply in_app_or in Hx. destruct Hx as [Hx|[<-|[]]]; [apply Hi, Hx|apply Hw'].
      + rewrite app_length in Econd |- *. cbn [length] in Econd |- *. split.
        * apply orb_true_iff in Econd. destruct Econd as [E|E]; [apply Nat.eqb_eq in E; lia|].
          destruct elig' as [|x t]; [|discriminate]. cbn [length] in Hrl. lia.
        * intros i x Hx D HD. destruct i as [|i]; [|destruct i; discriminate Hx]. cbn in Hx. injection Hx as <-. exact (Hhead D HD).
    - apply orb_false_iff in Econd. destruct Econd as [E1 E2]. apply Nat.eqb_neq in E1. rewrite app_length in E1. cbn [length] in E1.
      assert (Hene' : elig' <> []) by (destruct elig'; [discriminate|discriminate]).
      destruct (IH (subset_votes elig' tv) elig' (ws ++ [w]) (linv_next tv elig ws w Hinv HwE) Hene') as [(ws' & Er & Hnd & Hin & Hlen & Hsm)|Er].
      + rewrite app_length. cbn [length]. lia.
      + lia.
      + left. exists (w :: ws'). rewrite <- app_assoc in Er, Hnd, Hin, Hlen. cbn [app] in Er, Hnd, Hin, Hlen.
        split; [exact Er|]. split; [exact Hnd|]. split; [exact Hin|]. split; [exact Hlen|].
        intros i x Hx D HD. destruct i as [|i].
        * cbn in Hx. injection Hx as <-. apply Hhead. exact HD.
        * cbn [nth_error] in Hx. apply (Hsm i x Hx D). refine (dominating_ext P _ _ D _ HD).
          intros y. cbn [firstn]. rewrite <- app_assoc. reflexivity.
      + right. exact Er.
  Qed.

  (* TidemanAlternative.evaluate, all repairs, n >= 1 seats, somebody stands *)
  Theorem tideman_tiers_sec : CS <> [] -> 1 <= n -> tiers_good [] (tideman_alt true true true votes n).
  Proof.
    intros Hne Hn. unfold tideman_alt. apply (loop_spec _ votes (Kc votes) [] linv_start); [|cbn [length]; lia|lia].
    intros E0. destruct CS as [|x t] eqn:Ec; [congruence|].
    assert (Hx : In x (Kc votes)) by (apply arc_iff; fold CS; rewrite Ec; left; reflexivity). rewrite E0 in Hx. exact Hx.
  Qed.
End TIERS.

(* for every n >= 1: min(n, #candidates) distinct plain candidates of the votes, the winner of every tier inside every
   dominating set (of the original pairwise dictionary) of the candidates not elected before it; or the declared refusal *)
Theorem tideman_tiers votes n : wf_votes votes = true -> cands_of votes <> [] -> 1 <= n ->
  (exists ws, tideman_alt true true true votes n = H_ok (map Cand ws) /\ NoDup ws /\ incl ws (cands_of votes) /\
              length ws = Nat.min n (length (cands_of votes)) /\ tier_smith (pairwise votes) (cands_of votes) [] ws) \/
  tideman_alt true true true votes n = H_nie.
Proof.
  intros Hwf Hne Hn. destruct (tideman_tiers_sec votes n Hwf Hne Hn) as [(ws & H)|H]; [left; exists ws; exact H|right; exact H].
Qed.

(* a candidate that stands alone is elected, however many seats are asked for *)
Theorem tideman_single votes n c : Kc votes = [c] -> 1 <= n -> tideman_alt true true true votes n = H_ok [Cand c].
Proof.
  intros EK Hn. assert (Hrne : votes <> []) by (intros ->; discriminate EK).
  assert (Hws : winner_set true votes = [c]).
  { apply nodup_incl_single; [apply winner_set_nodup|apply winner_set_nonempty; rewrite EK; discriminate|].
    intros x Hx. rewrite <- EK. exact (winner_set_Kc true votes x Hx). }
  unfold tideman_alt. rewrite tideman_loop_S. unfold tier_fuel_of. rewrite (tideman_tier_unfold true true _ votes Hrne), Hws, EK.
  cbn [cmem]. rewrite ceqb_refl. cbn [orb filter negb app length]. rewrite ceqb_refl. cbn [negb].
  rewrite orb_true_r. reflexivity.
Qed.

(* the Smith clause on an answer as it is observed *)
Theorem tideman_tiers_smith votes n ws : wf_votes votes = true -> cands_of votes <> [] -> 1 <= n ->
  tideman_alt true true true votes n = H_ok (map Cand ws) ->
  NoDup ws /\ incl ws (cands_of votes) /\ length ws = Nat.min n (length (cands_of votes)) /\
  tier_smith (pairwise votes) (cands_of votes) [] ws.
Proof.
  intros Hwf Hne Hn H. destruct (tideman_tiers votes n Hwf Hne Hn) as [(ws' & E & Hr)|E]; rewrite E in H; [|discriminate].
  injection H as H. apply map_cand_inj in H. subst ws'. exact Hr.
Qed.

Lemma cands_single votes c : cands_of votes = [c] -> Kc votes = [c].
Proof.
  intros E. apply nodup_incl_single; [apply arc_nodup| |intros x Hx; rewrite <- E; apply arc_iff, Hx].
  intros E0. assert (H : In c (Kc votes)) by (apply arc_iff; rewrite E; left; reflexivity). rewrite E0 in H. exact H.
Qed.

(* the repair for a single candidate leaves Benham's answers on profiles with two or more candidates as they were *)
Lemma benham_loop_conservative votes : wf_votes votes = true -> forall fuel cur, winv votes cur ->
  benham_loop true true fuel votes cur = benham_loop true false fuel votes cur.
Proof.
  intros Hwf. induction fuel as [|f IH]; intros cur Hb; pose proof Hb as (Hwfc & HK & HlenK).
  - rewrite !benham_loop_0, !(benham_cw_two _ cur HlenK). reflexivity.
  - rewrite !benham_loop_S, !(benham_cw_two _ cur HlenK). destruct (condorcet_winner (pairwise cur)); [|reflexivity].
    destruct (eliminate_one cur) as [rem|] eqn:Ee; [|reflexivity].
    destruct rem as [|r [|r2 rr]]; [|reflexivity|]; cbn [andb].
    + destruct (elim_spec cur [] Hwfc Ee eq_refl) as (R & E1 & _ & _ & E4). destruct R; [|discriminate]. cbn [length] in E4. lia.
    + destruct (has_tie (r :: r2 :: rr)) eqn:Et; [reflexivity|].
      destruct (elim_spec cur _ Hwfc Ee Et) as (R & E1 & E2 & E3 & E4). rewrite E1, plain_map_cand.
      apply IH. apply (winv_next votes Hwf cur R Hb E2 E3).
      assert (El : length (r :: r2 :: rr) = length R) by (rewrite E1, map_length; reflexivity). cbn [length] in El. lia.
Qed.

Theorem benham_repair_conservative votes : wf_votes votes = true -> 2 <= length (Kc votes) ->
  benham true true votes = benham true false votes.
Proof.
  intros Hwf H2. unfold benham. apply benham_loop_conservative; [exact Hwf|].
  split; [exact Hwf|]. split; [intros x Hx; apply arc_iff, Hx|exact H2].
Qed.
