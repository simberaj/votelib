(* Smith efficiency (C05) of Schulze - ranked, as votelib does, by the NUMBER of path-wins -, of ranked pairs
   (all three pairwise scorers) and of Kemeny-Young, and "nobody dropped" for Copeland with second-order
   tie-breaking.  The Smith set is the one SmithSet computes, [smith_schwartz v true], proved in
   Proofs/Smith_proofs.v (C06) to be the smallest dominating set; only its dominance is needed here:
   every member beats every candidate outside.

   - Schulze: no chain of direct wins leads from outside the Smith set into it (its first crossing step would be a
     win of an outsider over a member), so by the soundness of the Floyd-Warshall table (any iteration order) the
     entry (outsider, member) is 0 while the entry (member, outsider) is at least the direct win: a member path-beats
     every outsider, an outsider path-beats outsiders only.  A member therefore has at least |outside| path-wins and
     an outsider at most |outside| - 1: the strict maximum of the path-win count lies in the Smith set.
   - ranked pairs: under each scorer the pair (member, outsider) is strictly stronger than its reverse, hence comes
     first; by induction along the list (lock_no_edge_into_set, Proofs/RankedPairs_proofs.v) no pair (outsider, member)
     is ever locked (when its turn comes, its reverse
     was either locked - a path member -> outsider - or rejected because of a locked path outsider -> member,
     which would contain an earlier locked crossing pair).  The head of the ranking is locked over everybody else.
   - Kemeny-Young: in a best ranking headed by an outsider, moving the first member to the front gains votes
     (kemeny_max_prefix, Proofs/Kemeny_proofs.v).
   - Copeland: with as many seats as candidates get_n_best returns plain entries only, so the second-order
     branch is not taken and the first-order listing of all candidates is the answer.
   - ties (Section TIES, over the one-seat cases of get_n_best in Section GNB1): whatever Schulze or Copeland puts in the
     first place of a one-seat result, a plain winner or a tie, lies in the Smith set. *)
From Coq Require Import ZArith List Bool Lia Arith Permutation Sorted.
From VL Require Import Prelude.PyDict Model.GetNBest Model.Condorcet Proofs.Dict_proofs Proofs.GetNBest_proofs
     Proofs.Condorcet_proofs Proofs.Smith_proofs Proofs.CopelandMono_proofs Proofs.Minimax_proofs
     Proofs.Schulze_proofs Proofs.Kemeny_proofs Proofs.RankedPairs_proofs.
Import ListNotations.
Open Scope Z_scope.

Section DOM.
  Variable v : pvotes.
  Hypothesis H2 : (2 <= length (candidates v))%nat.
  Notation cs := (candidates v).
  Notation D := (smith_schwartz v true).

  Lemma D_dom a b : In a D -> In b cs -> ~ In b D -> beats v a b.
  Proof. apply (smith_dominating v H2). Qed.

  Lemma D_cs x : In x D -> In x cs.
  Proof. apply (smith_subset v H2). Qed.

  Lemma D_member : exists a, In a D /\ In a cs.
  Proof. apply (smith_member v H2). Qed.

  Lemma split_first_member (l : list C) : (exists y, In y l /\ In y D) ->
    exists l1 y l2, l = l1 ++ y :: l2 /\ In y D /\ forall x, In x l1 -> ~ In x D.
  Proof.
    induction l as [|a l IH]; intros (y & Hy & HyD); [destruct Hy|].
    destruct (in_dec Pos.eq_dec a D) as [Ha|Ha].
    - exists [], a, l. split; [reflexivity|]. split; [exact Ha|intros x []].
    - destruct IH as (l1 & z & l2 & -> & Hz & Hl1).
      { destruct Hy as [->|Hy]; [contradiction|]. exists y. split; assumption. }
      exists (a :: l1), z, l2. split; [reflexivity|]. split; [exact Hz|].
      intros x [<-|Hx]; [exact Ha|apply Hl1, Hx].
  Qed.

  (* a best ranking is headed by a member: otherwise moving its first member to the front gains votes *)
  Lemma kemeny_max_head_smith w t : kemeny_max v (w :: t) -> In w D.
  Proof.
    intros Hmax. pose proof Hmax as (Hp & _). destruct D_member as (a & HaD & Hac).
    destruct (split_first_member (w :: t)) as (l1 & y & l2 & E & HyD & Hl1).
    { exists a. split; [apply (Permutation_in a (Permutation_sym Hp)), Hac|exact HaD]. }
    rewrite E in Hmax, Hp. rewrite (kemeny_max_prefix v l1 y l2 Hmax) in E.
    - injection E as -> _. exact HyD.
    - intros x Hx. apply D_dom; [exact HyD| |apply Hl1, Hx]. apply (Permutation_in x Hp). apply in_or_app. left. exact Hx.
  Qed.

  Theorem kemeny_in_smith w : kemeny v 1 = CR_ok [Cand w] -> In w D.
  Proof.
    intros H. destruct (kemeny_defining v 1 _ H) as (p & Hmax & _ & Hr & _).
    destruct p as [|w' t]; simpl in Hr; [discriminate|]. injection Hr as ->.
    exact (kemeny_max_head_smith w' t Hmax).
  Qed.

  (* more: in a best ranking the candidate directly before a member of the Smith set is a member, so the members come first *)
  Theorem kemeny_max_smith_first p l1 x y l2 : kemeny_max v p -> p = l1 ++ x :: y :: l2 -> In y D -> In x D.
  Proof.
    intros (Hp & Hge) E HyD. destruct (in_dec Pos.eq_dec x D) as [Hx|Hx]; [exact Hx|exfalso].
    set (q := l1 ++ y :: x :: l2).
    assert (Hq : Permutation q cs).
    { apply Permutation_trans with (2 := Hp). rewrite E. apply Permutation_app_head. apply perm_swap. }
    specialize (Hge q Hq).
    assert (Hxc : In x cs) by (apply (Permutation_in x Hp); rewrite E; apply in_or_app; right; left; reflexivity).
    pose proof (D_dom y x HyD Hxc Hx) as Hb. unfold beats in Hb.
    assert (Hsw : forall l, kemeny_score v (l ++ y :: x :: l2) =
                            kemeny_score v (l ++ x :: y :: l2) + (pget0 v (y, x) - pget0 v (x, y))).
    { induction l as [|a l IH]; [simpl app|].
      - pose proof (score_move_front v y l2 [x]) as Hm. simpl app in Hm. cbn [gain] in Hm. lia.
      - change ((a :: l) ++ y :: x :: l2) with (a :: (l ++ y :: x :: l2)).
        change ((a :: l) ++ x :: y :: l2) with (a :: (l ++ x :: y :: l2)).
        rewrite !kemeny_score_cons, IH, !row_app, !row_cons. lia. }
    unfold q in Hge. rewrite Hsw, <- E in Hge. lia.
  Qed.
End DOM.

Section RPS.
  Variable v : pvotes.
  Variable s : scorer.
  Hypothesis Hnn : forall p n, In (p, n) v -> 0 <= n.
  Hypothesis H2 : (2 <= length (candidates v))%nat.
  Notation cs := (candidates v).
  Notation D := (smith_schwartz v true).
  Notation P := (rp_pairs s v).
  Notation L := (lock_pairs (rp_pairs s v)).

  (* under every scorer the win of a member over an outsider is strictly stronger than the reverse pair *)
  Lemma dom_key_order y x : In y D -> In x cs -> ~ In x D -> sc v s x y < sc v s y x.
  Proof. intros Hy Hx Hn. apply (beats_key_order v s x y Hnn), (D_dom v H2 y x Hy Hx Hn). Qed.

  Lemma dom_after_reverse : after_reverse_set (inS D) P.
  Proof.
    apply (beats_after_reverse v s Hnn). intros x y Hx _ Hxo Hyi.
    apply (D_dom v H2 y x); [apply inS_iff, Hyi|exact Hx|apply inS_false, Hxo].
  Qed.

  (* no pair is locked from outside the Smith set into it ... *)
  Theorem rp_no_edge_into_smith x y : In (x, y) L -> ~ In x D -> ~ In y D.
  Proof.
    intros H Hx Hy. apply (lock_no_edge_into_set (inS D) P) with (x := x) (y := y).
    - intros a b Hab. apply rp_pairs_in in Hab. tauto.
    - exact dom_after_reverse.
    - exact H.
    - apply inS_false, Hx.
    - apply inS_iff, Hy.
  Qed.

  (* ... hence every member is locked over every outsider *)
  Theorem rp_smith_locked a b : In a D -> In b cs -> ~ In b D -> In (a, b) L.
  Proof.
    intros Ha Hb Hn. assert (Hab : a <> b) by (intros ->; contradiction).
    destruct (L_total cs P (rp_pairs_in s v) a b (D_cs v H2 a Ha) Hb Hab) as [H|H]; [exact H|].
    destruct (rp_no_edge_into_smith b a H Hn Ha).
  Qed.

  Theorem ranked_pairs_in_smith w : ranked_pairs s v 1 = CR_ok [Cand w] -> In w D.
  Proof.
    intros H. destruct (ranked_pairs_ranking v s H2 1) as (R & HR & Hp & Hs). rewrite HR in H.
    destruct (in_dec Pos.eq_dec w D) as [Hw|Hw]; [exact Hw|exfalso].
    destruct (D_member v H2) as (a & HaD & Hac).
    assert (HaR : In a R) by (apply (Permutation_in a (Permutation_sym Hp)), Hac).
    destruct R as [|w' t]; [destruct HaR|]. simpl in H. injection H as ->.
    destruct HaR as [->|HaR]; [contradiction|].
    inversion Hs as [|? ? _ Hall]; subst. rewrite Forall_forall in Hall. specialize (Hall a HaR).
    exact (rp_no_edge_into_smith w a Hall Hw HaD).
  Qed.
End RPS.

Section SCHS.
  Variable v : pvotes.
  Hypothesis Hnd : NoDup (map fst v).
  Hypothesis Hnn : forall p n, In (p, n) v -> 0 <= n.
  Hypothesis H2 : (2 <= length (candidates v))%nat.
  Variable order : list C.
  Notation cs := (candidates v).
  Notation D := (smith_schwartz v true).
  Notation P := (widest_paths v order).

  (* a direct win never leads from outside the Smith set into it *)
  Lemma step_stays_out s x y : 0 < s -> s <= d0 v x y -> ~ In x D -> ~ In y D.
  Proof.
    intros Hs Hd Hx Hy. assert (Hp : 0 < d0 v x y) by lia.
    destruct (d0_pos v x y Hp) as [Hb _]. destruct (d0_pos_cands v x y Hp) as (Hxc & _ & _).
    pose proof (D_dom v H2 y x Hy Hxc Hx) as Hb'. unfold beats in *. lia.
  Qed.

  Lemma reach_stays_out s a b : 0 < s -> Schulze_proofs.reach v s a b -> ~ In a D -> ~ In b D.
  Proof.
    intros Hs. induction 1 as [a b H|a m b H _ IH]; intros Ha; [exact (step_stays_out s a b Hs H Ha)|].
    apply IH. exact (step_stays_out s a m Hs H Ha).
  Qed.

  (* the table: nothing from outside into the Smith set, the direct win from a member to an outsider *)
  Lemma P_into_smith b a : ~ In b D -> In a D -> pget0 P (b, a) = 0.
  Proof.
    intros Hb Ha. pose proof (P_nonneg0 v Hnd Hnn order (b, a)) as H0.
    destruct (Z.eq_dec (pget0 P (b, a)) 0) as [E|E]; [exact E|exfalso].
    apply (reach_stays_out (pget0 P (b, a)) b a); [lia| |exact Hb|exact Ha].
    apply (wp_sound v Hnd order). lia.
  Qed.

  Lemma smith_beats_P a b : In a D -> In b cs -> ~ In b D -> beats P a b.
  Proof.
    intros Ha Hb Hn. unfold beats. rewrite (P_into_smith b a Hn Ha).
    destruct (wp_G v Hnd order) as (_ & Gm & _). pose proof (Gm a b).
    destruct (d0_beats v Hnn a b (D_dom v H2 a b Ha Hb Hn)) as [_ Hp]. lia.
  Qed.

  (* a member has more path-wins than an outsider *)
  Theorem path_wins_gap a x : In a D -> In x cs -> ~ In x D ->
    (length (opponents P x) < length (opponents P a))%nat.
  Proof.
    intros Ha Hx Hn.
    assert (E1 : (length (outs cs D) <= length (opponents P a))%nat).
    { apply NoDup_incl_length; [apply outs_nodup, candidates_NoDup|]. intros y Hy. apply outs_iff in Hy. destruct Hy as [Hyc HyD].
      apply (opponents_spec P (P_nodup v Hnd order) (P_nonneg v Hnd Hnn order)). apply smith_beats_P; assumption. }
    assert (E2 : (S (length (opponents P x)) <= length (outs cs D))%nat).
    { change (S (length (opponents P x))) with (length (x :: opponents P x)). apply NoDup_incl_length.
      - constructor; [|apply (opponents_NoDup P (P_nodup v Hnd order))].
        intros H. apply (opp_P_incl v Hnd Hnn order) in H. tauto.
      - intros y [<-|Hy]; [apply outs_iff; tauto|]. pose proof (opp_P_incl v Hnd Hnn order x y Hy) as [Hyc _].
        apply outs_iff. split; [exact Hyc|]. intros HyD.
        apply (opponents_spec P (P_nodup v Hnd order) (P_nonneg v Hnd Hnn order)) in Hy. unfold beats in Hy.
        rewrite (P_into_smith x y Hn HyD) in Hy. pose proof (P_nonneg0 v Hnd Hnn order (y, x)). lia. }
    lia.
  Qed.

  (* hence an outsider's entry in the score dictionary is below that of some member *)
  Lemma schulze_outsider_outscored c s : In (c, s) (sscores v order) -> ~ In c D ->
    exists a sa, In (a, sa) (sscores v order) /\ a <> c /\ s < sa.
  Proof.
    intros Hin Hd. destruct (sscores_facts v Hnd Hnn order) as (Sn & Sk & Sv).
    assert (Hcc : In c cs) by (apply Sk, in_map_iff; exists (c, s); auto).
    destruct (D_member v H2) as (a & HaD & Hac). pose proof (path_wins_gap a c HaD Hcc Hd) as Hgap.
    apply Sk, in_map_iff in Hac. destruct Hac as ([a' sa] & Hf & Hina). simpl in Hf. subst a'.
    exists a, sa. split; [exact Hina|]. split; [intros ->; contradiction|].
    rewrite (Sv a sa Hina), (Sv c s Hin). lia.
  Qed.

  Theorem schulze_in_smith w : schulze v order 1 = [Cand w] -> In w D.
  Proof.
    intros Hwin. rewrite schulze_scores in Hwin. destruct (sscores_facts v Hnd Hnn order) as (Sn & _ & _).
    destruct (get_n_best_1_cand zle_bool zle_total zle_trans (sscores v order) w [] Sn Hwin) as (_ & sw & Hin & Hmax).
    destruct (in_dec Pos.eq_dec w D) as [Hw|Hw]; [exact Hw|exfalso].
    destruct (schulze_outsider_outscored w sw Hin Hw) as (a & sa & Hina & Haw & Hlt).
    specialize (Hmax a sa Hina Haw). unfold GetNBest.ltb, zle_bool in Hmax. apply negb_true_iff, Z.leb_gt in Hmax. lia.
  Qed.
End SCHS.

Lemma has_tie_cands {X} (f : X -> C) (l : list X) : has_tie (map (fun it => Cand (f it)) l) = false.
Proof. induction l as [|x l IH]; [reflexivity|exact IH]. Qed.

Lemma copeland_no_tie so (v : pvotes) n :
  has_tie (get_n_best zle_bool (cscores v) n) = false -> copeland so v n = get_n_best zle_bool (cscores v) n.
Proof.
  intros H. unfold copeland. cbv zeta. fold seed. fold (cscores v). rewrite H, andb_false_r. reflexivity.
Qed.

Theorem copeland_nobody_dropped (v : pvotes) so x :
  NoDup (map fst v) -> (forall p n, In (p, n) v -> 0 <= n) ->
  In x (candidates v) -> In (Cand x) (copeland so v (length (candidates v))).
Proof.
  intros Hnd Hnn Hx. destruct (cscores_facts v Hnd Hnn) as (Sn & Sv & Sc).
  assert (Hk : forall y, In y (map fst (cscores v)) <-> In y (candidates v)).
  { intros y. split; [|apply Sc]. intros Hy. apply in_map_iff in Hy. destruct Hy as ([y' u] & Hf & Hin).
    simpl in Hf. subst y'. apply (Sv y u Hin). }
  rewrite (keys_length (cscores v) (candidates v) Sn (candidates_NoDup v) Hk).
  (* as many seats as entries: plain entries only *)
  rewrite copeland_no_tie; [apply get_n_best_all_in, Sc, Hx|rewrite get_n_best_all; apply has_tie_cands].
Qed.

Section GNB1.
  Context {V : Type}.
  Variable leb : V -> V -> bool.
  Hypothesis leb_total : forall a b, leb a b = true \/ leb b a = true.
  Hypothesis leb_trans : forall a b c, leb a b = true -> leb b c = true -> leb a c = true.

  (* the single seat goes to nobody, to one candidate, or to a tie of greatest elements *)
  Lemma get_n_best_1_cases (votes : list (C * V)) :
    get_n_best leb votes 1 = [] \/ (exists c, get_n_best leb votes 1 = [Cand c]) \/
    exists T, get_n_best leb votes 1 = [TieR T] /\
      forall c, In c T -> exists s, In (c, s) votes /\ forall c' s', In (c', s') votes -> leb s' s = true.
  Proof.
    destruct (get_n_best_1_cut leb leb_total leb_trans votes)
      as [[_ E]|[(x & rest & _ & E & _)|(level & below & thr & E & Hp & _ & Hl & Hb)]].
    - left. exact E.
    - right. left. exists (fst x). exact E.
    - right. right. exists (map fst level). split; [exact E|]. intros c Hc.
      apply in_map_iff in Hc. destruct Hc as ([c0 s] & Hf & Hin). simpl in Hf. subst c0.
      rewrite Forall_forall in Hl, Hb. pose proof (Hl _ Hin) as Hs. cbn [snd] in Hs.
      exists s. split; [apply (Permutation_in _ Hp), in_or_app; left; exact Hin|].
      intros c' s' Hin'. apply (Permutation_in _ (Permutation_sym Hp)), in_app_or in Hin'. destruct Hin' as [H|H].
      + exact (eqv_leb_l leb leb_trans s' s thr (Hl _ H) Hs).
      + apply andb_true_iff in Hs. exact (leb_trans _ _ _ (ltb_leb leb leb_total _ _ (Hb _ H)) (proj2 Hs)).
  Qed.

  Theorem get_n_best_1_tie (votes : list (C * V)) T : get_n_best leb votes 1 = [TieR T] ->
    forall c, In c T -> exists s, In (c, s) votes /\ forall c' s', In (c', s') votes -> leb s' s = true.
  Proof.
    intros Hr. destruct (get_n_best_1_cases votes) as [E|[(c & E)|(T' & E & H)]]; rewrite E in Hr; try discriminate.
    injection Hr as <-. exact H.
  Qed.

  Theorem get_n_best_1_shape (votes : list (C * V)) :
    get_n_best leb votes 1 = [] \/ (exists c, get_n_best leb votes 1 = [Cand c]) \/ exists T, get_n_best leb votes 1 = [TieR T].
  Proof.
    destruct (get_n_best_1_cases votes) as [E|[E|(T & E & _)]]; [left; exact E|right; left; exact E|right; right; exists T; exact E].
  Qed.

  (* a plain entry of the result is a key of the input *)
  Lemma get_n_best_cand_key (votes : list (C * V)) n c : In (Cand c) (get_n_best leb votes n) -> In c (map fst votes).
  Proof.
    assert (Hs : forall k, In (Cand c) (map (fun it : C * V => Cand (fst it)) (firstn k (sort_desc leb votes))) -> In c (map fst votes)).
    { intros k H. apply in_map_iff in H. destruct H as (it & Hf & Hin). injection Hf as <-.
      apply in_map. apply (Permutation_in _ (sort_desc_perm leb votes)). revert Hin. generalize (sort_desc leb votes).
      induction k as [|k IH]; intros [|y l]; simpl; try tauto. intros [H|H]; [left; exact H|right; apply IH, H]. }
    unfold get_n_best. intros H.
    destruct (Nat.ltb n (length (sort_desc leb votes))).
    2:{ apply (Hs (length (sort_desc leb votes))). rewrite firstn_all. exact H. }
    destruct (nth_error (sort_desc leb votes) (n - 1)) as [[c1 thr]|]; [|destruct H].
    destruct (nth_error (sort_desc leb votes) n) as [[c2 nxt]|]; [|destruct H].
    destruct (GetNBest.eqv leb nxt thr); [|exact (Hs _ H)].
    apply in_app_or in H. destruct H as [H|H]; [exact (Hs _ H)|]. apply repeat_spec in H. discriminate.
  Qed.
End GNB1.

(* A reported tie for the single seat lies in the Smith set too.
   [first_place]: the candidates standing in the first place of a result, the plain winner or the members of the tie *)
Definition first_place (r : list (res C)) : list C :=
  match r with Cand c :: _ => [c] | TieR l :: _ => l | [] => [] end.

Section TIES.
  Variable v : pvotes.
  Hypothesis Hnd : NoDup (map fst v).
  Hypothesis Hnn : forall p n, In (p, n) v -> 0 <= n.
  Hypothesis H2 : (2 <= length (candidates v))%nat.
  Notation cs := (candidates v).
  Notation D := (smith_schwartz v true).

  Theorem schulze_first_in_smith order : incl (first_place (schulze v order 1)) D.
  Proof.
    pose proof (schulze_in_smith v Hnd Hnn H2 order) as Hsole. rewrite schulze_scores in *.
    destruct (get_n_best_1_cases zle_bool zle_total zle_trans (sscores v order)) as [E|[(c & E)|(T & E & HT)]]; rewrite E; simpl.
    - intros x [].
    - intros x [<-|[]]. exact (Hsole c E).
    - intros c Hc. destruct (HT c Hc) as (s & Hin & Hmax).
      destruct (in_dec Pos.eq_dec c D) as [Hd|Hd]; [exact Hd|exfalso].
      destruct (schulze_outsider_outscored v Hnd Hnn H2 order c s Hin Hd) as (a & sa & Hina & _ & Hlt).
      specialize (Hmax a sa Hina). unfold zle_bool in Hmax. apply Z.leb_le in Hmax. lia.
  Qed.

  (* Copeland: a first-order tie for the seat lies in the Smith set ... *)
  Lemma copeland_tie_in_smith T : get_n_best zle_bool (cscores v) 1 = [TieR T] -> incl T D.
  Proof.
    intros E c Hc. destruct (get_n_best_1_tie zle_bool zle_total zle_trans (cscores v) T E c Hc) as (s & Hin & Hmax).
    destruct (in_dec Pos.eq_dec c D) as [Hd|Hd]; [exact Hd|exfalso].
    destruct (D_member v H2) as (a & HaD & Hac).
    destruct (outsider_outscored v Hnd Hnn H2 D (D_dom v H2) a c s HaD Hac Hin Hd) as (sa & Hina & Hlt).
    specialize (Hmax a sa Hina). unfold zle_bool in Hmax. apply Z.leb_le in Hmax. lia.
  Qed.

  (* ... and the second-order scores are kept for the tied candidates only *)
  Definition so_dict (tied : list C) : list (C * Z) :=
    fold_left (fun d (p : pair) => if cmem (fst p) tied then dadd d (fst p) (dget_or (cscores v) (snd p) 0) else d)
      (pairwise_wins v false)
      (flat_map (fun cs : C * Z => if cmem (fst cs) tied then [(fst cs, 0)] else []) (cscores v)).

  (* [T ++ []] is what [res_members [TieR T]] computes to *)
  Lemma copeland2_tie T : get_n_best zle_bool (cscores v) 1 = [TieR T] ->
    copeland true v 1 = get_n_best zle_bool (so_dict (T ++ [])) 1.
  Proof. intros H. unfold copeland. cbv zeta. fold seed. fold (cscores v). rewrite H. reflexivity. Qed.

  Lemma so_dict_keys tied k : In k (map fst (so_dict tied)) -> In k tied.
  Proof.
    unfold so_dict.
    assert (H0 : forall k, In k (map fst (flat_map (fun cs : C * Z => if cmem (fst cs) tied then [(fst cs, 0)] else []) (cscores v))) -> In k tied).
    { intros k' H. apply in_map_iff in H. destruct H as ([k0 z] & Hf & H). simpl in Hf. subst k0.
      apply in_flat_map in H. destruct H as (cs0 & _ & H). destruct (cmem (fst cs0) tied) eqn:E; [|destruct H].
      destruct H as [H|[]]. injection H as <- _. apply cmem_In, E. }
    revert H0. generalize (flat_map (fun cs : C * Z => if cmem (fst cs) tied then [(fst cs, 0)] else []) (cscores v)).
    generalize (pairwise_wins v false). intros ws. induction ws as [|p ws IH]; intros d Hd; simpl fold_left; [apply Hd|].
    apply IH. destruct (cmem (fst p) tied) eqn:E; [|exact Hd]. intros k' H. unfold dadd in H. apply dset_keys_in in H.
    destruct H as [->|H]; [apply cmem_In, E|apply Hd, H].
  Qed.

  Theorem copeland_first_in_smith so : incl (first_place (copeland so v 1)) D.
  Proof.
    destruct (get_n_best_1_shape zle_bool zle_total zle_trans (cscores v)) as [E|[(c & E)|(T & E)]].
    - rewrite copeland_no_tie; rewrite E; [|reflexivity]. intros x [].
    - rewrite copeland_no_tie; rewrite E; [|reflexivity]. intros x [<-|[]]. exact (Smith_proofs.copeland_in_smith v c Hnd Hnn H2 E).
    - pose proof (copeland_tie_in_smith T E) as HT. destruct so.
      + rewrite (copeland2_tie T E).
        assert (Hk : forall k, In k (map fst (so_dict (T ++ []))) -> In k D).
        { intros k Hk. apply so_dict_keys in Hk. rewrite app_nil_r in Hk. apply HT, Hk. }
        destruct (get_n_best_1_shape zle_bool zle_total zle_trans (so_dict (T ++ []))) as [E'|[(c & E')|(T' & E')]]; rewrite E'; simpl.
        * intros x [].
        * intros x [<-|[]]. apply Hk. apply (get_n_best_cand_key zle_bool (so_dict (T ++ [])) 1). rewrite E'. left. reflexivity.
        * intros x Hx. apply Hk.
          destruct (get_n_best_tie_members zle_bool zle_trans (so_dict (T ++ [])) 1 T') as (thr & -> & _); [rewrite E'; left; reflexivity|].
          apply in_map_iff in Hx. destruct Hx as (it & <- & Hit). apply filter_In in Hit. apply in_map, Hit.
      + rewrite copeland_raw_is_first_order, E. exact HT.
  Qed.
End TIES.
