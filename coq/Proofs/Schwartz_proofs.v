(* The Schwartz set (Model/Condorcet.v: schwartz_set, the model of the repaired SchwartzSet - fixes/C06-schwartz-set):
   - a candidate is returned iff every candidate with a beat path to it (a chain of strict pairwise defeats) is reached
     by a beat path from it (schwartz_in);
   - that set is exactly the union of the minimal unbeaten sets: non-empty sets of candidates no outsider beats
     (schwartz_spec);
   - it is non-empty, every candidate is a member or reached from a member by a beat path (schwartz_above), it lies
     inside the Smith set (schwartz_in_smith), it is {w} when w is the Condorcet winner (schwartz_cw);
   - shape (no duplicates, candidates only);
   - invariances: the same members whatever the insertion order of the pairwise dictionary (C10), exact commutation with
     every injective renaming of the candidates (C10), unchanged when every count is multiplied by the same positive
     integer (C11); two candidates exchanged by an involution that leaves the dictionary the same are members together
     (schwartz_symmetric).
   Reachability is decided by is_path, the model of RankedPairs._is_path, proved to decide paths in
   Proofs/RankedPairs_proofs.v (is_path_iff). *)
From Coq Require Import ZArith List Bool Arith Lia Permutation.
From VL Require Import Prelude.PyDict Model.GetNBest Model.Condorcet Proofs.Dict_proofs Proofs.GetNBest_proofs Proofs.Condorcet_proofs Proofs.Smith_proofs
  Proofs.RankedPairs_proofs.
Import ListNotations.
Open Scope Z_scope.

(* a chain of strict pairwise defeats from a to b (absent pair = 0 : 0) *)
Inductive beatpath (v : pvotes) : C -> C -> Prop :=
| bp_one a b : beats v a b -> beatpath v a b
| bp_step a b c : beats v a b -> beatpath v b c -> beatpath v a c.

(* a non-empty set of candidates that no candidate outside it beats *)
Definition unbeaten_set (v : pvotes) (S : list C) : Prop :=
  S <> [] /\ incl S (candidates v) /\ forall a b, In a S -> In b (candidates v) -> ~ In b S -> ~ beats v b a.

Lemma beatpath_trans v a b c : beatpath v a b -> beatpath v b c -> beatpath v a c.
Proof. induction 1 as [a b H|a b d H _ IH]; intros H'; [eapply bp_step; eauto|eapply bp_step; [exact H|apply IH, H']]. Qed.

Lemma beatpath_last v a b : beatpath v a b -> exists y, beats v y b.
Proof. induction 1 as [a b H|a b d H _ IH]; [exists a; exact H|exact IH]. Qed.

Lemma beatpath_first v a b : beatpath v a b -> exists y, beats v a y.
Proof. induction 1 as [a b H|a b d H _ IH]; exists b; exact H. Qed.

Lemma beatpath_ext v v' : (forall a b, beats v a b -> beats v' a b) -> forall a b, beatpath v a b -> beatpath v' a b.
Proof. intros E a b. induction 1 as [a b H|a b d H _ IH]; [apply bp_one, E, H|eapply bp_step; [apply E, H|exact IH]]. Qed.

Lemma beats_asym v a b : beats v a b -> ~ beats v b a.
Proof. unfold beats. lia. Qed.

(* a beat path that starts outside a (decidable) set and ends inside it crosses the border *)
Lemma beatpath_cross v (S : list C) a b : beatpath v a b -> ~ In a S -> In b S ->
  exists x y, beats v x y /\ ~ In x S /\ In y S.
Proof.
  induction 1 as [a b H|a b d H _ IH]; intros Ha Hb; [exists a, b; tauto|].
  destruct (in_dec Pos.eq_dec b S) as [Hi|Hn]; [exists a, b; tauto|apply IH; assumption].
Qed.

Lemma nodup_singleton (w : C) (l : list C) : NoDup l -> (forall x, In x l <-> x = w) -> l = [w].
Proof.
  intros N H. destruct l as [|x t].
  - exfalso. apply (proj2 (H w) eq_refl).
  - assert (x = w) by (apply H; left; reflexivity). subst x. destruct t as [|y t]; [reflexivity|].
    assert (y = w) by (apply H; right; left; reflexivity). subst y. inversion N as [|? ? Hx _]. exfalso. apply Hx. left. reflexivity.
Qed.

(* the returned list, for every dictionary: no duplicates, candidates only *)
Theorem schwartz_set_shape (v : pvotes) : NoDup (schwartz_set v) /\ incl (schwartz_set v) (candidates v).
Proof.
  unfold schwartz_set. cbv zeta. split; [apply NoDup_filter, order_nodup|].
  intros x Hx. apply filter_In in Hx. destruct Hx as [Hx _].
  apply (Permutation_in _ (order_perm v)), (cscore_keys _) in Hx.
  destruct Hx as (p & Hpw & Hx). destruct (complete_wins_cands v p true Hpw) as [Ha Hb]. destruct Hx as [->| ->]; assumption.
Qed.

Section SCHWARTZ.
  Variable v : pvotes.
  Hypothesis Hnn : forall p n, In (p, n) v -> 0 <= n.
  Hypothesis Hndv : NoDup (map fst v).
  Hypothesis H2 : (2 <= length (candidates v))%nat.
  Notation cs := (candidates v).
  Notation cv := (complete v).
  Notation DF := (pairwise_wins (complete v) false).

  (* the strict defeats the routine searches: exactly the beats relation *)
  Lemma df_iff a b : In (a, b) DF <-> beats v a b.
  Proof using Hnn H2.
    rewrite pairwise_wins_In. unfold beats. split.
    - intros (n & Hin & [H|[[=] _]]). apply complete_in in Hin. destruct Hin as (Ha & Hb & Hab & ->).
      rewrite (complete_pget0 v b a Hb Ha) in H by congruence. exact H.
    - intros H. destruct (beats_cands v Hnn a b H) as (Ha & Hb & Hab).
      exists (pget0 v (a, b)). split; [apply complete_in; tauto|left].
      rewrite (complete_pget0 v b a Hb Ha) by congruence. exact H.
  Qed.

  Lemma path_beatpath a b : path DF a b <-> beatpath v a b.
  Proof.
    split.
    - induction 1 as [a b H|a b d H _ IH]; [apply bp_one, df_iff, H|eapply bp_step; [apply df_iff, H|exact IH]].
    - induction 1 as [a b H|a b d H _ IH]; [apply path1, df_iff, H|eapply pathS; [apply df_iff, H|exact IH]].
  Qed.

  Lemma is_path_beatpath a b : is_path DF a b = true <-> a <> b /\ beatpath v a b.
  Proof. rewrite is_path_iff, path_beatpath. reflexivity. Qed.

  Lemma beatpath_cands a b : beatpath v a b -> In a cs /\ In b cs.
  Proof.
    intros H. split.
    - destruct (beatpath_first v a b H) as (y & Hy). apply (beats_cands v Hnn) in Hy. tauto.
    - destruct (beatpath_last v a b H) as (y & Hy). apply (beats_cands v Hnn) in Hy. tauto.
  Qed.

  (* membership: the candidates that answer every beat path to them with a beat path back *)
  Definition maxb (c : C) : bool := forallb (fun o => implb (is_path DF o c) (is_path DF c o)) cs.

  Lemma maxb_iff c : maxb c = true <-> forall o, beatpath v o c -> beatpath v c o.
  Proof.
    unfold maxb. rewrite forallb_forall. split.
    - intros H o Ho. destruct (Pos.eq_dec o c) as [->|Hne]; [exact Ho|].
      specialize (H o (proj1 (beatpath_cands o c Ho))). rewrite implb_true_iff, !is_path_beatpath in H.
      apply H. split; assumption.
    - intros H o _. rewrite implb_true_iff, !is_path_beatpath. intros [Hne Ho]. split; [congruence|apply H, Ho].
  Qed.

  Theorem schwartz_in c : In c (schwartz_set v) <-> In c cs /\ forall o, beatpath v o c -> beatpath v c o.
  Proof.
    unfold schwartz_set. cbv zeta. rewrite filter_In, (order_in v H2 c), <- maxb_iff. unfold maxb.
    rewrite !forallb_forall. split; intros [Hc H]; (split; [exact Hc|]); intros o Ho; apply H; apply (order_in v H2 o); exact Ho.
  Qed.

  Lemma unbeaten_closed S : unbeaten_set v S -> forall x a, beatpath v x a -> In a S -> In x S.
  Proof using Hnn H2.
    intros (_ & _ & Hu).
    assert (Hstep : forall x a, beats v x a -> In a S -> In x S).
    { intros x a Hb Ha. destruct (in_dec Pos.eq_dec x S) as [Hi|Hn]; [exact Hi|exfalso].
      apply (Hu a x Ha); [apply (beats_cands v Hnn) in Hb; tauto|exact Hn|exact Hb]. }
    intros x a Hp. induction Hp as [x a Hb|x b a Hb _ IH]; intros Ha; [|apply IH in Ha]; eapply Hstep; eassumption.
  Qed.

  (* a candidate together with everybody who has a beat path to it *)
  Definition anc (c : C) : list C := filter (fun o => ceqb o c || is_path DF o c) cs.

  Lemma anc_in c o : In c cs -> (In o (anc c) <-> o = c \/ beatpath v o c).
  Proof.
    intros Hc. unfold anc. rewrite filter_In, orb_true_iff, ceqb_eq, is_path_beatpath. split.
    - intros [_ [E|[_ H]]]; auto.
    - intros [->|H].
      + split; [exact Hc|left; reflexivity].
      + split; [apply (beatpath_cands o c H)|]. destruct (Pos.eq_dec o c) as [E|E]; [left; exact E|right; split; assumption].
  Qed.

  Lemma anc_unbeaten c : In c cs -> unbeaten_set v (anc c).
  Proof.
    intros Hc. split; [|split].
    - intros E. assert (H : In c (anc c)) by (apply anc_in; auto). rewrite E in H. destruct H.
    - intros x Hx. unfold anc in Hx. apply filter_In in Hx. tauto.
    - intros a b Ha Hb Hnb Hba. apply Hnb. apply anc_in; [exact Hc|]. right.
      apply (anc_in c a Hc) in Ha. destruct Ha as [->|Ha]; [apply bp_one, Hba|eapply bp_step; eauto].
  Qed.

  (* the Schwartz clause of C06: exactly the union of the minimal unbeaten sets *)
  Theorem schwartz_spec c : In c (schwartz_set v) <->
    exists S, unbeaten_set v S /\ In c S /\ forall T, unbeaten_set v T -> incl T S -> incl S T.
  Proof.
    rewrite schwartz_in. split.
    - intros [Hc Hmax]. exists (anc c). split; [apply anc_unbeaten, Hc|]. split; [apply anc_in; auto|].
      intros T HT Hsub.
      assert (HcT : In c T).
      { destruct HT as (Hne & HT'). destruct T as [|t T']; [congruence|].
        assert (Ht : In t (anc c)) by (apply Hsub; left; reflexivity). apply (anc_in c t Hc) in Ht.
        destruct Ht as [->|Ht]; [left; reflexivity|].
        apply (unbeaten_closed (t :: T') (conj Hne HT') c t (Hmax t Ht)). left. reflexivity. }
      intros s Hs. apply (anc_in c s Hc) in Hs. destruct Hs as [->|Hs]; [exact HcT|].
      apply (unbeaten_closed T HT s c Hs HcT).
    - intros (S & HS & HcS & Hmin).
      assert (Hc : In c cs) by (destruct HS as (_ & Hi & _); apply Hi, HcS).
      split; [exact Hc|]. intros o Ho.
      assert (HoS : In o S) by (apply (unbeaten_closed S HS o c Ho HcS)).
      assert (Hoc : In o cs) by (apply (beatpath_cands o c Ho)).
      assert (Hsub : incl (anc o) S).
      { intros x Hx. apply (anc_in o x Hoc) in Hx. destruct Hx as [->|Hx]; [exact HoS|].
        apply (unbeaten_closed S HS x o Hx HoS). }
      pose proof (Hmin (anc o) (anc_unbeaten o Hoc) Hsub c HcS) as H. apply (anc_in o c Hoc) in H.
      destruct H as [->|H]; [exact Ho|exact H].
  Qed.

  (* existence: below every candidate there are fewer and fewer strict ancestors, so the climb stops *)
  Definition sanc (c : C) : list C := filter (fun o => is_path DF o c) cs.

  Lemma not_max_smaller c : In c cs -> maxb c = false ->
    exists o, In o cs /\ beatpath v o c /\ (length (sanc o) < length (sanc c))%nat.
  Proof.
    intros Hc E. unfold maxb in E. apply forallb_false in E. destruct E as (o & Ho & E).
    destruct (is_path DF o c) eqn:E1; [|discriminate]. destruct (is_path DF c o) eqn:E2; [discriminate|]. clear E.
    apply is_path_beatpath in E1. destruct E1 as [Hne Hoc].
    exists o. split; [exact Ho|]. split; [exact Hoc|].
    unfold sanc. apply filter_length_lt.
    - intros x Hx. apply is_path_beatpath in Hx. destruct Hx as [Hxo Hx]. apply is_path_beatpath.
      split; [|eapply beatpath_trans; eauto]. intros ->.
      assert (is_path DF c o = true) by (apply is_path_beatpath; split; [congruence|exact Hx]). congruence.
    - exists o. split; [exact Ho|]. split; [apply is_path_beatpath; split; assumption|].
      destruct (is_path DF o o) eqn:E; [|reflexivity]. apply is_path_beatpath in E. destruct E as [E _]. congruence.
  Qed.

  Lemma maximal_above : forall n c, In c cs -> (length (sanc c) <= n)%nat ->
    exists m, In m (schwartz_set v) /\ (m = c \/ beatpath v m c).
  Proof.
    induction n as [|n IH]; intros c Hc Hl; destruct (maxb c) eqn:E;
      try (exists c; split; [apply schwartz_in; split; [exact Hc|apply maxb_iff, E]|left; reflexivity]);
      destruct (not_max_smaller c Hc E) as (o & Ho & Hoc & Hlt); [lia|].
    destruct (IH o Ho ltac:(lia)) as (m & Hm & Hmo). exists m. split; [exact Hm|]. right.
    destruct Hmo as [->|Hmo]; [exact Hoc|eapply beatpath_trans; eauto].
  Qed.

  (* every candidate is in the Schwartz set or reached by a beat path from a member *)
  Theorem schwartz_above c : In c cs -> exists m, In m (schwartz_set v) /\ (m = c \/ beatpath v m c).
  Proof. intros Hc. apply (maximal_above (length (sanc c)) c Hc). lia. Qed.

  Theorem schwartz_nonempty : schwartz_set v <> [].
  Proof.
    destruct (cs_inhabited v H2) as (c0 & Hc0). destruct (schwartz_above c0 Hc0) as (m & Hm & _).
    intros E. rewrite E in Hm. destruct Hm.
  Qed.

  Theorem schwartz_in_smith c : In c (schwartz_set v) -> In c (smith_schwartz v true).
  Proof.
    intros Hc. apply schwartz_in in Hc. destruct Hc as [Hc Hmax].
    destruct (smith_dominating v H2) as [Hne Hdom].
    destruct (in_dec Pos.eq_dec c (smith_schwartz v true)) as [Hi|Hn]; [exact Hi|exfalso].
    destruct (smith_schwartz v true) as [|a O'] eqn:EO; [congruence|].
    assert (Ha : In a (a :: O')) by (left; reflexivity).
    pose proof (Hmax a (bp_one v a c (Hdom a c Ha Hc Hn))) as Hback.
    destruct (beatpath_cross v (a :: O') c a Hback Hn Ha) as (x & y & Hxy & Hx & Hy).
    apply (beats_asym v x y Hxy). apply Hdom; [exact Hy|apply (beats_cands v Hnn) in Hxy; tauto|exact Hx].
  Qed.

  Theorem schwartz_cw w : is_cw v w -> schwartz_set v = [w].
  Proof.
    intros [Hw Hbeat]. apply nodup_singleton; [apply schwartz_set_shape|].
    assert (Hunb : forall y, ~ beats v y w).
    { intros y Hy. destruct (beats_cands v Hnn y w Hy) as (Hyc & _ & Hne). apply (beats_asym v y w Hy). apply Hbeat; assumption. }
    intros x. rewrite schwartz_in. split.
    - intros [Hx Hmax]. destruct (Pos.eq_dec x w) as [E|E]; [exact E|exfalso].
      destruct (beatpath_last v x w (Hmax w (bp_one v w x (Hbeat x Hx E)))) as (y & Hy). exact (Hunb y Hy).
    - intros ->. split; [exact Hw|]. intros o Ho. exfalso. destruct (beatpath_last v o w Ho) as (y & Hy). exact (Hunb y Hy).
  Qed.
End SCHWARTZ.

(* fewer than two candidates (only possible for an empty dictionary or self pairs): nothing is returned *)
Lemma schwartz_small (u : pvotes) : (length (candidates u) < 2)%nat -> schwartz_set u = [].
Proof.
  intros H. unfold schwartz_set.
  assert (E : complete u = []).
  { unfold complete. destruct (candidates u) as [|c [|c' t]]; cbn [length flat_map app] in *; try lia; [reflexivity|].
    unfold ceqb. rewrite Pos.eqb_refl. reflexivity. }
  rewrite E. reflexivity.
Qed.

From VL Require Import Proofs.CondorcetOrder_proofs Proofs.HARename_proofs Proofs.Equivariant Proofs.CondorcetRename_proofs
  Proofs.Scale_proofs.

Theorem schwartz_perm v v' : NoDup (map fst v) -> (forall p n, In (p, n) v -> 0 <= n) -> Permutation v v' ->
  Permutation (schwartz_set v) (schwartz_set v').
Proof.
  intros Hnd Hnn Hp. pose proof (cands_perm v v' Hp) as Pc. pose proof (Permutation_length Pc) as Hlen.
  destruct (le_lt_dec 2 (length (candidates v))) as [H2|Hs].
  2:{ rewrite (schwartz_small v Hs), (schwartz_small v' ltac:(lia)). constructor. }
  assert (H2' : (2 <= length (candidates v'))%nat) by lia.
  pose proof (nn_perm v v' Hnn Hp) as Hnn'.
  assert (Hb : forall a b, beats v a b <-> beats v' a b).
  { intros a b. unfold beats. rewrite !(pget0_perm v v' Hnd Hp). reflexivity. }
  apply NoDup_Permutation; try apply schwartz_set_shape. intros x.
  rewrite (schwartz_in v Hnn H2 x), (schwartz_in v' Hnn' H2' x), (cands_in v v' Hp x).
  split; intros [Hx H]; (split; [exact Hx|]); intros o Ho.
  - apply (beatpath_ext v v' (fun a b => proj1 (Hb a b))). apply H. apply (beatpath_ext v' v (fun a b => proj2 (Hb a b))). exact Ho.
  - apply (beatpath_ext v' v (fun a b => proj2 (Hb a b))). apply H. apply (beatpath_ext v v' (fun a b => proj1 (Hb a b))). exact Ho.
Qed.

Section REN.
  Variable f : C -> C.
  Hypothesis f_inj : forall a b, f a = f b -> a = b.

  Theorem schwartz_set_ren v : schwartz_set (renp f v) = map f (schwartz_set v).
  Proof.
    unfold schwartz_set. cbv zeta. rewrite (complete_ren f f_inj), !(pairwise_wins_ren f f_inj), (copeland_scores_ren f f_inj).
    rewrite sort_desc_renl, (renl_keys f).
    set (order := map fst (sort_desc zle_bool (copeland_scores (pairwise_wins (complete v) true)))).
    set (D := pairwise_wins (complete v) false).
    apply filter_map_eqv. intros c. apply forallb_map_eqv. intros o.
    rewrite !(is_path_ren f f_inj). reflexivity.
  Qed.
End REN.

Theorem schwartz_set_scale (k : Z) v : 0 < k -> schwartz_set (scalez k v) = schwartz_set v.
Proof. intros Hk. unfold schwartz_set. rewrite (complete_scale k), !(pairwise_wins_scale k Hk). reflexivity. Qed.

Theorem schwartz_symmetric (t : C -> C) : (forall c, t (t c) = c) -> forall v,
  NoDup (map fst v) -> Permutation v (renp t v) -> (forall p k, In (p, k) v -> 0 <= k) -> forall a,
  In a (schwartz_set v) <-> In (t a) (schwartz_set v).
Proof.
  intros t_inv v Hn Hp Hnn a.
  assert (t_inj : forall x y, t x = t y -> x = y) by (intros x y E; rewrite <- (t_inv x), <- (t_inv y), E; reflexivity).
  apply (perm_involution_in t _ a t_inv). rewrite <- (schwartz_set_ren t t_inj). exact (schwartz_perm v (renp t v) Hn Hnn Hp).
Qed.
