(* The elimination rule of the transferable-vote count (C03): when nobody reaches the quota, next_count eliminates
   exactly the configured number of lowest continuing candidates; the exhausted pile is never a contender; a tie at
   the cut is a NotImplementedError refusal. *)
From Coq Require Import ZArith QArith List Bool Lia Arith Permutation.
From VL Require Import Prelude.PyDict Model.GetNBest Model.Convert Model.STV Proofs.Dict_proofs Proofs.GetNBest_proofs Proofs.QOrd
     Proofs.HA_proofs Proofs.Shape_proofs Proofs.Additive_proofs.
Import ListNotations.
Close Scope Q_scope.

Lemma filter_partition_length {X} (f : X -> bool) (l : list X) :
  length (filter f l) + length (filter (fun c => negb (f c)) l) = length l.
Proof. induction l as [|x l IH]; simpl; [reflexivity|]. destruct (f x); simpl; lia. Qed.

(* a duplicate-free list e that lists exactly the elements of l selected by f is as long as the selection *)
Lemma filter_length_of {X} (f : X -> bool) (l e : list X) : NoDup l -> NoDup e ->
  (forall x, In x e <-> In x l /\ f x = true) -> length (filter f l) = length e.
Proof.
  intros Hl He H. apply Nat.le_antisymm; apply NoDup_incl_length; [apply NoDup_filter, Hl| |exact He|];
    intros x Hx; [apply H, filter_In, Hx|apply filter_In, H, Hx].
Qed.

Definition has_tie_r (r : list (res C)) : bool := existsb (fun x => match x with TieR _ => true | _ => false end) r.
Definition kept_of (r : list (res C)) : list C := flat_map (fun x => match x with Cand c => [c] | _ => [] end) r.

(* what next_count computes in the no-quota branch *)
Definition in_play (a : alloc) : list (C * Q) := some_totals (totals a).
Definition retained (cf : cfg) (a : alloc) : list (res C) :=
  get_n_best Qle_bool (in_play a) (retained_count cf (length (in_play a))).
Definition eliminated (cf : cfg) (a : alloc) : list C :=
  filter (fun c => negb (cmem c (kept_of (retained cf a)))) (map fst (in_play a)).

Lemma next_count_noquota cf a n total prev caps quota :
  (* the shortcut does not apply and nobody reaches the quota *)
  next_count cf a n total prev caps <> CR_all (flat_map (fun kt : option C * Q => match fst kt with
                                         | Some c => [(c, (dget_or caps c 0 - dget_or prev c 0)%Z)]
                                         | None => [] end) (sort_desc Qle_bool (totals a))) ->
  quota = match c_quota cf with
          | Some qf => if Qeq_bool total 0 || (n =? 0)%Z then None else Some (qf total n)
          | None => None end ->
  elect_by_quota cf (totals a) quota (n - zsum (map snd prev))%Z prev caps = inl None ->
  next_count cf a n total prev caps =
    if has_tie_r (retained cf a) then CR_stop S_nie
    else CR_next (match eliminated cf a with [] => a | _ => transfer a (eliminated cf a) end) [].
Proof.
  intros Hns -> He. unfold next_count in *. cbv zeta in *.
  destruct (negb _ && _ && negb (c_mandatory cf)); [exfalso; apply Hns; reflexivity|].
  rewrite He. reflexivity.
Qed.

Section ELIM.
  Variable cf : cfg.
  Variable a : alloc.
  Hypothesis Hnd : NoDup (map fst (in_play a)).
  Hypothesis Hnotie : has_tie_r (retained cf a) = false.
  Let m := length (in_play a).
  Let k := retained_count cf m.
  Hypothesis Hk : 1 <= k <= m.

  Lemma retained_plain : exists elected, retained cf a = map Cand elected /\ length elected = k /\
    NoDup elected /\ incl elected (map fst (in_play a)).
  Proof.
    change (retained cf a) with (get_n_best Qle_bool (in_play a) k) in *.
    destruct (gnb_shape (in_play a) k Hk Hnd) as (el & T & j & Hr & Hlen & Hj & Hnd2 & Hincl).
    assert (j = 0).
    { destruct j; [reflexivity|]. exfalso. unfold has_tie_r in Hnotie. rewrite Hr, existsb_app in Hnotie.
      simpl in Hnotie. rewrite orb_true_r in Hnotie. discriminate. }
    subst j. simpl in Hr. rewrite app_nil_r in Hr. exists el. split; [exact Hr|]. split; [lia|].
    apply nodup_app_inv in Hnd2. split; [tauto|]. intros x Hx. apply Hincl, in_or_app. left. exact Hx.
  Qed.

  Lemma kept_of_cands l : kept_of (map (@Cand C) l) = l.
  Proof. unfold kept_of. induction l as [|x l IH]; simpl; [reflexivity|]. rewrite IH. reflexivity. Qed.

  (* exactly m - k candidates are eliminated *)
  Theorem eliminated_count : length (eliminated cf a) = m - k.
  Proof.
    destruct retained_plain as (el & Hr & Hlen & Hndel & Hincl).
    unfold eliminated. rewrite Hr, kept_of_cands.
    pose proof (filter_partition_length (fun c => cmem c el) (map fst (in_play a))) as H1.
    rewrite (filter_length_of _ _ el Hnd Hndel), map_length in H1; [fold m in H1; lia|].
    intros x. rewrite cmem_In. split; [intros Hx; split; [apply Hincl, Hx|exact Hx]|tauto].
  Qed.

  (* only the lowest go: nobody eliminated holds strictly more than somebody retained *)
  Theorem eliminated_lowest : forall e ve c vc, In e (eliminated cf a) -> In (e, ve) (in_play a) ->
    In (Cand c) (retained cf a) -> In (c, vc) (in_play a) -> (ve <= vc)%Q.
  Proof.
    intros e ve c vc He Hve Hc Hvc.
    destruct (Qlt_le_dec vc ve) as [Hlt|Hle]; [exfalso|exact Hle].
    change (retained cf a) with (get_n_best Qle_bool (in_play a) k) in Hc.
    assert (Hin : In (Cand e) (retained cf a)).
    { change (retained cf a) with (get_n_best Qle_bool (in_play a) k).
      apply (get_n_best_no_inversion Qle_bool Qle_bool_total Qle_bool_trans (in_play a) k (proj1 Hk) Hnd c vc e ve Hvc Hve).
      - apply ltb_Qlt. exact Hlt.
      - exact Hc. }
    unfold eliminated in He. apply filter_In in He. destruct He as [_ He]. apply negb_true_iff in He.
    apply not_true_iff_false in He. apply He, cmem_In. unfold kept_of. apply in_flat_map. exists (Cand e). split; [exact Hin|left; reflexivity].
  Qed.
End ELIM.

(* what is in play is a pile of a candidate, with its sum *)
Lemma in_play_sum a c v : In (c, v) (in_play a) -> exists p, In (Some c, p) a /\ v = pile_sum p.
Proof.
  unfold in_play, some_totals, totals. intros H. apply in_flat_map in H. destruct H as ([o t] & Hin & H).
  destruct o as [c'|]; [|destruct H]. destruct H as [H|[]]. injection H as -> ->.
  apply in_map_iff in Hin. destruct Hin as ([o p] & Hf & Hin). simpl in Hf. injection Hf as -> <-. exists p. auto.
Qed.

(* the exhausted pile is not a contender: [in_play] never lists it, whatever its size *)
Lemma in_play_no_pile a : forall c v, In (c, v) (in_play a) -> exists p, In (Some c, p) a.
Proof. intros c v H. destruct (in_play_sum a c v H) as (p & Hp & _). exists p. exact Hp. Qed.

(* with eliminate_step = -s (s >= 1) exactly min(s, m - 1) of m candidates go *)
Lemma retained_count_neg cf m : (c_step cf < 0)%Z -> 1 <= m ->
  1 <= retained_count cf m <= m /\ m - retained_count cf m = Nat.min (Z.to_nat (- c_step cf)) (m - 1).
Proof. intros Hs Hm. unfold retained_count. assert ((c_step cf <? 0)%Z = true) as -> by (apply Z.ltb_lt; exact Hs). lia. Qed.
