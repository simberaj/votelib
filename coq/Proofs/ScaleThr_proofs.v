(* Scale invariance (C11) of the threshold family (Model/Threshold.v, the QuotaSelector of Model/QuotaDistributor.v):
   RelativeThreshold is scale-free, AbsoluteThreshold scales with its line (and is NOT scale-free when the line is kept),
   AlternativeThresholds and the bracketers inherit both facts; QuotaSelector is scale-free for every homogeneous quota
   function (Hare, Hagenbach-Bischoff, Imperiali) and genuinely not for Droop; Conditioned(threshold, highest averages)
   is the composition with Scale_proofs.ha_scale (through its relational form below); ThresholdOpenList is scale-free
   when its jump threshold is relative (jump_fraction and / or a homogeneous quota).
   Everything is stated over value relations  x' == k * x  (LRScale_proofs.vrel) so that the theorems also cover votes
   that are k-fold only up to the representation of the rationals. *)
From Coq Require Import ZArith QArith Qround List Bool Lia Lqa Qfield.
From VL Require Import Prelude.PyDict Model.GetNBest Model.Quota Model.QuotaDistributor Model.Threshold Model.HighestAverages Model.Conditioned
     Proofs.Dict_proofs Proofs.GetNBest_proofs Proofs.QOrd Proofs.Scale_proofs Proofs.LRScale_proofs.
Import ListNotations.

Section SelInd.
  Variable P : sel -> Prop.
  Hypothesis Habs : forall t ae, P (SAbs t ae).
  Hypothesis Hrel : forall t ae, P (SRel t ae).
  Hypothesis Halt : forall parts, Forall P parts -> P (SAlt parts).

  Fixpoint sel_induction (s : sel) : P s :=
    match s with
    | SAbs t ae => Habs t ae
    | SRel t ae => Hrel t ae
    | SAlt parts =>
        Halt parts ((fix go (l : list sel) : Forall P l :=
                       match l with
                       | [] => Forall_nil P
                       | x :: t => Forall_cons x (sel_induction x) (go t)
                       end) parts)
    end.
End SelInd.

(* stable ascending sort by a key that is EQUAL on both sides, payloads related *)
Section SortAscPayload.
  Context {X Y V : Type}.
  Variable leb : V -> V -> bool.
  Variable R : X -> Y -> Prop.
  Definition payrel (a : X * V) (b : Y * V) : Prop := R (fst a) (fst b) /\ snd a = snd b.

  Lemma insert_asc_pay x x' l l' : payrel x x' -> Forall2 payrel l l' ->
    Forall2 payrel (insert_asc leb x l) (insert_asc leb x' l').
  Proof.
    intros Hx H. induction H as [|a b l l' Hab Hl IH]; cbn [insert_asc]; [constructor; [exact Hx|constructor]|].
    rewrite <- (proj2 Hx), <- (proj2 Hab). destruct (leb (snd x) (snd a)); constructor; auto.
  Qed.

  Lemma sort_asc_pay l l' : Forall2 payrel l l' -> Forall2 payrel (sort_asc leb l) (sort_asc leb l').
  Proof. induction 1 as [|a b l l' Hab _ IH]; cbn [sort_asc]; [constructor|]. apply insert_asc_pay; assumption. Qed.
End SortAscPayload.

Section ThrScale.
  Variable k : Q.
  Hypothesis Hk : (0 < k)%Q.

  Notation qsc := (qsc k).
  Notation vrel := (vrel k).

  Lemma passes_rel ae v v' t t' : qsc v v' -> qsc t t' -> passes ae v' t' = passes ae v t.
  Proof. intros Hv Ht. unfold passes. rewrite (qsc_le k Hk _ _ _ _ Hv Ht), (qsc_eq k Hk _ _ _ _ Hv Ht). reflexivity. Qed.

  Lemma passes_eq ae v v' t : (v' == v)%Q -> passes ae v' t = passes ae v t.
  Proof.
    intros Hv. unfold passes.
    rewrite (Qle_bool_Qeq v v' t t Hv (Qeq_refl t)), (Qeq_bool_Qeq v v' t t Hv (Qeq_refl t)). reflexivity.
  Qed.

  Lemma sorted_rel votes votes' : vrel votes votes' -> vrel (sort_desc Qle_bool votes) (sort_desc Qle_bool votes').
  Proof. intros H. exact (sort_desc_rel Qle_bool Qle_bool (LRScale_proofs.qsc k) (qsc_le k Hk) _ _ H). Qed.

  (* the k-fold selector: absolute lines are multiplied by k, relative shares stay *)
  Fixpoint sel_scale (s : sel) : sel :=
    match s with
    | SAbs t ae => SAbs (k * t) ae
    | SRel t ae => SRel t ae
    | SAlt parts => SAlt (map sel_scale parts)
    end.

  (* selectors that contain no absolute line *)
  Fixpoint sel_relative (s : sel) : bool :=
    match s with
    | SAbs _ _ => false
    | SRel _ _ => true
    | SAlt parts => forallb sel_relative parts
    end.

  Lemma sel_scale_relative s : sel_relative s = true -> sel_scale s = s.
  Proof.
    induction s as [t ae|t ae|parts IH] using sel_induction; cbn [sel_relative sel_scale]; [discriminate|reflexivity|].
    intros H. f_equal. induction IH as [|p ps Hp _ IHps]; cbn [map]; [reflexivity|].
    cbn [forallb] in H. apply andb_true_iff in H. destruct H as [H1 H2]. rewrite (Hp H1), (IHps H2). reflexivity.
  Qed.

  Theorem sel_eval_rel s : forall votes votes', vrel votes votes' -> sel_eval (sel_scale s) votes' = sel_eval s votes.
  Proof.
    induction s as [t ae|t ae|parts IH] using sel_induction; intros votes votes' Hv; cbn [sel_scale sel_eval].
    - apply (lrel_keys (LRScale_proofs.qsc k)), Forall2_filter; [|apply sorted_rel, Hv].
      intros x x' [_ Hx]. apply passes_rel; [exact Hx|]. unfold LRScale_proofs.qsc. reflexivity.
    - apply (lrel_keys (LRScale_proofs.qsc k)), Forall2_filter; [|apply sorted_rel, Hv].
      intros x x' [_ Hx]. apply passes_eq. apply (qsc_div k Hk); [exact Hx|]. apply (qsumv_rel k), Hv.
    - f_equal. induction IH as [|p ps Hp _ IHps]; cbn [map flat_map]; [reflexivity|].
      rewrite (Hp _ _ Hv), IHps. reflexivity.
  Qed.

  Corollary sel_eval_relative_rel s votes votes' : sel_relative s = true -> vrel votes votes' ->
    sel_eval s votes' = sel_eval s votes.
  Proof. intros Hs Hv. rewrite <- (sel_scale_relative s Hs) at 1. apply sel_eval_rel, Hv. Qed.

  Definition evals_scale (evals : list (Z * option sel)) : list (Z * option sel) :=
    map (fun e => (fst e, option_map sel_scale (snd e))) evals.

  Lemma find_evals_scale evals b :
    match find (fun e : Z * option sel => Z.eqb (fst e) b) (evals_scale evals) with
    | Some e => Some (snd e) | None => None end
    = option_map (option_map sel_scale)
        (match find (fun e : Z * option sel => Z.eqb (fst e) b) evals with Some e => Some (snd e) | None => None end).
  Proof.
    induction evals as [|e evals IH]; cbn [evals_scale map find fst]; [reflexivity|].
    destruct (Z.eqb (fst e) b); [reflexivity|exact IH].
  Qed.

  Theorem bracket_eval_rel evals default bracket votes votes' : vrel votes votes' ->
    bracket_eval (evals_scale evals) (option_map sel_scale default) bracket votes' = bracket_eval evals default bracket votes.
  Proof.
    intros Hv. unfold bracket_eval.
    apply (lrel_keys (LRScale_proofs.qsc k)), Forall2_filter; [|apply sorted_rel, Hv].
    intros x x' [Hc _]. rewrite <- Hc.
    pose proof (find_evals_scale evals (dget_or bracket (fst x) 1%Z)) as Hf.
    destruct (find _ (evals_scale evals)) as [e'|]; destruct (find _ evals) as [e|]; cbn [option_map] in Hf; try discriminate.
    - injection Hf as Hf. rewrite Hf. destruct (snd e) as [s|]; cbn [option_map]; [|reflexivity].
      rewrite (sel_eval_rel s _ _ Hv). reflexivity.
    - destruct default as [s|]; cbn [option_map]; [|reflexivity]. rewrite (sel_eval_rel s _ _ Hv). reflexivity.
  Qed.

  (* two quota functions related by the scaling: a homogeneous one with itself, a constant quota q with k * q *)
  Theorem qsel_evaluate_rel2 (quota quota' : Q -> Z -> Q) ae select votes votes' n :
    (forall v v' m, qsc v v' -> qsc (quota v m) (quota' v' m)) -> vrel votes votes' ->
    qsel_evaluate quota' ae select votes' n = qsel_evaluate quota ae select votes n.
  Proof.
    intros Hq Hv. unfold qsel_evaluate.
    pose proof (Hq _ _ n (qsumv_rel k _ _ Hv)) as Hquota.
    assert (Hover : vrel (filter (fun cv : C * Q => fulfills ae (snd cv) (quota (qsumv votes) n)) votes)
                         (filter (fun cv : C * Q => fulfills ae (snd cv) (quota' (qsumv votes') n)) votes')).
    { apply Forall2_filter; [|exact Hv]. intros x x' [_ Hx]. apply (fulfills_rel k Hk); assumption. }
    rewrite (lrel_length _ _ _ Hover).
    rewrite (get_n_best_rel Qle_bool Qle_bool (LRScale_proofs.qsc k) (qsc_le k Hk) _ _ (Z.to_nat n) Hover). reflexivity.
  Qed.

  Corollary qsel_evaluate_rel (quota : Q -> Z -> Q) ae select votes votes' n :
    (forall v v' m, qsc v v' -> qsc (quota v m) (quota v' m)) -> vrel votes votes' ->
    qsel_evaluate quota ae select votes' n = qsel_evaluate quota ae select votes n.
  Proof. apply qsel_evaluate_rel2. Qed.

  Lemma keep_selected_scale passed votes : keep_selected passed (scaleq k votes) = scaleq k (keep_selected passed votes).
  Proof.
    unfold keep_selected, scaleq, mapv. induction votes as [|[c v] votes IH]; cbn [map filter fst]; [reflexivity|].
    destruct (cmem c passed); cbn [map fst snd]; rewrite IH; reflexivity.
  Qed.

  Lemma vrel_scaleq votes : vrel votes (scaleq k votes).
  Proof. exact (vrel_scale k votes). Qed.

  Theorem conditioned_ha_scale s d votes n prev caps :
    conditioned_ha (sel_scale s) d (scaleq k votes) n prev caps = conditioned_ha s d votes n prev caps.
  Proof.
    unfold conditioned_ha. rewrite (sel_eval_rel s _ _ (vrel_scaleq votes)), keep_selected_scale.
    apply ha_scale, Hk.
  Qed.

  Definition ol_homog (cfg : ol_cfg) : Prop :=
    forall qf, ol_quota cfg = Some qf -> forall v v' n, qsc v v' -> qsc (qf v n) (qf v' n).

  Lemma ol_threshold_rel cfg t t' n : ol_homog cfg -> qsc t t' ->
    match ol_threshold cfg t n, ol_threshold cfg t' n with
    | Some a, Some a' => qsc a a'
    | None, None => True
    | _, _ => False
    end.
  Proof.
    intros Hh Ht. unfold ol_threshold, ol_homog in *.
    assert (Hj : forall j, qsc (t * j) (t' * j)) by (intros j; apply qsc_mult; [exact Ht|reflexivity]).
    destruct (ol_jump cfg) as [j|], (ol_quota cfg) as [qf|]; [|exact (Hj j)|exact (Hh qf eq_refl _ _ n Ht)|exact I].
    pose proof (Hh qf eq_refl _ _ n Ht) as Hb. pose proof (Hj j) as Ha.
    destruct (ol_take_higher cfg).
    - rewrite (qsc_le k Hk _ _ _ _ Hb Ha). destruct (Qle_bool (qf t n) (t * j)); assumption.
    - rewrite (qsc_le k Hk _ _ _ _ Ha Hb). destruct (Qle_bool (t * j) (qf t n)); assumption.
  Qed.

  Theorem openlist_eval_rel cfg votes votes' n lst : ol_homog cfg -> vrel votes votes' ->
    openlist_eval cfg votes' n lst = openlist_eval cfg votes n lst.
  Proof.
    intros Hh Hv. unfold openlist_eval.
    pose proof (ol_threshold_rel cfg _ _ (Z.of_nat n) Hh (qsumv_rel k _ _ Hv)) as Ht.
    destruct (ol_threshold cfg (qsumv votes) (Z.of_nat n)) as [thr|], (ol_threshold cfg (qsumv votes') (Z.of_nat n)) as [thr'|];
      try contradiction; [|reflexivity].
    assert (Hj : vrel (ol_jumping cfg votes thr) (ol_jumping cfg votes' thr')).
    { unfold ol_jumping. apply Forall2_filter; [|apply sorted_rel, Hv]. intros x x' [_ Hx]. apply passes_rel; assumption. }
    cbv zeta. rewrite (lrel_length _ _ _ Hj).
    destruct (Nat.ltb n (length (ol_jumping cfg votes thr))).
    - destruct (ol_list_precedence cfg).
      + apply (lrel_keys (LRScale_proofs.qsc k)).
        apply (sort_desc_rel Qle_bool Qle_bool (LRScale_proofs.qsc k) (qsc_le k Hk)).
        apply Forall2_map with (RA := payrel (V := nat) (prel (K := C) (LRScale_proofs.qsc k)));
          [intros a b Hab; exact (proj1 Hab)|].
        apply Forall2_firstn, (sort_asc_pay Nat.leb), Forall2_map with (RA := prel (LRScale_proofs.qsc k)); [|exact Hj].
        intros y y' Hy. split; cbn [fst snd]; [exact Hy|rewrite (proj1 Hy); reflexivity].
      + apply (lrel_keys (LRScale_proofs.qsc k)), Forall2_firstn, Hj.
    - rewrite (lrel_keys _ _ _ Hj). reflexivity.
  Qed.
End ThrScale.
