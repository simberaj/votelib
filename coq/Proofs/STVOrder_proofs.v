(* Order independence (C10) of the transferable-vote count (Model/STV.v, Gregory transfers): presenting the
   ballots in another order changes neither the seats (as a dictionary), nor the stop reason, nor the totals /
   elected of any count (as dictionaries).
   Allocations are compared as two-level dictionaries ([aeq]: same pile keys, every pile holds the same ballots
   with == weights); every operation of the count is shown to respect [aeq] and the loops over dictionaries
   (ballots of a pile, eliminated candidates, ballots of the profile) are folds of commuting updates. *)
From Coq Require Import ZArith QArith Qround Qreduction Setoid List Bool Arith Lia Lqa Permutation.
From VL Require Import Prelude.PyDict Model.GetNBest Model.Convert Model.STV Proofs.Dict_proofs
     Proofs.GetNBest_proofs Proofs.QOrd Proofs.Order_proofs Proofs.HAPerm_proofs Proofs.LRScale_proofs
     Proofs.STVScale_proofs Proofs.STV_proofs Proofs.QDOrder_proofs.
Import ListNotations.
Open Scope Q_scope.

Section FoldPerm.
  Variables (S I : Type) (R : S -> S -> Prop) (RI : I -> I -> Prop) (okI : I -> Prop) (op : S -> I -> S).
  Hypothesis R_trans : forall a b c, R a b -> R b c -> R a c.
  Hypothesis RI_refl : forall i, okI i -> RI i i.
  Hypothesis op_resp : forall s s' i i', R s s' -> okI i -> RI i i' -> R (op s i) (op s' i').
  Hypothesis op_comm : forall s i j, R s s -> okI i -> okI j -> R (op (op s i) j) (op (op s j) i).

  Lemma fold_resp l l' : Forall2 RI l l' -> Forall okI l -> forall s s', R s s' -> R (fold_left op l s) (fold_left op l' s').
  Proof.
    induction 1 as [|i i' l l' Hi _ IH]; intros Hok s s' Hs; simpl; [exact Hs|].
    inversion Hok; subst. apply IH; [assumption|]. apply op_resp; assumption.
  Qed.

  Lemma Forall2_refl_ok l : Forall okI l -> Forall2 RI l l.
  Proof. induction 1; constructor; auto. Qed.

  Lemma fold_perm l l' : Permutation l l' -> Forall okI l -> forall s, R s s -> R (fold_left op l s) (fold_left op l' s).
  Proof.
    induction 1 as [|x l l' _ IH|x y l|l l' l'' H1 IH1 _ IH2]; intros Hok s Hs; simpl.
    - exact Hs.
    - inversion Hok; subst. apply IH; [assumption|]. apply op_resp; auto.
    - inversion Hok as [|? ? Hy Hok']; subst. inversion Hok' as [|? ? Hx Hl]; subst.
      apply fold_resp; [apply Forall2_refl_ok, Hl|exact Hl|]. apply op_comm; assumption.
    - eapply R_trans; [apply IH1; assumption|]. apply IH2; [|exact Hs]. exact (Permutation_Forall H1 Hok).
  Qed.

  (* a permutation up to RI *)
  Definition perm_mod (l l' : list I) : Prop := exists m, Permutation l m /\ Forall2 RI m l'.

  Lemma fold_perm_mod l l' : perm_mod l l' -> Forall okI l -> forall s s', R s s' -> R s s -> R (fold_left op l s) (fold_left op l' s').
  Proof.
    intros (m & Hp & Hm) Hok s s' Hs Hss.
    eapply R_trans; [apply fold_perm; eassumption|]. apply fold_resp; [exact Hm|exact (Permutation_Forall Hp Hok)|exact Hs].
  Qed.
End FoldPerm.

Lemma perm_mod_flat_map {A B} (RA : A -> A -> Prop) (RB : B -> B -> Prop) (f f' : A -> list B) l l' :
  (forall x y, RA x y -> Forall2 RB (f x) (f' y)) -> perm_mod A RA l l' -> perm_mod B RB (flat_map f l) (flat_map f' l').
Proof.
  intros Hf (m & Hp & Hm). exists (flat_map f m). split; [apply Permutation_flat_map, Hp|].
  exact (Forall2_flat_map RA RB f f' m l' Hf Hm).
Qed.

Lemma perm_mod_of_perm {I} (RI : I -> I -> Prop) l l' : (forall i, RI i i) -> Permutation l l' -> perm_mod I RI l l'.
Proof. intros Hr Hp. exists l'. split; [exact Hp|]. clear Hp. induction l'; constructor; auto. Qed.

Lemma Forall2_map_in {A B} (R : B -> A -> Prop) (g : A -> B) l : (forall x, In x l -> R (g x) x) -> Forall2 R (map g l) l.
Proof.
  induction l as [|x l IH]; intros H; simpl; constructor; [apply H; left; reflexivity|].
  apply IH. intros y Hy. apply H. right. exact Hy.
Qed.

Lemma nodup_snoc {A} (l : list A) x : NoDup l -> ~ In x l -> NoDup (l ++ [x]).
Proof.
  intros Hn Hx. eapply Permutation_NoDup; [apply Permutation_cons_append|]. constructor; assumption.
Qed.

Lemma okey_eqb_spec k k' : reflect (k = k') (okey_eqb k k').
Proof. apply iff_reflect. symmetry. apply okey_eqb_eq. Qed.

Inductive oeq : option Q -> option Q -> Prop :=
| oeq_none : oeq None None
| oeq_some w w' : w == w' -> oeq (Some w) (Some w').
Lemma oeq_refl o : oeq o o.
Proof. destruct o; constructor. reflexivity. Qed.
Lemma oeq_sym o o' : oeq o o' -> oeq o' o.
Proof. destruct 1; constructor. symmetry. assumption. Qed.
Lemma oeq_trans o1 o2 o3 : oeq o1 o2 -> oeq o2 o3 -> oeq o1 o3.
Proof. destruct 1; inversion 1; subst; constructor. etransitivity; eassumption. Qed.

Lemma oeq_some_l w o : oeq (Some w) o -> exists w', o = Some w' /\ w == w'.
Proof. inversion 1; subst. eexists; split; [reflexivity|assumption]. Qed.
Lemma oeq_some_r o w' : oeq o (Some w') -> exists w, o = Some w /\ w == w'.
Proof. inversion 1; subst. eexists; split; [reflexivity|assumption]. Qed.

Fixpoint pileget (p : pile) (b : ballot) : option Q :=
  match p with
  | [] => None
  | (b', w) :: t => if ballot_eqb b b' then Some w else pileget t b
  end.
Definition padd (o : option Q) (w : Q) : Q := match o with Some w0 => Qred (w0 + w) | None => w end.

Lemma padd_oeq o o' w w' : oeq o o' -> w == w' -> padd o w == padd o' w'.
Proof.
  intros Ho Hw. destruct Ho as [|x x' Hx]; cbn [padd]; [exact Hw|]. apply Qred_comp, Qplus_comp; assumption.
Qed.

Section Univ.
  (* the ballots of the profile: on them ballot_eqb (frozensets compared as sets) is equality *)
  Variable U : list ballot.
  Hypothesis HU : forall b b', In b U -> In b' U -> ballot_eqb b b' = true -> b = b'.

  Lemma beq_U b b' : In b U -> In b' U -> reflect (b = b') (ballot_eqb b b').
  Proof. intros Hb Hb'. apply iff_reflect. split; [intros ->; apply ballot_eqb_refl|apply HU; assumption]. Qed.

  Definition pwf (p : pile) : Prop := incl (map fst p) U /\ NoDup (map fst p).

  Lemma pwf_nil : pwf [].
  Proof. split; [intros x []|constructor]. Qed.
  Lemma pwf_tail x p : pwf (x :: p) -> pwf p.
  Proof. intros [Hi Hn]. split; [intros y Hy; apply Hi; right; exact Hy|inversion Hn; assumption]. Qed.

  Lemma pwf_in p b w : pwf p -> In (b, w) p -> In b U.
  Proof. intros Hw Hin. apply (proj1 Hw). exact (in_map fst _ _ Hin). Qed.

  Lemma pileget_in p b w : In b U -> pwf p -> (pileget p b = Some w <-> In (b, w) p).
  Proof.
    intros Hb. induction p as [|[b0 w0] t IH]; simpl; intros Hw; [split; [discriminate|tauto]|].
    pose proof (pwf_tail _ _ Hw) as Hw'. destruct Hw as [Hi Hn]. simpl in Hn. inversion Hn as [|? ? Hk _]; subst.
    destruct (beq_U b b0 Hb (Hi b0 (or_introl eq_refl))) as [<-|E].
    - split.
      + intros [= ->]. left. reflexivity.
      + intros [H|H]; [congruence|]. exfalso. apply Hk. apply in_map_iff. exists (b, w). auto.
    - rewrite (IH Hw'). split; [tauto|]. intros [H|H]; [congruence|exact H].
  Qed.
  Lemma pileget_notin p b : In b U -> pwf p -> ~ In b (map fst p) -> pileget p b = None.
  Proof.
    intros Hb Hw Hn. destruct (pileget p b) as [w|] eqn:E; [|reflexivity].
    destruct Hn. apply (pileget_in p b w Hb Hw) in E. exact (in_map fst _ _ E).
  Qed.
  Lemma pileget_some_key p b w : pileget p b = Some w -> exists b', In (b', w) p.
  Proof.
    induction p as [|[b0 w0] t IH]; simpl; [discriminate|].
    destruct (ballot_eqb b b0); [intros [= ->]; exists b0; left; reflexivity|].
    intros H. destruct (IH H) as (b' & Hb'). exists b'. right. exact Hb'.
  Qed.

  Lemma pile_add_keys p b w : In b U -> pwf p ->
    map fst (pile_add p b w) = if existsb (fun x => ballot_eqb b (fst x)) p then map fst p else map fst p ++ [b].
  Proof.
    intros Hb. induction p as [|[b0 w0] t IH]; simpl; intros Hw; [reflexivity|].
    destruct (ballot_eqb b b0); simpl; [reflexivity|]. rewrite (IH (pwf_tail _ _ Hw)).
    destruct (existsb _ t); reflexivity.
  Qed.
  Lemma pile_add_wf p b w : In b U -> pwf p -> pwf (pile_add p b w).
  Proof.
    intros Hb Hw. unfold pwf. rewrite (pile_add_keys p b w Hb Hw).
    destruct (existsb (fun x => ballot_eqb b (fst x)) p) eqn:E; [exact Hw|].
    destruct Hw as [Hi Hn]. split.
    - intros x Hx. apply in_app_or in Hx. destruct Hx as [Hx|[<-|[]]]; [apply Hi, Hx|exact Hb].
    - apply nodup_snoc; [exact Hn|].
      intros Hx. apply in_map_iff in Hx. destruct Hx as ([b0 w0] & Hf & Hx). simpl in Hf. subst b0.
      assert (Ht : existsb (fun x => ballot_eqb b (fst x)) p = true).
      { apply existsb_exists. exists (b, w0). split; [exact Hx|apply ballot_eqb_refl]. }
      congruence.
  Qed.
  Lemma pileget_pile_add p b w b' : In b U -> In b' U -> pwf p ->
    pileget (pile_add p b w) b' = if ballot_eqb b' b then Some (padd (pileget p b) w) else pileget p b'.
  Proof.
    intros Hb Hb'. induction p as [|[b0 w0] t IH]; simpl; intros Hw; [reflexivity|].
    pose proof (pwf_tail _ _ Hw) as Hw'. assert (Hb0 : In b0 U) by (apply (proj1 Hw); left; reflexivity).
    destruct (beq_U b b0 Hb Hb0) as [<-|E]; simpl.
    - destruct (ballot_eqb b' b); reflexivity.
    - rewrite (IH Hw'). destruct (beq_U b' b0 Hb' Hb0) as [->|_]; [|reflexivity].
      destruct (beq_U b0 b Hb0 Hb) as [E3|_]; [congruence|reflexivity].
  Qed.

  (* piles compared as dictionaries *)
  Definition plook (p p' : pile) : Prop := forall b, In b U -> oeq (pileget p b) (pileget p' b).
  Definition wrel (x y : ballot * Q) : Prop := fst x = fst y /\ snd x == snd y.

  Lemma plook_refl p : plook p p.
  Proof. intros b _. apply oeq_refl. Qed.
  Lemma plook_sym p p' : plook p p' -> plook p' p.
  Proof. intros H b Hb. apply oeq_sym, H, Hb. Qed.
  Lemma plook_trans p1 p2 p3 : plook p1 p2 -> plook p2 p3 -> plook p1 p3.
  Proof. intros H1 H2 b Hb. eapply oeq_trans; [apply H1, Hb|apply H2, Hb]. Qed.

  Lemma plook_perm_mod p p' : pwf p -> pwf p' -> plook p p' -> perm_mod _ wrel p p'.
  Proof.
    intros Hw Hw' Hl.
    (* p' with every weight replaced by the one p holds for the same ballot *)
    exists (map (fun bw' : ballot * Q => (fst bw', match pileget p (fst bw') with Some w => w | None => 0 end)) p').
    assert (Hback : forall b w', In (b, w') p' -> exists w, pileget p b = Some w /\ w == w').
    { intros b w' Hin. pose proof (pwf_in p' b w' Hw' Hin) as Hb.
      apply (pileget_in p' b w' Hb Hw') in Hin. pose proof (Hl b Hb) as Ho. rewrite Hin in Ho. apply oeq_some_r, Ho. }
    split.
    - apply NoDup_Permutation.
      + eapply NoDup_map_inv. exact (proj2 Hw).
      + eapply NoDup_map_inv with (f := fst). rewrite map_map. exact (proj2 Hw').
      + intros [b w]. rewrite in_map_iff. split.
        * intros H. pose proof (pwf_in p b w Hw H) as Hb.
          apply (pileget_in p b w Hb Hw) in H. pose proof (Hl b Hb) as Ho. rewrite H in Ho.
          apply oeq_some_l in Ho. destruct Ho as (w' & Hg' & _). exists (b, w'). simpl. rewrite H.
          split; [reflexivity|apply (pileget_in p' b w' Hb Hw'), Hg'].
        * intros ([b' w'] & Heq & Hin). destruct (Hback b' w' Hin) as (w0 & Hg & _). simpl in Heq. rewrite Hg in Heq.
          injection Heq as -> ->. apply pileget_in; [exact (pwf_in p' b w' Hw' Hin)|exact Hw|exact Hg].
    - apply Forall2_map_in. intros [b w'] Hin. destruct (Hback b w' Hin) as (w & Hg & Hww).
      split; [reflexivity|]. simpl. rewrite Hg. exact Hww.
  Qed.

  Lemma perm_mod_plook p p' : pwf p -> pwf p' -> perm_mod _ wrel p p' -> plook p p'.
  Proof.
    intros Hw Hw' (m & Hp & Hm) b Hb.
    destruct (pileget p b) as [w|] eqn:E.
    - apply (pileget_in p b w Hb Hw) in E. apply (Permutation_in _ Hp) in E.
      destruct (Forall2_in_l _ _ _ _ Hm E) as ([b' w'] & Hin & Hbb & Hww). simpl in Hbb, Hww. subst b'.
      apply (pileget_in p' b w' Hb Hw') in Hin. rewrite Hin. constructor. exact Hww.
    - destruct (pileget p' b) as [w'|] eqn:E'; [|constructor]. exfalso.
      apply (pileget_in p' b w' Hb Hw') in E'.
      destruct (Forall2_in_r _ _ _ _ Hm E') as ([b0 w] & Hin & Hbb & _). simpl in Hbb. subst b0.
      apply (Permutation_in _ (Permutation_sym Hp)) in Hin. apply (pileget_in p b w Hb Hw) in Hin. congruence.
  Qed.

  Lemma wsum_perm_mod p p' : perm_mod _ wrel p p' -> wsum p == wsum p'.
  Proof.
    intros (m & Hp & Hm). transitivity (wsum m).
    - clear Hm. induction Hp as [|x l l' _ IH|x y l|l l' l'' _ IH1 _ IH2]; simpl.
      + reflexivity.
      + rewrite IH. reflexivity.
      + ring.
      + rewrite IH1. exact IH2.
    - clear Hp. induction Hm as [|x y m l [_ Hxy] _ IH]; simpl; [reflexivity|]. rewrite Hxy, IH. reflexivity.
  Qed.

  Lemma pile_sum_plook p p' : pwf p -> pwf p' -> plook p p' -> pile_sum p = pile_sum p'.
  Proof.
    intros Hw Hw' Hl. unfold pile_sum. apply Qred_complete.
    pose proof (pile_sum_wsum p) as H1. pose proof (pile_sum_wsum p') as H2. unfold pile_sum in H1, H2.
    rewrite Qred_correct in H1, H2. rewrite H1, H2. apply wsum_perm_mod, plook_perm_mod; assumption.
  Qed.

  Definition odflt (o : option pile) : pile := match o with Some p => p | None => [] end.
  Definition awf (a : alloc) : Prop := NoDup (akeys a) /\ Forall (fun kp : option C * pile => pwf (snd kp)) a.
  Definition alook (o o' : option pile) : Prop :=
    match o, o' with Some p, Some p' => plook p p' | None, None => True | _, _ => False end.
  Definition aeq (a a' : alloc) : Prop := awf a /\ awf a' /\ forall k, alook (alloc_get a k) (alloc_get a' k).

  Lemma in_alloc_get a k p : NoDup (akeys a) -> In (k, p) a -> alloc_get a k = Some p.
  Proof.
    unfold akeys. induction a as [|[k0 p0] a IH]; simpl; intros Hn Hin; [destruct Hin|].
    inversion Hn as [|? ? Hk Hn']; subst. destruct Hin as [Hin|Hin].
    - injection Hin as -> ->. rewrite okey_eqb_refl. reflexivity.
    - destruct (okey_eqb_spec k k0) as [<-|_]; [|apply IH; assumption].
      exfalso. apply Hk, in_map_iff. exists (k, p). auto.
  Qed.
  Lemma alloc_get_none a k : alloc_get a k = None <-> ~ In k (akeys a).
  Proof.
    unfold akeys. induction a as [|[k0 p0] a IH]; simpl; [tauto|].
    destruct (okey_eqb_spec k k0) as [->|Hne]; [split; [discriminate|tauto]|].
    rewrite IH. assert (k0 <> k) by congruence. tauto.
  Qed.
  Lemma alloc_get_wf a k p : awf a -> alloc_get a k = Some p -> pwf p.
  Proof.
    intros [_ Hf] Hg. apply alloc_get_some_in in Hg. rewrite Forall_forall in Hf. exact (Hf _ Hg).
  Qed.
  Lemma odflt_wf a k : awf a -> pwf (odflt (alloc_get a k)).
  Proof. intros Hw. destruct (alloc_get a k) eqn:E; simpl; [eapply alloc_get_wf; eassumption|apply pwf_nil]. Qed.

  Lemma alook_refl o : alook o o.
  Proof. destruct o; simpl; [apply plook_refl|exact I]. Qed.
  Lemma alook_sym o o' : alook o o' -> alook o' o.
  Proof. destruct o, o'; simpl; auto. apply plook_sym. Qed.
  Lemma alook_trans o1 o2 o3 : alook o1 o2 -> alook o2 o3 -> alook o1 o3.
  Proof. destruct o1, o2, o3; simpl; try tauto. apply plook_trans. Qed.

  Lemma alook_odflt o o' : alook o o' -> plook (odflt o) (odflt o').
  Proof. destruct o, o'; simpl; try contradiction; [auto|intros _; apply plook_refl]. Qed.

  Lemma aeq_refl a : awf a -> aeq a a.
  Proof. intros H. split; [exact H|]. split; [exact H|]. intros k. apply alook_refl. Qed.
  Lemma aeq_sym a a' : aeq a a' -> aeq a' a.
  Proof. intros (H1 & H2 & H3). split; [exact H2|]. split; [exact H1|]. intros k. apply alook_sym, H3. Qed.
  Lemma aeq_trans a1 a2 a3 : aeq a1 a2 -> aeq a2 a3 -> aeq a1 a3.
  Proof.
    intros (H1 & H2 & H3) (_ & H5 & H6). split; [exact H1|]. split; [exact H5|].
    intros k. eapply alook_trans; [apply H3|apply H6].
  Qed.
  Lemma aeq_wf_l a a' : aeq a a' -> awf a.
  Proof. intros H. apply H. Qed.
  Lemma aeq_wf_r a a' : aeq a a' -> awf a'.
  Proof. intros H. apply H. Qed.

  Lemma alloc_get_add a k b w k' :
    alloc_get (alloc_add a k b w) k' = if okey_eqb k' k then Some (pile_add (odflt (alloc_get a k)) b w) else alloc_get a k'.
  Proof.
    induction a as [|[k0 p0] a IH]; simpl.
    - destruct (okey_eqb k' k); reflexivity.
    - destruct (okey_eqb_spec k k0) as [<-|Hk]; simpl.
      + destruct (okey_eqb k' k); reflexivity.
      + rewrite IH. destruct (okey_eqb_spec k' k0) as [->|_]; [|reflexivity].
        destruct (okey_eqb_spec k0 k) as [E|_]; [congruence|reflexivity].
  Qed.

  Lemma alloc_add_wf a k b w : In b U -> awf a -> awf (alloc_add a k b w).
  Proof.
    intros Hb [Hn Hf]. split; [apply alloc_add_keys, Hn|].
    clear Hn. induction a as [|[k0 p0] a IH]; simpl.
    - constructor; [|constructor]. simpl. apply (pile_add_wf [] b w Hb pwf_nil).
    - inversion Hf as [|? ? Hp Hf']; subst. destruct (okey_eqb k k0); constructor; simpl; auto.
      apply pile_add_wf; assumption.
  Qed.

  Lemma plook_pile_add p p' b w w' : In b U -> pwf p -> pwf p' -> plook p p' -> w == w' ->
    plook (pile_add p b w) (pile_add p' b w').
  Proof.
    intros Hb Hw Hw' Hl Hww b' Hb'. rewrite !pileget_pile_add by assumption.
    destruct (ballot_eqb b' b); [|apply Hl, Hb']. constructor. apply padd_oeq; [apply Hl, Hb|exact Hww].
  Qed.

  Lemma alloc_add_resp a a' k b w w' : aeq a a' -> In b U -> w == w' -> aeq (alloc_add a k b w) (alloc_add a' k b w').
  Proof.
    intros (H1 & H2 & H3) Hb Hww. split; [apply alloc_add_wf; assumption|]. split; [apply alloc_add_wf; assumption|].
    intros k'. rewrite !alloc_get_add. destruct (okey_eqb k' k); [|apply H3]. simpl.
    apply plook_pile_add; try assumption; try (apply odflt_wf; assumption). apply alook_odflt, H3.
  Qed.

  Lemma plook_pile_add_comm p b1 w1 b2 w2 : In b1 U -> In b2 U -> pwf p ->
    plook (pile_add (pile_add p b1 w1) b2 w2) (pile_add (pile_add p b2 w2) b1 w1).
  Proof.
    intros H1 H2 Hw b Hb.
    rewrite !pileget_pile_add by (try apply pile_add_wf; assumption).
    destruct (beq_U b1 b2 H1 H2) as [<-|E12].
    - rewrite ballot_eqb_refl.
      destruct (ballot_eqb b b1); [|apply oeq_refl]. constructor. cbn [padd]. apply Qred_comp.
      destruct (pileget p b1) as [x|]; cbn [padd]; [rewrite !Qred_correct|]; ring.
    - destruct (beq_U b2 b1 H2 H1) as [E|_]; [congruence|].
      destruct (beq_U b b2 Hb H2) as [E2|_], (beq_U b b1 Hb H1) as [E1|_]; try apply oeq_refl. congruence.
  Qed.

  Lemma alloc_add_comm a k1 b1 w1 k2 b2 w2 : awf a -> In b1 U -> In b2 U ->
    aeq (alloc_add (alloc_add a k1 b1 w1) k2 b2 w2) (alloc_add (alloc_add a k2 b2 w2) k1 b1 w1).
  Proof.
    intros Hw H1 H2. split; [apply alloc_add_wf, alloc_add_wf; assumption|]. split; [apply alloc_add_wf, alloc_add_wf; assumption|].
    intros k. rewrite !alloc_get_add.
    destruct (okey_eqb_spec k1 k2) as [<-|E12].
    - rewrite okey_eqb_refl. destruct (okey_eqb k k1); [|apply alook_refl].
      simpl. apply plook_pile_add_comm; try assumption. apply odflt_wf, Hw.
    - destruct (okey_eqb_spec k2 k1) as [E|_]; [congruence|].
      destruct (okey_eqb_spec k k2) as [E2|_], (okey_eqb_spec k k1) as [E1|_]; try apply alook_refl. congruence.
  Qed.

  (* instruction lists: (pile key, ballot, weight) *)
  Definition instr : Type := option C * ballot * Q.
  Definition okI (i : instr) : Prop := In (snd (fst i)) U.
  Definition RI (i i' : instr) : Prop := fst i = fst i' /\ snd i == snd i'.
  Definition app1 (a : alloc) (i : instr) : alloc := alloc_add a (fst (fst i)) (snd (fst i)) (snd i).
  Definition adds (a : alloc) (l : list instr) : alloc := fold_left app1 l a.

  Lemma adds_wf l a : Forall okI l -> awf a -> awf (adds a l).
  Proof.
    intros Hok. apply fold_left_inv. intros a0 i Hi Hw. apply alloc_add_wf; [|exact Hw].
    rewrite Forall_forall in Hok. exact (Hok i Hi).
  Qed.

  Lemma RI_refl i : RI i i.
  Proof. split; reflexivity. Qed.

  Lemma adds_perm_mod l l' a a' : perm_mod instr RI l l' -> Forall okI l -> aeq a a' -> aeq (adds a l) (adds a' l').
  Proof.
    intros Hp Hok Ha. unfold adds.
    apply (fold_perm_mod alloc instr aeq RI okI app1 aeq_trans); try assumption.
    - intros i _. apply RI_refl.
    - intros s s' [[k b] w] [[k' b'] w'] Hs Hi [Hf Hww]. simpl in *. injection Hf as <- <-.
      unfold app1. simpl. apply alloc_add_resp; assumption.
    - intros s [[k1 b1] w1] [[k2 b2] w2] Hs H1 H2. unfold app1. simpl. apply alloc_add_comm; [apply Hs|exact H1|exact H2].
    - apply aeq_refl, (aeq_wf_l _ _ Ha).
  Qed.

  Lemma aeq_lookups a a' : awf a -> awf a' -> (forall k, alloc_get a k = alloc_get a' k) -> aeq a a'.
  Proof. intros H1 H2 H3. split; [exact H1|]. split; [exact H2|]. intros k. rewrite H3. apply alook_refl. Qed.

  Lemma alloc_get_del a k k' : alloc_get (alloc_del a k) k' = if okey_eqb k' k then None else alloc_get a k'.
  Proof.
    unfold alloc_del. induction a as [|[k0 p0] a IH]; simpl; [destruct (okey_eqb k' k); reflexivity|].
    destruct (okey_eqb_spec k k0) as [<-|Hk]; simpl; rewrite IH.
    - destruct (okey_eqb k' k); reflexivity.
    - destruct (okey_eqb_spec k' k0) as [->|_]; [|reflexivity]. destruct (okey_eqb_spec k0 k) as [E|_]; [congruence|reflexivity].
  Qed.
  Lemma alloc_del_wf a k : awf a -> awf (alloc_del a k).
  Proof.
    intros [Hn Hf]. unfold alloc_del, akeys in *. split; [apply nodup_keys_filter, Hn|].
    apply Forall_forall. intros x Hx. apply filter_In in Hx. rewrite Forall_forall in Hf. apply Hf, Hx.
  Qed.
  Lemma alloc_del_resp a a' k : aeq a a' -> aeq (alloc_del a k) (alloc_del a' k).
  Proof.
    intros (H1 & H2 & H3). split; [apply alloc_del_wf, H1|]. split; [apply alloc_del_wf, H2|].
    intros k'. rewrite !alloc_get_del. destruct (okey_eqb k' k); [exact I|apply H3].
  Qed.
  Lemma alloc_del_comm a k1 k2 : awf a -> aeq (alloc_del (alloc_del a k1) k2) (alloc_del (alloc_del a k2) k1).
  Proof.
    intros Hw. apply aeq_lookups; [apply alloc_del_wf, alloc_del_wf, Hw|apply alloc_del_wf, alloc_del_wf, Hw|].
    intros k. rewrite !alloc_get_del. destruct (okey_eqb k k1), (okey_eqb k k2); reflexivity.
  Qed.

  Definition ikey (i : instr) : option C := fst (fst i).

  Lemma adds_get_other l : forall a k, (forall i, In i l -> ikey i <> k) -> alloc_get (adds a l) k = alloc_get a k.
  Proof.
    unfold adds. induction l as [|i l IH]; intros a k Hk; simpl; [reflexivity|].
    rewrite IH by (intros j Hj; apply Hk; right; exact Hj). unfold app1. rewrite alloc_get_add.
    destruct (okey_eqb_spec k (fst (fst i))) as [E|_]; [|reflexivity]. destruct (Hk i (or_introl eq_refl)). symmetry. exact E.
  Qed.

  Lemma adds_del_comm l k0 : forall a, (forall i, In i l -> ikey i <> k0) -> Forall okI l -> awf a ->
    aeq (adds (alloc_del a k0) l) (alloc_del (adds a l) k0).
  Proof.
    induction l as [|i l IH]; intros a Hk Hok Hw.
    - simpl. apply aeq_refl, alloc_del_wf, Hw.
    - inversion Hok as [|? ? Hi Hok']; subst. change (adds (alloc_del a k0) (i :: l)) with (adds (app1 (alloc_del a k0) i) l).
      change (adds a (i :: l)) with (adds (app1 a i) l).
      eapply aeq_trans; [|apply IH; [intros j Hj; apply Hk; right; exact Hj|exact Hok'|apply alloc_add_wf; assumption]].
      apply adds_perm_mod; [apply perm_mod_of_perm; [exact RI_refl|apply Permutation_refl]|exact Hok'|]. unfold app1.
      apply aeq_lookups; [apply alloc_add_wf, alloc_del_wf; assumption|apply alloc_del_wf, alloc_add_wf; assumption|].
      intros k. rewrite alloc_get_add, !alloc_get_del, alloc_get_add.
      destruct (okey_eqb_spec (fst (fst i)) k0) as [E|_]; [destruct (Hk i (or_introl eq_refl) E)|].
      destruct (okey_eqb_spec k (fst (fst i))) as [->|_]; [|reflexivity].
      destruct (okey_eqb_spec (fst (fst i)) k0) as [E|_]; [destruct (Hk i (or_introl eq_refl) E)|reflexivity].
  Qed.

  Definition mb_instrs (targets : list C) (b : ballot) (w : Q) : list instr :=
    match targets with
    | [] => [(None, b, w)]
    | _ => map (fun t => (Some t, b, Qred (w / inject_Z (Z.of_nat (length targets))))) targets
    end.

  Lemma move_ballot_adds a targets b w : move_ballot a targets b w = adds a (mb_instrs targets b w).
  Proof.
    unfold move_ballot, mb_instrs, adds. destruct targets as [|t ts]; [reflexivity|].
    generalize (Qred (w / inject_Z (Z.of_nat (length (t :: ts))))). intros share.
    generalize (t :: ts). intros l. revert a. induction l as [|x l IH]; intros a; simpl; [reflexivity|]. apply IH.
  Qed.

  Lemma fold_adds {A} (g : alloc -> A -> alloc) (I0 : A -> list instr) l :
    (forall a x, g a x = adds a (I0 x)) -> forall a, fold_left g l a = adds a (flat_map I0 l).
  Proof.
    intros Hg. induction l as [|x l IH]; intros a; simpl; [reflexivity|].
    rewrite IH, Hg. unfold adds. rewrite fold_left_app. reflexivity.
  Qed.

  Definition pile_instrs (c : C) (cont : list C) (p : pile) : list instr :=
    flat_map (fun bw : ballot * Q => mb_instrs (ranked_next (fst bw) c cont) (fst bw) (snd bw)) p.

  Lemma inner_fold_adds c cont p : forall a,
    fold_left (fun a (bw : ballot * Q) => move_ballot a (ranked_next (fst bw) c cont) (fst bw) (snd bw)) p a = adds a (pile_instrs c cont p).
  Proof. apply fold_adds. intros a bw. apply move_ballot_adds. Qed.

  Definition step (cont : list C) (a : alloc) (c : C) : alloc :=
    alloc_del (adds a (pile_instrs c cont (odflt (alloc_get a (Some c))))) (Some c).

  Lemma transfer_steps a elim :
    transfer a elim = fold_left (step (filter (fun c => negb (cmem c elim)) (keys_some a))) (filter (fun c => cmem c elim) (keys_some a)) a.
  Proof.
    unfold transfer. generalize (filter (fun c => cmem c elim) (keys_some a)) as rem.
    generalize (filter (fun c => negb (cmem c elim)) (keys_some a)) as cont. intros cont rem.
    generalize a. induction rem as [|c rem IH]; intros a0; simpl; [reflexivity|].
    rewrite IH. f_equal. unfold step. rewrite inner_fold_adds.
    destruct (alloc_get a0 (Some c)); reflexivity.
  Qed.

  Lemma mb_instrs_key targets b w i : In i (mb_instrs targets b w) -> (ikey i = None \/ exists t, ikey i = Some t /\ In t targets) /\ snd (fst i) = b.
  Proof.
    unfold mb_instrs. destruct targets as [|t ts].
    - intros [<-|[]]. split; [left; reflexivity|reflexivity].
    - intros H. apply in_map_iff in H. destruct H as (x & <- & Hx). split; [right; exists x; split; [reflexivity|exact Hx]|reflexivity].
  Qed.

  Lemma flat_map_okI (f : ballot * Q -> list instr) l :
    (forall bw i, In i (f bw) -> snd (fst i) = fst bw) -> incl (map fst l) U -> Forall okI (flat_map f l).
  Proof.
    intros Hf Hl. apply Forall_forall. intros i Hi. apply in_flat_map in Hi. destruct Hi as (bw & Hbw & Hi).
    unfold okI. rewrite (Hf bw i Hi). apply Hl, in_map, Hbw.
  Qed.

  Lemma pile_instrs_ok c cont p : pwf p -> Forall okI (pile_instrs c cont p).
  Proof. intros Hw. apply flat_map_okI; [|exact (proj1 Hw)]. intros bw i Hi. apply mb_instrs_key in Hi. apply Hi. Qed.

  Lemma pile_instrs_notkey c cont p c0 : ~ In c0 cont -> forall i, In i (pile_instrs c cont p) -> ikey i <> Some c0.
  Proof.
    intros Hc i Hi. apply in_flat_map in Hi. destruct Hi as ([b w] & _ & Hi). apply mb_instrs_key in Hi.
    destruct Hi as [[H|(t & H & Ht)] _]; rewrite H; [discriminate|]. intros [= ->]. apply Hc, (ranked_next_allowed b c cont), Ht.
  Qed.

  Lemma step_wf cont a c : awf a -> awf (step cont a c).
  Proof.
    intros Hw. unfold step. apply alloc_del_wf, adds_wf; [|exact Hw]. apply pile_instrs_ok, odflt_wf, Hw.
  Qed.

  Lemma mb_instrs_rel targets b w w' : w == w' -> Forall2 RI (mb_instrs targets b w) (mb_instrs targets b w').
  Proof.
    intros Hw. unfold mb_instrs. destruct targets as [|t ts]; [constructor; [split; [reflexivity|exact Hw]|constructor]|].
    apply Forall2_map_same. intros x. split; [reflexivity|]. cbn [snd]. apply Qred_comp. rewrite Hw. reflexivity.
  Qed.

  Lemma pile_instrs_rel c cont p p' : pwf p -> pwf p' -> plook p p' -> perm_mod instr RI (pile_instrs c cont p) (pile_instrs c cont p').
  Proof.
    intros Hw Hw' Hl. unfold pile_instrs. apply (perm_mod_flat_map wrel RI); [|apply plook_perm_mod; assumption].
    intros [b w] [b' w'] [H1 H2]. simpl in *. subst b'. apply mb_instrs_rel, H2.
  Qed.

  Lemma step_resp cont a a' c : aeq a a' -> aeq (step cont a c) (step cont a' c).
  Proof.
    intros Ha. unfold step. apply alloc_del_resp. pose proof Ha as (H1 & H2 & H3).
    apply adds_perm_mod; [|apply pile_instrs_ok, odflt_wf, H1|exact Ha].
    apply pile_instrs_rel; [apply odflt_wf, H1|apply odflt_wf, H2|apply alook_odflt, H3].
  Qed.

  Lemma step_get_other cont a c c2 : c2 <> c -> ~ In c2 cont -> alloc_get (step cont a c) (Some c2) = alloc_get a (Some c2).
  Proof.
    intros Hne Hc. unfold step. rewrite alloc_get_del.
    destruct (okey_eqb_spec (Some c2) (Some c)) as [E|_]; [congruence|]. apply adds_get_other, pile_instrs_notkey, Hc.
  Qed.

  Lemma step_comm cont a c1 c2 : awf a -> ~ In c1 cont -> ~ In c2 cont ->
    aeq (step cont (step cont a c1) c2) (step cont (step cont a c2) c1).
  Proof.
    intros Hw H1 H2. destruct (Pos.eq_dec c1 c2) as [->|Hne]; [apply aeq_refl, step_wf, step_wf, Hw|].
    set (I0 := fun c => pile_instrs c cont (odflt (alloc_get a (Some c)))).
    assert (Hok : forall c, Forall okI (I0 c)) by (intros c; apply pile_instrs_ok, odflt_wf, Hw).
    (* both orders add the two piles' instructions to a, then delete the two piles *)
    assert (Hhalf : forall x y, x <> y -> ~ In x cont -> ~ In y cont ->
      aeq (step cont (step cont a x) y) (alloc_del (alloc_del (adds a (I0 x ++ I0 y)) (Some x)) (Some y))).
    { intros x y Hxy Hx Hy. unfold step at 1. rewrite (step_get_other cont a x y) by (try congruence; assumption).
      apply alloc_del_resp. unfold step. fold (I0 x) (I0 y).
      unfold adds at 3. rewrite fold_left_app. fold (adds a (I0 x)). fold (adds (adds a (I0 x)) (I0 y)).
      apply adds_del_comm; [apply pile_instrs_notkey, Hx|apply Hok|apply adds_wf; [apply Hok|exact Hw]]. }
    eapply aeq_trans; [apply Hhalf; assumption|].
    eapply aeq_trans; [|apply aeq_sym, Hhalf; [congruence|assumption|assumption]].
    eapply aeq_trans; [apply alloc_del_comm, adds_wf; [apply Forall_app; split; apply Hok|exact Hw]|].
    apply alloc_del_resp, alloc_del_resp. apply adds_perm_mod; [|apply Forall_app; split; apply Hok|apply aeq_refl, Hw].
    apply perm_mod_of_perm; [exact RI_refl|apply Permutation_app_comm].
  Qed.

  Lemma aeq_keys a a' : aeq a a' -> forall k, In k (akeys a) <-> In k (akeys a').
  Proof.
    intros (_ & _ & H) k. specialize (H k).
    destruct (alloc_get a k) eqn:E, (alloc_get a' k) eqn:E'; simpl in H; try contradiction.
    - apply alloc_get_some_in in E, E'. split; intros _; unfold akeys.
      + apply in_map_iff. exists (k, p0). auto.
      + apply in_map_iff. exists (k, p). auto.
    - apply alloc_get_none in E, E'. tauto.
  Qed.
  Lemma keys_some_perm a a' : aeq a a' -> Permutation (keys_some a) (keys_some a').
  Proof.
    intros Ha. apply NoDup_Permutation; [apply keys_some_nodup, Ha|apply keys_some_nodup, Ha|].
    intros c. rewrite !keys_some_akeys. apply aeq_keys, Ha.
  Qed.

  Lemma next_after_ext rest al al' : (forall c, cmem c al = cmem c al') -> next_after rest al = next_after rest al'.
  Proof.
    intros H. induction rest as [|[c|l] t IH]; simpl; [reflexivity| |].
    - rewrite H, IH. reflexivity.
    - rewrite (filter_ext (fun c => cmem c al) (fun c => cmem c al') H), IH. reflexivity.
  Qed.
  Lemma ranked_next_ext v c al al' : (forall c, cmem c al = cmem c al') -> ranked_next v c al = ranked_next v c al'.
  Proof.
    intros H. induction v as [|[x|l] t IH]; simpl; [reflexivity| |]; rewrite IH, (next_after_ext t al al' H); reflexivity.
  Qed.
  Lemma step_ext cont cont' a c : (forall x, cmem x cont = cmem x cont') -> step cont a c = step cont' a c.
  Proof.
    intros H. unfold step, pile_instrs. f_equal. f_equal. apply flat_map_ext. intros bw.
    rewrite (ranked_next_ext _ c cont cont' H). reflexivity.
  Qed.

  Lemma transfer_wf a elim : awf a -> awf (transfer a elim).
  Proof.
    rewrite transfer_steps. apply fold_left_inv. intros a0 c _. apply step_wf.
  Qed.

  Theorem transfer_resp a a' elim elim' : aeq a a' -> (forall c, cmem c elim = cmem c elim') ->
    aeq (transfer a elim) (transfer a' elim').
  Proof.
    intros Ha He. rewrite !transfer_steps.
    pose proof (keys_some_perm a a' Ha) as Hk.
    set (cont := filter (fun c => negb (cmem c elim)) (keys_some a)).
    set (cont' := filter (fun c => negb (cmem c elim')) (keys_some a')).
    set (rem := filter (fun c => cmem c elim) (keys_some a)).
    set (rem' := filter (fun c => cmem c elim') (keys_some a')).
    assert (Hc : forall x, cmem x cont' = cmem x cont).
    { intros x. apply cmem_perm, perm_filter_ext; [intros c; rewrite He; reflexivity|apply Permutation_sym, Hk]. }
    assert (Hr : Permutation rem rem') by (apply perm_filter_ext; [exact He|exact Hk]).
    rewrite (fold_left_ext (step cont') (step cont)) by (intros a0 c; apply step_ext, Hc).
    apply (fold_perm_mod alloc C aeq eq (fun c => ~ In c cont) (step cont) aeq_trans).
    - intros; reflexivity.
    - intros s s' i i' Hs _ <-. apply step_resp, Hs.
    - intros s i j Hs Hi Hj. apply step_comm; [apply Hs|exact Hi|exact Hj].
    - apply perm_mod_of_perm; [reflexivity|exact Hr].
    - apply Forall_forall. intros c Hc0 Hin. unfold rem in Hc0. unfold cont in Hin.
      apply filter_In in Hc0. apply filter_In in Hin. destruct Hc0 as [_ H1], Hin as [_ H2]. rewrite H1 in H2. discriminate.
    - exact Ha.
    - apply aeq_refl, Ha.
  Qed.

  Lemma pileget_map_scale (g : Q -> Q) p b : pileget (map (fun bw : ballot * Q => (fst bw, g (snd bw))) p) b = option_map g (pileget p b).
  Proof. induction p as [|[b0 w0] p IH]; simpl; [reflexivity|]. destruct (ballot_eqb b b0); [reflexivity|exact IH]. Qed.
  Lemma pwf_map_scale (g : Q -> Q) p : pwf p -> pwf (map (fun bw : ballot * Q => (fst bw, g (snd bw))) p).
  Proof. unfold pwf. rewrite map_map. simpl. tauto. Qed.

  Definition orelp (R : pile -> pile -> Prop) (o o' : option pile) : Prop :=
    match o, o' with Some x, Some y => R x y | None, None => True | _, _ => False end.

  Lemma gregory_resp p p' amt : pwf p -> pwf p' -> plook p p' ->
    orelp (fun q q' => pwf q /\ pwf q' /\ plook q q') (gregory_subtract p amt) (gregory_subtract p' amt).
  Proof.
    intros Hw Hw' Hl. unfold gregory_subtract. rewrite <- (pile_sum_plook p p' Hw Hw' Hl).
    destruct (Qeq_bool (pile_sum p) 0); [exact I|]. destruct (Qle_bool (pile_sum p) amt); cbn [orelp].
    - split; [apply pwf_nil|]. split; [apply pwf_nil|apply plook_refl].
    - set (f := (pile_sum p - amt) / pile_sum p).
      split; [apply (pwf_map_scale (fun w => Qred (w * f))), Hw|]. split; [apply (pwf_map_scale (fun w => Qred (w * f))), Hw'|].
      intros b Hb. rewrite !(pileget_map_scale (fun w => Qred (w * f))). specialize (Hl b Hb). destruct Hl as [|w w' Hww]; cbn [option_map]; constructor.
      apply Qred_comp. rewrite Hww. reflexivity.
  Qed.

  Definition repl (a : alloc) (c : C) (p' : pile) : alloc :=
    map (fun kp : option C * pile => if okey_eqb (Some c) (fst kp) then (fst kp, p') else kp) a.

  Lemma alloc_get_repl a c p' k :
    alloc_get (repl a c p') k = if okey_eqb k (Some c) then match alloc_get a k with Some _ => Some p' | None => None end else alloc_get a k.
  Proof.
    unfold repl. induction a as [|[k0 p0] a IH]; cbn -[okey_eqb]; [destruct (okey_eqb k (Some c)); reflexivity|].
    destruct (okey_eqb_spec (Some c) k0) as [<-|Hk]; cbn -[okey_eqb].
    - destruct (okey_eqb k (Some c)); [reflexivity|exact IH].
    - destruct (okey_eqb_spec k k0) as [->|_]; [|exact IH]. destruct (okey_eqb_spec k0 (Some c)) as [E|_]; [congruence|reflexivity].
  Qed.
  Lemma repl_wf a c p' : awf a -> pwf p' -> awf (repl a c p').
  Proof.
    intros [Hn Hf] Hp. unfold repl, awf, akeys in *. split.
    - rewrite map_map. rewrite (map_ext _ fst); [exact Hn|]. intros [k0 p0]. cbn -[okey_eqb]. destruct (okey_eqb (Some c) k0); reflexivity.
    - apply Forall_forall. intros x Hx. apply in_map_iff in Hx. destruct Hx as ([k0 p0] & <- & Hin).
      cbn -[okey_eqb]. destruct (okey_eqb (Some c) k0); simpl; [exact Hp|]. rewrite Forall_forall in Hf. exact (Hf _ Hin).
  Qed.

  (* what is left of the pile of an elected candidate *)
  Definition newpile (a : alloc) (ca : C * Q) : option pile :=
    match alloc_get a (Some (fst ca)) with None => None | Some p => gregory_subtract p (snd ca) end.
  Definition sub1 (a : alloc) (ca : C * Q) : option alloc := option_map (repl a (fst ca)) (newpile a ca).
  Definition osub (o : option alloc) (ca : C * Q) : option alloc := match o with Some a => sub1 a ca | None => None end.

  Lemma subtract_fold el : forall a, subtract a el = fold_left osub el (Some a).
  Proof.
    assert (N : forall t, None = fold_left osub t None) by (induction t; simpl; auto).
    induction el as [|[c amt] t IH]; intros a; simpl; [reflexivity|].
    unfold sub1, newpile. simpl. destruct (alloc_get a (Some c)) as [p|]; [|apply N].
    destruct (gregory_subtract p amt) as [p'|]; [apply IH|apply N].
  Qed.

  Definition oaeq (o o' : option alloc) : Prop := match o, o' with Some a, Some a' => aeq a a' | None, None => True | _, _ => False end.
  Lemma oaeq_trans o1 o2 o3 : oaeq o1 o2 -> oaeq o2 o3 -> oaeq o1 o3.
  Proof. destruct o1, o2, o3; simpl; try tauto. apply aeq_trans. Qed.

  Lemma sub1_resp a a' ca : aeq a a' -> oaeq (sub1 a ca) (sub1 a' ca).
  Proof.
    intros Ha. pose proof Ha as (H1 & H2 & H3). unfold sub1, newpile. pose proof (H3 (Some (fst ca))) as Hl.
    destruct (alloc_get a (Some (fst ca))) as [p|] eqn:E, (alloc_get a' (Some (fst ca))) as [p'|] eqn:E'; simpl in Hl; try contradiction; [|exact I].
    pose proof (alloc_get_wf _ _ _ H1 E) as Hw. pose proof (alloc_get_wf _ _ _ H2 E') as Hw'.
    pose proof (gregory_resp p p' (snd ca) Hw Hw' Hl) as Hg.
    destruct (gregory_subtract p (snd ca)) as [q|], (gregory_subtract p' (snd ca)) as [q'|]; simpl in Hg; try contradiction; [|exact I].
    destruct Hg as (Hq & Hq' & Hqq). simpl. split; [apply repl_wf; assumption|]. split; [apply repl_wf; assumption|].
    intros k. rewrite !alloc_get_repl. destruct (okey_eqb_spec k (Some (fst ca))) as [->|_]; [|apply H3].
    rewrite E, E'. exact Hqq.
  Qed.

  Lemma sub1_comm a x y : awf a -> fst x <> fst y -> oaeq (osub (sub1 a x) y) (osub (sub1 a y) x).
  Proof.
    intros Hw Hne.
    (* replacing the pile of one candidate does not touch what is left of another's *)
    assert (F : forall c q ca, c <> fst ca -> newpile (repl a c q) ca = newpile a ca).
    { intros c q ca Hc. unfold newpile. rewrite alloc_get_repl.
      destruct (okey_eqb_spec (Some (fst ca)) (Some c)) as [E|_]; [congruence|reflexivity]. }
    assert (W : forall ca q, newpile a ca = Some q -> pwf q).
    { unfold newpile. intros ca q H. destruct (alloc_get a (Some (fst ca))) as [p|] eqn:G; [|discriminate].
      pose proof (alloc_get_wf _ _ _ Hw G) as Wp. pose proof (gregory_resp p p (snd ca) Wp Wp (plook_refl p)) as R.
      rewrite H in R. exact (proj1 R). }
    unfold sub1.
    destruct (newpile a x) as [q1|] eqn:N1, (newpile a y) as [q2|] eqn:N2; cbn [option_map osub]; unfold sub1;
      rewrite ?(F _ _ _ Hne), ?(F _ _ _ (not_eq_sym Hne)), ?N1, ?N2; try exact I.
    cbn [option_map oaeq].
    apply aeq_lookups; [apply repl_wf; [apply repl_wf|]; eauto|apply repl_wf; [apply repl_wf|]; eauto|].
    intros k. rewrite !alloc_get_repl.
    destruct (okey_eqb_spec k (Some (fst y))) as [K2|_], (okey_eqb_spec k (Some (fst x))) as [K1|_]; try reflexivity. congruence.
  Qed.

  Theorem subtract_resp a a' el el' : aeq a a' -> Permutation el el' -> NoDup (map fst el) ->
    oaeq (subtract a el) (subtract a' el').
  Proof.
    intros Ha Hp Hn. rewrite !subtract_fold.
    apply (fold_perm_mod (option alloc) (C * Q) oaeq eq (fun i => In i el) osub oaeq_trans).
    - intros; reflexivity.
    - intros s s' i i' Hs _ <-. destruct s, s'; simpl in *; try contradiction; [apply sub1_resp, Hs|exact I].
    - intros s i j Hs Hi Hj. destruct s as [s|]; [|exact I]. simpl in Hs.
      destruct (Pos.eq_dec (fst i) (fst j)) as [E|E].
      + assert (i = j).
        { destruct i as [c x], j as [c' y]. simpl in E. subst c'. f_equal. exact (NoDup_fst_eq el c x y Hn Hi Hj). }
        subst j. simpl.
        pose proof (sub1_resp s s i Hs) as H1. destruct (sub1 s i) as [s1|]; [|exact I]. simpl in *. apply sub1_resp, H1.
      + simpl. apply sub1_comm; [apply Hs|exact E].
    - apply perm_mod_of_perm; [reflexivity|exact Hp].
    - apply Forall_forall. auto.
    - exact Ha.
    - simpl. apply aeq_refl, Ha.
  Qed.

  Lemma totals_in a k t : NoDup (akeys a) -> (In (k, t) (totals a) <-> exists p, alloc_get a k = Some p /\ t = pile_sum p).
  Proof.
    intros Hn. unfold totals. rewrite in_map_iff. split.
    - intros ([k0 p] & Heq & Hin). simpl in Heq. injection Heq as -> <-. exists p. split; [apply in_alloc_get; assumption|reflexivity].
    - intros (p & Hg & ->). exists (k, p). split; [reflexivity|apply alloc_get_some_in, Hg].
  Qed.

  Theorem totals_perm a a' : aeq a a' -> Permutation (totals a) (totals a').
  Proof.
    assert (Hnd : forall x, awf x -> NoDup (totals x)).
    { intros x Hx. eapply NoDup_map_inv with (f := fst). rewrite totals_keys. apply Hx. }
    assert (Hincl : forall x x', aeq x x' -> incl (totals x) (totals x')).
    { intros x x' (H1 & H2 & H3) [k t] Hin. apply (totals_in x k t (proj1 H1)) in Hin. destruct Hin as (p & Hg & ->).
      specialize (H3 k). rewrite Hg in H3. destruct (alloc_get x' k) as [p'|] eqn:E; simpl in H3; [|contradiction].
      apply (totals_in x' k _ (proj1 H2)). exists p'. split; [exact E|].
      apply pile_sum_plook; [exact (alloc_get_wf x k p H1 Hg)|exact (alloc_get_wf x' k p' H2 E)|exact H3]. }
    intros Ha. apply NoDup_Permutation; [apply Hnd, Ha|apply Hnd, Ha|].
    intros kt. split; [apply Hincl, Ha|apply Hincl, aeq_sym, Ha].
  Qed.

  Definition is_tie {K} (r : res K) : bool := match r with TieR _ => true | _ => false end.
  Definition cands_of {K} (l : list (res K)) : list K := flat_map (fun r => match r with Cand c => [c] | _ => [] end) l.

  Lemma gnb_perm_kept {K} (votes votes' : list (K * Q)) n : NoDup (map fst votes) -> Permutation votes votes' ->
    existsb is_tie (get_n_best Qle_bool votes n) = existsb is_tie (get_n_best Qle_bool votes' n) /\
    (existsb is_tie (get_n_best Qle_bool votes n) = false ->
     Permutation (cands_of (get_n_best Qle_bool votes n)) (cands_of (get_n_best Qle_bool votes' n))).
  Proof.
    intros Hn Hp. destruct n as [|n]; [rewrite !(get_n_best_0 Qle_bool Qle_bool_total); simpl; split; [reflexivity|intros _; constructor]|].
    destruct (gnb_perm_shape votes votes' (S n) ltac:(lia) Hn Hp) as (cs & cs' & T & T' & k & E & E' & Pcs & _ & _).
    rewrite E, E'. rewrite !existsb_app.
    assert (H1 : forall l : list K, existsb is_tie (map Cand l) = false) by (induction l; simpl; auto).
    assert (H2 : forall (X : list K) j, existsb is_tie (repeat (TieR X) j) = match j with O => false | _ => true end) by (intros X [|j]; reflexivity).
    assert (H3 : forall l : list K, cands_of (map Cand l) = l) by (induction l as [|x l IH]; simpl; [reflexivity|f_equal; exact IH]).
    assert (H4 : forall (X : list K) j, cands_of (repeat (TieR X) j) = []) by (intros X j; induction j; simpl; auto).
    rewrite !H1, !H2. split; [reflexivity|]. intros _. unfold cands_of in *. rewrite !flat_map_app, !H3, !H4, !app_nil_r. exact Pcs.
  Qed.

  Definition ebq_rel (r r' : option (list (C * Z)) + stop) : Prop :=
    match r, r' with
    | inl None, inl None => True
    | inl (Some el), inl (Some el') => NoDup (map fst el) /\ Permutation el el'
    | inr s, inr s' => s = s'
    | _, _ => False
    end.

  Lemma ebq_correct_perm n_rem aw aw' ov ov' : NoDup (map fst aw) -> Permutation aw aw' -> NoDup (map fst ov) -> Permutation ov ov' ->
    ebq_rel (ebq_correct n_rem aw ov) (ebq_correct n_rem aw' ov').
  Proof.
    intros Han Hap Hon Hop. unfold ebq_correct.
    rewrite <- (zsum_perm _ _ (Permutation_map snd Hap)).
    destruct (n_rem <? zsum (map snd aw))%Z; [|simpl; split; assumption].
    destruct (gnb_perm_kept ov ov' (Z.to_nat n_rem) Hon Hop) as [Ht Hc].
    unfold is_tie, cands_of in Ht, Hc. rewrite <- Ht. destruct (existsb _ _); [reflexivity|].
    pose proof (Hc eq_refl) as Hkp. cbn [ebq_rel]. split.
    - apply (flat_map_keys_nodup _ fst fst); [|exact Han].
      intros x. destruct (cmem (fst x) _); [right; eexists; split; reflexivity|].
      destruct (1 <? snd x)%Z; [right; eexists; split; reflexivity|left; reflexivity].
    - eapply Permutation_trans; [apply Permutation_flat_map, Hap|]. apply Permutation_refl'.
      apply flat_map_ext. intros cs. rewrite (cmem_perm _ _ _ Hkp). reflexivity.
  Qed.

  Lemma ebq_item_ext cf q prev prev' caps kt : (forall c, dget_or prev c 0%Z = dget_or prev' c 0%Z) ->
    ebq_item cf q prev caps kt = ebq_item cf q prev' caps kt.
  Proof. intros H. unfold ebq_item. destruct (fst kt); [|reflexivity]. rewrite H. reflexivity. Qed.

  Theorem elect_by_quota_perm cf tot tot' quota n_rem prev prev' caps :
    NoDup (map fst tot) -> Permutation tot tot' -> keysnd prev -> Permutation prev prev' ->
    ebq_rel (elect_by_quota cf tot quota n_rem prev caps) (elect_by_quota cf tot' quota n_rem prev' caps).
  Proof.
    intros Hn Hp Hpn Hpp. destruct quota as [q|]; [|exact I]. rewrite !ebq_unfold.
    set (items := sort_desc Qle_bool (map (fun kt : option C * Q => (fst kt, snd kt)) tot)).
    set (items' := sort_desc Qle_bool (map (fun kt : option C * Q => (fst kt, snd kt)) tot')).
    assert (Hip : Permutation items items').
    { eapply Permutation_trans; [apply ebq_items_perm|]. eapply Permutation_trans; [exact Hp|apply Permutation_sym, ebq_items_perm]. }
    assert (Hin : NoDup (map fst items)) by exact (perm_nodup_keys tot items Hn (Permutation_sym (ebq_items_perm tot))).
    assert (Hsp : Permutation (flat_map (ebq_item cf q prev caps) items) (flat_map (ebq_item cf q prev' caps) items')).
    { apply flat_map_perm_ext; [|exact Hip]. intros kt. apply ebq_item_ext. intros c. apply dget_or_perm; assumption. }
    pose proof (ebq_item_nodup cf q prev caps items Hin) as Hsn. unfold ebq_tail.
    destruct (flat_map (ebq_item cf q prev caps) items) as [|x l] eqn:E1.
    - apply Permutation_nil in Hsp. rewrite Hsp. exact I.
    - destruct (flat_map (ebq_item cf q prev' caps) items') as [|y l'] eqn:E2.
      + apply Permutation_sym, Permutation_nil in Hsp. discriminate.
      + apply ebq_correct_perm; try (rewrite map_map; exact Hsn); apply Permutation_map, Hsp.
  Qed.

  Definition cr_rel (r r' : count_result) : Prop :=
    match r, r' with
    | CR_all el, CR_all el' => keysnd el /\ Permutation el el'
    | CR_next a el, CR_next a' el' => aeq a a' /\ keysnd el /\ Permutation el el'
    | CR_stop s, CR_stop s' => s = s'
    | _, _ => False
    end.

  Lemma transfer_or_not a a' elim elim' : aeq a a' -> Permutation elim elim' ->
    aeq (match elim with [] => a | _ => transfer a elim end) (match elim' with [] => a' | _ => transfer a' elim' end).
  Proof.
    intros Ha Hp. rewrite !transfer_match. apply transfer_resp; [exact Ha|]. intros c. apply cmem_perm, Hp.
  Qed.

  Lemma some_totals_nodup (t : list (option C * Q)) : NoDup (map fst t) -> NoDup (map fst (some_totals t)).
  Proof.
    apply flat_map_some_nodup. intros [[c|] x]; simpl; [right; eexists; split; reflexivity|left; reflexivity].
  Qed.

  Lemma elim_branch_perm cf a a' : aeq a a' -> cr_rel (elim_branch cf a) (elim_branch cf a').
  Proof.
    intros Ha. unfold elim_branch. cbv zeta.
    assert (Htn : NoDup (map fst (totals a))) by (rewrite totals_keys; apply Ha).
    assert (Hip : Permutation (some_totals (totals a)) (some_totals (totals a'))) by (apply Permutation_flat_map, totals_perm, Ha).
    rewrite <- (Permutation_length Hip).
    destruct (gnb_perm_kept _ _ (retained_count cf (length (some_totals (totals a)))) (some_totals_nodup _ Htn) Hip) as [Ht Hc].
    unfold is_tie, cands_of in Ht, Hc. rewrite <- Ht. destruct (existsb _ _); [reflexivity|]. pose proof (Hc eq_refl) as Hkp.
    cbn [cr_rel]. split; [|split; [constructor|constructor]].
    apply transfer_or_not; [exact Ha|]. apply perm_filter_ext; [|apply Permutation_map, Hip].
    intros c. rewrite (cmem_perm _ _ _ Hkp). reflexivity.
  Qed.

  Lemma quota_branch_perm a a' quota prev prev' caps el el' : aeq a a' ->
    (forall c, dget_or prev c 0%Z = dget_or prev' c 0%Z) -> NoDup (map fst el) -> Permutation el el' ->
    cr_rel (quota_branch a quota prev caps el) (quota_branch a' quota prev' caps el').
  Proof.
    intros Ha Hpd Hen Hep. unfold quota_branch. destruct quota as [q|]; [|reflexivity].
    assert (Hmn : NoDup (map fst (map (fun cs : C * Z => (fst cs, inject_Z (snd cs) * q)) el))) by (rewrite map_map; exact Hen).
    pose proof (subtract_resp a a' _ _ Ha (Permutation_map _ Hep) Hmn) as Hs.
    destruct (subtract a _) as [a1|], (subtract a' _) as [a1'|]; simpl in Hs; try contradiction; [|reflexivity].
    cbn [cr_rel]. split; [|split; assumption].
    apply transfer_or_not; [exact Hs|]. apply flat_map_perm_ext; [|exact Hep]. intros cs. rewrite Hpd. reflexivity.
  Qed.

  Theorem next_count_perm cf a a' n_seats total prev prev' caps :
    aeq a a' -> keysnd prev -> Permutation prev prev' ->
    cr_rel (next_count cf a n_seats total prev caps) (next_count cf a' n_seats total prev' caps).
  Proof.
    intros Ha Hpn Hpp. rewrite !next_count_unfold. cbv zeta.
    pose proof (totals_perm a a' Ha) as Htp.
    assert (Htn : NoDup (map fst (totals a))) by (rewrite totals_keys; apply Ha).
    assert (Hpd : forall c, dget_or prev c 0%Z = dget_or prev' c 0%Z) by (intros c; apply dget_or_perm; assumption).
    rewrite <- (zsum_perm _ _ (Permutation_map snd Hpp)).
    set (n_rem := (n_seats - zsum (map snd prev))%Z).
    set (tot := totals a) in *. set (tot' := totals a') in *.
    assert (Hbp : Permutation (sort_desc Qle_bool tot) (sort_desc Qle_bool tot')).
    { eapply Permutation_trans; [apply sort_desc_perm|]. eapply Permutation_trans; [exact Htp|apply Permutation_sym, sort_desc_perm]. }
    rewrite <- (existsb_perm _ _ _ Hbp).
    set (av := flat_map _ (sort_desc Qle_bool tot)). set (av' := flat_map _ (sort_desc Qle_bool tot')).
    assert (Hav : Permutation av av').
    { apply flat_map_perm_ext; [|exact Hbp]. intros kt. destruct (fst kt); [rewrite Hpd|]; reflexivity. }
    assert (Han : keysnd av).
    { apply flat_map_some_nodup; [|exact (perm_nodup_keys tot _ Htn (Permutation_sym (sort_desc_perm _ tot)))].
      intros [[c|] x]; simpl; [right; eexists; split; reflexivity|left; reflexivity]. }
    rewrite <- (zsum_perm _ _ (Permutation_map snd Hav)).
    destruct (negb _ && (_ =? n_rem)%Z && negb (c_mandatory cf)); [split; assumption|].
    pose proof (elect_by_quota_perm cf tot tot' (quota_of cf total n_seats) n_rem prev prev' caps Htn Htp Hpn Hpp) as Hq.
    destruct (elect_by_quota cf tot _ n_rem prev caps) as [[el|]|st], (elect_by_quota cf tot' _ n_rem prev' caps) as [[el'|]|st'];
      simpl in Hq; try contradiction.
    - destruct Hq as [Hen Hep]. apply quota_branch_perm; assumption.
    - apply elim_branch_perm, Ha.
    - exact Hq.
  Qed.

  Definition PS (p q : pile) : Prop := forall b, In b U -> forall w, pileget p b = Some w -> exists w', pileget q b = Some w' /\ w == w'.

  Lemma psub_spec p q : pwf p -> pwf q -> (psub p q = true <-> PS p q).
  Proof.
    intros Hp Hq. unfold psub. rewrite forallb_forall. split.
    - intros H b Hb w Hg. apply (pileget_in p b w Hb Hp) in Hg. specialize (H _ Hg). apply existsb_exists in H.
      destruct H as ([b' w'] & Hin & Hc). simpl in Hc. apply andb_true_iff in Hc. destruct Hc as [E1 E2].
      apply (HU b b' Hb (pwf_in q b' w' Hq Hin)) in E1. subst b'. exists w'. split; [apply (pileget_in q b w' Hb Hq), Hin|apply Qeq_bool_iff, E2].
    - intros H [b w] Hin. pose proof (pwf_in p b w Hp Hin) as Hb.
      destruct (H b Hb w (proj2 (pileget_in p b w Hb Hp) Hin)) as (w' & Hg & Hww). apply existsb_exists. exists (b, w').
      split; [apply (pileget_in q b w' Hb Hq), Hg|]. simpl. rewrite ballot_eqb_refl. apply Qeq_bool_iff, Hww.
  Qed.

  Lemma PS_plook p q : PS p q /\ PS q p <-> plook p q.
  Proof.
    split.
    - intros [H1 H2] b Hb. destruct (pileget p b) as [w|] eqn:E.
      + destruct (H1 b Hb w E) as (w' & -> & Hww). constructor. exact Hww.
      + destruct (pileget q b) as [w'|] eqn:E'; [|constructor]. destruct (H2 b Hb w' E') as (w & Hw & _). congruence.
    - intros Hl. split; intros b Hb w Hg; pose proof (Hl b Hb) as Ho; rewrite Hg in Ho.
      + exact (oeq_some_l _ _ Ho).
      + destruct (oeq_some_r _ _ Ho) as (w0 & E & Hww). exists w0. split; [exact E|symmetry; exact Hww].
  Qed.

  Lemma psub_plook p q : pwf p -> pwf q -> (psub p q && psub q p = true <-> plook p q).
  Proof. intros Hp Hq. rewrite andb_true_iff, (psub_spec p q Hp Hq), (psub_spec q p Hq Hp). apply PS_plook. Qed.

  Lemma asub_spec x y : awf x -> awf y ->
    (asub x y = true <-> forall k p, alloc_get x k = Some p -> alook (Some p) (alloc_get y k)).
  Proof.
    intros Hx Hy.
    (* the test made for one pile of x *)
    assert (H1 : forall k p, alloc_get x k = Some p ->
      (match alloc_get y k with Some q => psub p q && psub q p | None => false end = true <-> alook (Some p) (alloc_get y k))).
    { intros k p Hg. destruct (alloc_get y k) as [q|] eqn:E; simpl; [|split; [discriminate|contradiction]].
      apply psub_plook; [exact (alloc_get_wf x k p Hx Hg)|exact (alloc_get_wf y k q Hy E)]. }
    unfold asub. rewrite forallb_forall. split.
    - intros H k p Hg. apply (H1 k p Hg). exact (H _ (alloc_get_some_in x k p Hg)).
    - intros H [k p] Hin. pose proof (in_alloc_get x k p (proj1 Hx) Hin) as Hg. apply (H1 k p Hg), H, Hg.
  Qed.

  (* the model's comparison of two allocations as dictionaries decides [aeq] *)
  Theorem alloc_eqb_spec a b : awf a -> awf b -> (alloc_eqb a b = true <-> aeq a b).
  Proof.
    intros Ha Hb. rewrite alloc_eqb_unfold, andb_true_iff, (asub_spec a b Ha Hb), (asub_spec b a Hb Ha). split.
    - intros [H1 H2]. split; [exact Ha|]. split; [exact Hb|]. intros k.
      destruct (alloc_get a k) as [p|] eqn:E; [exact (H1 k p E)|].
      destruct (alloc_get b k) as [q|] eqn:E'; [|exact I]. specialize (H2 k q E'). rewrite E in H2. exact H2.
    - intros (_ & _ & H). split; intros k p Hg; specialize (H k); rewrite Hg in H; [exact H|apply alook_sym, H].
  Qed.

  Lemma alloc_eqb_resp a a1 b b1 : aeq a a1 -> aeq b b1 -> alloc_eqb a b = alloc_eqb a1 b1.
  Proof.
    intros Ha Hb. apply eq_true_iff_eq. rewrite (alloc_eqb_spec a b), (alloc_eqb_spec a1 b1) by (apply Ha || apply Hb).
    split; intros H.
    - eapply aeq_trans; [apply aeq_sym, Ha|]. eapply aeq_trans; [exact H|exact Hb].
    - eapply aeq_trans; [exact Ha|]. eapply aeq_trans; [exact H|apply aeq_sym, Hb].
  Qed.

  Definition cnt_rel (x y : list (option C * Q) * list (C * Z)) : Prop := Permutation (fst x) (fst y) /\ Permutation (snd x) (snd y).
  Definition trace_rel (t t' : trace) : Prop :=
    Forall2 cnt_rel (t_counts t) (t_counts t') /\ keysnd (t_seats t) /\ Permutation (t_seats t) (t_seats t') /\ t_stop t = t_stop t'.

  Lemma add_seats_add_dict seats el : add_seats seats el = QuotaDistributor.add_dict seats el.
  Proof. reflexivity. Qed.

  Lemma trace_rel_build acc acc' seats seats' st : Forall2 cnt_rel acc acc' -> keysnd seats -> Permutation seats seats' ->
    trace_rel (Build_trace (rev acc) seats st) (Build_trace (rev acc') seats' st).
  Proof. intros Hacc Hsn Hsp. split; [apply Forall2_rev, Hacc|]. split; [exact Hsn|]. split; [exact Hsp|reflexivity]. Qed.

  Theorem run_perm cf n total caps : forall fuel a a' seats seats' acc acc',
    aeq a a' -> keysnd seats -> Permutation seats seats' -> Forall2 cnt_rel acc acc' ->
    trace_rel (run cf fuel a n total seats caps acc) (run cf fuel a' n total seats' caps acc').
  Proof.
    induction fuel as [|f IH]; intros a a' seats seats' acc acc' Ha Hsn Hsp Hacc; cbn [run];
      rewrite <- (zsum_perm _ _ (Permutation_map snd Hsp)); destruct (zsum (map snd seats) =? n)%Z;
      try (apply trace_rel_build; assumption).
    pose proof (next_count_perm cf a a' n total seats seats' caps Ha Hsn Hsp) as Hnc.
    destruct (next_count cf a n total seats caps) as [el|a1 el|st], (next_count cf a' n total seats' caps) as [el'|a1' el'|st']; simpl in Hnc; try contradiction.
    - destruct Hnc as [Hen Hep]. rewrite !add_seats_add_dict.
      apply trace_rel_build; [|apply add_dict_nodup, Hsn|apply add_dict_perm; assumption].
      constructor; [split; [constructor|exact Hep]|exact Hacc].
    - destruct Hnc as (Ha1 & Hen & Hep).
      assert (Hacc1 : Forall2 cnt_rel ((totals a1, el) :: acc) ((totals a1', el') :: acc')).
      { constructor; [split; simpl; [apply totals_perm, Ha1|exact Hep]|exact Hacc]. }
      destruct el as [|x l].
      + apply Permutation_nil in Hep. subst el'. rewrite <- (alloc_eqb_resp a1 a1' a a' Ha1 Ha).
        destruct (alloc_eqb a1 a); [apply trace_rel_build|apply IH]; assumption.
      + destruct el' as [|y l']; [apply Permutation_sym, Permutation_nil in Hep; discriminate|].
        rewrite !add_seats_add_dict. apply IH; [exact Ha1|apply add_dict_nodup, Hsn|apply add_dict_perm; assumption|exact Hacc1].
    - subst st'. apply trace_rel_build; assumption.
  Qed.

  Definition ia_direct (bw : ballot * Q) : list instr :=
    match fst bw with IP c :: _ => [(Some c, fst bw, snd bw)] | _ => [] end.
  Definition ia_shared (cands : list C) (bw : ballot * Q) : list instr :=
    match fst bw with IS _ :: _ => mb_instrs (next_after (fst bw) cands) (fst bw) (snd bw) | _ => [] end.
  Definition ia_base (cands : list C) : alloc := map (fun c => (Some c, @nil (ballot * Q))) cands.

  Lemma initial_allocation_adds votes :
    initial_allocation votes =
      adds (adds (ia_base (all_ranked_candidates votes)) (flat_map ia_direct votes)) (flat_map (ia_shared (all_ranked_candidates votes)) votes).
  Proof.
    unfold initial_allocation. cbv zeta. fold (ia_base (all_ranked_candidates votes)).
    rewrite (fold_adds _ (ia_shared (all_ranked_candidates votes))).
    - rewrite (fold_adds _ ia_direct); [reflexivity|].
      intros a [b w]. unfold ia_direct. simpl. destruct b as [|[c|l] t]; reflexivity.
    - intros a [b w]. unfold ia_shared. simpl. destruct b as [|[c|l] t]; try reflexivity. apply move_ballot_adds.
  Qed.

  Lemma ia_base_get cands k : alloc_get (ia_base cands) k = match k with Some c => if cmem c cands then Some [] else None | None => None end.
  Proof.
    unfold ia_base. induction cands as [|x l IH]; simpl; [destruct k; reflexivity|].
    destruct k as [c|]; simpl; [|exact IH]. unfold ceqb. destruct (Pos.eqb c x); [reflexivity|exact IH].
  Qed.
  Lemma ia_base_wf cands : NoDup cands -> awf (ia_base cands).
  Proof.
    intros Hn. unfold ia_base, awf, akeys. split.
    - rewrite map_map. simpl. apply FinFun.Injective_map_NoDup; [|exact Hn]. intros x y [= ->]. reflexivity.
    - apply Forall_forall. intros x Hx. apply in_map_iff in Hx. destruct Hx as (c & <- & _). apply pwf_nil.
  Qed.
  Lemma ia_base_perm cands cands' : NoDup cands -> Permutation cands cands' -> aeq (ia_base cands) (ia_base cands').
  Proof.
    intros Hn Hp. apply aeq_lookups; [apply ia_base_wf, Hn|apply ia_base_wf; eapply Permutation_NoDup; eassumption|].
    intros k. rewrite !ia_base_get. destruct k as [c|]; [|reflexivity]. rewrite (cmem_perm _ _ _ Hp). reflexivity.
  Qed.

  Theorem initial_allocation_perm votes votes' cands cands' :
    (forall b, In b (map fst votes) -> In b U) -> Permutation votes votes' ->
    cands = all_ranked_candidates votes -> cands' = all_ranked_candidates votes' -> NoDup cands -> Permutation cands cands' ->
    aeq (initial_allocation votes) (initial_allocation votes').
  Proof.
    intros HinU Hp -> -> Hcn Hcp. rewrite !initial_allocation_adds.
    assert (Hok1 : Forall okI (flat_map ia_direct votes)).
    { apply flat_map_okI; [|exact HinU]. intros [b w] i. unfold ia_direct. simpl.
      destruct b as [|[c|l] t]; [intros []| |intros []]. intros [<-|[]]. reflexivity. }
    assert (Hok2 : Forall okI (flat_map (ia_shared (all_ranked_candidates votes)) votes)).
    { apply flat_map_okI; [|exact HinU]. intros [b w] i. unfold ia_shared. simpl.
      destruct b as [|[c|l] t]; [intros []|intros []|]. intros Hi. apply mb_instrs_key in Hi. apply Hi. }
    apply adds_perm_mod; [|exact Hok2|].
    - rewrite (flat_map_ext (ia_shared (all_ranked_candidates votes')) (ia_shared (all_ranked_candidates votes))).
      + apply perm_mod_of_perm; [exact RI_refl|apply Permutation_flat_map, Hp].
      + intros [b w]. unfold ia_shared. simpl. destruct b as [|[c|l] t]; try reflexivity.
        rewrite (next_after_ext (IS l :: t) (all_ranked_candidates votes') (all_ranked_candidates votes)); [reflexivity|].
        intros x. apply cmem_perm, Permutation_sym, Hcp.
    - apply adds_perm_mod; [|exact Hok1|apply ia_base_perm; assumption].
      apply perm_mod_of_perm; [exact RI_refl|apply Permutation_flat_map, Hp].
  Qed.
End Univ.

Definition ranks_at (votes : list (ballot * Q)) (i : nat) (x : C) : Prop :=
  exists bw, In bw votes /\ exists it, nth_error (fst bw) i = Some it /\ In x (members it).

Theorem arc_spec votes : NoDup (all_ranked_candidates votes) /\
  forall x, In x (all_ranked_candidates votes) <-> exists i, ranks_at votes i x.
Proof.
  split; [apply all_ranked_nodup|]. intros x. split.
  - (* every candidate listed was met at some rank of some ballot: kept by each of the three nested loops *)
    unfold all_ranked_candidates. revert x.
    apply (fold_left_inv (fun acc => forall x, In x acc -> exists i, ranks_at votes i x)); [|intros x []].
    intros acc i _ Ha. apply fold_left_inv; [|exact Ha]. intros acc1 bw Hbw Ha1.
    destruct (nth_error (fst bw) i) as [it|] eqn:Ei; [|exact Ha1].
    apply fold_left_inv; [|exact Ha1]. intros acc2 c Hc Ha2 x Hx.
    destruct (cmem c acc2); [exact (Ha2 x Hx)|]. apply in_app_or in Hx. destruct Hx as [Hx|[<-|[]]]; [exact (Ha2 x Hx)|].
    exists i, bw. split; [exact Hbw|]. exists it. split; [exact Ei|exact Hc].
  - intros (i & [b w] & Hb & it & Hi & Hx). exact (all_ranked_complete votes b w it x Hb (nth_error_In _ _ Hi) Hx).
Qed.

Theorem arc_perm votes votes' : Permutation votes votes' -> Permutation (all_ranked_candidates votes) (all_ranked_candidates votes').
Proof.
  intros Hp. destruct (arc_spec votes) as [N1 S1]. destruct (arc_spec votes') as [N2 S2].
  apply NoDup_Permutation; [exact N1|exact N2|]. intros x. rewrite S1, S2.
  split; intros (i & bw & Hb & H); exists i, bw; (split; [|exact H]).
  - apply (Permutation_in _ Hp Hb).
  - apply (Permutation_in _ (Permutation_sym Hp) Hb).
Qed.

Definition ballots_distinct (votes : list (ballot * Q)) : Prop :=
  forall b b', In b (map fst votes) -> In b' (map fst votes) -> ballot_eqb b b' = true -> b = b'.

Theorem stv_perm cf votes votes' n prev prev' caps :
  ballots_distinct votes -> Permutation votes votes' -> keysnd prev -> Permutation prev prev' ->
  trace_rel (stv cf votes n prev caps) (stv cf votes' n prev' caps).
Proof.
  intros Hd Hp Hpn Hpp. unfold stv.
  pose proof (arc_perm votes votes' Hp) as Hcp. destruct (arc_spec votes) as [Hcn _].
  rewrite <- (Permutation_length Hcp).
  assert (Ht : Qred (fold_left Qplus (map snd votes') 0) = Qred (fold_left Qplus (map snd votes) 0)).
  { apply Qred_complete, fold_Qplus_perm, Permutation_map, Permutation_sym, Hp. }
  rewrite Ht. apply (run_perm (map fst votes) Hd); try assumption; [|constructor].
  apply (initial_allocation_perm (map fst votes) Hd votes votes' _ _ (fun b H => H) Hp eq_refl eq_refl Hcn Hcp).
Qed.
