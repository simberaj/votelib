(* STAR (Model/Star.v) against its definition.

   - the pairwise dictionary of the run-off holds, for every two distinct run-off members x, y, exactly the ballot
     weight that places x above y ([support]), and names exactly the members that some ballot separates from
     another member ([separated]);
   - STAR is Schulze over that table; it returns min(n, number of separated members) entries: the class of the
     silently shorter answers (known finding C08-star-short) is exactly [star_shortb] - fewer than n run-off members
     are separated by a ballot - and there the answer lists just those members; outside the class the answer is a
     well-shaped selection of n;
   - one seat, complete: two untied finalists a, b -> the one placed above the other by more ballot weight, the tie
     of both when the weights are equal and positive, nothing when no ballot separates them; no two untied
     finalists -> nothing. *)
From Coq Require Import ZArith QArith List Bool Arith Lia Permutation.
From VL Require Import Prelude.PyDict Model.GetNBest Model.Convert Model.Cardinal Model.Condorcet Model.Star
     Proofs.QOrd Proofs.Dict_proofs Proofs.GetNBest_proofs Proofs.Condorcet_proofs Proofs.Schulze_proofs Proofs.Shape2_proofs
     Proofs.Star_proofs Proofs.MJ_proofs.
Import ListNotations.
Open Scope Z_scope.
(* what the dictionary holds for two run-off members: the weight of the ballots that place x above y *)
Theorem star_pairwise_support votes members x y : NoDup members -> In x members -> In y members ->
  pget0 (star_pairwise votes members) (x, y) = support votes x y.
Proof. apply pairwise_count. Qed.

Lemma star_pairwise_nodup votes members : NoDup (map fst (star_pairwise votes members)).
Proof. apply pairwise_nodup. Qed.

(* some ballot orders x and y *)
Definition sep_pair (votes : sprofile) (x y : C) : bool :=
  existsb (fun bw : sballot * Z => prefers (fst bw) x y || prefers (fst bw) y x) votes.
(* ... for some other run-off member y *)
Definition separated (votes : sprofile) (members : list C) (x : C) : bool := existsb (sep_pair votes x) members.

(* the candidates Schulze sees are the run-off members some ballot separates from another member *)
Theorem star_candidates votes members x :
  In x (candidates (star_pairwise votes members)) <-> In x members /\ separated votes members x = true.
Proof.
  rewrite candidates_spec. unfold separated, sep_pair. rewrite existsb_exists. split.
  - intros (p & n & Hin & Hx).
    assert (Hk : In p (map fst (star_pairwise votes members))) by (apply in_map_iff; exists (p, n); auto).
    apply pairwise_keys in Hk. destruct Hk as (H1 & H2 & bw & Hbw & Hpr). destruct Hx as [->| ->].
    + split; [exact H1|]. exists (snd p). split; [exact H2|]. apply existsb_exists. exists bw. split; [exact Hbw|]. rewrite Hpr. reflexivity.
    + split; [exact H2|]. exists (fst p). split; [exact H1|]. apply existsb_exists. exists bw. split; [exact Hbw|]. rewrite Hpr. apply orb_true_r.
  - intros (Hx & y & Hy & Hs). apply existsb_exists in Hs. destruct Hs as (bw & Hbw & Hpr). apply orb_true_iff in Hpr.
    destruct Hpr as [Hpr|Hpr].
    + assert (Hk : In (x, y) (map fst (star_pairwise votes members))) by (apply pairwise_keys; cbn [fst snd]; eauto).
      apply in_map_iff in Hk. destruct Hk as ([p n] & Hp & Hin). cbn [fst] in Hp. subst p. exists (x, y), n. split; [exact Hin|left; reflexivity].
    + assert (Hk : In (y, x) (map fst (star_pairwise votes members))) by (apply pairwise_keys; cbn [fst snd]; eauto).
      apply in_map_iff in Hk. destruct Hk as ([p n] & Hp & Hin). cbn [fst] in Hp. subst p. exists (y, x), n. split; [exact Hin|right; reflexivity].
Qed.
Definition star_finalists (agg : list (C * Q)) (n : nat) : list C := star_members (get_n_best Qle_bool agg (n + 1)).
Definition star_contest (votes : sprofile) (agg : list (C * Q)) (n : nat) : list C :=
  filter (separated votes (star_finalists agg n)) (star_finalists agg n).
(* the class of known finding C08-star-short, decidable: fewer than n run-off members are separated by a ballot *)
Definition star_shortb (votes : sprofile) (agg : list (C * Q)) (n : nat) : bool :=
  Nat.ltb (length (star_contest votes agg n)) n.

Lemma star_members_in r c : In c (star_members r) <-> In (Cand c) r.
Proof.
  unfold star_members. rewrite in_flat_map. split.
  - intros ([c'|l] & Hin & Hc); [destruct Hc as [->|[]]; exact Hin|destruct Hc].
  - intros H. exists (Cand c). split; [exact H|left; reflexivity].
Qed.

Lemma star_members_nodup r : NoDup r -> NoDup (star_members r).
Proof.
  induction r as [|x r IH]; cbn [star_members flat_map]; intros H; [constructor|]. inversion H as [|? ? Hx Hn]; subst.
  destruct x as [c|l]; cbn [app]; [|apply IH, Hn]. constructor; [|apply IH, Hn].
  intros Hc. apply Hx. apply star_members_in. exact Hc.
Qed.

Lemma gnb_plain_nodup (agg : list (C * Q)) k : NoDup (map fst agg) -> NoDup (star_members (get_n_best Qle_bool agg k)).
Proof.
  intros Hnd. unfold get_n_best.
  assert (Hs : NoDup (map fst (sort_desc Qle_bool agg))).
  { eapply Permutation_NoDup; [apply Permutation_map, Permutation_sym, sort_desc_perm|exact Hnd]. }
  assert (Hf : forall j, NoDup (star_members (map (fun it : C * Q => Cand (fst it)) (firstn j (sort_desc Qle_bool agg))))).
  { intros j. assert (Hm : forall l : list (C * Q), star_members (map (fun it : C * Q => Cand (fst it)) l) = map fst l).
    { induction l as [|x l IHl]; [reflexivity|]. cbn [map star_members flat_map app]. f_equal. exact IHl. }
    rewrite Hm. rewrite <- (firstn_skipn j (sort_desc Qle_bool agg)), map_app in Hs. apply nodup_app_l in Hs. exact Hs. }
  assert (Ht : forall (l : list (res C)) T j, star_members (l ++ repeat (TieR T) j) = star_members l).
  { intros l T j. unfold star_members. rewrite flat_map_app.
    assert (H0 : flat_map (fun r : res C => match r with Cand c => [c] | TieR _ => [] end) (repeat (TieR T) j) = []) by (induction j; [reflexivity|assumption]).
    rewrite H0, app_nil_r. reflexivity. }
  destruct (Nat.ltb k (length (sort_desc Qle_bool agg))).
  - destruct (nth_error (sort_desc Qle_bool agg) (k - 1)) as [[c1 thr]|]; [|constructor].
    destruct (nth_error (sort_desc Qle_bool agg) k) as [[c2 nxt]|]; [|constructor].
    destruct (eqv Qle_bool nxt thr); [rewrite Ht|]; apply Hf.
  - specialize (Hf (length (sort_desc Qle_bool agg))). rewrite firstn_all in Hf. exact Hf.
Qed.

Lemma score_keys_nodup votes agg : score_to_simple star_cfg votes = inl agg -> NoDup (map fst agg).
Proof.
  unfold score_to_simple. destruct (corrected_scores star_cfg votes) as [sc|e] eqn:E; [|discriminate]. intros H.
  rewrite (aggregate_keys _ _ _ H). exact (corrected_scores_nodup _ _ _ E).
Qed.

Lemma schulze_keys v order :
  Permutation (map fst (fold_left sch_step (pairwise_wins (widest_paths v order) false) (map (fun c : C => (c, 0%Z)) (candidates v))))
              (candidates v).
Proof.
  assert (Hseed : map fst (map (fun c : C => (c, 0%Z)) (candidates v)) = candidates v) by (rewrite map_map; cbn [fst]; apply map_id).
  assert (Hsn : NoDup (map fst (map (fun c : C => (c, 0%Z)) (candidates v)))) by (rewrite Hseed; apply candidates_NoDup).
  destruct (sch_fold_keys (pairwise_wins (widest_paths v order) false) _ Hsn) as [Kn Kk].
  apply NoDup_Permutation; [exact Kn|apply candidates_NoDup|]. intros x. rewrite Kk, Hseed. split; [|tauto].
  intros [H|(p & Hp & H)]; [exact H|]. apply schulze_wins_in_cands in Hp. destruct H as [->| ->]; tauto.
Qed.

Lemma schulze_length v order n : (1 <= n)%nat -> length (schulze v order n) = Nat.min n (length (candidates v)).
Proof.
  intros Hn. rewrite schulze_unfold, (get_n_best_length zle_bool zle_total zle_trans _ _ Hn), <- (map_length fst), (Permutation_length (schulze_keys v order)).
  reflexivity.
Qed.

Lemma contest_perm votes agg n : NoDup (map fst agg) ->
  Permutation (candidates (star_pairwise votes (star_finalists agg n))) (star_contest votes agg n).
Proof.
  intros Hnd. apply NoDup_Permutation; [apply candidates_NoDup|apply NoDup_filter, gnb_plain_nodup, Hnd|].
  intros x. rewrite star_candidates. unfold star_contest. rewrite filter_In. tauto.
Qed.

(* STAR = Schulze over the run-off table; min(n, separated run-off members) entries; short exactly in the class, and there
   it lists just the separated members; otherwise a well-shaped selection of n among them *)
Theorem star_seats votes order agg n r : (1 <= n)%nat ->
  score_to_simple star_cfg votes = inl agg -> star votes order n = inl r ->
  let fin := star_finalists agg n in
  r = schulze (star_pairwise votes fin) order n /\
  NoDup fin /\
  length r = Nat.min n (length (star_contest votes agg n)) /\
  ((length r < n)%nat <-> star_shortb votes agg n = true) /\
  (star_shortb votes agg n = false -> nform (star_contest votes agg n) n r) /\
  (star_shortb votes agg n = true -> exists s, Permutation s (star_contest votes agg n) /\ r = map Cand s).
Proof.
  intros Hn Hagg. unfold star. rewrite Hagg. intros [= <-]. cbv zeta. fold (star_finalists agg n).
  set (fin := star_finalists agg n). set (pv := star_pairwise votes fin).
  pose proof (score_keys_nodup _ _ Hagg) as Hnd.
  pose proof (contest_perm votes agg n Hnd) as Hperm. fold fin in Hperm. fold pv in Hperm.
  pose proof (Permutation_length Hperm) as Hlen.
  split; [reflexivity|]. split; [apply gnb_plain_nodup, Hnd|].
  split; [rewrite (schulze_length _ _ _ Hn), Hlen; reflexivity|].
  split; [|split].
  - rewrite (schulze_length _ _ _ Hn), Hlen. unfold star_shortb. rewrite Nat.ltb_lt. lia.
  - unfold star_shortb. rewrite Nat.ltb_ge. intros Hge.
    apply (nform_incl (candidates pv)); [intros x Hx; eapply Permutation_in; [exact Hperm|exact Hx]|].
    apply schulze_nform. rewrite Hlen. lia.
  - unfold star_shortb. rewrite Nat.ltb_lt. intros Hlt. rewrite schulze_unfold.
    pose proof (schulze_keys pv order) as Hkeys. set (scores := fold_left _ _ _) in *.
    assert (Hsl : (length scores <= n)%nat) by (rewrite <- (map_length fst), (Permutation_length Hkeys), Hlen; lia).
    destruct (gnb_all zle_bool zle_total zle_trans scores n Hn Hsl) as (s & Hp & Hr).
    exists (map fst s). split; [|exact Hr].
    eapply Permutation_trans; [apply Permutation_map, Hp|]. eapply Permutation_trans; [exact Hkeys|exact Hperm].
Qed.
Lemma support_weights votes x y : (forall bw, In bw votes -> 0 < snd bw) ->
  0 <= support votes x y /\ (support votes x y = 0 -> forall bw, In bw votes -> prefers (fst bw) x y = false).
Proof.
  induction votes as [|bw votes IH]; intros Hw; [split; [discriminate|intros _ bw []]|]. rewrite support_cons.
  destruct IH as [I1 I2]; [intros bw' H; apply Hw; right; exact H|]. pose proof (Hw bw (or_introl eq_refl)) as H0.
  destruct (prefers (fst bw) x y) eqn:E; (split; [lia|]); intros Hz; [lia|].
  intros bw' [<-|H]; [exact E|apply I2; [lia|exact H]].
Qed.

(* one seat: the answer in every case (ballot weights positive) *)
Theorem star_single_exact votes agg : (forall bw, In bw votes -> 0 < snd bw) ->
  score_to_simple star_cfg votes = inl agg ->
  match get_n_best Qle_bool agg 2 with
  | [Cand a; Cand b] =>
      (support votes b a < support votes a b -> star_auto votes 1 = inl [Cand a]) /\
      (support votes a b < support votes b a -> star_auto votes 1 = inl [Cand b]) /\
      (support votes a b = support votes b a -> 0 < support votes a b ->
         star_auto votes 1 = inl [TieR [a; b]] \/ star_auto votes 1 = inl [TieR [b; a]]) /\
      (support votes a b = 0 -> support votes b a = 0 -> star_auto votes 1 = inl [])
  | _ => star_auto votes 1 = inl []
  end.
Proof.
  intros Hw Hagg.
  (* without two distinct finalists the run-off table is empty *)
  assert (Hlone : forall r, get_n_best Qle_bool agg 2 = r ->
            (forall x y, In x (star_members r) -> In y (star_members r) -> x = y) -> star_auto votes 1 = inl []).
  { intros r Er Hr. unfold star_auto, star. rewrite Hagg. change (1 + 1)%nat with 2%nat. rewrite Er. cbv zeta.
    rewrite (pairwise_single votes _ Hr). reflexivity. }
  assert (H1 : forall c x y : C, In x [c] -> In y [c] -> x = y) by (intros c x y [<-|[]] [<-|[]]; reflexivity).
  pose proof (gnb_plain_nodup agg 2 (score_keys_nodup _ _ Hagg)) as Hfin.
  assert (Hlen : (length (get_n_best Qle_bool agg 2) <= 2)%nat).
  { rewrite (get_n_best_length Qle_bool Qle_bool_total Qle_bool_trans agg 2) by lia. lia. }
  destruct (get_n_best Qle_bool agg 2) as [|r1 [|r2 [|r3 t]]] eqn:Eg; [| | |cbn [length] in Hlen; lia].
  - apply (Hlone _ eq_refl). intros x y [].
  - destruct r1 as [a|T]; apply (Hlone _ eq_refl); [apply H1|intros x y []].
  - destruct r1 as [a|T], r2 as [b|T'].
    2, 3: apply (Hlone _ eq_refl), H1.
    2: apply (Hlone _ eq_refl); intros x y [].
    cbn [star_members flat_map app] in Hfin.
    assert (Hab : a <> b) by (inversion Hfin as [|? ? Hx _]; subst; intros ->; apply Hx; left; reflexivity).
    assert (Hauto : star_auto votes 1 = star votes (candidates (star_pairwise votes [a; b])) 1)
      by (unfold star_auto; rewrite Hagg; change (1 + 1)%nat with 2%nat; rewrite Eg; reflexivity).
    rewrite Hauto, (star_duel votes _ agg a b Hagg Eg Hab (candidates_two votes a b)).
    destruct (support_weights votes a b Hw) as [Pa Za], (support_weights votes b a Hw) as [Pb Zb].
    unfold duel. split; [|split; [|split]].
    + intros Hlt. rewrite (proj2 (Z.ltb_lt _ _) Hlt), (proj2 (Z.ltb_lt 0 _)) by lia. reflexivity.
    + intros Hlt. rewrite (proj2 (Z.ltb_ge _ _)), (proj2 (Z.ltb_lt _ _) Hlt), (proj2 (Z.ltb_lt 0 _)) by lia. reflexivity.
    + intros Heq Hp. rewrite Heq, Z.ltb_irrefl. pose proof (pairwise_two_keys votes a b) as Hk.
      destruct (pairwise_support votes a b Hab) as [Sab _].
      destruct (star_pairwise votes [a; b]) as [|[p k] tl]; [cbn in Sab; lia|].
      destruct (Hk p (or_introl eq_refl)) as [->| ->]; [left|right]; reflexivity.
    + intros Ha0 Hb0. rewrite Ha0, Hb0, pairwise_nil; [reflexivity|].
      intros x y bw [<-|[<-|[]]] [<-|[<-|[]]] Hbw; auto using prefers_irrefl.
Qed.
(* being scored level (or both unscored) on one ballot is transitive *)
Lemma indiff_trans b x y z :
  prefers b x y = false -> prefers b y x = false -> prefers b y z = false -> prefers b z y = false ->
  prefers b x z = false /\ prefers b z x = false.
Proof.
  unfold prefers. destruct (dget b x) as [vx|] eqn:Ex, (dget b y) as [vy|] eqn:Ey, (dget b z) as [vz|] eqn:Ez;
    intros H1 H2 H3 H4; try discriminate;
    repeat match goal with
           | H : negb (Qle_bool _ _) = false |- _ => apply negb_false_iff, Qle_bool_iff in H
           | H : negb (ceqb _ _) = false |- _ => apply negb_false_iff, ceqb_eq in H
           end; subst; try (rewrite Ex in *); try (rewrite Ey in *); try discriminate.
  - split; apply negb_false_iff, Qle_bool_iff; eapply Qle_trans; eassumption.
  - split; reflexivity.
Qed.

Lemma existsb_false {X} (f : X -> bool) l : existsb f l = false -> forall x, In x l -> f x = false.
Proof.
  intros H x Hx. destruct (f x) eqn:E; [|reflexivity]. rewrite <- H. symmetry. apply existsb_exists. exists x. auto.
Qed.

Lemma separated_false votes members y : separated votes members y = false ->
  forall m bw, In m members -> In bw votes -> prefers (fst bw) y m = false /\ prefers (fst bw) m y = false.
Proof.
  intros H m bw Hm Hbw. apply orb_false_iff. exact (existsb_false _ _ (existsb_false _ _ H m Hm) bw Hbw).
Qed.

(* one separated member separates them all *)
Lemma separated_all votes members x y : In x members -> In y members ->
  separated votes members x = true -> separated votes members y = true.
Proof.
  intros Hx Hy Hs. destruct (separated votes members y) eqn:E; [reflexivity|exfalso].
  unfold separated, sep_pair in Hs. apply existsb_exists in Hs. destruct Hs as (z & Hz & Hs).
  apply existsb_exists in Hs. destruct Hs as (bw & Hbw & Hp).
  destruct (separated_false votes members y E x bw Hx Hbw) as (A1 & A2).
  destruct (separated_false votes members y E z bw Hz Hbw) as (B1 & B2).
  destruct (indiff_trans (fst bw) x y z A2 A1 B1 B2) as (C1 & C2). rewrite C1, C2 in Hp. discriminate.
Qed.

Theorem star_contest_all_or_none votes agg n :
  star_contest votes agg n = star_finalists agg n \/
  (star_contest votes agg n = [] /\
   forall x y bw, In x (star_finalists agg n) -> In y (star_finalists agg n) -> In bw votes -> prefers (fst bw) x y = false).
Proof.
  unfold star_contest. set (fin := star_finalists agg n).
  destruct (existsb (separated votes fin) fin) eqn:E.
  - left. apply existsb_exists in E. destruct E as (x & Hx & Hs). apply filter_all, Forall_forall.
    intros y Hy. exact (separated_all votes fin x y Hx Hy Hs).
  - right. pose proof (existsb_false _ _ E) as Hnone. split.
    + apply filter_none, Forall_forall, Hnone.
    + intros x y bw Hx Hy Hbw. exact (proj1 (separated_false votes fin x (Hnone x Hx) y bw Hy Hbw)).
Qed.

(* the short class in words: the finalist cut leaves fewer than n plain run-off members, or no ballot orders any two of them *)
Theorem star_short_iff votes agg n : (1 <= n)%nat ->
  (star_shortb votes agg n = true <->
   (length (star_finalists agg n) < n)%nat \/
   (forall x y bw, In x (star_finalists agg n) -> In y (star_finalists agg n) -> In bw votes -> prefers (fst bw) x y = false)).
Proof.
  intros Hn. unfold star_shortb. rewrite Nat.ltb_lt. split.
  - intros Hlt. destruct (star_contest_all_or_none votes agg n) as [E|(E & Hno)]; [left; rewrite <- E; exact Hlt|right; exact Hno].
  - intros [Hlt|Hno].
    + unfold star_contest. eapply Nat.le_lt_trans; [apply filter_len_le|exact Hlt].
    + assert (E : star_contest votes agg n = []).
      { unfold star_contest. apply filter_none, Forall_forall. intros u Hu.
        destruct (separated votes (star_finalists agg n) u) eqn:Es; [|reflexivity]. exfalso. unfold separated, sep_pair in Es.
        apply existsb_exists in Es. destruct Es as (z & Hz & Es). apply existsb_exists in Es. destruct Es as (bw & Hbw & Hp).
        rewrite (Hno u z bw Hu Hz Hbw), (Hno z u bw Hz Hu Hbw) in Hp. discriminate. }
      rewrite E. cbn [length]. lia.
Qed.
