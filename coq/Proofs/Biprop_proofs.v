(* Lemmas for property C07 (Model/Biprop.v): the certificate checker is sound and complete for the
   declarative statement of biproportionality. *)
From Coq Require Import ZArith QArith List Bool Lia Lqa.
From VL Require Import Prelude.PyDict Model.Divisor Model.HighestAverages Model.Biprop
     Proofs.QOrd Proofs.Dict_proofs Proofs.Divisor_proofs.
Import ListNotations.
Open Scope Z_scope.

(* In this file and every file importing it [simpl] leaves [zsum] folded: sums are opened by [zsum_cons] and [zsum_app],
   not into a [fold_left] with an accumulator. *)
Arguments zsum : simpl never.
Lemma zsum_swap {X Y} (f : X -> Y -> Z) (l : list X) (k : list Y) :
  zsum (map (fun x => zsum (map (fun y => f x y) k)) l) = zsum (map (fun y => zsum (map (fun x => f x y) l)) k).
Proof.
  induction l as [|x l IH]; simpl.
  - rewrite ?zsum_nil. induction k as [|y k IHk]; simpl; [reflexivity|]. rewrite zsum_cons, <- IHk. rewrite ?zsum_nil. reflexivity.
  - rewrite zsum_cons, IH. clear IH.
    induction k as [|y k IHk]; simpl; [rewrite ?zsum_nil; reflexivity|].
    rewrite !zsum_cons, <- IHk. lia.
Qed.
Lemma zsum_filter_le {X} (f : X -> Z) (p : X -> bool) l :
  (forall x, In x l -> 0 <= f x) -> zsum (map f (filter p l)) <= zsum (map f l).
Proof.
  intros H. induction l as [|x l IH]; simpl; [lia|].
  assert (0 <= f x) by (apply H; left; reflexivity).
  assert (zsum (map f (filter p l)) <= zsum (map f l)) by (apply IH; intros y Hy; apply H; right; exact Hy).
  destruct (p x); simpl; rewrite ?zsum_cons; lia.
Qed.
Lemma zsum_filter_eq {X} (f : X -> Z) (p : X -> bool) l :
  (forall x, In x l -> p x = false -> f x = 0) -> zsum (map f (filter p l)) = zsum (map f l).
Proof.
  intros H. induction l as [|x l IH]; simpl; [reflexivity|].
  assert (zsum (map f (filter p l)) = zsum (map f l)) as E by (apply IH; intros y Hy; apply H; right; exact Hy).
  destruct (p x) eqn:Ep; simpl; rewrite ?zsum_cons, E; [reflexivity|].
  rewrite (H x); [lia|left; reflexivity|exact Ep].
Qed.

Lemma dget_dremove {X} (t : list (C * X)) k k' :
  dget (dremove t k) k' = if ceqb k' k then None else dget t k'.
Proof.
  induction t as [|[k0 v0] t IH]; simpl.
  - destruct (ceqb k' k); reflexivity.
  - destruct (ceqb k k0) eqn:E; simpl.
    + apply ceqb_eq in E. subst k0. rewrite IH. destruct (ceqb k' k); reflexivity.
    + destruct (ceqb k' k0) eqn:E2; [|exact IH].
      apply ceqb_eq in E2. subst k0.
      assert (ceqb k' k = false) as ->; [|reflexivity].
      apply ceqb_neq. apply ceqb_neq in E. congruence.
Qed.
Lemma dget_In_key {X} (t : list (C * X)) k v : dget t k = Some v -> In k (map fst t).
Proof. intros H. apply dget_In in H. apply in_map_iff. exists (k, v). auto. Qed.

Lemma mget_stored (m : mat) i j : mget m i j <> 0 ->
  exists row kv, In row m /\ fst row = i /\ In kv (snd row) /\ fst kv = j.
Proof.
  unfold mget. destruct (dget m i) as [r|] eqn:E; [|congruence].
  unfold dget_or. destruct (dget r j) as [s|] eqn:E2; [|congruence]. intros _.
  exists (i, r), (j, s). repeat split; [apply dget_In, E|apply dget_In, E2].
Qed.

Lemma Qpos_b_iff x : Qpos_b x = true <-> (0 < x)%Q.
Proof.
  unfold Qpos_b. rewrite negb_true_iff. apply Qle_bool_false.
Qed.

Section Spec.
  Variable d : Z -> Q.

  (* s is a divisor-rule rounding of x *)
  Definition rounds (x : Q) (s : Z) : Prop :=
    0 <= s /\ (x <= d s)%Q /\ (0 < s -> (d (s - 1) <= x)%Q).

  Lemma rounds_b_iff x s : rounds_b d x s = true <-> rounds x s.
  Proof.
    unfold rounds_b, rounds. rewrite !andb_true_iff, orb_true_iff, Z.leb_le, !Qle_bool_iff, Z.eqb_eq.
    split.
    - intros [[H1 H2] H3]. repeat split; [exact H1|exact H2|]. intros Hs. destruct H3 as [H3|H3]; [lia|exact H3].
    - intros (H1 & H2 & H3). repeat split; [exact H1|exact H2|].
      destruct (Z.eq_dec s 0) as [E|E]; [left; exact E|right; apply H3; lia].
  Qed.

  Lemma cell_ok_iff v rho gamma s :
    cell_ok d v rho gamma s = true <-> (v = 0 -> s = 0) /\ rounds (quot v rho gamma) s.
  Proof.
    unfold cell_ok. rewrite andb_true_iff, rounds_b_iff. split; intros [H1 H2]; (split; [|exact H2]).
    - intros Hv. subst v. simpl in H1. apply Z.eqb_eq, H1.
    - destruct (v =? 0) eqn:E; [|reflexivity]. apply Z.eqb_eq, H1. apply Z.eqb_eq, E.
  Qed.

  (* with positive signposts a cell without votes can only round to 0 *)
  Lemma rounds_zero s : (forall k, 0 <= k -> (0 < d k)%Q) -> rounds 0 s -> s = 0.
  Proof.
    intros Hp (H0 & _ & H2). destruct (Z.eq_dec s 0) as [E|E]; [exact E|].
    assert (Hs : 0 < s) by lia. specialize (H2 Hs). specialize (Hp (s - 1) ltac:(lia)). lra.
  Qed.

  Variables ds ps : list C.
  Variable votes : mat.
  Variables dseats pseats : list (C * Z).

  (* the declarative statement for given multipliers *)
  Record spec_with (res : mat) (rho gamma : C -> Q) : Prop := {
    sp_rows : forall i, In i ds -> rowsum res ps i = dget_or dseats i 0;
    sp_cols : forall j, In j ps -> colsum res ds j = dget_or pseats j 0;
    sp_nonneg : forall i j, 0 <= mget res i j;
    sp_zero : forall i j, mget votes i j = 0 -> mget res i j = 0;
    sp_rho : forall i, In i ds -> (0 < rho i)%Q;
    sp_gamma : forall j, In j ps -> (0 < gamma j)%Q;
    sp_round : forall i j, In i ds -> In j ps ->
                 rounds (quot (mget votes i j) (rho i) (gamma j)) (mget res i j)
  }.
  (* the property: district totals, party totals, no seat without votes, and positive multipliers
     exist such that every cell is the rounding of votes x district multiplier x party multiplier *)
  Definition biprop_spec (res : mat) : Prop := exists rho gamma, spec_with res rho gamma.

  Lemma entries_ok_iff res :
    entries_ok votes res = true <->
    (forall i j, 0 <= mget res i j) /\ (forall i j, mget votes i j = 0 -> mget res i j = 0).
  Proof.
    unfold entries_ok. rewrite forallb_forall. split.
    - intros H. assert (K : forall i j, 0 <= mget res i j /\ (mget votes i j = 0 -> mget res i j = 0)).
      { intros i j. destruct (Z.eq_dec (mget res i j) 0) as [E|E]; [rewrite E; split; [lia|reflexivity]|].
        destruct (mget_stored res i j E) as (row & kv & Hr & Hi & Hk & Hj).
        specialize (H row Hr). rewrite forallb_forall in H. specialize (H kv Hk). rewrite Hi, Hj in H.
        apply andb_true_iff in H. destruct H as [H1 H2]. apply Z.leb_le in H1. split; [exact H1|].
        intros Hv. apply orb_true_iff in H2. destruct H2 as [H2|H2]; [apply Z.eqb_eq, H2|].
        rewrite Hv in H2. discriminate. }
      split; intros i j; apply K.
    - intros [H1 H2] row _. apply forallb_forall. intros kv _.
      apply andb_true_iff. split; [apply Z.leb_le, H1|].
      destruct (mget res (fst row) (fst kv) =? 0) eqn:E; [reflexivity|]. simpl.
      apply negb_true_iff. apply Z.eqb_neq. intros Hv. apply Z.eqb_neq in E. apply E, H2, Hv.
  Qed.

  Theorem cert_sound res rho gamma :
    cert_ok d ds ps votes dseats pseats res rho gamma = true -> spec_with res (mul rho) (mul gamma).
  Proof.
    unfold cert_ok. rewrite !andb_true_iff. intros [[[[Hr Hc] He] Hp] Hx].
    apply entries_ok_iff in He. destruct He as [He1 He2].
    unfold pos_ok in Hp. apply andb_true_iff in Hp. destruct Hp as [Hp1 Hp2].
    unfold rows_ok in Hr. unfold cols_ok in Hc. unfold cells_ok in Hx.
    rewrite forallb_forall in Hr, Hc, Hp1, Hp2, Hx.
    constructor.
    - intros i Hi. apply Z.eqb_eq, Hr, Hi.
    - intros j Hj. apply Z.eqb_eq, Hc, Hj.
    - exact He1.
    - exact He2.
    - intros i Hi. apply Qpos_b_iff, Hp1, Hi.
    - intros j Hj. apply Qpos_b_iff, Hp2, Hj.
    - intros i j Hi Hj. specialize (Hx i Hi). rewrite forallb_forall in Hx. specialize (Hx j Hj).
      apply cell_ok_iff in Hx. apply Hx.
  Qed.

  Theorem cert_complete res rho gamma :
    spec_with res (mul rho) (mul gamma) -> cert_ok d ds ps votes dseats pseats res rho gamma = true.
  Proof.
    intros [Hr Hc Hn Hz Hp1 Hp2 Hx]. unfold cert_ok. rewrite !andb_true_iff. repeat split.
    - apply forallb_forall. intros i Hi. apply Z.eqb_eq, Hr, Hi.
    - apply forallb_forall. intros j Hj. apply Z.eqb_eq, Hc, Hj.
    - apply entries_ok_iff. split; assumption.
    - apply andb_true_iff. split; apply forallb_forall; intros k Hk; apply Qpos_b_iff; auto.
    - apply forallb_forall. intros i Hi. apply forallb_forall. intros j Hj.
      apply cell_ok_iff. split; [apply Hz|apply Hx; assumption].
  Qed.

  (* multipliers given as functions can be tabulated *)
  Definition tab (f : C -> Q) (l : list C) : list (C * Q) := map (fun k => (k, f k)) l.
  Lemma mul_tab f l k : In k l -> mul (tab f l) k = f k.
  Proof.
    unfold mul, dget_or, tab. induction l as [|x l IH]; simpl; [tauto|].
    intros H. destruct (ceqb k x) eqn:E; [apply ceqb_eq in E; subst; reflexivity|].
    destruct H as [H|H]; [subst; rewrite ceqb_refl in E; discriminate|apply IH, H].
  Qed.

  Theorem cert_complete_ex res : biprop_spec res ->
    exists rho gamma, cert_ok d ds ps votes dseats pseats res rho gamma = true.
  Proof.
    intros (rho & gamma & [Hr Hc Hn Hz Hp1 Hp2 Hx]). exists (tab rho ds), (tab gamma ps).
    apply cert_complete. constructor; try assumption.
    - intros i Hi. rewrite mul_tab by exact Hi. auto.
    - intros j Hj. rewrite mul_tab by exact Hj. auto.
    - intros i j Hi Hj. rewrite !mul_tab by assumption. auto.
  Qed.
End Spec.
