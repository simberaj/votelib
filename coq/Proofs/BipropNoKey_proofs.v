(* Lemmas for property C07: NO KeyError.  From a state that satisfies the loop invariant and in which every district
   has a row in the seat matrix, with a target dictionary without foreign keys, an iteration of the whole-loop model
   (Model/BipropLoop.v) never stops with [BP_key_error]:
     1. the labelling search only reads rows of districts (quotients[d], result[d]);
     2. the label dictionaries point backwards: the party that labelled a district was itself labelled from a district that
        comes EARLIER in the district dictionary (rank = position), a start district is over-represented - so the path walk of
        _augment_result pops every set once, ends at an over-represented district and visits no district twice;
     3. along that path every cell that loses a seat is stored (it holds at least one seat), so the transfer goes through.
   The initial solution has a row for every district and placing the columns never misses one.
   The file ends with the other error results of [evaluate_core]: ValueError and the party tie come from the party
   marginal alone ([evaluate_core_marginal_errors]), a district tie is never returned ([evaluate_core_no_district_tie]). *)
From Coq Require Import ZArith QArith List Bool Lia Lqa Arith Permutation.
From VL Require Import Prelude.PyDict Model.Divisor Model.HighestAverages Model.Biprop Model.BipropLoop
     Proofs.Dict_proofs Proofs.Divisor_proofs Proofs.HA_proofs Proofs.HAMinmax_proofs Proofs.Biprop_proofs Proofs.Biprop_steps
     Proofs.BipropLoop_proofs Proofs.BipropInit_proofs Proofs.BipropProgress_proofs Proofs.BipropTerm_proofs Proofs.BipropFlow_proofs.
Import ListNotations.
Open Scope Z_scope.

Definition rows_ok (ds : list C) (res : mat) : Prop := forall i, In i ds -> exists row, dget res i = Some row.

Lemma dset_row_keeps (m : mat) i row ds : rows_ok ds m -> rows_ok ds (dset m i row).
Proof.
  intros H i' Hi'. rewrite dget_dset. destruct (ceqb i' i); [exists row; reflexivity|apply H, Hi'].
Qed.
Lemma cell_incr_rows ds m i j m' : rows_ok ds m -> cell_incr m i j = Some m' -> rows_ok ds m'.
Proof. unfold cell_incr. intros H. destruct (dget m i); [|discriminate]. intros [= <-]. apply dset_row_keeps, H. Qed.
Lemma cell_decr_rows ds m i j m' : rows_ok ds m -> cell_decr m i j = Some m' -> rows_ok ds m'.
Proof.
  unfold cell_decr. intros H. destruct (dget m i) as [row|]; [|discriminate]. destruct (dget row j); [|discriminate].
  intros [= <-]. apply dset_row_keeps, H.
Qed.
Lemma cell_set_rows ds m i j k m' : rows_ok ds m -> cell_set m i j k = Some m' -> rows_ok ds m'.
Proof. unfold cell_set. intros H. destruct (dget m i); [|discriminate]. intros [= <-]. apply dset_row_keeps, H. Qed.
Lemma augment_rows ds : forall hops m cur m', rows_ok ds m -> augment m cur hops = Some m' -> rows_ok ds m'.
Proof.
  induction hops as [|[p d'] t IH]; intros m cur m' H Ha; simpl in Ha; [injection Ha as <-; exact H|].
  destruct (cell_incr m cur p) as [m1|] eqn:E1; [|discriminate]. destruct (cell_decr m1 d' p) as [m2|] eqn:E2; [|discriminate].
  apply (IH m2 d' m'); [|exact Ha]. apply (cell_decr_rows ds m1 d' p m2); [|exact E2]. apply (cell_incr_rows ds m cur p m1 H E1).
Qed.

(* the sweeps do not fail when the rows they read exist *)
Lemma gsweep_some {V} (avail test : C -> C -> bool) (val : C -> V) inner outer :
  (forall o k, In o outer -> In k inner -> avail o k = true) ->
  forall L, exists L', gsweep avail test val outer inner (Some L) = Some L'.
Proof.
  intros H L. rewrite gsweep_pairs.
  assert (Hl : forall o k, In (o, k) (list_prod outer inner) -> avail o k = true).
  { intros o k Hok. apply in_prod_iff in Hok. apply H; apply Hok. }
  revert L. induction (list_prod outer inner) as [|[o k] t IH]; intros L; [exists L; reflexivity|]. cbn [fold_left fst snd gstep].
  rewrite (Hl o k (or_introl eq_refl)).
  destruct (dmem L k); [|destruct (test o k)]; apply IH; intros o' k' Hok; apply Hl; right; exact Hok.
Qed.

Section LabQ.
  Variable q : Q.
  Variable quots : qmat.
  Variable res : mat.
  Variables sp dl0 under over : list C.
  Hypothesis Hover : NoDup over.
  Hypothesis Hav : forall i, In i dl0 \/ In i over -> availd quots res i = true.

  Record QInv (LD : LDt) (LP : LPt) : Prop := {
    q_col : forall p i, dget LP p = Some i -> In i (map fst LD);
    q_row : forall i p, dget LD i = Some (Some p) ->
              exists i'', dget LP p = Some i'' /\ (idx i'' (map fst LD) < idx i (map fst LD))%nat;
    q_root : forall i, dget LD i = Some None -> In i over
  }.

  Lemma QInv_Back LD LP : QInv LD LP <-> Back over LD LP.
  Proof. split; intros [H1 H2 H3]; constructor; assumption. Qed.

  Lemma QInv_init : QInv (LD0 over) [].
  Proof. apply QInv_Back, Back_init. Qed.

  Lemma round_some LD LP : LInv q quots res sp dl0 over LD LP ->
    exists LP1 LD1,
      fold_left (fun acc i => fold_left (down_scan q quots res i) sp acc) (map fst LD) (Some LP) = Some LP1 /\
      fold_left (fun acc j => fold_left (up_scan q quots res j) dl0 acc) (map fst LP1) (Some LD) = Some LD1.
  Proof.
    intros I.
    destruct (gsweep_some (fun o _ => availd quots res o) (dtest q quots res) (fun o => o) sp (map fst LD)
                (fun o k Ho _ => Hav o (in_app_or _ _ _ (LInv_keysD _ _ _ _ _ _ _ _ I o Ho))) LP) as (LP1 & E1).
    destruct (gsweep_some (fun _ k => availd quots res k) (fun o k => utest q quots res k o) (fun o => Some o) dl0 (map fst LP1)
                (fun o k _ Hk => Hav k (or_introl Hk)) LD) as (LD1 & E2).
    exists LP1, LD1. split; [rewrite down_sweep_g; exact E1|rewrite up_sweep_g; exact E2].
  Qed.

  Lemma round_q LD LP LP1 LD1 : QInv LD LP ->
    fold_left (fun acc i => fold_left (down_scan q quots res i) sp acc) (map fst LD) (Some LP) = Some LP1 ->
    fold_left (fun acc j => fold_left (up_scan q quots res j) dl0 acc) (map fst LP1) (Some LD) = Some LD1 ->
    QInv LD1 LP1.
  Proof.
    intros Q H1 H2. rewrite down_sweep_g in H1. rewrite up_sweep_g in H2.
    apply QInv_Back. apply (Back_round _ _ _ _ _ _ _ _ _ _ _ (proj1 (QInv_Back LD LP) Q) H1 H2).
  Qed.

  Lemma lab_loop_q : forall fuel LD LP LD' LP', LInv q quots res sp dl0 over LD LP -> QInv LD LP ->
    lab_loop q fuel under sp dl0 quots res LD LP = Lab LD' LP' -> QInv LD' LP'.
  Proof.
    induction fuel as [|f IH]; intros LD LP LD' LP' I Q H; simpl in H; [discriminate|].
    destruct (fold_left (fun acc i => fold_left (down_scan q quots res i) sp acc) (map fst LD) (Some LP)) as [LP1|] eqn:E1; [|discriminate].
    destruct (fold_left (fun acc j => fold_left (up_scan q quots res j) dl0 acc) (map fst LP1) (Some LD)) as [LD1|] eqn:E2; [|discriminate].
    pose proof (round_q LD LP LP1 LD1 Q E1 E2) as Q1.
    destruct (round_spec q quots res sp dl0 over LD LP LP1 LD1 I E1 E2) as (I1 & _).
    destruct (existsb (fun i => cmem i under) (map fst LD1)); [injection H as <- <-; exact Q1|].
    destruct (Nat.eqb (length LD1 + length LP1) (length LD + length LP)); [injection H as <- <-; exact Q1|].
    apply (IH LD1 LP1 LD' LP' I1 Q1 H).
  Qed.

  Lemma lab_loop_nokey : forall fuel LD LP, LInv q quots res sp dl0 over LD LP ->
    lab_loop q fuel under sp dl0 quots res LD LP <> LabKeyError.
  Proof.
    induction fuel as [|f IH]; intros LD LP I; simpl; [discriminate|].
    destruct (round_some LD LP I) as (LP1 & LD1 & E1 & E2). rewrite E1, E2.
    destruct (round_spec q quots res sp dl0 over LD LP LP1 LD1 I E1 E2) as (I1 & _).
    destruct (existsb (fun i => cmem i under) (map fst LD1)); [discriminate|].
    destruct (Nat.eqb (length LD1 + length LP1) (length LD + length LP)); [discriminate|]. apply (IH LD1 LP1 I1).
  Qed.

  (* the path: every hop goes to a district of lower rank *)
  Fixpoint desc (LD : LDt) (LP : LPt) (cur : C) (hops : list (C * C)) : Prop :=
    match hops with
    | [] => True
    | (p, d') :: t => dget LD cur = Some (Some p) /\ dget LP p = Some d' /\
                      (idx d' (map fst LD) < idx cur (map fst LD))%nat /\ desc LD LP d' t
    end.

  Lemma walk_ok LD LP : QInv LD LP -> forall fuel cur seenD seenP,
    In cur (map fst LD) -> (idx cur (map fst LD) < fuel)%nat ->
    (forall x, In x seenD -> (idx cur (map fst LD) < idx x (map fst LD))%nat) ->
    (forall p', In p' seenP -> exists i', dget LP p' = Some i' /\ (idx cur (map fst LD) <= idx i' (map fst LD))%nat) ->
    exists hops, walk fuel LD LP over cur seenD seenP = WalkDone hops /\ desc LD LP cur hops.
  Proof.
    intros Q. induction fuel as [|f IH]; intros cur seenD seenP Hc Hf HsD HsP; [lia|]. cbn [walk].
    destruct (cmem cur over) eqn:Eo; [exists []; split; [reflexivity|exact I]|].
    assert (EsD : cmem cur seenD = false).
    { destruct (cmem cur seenD) eqn:E; [|reflexivity]. apply cmem_In in E. specialize (HsD cur E). lia. }
    rewrite EsD.
    assert (Hd : exists x, dget LD cur = Some x).
    { apply dmem_keys in Hc. unfold dmem in Hc. destruct (dget LD cur) as [x|]; [exists x; reflexivity|discriminate]. }
    destruct Hd as ([p|] & Hd); rewrite Hd.
    - destruct (q_row _ _ Q cur p Hd) as (i'' & Hp & Hlt).
      assert (EsP : cmem p seenP = false).
      { destruct (cmem p seenP) eqn:E; [|reflexivity]. apply cmem_In in E. destruct (HsP p E) as (i' & Hi' & Hle).
        rewrite Hp in Hi'. injection Hi' as <-. lia. }
      rewrite EsP, Hp.
      destruct (IH i'' (cur :: seenD) (p :: seenP)) as (hops & Ew & Hdesc).
      + apply (q_col _ _ Q p i'' Hp).
      + lia.
      + intros x [<-|Hx]; [exact Hlt|]. specialize (HsD x Hx). lia.
      + intros p' [<-|Hp']; [exists i''; split; [exact Hp|lia]|]. destruct (HsP p' Hp') as (i' & Hi' & Hle). exists i'. split; [exact Hi'|lia].
      + rewrite Ew. exists ((p, i'') :: hops). split; [reflexivity|]. cbn [desc]. auto.
    - exfalso. pose proof (q_root _ _ Q cur Hd) as Hin. apply cmem_In in Hin. congruence.
  Qed.

  Lemma desc_lower LD LP : forall hops cur, desc LD LP cur hops ->
    forall p d', In (p, d') hops -> (idx d' (map fst LD) < idx cur (map fst LD))%nat.
  Proof.
    induction hops as [|[p0 d0] t IH]; intros cur H p d' Hin; [destruct Hin|].
    cbn [desc] in H. destruct H as (_ & _ & Hlt & Ht). destruct Hin as [E|Hin]; [injection E as <- <-; exact Hlt|].
    specialize (IH d0 Ht p d' Hin). lia.
  Qed.
End LabQ.

Lemma idx_neq (l : list C) a b : (idx a l < idx b l)%nat -> a <> b.
Proof. intros H ->. lia. Qed.

Section AugOk.
  Variable q : Q.
  Variable quots : qmat.
  Variable res : mat.
  Variable sp : list C.
  Variable LD : LDt.
  Variable LP : LPt.
  Hypothesis HP : LPok q quots res sp LP.

  Lemma augment_ok : forall hops mcur cur, desc LD LP cur hops ->
    (exists row, dget mcur cur = Some row) ->
    (forall p d', In (p, d') hops -> dget mcur d' = dget res d') ->
    exists m', augment mcur cur hops = Some m'.
  Proof.
    induction hops as [|[p d'] t IH]; intros mcur cur Hdesc (row & Hrow) Hag; [exists mcur; reflexivity|].
    cbn [desc] in Hdesc. destruct Hdesc as (HLD & HLP & Hlt & Ht). cbn [augment].
    unfold cell_incr. rewrite Hrow.
    set (m1 := dset mcur cur (dset row p (dget_or row p 0 + 1))).
    assert (Hne : d' <> cur) by (apply (idx_neq (map fst LD)); exact Hlt).
    assert (E1 : dget m1 d' = dget res d').
    { unfold m1. rewrite dget_dset. assert (ceqb d' cur = false) as -> by (apply ceqb_neq; exact Hne). apply (Hag p d'). left. reflexivity. }
    destruct (HP p d' (dget_In _ _ _ HLP)) as (_ & qrow & rrow & _ & Er & Hdown).
    apply downgradable_spec in Hdown. destruct Hdown as [_ Hs1].
    assert (Es : exists s, dget rrow p = Some s).
    { unfold dget_or in Hs1. destruct (dget rrow p) as [s|]; [exists s; reflexivity|lia]. }
    destruct Es as (s & Es).
    unfold cell_decr. rewrite E1, Er, Es.
    set (m2 := dset m1 d' (if s - 1 =? 0 then dremove rrow p else dset rrow p (s - 1))).
    apply (IH m2 d' Ht).
    - unfold m2. rewrite dget_dset, ceqb_refl. eexists. reflexivity.
    - intros p2 d2 Hin. pose proof (desc_lower LD LP t d' Ht p2 d2 Hin) as Hlt2.
      assert (Hn1 : d2 <> d') by (apply (idx_neq (map fst LD)); exact Hlt2).
      assert (Hn2 : d2 <> cur) by (apply (idx_neq (map fst LD)); lia).
      unfold m2, m1. rewrite !dget_dset.
      assert (ceqb d2 d' = false) as -> by (apply ceqb_neq; exact Hn1).
      assert (ceqb d2 cur = false) as -> by (apply ceqb_neq; exact Hn2).
      apply (Hag p2 d2). right. exact Hin.
  Qed.
End AugOk.

Section StepNoKey.
  Variable q : Q.
  Variable votes : mat.
  Hypothesis Hwf : wf_votes votes.
  Variable tgt : list (C * Z).
  Variable dorder : list C.
  Hypothesis Hdo : NoDup dorder.
  Hypothesis Hdo2 : incl dorder (districts votes).
  Notation ds := (districts votes).
  Notation ps := (parties votes).
  Notation quots s := (calc_quots votes (b_rho s) (b_gamma s)).

  (* after the search the path walk from a labelled start district ends *)
  Lemma walk_some s under over LD LP start rest : NoDup over ->
    labeled q ps ds (quots s) (b_res s) under over = Lab LD LP ->
    sort_pos (filter (fun i => dmem LD i) under) = start :: rest ->
    In start (map fst LD) /\ exists hops, walk (S (length LD)) LD LP over start [] [] = WalkDone hops /\ desc LD LP start hops.
  Proof.
    intros Hov El Es.
    assert (Hst : In start (map fst LD)).
    { assert (H : In start (start :: rest)) by (left; reflexivity). rewrite <- Es in H. apply sort_pos_in, filter_In in H. apply dmem_keys, H. }
    split; [exact Hst|].
    unfold labeled in El. change (map (fun i => (i, @None C)) over) with (LD0 over) in El.
    pose proof (lab_loop_q q (quots s) (b_res s) (sort_pos ps) ds under over _ _ _ _ _
                  (LInv_init q (quots s) (b_res s) (sort_pos ps) ds over Hov) (QInv_init over) El) as Q.
    apply (walk_ok over LD LP Q (S (length LD)) start [] [] Hst).
    - pose proof (idx_lt start _ Hst) as H1. rewrite map_length in H1. lia.
    - intros x [].
    - intros p' [].
  Qed.

  Lemma bstep_body_nokey s under over : rows_ok ds (b_res s) -> NoDup over -> incl over ds ->
    bstep_body q votes s under over <> Stop BP_key_error.
  Proof.
    intros HR Hov Hin.
    destruct (bstep_body_case q votes s under over) as [El| |LD LP start rest El Es Ew| |LD LP start rest hops El Es Ew Eg| | | | ];
      try discriminate; exfalso.
    - revert El. unfold labeled. change (map (fun i => (i, @None C)) over) with (LD0 over).
      apply (lab_loop_nokey q (quots s) (b_res s) (sort_pos ps) ds under over); [|apply LInv_init, Hov].
      (* the rows the search reads exist *)
      intros i Hi. assert (Hi' : In i ds) by (destruct Hi as [Hi|Hi]; [exact Hi|apply Hin, Hi]).
      unfold availd. pose proof (calc_quots_row votes (b_rho s) (b_gamma s) i) as Hq. destruct (HR i Hi') as (row & ->).
      destruct (dget (quots s) i); [reflexivity|]. destruct (dget votes i) eqn:E; [contradiction|]. exfalso. apply (dget_none_notin _ _ E Hi').
    - destruct (walk_some s under over LD LP start rest Hov El Es) as (_ & hops & Ew' & _). congruence.
    - destruct (walk_some s under over LD LP start rest Hov El Es) as (Hst & hops' & Ew' & Hdesc). rewrite Ew in Ew'. injection Ew' as <-.
      destruct (labeled_spec q votes _ _ _ _ _ _ Hov El) as [LI _].
      assert (Hsd : In start ds).
      { apply (LInv_keysD _ _ _ _ _ _ _ _ LI), in_app_or in Hst. destruct Hst as [H|H]; [exact H|apply Hin, H]. }
      destruct (augment_ok q (quots s) (b_res s) (sort_pos ps) LD LP (proj2 (labeled_ok q _ _ _ _ _ _ _ _ El)) hops (b_res s) start
                  Hdesc (HR start Hsd) (fun _ _ _ => eq_refl)) as (m' & Ea).
      congruence.
  Qed.

  Lemma bstep_nokey s : rows_ok ds (b_res s) -> bstep q votes tgt dorder s <> Stop BP_key_error.
  Proof.
    intros HR. destruct (bstep_unfold q votes tgt dorder s) as [[_ ->]|[_ ->]]; [discriminate|].
    apply bstep_body_nokey; [exact HR|apply NoDup_filter, Hdo|]. intros i Hi. apply filter_In in Hi. apply Hdo2, Hi.
  Qed.

  Lemma bstep_rows s s' : rows_ok ds (b_res s) -> bstep q votes tgt dorder s = Next s' -> rows_ok ds (b_res s').
  Proof.
    intros HR. destruct (bstep_unfold q votes tgt dorder s) as [[_ ->]|[_ ->]]; [discriminate|].
    destruct (bstep_body_case q votes s (fst (unsat dorder (b_res s) tgt)) (snd (unsat dorder (b_res s) tgt))) as [ | | | | |LD LP start rest hops res' _ _ _ Eg| | |LD LP a _ _ _ _]; intros Hs'; try discriminate Hs'; injection Hs' as <-.
    - apply (augment_rows ds hops (b_res s) start res' HR Eg).
    - exact HR.
  Qed.

  Lemma bloop_nokey fuel s : rows_ok ds (b_res s) -> bloop q votes tgt dorder fuel s <> BP_key_error.
  Proof.
    intros HR H.
    destruct (bloop_last q votes tgt dorder (fun s => rows_ok ds (b_res s))) with (fuel := fuel) (s := s) as [E|(s' & HR' & [[_ E]|E])];
      [|exact HR|rewrite H in E; discriminate|rewrite H in E; discriminate|rewrite H in E; apply (bstep_nokey s' HR' E)].
    intros s0 HR0. pose proof (bstep_rows s0) as Hr. destruct (bstep q votes tgt dorder s0); try exact I. apply (Hr _ HR0 eq_refl).
  Qed.
End StepNoKey.

Lemma set_fold_rows ds j : forall gains m, (forall ik, In ik gains -> In (fst ik) ds) -> rows_ok ds m ->
  exists m', set_fold j gains (Some m) = Some m' /\ rows_ok ds m'.
Proof.
  induction gains as [|[i k0] gains IH]; intros m Hk HR; [exists m; split; [reflexivity|exact HR]|].
  unfold set_fold. simpl. fold (set_fold j gains (cell_set m i j k0)).
  destruct (HR i (Hk (i, k0) (or_introl eq_refl))) as (row & Er).
  assert (E : cell_set m i j k0 = Some (dset m i (dset row j k0))) by (unfold cell_set; rewrite Er; reflexivity).
  rewrite E. apply IH; [intros ik Hik; apply Hk; right; exact Hik|]. apply (cell_set_rows ds m i j k0 _ HR E).
Qed.
Lemma incr_fold_rows ds j : forall sel m, (forall i, In i sel -> In i ds) -> rows_ok ds m ->
  exists m', incr_fold j sel (Some m) = Some m' /\ rows_ok ds m'.
Proof.
  induction sel as [|i sel IH]; intros m Hk HR; [exists m; split; [reflexivity|exact HR]|].
  unfold incr_fold. simpl. fold (incr_fold j sel (cell_incr m i j)).
  destruct (HR i (Hk i (or_introl eq_refl))) as (row & Er).
  assert (E : cell_incr m i j = Some (dset m i (dset row j (dget_or row j 0 + 1)))) by (unfold cell_incr; rewrite Er; reflexivity).
  rewrite E. apply IH; [intros x Hx; apply Hk; right; exact Hx|]. apply (cell_incr_rows ds m i j _ HR E).
Qed.

Section InitNoKey.
  Variable d : Z -> Q.
  Variables q k : Q.
  Hypothesis Hq1 : (q < 1)%Q.
  Hypothesis Hk : (0 < k)%Q.
  Hypothesis Hd : forall s, (d s == k * (inject_Z s + 1 - q))%Q.
  Variable votes : mat.
  Hypothesis Hwf : wf_votes votes.
  Hypothesis Hvnn : forall i j, 0 <= mget votes i j.
  Notation ds := (districts votes).

  Lemma empty_solution_rows : rows_ok ds (empty_solution votes).
  Proof.
    intros i Hi. unfold empty_solution. rewrite (dget_map_keyed (fun _ (_ : list (C * Z)) => @nil (C * Z)) votes i).
    destruct (dget votes i) eqn:E; [eexists; reflexivity|]. exfalso. apply (dget_none_notin _ _ E Hi).
  Qed.

  Lemma init_fold_rows : forall todo sol p0, rows_ok ds sol -> (forall j nj, In (j, nj) todo -> 0 < nj) ->
    match fold_left (init_column d votes) todo (Init_ok sol p0) with
    | Init_ok sol' _ => rows_ok ds sol'
    | Init_key_error => False
    | _ => True
    end.
  Proof.
    induction todo as [|[j nj] todo IH]; intros sol p0 HR Hpos; [exact HR|]. simpl.
    pose proof (Hpos j nj (or_introl eq_refl)) as Hnj.
    destruct (evaluate d (column votes j) nj [] []) as [g t|] eqn:Ee.
    2:{ rewrite init_fold_err by (intros; discriminate). exact I. }
    destruct (column_ok d q k Hq1 Hk Hd votes Hwf Hvnn j nj g t Hnj Ee) as ((Hnn & Hout & _ & _) & Hgn & _).
    destruct (evaluate_ok _ _ _ _ _ Ee) as (_ & _ & _ & _ & Hgp).
    assert (Hgk : forall ik, In ik g -> In (fst ik) ds).
    { intros [i k0] Hin. cbn [fst]. destruct (in_dec Pos.eq_dec i ds) as [Hi|Hi]; [exact Hi|exfalso].
      pose proof (Hout i Hi) as H0. unfold col_alloc in H0. unfold dget_or in H0. rewrite (In_dget _ _ _ Hgn Hin) in H0.
      pose proof (all_pos_in _ _ _ Hgp Hin). destruct (cmem i (tie_sel t)); lia. }
    assert (Htk : forall i, In i (tie_sel t) -> In i ds).
    { intros i Hin. destruct (in_dec Pos.eq_dec i ds) as [Hi|Hi]; [exact Hi|exfalso].
      pose proof (Hout i Hi) as H0. unfold col_alloc in H0. apply cmem_In in Hin. rewrite Hin in H0.
      assert (0 <= dget_or g i 0).
      { unfold dget_or. destruct (dget g i) as [v|] eqn:E; [|lia]. pose proof (all_pos_in _ _ _ Hgp (dget_In _ _ _ E)). lia. }
      lia. }
    rewrite place_column_folds.
    destruct (set_fold_rows ds j g sol Hgk HR) as (m1 & E1 & R1). rewrite E1.
    destruct (incr_fold_rows ds j (tie_sel t) m1 Htk R1) as (m2 & E2 & R2). rewrite E2.
    apply IH; [exact R2|]. intros j0 n0 H0. apply (Hpos j0 n0). right. exact H0.
  Qed.

  Lemma binit_rows n : match binit d q votes n with
                       | inr s => rows_ok ds (b_res s)
                       | inl e => e <> BP_key_error
                       end.
  Proof.
    unfold binit, initial_solution.
    destruct (evaluate d (party_totals votes) n [] []) as [pseats [tie|]|] eqn:Ep; try discriminate.
    destruct (evaluate_ok _ _ _ _ _ Ep) as (_ & _ & _ & _ & Hgp).
    pose proof (init_fold_rows pseats (empty_solution votes) pseats empty_solution_rows (fun j nj H => all_pos_in _ _ _ Hgp H)) as H.
    destruct (fold_left (init_column d votes) pseats (Init_ok (empty_solution votes) pseats)); try discriminate; [exact H|destruct H].
  Qed.
End InitNoKey.

Theorem evaluate_core_nokey d q k votes tgt dorder strict n fuel :
  (q < 1)%Q -> (0 < k)%Q -> (forall s, d s == k * (inject_Z s + 1 - q))%Q ->
  wf_votes votes -> (forall i j, 0 <= mget votes i j) -> NoDup dorder -> incl dorder (districts votes) ->
  evaluate_core d q votes tgt dorder strict n fuel <> BP_key_error.
Proof.
  intros Hq1 Hk Hd Hwf Hv Hdo Hdo2. unfold evaluate_core. destruct (refuses_empty votes strict); [discriminate|].
  pose proof (binit_rows d q k Hq1 Hk Hd votes Hwf Hv n) as H.
  destruct (binit d q votes n) as [e|s]; [exact H|]. apply (bloop_nokey q votes tgt dorder Hdo Hdo2 fuel s H).
Qed.

Lemma evaluate_nonempty d (vs : list (C * Q)) n : vs <> [] -> 0 < n -> (0 < d 0%Z)%Q -> evaluate d vs n [] [] <> HA_value_error.
Proof.
  intros Hne Hn Hd0. unfold evaluate.
  pose proof (initial_quotients_nonempty d vs n Hd0 Hn Hne) as Hq.
  destruct (initial_quotients d vs [] [] n); [contradiction|discriminate].
Qed.

Lemma init_fold_marginal d votes : votes <> [] -> (0 < d 0%Z)%Q -> forall todo sol p0, (forall j nj, In (j, nj) todo -> 0 < nj) ->
  match fold_left (init_column d votes) todo (Init_ok sol p0) with
  | Init_value_error | Init_party_tie => False
  | _ => True
  end.
Proof.
  intros Hne Hd0. induction todo as [|[j nj] todo IH]; intros sol p0 Hpos; [exact I|]. simpl.
  pose proof (Hpos j nj (or_introl eq_refl)) as Hnj.
  assert (Hcol : column votes j <> []) by (unfold column; destruct votes; [contradiction|discriminate]).
  pose proof (evaluate_nonempty d (column votes j) nj Hcol Hnj Hd0) as Hev.
  destruct (evaluate d (column votes j) nj [] []) as [g t|]; [|contradiction].
  destruct (place_column sol j g t) as [sol1|].
  - apply IH. intros j0 n0 H0. apply (Hpos j0 n0). right. exact H0.
  - rewrite init_fold_err by (intros; discriminate). exact I.
Qed.

(* a ValueError or a Tie can only come from the apportionment of the party seats: then there is no tie-free party marginal
   (outside the property's quantifier) *)
Theorem evaluate_core_marginal_errors d q votes tgt dorder strict n fuel : (0 < d 0%Z)%Q ->
  evaluate_core d q votes tgt dorder strict n fuel = BP_value_error \/
  evaluate_core d q votes tgt dorder strict n fuel = BP_party_tie ->
  ha_marginal d (party_totals votes) n = None.
Proof.
  intros Hd0. unfold evaluate_core. destruct (refuses_empty votes strict); [intros [H|H]; discriminate|].
  unfold binit, initial_solution, ha_marginal.
  destruct (evaluate d (party_totals votes) n [] []) as [pseats [tie|]|] eqn:Ep; try reflexivity.
  intros H. exfalso.
  destruct votes as [|row votes'] eqn:Ev.
  { unfold party_totals, parties in Ep. simpl in Ep. unfold evaluate in Ep. simpl in Ep. discriminate. }
  rewrite <- Ev in *.
  destruct (evaluate_ok _ _ _ _ _ Ep) as (_ & _ & _ & _ & Hgp).
  pose proof (init_fold_marginal d votes ltac:(rewrite Ev; discriminate) Hd0 pseats (empty_solution votes) pseats (fun j nj Hin => all_pos_in _ _ _ Hgp Hin)) as Hf.
  destruct (fold_left (init_column d votes) pseats (Init_ok (empty_solution votes) pseats)) as [sol p1| | |] eqn:Ef; try contradiction.
  - set (s0 := mk_bstate sol (initial_district_coefs votes) (initial_party_coefs q votes sol)) in *.
    destruct (bloop_kinds q votes tgt dorder fuel s0 _ eq_refl) as [(r1 & r2 & r3 & E)|[E|[E|[E|(a & E)]]]];
      destruct H as [H|H]; rewrite H in E; discriminate.
  - destruct H as [H|H]; discriminate.
Qed.

Lemma evaluate_core_no_district_tie d q votes tgt dorder strict n fuel :
  evaluate_core d q votes tgt dorder strict n fuel <> BP_district_tie.
Proof.
  unfold evaluate_core. destruct (refuses_empty votes strict); [discriminate|].
  destruct (binit d q votes n) as [e|s] eqn:Ei.
  - destruct (binit_errors _ _ _ _ _ Ei) as [-> | [-> | ->]]; discriminate.
  - intros H. destruct (bloop_kinds q votes tgt dorder fuel s _ eq_refl) as [(r1 & r2 & r3 & E)|[E|[E|[E|(a & E)]]]]; rewrite H in E; discriminate.
Qed.
