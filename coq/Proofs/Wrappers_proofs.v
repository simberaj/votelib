(* Lemmas about Model/Wrappers.v: nested induction over wrapper trees, extensionality of the
   result monad, the binding facts of each core.py signature, the composition theorem. *)
From Coq Require Import ZArith List Bool.
From VL Require Import Model.Wrappers Proofs.WrapParts_proofs.
Import ListNotations.
Open Scope Z_scope.

Definition parts (t : ev) : list ev :=
  match t with
  | Leaf _ _ => []
  | PreConv _ e | PostConv e _ | Fixed e _ | ByCons e _ | PreApp e _ | RemApp e | ByPartyS e | PListC e | VSys e
  | AdjLeaf _ e => [e]
  | Cond a b _ | ByConsD a b | PreAppD a b | ByParty a b | TieBr a b | PListO a b _ | AdjAllow a b | AdjLevel a b _
  | ByConsP a _ b | AdjLevelC0 a b _ => [a; b]
  | AdjLevelC a b c _ => [a; b; c]
  | Multi rs _ | Unused rs _ _ => rs
  end.

Fixpoint all (P : ev -> Prop) (l : list ev) : Prop :=
  match l with [] => True | x :: r => P x /\ all P r end.

Lemma all_In : forall P l, all P l -> forall x, In x l -> P x.
Proof. induction l as [|y l IH]; intros H x Hx; [destruct Hx|]. destruct Hx as [<-|Hx], H as [Hy Hl]; auto. Qed.

Lemma ev_ind' : forall P : ev -> Prop, (forall t, all P (parts t) -> P t) -> forall t, P t.
Proof.
  intros P H. fix IH 1. intro t. apply H.
  destruct t; cbn [parts all]; repeat split; try apply IH; induction rs; cbn [all]; auto.
Qed.

(* [H : b1 && ... && bn = true] becomes one hypothesis for each conjunct *)
Ltac split_andb H :=
  repeat match type of H with _ && _ = true => let H' := fresh in apply andb_prop in H; destruct H as [H H'] end.

Lemma rbind_ext : forall {X Y} (m : res X) (f g : X -> res Y),
  (forall x, f x = g x) -> m >>= f = m >>= g.
Proof. intros X Y [x|e] f g H; simpl; auto. Qed.

Lemma rbind_eq : forall {X Y} (m m' : res X) (f g : X -> res Y),
  m = m' -> (forall x, f x = g x) -> m >>= f = m' >>= g.
Proof. intros X Y m m' f g <- H. apply rbind_ext. exact H. Qed.

Lemma rbind_arg : forall {X Y} (m m' : res X) (f : X -> res Y), m = m' -> m >>= f = m' >>= f.
Proof. intros X Y m m' f <-. reflexivity. Qed.

Lemma map_res_ext : forall {X Y} (f g : X -> res Y) l,
  (forall x, f x = g x) -> map_res f l = map_res g l.
Proof.
  intros X Y f g l H. induction l as [|x t IH]; simpl; [reflexivity|].
  rewrite H, IH. reflexivity.
Qed.

Lemma fold_left_ext : forall {A B} (f g : A -> B -> A) l a,
  (forall a b, f a b = g a b) -> fold_left f l a = fold_left g l a.
Proof.
  intros A B f g l. induction l as [|x t IH]; intros a H; simpl; [reflexivity|].
  rewrite H. apply IH. exact H.
Qed.

Lemma break_ties_g_ext : forall s1 s2 f g votes main,
  (forall v x, s1 v x = s2 v x) -> (forall sub n, f sub n = g sub n) ->
  break_ties_g s1 f votes main = break_ties_g s2 g votes main.
Proof.
  intros s1 s2 f g votes main Hs H. unfold break_ties_g.
  (* a selection and a distribution are treated alike *)
  destruct main as [| | |l|d|]; try reflexivity; (destruct (existsb _ _); [|reflexivity]);
    apply rbind_ext; intro ties; apply rbind_arg; apply fold_left_ext; intros a b;
    apply rbind_ext; intro cur; rewrite Hs; apply rbind_ext; intro sub; rewrite H; reflexivity.
Qed.

Lemma break_ties_ext : forall f g votes main,
  (forall sub n, f sub n = g sub n) -> break_ties f votes main = break_ties g votes main.
Proof. intros f g votes main H. unfold break_ties. apply break_ties_g_ext; [reflexivity|exact H]. Qed.

(* the declarative parts of the spec side = the code-shaped parts *)
Lemma break_ties_s : forall f g votes main,
  (forall sub n, f sub n = g sub n) -> break_ties f votes main = break_ties_g subset_s g votes main.
Proof.
  intros f g votes main H. unfold break_ties. apply break_ties_g_ext; [|exact H].
  intros v x. symmetry. apply subset_s_eq.
Qed.

Lemma sum_party_s : forall d v, sum_party_g totals_s d v = sum_party d v.
Proof.
  unfold sum_party. induction d as [|d IH]; intro v; cbn [sum_party_g]; [reflexivity|].
  apply rbind_ext. intro dd.
  rewrite (map_res_ext _ (fun kv => sum_party_g vote_totals d (snd kv) >>= fun x => Ok (fst kv, x)))
    by (intro kv; rewrite IH; reflexivity).
  apply rbind_ext. intro dd'. apply totals_s_eq.
Qed.

Lemma party_votes_s : forall d p, party_votes_g subset_s d p = party_votes d p.
Proof.
  intros d p. unfold party_votes, party_votes_g. apply rbind_arg. apply map_res_ext. intro kv.
  rewrite subset_s_eq. reflexivity.
Qed.

Lemma elim_party_map_depth : forall d v ne,
  elim_party d v ne = map_depth d (fun x => subset_s x ne) v.
Proof.
  induction d as [|d IH]; intros v ne; simpl; [symmetry; apply subset_s_eq|].
  apply rbind_ext. intro dd. apply rbind_arg. apply map_res_ext. intro kv. rewrite IH. reflexivity.
Qed.

Lemma opt_takes : forall (o : option val) b,
  (match o with Some _ => b | None => true end) = true <-> (o = None \/ b = true).
Proof.
  intros o b. destruct o, b; simpl; split; intro H; auto; try discriminate H;
    destruct H as [H|H]; discriminate H.
Qed.

Lemma fits_split : forall t s p m pl lv cl,
  fits t (KW s p m pl lv cl) = true <->
  (s = None \/ takes t KSeats = true) /\ (p = None \/ takes t KPrev = true) /\ (m = None \/ takes t KMax = true) /\
  (pl = None \/ takes t KPl = true) /\ (lv = None \/ takes t KLv = true) /\ (cl = None \/ takes t KCl = true).
Proof.
  intros t s p m pl lv cl. unfold fits. cbn [forallb all_kw kget k_seats k_prev k_max k_pl k_lv k_cl]. split.
  - intro H. do 6 (apply andb_prop in H; destruct H as [?H H]). repeat split; apply opt_takes; assumption.
  - intros (H1 & H2 & H3 & H4 & H5 & H6). apply opt_takes in H1, H2, H3, H4, H5, H6.
    rewrite H1, H2, H3, H4, H5, H6. reflexivity.
Qed.

(* the wrappers with the signature (votes, n_seats, prev_gains, max_seats) are given nothing else *)
Lemma fits_spm : forall t sa, fits t sa = true -> takes t KPl = false -> takes t KLv = false -> takes t KCl = false ->
  exists s p m, sa = KW s p m None None None.
Proof.
  intros t [s p m pl lv cl] Hf H4 H5 H6. apply fits_split in Hf. rewrite H4, H5, H6 in Hf.
  destruct Hf as (_ & _ & _ & [-> | H4'] & [-> | H5'] & [-> | H6']); try discriminate. eauto.
Qed.

Lemma fits_npm : forall e n p m, takes_spm e = true -> fits e (sa_npm n p m) = true.
Proof.
  intros e n p m H. unfold takes_spm in H. split_andb H. apply fits_split. repeat split; auto.
Qed.

Definition odef (o : option val) (d : val) : val := match o with Some v => v | None => d end.

Lemma mk_call_noseats : forall st sa, k_seats sa = None -> mk_call st sa = PA [] sa.
Proof. intros st sa H. unfold mk_call. rewrite H. destruct st; reflexivity. Qed.

Lemma bind_pos_nil : forall ps acc, bind_pos ps [] acc = (acc, []).
Proof. intros [|[k d] ps] acc; reflexivity. Qed.

(* n_seats is the first positional parameter: a seat count binds alike given positionally or by name, since [bind_kw]
   looks at n_seats first and then finds the same two records in both cases *)
Definition seats_first (s : sigt) : bool := match sg_pos s with (KSeats, _) :: _ => true | _ => false end.

Lemma bind_style : forall s st sa, seats_first s = true -> bind s (mk_call st sa) = accept s sa.
Proof.
  intros [[|[[] d] ps] vp ko vk] st sa H; try discriminate H.
  destruct st; [|reflexivity]. unfold mk_call.
  destruct (k_seats sa) as [n|] eqn:E; [|reflexivity].
  unfold accept, bind. cbn [sg_pos pa_pos pa_kw bind_pos]. rewrite bind_pos_nil.
  unfold bind_kw, all_kw. cbn [fold_left rbind kget kset k_seats fst snd].
  rewrite E. reflexivity.
Qed.

(* a leaf: positional seat count and keyword seat count bind alike when the leaf takes seats *)
Lemma bind_leaf_style : forall k st sa l,
  fits (Leaf l k) sa = true -> bind (lsig k) (mk_call st sa) = accept (lsig k) sa.
Proof.
  intros k st [[n|] p m pl lv cl] l H; [|destruct st; reflexivity].
  apply fits_split in H. destruct H as [[H|H] _]; [discriminate H|].
  apply bind_style. destruct k; try discriminate H; reflexivity.
Qed.

Lemma accept_adj : forall s p m pl lv cl,
  accept sig_adj (KW s p m pl lv cl) =
  match s, p, pl, lv, cl with
  | Some n, Some g, None, None, None =>
      Ok (BD (KW (Some n) (Some g) (Some (odef m (VDict []))) None None None) [] kw_none)
  | _, _, _, _, _ => raise E_TYPE
  end.
Proof. intros s p m pl lv cl. destruct s, p, m, pl, lv, cl; reflexivity. Qed.

Lemma accept_constit : forall s p m,
  accept sig_constit (KW s p m None None None) =
  Ok (BD (KW (Some (odef s VNone)) (Some (odef p (VDict []))) (Some (odef m (VDict []))) None None None) [] kw_none).
Proof. intros s p m. destruct s, p, m; reflexivity. Qed.

Lemma accept_distr : forall s p m,
  accept sig_distr (KW s p m None None None) =
  match s with
  | Some n => Ok (BD (KW (Some n) (Some (odef p (VDict []))) (Some (odef m (VDict []))) None None None) [] kw_none)
  | None => raise E_TYPE
  end.
Proof. intros s p m. destruct s, p, m; reflexivity. Qed.

Lemma accept_cond : forall s p m pl lv cl,
  accept sig_cond (KW s p m pl lv cl) =
  Ok (BD (KW (Some (odef s VNone)) (Some (odef p (VDict []))) None None None None) [] (KW None None m pl lv cl)).
Proof. intros s p m pl lv cl. destruct s, p, m, pl, lv, cl; reflexivity. Qed.

Lemma accept_plist : forall s p m pl lv cl,
  accept sig_plist (KW s p m pl lv cl) =
  match s, pl with
  | Some n, Some l =>
      Ok (BD (KW (Some n) None None (Some l) (Some (odef lv VNone)) None) [] (KW None p m None None cl))
  | _, _ => raise E_TYPE
  end.
Proof. intros s p m pl lv cl. destruct s, p, m, pl, lv, cl; reflexivity. Qed.

Lemma bind_fixed_noseats : forall p m pl lv cl,
  bind sig_fixed (PA [] (KW None p m pl lv cl)) = Ok (BD kw_none [] (KW None p m pl lv cl)).
Proof. intros p m pl lv cl. destruct p, m, pl, lv, cl; reflexivity. Qed.

Lemma seat_any_ok : forall t, seat_any t = true -> forall v, seat_ok t v = true.
Proof.
  induction t as [t IH] using ev_ind'. destruct t; cbn [parts all seat_any seat_ok] in *; intros Ha v;
    decompose [and] IH; auto.
  - destruct (takes t2 KSeats && negb (is_none v)); auto.
  - rewrite Ha. destruct v; reflexivity.
  - rewrite Ha. destruct v; reflexivity.
  - rewrite Ha. apply orb_true_r.
  - rewrite forallb_forall in *. intros x Hx. apply (all_In _ _ IH x Hx); auto.
  - destruct (takes t2 KSeats && negb (is_none v)); auto.
Qed.

Lemma seated_seat_any : forall t, seated t = true -> seat_any t = true.
Proof.
  induction t as [t IH] using ev_ind'. destruct t; cbn [parts all seated seat_any] in *; intros Hs;
    split_andb Hs; decompose [and] IH; auto.
  rewrite forallb_forall in *. intros x Hx. apply (all_In _ _ IH x Hx); auto.
Qed.

(* the seat count adjusters depend on their evaluator only through its answers *)
Lemma calc_allow_ext : forall E F n prev mx, (forall a b, E a b = F a b) -> calc_allow E n prev mx = calc_allow F n prev mx.
Proof. intros E F n prev mx H. unfold calc_allow. rewrite H. reflexivity. Qed.

Lemma level_loop_ext : forall fuel E F mx pmins adj prop, (forall a b, E a b = F a b) ->
  level_loop fuel E mx pmins adj prop = level_loop fuel F mx pmins adj prop.
Proof.
  induction fuel as [|f IH]; intros E F mx pmins adj prop H; cbn [level_loop]; [reflexivity|].
  apply rbind_ext. intros [|]; [|reflexivity].
  apply rbind_ext. intro adj'. rewrite H. apply rbind_ext. intro prop'. apply IH. exact H.
Qed.

Lemma calc_level_ext : forall fuel E F n prev mx, (forall a b, E a b = F a b) ->
  calc_level fuel E n prev mx = calc_level fuel F n prev mx.
Proof.
  intros fuel E F n prev mx H. unfold calc_level. rewrite H.
  apply rbind_ext; intro prop. apply rbind_ext; intro propd. apply rbind_ext; intro lowest.
  apply rbind_ext; intro pd. apply rbind_ext; intro drop. apply rbind_ext; intro adj0.
  rewrite (level_loop_ext fuel E F mx lowest adj0 prop H). reflexivity.
Qed.

Lemma calc_level_byc_ext : forall fuel CE CE' PV PV' OE OE' n prev mx,
  (forall a b, CE a b = CE' a b) -> PV = PV' -> (forall pv a b, OE pv a b = OE' pv a b) ->
  calc_level_byc fuel CE PV OE n prev mx = calc_level_byc fuel CE' PV' OE' n prev mx.
Proof.
  intros fuel CE CE' PV PV' OE OE' n prev mx H1 H2 H3. subst PV'. unfold calc_level_byc. rewrite H1.
  apply rbind_ext; intro cr. apply rbind_ext; intro crd. apply rbind_ext; intro minima.
  apply rbind_ext; intro lowest0. apply rbind_ext; intro pd. apply rbind_ext; intro lowest.
  apply rbind_ext; intro drop. apply rbind_ext; intro adj0. apply rbind_ext; intro pv.
  rewrite H3. apply rbind_ext; intro prop.
  rewrite (level_loop_ext fuel (OE pv) (OE' pv) mx lowest adj0 prop (H3 pv)). reflexivity.
Qed.

Ltac kw_simpl :=
  cbn [rbind nget sa_get kget kset b_named b_args b_kwargs k_seats k_prev k_max k_pl k_lv k_cl kw_none odef
       only sa_npm call_npm call_n call0 fst snd].

(* core.apportion with a static apportionment: the seat count is looked at only when the wrapper has none of its own *)
Lemma static_apportionment : forall a votes s,
  match a with
  | AInt n => uniform votes (VInt n)
  | ADict d => Ok (VDict d)
  | ANone => match odef s VNone with
             | VDict _ => Ok (odef s VNone)
             | VInt _ => uniform votes (odef s VNone)
             | _ => raise E_VALUE
             end
  end =
  match a, s with
  | AInt n, _ => uniform votes (VInt n)
  | ADict d, _ => Ok (VDict d)
  | ANone, Some (VDict d) => Ok (VDict d)
  | ANone, Some (VInt n) => uniform votes (VInt n)
  | ANone, _ => raise E_VALUE
  end.
Proof. intros [|n|d] votes s; [destruct s as [[]|]|..]; reflexivity. Qed.

Lemma given_if : forall (c : bool) n, (if c then given n else None) = if c && negb (is_none n) then Some n else None.
Proof. intros [] n; [unfold given; destruct (is_none n)|]; reflexivity. Qed.

Section Compose.
  Variable leaf : positive -> val -> list (option val) -> res val.
  Variable conv : positive -> val -> res val.
  Notation RI := (run_impl leaf conv).
  Notation RS := (run_spec leaf conv).

  Definition agree (t : ev) : Prop :=
    forall st sa votes, fits t sa = true -> seat_fits t sa = true -> RI t votes (mk_call st sa) = RS t votes sa.

  Lemma agree_npm : forall e v n p m, agree e -> takes_spm e = true -> seat_ok e n = true ->
    RI e v (call_npm n p m) = RS e v (sa_npm n p m).
  Proof. intros e v n p m H Hspm Hn. apply (H PosSeats (sa_npm n p m) v); [apply fits_npm; exact Hspm|exact Hn]. Qed.
  Lemma agree_n : forall e v n, agree e -> takes e KSeats = true -> seat_ok e n = true ->
    RI e v (call_n n) = RS e v (only KSeats n).
  Proof.
    intros e v n H Hs Hn. apply (H PosSeats (only KSeats n) v); [|exact Hn].
    apply fits_split. repeat split; auto.
  Qed.
  Lemma agree_0 : forall e v, agree e -> seat_ok e VNone = true -> RI e v call0 = RS e v kw_none.
  Proof. intros e v H Hn. apply (H AllKw kw_none v); [|exact Hn]. apply fits_split. repeat split; auto. Qed.
  Lemma agree_kw_npm : forall e v n p m, agree e -> takes_spm e = true -> seat_ok e n = true ->
    RI e v (PA [] (KW (Some n) (Some p) (Some m) None None None)) = RS e v (sa_npm n p m).
  Proof. intros e v n p m H Hspm Hn. apply (H AllKw (sa_npm n p m) v); [apply fits_npm; exact Hspm|exact Hn]. Qed.

  (* a part that is handed a seat count, positionally, only under a condition *)
  Lemma agree_opt_seats : forall e v (c : bool) n p m pl lv cl, agree e ->
    (c = true -> takes e KSeats = true) -> fits e (KW None p m pl lv cl) = true ->
    (if c then seat_ok e n else seat_ok e VNone) = true ->
    (if c then RI e v (PA [n] (KW None p m pl lv cl)) else RI e v (PA [] (KW None p m pl lv cl))) =
    RS e v (KW (if c then Some n else None) p m pl lv cl).
  Proof.
    intros e v c n p m pl lv cl H Hc Hf Hn. apply fits_split in Hf. destruct Hf as [_ Hf].
    destruct c; [apply (H PosSeats (KW (Some n) p m pl lv cl))|apply (H AllKw (KW None p m pl lv cl))];
      try exact Hn; apply fits_split; auto.
  Qed.

  (* a part that is run once for every constituency or party: the seat count positionally, the gains and caps of that
     constituency or party by name if [inspect] finds prev_gains among its parameters *)
  Lemma agree_district : forall e v n p m, agree e -> takes e KSeats = true -> prev_implies_max e = true ->
    insp_prev e = true -> seat_any e = true ->
    (if acc_prev e then RI e v (call_npm n p m) else RI e v (call_n n)) =
    RS e v (if takes e KPrev then sa_npm n p m else only KSeats n).
  Proof.
    intros e v n p m H Hs Hpm Hip Hany. apply eqb_prop in Hip. rewrite Hip.
    unfold prev_implies_max in Hpm. destruct (takes e KPrev) eqn:Hp.
    - apply agree_npm; [exact H| |apply seat_any_ok; exact Hany]. unfold takes_spm. rewrite Hs, Hp. exact Hpm.
    - apply agree_n; [exact H|exact Hs|apply seat_any_ok; exact Hany].
  Qed.

  Lemma case_leaf : forall l k, agree (Leaf l k).
  Proof.
    intros l k st sa votes Hf _. cbn [run_impl run_spec].
    rewrite (bind_leaf_style k st sa l Hf). reflexivity.
  Qed.

  Lemma case_pre : forall c e, agree e -> agree (PreConv c e).
  Proof.
    intros c e IH st sa votes Hf Hn. cbn [run_impl run_spec].
    apply rbind_ext. intro v. apply IH; [exact Hf|exact Hn].
  Qed.

  Lemma case_post : forall e c, agree e -> agree (PostConv e c).
  Proof.
    intros e c IH st sa votes Hf Hn. cbn [run_impl run_spec].
    rewrite (IH st sa votes Hf Hn). reflexivity.
  Qed.

  Lemma case_vsys : forall e, agree e -> agree (VSys e).
  Proof. intros e IH st sa votes Hf Hn. cbn [run_impl run_spec]. apply IH; [exact Hf|exact Hn]. Qed.

  Lemma case_fixed : forall e n, agree e -> takes e KSeats = true -> seat_ok e n = true -> agree (Fixed e n).
  Proof.
    intros e n IH Hs Hn st [s p m pl lv cl] votes Hf _.
    apply fits_split in Hf. destruct Hf as [Hf1 [Hf2 [Hf3 [Hf4 [Hf5 Hf6]]]]].
    cbn [takes] in *.
    destruct Hf1 as [Hf1|Hf1]; [subst s|cbn [kw_eqb negb andb] in Hf1; discriminate Hf1].
    rewrite mk_call_noseats by reflexivity.
    cbn [run_impl run_spec k_seats]. rewrite bind_fixed_noseats. kw_simpl.
    apply (IH PosSeats (KW (Some n) p m pl lv cl) votes); [|exact Hn].
    apply fits_split. cbn [kw_eqb negb andb] in *. repeat split; auto.
  Qed.

  (* the loop over the constituencies, here and below: the evaluator agrees on each of them *)
  Lemma case_bycons : forall e a, agree e -> takes e KSeats = true -> prev_implies_max e = true ->
    insp_prev e = true -> seat_any e = true -> agree (ByCons e a).
  Proof.
    intros e a IH Hs Hpm Hip Hany st sa votes Hf _.
    destruct (fits_spm _ sa Hf eq_refl eq_refl eq_refl) as (s & p & m & ->).
    cbn [run_impl run_spec]. rewrite bind_style, accept_constit by reflexivity. kw_simpl.
    apply rbind_eq; [apply static_apportionment|intro apportionment].
    apply rbind_ext; intro dvs. apply rbind_arg. apply map_res_ext; intro kv.
    apply rbind_ext; intro ad. apply rbind_ext; intro pd. apply rbind_ext; intro md.
    destruct (is_zero _); [reflexivity|]. apply rbind_arg. apply agree_district; assumption.
  Qed.

  (* ByConstituency with a preselector: the national totals through the preselector, every constituency on its votes
     restricted to the preselected candidates *)
  Lemma case_byconsp : forall e a pre, agree e -> agree pre -> takes e KSeats = true -> prev_implies_max e = true ->
    insp_prev e = true -> insp_seats pre = true -> seat_any e = true -> agree (ByConsP e a pre).
  Proof.
    intros e a pre IH IHp Hs Hpm Hip Hips Hany st sa votes Hf Hsf.
    destruct (fits_spm _ sa Hf eq_refl eq_refl eq_refl) as (s & p & m & ->).
    cbn [run_impl run_spec]. rewrite bind_style, accept_constit by reflexivity. kw_simpl.
    apply rbind_eq; [apply static_apportionment|intro apportionment].
    rewrite totals_s_eq. apply rbind_ext; intro nat_votes.
    apply rbind_eq; [|intro preselected].
    - apply eqb_prop in Hips. rewrite Hips, given_if. kw_simpl.
      apply agree_opt_seats; [exact IHp|intro Hc; apply andb_prop in Hc; apply Hc| |exact Hsf].
      apply fits_split. repeat split; auto.
    - apply rbind_ext; intro dvs. apply rbind_arg. apply map_res_ext; intro kv.
      apply rbind_ext; intro ad. apply rbind_ext; intro pd. apply rbind_ext; intro md.
      destruct (is_zero _); [reflexivity|]. rewrite subset_s_eq. apply rbind_ext; intro sv.
      apply rbind_arg. apply agree_district; assumption.
  Qed.

  (* core.apportion with a distributor for apportioner; it may be seatless: a seat NUMBER reaches it only when it takes
     one ([seat_fits]) *)
  Lemma delegated_apportionment : forall ae votes s, agree ae -> seat_any ae = true ->
    match odef s VNone with VInt _ => takes ae KSeats | _ => true end = true ->
    match odef s VNone with
    | VDict _ => Ok (odef s VNone)
    | VInt _ => constituency_votes votes >>= fun cv => RI ae cv (call_n (odef s VNone))
    | VNone => constituency_votes votes >>= fun cv => RI ae cv call0
    | _ => constituency_votes votes >>= fun _ => raise E_VALUE
    end =
    match s with
    | Some (VDict d) => Ok (VDict d)
    | Some (VInt n) => constituency_votes votes >>= fun cv => RS ae cv (only KSeats (VInt n))
    | None | Some VNone => constituency_votes votes >>= fun cv => RS ae cv kw_none
    | _ => constituency_votes votes >>= fun _ => raise E_VALUE
    end.
  Proof.
    intros ae votes s IH Hany Hs. destruct s as [[]|]; cbn [odef] in *; try reflexivity;
      apply rbind_ext; intro cv; [apply agree_0|apply agree_n|apply agree_0]; auto using seat_any_ok.
  Qed.

  Lemma case_byconsd : forall e ae, agree e -> agree ae -> takes e KSeats = true -> prev_implies_max e = true ->
    insp_prev e = true -> seat_any e = true -> seat_any ae = true -> agree (ByConsD e ae).
  Proof.
    intros e ae IH IHa Hs Hpm Hip Hany Hanya st sa votes Hf Hsf.
    destruct (fits_spm _ sa Hf eq_refl eq_refl eq_refl) as (s & p & m & ->).
    cbn [run_impl run_spec]. rewrite bind_style, accept_constit by reflexivity. kw_simpl.
    apply rbind_eq; [apply delegated_apportionment; assumption|intro apportionment].
    apply rbind_ext; intro dvs. apply rbind_arg. apply map_res_ext; intro kv.
    apply rbind_ext; intro ad. apply rbind_ext; intro pd. apply rbind_ext; intro md.
    destruct (is_zero _); [reflexivity|]. apply rbind_arg. apply agree_district; assumption.
  Qed.

  Lemma case_preapp : forall e a, agree e -> takes_spm e = true -> seat_any e = true -> agree (PreApp e a).
  Proof.
    intros e a IH Hspm Hany st sa votes Hf _.
    destruct (fits_spm _ sa Hf eq_refl eq_refl eq_refl) as (s & p & m & ->).
    cbn [run_impl run_spec]. rewrite bind_style, accept_constit by reflexivity. kw_simpl.
    apply rbind_eq; [apply static_apportionment|intro apportionment].
    apply agree_kw_npm; auto using seat_any_ok.
  Qed.

  Lemma case_preappd : forall e ae, agree e -> agree ae -> takes_spm e = true ->
    seat_any e = true -> seat_any ae = true -> agree (PreAppD e ae).
  Proof.
    intros e ae IH IHa Hspm Hany Hanya st sa votes Hf Hsf.
    destruct (fits_spm _ sa Hf eq_refl eq_refl eq_refl) as (s & p & m & ->).
    cbn [run_impl run_spec]. rewrite bind_style, accept_constit by reflexivity. kw_simpl.
    apply rbind_eq; [apply delegated_apportionment; assumption|intro apportionment].
    apply agree_kw_npm; auto using seat_any_ok.
  Qed.

  Lemma case_remapp : forall e, agree e -> takes_spm e = true -> seat_any e = true -> agree (RemApp e).
  Proof.
    intros e IH Hspm Hany st sa votes Hf _.
    destruct (fits_spm _ sa Hf eq_refl eq_refl eq_refl) as (s & p & m & ->).
    cbn [run_impl run_spec]. rewrite bind_style, accept_constit by reflexivity. kw_simpl.
    apply rbind_ext; intro total. apply agree_kw_npm; auto using seat_any_ok.
  Qed.

  Lemma case_tiebr : forall m b, agree m -> agree b -> takes b KSeats = true -> seat_any b = true -> agree (TieBr m b).
  Proof.
    intros m b IHm IHb Hb Hany st sa votes Hf Hsf. cbn [run_impl run_spec].
    rewrite (IHm st sa votes Hf Hsf). apply rbind_ext. intro main.
    apply break_ties_s. intros sub n. apply agree_n; auto using seat_any_ok.
  Qed.

  Lemma case_multi : forall rs d, Forall (fun s => agree s /\ takes_spm s = true) rs -> agree (Multi rs d).
  Proof.
    intros rs d HF st sa votes Hf Hsf.
    destruct (fits_spm _ sa Hf eq_refl eq_refl eq_refl) as (s & p & m & ->).
    cbn [run_impl run_spec]. rewrite bind_style, accept_distr by reflexivity.
    destruct s as [n|]; [|reflexivity]. kw_simpl.
    apply rbind_ext; intro el0. apply rbind_ext; intro svs. apply rbind_arg.
    unfold seat_fits, seat_of in Hsf; cbn [seat_ok k_seats] in Hsf.
    clear Hf. revert svs el0. induction HF as [|x rs' [Hx Hspm] HF IH]; intros svs el0; [reflexivity|].
    destruct svs as [|sv svs']; [reflexivity|].
    cbn [forallb] in Hsf. apply andb_true_iff in Hsf. destruct Hsf as [Hx1 Hsf].
    cbn [length]. rewrite (agree_npm x sv n (VDict el0) (odef m (VDict [])) Hx Hspm Hx1).
    apply rbind_ext; intro stage_res. apply rbind_ext; intro el1. apply IH. exact Hsf.
  Qed.

  (* UnusedVotesDistributor: every stage is handed the seats still to be given, nothing else *)
  Lemma case_unused : forall rs qs d,
    Forall (fun s => agree s /\ takes s KSeats = true /\ seat_any s = true) rs -> agree (Unused rs qs d).
  Proof.
    intros rs qs d HF st sa votes _ _.
    cbn [run_impl run_spec]. rewrite bind_style by reflexivity. unfold sa_get.
    apply rbind_ext; intro b. apply rbind_ext; intro el0.
    destruct (truthy _); [reflexivity|]. apply rbind_arg.
    generalize (map Some qs ++ [None]) (nget b KSeats). intros oqs n. revert oqs votes n el0.
    induction HF as [|x rs' [Hx [Hs Hany]] HF IH]; intros oqs votes n el0; [reflexivity|].
    destruct oqs as [|q oqs']; [reflexivity|].
    rewrite (agree_n x votes n Hx Hs (seat_any_ok x Hany n)).
    apply rbind_ext; intro stage_res. apply rbind_ext; intro srd. apply rbind_ext; intro el1.
    destruct q as [qf|]; [|apply IH].
    apply rbind_ext; intro votes'. apply rbind_ext; intro n'. apply IH.
  Qed.

  Lemma case_cond : forall el e d, agree el -> agree e -> insp_prev el = true ->
    insp_seats e = true -> insp_prev e = true -> seat_ok el VNone = true -> agree (Cond el e d).
  Proof.
    intros el e d IHel IHe H1 H2 H3 Hel st [s p m pl lv cl] votes Hf Hsf.
    apply eqb_prop in H1, H2, H3.
    apply fits_split in Hf. cbn [takes kw_eqb orb] in Hf. destruct Hf as [_ [_ [Hm [Hpl [Hlv Hcl]]]]].
    cbn [run_impl run_spec]. rewrite bind_style, accept_cond by reflexivity. kw_simpl.
    rewrite !sum_party_s.
    apply rbind_ext; intro sv. apply rbind_ext; intro sp.
    rewrite H1, H2, H3.
    apply rbind_eq; [|intro ne].
    { destruct (takes el KPrev) eqn:Hp; [|apply agree_0; assumption].
      apply (IHel AllKw); [|exact Hel]. apply fits_split. repeat split; auto. }
    rewrite elim_party_map_depth. apply rbind_ext; intro restricted.
    rewrite given_if.
    unfold seat_fits, seat_of in Hsf; cbn [seat_ok k_seats] in Hsf. fold (odef s VNone) in Hsf.
    destruct (takes e KPrev) eqn:Htp; kw_simpl;
      (apply agree_opt_seats; [exact IHe|intro Hc; apply andb_prop in Hc; apply Hc| |exact Hsf]);
      apply fits_split; repeat split; auto.
  Qed.

  (* the overall evaluator may be seatless: it is handed a seat count only when one is given, and then it must take one *)
  Lemma case_byparty : forall ov al, agree ov -> agree al -> takes al KSeats = true -> prev_implies_max al = true ->
    insp_prev al = true -> seat_any ov = true -> seat_any al = true -> agree (ByParty ov al).
  Proof.
    intros ov al IHo IHa Hs Hpm Hip Hanyo Hany st sa votes Hf Hsf.
    destruct (fits_spm _ sa Hf eq_refl eq_refl eq_refl) as (s & p & m & ->).
    cbn [run_impl run_spec]. rewrite bind_style, accept_constit by reflexivity. kw_simpl.
    rewrite totals_s_eq. apply rbind_ext; intro ovotes.
    apply rbind_eq; [apply rbind_arg|intro ores].
    - unfold given. unfold seat_fits, seat_of in Hsf. cbn [seat_ok k_seats] in Hsf. fold (odef s VNone) in Hsf.
      destruct (is_none (odef s VNone)); [apply agree_0|apply agree_n]; auto using seat_any_ok.
    - apply rbind_ext; intro dvs. apply rbind_arg. apply fold_left_ext; intros acc ps.
      apply rbind_ext; intro results. rewrite party_votes_s. apply rbind_ext; intro pv.
      apply rbind_arg. apply rbind_arg.
      pose proof (fun pp pm => agree_district al pv (snd ps) pp pm IHa Hs Hpm Hip Hany) as Hd.
      apply eqb_prop in Hip. rewrite Hip in *. destruct (takes al KPrev); [|exact (Hd VNone VNone)].
      apply rbind_ext; intro pp. apply rbind_ext; intro pm. apply Hd.
  Qed.

  (* allocator=None: ByParty with the overall evaluator for allocator *)
  Lemma case_bypartys : forall ov, agree ov -> takes ov KSeats = true -> prev_implies_max ov = true ->
    insp_prev ov = true -> seat_any ov = true -> agree (ByPartyS ov).
  Proof.
    intros ov IHo Hs Hpm Hip Hany st sa votes Hf _.
    apply (case_byparty ov ov IHo IHo Hs Hpm Hip Hany Hany st sa votes Hf).
    unfold seat_fits. cbn [seat_ok]. rewrite Hs. apply orb_true_r.
  Qed.

  (* the party list evaluators: the party evaluator is handed the seat count positionally and every argument that is not
     their own *)
  Lemma plist_agree : forall p (ri rs : bound -> dict -> res val) st sa votes,
    agree p -> takes p KSeats = true -> fits (PListC p) sa = true -> seat_fits (PListC p) sa = true ->
    (forall b r, ri b r = rs b r) ->
    (bind sig_plist (mk_call st sa) >>= fun b => RI p votes (PA [nget b KSeats] (b_kwargs b)) >>= as_dict >>= ri b) =
    (accept sig_plist sa >>= fun b =>
     RS p votes (kset (b_kwargs b) KSeats (Some (sa_get b KSeats))) >>= as_dict >>= rs b).
  Proof.
    intros p ri rs st [s pg m pl lv cl] votes IH Hs Hf Hsf Hr.
    rewrite bind_style, accept_plist by reflexivity.
    destruct s as [n|], pl as [l|]; try reflexivity. kw_simpl.
    apply rbind_eq; [apply rbind_arg|apply Hr].
    apply fits_split in Hf. cbn [takes kw_eqb orb] in Hf. destruct Hf as [_ [Hp [Hm [_ [_ Hcl]]]]].
    apply (IH PosSeats (KW (Some n) pg m None None cl) votes); [|exact Hsf].
    apply fits_split. repeat split; auto.
  Qed.

  Lemma case_plistc : forall p, agree p -> takes p KSeats = true -> agree (PListC p).
  Proof.
    intros p IH Hs st sa votes Hf Hsf. cbn [run_impl run_spec]. apply plist_agree; [assumption..|reflexivity].
  Qed.

  Lemma case_plisto : forall p l c, agree p -> takes p KSeats = true -> agree (PListO p (Leaf l LOpen) c).
  Proof.
    intros p l c IH Hs st sa votes Hf Hsf. cbn [run_impl run_spec]. apply plist_agree; [assumption..|reflexivity].
  Qed.

  (* AdjustedSeatCount: whatever the calculator, the evaluator is run with the seat count it adds, the gains and caps
     unchanged; the calculators agree as soon as the evaluators they run do *)
  Lemma adjusted_agree : forall e (ci cs : bound -> res val) st sa votes,
    agree e -> takes_spm e = true -> seat_any e = true -> (forall b, ci b = cs b) ->
    (bind sig_adj (mk_call st sa) >>= fun b => ci b >>= fun seat_adj => add_val (nget b KSeats) seat_adj >>= fun n' =>
     RI e votes (call_npm n' (nget b KPrev) (nget b KMax))) =
    (accept sig_adj sa >>= fun b => cs b >>= fun seat_adj => add_val (sa_get b KSeats) seat_adj >>= fun n' =>
     RS e votes (sa_npm n' (sa_get b KPrev) (sa_get b KMax))).
  Proof.
    intros e ci cs st sa votes IH Hspm Hany Hc. rewrite bind_style by reflexivity.
    apply rbind_ext; intro b. rewrite Hc. apply rbind_ext; intro seat_adj. apply rbind_ext; intro n'.
    apply agree_npm; auto using seat_any_ok.
  Qed.

  Lemma calc_call : forall pe votes n mx, agree pe -> takes pe KSeats = true -> takes pe KMax = true ->
    seat_any pe = true ->
    RI pe votes (PA [n] (only KMax mx)) = RS pe votes (KW (Some n) None (Some mx) None None None).
  Proof.
    intros pe votes n mx IH Hs Hm Hany.
    apply (IH PosSeats (KW (Some n) None (Some mx) None None None) votes); [|apply seat_any_ok; exact Hany].
    apply fits_split. repeat split; auto.
  Qed.

  Lemma case_adjleaf : forall c e, agree e -> takes_spm e = true -> seat_any e = true -> agree (AdjLeaf c e).
  Proof.
    intros c e IH Hspm Hany st sa votes _ _. cbn [run_impl run_spec].
    apply adjusted_agree; [assumption..|reflexivity].
  Qed.

  Lemma case_adjallow : forall pe e, agree pe -> agree e -> takes pe KSeats = true -> takes pe KMax = true ->
    seat_any pe = true -> takes_spm e = true -> seat_any e = true -> agree (AdjAllow pe e).
  Proof.
    intros pe e IHp IH Hps Hpm Hanyp Hspm Hany st sa votes _ _. cbn [run_impl run_spec].
    apply adjusted_agree; [assumption..|intro b].
    apply calc_allow_ext. intros n mx. apply calc_call; assumption.
  Qed.

  Lemma case_adjlevel : forall pe e f, agree pe -> agree e -> takes pe KSeats = true -> takes pe KMax = true ->
    seat_any pe = true -> takes_spm e = true -> seat_any e = true -> agree (AdjLevel pe e f).
  Proof.
    intros pe e f IHp IH Hps Hpm Hanyp Hspm Hany st sa votes _ _. cbn [run_impl run_spec].
    apply adjusted_agree; [assumption..|intro b].
    apply calc_level_ext. intros n mx. apply calc_call; assumption.
  Qed.

  Lemma case_adjlevelc : forall ce oe e f, agree ce -> agree oe -> agree e ->
    takes ce KSeats = true -> takes ce KMax = true -> seat_any ce = true ->
    takes oe KSeats = true -> takes oe KMax = true -> seat_any oe = true ->
    takes_spm e = true -> seat_any e = true -> agree (AdjLevelC ce oe e f).
  Proof.
    intros ce oe e f IHc IHo IH Hcs Hcm Hanyc Hos Hom Hanyo Hspm Hany st sa votes _ _. cbn [run_impl run_spec].
    apply adjusted_agree; [assumption..|intro b].
    apply calc_level_byc_ext; [|symmetry; apply totals_s_eq|]; intros; apply calc_call; assumption.
  Qed.

  Lemma case_adjlevelc0 : forall ce e f, agree ce -> agree e ->
    takes ce KSeats = true -> takes ce KMax = true -> seat_any ce = true ->
    takes_spm e = true -> seat_any e = true -> agree (AdjLevelC0 ce e f).
  Proof.
    intros ce e f IHc IH Hcs Hcm Hanyc Hspm Hany st sa votes _ _. cbn [run_impl run_spec].
    apply adjusted_agree; [assumption..|intro b].
    apply calc_level_byc_ext; [|reflexivity|]; intros; [|apply rbind_arg]; apply calc_call; assumption.
  Qed.

  (* C14: for every well-typed, faithful tree of ANY depth, every call style, every
     admissible set of supplied arguments and every vote value, the code-shaped semantics equals
     the by-hand composition. *)
  Theorem compose : forall t, wt t = true -> faithful t = true -> agree t.
  Proof.
    induction t as [t IH] using ev_ind'. destruct t; cbn [parts all wt faithful] in *; intros Hw Hfa;
      split_andb Hw; split_andb Hfa; decompose [and] IH.
    - apply case_leaf.
    - apply case_pre; auto.
    - apply case_post; auto.
    - apply case_fixed; auto.
    - apply case_cond; auto.
    - apply case_bycons; auto.
    - apply case_byconsd; auto.
    - apply case_preapp; auto.
    - apply case_preappd; auto.
    - apply case_remapp; auto.
    - apply case_byparty; auto.
    - apply case_bypartys; auto.
    - apply case_multi. rewrite forallb_forall in Hw, Hfa. apply Forall_forall.
      intros x Hx. specialize (Hw x Hx). split_andb Hw. split; [apply (all_In _ _ IH x Hx)|]; auto.
    - apply case_tiebr; auto.
    - apply case_plistc; auto.
    - destruct t2 as [l []| | | | | | | | | | | | | | | | | | | | | | |]; try discriminate.
      apply case_plisto; auto.
    - apply case_vsys; auto.
    - apply case_unused. rewrite forallb_forall in Hw, Hfa. apply Forall_forall.
      intros x Hx. specialize (Hw x Hx). split_andb Hw. split; [apply (all_In _ _ IH x Hx)|]; auto.
    - apply case_adjleaf; auto.
    - apply case_adjallow; auto.
    - apply case_adjlevel; auto.
    - apply case_byconsp; auto.
    - apply case_adjlevelc; auto.
    - apply case_adjlevelc0; auto.
  Qed.

  (* trees in which every apportioner and overall evaluator takes a seat count need no condition on the seat argument *)
  Corollary compose_seated : forall t, wt t = true -> seated t = true -> faithful t = true ->
    forall st sa votes, fits t sa = true -> RI t votes (mk_call st sa) = RS t votes sa.
  Proof.
    intros t Hw Hs Hf st sa votes Hfit. apply compose; auto.
    unfold seat_fits. apply seat_any_ok. apply seated_seat_any. exact Hs.
  Qed.
End Compose.
