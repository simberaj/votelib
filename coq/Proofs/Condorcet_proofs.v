(* Condorcet family (Model/Condorcet.v): the Smith/Schwartz prefix loop, the pairwise-win relation and the
   dictionaries tallied from it, the Condorcet winner, Copeland. *)
From Coq Require Import ZArith List Bool Arith Lia Permutation Sorted.
From VL Require Import Prelude.PyDict Model.GetNBest Model.Condorcet Proofs.GetNBest_proofs Proofs.Dict_proofs.
Import ListNotations.

Lemma natleb_total a b : Nat.leb a b = true \/ Nat.leb b a = true.
Proof. rewrite !Nat.leb_le. lia. Qed.
Lemma natleb_trans a b c : Nat.leb a b = true -> Nat.leb b c = true -> Nat.leb a c = true.
Proof. rewrite !Nat.leb_le. lia. Qed.

Lemma filter_neq_length (c : C) l : NoDup l -> In c l -> S (length (filter (fun x => negb (ceqb x c)) l)) = length l.
Proof.
  induction l as [|y l IH]; intros N I; [destruct I|]. inversion N as [|? ? Hy Hn]; subst. simpl.
  destruct (ceqb y c) eqn:E; simpl.
  - apply ceqb_eq in E. subst y. f_equal. clear IH N I Hn. induction l as [|z l IH]; [reflexivity|]. simpl.
    destruct (ceqb z c) eqn:Ez; simpl.
    + apply ceqb_eq in Ez. subst. exfalso. apply Hy. left. reflexivity.
    + f_equal. apply IH. intros H. apply Hy. right. exact H.
  - f_equal. apply IH; [exact Hn|]. destruct I as [->|I]; [|exact I]. rewrite ceqb_refl in E. discriminate.
Qed.

Section SS.
  Variable order : list C.
  Notation idx c := (index_of c order).

  Lemma ss_loop_ge wins : forall e, (e <= ss_loop order wins e)%nat.
  Proof.
    induction wins as [|[w l] t IH]; intros e; simpl; [lia|].
    destruct (Nat.leb_spec e (idx w)); [|apply IH]. destruct (Nat.ltb (idx l) e); [|apply IH]. simpl.
    destruct (Nat.eqb (length order) (S (idx w))); [lia|]. specialize (IH (S (idx w))). lia.
  Qed.

  (* once the loser index reaches end_i the loop can never fire again *)
  Lemma ss_loop_stuck wins : forall e,
    (forall w l, In (w, l) wins -> (e <= idx l)%nat) -> ss_loop order wins e = e.
  Proof.
    induction wins as [|[w l] t IH]; intros e H; simpl; [reflexivity|].
    assert (Nat.ltb (idx l) e = false) as -> by (apply Nat.ltb_ge, (H w l); left; reflexivity).
    rewrite andb_false_r. apply IH. intros w' l' Hin. apply (H w' l'). right. exact Hin.
  Qed.

  (* the single pass is complete: with the wins sorted by the loser's rank, the final
     prefix is closed - whoever beats (or ties) a member is a member *)
  Theorem ss_loop_closed wins :
    StronglySorted (fun p q : pair => (idx (snd p) <= idx (snd q))%nat) wins ->
    forall e, let E := ss_loop order wins e in
    E = length order \/ (forall w l, In (w, l) wins -> (idx l < E)%nat -> (idx w < E)%nat).
  Proof.
    induction 1 as [|[w l] t Hs IH Hall]; intros e E; subst E; simpl.
    - right. intros w l [].
    - destruct (Nat.leb e (idx w) && Nat.ltb (idx l) e) eqn:Ec.
      + destruct (Nat.eqb (length order) (S (idx w))) eqn:Ee.
        * left. apply Nat.eqb_eq in Ee. symmetry. exact Ee.
        * destruct (IH (S (idx w))) as [Hl|Hc]; [left; exact Hl|right].
          intros w' l' [Hin|Hin] Hlt; [|apply (Hc w' l' Hin Hlt)].
          injection Hin as <- <-. pose proof (ss_loop_ge t (S (idx w))). lia.
      + destruct (IH e) as [Hl|Hc]; [left; exact Hl|right].
        intros w' l' [Hin|Hin] Hlt; [|apply (Hc w' l' Hin Hlt)].
        injection Hin as <- <-.
        apply andb_false_iff in Ec. destruct Ec as [Ec|Ec].
        * apply Nat.leb_gt in Ec. pose proof (ss_loop_ge t e). lia.
        * (* the later losers rank no higher than l, so the pass stays at e *)
          apply Nat.ltb_ge in Ec. rewrite ss_loop_stuck in Hlt; [lia|].
          intros w' l' Hin'. rewrite Forall_forall in Hall. specialize (Hall (w', l') Hin'). simpl in Hall. lia.
  Qed.
End SS.

(* the wins handed to the loop by smith_schwartz are sorted by the loser's rank *)
Lemma sorted_wins (order : list C) (wins : list pair) :
  let ws := map fst (@sort_asc pair nat Nat.leb (map (fun p => (p, index_of (snd p) order)) wins)) in
  Permutation ws wins /\
  StronglySorted (fun p q : pair => (index_of (snd p) order <= index_of (snd q) order)%nat) ws.
Proof.
  cbv zeta. set (tagged := map (fun p => (p, index_of (snd p) order)) wins).
  pose proof (@sort_asc_perm pair nat Nat.leb tagged) as Hp.
  split.
  - apply (Permutation_map fst) in Hp. unfold tagged in Hp at 2. rewrite map_map, map_id in Hp. exact Hp.
  - assert (Htag : forall x, In x (@sort_asc pair nat Nat.leb tagged) -> snd x = index_of (snd (fst x)) order).
    { intros x Hx. apply (Permutation_in _ Hp), in_map_iff in Hx. destruct Hx as (p & <- & _). reflexivity. }
    pose proof (@sort_asc_sorted pair nat Nat.leb natleb_total natleb_trans tagged) as Hs.
    clear Hp. revert Htag Hs. generalize (@sort_asc pair nat Nat.leb tagged). intros s Htag Hs.
    induction Hs as [|x t _ IH Hall]; simpl; constructor.
    + apply IH. intros y Hy. apply Htag. right. exact Hy.
    + apply Forall_forall. intros p Hp'. apply in_map_iff in Hp'. destruct Hp' as (y & <- & Hy).
      rewrite Forall_forall in Hall. specialize (Hall y Hy). apply Nat.leb_le in Hall.
      rewrite <- (Htag x (or_introl eq_refl)), <- (Htag y (or_intror Hy)). exact Hall.
Qed.

Theorem smith_schwartz_closed v ties :
  let cv := complete v in
  let wins := pairwise_wins cv ties in
  let order := map fst (sort_desc zle_bool (copeland_scores wins)) in
  let ws := map fst (@sort_asc pair nat Nat.leb (map (fun p => (p, Condorcet.index_of (snd p) order)) wins)) in
  let E := ss_loop order ws 1 in
  smith_schwartz v ties = firstn E order /\
  (1 <= E)%nat /\
  (E = length order \/
   forall w l, In (w, l) wins -> (Condorcet.index_of l order < E)%nat -> (Condorcet.index_of w order < E)%nat).
Proof.
  intros cv wins order ws E. split; [reflexivity|]. split; [apply ss_loop_ge|].
  destruct (sorted_wins order wins) as [Hp Hs]. fold ws in Hp, Hs.
  destruct (ss_loop_closed order ws Hs 1) as [H|H]; [left; exact H|right].
  intros w l Hin. apply H. eapply Permutation_in; [apply Permutation_sym, Hp|exact Hin].
Qed.

Open Scope Z_scope.

Lemma peqb_eq p q : peqb p q = true <-> p = q.
Proof.
  unfold peqb. rewrite andb_true_iff. destruct p, q. simpl. rewrite !Pos.eqb_eq. split; [intros [-> ->]; reflexivity|intros [= -> ->]; tauto].
Qed.

Lemma peqb_refl p : peqb p p = true.
Proof. apply peqb_eq. reflexivity. Qed.

Lemma pget_In (v : pvotes) p n : pget v p = Some n -> In (p, n) v.
Proof.
  induction v as [|[p' n'] t IH]; simpl; [discriminate|].
  destruct (peqb p p') eqn:E; [apply peqb_eq in E; subst; intros [= ->]; left; reflexivity|].
  intros H. right. apply IH, H.
Qed.

Lemma In_pget (v : pvotes) p n : NoDup (map fst v) -> In (p, n) v -> pget v p = Some n.
Proof.
  induction v as [|[p' n'] t IH]; simpl; [tauto|]. intros Hnd [H|H].
  - injection H as -> ->. rewrite peqb_refl. reflexivity.
  - inversion Hnd as [|? ? Hp Hnd']; subst. destruct (peqb p p') eqn:E.
    + apply peqb_eq in E. subst. exfalso. apply Hp. apply in_map_iff. exists (p', n). auto.
    + apply IH; assumption.
Qed.

Lemma NoDup_map_inj {X Y} (g : X -> Y) (l : list X) :
  (forall x y, In x l -> In y l -> g x = g y -> x = y) -> NoDup l -> NoDup (map g l).
Proof.
  intros Hg. induction 1 as [|x l Hx _ IH]; simpl; constructor.
  - intros Hin. apply in_map_iff in Hin. destruct Hin as (y & Hy & Hin).
    apply Hg in Hy; [subst; exact (Hx Hin)|right; exact Hin|left; reflexivity].
  - apply IH. intros y z Hy Hz. apply Hg; right; assumption.
Qed.

Lemma NoDup_flat_map {X Y} (f : X -> list Y) (l : list X) :
  NoDup l -> (forall x, In x l -> NoDup (f x)) ->
  (forall x x' y, In x l -> In x' l -> In y (f x) -> In y (f x') -> x = x') -> NoDup (flat_map f l).
Proof.
  intros Hl Hf Hd. induction Hl as [|x l Hx Hl IH]; simpl; [constructor|].
  apply nodup_app_intro.
  - apply Hf. left. reflexivity.
  - apply IH; [intros y Hy; apply Hf; right; exact Hy|intros y y' z Hy Hy'; apply Hd; right; assumption].
  - intros y Hy Hy'. apply in_flat_map in Hy'. destruct Hy' as (x' & Hx' & Hy'). apply Hx.
    rewrite (Hd x x' y); [exact Hx'|left; reflexivity|right; exact Hx'|exact Hy|exact Hy'].
Qed.

Lemma filter_fst_NoDup {X Y} (f : X * Y -> bool) (u : list (X * Y)) :
  NoDup (map fst u) -> NoDup (map fst (filter f u)).
Proof. exact (nodup_keys_filter f u). Qed.

(* the pairs of a list with a given first (second) component, listed by the other one *)
Lemma In_filter_fst (W : list pair) a y : In y (map snd (filter (fun p : pair => ceqb (fst p) a) W)) <-> In (a, y) W.
Proof.
  rewrite in_map_iff. split.
  - intros ([x y'] & Hy & Hin). apply filter_In in Hin. destruct Hin as [Hin Hc]. simpl in *. apply ceqb_eq in Hc. subst. exact Hin.
  - intros H. exists (a, y). split; [reflexivity|]. apply filter_In. split; [exact H|apply ceqb_refl].
Qed.
Lemma In_filter_snd (W : list pair) a x : In x (map fst (filter (fun p : pair => ceqb (snd p) a) W)) <-> In (x, a) W.
Proof.
  rewrite in_map_iff. split.
  - intros ([x' y] & Hx & Hin). apply filter_In in Hin. destruct Hin as [Hin Hc]. simpl in *. apply ceqb_eq in Hc. subst. exact Hin.
  - intros H. exists (x, a). split; [reflexivity|]. apply filter_In. split; [exact H|apply ceqb_refl].
Qed.
Lemma filter_pairs_fst_nodup (W : list pair) a : NoDup W -> NoDup (map snd (filter (fun p : pair => ceqb (fst p) a) W)).
Proof.
  intros H. apply NoDup_map_inj; [|apply NoDup_filter, H].
  intros [x y] [x' y'] Hp Hq. apply filter_In in Hp. apply filter_In in Hq. destruct Hp as [_ Hp], Hq as [_ Hq].
  simpl in *. apply ceqb_eq in Hp. apply ceqb_eq in Hq. congruence.
Qed.
Lemma filter_pairs_snd_nodup (W : list pair) a : NoDup W -> NoDup (map fst (filter (fun p : pair => ceqb (snd p) a) W)).
Proof.
  intros H. apply NoDup_map_inj; [|apply NoDup_filter, H].
  intros [x y] [x' y'] Hp Hq. apply filter_In in Hp. apply filter_In in Hq. destruct Hp as [_ Hp], Hq as [_ Hq].
  simpl in *. apply ceqb_eq in Hp. apply ceqb_eq in Hq. congruence.
Qed.

Definition beats (v : pvotes) (a b : C) : Prop := pget0 v (b, a) < pget0 v (a, b).

Lemma pairwise_wins_In (v : pvotes) t a b : In (a, b) (pairwise_wins v t) <->
  exists n, In ((a, b), n) v /\ (pget0 v (b, a) < n \/ t = true /\ pget0 v (b, a) = n).
Proof.
  unfold pairwise_wins. split.
  - intros H. apply in_map_iff in H. destruct H as ([p n] & Hp & Hin). simpl in Hp. subst p.
    apply filter_In in Hin. destruct Hin as [Hin Hf]. exists n. split; [exact Hin|].
    cbn in Hf. apply orb_true_iff in Hf. destruct Hf as [Hf|Hf]; [left; apply Z.ltb_lt, Hf|right].
    apply andb_true_iff in Hf. destruct Hf as [Ht Hf]. split; [exact Ht|apply Z.eqb_eq, Hf].
  - intros (n & Hin & H). apply in_map_iff. exists ((a, b), n). split; [reflexivity|]. apply filter_In. split; [exact Hin|].
    cbn. apply orb_true_iff. destruct H as [H|[Ht H]]; [left; apply Z.ltb_lt, H|right].
    apply andb_true_iff. split; [exact Ht|apply Z.eqb_eq, H].
Qed.

Lemma dset_keys {X} (d : list (C * X)) k x : NoDup (map fst d) -> NoDup (map fst (dset d k x)) /\
  (forall c, In c (map fst (dset d k x)) <-> c = k \/ In c (map fst d)).
Proof. intros H. split; [apply dset_nodup, H|intros c; apply dset_keys_in]. Qed.

(* the keys of a dictionary built by a fold: those it started with and those the steps contribute *)
Lemma fold_left_keys {A B K} (keys : A -> list K) (f : A -> B -> A) (R : B -> K -> Prop) :
  (forall a b x, In x (keys (f a b)) <-> In x (keys a) \/ R b x) ->
  forall l a x, In x (keys (fold_left f l a)) <-> In x (keys a) \/ exists b, In b l /\ R b x.
Proof.
  intros Hf. induction l as [|b l IH]; intros a x; cbn [fold_left].
  - split; [auto|intros [H|(b & [] & _)]; exact H].
  - split; intros H.
    + apply IH in H. destruct H as [H|(b' & Hb' & HR)]; [|right; exists b'; split; [right; exact Hb'|exact HR]].
      apply Hf in H. destruct H as [H|H]; [left; exact H|right; exists b; split; [left; reflexivity|exact H]].
    + apply IH. destruct H as [H|(b' & [<-|Hb'] & HR)]; [left; apply Hf; left; exact H|left; apply Hf; right; exact HR|].
      right. exists b'. split; assumption.
Qed.

Lemma dadd_get d c k c' : dget_or (dadd d c k) c' 0 = dget_or d c' 0 + (if ceqb c' c then k else 0).
Proof.
  unfold dadd. rewrite dget_or_dset. destruct (ceqb c' c) eqn:E; [|lia].
  apply Pos.eqb_eq in E. subst. reflexivity.
Qed.

Lemma In_dget_or (d : list (C * Z)) c n : NoDup (map fst d) -> In (c, n) d -> dget_or d c 0 = n.
Proof. intros Hd Hin. unfold dget_or. rewrite (In_dget d c n Hd Hin). reflexivity. Qed.

Lemma dmem_In (d : list (C * Z)) c : dmem d c = true <-> In c (map fst d).
Proof.
  unfold dmem. induction d as [|[k u] d IH]; simpl; [split; [discriminate|tauto]|].
  destruct (ceqb c k) eqn:E.
  - apply Pos.eqb_eq in E. subst. split; [left; reflexivity|reflexivity].
  - rewrite IH. split; [right; assumption|]. intros [->|H]; [rewrite Pos.eqb_refl in E; discriminate|exact H].
Qed.

(* The tally both Copeland (k = -1) and Schulze (k = 0) run over a list of wins: +1 for the winner, +k for the loser. *)
Definition tally (k : Z) (d : list (C * Z)) (p : pair) : list (C * Z) := dadd (dadd d (fst p) 1) (snd p) k.

Lemma tally_get k (ws : list pair) x : forall d,
  dget_or (fold_left (tally k) ws d) x 0 =
  dget_or d x 0 + Z.of_nat (length (filter (fun p : pair => ceqb (fst p) x) ws))
                + k * Z.of_nat (length (filter (fun p : pair => ceqb (snd p) x) ws)).
Proof.
  induction ws as [|p ws IH]; intros d; cbn [fold_left filter]; [simpl; lia|]. rewrite IH. unfold tally. rewrite !dadd_get.
  assert (H1 : ceqb x (fst p) = ceqb (fst p) x) by apply Pos.eqb_sym.
  assert (H2 : ceqb x (snd p) = ceqb (snd p) x) by apply Pos.eqb_sym. rewrite H1, H2.
  destruct (ceqb (fst p) x), (ceqb (snd p) x); cbn [length]; lia.
Qed.

Lemma tally_keys k (ws : list pair) : forall d, NoDup (map fst d) ->
  NoDup (map fst (fold_left (tally k) ws d)) /\
  forall x, In x (map fst (fold_left (tally k) ws d)) <-> In x (map fst d) \/ exists p, In p ws /\ (x = fst p \/ x = snd p).
Proof.
  intros d Hd. split.
  - apply (fold_left_inv (fun d => NoDup (map fst d))); [|exact Hd]. intros a p _ Ha. apply dset_nodup, dset_nodup, Ha.
  - apply (fold_left_keys (map fst)). intros a p x. unfold tally, dadd. rewrite !dset_keys_in. tauto.
Qed.

Lemma copeland_scores_count (ws : list pair) x : dget_or (copeland_scores ws) x 0 =
  Z.of_nat (length (filter (fun p : pair => ceqb (fst p) x) ws)) - Z.of_nat (length (filter (fun p : pair => ceqb (snd p) x) ws)).
Proof.
  change (copeland_scores ws) with (fold_left (tally (-1)) ws []). rewrite tally_get. change (dget_or [] x 0) with 0. lia.
Qed.

Lemma add_new_In c l x : In x (add_new c l) <-> x = c \/ In x l.
Proof.
  unfold add_new. destruct (cmem c l) eqn:E.
  - split; [tauto|]. intros [->|H]; [|exact H]. apply cmem_In. exact E.
  - rewrite in_app_iff. simpl. split; [intros [H|[H|[]]]; auto|intros [H|H]; auto].
Qed.
Lemma add_new_NoDup c l : NoDup l -> NoDup (add_new c l).
Proof.
  unfold add_new. destruct (cmem c l) eqn:E; [tauto|]. intros H.
  apply nodup_app_intro; [exact H|constructor; [intros []|constructor]|].
  intros x Hx [<-|[]]. apply cmem_In in Hx. congruence.
Qed.

Lemma candidates_spec (v : pvotes) c : In c (candidates v) <-> exists (p : pair) (n : Z), In (p, n) v /\ (c = fst p \/ c = snd p).
Proof.
  unfold candidates.
  rewrite (fold_left_keys (fun acc => acc) _ (fun (pn : pair * Z) c => c = fst (fst pn) \/ c = snd (fst pn))).
  - split; [intros [[]|([p n] & H)]; exists p, n; exact H|intros (p & n & H); right; exists (p, n); exact H].
  - intros acc pn x. rewrite !add_new_In. tauto.
Qed.

Lemma candidates_NoDup (v : pvotes) : NoDup (candidates v).
Proof.
  unfold candidates. generalize (NoDup_nil C). generalize (@nil C).
  induction v as [|x u IH]; intros acc Ha; simpl; [exact Ha|]. apply IH, add_new_NoDup, add_new_NoDup, Ha.
Qed.

Section CW.
  Variable v : pvotes.
  Hypothesis Hnd : NoDup (map fst v).
  Hypothesis Hnn : forall p n, In (p, n) v -> 0 <= n.
  Notation cs := (candidates v).
  Notation W := (pairwise_wins v false).

  Lemma pget0_nonneg p : 0 <= pget0 v p.
  Proof. unfold pget0. destruct (pget v p) eqn:E; [apply (Hnn p), pget_In, E|lia]. Qed.

  Lemma pget0_cands a b : pget0 v (a, b) <> 0 -> In a cs /\ In b cs.
  Proof.
    unfold pget0. destruct (pget v (a, b)) as [n|] eqn:E; [intros _|intros H; destruct (H eq_refl)].
    apply pget_In in E. split; apply candidates_spec; exists (a, b), n; auto.
  Qed.

  Lemma beats_cands a b : beats v a b -> In a cs /\ In b cs /\ a <> b.
  Proof.
    unfold beats. intros H. pose proof (pget0_nonneg (b, a)).
    destruct (pget0_cands a b) as [Ha Hb]; [lia|]. split; [exact Ha|]. split; [exact Hb|]. intros ->. lia.
  Qed.

  Lemma wins_iff a b : In (a, b) W <-> beats v a b.
  Proof.
    rewrite pairwise_wins_In. unfold beats. split.
    - intros (n & Hin & [H|[[=] _]]). unfold pget0 at 2. rewrite (In_pget v (a, b) n Hnd Hin). exact H.
    - intros H. pose proof (pget0_nonneg (b, a)) as H0.
      unfold pget0 at 2 in H. destruct (pget v (a, b)) as [n|] eqn:E; [|lia].
      exists n. split; [apply pget_In, E|left; exact H].
  Qed.

  Lemma wins_NoDup : NoDup W.
  Proof. unfold pairwise_wins. apply nodup_keys_filter. exact Hnd. Qed.

  Definition opponents (c : C) : list C := map snd (filter (fun p => ceqb (fst p) c) (pairwise_wins v false)).

  Lemma opponents_spec c x : In x (opponents c) <-> beats v c x.
  Proof. unfold opponents. rewrite In_filter_fst. apply wins_iff. Qed.

  Lemma opponents_NoDup c : NoDup (opponents c).
  Proof. apply filter_pairs_fst_nodup, wins_NoDup. Qed.

  Lemma opponents_incl c x : In x (opponents c) -> In x cs /\ x <> c /\ In c cs.
  Proof. intros H. apply opponents_spec, beats_cands in H. split; [tauto|]. split; [|tauto]. intros ->. tauto. Qed.

  (* Among the candidates [l] a candidate wins against at most all the others, and against one fewer if somebody beats it. *)
  Lemma opponents_bound (l : list C) x : NoDup l -> In x l -> (forall y, beats v x y -> In y l) ->
    (S (length (opponents x)) <= length l)%nat.
  Proof.
    intros Hl Hx Hin. apply (NoDup_incl_length (l := x :: opponents x)).
    - constructor; [|apply opponents_NoDup]. intros H. apply opponents_incl in H. tauto.
    - intros y [<-|Hy]; [exact Hx|apply Hin, opponents_spec, Hy].
  Qed.

  Lemma beaten_bound (l : list C) c x : NoDup l -> In x l -> (forall y, beats v x y -> In y l) -> In c l -> beats v c x ->
    (S (S (length (opponents x))) <= length l)%nat.
  Proof.
    intros Hl Hx Hin Hc Hcx. apply (NoDup_incl_length (l := c :: x :: opponents x)).
    - constructor; [|constructor; [|apply opponents_NoDup]].
      + intros [<-|H]; [|apply opponents_spec in H]; unfold beats in *; lia.
      + intros H. apply opponents_incl in H. tauto.
    - intros y [<-|[<-|Hy]]; [exact Hc|exact Hx|apply Hin, opponents_spec, Hy].
  Qed.

  Lemma beats_all_bound (l : list C) c : NoDup l -> (forall y, In y l -> y <> c -> beats v c y) ->
    (length l <= S (length (opponents c)))%nat.
  Proof.
    intros Hl Hall. apply (NoDup_incl_length (l' := c :: opponents c) Hl).
    intros y Hy. destruct (Pos.eq_dec y c) as [->|Hne]; [left; reflexivity|right; apply opponents_spec, Hall; assumption].
  Qed.

  Lemma beat_counts_get c : dget_or (beat_counts v) c 0 = Z.of_nat (length (opponents c)).
  Proof.
    unfold beat_counts, opponents. rewrite map_length. generalize W. intros ws.
    assert (H : forall d, dget_or (fold_left (fun d p => dadd d (fst p) 1) ws d) c 0 =
                dget_or d c 0 + Z.of_nat (length (filter (fun p : pair => ceqb (fst p) c) ws))).
    { induction ws as [|p ws IH]; intros d; cbn [fold_left filter]; [simpl; lia|]. rewrite IH, dadd_get.
      assert (Hs : ceqb c (fst p) = ceqb (fst p) c) by apply Pos.eqb_sym. rewrite Hs.
      destruct (ceqb (fst p) c); cbn [length]; lia. }
    apply H.
  Qed.

  Lemma beat_counts_keys : NoDup (map fst (beat_counts v)) /\
    forall c, In c (map fst (beat_counts v)) <-> exists x, In (c, x) W.
  Proof.
    unfold beat_counts. split.
    - apply (fold_left_inv (fun d => NoDup (map fst d))); [|constructor]. intros d p _ Hd. apply dset_nodup, Hd.
    - intros c. rewrite (fold_left_keys (map fst) _ (fun (p : pair) c => c = fst p)).
      + split; [intros [[]|([a b] & H & ->)]; exists b; exact H|intros (x & H); right; exists (c, x); split; [exact H|reflexivity]].
      + intros d p x. unfold dadd. rewrite dset_keys_in. tauto.
  Qed.

  Lemma beat_counts_dict :
    NoDup (map fst (beat_counts v)) /\
    (forall c, In c (map fst (beat_counts v)) -> exists x, In (c, x) (pairwise_wins v false)).
  Proof. split; [|intros c]; apply beat_counts_keys. Qed.

  (* the specification of CondorcetWinner.evaluate *)
  Definition is_cw (c : C) : Prop :=
    In c (candidates v) /\ forall x, In x (candidates v) -> x <> c -> beats v c x.

  (* a Condorcet winner is a candidate who beats all candidates but itself *)
  Lemma is_cw_count c : In c cs -> (is_cw c <-> S (length (opponents c)) = length cs).
  Proof.
    intros Hc. pose proof (opponents_bound cs c (candidates_NoDup v) Hc (fun y H => proj1 (proj2 (beats_cands c y H)))) as Hle.
    split.
    - intros [_ Hall]. apply Nat.le_antisymm; [exact Hle|apply beats_all_bound; [apply candidates_NoDup|exact Hall]].
    - intros Hlen. split; [exact Hc|]. intros x Hx Hne. apply opponents_spec.
      assert (Hincl : incl cs (c :: opponents c)).
      { apply NoDup_length_incl; [|simpl; lia|].
        - constructor; [|apply opponents_NoDup]. intros H. apply opponents_incl in H. tauto.
        - intros y [<-|Hy]; [exact Hc|]. apply opponents_incl in Hy. tauto. }
      destruct (Hincl x Hx) as [<-|H]; [congruence|exact H].
  Qed.

  Lemma is_cw_unique c c' : is_cw c -> is_cw c' -> c = c'.
  Proof.
    intros [Hc H1] [Hc' H2]. destruct (Pos.eq_dec c c') as [E|E]; [exact E|exfalso].
    assert (B1 : beats v c c') by (apply H1; [exact Hc'|intros ->; exact (E eq_refl)]).
    assert (B2 : beats v c' c) by (apply H2; [exact Hc|exact E]).
    unfold beats in *. lia.
  Qed.

  Theorem cw_spec : (2 <= length (candidates v))%nat ->
    (forall c, condorcet_winner v = [c] <-> is_cw c) /\
    (condorcet_winner v = [] \/ exists c, condorcet_winner v = [c]).
  Proof.
    intros H2. destruct beat_counts_keys as [Hbn Hbk].
    set (need := Z.of_nat (length (candidates v)) - 1).
    (* an entry carries the needed count exactly for a Condorcet winner *)
    assert (Hentry : forall c n, In (c, n) (beat_counts v) -> (n =? need) = true <-> is_cw c).
    { intros c n Hin. rewrite Z.eqb_eq. rewrite <- (In_dget_or _ c n Hbn Hin), beat_counts_get.
      assert (Hc : In c cs).
      { destruct (proj1 (Hbk c)) as (x & Hx); [apply in_map_iff; exists (c, n); auto|]. apply wins_iff, beats_cands in Hx. tauto. }
      rewrite (is_cw_count c Hc). unfold need. lia. }
    split.
    - intros c. unfold condorcet_winner. fold need. split.
      + destruct (find _ _) as [[c' n']|] eqn:Ef; [|discriminate]. intros [= ->].
        apply find_some in Ef. apply (Hentry c n'); tauto.
      + intros Hcw.
        (* c has at least one opponent, hence an entry *)
        assert (Hk : In c (map fst (beat_counts v))).
        { apply Hbk. pose proof (proj1 (is_cw_count c (proj1 Hcw)) Hcw) as Hlen.
          destruct (opponents c) as [|x t] eqn:Eo; [simpl in Hlen; lia|]. exists x.
          apply wins_iff, opponents_spec. rewrite Eo. left. reflexivity. }
        apply in_map_iff in Hk. destruct Hk as ([c0 n0] & Hc0 & Hin). simpl in Hc0. subst c0.
        destruct (find _ _) as [[c' n']|] eqn:Ef.
        * f_equal. apply find_some in Ef. apply is_cw_unique; [apply (Hentry c' n'); tauto|exact Hcw].
        * apply (Hentry c n0 Hin) in Hcw. apply (find_none _ _ Ef) in Hin. simpl in Hin. congruence.
    - unfold condorcet_winner. destruct (find _ _) as [[c' n']|]; [right; exists c'; reflexivity|left; reflexivity].
  Qed.
End CW.

Lemma zle_total a b : zle_bool a b = true \/ zle_bool b a = true.
Proof. unfold zle_bool. rewrite !Z.leb_le. lia. Qed.
Lemma zle_trans a b c : zle_bool a b = true -> zle_bool b c = true -> zle_bool a c = true.
Proof. unfold zle_bool. rewrite !Z.leb_le. lia. Qed.

Section COPE.
  Variable v : pvotes.
  Hypothesis Hnd : NoDup (map fst v).
  Hypothesis Hnn : forall p n, In (p, n) v -> 0 <= n.

  Notation W := (pairwise_wins v false).
  Definition nwins (x : C) : Z := Z.of_nat (length (filter (fun p : pair => ceqb (fst p) x) W)).
  Definition nlosses (x : C) : Z := Z.of_nat (length (filter (fun p : pair => ceqb (snd p) x) W)).

  Lemma copeland_scores_get x : dget_or (copeland_scores W) x 0 = nwins x - nlosses x.
  Proof. apply copeland_scores_count. Qed.

  Definition seed (d : list (C * Z)) (c : C) : list (C * Z) := if dmem d c then d else d ++ [(c, 0)].

  Lemma dget_or_app_new (d : list (C * Z)) c x : dmem d c = false -> dget_or (d ++ [(c, 0)]) x 0 = dget_or d x 0.
  Proof.
    unfold dmem, dget_or. intros H. induction d as [|[k u] d IH]; simpl in *.
    - destruct (ceqb x c); reflexivity.
    - destruct (ceqb c k) eqn:E; [discriminate|]. destruct (ceqb x k); [reflexivity|]. apply IH. exact H.
  Qed.

  Lemma seed_fold cs : forall d, NoDup (map fst d) ->
    let d' := fold_left seed cs d in
    NoDup (map fst d') /\ (forall x, dget_or d' x 0 = dget_or d x 0) /\
    (forall x, In x (map fst d') <-> In x (map fst d) \/ In x cs).
  Proof.
    intros d Hd. cbv zeta.
    assert (Hinv : NoDup (map fst (fold_left seed cs d)) /\ forall x, dget_or (fold_left seed cs d) x 0 = dget_or d x 0).
    { apply (fold_left_inv (fun d' => NoDup (map fst d') /\ forall x, dget_or d' x 0 = dget_or d x 0)); [|split; [exact Hd|reflexivity]].
      intros a c _ [Hn Hg]. unfold seed. destruct (dmem a c) eqn:E; [split; assumption|]. split.
      - rewrite map_app. cbn [map fst]. apply nodup_app_intro; [exact Hn|constructor; [intros []|constructor]|].
        intros x Hx [<-|[]]. apply dmem_In in Hx. congruence.
      - intros x. rewrite dget_or_app_new; [apply Hg|exact E]. }
    split; [apply Hinv|]. split; [apply Hinv|].
    intros x. rewrite (fold_left_keys (map fst) seed (fun c x => x = c)).
    - split; [intros [H|(c & Hc & ->)]; auto|intros [H|H]; [auto|right; exists x; auto]].
    - intros a c y. unfold seed. destruct (dmem a c) eqn:E.
      + apply dmem_In in E. split; [auto|intros [H| ->]; assumption].
      + rewrite map_app, in_app_iff. simpl. split; [intros [H|[H|[]]]; auto|intros [H|H]; auto].
  Qed.

  Lemma copeland_scores_keys : NoDup (map fst (copeland_scores W)) /\
    forall x, In x (map fst (copeland_scores W)) -> In x (candidates v).
  Proof.
    destruct (tally_keys (-1) W [] (NoDup_nil _)) as [Hn Hk]. split; [exact Hn|].
    intros x Hx. apply Hk in Hx. destruct Hx as [[]|([a b] & Hp & Hx)].
    apply (wins_iff v Hnd Hnn), (beats_cands v Hnn) in Hp. simpl in Hx. destruct Hx as [->| ->]; tauto.
  Qed.

  Theorem copeland_elects_cw so c : (2 <= length (candidates v))%nat -> is_cw v c ->
    copeland so v 1 = [Cand c].
  Proof.
    intros H2 Hcw. unfold copeland.
    destruct copeland_scores_keys as [Hkn Hks].
    destruct (seed_fold (candidates v) (copeland_scores W) Hkn) as (Sn & Sg & Sk).
    fold seed. set (scores := fold_left seed (candidates v) (copeland_scores W)) in *.
    pose proof Hcw as [Hc Hall].
    pose proof (candidates_NoDup v) as Hcn.
    assert (Hin_cs : forall x y, beats v x y -> In y (candidates v)) by (intros x y H; apply (beats_cands v Hnn x y H)).
    assert (Hopp : forall x, nwins x = Z.of_nat (length (opponents v x))) by (intros x; unfold opponents; rewrite map_length; reflexivity).
    (* the winner wins against everybody else and never loses; whoever it beats wins at most m - 2 times *)
    assert (Hwc : nwins c = Z.of_nat (length (candidates v)) - 1).
    { rewrite Hopp. apply (is_cw_count v Hnd Hnn c Hc) in Hcw. lia. }
    assert (Hlc : nlosses c = 0).
    { unfold nlosses. destruct (filter _ W) as [|[a b] t] eqn:Ef; [reflexivity|exfalso].
      assert (Hin : In (a, b) (filter (fun p : pair => ceqb (snd p) c) W)) by (rewrite Ef; left; reflexivity).
      apply filter_In in Hin. destruct Hin as [Hin Hb]. apply ceqb_eq in Hb. simpl in Hb. subst b.
      apply (wins_iff v Hnd Hnn) in Hin. destruct (beats_cands v Hnn a c Hin) as (Ha & _ & Hne).
      specialize (Hall a Ha Hne). unfold beats in *. lia. }
    assert (Hbest : get_n_best zle_bool scores 1 = [Cand c]).
    { assert (Hk : In c (map fst scores)) by (apply Sk; right; exact Hc).
      apply in_map_iff in Hk. destruct Hk as ([c0 u] & Hc0 & Hin). simpl in Hc0. subst c0.
      apply (get_n_best_unique_max zle_bool zle_total zle_trans Pos.eq_dec scores c u Sn Hin).
      pose proof (In_dget_or scores c u Sn Hin) as Hu. rewrite Sg, copeland_scores_get, Hwc, Hlc in Hu.
      intros x s Hins Hne. pose proof (In_dget_or scores x s Sn Hins) as Hs. rewrite Sg, copeland_scores_get, Hopp in Hs.
      assert (Hx : In x (candidates v)).
      { assert (Hk : In x (map fst scores)) by (apply in_map_iff; exists (x, s); split; [reflexivity|exact Hins]).
        apply Sk in Hk. destruct Hk as [Hk|Hk]; [apply Hks, Hk|exact Hk]. }
      pose proof (beaten_bound v Hnd Hnn _ c x Hcn Hx (Hin_cs x) Hc (Hall x Hx Hne)) as Hw.
      unfold GetNBest.ltb, zle_bool. apply negb_true_iff, Z.leb_gt. unfold nlosses in Hs. lia. }
    rewrite Hbest. simpl. rewrite andb_false_r. reflexivity.
  Qed.
End COPE.
