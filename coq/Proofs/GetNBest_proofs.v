(* Lemmas about the stable sorts and get_n_best (Model/GetNBest.v). *)
From Coq Require Import List Arith Bool Lia Permutation Sorted.
From VL Require Import Model.GetNBest.
Import ListNotations.

Lemma NoDup_fst_eq {A B} (l : list (A * B)) a b b' : NoDup (map fst l) -> In (a, b) l -> In (a, b') l -> b = b'.
Proof.
  induction l as [|[k u] t IH]; simpl; intros Hnd H H'; [destruct H|].
  inversion Hnd as [|? ? Hk Hnd']; subst.
  destruct H as [H|H], H' as [H'|H']; [congruence| | |exact (IH Hnd' H H')]; exfalso; apply Hk.
  - injection H as -> _. exact (in_map fst _ _ H').
  - injection H' as -> _. exact (in_map fst _ _ H).
Qed.

(* in a part of a dictionary, a key of the dictionary is found with its own value *)
Lemma key_in_part {K V} (votes X : list (K * V)) c v : NoDup (map fst votes) -> In (c, v) votes -> incl X votes ->
  (In c (map fst X) <-> In (c, v) X).
Proof.
  intros Hnd Hin Hsub. split; [|apply (in_map fst)]. intros H. apply in_map_iff in H. destruct H as ([c0 v'] & Ec & Hi).
  simpl in Ec. subst c0. rewrite (NoDup_fst_eq votes c v v' Hnd Hin (Hsub _ Hi)). exact Hi.
Qed.

Lemma NoDup_app_l {X} (a b : list X) : NoDup (a ++ b) -> NoDup a.
Proof.
  induction a as [|x a IH]; simpl; intros H; [constructor|]. inversion H as [|? ? Hx Hn]; subst.
  constructor; [|exact (IH Hn)]. intros Hi. apply Hx, in_or_app. left. exact Hi.
Qed.

Lemma perm_part_keys {K V} (a b votes : list (K * V)) : Permutation (a ++ b) votes -> NoDup (map fst votes) ->
  NoDup (map fst a) /\ incl (map fst a) (map fst votes).
Proof.
  intros Hp Hnd. apply (Permutation_map fst) in Hp. rewrite map_app in Hp. split.
  - exact (NoDup_app_l _ _ (Permutation_NoDup (Permutation_sym Hp) Hnd)).
  - intros x Hx. apply (Permutation_in _ Hp), in_or_app. left. exact Hx.
Qed.

Lemma nodup_keys_filter {A B} (f : A * B -> bool) l : NoDup (map fst l) -> NoDup (map fst (filter f l)).
Proof.
  induction l as [|x l IH]; simpl; intros H; [constructor|]. inversion H as [|? ? Hx Hn]; subst.
  destruct (f x); simpl; [constructor|]; try apply IH, Hn.
  intros Hi. apply Hx. apply in_map_iff in Hi. destruct Hi as (y & Hy & Hi). apply filter_In in Hi.
  apply in_map_iff. exists y. tauto.
Qed.

Section Asc.
  Context {C V : Type}.
  Variable leb : V -> V -> bool.
  Hypothesis leb_total : forall a b, leb a b = true \/ leb b a = true.
  Hypothesis leb_trans : forall a b c, leb a b = true -> leb b c = true -> leb a c = true.

  Definition le_item (a b : C * V) : Prop := leb (snd a) (snd b) = true.
  Definition sorted_asc (l : list (C * V)) : Prop := StronglySorted le_item l.

  Lemma insert_asc_perm x l : Permutation (@insert_asc C V leb x l) (x :: l).
  Proof.
    induction l as [|y t IH]; simpl; [reflexivity|].
    destruct (leb (snd x) (snd y)); [reflexivity|]. rewrite IH. apply perm_swap.
  Qed.
  Lemma sort_asc_perm l : Permutation (@sort_asc C V leb l) l.
  Proof.
    induction l as [|x t IH]; simpl; [reflexivity|]. rewrite insert_asc_perm. constructor. exact IH.
  Qed.
  Lemma insert_asc_sorted x l : sorted_asc l -> sorted_asc (@insert_asc C V leb x l).
  Proof.
    unfold sorted_asc. induction l as [|y t IH]; simpl; intros Hs.
    - constructor; constructor.
    - inversion Hs as [|? ? Hs' Hall]; subst.
      destruct (leb (snd x) (snd y)) eqn:E.
      + constructor; [assumption|]. constructor; [exact E|].
        eapply Forall_impl; [|exact Hall]. intros z Hz. unfold le_item in *. eapply leb_trans; eassumption.
      + constructor; [apply IH; assumption|].
        eapply Permutation_Forall; [apply Permutation_sym, insert_asc_perm|].
        constructor; [|assumption]. unfold le_item.
        destruct (leb_total (snd x) (snd y)); [congruence|assumption].
  Qed.
  Lemma sort_asc_sorted l : sorted_asc (@sort_asc C V leb l).
  Proof. induction l as [|x t IH]; simpl; [constructor|]. apply insert_asc_sorted, IH. Qed.
End Asc.

Section P.
  Context {C V : Type}.
  Variable leb : V -> V -> bool.
  Hypothesis leb_total : forall a b, leb a b = true \/ leb b a = true.
  Hypothesis leb_trans : forall a b c, leb a b = true -> leb b c = true -> leb a c = true.

  Notation eqv := (@eqv V leb).
  Notation ltb := (@ltb V leb).
  Notation sort_desc := (@sort_desc C V leb).
  Notation insert_desc := (@insert_desc C V leb).

  Lemma leb_refl a : leb a a = true.
  Proof. destruct (leb_total a a); assumption. Qed.

  Lemma eqv_refl a : eqv a a = true.
  Proof. unfold GetNBest.eqv. rewrite leb_refl. reflexivity. Qed.

  Lemma ltb_leb a b : ltb a b = true -> leb a b = true.
  Proof.
    unfold GetNBest.ltb. intros H. destruct (leb_total a b) as [H1|H1]; [assumption|].
    rewrite H1 in H. discriminate.
  Qed.

  Lemma ltb_not_eqv a b : ltb a b = true -> eqv a b = false.
  Proof.
    unfold GetNBest.ltb, GetNBest.eqv. intros H. destruct (leb b a); [discriminate|].
    apply andb_false_r.
  Qed.

  Lemma ltb_not_eqv' a b : ltb a b = true -> eqv b a = false.
  Proof.
    unfold GetNBest.ltb, GetNBest.eqv. intros H. destruct (leb b a); [discriminate|].
    reflexivity.
  Qed.

  Lemma ltb_leb_trans a b c : ltb a b = true -> leb b c = true -> ltb a c = true.
  Proof.
    unfold GetNBest.ltb. intros H1 H2. destruct (leb c a) eqn:E; [|reflexivity].
    rewrite (leb_trans _ _ _ H2 E) in H1. discriminate.
  Qed.

  Lemma leb_ltb_trans a b c : leb a b = true -> ltb b c = true -> ltb a c = true.
  Proof.
    unfold GetNBest.ltb. intros H1 H2. destruct (leb c a) eqn:E; [|reflexivity].
    rewrite (leb_trans _ _ _ E H1) in H2. discriminate.
  Qed.

  (* value order on items: a before b is fine when snd b <= snd a *)
  Definition ge_item (a b : C * V) : Prop := leb (snd b) (snd a) = true.
  Definition sorted_desc (l : list (C * V)) : Prop := StronglySorted ge_item l.

  (* the descending sort is the ascending sort for the reversed order *)
  Lemma sort_desc_flip l : sort_desc l = @sort_asc C V (fun a b => leb b a) l.
  Proof.
    induction l as [|x t IH]; simpl; [reflexivity|]. rewrite IH. clear IH.
    induction (@sort_asc C V (fun a b => leb b a) t) as [|y s IHs]; simpl; [reflexivity|]. rewrite IHs. reflexivity.
  Qed.

  Lemma sort_desc_perm l : Permutation (sort_desc l) l.
  Proof. rewrite sort_desc_flip. apply sort_asc_perm. Qed.

  Lemma sort_desc_length l : length (sort_desc l) = length l.
  Proof. apply Permutation_length, sort_desc_perm. Qed.

  Lemma sort_desc_sorted l : sorted_desc (sort_desc l).
  Proof.
    rewrite sort_desc_flip.
    exact (sort_asc_sorted (fun a b => leb b a) (fun a b => leb_total b a) (fun a b c H1 H2 => leb_trans c b a H2 H1) l).
  Qed.

  Definition f_above (thr : V) (it : C * V) := ltb thr (snd it).
  Definition f_level (thr : V) (it : C * V) := eqv (snd it) thr.
  Definition f_below (thr : V) (it : C * V) := ltb (snd it) thr.

  Lemma filter_none {X} (f : X -> bool) l : Forall (fun x => f x = false) l -> filter f l = [].
  Proof.
    induction 1 as [|x t Hx _ IH]; simpl; [reflexivity|]. rewrite Hx. exact IH.
  Qed.

  Lemma filter_all {X} (f : X -> bool) l : Forall (fun x => f x = true) l -> filter f l = l.
  Proof.
    induction 1 as [|x t Hx _ IH]; simpl; [reflexivity|]. rewrite Hx, IH. reflexivity.
  Qed.

  Lemma three_way thr (x : C * V) :
    (f_above thr x = true /\ f_level thr x = false /\ f_below thr x = false) \/
    (f_above thr x = false /\ f_level thr x = true /\ f_below thr x = false) \/
    (f_above thr x = false /\ f_level thr x = false /\ f_below thr x = true).
  Proof.
    unfold f_above, f_level, f_below, GetNBest.ltb, GetNBest.eqv.
    destruct (leb thr (snd x)) eqn:E1, (leb (snd x) thr) eqn:E2; simpl; auto.
    destruct (leb_total thr (snd x)); congruence.
  Qed.

  Lemma split3 thr s : sorted_desc s ->
    s = filter (f_above thr) s ++ filter (f_level thr) s ++ filter (f_below thr) s.
  Proof.
    unfold sorted_desc. induction 1 as [|x t Hs IH Hall]; [reflexivity|]. cbn [filter].
    destruct (three_way thr x) as [(-> & -> & ->)|[(Ha & -> & ->)|(-> & -> & Hb)]].
    - cbn [app]. f_equal. exact IH.
    - (* nothing behind an item that is not above is above *)
      assert (Hn : filter (f_above thr) t = []).
      { apply filter_none. eapply Forall_impl; [|exact Hall]. intros z Hz. unfold f_above, GetNBest.ltb in *.
        apply negb_false_iff in Ha. apply negb_false_iff. eapply leb_trans; eassumption. }
      rewrite Ha, Hn. rewrite Hn in IH. cbn [app]. f_equal. exact IH.
    - (* everything behind an item below is below *)
      assert (Ht : Forall (fun z => f_below thr z = true) t).
      { eapply Forall_impl; [|exact Hall]. intros z Hz. eapply leb_ltb_trans; eassumption. }
      rewrite Hb, (filter_all _ _ Ht), (filter_none (f_above thr) t), (filter_none (f_level thr) t); [reflexivity| |];
        (eapply Forall_impl; [|exact Ht]); intros z Hz.
      + apply ltb_not_eqv, Hz.
      + unfold f_above, GetNBest.ltb. rewrite (ltb_leb _ _ Hz). reflexivity.
  Qed.

  Lemma filter_Forall {X} (f : X -> bool) l : Forall (fun x => f x = true) (filter f l).
  Proof. apply Forall_forall. intros x Hx. apply filter_In in Hx. tauto. Qed.

  Lemma sorted_app_l (a b : list (C * V)) : sorted_desc (a ++ b) -> sorted_desc a.
  Proof.
    unfold sorted_desc. induction a as [|x t IH]; simpl; intros H; [constructor|].
    inversion H as [|? ? Hs Hall]; subst. constructor; [apply IH; assumption|].
    apply Forall_app in Hall. tauto.
  Qed.

  Lemma first_eq_index_app thr a l :
    Forall (fun it => eqv (snd it) thr = false) a ->
    (exists x t, l = x :: t /\ eqv (snd x) thr = true) ->
    @first_eq_index C V leb thr (a ++ l) = length a.
  Proof.
    intros Ha (x & t & -> & Hx). induction Ha as [|y a' Hy _ IH]; simpl.
    - rewrite Hx. reflexivity.
    - rewrite Hy. f_equal. exact IH.
  Qed.

  Lemma nth_error_app3 {X} (a b c : list X) k x :
    nth_error (a ++ b ++ c) k = Some x ->
    (k < length a /\ In x a) \/
    (length a <= k < length a + length b /\ In x b) \/
    (length a + length b <= k /\ In x c).
  Proof.
    intros H. destruct (Nat.lt_ge_cases k (length a)) as [Hk|Hk].
    - left. split; [assumption|]. rewrite nth_error_app1 in H by assumption. eapply nth_error_In; eassumption.
    - rewrite nth_error_app2 in H by assumption.
      destruct (Nat.lt_ge_cases (k - length a) (length b)) as [Hk2|Hk2].
      + right; left. split; [lia|]. rewrite nth_error_app1 in H by assumption. eapply nth_error_In; eassumption.
      + right; right. split; [lia|]. rewrite nth_error_app2 in H by assumption. eapply nth_error_In; eassumption.
  Qed.

  Definition cand_of (it : C * V) : res C := Cand (fst it).

  Lemma in_cand_of c (l : list (C * V)) : In (Cand c) (map cand_of l) <-> exists v, In (c, v) l.
  Proof.
    rewrite in_map_iff. split.
    - intros ([c0 v] & E & H). injection E as ->. exists v. exact H.
    - intros [v H]. exists (c, v). split; [reflexivity|exact H].
  Qed.

  Theorem get_n_best_spec votes n : 1 <= n ->
    let r := @get_n_best C V leb votes n in
    (length votes <= n ->
       exists s, Permutation s votes /\ sorted_desc s /\ r = map cand_of s) /\
    (n < length votes ->
       exists above level below thr,
         Permutation (above ++ level ++ below) votes /\
         sorted_desc above /\
         Forall (fun it => ltb thr (snd it) = true) above /\
         Forall (fun it => eqv (snd it) thr = true) level /\
         Forall (fun it => ltb (snd it) thr = true) below /\
         length above < n <= length above + length level /\
         (length above + length level = n -> r = map cand_of (above ++ level)) /\
         (n < length above + length level ->
            r = map cand_of above ++ repeat (TieR (map fst level)) (n - length above))).
  Proof.
    intros Hn r. subst r. unfold get_n_best.
    pose proof (sort_desc_perm votes) as Hperm.
    pose proof (sort_desc_sorted votes) as Hsorted.
    pose proof (sort_desc_length votes) as Hlen.
    set (s := sort_desc votes) in *.
    split.
    - intros Hle. exists s. split; [assumption|]. split; [assumption|].
      assert (Nat.ltb n (length s) = false) as -> by (apply Nat.ltb_ge; lia).
      reflexivity.
    - intros Hlt.
      assert (Nat.ltb n (length s) = true) as -> by (apply Nat.ltb_lt; lia).
      destruct (nth_error s (n - 1)) as [[c1 thr]|] eqn:E1;
        [|apply nth_error_None in E1; lia].
      destruct (nth_error s n) as [[c2 nxt]|] eqn:E2;
        [|apply nth_error_None in E2; lia].
      pose proof (split3 thr s Hsorted) as Hsplit.
      set (above := filter (f_above thr) s) in *.
      set (level := filter (f_level thr) s) in *.
      set (below := filter (f_below thr) s) in *.
      assert (Ha : Forall (fun it => ltb thr (snd it) = true) above) by apply filter_Forall.
      assert (Hl : Forall (fun it => eqv (snd it) thr = true) level) by apply filter_Forall.
      assert (Hb : Forall (fun it => ltb (snd it) thr = true) below) by apply filter_Forall.
      (* position of n-1 : inside level *)
      assert (Hpos : length above < n <= length above + length level).
      { rewrite Hsplit in E1. apply nth_error_app3 in E1.
        destruct E1 as [[Hk Hin]|[[Hk Hin]|[Hk Hin]]].
        - rewrite Forall_forall in Ha. specialize (Ha _ Hin). simpl in Ha.
          unfold GetNBest.ltb in Ha. rewrite leb_refl in Ha. discriminate.
        - lia.
        - rewrite Forall_forall in Hb. specialize (Hb _ Hin). simpl in Hb.
          unfold GetNBest.ltb in Hb. rewrite leb_refl in Hb. discriminate. }
      assert (Hnxt : eqv nxt thr = true <-> n < length above + length level).
      { rewrite Hsplit in E2. apply nth_error_app3 in E2.
        destruct E2 as [[Hk Hin]|[[Hk Hin]|[Hk Hin]]].
        - lia.
        - rewrite Forall_forall in Hl. specialize (Hl _ Hin). simpl in Hl. rewrite Hl. split; [lia|reflexivity].
        - rewrite Forall_forall in Hb. specialize (Hb _ Hin). simpl in Hb.
          rewrite (ltb_not_eqv _ _ Hb). split; [discriminate|lia]. }
      exists above, level, below, thr.
      split; [rewrite <- Hsplit; exact Hperm|].
      split; [rewrite Hsplit in Hsorted; eapply sorted_app_l; exact Hsorted|].
      split; [exact Ha|]. split; [exact Hl|]. split; [exact Hb|]. split; [exact Hpos|].
      split.
      + intros Heq. destruct (eqv nxt thr) eqn:En.
        * assert (n < length above + length level) by (apply Hnxt; reflexivity). lia.
        * rewrite Hsplit. rewrite app_assoc, firstn_app.
          rewrite app_length.
          replace (n - (length above + length level)) with 0 by lia. simpl.
          rewrite app_nil_r. rewrite firstn_all2 by (rewrite app_length; lia). reflexivity.
      + intros Hgt. apply Hnxt in Hgt. rewrite Hgt.
        fold (f_level thr). fold level.
        assert (Hidx : @first_eq_index C V leb thr s = length above).
        { rewrite Hsplit. rewrite first_eq_index_app; [reflexivity| |].
          - eapply Forall_impl; [|exact Ha]. intros z Hz. apply ltb_not_eqv'. exact Hz.
          - destruct level as [|x t] eqn:El; [simpl in Hpos; lia|].
            exists x, (t ++ below). split; [reflexivity|]. inversion Hl; assumption. }
        rewrite Hidx. rewrite Hsplit at 1. rewrite firstn_app, firstn_all, Nat.sub_diag. simpl.
        rewrite app_nil_r. reflexivity.
  Qed.

  Lemma get_n_best_0 votes : @get_n_best C V leb votes 0 = [].
  Proof.
    unfold get_n_best. destruct (sort_desc votes) as [|[c v] t]; [reflexivity|]. simpl.
    rewrite !eqv_refl. reflexivity.
  Qed.

  Lemma cand_of_map (l : list (C * V)) : map cand_of l = map Cand (map fst l).
  Proof. rewrite map_map. reflexivity. Qed.

  (* Every outcome is of one of two kinds.  A clean cut: the min n (length votes) best items, each strictly above
     every item left out.  Or the items above a level thr are listed, and the seats left over - at least one, fewer
     than the items on the level - are filled with copies of one tie object made of those items. *)
  Theorem get_n_best_cut votes n : 1 <= n ->
    (exists top rest, Permutation (top ++ rest) votes /\ length top = Nat.min n (length votes) /\
       (forall a b, In a top -> In b rest -> ltb (snd b) (snd a) = true) /\
       @get_n_best C V leb votes n = map cand_of top) \/
    (exists above level below thr, Permutation (above ++ level ++ below) votes /\
       Forall (fun it => ltb thr (snd it) = true) above /\
       Forall (fun it => eqv (snd it) thr = true) level /\
       Forall (fun it => ltb (snd it) thr = true) below /\
       length above < n < length above + length level /\
       @get_n_best C V leb votes n = map cand_of above ++ repeat (TieR (map fst level)) (n - length above)).
  Proof.
    intros Hn. destruct (get_n_best_spec votes n Hn) as [Hsmall Hbig].
    destruct (Nat.le_gt_cases (length votes) n) as [Hle|Hgt].
    - left. destruct (Hsmall Hle) as (s & Hp & _ & E). exists s, []. rewrite app_nil_r.
      split; [exact Hp|]. split; [rewrite (Permutation_length Hp); lia|]. split; [intros a b _ []|exact E].
    - destruct (Hbig Hgt) as (above & level & below & thr & Hp & _ & Ha & Hl & Hb & Hpos & Heq & Htie).
      destruct (Nat.eq_dec (length above + length level) n) as [He|Hne].
      + (* the level fits: everything on it or above it is listed, what is left out is below it *)
        left. exists (above ++ level), below. rewrite <- app_assoc. split; [exact Hp|].
        split; [rewrite app_length; lia|]. split; [|exact (Heq He)].
        rewrite Forall_forall in Ha, Hl, Hb. intros a b Hi Hj. apply ltb_leb_trans with thr; [exact (Hb b Hj)|].
        apply in_app_or in Hi. destruct Hi as [Hi|Hi]; [exact (ltb_leb _ _ (Ha a Hi))|].
        specialize (Hl a Hi). apply andb_true_iff in Hl. apply Hl.
      + right. exists above, level, below, thr. rewrite Htie by lia.
        split; [exact Hp|]. split; [exact Ha|]. split; [exact Hl|]. split; [exact Hb|]. split; [lia|reflexivity].
  Qed.

  Lemma get_n_best_length votes n : 1 <= n -> length (@get_n_best C V leb votes n) = Nat.min n (length votes).
  Proof.
    intros Hn. destruct (get_n_best_cut votes n Hn)
      as [(top & rest & _ & Hlen & _ & ->)|(above & level & below & thr & Hp & _ & _ & _ & Hpos & ->)].
    - rewrite map_length. exact Hlen.
    - apply Permutation_length in Hp. rewrite !app_length in Hp. rewrite app_length, map_length, repeat_length. lia.
  Qed.

  (* the values of the three classes exclude one another, so the value of an item tells its class *)
  Lemma class_by_value above level below thr (x : C * V) :
    Forall (fun it => ltb thr (snd it) = true) above -> Forall (fun it => eqv (snd it) thr = true) level ->
    Forall (fun it => ltb (snd it) thr = true) below -> In x (above ++ level ++ below) ->
    (In x above <-> ltb thr (snd x) = true) /\ (In x level <-> eqv (snd x) thr = true).
  Proof.
    rewrite !Forall_forall, !in_app_iff. intros Ha Hl Hb Hx.
    split; split; [apply Ha| |apply Hl| ]; intros Hv; destruct Hx as [H|[H|H]]; try exact H; exfalso.
    - pose proof (Hl x H) as E. rewrite (ltb_not_eqv' _ _ Hv) in E. discriminate.
    - pose proof (ltb_leb _ _ (Hb x H)) as E. unfold GetNBest.ltb in Hv. rewrite E in Hv. discriminate.
    - rewrite (ltb_not_eqv' _ _ (Ha x H)) in Hv. discriminate.
    - rewrite (ltb_not_eqv _ _ (Hb x H)) in Hv. discriminate.
  Qed.

  (* The same by candidate, for a dictionary: A are the candidates listed, T the members of the tie object. *)
  Theorem get_n_best_keys votes n : 1 <= n -> NoDup (map fst votes) ->
    (exists A, @get_n_best C V leb votes n = map Cand A /\ NoDup A /\ incl A (map fst votes) /\
       length A = Nat.min n (length votes) /\
       forall c v c' v', In c A -> In (c, v) votes -> In (c', v') votes -> ~ In c' A -> ltb v' v = true) \/
    (exists A T thr k, @get_n_best C V leb votes n = map Cand A ++ repeat (TieR T) k /\
       (forall c v, In (c, v) votes -> (In c A <-> ltb thr v = true)) /\
       (forall c v, In (c, v) votes -> (In c T <-> eqv v thr = true)) /\
       NoDup (A ++ T) /\ incl (A ++ T) (map fst votes) /\ length A + k = n /\ 0 < k < length T).
  Proof.
    intros Hn Hnd. destruct (get_n_best_cut votes n Hn)
      as [(top & rest & Hp & Hlen & Hsep & E)|(above & level & below & thr & Hp & Ha & Hl & Hb & Hpos & E)];
      rewrite E, cand_of_map; clear E;
      assert (Hin : forall x, In x votes <-> In x _) by (intros x; split; apply Permutation_in; [apply Permutation_sym| ]; exact Hp).
    - left. exists (map fst top). destruct (perm_part_keys top rest votes Hp Hnd) as [Nt It].
      split; [reflexivity|]. split; [exact Nt|]. split; [exact It|]. split; [rewrite map_length; exact Hlen|].
      intros c v c' v' Hc Hv Hv' Hnot. apply (Hsep (c, v) (c', v')).
      + apply (key_in_part votes top c v Hnd Hv); [|exact Hc]. intros x Hx. apply Hin, in_or_app. left. exact Hx.
      + apply Hin, in_app_or in Hv'. destruct Hv' as [H|H]; [|exact H]. destruct Hnot. exact (in_map fst _ _ H).
    - right. exists (map fst above), (map fst level), thr, (n - length above). rewrite !map_length.
      split; [reflexivity|].
      assert (Hcls : forall c v, In (c, v) votes ->
                (In c (map fst above) <-> ltb thr v = true) /\ (In c (map fst level) <-> eqv v thr = true)).
      { intros c v Hv.
        rewrite (key_in_part votes above c v Hnd Hv), (key_in_part votes level c v Hnd Hv).
        - exact (class_by_value above level below thr (c, v) Ha Hl Hb (proj1 (Hin _) Hv)).
        - intros x Hx. apply Hin. rewrite !in_app_iff. auto.
        - intros x Hx. apply Hin. rewrite !in_app_iff. auto. }
      split; [intros c v Hv; apply (Hcls c v Hv)|]. split; [intros c v Hv; apply (Hcls c v Hv)|].
      rewrite app_assoc in Hp. destruct (perm_part_keys _ below votes Hp Hnd) as [Nal Ial]. rewrite map_app in Nal, Ial.
      split; [exact Nal|]. split; [exact Ial|]. lia.
  Qed.

  (* the single seat: nobody, one item strictly above all others, or a tie of all the greatest items *)
  Lemma get_n_best_1_cut votes :
    (votes = [] /\ @get_n_best C V leb votes 1 = []) \/
    (exists x rest, Permutation (x :: rest) votes /\ @get_n_best C V leb votes 1 = [Cand (fst x)] /\
       forall b, In b rest -> ltb (snd b) (snd x) = true) \/
    (exists level below thr, @get_n_best C V leb votes 1 = [TieR (map fst level)] /\
       Permutation (level ++ below) votes /\ 2 <= length level /\
       Forall (fun it => eqv (snd it) thr = true) level /\ Forall (fun it => ltb (snd it) thr = true) below).
  Proof.
    destruct (get_n_best_cut votes 1 (le_n 1))
      as [(top & rest & Hp & Hlen & Hsep & E)|(above & level & below & thr & Hp & _ & Hl & Hb & Hpos & E)].
    - destruct top as [|x [|y t]].
      + left. destruct votes; [split; [reflexivity|exact E]|cbn [length] in Hlen; lia].
      + right. left. exists x, rest. split; [exact Hp|]. split; [exact E|]. intros b Hi. apply Hsep; [left; reflexivity|exact Hi].
      + exfalso. cbn [length] in Hlen. lia.
    - assert (above = []) as -> by (destruct above; [reflexivity|simpl in Hpos; lia]).
      right. right. exists level, below, thr. simpl in Hpos.
      split; [exact E|]. split; [exact Hp|]. split; [lia|]. split; assumption.
  Qed.

  Lemma eqv_leb_l a b c : eqv a c = true -> eqv b c = true -> leb a b = true.
  Proof.
    unfold GetNBest.eqv. intros H1 H2. apply andb_true_iff in H1, H2.
    destruct H1 as [H1 _], H2 as [_ H2]. eapply leb_trans; eassumption.
  Qed.

  (* stability: candidates level with thr keep their input order *)
  Lemma insert_desc_filter_level thr x l :
    filter (f_level thr) (insert_desc x l) = filter (f_level thr) (x :: l).
  Proof.
    induction l as [|y t IH]; [reflexivity|].
    simpl. destruct (leb (snd y) (snd x)) eqn:E; [reflexivity|].
    simpl. rewrite IH. simpl.
    destruct (f_level thr x) eqn:Fx, (f_level thr y) eqn:Fy; try reflexivity.
    unfold f_level in *. rewrite (eqv_leb_l _ _ _ Fy Fx) in E. discriminate.
  Qed.

  Lemma sort_desc_filter_level thr l :
    filter (f_level thr) (sort_desc l) = filter (f_level thr) l.
  Proof.
    induction l as [|x t IH]; [reflexivity|].
    simpl sort_desc. rewrite insert_desc_filter_level. simpl. rewrite IH. reflexivity.
  Qed.

  (* the tie group of get_n_best, read off the *input* list *)
  Theorem get_n_best_tie_members votes n T :
    In (TieR T) (@get_n_best C V leb votes n) ->
    exists thr, T = map fst (filter (fun it => eqv (snd it) thr) votes) /\
                (exists c, In (c, thr) votes).
  Proof.
    unfold get_n_best. intros H.
    destruct (Nat.ltb n (length (sort_desc votes))).
    2:{ apply in_map_iff in H. destruct H as (? & H & _). discriminate. }
    destruct (nth_error (sort_desc votes) (n - 1)) as [[c1 thr]|] eqn:E1; [|destruct H].
    destruct (nth_error (sort_desc votes) n) as [[c2 nxt]|]; [|destruct H].
    destruct (eqv nxt thr).
    2:{ apply in_map_iff in H. destruct H as (? & H & _). discriminate. }
    apply in_app_or in H. destruct H as [H|H].
    { apply in_map_iff in H. destruct H as (? & H & _). discriminate. }
    apply repeat_spec in H. injection H as ->.
    exists thr. split.
    - f_equal. apply (sort_desc_filter_level thr).
    - exists c1. apply nth_error_In in E1.
      eapply Permutation_in; [apply sort_desc_perm|exact E1].
  Qed.

  (* nobody with fewer votes is elected instead of one with more *)
  Theorem get_n_best_no_inversion votes n : 1 <= n -> NoDup (map fst votes) ->
    forall c v c' v', In (c, v) votes -> In (c', v') votes -> ltb v v' = true ->
    In (Cand c) (@get_n_best C V leb votes n) -> In (Cand c') (@get_n_best C V leb votes n).
  Proof.
    intros Hn Hnd c v c' v' Hin Hin' Hlt.
    (* c is listed with its own value, whichever part of the dictionary it is listed from *)
    assert (Hval : forall part v0, incl part votes -> In (c, v0) part -> In (c, v) part).
    { intros part v0 Hi H0. rewrite (NoDup_fst_eq votes c v v0 Hnd Hin (Hi _ H0)). exact H0. }
    destruct (get_n_best_cut votes n Hn)
      as [(top & rest & Hp & _ & Hsep & ->)|(above & level & below & thr & Hp & Ha & Hl & Hb & _ & ->)];
      apply (Permutation_in _ (Permutation_sym Hp)) in Hin';
      pose proof (fun x (Hx : In x _) => Permutation_in x Hp (in_or_app _ _ x (or_introl Hx))) as Hi.
    - intros Hel. apply in_cand_of in Hel. destruct Hel as [v0 H0]. apply (Hval top v0 Hi) in H0.
      apply in_cand_of. exists v'. apply in_app_or in Hin'. destruct Hin' as [H|H]; [exact H|exfalso].
      pose proof (ltb_leb _ _ (Hsep _ _ H0 H)) as E. unfold GetNBest.ltb in Hlt. cbn [snd] in E. rewrite E in Hlt. discriminate.
    - intros Hel. apply in_app_or in Hel. destruct Hel as [Hel|Hel]; [|apply repeat_spec in Hel; discriminate].
      apply in_cand_of in Hel. destruct Hel as [v0 H0]. apply (Hval above v0 Hi) in H0.
      apply in_or_app. left. apply in_cand_of. exists v'.
      apply (class_by_value above level below thr (c', v') Ha Hl Hb Hin').
      rewrite Forall_forall in Ha. exact (ltb_leb_trans _ _ _ (Ha _ H0) (ltb_leb _ _ Hlt)).
  Qed.

  (* a strict unique maximum wins the single seat outright *)
  Hypothesis Cdec : forall a b : C, {a = b} + {a <> b}.
  Theorem get_n_best_unique_max votes c v : NoDup (map fst votes) -> In (c, v) votes ->
    (forall c' v', In (c', v') votes -> c' <> c -> ltb v' v = true) ->
    @get_n_best C V leb votes 1 = [Cand c].
  Proof.
    intros Hnd Hin Hmax.
    destruct (get_n_best_1_cut votes) as [[-> _]|[([c' v'] & rest & Hp & E & Hsep)|(level & below & thr & _ & Hp & Hlen & Hl & Hb)]];
      [destruct Hin| |]; pose proof (Permutation_in _ (Permutation_sym Hp) Hin) as Hc.
    - (* the item listed is (c, v): another one would be above it *)
      destruct (Cdec c' c) as [->|Hne]; [exact E|exfalso].
      destruct Hc as [Hc|Hc]; [congruence|]. apply Hsep, ltb_leb in Hc.
      pose proof (Hmax c' v' (Permutation_in _ Hp (or_introl eq_refl)) Hne) as Hlt.
      unfold GetNBest.ltb in Hlt. cbn [snd] in Hc. rewrite Hc in Hlt. discriminate.
    - exfalso. rewrite Forall_forall in Hl, Hb.
      assert (Hvt : leb v thr = true).
      { apply in_app_or in Hc. destruct Hc as [H|H].
        - specialize (Hl _ H). apply andb_true_iff in Hl. apply Hl.
        - apply ltb_leb, (Hb _ H). }
      (* a member of the level other than c would have at least the votes of c *)
      assert (Hlevel : forall y w, In (y, w) level -> y = c).
      { intros y w Hy. destruct (Cdec y c) as [E|E]; [exact E|exfalso].
        assert (Hyv : In (y, w) votes) by (apply (Permutation_in _ Hp), in_or_app; left; exact Hy).
        pose proof (Hmax y w Hyv E) as Hlt. specialize (Hl _ Hy). simpl in Hl. apply andb_true_iff in Hl. destruct Hl as [_ Hl].
        unfold GetNBest.ltb in Hlt. rewrite (leb_trans _ _ _ Hvt Hl) in Hlt. discriminate. }
      destruct level as [|[y w] [|[z u] t]]; [simpl in Hlen; lia..|].
      pose proof (Hlevel y w (or_introl eq_refl)). pose proof (Hlevel z u (or_intror (or_introl eq_refl))). subst.
      apply (Permutation_NoDup (Permutation_map fst (Permutation_sym Hp))) in Hnd.
      simpl in Hnd. inversion Hnd as [|? ? Hk _]. apply Hk. left. reflexivity.
  Qed.

  (* conversely: a plain single winner is a strict maximum *)
  Theorem get_n_best_1_cand votes c rest : NoDup (map fst votes) ->
    @get_n_best C V leb votes 1 = Cand c :: rest ->
    rest = [] /\ exists v, In (c, v) votes /\
      forall c' v', In (c', v') votes -> c' <> c -> ltb v' v = true.
  Proof.
    intros _ Hr.
    destruct (get_n_best_1_cut votes) as [[_ E]|[([c0 v] & others & Hp & E & Hsep)|(level & below & thr & E & _)]];
      rewrite E in Hr; try discriminate.
    injection Hr as -> <-. split; [reflexivity|]. exists v. split; [exact (Permutation_in _ Hp (or_introl eq_refl))|].
    intros c' v' Hin Hne. apply (Permutation_in _ (Permutation_sym Hp)) in Hin.
    destruct Hin as [H|H]; [congruence|exact (Hsep _ H)].
  Qed.
End P.
