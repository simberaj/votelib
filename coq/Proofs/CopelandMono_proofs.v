(* Copeland is monotone (C17): if the pairwise counts change only in favour of w (w's counts against others do
   not drop, the others' counts against w do not rise, contests among the others are untouched, same candidates),
   a sole first-order Copeland winner w remains the sole winner.  The file defines that change ([raises]) and the
   first-order score dictionary ([cscores]) for the files that follow, and says when a candidate is its sole maximum
   ([copeland_sole]). *)
From Coq Require Import ZArith List Bool Lia Arith.
From VL Require Import Prelude.PyDict Model.GetNBest Model.Condorcet Proofs.Dict_proofs Proofs.GetNBest_proofs Proofs.Condorcet_proofs.
Import ListNotations.
Open Scope Z_scope.

Definition raises (v v' : pvotes) (w : C) : Prop :=
  candidates v' = candidates v /\
  (forall x, pget0 v (w, x) <= pget0 v' (w, x) /\ pget0 v' (x, w) <= pget0 v (x, w)) /\
  (forall a b, a <> w -> b <> w -> pget0 v' (a, b) = pget0 v (a, b)).

(* the first-order Copeland score dictionary (every candidate seeded with zero) *)
Definition cscores (u : pvotes) : list (C * Z) := fold_left seed (candidates u) (copeland_scores (pairwise_wins u false)).

Lemma cscores_facts (u : pvotes) : NoDup (map fst u) -> (forall p n, In (p, n) u -> 0 <= n) ->
  NoDup (map fst (cscores u)) /\
  (forall x s, In (x, s) (cscores u) -> s = nwins u x - nlosses u x /\ In x (candidates u)) /\
  (forall x, In x (candidates u) -> In x (map fst (cscores u))).
Proof.
  intros Hn Hp. destruct (copeland_scores_keys u Hn Hp) as [Hkn Hks].
  destruct (seed_fold (candidates u) (copeland_scores (pairwise_wins u false)) Hkn) as (Sn & Sg & Sk).
  fold (cscores u) in Sn, Sg, Sk. split; [exact Sn|]. split.
  - intros x s Hin. pose proof (In_dget_or (cscores u) x s Sn Hin) as Hs. rewrite Sg, copeland_scores_get in Hs.
    split; [lia|]. assert (Hk : In x (map fst (cscores u))) by (apply in_map_iff; exists (x, s); auto).
    apply Sk in Hk. destruct Hk as [Hk|Hk]; [apply Hks, Hk|exact Hk].
  - intros x Hx. apply Sk. right. exact Hx.
Qed.

Lemma zlt_ltb a b : GetNBest.ltb zle_bool a b = true <-> a < b.
Proof. unfold GetNBest.ltb, zle_bool. rewrite negb_true_iff. apply Z.leb_gt. Qed.

(* w alone has the best first-order score iff its wins minus losses are strictly the largest *)
Lemma copeland_sole (u : pvotes) (w : C) : NoDup (map fst u) -> (forall p n, In (p, n) u -> 0 <= n) ->
  get_n_best zle_bool (cscores u) 1 = [Cand w] <->
  In w (candidates u) /\ forall x, In x (candidates u) -> x <> w -> nwins u x - nlosses u x < nwins u w - nlosses u w.
Proof.
  intros Hnd Hnn. destruct (cscores_facts u Hnd Hnn) as (Sn & Sv & Sc). split.
  - intros Hwin. destruct (get_n_best_1_cand zle_bool zle_total zle_trans (cscores u) w [] Sn Hwin) as (_ & sw & Hin & Hmax).
    destruct (Sv w sw Hin) as [-> Hw]. split; [exact Hw|]. intros x Hx Hne.
    apply Sc, in_map_iff in Hx. destruct Hx as ([x0 s] & Hf & Hx). simpl in Hf. subst x0.
    rewrite <- (proj1 (Sv x s Hx)). apply zlt_ltb, (Hmax x s Hx Hne).
  - intros [Hw Hlt]. apply Sc, in_map_iff in Hw. destruct Hw as ([w0 sw] & Hf & Hin). simpl in Hf. subst w0.
    apply (get_n_best_unique_max zle_bool zle_total zle_trans Pos.eq_dec (cscores u) w sw Sn Hin).
    intros x s Hx Hne. destruct (Sv x s Hx) as [-> Hxc]. destruct (Sv w sw Hin) as [-> _]. apply zlt_ltb, Hlt; assumption.
Qed.

(* in terms of the evaluator: raw Copeland, and Copeland with second-order tie-breaking when the first-order
   scores already single out w *)
Lemma copeland_raw_is_first_order (u : pvotes) n : copeland false u n = get_n_best zle_bool (cscores u) n.
Proof. unfold copeland. fold seed. fold (cscores u). reflexivity. Qed.

Lemma copeland_unfold (w : C) so (u : pvotes) : get_n_best zle_bool (cscores u) 1 = [Cand w] -> copeland so u 1 = [Cand w].
Proof.
  intros H. unfold copeland. fold seed. fold (cscores u). rewrite H. simpl. rewrite andb_false_r. reflexivity.
Qed.

(* a candidate that beats in u' everybody it beats in u has at least as many wins there; likewise for losses *)
Section WINS.
  Variables u u' : pvotes.
  Hypothesis Hnd : NoDup (map fst u).
  Hypothesis Hnn : forall p n, In (p, n) u -> 0 <= n.
  Hypothesis Hnd' : NoDup (map fst u').
  Hypothesis Hnn' : forall p n, In (p, n) u' -> 0 <= n.

  Lemma wins_filter_le (f : pair -> bool) :
    (forall a b, f (a, b) = true -> beats u a b -> beats u' a b) ->
    Z.of_nat (length (filter f (pairwise_wins u false))) <= Z.of_nat (length (filter f (pairwise_wins u' false))).
  Proof.
    intros H. apply inj_le, NoDup_incl_length; [apply NoDup_filter, wins_NoDup, Hnd|].
    intros [a b] Hp. apply filter_In in Hp. destruct Hp as [Hp Hf]. apply filter_In. split; [|exact Hf].
    apply (wins_iff u' Hnd' Hnn'), (H a b Hf), (wins_iff u Hnd Hnn), Hp.
  Qed.

  Lemma nwins_le x : (forall y, beats u x y -> beats u' x y) -> nwins u x <= nwins u' x.
  Proof. intros H. apply wins_filter_le. intros a b Hf. apply Pos.eqb_eq in Hf. simpl in Hf. subst a. apply H. Qed.

  Lemma nlosses_le x : (forall y, beats u y x -> beats u' y x) -> nlosses u x <= nlosses u' x.
  Proof. intros H. apply wins_filter_le. intros a b Hf. apply Pos.eqb_eq in Hf. simpl in Hf. subst b. apply H. Qed.
End WINS.

(* the change in favour of w ([raises], with the same candidates listed in any order) keeps a sole first-order winner *)
Theorem copeland_raised (v v' : pvotes) (w : C) :
  NoDup (map fst v) -> NoDup (map fst v') -> (forall p n, In (p, n) v -> 0 <= n) -> (forall p n, In (p, n) v' -> 0 <= n) ->
  (forall c, In c (candidates v') <-> In c (candidates v)) ->
  (forall x, pget0 v (w, x) <= pget0 v' (w, x) /\ pget0 v' (x, w) <= pget0 v (x, w)) ->
  (forall a b, a <> w -> b <> w -> pget0 v' (a, b) = pget0 v (a, b)) ->
  get_n_best zle_bool (cscores v) 1 = [Cand w] -> get_n_best zle_bool (cscores v') 1 = [Cand w].
Proof.
  intros Hnd Hnd' Hnn Hnn' Hc Hup Hoth Hwin.
  apply (copeland_sole v w Hnd Hnn) in Hwin. destruct Hwin as [Hw Hlt]. apply (copeland_sole v' w Hnd' Hnn').
  split; [apply Hc, Hw|]. intros x Hx Hne. specialize (Hlt x (proj1 (Hc x) Hx) Hne).
  assert (Bup : forall y, beats v w y -> beats v' w y) by (intros y; unfold beats; destruct (Hup y); lia).
  assert (Bdown : forall y, beats v' y w -> beats v y w) by (intros y; unfold beats; destruct (Hup y); lia).
  assert (Bsame : forall a b, a <> w -> b <> w -> (beats v' a b <-> beats v a b)).
  { intros a b Ha Hb. unfold beats. rewrite (Hoth a b Ha Hb), (Hoth b a Hb Ha). reflexivity. }
  pose proof (nwins_le v v' Hnd Hnn Hnd' Hnn' w Bup). pose proof (nlosses_le v' v Hnd' Hnn' Hnd Hnn w Bdown).
  assert (nwins v' x <= nwins v x).
  { apply nwins_le; try assumption. intros y. destruct (Pos.eq_dec y w) as [->|Hy]; [apply Bdown|apply Bsame; assumption]. }
  assert (nlosses v x <= nlosses v' x).
  { apply nlosses_le; try assumption. intros y. destruct (Pos.eq_dec y w) as [->|Hy]; [apply Bup|apply Bsame; assumption]. }
  lia.
Qed.

Theorem copeland_monotone (v v' : pvotes) (w : C) :
  NoDup (map fst v) -> NoDup (map fst v') -> (forall p n, In (p, n) v -> 0 <= n) -> (forall p n, In (p, n) v' -> 0 <= n) ->
  raises v v' w -> forall so, get_n_best zle_bool (cscores v) 1 = [Cand w] -> copeland so v' 1 = [Cand w].
Proof.
  intros Hnd Hnd' Hnn Hnn' (Hc & Hup & Hoth) so H. apply copeland_unfold, (copeland_raised v v' w); try assumption.
  intros c. rewrite Hc. reflexivity.
Qed.
