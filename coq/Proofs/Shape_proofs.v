(* Result shape (C08): the normal form of every get_n_best result, and seat accounting of the
   highest-averages distribution.  A verified boolean shape checker for selections, extracted
   and run on the implementation's outputs. *)
From Coq Require Import ZArith QArith List Bool Lia Permutation Arith.
From VL Require Import Prelude.PyDict Model.GetNBest Model.HighestAverages Proofs.Dict_proofs
     Proofs.GetNBest_proofs Proofs.QOrd Proofs.HA_proofs Proofs.Mono_proofs.
Import ListNotations.
Close Scope Q_scope.
Close Scope Z_scope.
Open Scope nat_scope.

Section SelShape.
  Context {K V : Type}.
  Variable leb : V -> V -> bool.
  Hypothesis leb_total : forall a b, leb a b = true \/ leb b a = true.
  Hypothesis leb_trans : forall a b c, leb a b = true -> leb b c = true -> leb a c = true.
  Notation gnb := (@get_n_best K V leb).

  (* normal form: plain winners, then k copies of ONE tie object with more than k members; all named
     candidates are distinct keys of the input; exactly n entries.  For any total preorder on the values. *)
  Theorem gnb_normal_form (votes : list (K * V)) n : 1 <= n <= length votes -> NoDup (map fst votes) ->
    exists elected T k,
      gnb votes n = map Cand elected ++ repeat (TieR T) k /\
      length elected + k = n /\ (k = 0 \/ k < length T) /\
      NoDup (elected ++ T) /\ incl (elected ++ T) (map fst votes).
  Proof.
    intros [Hn Hle] Hnd. destruct (get_n_best_keys leb leb_total leb_trans votes n Hn Hnd)
      as [(A & E & NA & IA & Hlen & _)|(A & T & thr & k & E & _ & _ & Nd & Ik & Hlen & Hk)].
    - exists A, [], 0. cbn [repeat]. rewrite !app_nil_r.
      split; [exact E|]. split; [lia|]. split; [left; reflexivity|]. split; assumption.
    - exists A, T, k. split; [exact E|]. split; [exact Hlen|]. split; [right; apply Hk|]. split; assumption.
  Qed.
End SelShape.

Theorem gnb_shape {K} (votes : list (K * Q)) n : 1 <= n <= length votes -> NoDup (map fst votes) ->
  exists elected T k,
    @get_n_best K Q Qle_bool votes n = map Cand elected ++ repeat (TieR T) k /\
    length elected + k = n /\ (k = 0 \/ k < length T) /\
    NoDup (elected ++ T) /\ incl (elected ++ T) (map fst votes).
Proof. apply gnb_normal_form; [exact Qle_bool_total|exact Qle_bool_trans]. Qed.

Section Checker.
  Definition is_cand (r : res C) : bool := match r with Cand _ => true | TieR _ => false end.
  Definition plain_of (r : list (res C)) : list C := flat_map (fun e => match e with Cand c => [c] | TieR _ => [] end) r.
  Definition ties_of (r : list (res C)) : list (list C) := flat_map (fun e => match e with TieR l => [l] | Cand _ => [] end) r.
  Fixpoint nodupb (l : list C) : bool := match l with [] => true | x :: t => negb (cmem x t) && nodupb t end.
  Definition subsetb (a b : list C) : bool := forallb (fun x => cmem x b) a.
  Definition disjointb (a b : list C) : bool := forallb (fun x => negb (cmem x b)) a.
  Definition same_set (a b : list C) : bool := subsetb a b && subsetb b a.
  Definition occurrences (T : list C) (r : list (res C)) : nat :=
    length (filter (fun l => same_set l T) (ties_of r)).

  (* the declarative shape of a selection over the candidates [cands] for [n] seats *)
  Definition sel_shape (cands : list C) (n : nat) (r : list (res C)) : Prop :=
    length r = n /\
    (forall c, In c (plain_of r) -> In c cands) /\
    NoDup (plain_of r) /\
    (forall T, In T (ties_of r) ->
       NoDup T /\ (forall c, In c T -> In c cands /\ ~ In c (plain_of r)) /\ occurrences T r < length T).

  Definition sel_shape_ok (cands : list C) (n : nat) (r : list (res C)) : bool :=
    Nat.eqb (length r) n && subsetb (plain_of r) cands && nodupb (plain_of r) &&
    forallb (fun T => nodupb T && subsetb T cands && disjointb T (plain_of r) && Nat.ltb (occurrences T r) (length T)) (ties_of r).

  Lemma nodupb_NoDup l : nodupb l = true <-> NoDup l.
  Proof.
    induction l as [|y l IH]; simpl; [split; [constructor|reflexivity]|].
    rewrite andb_true_iff, negb_true_iff, IH. split.
    - intros [Hn Hd]. constructor; [|exact Hd]. intros Hi. apply cmem_In in Hi. congruence.
    - intros H. inversion H as [|? ? Hn Hd]; subst. split; [|exact Hd].
      apply not_true_iff_false. intros Hi. apply cmem_In in Hi. tauto.
  Qed.
  Lemma subsetb_incl a b : subsetb a b = true <-> incl a b.
  Proof. unfold subsetb. rewrite forallb_forall. split; intros H x Hx; [apply cmem_In|apply cmem_In]; auto. Qed.
  Lemma disjointb_spec a b : disjointb a b = true <-> (forall x, In x a -> ~ In x b).
  Proof.
    unfold disjointb. rewrite forallb_forall. split; intros H x Hx.
    - specialize (H x Hx). apply negb_true_iff in H. intros Hi. apply cmem_In in Hi. congruence.
    - apply negb_true_iff, not_true_iff_false. intros Hi. apply cmem_In in Hi. exact (H x Hx Hi).
  Qed.

  Theorem sel_shape_reflect cands n r : sel_shape_ok cands n r = true <-> sel_shape cands n r.
  Proof.
    assert (Htie : forall T,
      nodupb T && subsetb T cands && disjointb T (plain_of r) && Nat.ltb (occurrences T r) (length T) = true <->
      NoDup T /\ (forall c, In c T -> In c cands /\ ~ In c (plain_of r)) /\ occurrences T r < length T).
    { intros T. split.
      - intros H. apply andb_true_iff in H. destruct H as [H Ho]. apply andb_true_iff in H. destruct H as [H Hd].
        apply andb_true_iff in H. destruct H as [Hn Hs].
        split; [apply nodupb_NoDup, Hn|]. split; [|apply Nat.ltb_lt, Ho].
        intros c Hc. split; [exact (proj1 (subsetb_incl _ _) Hs c Hc)|exact (proj1 (disjointb_spec _ _) Hd c Hc)].
      - intros (Hn & Hc & Ho). rewrite (proj2 (nodupb_NoDup T) Hn), (proj2 (Nat.ltb_lt _ _) Ho).
        rewrite (proj2 (subsetb_incl T cands)) by (intros c Hc'; apply (Hc c Hc')).
        rewrite (proj2 (disjointb_spec T (plain_of r))) by (intros c Hc'; apply (Hc c Hc')). reflexivity. }
    unfold sel_shape_ok, sel_shape. split.
    - intros H. apply andb_true_iff in H. destruct H as [H H4]. apply andb_true_iff in H. destruct H as [H H3].
      apply andb_true_iff in H. destruct H as [H1 H2].
      split; [apply Nat.eqb_eq, H1|]. split; [exact (proj1 (subsetb_incl _ _) H2)|]. split; [apply nodupb_NoDup, H3|].
      intros T HT. apply Htie. exact (proj1 (forallb_forall _ _) H4 T HT).
    - intros (H1 & H2 & H3 & H4).
      rewrite (proj2 (Nat.eqb_eq _ _) H1), (proj2 (subsetb_incl _ _) H2), (proj2 (nodupb_NoDup _) H3).
      apply forallb_forall. intros T HT. apply Htie, H4, HT.
  Qed.
End Checker.

Open Scope Z_scope.

Lemma zsum_app a b : zsum (a ++ b) = zsum a + zsum b.
Proof. apply Dict_proofs.zsum_app. Qed.

Lemma zsum_dset (t : list (C * Z)) c v : zsum (map snd (dset t c v)) = zsum (map snd t) - dget_or t c 0 + v.
Proof.
  unfold dget_or. induction t as [|[k x] t IH]; simpl.
  - rewrite zsum_cons. unfold zsum. simpl. lia.
  - destruct (ceqb c k); simpl; rewrite !zsum_cons; [lia|]. rewrite IH. lia.
Qed.

Lemma zsum_incr t c : zsum (map snd (incr_t t c)) = zsum (map snd t) + 1.
Proof. unfold incr_t. rewrite zsum_dset. lia. Qed.

Lemma zsum_fold_incr ks : forall t, zsum (map snd (fold_left incr_t ks t)) = zsum (map snd t) + Z.of_nat (length ks).
Proof.
  induction ks as [|k ks IH]; intros t; simpl fold_left; [simpl; lia|].
  rewrite IH, zsum_incr. cbn [length]. lia.
Qed.

(* a relation between the totals and the awards that holds at the start and survives a round of awards
   holds of the final state *)
Lemma final_totals_awards (P : list (C * Z) -> list (C * Q) -> Prop) d votes caps n prev :
  P prev [] -> (forall t a b, P t a -> P (fold_left incr_t (map fst b) t) (a ++ b)) ->
  let fin := final_state d votes n prev caps in P (st_totals fin) (st_awards fin).
Proof.
  intros H0 Hstep. unfold final_state. generalize (Z.to_nat (st_rem (init_state d votes n prev caps))).
  assert (H : forall f s, P (st_totals s) (st_awards s) ->
            P (st_totals (loop d votes caps n f s)) (st_awards (loop d votes caps n f s))); [|intros f; apply H, H0].
  induction f as [|f IH]; intros s H; simpl; [exact H|].
  destruct (_ && _); [apply IH|exact H].
  unfold step. destruct (st_qs s) as [|[c0 m] qs']; [exact H|]. cbv zeta.
  destruct (_ <=? _); [apply Hstep, H|exact H].
Qed.

Section HAShape.
  Variable d : Z -> Q.
  Variable votes : list (C * Q).
  Variable caps : list (C * Z).
  Variable n : Z.

  (* sum of the totals = sum of the previous gains + seats awarded so far *)
  Definition Jsum (prev : list (C * Z)) (s : state) : Prop :=
    zsum (map snd (st_totals s)) = zsum (map snd prev) + Z.of_nat (length (st_awards s)).

  Lemma final_Jsum prev : Jsum prev (final_state d votes n prev caps).
  Proof.
    apply (final_totals_awards (fun t a => zsum (map snd t) = zsum (map snd prev) + Z.of_nat (length a))); [simpl; lia|].
    intros t a b H. rewrite zsum_fold_incr, H, app_length, map_length. lia.
  Qed.
End HAShape.

(* gains: sum over the totals of (total - previous gain) = number of seats awarded *)
Definition gsumz (prev t : list (C * Z)) : Z := zsum (map (fun ct => snd ct - dget_or prev (fst ct) 0) t).
Definition Hgain (prev t : list (C * Z)) (k : Z) : Prop :=
  incl (map fst prev) (map fst t) /\ Forall (fun ct => dget_or prev (fst ct) 0 <= snd ct) t /\ gsumz prev t = k.

Lemma dget_or_absent {X} (t : list (C * X)) c dflt : ~ In c (map fst t) -> dget_or t c dflt = dflt.
Proof.
  unfold dget_or. induction t as [|[k x] t IH]; simpl; [reflexivity|]. intros H.
  destruct (ceqb c k) eqn:E; [apply ceqb_eq in E; subst; tauto|]. apply IH. tauto.
Qed.

Lemma incr_t_cons k x t c :
  incr_t ((k, x) :: t) c = if ceqb c k then (k, x + 1) :: t else (k, x) :: incr_t t c.
Proof. unfold incr_t, dget_or. simpl. destruct (ceqb c k); reflexivity. Qed.

Lemma gsumz_cons prev k x t : gsumz prev ((k, x) :: t) = x - dget_or prev k 0 + gsumz prev t.
Proof. unfold gsumz. simpl. rewrite zsum_cons. reflexivity. Qed.

Lemma incr_gain prev : forall t c, (~ In c (map fst t) -> dget_or prev c 0 = 0) ->
  Forall (fun ct => dget_or prev (fst ct) 0 <= snd ct) t ->
  incl (map fst t) (map fst (incr_t t c)) /\
  Forall (fun ct => dget_or prev (fst ct) 0 <= snd ct) (incr_t t c) /\
  gsumz prev (incr_t t c) = gsumz prev t + 1.
Proof.
  induction t as [|[k x] t IH]; intros c Hab Hf.
  - assert (H0 : dget_or prev c 0 = 0) by (apply Hab; intros []).
    change (incr_t [] c) with [(c, 0 + 1)]. split; [intros y []|]. split.
    + constructor; [simpl; rewrite H0; lia|constructor].
    + rewrite gsumz_cons, H0. unfold gsumz, zsum. simpl. lia.
  - inversion Hf as [|? ? Hx Hf']; subst. simpl in Hx. rewrite incr_t_cons.
    destruct (ceqb c k) eqn:E.
    + split; [intros y Hy; exact Hy|]. split; [constructor; [simpl; lia|exact Hf']|].
      rewrite !gsumz_cons. lia.
    + assert (Hab' : ~ In c (map fst t) -> dget_or prev c 0 = 0).
      { intros Hn. apply Hab. simpl. intros [Hk|Hi]; [apply ceqb_neq in E; congruence|tauto]. }
      destruct (IH c Hab' Hf') as (I1 & I2 & I3). split; [simpl; intros y [<-|Hy]; [left; reflexivity|right; apply I1, Hy]|].
      split; [constructor; [exact Hx|exact I2]|]. rewrite !gsumz_cons, I3. lia.
Qed.

Lemma fold_incr_gain prev ks : forall t k, Hgain prev t k -> Hgain prev (fold_left incr_t ks t) (k + Z.of_nat (length ks)).
Proof.
  induction ks as [|c ks IH]; intros t k H; simpl fold_left; [simpl; rewrite Z.add_0_r; exact H|].
  destruct H as (Hi & Hf & Hg).
  assert (Hab : ~ In c (map fst t) -> dget_or prev c 0 = 0).
  { intros Hn. apply dget_or_absent. intros Hp. apply Hn, Hi, Hp. }
  destruct (incr_gain prev t c Hab Hf) as (I1 & I2 & I3).
  replace (k + Z.of_nat (length (c :: ks))) with (k + 1 + Z.of_nat (length ks)) by (cbn [length]; lia).
  apply IH. split; [intros y Hy; apply I1, Hi, Hy|]. split; [exact I2|]. rewrite I3, Hg. reflexivity.
Qed.

Lemma init_gain prev : NoDup (map fst prev) -> Hgain prev prev 0.
Proof.
  intros Hnd. split; [intros y Hy; exact Hy|].
  assert (Hself : forall c v, In (c, v) prev -> dget_or prev c 0 = v).
  { intros c v Hin. unfold dget_or. rewrite (In_dget prev c v Hnd Hin). reflexivity. }
  split.
  - apply Forall_forall. intros [c v] Hin. simpl. rewrite (Hself c v Hin). lia.
  - unfold gsumz. assert (H0 : forall l, (forall c v, In (c, v) l -> dget_or prev c 0 = v) ->
      zsum (map (fun ct : C * Z => snd ct - dget_or prev (fst ct) 0) l) = 0).
    { induction l as [|[c v] l IH]; intros H; simpl; [reflexivity|]. rewrite zsum_cons. simpl.
      rewrite (H c v (or_introl eq_refl)), IH; [lia|]. intros c' v' Hi. apply H. right. exact Hi. }
    apply H0. exact Hself.
Qed.

Section HAGain.
  Variable d : Z -> Q.
  Variable votes : list (C * Q).
  Variable caps : list (C * Z).
  Variable n : Z.

  Lemma final_gain prev : NoDup (map fst prev) ->
    let fin := final_state d votes n prev caps in Hgain prev (st_totals fin) (Z.of_nat (length (st_awards fin))).
  Proof.
    intros Hnd. apply (final_totals_awards (fun t a => Hgain prev t (Z.of_nat (length a)))); [apply init_gain, Hnd|].
    intros t a b H. rewrite app_length, Nat2Z.inj_add, <- (map_length fst b). apply fold_incr_gain, H.
  Qed.

  (* the gains dictionary returned by evaluate: only positive entries, summing to the number of awarded seats *)
  Definition gains_of (prev t : list (C * Z)) : list (C * Z) :=
    flat_map (fun ct : C * Z => let (c, x) := ct in let g := x - dget_or prev c 0 in if 0 <? g then [(c, g)] else []) t.

  Lemma gains_sum prev t : Forall (fun ct => dget_or prev (fst ct) 0 <= snd ct) t ->
    zsum (map snd (gains_of prev t)) = gsumz prev t /\ Forall (fun cg => 0 < snd cg) (gains_of prev t).
  Proof.
    unfold gains_of, gsumz. induction 1 as [|[c x] t Hx _ [IH1 IH2]]; simpl; [split; [reflexivity|constructor]|].
    simpl in Hx. rewrite zsum_cons. simpl.
    destruct (0 <? x - dget_or prev c 0) eqn:E; simpl.
    - rewrite zsum_cons, IH1. simpl. split; [reflexivity|]. constructor; [simpl; apply Z.ltb_lt; exact E|exact IH2].
    - apply Z.ltb_ge in E. rewrite IH1. split; [lia|exact IH2].
  Qed.

  Theorem ha_gains_shape prev gains tie : NoDup (map fst prev) ->
    evaluate d votes n prev caps = HA_ok gains tie ->
    Forall (fun cg => 0 < snd cg) gains /\
    zsum (map snd gains) = Z.of_nat (length (st_awards (final_state d votes n prev caps))) /\
    tie = st_tie (final_state d votes n prev caps).
  Proof.
    intros Hnd. unfold evaluate. destruct (initial_quotients d votes prev caps n); [discriminate|].
    intros [= <- <-]. destruct (final_gain prev Hnd) as (_ & Hf & Hg).
    fold (gains_of prev (st_totals (final_state d votes n prev caps))).
    destruct (gains_sum prev _ Hf) as [S1 S2]. rewrite S1, Hg. auto.
  Qed.
End HAGain.

(* the normal form satisfies the declarative shape (so the checker accepts every get_n_best result) *)
Close Scope Z_scope.
Open Scope nat_scope.
Lemma plain_of_app a b : plain_of (a ++ b) = plain_of a ++ plain_of b.
Proof. unfold plain_of. apply flat_map_app. Qed.
Lemma ties_of_app a b : ties_of (a ++ b) = ties_of a ++ ties_of b.
Proof. unfold ties_of. apply flat_map_app. Qed.
Lemma plain_of_cands e : plain_of (map Cand e) = e.
Proof. induction e as [|x e IH]; simpl; [reflexivity|]. rewrite IH. reflexivity. Qed.
Lemma ties_of_cands e : ties_of (map (@Cand C) e) = [].
Proof. induction e as [|x e IH]; simpl; [reflexivity|exact IH]. Qed.
Lemma plain_of_ties T k : plain_of (repeat (TieR T) k) = [].
Proof. induction k as [|k IH]; simpl; [reflexivity|exact IH]. Qed.
Lemma ties_of_ties (T : list C) k : ties_of (repeat (TieR T) k) = repeat T k.
Proof. induction k as [|k IH]; simpl; [reflexivity|]. rewrite IH. reflexivity. Qed.
Lemma same_set_refl T : same_set T T = true.
Proof. unfold same_set. assert (subsetb T T = true) as -> by (apply subsetb_incl; intros x Hx; exact Hx). reflexivity. Qed.
Lemma filter_repeat_true {X} (f : X -> bool) x k : f x = true -> filter f (repeat x k) = repeat x k.
Proof. intros H. induction k as [|k IH]; simpl; [reflexivity|]. rewrite H, IH. reflexivity. Qed.

Theorem normal_form_shape cands (elected T : list C) k n :
  length elected + k = n -> (k = 0 \/ k < length T) -> NoDup (elected ++ T) -> incl (elected ++ T) cands ->
  sel_shape cands n (map Cand elected ++ repeat (TieR T) k).
Proof.
  intros Hlen Hk Hnd Hincl. unfold sel_shape.
  rewrite plain_of_app, ties_of_app, plain_of_cands, ties_of_cands, plain_of_ties, ties_of_ties, app_nil_r.
  destruct (nodup_app_inv _ _ Hnd) as (HndE & HndT & Hdis).
  split; [rewrite app_length, map_length, repeat_length; exact Hlen|].
  split; [intros c Hc; apply Hincl, in_or_app; left; exact Hc|].
  split; [exact HndE|].
  simpl. intros T' HT'. destruct Hk as [->|Hk]; [destruct HT'|].
  apply repeat_spec in HT'. subst T'.
  split; [exact HndT|]. split.
  - intros c Hc. split; [apply Hincl, in_or_app; right; exact Hc|]. intros He. exact (Hdis c He Hc).
  - unfold occurrences. rewrite ties_of_app, ties_of_cands, ties_of_ties. simpl.
    rewrite (filter_repeat_true (fun l => same_set l T) T k (same_set_refl T)), repeat_length. exact Hk.
Qed.
