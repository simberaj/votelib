(* List facts behind the scale invariance of the score aggregates (C11): [dup m l] repeats every element of l
   m times in place - the list of per-voter scores of an m-fold electorate.  For m >= 1 the stable sort commutes
   with dup, the low median and the minimum are unchanged, the sum is m-fold and the mean is unchanged. *)
From Coq Require Import ZArith QArith List Bool Arith Lia Lqa Qfield Sorted.
From VL Require Import Model.Cardinal Proofs.QOrd.
Import ListNotations.

Definition dup {X} (m : nat) (l : list X) : list X := flat_map (fun x => repeat x m) l.

Lemma dup_cons {X} m (x : X) l : dup m (x :: l) = repeat x m ++ dup m l.
Proof. reflexivity. Qed.

Lemma dup_app {X} m (a b : list X) : dup m (a ++ b) = dup m a ++ dup m b.
Proof. unfold dup. apply flat_map_app. Qed.

Lemma dup_repeat {X} m (x : X) j : dup m (repeat x j) = repeat x (j * m).
Proof. induction j as [|j IH]; [reflexivity|]. cbn [repeat]. rewrite dup_cons, IH, <- repeat_app. reflexivity. Qed.

Lemma dup_length {X} m (l : list X) : length (dup m l) = (m * length l)%nat.
Proof. induction l as [|x l IH]; [simpl; lia|]. rewrite dup_cons, app_length, repeat_length, IH. simpl. lia. Qed.

Lemma dup_ne {X} m (l : list X) : (1 <= m)%nat -> l <> [] -> dup m l <> [].
Proof. intros Hm Hl. destruct l as [|x l]; [contradiction|]. destruct m; [lia|discriminate]. Qed.

Lemma nth_repeat_in {X} (x d : X) m i : (i < m)%nat -> nth i (repeat x m) d = x.
Proof. revert i. induction m as [|m IH]; intros i Hi; [lia|]. destruct i; cbn [repeat nth]; [reflexivity|]. apply IH. lia. Qed.

Lemma nth_dup {X} m (l : list X) d i : (1 <= m)%nat -> nth i (dup m l) d = nth (i / m) l d.
Proof.
  intros Hm. revert i. induction l as [|x l IH]; intros i.
  - simpl. destruct i; destruct (_ / m)%nat; reflexivity.
  - rewrite dup_cons. destruct (Nat.lt_ge_cases i m) as [Hi|Hi].
    + rewrite app_nth1 by (rewrite repeat_length; exact Hi). rewrite Nat.div_small by exact Hi. cbn [nth].
      apply nth_repeat_in. exact Hi.
    + rewrite app_nth2 by (rewrite repeat_length; exact Hi). rewrite repeat_length, IH.
      replace i with ((i - m) + 1 * m)%nat at 2 by lia. rewrite Nat.div_add by lia.
      replace (((i - m) / m + 1)%nat) with (S ((i - m) / m)) by lia. reflexivity.
Qed.

Lemma iter_S {X} j (f : X -> X) a : Nat.iter (S j) f a = f (Nat.iter j f a).
Proof. reflexivity. Qed.

Lemma insert_q_head_le x y l : Qle_bool x y = true -> insert_q x (y :: l) = x :: y :: l.
Proof. intros H. cbn [insert_q]. rewrite H. reflexivity. Qed.

Lemma insert_q_past x y j l : Qle_bool x y = false -> insert_q x (repeat y j ++ l) = repeat y j ++ insert_q x l.
Proof. intros H. induction j as [|j IH]; [reflexivity|]. cbn [repeat app insert_q]. rewrite H, IH. reflexivity. Qed.

Lemma iter_insert_front x j l : (forall y t, l = y :: t -> Qle_bool x y = true) ->
  Nat.iter j (insert_q x) l = repeat x j ++ l.
Proof.
  intros H. induction j as [|j IH]; [reflexivity|]. rewrite iter_S, IH.
  destruct j as [|j]; cbn [repeat app].
  - destruct l as [|y t]; [reflexivity|]. apply insert_q_head_le. exact (H y t eq_refl).
  - apply insert_q_head_le, Qle_bool_refl.
Qed.

Lemma iter_insert_past x y m j l : Qle_bool x y = false ->
  Nat.iter j (insert_q x) (repeat y m ++ l) = repeat y m ++ Nat.iter j (insert_q x) l.
Proof.
  intros H. induction j as [|j IH]; [reflexivity|]. rewrite iter_S, IH. apply insert_q_past, H.
Qed.

Lemma iter_insert_dup m x s : (1 <= m)%nat -> Nat.iter m (insert_q x) (dup m s) = dup m (insert_q x s).
Proof.
  intros Hm. induction s as [|y t IH].
  - cbn [dup flat_map insert_q]. rewrite iter_insert_front by (intros y t E; discriminate). reflexivity.
  - cbn [insert_q]. destruct (Qle_bool x y) eqn:E.
    + rewrite (dup_cons m x). apply iter_insert_front. intros y0 t0 E0. rewrite dup_cons in E0.
      destruct m as [|m]; [lia|]. cbn [repeat app] in E0. injection E0 as <- _. exact E.
    + rewrite !dup_cons, iter_insert_past by exact E. rewrite IH. reflexivity.
Qed.

Lemma fold_right_repeat {X Y} (f : X -> Y -> Y) x j a : fold_right f a (repeat x j) = Nat.iter j (f x) a.
Proof. induction j as [|j IH]; [reflexivity|]. cbn [repeat fold_right]. rewrite iter_S, IH. reflexivity. Qed.

Theorem sort_q_dup m l : (1 <= m)%nat -> sort_q (dup m l) = dup m (sort_q l).
Proof.
  intros Hm. induction l as [|x l IH]; [reflexivity|].
  rewrite dup_cons. unfold sort_q in *. rewrite fold_right_app, IH, fold_right_repeat. cbn [fold_right].
  apply iter_insert_dup, Hm.
Qed.

Lemma sort_q_length l : length (sort_q l) = length l.
Proof.
  assert (H : forall x s, length (insert_q x s) = S (length s)).
  { intros x s. induction s as [|y t IH]; [reflexivity|]. cbn [insert_q]. destruct (Qle_bool x y); cbn [length]; [reflexivity|]. rewrite IH. reflexivity. }
  induction l as [|x l IH]; [reflexivity|]. unfold sort_q in *. cbn [fold_right]. rewrite H, IH. reflexivity.
Qed.

Lemma count_insert_q (f : Q -> bool) a l : length (filter f (insert_q a l)) = length (filter f (a :: l)).
Proof.
  induction l as [|y t IH]; [reflexivity|]. cbn [insert_q]. destruct (Qle_bool a y); [reflexivity|].
  cbn [filter] in *. destruct (f y), (f a); cbn [length] in *; rewrite IH; reflexivity.
Qed.

Lemma count_sort_q (f : Q -> bool) l : length (filter f (sort_q l)) = length (filter f l).
Proof.
  induction l as [|x l IH]; [reflexivity|]. unfold sort_q in *. cbn [fold_right]. rewrite count_insert_q.
  cbn [filter]. destruct (f x); cbn [length]; rewrite IH; reflexivity.
Qed.

Lemma insert_q_In a l x : In x (insert_q a l) <-> x = a \/ In x l.
Proof.
  induction l as [|y t IH]; cbn [insert_q]; [|destruct (Qle_bool a y)]; cbn [In]; rewrite ?IH;
    split; intros H; decompose [or] H; subst; auto.
Qed.

Lemma sort_q_In l x : In x (sort_q l) <-> In x l.
Proof.
  induction l as [|a l IH]; [reflexivity|]. unfold sort_q in *. cbn [fold_right]. rewrite insert_q_In, IH. cbn [In].
  split; intros [H|H]; auto.
Qed.

Lemma insert_q_sorted a l : StronglySorted Qle l -> StronglySorted Qle (insert_q a l).
Proof.
  induction 1 as [|y t Hs IH Hall]; cbn [insert_q]; [repeat constructor|].
  destruct (Qle_bool a y) eqn:E.
  - apply Qle_bool_iff in E. constructor; [constructor; assumption|]. constructor; [exact E|].
    eapply Forall_impl; [|exact Hall]. intros z Hz. cbv beta in *. lra.
  - assert (Hya : (y <= a)%Q). { destruct (Qlt_le_dec y a) as [H|H]; [lra|]. apply Qle_bool_iff in H. congruence. }
    constructor; [exact IH|]. apply Forall_forall. intros z Hz. apply insert_q_In in Hz. destruct Hz as [->|Hz]; [exact Hya|].
    rewrite Forall_forall in Hall. apply Hall, Hz.
Qed.

Lemma sort_q_sorted l : StronglySorted Qle (sort_q l).
Proof. induction l as [|a l IH]; [constructor|]. unfold sort_q in *. cbn [fold_right]. apply insert_q_sorted, IH. Qed.

Definition med_index (n : nat) : nat := if Nat.even n then (n / 2 - 1)%nat else (n / 2)%nat.

(* the low median of n >= 1 sorted values stands at the index i with 2 i + 1 <= n <= 2 i + 2 *)
Lemma med_index_bounds n : (1 <= n)%nat -> (2 * med_index n + 1 <= n <= 2 * med_index n + 2)%nat.
Proof.
  intros Hn. unfold med_index. destruct (Nat.even n) eqn:E.
  - apply Nat.even_spec in E. destruct E as [j ->]. rewrite (Nat.mul_comm 2 j), Nat.div_mul by lia. lia.
  - assert (O : Nat.odd n = true) by (rewrite <- Nat.negb_even, E; reflexivity).
    apply Nat.odd_spec in O. destruct O as [j ->]. replace (2 * j + 1)%nat with (1 + j * 2)%nat by lia.
    rewrite Nat.div_add by lia. change (1 / 2)%nat with 0%nat. lia.
Qed.

Lemma med_index_scale m n : (1 <= m)%nat -> (1 <= n)%nat -> (med_index (m * n) / m)%nat = med_index n.
Proof.
  intros Hm Hn. destruct (med_index_bounds n Hn) as [A B].
  destruct (med_index_bounds (m * n) (Nat.mul_le_mono 1 m 1 n Hm Hn)) as [A' B'].
  set (i := med_index n) in *. set (j := med_index (m * n)) in *. clearbody i j.
  pose proof (Nat.mul_le_mono_l _ _ m A) as Am. pose proof (Nat.mul_le_mono_l _ _ m B) as Bm.
  symmetry. apply (Nat.div_unique j m i (j - m * i)); lia.
Qed.

(* aggregate_one as a function of the materialised list *)
Definition agg_list (fn : aggfn) (l : list Q) : Q + serr :=
  match fn with
  | FSum => inl (Qred (fold_left Qplus l 0))
  | FMean => match l with [] => inr SE_zerodiv | _ => inl (Qred (fold_left Qplus l 0 / inject_Z (Z.of_nat (length l)))) end
  | FMedianLow => match l with
                  | [] => inr SE_stats
                  | _ => let s := sort_q l in
                         let n := length s in
                         inl (nth (if Nat.even n then n / 2 - 1 else n / 2) s 0)
                  end
  end.

Lemma aggregate_one_list fn d : aggregate_one fn d = agg_list fn (expand d).
Proof. destruct fn; reflexivity. Qed.

Lemma agg_median_ne l : l <> [] ->
  agg_list FMedianLow l = inl (nth (med_index (length (sort_q l))) (sort_q l) 0).
Proof. destruct l; [contradiction|reflexivity]. Qed.

Lemma agg_mean_ne l : l <> [] ->
  agg_list FMean l = inl (Qred (fold_left Qplus l 0 / inject_Z (Z.of_nat (length l)))).
Proof. destruct l; [contradiction|reflexivity]. Qed.

Theorem median_low_dup m l : (1 <= m)%nat -> agg_list FMedianLow (dup m l) = agg_list FMedianLow l.
Proof.
  intros Hm. destruct l as [|x l]; [reflexivity|].
  rewrite (agg_median_ne (dup m (x :: l))), agg_median_ne by (try apply dup_ne; try exact Hm; discriminate). f_equal.
  rewrite (sort_q_dup m _ Hm), dup_length, (nth_dup m _ _ _ Hm), med_index_scale; [reflexivity|exact Hm|].
  rewrite sort_q_length. simpl. lia.
Qed.

Definition min_step (m y : Q) : Q := if Qle_bool y m then y else m.

Lemma min_step_idem y m : min_step (min_step m y) y = min_step m y.
Proof.
  unfold min_step. destruct (Qle_bool y m) eqn:E; [rewrite Qle_bool_refl; reflexivity|rewrite E; reflexivity].
Qed.

(* copies of y change nothing once the running minimum has absorbed y *)
Lemma fold_min_repeat y j m : min_step m y = m -> fold_left min_step (repeat y j) m = m.
Proof. intros E. induction j as [|j IH]; [reflexivity|]. cbn [repeat fold_left]. rewrite E. exact IH. Qed.

Lemma fold_min_dup k l : forall m, fold_left min_step (dup (S k) l) m = fold_left min_step l m.
Proof.
  induction l as [|y l IH]; intros m; [reflexivity|]. rewrite dup_cons, fold_left_app. cbn [repeat fold_left].
  rewrite fold_min_repeat by apply min_step_idem. apply IH.
Qed.

Theorem list_min_dup k l : (1 <= k)%nat -> list_min (dup k l) = list_min l.
Proof.
  intros Hk. destruct k as [|k]; [lia|]. destruct l as [|x l]; [reflexivity|].
  rewrite dup_cons. cbn [repeat app list_min]. f_equal.
  change (fun m y : Q => if Qle_bool y m then y else m) with min_step.
  rewrite fold_left_app, fold_min_repeat; [apply fold_min_dup|]. unfold min_step. rewrite Qle_bool_refl. reflexivity.
Qed.

Theorem sum_dup m l : fold_left Qplus (dup m l) 0 == inject_Z (Z.of_nat m) * fold_left Qplus l 0.
Proof.
  induction l as [|x l IH]; [cbn; ring|]. rewrite dup_cons, fold_left_app, qsum_shift, qsum_repeat, IH.
  cbn [fold_left]. rewrite (qsum_shift l (0 + x)). ring.
Qed.

Theorem agg_sum_dup m l a a' : agg_list FSum l = inl a -> agg_list FSum (dup m l) = inl a' ->
  a' == inject_Z (Z.of_nat m) * a.
Proof. cbn [agg_list]. intros [= <-] [= <-]. rewrite !Qred_correct. apply sum_dup. Qed.

Lemma inject_nat_neq0 n : (1 <= n)%nat -> ~ inject_Z (Z.of_nat n) == 0.
Proof. intros Hn H0. unfold Qeq in H0. cbn [Qnum Qden inject_Z] in H0. lia. Qed.

Theorem mean_dup m l : (1 <= m)%nat -> agg_list FMean (dup m l) = agg_list FMean l.
Proof.
  intros Hm. destruct l as [|x l]; [reflexivity|].
  rewrite (agg_mean_ne (dup m (x :: l))), agg_mean_ne by (try apply dup_ne; try exact Hm; discriminate). f_equal.
  apply Qred_complete. rewrite sum_dup, dup_length, Nat2Z.inj_mul, inject_Z_mult.
  field. split; apply inject_nat_neq0; [cbn [length]; lia|exact Hm].
Qed.
