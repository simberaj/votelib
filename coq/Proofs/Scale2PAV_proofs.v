(* Scale invariance (C11) of proportional approval voting (PAV) and its sequential variant (SPAV), Model/Cardinal.v:
   multiplying every ballot weight by k > 0 multiplies every satisfaction sum / every round score by k (up to ==),
   so the set of maximisers (and the refusal when it is not a singleton), the order of the satisfaction drops,
   every round leader and every tie refusal of SPAV are unchanged. *)
From Coq Require Import ZArith QArith List Bool Lia Lqa Qfield.
From VL Require Import Prelude.PyDict Model.GetNBest Model.Convert Model.Cardinal
     Proofs.Dict_proofs Proofs.GetNBest_proofs Proofs.QOrd Proofs.LRScale_proofs Proofs.STVScale_proofs
     Proofs.Scale2Add_proofs.
Import ListNotations.
Open Scope Q_scope.

Section PAVScale.
  Variable k : Q.
  Hypothesis Hk : 0 < k.
  Notation qs := (qsc k).

  Definition aprel : aprofile -> aprofile -> Prop := lrel (K := list C) qs.
  Notation trel := (vrel k).

  Lemma aprel_keys v v' : aprel v v' -> map fst v' = map fst v.
  Proof. apply (lrel_keys qs). Qed.

  Lemma satisfaction_rel v v' alt : aprel v v' -> qs (satisfaction v alt) (satisfaction v' alt).
  Proof.
    intros H. unfold satisfaction. apply fold_left_rel with (RB := prel qs); [|exact H|exact (qsc_0 k)].
    intros a a' y y' Ha [Hy Hw]. rewrite <- Hy. apply qsc_plus; [exact Ha|apply qsc_mult_l, Hw].
  Qed.

  Lemma cands_rel v v' : aprel v v' -> canon_set (flat_map fst v') = canon_set (flat_map fst v).
  Proof. intros H. f_equal. apply (Forall2_flat_map_eq (prel qs)); [|exact H]. intros x x' [E _]. symmetry. exact E. Qed.

  Definition screl : list (list C * Q) -> list (list C * Q) -> Prop := lrel (K := list C) qs.

  Lemma scored_rel v v' alts : aprel v v' ->
    screl (map (fun a => (a, satisfaction v a)) alts) (map (fun a => (a, satisfaction v' a)) alts).
  Proof. intros H. apply Forall2_map_same. intros a. split; [reflexivity|apply satisfaction_rel, H]. Qed.

  Lemma fold_best_rel l l' : screl l l' -> forall b b', qs b b' ->
    qs (fold_left (fun b (sa : list C * Q) => if Qle_bool b (snd sa) then snd sa else b) l b)
       (fold_left (fun b (sa : list C * Q) => if Qle_bool b (snd sa) then snd sa else b) l' b').
  Proof.
    apply fold_left_rel. intros b b' y y' Hb [_ Hy].
    rewrite (qsc_le k Hk _ _ _ _ Hb Hy). destruct (Qle_bool b (snd y)); assumption.
  Qed.

  Lemma filter_best_rel b b' l l' : qs b b' -> screl l l' ->
    map fst (filter (fun sa : list C * Q => Qeq_bool (snd sa) b') l') = map fst (filter (fun sa : list C * Q => Qeq_bool (snd sa) b) l).
  Proof.
    intros Hb H. apply (lrel_keys qs), Forall2_filter; [|exact H].
    intros x x' [_ Hx]. apply (qsc_eq k Hk); assumption.
  Qed.

  Lemma pav_best_rel v v' cands n : aprel v v' -> pav_best v' cands n = pav_best v cands n.
  Proof.
    intros H. unfold pav_best. cbv zeta. pose proof (scored_rel v v' (combos cands n) H) as Hs.
    destruct Hs as [|[a s] [a' s'] l l' Hy Hl]; [reflexivity|].
    assert (Hyl : screl ((a, s) :: l) ((a', s') :: l')) by (constructor; assumption).
    apply filter_best_rel; [|exact Hyl]. apply fold_best_rel; [exact Hyl|exact (proj2 Hy)].
  Qed.

  Theorem pav_rel v v' n : aprel v v' -> pav v' n = pav v n.
  Proof.
    intros H. unfold pav. cbv zeta. rewrite (cands_rel v v' H), (pav_best_rel v v' _ n H).
    destruct (pav_best v (canon_set (flat_map fst v)) n) as [|alt [|? ?]]; try reflexivity.
    f_equal. apply (get_n_best_rel Qle_bool Qle_bool qs (qsc_le k Hk)), Forall2_map_same.
    intros c. split; [reflexivity|apply qsc_opp, satisfaction_rel, H].
  Qed.

  Lemma spav_round_rel v v' elected : aprel v v' -> trel (spav_round v elected) (spav_round v' elected).
  Proof.
    intros H. unfold spav_round. cbv zeta.
    apply (lrel_filter_fst qs (fun c => negb (cmem c elected))).
    apply fold_left_rel with (RB := prel qs); [|exact H|constructor].
    intros d d' y y' Hd [Hy Hw]. rewrite <- Hy. apply fold_left_rel_same; [|exact Hd].
    intros e e' c He. apply dset_add_rel; [exact He|]. apply qsc_mult; [exact Hw|reflexivity].
  Qed.

  Lemma spav_loop_rel v v' n : aprel v v' -> forall fuel elected, spav_loop fuel v' n elected = spav_loop fuel v n elected.
  Proof.
    intros H. induction fuel as [|f IH]; intros elected; cbn [spav_loop]; [reflexivity|].
    destruct (Nat.leb n (length elected)); [reflexivity|].
    rewrite (get_n_best_rel Qle_bool Qle_bool qs (qsc_le k Hk) _ _ 1%nat (spav_round_rel v v' elected H)).
    destruct (get_n_best Qle_bool (spav_round v elected) 1) as [|[c|T] r]; try reflexivity. apply IH.
  Qed.

  Theorem spav_rel v v' n : aprel v v' -> spav v' n = spav v n.
  Proof. intros H. apply spav_loop_rel, H. Qed.

  Theorem pav_scale votes n : pav (scale_w k votes) n = pav votes n.
  Proof. apply pav_rel, lrel_scale. Qed.

  Theorem pav_best_scale votes cands n : pav_best (scale_w k votes) cands n = pav_best votes cands n.
  Proof. apply pav_best_rel, lrel_scale. Qed.

  Theorem spav_scale votes n : spav (scale_w k votes) n = spav votes n.
  Proof. apply spav_rel, lrel_scale. Qed.
End PAVScale.
