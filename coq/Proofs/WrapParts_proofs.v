(* The shared parts of Model/Wrappers.v, code-shaped vs declarative:
     vote_totals  (convert.VoteTotals: nested add_dict_to_dict)  = totals_s  (every candidate in first-appearance order
                                                                              with the sum of its counts)
     subset_votes (convert.SubsettedVotes(SimpleSubsetter))      = subset_s  (the votes filtered to the subset)
   on EVERY value: on well-formed values (integer counts ...) the code-shaped definition computes the declarative answer
   (totals_declarative, subset_declarative), on all others the declarative side is defined as the code's answer.
   Plus: what UnusedVotesDistributor subtracts (gained seats of a stage result). *)
From Coq Require Import ZArith List Bool Lia.
From VL Require Import Model.Wrappers Proofs.TieBreak_proofs.
Import ListNotations.
Open Scope Z_scope.

Lemma key_eqb_sym : forall a b, key_eqb a b = key_eqb b a.
Proof. intros a b. apply eq_true_iff_eq. rewrite !key_eqb_eq. split; intro H; symmetry; exact H. Qed.

Lemma dmem_false_dget : forall d k, dmem d k = false -> dget d k = None.
Proof. intros d k H. unfold dmem in H. destruct (dget d k); [discriminate H|reflexivity]. Qed.

Lemma dset_notin : forall d k v, dmem d k = false -> dset d k v = d ++ [(k, v)].
Proof.
  induction d as [|[k0 v0] d IH]; intros k v H; [reflexivity|].
  unfold dmem in H. simpl in H. simpl. destruct (key_eqb k0 k); [discriminate H|].
  rewrite IH; [reflexivity|]. unfold dmem. exact H.
Qed.

Lemma dmem_app : forall a b k, dmem (a ++ b) k = dmem a k || dmem b k.
Proof.
  induction a as [|[k0 v0] a IH]; intros b k; [reflexivity|].
  unfold dmem in *. simpl. destruct (key_eqb k0 k); [reflexivity|]. apply IH.
Qed.

Lemma dmem_false_in : forall d k kv, dmem d k = false -> In kv d -> key_eqb (fst kv) k = false.
Proof.
  induction d as [|[k0 v0] d IH]; intros k kv H Hin; [destruct Hin|].
  unfold dmem in H. simpl in H. destruct (key_eqb k0 k) eqn:H0; [discriminate H|].
  destruct Hin as [Hin|Hin]; [subst kv; exact H0|]. apply IH; [unfold dmem; exact H|exact Hin].
Qed.

Lemma int_dict_dget_or : forall a k, int_dict a = true -> is_int (dget_or a k (VInt 0)) = true.
Proof.
  induction a as [|[k0 v0] a IH]; intros k H; [reflexivity|].
  unfold int_dict in H. simpl in H. apply andb_true_iff in H. destruct H as [H1 H2].
  unfold dget_or. simpl. destruct (key_eqb k0 k); [exact H1|]. apply IH. exact H2.
Qed.

Lemma int_dict_dset : forall a k z, int_dict a = true -> int_dict (dset a k (VInt z)) = true.
Proof.
  induction a as [|[k0 v0] a IH]; intros k z H; [reflexivity|].
  unfold int_dict in *. simpl in *. apply andb_true_iff in H. destruct H as [H1 H2].
  destruct (key_eqb k0 k); simpl; [exact H2|]. rewrite H1. apply IH. exact H2.
Qed.

(* SubsettedVotes = a filter *)
Lemma mem_subset_kind : forall s k, subset_kind s = true -> mem_subset s k = Ok (mem_b s k).
Proof. intros [| |[c|t]|l|d|q] k H; try discriminate H; reflexivity. Qed.

Lemma subset_fold : forall s d acc, subset_kind s = true -> int_dict d = true -> nodup_keys d = true ->
  (forall kv, In kv d -> dmem acc (fst kv) = false) ->
  fold_left (subset_step s) d (Ok acc) = Ok (acc ++ filter (fun kv => mem_b s (fst kv)) d).
Proof.
  intros s d. induction d as [|[k v] d IH]; intros acc Hs Hi Hn Hd.
  - simpl. rewrite app_nil_r. reflexivity.
  - unfold int_dict in Hi. simpl in Hi. apply andb_true_iff in Hi. destruct Hi as [Hv Hi].
    simpl in Hn. apply andb_true_iff in Hn. destruct Hn as [Hk Hn]. apply negb_true_iff in Hk.
    destruct v as [|z| | | |]; try discriminate Hv.
    cbn [fold_left filter fst]. unfold subset_step at 2. cbn [rbind fst snd].
    rewrite (mem_subset_kind s k Hs). cbn [rbind].
    destruct (mem_b s k) eqn:Hm.
    + assert (Hk0 : dmem acc k = false) by (apply (Hd (k, VInt z)); left; reflexivity).
      unfold dget_or. rewrite (dmem_false_dget acc k Hk0). cbn [add_val rbind].
      rewrite (dset_notin acc k (VInt (0 + z)) Hk0). rewrite Z.add_0_l.
      rewrite IH; auto.
      * rewrite <- app_assoc. reflexivity.
      * intros kv Hin. rewrite dmem_app. rewrite (Hd kv (or_intror Hin)). cbn [orb].
        unfold dmem. simpl. rewrite key_eqb_sym. rewrite (dmem_false_in d k kv Hk Hin). reflexivity.
    + apply IH; auto. intros kv Hin. apply Hd. right. exact Hin.
Qed.

Theorem subset_declarative : forall d s, int_dict d = true -> nodup_keys d = true -> subset_kind s = true ->
  subset_votes (VDict d) s = Ok (VDict (filter (fun kv => mem_b s (fst kv)) d)).
Proof.
  intros d s Hi Hn Hs. unfold subset_votes. cbn [as_dict rbind].
  change (fold_left _ d (Ok [])) with (fold_left (subset_step s) d (Ok [])).
  pose proof (subset_fold s d [] Hs Hi Hn (fun kv _ => eq_refl)) as H. cbn [app] in H.
  unfold dict in *. rewrite H. reflexivity.
Qed.

Theorem subset_s_eq : forall v s, subset_s v s = subset_votes v s.
Proof.
  intros v s. unfold subset_s. destruct v as [| | | |d|]; try reflexivity.
  destruct (int_dict d && nodup_keys d && subset_kind s) eqn:H; [|reflexivity].
  rewrite !andb_true_iff in H. destruct H as [[Hi Hn] Hs].
  symmetry. apply subset_declarative; assumption.
Qed.

(* VoteTotals = sums in first-appearance order *)
Definition bump (a : dict) (kv : key * val) : dict :=
  dset a (fst kv) (VInt (getz (dget_or a (fst kv) (VInt 0)) + getz (snd kv))).
Definition tot_step (acc : res dict) (kv : key * val) : res dict :=
  acc >>= fun d => add_val (dget_or d (fst kv) (VInt 0)) (snd kv) >>= fun s => Ok (dset d (fst kv) s).

Lemma add_dict_fold : forall d1 d2, add_dict d1 d2 = fold_left tot_step d2 (Ok d1).
Proof. reflexivity. Qed.

Lemma tot_step_int : forall a kv, int_dict a = true -> is_int (snd kv) = true ->
  tot_step (Ok a) kv = Ok (bump a kv) /\ int_dict (bump a kv) = true.
Proof.
  intros a [k v] Ha Hv. unfold tot_step, bump. cbn [rbind fst snd].
  pose proof (int_dict_dget_or a k Ha) as Hg.
  destruct (dget_or a k (VInt 0)) as [|x| | | |]; try discriminate Hg.
  destruct v as [|z| | | |]; try discriminate Hv.
  cbn [add_val rbind getz]. split; [reflexivity|]. apply int_dict_dset. exact Ha.
Qed.

Lemma add_dict_int : forall dv a, int_dict a = true -> int_dict dv = true ->
  add_dict a dv = Ok (fold_left bump dv a) /\ int_dict (fold_left bump dv a) = true.
Proof.
  intros dv. rewrite <- (rev_involutive dv). generalize (rev dv). clear dv. intros l a Ha.
  induction l as [|kv l IH]; intro Hd.
  - simpl. split; [reflexivity|exact Ha].
  - simpl in *. unfold int_dict in Hd. rewrite forallb_app in Hd. apply andb_true_iff in Hd. destruct Hd as [Hd Hkv].
    simpl in Hkv. rewrite andb_true_r in Hkv.
    destruct (IH Hd) as [H1 H2]. rewrite add_dict_fold in *. rewrite !fold_left_app. simpl.
    rewrite H1. apply tot_step_int; assumption.
Qed.

Lemma totals_fold : forall d a, nested_int d = true -> int_dict a = true ->
  fold_left (fun acc kv => acc >>= fun a0 => as_dict (snd kv) >>= fun dv => add_dict a0 dv) d (Ok a)
  = Ok (fold_left bump (entries d) a).
Proof.
  induction d as [|[k v] d IH]; intros a Hn Ha; [reflexivity|].
  unfold nested_int in Hn. simpl in Hn. apply andb_true_iff in Hn. destruct Hn as [Hv Hn].
  destruct v as [| | | |dv|]; try discriminate Hv.
  cbn [fold_left rbind snd as_dict]. unfold entries. cbn [flat_map snd]. rewrite fold_left_app.
  destruct (add_dict_int dv a Ha Hv) as [H1 H2]. rewrite H1. apply IH; assumption.
Qed.

Lemma keys_first_snoc : forall es e,
  keys_first (es ++ [e]) = if memk (fst e) (keys_first es) then keys_first es else keys_first es ++ [fst e].
Proof. intros es e. unfold keys_first. rewrite fold_left_app. reflexivity. Qed.

Lemma total_of_snoc : forall es e k,
  total_of (es ++ [e]) k = if key_eqb (fst e) k then total_of es k + getz (snd e) else total_of es k.
Proof. intros es e k. unfold total_of. rewrite fold_left_app. reflexivity. Qed.

Lemma dget_map_keys : forall (f : key -> val) ks k,
  dget (map (fun k' => (k', f k')) ks) k = if memk k ks then Some (f k) else None.
Proof.
  intros f ks k. induction ks as [|k0 ks IH]; [reflexivity|].
  simpl. rewrite (key_eqb_sym k k0). destruct (key_eqb k0 k) eqn:H0; simpl.
  - apply key_eqb_eq in H0. subst. reflexivity.
  - exact IH.
Qed.

Lemma memk_false_notin : forall k ks, memk k ks = false -> ~ In k ks.
Proof.
  intros k ks H Hin. unfold memk in H. assert (existsb (key_eqb k) ks = true); [|congruence].
  apply existsb_exists. exists k. split; [exact Hin|apply key_eqb_refl].
Qed.

Lemma memk_false_neq : forall k ks k', memk k ks = false -> In k' ks -> key_eqb k' k = false.
Proof.
  intros k ks k' H Hin. destruct (key_eqb k' k) eqn:H0; [|reflexivity].
  apply key_eqb_eq in H0. subst k'. exfalso. exact (memk_false_notin k ks H Hin).
Qed.

Lemma dset_map_in : forall (f : key -> val) ks k x, NoDup ks -> memk k ks = true ->
  dset (map (fun k' => (k', f k')) ks) k x = map (fun k' => (k', if key_eqb k' k then x else f k')) ks.
Proof.
  intros f ks k x Hnd. induction Hnd as [|k0 ks Hk0 Hnd IH]; intro Hm; [discriminate Hm|].
  simpl. simpl in Hm. rewrite (key_eqb_sym k k0) in Hm. destruct (key_eqb k0 k) eqn:H0.
  - f_equal. apply map_ext_in. intros k' Hin.
    destruct (key_eqb k' k) eqn:H1; [|reflexivity].
    apply key_eqb_eq in H0, H1. subst. contradiction.
  - simpl in Hm. rewrite IH by exact Hm. reflexivity.
Qed.

Lemma nodup_snoc : forall (k : key) ks, NoDup ks -> ~ In k ks -> NoDup (ks ++ [k]).
Proof.
  intros k ks Hnd Hk. apply (NoDup_Add (Add_app k ks [])). rewrite app_nil_r. split; assumption.
Qed.

Lemma totals_table_fold : forall es,
  fold_left bump es [] = totals_table es /\ NoDup (keys_first es) /\
  (forall k, memk k (keys_first es) = false -> total_of es k = 0).
Proof.
  intro es. induction es as [|e es IH] using rev_ind.
  - split; [reflexivity|]. split; [constructor|]. intros k _. reflexivity.
  - destruct IH as [I1 [I2 I3]]. destruct e as [k v].
    rewrite fold_left_app. cbn [fold_left]. rewrite I1.
    unfold totals_table. rewrite keys_first_snoc. cbn [fst].
    unfold bump. cbn [fst snd]. unfold dget_or.
    rewrite (dget_map_keys (fun k0 => VInt (total_of es k0))).
    destruct (memk k (keys_first es)) eqn:Hm.
    + split; [|split; [exact I2|]].
      * cbn [getz]. rewrite (dset_map_in (fun k0 => VInt (total_of es k0)) _ k _ I2 Hm).
        apply map_ext_in. intros k' Hin. rewrite total_of_snoc. cbn [fst snd].
        rewrite (key_eqb_sym k k'). destruct (key_eqb k' k) eqn:H1; [|reflexivity].
        apply key_eqb_eq in H1. subst k'. reflexivity.
      * intros k' Hk'. rewrite total_of_snoc. cbn [fst snd].
        destruct (key_eqb k k') eqn:H1; [|apply I3; exact Hk'].
        apply key_eqb_eq in H1. subst k'. rewrite Hm in Hk'. discriminate Hk'.
    + split; [|split].
      * cbn [getz]. rewrite Z.add_0_l.
        assert (Hd : dmem (map (fun k0 : key => (k0, VInt (total_of es k0))) (keys_first es)) k = false).
        { unfold dmem. rewrite (dget_map_keys (fun k0 => VInt (total_of es k0))), Hm. reflexivity. }
        rewrite (dset_notin _ k _ Hd). rewrite map_app. cbn [map].
        f_equal.
        -- apply map_ext_in. intros k' Hin. rewrite total_of_snoc. cbn [fst snd].
           rewrite (key_eqb_sym k k'). rewrite (memk_false_neq k _ k' Hm Hin). reflexivity.
        -- rewrite total_of_snoc. cbn [fst snd]. rewrite key_eqb_refl. rewrite (I3 k Hm). reflexivity.
      * apply nodup_snoc; [exact I2|apply memk_false_notin; exact Hm].
      * intros k' Hk'. unfold memk in Hk'. rewrite existsb_app in Hk'. apply orb_false_iff in Hk'.
        destruct Hk' as [Hk1 Hk2]. simpl in Hk2. rewrite orb_false_r in Hk2.
        rewrite total_of_snoc. cbn [fst snd]. rewrite (key_eqb_sym k k'), Hk2. apply I3. exact Hk1.
Qed.

Theorem totals_declarative : forall d, nested_int d = true ->
  vote_totals (VDict d) = Ok (VDict (totals_table (entries d))).
Proof.
  intros d H. unfold vote_totals. cbn [as_dict rbind].
  pose proof (totals_fold d [] H eq_refl) as H0.
  destruct (totals_table_fold (entries d)) as [H1 _]. rewrite H1 in H0.
  unfold dict in *. rewrite H0. reflexivity.
Qed.

Theorem totals_s_eq : forall v, totals_s v = vote_totals v.
Proof.
  intro v. unfold totals_s. destruct v as [| | | |d|]; try reflexivity.
  destruct (nested_int d) eqn:H; [|reflexivity]. symmetry. apply totals_declarative. exact H.
Qed.

(* what the declarative table says: a candidate's entry is the sum of its counts; the candidates are those that occur *)
Lemma totals_table_lookup : forall es k,
  dget (totals_table es) k = if memk k (keys_first es) then Some (VInt (total_of es k)) else None.
Proof. intros es k. unfold totals_table. apply dget_map_keys. Qed.

(* UnusedVotesDistributor: the seats a stage gave *)
Definition sumz (d : dict) : Z := fold_left (fun a kv => a + getz (snd kv)) d 0.

Lemma sum_values_int_from : forall d a, int_dict d = true ->
  fold_left (fun acc kv => acc >>= fun x => add_val x (snd kv)) d (Ok (VInt a))
  = Ok (VInt (fold_left (fun a kv => a + getz (snd kv)) d a)).
Proof.
  induction d as [|[k v] d IH]; intros a H; [reflexivity|].
  unfold int_dict in H. simpl in H. apply andb_true_iff in H. destruct H as [Hv H].
  destruct v as [|z| | | |]; try discriminate Hv.
  cbn [fold_left rbind snd add_val getz]. apply IH. exact H.
Qed.

(* depth 1: the seats still to give after a stage are the seats before minus the seats THIS stage gave - previous gains
   and the running total do not enter *)
Theorem seats_left_after_stage : forall n res, int_dict res = true ->
  sub_gained 0 (VInt n) (VDict res) = Ok (VInt (n - sumz res)).
Proof.
  intros n res H. cbn [sub_gained gained as_dict rbind]. unfold sum_values.
  rewrite (sum_values_int_from res 0 H). reflexivity.
Qed.
