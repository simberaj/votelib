(* PreferenceAddition (Bucklin / Oklahoma), shared ranks split, repaired loop: the winner LEAVES a shared rank for a place of
   its own directly above it (and from there moves further up by Proofs/BucklinShared_proofs.v).

   The old ballot ... {la, w, lb} ... has k! variants for that rank (k = |la| + |lb| + 1), the new one ... w, {la, lb} ...
   has (k-1)!.  The permutations of (la ++ w :: lb) are, as a multiset, the insertions of w at every place of every
   permutation of (la ++ lb) ([perms_insert], a statement about sums over itertools.permutations as modelled by
   [perms_n] / [picks]); each insertion is lifted by the variant that has w in front ([inserted_lifts]); so the SUM of a
   w-monotone functional over the old variants is at most k times the sum over the new ones, and conversely for the other
   candidates ([dom], closed under common prefixes with shared ranks).  Dividing by the numbers of variants (which are in
   the ratio k, by the same relation applied to the constant functional) orders the means. *)
From Coq Require Import ZArith QArith List Bool Arith Lia Lqa Permutation.
From VL Require Import Prelude.Sx Prelude.PyDict Prelude.GDict Model.GetNBest Model.Convert Model.Bucklin
     Proofs.Dict_proofs Proofs.QOrd Proofs.GetNBest_proofs Proofs.Additive_proofs Proofs.Bucklin_proofs Proofs.BucklinShared_proofs.
Import ListNotations.
Open Scope Q_scope.

Definition qsum {X} (f : X -> Q) (l : list X) : Q := fold_right (fun x acc => f x + acc) 0 l.

Lemma lsum_qsum f vs : lsum f vs = qsum f vs.
Proof. reflexivity. Qed.

Lemma qsum_app {X} (f : X -> Q) a b : qsum f (a ++ b) == qsum f a + qsum f b.
Proof. induction a as [|x a IH]; simpl; [lra|]. rewrite IH. lra. Qed.

Lemma qsum_map {X Y} (f : Y -> Q) (g : X -> Y) l : qsum f (map g l) = qsum (fun x => f (g x)) l.
Proof. induction l as [|x l IH]; simpl; [reflexivity|]. rewrite IH. reflexivity. Qed.

Lemma qsum_flat_map {X Y} (f : Y -> Q) (g : X -> list Y) l : qsum f (flat_map g l) == qsum (fun x => qsum f (g x)) l.
Proof. induction l as [|x l IH]; simpl; [reflexivity|]. rewrite qsum_app, IH. reflexivity. Qed.

Lemma qsum_ext_in {X} (f g : X -> Q) l : (forall x, In x l -> f x == g x) -> qsum f l == qsum g l.
Proof.
  induction l as [|x l IH]; simpl; intros H; [reflexivity|].
  rewrite (H x) by (left; reflexivity). rewrite IH by (intros y Hy; apply H; right; exact Hy). reflexivity.
Qed.

Lemma qsum_le_in {X} (f g : X -> Q) l : (forall x, In x l -> f x <= g x) -> qsum f l <= qsum g l.
Proof.
  induction l as [|x l IH]; simpl; intros H; [lra|].
  assert (f x <= g x) by (apply H; left; reflexivity).
  assert (qsum f l <= qsum g l) by (apply IH; intros y Hy; apply H; right; exact Hy). lra.
Qed.

Lemma qsum_plus {X} (f g : X -> Q) l : qsum (fun x => f x + g x) l == qsum f l + qsum g l.
Proof. induction l as [|x l IH]; simpl; [lra|]. rewrite IH. lra. Qed.

Lemma qsum_scale {X} (k : Q) (f : X -> Q) l : qsum (fun x => k * f x) l == k * qsum f l.
Proof. induction l as [|x l IH]; simpl; [lra|]. rewrite IH. ring. Qed.

Lemma picks_length {X} (l : list X) : forall p, In p (picks l) -> S (length (snd p)) = length l.
Proof.
  induction l as [|a l IH]; intros p H; simpl in H; [destruct H|]. destruct H as [<-|H]; [reflexivity|].
  apply in_map_iff in H. destruct H as (p0 & <- & H0). cbn [snd length]. rewrite (IH p0 H0). reflexivity.
Qed.

Lemma map_pair_id {X Y} (l : list (X * list Y)) : map (fun p => (fst p, snd p)) l = l.
Proof. induction l as [|[x r] l IH]; simpl; [reflexivity|]. rewrite IH. reflexivity. Qed.

Lemma picks_app {X} (a b : list X) :
  picks (a ++ b) = map (fun p => (fst p, snd p ++ b)) (picks a) ++ map (fun p => (fst p, a ++ snd p)) (picks b).
Proof.
  induction a as [|x a IH]; [cbn [app picks map]; rewrite map_pair_id; reflexivity|].
  cbn [app picks map fst snd]. rewrite IH, map_app, !map_map. cbn [fst snd]. reflexivity.
Qed.

Lemma perms_n_length : forall n (l p : list C), In p (perms_n n l) -> length p = n.
Proof.
  induction n as [|n IH]; intros l p H; cbn [perms_n] in H.
  - destruct H as [<-|[]]. reflexivity.
  - apply in_flat_map in H. destruct H as (pk & _ & Hm). apply in_map_iff in Hm. destruct Hm as (q & <- & Hq).
    cbn [length]. rewrite (IH _ _ Hq). reflexivity.
Qed.

(* a sum over the permutations, one level unfolded *)
Lemma qsum_perms_S (h : list C -> Q) n l :
  qsum h (perms_n (S n) l) == qsum (fun p => qsum (fun r => h (fst p :: r)) (perms_n n (snd p))) (picks l).
Proof.
  cbn [perms_n]. rewrite qsum_flat_map. apply qsum_ext_in. intros p _. rewrite qsum_map. reflexivity.
Qed.

Section INSERT.
  Variable w : C.

  (* the sum of h over the insertions of w at every place *)
  Fixpoint ins_sum (h : list C -> Q) (p : list C) : Q :=
    match p with
    | [] => h [w]
    | y :: r => h (w :: y :: r) + ins_sum (fun z => h (y :: z)) r
    end.

  Lemma ins_sum_ext : forall p (h h' : list C -> Q), (forall z, h z == h' z) -> ins_sum h p == ins_sum h' p.
  Proof.
    induction p as [|y r IH]; intros h h' H; cbn [ins_sum]; [apply H|].
    rewrite (H (w :: y :: r)). rewrite (IH (fun z => h (y :: z)) (fun z => h' (y :: z))) by (intros z; apply H). reflexivity.
  Qed.

  Theorem perms_insert : forall n (la lb : list C) (h : list C -> Q), length (la ++ lb) = n ->
    qsum h (perms_n (S n) (la ++ w :: lb)) == qsum (ins_sum h) (perms_n n (la ++ lb)).
  Proof.
    induction n as [|n IH]; intros la lb h Hlen.
    - destruct la as [|a la]; [|cbn [app length] in Hlen; lia]. destruct lb as [|b lb]; [|cbn [app length] in Hlen; lia].
      cbn. lra.
    - rewrite qsum_perms_S, picks_app. cbn [picks]. rewrite qsum_app. cbn [map qsum fold_right fst snd].
      fold (qsum (fun p : C * list C => qsum (fun r => h (fst p :: r)) (perms_n (S n) (snd p)))
                 (map (fun p : C * list C => (fst p, la ++ snd p)) (map (fun p : C * list C => (fst p, w :: snd p)) (picks lb)))).
      rewrite map_map, !qsum_map. cbn [fst snd].
      (* the right-hand side, one level unfolded *)
      rewrite (qsum_perms_S (ins_sum h) n (la ++ lb)), picks_app, qsum_app, !qsum_map. cbn [fst snd].
      (* the middle term: w first *)
      rewrite (qsum_perms_S (fun r => h (w :: r)) n (la ++ lb)), picks_app, qsum_app, !qsum_map. cbn [fst snd].
      (* the two outer terms by the induction hypothesis *)
      assert (E1 : qsum (fun p : C * list C => qsum (fun r => h (fst p :: r)) (perms_n (S n) (snd p ++ w :: lb))) (picks la) ==
                   qsum (fun p : C * list C => qsum (ins_sum (fun r => h (fst p :: r))) (perms_n n (snd p ++ lb))) (picks la)).
      { apply qsum_ext_in. intros p Hp. apply IH. pose proof (picks_length la p Hp) as Hl.
        rewrite app_length in *. lia. }
      assert (E2 : qsum (fun p : C * list C => qsum (fun r => h (fst p :: r)) (perms_n (S n) (la ++ w :: snd p))) (picks lb) ==
                   qsum (fun p : C * list C => qsum (ins_sum (fun r => h (fst p :: r))) (perms_n n (la ++ snd p))) (picks lb)).
      { apply qsum_ext_in. intros p Hp. apply IH. pose proof (picks_length lb p Hp) as Hl.
        rewrite app_length in *. lia. }
      rewrite E1, E2.
      (* ins_sum h (y :: r) = h (w :: y :: r) + ins_sum (h . cons y) r, summed *)
      assert (S1 : forall (P : list (C * list C)) (g : C * list C -> list C),
                 qsum (fun p => qsum (fun r => ins_sum h (fst p :: r)) (perms_n n (g p))) P ==
                 qsum (fun p => qsum (fun r => h (w :: fst p :: r)) (perms_n n (g p))) P +
                 qsum (fun p => qsum (ins_sum (fun r => h (fst p :: r))) (perms_n n (g p))) P).
      { intros P g. rewrite <- qsum_plus. apply qsum_ext_in. intros p _. rewrite <- qsum_plus. apply qsum_ext_in. intros r _.
        reflexivity. }
      rewrite (S1 (picks la) (fun p => snd p ++ lb)), (S1 (picks lb) (fun p => la ++ snd p)). lra.
  Qed.

  (* the sum over the insertions is monotone in h, and counts the places *)
  Lemma ins_sum_mono : forall p (h h' : list C -> Q),
    (forall p1 p2, p = p1 ++ p2 -> h (p1 ++ w :: p2) <= h' (p1 ++ w :: p2)) -> ins_sum h p <= ins_sum h' p.
  Proof.
    induction p as [|y r IH]; intros h h' H; cbn [ins_sum]; [exact (H [] [] eq_refl)|].
    pose proof (H [] (y :: r) eq_refl) as H0. cbn [app] in H0.
    pose proof (IH (fun z => h (y :: z)) (fun z => h' (y :: z)) (fun p1 p2 E => H (y :: p1) p2 (f_equal (cons y) E))). lra.
  Qed.

  Lemma ins_sum_const (B : Q) : forall p, ins_sum (fun _ => B) p == inject_Z (Z.of_nat (S (length p))) * B.
  Proof.
    induction p as [|y r IH]; cbn [ins_sum length]; [change (inject_Z (Z.of_nat 1)) with 1; ring|].
    rewrite IH, (Nat2Z.inj_succ (S (length r))), <- Z.add_1_l, inject_Z_plus. ring.
  Qed.

  (* a pair (F, G) with F v <= G v' whenever v' lifts w relative to v: e.g. F = G = what a ballot has given w before round r;
     and the pairs with the inequality reversed: what it has given somebody else *)
  Definition up_pair (F G : ranked -> Q) : Prop := forall v v', lifts_all w v v' -> F v <= G v'.
  Definition down_pair (F G : ranked -> Q) : Prop := forall v v', lifts_all w v v' -> G v' <= F v.

  (* the variants V of the old ballot against the variants V' of the new one, k old ones for every new one *)
  Definition dom (k : Q) (V V' : list ranked) : Prop :=
    (forall F G, up_pair F G -> qsum F V <= k * qsum G V') /\
    (forall F G, down_pair F G -> k * qsum G V' <= qsum F V).

  Lemma up_pair_app q F G : up_pair F G -> up_pair (fun v => F (q ++ v)) (fun v => G (q ++ v)).
  Proof. intros H v v' Hl. apply H. apply lifts_all_app, Hl. Qed.
  Lemma down_pair_app q F G : down_pair F G -> down_pair (fun v => F (q ++ v)) (fun v => G (q ++ v)).
  Proof. intros H v v' Hl. apply H. apply lifts_all_app, Hl. Qed.

  Lemma dom_map_app k q V V' : dom k V V' -> dom k (map (app q) V) (map (app q) V').
  Proof.
    intros [U D]. split; intros F G H; rewrite !qsum_map.
    - apply (U _ _ (up_pair_app q F G H)).
    - apply (D _ _ (down_pair_app q F G H)).
  Qed.

  Lemma dom_map_cons k it V V' : dom k V V' -> dom k (map (cons it) V) (map (cons it) V').
  Proof. apply (dom_map_app k [it]). Qed.

  Lemma dom_flat_map {X} k (g g' : X -> list ranked) l :
    (forall x, In x l -> dom k (g x) (g' x)) -> dom k (flat_map g l) (flat_map g' l).
  Proof.
    intros H. split; intros F G HP; rewrite !qsum_flat_map, <- qsum_scale.
    - apply qsum_le_in. intros x Hx. apply (proj1 (H x Hx)), HP.
    - apply qsum_le_in. intros x Hx. apply (proj2 (H x Hx)), HP.
  Qed.

  Lemma dom_prefix k p1 : forall t t', dom k (svariants t) (svariants t') -> dom k (svariants (p1 ++ t)) (svariants (p1 ++ t')).
  Proof.
    induction p1 as [|it p1 IH]; intros t t' H; [exact H|]. cbn [app svariants]. destruct it as [c|l].
    - apply dom_map_cons, IH, H.
    - apply dom_flat_map. intros p _. apply dom_map_app, IH, H.
  Qed.

  Lemma lifts_insertion (p1 p2 : list C) (tau : ranked) : ~ In w p1 ->
    lifts_all w (map IP (p1 ++ w :: p2) ++ tau) (IP w :: map IP (p1 ++ p2) ++ tau).
  Proof.
    intros Hw. apply inserted_lifts. exists (map IP p1), (map IP p2 ++ tau).
    split; [rewrite map_app, <- app_assoc; reflexivity|]. split; [rewrite map_app, <- app_assoc; reflexivity|].
    fold (plain_ballot p1). rewrite flatten_plain. exact Hw.
  Qed.

  Theorem dom_leave (la lb : list C) (p3 : ranked) : ~ In w (la ++ lb) ->
    dom (inject_Z (Z.of_nat (S (length (la ++ lb)))))
        (svariants (IS (la ++ w :: lb) :: p3)) (svariants (IP w :: IS (la ++ lb) :: p3)).
  Proof.
    intros Hw. set (n := length (la ++ lb)). set (T := svariants p3).
    assert (Hlen : length (la ++ w :: lb) = S n) by (unfold n; rewrite !app_length; cbn [length]; lia).
    assert (Hin : forall p, In p (perms_n n (la ++ lb)) -> length p = n /\ ~ In w p).
    { intros p Hp. split; [apply (perms_n_length _ _ _ Hp)|]. intros Hi. apply Hw. exact (perms_n_incl _ _ _ Hp w Hi). }
    split; intros F G HP; cbn [svariants]; unfold perms; fold T; rewrite Hlen; fold n;
      rewrite qsum_map, !qsum_flat_map;
      rewrite (perms_insert n la lb (fun x => qsum F (map (app (map IP x)) T)) eq_refl), <- qsum_scale.
    - apply qsum_le_in. intros p Hp. destruct (Hin p Hp) as [Hl Hnw]. rewrite <- Hl.
      rewrite <- ins_sum_const. apply ins_sum_mono. intros p1 p2 ->. rewrite !qsum_map. apply qsum_le_in. intros tau _.
      apply HP. apply lifts_insertion. intros Hi. apply Hnw, in_or_app. left. exact Hi.
    - apply qsum_le_in. intros p Hp. destruct (Hin p Hp) as [Hl Hnw]. rewrite <- Hl.
      rewrite <- ins_sum_const. apply ins_sum_mono. intros p1 p2 ->. rewrite !qsum_map. apply qsum_le_in. intros tau _.
      apply HP. apply lifts_insertion. intros Hi. apply Hnw, in_or_app. left. exact Hi.
  Qed.

  Lemma lifts_all_refl v : lifts_all w v v.
  Proof. intros coef _. apply pa_lifts_refl. Qed.

  Lemma dom_counts k V V' : dom k V V' -> inject_Z (Z.of_nat (length V)) == k * inject_Z (Z.of_nat (length V')).
  Proof.
    intros [U D]. rewrite <- !lsum_const.
    pose proof (U (fun _ => 1) (fun _ => 1) (fun v v' _ => Qle_refl 1)) as H1.
    pose proof (D (fun _ => 1) (fun _ => 1) (fun v v' _ => Qle_refl 1)) as H2.
    unfold lsum. unfold qsum in H1, H2. lra.
  Qed.

  Lemma mean_scale (k s s' a' : Q) : 0 < k -> 0 < s' -> s == k * s' -> / s * (k * a') == / s' * a'.
  Proof. intros Hk Hs' Hs. rewrite Hs. field. split; lra. Qed.

  Lemma count_pos (b : ranked) : 0 < inject_Z (Z.of_nat (length (svariants b))).
  Proof.
    change 0 with (inject_Z 0). rewrite <- Zlt_Qlt. pose proof (svariants_nonempty b) as H.
    destruct (svariants b); [congruence|cbn [length]; lia].
  Qed.

  Theorem dom_spread k b b' : 0 < k -> has_shared b = true -> has_shared b' = true -> dom k (svariants b) (svariants b') ->
    (forall F G, up_pair F G -> spread F b <= spread G b') /\ (forall F G, down_pair F G -> spread G b' <= spread F b).
  Proof.
    intros Hk Hs Hs' Hd. pose proof (dom_counts _ _ _ Hd) as Hc. destruct Hd as [U D].
    split; intros F G HP; unfold spread, avgv; rewrite Hs, Hs', !variants_svariants, !lsum_qsum.
    - rewrite <- (mean_scale k _ _ _ Hk (count_pos b') Hc). apply qmul_le_l; [apply inv_count_nonneg|apply U, HP].
    - rewrite <- (mean_scale k _ _ _ Hk (count_pos b') Hc). apply qmul_le_l; [apply inv_count_nonneg|apply D, HP].
  Qed.
End INSERT.

Lemma cumb_up_pair coef w r : coef_good coef -> up_pair w (fun v => cumb coef v r w) (fun v => cumb coef v r w).
Proof. intros Hg v v' H. exact (proj1 (H coef Hg) r). Qed.

Lemma cumb_down_pair coef w r c : coef_good coef -> c <> w -> down_pair w (fun v => cumb coef v r c) (fun v => cumb coef v r c).
Proof. intros Hg Hc v v' H. exact (proj2 (H coef Hg) r c Hc). Qed.

Lemma has_shared_mid (q : ranked) l t : has_shared (q ++ IS l :: t) = true.
Proof. rewrite has_shared_app. cbn. apply orb_true_r. Qed.
Lemma has_shared_mid2 (q : ranked) w l t : has_shared (q ++ IP w :: IS l :: t) = true.
Proof. rewrite has_shared_app. cbn. apply orb_true_r. Qed.

(* w leaves the shared rank {la, w, lb} for a place of its own directly above the rest of the rank *)
Theorem pa_leave_shared coef pre post (q p3 : ranked) (la lb : list C) (x : Q) (w : C) :
  (forall i, 0 <= coef i) -> (forall i, coef (S i) <= coef i) ->
  Forall (fun bw => 0 <= snd bw) (pre ++ post) -> 0 <= x -> ~ In w (la ++ lb) ->
  pa_eval true coef true (pre ++ (q ++ IS (la ++ w :: lb) :: p3, x) :: post) 1 = PA_ok [Cand w] ->
  pa_eval true coef true (pre ++ (q ++ IP w :: IS (la ++ lb) :: p3, x) :: post) 1 = PA_ok [Cand w].
Proof.
  intros Hnn Hdec Hw Hx Hnin.
  assert (Hg : coef_good coef) by (split; assumption).
  set (k := inject_Z (Z.of_nat (S (length (la ++ lb))))).
  assert (Hk : 0 < k) by (unfold k; change 0 with (inject_Z 0); rewrite <- Zlt_Qlt; lia).
  pose proof (dom_prefix w k q _ _ (dom_leave w la lb p3 Hnin)) as Hd.
  destruct (dom_spread w k _ _ Hk (has_shared_mid q _ p3) (has_shared_mid2 q w _ p3) Hd) as [U D].
  apply pa_mono_replace_split; [exact Hw|exact Hx| |].
  - intros r. apply U. apply cumb_up_pair, Hg.
  - intros r c Hc. apply D. apply cumb_down_pair; assumption.
Qed.

(* ... and moves further up past the items p2 *)
Theorem pa_leave_shared_up coef pre post (p1 p2 p3 : ranked) (la lb : list C) (x : Q) (w : C) :
  (forall i, 0 <= coef i) -> (forall i, coef (S i) <= coef i) ->
  Forall (fun bw => 0 <= snd bw) (pre ++ post) -> 0 <= x -> ~ In w (la ++ lb) -> ~ In w (flatten p2) ->
  pa_eval true coef true (pre ++ (p1 ++ p2 ++ IS (la ++ w :: lb) :: p3, x) :: post) 1 = PA_ok [Cand w] ->
  pa_eval true coef true (pre ++ (p1 ++ IP w :: p2 ++ IS (la ++ lb) :: p3, x) :: post) 1 = PA_ok [Cand w].
Proof.
  intros Hnn Hdec Hw Hx Hnin Hp2 H.
  apply (pa_move_up_shared coef pre post p1 p2 (IS (la ++ lb) :: p3) x w Hnn Hdec Hw Hx Hp2).
  rewrite app_assoc in H |- *. apply pa_leave_shared; assumption.
Qed.

Lemma svariants_no_shared b : has_shared b = false -> svariants b = [b].
Proof.
  induction b as [|it t IH]; intros H; [reflexivity|]. destruct it as [c|l]; [|discriminate H].
  cbn [svariants]. rewrite (IH H). reflexivity.
Qed.

Lemma spread_mean f b : spread f b == / inject_Z (Z.of_nat (length (svariants b))) * qsum f (svariants b).
Proof.
  unfold spread. destruct (has_shared b) eqn:E.
  - unfold avgv. rewrite variants_svariants. reflexivity.
  - rewrite (svariants_no_shared b E). cbn [length qsum fold_right]. change (/ inject_Z (Z.of_nat 1)) with 1. ring.
Qed.

Theorem pa_same_variants coef pre post (b b' : ranked) (x : Q) (w : C) :
  Forall (fun bw => 0 <= snd bw) (pre ++ post) -> 0 <= x -> svariants b = svariants b' ->
  pa_eval true coef true (pre ++ (b, x) :: post) 1 = PA_ok [Cand w] ->
  pa_eval true coef true (pre ++ (b', x) :: post) 1 = PA_ok [Cand w].
Proof.
  intros Hw Hx E. apply pa_mono_replace_split; [exact Hw|exact Hx| |].
  - intros r. rewrite !spread_mean, E. apply Qle_refl.
  - intros r c _. rewrite !spread_mean, E. apply Qle_refl.
Qed.

Lemma svariants_app_congr q : forall t t', svariants t = svariants t' -> svariants (q ++ t) = svariants (q ++ t').
Proof.
  induction q as [|it q IH]; intros t t' E; [exact E|]. cbn [app svariants]. rewrite (IH t t' E). reflexivity.
Qed.

(* a shared rank with one member is that member on a rank of its own *)
Lemma svariants_singleton c t : svariants (IS [c] :: t) = svariants (IP c :: t).
Proof. cbn [svariants]. unfold perms. cbn. rewrite app_nil_r. apply map_ext. reflexivity. Qed.

(* w leaves a shared PAIR {w, c}: the other member is written as a plain rank *)
Theorem pa_leave_pair coef pre post (p1 p2 p3 : ranked) (la lb : list C) (c : C) (x : Q) (w : C) :
  (forall i, 0 <= coef i) -> (forall i, coef (S i) <= coef i) ->
  Forall (fun bw => 0 <= snd bw) (pre ++ post) -> 0 <= x -> la ++ lb = [c] -> c <> w -> ~ In w (flatten p2) ->
  pa_eval true coef true (pre ++ (p1 ++ p2 ++ IS (la ++ w :: lb) :: p3, x) :: post) 1 = PA_ok [Cand w] ->
  pa_eval true coef true (pre ++ (p1 ++ IP w :: p2 ++ IP c :: p3, x) :: post) 1 = PA_ok [Cand w].
Proof.
  intros Hnn Hdec Hw Hx Hc Hcw Hp2 H.
  apply (pa_same_variants coef pre post (p1 ++ IP w :: p2 ++ IS [c] :: p3)); [exact Hw|exact Hx| |].
  - apply svariants_app_congr. change (IP w :: p2 ++ IS [c] :: p3) with ((IP w :: p2) ++ IS [c] :: p3).
    change (IP w :: p2 ++ IP c :: p3) with ((IP w :: p2) ++ IP c :: p3). apply svariants_app_congr, svariants_singleton.
  - rewrite <- Hc. apply pa_leave_shared_up; try assumption. rewrite Hc. intros [E|[]]. exact (Hcw E).
Qed.
