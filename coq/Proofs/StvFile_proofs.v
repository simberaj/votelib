(* C19 - lemmas about Model/StvFile.v (character-level model of votelib/io/stv.py).
   Character codes: 10 LF, 32 space, 35 '#', 43 '+', 45 '-', 47 '/', 48..57 the digits, 61 '=', 88 'X'. *)
From Coq Require Import Strings.String Decimal DecimalN DecimalPos.
From Coq Require Import ZArith QArith Qreduction List Bool Lia.
From Coq Require FinFun.
From VL Require Import Model.Persist Model.BallotFile Model.StvFile Proofs.Persist_proofs Proofs.BallotFile_proofs.
Import ListNotations.
Open Scope Z_scope.

(* the pieces of the parser stay folded under simpl and cbn, here and in every file that imports this one *)
Arguments guarded_int : simpl never.
Arguments parse_multiplier : simpl never.
Arguments parse_header_line : simpl never.
Arguments create_system : simpl never.
Arguments create_evaluator : simpl never.
Arguments parse_n_ballots : simpl never.
Arguments is_space : simpl never.
Arguments strip : simpl never.
Arguments words : simpl never.
Arguments split1 : simpl never.
Arguments sc_put : simpl never.
Arguments ordered_vote : simpl never.
Arguments py_int : simpl never.
Arguments str_eqb : simpl never.
Arguments last_is : simpl never.

Lemma lbind_total : forall (X Y : Type) (r : lres X) (f : X -> lres Y),
  no_crash r -> (forall x, no_crash (f x)) -> no_crash (lbind r f).
Proof. intros X Y [x| |e] f Hr Hf; simpl in *; [apply Hf|exact I|contradiction]. Qed.

Lemma dgroup_decimal : forall E s acc prev, forallb (is_decimal_char E) s = true ->
  (s <> [] \/ prev = true) -> exists n, dgroup E s acc prev = Some n.
Proof.
  intros E s. induction s as [|c t IH]; intros acc prev Hall Hne; simpl.
  - destruct Hne as [Hne|Hp]; [congruence|]. subst prev. eexists; reflexivity.
  - simpl in Hall. apply andb_true_iff in Hall. destruct Hall as [Hc Ht].
    unfold is_decimal_char in Hc. destruct (dval E c) as [d|]; [|discriminate].
    apply IH; [exact Ht|right; reflexivity].
Qed.

Lemma digit_group_decimal : forall E s, is_decimal_str E s = true -> exists n, digit_group E s = Some n.
Proof.
  intros E s H. unfold is_decimal_str in H. destruct s as [|c t]; [discriminate|].
  apply dgroup_decimal; [exact H|left; discriminate].
Qed.

Lemma guarded_int_total : forall E s r, guarded_int E false s = Some r -> no_crash r.
Proof.
  intros E s r H. unfold guarded_int in H. destruct (is_decimal_str E s) eqn:Hd; [|discriminate].
  destruct (digit_group_decimal E s Hd) as [n Hn]. rewrite Hn in H. inversion H. exact I.
Qed.

Lemma int_or_error_total : forall E s, no_crash (int_or_error (guarded_int E false s)).
Proof.
  intros E s. destruct (guarded_int E false s) as [r|] eqn:H; simpl; [eapply guarded_int_total; eauto|exact I].
Qed.

Lemma quota_setting_total : forall q, no_crash (quota_setting q).
Proof.
  intros [[a [b|]]|]; simpl; try exact I.
  destruct (str_eqb a s_mandatory || str_eqb b s_mandatory); [|exact I].
  destruct (negb (str_eqb a s_mandatory)); [exact I|]. destruct (negb (str_eqb b s_mandatory)); exact I.
Qed.

Lemma quota_function_total : forall E b q, no_crash (quota_function E false b q).
Proof.
  intros E b [qn|]; unfold quota_function.
  - destruct (guarded_int E false qn) as [r|] eqn:H.
    + apply lbind_total; [eapply guarded_int_total; eauto|intros; exact I].
    + destruct (strs_mem qn quota_names); exact I.
  - destruct b; exact I.
Qed.

Lemma add_tiebreaker_total : forall E base r, no_crash (add_tiebreaker E false base r).
Proof.
  intros E base [r|]; unfold add_tiebreaker; [|exact I]. destruct (nonempty r); [|exact I]. destruct (str_eqb r s_non); [exact I|].
  apply lbind_total; [apply int_or_error_total|intros; exact I].
Qed.

Lemma add_fixed_seats_total : forall E e s, no_crash (add_fixed_seats E e s).
Proof. intros E e [s|]; unfold add_fixed_seats; [|exact I]. destruct (nonempty s); [destruct (py_int E s)|]; exact I. Qed.

Lemma create_evaluator_total : forall E sc, no_crash (create_evaluator E false sc).
Proof.
  intros E sc. unfold create_evaluator.
  destruct (if match sc_method sc with Some m => str_eqb m s_GPCA | None => false end then Some s_BC else sc_method sc) as [m|]; [|exact I].
  destruct (negb (str_eqb m s_BC) && negb (str_eqb m s_blt)); [exact I|].
  apply lbind_total; [apply quota_setting_total|intros qm].
  apply lbind_total; [apply quota_function_total|intros qf].
  apply lbind_total; [apply add_tiebreaker_total|intros e1]. apply add_fixed_seats_total.
Qed.

Lemma create_system_total : forall E sc, no_crash (create_system E false sc).
Proof. intros E sc. unfold create_system. apply lbind_total; [apply create_evaluator_total|intros; exact I]. Qed.

Lemma parse_n_ballots_total : forall E v, no_crash (parse_n_ballots E false v).
Proof.
  intros E v. unfold parse_n_ballots. destruct (str_eqb v s_blt); [exact I|].
  apply lbind_total; [apply int_or_error_total|intros; exact I].
Qed.

Lemma load_system_total : forall E ls sc cands nicks order, no_crash (load_system E false ls sc cands nicks order).
Proof.
  intros E ls. induction ls as [|l rest IH]; intros sc cands nicks order; simpl; [exact I|].
  destruct (parse_header_line l) as [|k v|]; [apply IH| |exact I].
  destruct (str_eqb k s_ballots).
  - destruct (match order with [] => Some nicks | _ :: _ => reorder_nicks nicks order [] end); [|exact I].
    apply lbind_total; [apply create_system_total|intros sys].
    apply lbind_total; [apply parse_n_ballots_total|intros; exact I].
  - destruct (str_eqb k s_order); [apply IH|].
    destruct (str_eqb k s_candidate || str_eqb k s_withdrawn).
    + destruct (split1 v) as [[nick name]|]; [apply IH|exact I].
    + destruct (sc_put sc k v); [apply IH|exact I].
Qed.

Lemma ordered_items_total : forall E items pool i acc, no_crash (ordered_items E false items pool i acc).
Proof.
  intros E items. induction items as [|it t IH]; intros pool i acc; simpl; [exact I|].
  destruct (guarded_int E false it) as [r|] eqn:Hg.
  - destruct (nth_error pool i); [|exact I]. apply lbind_total; [eapply guarded_int_total; eauto|intros; apply IH].
  - destruct (str_eqb it [45]); [apply IH|exact I].
Qed.

Lemma ordered_vote_total : forall E items pool, no_crash (ordered_vote E false items pool).
Proof.
  intros E items pool. unfold ordered_vote. apply lbind_total; [apply ordered_items_total|intros co].
  cbv zeta. destruct (ranks_are (sort_by_rank co) 1); exact I.
Qed.

(* a stripped line that is not empty has a first item: items[0] cannot fail *)
Lemma lstrip_head : forall s c t, lstrip s = c :: t -> is_space c = false.
Proof.
  induction s as [|x s IH]; intros c t H; simpl in H; [discriminate|].
  destruct (is_space x) eqn:Hx; [eapply IH; eauto|]. inversion H; subst. exact Hx.
Qed.

Lemma words_aux_nil : forall s cur, words_aux s cur = [] -> cur = [] /\ forallb is_space s = true.
Proof.
  induction s as [|c t IH]; intros cur H; simpl in *.
  - destruct cur; [split; reflexivity|discriminate].
  - destruct (is_space c) eqn:Hc.
    + destruct cur; [|discriminate]. destruct (IH [] H) as [_ H2]. split; [reflexivity|exact H2].
    + destruct (IH (c :: cur) H) as [H1 _]. discriminate.
Qed.

Lemma strip_has_nonspace : forall s c t, strip s = c :: t -> exists d, In d (strip s) /\ is_space d = false.
Proof.
  intros s c t H. unfold strip, rstrip in *.
  destruct (lstrip (rev (lstrip s))) as [|d u] eqn:Hl; [discriminate|].
  exists d. split; [|eapply lstrip_head; eauto].
  simpl. apply in_or_app. right. left. reflexivity.
Qed.

Lemma words_strip_nonempty : forall s c t, strip s = c :: t -> words (strip s) <> [].
Proof.
  intros s c t H Hw. destruct (strip_has_nonspace s c t H) as [d [Hin Hd]].
  unfold words in Hw. apply words_aux_nil in Hw. destruct Hw as [_ Hall].
  rewrite forallb_forall in Hall. rewrite (Hall d Hin) in Hd. discriminate.
Qed.

Lemma load_votes_total : forall E ordered nicks ls i n acc, no_crash (load_votes E false ordered nicks ls i n acc).
Proof.
  intros E ordered nicks ls. induction ls as [|l rest IH]; intros i n acc; simpl; [exact I|].
  destruct (str_eqb (strip l) s_end); [destruct (i =? n); exact I|].
  destruct (strip l) as [|c t] eqn:Hs; [apply IH|].
  pose proof (words_strip_nonempty l c t Hs) as Hw. rewrite Hs in Hw.
  destruct (words (c :: t)) as [|first more]; [congruence|].
  destruct (if last_is 88 first then match parse_multiplier E (removelast first) with Some m => Some (m, more) | None => None end
            else Some (1 # 1, first :: more)) as [[mult items]|]; [|exact I].
  apply lbind_total; [|intros; apply IH].
  destruct ordered; [apply ordered_vote_total|]. destruct (lookup_nicks nicks items); exact I.
Qed.

Lemma finish_blt_total : forall h r, no_crash r -> no_crash (finish_blt false h r).
Proof.
  intros h [[[[bv bs] bc] bt]| |e] Hr; simpl in *; try exact I; [|contradiction].
  destruct (snd (h_system h)); exact I.
Qed.

(* totality: the repaired reader never crashes, if the BLT loader it is given does not *)
Theorem stv_load_lines_total : forall E bl ls, (forall r, no_crash (bl r)) -> no_crash (stv_load_lines E false bl ls).
Proof.
  intros E bl ls Hbl. unfold stv_load_lines. apply lbind_total; [apply load_system_total|intros [h rest]].
  destruct (h_n_ballots h) as [n|].
  - apply lbind_total; [apply load_votes_total|intros; exact I].
  - apply finish_blt_total. apply Hbl.
Qed.

Definition nonspace (s : str) : bool := forallb (fun c => negb (is_space c)) s.

Lemma smem_app : forall c a b, smem c (a ++ b) = smem c a || smem c b.
Proof. intros. unfold smem. apply existsb_app. Qed.

Lemma smem_cons : forall c x t, smem c (x :: t) = (c =? x) || smem c t.
Proof. reflexivity. Qed.

Lemma smem_In : forall c s, smem c s = true <-> In c s.
Proof.
  intros c s. unfold smem. rewrite existsb_exists. split.
  - intros [x [Hx He]]. apply Z.eqb_eq in He. subst x. exact Hx.
  - intros H. exists c. split; [exact H|apply Z.eqb_refl].
Qed.

Lemma smem_false : forall k s, (forall c, In c s -> c <> k) -> smem k s = false.
Proof.
  intros k s H. destruct (smem k s) eqn:He; [|reflexivity]. apply smem_In in He. exfalso. exact (H k He eq_refl).
Qed.

Definition no_nl (l : str) : Prop := smem 10 l = false.

Lemma no_nl_app : forall a b, no_nl a -> no_nl b -> no_nl (a ++ b).
Proof. intros a b Ha Hb. unfold no_nl in *. rewrite smem_app, Ha, Hb. reflexivity. Qed.

Lemma cut_at_absent : forall c s, smem c s = false -> cut_at c s = s.
Proof.
  induction s as [|x s IH]; intros H; simpl; [reflexivity|].
  rewrite smem_cons in H. apply orb_false_iff in H. destruct H as [H1 H2].
  rewrite Z.eqb_sym, H1. f_equal. apply IH. exact H2.
Qed.

Lemma split_at_app : forall c a b, smem c a = false -> split_at c (a ++ c :: b) = Some (a, b).
Proof.
  induction a as [|x a IH]; intros b H; simpl.
  - rewrite Z.eqb_refl. reflexivity.
  - rewrite smem_cons in H. apply orb_false_iff in H. destruct H as [H1 H2].
    rewrite Z.eqb_sym, H1, (IH b H2). reflexivity.
Qed.

Lemma lstrip_id : forall s, match s with [] => true | c :: _ => negb (is_space c) end = true -> lstrip s = s.
Proof. intros [|c t] H; simpl; [reflexivity|]. apply negb_true_iff in H. rewrite H. reflexivity. Qed.

Lemma rstrip_id : forall s, match rev s with [] => true | c :: _ => negb (is_space c) end = true -> rstrip s = s.
Proof. intros s H. unfold rstrip. rewrite (lstrip_id (rev s) H). apply rev_involutive. Qed.

Lemma strip_id : forall s, no_outer_space s = true -> strip s = s.
Proof.
  intros s H. unfold no_outer_space in H. apply andb_true_iff in H. destruct H as [H1 H2].
  unfold strip. rewrite (lstrip_id s H1). apply rstrip_id. exact H2.
Qed.

Lemma strip_trailing_space : forall a c, no_outer_space a = true -> a <> [] -> is_space c = true -> strip (a ++ [c]) = a.
Proof.
  intros a c H Hne Hc. unfold no_outer_space in H. apply andb_true_iff in H. destruct H as [H1 H2].
  unfold strip. rewrite lstrip_id.
  - unfold rstrip. rewrite rev_app_distr. simpl rev. simpl app. cbn [lstrip]. rewrite Hc.
    rewrite (lstrip_id (rev a) H2). apply rev_involutive.
  - destruct a as [|x a]; [congruence|]. exact H1.
Qed.

(* the last character of a ++ c :: b is that of b, when b has one *)
Lemma last_app_sep : forall a c b, b <> [] ->
  match rev (a ++ c :: b) with [] => true | x :: _ => negb (is_space x) end =
  match rev b with [] => true | x :: _ => negb (is_space x) end.
Proof.
  intros a c b Hb. rewrite rev_app_distr. cbn [rev]. rewrite <- app_assoc.
  destruct (rev b) as [|y l] eqn:Hr; [|reflexivity].
  apply (f_equal (@rev Z)) in Hr. rewrite rev_involutive in Hr. contradiction.
Qed.

Lemma no_outer_space_sep : forall a c b, a <> [] -> b <> [] ->
  match a with [] => true | x :: _ => negb (is_space x) end = true ->
  match rev b with [] => true | x :: _ => negb (is_space x) end = true ->
  no_outer_space (a ++ c :: b) = true.
Proof.
  intros a c b Ha Hb H1 H2. unfold no_outer_space. apply andb_true_iff. split.
  - destruct a as [|x a]; [congruence|]. exact H1.
  - rewrite (last_app_sep a c b Hb). exact H2.
Qed.

Lemma nonspace_app : forall a b, nonspace (a ++ b) = nonspace a && nonspace b.
Proof. intros. unfold nonspace. apply forallb_app. Qed.

Lemma nonspace_head : forall s, nonspace s = true -> match s with [] => true | c :: _ => negb (is_space c) end = true.
Proof. intros [|c t] H; [reflexivity|]. simpl in H. apply andb_true_iff in H. tauto. Qed.

Lemma nonspace_rev : forall s, nonspace s = true -> nonspace (rev s) = true.
Proof.
  intros s H. unfold nonspace in *. rewrite forallb_forall in *. intros x Hx. apply H. apply in_rev. exact Hx.
Qed.

Lemma nonspace_last : forall s, nonspace s = true -> match rev s with [] => true | c :: _ => negb (is_space c) end = true.
Proof. intros s H. apply nonspace_head. apply nonspace_rev. exact H. Qed.

Lemma nonspace_no_outer : forall s, nonspace s = true -> no_outer_space s = true.
Proof.
  intros s H. unfold no_outer_space. apply andb_true_iff. split; [apply nonspace_head|apply nonspace_last]; exact H.
Qed.

Definition key_ok (k : str) : bool :=
  match k with [] => false | c :: _ => negb (is_space c) end && negb (smem 61 k) && negb (smem 35 k).
Definition val_ok (v : str) : bool :=
  negb (smem 35 v) && match rev v with [] => true | c :: _ => negb (is_space c) end.

Lemma parse_header_kv : forall k v, key_ok k = true -> val_ok v = true -> parse_header_line (k ++ 61 :: v) = HKeyVal k v.
Proof.
  intros k v Hk Hv. unfold key_ok in Hk. apply andb_true_iff in Hk. destruct Hk as [Hk Hk3].
  apply andb_true_iff in Hk. destruct Hk as [Hk1 Hk2]. apply negb_true_iff in Hk2. apply negb_true_iff in Hk3.
  unfold val_ok in Hv. apply andb_true_iff in Hv. destruct Hv as [Hv1 Hv2]. apply negb_true_iff in Hv1.
  unfold parse_header_line.
  rewrite cut_at_absent by (rewrite smem_app, smem_cons, Hk3, Hv1; reflexivity).
  rewrite strip_id.
  - destruct k as [|c k]; [discriminate|]. cbn [app].
    change (c :: k ++ 61 :: v) with ((c :: k) ++ 61 :: v). rewrite (split_at_app 61 (c :: k) v Hk2). reflexivity.
  - unfold no_outer_space. apply andb_true_iff. split.
    + destruct k as [|c k]; [discriminate|]. exact Hk1.
    + rewrite rev_app_distr. cbn [rev]. rewrite <- app_assoc. cbn [app].
      destruct (rev v) as [|y rv]; [reflexivity|exact Hv2].
Qed.

Lemma span_word_app : forall w c r, nonspace w = true -> is_space c = true -> span_word (w ++ c :: r) = (w, c :: r).
Proof.
  induction w as [|x w IH]; intros c r Hw Hc; cbn [app span_word].
  - rewrite Hc. reflexivity.
  - simpl in Hw. apply andb_true_iff in Hw. destruct Hw as [Hx Hw]. apply negb_true_iff in Hx. rewrite Hx.
    rewrite (IH c r Hw Hc). reflexivity.
Qed.

Lemma space_32 : is_space 32 = true.
Proof. reflexivity. Qed.

Lemma split1_nick_name : forall nick name, nick <> [] -> nonspace nick = true -> name <> [] ->
  match name with [] => true | c :: _ => negb (is_space c) end = true ->
  split1 (nick ++ 32 :: name) = Some (nick, name).
Proof.
  intros nick name Hn Hns Hm Hh. unfold split1.
  rewrite lstrip_id.
  - rewrite (span_word_app nick 32 name Hns space_32). cbn [lstrip]. rewrite space_32.
    rewrite (lstrip_id name Hh). destruct nick; [congruence|]. destruct name; [congruence|]. reflexivity.
  - destruct nick as [|x nick]; [congruence|]. cbn [app]. simpl in Hns. apply andb_true_iff in Hns. tauto.
Qed.

Definition word (w : str) : Prop := w <> [] /\ nonspace w = true.

Lemma words_aux_word : forall w t cur, nonspace w = true -> words_aux (w ++ t) cur = words_aux t (rev w ++ cur).
Proof.
  induction w as [|x w IH]; intros t cur H; cbn [app words_aux rev]; [reflexivity|].
  simpl in H. apply andb_true_iff in H. destruct H as [Hx Hw]. apply negb_true_iff in Hx. rewrite Hx.
  rewrite (IH t (x :: cur) Hw), <- app_assoc. reflexivity.
Qed.

Lemma words_one : forall w cur, w <> [] -> nonspace w = true -> words_aux w cur = [rev cur ++ w].
Proof.
  intros w cur Hne Hw. rewrite <- (app_nil_r w) at 1. rewrite (words_aux_word w [] cur Hw). cbn [words_aux].
  destruct (rev w ++ cur) as [|y l] eqn:Hr.
  - apply app_eq_nil in Hr. destruct Hr as [Hr _]. apply (f_equal (@rev Z)) in Hr. rewrite rev_involutive in Hr. simpl in Hr. congruence.
  - rewrite <- Hr, rev_app_distr, rev_involutive. reflexivity.
Qed.

Lemma words_aux_sep : forall w rest, w <> [] -> nonspace w = true ->
  words_aux (w ++ 32 :: rest) [] = w :: words_aux rest [].
Proof.
  intros w rest Hne Hw. rewrite (words_aux_word w (32 :: rest) [] Hw). cbn [words_aux]. rewrite space_32, app_nil_r.
  destruct (rev w) as [|y l] eqn:Hr.
  - apply (f_equal (@rev Z)) in Hr. rewrite rev_involutive in Hr. simpl in Hr. congruence.
  - rewrite <- Hr, rev_involutive. reflexivity.
Qed.

Lemma join_sp_cons : forall w m ws, join_sp (w :: m :: ws) = w ++ 32 :: join_sp (m :: ws).
Proof. reflexivity. Qed.

Lemma words_join : forall ws, Forall word ws -> words (join_sp ws) = ws.
Proof.
  intros ws H. unfold words. induction H as [|w ws [Hne Hw] Hws IH]; [reflexivity|].
  destruct ws as [|m ws'].
  - cbn [join_sp]. rewrite (words_one w [] Hne Hw). reflexivity.
  - rewrite join_sp_cons, (words_aux_sep w _ Hne Hw), IH. reflexivity.
Qed.

Lemma join_sp_ends : forall ws, Forall word ws -> ws <> [] -> no_outer_space (join_sp ws) = true /\ join_sp ws <> [].
Proof.
  intros ws H. induction H as [|w ws [Hne Hw] Hws IH]; intros Hnn; [congruence|].
  destruct ws as [|m ws'].
  - cbn [join_sp]. split; [apply nonspace_no_outer; exact Hw|exact Hne].
  - rewrite join_sp_cons. destruct IH as [IH1 IH2]; [discriminate|]. split.
    + unfold no_outer_space in IH1. apply andb_true_iff in IH1.
      apply no_outer_space_sep; [exact Hne|exact IH2|apply nonspace_head; exact Hw|exact (proj2 IH1)].
    + destruct w; [congruence|discriminate].
Qed.

(* a line made of a first word, a space and further words is stripped of the space only when no word follows *)
Lemma strip_join_cons : forall w ws, Forall word (w :: ws) -> strip (w ++ 32 :: join_sp ws) = join_sp (w :: ws).
Proof.
  intros w ws H. destruct ws as [|m ws'].
  - inversion H as [|? ? [Hne Hw] _]; subst. exact (strip_trailing_space w 32 (nonspace_no_outer w Hw) Hne space_32).
  - destruct (join_sp_ends _ H) as [Hno _]; [discriminate|]. exact (strip_id _ Hno).
Qed.

Definition nick_good (n : str) : Prop := n <> [] /\ forallb nick_char_ok n = true.

Lemma nick_char_nonspace : forall n, forallb nick_char_ok n = true -> nonspace n = true.
Proof.
  intros n H. unfold nonspace. rewrite forallb_forall in *. intros c Hc. specialize (H c Hc).
  unfold nick_char_ok in H. apply andb_true_iff in H. destruct H as [H _]. apply andb_true_iff in H. tauto.
Qed.

Lemma nick_word : forall n, nick_good n -> word n.
Proof. intros n [Hne Hn]. split; [exact Hne|apply nick_char_nonspace; exact Hn]. Qed.

Definition ascii_digit (c : Z) : bool := (48 <=? c) && (c <=? 57).
Definition digits (s : str) : bool := forallb ascii_digit s.

Lemma dval_ascii : forall E c, ascii_digit c = true -> dval E c = Some (c - 48).
Proof. intros E c H. unfold dval. unfold ascii_digit in H. rewrite H. reflexivity. Qed.

Lemma not_space_ascii : forall c, 33 <= c <= 132 -> is_space c = false.
Proof.
  intros c H. unfold is_space. apply not_true_is_false. intros He. apply existsb_exists in He.
  destruct He as [x [Hx Heq]]. apply Z.eqb_eq in Heq. subst x. unfold spaces in Hx. cbn [In] in Hx. lia.
Qed.

Lemma ascii_digit_range : forall c, ascii_digit c = true -> 48 <= c <= 57.
Proof. intros c H. unfold ascii_digit in H. apply andb_true_iff in H. rewrite !Z.leb_le in H. exact H. Qed.

(* a digit string does not start with a sign *)
Lemma digits_head : forall s, digits s = true -> s <> [] -> exists c t, s = c :: t /\ (c =? 43) = false /\ (c =? 45) = false.
Proof.
  intros [|c t] H Hne; [congruence|]. exists c, t. cbn [digits forallb] in H. apply andb_true_iff in H.
  pose proof (ascii_digit_range c (proj1 H)). split; [reflexivity|]. split; apply Z.eqb_neq; lia.
Qed.

Fixpoint uint_val (u : Decimal.uint) (acc : Z) : Z :=
  match u with
  | Nil => acc
  | D0 u => uint_val u (acc * 10 + 0) | D1 u => uint_val u (acc * 10 + 1) | D2 u => uint_val u (acc * 10 + 2)
  | D3 u => uint_val u (acc * 10 + 3) | D4 u => uint_val u (acc * 10 + 4) | D5 u => uint_val u (acc * 10 + 5)
  | D6 u => uint_val u (acc * 10 + 6) | D7 u => uint_val u (acc * 10 + 7) | D8 u => uint_val u (acc * 10 + 8)
  | D9 u => uint_val u (acc * 10 + 9)
  end.

Lemma uint_codes_digits : forall u, digits (uint_codes u) = true.
Proof. induction u; simpl; try reflexivity; exact IHu. Qed.

Lemma dgroup_uint : forall E u acc prev, (u <> Nil \/ prev = true) ->
  dgroup E (uint_codes u) acc prev = Some (uint_val u acc).
Proof.
  intros E u. induction u; intros acc prev H; cbn [uint_codes uint_val dgroup];
    [destruct H as [H|H]; [congruence|subst; reflexivity] | rewrite dval_ascii by reflexivity; apply IHu; right; reflexivity ..].
Qed.

Lemma uint_val_acc : forall u acc, uint_val u (Zpos acc) = Zpos (Pos.of_uint_acc u acc).
Proof.
  induction u; intros acc; cbn [uint_val Pos.of_uint_acc]; try reflexivity; rewrite <- IHu; f_equal; lia.
Qed.

Lemma uint_val_zero : forall u, uint_val u 0 = Z.of_N (Pos.of_uint u).
Proof.
  induction u; cbn [uint_val Pos.of_uint]; try reflexivity; try exact IHu;
    match goal with |- uint_val _ ?a = _ => let p := eval compute in a in change a with p end; rewrite uint_val_acc; reflexivity.
Qed.

Lemma to_uint_not_nil : forall n, N.to_uint n <> Nil.
Proof.
  intros n H. pose proof (DecimalN.Unsigned.of_to n) as Hn. rewrite H in Hn. cbn in Hn. subst n. discriminate.
Qed.

Lemma n_str_value : forall E n, digit_group E (n_str n) = Some (Z.of_N n).
Proof.
  intros E n. unfold digit_group, n_str. rewrite dgroup_uint by (left; apply to_uint_not_nil).
  rewrite uint_val_zero. change (Pos.of_uint (N.to_uint n)) with (N.of_uint (N.to_uint n)).
  rewrite DecimalN.Unsigned.of_to. reflexivity.
Qed.

Lemma n_str_digits : forall n, digits (n_str n) = true.
Proof. intros. apply uint_codes_digits. Qed.

Lemma n_str_nonempty : forall n, n_str n <> [].
Proof.
  intros n H. unfold n_str in H. pose proof (to_uint_not_nil n) as Hn. destruct (N.to_uint n); try discriminate. congruence.
Qed.

Lemma digits_nonspace : forall s, digits s = true -> nonspace s = true.
Proof.
  intros s H. unfold digits, nonspace in *. rewrite forallb_forall in *. intros c Hc.
  rewrite not_space_ascii by (pose proof (ascii_digit_range c (H c Hc)); lia). reflexivity.
Qed.

Lemma digits_no : forall s k, digits s = true -> ascii_digit k = false -> smem k s = false.
Proof.
  intros s k H Hk. apply smem_false. intros c Hc ->.
  unfold digits in H. rewrite forallb_forall in H. rewrite (H k Hc) in Hk. discriminate.
Qed.

Lemma digits_decimal : forall E s, digits s = true -> s <> [] -> is_decimal_str E s = true.
Proof.
  intros E s H Hne. unfold is_decimal_str. destruct s as [|c t]; [congruence|].
  unfold digits in H. rewrite forallb_forall in *. intros x Hx. unfold is_decimal_char. rewrite (dval_ascii E x (H x Hx)). reflexivity.
Qed.

Lemma guarded_int_n_str : forall E n, guarded_int E false (n_str n) = Some (Ok (Z.of_N n)).
Proof.
  intros E n. unfold guarded_int. rewrite (digits_decimal E _ (n_str_digits n) (n_str_nonempty n)), n_str_value. reflexivity.
Qed.

Lemma z_str_nonneg : forall z, 0 <= z -> z_str z = n_str (Z.to_N z).
Proof. intros [|p|p] H; try reflexivity. lia. Qed.

Lemma z_str_nonempty : forall z, z_str z <> [].
Proof. intros [|p|p]; cbn [z_str]; try apply n_str_nonempty. discriminate. Qed.

Definition zchars (s : str) : bool := forallb (fun c => ascii_digit c || (c =? 45)) s.

Lemma zchars_digits : forall s, digits s = true -> zchars s = true.
Proof.
  intros s H. unfold digits, zchars in *. rewrite forallb_forall in *. intros c Hc. rewrite (H c Hc). reflexivity.
Qed.

Lemma z_str_chars : forall z, zchars (z_str z) = true.
Proof.
  intros [|p|p]; cbn [z_str]; try (apply zchars_digits, n_str_digits).
  unfold zchars. cbn [forallb]. apply andb_true_iff. split; [reflexivity|]. apply (zchars_digits _ (n_str_digits _)).
Qed.

Lemma zchars_props : forall s, zchars s = true ->
  nonspace s = true /\ smem 35 s = false /\ smem 10 s = false /\ smem 47 s = false /\ smem 61 s = false /\ smem 88 s = false.
Proof.
  intros s H. unfold zchars in H. rewrite forallb_forall in H.
  assert (Hc : forall c, In c s -> is_space c = false /\ c <> 35 /\ c <> 10 /\ c <> 47 /\ c <> 61 /\ c <> 88).
  { intros c Hc. specialize (H c Hc). apply orb_true_iff in H. destruct H as [H|H].
    - pose proof (ascii_digit_range c H). split; [apply not_space_ascii|]; lia.
    - apply Z.eqb_eq in H. subst c. repeat split; try lia; try reflexivity. }
  split; [|repeat split; apply smem_false; intros c Hin; pose proof (Hc c Hin); tauto].
  unfold nonspace. rewrite forallb_forall. intros c Hin. destruct (Hc c Hin) as [Hs _]. rewrite Hs. reflexivity.
Qed.

Lemma val_ok_nonspace : forall v, nonspace v = true -> smem 35 v = false -> val_ok v = true.
Proof. intros v H H35. unfold val_ok. rewrite H35. apply nonspace_last. exact H. Qed.

Lemma z_str_val_ok : forall z, val_ok (z_str z) = true.
Proof. intros z. destruct (zchars_props _ (z_str_chars z)) as [H1 [H2 _]]. apply val_ok_nonspace; assumption. Qed.

Lemma py_int_z_str : forall E z, py_int E (z_str z) = Some z.
Proof.
  intros E z. unfold py_int. destruct (zchars_props _ (z_str_chars z)) as [Hns _].
  rewrite (strip_id _ (nonspace_no_outer _ Hns)).
  destruct z as [|p|p].
  - reflexivity.
  - change (z_str (Zpos p)) with (n_str (Npos p)).
    destruct (digits_head _ (n_str_digits (Npos p)) (n_str_nonempty (Npos p))) as [c [t [Hs [H43 H45]]]].
    pose proof (n_str_value E (Npos p)) as Hv. rewrite Hs in *. rewrite H43, H45. exact Hv.
  - cbn [z_str]. change (45 =? 43) with false. change (45 =? 45) with true. cbv iota.
    rewrite (n_str_value E (Npos p)). reflexivity.
Qed.

Lemma str_eqb_head : forall a s b t, a <> b -> str_eqb (a :: s) (b :: t) = false.
Proof. intros a s b t H. unfold str_eqb; fold str_eqb. replace (a =? b) with false by (symmetry; apply Z.eqb_neq; exact H). reflexivity. Qed.

Lemma zchars_not : forall s b t, zchars s = true -> ascii_digit b = false -> b <> 45 -> str_eqb s (b :: t) = false.
Proof.
  intros [|a s] b t H Hb Hb45; [reflexivity|]. apply str_eqb_head. intros Heq. subst a.
  cbn [zchars forallb] in H. apply andb_true_iff in H. destruct H as [H _]. apply orb_true_iff in H. destruct H as [H|H].
  - rewrite H in Hb. discriminate.
  - apply Z.eqb_eq in H. contradiction.
Qed.

Lemma frac_body_written : forall E a d, frac_body E (n_str a ++ 47 :: n_str (Npos d)) = Some (Z.of_N a # d).
Proof.
  intros E a d. unfold frac_body.
  rewrite split_at_app by (apply digits_no; [apply n_str_digits|reflexivity]).
  rewrite !n_str_value. reflexivity.
Qed.

Lemma q_str_nonspace : forall q, nonspace (q_str q) = true.
Proof.
  intros q. unfold q_str. destruct (zchars_props _ (z_str_chars (Qnum q))) as [Hz _].
  destruct (Pos.eqb (Qden q) 1); [exact Hz|].
  rewrite nonspace_app, Hz. cbn [nonspace forallb andb]. change (negb (is_space 47)) with true. cbn [andb].
  apply digits_nonspace, n_str_digits.
Qed.

Lemma parse_multiplier_q : forall E q, stv_weight_ok E (WQ q) = true -> parse_multiplier E (q_str q) = Some q.
Proof.
  intros E [n d] H. cbn [stv_weight_ok Qnum Qden] in H. apply andb_true_iff in H. destruct H as [_ H].
  unfold parse_multiplier, q_str. cbn [Qnum Qden].
  destruct (Pos.eqb d 1) eqn:Hd.
  - apply Pos.eqb_eq in Hd. subst d. cbn [negb orb] in H. apply Z.leb_le in H.
    rewrite (z_str_nonneg n H).
    rewrite (digits_no _ 47 (n_str_digits _)) by reflexivity.
    rewrite (digits_decimal E _ (n_str_digits _) (n_str_nonempty _)), n_str_value.
    cbn [option_map]. rewrite Z2N.id by exact H. reflexivity.
  - rewrite smem_app, smem_cons. change (47 =? 47) with true. rewrite orb_true_r.
    assert (Hpos : forall a, py_fraction E (n_str a ++ 47 :: n_str (Npos d)) = Some (Z.of_N a # d)).
    { intros a. destruct (digits_head _ (n_str_digits a) (n_str_nonempty a)) as [c [t [Hs [H43 H45]]]].
      rewrite <- (frac_body_written E a d), Hs. cbn [app py_fraction]. rewrite H43, H45. reflexivity. }
    destruct n as [|p|p]; [exact (Hpos 0%N)|exact (Hpos (Npos p))|].
    cbn [z_str app py_fraction]. change (45 =? 43) with false. change (45 =? 45) with true. cbv iota.
      rewrite (frac_body_written E (Npos p) d). reflexivity.
Qed.

Lemma parse_multiplier_written : forall E w, stv_weight_ok E w = true ->
  parse_multiplier E (w_str w) = w_val E w /\ (exists v, w_val E w = Some v) /\ nonspace (w_str w) = true.
Proof.
  intros E [q|s] H.
  - cbn [w_str w_val]. split; [apply parse_multiplier_q; exact H|]. split; [eexists; reflexivity|apply q_str_nonspace].
  - cbn [w_str w_val]. cbn [stv_weight_ok] in H.
    apply andb_true_iff in H. destruct H as [H H5]. apply andb_true_iff in H. destruct H as [H H4].
    apply andb_true_iff in H. destruct H as [H H3]. apply andb_true_iff in H. destruct H as [H1 H2].
    apply negb_true_iff in H2. apply negb_true_iff in H3.
    split; [|split; [destruct (dec_val E s) as [v|]; [eexists; reflexivity|discriminate]|exact H5]].
    unfold parse_multiplier. rewrite H2, H3, H4. reflexivity.
Qed.

Lemma last_is_snoc : forall c s, last_is c (s ++ [c]) = true.
Proof. intros. unfold last_is. rewrite rev_app_distr. cbn [rev app]. apply Z.eqb_refl. Qed.

Lemma last_is_no : forall c s, smem c s = false -> last_is c s = false.
Proof.
  intros c s H. unfold last_is. destruct (rev s) as [|x l] eqn:Hr; [reflexivity|].
  destruct (x =? c) eqn:Hx; [|reflexivity]. apply Z.eqb_eq in Hx. subst x.
  rewrite (proj2 (smem_In c s)) in H; [discriminate|]. apply in_rev. rewrite Hr. left. reflexivity.
Qed.

Lemma strs_mem_false_notin : forall x l, strs_mem x l = false -> ~ In x l.
Proof.
  intros x l H Hin. unfold strs_mem in H.
  assert (Ht : existsb (str_eqb x) l = true) by (apply existsb_exists; exists x; split; [exact Hin|apply str_eqb_refl]).
  rewrite Ht in H. discriminate.
Qed.

Lemma NoDup_snoc : forall (A : Type) (l : list A) x, NoDup l -> ~ In x l -> NoDup (l ++ [x]).
Proof.
  intros A l x Hl Hx. induction Hl as [|y l Hy Hl IH]; simpl.
  - constructor; [intros []|constructor].
  - constructor.
    + intros Hin. apply in_app_or in Hin. destruct Hin as [Hin|[Heq|[]]]; [contradiction|]. subst. apply Hx. left; reflexivity.
    + apply IH. intros Hin. apply Hx. right; exact Hin.
Qed.

Lemma initials_nicks_spec : forall E names seen l, initials_nicks E names seen = Some l -> NoDup seen ->
  l = seen ++ map (name_to_initials E) names /\ NoDup l /\ Forall (fun i => i <> []) (map (name_to_initials E) names).
Proof.
  intros E names. induction names as [|nm t IH]; intros seen l H Hnd; cbn [initials_nicks map] in *.
  - inversion H; subst. rewrite app_nil_r. split; [reflexivity|split; [exact Hnd|constructor]].
  - destruct (name_to_initials E nm) as [|c i] eqn:Hi; [discriminate|]. cbn [orb] in H.
    destruct (str_eqb (c :: i) s_end); [discriminate|]. cbn [orb] in H.
    destruct (strs_mem (c :: i) seen) eqn:Hm; [discriminate|].
    destruct (IH (seen ++ [c :: i]) l H (NoDup_snoc _ seen (c :: i) Hnd (strs_mem_false_notin _ _ Hm))) as [H1 [H2 H3]].
    split; [rewrite H1, <- app_assoc; reflexivity|split; [exact H2|constructor; [discriminate|exact H3]]].
Qed.

Lemma n_letters_aux_spec : forall fuel k pow len, pow = 26 ^ Z.of_nat k -> len <= pow + Z.of_nat fuel -> (1 <= k)%nat ->
  len <= 26 ^ Z.of_nat (n_letters_aux fuel k pow len) /\ (1 <= n_letters_aux fuel k pow len)%nat.
Proof.
  induction fuel as [|f IH]; intros k pow len Hp Hl Hk; cbn [n_letters_aux].
  - split; [lia|exact Hk].
  - destruct (pow <? len) eqn:Hlt.
    + apply Z.ltb_lt in Hlt. apply IH; [|  |lia].
      * rewrite Nat2Z.inj_succ, Z.pow_succ_r by lia. lia.
      * assert (0 < pow) by (subst pow; apply Z.pow_pos_nonneg; lia). lia.
    + apply Z.ltb_ge in Hlt. split; [lia|exact Hk].
Qed.

Lemma n_letters_spec : forall n, Z.of_nat n <= 26 ^ Z.of_nat (n_letters n) /\ (1 <= n_letters n)%nat.
Proof. intros n. unfold n_letters. apply n_letters_aux_spec; [reflexivity|lia|lia]. Qed.

Lemma nick_letters_inj : forall k i j, 0 <= i < 26 ^ Z.of_nat k -> 0 <= j < 26 ^ Z.of_nat k ->
  nick_letters k i = nick_letters k j -> i = j.
Proof.
  induction k as [|k IH]; intros i j Hi Hj H.
  - change (26 ^ Z.of_nat 0) with 1 in *. lia.
  - rewrite Nat2Z.inj_succ, Z.pow_succ_r in Hi, Hj by lia. pose proof (f_equal (hd 0) H) as H1. pose proof (f_equal (@tl Z) H) as H2.
    change (97 + i mod 26 = 97 + j mod 26) in H1. change (nick_letters k (i / 26) = nick_letters k (j / 26)) in H2.
    assert (Hd : i / 26 = j / 26).
    { apply IH; [| |exact H2]; split; try (apply Z.div_pos; lia); apply Z.div_lt_upper_bound; lia. }
    pose proof (Z.div_mod i 26 ltac:(lia)) as Ei. pose proof (Z.div_mod j 26 ltac:(lia)) as Ej. lia.
Qed.

Lemma visible_char_ok : forall c, 33 <= c <= 132 -> c <> 35 -> c <> 88 -> nick_char_ok c = true.
Proof.
  intros c H H35 H88. apply Z.eqb_neq in H35, H88. unfold nick_char_ok. rewrite (not_space_ascii c H), H35, H88. reflexivity.
Qed.

Lemma nick_letters_good : forall k i, (1 <= k)%nat -> nick_good (nick_letters k i).
Proof.
  intros k i Hk. split.
  - destruct k; [lia|]. discriminate.
  - clear Hk. revert i. induction k as [|k IH]; intros i; cbn [nick_letters forallb]; [reflexivity|].
    rewrite IH, andb_true_r. pose proof (Z.mod_pos_bound i 26). apply visible_char_ok; lia.
Qed.

Lemma ordinal_from_spec : forall k n i, (1 <= k)%nat -> 0 <= i -> i + Z.of_nat n <= 26 ^ Z.of_nat k ->
  length (ordinal_from k n i) = n /\ Forall nick_good (ordinal_from k n i) /\ NoDup (ordinal_from k n i) /\
  (forall x, In x (ordinal_from k n i) -> exists j, i <= j < i + Z.of_nat n /\ x = nick_letters k j).
Proof.
  intros k n. induction n as [|n IH]; intros i Hk Hi Hb; cbn [ordinal_from].
  - split; [reflexivity|split; [constructor|split; [constructor|intros x []]]].
  - destruct (IH (i + 1) Hk) as [H1 [H2 [H3 H4]]]; [lia|lia|].
    split; [cbn [length]; rewrite H1; reflexivity|]. split; [constructor; [apply nick_letters_good; exact Hk|exact H2]|]. split.
    + constructor; [|exact H3]. intros Hin. destruct (H4 _ Hin) as [j [Hj Heq]].
      apply nick_letters_inj in Heq; lia.
    + intros x [Hx|Hx]; [exists i; split; [lia|symmetry; exact Hx]|].
      destruct (H4 x Hx) as [j [Hj Heq]]. exists j. split; [lia|exact Heq].
Qed.

Lemma candidate_nicks_good : forall E names,
  Forall (fun nm => forallb nick_char_ok (name_to_initials E nm) = true) names ->
  length (candidate_nicks E names) = length names /\ NoDup (candidate_nicks E names) /\ Forall nick_good (candidate_nicks E names).
Proof.
  intros E names Hok. unfold candidate_nicks. destruct (initials_nicks E names []) as [l|] eqn:Hi.
  - destruct (initials_nicks_spec E names [] l Hi (NoDup_nil _)) as [H1 [H2 H3]]. cbn [app] in H1. subst l.
    split; [apply map_length|split; [exact H2|]].
    clear Hi H2. induction names as [|nm t IH]; cbn [map]; [constructor|].
    inversion Hok; subst. inversion H3; subst. constructor; [split; assumption|apply IH; assumption].
  - unfold ordinal_nicks. destruct (n_letters_spec (length names)) as [Hb Hk].
    destruct (ordinal_from_spec (n_letters (length names)) (length names) 0 Hk) as [H1 [H2 [H3 _]]]; [lia|lia|].
    split; [exact H1|split; [exact H3|exact H2]].
Qed.

Lemma ordinal_from_nth : forall k n i j, (j < n)%nat ->
  nth_error (ordinal_from k n i) j = Some (nick_letters k (i + Z.of_nat j)).
Proof.
  induction n as [|n IH]; intros i j Hj; [lia|]. destruct j as [|j]; cbn [ordinal_from nth_error].
  - rewrite Z.add_0_r. reflexivity.
  - rewrite IH by lia. f_equal. f_equal. lia.
Qed.

(* two candidates with the same initials: _candidate_nicks gives up and numbers the candidates *)
Lemma candidate_nicks_ordinal : forall E names, ~ NoDup (map (name_to_initials E) names) ->
  candidate_nicks E names = ordinal_nicks (length names).
Proof.
  intros E names H. unfold candidate_nicks. destruct (initials_nicks E names []) as [l|] eqn:Hi; [|reflexivity].
  destruct (initials_nicks_spec E names [] l Hi (NoDup_nil _)) as [H1 [H2 _]]. subst l. contradiction.
Qed.

Lemma candidate_nicks_same : forall E nm names, Forall (eq nm) names -> (2 <= length names)%nat ->
  candidate_nicks E names = ordinal_nicks (length names).
Proof.
  intros E nm [|a [|b t]] H Hlen; cbn [length] in Hlen; try lia.
  inversion H as [|? ? <- H']. inversion H' as [|? ? <- _].
  apply candidate_nicks_ordinal. cbn [map]. intros Hnd. inversion Hnd as [|? ? Hnot _]. apply Hnot. left. reflexivity.
Qed.

Definition cid (c : cand) : positive := match c with (i, _, _) => i end.
Definition cnm (c : cand) : str := match c with (_, nm, _) => nm end.
Definition cwd (c : cand) : bool := match c with (_, _, w) => w end.
Definition cline (c : cand) (n : str) : str := (if cwd c then s_withdrawn else s_candidate) ++ 61 :: n ++ 32 :: cnm c.
Fixpoint zip_lines (cs : list cand) (ns : list str) : list str :=
  match cs, ns with
  | c :: cs', n :: ns' => cline c n :: zip_lines cs' ns'
  | _, _ => []
  end.
Fixpoint zseq (s : Z) (n : nat) : list Z := match n with O => [] | S n' => s :: zseq (s + 1) n' end.

Lemma pos_mem_in : forall c l, pos_mem c l = true <-> In c l.
Proof.
  intros c l. induction l as [|x l IH]; simpl; [split; [discriminate|intros []]|].
  rewrite orb_true_iff, IH, Pos.eqb_eq. split; intros [H|H]; auto.
Qed.

Lemma pos_mem_false : forall c l, pos_mem c l = false <-> ~ In c l.
Proof. intros c l. rewrite <- pos_mem_in. destruct (pos_mem c l); split; intros H; congruence. Qed.

Lemma pos_nodup_NoDup : forall l, pos_nodup l = true <-> NoDup l.
Proof.
  induction l as [|x l IH]; cbn [pos_nodup]; [split; [constructor|reflexivity]|].
  rewrite andb_true_iff, negb_true_iff, pos_mem_false, IH.
  split; [intros [H1 H2]; constructor; assumption|intros H; inversion H; split; assumption].
Qed.

Lemma of_nat_seq_NoDup : forall n, NoDup (map Pos.of_nat (seq 1 n)).
Proof.
  intros n. rewrite <- seq_shift, map_map, (map_ext _ Pos.of_succ_nat) by (intros; symmetry; apply Pos.of_nat_succ).
  apply FinFun.Injective_map_NoDup; [intros a b; apply SuccNat2Pos.inj|apply seq_NoDup].
Qed.

Lemma uniq_cands_id : forall cs seen, NoDup (map cid cs) -> (forall c, In c cs -> ~ In (cid c) seen) -> uniq_cands cs seen = cs.
Proof.
  induction cs as [|[[i nm] w] t IH]; intros seen Hnd Hs; cbn [uniq_cands]; [reflexivity|].
  cbn [map cid] in Hnd. inversion Hnd as [|? ? Hi Ht]; subst.
  assert (Hm : pos_mem i seen = false) by (apply pos_mem_false; exact (Hs (i, nm, w) (or_introl eq_refl))).
  rewrite Hm. f_equal. apply IH; [exact Ht|].
  intros c Hc Hin. apply in_app_or in Hin. destruct Hin as [Hin|[Heq|[]]].
  - exact (Hs c (or_intror Hc) Hin).
  - apply Hi. rewrite Heq. apply in_map. exact Hc.
Qed.

Lemma nick_of_app : forall i pre pn rest restn, ~ In i pre -> length pre = length pn ->
  nick_of i (pre ++ rest) (pn ++ restn) = nick_of i rest restn.
Proof.
  induction pre as [|j pre IH]; intros pn rest restn Hi Hl; destruct pn as [|n pn]; try discriminate; [reflexivity|].
  cbn [app nick_of]. replace (Pos.eqb i j) with false.
  - apply IH; [intros H; apply Hi; right; exact H|simpl in Hl; lia].
  - symmetry. apply Pos.eqb_neq. intros Heq. apply Hi. left. symmetry. exact Heq.
Qed.

Lemma nick_of_nth : forall ids ns k i, NoDup ids -> length ids = length ns -> nth_error ids k = Some i ->
  nick_of i ids ns = nth_error ns k.
Proof.
  induction ids as [|j ids IH]; intros ns k i Hnd Hl Hk; [destruct k; discriminate|]. destruct ns as [|n ns]; [discriminate|].
  inversion Hnd as [|? ? Hj Hnd']; subst. cbn [nick_of]. destruct k as [|k]; cbn [nth_error] in *.
  - inversion Hk; subst. rewrite Pos.eqb_refl. reflexivity.
  - replace (Pos.eqb i j) with false by (symmetry; apply Pos.eqb_neq; intros ->; apply Hj; eapply nth_error_In; eauto).
    apply IH; [exact Hnd'|simpl in Hl; lia|exact Hk].
Qed.

Lemma cand_lines_zip : forall cs ns pre pn, length cs = length ns -> length pre = length pn -> NoDup (pre ++ map cid cs) ->
  map (fun c => cand_line c (pre ++ map cid cs) (pn ++ ns)) cs = zip_lines cs ns.
Proof.
  induction cs as [|[[i nm] w] t IH]; intros ns pre pn Hl Hp Hnd; destruct ns as [|n ns]; try discriminate; [reflexivity|].
  cbn [map zip_lines cid]. f_equal.
  - unfold cand_line, cline. cbn [cwd cnm].
    rewrite nick_of_app; [|apply NoDup_remove_2 in Hnd; intros H; apply Hnd; apply in_or_app; left; exact H|exact Hp].
    cbn [nick_of]. rewrite Pos.eqb_refl. destruct w; reflexivity.
  - replace (pre ++ i :: map cid t) with ((pre ++ [i]) ++ map cid t) by (rewrite <- app_assoc; reflexivity).
    replace (pn ++ n :: ns) with ((pn ++ [n]) ++ ns) by (rewrite <- app_assoc; reflexivity).
    apply IH; [simpl in Hl; lia|rewrite !app_length; simpl; lia|rewrite <- app_assoc; exact Hnd].
Qed.

Lemma notin_strs_mem : forall x l, ~ In x l -> strs_mem x l = false.
Proof.
  intros x l H. unfold strs_mem. destruct (existsb (str_eqb x) l) eqn:He; [|reflexivity].
  apply existsb_exists in He. destruct He as [y [Hy Hxy]]. apply str_eqb_eq in Hxy. subst y. contradiction.
Qed.

Definition cname_ok (c : cand) : Prop := name_ok (cnm c) = true.

Lemma nick_no35 : forall n, forallb nick_char_ok n = true -> smem 35 n = false /\ smem 88 n = false /\ smem 10 n = false.
Proof.
  intros n H. rewrite forallb_forall in H.
  repeat split; apply smem_false; intros c Hc Heq; specialize (H c Hc); subst c; discriminate.
Qed.

Lemma name_ok_parts : forall nm, name_ok nm = true ->
  nm <> [] /\ smem 35 nm = false /\ smem 10 nm = false /\
  match nm with [] => true | c :: _ => negb (is_space c) end = true /\
  match rev nm with [] => true | c :: _ => negb (is_space c) end = true.
Proof.
  intros nm H. unfold name_ok, text_ok, no_outer_space in H.
  apply andb_true_iff in H. destruct H as [H1 H]. apply andb_true_iff in H. destruct H as [H H4].
  apply andb_true_iff in H. destruct H as [H2 H3]. apply andb_true_iff in H4. destruct H4 as [H4 H5].
  apply negb_true_iff in H2. apply negb_true_iff in H3.
  repeat split; try assumption. destruct nm; [discriminate|discriminate].
Qed.

Lemma cline_parse : forall c n, cname_ok c -> nick_good n ->
  parse_header_line (cline c n) = HKeyVal (if cwd c then s_withdrawn else s_candidate) (n ++ 32 :: cnm c).
Proof.
  intros c n Hc [Hne Hn]. unfold cline. destruct (name_ok_parts _ Hc) as [Hnm [H35 [_ [_ Hlast]]]].
  destruct (nick_no35 n Hn) as [Hn35 _].
  apply parse_header_kv; [destruct (cwd c); reflexivity|].
  unfold val_ok. rewrite smem_app, smem_cons, Hn35, H35, (last_app_sep n 32 (cnm c) Hnm). exact Hlast.
Qed.

Lemma load_system_cands : forall E lg cs ns rest sc c0 m0 order,
  length cs = length ns -> Forall cname_ok cs -> Forall nick_good ns -> NoDup ns ->
  (forall n, In n ns -> ~ In n (map fst m0)) ->
  load_system E lg (zip_lines cs ns ++ rest) sc c0 m0 order =
  load_system E lg rest sc (c0 ++ map (fun c => (cnm c, cwd c)) cs)
              (m0 ++ combine ns (zseq (Z.of_nat (length c0) + 1) (length ns))) order.
Proof.
  intros E lg cs. induction cs as [|c t IH]; intros ns rest sc c0 m0 order Hl Hc Hn Hnd Hfresh; destruct ns as [|n ns]; try discriminate.
  - cbn [zip_lines app map combine zseq length]. rewrite !app_nil_r. reflexivity.
  - inversion Hc as [|? ? Hc1 Hc2]; subst. inversion Hn as [|? ? Hn1 Hn2]; subst. inversion Hnd as [|? ? Hd1 Hd2]; subst.
    cbn [zip_lines app]. cbn [load_system]. rewrite (cline_parse c n Hc1 Hn1).
    destruct (name_ok_parts _ Hc1) as [Hnm [_ [_ [Hhead _]]]]. destruct Hn1 as [Hne Hgood].
    assert (Hk : forall k, k = (if cwd c then s_withdrawn else s_candidate) ->
                 str_eqb k s_ballots = false /\ str_eqb k s_order = false /\ (str_eqb k s_candidate || str_eqb k s_withdrawn) = true
                 /\ str_eqb k s_withdrawn = cwd c).
    { intros k Hk. subst k. destruct (cwd c); repeat split; reflexivity. }
    destruct (Hk _ eq_refl) as [K1 [K2 [K3 K4]]]. rewrite K1, K2, K3, K4.
    rewrite (split1_nick_name n (cnm c) Hne (nick_char_nonspace n Hgood) Hnm Hhead).
    rewrite aset_fresh by (apply notin_strs_mem, Hfresh; left; reflexivity).
    rewrite IH; [|simpl in Hl; lia|exact Hc2|exact Hn2|exact Hd2|].
    + f_equal.
      * rewrite <- app_assoc. reflexivity.
      * rewrite <- app_assoc. cbn [app length combine zseq]. rewrite app_length. cbn [length].
        replace (Z.of_nat (length c0 + 1) + 1) with (Z.of_nat (length c0) + 1 + 1) by lia. reflexivity.
    + intros x Hx Hin. rewrite map_app in Hin. apply in_app_or in Hin. destruct Hin as [Hin|[Heq|[]]].
      * exact (Hfresh x (or_intror Hx) Hin).
      * cbn [fst] in Heq. subst x. contradiction.
Qed.

(* the dictionary built from the candidate lines finds the position of the candidate a nickname was written for *)
Lemma nick_of_in : forall c ids ns n, nick_of c ids ns = Some n -> In n ns.
Proof.
  intros c ids. induction ids as [|j ids IH]; intros ns n H; destruct ns as [|m ns]; try discriminate.
  cbn [nick_of] in H. destruct (Pos.eqb c j); [inversion H; left; reflexivity|right; eapply IH; eauto].
Qed.

Lemma nick_of_lookup : forall cs ns c n k, length cs = length ns -> NoDup ns -> nick_of c (map cid cs) ns = Some n ->
  exists p, index_of c cs k = Some p /\ nick_get (combine ns (zseq k (length ns))) n = Some p.
Proof.
  induction cs as [|[[i nm] w] t IH]; intros ns c n k Hl Hnd H; destruct ns as [|m ns]; try discriminate.
  inversion Hnd as [|? ? Hd1 Hd2]; subst.
  cbn [map cid nick_of] in H. cbn [index_of length zseq combine]. unfold nick_get. cbn [aget].
  destruct (Pos.eqb c i) eqn:Hci.
  - inversion H; subst. exists k. rewrite str_eqb_refl. split; reflexivity.
  - assert (Hne : str_eqb n m = false).
    { destruct (str_eqb n m) eqn:He; [|reflexivity]. apply str_eqb_eq in He. subst m. exfalso. apply Hd1. eapply nick_of_in; eauto. }
    rewrite Hne. apply (IH ns c n (k + 1)); [simpl in Hl; lia|exact Hd2|exact H].
Qed.

Lemma ranking_lookup : forall cs ns r, length cs = length ns -> NoDup ns -> Forall nick_good ns ->
  forallb (fun c => pos_mem c (map cid cs)) r = true ->
  exists l ps, ranking_nicks r (map cid cs) ns = Some l /\ indices r cs = Some ps /\
               lookup_nicks (combine ns (zseq 1 (length ns))) l = Some ps /\ Forall nick_good l /\ length l = length r.
Proof.
  intros cs ns r Hl Hnd Hg. induction r as [|c r IH]; intros Hr.
  - exists [], []. repeat split; constructor.
  - cbn [forallb] in Hr. apply andb_true_iff in Hr. destruct Hr as [Hc Hr]. destruct (IH Hr) as [l [ps [H1 [H2 [H3 [H4 H5]]]]]].
    assert (Hn : exists n, nick_of c (map cid cs) ns = Some n).
    { apply pos_mem_in in Hc. clear - Hc Hl. revert ns Hl. induction cs as [|[[i nm] w] t IHt]; intros ns Hl; [destruct Hc|].
      destruct ns as [|m ns]; [discriminate|]. cbn [map cid nick_of]. destruct (Pos.eqb c i) eqn:He; [eexists; reflexivity|].
      apply IHt; [|simpl in Hl; lia]. destruct Hc as [Hc|Hc]; [|exact Hc]. cbn [cid] in Hc. subst i. rewrite Pos.eqb_refl in He. discriminate. }
    destruct Hn as [n Hn]. destruct (nick_of_lookup cs ns c n 1 Hl Hnd Hn) as [p [Hp1 Hp2]].
    exists (n :: l), (p :: ps). cbn [ranking_nicks indices lookup_nicks]. rewrite Hn, H1, Hp1, H2, Hp2, H3.
    repeat split; try reflexivity.
    + constructor; [|exact H4]. rewrite Forall_forall in Hg. apply Hg. eapply nick_of_in; eauto.
    + cbn [length]. rewrite H5. reflexivity.
Qed.

(* a line that strips to words joined by single spaces, and is not "end", is read as these words *)
Lemma load_votes_words : forall E nm l rest i n acc first more,
  Forall word (first :: more) -> strip l = join_sp (first :: more) -> str_eqb (join_sp (first :: more)) s_end = false ->
  load_votes E false false nm (l :: rest) i n acc =
  match (if last_is 88 first
         then match parse_multiplier E (removelast first) with Some m => Some (m, more) | None => None end
         else Some (1 # 1, first :: more)) with
  | None => ParseError
  | Some (mult, items) =>
      lbind (match lookup_nicks nm items with Some v => Ok v | None => ParseError end)
            (fun vote => load_votes E false false nm rest (i + 1) n (vadd acc vote mult))
  end.
Proof.
  intros E nm l rest i n acc first more Hw Hs He. cbn [load_votes]. rewrite Hs, He.
  pose proof (words_join _ Hw) as Hwords. destruct (join_sp_ends _ Hw) as [_ Hne]; [discriminate|].
  destruct (join_sp (first :: more)) as [|z s]; [congruence|]. rewrite Hwords. reflexivity.
Qed.

Lemma str_eqb_end_88 : forall x, smem 88 x = true -> str_eqb x s_end = false.
Proof.
  intros x H. destruct (str_eqb x s_end) eqn:He; [|reflexivity]. apply str_eqb_eq in He. subst x. discriminate.
Qed.

Lemma qone_red : forall v, Qeq_bool v 1 = true -> Qred (0 + (1 # 1)) = Qred v.
Proof. intros v H. apply Qred_complete. apply Qeq_bool_iff in H. rewrite H. reflexivity. Qed.

Lemma ballot_line_step : forall E nm ids nicks r w l ps v rest i n acc line,
  ranking_nicks r ids nicks = Some l -> Forall nick_good l -> length l = length r -> lookup_nicks nm l = Some ps ->
  stv_weight_ok E w = true -> w_val E w = Some v ->
  ballot_line E false r w ids nicks = Some line ->
  exists m, load_votes E false false nm (line :: rest) i n acc = load_votes E false false nm rest (i + 1) n (vadd acc ps m)
            /\ Qred (0 + m) = Qred v.
Proof.
  intros E nm ids nicks r w l ps v rest i n acc line Hl Hg Hlen Hps Hw Hv Hline.
  destruct (parse_multiplier_written E w Hw) as [Hpm [_ Hns]].
  assert (Hwl : Forall word l) by (eapply Forall_impl; [exact nick_word|exact Hg]).
  unfold ballot_line in Hline. rewrite Hl in Hline. cbv zeta in Hline.
  destruct (negb (w_is_one E w) || match r with [] => true | _ :: _ => false end || (negb false && str_eqb (join_sp l) s_end)) eqn:Hneeds;
    cbn [app] in Hline; injection Hline as <-.
  - (* the multiplier is written: one more word, the only one that ends in X *)
    assert (Hmx : word (w_str w ++ [88])).
    { split; [destruct (w_str w); discriminate|rewrite nonspace_app, Hns; reflexivity]. }
    assert (H88 : smem 88 (w_str w ++ [88]) = true) by (rewrite smem_app; apply orb_true_r).
    exists v. split; [|apply Qred_complete, Qplus_0_l].
    replace ((w_str w ++ [88; 32]) ++ join_sp l) with ((w_str w ++ [88]) ++ 32 :: join_sp l) by (rewrite <- !app_assoc; reflexivity).
    rewrite (load_votes_words E nm _ rest i n acc _ l (Forall_cons _ Hmx Hwl) (strip_join_cons _ l (Forall_cons _ Hmx Hwl))).
    + rewrite last_is_snoc, removelast_last, Hpm, Hv, Hps. reflexivity.
    + apply str_eqb_end_88. destruct l; [exact H88|]. rewrite join_sp_cons, smem_app, H88. reflexivity.
  - (* weight one, a ranking that is neither empty nor "end": the ranking alone *)
    apply orb_false_iff in Hneeds. destruct Hneeds as [Hneeds Hend]. apply orb_false_iff in Hneeds. destruct Hneeds as [Hone Hr].
    apply negb_false_iff in Hone. cbn [negb andb] in Hend.
    destruct l as [|n0 l0]; [destruct r; [discriminate|discriminate]|].
    destruct (join_sp_ends _ Hwl) as [Hj _]; [discriminate|].
    exists (1 # 1). split.
    + rewrite (load_votes_words E nm _ rest i n acc n0 l0 Hwl (strip_id _ Hj) Hend).
      inversion Hg as [|? ? [_ Hc0] _]; subst. destruct (nick_no35 n0 Hc0) as [_ [H88 _]].
      rewrite (last_is_no 88 n0 H88), Hps. reflexivity.
    + unfold w_is_one in Hone. rewrite Hv in Hone. apply qone_red. exact Hone.
Qed.

Lemma load_votes_end : forall E lg ord nm junk i n acc,
  load_votes E lg ord nm (s_end :: junk) i n acc = if i =? n then Ok acc else ParseError.
Proof. intros. cbn [load_votes]. change (strip s_end) with s_end. change (str_eqb s_end s_end) with true. reflexivity. Qed.

Lemma expected_positions : forall E votes cs v, expected_votes E votes cs = Some v ->
  exists vq, map fst vq = map fst votes /\ positions vq cs = Some v.
Proof.
  intros E votes cs. induction votes as [|[r w] t IH]; intros v H; cbn [expected_votes] in H.
  - inversion H. exists []. split; reflexivity.
  - destruct (indices r cs) as [is_|] eqn:Hi; [|discriminate]. destruct (w_val E w) as [q|]; [|discriminate].
    destruct (expected_votes E t cs) as [ps|] eqn:Hp; [|discriminate]. inversion H; subst v.
    destruct (IH ps eq_refl) as [vq [H1 H2]]. exists ((r, Qred q) :: vq). split.
    + cbn [map fst]. rewrite H1. reflexivity.
    + cbn [positions]. rewrite Hi, H2. reflexivity.
Qed.

Lemma load_votes_ballots : forall E cs ns votes, length cs = length ns -> NoDup ns -> Forall nick_good ns ->
  forall bl v junk acc i n,
  forallb (fun rw => forallb (fun c => pos_mem c (map cid cs)) (fst rw)) votes = true ->
  forallb (fun rw => stv_weight_ok E (snd rw)) votes = true ->
  ballot_lines E false votes (map cid cs) ns = Some bl ->
  expected_votes E votes cs = Some v ->
  (forall pre r w post, acc ++ v = pre ++ (r, w) :: post -> existsb (fun rw => zlist_eqb r (fst rw)) pre = false) ->
  i + Z.of_nat (length votes) = n ->
  load_votes E false false (combine ns (zseq 1 (length ns))) (bl ++ s_end :: junk) i n acc = Ok (acc ++ v).
Proof.
  intros E cs ns votes Hl Hnd Hg. induction votes as [|[r w] t IH]; intros bl v junk acc i n Hin Hw Hbl Hex Hd Hn.
  - cbn [ballot_lines] in Hbl. inversion Hbl; subst bl. cbn [expected_votes] in Hex. inversion Hex; subst v.
    cbn [app]. rewrite load_votes_end. cbn [length] in Hn. replace (i =? n) with true by (symmetry; apply Z.eqb_eq; lia).
    rewrite app_nil_r. reflexivity.
  - cbn [forallb fst snd] in Hin, Hw. apply andb_true_iff in Hin. destruct Hin as [Hin1 Hin2].
    apply andb_true_iff in Hw. destruct Hw as [Hw1 Hw2].
    cbn [ballot_lines] in Hbl. destruct (ballot_line E false r w (map cid cs) ns) as [line|] eqn:Hline; [|discriminate].
    destruct (ballot_lines E false t (map cid cs) ns) as [ls|] eqn:Hls; [|discriminate]. inversion Hbl; subst bl. clear Hbl.
    cbn [expected_votes] in Hex. destruct (indices r cs) as [is_|] eqn:Hi; [|discriminate].
    destruct (w_val E w) as [q|] eqn:Hq; [|discriminate]. destruct (expected_votes E t cs) as [v'|] eqn:Hv'; [|discriminate].
    inversion Hex; subst v. clear Hex.
    destruct (ranking_lookup cs ns r Hl Hnd Hg Hin1) as [l [ps [R1 [R2 [R3 [R4 R5]]]]]].
    rewrite Hi in R2. inversion R2; subst ps. clear R2.
    destruct (ballot_line_step E _ _ _ r w l is_ q (ls ++ s_end :: junk) i n acc line R1 R4 R5 R3 Hw1 Hq Hline) as [m [Hstep Hm]].
    cbn [app]. rewrite Hstep. unfold vadd.
    rewrite badd_fresh by (apply (Hd acc is_ (Qred q) v'); reflexivity).
    rewrite Hm. rewrite (IH ls v' junk (acc ++ [(is_, Qred q)]) (i + 1) n Hin2 Hw2 eq_refl eq_refl).
    + rewrite <- app_assoc. reflexivity.
    + intros pre r0 w0 post Heq. apply (Hd pre r0 w0 post). rewrite <- Heq, <- app_assoc. reflexivity.
    + cbn [length] in Hn. lia.
Qed.

Definition kvline (p : str * str) : str := fst p ++ 61 :: snd p.
Fixpoint put_all (sc : syscomps) (kvs : list (str * str)) : option syscomps :=
  match kvs with
  | [] => Some sc
  | (k, v) :: t => match sc_put sc k v with Some sc' => put_all sc' t | None => None end
  end.
Definition sys_key (k : str) : bool :=
  key_ok k && negb (str_eqb k s_ballots) && negb (str_eqb k s_order) && negb (str_eqb k s_candidate || str_eqb k s_withdrawn).

Lemma load_system_kvs : forall E lg kvs rest sc c m o,
  Forall (fun p => sys_key (fst p) = true /\ val_ok (snd p) = true) kvs ->
  load_system E lg (map kvline kvs ++ rest) sc c m o =
  match put_all sc kvs with Some sc' => load_system E lg rest sc' c m o | None => ParseError end.
Proof.
  intros E lg kvs. induction kvs as [|[k v] t IH]; intros rest sc c m o H; [reflexivity|].
  inversion H as [|? ? [Hk Hv] Ht]; subst. cbn [fst snd] in Hk, Hv.
  unfold sys_key in Hk. apply andb_true_iff in Hk. destruct Hk as [Hk K4]. apply andb_true_iff in Hk. destruct Hk as [Hk K3].
  apply andb_true_iff in Hk. destruct Hk as [K1 K2]. apply negb_true_iff in K2. apply negb_true_iff in K3. apply negb_true_iff in K4.
  cbn [map app put_all]. unfold kvline at 1. cbn [fst snd]. cbn [load_system].
  rewrite (parse_header_kv k v K1 Hv), K2, K3, K4.
  destruct (sc_put sc k v) as [sc'|]; [apply IH; exact Ht|reflexivity].
Qed.

Definition tie_wrap (tie : option (option Z)) (base : ev) : ev :=
  match tie with
  | None => base
  | Some None => EvTie base (TbPre true (TbOrder true))
  | Some (Some n) => EvTie base (TbPre true (TbSort (Some n)))
  end.
Definition build_ev (fixed : option Z) (tie : option (option Z)) (q : str) (m : bool) : ev :=
  let t := tie_wrap tie (EvTV false false (-1) true (QNamed q) m) in
  match fixed with Some n => EvFixed t n | None => t end.
Definition rnd_of (tie : option (option Z)) : option str :=
  match tie with None => None | Some None => Some s_non | Some (Some n) => Some (z_str n) end.
Definition seat_of (fixed seats : option Z) : option Z := match fixed with Some n => Some n | None => seats end.

Lemma base_ok_shape : forall e, base_ok e = true ->
  exists q m, e = EvTV false false (-1) true (QNamed q) m /\ strs_mem q supported_quotas = true.
Proof.
  intros e H. destruct e as [u|dist ret el g q m|main t|e' n]; try discriminate.
  cbn [base_ok] in H. destruct dist; [discriminate|]. destruct ret; [discriminate|].
  destruct el as [|p|p]; try discriminate. destruct p; try discriminate.
  destruct g; [|discriminate]. destruct q as [nm|c|]; try discriminate. exists nm, m. split; [reflexivity|exact H].
Qed.

Lemma tie_ok_shape : forall e, tie_ok e = true ->
  exists tie q m, e = tie_wrap tie (EvTV false false (-1) true (QNamed q) m) /\ strs_mem q supported_quotas = true /\
                  (forall n, tie = Some (Some n) -> 0 <= n).
Proof.
  intros e H.
  assert (Hbase : base_ok e = true -> exists tie q m, e = tie_wrap tie (EvTV false false (-1) true (QNamed q) m) /\
                                      strs_mem q supported_quotas = true /\ (forall n, tie = Some (Some n) -> 0 <= n)).
  { intros Hb. destruct (base_ok_shape e Hb) as [q [m [He Hq]]]. exists None, q, m. split; [exact He|split; [exact Hq|discriminate]]. }
  destruct e as [u|dist ret el g q m|main t|e' n]; try (apply Hbase; exact H).
  destruct t as [simple inner|nr|seed|]; try (apply Hbase; exact H).
  destruct simple; [|apply Hbase; exact H].
  destruct inner as [s2 i2|nr|seed|]; try (apply Hbase; exact H).
  - destruct nr; [|apply Hbase; exact H]. cbn [tie_ok] in H.
    destruct (base_ok_shape main H) as [q [m [He Hq]]]. exists (Some None), q, m. subst main.
    split; [reflexivity|split; [exact Hq|discriminate]].
  - destruct seed as [sd|]; [|apply Hbase; exact H]. cbn [tie_ok] in H. apply andb_true_iff in H. destruct H as [H1 H2].
    destruct (base_ok_shape main H1) as [q [m [He Hq]]]. exists (Some (Some sd)), q, m. subst main.
    split; [reflexivity|split; [exact Hq|]]. intros n Hn. inversion Hn; subst. apply Z.leb_le. exact H2.
Qed.

Lemma ev_ok_shape : forall e seats, ev_ok e seats = true ->
  exists fixed tie q m, e = build_ev fixed tie q m /\ strs_mem q supported_quotas = true /\
                        (forall n, tie = Some (Some n) -> 0 <= n) /\ (fixed <> None -> seats = None).
Proof.
  intros e seats H.
  assert (Hgen : tie_ok e = true -> exists fixed tie q m, e = build_ev fixed tie q m /\ strs_mem q supported_quotas = true /\
                                      (forall n, tie = Some (Some n) -> 0 <= n) /\ (fixed <> None -> seats = None)).
  { intros Ht. destruct (tie_ok_shape e Ht) as [tie [q [m [He [Hq Hn]]]]]. exists None, tie, q, m.
    split; [exact He|split; [exact Hq|split; [exact Hn|congruence]]]. }
  destruct e as [u|dist ret el g q m|main t|e' n]; try (apply Hgen; exact H).
  cbn [ev_ok] in H. destruct seats as [s|]; [discriminate|].
  destruct (tie_ok_shape e' H) as [tie [q [m [He [Hq Hn]]]]]. exists (Some n), tie, q, m. subst e'.
  split; [reflexivity|split; [exact Hq|split; [exact Hn|reflexivity]]].
Qed.

Definition ev_kvs (fixed : option Z) (tie : option (option Z)) (q : str) (m : bool) : list (str * str) :=
  match fixed with Some n => [(s_seats, z_str n)] | None => [] end ++
  [(s_method, s_BC); (s_quota, q)] ++ (if m then [(s_quota, s_mandatory)] else []) ++
  match rnd_of tie with Some r => [(s_random, r)] | None => [] end.
Definition sys_kvs (name : option str) (fixed : option Z) (tie : option (option Z)) (q : str) (m : bool) (seats : option Z)
  : list (str * str) :=
  match name with Some t => [(s_title, t)] | None => [] end ++ ev_kvs fixed tie q m ++
  match seats with Some n => [(s_seats, z_str n)] | None => [] end.

Lemma dump_ev_shape : forall fixed tie q m, strs_mem q supported_quotas = true ->
  dump_ev true (build_ev fixed tie q m) = Some (map kvline (ev_kvs fixed tie q m)).
Proof.
  intros fixed tie q m Hq. unfold build_ev, tie_wrap, rnd_of, ev_kvs.
  destruct fixed as [fx|]; destruct tie as [[sd|]|]; cbn [dump_ev dump_tiebreaker option_map];
    unfold dump_tveval; change (negb (-1 =? -1)) with false; cbv iota; rewrite Hq; destruct m; reflexivity.
Qed.

Lemma dump_system_shape : forall name fixed tie q m seats, strs_mem q supported_quotas = true ->
  option_map (fun sl => sl ++ match seats with Some n => [kv "seats" (z_str n)] | None => [] end)
             (dump_system false true (SysVS name (build_ev fixed tie q m)))
  = Some (map kvline (sys_kvs name fixed tie q m seats)).
Proof.
  intros name fixed tie q m seats Hq. unfold sys_kvs. cbn [dump_system]. rewrite (dump_ev_shape fixed tie q m Hq). cbn [option_map].
  rewrite !map_app, app_assoc. destruct name; destruct seats; reflexivity.
Qed.

Lemma dump_system_shape_ev : forall fixed tie q m seats, strs_mem q supported_quotas = true ->
  option_map (fun sl => sl ++ match seats with Some n => [kv "seats" (z_str n)] | None => [] end)
             (dump_system false true (SysEv (build_ev fixed tie q m)))
  = Some (map kvline (sys_kvs None fixed tie q m seats)).
Proof.
  intros fixed tie q m seats Hq. rewrite <- (dump_system_shape None fixed tie q m seats Hq).
  cbn [dump_system]. destruct (dump_ev true (build_ev fixed tie q m)); reflexivity.
Qed.

Definition sc_written (name : option str) (fixed : option Z) (tie : option (option Z)) (q : str) (m : bool) (seats : option Z)
  : syscomps :=
  {| sc_title := name; sc_method := Some s_BC; sc_quota := Some (q, if m then Some s_mandatory else None);
     sc_seats := option_map z_str (seat_of fixed seats); sc_random := rnd_of tie |}.

Lemma put_all_written : forall name fixed tie q m seats, (fixed <> None -> seats = None) ->
  put_all sc_empty (sys_kvs name fixed tie q m seats) = Some (sc_written name fixed tie q m seats).
Proof.
  intros name fixed tie q m seats Hfs. unfold sys_kvs, ev_kvs, sc_written, seat_of.
  destruct fixed as [fx|]; [rewrite (Hfs ltac:(discriminate))|destruct seats]; destruct (rnd_of tie); destruct m; destruct name; reflexivity.
Qed.

Lemma supported_cases : forall q, strs_mem q supported_quotas = true -> q = s_droop \/ q = s_hare.
Proof.
  intros q H. unfold strs_mem, supported_quotas in H. cbn [existsb] in H.
  apply orb_true_iff in H. destruct H as [H|H]; [left; apply str_eqb_eq; exact H|].
  apply orb_true_iff in H. destruct H as [H|H]; [right; apply str_eqb_eq; exact H|discriminate].
Qed.

Lemma nonempty_z_str : forall z, nonempty (z_str z) = true.
Proof. intros z. pose proof (z_str_nonempty z). destruct (z_str z); [congruence|reflexivity]. Qed.

Lemma guarded_int_z_str : forall E z, 0 <= z -> guarded_int E false (z_str z) = Some (Ok z).
Proof. intros E z H. rewrite (z_str_nonneg z H), guarded_int_n_str, Z2N.id by exact H. reflexivity. Qed.

Lemma add_tiebreaker_written : forall E base tie, (forall n, tie = Some (Some n) -> 0 <= n) ->
  add_tiebreaker E false base (rnd_of tie) = Ok (tie_wrap tie base).
Proof.
  intros E base [[n|]|] H; cbn [rnd_of tie_wrap]; try reflexivity.
  unfold add_tiebreaker. rewrite nonempty_z_str. unfold s_non.
  rewrite (zchars_not (z_str n) 110 [111; 110] (z_str_chars n)) by (try reflexivity; lia).
  rewrite (guarded_int_z_str E n (H n eq_refl)). reflexivity.
Qed.

Lemma add_fixed_written : forall E e sn, add_fixed_seats E e (option_map z_str sn) = Ok (match sn with Some n => EvFixed e n | None => e end).
Proof. intros E e [n|]; cbn [option_map add_fixed_seats]; [|reflexivity]. rewrite nonempty_z_str, py_int_z_str. reflexivity. Qed.

Lemma create_system_written : forall E name fixed tie q m seats, strs_mem q supported_quotas = true ->
  (forall n, tie = Some (Some n) -> 0 <= n) -> (fixed <> None -> seats = None) ->
  create_system E false (sc_written name fixed tie q m seats) =
  Ok (name, match seats with Some n => EvFixed (build_ev fixed tie q m) n | None => build_ev fixed tie q m end).
Proof.
  intros E name fixed tie q m seats Hq Htie Hfs. unfold create_system, create_evaluator, sc_written.
  cbn [sc_method sc_quota sc_random sc_seats sc_title]. change (str_eqb s_BC s_GPCA) with false. cbv iota.
  change (str_eqb s_BC s_BC) with true. change (str_eqb s_BC s_blt) with false. cbn [negb andb]. cbv iota.
  assert (Hqs : quota_setting (Some (q, if m then Some s_mandatory else None)) = Ok (Some q, m)).
  { destruct (supported_cases q Hq); subst q; destruct m; reflexivity. }
  assert (Hqf : quota_function E false false (Some q) = Ok (QNamed q)).
  { destruct (supported_cases q Hq); subst q; reflexivity. }
  rewrite Hqs. cbn [lbind fst snd]. rewrite Hqf. cbn [lbind].
  rewrite (add_tiebreaker_written E _ tie Htie). cbn [lbind]. rewrite add_fixed_written. cbn [lbind].
  unfold build_ev, seat_of. destruct fixed as [fx|]; [rewrite (Hfs ltac:(discriminate))|destruct seats]; reflexivity.
Qed.

Lemma text_ok_val : forall t, text_ok t = true -> val_ok t = true.
Proof.
  intros t H. unfold text_ok, no_outer_space in H. apply andb_true_iff in H. destruct H as [H H3].
  apply andb_true_iff in H. destruct H as [H1 _]. apply andb_true_iff in H3. destruct H3 as [_ H3].
  unfold val_ok. rewrite H1. exact H3.
Qed.

Lemma sys_kvs_ok : forall name fixed tie q m seats, strs_mem q supported_quotas = true ->
  match name with Some t => text_ok t | None => true end = true ->
  Forall (fun p => sys_key (fst p) = true /\ val_ok (snd p) = true) (sys_kvs name fixed tie q m seats) /\
  Forall no_nl (map kvline (sys_kvs name fixed tie q m seats)).
Proof.
  intros name fixed tie q m seats Hq Hname.
  enough (H : Forall (fun p => (sys_key (fst p) = true /\ val_ok (snd p) = true) /\ no_nl (kvline p)) (sys_kvs name fixed tie q m seats)).
  { apply Forall_and_inv in H. split; [exact (proj1 H)|apply Forall_map; exact (proj2 H)]. }
  assert (Hz : forall k z, sys_key k = true -> no_nl k ->
                 (sys_key k = true /\ val_ok (z_str z) = true) /\ no_nl (kvline (k, z_str z))).
  { intros k z Hk Hn. destruct (zchars_props _ (z_str_chars z)) as [_ [_ [H10 _]]].
    split; [split; [exact Hk|apply z_str_val_ok]|]. apply no_nl_app; [exact Hn|]. unfold no_nl. rewrite smem_cons. exact H10. }
  unfold sys_kvs, ev_kvs. repeat (apply Forall_app; split).
  - destruct name as [t|]; constructor; [|constructor]. split; [split; [reflexivity|apply text_ok_val; exact Hname]|].
    unfold text_ok in Hname. apply andb_true_iff in Hname. destruct Hname as [H _]. apply andb_true_iff in H. destruct H as [_ H].
    apply negb_true_iff in H. apply no_nl_app; [reflexivity|]. unfold no_nl. rewrite smem_cons. exact H.
  - destruct fixed; constructor; [|constructor]. apply Hz; reflexivity.
  - constructor; [repeat split; reflexivity|]. constructor; [|constructor].
    destruct (supported_cases q Hq); subst q; repeat split; reflexivity.
  - destruct m; constructor; [|constructor]. repeat split; reflexivity.
  - destruct tie as [[n|]|]; cbn [rnd_of];
      [constructor; [apply Hz; reflexivity|constructor] | constructor; [repeat split; reflexivity|constructor] | constructor].
  - destruct seats; constructor; [|constructor]. apply Hz; reflexivity.
Qed.

Lemma expected_votes_some : forall E cs votes,
  forallb (fun rw => forallb (fun c => pos_mem c (map cid cs)) (fst rw)) votes = true ->
  forallb (fun rw => stv_weight_ok E (snd rw)) votes = true ->
  exists v, expected_votes E votes cs = Some v.
Proof.
  intros E cs votes. induction votes as [|[r w] t IH]; intros Hin Hw; [exists []; reflexivity|].
  cbn [forallb fst snd] in Hin, Hw. apply andb_true_iff in Hin. destruct Hin as [Hin1 Hin2].
  apply andb_true_iff in Hw. destruct Hw as [Hw1 Hw2]. destruct (IH Hin2 Hw2) as [v Hv].
  assert (Hi : exists ps, indices r cs = Some ps).
  { clear - Hin1. induction r as [|c r IHr]; [exists []; reflexivity|].
    cbn [forallb] in Hin1. apply andb_true_iff in Hin1. destruct Hin1 as [Hc Hr]. destruct (IHr Hr) as [ps Hps].
    assert (Hx : exists p, index_of c cs 1 = Some p).
    { apply pos_mem_in in Hc. clear - Hc. generalize 1. induction cs as [|[[i nm] wd] cs IHc]; intros k; [destruct Hc|].
      cbn [index_of]. destruct (Pos.eqb c i) eqn:He; [eexists; reflexivity|]. apply IHc.
      destruct Hc as [Hc|Hc]; [|exact Hc]. cbn [cid] in Hc. subst i. rewrite Pos.eqb_refl in He. discriminate. }
    destruct Hx as [p Hp]. exists (p :: ps). cbn [indices]. rewrite Hp, Hps. reflexivity. }
  destruct Hi as [ps Hps]. destruct (parse_multiplier_written E w Hw1) as [_ [[q Hq] _]].
  exists ((ps, Qred q) :: v). cbn [expected_votes]. rewrite Hps, Hq, Hv. reflexivity.
Qed.

Lemma ballot_lines_some : forall E cs ns votes, length cs = length ns -> NoDup ns -> Forall nick_good ns ->
  forallb (fun rw => forallb (fun c => pos_mem c (map cid cs)) (fst rw)) votes = true ->
  exists bl, ballot_lines E false votes (map cid cs) ns = Some bl.
Proof.
  intros E cs ns votes Hl Hnd Hg. induction votes as [|[r w] t IH]; intros Hin; [exists []; reflexivity|].
  cbn [forallb fst] in Hin. apply andb_true_iff in Hin. destruct Hin as [Hin1 Hin2]. destruct (IH Hin2) as [bl Hbl].
  destruct (ranking_lookup cs ns r Hl Hnd Hg Hin1) as [l [ps [R1 _]]].
  cbn [ballot_lines]. unfold ballot_line at 1. rewrite R1. cbv zeta. rewrite Hbl. eexists. reflexivity.
Qed.

Lemma cands_loaded_eq : forall cs : list cand,
  map (fun c : cand => match c with (_, nm, w) => (nm, w) end) cs = map (fun c => (cnm c, cwd c)) cs.
Proof. intros cs. apply map_ext. intros [[i nm] w]. reflexivity. Qed.

Definition cand_nicks (E : uenv) (cs : list cand) : list str := candidate_nicks E (map cnm cs).

Lemma cand_nicks_good : forall E cs,
  (forall c, In c cs -> name_ok (cnm c) = true /\ forallb nick_char_ok (name_to_initials E (cnm c)) = true) ->
  Forall cname_ok cs /\ length cs = length (cand_nicks E cs) /\ NoDup (cand_nicks E cs) /\ Forall nick_good (cand_nicks E cs).
Proof.
  intros E cs Hc. destruct (candidate_nicks_good E (map cnm cs)) as [Hlen [Hnd Hg]].
  { apply Forall_forall. intros nm Hnm. apply in_map_iff in Hnm. destruct Hnm as [c [<- Hin]]. apply Hc. exact Hin. }
  rewrite map_length in Hlen. split; [apply Forall_forall; intros c Hin; apply Hc; exact Hin|]. split; [symmetry; exact Hlen|]. split; assumption.
Qed.

Lemma stv_wf_parts : forall E e, stv_wf E e = true ->
  pos_nodup (map cid (e_cands e)) = true /\
  forallb (fun rw => forallb (fun c => pos_mem c (map cid (e_cands e))) (fst rw)) (e_votes e) = true /\
  rankings_nodup (map fst (e_votes e)) = true /\
  forallb (fun rw => stv_weight_ok E (snd rw)) (e_votes e) = true /\
  forallb (fun c : cand => match c with (_, nm, _) => name_ok nm && forallb nick_char_ok (name_to_initials E nm) end) (e_cands e) = true /\
  e_output_method e = true /\
  match e_system e with
  | SysNone => false
  | SysVS name x => ev_ok x (e_seats e) && match name with Some t => text_ok t | None => true end
  | SysEv x => ev_ok x (e_seats e)
  end = true.
Proof.
  intros E e H. unfold stv_wf in H. cbv zeta in H.
  apply andb_true_iff in H. destruct H as [H Hsys]. apply andb_true_iff in H. destruct H as [H Hom].
  apply andb_true_iff in H. destruct H as [H Hnames]. apply andb_true_iff in H. destruct H as [H Hw].
  apply andb_true_iff in H. destruct H as [H Hrd]. apply andb_true_iff in H. destruct H as [Hids Hin].
  repeat split; assumption.
Qed.

Lemma stv_wf_cands : forall E e, stv_wf E e = true ->
  NoDup (map cid (e_cands e)) /\ Forall cname_ok (e_cands e) /\ length (e_cands e) = length (cand_nicks E (e_cands e)) /\
  NoDup (cand_nicks E (e_cands e)) /\ Forall nick_good (cand_nicks E (e_cands e)).
Proof.
  intros E e H. destruct (stv_wf_parts E e H) as (Hids & _ & _ & _ & Hnames & _).
  rewrite forallb_forall in Hnames. split; [apply pos_nodup_NoDup; exact Hids|].
  apply cand_nicks_good. intros [[i nm] w] Hc. apply andb_true_iff. exact (Hnames _ Hc).
Qed.

Lemma stv_wf_system : forall E e, stv_wf E e = true ->
  e_output_method e = true /\
  exists name fixed tie q m,
    (e_system e = SysVS name (build_ev fixed tie q m) \/ e_system e = SysEv (build_ev fixed tie q m) /\ name = None) /\
    strs_mem q supported_quotas = true /\ (forall n, tie = Some (Some n) -> 0 <= n) /\ (fixed <> None -> e_seats e = None) /\
    match name with Some t => text_ok t | None => true end = true.
Proof.
  intros E e H. destruct (stv_wf_parts E e H) as (_ & _ & _ & _ & _ & Hom & Hsys). split; [exact Hom|].
  destruct (e_system e) as [|name x|x]; [discriminate| |].
  - apply andb_true_iff in Hsys. destruct Hsys as [Hev Hname].
    destruct (ev_ok_shape x _ Hev) as [fixed [tie [q [m [Hx [Hq [Htie Hfs]]]]]]]. subst x.
    exists name, fixed, tie, q, m. split; [left; reflexivity|]. repeat split; assumption.
  - destruct (ev_ok_shape x _ Hsys) as [fixed [tie [q [m [Hx [Hq [Htie Hfs]]]]]]]. subst x.
    exists None, fixed, tie, q, m. split; [right; split; reflexivity|]. repeat split; assumption.
Qed.

(* the writer, for either flag: candidate lines, the ballot count, the ballot lines, 'end' *)
Lemma dump_ballots_shape : forall E lg votes cs, NoDup (map cid cs) -> length cs = length (cand_nicks E cs) ->
  dump_ballots E lg votes cs =
  option_map (fun bl => zip_lines cs (cand_nicks E cs) ++ kv "ballots" (n_str (N.of_nat (length votes))) :: bl ++ [s_end])
             (ballot_lines E lg votes (map cid cs) (cand_nicks E cs)).
Proof.
  intros E lg votes cs Hnd Hl. unfold dump_ballots. rewrite (uniq_cands_id cs [] Hnd) by (intros c _ []).
  change (map (fun c : positive * str * bool => let (y, _) := c in let (i, _) := y in i) cs) with (map cid cs).
  change (candidate_nicks E (map (fun c : positive * str * bool => let (y, _) := c in let (_, nm) := y in nm) cs)) with (cand_nicks E cs).
  rewrite (cand_lines_zip cs (cand_nicks E cs) [] [] Hl eq_refl Hnd : map (fun c => cand_line c (map cid cs) (cand_nicks E cs)) cs = _).
  destruct (ballot_lines E lg votes (map cid cs) (cand_nicks E cs)); reflexivity.
Qed.

Lemma stv_dump_lines_shape : forall E lg e kvs bl, e_system e <> SysNone ->
  NoDup (map cid (e_cands e)) -> length (e_cands e) = length (cand_nicks E (e_cands e)) ->
  option_map (fun sl => sl ++ match e_seats e with Some n => [kv "seats" (z_str n)] | None => [] end)
             (dump_system lg (e_output_method e) (e_system e)) = Some (map kvline kvs) ->
  ballot_lines E lg (e_votes e) (map cid (e_cands e)) (cand_nicks E (e_cands e)) = Some bl ->
  stv_dump_lines E lg e = WOk (map kvline kvs ++ zip_lines (e_cands e) (cand_nicks E (e_cands e)) ++
                               kv "ballots" (n_str (N.of_nat (length (e_votes e)))) :: bl ++ [s_end]).
Proof.
  intros E lg e kvs bl Hsys Hnd Hl Hds Hbl. unfold stv_dump_lines. rewrite (dump_ballots_shape E lg _ _ Hnd Hl), Hbl. cbn [option_map].
  destruct (e_system e) as [|name x|x]; [congruence| |];
    (destruct (dump_system lg _ _) as [sl|]; [|discriminate]); injection Hds as <-; rewrite <- app_assoc; reflexivity.
Qed.

(* the reader, for either flag, on system lines, candidate lines and the ballot count as they are written *)
Lemma load_header_written : forall E lg kvs cs ns v rest sc sys nb,
  Forall (fun p => sys_key (fst p) = true /\ val_ok (snd p) = true) kvs -> put_all sc_empty kvs = Some sc ->
  length cs = length ns -> Forall cname_ok cs -> Forall nick_good ns -> NoDup ns -> val_ok v = true ->
  create_system E lg sc = Ok sys -> parse_n_ballots E lg v = Ok nb ->
  load_system E lg (map kvline kvs ++ zip_lines cs ns ++ kv "ballots" v :: rest) sc_empty [] [] [] =
  Ok ({| h_system := sys; h_cands := map (fun c => (cnm c, cwd c)) cs; h_nicks := combine ns (zseq 1 (length ns));
         h_n_ballots := nb; h_ordered := false |}, rest).
Proof.
  intros E lg kvs cs ns v rest sc sys nb Hk Hput Hl Hc Hg Hnd Hv Hsys Hnb.
  rewrite (load_system_kvs E lg kvs _ sc_empty [] [] [] Hk), Hput.
  rewrite (load_system_cands E lg cs ns _ sc [] [] [] Hl Hc Hg Hnd) by (intros n _ []).
  cbn [app length Z.of_nat Z.add load_system]. change (kv "ballots" v) with (s_ballots ++ 61 :: v).
  rewrite (parse_header_kv s_ballots v eq_refl Hv). change (str_eqb s_ballots s_ballots) with true. cbv iota.
  rewrite Hsys, Hnb. reflexivity.
Qed.

Lemma parse_n_ballots_n_str : forall E n, val_ok (n_str n) = true /\ parse_n_ballots E false (n_str n) = Ok (Some (Z.of_N n)).
Proof.
  intros E n. split; [apply val_ok_nonspace; [apply digits_nonspace|apply digits_no; [|reflexivity]]; apply n_str_digits|].
  unfold parse_n_ballots, s_blt. rewrite (zchars_not (n_str n) 98 [108; 116] (zchars_digits _ (n_str_digits n))) by (try reflexivity; lia).
  rewrite guarded_int_n_str. reflexivity.
Qed.

(* what a well-formed election is expected to load as, and the lines it is written as *)
Lemma stv_written : forall E e, stv_wf E e = true ->
  exists name fixed tie q m bl v,
    strs_mem q supported_quotas = true /\ (forall n, tie = Some (Some n) -> 0 <= n) /\ (fixed <> None -> e_seats e = None) /\
    match name with Some t => text_ok t | None => true end = true /\
    ballot_lines E false (e_votes e) (map cid (e_cands e)) (cand_nicks E (e_cands e)) = Some bl /\
    expected_votes E (e_votes e) (e_cands e) = Some v /\
    stv_expected E e =
      Some {| l_votes := v;
              l_system := (name, match e_seats e with Some n => EvFixed (build_ev fixed tie q m) n | None => build_ev fixed tie q m end);
              l_cands := map (fun c => (cnm c, cwd c)) (e_cands e); l_pool := map (fun c => (cnm c, cwd c)) (e_cands e) |} /\
    stv_dump_lines E false e =
      WOk (map kvline (sys_kvs name fixed tie q m (e_seats e)) ++ zip_lines (e_cands e) (cand_nicks E (e_cands e)) ++
           kv "ballots" (n_str (N.of_nat (length (e_votes e)))) :: bl ++ [s_end]).
Proof.
  intros E e Hwf. destruct (stv_wf_cands E e Hwf) as [Hnd_ids [_ [Hl [Hnd Hg]]]]. destruct (stv_wf_parts E e Hwf) as (_ & Hin & _ & Hw & _).
  destruct (stv_wf_system E e Hwf) as [Hom [name [fixed [tie [q [m [Hsys [Hq [Htie [Hfs Hname]]]]]]]]]].
  destruct (expected_votes_some E _ _ Hin Hw) as [v Hv]. destruct (ballot_lines_some E _ _ _ Hl Hnd Hg Hin) as [bl Hbl].
  exists name, fixed, tie, q, m, bl, v. repeat (split; [assumption|]).
  split.
  - unfold stv_expected. rewrite Hv, cands_loaded_eq. destruct Hsys as [Hs|[Hs Hn]]; rewrite Hs; [reflexivity|subst name; reflexivity].
  - apply stv_dump_lines_shape; [destruct Hsys as [Hs|[Hs _]]; rewrite Hs; discriminate|exact Hnd_ids|exact Hl| |exact Hbl].
    rewrite Hom. destruct Hsys as [Hs|[Hs Hn]]; rewrite Hs; [apply dump_system_shape|subst name; apply dump_system_shape_ev]; exact Hq.
Qed.

Theorem stv_roundtrip : forall E e, stv_wf E e = true ->
  exists x ls, stv_expected E e = Some x /\ stv_dump_lines E false e = WOk ls /\
               forall bl junk, stv_load_lines E false bl (ls ++ junk) = Ok x.
Proof.
  intros E e Hwf.
  destruct (stv_written E e Hwf) as [name [fixed [tie [q [m [bl [v [Hq [Htie [Hfs [Hname [Hbl [Hv [Hx Hd]]]]]]]]]]]]]].
  destruct (stv_wf_cands E e Hwf) as [_ [Hcn [Hl [Hnd Hg]]]]. destruct (stv_wf_parts E e Hwf) as (_ & Hin & Hrd & Hw & _).
  eexists. eexists. split; [exact Hx|]. split; [exact Hd|]. intros bload junk.
  rewrite <- !app_assoc, <- app_comm_cons, <- app_assoc. cbn [app]. unfold stv_load_lines.
  destruct (parse_n_ballots_n_str E (N.of_nat (length (e_votes e)))) as [Hnv Hnb].
  rewrite (load_header_written E false _ _ _ _ _ _ _ _ (proj1 (sys_kvs_ok name fixed tie q m _ Hq Hname)) (put_all_written name fixed tie q m _ Hfs)
             Hl Hcn Hg Hnd Hnv (create_system_written E name fixed tie q m _ Hq Htie Hfs) Hnb).
  cbn [lbind h_n_ballots h_ordered h_nicks h_system h_cands].
  rewrite (load_votes_ballots E _ _ _ Hl Hnd Hg bl v junk [] 0 _ Hin Hw Hbl Hv).
  - reflexivity.
  - intros pre r w post Heq. cbn [app] in Heq.
    destruct (expected_positions E _ _ v Hv) as [vq [Hq1 Hq2]].
    eapply positions_distinct; [exact Hq2|rewrite Hq1; exact Hrd|exact Heq].
  - rewrite nat_N_Z. lia.
Qed.

Lemma split_nl_aux_line : forall l rest cur, no_nl l ->
  split_nl_aux (l ++ 10 :: rest) cur = (rev cur ++ l) :: split_nl_aux rest [].
Proof.
  induction l as [|c l IH]; intros rest cur H; cbn [app split_nl_aux].
  - change (10 =? 10) with true. cbv iota. rewrite app_nil_r. reflexivity.
  - unfold no_nl in H. rewrite smem_cons in H. apply orb_false_iff in H. destruct H as [H1 H2].
    rewrite Z.eqb_sym, H1. rewrite (IH rest (c :: cur) H2). cbn [rev]. rewrite <- app_assoc. reflexivity.
Qed.

Lemma split_dumps : forall ls, Forall no_nl ls -> split_nl (dumps_text ls) = ls ++ [[]].
Proof.
  intros ls H. unfold split_nl, dumps_text. induction H as [|l ls Hl Hls IH]; [reflexivity|].
  cbn [map concat]. rewrite (last_is_no 10 l Hl). rewrite <- app_assoc. cbn [app].
  rewrite (split_nl_aux_line l _ [] Hl). cbn [rev app]. rewrite IH. reflexivity.
Qed.

Lemma nonspace_no_nl : forall s, nonspace s = true -> no_nl s.
Proof.
  intros s H. apply smem_false. intros c Hc ->.
  unfold nonspace in H. rewrite forallb_forall in H. specialize (H 10 Hc). discriminate.
Qed.

Lemma join_sp_no_nl : forall l, Forall nick_good l -> no_nl (join_sp l).
Proof.
  intros l H. induction H as [|n l [_ Hn] Hl IH]; [reflexivity|].
  destruct (nick_no35 n Hn) as [_ [_ H10]].
  destruct l as [|m l']; [exact H10|].
  rewrite join_sp_cons. apply no_nl_app; [exact H10|].
  unfold no_nl. rewrite smem_cons. exact IH.
Qed.

Lemma ballot_lines_no_nl : forall E cs ns votes bl, length cs = length ns -> NoDup ns -> Forall nick_good ns ->
  forallb (fun rw => forallb (fun c => pos_mem c (map cid cs)) (fst rw)) votes = true ->
  forallb (fun rw => stv_weight_ok E (snd rw)) votes = true ->
  ballot_lines E false votes (map cid cs) ns = Some bl -> Forall no_nl bl.
Proof.
  intros E cs ns votes bl Hl Hnd Hg. revert bl. induction votes as [|[r w] t IH]; intros bl Hin Hw Hbl; cbn [ballot_lines] in Hbl.
  - inversion Hbl. constructor.
  - cbn [forallb fst snd] in Hin, Hw. apply andb_true_iff in Hin. destruct Hin as [Hin1 Hin2].
    apply andb_true_iff in Hw. destruct Hw as [Hw1 Hw2].
    destruct (ballot_line E false r w (map cid cs) ns) as [line|] eqn:Hline; [|discriminate].
    destruct (ballot_lines E false t (map cid cs) ns) as [ls|] eqn:Hls; [|discriminate]. inversion Hbl; subst bl.
    constructor; [|apply IH; [exact Hin2|exact Hw2|reflexivity]].
    destruct (ranking_lookup cs ns r Hl Hnd Hg Hin1) as [l [ps [R1 [_ [_ [R4 _]]]]]].
    unfold ballot_line in Hline. rewrite R1 in Hline. cbv zeta in Hline. inversion Hline.
    destruct (parse_multiplier_written E w Hw1) as [_ [_ Hns]].
    apply no_nl_app; [|apply join_sp_no_nl; exact R4].
    destruct (_ || _ || _); [|reflexivity]. apply no_nl_app; [apply nonspace_no_nl; exact Hns|reflexivity].
Qed.

Lemma zip_lines_no_nl : forall cs ns, Forall cname_ok cs -> Forall nick_good ns -> Forall no_nl (zip_lines cs ns).
Proof.
  induction cs as [|c cs IH]; intros ns Hc Hn; destruct ns as [|n ns]; try constructor.
  - inversion Hc as [|? ? Hc1 _]; subst. inversion Hn as [|? ? [_ Hn1] _]; subst.
    destruct (name_ok_parts _ Hc1) as [_ [_ [H10 _]]]. destruct (nick_no35 n Hn1) as [_ [_ Hn10]].
    unfold cline. apply no_nl_app; [destruct (cwd c); reflexivity|].
    unfold no_nl. rewrite smem_cons. change (10 =? 61) with false. cbn [orb]. apply no_nl_app; [exact Hn10|].
    unfold no_nl. rewrite smem_cons. exact H10.
  - inversion Hc; inversion Hn; subst. apply IH; assumption.
Qed.

(* the round trip through the text: loads(dumps(...)) *)
Theorem stv_roundtrip_text : forall E e, stv_wf E e = true ->
  exists x ls, stv_expected E e = Some x /\ stv_dump_lines E false e = WOk ls /\
               forall bl, stv_loads E false bl (dumps_text ls) = Ok x.
Proof.
  intros E e Hwf. destruct (stv_roundtrip E e Hwf) as [x [ls [Hx [Hd Hl]]]]. exists x, ls. split; [exact Hx|split; [exact Hd|]].
  intros bl. unfold stv_loads. rewrite split_dumps; [apply Hl|].
  (* no written line contains a line feed *)
  destruct (stv_written E e Hwf) as [name [fixed [tie [q [m [bl' [v [Hq [_ [_ [Hname [Hbl [_ [_ Hd']]]]]]]]]]]]]].
  rewrite Hd in Hd'. injection Hd' as ->.
  destruct (stv_wf_cands E e Hwf) as [_ [Hcn [Hlen [Hnd Hg]]]]. destruct (stv_wf_parts E e Hwf) as (_ & Hin & _ & Hw & _).
  apply Forall_app. split; [exact (proj2 (sys_kvs_ok name fixed tie q m _ Hq Hname))|].
  apply Forall_app. split; [apply zip_lines_no_nl; assumption|].
  constructor.
  - unfold kv. apply no_nl_app; [reflexivity|]. unfold no_nl. rewrite smem_cons. apply digits_no; [apply n_str_digits|reflexivity].
  - apply Forall_app. split; [eapply ballot_lines_no_nl; eauto|constructor; [reflexivity|constructor]].
Qed.

Lemma lbind_ok : forall (X Y : Type) (r : lres X) (f : X -> lres Y) y, lbind r f = Ok y -> exists x, r = Ok x /\ f x = Ok y.
Proof. intros X Y [x| |e] f y H; simpl in H; try discriminate. exists x. split; [reflexivity|exact H]. Qed.

Lemma load_system_app : forall E lg ls junk sc c m o h rest,
  load_system E lg ls sc c m o = Ok (h, rest) -> load_system E lg (ls ++ junk) sc c m o = Ok (h, rest ++ junk).
Proof.
  intros E lg ls junk. induction ls as [|l t IH]; intros sc c m o h rest H; cbn [load_system app] in *; [discriminate|].
  destruct (parse_header_line l) as [|k v|]; [apply IH; exact H| |discriminate].
  destruct (str_eqb k s_ballots).
  - destruct (match o with [] => Some m | _ :: _ => reorder_nicks m o [] end) as [nk|]; [|discriminate].
    apply lbind_ok in H. destruct H as [sys [H1 H]]. apply lbind_ok in H. destruct H as [nb [H2 H]].
    rewrite H1, H2. cbn [lbind]. inversion H; subst. reflexivity.
  - destruct (str_eqb k s_order); [apply IH; exact H|].
    destruct (str_eqb k s_candidate || str_eqb k s_withdrawn).
    + destruct (split1 v) as [[nick name]|]; [apply IH; exact H|discriminate].
    + destruct (sc_put sc k v); [apply IH; exact H|discriminate].
Qed.

Lemma load_votes_app : forall E lg ord nm ls junk i n acc v,
  load_votes E lg ord nm ls i n acc = Ok v -> load_votes E lg ord nm (ls ++ junk) i n acc = Ok v.
Proof.
  intros E lg ord nm ls junk. induction ls as [|l t IH]; intros i n acc v H; cbn [load_votes app] in *; [discriminate|].
  destruct (str_eqb (strip l) s_end); [exact H|].
  destruct (strip l) as [|c s]; [apply IH; exact H|].
  destruct (words (c :: s)) as [|first more]; [discriminate|].
  destruct (if last_is 88 first then match parse_multiplier E (removelast first) with Some m => Some (m, more) | None => None end
            else Some (1 # 1, first :: more)) as [[mult items]|]; [|discriminate].
  apply lbind_ok in H. destruct H as [vote [H1 H]]. rewrite H1. cbn [lbind]. apply IH. exact H.
Qed.

(* the file gives a ballot count (it is not in BLT mode) *)
Definition stv_mode (E : uenv) (ls : list str) : bool :=
  match load_system E false ls sc_empty [] [] [] with
  | Ok (h, _) => match h_n_ballots h with Some _ => true | None => false end
  | _ => false
  end.

(* no partial data: what was read does not depend on what follows *)
Theorem stv_prefix_stable : forall E bl ls x, stv_load_lines E false bl ls = Ok x -> stv_mode E ls = true ->
  forall bl' junk, stv_load_lines E false bl' (ls ++ junk) = Ok x.
Proof.
  intros E bl ls x H Hm bl' junk. unfold stv_load_lines, stv_mode in *.
  destruct (load_system E false ls sc_empty [] [] []) as [[h rest]| |e] eqn:Hs; try discriminate.
  rewrite (load_system_app E false ls junk _ _ _ _ h rest Hs). cbn [lbind] in *.
  destruct (h_n_ballots h) as [n|]; [|discriminate].
  apply lbind_ok in H. destruct H as [v [H1 H2]]. rewrite (load_votes_app E false _ _ rest junk 0 n [] v H1). exact H2.
Qed.

Definition in_range (n : nat) (v : list (list Z * Q)) : Prop :=
  Forall (fun rw => Forall (fun p => 1 <= p <= Z.of_nat n) (fst rw)) v.
Definition map_in_range (n : nat) (m : nickmap) : Prop := Forall (fun kv => 1 <= snd kv <= Z.of_nat n) m.

Lemma map_in_range_mono : forall n n' m, (n <= n')%nat -> map_in_range n m -> map_in_range n' m.
Proof. intros n n' m Hn H. eapply Forall_impl; [|exact H]. intros kv Hkv. simpl in Hkv. lia. Qed.

Lemma aset_in_range : forall n m k p, map_in_range n m -> 1 <= p <= Z.of_nat n -> map_in_range n (aset str_eqb m k p).
Proof.
  intros n m k p H Hp. induction H as [|[k' v'] m Hkv Hm IH]; cbn [aset].
  - constructor; [exact Hp|constructor].
  - destruct (str_eqb k k'); constructor; try assumption.
Qed.

Lemma nick_get_in_range : forall n m k p, map_in_range n m -> nick_get m k = Some p -> 1 <= p <= Z.of_nat n.
Proof.
  intros n m k p H. unfold nick_get. induction H as [|[k' v'] m Hkv Hm IH]; cbn [aget]; [discriminate|].
  destruct (str_eqb k k'); [intros Heq; inversion Heq; subst; exact Hkv|exact IH].
Qed.

Lemma reorder_in_range : forall n m order acc r, map_in_range n m -> map_in_range n acc ->
  reorder_nicks m order acc = Some r -> map_in_range n r.
Proof.
  intros n m order. induction order as [|k t IH]; intros acc r Hm Hacc H; cbn [reorder_nicks] in H.
  - inversion H; subst. exact Hacc.
  - destruct (nick_get m k) as [p|] eqn:Hg; [|discriminate].
    apply (IH (aset str_eqb acc k p) r Hm); [|exact H]. apply aset_in_range; [exact Hacc|exact (nick_get_in_range n m k p Hm Hg)].
Qed.

Lemma load_system_in_range : forall E lg ls sc c m o h rest, map_in_range (length c) m ->
  load_system E lg ls sc c m o = Ok (h, rest) -> map_in_range (length (h_cands h)) (h_nicks h).
Proof.
  intros E lg ls. induction ls as [|l t IH]; intros sc c m o h rest Hm H; cbn [load_system] in H; [discriminate|].
  destruct (parse_header_line l) as [|k v|]; [eapply IH; eauto| |discriminate].
  destruct (str_eqb k s_ballots).
  - destruct (match o with [] => Some m | _ :: _ => reorder_nicks m o [] end) as [nk|] eqn:Hr; [|discriminate].
    apply lbind_ok in H. destruct H as [sys [H1 H]]. apply lbind_ok in H. destruct H as [nb [H2 H]].
    inversion H; subst. cbn [h_cands h_nicks].
    destruct o; [inversion Hr; subst; exact Hm|]. eapply reorder_in_range; [exact Hm|constructor|exact Hr].
  - destruct (str_eqb k s_order); [eapply IH; eauto|].
    destruct (str_eqb k s_candidate || str_eqb k s_withdrawn).
    + destruct (split1 v) as [[nick name]|]; [|discriminate].
      eapply IH; [|exact H]. rewrite app_length. cbn [length].
      apply aset_in_range; [eapply map_in_range_mono; [|exact Hm]; lia|lia].
    + destruct (sc_put sc k v); [eapply IH; eauto|discriminate].
Qed.

Lemma lookup_in_range : forall n m items ps, map_in_range n m -> lookup_nicks m items = Some ps ->
  Forall (fun p => 1 <= p <= Z.of_nat n) ps.
Proof.
  intros n m items. induction items as [|it t IH]; intros ps Hm H; cbn [lookup_nicks] in H.
  - inversion H. constructor.
  - destruct (nick_get m it) as [p|] eqn:Hg; [|discriminate]. destruct (lookup_nicks m t) as [ps'|] eqn:Hl; [|discriminate].
    inversion H; subst. constructor; [eapply nick_get_in_range; eauto|apply IH; [exact Hm|reflexivity]].
Qed.

Lemma insert_forall : forall (P : Z * Z -> Prop) x l, P x -> Forall P l -> Forall P (insert_by_rank x l).
Proof.
  intros P x l Hx H. induction H as [|y l Hy Hl IH]; cbn [insert_by_rank]; [constructor; [exact Hx|constructor]|].
  destruct (snd x <? snd y); constructor; try assumption. constructor; assumption.
Qed.

Lemma sort_forall : forall (P : Z * Z -> Prop) l, Forall P l -> Forall P (sort_by_rank l).
Proof.
  intros P l H. unfold sort_by_rank.
  assert (Hgen : forall acc, Forall P acc -> Forall P (fold_left (fun a x => insert_by_rank x a) l acc)).
  { induction H as [|x l Hx Hl IH]; intros acc Hacc; cbn [fold_left]; [exact Hacc|]. apply IH. apply insert_forall; assumption. }
  apply Hgen. constructor.
Qed.

Lemma ordered_items_in_range : forall E lg n items pool i acc r, Forall (fun p => 1 <= p <= Z.of_nat n) pool ->
  Forall (fun cr => 1 <= fst cr <= Z.of_nat n) acc -> ordered_items E lg items pool i acc = Ok r ->
  Forall (fun cr => 1 <= fst cr <= Z.of_nat n) r.
Proof.
  intros E lg n items. induction items as [|it t IH]; intros pool i acc r Hp Hacc H; cbn [ordered_items] in H.
  - inversion H; subst. exact Hacc.
  - destruct (guarded_int E lg it) as [g|].
    + destruct (nth_error pool i) as [c|] eqn:Hn; [|discriminate]. apply lbind_ok in H. destruct H as [rank [_ H]].
      apply (IH pool (S i) (acc ++ [(c, rank)]) r Hp); [|exact H]. apply Forall_app. split; [exact Hacc|constructor; [|constructor]].
      cbn [fst]. rewrite Forall_forall in Hp. apply Hp. eapply nth_error_In; eauto.
    + destruct (str_eqb it [45]); [|discriminate]. eapply IH; eauto.
Qed.

Lemma ordered_vote_in_range : forall E lg n items pool v, Forall (fun p => 1 <= p <= Z.of_nat n) pool ->
  ordered_vote E lg items pool = Ok v -> Forall (fun p => 1 <= p <= Z.of_nat n) v.
Proof.
  intros E lg n items pool v Hp H. unfold ordered_vote in H. apply lbind_ok in H. destruct H as [co [H1 H2]].
  cbv zeta in H2. destruct (ranks_are (sort_by_rank co) 1); [|discriminate]. inversion H2; subst.
  pose proof (sort_forall _ co (ordered_items_in_range E lg n items pool 0 [] co Hp (Forall_nil _) H1)) as Hs.
  clear - Hs. induction Hs as [|x l Hx Hl IH]; cbn [map]; constructor; assumption.
Qed.

Lemma badd_in_range : forall n b r w, in_range n b -> Forall (fun p => 1 <= p <= Z.of_nat n) r -> in_range n (badd b r w).
Proof.
  intros n b r w H Hr. unfold in_range in *. induction H as [|[r' w'] b Hx Hb IH]; cbn [badd].
  - constructor; [exact Hr|constructor].
  - destruct (zlist_eqb r r'); constructor; try assumption.
Qed.

Lemma load_votes_in_range : forall E lg ord nm n ls i nb acc v, map_in_range n nm -> in_range n acc ->
  load_votes E lg ord nm ls i nb acc = Ok v -> in_range n v.
Proof.
  intros E lg ord nm n ls. induction ls as [|l t IH]; intros i nb acc v Hm Hacc H; cbn [load_votes] in H; [discriminate|].
  destruct (str_eqb (strip l) s_end); [destruct (i =? nb); [inversion H; subst; exact Hacc|discriminate]|].
  destruct (strip l) as [|c s]; [eapply IH; eauto|].
  destruct (words (c :: s)) as [|first more]; [discriminate|].
  destruct (if last_is 88 first then match parse_multiplier E (removelast first) with Some m => Some (m, more) | None => None end
            else Some (1 # 1, first :: more)) as [[mult items]|]; [|discriminate].
  apply lbind_ok in H. destruct H as [vote [H1 H]].
  apply (IH (i + 1) nb (vadd acc vote mult) v Hm); [|exact H]. apply badd_in_range; [exact Hacc|].
  destruct ord.
  - apply (ordered_vote_in_range E lg n items (map snd nm) vote); [|exact H1].
    clear - Hm. induction Hm as [|kv m Hkv Hm IH]; cbn [map]; constructor; assumption.
  - destruct (lookup_nicks nm items) as [ps|] eqn:Hl; [|discriminate]. inversion H1; subst. eapply lookup_in_range; eauto.
Qed.

(* the same for the BLT reader (token-level model) *)
Definition blt_in_range (y : BallotFile.loaded) : Prop :=
  match y with (bv, _, bc, _) => in_range (length bc) bv end.

Lemma check_ranking_range : forall n r r', check_ranking false n r = Ok r' -> Forall (fun i => 1 <= i <= n) r'.
Proof.
  intros n r. induction r as [|i t IH]; intros r' H; cbn [check_ranking] in H.
  - inversion H. constructor.
  - unfold check_index in H. destruct ((1 <=? i) && (i <=? n)) eqn:Hb; [|discriminate].
    destruct (check_ranking false n t) as [js| |e]; try discriminate. inversion H; subst.
    apply andb_true_iff in Hb. destruct Hb as [H1 H2]. apply Z.leb_le in H1. apply Z.leb_le in H2.
    constructor; [lia|apply IH; reflexivity].
Qed.

Lemma deindex_range : forall n b b', deindex false n b = Ok b' -> Forall (fun rw => Forall (fun i => 1 <= i <= n) (fst rw)) b'.
Proof.
  intros n b. induction b as [|[r w] t IH]; intros b' H; cbn [deindex] in H.
  - inversion H. constructor.
  - destruct (check_ranking false n r) as [r'| |e] eqn:Hr; try discriminate.
    destruct (deindex false n t) as [t'| |e]; try discriminate. inversion H; subst.
    constructor; [cbn [fst]; eapply check_ranking_range; eauto|apply IH; reflexivity].
Qed.

Theorem blt_loaded_in_range : forall op ls y, BallotFile.load_lines false op ls = Ok y -> blt_in_range y.
Proof.
  intros op ls y H. unfold BallotFile.load_lines in H. destruct ls as [|hd body]; [discriminate|].
  destruct (parse_numline false false hd) as [nums| |e]; try discriminate.
  destruct nums as [|nc [|ns [|z r]]]; try discriminate.
  destruct (parse_body false op body [] [] false) as [[[bl wd] rest]| |e]; try discriminate.
  destruct (parse_strings false rest (Qnum nc)) as [nr| |e]; try discriminate.
  destruct nr as [names title|s];
    match type of H with match deindex false ?n bl with _ => _ end = _ =>
      destruct (deindex false n bl) as [b| |e] eqn:Hd; try discriminate
    end;
    inversion H; subst; exact (deindex_range _ _ _ Hd).
Qed.

(* no partial data: every ranking that was read names listed candidates *)
Theorem stv_loaded_in_range : forall E bl ls x, (forall r y, bl r = Ok y -> blt_in_range y) ->
  stv_load_lines E false bl ls = Ok x -> in_range (length (l_pool x)) (l_votes x).
Proof.
  intros E bl ls x Hbl H. unfold stv_load_lines in H. apply lbind_ok in H. destruct H as [[h rest] [Hs H]].
  pose proof (load_system_in_range E false ls sc_empty [] [] [] h rest (Forall_nil _) Hs) as Hm.
  destruct (h_n_ballots h) as [n|].
  - apply lbind_ok in H. destruct H as [v [Hv H]]. inversion H; subst. cbn [l_pool l_votes].
    eapply load_votes_in_range; [exact Hm|constructor|exact Hv].
  - unfold finish_blt in H. destruct (bl rest) as [[[[bv bs] bc] bt]| |e] eqn:Hb; try discriminate.
    pose proof (Hbl rest _ Hb) as Hr. unfold blt_in_range in Hr.
    destruct (snd (h_system h)); inversion H; subst; cbn [l_pool l_votes]; rewrite map_length; exact Hr.
Qed.

Lemma ascii_lower_ok : forall E c, c <? 128 = true -> is_word E c = true -> forallb nick_char_ok (lower E c) = true.
Proof.
  intros E c Hc Hw. unfold is_word in Hw. rewrite Hc in Hw. unfold lower. rewrite Hc.
  destruct ((65 <=? c) && (c <=? 90)) eqn:Hu; cbn [forallb]; rewrite andb_true_r; apply visible_char_ok; lia.
Qed.

(* the nickname condition of stv_wf only concerns non-ASCII initials *)
Lemma ascii_initials_ok : forall E nm, forallb (fun c => c <? 128) nm = true ->
  forallb nick_char_ok (name_to_initials E nm) = true.
Proof.
  intros E nm H. unfold name_to_initials. generalize false. induction nm as [|c t IH]; intros b; cbn [initials_aux]; [reflexivity|].
  cbn [forallb] in H. apply andb_true_iff in H. destruct H as [Hc Ht].
  destruct (is_word E c) eqn:Hw; [|apply IH; exact Ht].
  destruct b; [apply IH; exact Ht|]. rewrite forallb_app, (ascii_lower_ok E c Hc Hw). apply IH. exact Ht.
Qed.

(* BLT mode: the STV reader hands the rest of the file to the BLT reader *)
Definition blt_header : header :=
  {| h_system := (None, EvOther true); h_cands := []; h_nicks := []; h_n_ballots := None; h_ordered := false |}.

Lemma stv_blt_mode : forall E bl rest,
  stv_load_lines E false bl (blt_mode_lines rest) = finish_blt false blt_header (bl rest).
Proof. intros E bl rest. reflexivity. Qed.

Lemma stv_blt_mode_ok : forall E bl rest bv bs bc bt, bl rest = Ok (bv, bs, bc, bt) ->
  stv_load_lines E false bl (blt_mode_lines rest) =
  Ok {| l_votes := bv;
        l_system := (match bt with Some t => if nonempty t then Some t else None | None => None end, EvFixed (EvOther true) bs);
        l_cands := map (fun cw => (cname_str (fst cw), snd cw)) bc;
        l_pool := map (fun cw => (cname_str (fst cw), snd cw)) bc |}.
Proof.
  intros E bl rest bv bs bc bt H. rewrite stv_blt_mode, H. unfold finish_blt, blt_header. cbn [h_system h_cands fst snd].
  destruct bc; reflexivity.
Qed.
