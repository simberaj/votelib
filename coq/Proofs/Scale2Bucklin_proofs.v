(* Scale invariance (C11) of PreferenceAddition (Bucklin, Oklahoma; Model/Bucklin.v): multiplying every ballot
   weight by k > 0 multiplies the decoupled shares, the cumulated round totals and the majority threshold
   (half of the total weight) by k, so every round passes the same candidates over the threshold in the same
   order, get_n_best takes the same ones, and the run returns the identical result - for every coefficient
   function, both splicing loops, with or without decoupling of shared ranks.  A simulation: ballot
   dictionaries and total dictionaries of the two runs have the same keys in the same order and values
   related by x' == k x. *)
From Coq Require Import ZArith QArith List Bool Lia Lqa Qfield.
From VL Require Import Prelude.Sx Prelude.PyDict Prelude.GDict Model.GetNBest Model.Convert Model.Bucklin
     Proofs.Dict_proofs Proofs.GetNBest_proofs Proofs.QOrd Proofs.LRScale_proofs Proofs.STVScale_proofs
     Proofs.Scale2Add_proofs.
Import ListNotations.
Open Scope Q_scope.

Section PAScale.
  Variable k : Q.
  Hypothesis Hk : 0 < k.
  Notation qs := (qsc k).

  Definition brel : list (ranked * Q) -> list (ranked * Q) -> Prop := lrel (K := ranked) qs.
  Notation trel := (vrel k).

  Lemma decouple_step_rel fx new new' bw bw' : brel new new' -> prel qs bw bw' ->
    brel (decouple_step fx new bw) (decouple_step fx new' bw').
  Proof.
    intros Hn [Hb Hw]. unfold decouple_step. rewrite <- Hb. destruct (has_shared (fst bw)); [|exact Hn].
    apply fold_left_rel_same; [|apply (lrel_filter_fst qs (fun key => negb (ranked_eqb (fst bw) key))), Hn].
    intros d d' v Hd. apply (gadd_rel ranked_eqb k); [exact Hd|]. apply qsc_mult; [exact Hw|reflexivity].
  Qed.

  Lemma decouple_rel fx v v' : brel v v' -> brel (decouple fx v) (decouple fx v').
  Proof.
    intros H. unfold decouple.
    exact (fold_left_rel brel (prel qs) _ _ v v' (decouple_step_rel fx) H v v' H).
  Qed.

  Lemma split_rel fx (split : bool) v v' : brel v v' ->
    brel (if split then decouple fx v else v) (if split then decouple fx v' else v').
  Proof. intros H. destruct split; [apply decouple_rel, H|exact H]. Qed.

  Lemma wsum_rel v v' : brel v v' -> qs (wsum v) (wsum v').
  Proof.
    intros H. induction H as [|y y' l l' [_ Hy] Hl IH]; cbn [wsum fold_right]; [exact (qsc_0 k)|].
    apply qsc_plus; [exact Hy|exact IH].
  Qed.

  Lemma max_pref_len_rel v v' : brel v v' -> max_pref_len v' = max_pref_len v.
  Proof.
    intros H. induction H as [|y y' l l' [Hy _] Hl IH]; cbn [max_pref_len fold_right]; [reflexivity|].
    fold (max_pref_len l). fold (max_pref_len l'). rewrite IH. f_equal. f_equal. symmetry. exact Hy.
  Qed.

  Lemma add_ballot_rel cf r el t t' bw bw' : trel t t' -> prel qs bw bw' ->
    trel (add_ballot cf r el t bw) (add_ballot cf r el t' bw').
  Proof.
    intros Ht [Hb Hw]. unfold add_ballot. rewrite <- Hb. destruct (nth_error (fst bw) r) as [it|]; [|exact Ht].
    apply fold_left_rel_same; [|exact Ht]. intros d d' c Hd. unfold add_cand, tadd.
    destruct (elected_mem c el); [exact Hd|]. apply dset_add_rel; [exact Hd|]. apply qsc_mult; [exact Hw|reflexivity].
  Qed.

  Lemma add_round_rel coef v v' r el : brel v v' -> forall t t', trel t t' ->
    trel (add_round coef v r el t) (add_round coef v' r el t').
  Proof. intros H. exact (fold_left_rel trel (prel qs) _ _ v v' (add_ballot_rel (coef r) r el) H). Qed.

  Lemma majority_of_rel q q' t t' : qs q q' -> trel t t' -> trel (majority_of q t) (majority_of q' t').
  Proof.
    intros Hq Ht. unfold majority_of.
    apply Forall2_filter; [|apply (sort_desc_rel Qle_bool Qle_bool qs (qsc_le k Hk)), Ht].
    intros x x' [_ Hx]. unfold ltb. rewrite (qsc_le k Hk _ _ _ _ Hx Hq). reflexivity.
  Qed.

  Lemma pa_loop_rel coef v v' q q' n rounds : brel v v' -> qs q q' -> forall t t' el, trel t t' ->
    pa_loop coef v' q' n rounds t' el = pa_loop coef v q n rounds t el.
  Proof.
    intros Hv Hq. induction rounds as [|r rest IH]; intros t t' el Ht; cbn [pa_loop]; [reflexivity|].
    pose proof (add_round_rel coef v v' r el Hv t t' Ht) as H1.
    rewrite (get_n_best_rel Qle_bool Qle_bool qs (qsc_le k Hk) _ _ (n - length el) (majority_of_rel q q' _ _ Hq H1)).
    destruct (Nat.eqb _ n); [reflexivity|]. apply IH, (lrel_filter_fst qs (fun c => negb (elected_mem c _))), H1.
  Qed.

  Lemma pa_core_rel coef v v' n : brel v v' -> pa_core coef v' n = pa_core coef v n.
  Proof.
    intros Hv. unfold pa_core. rewrite (max_pref_len_rel v v' Hv). apply pa_loop_rel; [exact Hv| |constructor].
    apply qsc_mult; [apply wsum_rel, Hv|reflexivity].
  Qed.

  Theorem pa_eval_rel fx coef split v v' n : brel v v' -> pa_eval fx coef split v' n = pa_eval fx coef split v n.
  Proof.
    intros Hv. unfold pa_eval. destruct n as [|n]; [reflexivity|].
    pose proof (split_rel fx split v v' Hv) as H1.
    rewrite (pa_core_rel coef _ _ (S n) H1). destruct H1; reflexivity.
  Qed.

  Theorem pa_evaluate_rel fx cs split v v' n : brel v v' -> pa_evaluate fx cs split v' n = pa_evaluate fx cs split v n.
  Proof.
    intros Hv. unfold pa_evaluate. destruct n as [|n]; [reflexivity|].
    pose proof (split_rel fx split v v' Hv) as H1.
    rewrite (max_pref_len_rel _ _ H1), (pa_eval_rel fx (coef_fun cs) split v v' (S n) Hv).
    destruct H1; reflexivity.
  Qed.

  Theorem pa_eval_scale fx coef split votes n : pa_eval fx coef split (scale_w k votes) n = pa_eval fx coef split votes n.
  Proof. apply pa_eval_rel, lrel_scale. Qed.

  Theorem pa_evaluate_scale fx cs split votes n : pa_evaluate fx cs split (scale_w k votes) n = pa_evaluate fx cs split votes n.
  Proof. apply pa_evaluate_rel, lrel_scale. Qed.
End PAScale.
