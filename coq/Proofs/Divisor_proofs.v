(* The built-in divisor sequences are positive and non-decreasing (in fact
   strictly increasing) on seat counts >= 0. *)
From Coq Require Import ZArith QArith Lia Lqa.
From VL Require Import Model.Divisor.
Open Scope Z_scope.

Definition divisor_ok (d : Z -> Q) : Prop :=
  (forall k, 0 <= k -> (0 < d k)%Q) /\ (forall k, 0 <= k -> (d k <= d (k + 1)%Z)%Q).
Definition divisor_strict (d : Z -> Q) : Prop :=
  forall k, 0 <= k -> (d k < d (k + 1)%Z)%Q.

Lemma inj_lt a b : a < b -> (inject_Z a < inject_Z b)%Q.
Proof. intros H. rewrite <- Zlt_Qlt. exact H. Qed.
Lemma inj_le a b : a <= b -> (inject_Z a <= inject_Z b)%Q.
Proof. intros H. rewrite <- Zle_Qle. exact H. Qed.

Lemma strict_ok d : (forall k, 0 <= k -> (0 < d k)%Q) -> divisor_strict d -> divisor_ok d /\ divisor_strict d.
Proof.
  intros Hp Hs. repeat split; [exact Hp| |exact Hs]. intros k Hk. apply Qlt_le_weak, Hs, Hk.
Qed.

Lemma d_hondt_ok : divisor_ok d_hondt /\ divisor_strict d_hondt.
Proof. apply strict_ok; intros k Hk; [apply (inj_lt 0)|apply inj_lt]; lia. Qed.
Lemma sainte_lague_ok : divisor_ok sainte_lague /\ divisor_strict sainte_lague.
Proof. apply strict_ok; intros k Hk; [apply (inj_lt 0)|apply inj_lt]; lia. Qed.
Lemma danish_ok : divisor_ok danish /\ divisor_strict danish.
Proof. apply strict_ok; intros k Hk; [apply (inj_lt 0)|apply inj_lt]; lia. Qed.
Lemma imperiali_ok : divisor_ok imperiali /\ divisor_strict imperiali.
Proof. apply strict_ok; intros k Hk; unfold imperiali, Qlt; simpl; lia. Qed.
Lemma macau_ok : divisor_ok macau /\ divisor_strict macau.
Proof.
  apply strict_ok; intros k Hk; [apply (inj_lt 0), Z.pow_pos_nonneg|apply inj_lt, Z.pow_lt_mono_r]; lia.
Qed.

Lemma builtin_ok i : divisor_ok (divisor_by_id i).
Proof.
  unfold divisor_by_id.
  destruct (i =? 1); [apply d_hondt_ok|]. destruct (i =? 2); [apply sainte_lague_ok|].
  destruct (i =? 3); [apply imperiali_ok|]. destruct (i =? 4); [apply danish_ok|apply macau_ok].
Qed.

Lemma modified_ok f c : divisor_ok f -> (0 < c)%Q -> (c <= f 1%Z)%Q ->
  divisor_ok (modified_first_coef f c).
Proof.
  intros [Hp Hm] Hc Hc1. unfold divisor_ok, modified_first_coef. split; intros k Hk.
  - destruct (0 <? k) eqn:E; [apply Hp; exact Hk|exact Hc].
  - destruct (0 <? k) eqn:E.
    + assert (0 <? k + 1 = true) as -> by (apply Z.ltb_lt; lia). apply Hm. exact Hk.
    + apply Z.ltb_ge in E. assert (k = 0) by lia. subst k. simpl. exact Hc1.
Qed.
