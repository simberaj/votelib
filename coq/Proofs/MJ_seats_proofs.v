(* Majority judgment for any number of seats (Model/Cardinal.v majority_judgment, mj_default, mj_plus) against an
   independent, per-candidate reference order.

   The reference: the REMOVAL SEQUENCE (Balinski-Laraki majority value) of a candidate with grade counts [d] is
   mj_seq 0 d, mj_seq 1 d, ... : the lower median of d, the lower median after one copy of that median is removed,
   and so on - a function of the candidate's own grades only.  [mj_lex_lt d' d]: the sequence of d' is
   lexicographically below that of d (they agree on the first k entries and differ strictly at entry k).

   Proved: whatever majority_judgment (default tie-break) answers for n seats contains no tie object, and every
   elected candidate is lexicographically strictly above every candidate that is not elected - i.e. the answer is
   exactly the top-n set of the reference order, for every seat.  For the plus rule: an elected candidate has
   strictly more grades at or above the shared median than a candidate of the same median that is left out, and
   the members of a reported tie are level in that count. *)
From Coq Require Import ZArith QArith Qround Qabs List Bool Arith Lia Lqa Permutation.
From VL Require Import Prelude.PyDict Model.GetNBest Model.Convert Model.Cardinal
     Proofs.GetNBest_proofs Proofs.QOrd Proofs.Dict_proofs Proofs.MJ_proofs Proofs.MJ_removal_proofs.
Import ListNotations.
Open Scope Q_scope.

(* remove ONE copy of the current lower median *)
Definition mj_rm1 (d : cscores) : cscores + serr :=
  match aggregate_one FMedianLow d with
  | inr e => inr e
  | inl m => inl (cs_set d m (match cs_get d m with Some k => k | None => 0%Z end - 1)%Z)
  end.

Fixpoint mj_rmk (k : nat) (d : cscores) : cscores + serr :=
  match k with
  | O => inl d
  | S k' => match mj_rm1 d with inl d' => mj_rmk k' d' | inr e => inr e end
  end.

(* entry k of the removal sequence; None when the candidate has run out of grades *)
Definition mj_seq (k : nat) (d : cscores) : option Q :=
  match mj_rmk k d with
  | inl d' => match aggregate_one FMedianLow d' with inl m => Some m | inr _ => None end
  | inr _ => None
  end.

Definition mj_lex_lt (d' d : cscores) : Prop :=
  exists k m m', mj_seq k d = Some m /\ mj_seq k d' = Some m' /\ m' < m /\
    forall j, (j < k)%nat -> exists x x', mj_seq j d = Some x /\ mj_seq j d' = Some x' /\ x' == x.

Lemma mj_rmk_add a : forall b d,
  mj_rmk (a + b) d = match mj_rmk a d with inl d1 => mj_rmk b d1 | inr e => inr e end.
Proof.
  induction a as [|a IH]; intros b d; [reflexivity|]. cbn [Nat.add mj_rmk].
  destruct (mj_rm1 d) as [d'|e]; [apply IH|reflexivity].
Qed.

Lemma mj_rmk_snoc j d : mj_rmk (S j) d = match mj_rmk j d with inl d1 => mj_rm1 d1 | inr e => inr e end.
Proof.
  replace (S j) with (j + 1)%nat by lia. rewrite mj_rmk_add. destruct (mj_rmk j d) as [d1|e]; [|reflexivity].
  cbn [mj_rmk]. destruct (mj_rm1 d1); reflexivity.
Qed.

Lemma mj_seq_add a b d d1 : mj_rmk a d = inl d1 -> mj_seq (a + b) d = mj_seq b d1.
Proof. intros H. unfold mj_seq. rewrite mj_rmk_add, H. reflexivity. Qed.

Lemma mj_lex_lt_0 d d' v v' :
  aggregate_one FMedianLow d = inl v -> aggregate_one FMedianLow d' = inl v' -> v' < v -> mj_lex_lt d' d.
Proof.
  intros H H' Hlt. exists 0%nat, v, v'. unfold mj_seq. cbn [mj_rmk]. rewrite H, H'.
  split; [reflexivity|]. split; [reflexivity|]. split; [exact Hlt|]. intros j Hj. lia.
Qed.

(* two candidates whose first ch entries are one shared grade agree on as many further entries as what is left of them *)
Lemma mj_seq_prefix_lift ch d d' dn dn' m m' k :
  mj_rmk ch d = inl dn -> mj_rmk ch d' = inl dn' ->
  (forall j, (j < ch)%nat -> mj_seq j d = Some m) -> (forall j, (j < ch)%nat -> mj_seq j d' = Some m') -> m' == m ->
  (forall j, (j < k)%nat -> exists x x', mj_seq j dn = Some x /\ mj_seq j dn' = Some x' /\ x' == x) ->
  forall j, (j < ch + k)%nat -> exists x x', mj_seq j d = Some x /\ mj_seq j d' = Some x' /\ x' == x.
Proof.
  intros Hd Hd' Hs Hs' Hmm Hpre j Hj. destruct (Nat.lt_ge_cases j ch) as [Hlo|Hhi].
  - exists m, m'. split; [apply Hs, Hlo|]. split; [apply Hs', Hlo|exact Hmm].
  - replace j with (ch + (j - ch))%nat by lia.
    rewrite (mj_seq_add ch (j - ch) d dn Hd), (mj_seq_add ch (j - ch) d' dn' Hd'). apply Hpre. lia.
Qed.

(* ... so compare the rest *)
Lemma mj_lex_lt_lift ch d d' dn dn' m m' :
  mj_rmk ch d = inl dn -> mj_rmk ch d' = inl dn' ->
  (forall j, (j < ch)%nat -> mj_seq j d = Some m) -> (forall j, (j < ch)%nat -> mj_seq j d' = Some m') -> m' == m ->
  mj_lex_lt dn' dn -> mj_lex_lt d' d.
Proof.
  intros Hd Hd' Hs Hs' Hmm (k & x & x' & H1 & H2 & Hlt & Hpre).
  exists (ch + k)%nat, x, x'. rewrite (mj_seq_add ch k d dn Hd), (mj_seq_add ch k d' dn' Hd').
  split; [exact H1|]. split; [exact H2|]. split; [exact Hlt|].
  exact (mj_seq_prefix_lift ch d d' dn dn' m m' k Hd Hd' Hs Hs' Hmm Hpre).
Qed.

(* while fewer copies than the bound of closest_change are gone, the single removals take the same grade m:
   j single removals = one removal of j copies, and the median stays m *)
Lemma mj_rmk_stable d m k0 (ch : Z) :
  cs_nonneg d -> cs_distinct d -> aggregate_one FMedianLow d = inl m ->
  (forall j, (0 <= j < ch)%Z -> (j = 0 \/ j < cc_one d m)%Z) ->
  cs_get d m = Some k0 ->
  forall j : nat, (Z.of_nat j <= ch)%Z ->
    mj_rmk j d = inl (cs_set d m (k0 - Z.of_nat j)) /\
    ((Z.of_nat j < ch)%Z -> aggregate_one FMedianLow (cs_set d m (k0 - Z.of_nat j)) = inl m).
Proof.
  intros Hn Hd Hmed Hb Hget.
  assert (Hst : forall j : nat, (Z.of_nat j < ch)%Z -> aggregate_one FMedianLow (cs_set d m (k0 - Z.of_nat j)) = inl m).
  { intros j Hj. destruct (median_stable d m (Z.of_nat j) Hn Hd Hmed ltac:(lia) (Hb (Z.of_nat j) ltac:(lia))) as (k & _ & Hg & _ & Hagg & _).
    rewrite Hget in Hg. injection Hg as <-. exact Hagg. }
  induction j as [|j IH]; intros Hj.
  - split; [|apply Hst]. cbn [mj_rmk]. replace (k0 - Z.of_nat 0)%Z with k0 by lia. rewrite (cs_set_same _ _ _ Hget). reflexivity.
  - split; [|apply Hst]. destruct (IH ltac:(lia)) as (Hr & _). rewrite mj_rmk_snoc, Hr. unfold mj_rm1.
    rewrite (Hst j ltac:(lia)), cs_get_set, cs_set_set. f_equal. f_equal. lia.
Qed.

(* one round of the loop, seen from one candidate: mj_ch single removals, all of them of the same grade *)
Lemma mj_round_seq sub medians T :
  NoDup (map fst sub) -> Forall cs_ok sub -> aggregate FMedianLow sub = inl medians ->
  forall c dn, In (c, dn) (mj_round sub medians T) ->
    exists d m, In (c, d) sub /\ In c T /\ In (c, m) medians /\
      mj_rmk (Z.to_nat (mj_ch (mj_level sub T) medians)) d = inl dn /\
      forall j, (j < Z.to_nat (mj_ch (mj_level sub T) medians))%nat -> mj_seq j d = Some m.
Proof.
  intros Hnd Hok Ha c dn Hin. unfold mj_round in Hin.
  set (lvl := mj_level sub T) in *. set (CH := mj_ch lvl medians) in *.
  destruct (mj_remove_in _ _ _ _ Hin) as ([c0 d] & Hcd & Hf & Hs). cbn [fst snd] in Hf, Hs. subst c0.
  assert (Hsub : In (c, d) sub /\ In c T).
  { unfold lvl, mj_level in Hcd. apply filter_In in Hcd. cbn [fst] in Hcd. rewrite cmem_In in Hcd. exact Hcd. }
  destruct Hsub as (Hsub & HT).
  destruct (medians_in sub medians c d Hnd Ha Hsub) as (m & Hm & Hagg & Hgo). rewrite Hgo in Hs.
  rewrite Forall_forall in Hok. destruct (Hok _ Hsub) as (Hn & Hd). cbn [snd] in Hn, Hd.
  pose proof (mj_ch_pos lvl medians) as Hpos. fold CH in Hpos.
  destruct (median_stable d m 0 Hn Hd Hagg ltac:(lia) ltac:(left; reflexivity)) as (k0 & _ & Hget & _).
  assert (Hb : forall j, (0 <= j < CH)%Z -> (j = 0 \/ j < cc_one d m)%Z).
  { intros j Hj. pose proof (mj_ch_bound lvl medians (c, d) j Hcd Hj) as H. cbn [fst snd] in H. rewrite Hgo in H. exact H. }
  pose proof (mj_rmk_stable d m k0 CH Hn Hd Hagg Hb Hget) as Hst.
  exists d, m. split; [exact Hsub|]. split; [exact HT|]. split; [exact Hm|]. split.
  - destruct (Hst (Z.to_nat CH) ltac:(lia)) as (Hr & _). rewrite Hr, Hs, Hget. f_equal. f_equal. lia.
  - intros j Hj. destruct (Hst j ltac:(lia)) as (Hr & Hmj). unfold mj_seq. rewrite Hr, (Hmj ltac:(lia)). reflexivity.
Qed.

Lemma filter_ok (f : C * cscores -> bool) sub : Forall cs_ok sub -> Forall cs_ok (filter f sub).
Proof. rewrite !Forall_forall. intros H cd Hin. apply filter_In in Hin. apply H, Hin. Qed.

(* the state of the loop: distinct candidates with well-formed dictionaries *)
Definition mj_wf (sub : list (C * cscores)) : Prop := NoDup (map fst sub) /\ Forall cs_ok sub.

Lemma mj_wf_filter (f : C * cscores -> bool) sub : mj_wf sub -> mj_wf (filter f sub).
Proof. intros (H1 & H2). split; [apply nodup_keys_filter, H1|apply filter_ok, H2]. Qed.

Lemma mj_wf_round sub medians T : mj_wf sub -> aggregate FMedianLow sub = inl medians -> mj_wf (mj_round sub medians T).
Proof. intros (H1 & H2) Ha. destruct (mj_round_successive sub medians T H1 H2 Ha) as (_ & _ & H3 & H4). split; assumption. Qed.

Section Order.
  (* [below d' d]: a candidate with the grade counts d' ranks strictly below one with d.  Of the order only this is used:
     a lower median ranks below, and two candidates whose first ch entries are one shared grade rank as what is left
     of them after ch removals does. *)
  Variable below : cscores -> cscores -> Prop.
  Hypothesis below_0 : forall d d' v v',
    aggregate_one FMedianLow d = inl v -> aggregate_one FMedianLow d' = inl v' -> v' < v -> below d' d.
  Hypothesis below_lift : forall ch d d' dn dn' m m',
    mj_rmk ch d = inl dn -> mj_rmk ch d' = inl dn' ->
    (forall j, (j < ch)%nat -> mj_seq j d = Some m) -> (forall j, (j < ch)%nat -> mj_seq j d' = Some m') -> m' == m ->
    below dn' dn -> below d' d.

  (* an answer without tie objects, whose members are candidates of sub and rank above every candidate of sub left out *)
  Definition seated (sub : list (C * cscores)) (r : list (res C)) : Prop :=
    (forall x, In x r -> exists c, x = Cand c) /\
    (forall c, In (Cand c) r -> In c (map fst sub)) /\
    forall c d c' d', In (Cand c) r -> In (c, d) sub -> In (c', d') sub -> ~ In (Cand c') r -> below d' d.

  Lemma below_medians sub medians c d c' d' :
    NoDup (map fst sub) -> aggregate FMedianLow sub = inl medians -> In (c, d) sub -> In (c', d') sub ->
    (forall v v', In (c, v) medians -> In (c', v') medians -> v' < v) -> below d' d.
  Proof.
    intros Hnd Ea Hd Hd' H. destruct (medians_in _ _ _ _ Hnd Ea Hd) as (v & Hv & Hav & _).
    destruct (medians_in _ _ _ _ Hnd Ea Hd') as (v' & Hv' & Hav' & _). exact (below_0 _ _ _ _ Hav Hav' (H _ _ Hv Hv')).
  Qed.

  Lemma cut_seated sub medians A :
    NoDup (map fst sub) -> aggregate FMedianLow sub = inl medians -> incl A (map fst medians) ->
    (forall c v c' v', In c A -> In (c, v) medians -> In (c', v') medians -> ~ In c' A -> v' < v) ->
    seated sub (map Cand A).
  Proof.
    intros Hnd Ea HA Hcut. split; [apply map_Cand_plain|]. split.
    - intros c Hc. rewrite <- (aggregate_keys _ _ _ Ea). apply HA, in_map_Cand, Hc.
    - intros c d c' d' Hc Hd Hd' Hnc. apply (below_medians _ _ _ _ _ _ Hnd Ea Hd Hd'). intros v v' Hv Hv'.
      apply (Hcut c v c' v' (proj1 (in_map_Cand _ _) Hc) Hv Hv'). intros H. apply Hnc, in_map_Cand, H.
  Qed.

  (* one pass of the loop seats rightly if the next pass does *)
  Lemma mj_body_seated rec sub medians n r :
    NoDup (map fst sub) -> Forall cs_ok sub -> (1 <= n)%nat -> aggregate FMedianLow sub = inl medians ->
    (forall T r', rec (mj_round sub medians T) n = inl r' -> seated (mj_round sub medians T) r') ->
    (forall A k r', rec (filter (fun cd : C * cscores => negb (cmem (fst cd) A)) sub) (S k) = inl r' ->
       seated (filter (fun cd : C * cscores => negb (cmem (fst cd) A)) sub) r') ->
    mj_body rec sub medians n = inl r -> seated sub r.
  Proof.
    intros Hnd Hok Hn Ea Hround Hrest. pose proof (aggregate_keys _ _ _ Ea) as Hkeys.
    assert (Hndm : NoDup (map fst medians)) by (rewrite Hkeys; exact Hnd).
    destruct (gnb_keys medians n Hn Hndm) as [(A & E & _ & HA & _ & Hcut)|(A & T & thr & k & E & Hts & Hlen & _)].
    { rewrite (mj_body_clean _ _ _ _ _ E). intros [= <-]. exact (cut_seated _ _ _ Hnd Ea HA Hcut). }
    rewrite (mj_body_tie _ _ _ _ _ _ _ E Hlen). pose proof Hts as [Habove Hlevel _ HkeysAT]. destruct A as [|a A'].
    - (* the lead is shared: one round of removals among the level candidates *)
      intros Hr. destruct (Hround T r Hr) as (Hplain & Hcands & Hlex). split; [exact Hplain|]. split.
      + intros c Hc. apply Hcands in Hc. rewrite mj_round_keys in Hc. apply mj_level_keys in Hc. tauto.
      + intros c d c' d' Hc Hd Hd' Hnc.
        (* the elected candidate went through the round *)
        destruct (proj1 (in_keys _ _) (Hcands c Hc)) as (dn & Hdn).
        destruct (mj_round_seq sub medians T Hnd Hok Ea c dn Hdn) as (d0 & m & Hd0 & HcT & Hm & Hrk & Hsq).
        rewrite (NoDup_fst_eq _ _ _ _ Hnd Hd0 Hd) in *. clear d0 Hd0.
        pose proof (proj1 (Hlevel _ _ Hm) HcT) as Hmthr.
        destruct (medians_in _ _ _ _ Hnd Ea Hd') as (v' & Hv' & _).
        destruct (level_or_below _ _ _ _ c' v' Hts Hv' (fun H => H)) as [Hc'T|Hlt].
        * (* the rival is level, too: compare what is left of both *)
          assert (Hc'n : In c' (map fst (mj_round sub medians T))).
          { rewrite mj_round_keys. apply mj_level_keys. split; [apply in_keys; exists d'; exact Hd'|exact Hc'T]. }
          apply in_keys in Hc'n. destruct Hc'n as (dn' & Hdn').
          destruct (mj_round_seq sub medians T Hnd Hok Ea c' dn' Hdn') as (d0 & m' & Hd0 & _ & Hm' & Hrk' & Hsq').
          rewrite (NoDup_fst_eq _ _ _ _ Hnd Hd0 Hd') in *. clear d0 Hd0.
          pose proof (proj1 (Hlevel _ _ Hm') Hc'T) as Hm'thr.
          apply (below_lift _ d d' dn dn' m m' Hrk Hrk' Hsq Hsq'); [lra|]. exact (Hlex c dn c' dn' Hc Hdn Hdn' Hnc).
        * apply (below_medians _ _ _ _ _ _ Hnd Ea Hd Hd'). intros v w Hv Hw.
          rewrite (NoDup_fst_eq _ _ _ _ Hndm Hv Hm), (NoDup_fst_eq _ _ _ _ Hndm Hw Hv'). lra.
    - (* some candidates lead outright: they are seated, the others go on for the remaining seats *)
      cbv iota. remember (a :: A') as A eqn:EA in *. clear a A' EA.
      set (sub' := filter (fun cd : C * cscores => negb (cmem (fst cd) A)) sub).
      destruct (rec sub' (S k)) as [r'|e] eqn:Er; [|discriminate]. intros [= <-].
      destruct (Hrest A k r' Er) as (Hplain & Hcands & Hlex). fold sub' in Hcands, Hlex. split; [|split].
      + intros x Hx. apply in_app_or in Hx. destruct Hx as [Hx|Hx]; [exact (map_Cand_plain _ _ Hx)|exact (Hplain _ Hx)].
      + intros c Hc. apply in_app_or in Hc. destruct Hc as [Hc|Hc].
        * rewrite <- Hkeys. apply HkeysAT, in_or_app. left. apply in_map_Cand, Hc.
        * apply Hcands, filter_keys_incl in Hc. exact Hc.
      + intros c d c' d' Hc Hd Hd' Hnc.
        assert (Hna' : ~ In c' A) by (intros H; apply Hnc, in_or_app; left; apply in_map_Cand, H).
        apply in_app_or in Hc. destruct Hc as [Hc|Hc].
        * apply in_map_Cand in Hc. apply (below_medians _ _ _ _ _ _ Hnd Ea Hd Hd'). intros v v' Hv Hv'.
          apply (Habove _ _ Hv) in Hc. assert (~ thr < v') by (intros H; exact (Hna' (proj2 (Habove _ _ Hv') H))). lra.
        * destruct (proj1 (in_keys _ _) (Hcands c Hc)) as (d0 & Hd0).
          rewrite (NoDup_fst_eq _ _ _ _ Hnd (proj1 (proj1 (filter_out_in _ _ _ _) Hd0)) Hd) in Hd0.
          apply (Hlex c d c' d' Hc Hd0); [apply filter_out_in; split; assumption|].
          intros H. apply Hnc, in_or_app. right. exact H.
  Qed.

  Lemma mj_default_seated : forall fuel sub n r,
    NoDup (map fst sub) -> Forall cs_ok sub -> (1 <= n)%nat -> mj_default fuel sub n = inl r -> seated sub r.
  Proof.
    induction fuel as [|f IH]; intros sub n r Hnd Hok Hn; [discriminate|]. rewrite mj_default_unfold.
    destruct (_ <=? 0)%Z; [discriminate|]. destruct (aggregate FMedianLow sub) as [medians|e] eqn:Ea; [|discriminate].
    apply (mj_body_seated _ _ _ _ _ Hnd Hok Hn Ea).
    - intros T r'. destruct (mj_round_successive sub medians T Hnd Hok Ea) as (_ & _ & Hnd' & Hok'). exact (IH _ _ _ Hnd' Hok' Hn).
    - intros A k r'. apply IH; [apply nodup_keys_filter, Hnd|apply filter_ok, Hok|lia].
  Qed.

  (* the evaluator seats rightly if the tie-breaker does among the level candidates, for as many seats as it is given *)
  Lemma mj_outer_seated breaker sc med n r :
    NoDup (map fst sc) -> (1 <= n)%nat -> aggregate FMedianLow sc = inl med ->
    (forall T k r', (S k <= length (mj_level sc T))%nat -> breaker (mj_level sc T) (S k) = inl r' ->
       seated (mj_level sc T) r' /\ length r' = S k /\ NoDup r') ->
    mj_outer breaker sc med n = inl r ->
    seated sc r /\ length r = Nat.min n (length sc) /\ NoDup r.
  Proof.
    intros Hnd Hn Ea Hb. pose proof (aggregate_keys _ _ _ Ea) as Hkeys.
    assert (Hndm : NoDup (map fst med)) by (rewrite Hkeys; exact Hnd).
    assert (Hlenm : length med = length sc) by (rewrite <- (map_length fst med), Hkeys; apply map_length).
    destruct (gnb_keys med n Hn Hndm) as [(A & E & HndA & HA & HlenA & Hcut)|(A & T & thr & k & E & Hts & Hlen & HkT)].
    { rewrite (mj_outer_clean _ _ _ _ _ E). intros [= <-]. split; [exact (cut_seated _ _ _ Hnd Ea HA Hcut)|].
      split; [rewrite map_length, HlenA, Hlenm; reflexivity|exact (map_Cand_nodup _ HndA)]. }
    rewrite (mj_outer_tie _ _ _ _ _ _ _ E). pose proof Hts as [Habove Hlevel _ HkeysAT].
    destruct (tie_split_parts _ _ _ _ Hts) as (HndA & HndT & Hdisj & Hbig). set (sub := mj_level sc T) in *.
    destruct (breaker sub (S k)) as [r'|e] eqn:Er; [|discriminate]. intros [= <-].
    destruct (level_stays _ _ _ _ sc med Hts Hkeys) as (Hge & _). fold sub in Hge.
    destruct (Hb T k r' ltac:(fold sub; lia) Er) as ((Hplain & Hcands & Hlex) & Hl1 & Hl2). fold sub in Hcands, Hlex.
    assert (Hr'T : forall c, In (Cand c) r' -> In c T) by (intros c Hc; apply Hcands, mj_level_keys in Hc; tauto).
    split; [split; [|split]|split].
    - intros x Hx. apply in_app_or in Hx. destruct Hx as [Hx|Hx]; [exact (map_Cand_plain _ _ Hx)|exact (Hplain _ Hx)].
    - intros c Hc. apply in_app_or in Hc. destruct Hc as [Hc|Hc].
      + rewrite <- Hkeys. apply HkeysAT, in_or_app. left. apply in_map_Cand, Hc.
      + apply Hcands, mj_level_keys in Hc. tauto.
    - intros c d c' d' Hc Hd Hd' Hnc.
      assert (Hna' : ~ In c' A) by (intros H; apply Hnc, in_or_app; left; apply in_map_Cand, H).
      destruct (medians_in _ _ _ _ Hnd Ea Hd') as (v' & Hv' & _).
      apply in_app_or in Hc. destruct Hc as [Hc|Hc].
      + apply in_map_Cand in Hc. apply (below_medians _ _ _ _ _ _ Hnd Ea Hd Hd'). intros v w Hv Hw.
        apply (Habove _ _ Hv) in Hc. assert (~ thr < w) by (intros H; exact (Hna' (proj2 (Habove _ _ Hw) H))). lra.
      + pose proof (Hr'T c Hc) as HcT. destruct (level_or_below _ _ _ _ c' v' Hts Hv' Hna') as [Hc'T|Hlt].
        * apply (Hlex c d c' d' Hc); [apply mj_level_in; split; assumption|apply mj_level_in; split; assumption|].
          intros H. apply Hnc, in_or_app. right. exact H.
        * apply (below_medians _ _ _ _ _ _ Hnd Ea Hd Hd'). intros v w Hv Hw.
          apply (Hlevel _ _ Hv) in HcT. rewrite (NoDup_fst_eq _ _ _ _ Hndm Hw Hv'). lra.
    - rewrite app_length, map_length, Hl1. lia.
    - apply nodup_app_iff. split; [exact (map_Cand_nodup _ HndA)|]. split; [exact Hl2|].
      intros x Hx Hx'. destruct (map_Cand_plain _ _ Hx) as (c & ->). exact (Hdisj c (proj1 (in_map_Cand _ _) Hx) (Hr'T c Hx')).
  Qed.
End Order.

Theorem mj_default_seats : forall fuel sub n r,
  NoDup (map fst sub) -> Forall cs_ok sub -> (1 <= n)%nat ->
  mj_default fuel sub n = inl r ->
  (forall x, In x r -> exists c, x = Cand c) /\
  (forall c d c' d', In (Cand c) r -> In (c, d) sub -> In (c', d') sub -> ~ In (Cand c') r -> mj_lex_lt d' d).
Proof.
  intros fuel sub n r Hnd Hok Hn Hr.
  destruct (mj_default_seated mj_lex_lt mj_lex_lt_0 mj_lex_lt_lift fuel sub n r Hnd Hok Hn Hr) as (H1 & _ & H2). split; assumption.
Qed.

Lemma mj_body_count rec sub medians n r :
  NoDup (map fst sub) -> (1 <= n)%nat -> aggregate FMedianLow sub = inl medians ->
  (forall T r', (n <= length (mj_round sub medians T))%nat -> rec (mj_round sub medians T) n = inl r' ->
     length r' = n /\ NoDup r') ->
  (forall A k r', (S k <= length (filter (fun cd : C * cscores => negb (cmem (fst cd) A)) sub))%nat ->
     rec (filter (fun cd : C * cscores => negb (cmem (fst cd) A)) sub) (S k) = inl r' ->
     length r' = S k /\ NoDup r' /\
     forall c, In (Cand c) r' -> In c (map fst (filter (fun cd : C * cscores => negb (cmem (fst cd) A)) sub))) ->
  mj_body rec sub medians n = inl r -> length r = Nat.min n (length sub) /\ NoDup r.
Proof.
  intros Hnd Hn Ea Hround Hrest. pose proof (aggregate_keys _ _ _ Ea) as Hkeys.
  assert (Hndm : NoDup (map fst medians)) by (rewrite Hkeys; exact Hnd).
  assert (Hlenm : length medians = length sub) by (rewrite <- (map_length fst medians), Hkeys; apply map_length).
  destruct (gnb_keys medians n Hn Hndm) as [(A & E & HndA & _ & HlenA & _)|(A & T & thr & k & E & Hts & Hlen & HkT)].
  { rewrite (mj_body_clean _ _ _ _ _ E). intros [= <-]. rewrite map_length, HlenA, Hlenm. split; [reflexivity|exact (map_Cand_nodup _ HndA)]. }
  rewrite (mj_body_tie _ _ _ _ _ _ _ E Hlen). destruct (tie_split_parts _ _ _ _ Hts) as (HndA & _ & _ & Hbig).
  destruct (level_stays _ _ _ _ sub medians Hts Hkeys) as (_ & Hge1 & Hge2).
  destruct A as [|a A'].
  - intros Hr. cbn [length] in Hlen, Hbig.
    destruct (Hround T r ltac:(lia) Hr) as (Hl1 & Hl2). split; [lia|exact Hl2].
  - cbv iota. remember (a :: A') as A eqn:EA in *. clear a A' EA.
    set (sub' := filter (fun cd : C * cscores => negb (cmem (fst cd) A)) sub).
    destruct (rec sub' (S k)) as [r'|e] eqn:Er; [|discriminate]. intros [= <-].
    fold sub' in Hge2. destruct (Hrest A k r' ltac:(fold sub'; lia) Er) as (Hl1 & Hl2 & Hcands). fold sub' in Hcands. split.
    + rewrite app_length, map_length, Hl1. lia.
    + apply nodup_app_iff. split; [exact (map_Cand_nodup _ HndA)|]. split; [exact Hl2|].
      intros x Hx Hx'. destruct (map_Cand_plain _ _ Hx) as (c & ->). apply Hcands, in_keys in Hx'. destruct Hx' as (d & Hd).
      apply filter_out_in in Hd. exact (proj2 Hd (proj1 (in_map_Cand _ _) Hx)).
Qed.

Theorem mj_default_seats_count : forall fuel sub n r,
  NoDup (map fst sub) -> (1 <= n)%nat ->
  mj_default fuel sub n = inl r -> length r = Nat.min n (length sub) /\ NoDup r.
Proof.
  induction fuel as [|f IH]; intros sub n r Hnd Hn; [discriminate|]. rewrite mj_default_unfold.
  destruct (_ <=? 0)%Z; [discriminate|]. destruct (aggregate FMedianLow sub) as [medians|e] eqn:Ea; [|discriminate].
  apply (mj_body_count _ _ _ _ _ Hnd Hn Ea).
  - intros T r' Hle Hr. assert (Hnd' : NoDup (map fst (mj_round sub medians T))) by (rewrite mj_round_keys; apply nodup_keys_filter, Hnd).
    destruct (IH _ _ _ Hnd' Hn Hr) as (H1 & H2). split; [lia|exact H2].
  - intros A k r' Hle Hr. destruct (IH _ _ _ (nodup_keys_filter _ _ Hnd) (le_n_S _ _ (Nat.le_0_l k)) Hr) as (H1 & H2).
    split; [lia|]. split; [exact H2|]. intros c. exact (mj_default_cands _ _ _ _ c Hr).
Qed.

Theorem mj_default_seats_rule cf votes n sc r :
  (1 <= n)%nat -> corrected_scores cf votes = inl sc -> Forall cs_ok sc ->
  majority_judgment false cf votes n = inl r ->
  (forall x, In x r -> exists c, x = Cand c) /\ length r = Nat.min n (length sc) /\ NoDup r /\
  (forall c, In (Cand c) r -> In c (map fst sc)) /\
  (forall c d c' d', In (Cand c) r -> In (c, d) sc -> In (c', d') sc -> ~ In (Cand c') r -> mj_lex_lt d' d).
Proof.
  intros Hn Hsc Hok. pose proof (corrected_scores_nodup _ _ _ Hsc) as Hnd. rewrite majority_judgment_unfold, Hsc.
  destruct (aggregate FMedianLow sc) as [med|e] eqn:Ea; [|discriminate]. intros Hr.
  apply (mj_outer_seated mj_lex_lt mj_lex_lt_0 _ sc med n r Hnd Hn Ea) in Hr; [destruct Hr as ((H1 & H2 & H3) & H4 & H5); tauto|].
  intros T k r' Hk Er. cbv beta iota in Er.
  assert (Hnd' : NoDup (map fst (mj_level sc T))) by apply nodup_keys_filter, Hnd.
  split; [exact (mj_default_seated _ mj_lex_lt_0 mj_lex_lt_lift _ _ _ _ Hnd' (filter_ok _ _ Hok) (le_n_S _ _ (Nat.le_0_l k)) Er)|].
  destruct (mj_default_seats_count _ _ _ _ Hnd' (le_n_S _ _ (Nat.le_0_l k)) Er) as (Hl & Hn'). split; [lia|exact Hn'].
Qed.

Theorem mj_plus_seats_rule cf votes n sc med r :
  (1 <= n)%nat -> corrected_scores cf votes = inl sc -> aggregate FMedianLow sc = inl med ->
  majority_judgment true cf votes n = inl r ->
  length r = Nat.min n (length sc) /\
  forall c vc d c' vc' d', In (c, vc) med -> In (c, d) sc -> In (c', vc') med -> In (c', d') sc -> vc' == vc ->
    ~ In (Cand c') r ->
    (In (Cand c) r -> (counts_over d' vc < counts_over d vc)%Z) /\
    (forall T, In (TieR T) r -> In c T ->
       (counts_over d' vc <= counts_over d vc)%Z /\ (In c' T -> counts_over d' vc = counts_over d vc)).
Proof.
  intros Hn Hsc Ea. rewrite majority_judgment_unfold, Hsc, Ea.
  exact (mj_outer_plus sc med n r Hn (corrected_scores_nodup _ _ _ Hsc) Ea).
Qed.

(* the hypothesis Forall cs_ok as a boolean, to check it on the example *)
Definition cs_nonnegb (d : cscores) : bool := forallb (fun sn : Q * Z => (0 <=? snd sn)%Z) d.
Fixpoint cs_distinctb (d : cscores) : bool :=
  match d with
  | [] => true
  | sn :: t => forallb (fun sn' : Q * Z => negb (Qeq_bool (fst sn') (fst sn))) t && cs_distinctb t
  end.
Definition cs_okb (cd : C * cscores) : bool := cs_nonnegb (snd cd) && cs_distinctb (snd cd).

Lemma cs_distinctb_ok d : cs_distinctb d = true -> cs_distinct d.
Proof.
  induction d as [|sn t IH]; cbn [cs_distinctb cs_distinct]; [trivial|]. intros H. apply andb_true_iff in H. destruct H as (H1 & H2).
  split; [|apply IH, H2]. intros sn' Hin He. rewrite forallb_forall in H1. specialize (H1 _ Hin).
  apply negb_true_iff in H1. apply Qeq_bool_iff in He. congruence.
Qed.

Lemma cs_okb_ok sub : forallb cs_okb sub = true -> Forall cs_ok sub.
Proof.
  intros H. rewrite forallb_forall in H. apply Forall_forall. intros cd Hin. specialize (H _ Hin). unfold cs_okb in H.
  apply andb_true_iff in H. destruct H as (H1 & H2). split; [|apply cs_distinctb_ok, H2].
  unfold cs_nonneg. apply Forall_forall. intros sn Hsn. unfold cs_nonnegb in H1. rewrite forallb_forall in H1.
  specialize (H1 _ Hsn). lia.
Qed.

(* two seats, three candidates on the median 1 (grades A = 0,0,1,2,2  B = 0,1,1,1,1  C = 0,1,1,1,2): after one removal A is
   behind (0) and B, C (1) take the two seats *)
Definition ex_seats_cfg : score_cfg :=
  {| sc_fn := FMedianLow; sc_unscored := UNone; sc_min_count := 0%Z; sc_trunc := 0%Q; sc_bottom := 0%Q |}.
Definition ex_seats_votes : sprofile :=
  let b (x y z : Z) : sballot * Z := ([(1%positive, inject_Z x); (2%positive, inject_Z y); (3%positive, inject_Z z)], 1%Z) in
  [b 0 0 0; b 0 1 1; b 1 1 1; b 2 1 1; b 2 1 2]%Z.

Lemma mj_seats_example :
  majority_judgment false ex_seats_cfg ex_seats_votes 2 = inl [Cand 2%positive; Cand 3%positive] /\
  exists sc, corrected_scores ex_seats_cfg ex_seats_votes = inl sc /\ Forall cs_ok sc /\
    mj_seq 0 (dget_or sc 1%positive []) = Some 1 /\ mj_seq 0 (dget_or sc 2%positive []) = Some 1 /\
    mj_seq 1 (dget_or sc 1%positive []) = Some 0 /\ mj_seq 1 (dget_or sc 2%positive []) = Some 1.
Proof.
  split; [vm_compute; reflexivity|]. eexists. split; [vm_compute; reflexivity|]. split; [apply cs_okb_ok; vm_compute; reflexivity|].
  repeat split; vm_compute; reflexivity.
Qed.