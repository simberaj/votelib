(* Tie replacement (core.py TieBreaking._replace_sel_ties / _replace_distr_ties), the votes handed
   to the tiebreaker, and closed party lists: what the routines of Model/Wrappers.v compute. *)
From Coq Require Import ZArith List Bool Lia.
From VL Require Import Model.Wrappers.
Import ListNotations.
Open Scope Z_scope.

Lemma pos_list_eqb_eq : forall a b, pos_list_eqb a b = true <-> a = b.
Proof.
  induction a as [|x a IH]; destruct b as [|y b]; simpl; split; intro H; try reflexivity; try discriminate H.
  - apply andb_true_iff in H. destruct H as [H1 H2]. apply Pos.eqb_eq in H1. apply IH in H2. subst. reflexivity.
  - inversion H; subst. rewrite Pos.eqb_refl. simpl. apply IH. reflexivity.
Qed.
Lemma key_eqb_eq : forall a b, key_eqb a b = true <-> a = b.
Proof.
  intros [x|x] [y|y]; simpl; rewrite ?Pos.eqb_eq, ?pos_list_eqb_eq; split; intro H; try discriminate H; congruence.
Qed.
Lemma key_eqb_refl : forall a, key_eqb a a = true.
Proof. intro a. apply key_eqb_eq. reflexivity. Qed.

Definition is_key (x : val) (t : key) : bool := match x with VKey k => key_eqb k t | _ => false end.

(* the declarative rule: the i-th occurrence of the tie becomes the i-th choice; nothing else changes *)
Fixpoint subst_occ (l : list val) (t : key) (repl : list val) : list val :=
  match l with
  | [] => []
  | x :: r => if is_key x t
              then match repl with c :: rest => c :: subst_occ r t rest | [] => x :: r end
              else x :: subst_occ r t repl
  end.
Definition count_tie (l : list val) (t : key) : nat := length (filter (fun x => is_key x t) l).

Lemma subst_occ_nil : forall l t, subst_occ l t [] = l.
Proof. induction l as [|x r IH]; intro t; simpl; [reflexivity|]. destruct (is_key x t); [reflexivity|]. rewrite IH. reflexivity. Qed.

Lemma replace_first_spec : forall l t c,
  replace_first l t c = match count_tie l t with O => None | S _ => Some (subst_occ l t [c]) end.
Proof.
  induction l as [|x r IH]; intros t c; [reflexivity|].
  unfold count_tie in *. simpl.
  destruct x as [| |k| | |]; simpl; try (rewrite IH; destruct (length _); reflexivity).
  destruct (key_eqb k t); simpl.
  - rewrite subst_occ_nil. reflexivity.
  - rewrite IH. destruct (length _); reflexivity.
Qed.


Lemma subst_occ_step : forall l t c rest, is_key c t = false ->
  subst_occ (subst_occ l t [c]) t rest = subst_occ l t (c :: rest).
Proof.
  induction l as [|x r IH]; intros t c rest Hc; [reflexivity|]. simpl.
  destruct (is_key x t) eqn:Hx; simpl.
  - rewrite Hc. rewrite subst_occ_nil. reflexivity.
  - rewrite Hx. rewrite IH by exact Hc. reflexivity.
Qed.

Lemma count_after_one : forall l t c, is_key c t = false ->
  count_tie (subst_occ l t [c]) t = pred (count_tie l t).
Proof.
  unfold count_tie. induction l as [|x r IH]; intros t c Hc; [reflexivity|]. simpl.
  destruct (is_key x t) eqn:Hx; simpl.
  - rewrite Hc. rewrite subst_occ_nil. reflexivity.
  - rewrite Hx. apply IH. exact Hc.
Qed.

(* _replace_sel_ties computes the declarative rule, and raises ValueError exactly when the
   tiebreaker answers with more candidates than there are tied places *)
Lemma replace_sel_spec : forall repl l t,
  (forall c, In c repl -> is_key c t = false) ->
  replace_sel l t repl =
  if Nat.leb (length repl) (count_tie l t) then Ok (subst_occ l t repl) else raise E_VALUE.
Proof.
  induction repl as [|c rest IH]; intros l t Hr.
  - simpl. rewrite subst_occ_nil. reflexivity.
  - assert (Hc : is_key c t = false) by (apply Hr; left; reflexivity).
    cbn [replace_sel length]. rewrite replace_first_spec.
    destruct (count_tie l t) eqn:Hn; [reflexivity|].
    rewrite IH by (intros x Hx; apply Hr; right; exact Hx).
    rewrite count_after_one by exact Hc. rewrite Hn. simpl.
    destruct (Nat.leb (length rest) n); [|reflexivity].
    rewrite subst_occ_step by exact Hc. reflexivity.
Qed.

Lemma subst_occ_length : forall l t repl, length (subst_occ l t repl) = length l.
Proof.
  induction l as [|x r IH]; intros t repl; [reflexivity|]. simpl.
  destruct (is_key x t); [destruct repl; simpl; [reflexivity|rewrite IH; reflexivity]|simpl; rewrite IH; reflexivity].
Qed.

(* everything that is not the tie stays where it was *)
Lemma subst_occ_others : forall l t repl i x,
  nth_error l i = Some x -> is_key x t = false -> nth_error (subst_occ l t repl) i = Some x.
Proof.
  induction l as [|y r IH]; intros t repl i x Hi Hx; [destruct i; discriminate Hi|].
  simpl. destruct i as [|i]; simpl in Hi.
  - inversion Hi; subst y. rewrite Hx. reflexivity.
  - destruct (is_key y t); [destruct repl; simpl; [exact Hi|apply IH; assumption]|simpl; apply IH; assumption].
Qed.

(* every place of the tie receives a choice of the tiebreaker (or keeps the tie when the answer is short) *)
Definition placed (l out : list val) (t : key) : list val :=
  flat_map (fun xy => if is_key (fst xy) t then [snd xy] else []) (combine l out).
Lemma subst_occ_placed : forall l t repl, (length repl <= count_tie l t)%nat ->
  placed l (subst_occ l t repl) t = repl ++ repeat (VKey t) (count_tie l t - length repl).
Proof.
  unfold placed, count_tie. induction l as [|x r IH]; intros t repl Hle.
  - simpl in *. destruct repl; [reflexivity|simpl in Hle; lia].
  - simpl. destruct (is_key x t) eqn:Hx; simpl.
    + destruct repl as [|c rest]; simpl.
      * rewrite Hx. simpl. f_equal.
        { destruct x as [| |k| | |]; try discriminate Hx. simpl in Hx. apply key_eqb_eq in Hx. subst. reflexivity. }
        specialize (IH t [] (Nat.le_0_l _)). rewrite subst_occ_nil in IH. simpl in IH. rewrite Nat.sub_0_r in IH. exact IH.
      * rewrite Hx. simpl. f_equal. apply IH. simpl in Hle. rewrite Hx in Hle. simpl in Hle. lia.
    + rewrite Hx. simpl. apply IH. simpl in Hle. rewrite Hx in Hle. exact Hle.
Qed.

Definition seats (d : dict) (k : key) : Z := match dget d k with Some (VInt z) => z | _ => 0 end.
Definition count_key (repl : list val) (k : key) : Z :=
  Z.of_nat (length (filter (fun x => is_key x k) repl)).
Definition int_valued (d : dict) : Prop := Forall (fun kv : key * val => exists z, snd kv = VInt z) d.

Lemma dget_dset : forall d k v k', dget (dset d k v) k' = if key_eqb k k' then Some v else dget d k'.
Proof.
  induction d as [|[k0 v0] d IH]; intros k v k'; simpl.
  - destruct (key_eqb k k'); reflexivity.
  - destruct (key_eqb k0 k) eqn:H0; simpl.
    + apply key_eqb_eq in H0. subst k0. destruct (key_eqb k k'); reflexivity.
    + rewrite IH. destruct (key_eqb k0 k') eqn:H1; [|reflexivity].
      apply key_eqb_eq in H1. subst k'. destruct (key_eqb k k0) eqn:H2; [|reflexivity].
      apply key_eqb_eq in H2. subst k0. rewrite key_eqb_refl in H0. discriminate H0.
Qed.
Lemma dget_ddel_other : forall d t k, key_eqb t k = false -> dget (ddel d t) k = dget d k.
Proof.
  induction d as [|[k0 v0] d IH]; intros t k Ht; simpl; [reflexivity|].
  destruct (key_eqb k0 t) eqn:H0; simpl.
  - apply key_eqb_eq in H0. subst k0. rewrite Ht. reflexivity.
  - rewrite IH by exact Ht. reflexivity.
Qed.
Lemma int_valued_dget : forall d k v, int_valued d -> dget d k = Some v -> exists z, v = VInt z.
Proof.
  induction d as [|[k0 v0] d IH]; intros k v H Hg; simpl in Hg; [discriminate Hg|].
  inversion H as [|? ? Hh Ht]; subst.
  destruct (key_eqb k0 k); [inversion Hg; subst; exact Hh|eapply IH; eauto].
Qed.
Lemma int_valued_dset : forall d k z, int_valued d -> int_valued (dset d k (VInt z)).
Proof.
  induction d as [|[k0 v0] d IH]; intros k z H; simpl.
  - constructor; [exists z; reflexivity|constructor].
  - inversion H as [|? ? Hh Ht]; subst. destruct (key_eqb k0 k).
    + constructor; [exists z; reflexivity|exact Ht].
    + constructor; [exact Hh|apply IH; exact Ht].
Qed.
Lemma int_valued_ddel : forall d t, int_valued d -> int_valued (ddel d t).
Proof.
  induction d as [|[k0 v0] d IH]; intros t H; simpl; [constructor|].
  inversion H as [|? ? Hh Ht]; subst. destruct (key_eqb k0 t); [exact Ht|constructor; [exact Hh|apply IH; exact Ht]].
Qed.

Definition add_one (acc : res dict) (c : val) : res dict :=
  acc >>= fun d =>
  match c with
  | VKey k => add_val (dget_or d k (VInt 0)) (VInt 1) >>= fun s => Ok (dset d k s)
  | VList _ | VDict _ => raise E_TYPE
  | _ => raise E_UNMODELLED
  end.

Lemma add_choices_spec : forall repl d, int_valued d -> (forall c, In c repl -> exists k, c = VKey k) ->
  exists out, fold_left add_one repl (Ok d) = Ok out /\ int_valued out /\
              forall k, seats out k = seats d k + count_key repl k.
Proof.
  induction repl as [|c rest IH]; intros d Hd Hr.
  - exists d. split; [reflexivity|]. split; [exact Hd|]. intro k. unfold count_key. simpl. lia.
  - destruct (Hr c (or_introl eq_refl)) as [kc Hc]. subst c.
    assert (Hz : exists z, dget_or d kc (VInt 0) = VInt z).
    { unfold dget_or. destruct (dget d kc) as [v|] eqn:Hg; [eapply int_valued_dget; eauto|exists 0; reflexivity]. }
    destruct Hz as [z Hz]. cbn [fold_left add_one rbind]. rewrite Hz. cbn [add_val rbind].
    destruct (IH (dset d kc (VInt (z + 1))) (int_valued_dset d kc (z + 1) Hd)
                 (fun c Hc => Hr c (or_intror Hc))) as [out [H1 [H2 H3]]].
    exists out. split; [exact H1|]. split; [exact H2|]. intro k. rewrite H3.
    unfold seats at 1. rewrite dget_dset. unfold count_key. cbn [filter is_key].
    destruct (key_eqb kc k) eqn:Hk.
    + apply key_eqb_eq in Hk. subst k. cbv iota. cbn [length]. unfold seats. unfold dget_or in Hz.
      destruct (dget d kc) as [v|]; [subst v|inversion Hz; subst z]; lia.
    + cbv iota. unfold seats. reflexivity.
Qed.

(* _replace_distr_ties: the tie entry disappears, every choice of the tiebreaker gains one seat,
   every other candidate keeps its seats *)
Lemma replace_distr_spec : forall r t repl, int_valued r -> (forall c, In c repl -> exists k, c = VKey k) ->
  exists out, replace_distr r t repl = Ok out /\
              (forall k, key_eqb t k = false -> seats out k = seats r k + count_key repl k) /\
              (forall k, seats out k = seats (ddel r t) k + count_key repl k).
Proof.
  intros r t repl Hr Hc.
  destruct (add_choices_spec repl (ddel r t) (int_valued_ddel r t Hr) Hc) as [out [H1 [_ H3]]].
  exists out. split; [exact H1|]. split; [|exact H3].
  intros k Hk. rewrite H3. unfold seats. rewrite dget_ddel_other by exact Hk. reflexivity.
Qed.

Definition subset_step (subset : val) (acc : res dict) (kv : key * val) : res dict :=
  acc >>= fun a =>
  mem_subset subset (fst kv) >>= fun b =>
  if b then add_val (dget_or a (fst kv) (VInt 0)) (snd kv) >>= fun s => Ok (dset a (fst kv) s) else Ok a.

Lemma fold_err : forall {A B} (f : res A -> B -> res A) l e,
  (forall e' b, f (Err e') b = Err e') -> fold_left f l (Err e) = Err e.
Proof. intros A B f l. induction l as [|x t IH]; intros e H; simpl; [reflexivity|]. rewrite H. apply IH. exact H. Qed.

Lemma dset_keys : forall d k v k', In k' (map fst (dset d k v)) -> k' = k \/ In k' (map fst d).
Proof.
  induction d as [|[k0 v0] d IH]; intros k v k' H; simpl in *.
  - destruct H as [H|[]]; left; symmetry; exact H.
  - destruct (key_eqb k0 k) eqn:H0; simpl in H.
    + right. exact H.
    + destruct H as [H|H]; [right; left; exact H|]. destruct (IH k v k' H); [left; assumption|right; right; assumption].
Qed.

(* only tied candidates reach the tiebreaker *)
Lemma subset_keys_in_tie : forall votes t acc out,
  fold_left (subset_step (VKey (KT t))) votes (Ok acc) = Ok out ->
  (forall k, In k (map fst acc) -> exists c, k = KC c /\ In c t) ->
  forall k, In k (map fst out) -> exists c, k = KC c /\ In c t.
Proof.
  induction votes as [|[k0 v0] votes IH]; intros t acc out H Hacc k Hk.
  - simpl in H. inversion H; subst. apply Hacc. exact Hk.
  - cbn [fold_left] in H. unfold subset_step at 2 in H. cbn [rbind mem_subset fst snd] in H.
    destruct k0 as [c0|t0]; cbn [rbind] in H.
    + destruct (existsb (Pos.eqb c0) t) eqn:Hm.
      * destruct (add_val (dget_or acc (KC c0) (VInt 0)) v0) as [s|e] eqn:Ha; cbn [rbind] in H.
        -- eapply (IH t _ out H); [|exact Hk]. intros k' Hk'. apply dset_keys in Hk'. destruct Hk' as [Hk'|Hk'].
           ++ subst k'. exists c0. split; [reflexivity|]. apply existsb_exists in Hm. destruct Hm as [x [Hx Hx']].
              apply Pos.eqb_eq in Hx'. subst x. exact Hx.
           ++ apply Hacc. exact Hk'.
        -- rewrite fold_err in H; [discriminate H|]. intros e' b. reflexivity.
      * eapply (IH t acc out H); eauto.
    + eapply (IH t acc out H); eauto.
Qed.

Theorem tiebreaker_sees_only_tied : forall d t sub,
  subset_votes (VDict d) (VKey (KT t)) = Ok sub ->
  exists ds, sub = VDict ds /\ forall k, In k (map fst ds) -> exists c, k = KC c /\ In c t.
Proof.
  intros d t sub H. unfold subset_votes in H. cbn [as_dict rbind] in H.
  change (fold_left _ d (Ok [])) with (fold_left (subset_step (VKey (KT t))) d (Ok [])) in H.
  destruct (fold_left (subset_step (VKey (KT t))) d (Ok [])) as [ds|e] eqn:Hf; cbn [rbind] in H; [|discriminate H].
  inversion H; subst. exists ds. split; [reflexivity|].
  eapply subset_keys_in_tie; [exact Hf|]. intros k [].
Qed.

Lemma closed_list_spec : forall pl party n l,
  closed_list pl party (VInt n) = Ok l -> 0 <= n ->
  exists d ll, pl = VDict d /\ dget d party = Some (VList ll) /\ l = VList (firstn (Z.to_nat n) ll) /\
               length (firstn (Z.to_nat n) ll) = Nat.min (Z.to_nat n) (length ll).
Proof.
  intros pl party n l H Hn. unfold closed_list, subscript in H.
  destruct pl as [| | | |d|]; try discriminate H.
  destruct (dget d party) as [v|] eqn:Hg; [|discriminate H]. cbn [rbind] in H.
  destruct v as [| | |ll| |]; try discriminate H.
  unfold slice_to in H. destruct (0 <=? n) eqn:Hle; [|apply Z.leb_gt in Hle; lia].
  inversion H; subst. exists d, ll. split; [reflexivity|]. split; [exact Hg|]. split; [reflexivity|]. apply firstn_length.
Qed.
