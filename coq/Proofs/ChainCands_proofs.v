(* Chain additivity in general (Model/Convert2.v same_cands): every accumulating converter - also the four whose image reads the
   candidate set of the profile it is handed (positional scores, pairwise counts with unranked_at_bottom, ScoreToRankedVotes with
   an unscored value, InvertedApprovalVotes) - is the accumulating fold of a per-ballot image that is FIXED once that candidate set
   is fixed.  Hence a link is additive on two profiles over the same candidates, and a Chain is additive on two profiles when at
   every link the two intermediate profiles are over the same candidates ([same_cands c a b = true], a boolean):

     the composition lemma  [stages_additive]:  dsim x (add_dict a b) -> same_cands_stages ls a b = true ->
                                                dsim (stages ls x) (add_dict (stages ls a) (stages ls b))

   where [dsim] is equality of dictionaries as Python compares them (same key set, equal counts; insertion order ignored). *)
From Coq Require Import ZArith QArith List Bool Lia Lqa Permutation Sorted.
From VL Require Import Prelude.Sx Prelude.PyDict Prelude.GDict Model.GetNBest Model.Convert Model.Convert2
     Proofs.Convert_proofs Proofs.Convert2_proofs Proofs.JR_proofs Proofs.ApprovalOrder_proofs.
Import ListNotations.
Open Scope Q_scope.

(* dictionaries equal as Python dictionaries *)
Definition dsim (d d' : fdict) : Prop :=
  NoDup (keys d) /\ NoDup (keys d') /\ (forall k, In k (keys d) <-> In k (keys d')) /\ (forall k, value d k == value d' k).

Lemma dsim_refl d : NoDup (keys d) -> dsim d d.
Proof. intros H. repeat split; auto; reflexivity. Qed.

Lemma dsim_trans a b c : dsim a b -> dsim b c -> dsim a c.
Proof.
  intros (A1 & A2 & A3 & A4) (B1 & B2 & B3 & B4). repeat split; auto.
  - intros H. apply B3, A3, H.
  - intros H. apply A3, B3, H.
  - intros k. rewrite A4. apply B4.
Qed.

Lemma deq_dsim a b : deq a b -> NoDup (keys a) -> dsim a b.
Proof.
  intros H Ha. assert (E := deq_keys _ _ H). repeat split; auto.
  - rewrite <- E. exact Ha.
  - rewrite E. auto.
  - rewrite E. auto.
  - intros k. apply deq_value, H.
Qed.

Definition gdel (d : fdict) (k : sx) : fdict := filter (fun kv => negb (sx_eqb k (fst kv))) d.

Lemma keys_gdel d k k' : In k' (keys (gdel d k)) <-> In k' (keys d) /\ k' <> k.
Proof.
  unfold gdel, keys. induction d as [|[k0 v] d IH]; cbn [filter map fst]; [simpl; tauto|].
  destruct (sx_eqb k k0) eqn:E; cbn [negb map fst].
  - apply sx_eqb_eq in E. subst k0. rewrite IH. simpl. split.
    + intros [H1 H2]. split; [right; exact H1|exact H2].
    + intros [[H1|H1] H2]; [subst; contradiction|split; assumption].
  - simpl. rewrite IH. split.
    + intros [H|[H1 H2]]; [|split; [right; exact H1|exact H2]].
      subst k'. split; [left; reflexivity|]. intros ->. rewrite sx_eqb_refl in E. discriminate.
    + intros [[H1|H1] H2]; [left; exact H1|right; split; assumption].
Qed.

Lemma nodup_gdel d k : NoDup (keys d) -> NoDup (keys (gdel d k)).
Proof.
  unfold gdel, keys. induction d as [|[k0 v] d IH]; cbn [filter map fst]; intros H; [constructor|].
  inversion H as [|? ? Hn Hd]; subst. destruct (sx_eqb k k0); cbn [negb map fst]; [apply IH, Hd|].
  constructor; [|apply IH, Hd]. intros Hin. apply Hn.
  change (In k0 (keys (gdel d k))) in Hin. apply keys_gdel in Hin. apply Hin.
Qed.

Lemma value_gdel d k k' : value (gdel d k) k' == if sx_eqb k' k then 0 else value d k'.
Proof.
  unfold gdel. induction d as [|[k0 v] d IH]; cbn [filter gget fst].
  - destruct (sx_eqb k' k); reflexivity.
  - destruct (sx_eqb k k0) eqn:E; cbn [negb gget].
    + apply sx_eqb_eq in E. subst k0. destruct (sx_eqb k' k) eqn:E3; exact IH.
    + destruct (sx_eqb k' k0) eqn:E2; [|exact IH].
      apply sx_eqb_eq in E2. subst k0. rewrite sx_eqb_sym, E. reflexivity.
Qed.

Lemma gdel_notin d k : ~ In k (keys d) -> gdel d k = d.
Proof.
  unfold gdel. induction d as [|[k1 v1] d IHd]; cbn [filter fst keys map]; intros Hn; [reflexivity|].
  destruct (sx_eqb k k1) eqn:E1.
  - apply sx_eqb_eq in E1. subst. exfalso. apply Hn. left. reflexivity.
  - cbn [negb]. f_equal. apply IHd. intros Hi. apply Hn. right. exact Hi.
Qed.

Lemma wsum_cons X (k0 : sx) (v : Q) d : wsum X ((k0, v) :: d) = v * X k0 + wsum X d.
Proof. reflexivity. Qed.

Lemma wsum_gdel X d k : NoDup (keys d) -> wsum X d == value d k * X k + wsum X (gdel d k).
Proof.
  induction d as [|[k0 v] d IH]; intros H.
  - cbn. ring.
  - cbn [keys map fst] in H. inversion H as [|? ? Hn Hd]; subst. rewrite wsum_cons. unfold gdel. cbn [filter gget fst].
    destruct (sx_eqb k k0) eqn:E; cbn [negb].
    + apply sx_eqb_eq in E. subst k0. fold (gdel d k). rewrite (gdel_notin d k Hn). ring.
    + fold (gdel d k). rewrite wsum_cons, (IH Hd). ring.
Qed.

(* a weighted sum over a dictionary depends on the dictionary as a set of entries only *)
Lemma wsum_dsim X d : forall d', dsim d d' -> wsum X d == wsum X d'.
Proof.
  induction d as [|[k0 w0] d IH]; intros d' (H1 & H2 & H3 & H4).
  - destruct d' as [|[k1 w1] d']; [reflexivity|]. exfalso. apply (proj2 (H3 k1)). left. reflexivity.
  - cbn [wsum fold_right fst snd]. fold (wsum X d). cbn [keys map fst] in H1. inversion H1 as [|? ? Hn Hd]; subst.
    assert (E0 : value d' k0 == w0) by (rewrite <- (H4 k0); cbn [gget]; rewrite sx_eqb_refl; reflexivity).
    rewrite (wsum_gdel X d' k0 H2), E0.
    rewrite (IH (gdel d' k0)); [ring|]. repeat split.
    + exact Hd.
    + apply nodup_gdel, H2.
    + intros Hk. apply keys_gdel. split.
      * apply H3. right. exact Hk.
      * intros ->. exact (Hn Hk).
    + intros Hk. apply keys_gdel in Hk. destruct Hk as [Hk Hne]. apply H3 in Hk. destruct Hk as [Hk|Hk]; [|exact Hk].
      cbn [fst] in Hk. congruence.
    + intros k. rewrite value_gdel. assert (H4k := H4 k). cbn [gget] in H4k. destruct (sx_eqb k k0) eqn:E; [|exact H4k].
      apply sx_eqb_eq in E. subst k0. apply value_notin, Hn.
Qed.

Lemma keys_dconv {B} (image : B -> list (sx * Q)) votes k' :
  In k' (keys (dconv image votes)) <-> exists bw, In bw votes /\ In k' (keys (image (fst bw))).
Proof. apply (conv_keys sx_eqb sx_eqb_spec). Qed.

(* the keys of a converted profile: every key of every image of a ballot of the profile (also of the ballots counted 0 times) *)
Lemma keys_conv (g : kern) d k' : In k' (keys (dconv g d)) <-> exists key, In key (keys d) /\ In k' (keys (g key)).
Proof.
  rewrite keys_dconv. split.
  - intros ((key, w) & H1 & H2). exists key. split; [|exact H2]. apply (in_map fst) in H1. exact H1.
  - intros (key & H1 & H2). unfold keys in H1. apply in_map_iff in H1. destruct H1 as ((key', w) & E & H1).
    cbn [fst] in E. subst key'. exists (key, w). split; assumption.
Qed.

Lemma value_conv (g : kern) d k : value (dconv g d) k == wsum (fun key => coefx (g key) k) d.
Proof. unfold dconv. rewrite (conv_value sx_eqb sx_eqb_spec), total_wsum. reflexivity. Qed.

(* an accumulating converter gives equal dictionaries for equal dictionaries *)
Lemma conv_dsim (g : kern) d d' : dsim d d' -> dsim (dconv g d) (dconv g d').
Proof.
  intros H. assert (H' := H). destruct H' as (H1 & H2 & H3 & H4). repeat split; try apply nodup_conv.
  - rewrite !keys_conv. intros (key & K1 & K2). exists key. split; [apply H3, K1|exact K2].
  - rewrite !keys_conv. intros (key & K1 & K2). exists key. split; [apply H3, K1|exact K2].
  - intros k. rewrite !value_conv. apply wsum_dsim, H.
Qed.

Lemma keys_add_dict_In a b k : In k (keys (add_dict a b)) <-> In k (keys a) \/ In k (keys b).
Proof.
  unfold add_dict. revert a. induction b as [|[k0 x] b IH]; intros a; cbn [fold_left fst snd]; [simpl; tauto|].
  pose proof (gadd_keys sx_eqb sx_eqb_spec a k0 x k) as G. specialize (IH (gaddx a k0 x)).
  change (keys ((k0, x) :: b)) with (k0 :: keys b). unfold keys in *. simpl. split; intros H; intuition auto.
Qed.

(* the conversion of the union of two profiles is the union of the conversions, as dictionaries *)
Lemma conv_add_dict_dsim (g : kern) a b : NoDup (keys a) -> NoDup (keys b) ->
  dsim (dconv g (add_dict a b)) (add_dict (dconv g a) (dconv g b)).
Proof.
  intros Ha Hb. repeat split.
  - apply nodup_conv.
  - apply nodup_add_dict, nodup_conv.
  - rewrite keys_add_dict_In, !keys_conv. intros (key & K1 & K2). apply keys_add_dict_In in K1.
    destruct K1 as [K1|K1]; [left|right]; exists key; split; assumption.
  - rewrite keys_add_dict_In, !keys_conv. intros [(key & K1 & K2)|(key & K1 & K2)]; exists key; (split; [|exact K2]);
      apply keys_add_dict_In; [left|right]; exact K1.
  - intros k. rewrite conv_add_dict, value_add_dict, coef_value by apply nodup_conv. reflexivity.
Qed.

Lemma cands_of_keys_In {B} (dec : sx -> option B) (mem : B -> list C) ks c :
  In c (cands_of_keys dec mem ks) <-> exists k b, In k ks /\ dec k = Some b /\ In c (mem b).
Proof.
  unfold cands_of_keys. rewrite (proj2 (canon_set_spec _) c), in_flat_map. split.
  - intros (k & H1 & H2). destruct (dec k) as [b|] eqn:E; [|destruct H2]. exists k, b. repeat split; assumption.
  - intros (k & b & H1 & H2 & H3). exists k. split; [exact H1|]. rewrite H2. exact H3.
Qed.

Lemma canon_set_ext l l' : (forall x, In x l <-> In x l') -> canon_set l = canon_set l'.
Proof.
  intros H. apply sorted_lt_unique; [apply canon_set_sorted|apply canon_set_sorted|].
  intros x. rewrite (proj2 (canon_set_spec l) x), (proj2 (canon_set_spec l') x). apply H.
Qed.

Lemma cands_of_keys_ext {B} (dec : sx -> option B) (mem : B -> list C) ks ks' :
  (forall k, In k ks <-> In k ks') -> cands_of_keys dec mem ks = cands_of_keys dec mem ks'.
Proof.
  intros H. unfold cands_of_keys. apply canon_set_ext. intros c. rewrite !in_flat_map. split.
  - intros (k & H1 & H2). exists k. split; [apply H, H1|exact H2].
  - intros (k & H1 & H2). exists k. split; [apply H, H1|exact H2].
Qed.

(* the union of two key sets over the same candidates is over those candidates *)
Lemma cands_of_keys_union {B} (dec : sx -> option B) (mem : B -> list C) kx ka kb :
  (forall k, In k kx <-> In k ka \/ In k kb) -> cands_of_keys dec mem ka = cands_of_keys dec mem kb ->
  cands_of_keys dec mem kx = cands_of_keys dec mem ka.
Proof.
  intros H E. apply sorted_lt_unique; [apply canon_set_sorted|apply canon_set_sorted|].
  intros c. split.
  - intros Hc. apply cands_of_keys_In in Hc. destruct Hc as (k & b & H1 & H2 & H3). apply H in H1. destruct H1 as [H1|H1].
    + apply cands_of_keys_In. exists k, b. repeat split; assumption.
    + rewrite E. apply cands_of_keys_In. exists k, b. repeat split; assumption.
  - intros Hc. apply cands_of_keys_In in Hc. destruct Hc as (k & b & H1 & H2 & H3).
    apply cands_of_keys_In. exists k, b. repeat split; try assumption. apply H. left. exact H1.
Qed.

Lemma kind_cands_ext k ks ks' : (forall x, In x ks <-> In x ks') -> kind_cands k ks = kind_cands k ks'.
Proof. intros H. destruct k; cbn [kind_cands]; try reflexivity; apply cands_of_keys_ext, H. Qed.

Lemma kind_cands_union k kx ka kb :
  (forall x, In x kx <-> In x ka \/ In x kb) -> kind_cands k ka = kind_cands k kb -> kind_cands k kx = kind_cands k ka.
Proof. intros H. destruct k; cbn [kind_cands]; try reflexivity; apply cands_of_keys_union, H. Qed.

Lemma link_cands_ext l ks ks' : (forall x, In x ks <-> In x ks') -> link_cands l ks = link_cands l ks'.
Proof. destruct l; cbn [link_cands]; [apply kind_cands_ext|reflexivity]. Qed.

Lemma link_cands_union l kx ka kb :
  (forall x, In x kx <-> In x ka \/ In x kb) -> link_cands l ka = link_cands l kb -> link_cands l kx = link_cands l ka.
Proof. destruct l; cbn [link_cands]; [apply kind_cands_union|reflexivity]. Qed.

(* what the model computes from the decoded ballots is that candidate set *)
Lemma decode_flat {B} (dec : sx -> option B) (mem : B -> list C) d : forall v, decode_all dec d = Some v ->
  flat_map (fun bw : B * Q => mem (fst bw)) v = flat_map (fun k => match dec k with Some b => mem b | None => [] end) (keys d).
Proof.
  unfold decode_all. induction d as [|[k w] d IH]; intros v H; cbn [opt_map fst snd] in H.
  - injection H as <-. reflexivity.
  - destruct (dec k) as [b|] eqn:E; [|discriminate].
    destruct (opt_map _ d) as [t|] eqn:E2; [|discriminate]. injection H as <-.
    cbn [flat_map keys map fst]. rewrite E. f_equal. apply IH. reflexivity.
Qed.

Lemma decode_cands_ranked d v : decode_all key_ranked d = Some v -> cands_ranked v = cands_of_keys key_ranked flatten (keys d).
Proof. intros H. unfold cands_ranked, cands_of_keys. f_equal. exact (decode_flat key_ranked flatten d v H). Qed.
Lemma decode_cands_approval d v : decode_all key_approval d = Some v -> cands_approval v = cands_of_keys key_approval (fun b => b) (keys d).
Proof.
  intros H. unfold cands_approval, cands_of_keys. f_equal. exact (decode_flat key_approval (fun b => b) d v H).
Qed.
Lemma decode_cands_score d v : decode_all key_score d = Some v -> cands_score v = cands_of_keys key_score (map fst) (keys d).
Proof. intros H. unfold cands_score, cands_of_keys. f_equal. exact (decode_flat key_score (map fst) d v H). Qed.

(* every accumulating converter is the fold of an image fixed by the candidate set *)
Definition kind_kernel_at (k : ckind) (cs : list C) : kern :=
  match k with
  | KPositional sc => dec_kernel key_ranked (fun b => match img_positional sc (length cs) b with Some l => l | None => [] end)
  | KCondorcet bt => dec_kernel key_ranked (img_condorcet bt cs)
  | KScoreRanked un => dec_kernel key_score (img_score_ranked un cs)
  | KInvApproval => dec_kernel key_approval (img_inverted_approval cs)
  | k' => match kind_kernel k' with Some g => g | None => kid end
  end.

Lemma run_kind_at k d v : run_kind k d = COk v -> v = VF (dconv (kind_kernel_at k (kind_cands k (keys d))) d).
Proof.
  destruct (kind_kernel k) as [g|] eqn:Eg.
  - intros H. rewrite (run_kind_linear k g d v Eg H). destruct k; try discriminate; cbn [kind_kernel_at]; rewrite Eg; reflexivity.
  - destruct k; try discriminate; cbn [run_kind kind_kernel_at kind_cands].
    + unfold with_votes, ok_f. destruct (decode_all key_ranked d) as [vs|] eqn:E; [|discriminate].
      rewrite (decode_cands_ranked d vs E). unfold oconv. destruct (forallb _ vs); [|discriminate].
      intros H. injection H as <-. rewrite (conv_decode _ _ _ _ E). reflexivity.
    + intros H. destruct (with_votes_at _ (fun vs => img_condorcet _ (cands_ranked vs)) d v H) as (vs & E & ->).
      rewrite (decode_cands_ranked d vs E). reflexivity.
    + intros H. destruct (with_votes_at _ (fun vs => img_score_ranked _ (cands_score vs)) d v H) as (vs & E & ->).
      rewrite (decode_cands_score d vs E). reflexivity.
    + intros H. destruct (with_votes_at _ (fun vs => img_inverted_approval (cands_approval vs)) d v H) as (vs & E & ->).
      rewrite (decode_cands_approval d vs E). reflexivity.
Qed.

Definition link_kernel (l : link) (cs : list C) : kern := match l with LK k => kind_kernel_at k cs | LInv => kinv end.

(* one link, then a list of links, as accumulating folds *)
Definition stage (l : link) (d : fdict) : fdict := dconv (link_kernel l (link_cands l (keys d))) d.
Definition stages (ls : list link) (d : fdict) : fdict := fold_left (fun d l => stage l d) ls d.

Lemma run_link_stage l d v : NoDup (keys d) -> run_link l d = COk v -> exists out, v = VF out /\ deq out (stage l d).
Proof.
  destruct l as [k|]; cbn [run_link]; intros Hd H.
  - rewrite (run_kind_at k d v H). eexists. split; [reflexivity|apply deq_refl].
  - unfold ok_f in H. injection H as <-. eexists. split; [reflexivity|]. apply inv_simple_kernel, Hd.
Qed.

Lemma stage_deq l a b : deq a b -> deq (stage l a) (stage l b).
Proof. intros H. unfold stage. rewrite (deq_keys _ _ H). apply conv_deq, H. Qed.

Lemma stages_deq ls : forall a b, deq a b -> deq (stages ls a) (stages ls b).
Proof. induction ls as [|l ls IH]; intros a b H; cbn [stages fold_left]; [exact H|]. apply IH, stage_deq, H. Qed.

Lemma stages_app l1 l2 d : stages (l1 ++ l2) d = stages l2 (stages l1 d).
Proof. apply fold_left_app. Qed.

Lemma nodup_stage l d : NoDup (keys (stage l d)).
Proof. apply nodup_conv. Qed.

Lemma nodup_stages ls : forall d, NoDup (keys d) -> NoDup (keys (stages ls d)).
Proof. induction ls as [|l ls IH]; intros d H; cbn [stages fold_left]; [exact H|]. apply IH, nodup_stage. Qed.

Lemma links_chain_cons c l :
  links_of (KChain (c :: l)) = match links_of c, links_of (KChain l) with Some a, Some b => Some (a ++ b) | _, _ => None end.
Proof. reflexivity. Qed.

(* a Chain of accumulating converters and sign inversions computes, key by key, the sequence of its stages *)
Lemma chain_stages : forall c ls d v, links_of c = Some ls -> NoDup (keys d) -> run_code c (VF d) = COk v ->
  exists out, v = VF out /\ deq out (stages ls d).
Proof.
  induction c as [c Hc| |c l IHc IHl] using chain_ind; intros ls d v Hk Hd Hr.
  - destruct c as [k| | | | | | | | | | |l]; try discriminate; [| |exact (False_ind _ (Hc l eq_refl))].
    + cbn [links_of] in Hk. injection Hk as <-. exact (run_link_stage (LK k) d v Hd Hr).
    + cbn [links_of] in Hk. injection Hk as <-. exact (run_link_stage LInv d v Hd Hr).
  - cbn [links_of] in Hk. injection Hk as <-. rewrite run_chain_nil in Hr. injection Hr as <-.
    eexists; split; [reflexivity|apply deq_refl].
  - rewrite links_chain_cons in Hk.
    destruct (links_of c) as [la|] eqn:Ea; [|discriminate].
    destruct (links_of (KChain l)) as [lb|] eqn:Eb; [|discriminate]. injection Hk as <-.
    rewrite run_chain_cons in Hr. destruct (run_code c (VF d)) as [v1| |] eqn:E1; try discriminate. cbn [bind] in Hr.
    destruct (IHc la d v1 eq_refl Hd E1) as (mid & -> & Hmid).
    assert (NoDup (keys mid)) as Hnd by (rewrite (deq_keys _ _ Hmid); apply nodup_stages, Hd).
    destruct (IHl lb mid v eq_refl Hnd Hr) as (out & -> & Hout).
    eexists; split; [reflexivity|]. rewrite stages_app.
    apply (deq_trans _ _ _ Hout), stages_deq, Hmid.
Qed.

Lemma cs_eqb_eq a : forall b, cs_eqb a b = true -> a = b.
Proof.
  induction a as [|x a IH]; intros [|y b] H; cbn [cs_eqb] in H; try discriminate; [reflexivity|].
  apply andb_true_iff in H. destruct H as [H1 H2]. apply Pos.eqb_eq in H1. subst y. f_equal. apply IH, H2.
Qed.

(* the side condition [same_cands], stated on the stages *)
Fixpoint same_cands_stages (ls : list link) (a b : fdict) : Prop :=
  match ls with
  | [] => True
  | l :: t => link_cands l (keys a) = link_cands l (keys b) /\ same_cands_stages t (stage l a) (stage l b)
  end.

Lemma same_cands_stages_deq ls : forall a a' b b', deq a a' -> deq b b' ->
  same_cands_stages ls a b -> same_cands_stages ls a' b'.
Proof.
  induction ls as [|l ls IH]; intros a a' b b' Ha Hb H; cbn [same_cands_stages] in *; [exact I|].
  destruct H as [H1 H2]. rewrite <- (deq_keys _ _ Ha), <- (deq_keys _ _ Hb). split; [exact H1|].
  apply (IH (stage l a) _ (stage l b) _); [apply stage_deq, Ha|apply stage_deq, Hb|exact H2].
Qed.

Lemma same_cands_links_stages ls : forall a b, NoDup (keys a) -> NoDup (keys b) ->
  same_cands_links ls a b = true -> same_cands_stages ls a b.
Proof.
  induction ls as [|l ls IH]; intros a b Ha Hb H; cbn [same_cands_links same_cands_stages] in *; [exact I|].
  apply andb_true_iff in H. destruct H as [H1 H2]. apply cs_eqb_eq in H1. split; [exact H1|].
  destruct (run_link l a) as [[a'| | |]| |] eqn:Ra; try discriminate.
  destruct (run_link l b) as [[b'| | |]| |] eqn:Rb; try discriminate.
  destruct (run_link_stage l a _ Ha Ra) as (oa & Ea & Da). injection Ea as <-.
  destruct (run_link_stage l b _ Hb Rb) as (ob & Eb & Db). injection Eb as <-.
  apply (same_cands_stages_deq ls a' _ b' _ Da Db). apply IH; [| |exact H2].
  - rewrite (deq_keys _ _ Da). apply nodup_stage.
  - rewrite (deq_keys _ _ Db). apply nodup_stage.
Qed.

Lemma stage_additive l x a b : NoDup (keys a) -> NoDup (keys b) ->
  dsim x (add_dict a b) -> link_cands l (keys a) = link_cands l (keys b) ->
  dsim (stage l x) (add_dict (stage l a) (stage l b)).
Proof.
  intros Ha Hb Hx Hc. unfold stage.
  assert (Ex : link_cands l (keys x) = link_cands l (keys a)).
  { apply (link_cands_union l (keys x) (keys a) (keys b)); [|exact Hc].
    intros k. destruct Hx as (_ & _ & H3 & _). rewrite H3. apply keys_add_dict_In. }
  rewrite Ex, <- Hc.
  apply (dsim_trans _ (dconv (link_kernel l (link_cands l (keys a))) (add_dict a b))).
  - apply conv_dsim, Hx.
  - apply conv_add_dict_dsim; assumption.
Qed.

Theorem stages_additive ls : forall x a b, NoDup (keys a) -> NoDup (keys b) ->
  dsim x (add_dict a b) -> same_cands_stages ls a b ->
  dsim (stages ls x) (add_dict (stages ls a) (stages ls b)).
Proof.
  induction ls as [|l ls IH]; intros x a b Ha Hb Hx Hs; cbn [stages fold_left same_cands_stages] in *; [exact Hx|].
  destruct Hs as [H1 H2]. apply IH; [apply nodup_stage|apply nodup_stage| |exact H2].
  apply stage_additive; assumption.
Qed.

(* under the side condition the result for the union of two profiles is the union of the results, as Python dictionaries:
   no key lost, none invented, and the counts add up *)
Lemma chain_additive_dict c a b oa ob oab : NoDup (keys a) -> NoDup (keys b) -> same_cands c a b = true ->
  run_code c (VF a) = COk (VF oa) -> run_code c (VF b) = COk (VF ob) -> run_code c (VF (add_dict a b)) = COk (VF oab) ->
  (forall k, In k (keys oab) <-> In k (keys oa) \/ In k (keys ob)) /\ (forall k, value oab k == value oa k + value ob k).
Proof.
  intros Ha Hb Hs Ra Rb Rab. unfold same_cands in Hs. destruct (links_of c) as [ls|] eqn:El; [|discriminate].
  destruct (chain_stages c ls a _ El Ha Ra) as (xa & Ea & Da). injection Ea as <-.
  destruct (chain_stages c ls b _ El Hb Rb) as (xb & Eb & Db). injection Eb as <-.
  destruct (chain_stages c ls _ _ El (nodup_add_dict a b Ha) Rab) as (xab & Eab & Dab). injection Eab as <-.
  destruct (stages_additive ls (add_dict a b) a b Ha Hb (dsim_refl _ (nodup_add_dict a b Ha))
              (same_cands_links_stages ls a b Ha Hb Hs)) as (_ & _ & H3 & H4).
  split; intros k.
  - rewrite (deq_keys _ _ Dab), (deq_keys _ _ Da), (deq_keys _ _ Db), H3. apply keys_add_dict_In.
  - rewrite (deq_value _ _ k Dab), (deq_value _ _ k Da), (deq_value _ _ k Db), H4, value_add_dict, coef_value by (apply nodup_stages, Hb).
    reflexivity.
Qed.

Theorem chain_additive_same_cands c a b oa ob oab k : NoDup (keys a) -> NoDup (keys b) -> same_cands c a b = true ->
  run_code c (VF a) = COk (VF oa) -> run_code c (VF b) = COk (VF ob) -> run_code c (VF (add_dict a b)) = COk (VF oab) ->
  value oab k == value oa k + value ob k.
Proof. intros Ha Hb Hs Ra Rb Rab. apply (chain_additive_dict c a b oa ob oab Ha Hb Hs Ra Rb Rab). Qed.

Theorem chain_additive_keys c a b oa ob oab k : NoDup (keys a) -> NoDup (keys b) -> same_cands c a b = true ->
  run_code c (VF a) = COk (VF oa) -> run_code c (VF b) = COk (VF ob) -> run_code c (VF (add_dict a b)) = COk (VF oab) ->
  (In k (keys oab) <-> In k (keys oa) \/ In k (keys ob)).
Proof. intros Ha Hb Hs Ra Rb Rab. apply (chain_additive_dict c a b oa ob oab Ha Hb Hs Ra Rb Rab). Qed.

(* one profile-dependent converter on two profiles over the same candidates *)
Corollary kind_additive_same_cands k a b oa ob oab key : NoDup (keys a) -> NoDup (keys b) ->
  kind_cands k (keys a) = kind_cands k (keys b) ->
  run_kind k a = COk (VF oa) -> run_kind k b = COk (VF ob) -> run_kind k (add_dict a b) = COk (VF oab) ->
  value oab key == value oa key + value ob key.
Proof.
  intros Ha Hb Hc Ra Rb Rab.
  assert (Ea := run_kind_at k a _ Ra). assert (Eb := run_kind_at k b _ Rb). assert (Eab := run_kind_at k _ _ Rab).
  injection Ea as ->. injection Eb as ->. injection Eab as ->.
  destruct (stage_additive (LK k) (add_dict a b) a b Ha Hb (dsim_refl _ (nodup_add_dict a b Ha)) Hc) as (_ & _ & _ & H4).
  unfold stage in H4. cbn [link_kernel link_cands] in H4.
  rewrite H4, value_add_dict, coef_value by apply nodup_conv. reflexivity.
Qed.

(* the links that read nothing off the profile satisfy the side condition on all profiles: C13_chain_additive is a special case *)
Lemma kernels_links : forall c gs, kernels c = Some gs -> exists ls, links_of c = Some ls /\
  Forall (fun l => forall ks, link_cands l ks = []) ls.
Proof.
  induction c as [c Hc| |c l IHc IHl] using chain_ind; intros gs Hk.
  - destruct c as [k| | | | | | | | | | |l]; try discriminate; [| |exact (False_ind _ (Hc l eq_refl))].
    + exists [LK k]. split; [reflexivity|]. constructor; [|constructor]. intros ks.
      cbn [kernels] in Hk. destruct k; try discriminate; reflexivity.
    + exists [LInv]. split; [reflexivity|]. constructor; [|constructor]. reflexivity.
  - exists []. split; [reflexivity|constructor].
  - rewrite kernels_chain_cons in Hk. destruct (kernels c) as [ga|] eqn:Ea; [|discriminate].
    destruct (kernels (KChain l)) as [gb|] eqn:Eb; [|discriminate].
    destruct (IHc ga eq_refl) as (la & La & Fa). destruct (IHl gb eq_refl) as (lb & Lb & Fb).
    exists (la ++ lb). split; [rewrite links_chain_cons, La, Lb; reflexivity|]. apply Forall_app. split; assumption.
Qed.

(* the side condition cannot be dropped: the Borda count of a ballot depends on how many candidates the profile names *)
Lemma same_cands_needed :
  exists c a b oa ob oab k,
    NoDup (keys a) /\ NoDup (keys b) /\ same_cands c a b = false /\
    run_code c (VF a) = COk (VF oa) /\ run_code c (VF b) = COk (VF ob) /\ run_code c (VF (add_dict a b)) = COk (VF oab) /\
    ~ value oab k == value oa k + value ob k.
Proof.
  exists (KConv (KPositional (Borda 1))), [(L [A 1; A 2; A 3], 1)], [(L [A 1; A 2], 1)],
         [(A 1, 3); (A 2, 2); (A 3, 1)], [(A 1, 2); (A 2, 1)], [(A 1, 6); (A 2, 4); (A 3, 1)], (A 1).
  repeat split.
  - repeat constructor; simpl; tauto.
  - repeat constructor; simpl; tauto.
  - vm_compute. discriminate.
Qed.
