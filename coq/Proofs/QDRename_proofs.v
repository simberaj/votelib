(* C10, renaming: QuotaDistributor.evaluate (scan with caps, _subtract_overaward with and without Tie keys),
   LargestRemainder.evaluate and QuotaSelector commute with every injective renaming of the candidates - EXACT equality
   of the result dictionaries (candidate keys renamed, Tie keys renamed member by member, same seats, same errors).
   The model compares candidates with [ceqb] / [cmem] only; no order on candidates is consulted. *)
From Coq Require Import ZArith QArith List Bool Arith Lia.
From VL Require Import Prelude.PyDict Prelude.PyNum Model.GetNBest Model.Quota Model.QuotaDistributor
     Proofs.Dict_proofs Proofs.Order_proofs Proofs.HARename_proofs Proofs.Equivariant.
Import ListNotations.
Open Scope Z_scope.

Section QREN.
  Variable f : C -> C.
  Hypothesis f_inj : forall a b, f a = f b -> a = b.

  Definition rk (k : key) : key := match k with K c => K (f c) | KT l => KT (map f l) end.
  Definition rkv (kv : key * Z) : key * Z := (rk (fst kv), snd kv).
  Definition renkd (d : list (key * Z)) : list (key * Z) := map rkv d.
  Definition ren_qd (r : qd_result) : qd_result := match r with QD_ok sel => QD_ok (renkd sel) | x => x end.
  Definition ren_lr (r : lr_result) : lr_result :=
    match r with LR_ok sel => LR_ok (renkd sel) | LR_err e => LR_err (ren_qd e) | LR_index => LR_index end.
  Definition ren_qs (r : qsel_result) : qsel_result := match r with QS_ok l => QS_ok (map (ren_res f) l) | QS_vse => QS_vse end.

  Lemma renkd_app a b : renkd (a ++ b) = renkd a ++ renkd b.
  Proof. apply map_app. Qed.
  Lemma kmap_ren (d : list (C * Z)) :
    map (fun kv : C * Z => (K (fst kv), snd kv)) (renl f d) = renkd (map (fun kv : C * Z => (K (fst kv), snd kv)) d).
  Proof. unfold renl, renkd. rewrite !map_map. reflexivity. Qed.

  Lemma qsumv_ren votes : qsumv (renl f votes) = qsumv votes.
  Proof. unfold qsumv. rewrite (renl_vals f). reflexivity. Qed.
  Lemma zsumv_renl d : zsumv (renl f d) = zsumv d.
  Proof. unfold zsumv. rewrite (renl_vals f). reflexivity. Qed.

  Lemma scan_ren ae q prev caps votes : forall sel,
    scan ae (renl f votes) q (renl f prev) (renl f caps) (renl f sel) = renl f (scan ae votes q prev caps sel).
  Proof.
    induction votes as [|[c v] votes IH]; intros sel; [reflexivity|].
    change (renl f ((c, v) :: votes)) with ((f c, v) :: renl f votes).
    cbn [scan]. unfold cap_whole. rewrite !(dget_or_ren f f_inj), (dget_ren f f_inj).
    destruct (fulfills ae v q); [|apply IH].
    destruct (0 <? _); [|apply IH].
    rewrite (dset_ren f f_inj). apply IH.
  Qed.

  Lemma add_dict_ren d1 d2 : add_dict (renl f d1) (renl f d2) = renl f (add_dict d1 d2).
  Proof.
    unfold add_dict. unfold renl at 2.
    apply (fold_left_eqv (fun cv : C * Z => (f (fst cv), snd cv)) (renl f)).
    intros a x. cbn [fst snd]. rewrite (dget_or_ren f f_inj), (dset_ren f f_inj). reflexivity.
  Qed.

  Lemma dec_key_ren d c : dec_key (renl f d) (f c) = renl f (dec_key d c).
  Proof.
    induction d as [|[c' s] d IH]; [reflexivity|].
    change (renl f ((c', s) :: d)) with ((f c', s) :: renl f d). cbn [dec_key]. rewrite (ceqb_f f f_inj), IH.
    destruct (ceqb c c'); [destruct (s =? 1)|]; reflexivity.
  Qed.

  Lemma key_eqb_ren a b : key_eqb (rk a) (rk b) = key_eqb a b.
  Proof.
    destruct a as [x|x], b as [y|y]; cbn [rk key_eqb]; try reflexivity.
    - apply (ceqb_f f f_inj).
    - rewrite !(forallb_cmem_ren f f_inj). reflexivity.
  Qed.

  Lemma krem_ren votes q prev k s : krem (renl f votes) q (renl f prev) (rk k, s) = krem votes q prev (k, s).
  Proof. destruct k as [c|l]; unfold krem; cbn [rk fst snd]; [rewrite !(dget_or_ren f f_inj)|]; reflexivity. Qed.

  Lemma kdec_ren d k : kdec (renkd d) (rk k) = renkd (kdec d k).
  Proof.
    induction d as [|[k' s] d IH]; [reflexivity|].
    change (renkd ((k', s) :: d)) with ((rk k', s) :: renkd d). cbn [kdec]. rewrite key_eqb_ren, IH.
    destruct (key_eqb k k'); [destruct (s =? 1)|]; reflexivity.
  Qed.
  Lemma kmem_ren d k : kmem (renkd d) (rk k) = kmem d k.
  Proof. unfold kmem, renkd. apply existsb_map_eqv. intros [k' s]. unfold rkv. cbn [fst]. apply key_eqb_ren. Qed.
  Lemma all_plain_ren ks : all_plain (map rk ks) = option_map (map f) (all_plain ks).
  Proof.
    induction ks as [|[c|l] ks IH]; [reflexivity| |reflexivity].
    cbn [map rk all_plain]. rewrite IH. destruct (all_plain ks); reflexivity.
  Qed.
  Lemma kincr_ren d k : kincr (renkd d) (rk k) = renkd (kincr d k).
  Proof.
    induction d as [|[k' s] d IH]; [reflexivity|].
    change (renkd ((k', s) :: d)) with ((rk k', s) :: renkd d). cbn [kincr]. rewrite key_eqb_ren, IH.
    destruct (key_eqb k k'); reflexivity.
  Qed.

  Lemma krem_map_ren votes q prev sel :
    map (fun ks : key * Z => (fst ks, krem (renl f votes) q (renl f prev) ks)) (renkd sel)
    = renk rk (map (fun ks : key * Z => (fst ks, krem votes q prev ks)) sel).
  Proof.
    unfold renkd, renk. rewrite !map_map. apply map_ext. intros [k s]. unfold rkv. cbn [fst snd]. rewrite krem_ren. reflexivity.
  Qed.

  Lemma ksubtract_ren fuel : forall votes q prev sel over,
    ksubtract fuel (renl f votes) q (renl f prev) (renkd sel) over = ren_qd (ksubtract fuel votes q prev sel over).
  Proof.
    induction fuel as [|fu IH]; intros votes q prev sel over.
    - cbn [ksubtract]. destruct (over <=? 0); reflexivity.
    - cbn [ksubtract]. destruct (over <=? 0); [reflexivity|]. cbv zeta.
      rewrite krem_map_ren, (get_n_best_rename Qle_bool rk).
      destruct (get_n_best Qle_bool _ 1) as [|[k|ks] r]; [reflexivity| |].
      + cbn [map ren_res]. rewrite kdec_ren. apply IH.
      + cbn [map ren_res]. rewrite all_plain_ren. destruct (all_plain ks) as [l|]; [|reflexivity]. cbn [option_map].
        change (KT (map f l)) with (rk (KT l)). rewrite kmem_ren. destruct (kmem sel (KT l)).
        * rewrite kdec_ren. apply IH.
        * assert (E : map K (map f l) = map rk (map K l)) by (rewrite !map_map; reflexivity).
          rewrite E, (fold_left_eqv rk renkd kdec kdec) by (intros a x; apply kdec_ren).
          rewrite map_length.
          change [(rk (KT l), Z.of_nat (length l) - 1)] with (renkd [(KT l, Z.of_nat (length l) - 1)]).
          rewrite <- renkd_app. apply IH.
  Qed.

  Lemma subtract_ren fuel : forall votes q prev sel over,
    subtract fuel (renl f votes) q (renl f prev) (renl f sel) over = ren_qd (subtract fuel votes q prev sel over).
  Proof.
    induction fuel as [|fu IH]; intros votes q prev sel over.
    - cbn [subtract]. destruct (over <=? 0); [|reflexivity]. cbn [ren_qd]. rewrite kmap_ren. reflexivity.
    - cbn [subtract]. destruct (over <=? 0); [cbn [ren_qd]; rewrite kmap_ren; reflexivity|]. cbv zeta.
      rewrite (map_renl_eqv f (fun cs : C * Z => let (c, s) := cs in (c, (- (dget_or votes c 0%Q - q * inject_Z (s + dget_or prev c 0)%Z))%Q)))
        by (intros [c s]; cbn [fst snd]; rewrite !(dget_or_ren f f_inj); reflexivity).
      rewrite get_n_best_renl.
      destruct (get_n_best Qle_bool _ 1) as [|[c|l] r]; [reflexivity| |].
      + cbn [map ren_res]. rewrite dec_key_ren. apply IH.
      + cbn [map ren_res]. rewrite (fold_left_eqv f (renl f) dec_key dec_key) by (intros a x; apply dec_key_ren).
        rewrite map_length, kmap_ren.
        change [(KT (map f l), Z.of_nat (length l) - 1)] with (renkd [(KT l, Z.of_nat (length l) - 1)]).
        rewrite <- renkd_app. destruct (over - 1 <=? 0); [reflexivity|]. apply ksubtract_ren.
  Qed.

  Section WITHQ.
    Variable quota : Q -> Z -> Q.
    Variable ae : bool.
    Variable pol : policy.

    Theorem qd_evaluate_ren votes n prev caps :
      qd_evaluate quota ae pol (renl f votes) n (renl f prev) (renl f caps) = ren_qd (qd_evaluate quota ae pol votes n prev caps).
    Proof.
      unfold qd_evaluate. rewrite qsumv_ren. cbv zeta. set (q := quota (qsumv votes) n).
      assert (Ex : existsb (fun cv : C * Q => fulfills ae (snd cv) q) (renl f votes) = existsb (fun cv : C * Q => fulfills ae (snd cv) q) votes)
        by (unfold renl; apply existsb_map_eqv; intros x; reflexivity).
      rewrite Ex. destruct (Qeq_bool q 0 && existsb _ votes); [reflexivity|].
      assert (Es : scan ae (renl f votes) q (renl f prev) (renl f caps) [] = renl f (scan ae votes q prev caps []))
        by exact (scan_ren ae q prev caps votes []).
      rewrite Es, !zsumv_renl.
      set (sel := scan ae votes q prev caps []).
      destruct (n <? zsumv sel + zsumv prev).
      - destruct pol; [cbn [ren_qd]; rewrite kmap_ren; reflexivity|reflexivity|apply subtract_ren].
      - cbn [ren_qd]. rewrite kmap_ren. reflexivity.
    Qed.

    Theorem lr_evaluate_ren votes n prev caps :
      lr_evaluate quota ae pol (renl f votes) n (renl f prev) (renl f caps) = ren_lr (lr_evaluate quota ae pol votes n prev caps).
    Proof.
      unfold lr_evaluate.
      rewrite (qd_evaluate_ren votes n prev caps).
      destruct (qd_evaluate quota ae pol votes n prev caps) as [qe| | | | |]; try reflexivity.
      cbn [ren_qd].
      rewrite (existsb_map_eqv rkv (fun kv => match fst kv with KT _ => true | _ => false end)) by (intros [[c|l] s]; reflexivity).
      destruct (existsb _ qe); [reflexivity|].
      rewrite (flat_map_renl f rkv (fun kv => match fst kv with K c => [(c, snd kv)] | _ => [] end)) by (intros [[c|l] s]; reflexivity).
      rewrite qsumv_ren. cbv zeta. rewrite add_dict_ren, zsumv_renl.
      set (q := quota (qsumv votes) n). set (gained := add_dict _ prev).
      destruct (Qeq_bool q 0); [reflexivity|].
      change (renl f votes) with (map (fun cv : C * Q => (f (fst cv), snd cv)) votes).
      rewrite (flat_map_renl f _ (fun cv : C * Q => let (c, v) := cv in
                 match dget caps c with
                 | Some m => if dget_or gained c 0 <? m then [(c, (v / q - inject_Z (dget_or gained c 0%Z))%Q)] else []
                 | None => [(c, (v / q - inject_Z (dget_or gained c 0%Z))%Q)]
                 end))
        by (intros [c v]; cbn [fst snd]; rewrite (dget_ren f f_inj), !(dget_or_ren f f_inj);
            destruct (dget caps c) as [m|]; [destruct (dget_or gained c 0 <? m)|]; reflexivity).
      destruct (n - zsumv gained <=? 0); [reflexivity|].
      rewrite get_n_best_renl. cbn [ren_lr]. apply f_equal.
      apply (fold_left_eqv (ren_res f) renkd). intros a [c|l]; cbn [ren_res].
      - apply (kincr_ren a (K c)).
      - apply (kincr_ren a (KT l)).
    Qed.
  End WITHQ.

  Theorem qsel_evaluate_ren quota ae select votes n :
    qsel_evaluate quota ae select (renl f votes) n = ren_qs (qsel_evaluate quota ae select votes n).
  Proof.
    unfold qsel_evaluate. rewrite qsumv_ren. cbv zeta.
    rewrite (filter_renl f (fun cv => fulfills ae (snd cv) (quota (qsumv votes) n))), (renl_length f) by reflexivity.
    destruct ((n <? Z.of_nat (length _)) && negb select); [reflexivity|]. cbn [ren_qs]. rewrite get_n_best_renl. reflexivity.
  Qed.

  (* the per-candidate reading of a result dictionary commutes too *)
  Lemma kdget_ren d c : kdget (renkd d) (f c) = kdget d c.
  Proof.
    unfold kdget, renkd. apply fold_left_inv. intros a [[c'|l] s]; unfold rkv; cbn [fst snd rk]; [|reflexivity].
    rewrite (ceqb_f f f_inj). reflexivity.
  Qed.
End QREN.
