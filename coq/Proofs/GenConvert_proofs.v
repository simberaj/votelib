(* Lemmas about the primitives of Prelude/PyConv.v and about folds, shared by Props/GenTie_Convert.v and Props/GenTie_ConvertPairs.v.
   Nothing here is about generated code (no Gen.* import): loops are characterised through abstract step functions. *)
From Coq Require Import ZArith QArith List Bool Lia Arith Permutation.
From VL Require Import Prelude.Sx Prelude.PyDict Prelude.GDict Prelude.PyNum Prelude.PyList Prelude.PySeq Prelude.PyConv Model.GetNBest
     Model.Convert Model.Convert2 Proofs.Convert_proofs Proofs.Convert2_proofs Proofs.JR_proofs Proofs.ChainCands_proofs.
Import ListNotations.
Open Scope Q_scope.

(* the dictionary primitives respect deq *)
Lemma deq_dd_add a b k x y : deq a b -> x == y -> deq (py_dd_add a k x) (gadd sx_eqb b k y).
Proof.
  intros H Hxy. induction H as [|[k1 v1] [k2 v2] a b [H1 H2] Hab IH]; cbn [py_dd_add gadd fst snd] in *.
  - constructor; [split; [reflexivity|cbn [snd]; rewrite Hxy; apply Qplus_0_l]|constructor].
  - subst k2. destruct (sx_eqb k k1).
    + constructor; [split; [reflexivity|cbn [snd]; rewrite H2, Hxy; reflexivity]|assumption].
    + constructor; [split; [reflexivity|exact H2]|exact IH].
Qed.

(* d[k] = d.get(k, 0) + x is d[k] += x *)
Lemma set_get_dd_add a k x : py_dict_set a k (py_dict_get a k (inject_Z 0) + x) = py_dd_add a k x.
Proof.
  unfold py_dict_set. induction a as [|[k' v] a IH]; cbn [py_dict_get gset py_dd_add]; [reflexivity|].
  destruct (sx_eqb k k'); [reflexivity|]. rewrite IH. reflexivity.
Qed.

Lemma deq_set_get a b k x y : deq a b -> x == y ->
  deq (py_dict_set a k (py_dict_get a k (inject_Z 0) + x)) (gadd sx_eqb b k y).
Proof. rewrite set_get_dd_add. apply deq_dd_add. Qed.

(* a loop is the model's fold when one iteration is *)
Lemma deq_fold {X} (f g : fdict -> X -> fdict) (l : list X) :
  (forall a b x, deq a b -> deq (f a x) (g b x)) -> forall a b, deq a b -> deq (fold_left f l a) (fold_left g l b).
Proof. intros H. induction l as [|x l IH]; intros a b Hab; cbn [fold_left]; [exact Hab|]. apply IH, H, Hab. Qed.

Lemma fold_left_map' {X Y Z} (f : Z -> Y -> Z) (g : X -> Y) (l : list X) : forall a,
  fold_left f (map g l) a = fold_left (fun a x => f a (g x)) l a.
Proof. induction l as [|x l IH]; intros a; cbn [map fold_left]; [reflexivity|apply IH]. Qed.

(* the model's inner step: output[key] += coefficient * weight *)
Definition madd (w : Q) (acc : fdict) (kc : sx * Q) : fdict := gadd sx_eqb acc (fst kc) (snd kc * w).

(* a loop `for x in l: output[key x] += val x` is the model's inner fold over the image [(key x, coefficient x)] *)
Lemma inner_char {X} (key : X -> sx) (val coefn : X -> Q) (w : Q) (l : list X) :
  (forall x, In x l -> val x == coefn x * w) ->
  forall a b, deq a b ->
  deq (fold_left (fun acc x => py_dd_add acc (key x) (val x)) l a)
      (fold_left (madd w) (map (fun x => (key x, coefn x)) l) b).
Proof.
  induction l as [|x l IH]; intros H a b Hab; cbn [fold_left map]; [exact Hab|].
  apply IH; [intros y Hy; apply H; right; exact Hy|]. unfold madd at 1. cbn [fst snd].
  apply deq_dd_add; [exact Hab|apply H; left; reflexivity].
Qed.

(* a loop collecting the candidates of a ranking, whatever its body: pointwise it appends the members of the item *)
Lemma flatten_char (step : list C -> item -> list C) (r : ranked) :
  (forall vc it, step vc it = vc ++ members it) -> forall acc, fold_left step r acc = acc ++ flatten r.
Proof.
  intros H. induction r as [|i r IH]; intros acc; cbn [fold_left flatten flat_map]; [rewrite app_nil_r; reflexivity|].
  rewrite IH, H, <- app_assoc. reflexivity.
Qed.

Lemma dconv_unfold {B} (img : B -> list (sx * Q)) votes :
  dconv img votes = fold_left (fun acc bw => fold_left (madd (snd bw)) (img (fst bw)) acc) votes [].
Proof. reflexivity. Qed.

Lemma canon_set_nil_iff l : canon_set l = [] <-> l = [].
Proof.
  split; [|intros ->; reflexivity]. intros H. destruct l as [|x t]; [reflexivity|].
  destruct (canon_set_spec (x :: t)) as [_ S]. assert (I : In x (canon_set (x :: t))) by (apply S; left; reflexivity).
  rewrite H in I. destruct I.
Qed.

Lemma py_len_pos {X} (l : list X) : (0 <? py_len l)%Z = match l with [] => false | _ => true end.
Proof. destruct l; [reflexivity|]. unfold py_len. cbn [length]. apply Z.ltb_lt. lia. Qed.

(* images that are permutations of each other convert to the same dictionary (as Python compares dictionaries) *)
Lemma coef_perm (a b : list (sx * Q)) k : Permutation a b -> coefx a k == coefx b k.
Proof. exact (qsum_perm (fun kc => if sx_eqb k (fst kc) then snd kc else 0) a b). Qed.

Lemma dconv_perm_images {B} (img img' : B -> list (sx * Q)) (votes : list (B * Q)) :
  (forall b, Permutation (img b) (img' b)) -> dsim (dconv img votes) (dconv img' votes).
Proof.
  intros H. repeat split; try apply nodup_conv.
  - rewrite !keys_dconv. intros (bw & I1 & I2); exists bw; (split; [exact I1|]).
    unfold keys in *. apply (Permutation_in _ (Permutation_map fst (H (fst bw)))). exact I2.
  - rewrite !keys_dconv. intros (bw & I1 & I2); exists bw; (split; [exact I1|]).
    unfold keys in *. apply (Permutation_in _ (Permutation_sym (Permutation_map fst (H (fst bw))))). exact I2.
  - intros k. unfold dconv. rewrite !(conv_value sx_eqb sx_eqb_spec). unfold total.
    induction votes as [|[b w] votes IH]; cbn [fold_right fst snd]; [reflexivity|]. rewrite IH, (coef_perm _ _ k (H b)). reflexivity.
Qed.

Lemma flat_map_app_perm {X Y} (f g : X -> list Y) (l : list X) :
  Permutation (flat_map (fun x => f x ++ g x) l) (flat_map f l ++ flat_map g l).
Proof.
  induction l as [|x l IH]; cbn [flat_map app]; [constructor|].
  rewrite <- !app_assoc. apply Permutation_app_head. rewrite IH. rewrite !app_assoc. apply Permutation_app_tail, Permutation_app_comm.
Qed.
