(* Kemeny-Young (Model/Condorcet.v: permutations, kemeny_score, kemeny):
   - the enumeration lists exactly the permutations of the candidate list, each once;
   - kemeny = the first n places on which ALL score-maximising permutations agree, refusal (CR_nie) exactly
     when two of them differ within the first n places;
   - a Condorcet winner heads every maximising permutation (moving it to the front gains votes), so it is
     elected for one seat. *)
From Coq Require Import ZArith List Bool Arith Lia Permutation.
From VL Require Import Prelude.PyDict Model.GetNBest Model.Condorcet Proofs.Dict_proofs Proofs.Condorcet_proofs.
Import ListNotations.
Open Scope Z_scope.

Lemma insert_all_spec x l p : In p (insert_all x l) <-> exists l1 l2, l = l1 ++ l2 /\ p = l1 ++ x :: l2.
Proof.
  revert p. induction l as [|y t IH]; intros p; simpl.
  - split.
    + intros [<-|[]]. exists [], []. split; reflexivity.
    + intros (l1 & l2 & H & ->). destruct l1; [|discriminate]. destruct l2; [|discriminate]. left. reflexivity.
  - split.
    + intros [<-|H].
      * exists [], (y :: t). split; reflexivity.
      * apply in_map_iff in H. destruct H as (q & <- & Hq). apply IH in Hq. destruct Hq as (l1 & l2 & -> & ->).
        exists (y :: l1), l2. split; reflexivity.
    + intros (l1 & l2 & H & ->). destruct l1 as [|a l1]; simpl in *.
      * subst l2. left. reflexivity.
      * injection H as <- ->. right. apply in_map_iff. exists (l1 ++ x :: l2). split; [reflexivity|].
        apply IH. exists l1, l2. split; reflexivity.
Qed.

Lemma permutations_sound l : forall p, In p (permutations l) -> Permutation p l.
Proof.
  induction l as [|x t IH]; simpl; intros p H.
  - destruct H as [<-|[]]. constructor.
  - apply in_flat_map in H. destruct H as (q & Hq & Hp). apply insert_all_spec in Hp.
    destruct Hp as (l1 & l2 & -> & ->).
    apply Permutation_sym, Permutation_cons_app, Permutation_sym, IH, Hq.
Qed.

Lemma permutations_complete l : forall p, Permutation p l -> In p (permutations l).
Proof.
  induction l as [|x t IH]; simpl; intros p H.
  - apply Permutation_sym, Permutation_nil in H. left. symmetry. exact H.
  - assert (Hx : In x p) by (apply (Permutation_in x (Permutation_sym H)); left; reflexivity).
    apply in_split in Hx. destruct Hx as (l1 & l2 & ->).
    apply in_flat_map. exists (l1 ++ l2). split.
    + apply IH. apply Permutation_sym. apply (Permutation_cons_app_inv l1 l2 (a := x)). apply Permutation_sym. exact H.
    + apply insert_all_spec. exists l1, l2. split; reflexivity.
Qed.

Theorem permutations_spec l p : In p (permutations l) <-> Permutation p l.
Proof. split; [apply permutations_sound|apply permutations_complete]. Qed.

Lemma app_cons_unique (x : C) : forall l1 l2 m1 m2,
  ~ In x l1 -> ~ In x l2 -> ~ In x m1 -> ~ In x m2 ->
  l1 ++ x :: l2 = m1 ++ x :: m2 -> l1 = m1 /\ l2 = m2.
Proof.
  induction l1 as [|a l1 IH]; intros l2 m1 m2 H1 H2 H3 H4 E.
  - destruct m1 as [|b m1]; simpl in E.
    + injection E as ->. split; reflexivity.
    + injection E as -> _. exfalso. apply H3. left. reflexivity.
  - destruct m1 as [|b m1]; simpl in E.
    + injection E as -> _. exfalso. apply H1. left. reflexivity.
    + injection E as -> E. destruct (IH l2 m1 m2) as [-> ->]; try assumption.
      * intros H. apply H1. right. exact H.
      * intros H. apply H3. right. exact H.
      * split; reflexivity.
Qed.

Lemma insert_all_NoDup x l : ~ In x l -> NoDup (insert_all x l).
Proof.
  induction l as [|y t IH]; simpl; intros Hx.
  - constructor; [intros []|constructor].
  - constructor.
    + intros H. apply in_map_iff in H. destruct H as (q & Hq & _). injection Hq as Hq _. apply Hx. left. exact Hq.
    + apply FinFun.Injective_map_NoDup; [intros a b H; injection H as H; exact H|].
      apply IH. intros H. apply Hx. right. exact H.
Qed.

(* each permutation is listed once *)
Lemma permutations_NoDup l : NoDup l -> NoDup (permutations l).
Proof.
  induction l as [|x t IH]; simpl; intros Hn.
  - constructor; [intros []|constructor].
  - inversion Hn as [|? ? Hx Hn']; subst.
    assert (Hnot : forall q, In q (permutations t) -> ~ In x q).
    { intros q Hq H. apply Hx. apply (Permutation_in x (permutations_sound t q Hq)). exact H. }
    apply NoDup_flat_map.
    + apply IH, Hn'.
    + intros q Hq. apply insert_all_NoDup. apply Hnot, Hq.
    + intros q1 q2 p Hq1 Hq2 Hp1 Hp2.
      apply insert_all_spec in Hp1. destruct Hp1 as (l1 & l2 & -> & ->).
      apply insert_all_spec in Hp2. destruct Hp2 as (m1 & m2 & -> & E).
      pose proof (Hnot _ Hq1) as N1. pose proof (Hnot _ Hq2) as N2.
      rewrite in_app_iff in N1, N2.
      destruct (app_cons_unique x l1 l2 m1 m2) as [-> ->]; try tauto.
Qed.

Definition row (v : pvotes) (u : C) (t : list C) : Z := fold_left (fun acc l => acc + pget0 v (u, l)) t 0.

Lemma fold_add_shift {X} (f : X -> Z) (t : list X) : forall a,
  fold_left (fun acc l => acc + f l) t a = a + fold_left (fun acc l => acc + f l) t 0.
Proof.
  induction t as [|x t IH]; intros a; cbn [fold_left]; [lia|]. rewrite (IH (a + f x)), (IH (0 + f x)). lia.
Qed.

Lemma row_cons v u a t : row v u (a :: t) = pget0 v (u, a) + row v u t.
Proof. unfold row. simpl. rewrite fold_add_shift. lia. Qed.

Lemma row_app v u l1 l2 : row v u (l1 ++ l2) = row v u l1 + row v u l2.
Proof.
  induction l1 as [|a l1 IH]; simpl; [reflexivity|]. rewrite !row_cons, IH. lia.
Qed.

Lemma kemeny_score_cons v u t : kemeny_score v (u :: t) = row v u t + kemeny_score v t.
Proof. reflexivity. Qed.

(* what a ranking gains when c is moved to its front *)
Fixpoint gain (v : pvotes) (c : C) (l : list C) : Z :=
  match l with
  | [] => 0
  | x :: t => (pget0 v (c, x) - pget0 v (x, c)) + gain v c t
  end.

Lemma score_move_front v c l2 : forall l1,
  kemeny_score v (c :: l1 ++ l2) = kemeny_score v (l1 ++ c :: l2) + gain v c l1.
Proof.
  induction l1 as [|a l1 IH]; [simpl gain; simpl app; lia|].
  change ((a :: l1) ++ c :: l2) with (a :: (l1 ++ c :: l2)).
  change ((a :: l1) ++ l2) with (a :: (l1 ++ l2)).
  rewrite (kemeny_score_cons v a (l1 ++ c :: l2)), (kemeny_score_cons v c (a :: l1 ++ l2)), (kemeny_score_cons v a (l1 ++ l2)).
  rewrite kemeny_score_cons in IH.
  rewrite row_cons. rewrite (row_app v a l1 (c :: l2)), row_cons, (row_app v a l1 l2).
  cbn [gain]. lia.
Qed.

Lemma gain_pos v c l : l <> [] -> (forall x, In x l -> beats v c x) -> 0 < gain v c l.
Proof.
  intros Hne Hb.
  assert (H : 0 <= gain v c l /\ (l <> [] -> 0 < gain v c l)); [|apply H, Hne]. clear Hne.
  induction l as [|x t IH]; cbn [gain]; [split; [lia|congruence]|].
  assert (B : beats v c x) by (apply Hb; left; reflexivity). unfold beats in B.
  destruct IH as [IH _]; [intros y Hy; apply Hb; right; exact Hy|]. split; [|intros _]; lia.
Qed.

Lemma row_nonneg v u t : (forall p, 0 <= pget0 v p) -> 0 <= row v u t.
Proof. intros H. induction t as [|a t IH]; [unfold row; simpl; lia|]. rewrite row_cons. specialize (H (u, a)). lia. Qed.

Lemma kemeny_score_nonneg v p : (forall q, 0 <= pget0 v q) -> 0 <= kemeny_score v p.
Proof.
  intros H. induction p as [|u t IH]; [simpl; lia|]. rewrite kemeny_score_cons. pose proof (row_nonneg v u t H). lia.
Qed.

Lemma fold_max_ge (scored : list (list C * Z)) : forall b,
  let best := fold_left (fun b ps => Z.max b (snd ps)) scored b in
  b <= best /\ (forall ps, In ps scored -> snd ps <= best) /\
  (best = b \/ exists ps, In ps scored /\ snd ps = best).
Proof.
  induction scored as [|x t IH]; intros b; simpl.
  - split; [lia|]. split; [intros ps []|left; reflexivity].
  - destruct (IH (Z.max b (snd x))) as (H1 & H2 & H3). split; [lia|]. split.
    + intros ps [<-|H]; [lia|apply H2, H].
    + destruct H3 as [H3|(ps & Hin & Hps)].
      * destruct (Z.max_spec b (snd x)) as [[_ E]|[_ E]].
        -- right. exists x. split; [left; reflexivity|]. lia.
        -- left. lia.
      * right. exists ps. split; [right; exact Hin|exact Hps].
Qed.

Lemma filter_unique {X} (f : X -> bool) (l : list X) a :
  NoDup l -> In a l -> f a = true -> (forall b, In b l -> f b = true -> b = a) -> filter f l = [a].
Proof.
  induction l as [|x t IH]; simpl; intros Hn Hin Ha Hu; [destruct Hin|].
  inversion Hn as [|? ? Hx Hn']; subst. destruct Hin as [->|Hin].
  - rewrite Ha. f_equal. apply GetNBest_proofs.filter_none. apply Forall_forall. intros y Hy.
    destruct (f y) eqn:E; [|reflexivity]. exfalso. apply Hx. rewrite <- (Hu y (or_intror Hy) E). exact Hy.
  - destruct (f x) eqn:E.
    + exfalso. apply Hx. rewrite (Hu x (or_introl eq_refl) E). exact Hin.
    + apply IH; [exact Hn'|exact Hin|exact Ha|]. intros b Hb. apply Hu. right. exact Hb.
Qed.

Lemma clist_eqb_eq a b : clist_eqb a b = true <-> a = b.
Proof.
  revert b. induction a as [|x a IH]; intros [|y b]; simpl; try (split; [discriminate|congruence]); [tauto|].
  rewrite andb_true_iff, IH. unfold ceqb. rewrite Pos.eqb_eq. split; [intros [-> ->]; reflexivity|intros [= -> ->]; tauto].
Qed.

Section KEM.
  Variable v : pvotes.
  Notation cs := (candidates v).
  Notation score := (kemeny_score v).

  (* p is a ranking of all candidates with the greatest Kemeny score *)
  Definition kemeny_max (p : list C) : Prop :=
    Permutation p cs /\ forall q, Permutation q cs -> score q <= score p.

  Definition k_scored : list (list C * Z) := map (fun p => (p, score p)) (permutations cs).
  Definition k_best : Z := fold_left (fun b ps => Z.max b (snd ps)) k_scored 0.
  (* best_variants *)
  Definition k_list : list (list C * Z) := filter (fun ps : list C * Z => snd ps =? k_best) k_scored.

  Lemma kemeny_unfold n : kemeny v n =
    match map (fun ps : list C * Z => firstn n (fst ps)) k_list with
    | [] => CR_nie
    | pre :: rest => if forallb (clist_eqb pre) rest then CR_ok (map Cand pre) else CR_nie
    end.
  Proof. reflexivity. Qed.

  Lemma k_scored_in q : Permutation q cs -> In (q, score q) k_scored.
  Proof. intros Hq. unfold k_scored. apply in_map_iff. exists q. split; [reflexivity|]. apply permutations_complete, Hq. Qed.

  (* best_score: the greatest score of a ranking, or 0 (where the scan starts) if that is greater *)
  Lemma k_best_spec : 0 <= k_best /\ (forall q, Permutation q cs -> score q <= k_best) /\
    (k_best = 0 \/ exists p, Permutation p cs /\ score p = k_best).
  Proof.
    destruct (fold_max_ge k_scored 0) as (B0 & Bge & Bex). fold k_best in B0, Bge, Bex.
    split; [exact B0|]. split; [intros q Hq; exact (Bge _ (k_scored_in q Hq))|].
    destruct Bex as [E|(ps & Hps & E)]; [left; exact E|right].
    unfold k_scored in Hps. apply in_map_iff in Hps. destruct Hps as (p & <- & Hp).
    exists p. split; [apply permutations_sound, Hp|exact E].
  Qed.

  Lemma k_list_sound p s : In (p, s) k_list -> kemeny_max p /\ s = score p /\ 0 <= score p.
  Proof.
    intros H. apply filter_In in H. destruct H as [Hp Hs]. apply Z.eqb_eq in Hs. cbn [snd] in Hs.
    apply in_map_iff in Hp. destruct Hp as (p' & [= -> <-] & Hp).
    destruct k_best_spec as (B0 & Bge & _). split; [|split; [reflexivity|lia]]. split; [apply permutations_sound, Hp|].
    intros q Hq. specialize (Bge q Hq). lia.
  Qed.

  Lemma k_list_complete p : kemeny_max p -> 0 <= score p -> In (p, score p) k_list.
  Proof.
    intros [Hp Hge] H0. apply filter_In. split; [apply k_scored_in, Hp|]. apply Z.eqb_eq. cbn [snd].
    destruct k_best_spec as (_ & Bge & Bex). specialize (Bge p Hp).
    destruct Bex as [E|(q & Hq & E)]; [lia|]. specialize (Hge q Hq). lia.
  Qed.

  Lemma kemeny_max_score p q : kemeny_max p -> kemeny_max q -> score p = score q.
  Proof. intros [Hp Gp] [Hq Gq]. specialize (Gp q Hq). specialize (Gq p Hp). lia. Qed.

  (* defining computation: an answer is the first n places of a best ranking, and ALL best rankings agree on them *)
  Theorem kemeny_defining n r : kemeny v n = CR_ok r ->
    exists p, kemeny_max p /\ 0 <= score p /\ r = map Cand (firstn n p) /\
              forall q, kemeny_max q -> firstn n q = firstn n p.
  Proof.
    rewrite kemeny_unfold. destruct k_list as [|[p s] t] eqn:Eb; cbn [map fst]; [discriminate|].
    destruct (forallb _ _) eqn:Ef; [|discriminate]. intros [= <-].
    assert (Hp : In (p, s) k_list) by (rewrite Eb; left; reflexivity).
    apply k_list_sound in Hp. destruct Hp as (Hmax & _ & H0).
    exists p. split; [exact Hmax|]. split; [exact H0|]. split; [reflexivity|].
    intros q Hq. assert (Hin : In (q, score q) k_list).
    { apply k_list_complete; [exact Hq|]. rewrite (kemeny_max_score q p Hq Hmax). exact H0. }
    rewrite Eb in Hin. destruct Hin as [Hin|Hin]; [injection Hin as -> _; reflexivity|].
    rewrite forallb_forall in Ef. symmetry. apply clist_eqb_eq. apply Ef.
    apply in_map_iff. exists (q, score q). split; [reflexivity|exact Hin].
  Qed.

  (* conversely the evaluator answers whenever the best rankings (non-negative score: the scan starts from
     best_score = 0) agree on the first n places *)
  Theorem kemeny_complete n p : kemeny_max p -> 0 <= score p ->
    (forall q, kemeny_max q -> firstn n q = firstn n p) -> kemeny v n = CR_ok (map Cand (firstn n p)).
  Proof.
    intros Hmax H0 Hall. rewrite kemeny_unfold. pose proof (k_list_complete p Hmax H0) as Hin.
    assert (Hpre : forall q s, In (q, s) k_list -> firstn n q = firstn n p).
    { intros q s Hq. apply Hall. apply (k_list_sound q s Hq). }
    destruct k_list as [|[p0 s0] t]; [destruct Hin|]. cbn [map fst].
    rewrite (Hpre p0 s0 (or_introl eq_refl)).
    assert (Hf : forallb (clist_eqb (firstn n p)) (map (fun ps : list C * Z => firstn n (fst ps)) t) = true).
    { apply forallb_forall. intros x Hx. apply in_map_iff in Hx. destruct Hx as ([q s] & <- & Hq). simpl.
      apply clist_eqb_eq. symmetry. apply (Hpre q s). right. exact Hq. }
    rewrite Hf. reflexivity.
  Qed.

  Lemma kemeny_cases n : (exists p, kemeny_max p /\ kemeny v n = CR_ok (map Cand (firstn n p))) \/ kemeny v n = CR_nie.
  Proof.
    rewrite kemeny_unfold. destruct k_list as [|[p s] t] eqn:Eb; cbn [map fst]; [right; reflexivity|].
    destruct (forallb _ _); [left|right; reflexivity]. exists p. split; [|reflexivity].
    apply (k_list_sound p s). rewrite Eb. left. reflexivity.
  Qed.

  Lemma kemeny_max_exists : (forall q, 0 <= pget0 v q) -> exists p, kemeny_max p /\ 0 <= score p.
  Proof.
    intros Hnn. destruct k_best_spec as (_ & Bge & Bex).
    assert (Hp : exists p, Permutation p cs /\ k_best <= score p).
    { destruct Bex as [E|(p & Hp & E)]; [exists cs|exists p]; (split; [auto|]); [|lia].
      pose proof (kemeny_score_nonneg v cs Hnn). lia. }
    destruct Hp as (p & Hp & Hb). exists p. split; [|apply kemeny_score_nonneg, Hnn]. split; [exact Hp|].
    intros q Hq. specialize (Bge q Hq). lia.
  Qed.

  (* the refusal: exactly when two best rankings differ within the first n places *)
  Theorem kemeny_refuses_iff n : (forall q, 0 <= pget0 v q) ->
    (kemeny v n = CR_nie <-> exists p q, kemeny_max p /\ kemeny_max q /\ firstn n p <> firstn n q).
  Proof.
    intros Hnn. split.
    - rewrite kemeny_unfold. destruct k_list as [|[p s] t] eqn:Eb; cbn [map fst].
      + intros _. exfalso. destruct (kemeny_max_exists Hnn) as (p & Hp & H0).
        pose proof (k_list_complete p Hp H0) as Hin. rewrite Eb in Hin. destruct Hin.
      + destruct (forallb _ _) eqn:Ef; [discriminate|]. intros _.
        apply forallb_false in Ef. destruct Ef as (x & Hx & Hf). apply in_map_iff in Hx. destruct Hx as ([q s'] & <- & Hq).
        simpl in Hf. exists p, q. split; [apply (k_list_sound p s); rewrite Eb; left; reflexivity|].
        split; [apply (k_list_sound q s'); rewrite Eb; right; exact Hq|].
        intros E. apply clist_eqb_eq in E. congruence.
    - intros (p & q & Hp & Hq & Hne). destruct (kemeny_cases n) as [(p0 & _ & H)|H]; [exfalso|exact H].
      destruct (kemeny_defining n _ H) as (p1 & _ & _ & _ & Hall). apply Hne. rewrite (Hall p Hp), (Hall q Hq). reflexivity.
  Qed.

  (* nobody who beats everybody ranked before him stands behind the head of a best ranking: moving him to the front
     would gain votes *)
  Lemma kemeny_max_prefix l1 y l2 : kemeny_max (l1 ++ y :: l2) -> (forall x, In x l1 -> beats v y x) -> l1 = [].
  Proof.
    intros (Hp & Hge) Hb. destruct l1 as [|a l1]; [reflexivity|exfalso].
    assert (Hq : Permutation (y :: (a :: l1) ++ l2) cs).
    { apply Permutation_trans with (2 := Hp). apply Permutation_cons_app. apply Permutation_refl. }
    specialize (Hge _ Hq). rewrite score_move_front in Hge.
    assert (0 < gain v y (a :: l1)); [|lia].
    apply gain_pos; [discriminate|exact Hb].
  Qed.

  (* a Condorcet winner heads every best ranking *)
  Lemma cw_heads_max c p : is_cw v c -> kemeny_max p -> exists t, p = c :: t.
  Proof.
    intros [Hc Hall] Hmax. pose proof Hmax as (Hp & _).
    assert (Hnd : NoDup p) by (apply (Permutation_NoDup (Permutation_sym Hp)), candidates_NoDup).
    assert (Hcp : In c p) by (apply (Permutation_in c (Permutation_sym Hp)), Hc).
    apply in_split in Hcp. destruct Hcp as (l1 & l2 & ->). exists l2.
    rewrite (kemeny_max_prefix l1 c l2 Hmax); [reflexivity|]. intros x Hx. apply Hall.
    - apply (Permutation_in x Hp). apply in_or_app. left. exact Hx.
    - intros ->. apply NoDup_remove_2 in Hnd. apply Hnd. apply in_or_app. left. exact Hx.
  Qed.

  Theorem kemeny_elects_cw c : (forall q, 0 <= pget0 v q) -> is_cw v c -> kemeny v 1 = CR_ok [Cand c].
  Proof.
    intros Hnn Hcw. destruct (kemeny_max_exists Hnn) as (p & Hp & H0).
    destruct (cw_heads_max c p Hcw Hp) as (t & ->).
    rewrite (kemeny_complete 1 (c :: t) Hp H0); [reflexivity|].
    intros q Hq. destruct (cw_heads_max c q Hcw Hq) as (t' & ->). reflexivity.
  Qed.

  (* with as many seats as candidates the answer lists every candidate *)
  Theorem kemeny_nobody_dropped r x : kemeny v (length cs) = CR_ok r -> In x cs -> In (Cand x) r.
  Proof.
    intros H Hx. destruct (kemeny_defining _ _ H) as (p & (Hp & _) & _ & -> & _).
    rewrite <- (Permutation_length Hp), firstn_all. apply in_map. apply (Permutation_in x (Permutation_sym Hp)), Hx.
  Qed.
End KEM.
