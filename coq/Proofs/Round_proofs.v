(* RoundedVotes (Model/Convert2.v round_q): exact rounding of a rational count to d decimals under the eight rounding
   modes of the decimal module - error bounds, grid, fixed points / idempotence, tie rules, sign symmetry, monotonicity,
   compatibility with ==, non-additivity; the code path through one 28 digit division (round_code) agrees with it
   wherever that division is exact and differs from it elsewhere (double rounding). *)
From Coq Require Import ZArith QArith Qabs Qround Lqa Lia Bool List.
From VL Require Import Prelude.Sx Prelude.GDict Model.Convert2 Proofs.QOrd.
Import ListNotations.
Open Scope Q_scope.

Definition half_mode (m : rmode) : bool :=
  match m with RHalfUp | RHalfDown | RHalfEven => true | _ => false end.
(* rounding of the mirrored count *)
Definition mirror (m : rmode) : rmode :=
  match m with RCeiling => RFloor | RFloor => RCeiling | m => m end.

Lemma pow10_pos d : 0 < pow10 d.
Proof.
  unfold pow10. change 0 with (inject_Z 0). rewrite <- Zlt_Qlt. apply Z.pow_pos_nonneg; lia.
Qed.

Lemma inject_Z_succ k : inject_Z (k + 1) = inject_Z k + 1.
Proof. exact (inject_Z_plus k 1). Qed.

Lemma inject_Z_lt_succ a b : inject_Z a < inject_Z b + 1 <-> (a <= b)%Z.
Proof. rewrite <- inject_Z_succ, <- Zlt_Qlt. lia. Qed.

Lemma floor_rem a : 0 <= a - inject_Z (Qfloor a) /\ a - inject_Z (Qfloor a) < 1.
Proof.
  pose proof (Qfloor_le a) as H1. pose proof (Qlt_floor a) as H2. rewrite inject_Z_succ in H2. split; lra.
Qed.

Lemma floor_unique a k : inject_Z k <= a -> a < inject_Z k + 1 -> Qfloor a = k.
Proof.
  intros H1 H2. destruct (floor_rem a) as [H3 H4].
  apply Z.le_antisymm; apply inject_Z_lt_succ; lra.
Qed.

Lemma up_comp m neg lo r r' : r == r' -> up_rule m neg lo r = up_rule m neg lo r'.
Proof. intros H. destruct m; simpl; rewrite ?H; reflexivity. Qed.

Lemma up_zero m neg lo r : r == 0 -> up_rule m neg lo r = false.
Proof.
  intros H. rewrite (up_comp m neg lo r 0 H).
  destruct m; simpl; try reflexivity; destruct neg; try reflexivity; destruct (lo mod 5 =? 0)%Z; reflexivity.
Qed.

Lemma up_pos m neg lo r : up_rule m neg lo r = true -> 0 <= r -> 0 < r.
Proof.
  intros H H0. destruct (Qle_bool r 0) eqn:E.
  - apply Qle_bool_iff in E. rewrite up_zero in H; [discriminate|lra].
  - apply Qle_bool_false in E. exact E.
Qed.

Lemma up_half_true m neg lo r : half_mode m = true -> up_rule m neg lo r = true -> (1#2) <= r.
Proof.
  destruct m; try discriminate; intros _; simpl; intros H.
  - apply Qle_bool_iff in H. exact H.
  - apply negb_true_iff, Qle_bool_false in H. lra.
  - apply orb_true_iff in H. destruct H as [H|H].
    + apply negb_true_iff, Qle_bool_false in H. lra.
    + apply andb_true_iff in H. destruct H as [H _]. apply Qeq_bool_iff in H. lra.
Qed.

Lemma up_half_false m neg lo r : half_mode m = true -> up_rule m neg lo r = false -> r <= (1#2).
Proof.
  destruct m; try discriminate; intros _; simpl; intros H.
  - apply Qle_bool_false in H. lra.
  - apply negb_false_iff, Qle_bool_iff in H. exact H.
  - apply orb_false_iff in H. destruct H as [H _]. apply negb_false_iff, Qle_bool_iff in H. exact H.
Qed.

(* the five directed modes look only at whether anything is left over *)
Lemma up_dir_form m neg lo : half_mode m = false ->
  exists c, forall r, up_rule m neg lo r = negb (Qle_bool r 0) && c.
Proof.
  destruct m; try discriminate; intros _;
    [exists true|exists false|exists (negb neg)|exists neg|exists (lo mod 5 =? 0)%Z]; intros r; simpl;
    rewrite ?andb_true_r, ?andb_false_r; reflexivity.
Qed.

(* a larger fractional part (same integer part, same sign) never turns an upward step into a downward one *)
Lemma up_mono m neg lo r1 r2 : r1 <= r2 -> up_rule m neg lo r1 = true -> up_rule m neg lo r2 = true.
Proof.
  intros Hle. destruct (half_mode m) eqn:Hh.
  - destruct m; try discriminate; simpl; intros H.
    + apply Qle_bool_iff in H. apply Qle_bool_iff. lra.
    + apply negb_true_iff, Qle_bool_false in H. apply negb_true_iff, Qle_bool_false. lra.
    + apply orb_true_iff in H. destruct H as [H|H].
      * apply negb_true_iff, Qle_bool_false in H. apply orb_true_iff. left. apply negb_true_iff, Qle_bool_false. lra.
      * apply andb_true_iff in H. destruct H as [H Ho]. apply Qeq_bool_iff in H.
        destruct (Qle_bool r2 (1#2)) eqn:E; [|reflexivity].
        apply Qle_bool_iff in E. simpl. rewrite Ho, andb_true_r. apply Qeq_bool_iff. lra.
  - destruct (up_dir_form m neg lo Hh) as [c Hc]. rewrite !Hc, !andb_true_iff, !negb_true_iff, !Qle_bool_false.
    intros [H Hc1]. split; [lra|exact Hc1].
Qed.

Lemma up_mirror m lo r : up_rule m true lo r = up_rule (mirror m) false lo r.
Proof. destruct m; simpl; rewrite ?andb_true_r, ?andb_false_r; reflexivity. Qed.

Lemma mag_comp m neg a a' : a == a' -> round_mag m neg a = round_mag m neg a'.
Proof.
  intros H. unfold round_mag. rewrite (Qfloor_comp a a' H).
  rewrite (up_comp m neg (Qfloor a') (a - inject_Z (Qfloor a')) (a' - inject_Z (Qfloor a'))); [reflexivity|].
  rewrite H. reflexivity.
Qed.

Lemma mag_split m neg a :
  let n := round_mag m neg a in
  (n = Qfloor a /\ up_rule m neg (Qfloor a) (a - inject_Z (Qfloor a)) = false) \/
  (n = (Qfloor a + 1)%Z /\ up_rule m neg (Qfloor a) (a - inject_Z (Qfloor a)) = true).
Proof.
  unfold round_mag. destruct (up_rule m neg (Qfloor a) (a - inject_Z (Qfloor a))); [right|left]; split; (reflexivity || lia).
Qed.

Lemma mag_err m neg a :
  let e := inject_Z (round_mag m neg a) - a in
  (-1 < e /\ e < 1) /\ (half_mode m = true -> -(1#2) <= e /\ e <= (1#2)).
Proof.
  destruct (floor_rem a) as [R0 R1].
  destruct (mag_split m neg a) as [[Hn Hu]|[Hn Hu]]; cbv zeta; rewrite Hn.
  - split; [split; lra|]. intros Hh. pose proof (up_half_false _ _ _ _ Hh Hu). split; lra.
  - rewrite inject_Z_succ. pose proof (up_pos _ _ _ _ Hu R0) as Hp.
    split; [split; lra|]. intros Hh. pose proof (up_half_true _ _ _ _ Hh Hu). split; lra.
Qed.

Lemma mag_nonneg m neg a : 0 <= a -> (0 <= round_mag m neg a)%Z.
Proof.
  intros H. pose proof (Qfloor_resp_le 0 a H) as H2. change (Qfloor 0) with 0%Z in H2.
  destruct (mag_split m neg a) as [[Hn _]|[Hn _]]; cbv zeta in Hn; lia.
Qed.

Lemma mag_mono m neg a b : a <= b -> (round_mag m neg a <= round_mag m neg b)%Z.
Proof.
  intros H. pose proof (Qfloor_resp_le a b H) as Hf.
  destruct (mag_split m neg a) as [[Ha Hua]|[Ha Hua]], (mag_split m neg b) as [[Hb Hub]|[Hb Hub]];
    cbv zeta in Ha, Hb; try lia.
  destruct (Z.eq_dec (Qfloor a) (Qfloor b)) as [E|E]; [|lia].
  exfalso. rewrite E in Hua.
  assert (a - inject_Z (Qfloor b) <= b - inject_Z (Qfloor b)) as Hr by lra.
  rewrite (up_mono _ _ _ _ _ Hr Hua) in Hub. discriminate.
Qed.

(* on an integer magnitude nothing happens *)
Lemma mag_int m neg a k : a == inject_Z k -> round_mag m neg a = k.
Proof.
  intros H. rewrite (mag_comp m neg a (inject_Z k) H). unfold round_mag. rewrite Qfloor_Z.
  rewrite up_zero; [lia|ring].
Qed.

(* exactly half way between k and k + 1 *)
Lemma mag_tie m neg a k : a == inject_Z k + (1#2) ->
  round_mag m neg a = (k + if up_rule m neg k (1#2) then 1 else 0)%Z.
Proof.
  intros H. unfold round_mag.
  assert (Qfloor a = k) as -> by (apply floor_unique; lra).
  rewrite (up_comp m neg k (a - inject_Z k) (1#2)); [reflexivity|lra].
Qed.

Lemma mag_mirror m a : round_mag m true a = round_mag (mirror m) false a.
Proof. unfold round_mag. rewrite up_mirror. reflexivity. Qed.

(* the signed rounding of a scaled count: every property of round_at is one of rsig *)
Definition rsig (m : rmode) (t : Q) : Z :=
  if Qle_bool 0 t then round_mag m false t else (- round_mag m true (- t))%Z.

Lemma rsig_nonneg m t : 0 <= t -> rsig m t = round_mag m false t.
Proof. intros H. apply Qle_bool_iff in H. unfold rsig. rewrite H. reflexivity. Qed.

Lemma rsig_neg m t : t < 0 -> rsig m t = (- round_mag m true (- t))%Z.
Proof. intros H. apply Qle_bool_false in H. unfold rsig. rewrite H. reflexivity. Qed.

Lemma rsig_comp m t t' : t == t' -> rsig m t = rsig m t'.
Proof. intros H. unfold rsig. rewrite H, (mag_comp m false t t' H), (mag_comp m true (- t) (- t')); [reflexivity|]. rewrite H. reflexivity. Qed.

Lemma rsig_err m t :
  let e := inject_Z (rsig m t) - t in
  (-1 < e /\ e < 1) /\ (half_mode m = true -> -(1#2) <= e /\ e <= (1#2)).
Proof.
  unfold rsig. destruct (Qle_bool 0 t) eqn:E.
  - apply mag_err.
  - destruct (mag_err m true (- t)) as [[E1 E2] E3]. cbv zeta in *. rewrite inject_Z_opp. split; [split; lra|].
    intros Hh. destruct (E3 Hh). split; lra.
Qed.

Lemma rsig_mono m t t' : t <= t' -> (rsig m t <= rsig m t')%Z.
Proof.
  intros H. unfold rsig. destruct (Qle_bool 0 t) eqn:E, (Qle_bool 0 t') eqn:E'.
  - apply mag_mono, H.
  - apply Qle_bool_iff in E. apply Qle_bool_false in E'. lra.
  - apply Qle_bool_false in E. apply Qle_bool_iff in E'.
    assert (0 <= - t) as Ha by lra. pose proof (mag_nonneg m true _ Ha). pose proof (mag_nonneg m false _ E'). lia.
  - assert (- t' <= - t) as Ha by lra. pose proof (mag_mono m true _ _ Ha). lia.
Qed.

Lemma rsig_int m k : rsig m (inject_Z k) = k.
Proof.
  unfold rsig. destruct (Qle_bool 0 (inject_Z k)); [apply mag_int; reflexivity|].
  rewrite (mag_int m true _ (- k)); [lia|rewrite inject_Z_opp; reflexivity].
Qed.

(* rounding commutes with the sign, ceiling and floor trading places *)
Lemma rsig_opp m t : rsig m (- t) = (- rsig (mirror m) t)%Z.
Proof.
  destruct (Qlt_le_dec t 0) as [Ht|Ht]; [|destruct (Qlt_le_dec 0 t) as [Hp|Hp]].
  - rewrite rsig_nonneg, (rsig_neg (mirror m) t Ht), mag_mirror by lra. destruct m; simpl; lia.
  - rewrite rsig_neg, (rsig_nonneg (mirror m) t Ht), mag_mirror, (mag_comp _ _ (- - t) t) by lra. reflexivity.
  - rewrite (rsig_comp m (- t) (inject_Z 0)), (rsig_comp (mirror m) t (inject_Z 0)), !rsig_int by (change (inject_Z 0) with 0; lra).
    reflexivity.
Qed.

Section AT.
  Variable s : Q.
  Hypothesis s_pos : 0 < s.

  Lemma s_nz : ~ s == 0.
  Proof. lra. Qed.

  Lemma round_at_rsig m x : round_at m s x == inject_Z (rsig m (x * s)) / s.
  Proof.
    unfold round_at. destruct (Qle_bool 0 x) eqn:E; simpl.
    - apply Qle_bool_iff in E. rewrite rsig_nonneg by (apply Qmult_le_0_compat; lra).
      rewrite (mag_comp m false (Qabs x * s) (x * s)); [reflexivity|]. rewrite (Qabs_pos x E). reflexivity.
    - apply Qle_bool_false in E. rewrite rsig_neg by (setoid_replace 0 with (0 * s) by ring; apply Qmult_lt_compat_r; assumption).
      rewrite inject_Z_opp, (mag_comp m true (Qabs x * s) (- (x * s))); [reflexivity|]. rewrite (Qabs_neg x) by lra. ring.
  Qed.

  Lemma round_at_comp m x y : x == y -> round_at m s x == round_at m s y.
  Proof.
    intros H. unfold round_at.
    rewrite (Qleb_comp 0 0 (Qeq_refl 0) x y H), (mag_comp m _ (Qabs x * s) (Qabs y * s)); [reflexivity|]. rewrite H. reflexivity.
  Qed.

  (* the result is a multiple of 1 / s *)
  Lemma round_at_grid m x : exists n : Z, round_at m s x == inject_Z n / s.
  Proof. exists (rsig m (x * s)). apply round_at_rsig. Qed.

  (* the error, as a multiple of 1 / s *)
  Lemma round_at_diff m x : exists e,
    round_at m s x - x == e / s /\ (-1 < e /\ e < 1) /\ (half_mode m = true -> -(1#2) <= e /\ e <= (1#2)).
  Proof.
    exists (inject_Z (rsig m (x * s)) - x * s). split; [|apply rsig_err].
    rewrite round_at_rsig. field. exact s_nz.
  Qed.

  Lemma div_s_lt e b : e < b -> e / s < b / s.
  Proof.
    intros H. unfold Qdiv. apply Qmult_lt_compat_r; [apply Qinv_lt_0_compat; exact s_pos|exact H].
  Qed.
  Lemma div_s_le e b : e <= b -> e / s <= b / s.
  Proof.
    intros H. unfold Qdiv. apply Qmult_le_compat_r; [exact H|apply Qlt_le_weak, Qinv_lt_0_compat; exact s_pos].
  Qed.

  (* every mode: less than one unit of the last kept digit away *)
  Theorem round_at_error m x : Qabs (round_at m s x - x) < 1 / s.
  Proof.
    destruct (round_at_diff m x) as (e & He & [E1 E2] & _). rewrite He.
    apply Qabs_Qlt_condition. split.
    - setoid_replace (- (1 / s)) with ((-1) / s) by (field; exact s_nz). apply div_s_lt. exact E1.
    - apply div_s_lt. exact E2.
  Qed.

  (* the three half modes: at most half a unit away *)
  Theorem round_at_half_error m x : half_mode m = true -> Qabs (round_at m s x - x) <= (1#2) / s.
  Proof.
    intros Hh. destruct (round_at_diff m x) as (e & He & _ & E3). destruct (E3 Hh) as [E1 E2]. rewrite He.
    apply Qabs_Qle_condition. split.
    - setoid_replace (- ((1#2) / s)) with ((-(1#2)) / s) by (field; exact s_nz). apply div_s_le. exact E1.
    - apply div_s_le. exact E2.
  Qed.

  (* a count that is on the grid already is left alone *)
  Theorem round_at_fix m x k : x == inject_Z k / s -> round_at m s x == x.
  Proof.
    intros Hx. rewrite round_at_rsig, (rsig_comp m (x * s) (inject_Z k)), rsig_int; [symmetry; exact Hx|].
    rewrite Hx. field. exact s_nz.
  Qed.

  Theorem round_at_idempotent m x : round_at m s (round_at m s x) == round_at m s x.
  Proof. destruct (round_at_grid m x) as [n Hn]. exact (round_at_fix m _ n Hn). Qed.

  Theorem round_at_opp m x : round_at m s (- x) == - round_at (mirror m) s x.
  Proof.
    rewrite !round_at_rsig, (rsig_comp m (- x * s) (- (x * s))), rsig_opp, inject_Z_opp by ring. field. exact s_nz.
  Qed.

  Theorem round_at_monotone m x y : x <= y -> round_at m s x <= round_at m s y.
  Proof.
    intros H. rewrite !round_at_rsig. apply div_s_le. rewrite <- Zle_Qle. apply rsig_mono, Qmult_le_compat_r; lra.
  Qed.

  (* a non-negative count exactly half way between two neighbours of the grid *)
  Lemma round_at_tie m x k : 0 <= x -> x * s == inject_Z k + (1#2) ->
    round_at m s x == inject_Z (k + if up_rule m false k (1#2) then 1 else 0) / s.
  Proof.
    intros Hx Hk. rewrite round_at_rsig, rsig_nonneg, (mag_tie m false _ k Hk); [reflexivity|apply Qmult_le_0_compat; lra].
  Qed.
End AT.

Theorem round_q_compat m d x y : x == y -> round_q m d x == round_q m d y.
Proof. apply round_at_comp. Qed.

Theorem round_q_on_grid m d x : exists n : Z, round_q m d x == inject_Z n / pow10 d.
Proof. apply round_at_grid, pow10_pos. Qed.

Theorem round_q_error m d x : Qabs (round_q m d x - x) < 1 / pow10 d.
Proof. apply round_at_error, pow10_pos. Qed.

Theorem round_q_half_error m d x : half_mode m = true -> Qabs (round_q m d x - x) <= (1#2) / pow10 d.
Proof. apply round_at_half_error, pow10_pos. Qed.

Theorem round_q_fix m d x k : x == inject_Z k / pow10 d -> round_q m d x == x.
Proof. apply round_at_fix, pow10_pos. Qed.

Theorem round_q_idempotent m d x : round_q m d (round_q m d x) == round_q m d x.
Proof. apply round_at_idempotent, pow10_pos. Qed.

Theorem round_q_opp m d x : round_q m d (- x) == - round_q (mirror m) d x.
Proof. apply round_at_opp, pow10_pos. Qed.

Theorem round_q_monotone m d x y : x <= y -> round_q m d x <= round_q m d y.
Proof. apply round_at_monotone, pow10_pos. Qed.

(* the tie rule of every mode, on a non-negative count whose (d+1)-th decimal is an exact 5 (negative counts: round_q_opp) *)
Theorem round_q_tie d x k : 0 <= x -> x * pow10 d == inject_Z k + (1#2) ->
  round_q RHalfUp d x == inject_Z (k + 1) / pow10 d /\                                       (* away from zero *)
  round_q RHalfDown d x == inject_Z k / pow10 d /\                                           (* towards zero *)
  round_q RHalfEven d x == inject_Z (if Z.even k then k else k + 1) / pow10 d /\             (* to the even neighbour *)
  round_q RUp d x == inject_Z (k + 1) / pow10 d /\
  round_q RDown d x == inject_Z k / pow10 d /\
  round_q RCeiling d x == inject_Z (k + 1) / pow10 d /\
  round_q RFloor d x == inject_Z k / pow10 d /\
  round_q R05Up d x == inject_Z (if (k mod 5 =? 0)%Z then k + 1 else k) / pow10 d.
Proof.
  intros Hx Hk. pose proof (pow10_pos d) as Hs.
  repeat split; unfold round_q; rewrite (round_at_tie _ Hs _ x k Hx Hk); simpl; rewrite ?Z.add_0_r; try reflexivity.
  - rewrite <- Z.negb_even. destruct (Z.even k); simpl; rewrite ?Z.add_0_r; reflexivity.
  - destruct (k mod 5 =? 0)%Z; simpl; rewrite ?Z.add_0_r; reflexivity.
Qed.

Lemma rounded_keys m d votes : map fst (rounded_votes m d votes) = map fst votes.
Proof. unfold rounded_votes. rewrite map_map. reflexivity. Qed.

Lemma rounded_get m d votes k :
  gget sx_eqb (rounded_votes m d votes) k == if existsb (fun kv => sx_eqb k (fst kv)) votes then round_q m d (gget sx_eqb votes k) else 0.
Proof.
  induction votes as [|[k0 v] t IH]; simpl; [reflexivity|].
  destruct (sx_eqb k k0); simpl; [reflexivity|exact IH].
Qed.

(* RoundedVotes is not additive: two half votes make one vote, their roundings make two *)
Lemma rounded_not_additive :
  exists m d a b k,
    ~ gget sx_eqb (rounded_votes m d (add_dict a b)) k ==
      gget sx_eqb (rounded_votes m d a) k + gget sx_eqb (rounded_votes m d b) k.
Proof.
  exists RHalfUp, 0%nat, [(A 1, 1#2)], [(A 1, 1#2)], (A 1). vm_compute. discriminate.
Qed.

(* the computation of the library: one division at [prec] significant digits first *)
Lemma round_code_exact prec via m d x :
  sig_round prec x == x \/ via = false ->
  round_code prec via m d x = RInvalid \/ exists r, round_code prec via m d x = ROk r /\ r == round_q m d x.
Proof.
  intros H. unfold round_code.
  destruct (Qle_bool (pow10 prec) _); [left; reflexivity|right].
  eexists; split; [reflexivity|]. destruct via; [|reflexivity].
  destruct H as [H|H]; [|discriminate]. apply round_q_compat. exact H.
Qed.

(* ... and where that division is not exact the count is rounded twice: 1/2 + 10^-30 is above the half, its 28 digit quotient
   is the half, and the library (ROUND_HALF_DOWN, no decimals) returns 0 *)
Lemma sig_round_half_eps : sig_round 28 ((1#2) + (1 # 10 ^ 30)) = (5 * 10 ^ 27 # 10 ^ 28).
Proof. vm_compute. reflexivity. Qed.

Lemma round_code_double_rounding :
  exists x, round_code 28 true RHalfDown 0 x = ROk 0 /\ round_q RHalfDown 0 x == 1 /\ (1#2) < x.
Proof.
  exists ((1#2) + (1 # 10 ^ 30)). unfold round_code. rewrite sig_round_half_eps. vm_compute. repeat split; reflexivity.
Qed.
