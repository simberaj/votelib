(* Majority judgment (Model/Cardinal.v majority_judgment, mj_plus, mj_default):
   the elected candidates have the highest (lower) medians; the tie-break clauses. *)
From Coq Require Import ZArith QArith Qround Qabs List Bool Arith Lia Lqa Permutation Sorted.
From VL Require Import Prelude.PyDict Model.GetNBest Model.Convert Model.Cardinal
     Proofs.GetNBest_proofs Proofs.QOrd Proofs.Dict_proofs.
Import ListNotations.
Open Scope Q_scope.

(* what one score of a ballot of weight w does to the dictionaries of raw_scores *)
Definition raw_step (w : Z) (d : list (C * cscores)) (cs : C * Q) : list (C * cscores) :=
  let old := match dget d (fst cs) with Some x => x | None => [] end in
  dset d (fst cs) (cs_set old (snd cs) (match cs_get old (snd cs) with Some k => k | None => 0 end + w)%Z).

Lemma raw_scores_unfold votes :
  raw_scores votes = fold_left (fun d (bn : sballot * Z) => fold_left (raw_step (snd bn)) (fst bn) d) votes [].
Proof. reflexivity. Qed.

Lemma raw_scores_nodup votes : NoDup (map fst (raw_scores votes)).
Proof.
  rewrite raw_scores_unfold. apply (fold_left_inv (fun d => NoDup (map fst d))); [|constructor].
  intros d bn _ Hd. apply (fold_left_inv (fun d => NoDup (map fst d))); [|exact Hd].
  intros d' cs _. apply dset_nodup.
Qed.

Lemma sequence_keys {X Y} (l : list (X * (Y + serr))) : forall r, sequence l = inl r -> map fst r = map fst l.
Proof.
  induction l as [|[x [y|e]] l IH]; intros r; simpl.
  - intros [= <-]. reflexivity.
  - destruct (sequence l) as [r'|e]; [|discriminate]. intros [= <-]. simpl. f_equal. apply IH. reflexivity.
  - discriminate.
Qed.

Lemma sequence_in {X Y} (l : list (X * (Y + serr))) : forall r x y, sequence l = inl r -> In (x, y) r -> In (x, inl y) l.
Proof.
  induction l as [|[x0 [y0|e]] l IH]; intros r x y; simpl.
  - intros [= <-] [].
  - destruct (sequence l) as [r'|e] eqn:E; [|discriminate]. intros [= <-] [H|H].
    + injection H as -> ->. left. reflexivity.
    + right. eapply IH; [reflexivity|exact H].
  - discriminate.
Qed.

Lemma corrected_scores_nodup cf votes sc : corrected_scores cf votes = inl sc -> NoDup (map fst sc).
Proof.
  unfold corrected_scores. intros H. apply sequence_keys in H. rewrite H, map_map. simpl.
  apply raw_scores_nodup.
Qed.

Lemma aggregate_keys fn sc med : aggregate fn sc = inl med -> map fst med = map fst sc.
Proof. unfold aggregate. intros H. apply sequence_keys in H. rewrite H, map_map. reflexivity. Qed.

Lemma aggregate_in fn sc med c v : aggregate fn sc = inl med -> In (c, v) med ->
  exists d, In (c, d) sc /\ aggregate_one fn d = inl v.
Proof.
  unfold aggregate. intros H Hin. apply (sequence_in _ _ _ _ H) in Hin.
  apply in_map_iff in Hin. destruct Hin as ([c0 d] & Heq & Hd). simpl in Heq. injection Heq as -> Hv.
  exists d. split; [exact Hd|exact Hv].
Qed.

Lemma in_keys {X} (l : list (C * X)) c : In c (map fst l) <-> exists v, In (c, v) l.
Proof.
  rewrite in_map_iff. split; [intros ([c0 v] & <- & H); exists v; exact H|intros (v & H); exists (c, v); auto].
Qed.

Lemma medians_in sub medians c d : NoDup (map fst sub) -> aggregate FMedianLow sub = inl medians -> In (c, d) sub ->
  exists v, In (c, v) medians /\ aggregate_one FMedianLow d = inl v /\ dget_or medians c 0 = v.
Proof.
  intros Hnd Ha Hin. pose proof (aggregate_keys _ _ _ Ha) as Hk.
  assert (Hc : In c (map fst medians)) by (rewrite Hk; apply in_keys; exists d; exact Hin).
  apply in_keys in Hc. destruct Hc as (v & Hv). destruct (aggregate_in _ _ _ _ _ Ha Hv) as (d0 & Hd0 & Hagg).
  rewrite (NoDup_fst_eq _ _ _ _ Hnd Hd0 Hin) in Hagg. exists v. split; [exact Hv|]. split; [exact Hagg|].
  rewrite <- Hk in Hnd. unfold dget_or. rewrite (In_dget _ _ _ Hnd Hv). reflexivity.
Qed.

Lemma filter_keys_incl {X} (f : C * X -> bool) (l : list (C * X)) c : In c (map fst (filter f l)) -> In c (map fst l).
Proof.
  intros H. apply in_map_iff in H. destruct H as (y & <- & Hy). apply filter_In in Hy. apply in_map. tauto.
Qed.

Lemma filter_out_in {X} (l : list (C * X)) A c x :
  In (c, x) (filter (fun cd : C * X => negb (cmem (fst cd) A)) l) <-> In (c, x) l /\ ~ In c A.
Proof. rewrite filter_In, negb_true_iff, <- not_true_iff_false, cmem_In. reflexivity. Qed.

Lemma get_n_best_cand_in (votes : list (C * Q)) n c :
  In (Cand c) (get_n_best Qle_bool votes n) -> In c (map fst votes).
Proof.
  assert (Hs : forall k, In (Cand c) (map (fun it : C * Q => Cand (fst it)) (firstn k (sort_desc Qle_bool votes))) ->
                         In c (map fst votes)).
  { intros k H. apply in_map_iff in H. destruct H as ([c0 v0] & Heq & Hin). simpl in Heq. injection Heq as ->.
    apply firstn_incl in Hin. apply in_map_iff. exists (c, v0). split; [reflexivity|].
    eapply Permutation_in; [apply sort_desc_perm|exact Hin]. }
  unfold get_n_best. destruct (Nat.ltb n (length (sort_desc Qle_bool votes))).
  - destruct (nth_error (sort_desc Qle_bool votes) (n - 1)) as [[c1 thr]|]; [|intros []].
    destruct (nth_error (sort_desc Qle_bool votes) n) as [[c2 nxt]|]; [|intros []].
    destruct (eqv Qle_bool nxt thr).
    + intros H. apply in_app_or in H. destruct H as [H|H]; [exact (Hs _ H)|].
      apply repeat_spec in H. discriminate.
    + apply Hs.
  - intros H. apply (Hs (length (sort_desc Qle_bool votes))). rewrite firstn_all. exact H.
Qed.

(* The answer by candidate.  [tie_split med A T thr]: the candidates A have a value above thr, the candidates T the
   value thr, everybody else a value below it. *)
Record tie_split (med : list (C * Q)) (A T : list C) (thr : Q) : Prop := {
  ts_above : forall c v, In (c, v) med -> (In c A <-> thr < v);
  ts_level : forall c v, In (c, v) med -> (In c T <-> v == thr);
  ts_nodup : NoDup (A ++ T);
  ts_keys : incl (A ++ T) (map fst med) }.

Lemma tie_split_parts med A T thr : tie_split med A T thr ->
  NoDup A /\ NoDup T /\ (forall c, In c A -> ~ In c T) /\ (length A + length T <= length med)%nat.
Proof.
  intros [_ _ Hnd Hk]. pose proof (NoDup_incl_length Hnd Hk) as Hl. rewrite app_length, map_length in Hl.
  apply nodup_app_iff in Hnd. tauto.
Qed.

Lemma level_or_below med A T thr c v : tie_split med A T thr -> In (c, v) med -> ~ In c A -> In c T \/ v < thr.
Proof.
  intros [Habove Hlevel _ _] Hv Hna. destruct (Qlt_le_dec v thr) as [Hlt|Hge]; [right; exact Hlt|left].
  apply (Hlevel _ _ Hv). assert (~ thr < v) by (intros H; exact (Hna (proj2 (Habove _ _ Hv) H))). lra.
Qed.

(* either a clean cut - the listed candidates A are strictly above the others - or the candidates A above a level thr
   are listed and the S k seats left are tied among the more than S k candidates T on that level *)
Lemma gnb_keys (med : list (C * Q)) n : (1 <= n)%nat -> NoDup (map fst med) ->
  (exists A, get_n_best Qle_bool med n = map Cand A /\ NoDup A /\ incl A (map fst med) /\
     length A = Nat.min n (length med) /\
     forall c v c' v', In c A -> In (c, v) med -> In (c', v') med -> ~ In c' A -> v' < v) \/
  (exists A T thr k, get_n_best Qle_bool med n = map Cand A ++ repeat (TieR T) (S k) /\
     tie_split med A T thr /\ (length A + S k = n)%nat /\ (S k < length T)%nat).
Proof.
  intros Hn Hnd. destruct (get_n_best_keys Qle_bool Qle_bool_total Qle_bool_trans med n Hn Hnd)
    as [(A & E & NA & IA & Hlen & Hsep)|(A & T & thr & [|k] & E & HA & HT & Nd & Ik & Hlen & Hk)].
  - left. exists A. split; [exact E|]. split; [exact NA|]. split; [exact IA|]. split; [exact Hlen|].
    intros c v c' v' Hc Hv Hv' Hnot. apply ltb_Qlt. exact (Hsep c v c' v' Hc Hv Hv' Hnot).
  - lia.
  - right. exists A, T, thr, k. split; [exact E|]. split; [|lia]. split; [| |exact Nd|exact Ik].
    + intros c v Hv. rewrite <- ltb_Qlt. exact (HA c v Hv).
    + intros c v Hv. rewrite <- eqv_Qeq. exact (HT c v Hv).
Qed.

Lemma in_map_Cand (A : list C) c : In (Cand c) (map Cand A) <-> In c A.
Proof. rewrite in_map_iff. split; [intros (x & [= ->] & H); exact H|intros H; exists c; auto]. Qed.

Lemma map_Cand_plain (A : list C) x : In x (map Cand A) -> exists c, x = Cand c.
Proof. intros H. apply in_map_iff in H. destruct H as (c & <- & _). exists c. reflexivity. Qed.

Lemma map_Cand_nodup (A : list C) : NoDup A -> NoDup (map Cand A).
Proof.
  induction 1 as [|a A Ha _ IH]; cbn [map]; constructor; [|exact IH]. intros H. apply Ha, in_map_Cand, H.
Qed.

Lemma last_tie_cands (A : list C) : last_tie (map Cand A) = None.
Proof. unfold last_tie. rewrite <- map_rev. destruct (rev A); reflexivity. Qed.

Lemma repeat_snoc {X} (x : X) k : repeat x (S k) = repeat x k ++ [x].
Proof. induction k as [|k IH]; [reflexivity|]. change (x :: repeat x (S k) = x :: (repeat x k ++ [x])). f_equal. exact IH. Qed.

Lemma last_tie_app (l : list (res C)) T k : last_tie (l ++ repeat (TieR T) (S k)) = Some T.
Proof.
  unfold last_tie. rewrite repeat_snoc, app_assoc, rev_app_distr. reflexivity.
Qed.

Lemma count_tie_cands (A : list C) T k : count_tie (map Cand A ++ repeat (TieR T) k) = k.
Proof.
  unfold count_tie. induction A as [|a A IH]; [|exact IH]. cbn [map app].
  induction k as [|k IH]; [reflexivity|]. cbn [repeat filter length]. rewrite IH. reflexivity.
Qed.

Definition is_cand (r : res C) : bool := match r with Cand _ => true | TieR _ => false end.

Lemma filter_cands (A : list C) T k : filter is_cand (map Cand A ++ repeat (TieR T) k) = map Cand A.
Proof.
  induction A as [|a A IH]; cbn [map app filter is_cand]; [|rewrite IH; reflexivity].
  induction k as [|k IH]; [reflexivity|exact IH].
Qed.

Lemma cands_of_cands (A : list C) :
  flat_map (fun r : res C => match r with Cand c => [c] | TieR _ => [] end) (map Cand A) = A.
Proof. induction A as [|a A IH]; [reflexivity|]. cbn [map flat_map app]. rewrite IH. reflexivity. Qed.

Lemma get_n_best_1_shape (votes : list (C * Q)) :
  get_n_best Qle_bool votes 1 = [] \/
  (exists c, get_n_best Qle_bool votes 1 = [Cand c]) \/
  (exists level below thr, get_n_best Qle_bool votes 1 = [TieR (map fst level)] /\
     Permutation (level ++ below) votes /\ (2 <= length level)%nat /\
     (forall it, In it level -> snd it == thr) /\ (forall it, In it below -> snd it < thr)).
Proof.
  destruct (get_n_best_1_cut Qle_bool Qle_bool_total Qle_bool_trans votes)
    as [[_ E]|[(x & rest & _ & E & _)|(level & below & thr & E & Hp & Hlen & Hl & Hb)]].
  - left. exact E.
  - right. left. exists (fst x). exact E.
  - right. right. exists level, below, thr. rewrite Forall_forall in Hl, Hb.
    split; [exact E|]. split; [exact Hp|]. split; [exact Hlen|].
    split; intros it Hit; [apply eqv_Qeq, Hl|apply ltb_Qlt, Hb]; exact Hit.
Qed.

(* the pieces of the loop of mj_default (Model/Cardinal.v): the candidates on the level, the number of copies to remove, the removal *)
Definition mj_level (sub : list (C * cscores)) (tied : list C) : list (C * cscores) :=
  filter (fun cd : C * cscores => cmem (fst cd) tied) sub.

Definition mj_ch (sub : list (C * cscores)) (medians : list (C * Q)) : Z :=
  let ch0 := closest_change sub medians in if (ch0 =? 0)%Z then 1%Z else ch0.

Definition mj_remove (sub : list (C * cscores)) (medians : list (C * Q)) (ch : Z) : list (C * cscores) :=
  map (fun cd : C * cscores =>
         let m := dget_or medians (fst cd) 0%Q in
         (fst cd, cs_set (snd cd) m (match cs_get (snd cd) m with Some k => k | None => 0%Z end - ch)%Z)) sub.

(* one round: the highest median is shared by the candidates T (no unique leader); everybody else leaves the contest,
   and mj_ch >= 1 copies of the current median grade are removed from each of T *)
Definition mj_round (sub : list (C * cscores)) (medians : list (C * Q)) (T : list C) : list (C * cscores) :=
  mj_remove (mj_level sub T) medians (mj_ch (mj_level sub T) medians).

(* [mj_rounds sub sub']: sub' is one of the states the removal rounds go through, starting from sub *)
Inductive mj_rounds : list (C * cscores) -> list (C * cscores) -> Prop :=
| mjr_done sub : mj_rounds sub sub
| mjr_step sub medians T sub' :
    aggregate FMedianLow sub = inl medians ->
    get_n_best Qle_bool medians 1 = [TieR T] ->
    mj_rounds (mj_round sub medians T) sub' ->
    mj_rounds sub sub'.

Lemma mj_level_in sub T c d : In (c, d) (mj_level sub T) <-> In (c, d) sub /\ In c T.
Proof. unfold mj_level. rewrite filter_In. cbn [fst]. rewrite cmem_In. reflexivity. Qed.

Lemma mj_level_keys sub T c : In c (map fst (mj_level sub T)) <-> In c (map fst sub) /\ In c T.
Proof.
  rewrite !in_keys. split.
  - intros (d & H). apply mj_level_in in H. split; [exists d|]; tauto.
  - intros ((d & H) & HT). exists d. apply mj_level_in. tauto.
Qed.

Lemma mj_round_keys sub medians T : map fst (mj_round sub medians T) = map fst (mj_level sub T).
Proof. unfold mj_round, mj_remove. rewrite map_map. reflexivity. Qed.

(* the candidates of a level stay in the contest, whichever way it goes on *)
Lemma level_stays med A T thr (sub : list (C * cscores)) medians : tie_split med A T thr -> map fst med = map fst sub ->
  (length T <= length (mj_level sub T))%nat /\ (length T <= length (mj_round sub medians T))%nat /\
  (length T <= length (filter (fun cd : C * cscores => negb (cmem (fst cd) A)) sub))%nat.
Proof.
  intros Hts Hk. destruct (tie_split_parts _ _ _ _ Hts) as (_ & HndT & Hdisj & _). destruct Hts as [_ _ _ HkAT].
  assert (HT : forall sub' : list (C * cscores), incl T (map fst sub') -> (length T <= length sub')%nat).
  { intros sub' H. rewrite <- (map_length fst sub'). exact (NoDup_incl_length HndT H). }
  assert (Hsub : incl T (map fst sub)) by (intros c Hc; rewrite <- Hk; apply HkAT, in_or_app; right; exact Hc).
  assert (Hlvl : incl T (map fst (mj_level sub T))) by (intros c Hc; apply mj_level_keys; split; [exact (Hsub c Hc)|exact Hc]).
  split; [exact (HT _ Hlvl)|]. split; [apply HT; rewrite mj_round_keys; exact Hlvl|].
  apply HT. intros c Hc. destruct (proj1 (in_keys _ _) (Hsub c Hc)) as (d & Hd). apply in_keys. exists d.
  apply filter_out_in. split; [exact Hd|]. intros HA. exact (Hdisj c HA Hc).
Qed.

(* majority_judgment once the medians are there; [breaker] settles the seats tied among the candidates of the level *)
Definition mj_outer (breaker : list (C * cscores) -> nat -> list (res C) + serr)
    (sc : list (C * cscores)) (med : list (C * Q)) (n : nat) : list (res C) + serr :=
  let order := get_n_best Qle_bool med n in
  match last_tie order with
  | None => inl order
  | Some tied =>
      match breaker (mj_level sc tied) (count_tie order) with
      | inl r => inl (firstn (length order - count_tie order) order ++ r)
      | inr e => inr e
      end
  end.

Lemma majority_judgment_unfold plus cf votes n :
  majority_judgment plus cf votes n =
  match corrected_scores cf votes with
  | inr e => inr e
  | inl sc =>
      match aggregate FMedianLow sc with
      | inr e => inr e
      | inl med =>
          mj_outer (fun sub k => if plus then mj_plus sub k else
                      mj_default (Z.to_nat (fold_left Z.add (map (fun cd : C * cscores => cs_total (snd cd)) sub) 0%Z) + 2) sub k)
                   sc med n
      end
  end.
Proof. reflexivity. Qed.

Lemma mj_outer_clean breaker sc med n A :
  get_n_best Qle_bool med n = map Cand A -> mj_outer breaker sc med n = inl (map Cand A).
Proof. intros E. unfold mj_outer. rewrite E, last_tie_cands. reflexivity. Qed.

Lemma mj_outer_tie breaker sc med n A T k :
  get_n_best Qle_bool med n = map Cand A ++ repeat (TieR T) (S k) ->
  mj_outer breaker sc med n =
  match breaker (mj_level sc T) (S k) with inl r => inl (map Cand A ++ r) | inr e => inr e end.
Proof.
  intros E. unfold mj_outer. rewrite E, last_tie_app, count_tie_cands, app_length, repeat_length, Nat.add_sub, firstn_length_app.
  reflexivity.
Qed.

(* one pass of the loop of mj_default once the medians are there; [rec] is the loop with one unit of fuel less *)
Definition mj_body (rec : list (C * cscores) -> nat -> list (res C) + serr)
    (sub : list (C * cscores)) (medians : list (C * Q)) (n : nat) : list (res C) + serr :=
  let best := get_n_best Qle_bool medians n in
  let untied := length (filter is_cand best) in
  if Nat.eqb (count_tie best) 0 then inl best
  else if Nat.ltb 0 untied then
    let winners := firstn untied best in
    let wc := flat_map (fun r : res C => match r with Cand c => [c] | TieR _ => [] end) winners in
    match rec (filter (fun cd : C * cscores => negb (cmem (fst cd) wc)) sub) (n - untied)%nat with
    | inl r => inl (winners ++ r)
    | inr e => inr e
    end
  else rec (mj_round sub medians (match best with TieR l :: _ => l | _ => [] end)) n.

Lemma mj_default_unfold f sub n :
  mj_default (S f) sub n =
  if (fold_left Z.max (map (fun cd : C * cscores => cs_total (snd cd)) sub) 0%Z <=? 0)%Z then inr SE_vse else
  match aggregate FMedianLow sub with
  | inr e => inr e
  | inl medians => mj_body (mj_default f) sub medians n
  end.
Proof. reflexivity. Qed.

Lemma mj_default_x_unfold rp f sub n :
  mj_default_x rp (S f) sub n =
  if (fold_left Z.max (map (fun cd : C * cscores => cs_total (snd cd)) sub) 0%Z <=? 0)%Z then inr SE_vse else
  let sub1 := if rp_mj rp then mj_live sub else sub in
  if rp_mj rp && Nat.ltb (length sub1) n then inr SE_vse else
  match aggregate_x rp FMedianLow sub1 with
  | inr e => inr e
  | inl medians => mj_body (mj_default_x rp f) sub1 medians n
  end.
Proof. reflexivity. Qed.

Lemma mj_body_ext rec1 rec2 sub medians n :
  (forall s m, rec1 s m = rec2 s m) -> mj_body rec1 sub medians n = mj_body rec2 sub medians n.
Proof. intros H. unfold mj_body. rewrite !H. reflexivity. Qed.

Lemma mj_body_clean rec sub medians n A :
  get_n_best Qle_bool medians n = map Cand A -> mj_body rec sub medians n = inl (map Cand A).
Proof.
  intros E. unfold mj_body. rewrite E. pose proof (count_tie_cands A [] 0) as H. cbn [repeat] in H.
  rewrite app_nil_r in H. rewrite H. reflexivity.
Qed.

(* a shared lead goes through a round of removals; otherwise the leaders are seated and the rest goes on *)
Lemma mj_body_tie rec sub medians n A T k :
  get_n_best Qle_bool medians n = map Cand A ++ repeat (TieR T) (S k) -> (length A + S k = n)%nat ->
  mj_body rec sub medians n =
  match A with
  | [] => rec (mj_round sub medians T) n
  | _ => match rec (filter (fun cd : C * cscores => negb (cmem (fst cd) A)) sub) (S k) with
         | inl r => inl (map Cand A ++ r)
         | inr e => inr e
         end
  end.
Proof.
  intros E Hlen. unfold mj_body. rewrite E, count_tie_cands, filter_cands. cbn [Nat.eqb].
  destruct A as [|a A']; [reflexivity|]. set (A := a :: A') in *.
  assert (Hpos : (0 <? length (map Cand A))%nat = true) by reflexivity.
  rewrite Hpos, firstn_length_app, cands_of_cands, map_length. replace (n - length A)%nat with (S k) by lia. reflexivity.
Qed.

(* the tie-breakers only ever name members of the tie *)
Lemma mj_plus_cands sub k r c : mj_plus sub k = inl r -> In (Cand c) r -> In c (map fst sub).
Proof.
  unfold mj_plus. destruct sub as [|[c0 d0] sub']; [discriminate|].
  destruct (aggregate_one FMedianLow d0) as [med|e]; [|discriminate].
  intros [= <-] H. apply get_n_best_cand_in in H. cbn [map fst] in H |- *. rewrite map_map in H. exact H.
Qed.

Lemma mj_body_cands rec sub medians n r : map fst medians = map fst sub ->
  (forall sub' n' r' c, rec sub' n' = inl r' -> In (Cand c) r' -> In c (map fst sub')) ->
  mj_body rec sub medians n = inl r -> forall c, In (Cand c) r -> In c (map fst sub).
Proof.
  intros Hk Hrec. unfold mj_body. destruct (Nat.eqb _ 0).
  - intros [= <-] c H. rewrite <- Hk. exact (get_n_best_cand_in _ _ _ H).
  - destruct (Nat.ltb 0 _).
    + destruct (rec _ _) as [r'|e] eqn:Er; [|discriminate]. intros [= <-] c H. apply in_app_or in H. destruct H as [H|H].
      * rewrite <- Hk. apply firstn_incl in H. exact (get_n_best_cand_in _ _ _ H).
      * apply (Hrec _ _ _ _ Er), filter_keys_incl in H. exact H.
    + intros Hr c H. apply (Hrec _ _ _ _ Hr) in H. rewrite mj_round_keys in H. apply filter_keys_incl in H. exact H.
Qed.

Lemma mj_default_cands : forall fuel sub k r c, mj_default fuel sub k = inl r -> In (Cand c) r -> In c (map fst sub).
Proof.
  induction fuel as [|f IH]; intros sub k r c; [discriminate|]. rewrite mj_default_unfold.
  destruct (_ <=? 0)%Z; [discriminate|]. destruct (aggregate FMedianLow sub) as [medians|e] eqn:Ea; [|discriminate].
  intros Hr. exact (mj_body_cands _ _ _ _ _ (aggregate_keys _ _ _ Ea) IH Hr c).
Qed.

(* majority judgment elects the candidates with the highest medians *)
Lemma mj_outer_highest breaker sc med n r : (1 <= n)%nat -> NoDup (map fst med) ->
  (forall sub k r' c, breaker sub k = inl r' -> In (Cand c) r' -> In c (map fst sub)) ->
  mj_outer breaker sc med n = inl r ->
  forall c, In (Cand c) r ->
    exists vc, In (c, vc) med /\ forall c' vc', In (c', vc') med -> ~ In (Cand c') r -> vc' <= vc.
Proof.
  intros Hn Hnd Hb.
  destruct (gnb_keys med n Hn Hnd) as [(A & E & _ & HA & _ & Hcut)|(A & T & thr & k & E & [Habove Hlevel _ Hkeys] & _)].
  - rewrite (mj_outer_clean _ _ _ _ _ E). intros [= <-] c Hc. apply in_map_Cand in Hc.
    destruct (proj1 (in_keys med c) (HA c Hc)) as (vc & Hvc). exists vc. split; [exact Hvc|].
    intros c' vc' Hin' Hnot. apply Qlt_le_weak, (Hcut c vc c' vc' Hc Hvc Hin'). intros H. apply Hnot, in_map_Cand, H.
  - rewrite (mj_outer_tie _ _ _ _ _ _ _ E). destruct (breaker (mj_level sc T) (S k)) as [r'|e] eqn:Er; [|discriminate].
    intros [= <-] c Hc.
    assert (HcAT : In c (A ++ T)).
    { apply in_app_or in Hc. apply in_or_app. destruct Hc as [Hc|Hc]; [left; apply in_map_Cand, Hc|right].
      apply (Hb _ _ _ _ Er), mj_level_keys in Hc. tauto. }
    destruct (proj1 (in_keys med c) (Hkeys c HcAT)) as (vc & Hvc). exists vc. split; [exact Hvc|].
    assert (Hge : thr <= vc).
    { apply in_app_or in HcAT. destruct HcAT as [H|H]; [apply (Habove c vc Hvc) in H|apply (Hlevel c vc Hvc) in H]; lra. }
    intros c' vc' Hin' Hnot. apply Qle_trans with thr; [|exact Hge]. apply Qnot_lt_le. intros H.
    apply (Habove c' vc' Hin') in H. apply Hnot, in_or_app. left. apply in_map_Cand, H.
Qed.

Theorem mj_highest_median plus cf votes n sc med r :
  (1 <= n)%nat ->
  corrected_scores cf votes = inl sc -> aggregate FMedianLow sc = inl med ->
  majority_judgment plus cf votes n = inl r ->
  forall c, In (Cand c) r ->
    exists vc, In (c, vc) med /\
      forall c' vc', In (c', vc') med -> ~ In (Cand c') r -> vc' <= vc.
Proof.
  intros Hn Hsc Hmed. rewrite majority_judgment_unfold, Hsc, Hmed. apply mj_outer_highest; [exact Hn| |].
  - rewrite (aggregate_keys _ _ _ Hmed). exact (corrected_scores_nodup _ _ _ Hsc).
  - intros sub k r' c. destruct plus; [apply mj_plus_cands|apply mj_default_cands].
Qed.

Corollary mj_single_highest_median plus cf votes sc med c :
  corrected_scores cf votes = inl sc -> aggregate FMedianLow sc = inl med ->
  majority_judgment plus cf votes 1 = inl [Cand c] ->
  exists vc, In (c, vc) med /\ forall c' vc', In (c', vc') med -> vc' <= vc.
Proof.
  intros Hsc Hmed Hr.
  destruct (mj_highest_median plus cf votes 1 sc med _ (le_n 1) Hsc Hmed Hr c (or_introl eq_refl)) as (vc & Hin & Hmax).
  exists vc. split; [exact Hin|]. intros c' vc' Hin'.
  destruct (Pos.eq_dec c' c) as [->|Hne].
  - pose proof (corrected_scores_nodup _ _ _ Hsc) as Hnd. rewrite <- (aggregate_keys _ _ _ Hmed) in Hnd.
    rewrite (NoDup_fst_eq _ _ _ _ Hnd Hin' Hin). lra.
  - apply (Hmax c' vc' Hin'). intros [H|[]]. injection H as ->. apply Hne. reflexivity.
Qed.

Lemma counts_over_compat d a b : a == b -> counts_over d a = counts_over d b.
Proof.
  intros Hab. unfold counts_over. f_equal. f_equal. apply filter_ext. intros [s k]. apply Qleb_comp; [exact Hab|reflexivity].
Qed.

(* majority judgment plus: the tied seats go by the number of grades at or above the median m0 of the first
   candidate of the tie; a candidate that is listed has strictly more of them than one that is not, the members of a
   tie that is left have equally many *)
Lemma mj_plus_spec sub n r : (1 <= n)%nat -> NoDup (map fst sub) -> mj_plus sub n = inl r ->
  exists c0 d0 m0, In (c0, d0) sub /\ aggregate_one FMedianLow d0 = inl m0 /\
    length r = Nat.min n (length sub) /\
    (forall T c, In (TieR T) r -> In c T -> In c (map fst sub)) /\
    forall c d c' d', In (c, d) sub -> In (c', d') sub -> ~ In (Cand c') r ->
      (In (Cand c) r -> (counts_over d' m0 < counts_over d m0)%Z) /\
      (forall T, In (TieR T) r -> In c T ->
         (counts_over d' m0 <= counts_over d m0)%Z /\ (In c' T -> counts_over d' m0 = counts_over d m0)).
Proof.
  intros Hn Hnd. unfold mj_plus. destruct sub as [|[c0 d0] sub'] eqn:Es; [discriminate|]. rewrite <- Es in *.
  destruct (aggregate_one FMedianLow d0) as [m0|e] eqn:Em0; [|discriminate]. intros [= <-].
  exists c0, d0, m0. split; [rewrite Es; left; reflexivity|]. split; [exact Em0|].
  set (cnt := map (fun cd : C * cscores => (fst cd, inject_Z (counts_over (snd cd) m0))) sub).
  assert (Hk : map fst cnt = map fst sub) by (unfold cnt; rewrite map_map; reflexivity).
  assert (Hcnt : forall c d, In (c, d) sub -> In (c, inject_Z (counts_over d m0)) cnt).
  { intros c d H. unfold cnt. apply in_map_iff. exists (c, d). split; [reflexivity|exact H]. }
  assert (Hlen : length cnt = length sub) by apply map_length.
  assert (Hndc : NoDup (map fst cnt)) by (rewrite Hk; exact Hnd).
  destruct (gnb_keys cnt n Hn Hndc)
    as [(A & -> & _ & _ & HlenA & Hcut)|(A & T & thr & k & -> & [Habove Hlevel HndAT Hkeys] & HlenA & HkT)].
  - split; [rewrite map_length, HlenA, Hlen; reflexivity|].
    split; [intros T c H; apply map_Cand_plain in H; destruct H; discriminate|].
    intros c d c' d' Hd Hd' Hnc. split.
    + intros Hc. rewrite Zlt_Qlt.
      apply (Hcut c (inject_Z (counts_over d m0)) c' (inject_Z (counts_over d' m0)) (proj1 (in_map_Cand _ _) Hc) (Hcnt _ _ Hd) (Hcnt _ _ Hd')).
      intros H. apply Hnc, in_map_Cand, H.
    + intros T H. apply map_Cand_plain in H. destruct H. discriminate.
  - assert (Htie : forall T0, In (TieR T0) (map Cand A ++ repeat (TieR T) (S k)) -> T0 = T).
    { intros T0 H. apply in_app_or in H. destruct H as [H|H]; [apply map_Cand_plain in H; destruct H; discriminate|].
      apply repeat_spec in H. injection H as ->. reflexivity. }
    assert (Hcand : forall c, In (Cand c) (map Cand A ++ repeat (TieR T) (S k)) <-> In c A).
    { intros c. rewrite in_app_iff, in_map_Cand. split; [intros [H|H]; [exact H|apply repeat_spec in H; discriminate]|auto]. }
    split; [|split].
    + rewrite app_length, map_length, repeat_length.
      pose proof (NoDup_incl_length HndAT Hkeys) as Hle. rewrite app_length, map_length, Hlen in Hle. lia.
    + intros T0 c H HcT. apply Htie in H. subst T0. rewrite <- Hk. apply Hkeys, in_or_app. right. exact HcT.
    + intros c d c' d' Hd Hd' Hnc.
      assert (Hlow : inject_Z (counts_over d' m0) <= thr).
      { apply Qnot_lt_le. intros H. apply (Habove _ _ (Hcnt _ _ Hd')) in H. apply Hnc, Hcand, H. }
      split.
      * intros Hc. apply Hcand, (Habove _ _ (Hcnt _ _ Hd)) in Hc. rewrite Zlt_Qlt. lra.
      * intros T0 H HcT. apply Htie in H. subst T0. apply (Hlevel _ _ (Hcnt _ _ Hd)) in HcT. split.
        -- rewrite Zle_Qle. lra.
        -- intros Hc'T. apply (Hlevel _ _ (Hcnt _ _ Hd')) in Hc'T. apply inject_Z_injective. lra.
Qed.

(* the evaluator with the plus rule, any number of seats *)
Lemma mj_outer_plus sc med n r : (1 <= n)%nat -> NoDup (map fst sc) -> aggregate FMedianLow sc = inl med ->
  mj_outer mj_plus sc med n = inl r ->
  length r = Nat.min n (length sc) /\
  forall c vc d c' vc' d', In (c, vc) med -> In (c, d) sc -> In (c', vc') med -> In (c', d') sc -> vc' == vc ->
    ~ In (Cand c') r ->
    (In (Cand c) r -> (counts_over d' vc < counts_over d vc)%Z) /\
    (forall T, In (TieR T) r -> In c T ->
       (counts_over d' vc <= counts_over d vc)%Z /\ (In c' T -> counts_over d' vc = counts_over d vc)).
Proof.
  intros Hn Hnd Ea. pose proof (aggregate_keys _ _ _ Ea) as Hkeys.
  assert (Hndm : NoDup (map fst med)) by (rewrite Hkeys; exact Hnd).
  assert (Hlenm : length med = length sc) by (rewrite <- (map_length fst med), Hkeys; apply map_length).
  destruct (gnb_keys med n Hn Hndm)
    as [(A & E & _ & _ & HlenA & Hcut)|(A & T & thr & k & E & Hts & HlenA & HkT)]; [|pose proof Hts as [Habove Hlevel _ _]].
  - rewrite (mj_outer_clean _ _ _ _ _ E). intros [= <-]. split; [rewrite map_length, HlenA, Hlenm; reflexivity|].
    intros c vc d c' vc' d' Hv _ Hv' _ Heq Hnc. split.
    + intros Hc. apply in_map_Cand in Hc.
      pose proof (Hcut _ _ _ _ Hc Hv Hv' (fun H => Hnc (proj2 (in_map_Cand _ _) H))). lra.
    + intros T0 H. apply map_Cand_plain in H. destruct H. discriminate.
  - rewrite (mj_outer_tie _ _ _ _ _ _ _ E). set (sub := mj_level sc T).
    destruct (mj_plus sub (S k)) as [r'|e] eqn:Er; [|discriminate]. intros [= <-].
    assert (Hnds : NoDup (map fst sub)) by apply nodup_keys_filter, Hnd.
    destruct (mj_plus_spec sub (S k) r' ltac:(lia) Hnds Er) as (c0 & d0 & m0 & H0 & Em0 & Hlen' & HTin & Hrule).
    (* the candidates of sub are those of the level, and the median of the first one is the level *)
    assert (Hm0 : m0 == thr).
    { apply mj_level_in in H0. destruct H0 as (H0 & H0T). destruct (medians_in _ _ _ _ Hnd Ea H0) as (v0 & Hv0 & Ha0 & _).
      rewrite Em0 in Ha0. injection Ha0 as ->. exact (proj1 (Hlevel _ _ Hv0) H0T). }
    assert (Hsubc : forall x, In x (map fst sub) -> In x T) by (intros x Hx; apply mj_level_keys in Hx; tauto).
    split.
    + destruct (level_stays _ _ _ _ sc med Hts Hkeys) as (H1 & _). destruct (tie_split_parts _ _ _ _ Hts) as (_ & _ & _ & H2).
      fold sub in H1. rewrite app_length, map_length, Hlen'. lia.
    + intros c vc d c' vc' d' Hv Hd Hv' Hd' Heq Hnc.
      assert (Hnc' : ~ In (Cand c') r') by (intros H; apply Hnc, in_or_app; right; exact H).
      (* a member of the tie and its rival of the same median are candidates of sub *)
      assert (Hmem : In c T -> m0 == vc /\ In (c, d) sub /\ In (c', d') sub).
      { intros HcT. pose proof (proj1 (Hlevel _ _ Hv) HcT) as Hvc. split; [lra|].
        split; apply mj_level_in; split; try assumption. apply (Hlevel _ _ Hv'). lra. }
      split.
      * intros Hc. apply in_app_or in Hc. destruct Hc as [Hc|Hc].
        -- exfalso. apply in_map_Cand, (Habove _ _ Hv) in Hc. apply Hnc, in_or_app. left.
           apply in_map_Cand, (Habove _ _ Hv'). lra.
        -- destruct (Hmem (Hsubc _ (mj_plus_cands _ _ _ _ Er Hc))) as (Hmv & Hs & Hs').
           rewrite <- (counts_over_compat d' _ _ Hmv), <- (counts_over_compat d _ _ Hmv).
           exact (proj1 (Hrule _ _ _ _ Hs Hs' Hnc') Hc).
      * intros T0 H HcT0. apply in_app_or in H. destruct H as [H|H]; [apply map_Cand_plain in H; destruct H; discriminate|].
        destruct (Hmem (Hsubc _ (HTin _ _ H HcT0))) as (Hmv & Hs & Hs').
        rewrite <- (counts_over_compat d' _ _ Hmv), <- (counts_over_compat d _ _ Hmv).
        exact (proj2 (Hrule _ _ _ _ Hs Hs' Hnc') T0 H HcT0).
Qed.

(* one seat: among the candidates sharing the highest median the winner has strictly the most scores at or above
   that median *)
Theorem mj_plus_rule cf votes sc med c :
  corrected_scores cf votes = inl sc -> aggregate FMedianLow sc = inl med ->
  majority_judgment true cf votes 1 = inl [Cand c] ->
  forall vc d c' vc' d', In (c, vc) med -> In (c, d) sc ->
    In (c', vc') med -> In (c', d') sc -> c' <> c -> vc' == vc ->
    (counts_over d' vc < counts_over d vc)%Z.
Proof.
  intros Hsc Hmed Hr vc d c' vc' d' Hc Hd Hc' Hd' Hne Heqv.
  rewrite majority_judgment_unfold, Hsc, Hmed in Hr.
  destruct (mj_outer_plus sc med 1 _ (le_n 1) (corrected_scores_nodup _ _ _ Hsc) Hmed Hr) as (_ & H).
  apply (H c vc d c' vc' d' Hc Hd Hc' Hd' Heqv); [|left; reflexivity].
  intros [[= E]|[]]. exact (Hne (eq_sym E)).
Qed.

Lemma fold_min_lower (l : list Z) : forall x b, (b <= x)%Z -> Forall (fun y => (b <= y)%Z) l -> (b <= fold_left Z.min l x)%Z.
Proof.
  induction l as [|y l IH]; intros x b Hx Hl; simpl; [exact Hx|].
  inversion Hl; subst. apply IH; [lia|assumption].
Qed.

Lemma Qceiling_abs_nonneg x : (0 <= Qceiling (Qabs x))%Z.
Proof.
  pose proof (Qabs_nonneg x) as H1. pose proof (Qle_ceiling (Qabs x)) as H2.
  assert (H : inject_Z 0 <= inject_Z (Qceiling (Qabs x))) by (change (inject_Z 0) with 0; lra).
  rewrite <- Zle_Qle in H. exact H.
Qed.

Lemma closest_change_nonneg sub medians : (0 <= closest_change sub medians)%Z.
Proof.
  unfold closest_change. destruct sub as [|cd sub]; [simpl; lia|]. cbn [map].
  apply fold_min_lower.
  - cbv zeta. apply Z.min_glb; apply Qceiling_abs_nonneg.
  - apply Forall_forall. intros y Hy. apply in_map_iff in Hy. destruct Hy as (cd' & <- & _).
    cbv zeta. apply Z.min_glb; apply Qceiling_abs_nonneg.
Qed.

(* every round removes at least one copy *)
Lemma mj_ch_pos sub medians : (1 <= mj_ch sub medians)%Z.
Proof.
  unfold mj_ch. pose proof (closest_change_nonneg sub medians). cbv zeta.
  destruct (closest_change sub medians =? 0)%Z eqn:Ez; lia.
Qed.

(* who stays in the contest after a round: exactly the candidates on the shared highest median *)
Lemma mj_round_level sub medians T c :
  aggregate FMedianLow sub = inl medians -> get_n_best Qle_bool medians 1 = [TieR T] ->
  In c (map fst (mj_round sub medians T)) ->
  In c (map fst sub) /\ exists v, In (c, v) medians /\ forall c' v', In (c', v') medians -> v' <= v.
Proof.
  intros Ea Eb Hc. rewrite mj_round_keys in Hc. apply mj_level_keys in Hc. destruct Hc as (Hc & Hmem). split; [exact Hc|].
  destruct (get_n_best_1_shape medians) as [E|[[c0 E]|(level & below & thr & E & Hp & _ & Hl & Hb)]]; rewrite E in Eb; try discriminate.
  injection Eb as <-. apply in_keys in Hmem. destruct Hmem as (v & Hlv).
  exists v. split; [eapply Permutation_in; [exact Hp|apply in_or_app; left; exact Hlv]|].
  intros c' v' Hin'. apply (Permutation_in _ (Permutation_sym Hp)) in Hin'. apply in_app_or in Hin'.
  pose proof (Hl _ Hlv) as Hv. simpl in Hv. destruct Hin' as [H|H].
  - apply Hl in H. simpl in H. lra.
  - apply Hb in H. simpl in H. lra.
Qed.

(* one seat: nobody, a strict leader of the values, or a tie for the lead *)
Lemma gnb_one (med : list (C * Q)) : NoDup (map fst med) ->
  get_n_best Qle_bool med 1 = [] \/
  (exists c v, get_n_best Qle_bool med 1 = [Cand c] /\
     In (c, v) med /\ forall c' v', In (c', v') med -> c' <> c -> v' < v) \/
  (exists T, get_n_best Qle_bool med 1 = [TieR T]).
Proof.
  intros Hnd. destruct (get_n_best_1_shape med) as [E|[[c E]|(level & below & thr & E & _)]];
    [left; exact E| |right; right; eexists; exact E].
  right. left. destruct (get_n_best_1_cand Qle_bool Qle_bool_total Qle_bool_trans med c [] Hnd E) as (_ & v & Hin & Hmax).
  exists c, v. split; [exact E|]. split; [exact Hin|]. intros c' v' H1 H2. exact (proj1 (ltb_Qlt _ _) (Hmax _ _ H1 H2)).
Qed.

Lemma mj_body_1 rec sub medians c : NoDup (map fst medians) -> mj_body rec sub medians 1 = inl [Cand c] ->
  (get_n_best Qle_bool medians 1 = [Cand c] /\
   exists v, In (c, v) medians /\ forall c' v', In (c', v') medians -> c' <> c -> v' < v) \/
  (exists T, get_n_best Qle_bool medians 1 = [TieR T] /\ rec (mj_round sub medians T) 1%nat = inl [Cand c]).
Proof.
  intros Hnd. destruct (gnb_one medians Hnd) as [E|[(c0 & v & E & Hv)|(T & E)]].
  - rewrite (mj_body_clean _ _ _ _ [] E). discriminate.
  - rewrite (mj_body_clean _ _ _ _ [c0] E). intros [= ->]. left. split; [exact E|]. exists v. exact Hv.
  - rewrite (mj_body_tie _ _ _ _ [] T 0 E eq_refl). intros Hr. right. exists T. split; [exact E|exact Hr].
Qed.

Lemma mj_outer_1 breaker sc med c : NoDup (map fst med) -> mj_outer breaker sc med 1 = inl [Cand c] ->
  (exists v, In (c, v) med /\ forall c' v', In (c', v') med -> c' <> c -> v' < v) \/
  (exists T, get_n_best Qle_bool med 1 = [TieR T] /\ breaker (mj_level sc T) 1%nat = inl [Cand c]).
Proof.
  intros Hnd. destruct (gnb_one med Hnd) as [E|[(c0 & v & E & Hv)|(T & E)]].
  - rewrite (mj_outer_clean _ _ _ _ [] E). discriminate.
  - rewrite (mj_outer_clean _ _ _ _ [c0] E). intros [= ->]. left. exists v. exact Hv.
  - rewrite (mj_outer_tie _ _ _ _ [] T 0 E). destruct (breaker _ _) as [r'|e] eqn:Er; [|discriminate]. cbn [map app].
    intros [= ->]. right. exists T. split; [exact E|exact Er].
Qed.

Theorem mj_default_rule : forall fuel sub c,
  NoDup (map fst sub) ->
  mj_default fuel sub 1 = inl [Cand c] ->
  exists sub' medians' v,
    mj_rounds sub sub' /\ aggregate FMedianLow sub' = inl medians' /\
    In (c, v) medians' /\ forall c' v', In (c', v') medians' -> c' <> c -> v' < v.
Proof.
  induction fuel as [|f IH]; intros sub c Hnd; [discriminate|]. rewrite mj_default_unfold.
  destruct (_ <=? 0)%Z; [discriminate|]. destruct (aggregate FMedianLow sub) as [medians|e] eqn:Ea; [|discriminate].
  intros Hr. assert (Hndm : NoDup (map fst medians)) by (rewrite (aggregate_keys _ _ _ Ea); exact Hnd).
  destruct (mj_body_1 _ _ _ _ Hndm Hr) as [(_ & v & Hv)|(T & E & Hr')].
  - exists sub, medians, v. split; [constructor|]. split; [exact Ea|exact Hv].
  - assert (Hnd' : NoDup (map fst (mj_round sub medians T))) by (rewrite mj_round_keys; apply nodup_keys_filter, Hnd).
    destruct (IH _ _ Hnd' Hr') as (sub' & medians' & v & Hrounds & Hrest).
    exists sub', medians', v. split; [exact (mjr_step _ _ _ _ Ea E Hrounds)|exact Hrest].
Qed.

(* the documented rule: in every state the rounds go through - the last one included - the eventual winner is still in
   the contest and nobody there has a higher median (a candidate that falls behind is out for good, mj_round_level) *)
Theorem mj_default_documented : forall fuel sub c,
  NoDup (map fst sub) ->
  mj_default fuel sub 1 = inl [Cand c] ->
  forall sub1 medians1, mj_rounds sub sub1 -> aggregate FMedianLow sub1 = inl medians1 ->
  exists v, In (c, v) medians1 /\ forall c' v', In (c', v') medians1 -> v' <= v.
Proof.
  induction fuel as [|f IH]; intros sub c Hnd; [discriminate|]. rewrite mj_default_unfold.
  destruct (_ <=? 0)%Z; [discriminate|]. destruct (aggregate FMedianLow sub) as [medians|e] eqn:Ea; [|discriminate].
  intros Hr sub1 medians1 Hrounds Ha1.
  assert (Hndm : NoDup (map fst medians)) by (rewrite (aggregate_keys _ _ _ Ea); exact Hnd).
  destruct (mj_body_1 _ _ _ _ Hndm Hr) as [(E & v & Hv & Hmax)|(T & E & Hr')];
    inversion Hrounds as [s|s m T' s' Ha Hb Hrest]; subst.
  - rewrite Ea in Ha1. injection Ha1 as <-. exists v. split; [exact Hv|]. intros c' v' Hv'.
    destruct (Pos.eq_dec c' c) as [->|Hne]; [rewrite (NoDup_fst_eq _ _ _ _ Hndm Hv' Hv); lra|].
    apply Qlt_le_weak, (Hmax _ _ Hv' Hne).
  - rewrite Ea in Ha. injection Ha as <-. rewrite E in Hb. discriminate.
  - (* the state itself: the winner survives the round, so it is level with the lead *)
    rewrite Ea in Ha1. injection Ha1 as <-.
    exact (proj2 (mj_round_level _ _ _ _ Ea E (mj_default_cands _ _ _ _ _ Hr' (or_introl eq_refl)))).
  - rewrite Ea in Ha. injection Ha as <-. rewrite E in Hb. injection Hb as <-.
    assert (Hnd' : NoDup (map fst (mj_round sub medians T))) by (rewrite mj_round_keys; apply nodup_keys_filter, Hnd).
    exact (IH _ _ Hnd' Hr' sub1 medians1 Hrest Ha1).
Qed.

(* the whole evaluator with the default tie-break, one seat *)
Theorem mj_default_tiebreak cf votes sc med c :
  corrected_scores cf votes = inl sc -> aggregate FMedianLow sc = inl med ->
  majority_judgment false cf votes 1 = inl [Cand c] ->
  (exists v, In (c, v) med /\ forall c' v', In (c', v') med -> c' <> c -> v' < v) \/
  (exists tied sub' medians' v,
     get_n_best Qle_bool med 1 = [TieR tied] /\
     mj_rounds (mj_level sc tied) sub' /\
     aggregate FMedianLow sub' = inl medians' /\
     In (c, v) medians' /\ forall c' v', In (c', v') medians' -> c' <> c -> v' < v).
Proof.
  intros Hsc Hmed Hr. pose proof (corrected_scores_nodup _ _ _ Hsc) as Hnd_sc.
  assert (Hnd : NoDup (map fst med)) by (rewrite (aggregate_keys _ _ _ Hmed); exact Hnd_sc).
  rewrite majority_judgment_unfold, Hsc, Hmed in Hr.
  destruct (mj_outer_1 _ _ _ _ Hnd Hr) as [H|(T & E & Hr')]; [left; exact H|right]. cbv beta iota in Hr'.
  destruct (mj_default_rule _ _ _ (nodup_keys_filter _ _ Hnd_sc) Hr') as (sub' & medians' & v & H).
  exists T, sub', medians', v. split; [exact E|exact H].
Qed.

Theorem mj_default_tiebreak_documented cf votes sc med tied c sub1 medians1 :
  corrected_scores cf votes = inl sc -> aggregate FMedianLow sc = inl med ->
  get_n_best Qle_bool med 1 = [TieR tied] ->
  majority_judgment false cf votes 1 = inl [Cand c] ->
  mj_rounds (mj_level sc tied) sub1 -> aggregate FMedianLow sub1 = inl medians1 ->
  exists v, In (c, v) medians1 /\ forall c' v', In (c', v') medians1 -> v' <= v.
Proof.
  intros Hsc Hmed Et Hr Hrounds Ha1. pose proof (corrected_scores_nodup _ _ _ Hsc) as Hnd_sc.
  rewrite majority_judgment_unfold, Hsc, Hmed, (mj_outer_tie _ _ _ _ [] tied 0 Et) in Hr. cbv beta iota in Hr.
  destruct (mj_default _ (mj_level sc tied) 1) as [r'|e] eqn:Er; [|discriminate]. injection Hr as ->.
  exact (mj_default_documented _ _ _ (nodup_keys_filter _ _ Hnd_sc) Er sub1 medians1 Hrounds Ha1).
Qed.
