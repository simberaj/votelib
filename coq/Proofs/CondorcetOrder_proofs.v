(* Order independence of the Condorcet family (C10): the pairwise dictionary v' holds the same
   (pair, count) entries as v in another insertion order (Permutation v v', distinct keys).
   - pget / pget0, the candidate set, pairwise_wins, beat_counts: the same content;
   - condorcet_winner, kemeny: the SAME answer (equality);
   - copeland (raw and second order), minimax (three scorers), schulze (any two iteration orders): the results
     have the same shape (plain winner against plain winner, tie against tie with the same members), the same
     elected candidates, the same tied candidates; for the first-order evaluators a plain winner faces a plain
     winner WITH THE SAME SCORE (the same candidate when that score is unique);
   - smith_schwartz (ties = true, the Smith set): the same members; (ties = false: refuted - known finding);
   - ranked_pairs: equality when the sort keys (score, votes) of the pairs are pairwise distinct; a witness shows that
     it can fail otherwise. *)
From Coq Require Import ZArith List Bool Lia Arith Permutation Sorted.
From VL Require Import Prelude.PyDict Model.GetNBest Model.Condorcet Proofs.Dict_proofs Proofs.GetNBest_proofs
     Proofs.Condorcet_proofs Proofs.CopelandMono_proofs Proofs.Scale_proofs Proofs.Minimax_proofs Proofs.Smith_proofs
     Proofs.Schulze_proofs Proofs.Kemeny_proofs Proofs.RankedPairs_proofs Proofs.Order_proofs Proofs.GnbSim_proofs.
Import ListNotations.
Open Scope Z_scope.

Definition res_shape (x y : res C) : Prop :=
  match x, y with
  | Cand _, Cand _ => True
  | TieR T, TieR T' => Permutation T T'
  | _, _ => False
  end.

(* same length; position by position a plain winner faces a plain winner and a tie faces a tie with the same
   members; the same candidates are elected; (hence) the same candidates are reported tied *)
Definition res_equiv (r r' : list (res C)) : Prop :=
  Forall2 res_shape r r' /\ (forall c, In (Cand c) r <-> In (Cand c) r').

Lemma res_shape_sym x y : res_shape x y -> res_shape y x.
Proof. destruct x, y; simpl; auto. apply Permutation_sym. Qed.

Lemma shape_tied_l r r' c : Forall2 res_shape r r' ->
  (exists T, In (TieR T) r /\ In c T) -> (exists T, In (TieR T) r' /\ In c T).
Proof.
  induction 1 as [|x y r r' Hxy _ IH]; intros (T & HT & Hc); [destruct HT|]. destruct HT as [->|HT].
  - destruct y as [b|T']; simpl in Hxy; [contradiction|]. exists T'. split; [left; reflexivity|apply (Permutation_in _ Hxy Hc)].
  - destruct IH as (T' & HT' & Hc'); [exists T; auto|]. exists T'. split; [right; exact HT'|exact Hc'].
Qed.

Lemma F2_sym {X Y} (P : X -> Y -> Prop) (Q : Y -> X -> Prop) l l' : (forall x y, P x y -> Q y x) -> Forall2 P l l' -> Forall2 Q l' l.
Proof. intros H. induction 1; constructor; auto. Qed.

(* the tie clause of the property follows *)
Theorem res_equiv_tied r r' c : res_equiv r r' ->
  ((exists T, In (TieR T) r /\ In c T) <-> (exists T, In (TieR T) r' /\ In c T)).
Proof.
  intros [F _]. split; [apply shape_tied_l, F|]. apply shape_tied_l. apply (F2_sym res_shape res_shape); [apply res_shape_sym|exact F].
Qed.

Lemma relz_shape d d' x y : res_relz d d' x y -> res_shape x y.
Proof. destruct x, y; simpl; tauto. Qed.

Theorem gnbz_equiv d d' n : NoDup (map fst d) -> Permutation d d' ->
  res_equiv (get_n_best zle_bool d n) (get_n_best zle_bool d' n).
Proof.
  intros N P. split.
  - eapply Forall2_impl; [apply relz_shape|apply (gnbz_sim d d' N P n)].
  - intros c. apply (gnbz_sets d d' N P n c).
Qed.

(* a plain winner whose score nobody shares sits at the same position in the other result *)
Theorem relz_unique_pos d d' r r' i a : Forall2 (res_relz d d') r r' -> nth_error r i = Some (Cand a) ->
  (forall b, In b (map fst d) -> score_of d b = score_of d a -> b = a) -> nth_error r' i = Some (Cand a).
Proof.
  intros F. revert i. induction F as [|x y r r' Hxy _ IH]; intros i Hi Hu; [destruct i; discriminate|].
  destruct i as [|i]; simpl in *; [|apply IH; assumption]. injection Hi as ->.
  destruct y as [b|T]; simpl in Hxy; [|contradiction]. destruct Hxy as (_ & Hb & E). rewrite (Hu b Hb (eq_sym E)). reflexivity.
Qed.

Lemma dict_perm (d d' : list (C * Z)) : NoDup (map fst d) -> NoDup (map fst d') ->
  (forall c, In c (map fst d) <-> In c (map fst d')) -> (forall c, In c (map fst d) -> dget_or d c 0 = dget_or d' c 0) ->
  Permutation d d'.
Proof.
  intros N N' K G. rewrite (dict_canonical d N), (dict_canonical d' N').
  apply Permutation_trans with (map (fun c => (c, dget_or d c 0)) (map fst d')).
  - apply Permutation_map. apply (NoDup_Permutation N N' K).
  - erewrite map_ext_in; [apply Permutation_refl|]. intros c Hc. simpl. f_equal. apply G. apply K. exact Hc.
Qed.

(* defaultdict(int) accumulation of a list of (key, increment) *)
Fixpoint acc (l d : list (C * Z)) : list (C * Z) :=
  match l with [] => d | kx :: t => acc t (dadd d (fst kx) (snd kx)) end.
Fixpoint sumk (c : C) (l : list (C * Z)) : Z :=
  match l with [] => 0 | kx :: t => (if ceqb c (fst kx) then snd kx else 0) + sumk c t end.

Lemma acc_get l : forall d c, dget_or (acc l d) c 0 = dget_or d c 0 + sumk c l.
Proof. induction l as [|kx l IH]; intros d c; cbn [acc sumk]; [lia|]. rewrite IH, dadd_get. lia. Qed.

Lemma acc_keys l : forall d, NoDup (map fst d) ->
  NoDup (map fst (acc l d)) /\ forall c, In c (map fst (acc l d)) <-> In c (map fst d) \/ In c (map fst l).
Proof.
  induction l as [|kx l IH]; intros d Hd; cbn [acc map].
  - split; [exact Hd|]. intros c. simpl. tauto.
  - destruct (dset_keys d (fst kx) (dget_or d (fst kx) 0 + snd kx) Hd) as [N1 K1]. fold (dadd d (fst kx) (snd kx)) in N1, K1.
    destruct (IH _ N1) as [N2 K2]. split; [exact N2|]. intros c. apply (iff_trans (K2 c)). simpl. split.
    + intros [H|H]; [apply K1 in H; destruct H as [->|H]|]; auto.
    + intros [H|[<-|H]]; [left; apply K1| left; apply K1|]; auto.
Qed.

Lemma sumk_perm c l l' : Permutation l l' -> sumk c l = sumk c l'.
Proof. induction 1; cbn [sumk]; lia. Qed.

Lemma acc_perm l l' d d' : Permutation l l' -> Permutation d d' -> NoDup (map fst d) -> Permutation (acc l d) (acc l' d').
Proof.
  intros Pl Pd N. pose proof (perm_keys_nodup _ _ Pd N) as N'.
  destruct (acc_keys l d N) as [A1 A2]. destruct (acc_keys l' d' N') as [B1 B2].
  apply dict_perm; try assumption.
  - intros c. apply (iff_trans (A2 c)), (iff_trans (or_iff _ _ _ _ (perm_keys_iff _ _ Pd c) (perm_keys_iff _ _ Pl c))), iff_sym, B2.
  - intros c _. rewrite !acc_get, (sumk_perm c l l' Pl), (perm_dget_or d d' c 0 N Pd). reflexivity.
Qed.

Lemma beat_counts_acc ws : forall d, fold_left (fun d (p : pair) => dadd d (fst p) 1) ws d = acc (map (fun p : pair => (fst p, 1)) ws) d.
Proof. induction ws as [|p ws IH]; intros d; [reflexivity|]. simpl. apply IH. Qed.
Lemma copeland_scores_acc ws : forall d, fold_left (fun d (p : pair) => dadd (dadd d (fst p) 1) (snd p) (-1)) ws d =
  acc (flat_map (fun p : pair => [(fst p, 1); (snd p, -1)]) ws) d.
Proof. induction ws as [|p ws IH]; intros d; [reflexivity|]. simpl. apply IH. Qed.
Lemma sch_acc ws : forall d, fold_left sch_step ws d = acc (flat_map (fun p : pair => [(fst p, 1); (snd p, 0)]) ws) d.
Proof. induction ws as [|p ws IH]; intros d; [reflexivity|]. simpl. apply IH. Qed.
Lemma so_acc (scores : list (C * Z)) (tied : list C) ws : forall d,
  fold_left (fun d (p : pair) => if cmem (fst p) tied then dadd d (fst p) (dget_or scores (snd p) 0) else d) ws d =
  acc (flat_map (fun p : pair => if cmem (fst p) tied then [(fst p, dget_or scores (snd p) 0)] else []) ws) d.
Proof. induction ws as [|p ws IH]; intros d; [reflexivity|]. simpl. rewrite IH. destruct (cmem (fst p) tied); reflexivity. Qed.

Lemma find_unique_perm {X} (f : X -> bool) l l' : Permutation l l' ->
  (forall x y, In x l -> In y l -> f x = true -> f y = true -> x = y) -> find f l = find f l'.
Proof.
  intros P U. destruct (find f l) as [x|] eqn:E, (find f l') as [y|] eqn:E'; try reflexivity.
  - apply find_some in E, E'. destruct E as [I1 F1], E' as [I2 F2]. f_equal. apply U; try assumption.
    apply (Permutation_in _ (Permutation_sym P)). exact I2.
  - apply find_some in E. destruct E as [I1 F1]. rewrite (find_none _ _ E' x (Permutation_in _ P I1)) in F1. discriminate.
  - apply find_some in E'. destruct E' as [I2 F2]. rewrite (find_none _ _ E y (Permutation_in _ (Permutation_sym P) I2)) in F2. discriminate.
Qed.

Section PV.
  Variables v v' : pvotes.
  Hypothesis Hnd : NoDup (map fst v).
  Hypothesis Hp : Permutation v v'.

  Theorem pget_perm p : pget v' p = pget v p.
  Proof.
    destruct (pget v p) as [n|] eqn:E.
    - apply pget_In in E. apply In_pget; [exact (perm_keys_nodup _ _ Hp Hnd)|apply (Permutation_in _ Hp E)].
    - destruct (pget v' p) as [m|] eqn:E'; [|reflexivity]. apply pget_In in E'.
      apply (Permutation_in _ (Permutation_sym Hp)) in E'. rewrite (In_pget _ _ _ Hnd E') in E. discriminate.
  Qed.
  Theorem pget0_perm p : pget0 v' p = pget0 v p.
  Proof. unfold pget0. rewrite pget_perm. reflexivity. Qed.

  Theorem cands_perm : Permutation (candidates v) (candidates v').
  Proof.
    apply NoDup_Permutation; try apply candidates_NoDup. intros c. rewrite !candidates_spec.
    split; intros (p & n & Hin & Hc); exists p, n; split; auto;
      [apply (Permutation_in _ Hp Hin)|apply (Permutation_in _ (Permutation_sym Hp) Hin)].
  Qed.
  Lemma cands_in c : In c (candidates v) <-> In c (candidates v').
  Proof. apply perm_in_iff, cands_perm. Qed.

  Theorem wins_perm t : Permutation (pairwise_wins v t) (pairwise_wins v' t).
  Proof.
    unfold pairwise_wins. apply Permutation_map. apply filter_perm_ext; [exact Hp|]. intros pn. rewrite pget0_perm. reflexivity.
  Qed.

  Theorem beat_counts_perm : Permutation (beat_counts v) (beat_counts v').
  Proof.
    unfold beat_counts. rewrite !beat_counts_acc. apply acc_perm; [|apply Permutation_refl|constructor].
    apply Permutation_map, wins_perm.
  Qed.
End PV.

Lemma wins_in (v : pvotes) a b : In (a, b) (pairwise_wins v false) <-> exists n, In ((a, b), n) v /\ pget0 v (b, a) < n.
Proof.
  unfold pairwise_wins. rewrite in_map_iff. split.
  - intros ([p n] & Hp & Hin). simpl in Hp. subst p. apply filter_In in Hin. destruct Hin as [Hin Hf]. simpl in Hf.
    rewrite orb_false_r in Hf. apply Z.ltb_lt in Hf. exists n. split; [exact Hin|exact Hf].
  - intros (n & Hin & Hlt). exists ((a, b), n). split; [reflexivity|]. apply filter_In. split; [exact Hin|]. simpl.
    rewrite orb_false_r. apply Z.ltb_lt. exact Hlt.
Qed.

Section CWU.
  Variable v : pvotes.
  Hypothesis Hnd : NoDup (map fst v).
  Notation cs := (candidates v).
  Notation need := (Z.of_nat (length cs) - 1).

  Lemma win_facts a b : In (a, b) (pairwise_wins v false) -> In a cs /\ In b cs /\ a <> b /\ pget0 v (b, a) < pget0 v (a, b).
  Proof.
    intros H. apply wins_in in H. destruct H as (n & Hin & Hlt).
    assert (E : pget0 v (a, b) = n) by (unfold pget0; rewrite (In_pget _ _ _ Hnd Hin); reflexivity).
    split; [apply candidates_spec; exists (a, b), n; auto|]. split; [apply candidates_spec; exists (a, b), n; auto|].
    split; [|lia]. intros ->. lia.
  Qed.

  Lemma full_count_beats_all c c' : In (c, need) (beat_counts v) -> In c' cs -> c' <> c -> In (c, c') (pairwise_wins v false).
  Proof.
    intros Hc Hc' Hne. destruct (beat_counts_dict v) as [Nb Kb].
    assert (Hk : In c (map fst (beat_counts v))) by (apply in_map_iff; exists (c, need); auto).
    destruct (Kb c Hk) as (x & Hx). destruct (win_facts c x Hx) as (Hcc & _).
    pose proof (In_dget_or _ _ _ Nb Hc) as Hcount. rewrite beat_counts_get in Hcount.
    set (others := filter (fun x => negb (ceqb x c)) cs).
    assert (Hlen : S (length others) = length cs) by (apply filter_neq_length; [apply candidates_NoDup|exact Hcc]).
    assert (Hincl : incl (opponents v c) others).
    { intros y Hy. unfold opponents in Hy. apply in_map_iff in Hy. destruct Hy as ([a b] & Hb & Hin). simpl in Hb. subst b.
      apply filter_In in Hin. destruct Hin as [Hin Hf]. simpl in Hf. apply ceqb_eq in Hf. subst a.
      destruct (win_facts c y Hin) as (_ & Hy & Hny & _). apply filter_In. split; [exact Hy|].
      apply negb_true_iff. apply ceqb_neq. intros ->. apply Hny. reflexivity. }
    assert (Hback : incl others (opponents v c)).
    { apply NoDup_length_incl; [apply opponents_NoDup, Hnd|lia|exact Hincl]. }
    assert (Ho : In c' (opponents v c)).
    { apply Hback. apply filter_In. split; [exact Hc'|]. apply negb_true_iff, ceqb_neq. exact Hne. }
    unfold opponents in Ho. apply in_map_iff in Ho. destruct Ho as ([a b] & Hb & Hin). simpl in Hb. subst b.
    apply filter_In in Hin. destruct Hin as [Hin Hf]. simpl in Hf. apply ceqb_eq in Hf. subst a. exact Hin.
  Qed.

  Lemma full_count_unique c c' : In (c, need) (beat_counts v) -> In (c', need) (beat_counts v) -> c = c'.
  Proof.
    intros Hc Hc'. destruct (Pos.eq_dec c c') as [E|Hne]; [exact E|exfalso].
    destruct (beat_counts_dict v) as [Nb Kb].
    assert (Hin : forall x, In (x, need) (beat_counts v) -> In x cs).
    { intros x Hx. assert (Hk : In x (map fst (beat_counts v))) by (apply in_map_iff; exists (x, need); auto).
      destruct (Kb x Hk) as (y & Hy). apply (win_facts x y Hy). }
    pose proof (full_count_beats_all c c' Hc (Hin _ Hc') (fun E => Hne (eq_sym E))) as W1.
    pose proof (full_count_beats_all c' c Hc' (Hin _ Hc) Hne) as W2.
    apply win_facts in W1, W2. lia.
  Qed.
End CWU.

Theorem condorcet_winner_perm v v' : NoDup (map fst v) -> Permutation v v' -> condorcet_winner v' = condorcet_winner v.
Proof.
  intros Hnd Hp. unfold condorcet_winner.
  rewrite <- (Permutation_length (cands_perm v v' Hp)).
  rewrite <- (find_unique_perm _ (beat_counts v) (beat_counts v') (beat_counts_perm v v' Hnd Hp)); [reflexivity|].
  intros [c k] [c' k'] I1 I2 F1 F2. simpl in F1, F2. apply Z.eqb_eq in F1, F2. subst k k'.
  f_equal. apply (full_count_unique v Hnd c c' I1 I2).
Qed.

Section COPE.
  Variables v v' : pvotes.
  Hypothesis Hnd : NoDup (map fst v).
  Hypothesis Hp : Permutation v v'.

  Lemma cscores_nodup (u : pvotes) : NoDup (map fst (cscores u)).
  Proof. unfold cscores. apply (seed_fold (candidates u) _ (proj1 (cscore_keys _))). Qed.

  Lemma copeland_scores_perm : Permutation (copeland_scores (pairwise_wins v false)) (copeland_scores (pairwise_wins v' false)).
  Proof.
    unfold copeland_scores. rewrite !copeland_scores_acc. apply acc_perm; [|apply Permutation_refl|constructor].
    apply Permutation_flat_map, wins_perm; assumption.
  Qed.

  Theorem cscores_perm : Permutation (cscores v) (cscores v').
  Proof.
    pose proof copeland_scores_perm as P0.
    pose proof (proj1 (cscore_keys (pairwise_wins v false))) as N0. pose proof (proj1 (cscore_keys (pairwise_wins v' false))) as N0'.
    destruct (seed_fold (candidates v) _ N0) as (N1 & G1 & K1). destruct (seed_fold (candidates v') _ N0') as (N1' & G1' & K1').
    apply dict_perm; try assumption.
    - intros c. apply (iff_trans (K1 c)), (iff_trans (or_iff _ _ _ _ (perm_keys_iff _ _ P0 c) (cands_in v v' Hp c))), iff_sym, K1'.
    - intros c _. unfold cscores. rewrite G1, G1'. symmetry. apply (perm_dget_or _ _ c 0 N0 P0).
  Qed.

  (* first order: same shape, same sets, a plain winner faces a plain winner with the same Copeland score *)
  Theorem copeland_raw_sim n : Forall2 (res_relz (cscores v) (cscores v')) (copeland false v n) (copeland false v' n).
  Proof. rewrite !copeland_raw_is_first_order. apply gnbz_sim; [apply cscores_nodup|exact cscores_perm]. Qed.

  Lemma has_tie_shape r r' : Forall2 res_shape r r' -> has_tie r = has_tie r'.
  Proof. induction 1 as [|x y r r' H _ IH]; [reflexivity|]. simpl. rewrite IH. destruct x, y; simpl in H; try contradiction; reflexivity. Qed.
  Lemma members_shape r r' : Forall2 res_shape r r' -> Permutation (res_members r) (res_members r').
  Proof.
    induction 1 as [|x y r r' H _ IH]; [constructor|]. simpl. destruct x, y; simpl in H; try contradiction; [exact IH|].
    apply Permutation_app; assumption.
  Qed.
  Lemma untied_shape r r' : Forall2 res_shape r r' -> Forall2 res_shape (res_untied r) (res_untied r').
  Proof.
    induction 1 as [|x y r r' H _ IH]; [constructor|]. simpl. destruct x, y; simpl in H; try contradiction; [|exact IH].
    constructor; [exact I|exact IH].
  Qed.
  Lemma untied_in r c : In (Cand c) (res_untied r) <-> In (Cand c) r.
  Proof. unfold res_untied. rewrite filter_In. split; [tauto|]. intros H. split; [exact H|reflexivity]. Qed.

  Lemma so0_keys (tied : list C) (scores : list (C * Z)) : NoDup (map fst scores) ->
    let so0 := flat_map (fun cs : C * Z => if cmem (fst cs) tied then [(fst cs, 0)] else []) scores in
    NoDup (map fst so0) /\ (forall c, In c (map fst so0) <-> In c (map fst scores) /\ cmem c tied = true) /\
    (forall c, dget_or so0 c 0 = 0).
  Proof.
    induction scores as [|[k x] sc IH]; intros N; cbn [flat_map map fst].
    - split; [constructor|]. split; [intros c; simpl; tauto|reflexivity].
    - inversion N as [|? ? Hk Hn]; subst. destruct (IH Hn) as (I1 & I2 & I3). destruct (cmem k tied) eqn:E; cbn [app map fst].
      + split; [constructor; [|exact I1]; intros H; apply I2 in H; tauto|]. split.
        * intros c. simpl. rewrite I2. split; [intros [<-|[H1 H2]]; auto|intros [[<-|H1] H2]; auto].
        * intros c. unfold dget_or. cbn [dget]. destruct (ceqb c k); [reflexivity|apply I3].
      + split; [exact I1|]. split; [|exact I3]. intros c. rewrite I2. simpl. split; [tauto|]. intros [[<-|H1] H2]; [congruence|tauto].
  Qed.

  (* the dictionary of second-order scores: a zero for every tied candidate, in the order of the score dictionary, then the
     first-order score of every opponent it beats *)
  Definition so_dict (scores : list (C * Z)) (tied : list C) (wins : list pair) : list (C * Z) :=
    acc (flat_map (fun p : pair => if cmem (fst p) tied then [(fst p, dget_or scores (snd p) 0)] else []) wins)
        (flat_map (fun cs : C * Z => if cmem (fst cs) tied then [(fst cs, 0)] else []) scores).

  Lemma copeland_unfold2 so (u : pvotes) n : copeland so u n =
    let best := get_n_best zle_bool (cscores u) n in
    if so && has_tie best then
      res_untied best ++ get_n_best zle_bool (so_dict (cscores u) (res_members best) (pairwise_wins u false)) (length best - length (res_untied best))
    else best.
  Proof. unfold so_dict. rewrite <- so_acc. reflexivity. Qed.

  Lemma so_dict_perm sc sc' tied tied' ws ws' : NoDup (map fst sc) -> Permutation sc sc' -> Permutation tied tied' -> Permutation ws ws' ->
    NoDup (map fst (so_dict sc tied ws)) /\ Permutation (so_dict sc tied ws) (so_dict sc' tied' ws') /\
    (forall c, In c (map fst (so_dict sc tied ws)) -> In c tied).
  Proof.
    intros N P PT PW. unfold so_dict.
    destruct (so0_keys tied sc N) as (A1 & A2 & A3). destruct (so0_keys tied' sc' (perm_keys_nodup _ _ P N)) as (B1 & B2 & B3).
    split; [apply acc_keys, A1|]. split.
    - apply acc_perm; [| |exact A1].
      + erewrite flat_map_ext; [apply Permutation_flat_map, PW|].
        intros p. rewrite (cmem_perm _ _ _ PT), (perm_dget_or sc sc' (snd p) 0 N P). reflexivity.
      + apply dict_perm; try assumption.
        * intros c. apply (iff_trans (A2 c)). rewrite (cmem_perm c tied tied' PT). apply (iff_trans (and_iff_compat_r _ (perm_keys_iff _ _ P c))), iff_sym, B2.
        * intros c _. rewrite A3, B3. reflexivity.
    - intros c Hc. apply cmem_In. apply (acc_keys _ _ A1) in Hc. destruct Hc as [Hc|Hc]; [apply A2, Hc|].
      destruct (key_value _ c Hc) as [x Hin]. apply in_flat_map in Hin. destruct Hin as (p & _ & Hin).
      destruct (cmem (fst p) tied) eqn:Em; [|destruct Hin]. destruct Hin as [[= <- _]|[]]. exact Em.
  Qed.

  Lemma members_in (r : list (res C)) a : In a (res_members r) <-> exists T, In (TieR T) r /\ In a T.
  Proof.
    unfold res_members. rewrite in_flat_map. split.
    - intros ([c|T] & Hx & Ha); [destruct Ha|]. exists T. auto.
    - intros (T & HT & Ha). exists (TieR T). auto.
  Qed.

  Lemma tied_same_score (d : list (C * Z)) n a b : NoDup (map fst d) ->
    In a (res_members (get_n_best zle_bool d n)) -> In b (res_members (get_n_best zle_bool d n)) ->
    In a (map fst d) /\ In b (map fst d) /\ score_of d a = score_of d b.
  Proof.
    intros N Ha Hb. apply members_in in Ha, Hb. destruct Ha as (T & HT & Ha), Hb as (T' & HT' & Hb).
    rewrite <- (gnb_tie_same zle_bool d n T T' HT HT') in Hb.
    destruct (get_n_best_tie_members zle_bool zle_trans d n T HT) as (thr & -> & _).
    assert (H : forall x, In x (map fst (filter (fun it : C * Z => eqv zle_bool (snd it) thr) d)) -> In x (map fst d) /\ score_of d x = thr).
    { intros x Hx. destruct (key_value _ x Hx) as [vx Hin]. apply filter_In in Hin.
      destruct Hin as [Hin Hf]. simpl in Hf. apply zeqv_eq in Hf. subst vx. split; [apply (in_map fst _ _ Hin)|apply In_score_of; assumption]. }
    destruct (H a Ha) as [A1 A2]. destruct (H b Hb) as [B1 B2]. split; [exact A1|]. split; [exact B1|congruence].
  Qed.

  Lemma untied_relz d d' r r' : Forall2 (res_relz d d') r r' -> Forall2 (res_relz d d') (res_untied r) (res_untied r').
  Proof.
    induction 1 as [|x y r r' H _ IH]; [constructor|]. simpl. destruct x, y; simpl in H; try contradiction; [|exact IH].
    constructor; [exact H|exact IH].
  Qed.

  Lemma in_app_compat {X} (x y : X) a a' b b' : (In x a <-> In y a') -> (In x b <-> In y b') -> (In x (a ++ b) <-> In y (a' ++ b')).
  Proof. intros Ha Hb. rewrite !in_app_iff, Ha, Hb. reflexivity. Qed.

  (* both relations at once: position by position the same shape and first-order score, and the same elected *)
  Lemma copeland_both so n : Forall2 (res_relz (cscores v) (cscores v')) (copeland so v n) (copeland so v' n) /\
    (forall c, In (Cand c) (copeland so v n) <-> In (Cand c) (copeland so v' n)).
  Proof.
    pose proof (cscores_nodup v) as N. pose proof cscores_perm as P.
    pose proof (gnbz_sim _ _ N P n) as FZ. pose proof (fun c => proj1 (gnbz_sets _ _ N P n c)) as S.
    pose proof (Forall2_impl _ _ _ _ (relz_shape _ _) FZ) as F.
    rewrite !copeland_unfold2. cbv zeta.
    set (best := get_n_best zle_bool (cscores v) n) in *. set (best' := get_n_best zle_bool (cscores v') n) in *.
    destruct so; cbn [andb]; [|split; assumption].
    rewrite <- (has_tie_shape _ _ F). destruct (has_tie best); [|split; assumption].
    rewrite <- (F2_length _ _ _ F), <- (F2_length _ _ _ (untied_shape _ _ F)).
    set (k := (length best - length (res_untied best))%nat).
    destruct (so_dict_perm _ _ _ _ _ _ N P (members_shape _ _ F) (wins_perm v v' Hnd Hp false)) as (NS & PS & KS).
    split.
    - apply Forall2_app; [apply untied_relz, FZ|]. eapply Forall2_impl; [|exact (gnbz_sim _ _ NS PS k)].
      intros [a|T] [b|T']; simpl; try tauto. intros (Ia & Ib & _). apply (tied_same_score (cscores v) n a b N); apply KS; assumption.
    - intros c. apply in_app_compat; [|apply (gnbz_sets _ _ NS PS k c)].
      apply (iff_trans (untied_in _ _)), (iff_trans (S c)), iff_sym, untied_in.
  Qed.

  Theorem copeland_equiv so n : res_equiv (copeland so v n) (copeland so v' n).
  Proof. destruct (copeland_both so n) as [F S]. split; [exact (Forall2_impl _ _ _ _ (relz_shape _ _) F)|exact S]. Qed.

  (* with the second-order scores as well: position by position the same (first-order) Copeland score *)
  Theorem copeland_sim so n : Forall2 (res_relz (cscores v) (cscores v')) (copeland so v n) (copeland so v' n).
  Proof. apply copeland_both. Qed.
End COPE.

Section MMX.
  Variables v v' : pvotes.
  Hypothesis Hnd : NoDup (map fst v).
  Hypothesis Hp : Permutation v v'.

  Lemma complete_nodup (u : pvotes) : NoDup (complete u).
  Proof. apply (NoDup_map_inv fst). apply complete_keys_nodup. Qed.

  Theorem complete_perm : Permutation (complete v) (complete v').
  Proof.
    apply NoDup_Permutation; try apply complete_nodup. intros [[a b] n]. rewrite !complete_in, (pget0_perm v v' Hnd Hp).
    rewrite (cands_in v v' Hp a), (cands_in v v' Hp b). reflexivity.
  Qed.

  Lemma score_pairs_perm s (u u' : pvotes) : NoDup (map fst u) -> Permutation u u' -> Permutation (score_pairs s u) (score_pairs s u').
  Proof.
    intros N P. destruct s; cbn [score_pairs]; [| |exact P];
      (erewrite map_ext; [apply Permutation_map, P|]; intros pn; cbv beta; rewrite (pget0_perm u u' N P); reflexivity).
  Qed.

  Lemma mc_of_dict (l : pvotes) :
    NoDup (map fst (mc_of l)) /\ (forall c, In c (map fst (mc_of l)) <-> exists pn, In pn l /\ snd (fst pn) = c) /\
    (forall c m, dget (mc_of l) c = Some m -> (forall pn, In pn l -> snd (fst pn) = c -> snd pn <= m) /\ exists pn, In pn l /\ snd (fst pn) = c /\ snd pn = m).
  Proof.
    destruct (mc_fold l []) as (H1 & H2 & H3). fold (mc_of l) in H1, H2, H3. split; [apply H1; constructor|]. split.
    - intros c. rewrite H2. simpl. tauto.
    - intros c m Hm. destruct (H3 c m Hm) as (A & _ & [B|B]); [discriminate|]. split; assumption.
  Qed.

  Lemma mc_of_perm (l l' : pvotes) : Permutation l l' -> Permutation (mc_of l) (mc_of l').
  Proof.
    intros P. destruct (mc_of_dict l) as (N & K & G). destruct (mc_of_dict l') as (N' & K' & G').
    assert (HI : forall pn, In pn l <-> In pn l') by (intros pn; split; apply Permutation_in; [|apply Permutation_sym]; exact P).
    assert (HK : forall c, In c (map fst (mc_of l)) <-> In c (map fst (mc_of l'))).
    { intros c. rewrite K, K'. split; intros (pn & Hin & E); exists pn; (split; [apply HI, Hin|exact E]). }
    apply dict_perm; try assumption.
    intros c Hc. unfold dget_or.
    destruct (key_value _ c Hc) as [m E]. apply (In_dget _ _ _ N) in E.
    destruct (key_value _ c (proj1 (HK c) Hc)) as [m' E']. apply (In_dget _ _ _ N') in E'. rewrite E, E'.
    destruct (G c m E) as (U & pn & I1 & I2 & I3). destruct (G' c m' E') as (U' & pn' & I1' & I2' & I3').
    pose proof (U' pn (proj1 (HI pn) I1) I2). pose proof (U pn' (proj2 (HI pn') I1') I2'). lia.
  Qed.

  Definition mscores (s : scorer) (u : pvotes) : list (C * Z) := map (fun cs : C * Z => (fst cs, - snd cs)) (mc_of (score_pairs s (complete u))).

  Lemma mscores_nodup s u : NoDup (map fst (mscores s u)).
  Proof. unfold mscores. rewrite map_map. simpl. apply (mc_of_dict (score_pairs s (complete u))). Qed.

  Theorem mscores_perm s : Permutation (mscores s v) (mscores s v').
  Proof. apply Permutation_map, mc_of_perm, score_pairs_perm; [apply complete_keys_nodup|apply complete_perm]. Qed.

  Theorem minimax_sim s n : Forall2 (res_relz (mscores s v) (mscores s v')) (minimax s v n) (minimax s v' n).
  Proof. rewrite !minimax_unfold. apply gnbz_sim; [apply mscores_nodup|apply mscores_perm]. Qed.
  Theorem minimax_equiv s n : res_equiv (minimax s v n) (minimax s v' n).
  Proof. rewrite !minimax_unfold. apply gnbz_equiv; [apply mscores_nodup|apply mscores_perm]. Qed.
End MMX.

(* schulze: the dictionary may be permuted AND the candidates iterated in any two orders *)
Section SCHU.
  Variables v v' : pvotes.
  Hypothesis Hnd : NoDup (map fst v).
  Hypothesis Hnn : forall p n, In (p, n) v -> 0 <= n.
  Hypothesis Hp : Permutation v v'.

  Lemma nn_perm : forall p n, In (p, n) v' -> 0 <= n.
  Proof. intros p n H. apply (Hnn p n). apply (Permutation_in _ (Permutation_sym Hp) H). Qed.

  Lemma d0_perm a b : d0 v' a b = d0 v a b.
  Proof. unfold d0. rewrite !(pget0_perm v v' Hnd Hp). reflexivity. Qed.
  Lemma reach_ext (u u' : pvotes) s a b : (forall x y, d0 u' x y = d0 u x y) -> reach u s a b -> reach u' s a b.
  Proof. intros E. induction 1 as [a b H|a m b H _ IH]; [apply reach_one|eapply reach_step; [|exact IH]]; rewrite E; exact H. Qed.

  Lemma wp_le (u u' : pvotes) (o o' : list C) a b : NoDup (map fst u) -> NoDup (map fst u') -> (forall p n, In (p, n) u' -> 0 <= n) ->
    (forall s x y, reach u s x y -> reach u' s x y) -> incl (candidates u') o' -> a <> b ->
    pget0 (widest_paths u o) (a, b) <= pget0 (widest_paths u' o') (a, b).
  Proof.
    intros N N' NN HR Hi Hab. pose proof (P_nonneg0 u' N' NN o' (a, b)) as H0.
    destruct (Z_le_gt_dec (pget0 (widest_paths u o) (a, b)) 0) as [Hz|Hpos]; [lia|].
    apply (wp_complete u' N' o' a b _ Hi); [lia|exact Hab|]. apply HR. apply (wp_sound u N o). lia.
  Qed.

  Theorem wp_get_perm o o' p : incl (candidates v) o -> incl (candidates v') o' ->
    pget0 (widest_paths v' o') p = pget0 (widest_paths v o) p.
  Proof.
    intros Hi Hi'. destruct p as [a b]. pose proof (perm_keys_nodup _ _ Hp Hnd) as Hnd'.
    destruct (Pos.eq_dec a b) as [->|Hab]; [rewrite (wp_diag v Hnd Hnn), (wp_diag v' Hnd' nn_perm); reflexivity|].
    apply Z.le_antisymm.
    - apply wp_le; try assumption. intros s x y. apply reach_ext. intros p q. symmetry. apply d0_perm.
    - apply wp_le; try assumption; [exact nn_perm|]. intros s x y. apply reach_ext, d0_perm.
  Qed.

  Lemma sscores_keys (u : pvotes) o : NoDup (map fst u) -> (forall p n, In (p, n) u -> 0 <= n) -> NoDup (map fst (sscores u o)).
  Proof.
    intros N NN. rewrite (sscores_canonical u N NN o), map_map. simpl. rewrite map_id. apply candidates_NoDup.
  Qed.

  Theorem sscores_perm o o' : incl (candidates v) o -> incl (candidates v') o' -> Permutation (sscores v o) (sscores v' o').
  Proof.
    intros Hi Hi'. pose proof (perm_keys_nodup _ _ Hp Hnd) as Hnd'.
    rewrite (sscores_canonical v Hnd Hnn o), (sscores_canonical v' Hnd' nn_perm o').
    eapply Permutation_trans; [apply Permutation_map, (cands_perm v v' Hp)|].
    erewrite map_ext; [apply Permutation_refl|]. intros c. simpl. do 2 f_equal. apply Permutation_length.
    apply NoDup_Permutation; try (apply opponents_NoDup, P_nodup; assumption).
    intros y. rewrite (opponents_spec _ (P_nodup v Hnd o) (P_nonneg v Hnd Hnn o)).
    rewrite (opponents_spec _ (P_nodup v' Hnd' o') (P_nonneg v' Hnd' nn_perm o')).
    unfold beats. rewrite !(wp_get_perm o o' _ Hi Hi'). reflexivity.
  Qed.

  Theorem schulze_sim o o' n : incl (candidates v) o -> incl (candidates v') o' ->
    Forall2 (res_relz (sscores v o) (sscores v' o')) (schulze v o n) (schulze v' o' n).
  Proof.
    intros Hi Hi'. rewrite !schulze_unfold. apply (gnbz_sim (sscores v o) (sscores v' o')); [apply sscores_keys; assumption|apply sscores_perm; assumption].
  Qed.
  Theorem schulze_equiv o o' n : incl (candidates v) o -> incl (candidates v') o' -> res_equiv (schulze v o n) (schulze v' o' n).
  Proof.
    intros Hi Hi'. rewrite !schulze_unfold. apply (gnbz_equiv (sscores v o) (sscores v' o')); [apply sscores_keys; assumption|apply sscores_perm; assumption].
  Qed.
End SCHU.

Lemma row_ext (u u' : pvotes) : (forall p, pget0 u' p = pget0 u p) -> forall x t, row u' x t = row u x t.
Proof. intros E x t. induction t as [|a t IH]; [reflexivity|]. rewrite !row_cons, E, IH. reflexivity. Qed.
Lemma kemeny_score_ext (u u' : pvotes) : (forall p, pget0 u' p = pget0 u p) -> forall q, kemeny_score u' q = kemeny_score u q.
Proof. intros E q. induction q as [|a t IH]; [reflexivity|]. rewrite !kemeny_score_cons, (row_ext u u' E), IH. reflexivity. Qed.

Lemma kemeny_max_ext (u u' : pvotes) p : Permutation (candidates u) (candidates u') -> (forall q, pget0 u' q = pget0 u q) ->
  kemeny_max u p -> kemeny_max u' p.
Proof.
  intros Pc E [P M]. split; [eapply Permutation_trans; eassumption|]. intros q Hq. rewrite !(kemeny_score_ext u u' E). apply M.
  eapply Permutation_trans; [exact Hq|apply Permutation_sym, Pc].
Qed.

Lemma kemeny_transfer (u u' : pvotes) n r : Permutation (candidates u) (candidates u') -> (forall q, pget0 u' q = pget0 u q) ->
  kemeny u n = CR_ok r -> kemeny u' n = CR_ok r.
Proof.
  intros Pc E H. destruct (kemeny_defining u n r H) as (p & Hm & H0 & -> & Hall). apply kemeny_complete.
  - apply (kemeny_max_ext u u' p Pc E Hm).
  - rewrite (kemeny_score_ext u u' E). exact H0.
  - intros q Hq. apply Hall. apply (kemeny_max_ext u' u q (Permutation_sym Pc) (fun x => eq_sym (E x)) Hq).
Qed.

Theorem kemeny_perm v v' n : NoDup (map fst v) -> Permutation v v' -> kemeny v' n = kemeny v n.
Proof.
  intros Hnd Hp. pose proof (cands_perm v v' Hp) as Pc. pose proof (pget0_perm v v' Hnd Hp) as E.
  destruct (kemeny_cases v n) as [(p & _ & H)|H].
  - rewrite H. apply (kemeny_transfer v v' n _ Pc E H).
  - destruct (kemeny_cases v' n) as [(p & _ & H')|H']; [|congruence].
    pose proof (kemeny_transfer v' v n _ (Permutation_sym Pc) (fun x => eq_sym (E x)) H') as H''. congruence.
Qed.

Lemma firstn_nodup {X} k : forall l : list X, NoDup l -> NoDup (firstn k l).
Proof.
  induction k as [|k IH]; intros l N; [constructor|]. destruct l as [|x l]; [constructor|]. inversion N as [|? ? Hx Hn]; subst. simpl.
  constructor; [|apply IH, Hn]. intros H. apply Hx. rewrite <- (firstn_skipn k l). apply in_or_app. left. exact H.
Qed.

Lemma complete_small (u : pvotes) : (length (candidates u) < 2)%nat -> complete u = [].
Proof.
  unfold complete. destruct (candidates u) as [|c [|c' t]]; cbn [length flat_map app]; intros H; try lia; [reflexivity|].
  unfold ceqb. rewrite Pos.eqb_refl. reflexivity.
Qed.
Lemma smith_small (u : pvotes) t : (length (candidates u) < 2)%nat -> smith_schwartz u t = [].
Proof. intros H. unfold smith_schwartz. rewrite (complete_small u H). reflexivity. Qed.

Theorem smith_perm v v' : NoDup (map fst v) -> (forall p n, In (p, n) v -> 0 <= n) -> Permutation v v' ->
  Permutation (smith_schwartz v true) (smith_schwartz v' true).
Proof.
  intros Hnd Hnn Hp. pose proof (cands_perm v v' Hp) as Pc. pose proof (Permutation_length Pc) as Hlen.
  destruct (le_lt_dec 2 (length (candidates v))) as [H2|Hs].
  2:{ rewrite (smith_small v true Hs), (smith_small v' true ltac:(lia)). constructor. }
  assert (H2' : (2 <= length (candidates v'))%nat) by lia.
  pose proof (nn_perm v v' Hnn Hp) as Hnn'.
  destruct (smith_dominating v H2) as [Ne Dom]. destruct (smith_dominating v' H2') as [Ne' Dom'].
  assert (ND : forall u, NoDup (smith_schwartz u true)).
  { intros u. destruct (smith_schwartz_closed u true) as (-> & _). apply firstn_nodup, order_nodup. }
  apply NoDup_Permutation; try apply ND. intros x. split.
  - apply (smith_minimal v Hnn H2 _ Ne'). intros a b Ha Hb Hnb. unfold beats. rewrite <- !(pget0_perm v v' Hnd Hp).
    apply Dom'; [exact Ha|apply (cands_in v v' Hp), Hb|exact Hnb].
  - apply (smith_minimal v' Hnn' H2' _ Ne). intros a b Ha Hb Hnb. unfold beats. rewrite !(pget0_perm v v' Hnd Hp).
    apply Dom; [exact Ha|apply (cands_in v v' Hp), Hb|exact Hnb].
Qed.

(* the Schwartz routine (ties = false) is NOT order independent: two unbeaten candidates that tie each other
   (known finding C10-schwartz-order) *)
Definition schwartz_w1 : pvotes := mk_pv [(1,2,1);(2,1,1);(1,3,2);(3,1,0);(2,3,2);(3,2,0)].
Definition schwartz_w2 : pvotes := mk_pv [(2,1,1);(1,2,1);(2,3,2);(3,2,0);(1,3,2);(3,1,0)].

Definition list_perm_b (a b : pvotes) : bool :=
  Nat.eqb (length a) (length b) &&
  forallb (fun x : pair * Z => existsb (fun y : pair * Z => peqb (fst x) (fst y) && (snd x =? snd y)) b) a.

Lemma nodup_incl_perm (a b : pvotes) : NoDup a -> NoDup b -> length a = length b -> incl a b -> Permutation a b.
Proof.
  intros Na Nb L I. apply NoDup_Permutation; try assumption. intros x. split; [apply I|].
  apply (NoDup_length_incl Na); [lia|exact I].
Qed.

Lemma list_perm_b_sound a b : nodup_keys_b a = true -> nodup_keys_b b = true -> list_perm_b a b = true -> Permutation a b.
Proof.
  intros Na Nb H. unfold list_perm_b in H. apply andb_true_iff in H. destruct H as [HL HI]. apply Nat.eqb_eq in HL.
  apply nodup_incl_perm; try (apply (NoDup_map_inv fst), nodup_keys_b_sound; assumption); [exact HL|].
  intros [p n] Hx. rewrite forallb_forall in HI. specialize (HI _ Hx). apply existsb_exists in HI. destruct HI as ([q m] & Hy & E).
  simpl in E. apply andb_true_iff in E. destruct E as [E1 E2]. apply peqb_eq in E1. apply Z.eqb_eq in E2. subst. exact Hy.
Qed.

Theorem schwartz_order_refuted : exists v v', NoDup (map fst v) /\ (forall p n, In (p, n) v -> 0 <= n) /\ Permutation v v' /\
  exists c, In c (smith_schwartz v false) /\ ~ In c (smith_schwartz v' false).
Proof.
  exists schwartz_w1, schwartz_w2. split; [apply nodup_keys_b_sound; vm_compute; reflexivity|].
  split; [apply nonneg_b_sound; vm_compute; reflexivity|]. split; [apply list_perm_b_sound; vm_compute; reflexivity|].
  exists 1%positive. vm_compute. split; [left; reflexivity|]. intros [H|[]]. discriminate.
Qed.

Lemma zeqv_eqb a b : eqv zle_bool a b = (a =? b).
Proof.
  destruct (a =? b) eqn:E.
  - apply zeqv_eq. apply Z.eqb_eq. exact E.
  - apply not_true_iff_false. intros H. apply zeqv_eq in H. apply Z.eqb_neq in E. contradiction.
Qed.

(* ranked pairs sorts the pairs twice, stably; the result is the lexicographic sort, which a permutation of the input cannot change when the keys are distinct *)
Section LEX.
  Context {X : Type}.

  Lemma SS_filter (R : X -> X -> Prop) (f : X -> bool) l : StronglySorted R l -> StronglySorted R (filter f l).
  Proof.
    induction 1 as [|x t Hs IH Hall]; simpl; [constructor|]. destruct (f x); [|exact IH]. constructor; [exact IH|].
    apply Forall_forall. intros y Hy. apply filter_In in Hy. rewrite Forall_forall in Hall. apply Hall, Hy.
  Qed.

  Lemma tag_filter (K : X -> Z) k (L : list (X * Z)) : (forall it, In it L -> snd it = K (fst it)) ->
    map fst (filter (f_level zle_bool k) L) = filter (fun x => K x =? k) (map fst L).
  Proof.
    induction L as [|[x kx] L IH]; intros H; [reflexivity|]. cbn [filter map fst]. unfold f_level at 1. cbn [snd].
    rewrite zeqv_eqb. pose proof (H (x, kx) (or_introl eq_refl)) as E. simpl in E. subst kx.
    destruct (K x =? k); cbn [map fst]; rewrite IH; try reflexivity; intros it Hit; apply H; right; exact Hit.
  Qed.

  (* stability: the items with a given key keep their relative order *)
  Lemma sort_by_stable (K : X -> Z) k m : filter (fun x => K x =? k) (sort_desc_by K m) = filter (fun x => K x =? k) m.
  Proof.
    unfold sort_desc_by. set (tag := map (fun x => (x, K x)) m).
    assert (Ht : forall it, In it tag -> snd it = K (fst it)).
    { intros it Hit. unfold tag in Hit. apply in_map_iff in Hit. destruct Hit as (y & <- & _). reflexivity. }
    rewrite <- (tag_filter K k (sort_desc zle_bool tag)).
    2:{ intros it Hit. apply Ht. apply (Permutation_in _ (sort_desc_perm zle_bool tag)). exact Hit. }
    rewrite (sort_desc_filter_level zle_bool zle_trans k tag), (tag_filter K k tag Ht).
    unfold tag. rewrite map_map. simpl. rewrite map_id. reflexivity.
  Qed.

  Lemma sort_desc_by_ext (K K' : X -> Z) l : (forall x, K x = K' x) -> sort_desc_by K l = sort_desc_by K' l.
  Proof. intros E. unfold sort_desc_by. rewrite (map_ext (fun x => (x, K x)) (fun x => (x, K' x))); [reflexivity|]. intros x. rewrite E. reflexivity. Qed.

  Variables K1 K2 : X -> Z.
  Definition lexge (p q : X) : Prop := K2 q < K2 p \/ (K2 q = K2 p /\ K1 q <= K1 p).

  Lemma lex_sorted R : StronglySorted (fun p q => K2 q <= K2 p) R ->
    (forall k, StronglySorted (fun p q => K1 q <= K1 p) (filter (fun x => K2 x =? k) R)) -> StronglySorted lexge R.
  Proof.
    induction 1 as [|x t Hs IH Hall]; intros HF; constructor.
    - apply IH. intros k. specialize (HF k). simpl in HF. destruct (K2 x =? k); [inversion HF; assumption|exact HF].
    - apply Forall_forall. intros q Hq. rewrite Forall_forall in Hall. specialize (Hall q Hq). simpl in Hall.
      destruct (Z.eq_dec (K2 q) (K2 x)) as [E|NE]; [right|left; lia]. split; [exact E|].
      specialize (HF (K2 x)). simpl in HF. rewrite Z.eqb_refl in HF. inversion HF as [|? ? _ Hf]; subst. rewrite Forall_forall in Hf. apply Hf.
      apply filter_In. split; [exact Hq|]. apply Z.eqb_eq. exact E.
  Qed.

  (* sorted(key = votes) then sorted(key = score), both stable: the list is sorted by (score, votes) *)
  Lemma double_sort_lex l : StronglySorted lexge (sort_desc_by K2 (sort_desc_by K1 l)).
  Proof. apply lex_sorted; [apply sort_desc_by_sorted|]. intros k. rewrite sort_by_stable. apply SS_filter, sort_desc_by_sorted. Qed.

  Lemma sorted_unique (R : X -> X -> Prop) : forall a b, (forall x y, In x a -> In y a -> R x y -> R y x -> x = y) ->
    StronglySorted R a -> StronglySorted R b -> Permutation a b -> a = b.
  Proof.
    induction a as [|x t IH]; intros b AS Sa Sb P.
    - apply Permutation_nil in P. subst; reflexivity.
    - destruct b as [|y t']; [apply Permutation_sym, Permutation_nil in P; discriminate|].
      inversion Sa as [|? ? Sa' Fa]; subst. inversion Sb as [|? ? Sb' Fb]; subst.
      assert (Exy : x = y).
      { assert (Hx : In x (y :: t')) by (apply (Permutation_in _ P); left; reflexivity).
        assert (Hy : In y (x :: t)) by (apply (Permutation_in _ (Permutation_sym P)); left; reflexivity).
        destruct Hx as [->|Hx]; [reflexivity|]. destruct Hy as [->|Hy]; [reflexivity|].
        rewrite Forall_forall in Fa, Fb. apply AS; [left; reflexivity|right; exact Hy|apply Fa, Hy|apply Fb, Hx]. }
      subst y. f_equal. apply IH; try assumption; [|apply (Permutation_cons_inv P)].
      intros x' y' Hx' Hy'. apply AS; right; assumption.
  Qed.

  Lemma double_sort_perm l l' : Permutation l l' -> (forall x y, In x l -> In y l -> K1 x = K1 y -> K2 x = K2 y -> x = y) ->
    sort_desc_by K2 (sort_desc_by K1 l) = sort_desc_by K2 (sort_desc_by K1 l').
  Proof.
    intros P Inj.
    assert (Pl : forall m, Permutation (sort_desc_by K2 (sort_desc_by K1 m)) m).
    { intros m. eapply Permutation_trans; apply sort_desc_by_perm. }
    apply (sorted_unique lexge); try apply double_sort_lex.
    - intros x y Hx Hy [A|[A1 A2]] [B|[B1 B2]]; try lia. apply Inj; try lia; apply (Permutation_in _ (Pl l)); assumption.
    - eapply Permutation_trans; [apply Pl|]. eapply Permutation_trans; [exact P|]. apply Permutation_sym, Pl.
  Qed.
End LEX.

Fixpoint zz_nodup_b (l : list (Z * Z)) : bool :=
  match l with
  | [] => true
  | x :: t => negb (existsb (fun y => (fst x =? fst y) && (snd x =? snd y)) t) && zz_nodup_b t
  end.

Lemma zz_nodup_b_sound l : zz_nodup_b l = true -> NoDup l.
Proof.
  induction l as [|x t IH]; intros H; [constructor|]. simpl in H. apply andb_true_iff in H. destruct H as [H1 H2].
  constructor; [|apply IH, H2]. intros Hin. apply negb_true_iff in H1. apply not_true_iff_false in H1. apply H1.
  apply existsb_exists. exists x. split; [exact Hin|]. rewrite !Z.eqb_refl. reflexivity.
Qed.

Lemma NoDup_map_inj_in {X Y} (f : X -> Y) l : NoDup (map f l) -> forall x y, In x l -> In y l -> f x = f y -> x = y.
Proof.
  induction l as [|a l IH]; intros N x y Hx Hy E; [destruct Hx|]. simpl in N. inversion N as [|? ? Ha Hn]; subst.
  destruct Hx as [->|Hx], Hy as [->|Hy]; try reflexivity.
  - exfalso. apply Ha. rewrite E. apply in_map, Hy.
  - exfalso. apply Ha. rewrite <- E. apply in_map, Hx.
  - apply IH; assumption.
Qed.

(* the sort keys (strength under the scorer, votes for the pair) of the ordered pairs are pairwise distinct -
   the profiles the property quantifies ranked pairs over *)
Definition rp_distinct_b (s : scorer) (v : pvotes) : bool :=
  zz_nodup_b (map (fun p => (pget0 (score_pairs s (complete v)) p, pget0 (complete v) p)) (map fst (complete v))).

Theorem rp_pairs_perm s v v' : NoDup (map fst v) -> Permutation v v' -> rp_distinct_b s v = true -> rp_pairs s v' = rp_pairs s v.
Proof.
  intros Hnd Hp Hd. unfold rp_pairs. cbv zeta.
  pose proof (complete_perm v v' Hnd Hp) as Pc. pose proof (complete_keys_nodup v) as Nc.
  assert (Ns : NoDup (map fst (score_pairs s (complete v)))) by (rewrite score_pairs_keys; exact Nc).
  rewrite (sort_desc_by_ext (fun p => pget0 (score_pairs s (complete v')) p) (fun p => pget0 (score_pairs s (complete v)) p)).
  2:{ intros p. apply (pget0_perm _ _ Ns (score_pairs_perm s _ _ Nc Pc)). }
  rewrite (sort_desc_by_ext (fun p => pget0 (complete v') p) (fun p => pget0 (complete v) p)).
  2:{ intros p. apply (pget0_perm _ _ Nc Pc). }
  symmetry. apply double_sort_perm; [apply Permutation_map, Pc|].
  intros x y Hx Hy E1 E2. unfold rp_distinct_b in Hd. apply zz_nodup_b_sound in Hd.
  apply (NoDup_map_inj_in _ _ Hd x y Hx Hy). simpl. congruence.
Qed.

Theorem ranked_pairs_perm s v v' n : NoDup (map fst v) -> Permutation v v' -> rp_distinct_b s v = true ->
  ranked_pairs s v' n = ranked_pairs s v n.
Proof. intros Hnd Hp Hd. rewrite !ranked_pairs_unfold, (rp_pairs_perm s v v' Hnd Hp Hd). reflexivity. Qed.

Definition rp_ok_v : pvotes := mk_pv [(1,2,7);(2,1,3);(2,3,6);(3,2,4);(3,1,8);(1,3,2)].
Example rp_distinct_example : rp_distinct_b WinningVotes rp_ok_v = true /\ rp_distinct_b Margins rp_ok_v = true /\
  rp_distinct_b PairwiseOpposition rp_ok_v = true /\ ranked_pairs WinningVotes rp_ok_v 3 = CR_ok [Cand 3%positive; Cand 1%positive; Cand 2%positive].
Proof. vm_compute. repeat split; reflexivity. Qed.

(* with equal strengths the locking order - hence the winner - follows the insertion order: a three-cycle 2:1 *)
Definition rp_w1 : pvotes := mk_pv [(1,2,2);(2,1,1);(2,3,2);(3,2,1);(3,1,2);(1,3,1)].
Definition rp_w2 : pvotes := mk_pv [(2,3,2);(3,2,1);(3,1,2);(1,3,1);(1,2,2);(2,1,1)].

Theorem ranked_pairs_order_refuted : exists v v', NoDup (map fst v) /\ (forall p n, In (p, n) v -> 0 <= n) /\ Permutation v v' /\
  forall s, exists c c', c <> c' /\ ranked_pairs s v 1 = CR_ok [Cand c] /\ ranked_pairs s v' 1 = CR_ok [Cand c'].
Proof.
  exists rp_w1, rp_w2. split; [apply nodup_keys_b_sound; vm_compute; reflexivity|].
  split; [apply nonneg_b_sound; vm_compute; reflexivity|]. split; [apply list_perm_b_sound; vm_compute; reflexivity|].
  intros s. exists 1%positive, 2%positive. split; [discriminate|]. destruct s; vm_compute; split; reflexivity.
Qed.
