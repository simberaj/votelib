(* RoundedVotes beyond 28 significant digits (Model/Convert2.v round_code, dr_class): the library rounds a Fraction count twice - to
   28 significant digits (v = sig_round 28 x), then to d decimals.  The second rounding is a step function of its argument; it jumps
   only at the BOUNDARIES of the mode: the exact halves (2 n + 1) / (2 10^d) for ROUND_HALF_UP / HALF_DOWN / HALF_EVEN, the grid points
   2 k / (2 10^d) for the five directed modes.

     crosses m d x v = false  ->  round_q m d x == round_q m d v                                  crosses_false_round
     dr_class prec m d x = false  ->  round_code prec via m d x is the exact rounding (or InvalidOperation)   round_code_outside_class
     a half strictly between x and v  ->  the two roundings differ (three HALF modes)               half_strictly_between_differs

   so the class is exact for the HALF modes up to the case that x or v IS the boundary (where the tie rule of the mode decides). *)
From Coq Require Import ZArith QArith Qabs Qround Lqa Lia Bool List.
From VL Require Import Prelude.Sx Prelude.GDict Model.Convert2 Proofs.QOrd Proofs.Round_proofs.
Import ListNotations.
Open Scope Q_scope.

Lemma half_boundaries_mode m : half_boundaries m = half_mode m.
Proof. reflexivity. Qed.

Lemma odd_2n1 n : Z.odd (2 * n + 1) = true.
Proof. rewrite Z.add_comm, Z.odd_add_mul_2. reflexivity. Qed.
Lemma odd_2n k : Z.odd (2 * k) = false.
Proof. replace (2 * k)%Z with (0 + 2 * k)%Z by lia. rewrite Z.odd_add_mul_2. reflexivity. Qed.

Lemma inject_Z_odd n : inject_Z (2 * n + 1) == 2 * inject_Z n + 1.
Proof. rewrite inject_Z_plus, inject_Z_mult. reflexivity. Qed.

Lemma inject_Z_even k : inject_Z (2 * k) == 2 * inject_Z k.
Proof. rewrite inject_Z_mult. reflexivity. Qed.

Lemma rsig_half_err m t : half_mode m = true -> -(1#2) <= inject_Z (rsig m t) - t /\ inject_Z (rsig m t) - t <= (1#2).
Proof. exact (proj2 (rsig_err m t)). Qed.

(* when the roundings of a and b differ, the half above the rounding of a lies between a and b *)
Lemma rsig_half_between m a b : half_mode m = true -> (rsig m a < rsig m b)%Z ->
  2 * a <= inject_Z (2 * rsig m a + 1) /\ inject_Z (2 * rsig m a + 1) <= 2 * b.
Proof.
  intros Hh Hlt. pose proof (rsig_half_err m a Hh). pose proof (rsig_half_err m b Hh).
  assert (Hs : (rsig m a + 1 <= rsig m b)%Z) by lia. rewrite Zle_Qle, inject_Z_succ in Hs.
  rewrite inject_Z_odd. split; lra.
Qed.

Lemma rsig_half_const m a b : half_mode m = true -> a <= b ->
  (forall n : Z, ~ (2 * a <= inject_Z (2 * n + 1) /\ inject_Z (2 * n + 1) <= 2 * b)) ->
  rsig m a = rsig m b.
Proof.
  intros Hh Hab Hno. pose proof (rsig_mono m a b Hab) as Hm.
  destruct (Z.eq_dec (rsig m a) (rsig m b)) as [E|E]; [exact E|].
  destruct (Hno (rsig m a)). apply rsig_half_between; [exact Hh|lia].
Qed.

(* a half between a and b separates their roundings, unless a or b is that half and its tie goes the other way *)
Lemma rsig_half_sep m a b n : half_mode m = true ->
  2 * a <= inject_Z (2 * n + 1) -> inject_Z (2 * n + 1) <= 2 * b ->
  2 * a < inject_Z (2 * n + 1) \/ inject_Z (rsig m a) < a ->
  inject_Z (2 * n + 1) < 2 * b \/ b < inject_Z (rsig m b) ->
  (rsig m a < rsig m b)%Z.
Proof.
  intros Hh Ha Hb Sa Sb. pose proof (rsig_half_err m a Hh). pose proof (rsig_half_err m b Hh).
  rewrite inject_Z_odd in *.
  assert (rsig m a <= n)%Z by (apply inject_Z_lt_succ; lra).
  assert (n < rsig m b)%Z by (rewrite Zlt_Qlt; lra).
  lia.
Qed.

(* a2, b2 stand for 2 a, 2 b in whatever form the caller has them *)
Lemma rsig_half_differs_iff m a b a2 b2 : half_mode m = true -> a < b -> a2 == 2 * a -> b2 == 2 * b ->
  (rsig m a <> rsig m b <->
   ((exists n : Z, a2 < inject_Z (2 * n + 1) /\ inject_Z (2 * n + 1) < b2) \/
    ((exists n : Z, a2 == inject_Z (2 * n + 1)) /\ inject_Z (rsig m a) < a)) \/
   ((exists n : Z, b2 == inject_Z (2 * n + 1)) /\ b < inject_Z (rsig m b))).
Proof.
  intros Hh Hab Ea Eb. split.
  - intros Hne. pose proof (rsig_mono m a b (Qlt_le_weak _ _ Hab)) as Hm.
    destruct (rsig_half_between m a b Hh) as [H1 H2]; [lia|].
    assert (Hs : (rsig m a + 1 <= rsig m b)%Z) by lia. rewrite Zle_Qle, inject_Z_succ in Hs.
    destruct (Qlt_le_dec a2 (inject_Z (2 * rsig m a + 1))) as [L|L];
      [destruct (Qlt_le_dec (inject_Z (2 * rsig m a + 1)) b2) as [R|R]|].
    + left. left. exists (rsig m a). split; assumption.
    + right. split; [exists (rsig m a)|rewrite inject_Z_odd in *]; lra.
    + left. right. split; [exists (rsig m a)|rewrite inject_Z_odd in *]; lra.
  - intros [[(n & H1 & H2)|[(n & H1) H2]]|[(n & H1) H2]]; apply Z.lt_neq, (rsig_half_sep m a b n Hh); lra.
Qed.

Lemma mag_dir_const m neg a b k : half_mode m = false ->
  inject_Z k < a -> a <= b -> b < inject_Z k + 1 -> round_mag m neg a = round_mag m neg b.
Proof.
  intros Hh Ha Hab Hb. destruct (up_dir_form m neg k Hh) as [c Hc]. unfold round_mag.
  rewrite (floor_unique a k), (floor_unique b k), !Hc by lra.
  assert (E : forall t, inject_Z k < t -> Qle_bool (t - inject_Z k) 0 = false) by (intros t Ht; apply Qle_bool_false; lra).
  rewrite !E by lra. reflexivity.
Qed.

Lemma rsig_dir_const m a b : half_mode m = false -> a <= b ->
  (forall k : Z, ~ (a <= inject_Z k /\ inject_Z k <= b)) ->
  rsig m a = rsig m b.
Proof.
  intros Hh Hab Hno. destruct (floor_rem a) as [F1 F2].
  assert (A1 : inject_Z (Qfloor a) < a) by (apply Qnot_le_lt; intros H; apply (Hno (Qfloor a)); lra).
  assert (B1 : b < inject_Z (Qfloor a) + 1).
  { apply Qnot_le_lt. intros H. apply (Hno (Qfloor a + 1)%Z). rewrite inject_Z_succ. lra. }
  destruct (Z_le_gt_dec 0 (Qfloor a)) as [Hf|Hf].
  - rewrite Zle_Qle in Hf. change (inject_Z 0) with 0 in Hf.
    rewrite !rsig_nonneg by lra. apply (mag_dir_const m false a b (Qfloor a)); assumption.
  - assert (Hf' : inject_Z (Qfloor a + 1) <= inject_Z 0) by (rewrite <- Zle_Qle; lia).
    rewrite inject_Z_succ in Hf'. change (inject_Z 0) with 0 in Hf'.
    rewrite !rsig_neg by lra. f_equal. symmetry.
    apply (mag_dir_const m true (- b) (- a) (- (Qfloor a + 1))); [exact Hh|..]; rewrite ?inject_Z_opp, ?inject_Z_succ; lra.
Qed.

Lemma is_odd_int_spec t : is_odd_int t = true <-> exists n : Z, t == inject_Z (2 * n + 1).
Proof.
  unfold is_odd_int. rewrite andb_true_iff. split.
  - intros [H1 H2]. apply Qeq_bool_iff in H1. apply Z.odd_spec in H2. destruct H2 as [n Hn]. exists n. rewrite <- Hn. exact H1.
  - intros [n Hn]. assert (Qfloor t = (2 * n + 1)%Z) as E by (rewrite (Qfloor_comp _ _ Hn); apply Qfloor_Z).
    rewrite E. split; [apply Qeq_bool_iff; exact Hn|apply odd_2n1].
Qed.

Lemma odd_between_spec p q :
  ((Qfloor p + 1 <=? Qceiling q - 1)%Z && ((Qfloor p + 1 <? Qceiling q - 1)%Z || Z.odd (Qfloor p + 1))) = true <->
  exists n : Z, p < inject_Z (2 * n + 1) /\ inject_Z (2 * n + 1) < q.
Proof.
  pose proof (Qlt_floor p) as P1. pose proof (Qfloor_le p) as P0.
  pose proof (Qceiling_lt q) as Q1. pose proof (Qle_ceiling q) as Q0.
  split.
  - intros H. apply andb_true_iff in H. destruct H as [H1 H2]. apply Z.leb_le in H1.
    destruct (Z.odd (Qfloor p + 1)) eqn:Eo.
    + apply Z.odd_spec in Eo. destruct Eo as [n Hn]. exists n. rewrite <- Hn. split; [exact P1|].
      apply (Qle_lt_trans _ (inject_Z (Qceiling q - 1))); [rewrite <- Zle_Qle; exact H1|exact Q1].
    + rewrite orb_false_r in H2. apply Z.ltb_lt in H2.
      assert (Z.odd (Qfloor p + 1 + 1) = true) as Eo2 by (rewrite Z.odd_add, Eo; reflexivity).
      apply Z.odd_spec in Eo2. destruct Eo2 as [n Hn]. exists n. rewrite <- Hn. split.
      * apply (Qlt_le_trans _ (inject_Z (Qfloor p + 1))); [exact P1|rewrite <- Zle_Qle; lia].
      * apply (Qle_lt_trans _ (inject_Z (Qceiling q - 1))); [rewrite <- Zle_Qle; lia|exact Q1].
  - intros (n & H1 & H2).
    assert (A1 : (Qfloor p < 2 * n + 1)%Z) by (rewrite Zlt_Qlt; apply (Qle_lt_trans _ p); assumption).
    assert (A2 : (2 * n + 1 < Qceiling q)%Z) by (rewrite Zlt_Qlt; apply (Qlt_le_trans _ q); assumption).
    apply andb_true_iff. split; [apply Z.leb_le; lia|].
    destruct (Z.odd (Qfloor p + 1)) eqn:Eo; [apply orb_true_r|]. rewrite orb_false_r. apply Z.ltb_lt.
    destruct (Z.eq_dec (Qfloor p + 1) (2 * n + 1)) as [E|E]; [rewrite E, odd_2n1 in Eo; discriminate|lia].
Qed.

Section AT.
  Variable s : Q.
  Hypothesis s_pos : 0 < s.

  Lemma round_at_eq_iff m x y : round_at m s x == round_at m s y <-> rsig m (x * s) = rsig m (y * s).
  Proof.
    rewrite !(round_at_rsig s s_pos). split; [|intros ->; reflexivity].
    intros E. apply inject_Z_injective. assert (Hs : ~ s == 0) by lra.
    setoid_replace (inject_Z (rsig m (x * s))) with (inject_Z (rsig m (x * s)) / s * s) by (field; exact Hs).
    rewrite E. field. exact Hs.
  Qed.

  Lemma div_lt_iff (r : Z) t : inject_Z r / s < t <-> inject_Z r < t * s.
  Proof.
    split; intros H.
    - apply Qnot_le_lt. intros H2. apply (Qle_shift_div_l _ _ _ s_pos) in H2. apply (Qlt_not_le _ _ H H2).
    - apply Qlt_shift_div_r; assumption.
  Qed.
  Lemma div_gt_iff (r : Z) t : t < inject_Z r / s <-> t * s < inject_Z r.
  Proof.
    split; intros H.
    - apply Qnot_le_lt. intros H2. apply (Qle_shift_div_r _ _ _ s_pos) in H2. apply (Qlt_not_le _ _ H H2).
    - apply Qlt_shift_div_l; assumption.
  Qed.

  Lemma tie_down_iff m t : negb (Qle_bool t (round_at m s t)) = true <-> inject_Z (rsig m (t * s)) < t * s.
  Proof.
    rewrite negb_true_iff, Qle_bool_false. rewrite (round_at_rsig s s_pos m t). apply div_lt_iff.
  Qed.
  Lemma tie_up_iff m t : negb (Qle_bool (round_at m s t) t) = true <-> t * s < inject_Z (rsig m (t * s)).
  Proof.
    rewrite negb_true_iff, Qle_bool_false. rewrite (round_at_rsig s s_pos m t). apply div_gt_iff.
  Qed.

  (* no boundary of the mode in [lo, hi] (in units of 1 / (2 s): the odd integers for the HALF modes, the even ones otherwise) *)
  Definition between (m : rmode) (lo hi : Q) : bool :=
    let jl := Qceiling (lo * (2 * s)) in
    let jh := Qfloor (hi * (2 * s)) in
    (jl <=? jh)%Z && ((jl <? jh)%Z || Bool.eqb (Z.odd jl) (half_boundaries m)).

  Lemma between_false m lo hi j : between m lo hi = false -> Z.odd j = half_boundaries m ->
    ~ (lo * (2 * s) <= inject_Z j /\ inject_Z j <= hi * (2 * s)).
  Proof.
    unfold between. intros H Hj [H1 H2].
    pose proof (Qceiling_resp_le _ _ H1) as C1. rewrite Qceiling_Z in C1.
    pose proof (Qfloor_resp_le _ _ H2) as C2. rewrite Qfloor_Z in C2.
    apply andb_false_iff in H. destruct H as [H|H]; [apply Z.leb_gt in H; lia|].
    apply orb_false_iff in H. destruct H as [H3 H4]. apply Z.ltb_ge in H3.
    assert (Qceiling (lo * (2 * s)) = j) as E by lia. rewrite E, Hj, Bool.eqb_reflx in H4. discriminate.
  Qed.

  Lemma between_false_round m lo hi : lo <= hi -> between m lo hi = false -> round_at m s lo == round_at m s hi.
  Proof.
    intros Hle H. apply round_at_eq_iff.
    assert (Hab : lo * s <= hi * s) by (apply Qmult_le_compat_r; lra).
    destruct (half_mode m) eqn:Hh.
    - apply (rsig_half_const m _ _ Hh Hab). intros n [H1 H2].
      apply (between_false m lo hi (2 * n + 1) H); [rewrite half_boundaries_mode, Hh; apply odd_2n1|]. split; lra.
    - apply (rsig_dir_const m _ _ Hh Hab). intros k [H1 H2].
      apply (between_false m lo hi (2 * k) H); [rewrite half_boundaries_mode, Hh; apply odd_2n|].
      rewrite inject_Z_even. split; lra.
  Qed.

  (* the three HALF modes: the roundings of lo < hi differ exactly when a half lies strictly between them, or one of them
     is a half whose tie goes away from the other *)
  Theorem half_class_exact m lo hi : half_mode m = true -> lo < hi ->
    (((Qfloor (lo * (2 * s)) + 1 <=? Qceiling (hi * (2 * s)) - 1)%Z &&
      ((Qfloor (lo * (2 * s)) + 1 <? Qceiling (hi * (2 * s)) - 1)%Z || Z.odd (Qfloor (lo * (2 * s)) + 1)))
     || (is_odd_int (lo * (2 * s)) && negb (Qle_bool lo (round_at m s lo)))
     || (is_odd_int (hi * (2 * s)) && negb (Qle_bool (round_at m s hi) hi))) = true
    <-> ~ round_at m s lo == round_at m s hi.
  Proof.
    intros Hh Hlt.
    assert (Hab : lo * s < hi * s) by (apply Qmult_lt_compat_r; assumption).
    rewrite round_at_eq_iff, (rsig_half_differs_iff m _ _ (lo * (2 * s)) (hi * (2 * s)) Hh Hab) by ring.
    rewrite !orb_true_iff, odd_between_spec, !andb_true_iff, !is_odd_int_spec, tie_down_iff, tie_up_iff.
    reflexivity.
  Qed.

  Lemma half_between_differs m lo hi n : half_mode m = true ->
    lo * (2 * s) < inject_Z (2 * n + 1) -> inject_Z (2 * n + 1) < hi * (2 * s) -> ~ round_at m s lo == round_at m s hi.
  Proof.
    intros Hh H1 H2. assert (Hlt : lo < hi) by (apply (Qmult_lt_r _ _ (2 * s)); lra).
    apply (half_class_exact m lo hi Hh Hlt).
    rewrite !orb_true_iff, odd_between_spec. left. left. exists n. split; assumption.
  Qed.
End AT.

Lemma two_pow10 d : 0 < pow10 d.
Proof. apply pow10_pos. Qed.

Theorem crosses_false_round m d x v : crosses m d x v = false -> round_q m d x == round_q m d v.
Proof.
  unfold crosses, round_q. destruct (Qle_bool x v) eqn:E; intros H.
  - apply Qle_bool_iff in E. exact (between_false_round (pow10 d) (pow10_pos d) m x v E H).
  - apply Qle_bool_false in E. symmetry. apply (between_false_round (pow10 d) (pow10_pos d) m v x); [lra|exact H].
Qed.

(* outside the class the library's two roundings are the one exact rounding *)
Theorem dr_class_false_round prec m d x : dr_class prec m d x = false -> round_q m d (sig_round prec x) == round_q m d x.
Proof.
  unfold dr_class. cbv zeta. intros H. apply andb_false_iff in H. destruct H as [H|H].
  - apply negb_false_iff, Qeq_bool_iff in H. apply round_q_compat, H.
  - symmetry. apply crosses_false_round, H.
Qed.

Theorem round_code_outside_class prec via m d x : dr_class prec m d x = false \/ via = false ->
  round_code prec via m d x = RInvalid \/ exists r, round_code prec via m d x = ROk r /\ r == round_q m d x.
Proof.
  intros H. unfold round_code.
  destruct (Qle_bool (pow10 prec) _); [left; reflexivity|right].
  eexists; split; [reflexivity|]. destruct via; [|reflexivity].
  destruct H as [H|H]; [|discriminate]. apply dr_class_false_round, H.
Qed.

(* the class of C13_rounded_code_exact (the quotient is exact) lies outside the class *)
Lemma exact_outside_class prec m d x : sig_round prec x == x -> dr_class prec m d x = false.
Proof. intros H. unfold dr_class. cbv zeta. apply Qeq_bool_iff in H. rewrite H. reflexivity. Qed.

(* HALF modes: a half strictly between the count and its quotient gives the wrong neighbour *)
Theorem half_strictly_between_differs prec m d x n : half_mode m = true ->
  (x * (2 * pow10 d) < inject_Z (2 * n + 1) /\ inject_Z (2 * n + 1) < sig_round prec x * (2 * pow10 d)) \/
  (sig_round prec x * (2 * pow10 d) < inject_Z (2 * n + 1) /\ inject_Z (2 * n + 1) < x * (2 * pow10 d)) ->
  ~ round_q m d (sig_round prec x) == round_q m d x.
Proof.
  intros Hh [[H1 H2]|[H1 H2]] E.
  - apply (half_between_differs (pow10 d) (pow10_pos d) m x (sig_round prec x) n Hh H1 H2). symmetry. exact E.
  - exact (half_between_differs (pow10 d) (pow10_pos d) m (sig_round prec x) x n Hh H1 H2 E).
Qed.

(* the witnesses: inside the class and wrong (HALF_DOWN), inside the class and right all the same (HALF_UP: the quotient IS the half,
   the tie rule sends it to the neighbour the count itself goes to), outside the class although the quotient is inexact (1/3) *)
Lemma dr_class_witnesses :
  let x := (1#2) + (1 # 10 ^ 30) in
  dr_class 28 RHalfDown 0 x = true /\ round_code 28 true RHalfDown 0 x = ROk 0 /\ round_q RHalfDown 0 x == 1 /\
  dr_class 28 RHalfUp 0 x = true /\ round_code 28 true RHalfUp 0 x = ROk 1 /\ round_q RHalfUp 0 x == 1 /\
  dr_class 28 RHalfEven 2 (1#3) = false /\ Qeq_bool (sig_round 28 (1#3)) (1#3) = false /\
  dr_class 28 RUp 0 (1 + (1 # 10 ^ 30)) = true /\ round_code 28 true RUp 0 (1 + (1 # 10 ^ 30)) = ROk 1 /\
  round_q RUp 0 (1 + (1 # 10 ^ 30)) == 2.
Proof.
  (* the 28 digit quotients of the two long counts are evaluated once each *)
  assert (Eb : sig_round 28 (1 + (1 # 10 ^ 30)) = (10 ^ 27 # 10 ^ 27)) by (vm_compute; reflexivity).
  cbv zeta. unfold dr_class, round_code. cbv zeta. rewrite sig_round_half_eps, Eb. vm_compute. repeat split; reflexivity.
Qed.

Theorem crosses_half_exact m d x v : half_mode m = true -> ~ x == v ->
  (crosses_half m d x v = true <-> ~ round_q m d x == round_q m d v).
Proof.
  intros Hh Hne. unfold crosses_half, half_inside, round_q. destruct (Qle_bool x v) eqn:E.
  - apply Qle_bool_iff in E. assert (x < v) as Hlt by (apply Qnot_le_lt; intros H; apply Hne; lra).
    exact (half_class_exact (pow10 d) (pow10_pos d) m x v Hh Hlt).
  - apply Qle_bool_false in E. rewrite (half_class_exact (pow10 d) (pow10_pos d) m v x Hh E).
    split; intros H H2; apply H; symmetry; exact H2.
Qed.

(* HALF modes: the library's two roundings give the wrong neighbour EXACTLY on dr_class_half *)
Theorem dr_class_half_exact prec m d x : half_mode m = true ->
  (dr_class_half prec m d x = true <-> ~ round_q m d (sig_round prec x) == round_q m d x).
Proof.
  intros Hh. unfold dr_class_half. cbv zeta. destruct (Qeq_bool (sig_round prec x) x) eqn:E; cbn [negb andb].
  - apply Qeq_bool_iff in E. split; [discriminate|]. intros H. exfalso. apply H, round_q_compat, E.
  - assert (Hne : ~ x == sig_round prec x).
    { intros H. symmetry in H. apply Qeq_bool_iff in H. congruence. }
    rewrite (crosses_half_exact m d x (sig_round prec x) Hh Hne). split; intros H H2; apply H; symmetry; exact H2.
Qed.

(* the exact class lies inside the geometric one *)
Lemma dr_class_half_sub prec m d x : half_mode m = true -> dr_class_half prec m d x = true -> dr_class prec m d x = true.
Proof.
  intros Hh H. destruct (dr_class prec m d x) eqn:E; [reflexivity|]. exfalso.
  apply (proj1 (dr_class_half_exact prec m d x Hh) H). apply dr_class_false_round, E.
Qed.

Theorem round_code_half_exact prec m d x r : half_mode m = true -> round_code prec true m d x = ROk r ->
  (r == round_q m d x <-> dr_class_half prec m d x = false).
Proof.
  intros Hh. unfold round_code. destruct (Qle_bool (pow10 prec) _); [discriminate|]. intros H. injection H as <-.
  pose proof (dr_class_half_exact prec m d x Hh) as Hx. destruct (dr_class_half prec m d x).
  - split; [|discriminate]. intros H. exfalso. apply (proj1 Hx eq_refl), H.
  - split; [reflexivity|]. intros _.
    destruct (Qeq_dec (round_q m d (sig_round prec x)) (round_q m d x)) as [H|H]; [exact H|].
    apply Hx in H. discriminate.
Qed.
