(* Lemmas for Props/C18.v, part 1: history-freedom of the instance state machines of Model/State.v. *)
From Coq Require Import ZArith QArith List Bool Arith Lia.
From VL Require Import Prelude.Sx Prelude.PyDict Prelude.GDict Model.GetNBest Model.Convert Model.Cardinal Model.State.
From VL Require Proofs.Dict_proofs.
Import ListNotations.
Open Scope nat_scope.

(* a state machine whose outputs on the probed calls are the same from every state of an invariant is history-free *)
Section Generic.
  Context {St Call Out : Type}.
  Variable step : St -> Call -> St * Out.
  Variable init : St.
  Variable Inv : St -> Prop.
  Variable probe : Call -> Prop.
  Hypothesis Hinit : Inv init.
  Hypothesis Hstep : forall s c, Inv s -> Inv (fst (step s c)).
  Hypothesis Hout : forall s c, Inv s -> probe c -> snd (step s c) = snd (step init c).

  Lemma run_inv_from : forall cs s, Inv s -> Inv (run step s cs).
  Proof.
    induction cs as [|c cs IH]; intros s Hs; simpl; [exact Hs|].
    apply IH. apply Hstep. exact Hs.
  Qed.

  Lemma history_free_generic : forall cs c, probe c -> out_after step init cs c = out_after step init [] c.
  Proof.
    intros cs c Hc. unfold out_after. simpl. apply Hout; [|exact Hc].
    apply run_inv_from. exact Hinit.
  Qed.

  (* the whole output sequence on a shared object = each call on its own fresh object *)
  Lemma outs_fresh : forall cs s, Inv s -> Forall probe cs ->
    outs step s cs = map (fun c => snd (step init c)) cs.
  Proof.
    induction cs as [|c cs IH]; intros s Hs Hp; simpl; [reflexivity|].
    inversion Hp as [|? ? Hc Hcs]; subst.
    rewrite (Hout s c Hs Hc). f_equal. apply IH; [apply Hstep; exact Hs|exact Hcs].
  Qed.
End Generic.

Lemma omap_ext_in : forall {X Y} (f g : X -> option Y) (l : list X),
  (forall x, In x l -> f x = g x) -> omap f l = omap g l.
Proof.
  induction l as [|x l IH]; intros H; simpl; [reflexivity|].
  rewrite (H x (or_introl eq_refl)). rewrite IH; [reflexivity|].
  intros y Hy. apply H. right. exact Hy.
Qed.

Lemma omap_pair_fst : forall {X Y} (g : X -> option Y) (l : list X) (r : list (X * Y)),
  omap (fun a => match g a with Some s => Some (a, s) | None => None end) l = Some r -> map fst r = l.
Proof.
  induction l as [|x l IH]; intros r H; simpl in H.
  - inversion H. reflexivity.
  - destruct (g x) as [s|]; [|discriminate].
    destruct (omap _ l) as [ys|] eqn:E; [|discriminate].
    inversion H; subst. simpl. f_equal. apply IH. reflexivity.
Qed.

Lemma in_map_fst_filter : forall {X Y} (p : X * Y -> bool) (l : list (X * Y)) (a : X),
  In a (map fst (filter p l)) -> In a (map fst l).
Proof.
  intros X Y p l a H. apply in_map_iff in H. destruct H as [[x y] [Hx Hin]].
  apply filter_In in Hin. destruct Hin as [Hin _]. apply in_map_iff. exists (x, y). split; assumption.
Qed.

Lemma combos_length : forall (l : list C) (n : nat) (a : list C), In a (combos l n) -> length a = n.
Proof.
  induction l as [|x l IH]; intros n a H; destruct n as [|n]; simpl in H.
  - destruct H as [H|[]]. subst. reflexivity.
  - destruct H.
  - destruct H as [H|[]]. subst. reflexivity.
  - apply in_app_or in H. destruct H as [H|H].
    + apply in_map_iff in H. destruct H as [b [Hb Hin]]. subst. simpl. f_equal. apply IH. exact Hin.
    + apply IH. exact H.
Qed.

Lemma nth_error_seq_lt : forall m a k, k < m -> nth_error (seq a m) k = Some (a + k).
Proof.
  induction m as [|m IH]; intros a k H; [lia|].
  destruct k as [|k]; simpl; [f_equal; lia|].
  rewrite IH by lia. f_equal. lia.
Qed.

Definition harm_prefix (coefs : list Q) : Prop := exists m, 1 <= m /\ coefs = map harm (seq 0 m).

Lemma harm_prefix_init : harm_prefix pav_init.
Proof. exists 1. split; [lia|reflexivity]. Qed.

Lemma harm_prefix_look : forall m k, k < m -> nth_error (map harm (seq 0 m)) k = Some (harm k).
Proof. intros m k H. rewrite nth_error_map, nth_error_seq_lt by exact H. reflexivity. Qed.

(* after the (repaired) extension the table is the harmonic prefix of some length > n *)
Lemma extend_harm : forall coefs n, harm_prefix coefs ->
  exists m, n + 1 <= m /\ pav_extend false coefs n = map harm (seq 0 m).
Proof.
  intros coefs n [m [Hm Hc]]. unfold pav_extend. subst coefs. rewrite map_length, seq_length.
  destruct (Nat.leb m n) eqn:E.
  - apply Nat.leb_le in E. exists (n + 1). split; [lia|].
    rewrite <- map_app. f_equal.
    replace (n + 1) with (m + (n + 1 - m)) at 2 by lia. rewrite seq_app. reflexivity.
  - apply Nat.leb_gt in E. exists m. split; [lia|reflexivity].
Qed.

Lemma extend_keeps_prefix : forall coefs n, harm_prefix coefs -> harm_prefix (pav_extend false coefs n).
Proof.
  intros coefs n H. destruct (extend_harm coefs n H) as [m [Hm He]]. exists m. split; [lia|exact He].
Qed.

Lemma isect_le : forall alt b, isect alt b <= length alt.
Proof. intros. unfold isect. apply Dict_proofs.filter_len_le. Qed.

Lemma sat_tbl_ext : forall (l1 l2 : nat -> option Q) votes alt,
  (forall k, k <= length alt -> l1 k = l2 k) -> sat_tbl l1 votes alt = sat_tbl l2 votes alt.
Proof.
  intros l1 l2 votes alt H. unfold sat_tbl. generalize (Some 0%Q).
  induction votes as [|bw votes IH]; intros acc; simpl; [reflexivity|].
  rewrite (H (isect alt (fst bw)) (isect_le _ _)). apply IH.
Qed.

(* the outcome reads the table only at indices 0..n *)
Lemma pav_look_ext : forall (l1 l2 : nat -> option Q) votes n,
  (forall k, k <= n -> l1 k = l2 k) -> pav_look l1 votes n = pav_look l2 votes n.
Proof.
  intros l1 l2 votes n H. unfold pav_look.
  set (cands := canon_set (flat_map fst votes)).
  assert (Hsat : forall a, length a <= n -> sat_tbl l1 votes a = sat_tbl l2 votes a).
  { intros a Ha. apply sat_tbl_ext. intros k Hk. apply H. lia. }
  rewrite (omap_ext_in
             (fun a => match sat_tbl l1 votes a with Some s => Some (a, s) | None => None end)
             (fun a => match sat_tbl l2 votes a with Some s => Some (a, s) | None => None end)).
  2:{ intros a Ha. rewrite Hsat; [reflexivity|]. rewrite (combos_length _ _ _ Ha). lia. }
  destruct (omap _ (combos cands n)) as [scored|] eqn:Escored; [|reflexivity].
  pose proof (omap_pair_fst _ _ _ Escored) as Hfst.
  set (best_alts := match scored with
                    | [] => []
                    | (_, s0) :: _ =>
                        map fst (filter (fun sa => Qeq_bool (snd sa)
                          (fold_left (fun b sa0 => if Qle_bool b (snd sa0) then snd sa0 else b) scored s0)) scored)
                    end).
  assert (Hin : forall a, In a best_alts -> length a = n).
  { intros a Ha. apply (combos_length cands). rewrite <- Hfst. unfold best_alts in Ha.
    destruct scored as [|[a0 s0] sc]; [destruct Ha|]. eapply in_map_fst_filter. exact Ha. }
  fold best_alts.
  destruct best_alts as [|alt [|alt2 rest]]; try reflexivity.
  assert (Ha : length alt = n) by (apply Hin; left; reflexivity).
  rewrite (omap_ext_in
             (fun c => match sat_tbl l1 votes (filter (fun x => negb (ceqb x c)) alt) with
                       | Some s => Some (c, (- s)%Q) | None => None end)
             (fun c => match sat_tbl l2 votes (filter (fun x => negb (ceqb x c)) alt) with
                       | Some s => Some (c, (- s)%Q) | None => None end)); [reflexivity|].
  intros c _. rewrite Hsat; [reflexivity|].
  pose proof (Dict_proofs.filter_len_le (fun x => negb (ceqb x c)) alt). lia.
Qed.

Lemma pav_out_fresh : forall coefs c, harm_prefix coefs ->
  snd (pav_step false coefs c) = snd (pav_step false pav_init c).
Proof.
  intros coefs [votes n] H. unfold pav_step. simpl.
  destruct (extend_harm coefs n H) as [m1 [Hm1 E1]].
  destruct (extend_harm pav_init n harm_prefix_init) as [m2 [Hm2 E2]].
  rewrite E1, E2. apply pav_look_ext. intros k Hk.
  rewrite !harm_prefix_look by lia. reflexivity.
Qed.

Lemma pav_history_free : forall cs c,
  out_after (pav_step false) pav_init cs c = out_after (pav_step false) pav_init [] c.
Proof.
  intros cs c.
  apply (history_free_generic (pav_step false) pav_init harm_prefix (fun _ => True)); auto.
  - exact harm_prefix_init.
  - intros s [v n] Hs. simpl. apply extend_keeps_prefix. exact Hs.
  - intros s c0 Hs _. apply pav_out_fresh. exact Hs.
Qed.

(* the table never loses an entry and stays the harmonic table whatever was asked before *)
Lemma pav_state_inv : forall cs, harm_prefix (run (pav_step false) pav_init cs).
Proof.
  intros cs. apply (run_inv_from (pav_step false) harm_prefix).
  - intros s [v n] Hs. simpl. apply extend_keeps_prefix. exact Hs.
  - exact harm_prefix_init.
Qed.

(* pinned tree (strict comparison): one seat on a fresh object raises IndexError, after a two-seat
   call the same input is answered *)
Lemma pav_pinned_history_dependent :
  exists cs c, out_after (pav_step true) pav_init cs c <> out_after (pav_step true) pav_init [] c.
Proof.
  exists [([([1%positive], 1%Q)], 2)], ([([1%positive], 1%Q)], 1).
  vm_compute. discriminate.
Qed.

Lemma borda_convert_reset : forall base s votes,
  borda_step base s (BConvert votes) = borda_step base borda_init (BConvert votes).
Proof. reflexivity. Qed.

Lemma borda_history_free : forall base cs c, is_convert c = true ->
  out_after (borda_step base) borda_init cs c = out_after (borda_step base) borda_init [] c.
Proof.
  intros base cs c Hc. destruct c; try discriminate. unfold out_after. simpl. reflexivity.
Qed.

(* the stored table read back by scores() is the closed form the C13 converter model uses *)
Lemma borda_scores_closed_form : forall base k n,
  borda_scores_st (borda_set_n base k) n =
  match rank_scores (Borda base) k n with Some l => inl l | None => inr BE_value end.
Proof. intros. unfold borda_scores_st, rank_scores. simpl. destruct (Nat.ltb k n); reflexivity. Qed.

Lemma img_positional_st_closed : forall base k r,
  img_positional_st (borda_set_n base k) r = img_positional (Borda base) k r.
Proof.
  intros. unfold img_positional_st, img_positional. rewrite borda_scores_closed_form.
  destruct (rank_scores _ _ _); reflexivity.
Qed.

Lemma conv_fold_ext : forall {B} (f g : B -> list (sx * Q)) (votes : list (B * Q)) (acc : list (sx * Q)),
  (forall b, f b = g b) ->
  fold_left (fun acc bw => fold_left (fun acc kc => gadd sx_eqb acc (fst kc) (snd kc * snd bw)%Q) (f (fst bw)) acc) votes acc =
  fold_left (fun acc bw => fold_left (fun acc kc => gadd sx_eqb acc (fst kc) (snd kc * snd bw)%Q) (g (fst bw)) acc) votes acc.
Proof.
  intros B f g votes acc H. revert acc.
  induction votes as [|bw votes IH]; intros acc; simpl; [reflexivity|].
  rewrite H. apply IH.
Qed.

Lemma oconv_ext : forall {B} (f g : B -> option (list (sx * Q))) (votes : list (B * Q)),
  (forall b, f b = g b) -> oconv f votes = oconv g votes.
Proof.
  intros B f g votes H. unfold oconv.
  assert (E1 : forallb (fun bw => match f (fst bw) with Some _ => true | None => false end) votes =
               forallb (fun bw => match g (fst bw) with Some _ => true | None => false end) votes).
  { induction votes as [|bw votes IH]; simpl; [reflexivity|]. rewrite H, IH. reflexivity. }
  rewrite E1.
  destruct (forallb (fun bw => match g (fst bw) with Some _ => true | None => false end) votes); [|reflexivity].
  f_equal. unfold dconv, conv. apply (conv_fold_ext (fun b => match f b with Some l => l | None => [] end)
                         (fun b => match g b with Some l => l | None => [] end)).
  intros b. rewrite H. reflexivity.
Qed.

(* the shared-scorer conversion is the pure converter model the C13 theorems are about *)
Lemma borda_convert_is_C13_model : forall base s votes,
  snd (borda_step base s (BConvert votes)) =
  BO_conv (oconv (img_positional (Borda base) (length (cands_ranked votes))) votes).
Proof.
  intros. simpl. f_equal. apply oconv_ext. intros b. apply img_positional_st_closed.
Qed.

Section SeededProofs.
  Variable G : Type.
  Variable seedf : Z -> G.
  Variable entropy : G -> G.
  Context {In Out : Type}.
  Variable body : G -> In -> Out * G.

  (* whatever happened to the process-wide generator before (other seeds, unseeded components,
     foreign users), a seeded component answers as in a fresh process *)
  Lemma seeded_history_free : forall (g0 g1 : G) cs c, is_seeded G c = true ->
    out_after (rstep G seedf entropy body) g0 cs c = out_after (rstep G seedf entropy body) g1 [] c.
  Proof.
    intros g0 g1 cs c Hc. destruct c as [s i|i|f]; try discriminate.
    unfold out_after. simpl. destruct (body (seedf s) i). reflexivity.
  Qed.

  (* same seed, same input => same choice, at any two positions of any two histories *)
  Lemma seeded_repeats : forall g0 g1 cs1 cs2 s i,
    out_after (rstep G seedf entropy body) g0 cs1 (RSeeded G s i) =
    out_after (rstep G seedf entropy body) g1 cs2 (RSeeded G s i).
  Proof.
    intros. unfold out_after. simpl. destruct (body (seedf s) i). reflexivity.
  Qed.
End SeededProofs.
