(* Lemmas for property C07: COMPLETENESS of the feasibility reference [feasible_ref] (Model/Biprop.v): with
   duplicate-free index lists and non-negative marginals it never answers [FeasUnknown] - it returns a matrix with the
   marginals and the support, or a Hall-type cut (both are re-checked: soundness is Proofs/Biprop_steps.v).

   The reference is a unit-augmenting-path max-flow: rows with a deficit are labelled, columns are labelled from labelled
   rows along the support, rows from labelled columns along positive cells; a labelled column with spare demand gives an
   augmenting path ([push_back] walks the predecessor labels), otherwise the labelled rows are a cut.
     1. the labelling sweeps are instances of the generic sweep of Proofs/BipropTerm_proofs.v; after
        |rows| + |columns| + 1 sweeps the labels are closed under both rules;
     2. predecessors are labelled earlier (rank = position among the labelled rows), so [push_back] reaches a deficit row
        within its fuel, never decrements an empty cell, and adds exactly one unit of flow;
     3. with closed labels and no labelled column with spare demand the labelled rows violate Hall's condition: [cut_ok];
     4. the total deficit drops by one per augmentation: the outer fuel suffices. *)
From Coq Require Import ZArith QArith List Bool Lia Arith.
From VL Require Import Prelude.PyDict Model.Divisor Model.HighestAverages Model.Biprop Model.BipropLoop
     Proofs.Dict_proofs Proofs.Divisor_proofs Proofs.Biprop_proofs Proofs.Biprop_steps Proofs.BipropLoop_proofs
     Proofs.BipropTerm_proofs.
Import ListNotations.
Open Scope Z_scope.

Lemma dget_app_l {X} (l a : list (C * X)) k : In k (map fst l) -> dget (l ++ a) k = dget l k.
Proof.
  induction l as [|[k0 v0] l IH]; simpl; [tauto|]. intros H. destruct (ceqb k k0) eqn:E; [reflexivity|].
  apply IH. destruct H as [H|H]; [subst k0; rewrite ceqb_refl in E; discriminate|exact H].
Qed.
Lemma dget_app_r {X} (l a : list (C * X)) k : ~ In k (map fst l) -> dget (l ++ a) k = dget a k.
Proof.
  induction l as [|[k0 v0] l IH]; simpl; [reflexivity|]. intros H. destruct (ceqb k k0) eqn:E.
  - apply ceqb_eq in E. subst k0. exfalso. apply H. left. reflexivity.
  - apply IH. intros Hi. apply H. right. exact Hi.
Qed.

Lemma fold_left_fst {A X Y} (f : A -> X -> A) (l : list (X * Y)) a :
  fold_left (fun acc xy => f acc (fst xy)) l a = fold_left f (map fst l) a.
Proof. revert a. induction l as [|x l IH]; intros a; simpl; [reflexivity|apply IH]. Qed.

Lemma fold_left_some {A B} (f : A -> B -> A) (g : option A -> B -> option A) (l : list B) :
  (forall a x, g (Some a) x = Some (f a x)) -> forall a, fold_left g l (Some a) = Some (fold_left f l a).
Proof. intros H. induction l as [|x l IH]; intros a; simpl; [reflexivity|]. rewrite H. apply IH. Qed.

Fixpoint idx (k : C) (l : list C) : nat :=
  match l with [] => O | x :: t => if ceqb k x then O else S (idx k t) end.
Lemma idx_lt k l : In k l -> (idx k l < length l)%nat.
Proof.
  induction l as [|x l IH]; simpl; [tauto|]. intros H. destruct (ceqb k x) eqn:E; [lia|].
  destruct H as [H|H]; [subst x; rewrite ceqb_refl in E; discriminate|]. specialize (IH H). lia.
Qed.
Lemma idx_app_l k l a : In k l -> idx k (l ++ a) = idx k l.
Proof.
  induction l as [|x l IH]; simpl; [tauto|]. intros H. destruct (ceqb k x) eqn:E; [reflexivity|].
  destruct H as [H|H]; [subst x; rewrite ceqb_refl in E; discriminate|]. rewrite (IH H). reflexivity.
Qed.
Lemma idx_app_r k l a : ~ In k l -> (length l <= idx k (l ++ a))%nat.
Proof.
  induction l as [|x l IH]; simpl; [lia|]. intros H. destruct (ceqb k x) eqn:E.
  - apply ceqb_eq in E. subst x. exfalso. apply H. left. reflexivity.
  - assert (H' : ~ In k l) by (intros Hi; apply H; right; exact Hi). specialize (IH H'). lia.
Qed.

(* the labels of a search point backwards: the row that labelled a column is labelled; a row labelled from a column
   comes after the row that labelled that column; a row without a predecessor is one of the roots *)
Record Back (roots : list C) (LR : list (C * option C)) (LC : list (C * C)) : Prop := {
  bk_col : forall j i, dget LC j = Some i -> In i (map fst LR);
  bk_row : forall i j, dget LR i = Some (Some j) ->
             exists i'', dget LC j = Some i'' /\ (idx i'' (map fst LR) < idx i (map fst LR))%nat;
  bk_root : forall i, dget LR i = Some None -> In i roots
}.

(* one round of a search: columns from the labelled rows, then rows from the labelled columns *)
Lemma Back_round roots avail1 test1 avail2 test2 inner1 inner2 LR LC LC1 LR1 : Back roots LR LC ->
  gsweep avail1 test1 (fun o => o) (map fst LR) inner1 (Some LC) = Some LC1 ->
  gsweep avail2 test2 (fun o => Some o) (map fst LC1) inner2 (Some LR) = Some LR1 ->
  Back roots LR1 LC1.
Proof.
  intros B H1 H2.
  destruct (gsweep_spec _ _ _ inner1 (map fst LR) LC LC1 H1) as (aC & -> & AC & _).
  destruct (gsweep_spec _ _ _ inner2 (map fst (LC ++ aC)) LR LR1 H2) as (aR & -> & AR & _).
  assert (Hcol : forall j i, dget (LC ++ aC) j = Some i -> In i (map fst LR)).
  { intros j i H. destruct (in_dec Pos.eq_dec j (map fst LC)) as [Hj|Hj].
    - rewrite (dget_app_l LC aC j Hj) in H. apply (bk_col _ _ _ B j i H).
    - rewrite (dget_app_r LC aC j Hj) in H. apply dget_In in H. destruct (AC j i H) as (_ & o & Ho & -> & _). exact Ho. }
  constructor.
  - intros j i H. rewrite map_app. apply in_or_app. left. apply (Hcol j i H).
  - intros i j H. destruct (in_dec Pos.eq_dec i (map fst LR)) as [Hi|Hi].
    + rewrite (dget_app_l LR aR i Hi) in H. destruct (bk_row _ _ _ B i j H) as (i'' & Hd & Hlt).
      exists i''. split; [rewrite (dget_app_l LC aC j (dget_In_key _ _ _ Hd)); exact Hd|].
      rewrite map_app, !idx_app_l; [exact Hlt|exact Hi|apply (bk_col _ _ _ B j i'' Hd)].
    + (* a new row: the column that labelled it was labelled from a row of the previous round *)
      rewrite (dget_app_r LR aR i Hi) in H. apply dget_In in H. destruct (AR i (Some j) H) as (_ & o & Ho & Ev & _).
      injection Ev as <-. apply dmem_keys in Ho. unfold dmem in Ho. destruct (dget (LC ++ aC) j) as [i''|] eqn:Ed; [|discriminate].
      exists i''. split; [reflexivity|]. pose proof (Hcol j i'' Ed) as Hi''.
      rewrite map_app, (idx_app_l i'' _ _ Hi''). pose proof (idx_lt i'' _ Hi''). pose proof (idx_app_r i (map fst LR) (map fst aR) Hi). lia.
  - intros i H. destruct (in_dec Pos.eq_dec i (map fst LR)) as [Hi|Hi].
    + rewrite (dget_app_l LR aR i Hi) in H. apply (bk_root _ _ _ B i H).
    + rewrite (dget_app_r LR aR i Hi) in H. apply dget_In in H. destruct (AR i None H) as (_ & o & _ & Ev & _). discriminate.
Qed.

Lemma Back_init roots : Back roots (map (fun i => (i, @None C)) roots) [].
Proof.
  constructor.
  - intros j i H. discriminate.
  - intros i j H. apply dget_In, in_map_iff in H. destruct H as (x & E & _). discriminate.
  - intros i H. apply dget_In_key in H. rewrite map_map, map_id in H. exact H.
Qed.

Lemma zsum_le_eq {X} (f g : X -> Z) l : (forall x, In x l -> f x <= g x) -> zsum (map f l) = zsum (map g l) ->
  forall x, In x l -> f x = g x.
Proof.
  intros H E x Hx. destruct (Z.eq_dec (f x) (g x)) as [e|n]; [exact e|exfalso].
  assert (f x < g x) by (specialize (H x Hx); lia). pose proof (zsum_map_lt f g l x H Hx H0). lia.
Qed.

Lemma cell_eqb a i b j : ceqb a i && ceqb b j = true <-> a = i /\ b = j.
Proof. rewrite andb_true_iff, !ceqb_eq. reflexivity. Qed.

Lemma mget_madd m i j delta i' j' :
  mget (madd m i j delta) i' j' = mget m i' j' + (if ceqb i' i && ceqb j' j then delta else 0).
Proof.
  unfold madd. rewrite mget_dset_row. destruct (ceqb i' i) eqn:Ei; simpl; [|lia].
  apply ceqb_eq in Ei. subst i'. rewrite dget_or_dset. unfold mget.
  destruct (dget m i) as [row|]; destruct (ceqb j' j) eqn:Ej; try (apply ceqb_eq in Ej; subst j'); unfold dget_or; simpl; lia.
Qed.
Lemma rowsum_madd m i j delta ps i' : NoDup ps -> In j ps ->
  rowsum (madd m i j delta) ps i' = rowsum m ps i' + (if ceqb i' i then delta else 0).
Proof.
  intros Hnd Hj. unfold rowsum.
  rewrite (zsum_map_ext _ (fun j' => mget m i' j' + (if ceqb i' i && ceqb j' j then delta else 0)) ps) by (intros; apply mget_madd).
  rewrite zsum_map_plus. f_equal. destruct (ceqb i' i); simpl.
  - apply (zsum_point j delta ps Hnd Hj).
  - apply zsum_map_zero.
Qed.
Lemma colsum_madd m i j delta ds j' : NoDup ds -> In i ds ->
  colsum (madd m i j delta) ds j' = colsum m ds j' + (if ceqb j' j then delta else 0).
Proof.
  intros Hnd Hi. unfold colsum.
  rewrite (zsum_map_ext _ (fun i' => mget m i' j' + (if ceqb i' i && ceqb j' j then delta else 0)) ds) by (intros; apply mget_madd).
  rewrite zsum_map_plus. f_equal. destruct (ceqb j' j); simpl.
  - rewrite (zsum_map_ext _ (fun i' => if ceqb i' i then delta else 0) ds) by (intros x _; rewrite andb_true_r; reflexivity).
    apply (zsum_point i delta ds Hnd Hi).
  - rewrite (zsum_map_ext _ (fun _ => 0) ds) by (intros x _; rewrite andb_false_r; reflexivity). apply zsum_map_zero.
Qed.

Section FlowC.
  Variables ds ps : list C.
  Variable sup : C -> C -> bool.
  Variables r c : C -> Z.
  Hypothesis Hds : NoDup ds.
  Hypothesis Hps : NoDup ps.

  (* a partial flow: non-negative, on the support, no row above its supply r, no column above its demand c *)
  Record FInv (m : mat) : Prop := {
    fi_nonneg : forall i j, In i ds -> In j ps -> 0 <= mget m i j;
    fi_sup : forall i j, In i ds -> In j ps -> sup i j = false -> mget m i j = 0;
    fi_rows : forall i, In i ds -> rowsum m ps i <= r i;
    fi_cols : forall j, In j ps -> colsum m ds j <= c j
  }.

  Lemma FInv_ext m m' : (forall i j, mget m' i j = mget m i j) -> FInv m -> FInv m'.
  Proof.
    intros E F.
    assert (Er : forall i, rowsum m' ps i = rowsum m ps i) by (intros i; apply zsum_map_ext; intros j _; apply E).
    assert (Ec : forall j, colsum m' ds j = colsum m ds j) by (intros j; apply zsum_map_ext; intros i _; apply E).
    constructor.
    - intros i j Hi Hj. rewrite E. apply (fi_nonneg _ F i j Hi Hj).
    - intros i j Hi Hj Hs. rewrite E. apply (fi_sup _ F i j Hi Hj Hs).
    - intros i Hi. rewrite Er. apply (fi_rows _ F i Hi).
    - intros j Hj. rewrite Ec. apply (fi_cols _ F j Hj).
  Qed.

  (* delta more units in a supported cell, where the cell, its row and its column have room for them *)
  Lemma FInv_madd m i j delta : FInv m -> In i ds -> In j ps -> sup i j = true ->
    0 <= mget m i j + delta -> rowsum m ps i + delta <= r i -> colsum m ds j + delta <= c j ->
    FInv (madd m i j delta).
  Proof.
    intros F Hi Hj Hs Hcell Hrow Hcol. constructor.
    - intros a b Ha Hb. rewrite mget_madd. pose proof (fi_nonneg _ F a b Ha Hb).
      destruct (ceqb a i && ceqb b j) eqn:E; [|lia]. apply cell_eqb in E. destruct E as [-> ->]. lia.
    - intros a b Ha Hb Hs'. rewrite mget_madd, (fi_sup _ F a b Ha Hb Hs').
      destruct (ceqb a i && ceqb b j) eqn:E; [|lia]. apply cell_eqb in E. destruct E as [-> ->]. congruence.
    - intros a Ha. rewrite (rowsum_madd m i j delta ps a Hps Hj). pose proof (fi_rows _ F a Ha).
      destruct (ceqb a i) eqn:E; [apply ceqb_eq in E; subst a|]; lia.
    - intros b Hb. rewrite (colsum_madd m i j delta ds b Hds Hi). pose proof (fi_cols _ F b Hb).
      destruct (ceqb b j) eqn:E; [apply ceqb_eq in E; subst b|]; lia.
  Qed.

  (* a unit moved within row i, from a cell that holds one to a supported cell whose column has spare demand: the
     same cells as taking the unit out first and putting it in afterwards, when the row has room for it *)
  Lemma FInv_move m i j j' : FInv m -> In i ds -> In j ps -> In j' ps -> sup i j = true ->
    0 < mget m i j' -> colsum m ds j < c j -> FInv (madd (madd m i j 1) i j' (-1)).
  Proof.
    intros F Hi Hj Hj' Hs Hpos Hcol.
    assert (Hs' : sup i j' = true).
    { destruct (sup i j') eqn:E; [reflexivity|]. pose proof (fi_sup _ F i j' Hi Hj' E). lia. }
    apply (FInv_ext (madd (madd m i j' (-1)) i j 1)); [intros a b; rewrite !mget_madd; lia|].
    pose proof (fi_nonneg _ F i j Hi Hj). pose proof (fi_rows _ F i Hi). pose proof (fi_cols _ F j' Hj').
    apply FInv_madd; try assumption.
    - apply FInv_madd; try assumption; lia.
    - rewrite mget_madd. destruct (ceqb i i && ceqb j j'); lia.
    - rewrite (rowsum_madd m i j' (-1) ps i Hps Hj'), ceqb_refl. lia.
    - rewrite (colsum_madd m i j' (-1) ds j Hds Hi). destruct (ceqb j j'); lia.
  Qed.

  Section Labels.
    Variable m : mat.
    Variable deficit : list C.
    Hypothesis Hdef_nd : NoDup deficit.
    Hypothesis Hdef_in : forall i, In i deficit -> In i ds.

    Definition csweep (lr : rlab) (lc : clab) : clab :=
      fold_left (fun acc ip =>
        fold_left (fun acc j => if dmem acc j || negb (sup (fst ip) j) then acc else acc ++ [(j, fst ip)]) ps acc) lr lc.
    Definition rsweep (lr : rlab) (lc' : clab) : rlab :=
      fold_left (fun acc jp =>
        fold_left (fun acc i => if dmem acc i || negb (0 <? mget m i (fst jp)) then acc else acc ++ [(i, Some (fst jp))]) ds acc) lc' lr.

    Lemma sweep_eq lr lc : sweep ds ps sup m (lr, lc) = (rsweep lr (csweep lr lc), csweep lr lc).
    Proof. reflexivity. Qed.

    Lemma csweep_g lr lc :
      gsweep (fun _ _ => true) sup (fun o => o) (map fst lr) ps (Some lc) = Some (csweep lr lc).
    Proof.
      unfold gsweep, csweep.
      rewrite (fold_left_fst (fun acc i => fold_left (fun acc j => if dmem acc j || negb (sup i j) then acc else acc ++ [(j, i)]) ps acc) lr lc).
      apply fold_left_some. intros a i. apply fold_left_some. intros a' j. unfold gstep.
      destruct (dmem a' j); [reflexivity|]. destruct (sup i j); reflexivity.
    Qed.
    Lemma rsweep_g lr lc' :
      gsweep (fun _ _ => true) (fun o k => 0 <? mget m k o) (fun o => Some o) (map fst lc') ds (Some lr) = Some (rsweep lr lc').
    Proof.
      unfold gsweep, rsweep.
      rewrite (fold_left_fst (fun acc j => fold_left (fun acc i => if dmem acc i || negb (0 <? mget m i j) then acc else acc ++ [(i, Some j)]) ds acc) lc' lr).
      apply fold_left_some. intros a j. apply fold_left_some. intros a' i. unfold gstep.
      destruct (dmem a' i); [reflexivity|]. destruct (0 <? mget m i j); reflexivity.
    Qed.

    (* the labels: distinct districts / parties; a party is labelled from a district across a supported cell, a district
       from a party across a cell that holds a seat ([pi_pos]: the seat can be taken back); labels point backwards *)
    Record PInv (lr : rlab) (lc : clab) : Prop := {
      pi_ndR : NoDup (map fst lr);
      pi_ndC : NoDup (map fst lc);
      pi_keysR : forall i, In i (map fst lr) -> In i ds;
      pi_keysC : forall j, In j (map fst lc) -> In j ps;
      pi_sup : forall j i, In (j, i) lc -> sup i j = true;
      pi_pos : forall i j, In (i, Some j) lr -> 0 < mget m i j;
      pi_back : Back deficit lr lc
    }.

    Definition closedF (lr : rlab) (lc : clab) : Prop :=
      (forall i j, In i (map fst lr) -> In j ps -> sup i j = true -> In j (map fst lc)) /\
      (forall j i, In j (map fst lc) -> In i ds -> 0 < mget m i j -> In i (map fst lr)).

    Definition lr0 : rlab := map (fun i => (i, @None C)) deficit.
    Lemma lr0_keys : map fst lr0 = deficit.
    Proof. unfold lr0. rewrite map_map. apply map_id. Qed.

    Lemma PInv_init : PInv lr0 [].
    Proof.
      constructor.
      - rewrite lr0_keys. exact Hdef_nd.
      - constructor.
      - intros i Hi. rewrite lr0_keys in Hi. apply Hdef_in, Hi.
      - intros j [].
      - intros j i [].
      - intros i j H. apply in_map_iff in H. destruct H as (x & E & _). discriminate.
      - apply Back_init.
    Qed.

    Lemma PInv_size lr lc : PInv lr lc -> (length lr + length lc <= length ds + length ps)%nat.
    Proof.
      intros I. rewrite <- (map_length fst lr), <- (map_length fst lc).
      pose proof (NoDup_incl_length (pi_ndR _ _ I) (pi_keysR _ _ I)). pose proof (NoDup_incl_length (pi_ndC _ _ I) (pi_keysC _ _ I)). lia.
    Qed.

    Lemma sweep_spec lr lc : PInv lr lc ->
      exists aR aC, sweep ds ps sup m (lr, lc) = (lr ++ aR, lc ++ aC) /\ PInv (lr ++ aR) (lc ++ aC) /\
        (forall i j, In i (map fst lr) -> In j ps -> sup i j = true -> In j (map fst (lc ++ aC))) /\
        (forall j i, In j (map fst (lc ++ aC)) -> In i ds -> 0 < mget m i j -> In i (map fst (lr ++ aR))).
    Proof.
      intros I. rewrite sweep_eq.
      pose proof (csweep_g lr lc) as G1. pose proof (rsweep_g lr (csweep lr lc)) as G2.
      pose proof (Back_round _ _ _ _ _ _ _ _ _ _ _ (pi_back _ _ I) G1 G2) as B.
      destruct (gsweep_spec _ _ _ ps (map fst lr) lc _ G1) as (aC & EC & AC & NC & CC & _).
      rewrite EC in G2, B, NC, CC |- *.
      destruct (gsweep_spec _ _ _ ds (map fst (lc ++ aC)) lr _ G2) as (aR & ER & AR & NR & CR & _).
      rewrite ER in B, NR, CR |- *.
      exists aR, aC. split; [reflexivity|]. split; [constructor|].
      - apply NR, (pi_ndR _ _ I).
      - apply NC, (pi_ndC _ _ I).
      - intros i Hi. rewrite map_app in Hi. apply in_app_or in Hi. destruct Hi as [Hi|Hi]; [apply (pi_keysR _ _ I i Hi)|].
        apply in_map_iff in Hi. destruct Hi as ([i0 v] & <- & Hin). apply (AR i0 v Hin).
      - intros j Hj. rewrite map_app in Hj. apply in_app_or in Hj. destruct Hj as [Hj|Hj]; [apply (pi_keysC _ _ I j Hj)|].
        apply in_map_iff in Hj. destruct Hj as ([j0 v] & <- & Hin). apply (AC j0 v Hin).
      - intros j i H. apply in_app_or in H. destruct H as [H|H]; [apply (pi_sup _ _ I j i H)|].
        destruct (AC j i H) as (_ & o & _ & -> & Ht). exact Ht.
      - intros i j H. apply in_app_or in H. destruct H as [H|H]; [apply (pi_pos _ _ I i j H)|].
        destruct (AR i (Some j) H) as (_ & o & _ & [= ->] & Ht). apply Z.ltb_lt, Ht.
      - exact B.
      - split.
        + intros i j Hi Hj Hs. apply (CC i j Hi Hj Hs).
        + intros j i Hj Hi Hpos. apply (CR j i Hj Hi). apply Z.ltb_lt, Hpos.
    Qed.

    Lemma sweeps_fix st : sweep ds ps sup m st = st -> forall n, sweeps ds ps sup n m st = st.
    Proof. intros H. induction n as [|n IH]; simpl; [reflexivity|]. rewrite H. exact IH. Qed.

    Lemma sweeps_closed : forall n lr lc, PInv lr lc -> (length ds + length ps < n + (length lr + length lc))%nat ->
      exists lr' lc', sweeps ds ps sup n m (lr, lc) = (lr', lc') /\ PInv lr' lc' /\ closedF lr' lc' /\
        forall i, In i (map fst lr) -> In i (map fst lr').
    Proof.
      induction n as [|n IH]; intros lr lc I Hn.
      - pose proof (PInv_size lr lc I). lia.
      - destruct (sweep_spec lr lc I) as (aR & aC & Es & I1 & C1 & C2).
        change (sweeps ds ps sup (S n) m (lr, lc)) with (sweeps ds ps sup n m (sweep ds ps sup m (lr, lc))). rewrite Es.
        destruct aR as [|xr aR]; [destruct aC as [|xc aC]|].
        + rewrite !app_nil_r in Es |- *. rewrite app_nil_r in C1. rewrite !app_nil_r in C2. exists lr, lc. split; [apply (sweeps_fix (lr, lc) Es)|]. split; [exact I|]. split; [split; assumption|auto].
        + rewrite app_nil_r in I1 |- *.
          destruct (IH lr (lc ++ xc :: aC) I1) as (lr' & lc' & E & I' & Cl & Hk); [rewrite app_length; simpl; lia|].
          exists lr', lc'. auto.
        + destruct (IH (lr ++ xr :: aR) (lc ++ aC) I1) as (lr' & lc' & E & I' & Cl & Hk); [rewrite !app_length; simpl; lia|].
          exists lr', lc'. split; [exact E|]. split; [exact I'|]. split; [exact Cl|].
          intros i Hi. apply Hk. rewrite map_app. apply in_or_app. left. exact Hi.
    Qed.
  End Labels.

  Section Push.
    Variable m : mat.
    Variable deficit : list C.
    Variable lr : rlab.
    Variable lc : clab.
    Hypothesis HP : PInv m deficit lr lc.
    Hypothesis Hdef : forall i, In i deficit -> rowsum m ps i < r i.

    Lemma push_back_ok : forall fuel mc j i,
      dget lc j = Some i -> (idx i (map fst lr) < fuel)%nat ->
      FInv mc -> In j ps -> colsum mc ds j < c j ->
      (forall i', In i' (map fst lr) -> (idx i' (map fst lr) <= idx i (map fst lr))%nat -> forall j', mget mc i' j' = mget m i' j') ->
      exists m', push_back fuel mc lr lc j = Some m' /\ FInv m' /\
                 zsum (map (fun a => rowsum m' ps a) ds) = zsum (map (fun a => rowsum mc ps a) ds) + 1.
    Proof.
      induction fuel as [|f IH]; intros mc j i Hj Hf Fc Hjp Hspare Hag; [lia|].
      pose proof (bk_col _ _ _ (pi_back _ _ _ _ HP) j i Hj) as Hilr. pose proof (pi_sup _ _ _ _ HP j i (dget_In _ _ _ Hj)) as Hsup.
      pose proof (pi_keysR _ _ _ _ HP i Hilr) as Hids.
      cbn [push_back]. rewrite Hj.
      destruct (dget lr i) as [[j'|]|] eqn:El.
      - (* an inner row: it gives a seat back to the column it was labelled from *)
        pose proof (pi_pos _ _ _ _ HP i j' (dget_In _ _ _ El)) as Hpos.
        destruct (bk_row _ _ _ (pi_back _ _ _ _ HP) i j' El) as (i'' & Hj' & Hlt).
        pose proof (pi_keysC _ _ _ _ HP j' (dget_In_key _ _ _ Hj')) as Hj'p.
        assert (Hmi : mget mc i j' = mget m i j') by (apply Hag; [exact Hilr|lia]).
        set (m2 := madd (madd mc i j 1) i j' (-1)).
        assert (Hrow : forall a, rowsum m2 ps a = rowsum mc ps a).
        { intros a. unfold m2. rewrite (rowsum_madd _ i j' (-1) ps a Hps Hj'p), (rowsum_madd _ i j 1 ps a Hps Hjp). destruct (ceqb a i); lia. }
        destruct (IH m2 j' i'' Hj') as (m' & Em & Fm & Tm).
        + lia.
        + apply FInv_move; try assumption. lia.
        + exact Hj'p.
        + unfold m2. rewrite (colsum_madd _ i j' (-1) ds j' Hds Hids), (colsum_madd _ i j 1 ds j' Hds Hids), ceqb_refl.
          pose proof (fi_cols _ Fc j' Hj'p). destruct (ceqb j' j) eqn:E1; [apply ceqb_eq in E1; subst j'; lia|lia].
        + intros i' Hi' Hle b. unfold m2. rewrite !mget_madd.
          assert (Hne : ceqb i' i = false) by (apply ceqb_neq; intros ->; lia).
          rewrite Hne. simpl. rewrite !Z.add_0_r. apply Hag; [exact Hi'|lia].
        + exists m'. split; [exact Em|]. split; [exact Fm|]. rewrite Tm. f_equal. apply zsum_map_ext. intros a _. apply Hrow.
      - (* a deficit row: the path ends, one more unit of flow *)
        exists (madd mc i j 1). split; [reflexivity|]. split.
        + apply FInv_madd; try assumption.
          * pose proof (fi_nonneg _ Fc i j Hids Hjp). lia.
          * assert (E : rowsum mc ps i = rowsum m ps i).
            { apply zsum_map_ext. intros b _. apply Hag; [exact Hilr|lia]. }
            pose proof (Hdef i (bk_root _ _ _ (pi_back _ _ _ _ HP) i El)). lia.
          * lia.
        + rewrite (zsum_map_ext _ (fun a => rowsum mc ps a + (if ceqb a i then 1 else 0)) ds) by (intros; apply rowsum_madd; assumption).
          rewrite zsum_map_plus, (zsum_point i 1 ds Hds Hids). reflexivity.
      - exfalso. apply (dget_none_notin _ _ El Hilr).
    Qed.
  End Push.

  Lemma labels_cut m deficit lr lc i0 :
    PInv m deficit lr lc -> closedF m lr lc -> FInv m ->
    In i0 ds -> In i0 (map fst lr) -> rowsum m ps i0 < r i0 ->
    filter (fun jp : C * C => colsum m ds (fst jp) <? c (fst jp)) lc = [] ->
    cut_ok ds ps sup r c (map fst lr) = true.
  Proof.
    intros HP [C1 C2] HF Hi0 Hi0S Hdef Hnos.
    unfold cut_ok. apply orb_true_iff. right. apply Z.ltb_lt.
    set (S := map fst lr) in *.
    set (S' := filter (fun i => cmem i S) ds).
    set (T := reach ds ps sup S).
    assert (HT : forall j, In j T -> In j ps /\ In j (map fst lc)).
    { intros j Hj. unfold T, reach in Hj. apply filter_In in Hj. destruct Hj as [Hjp Hex]. split; [exact Hjp|].
      apply existsb_exists in Hex. destruct Hex as (i & Hi & Hb). apply andb_true_iff in Hb. destruct Hb as [Hc Hs].
      apply cmem_In in Hc. apply (C1 i j Hc Hjp Hs). }
    assert (Hsat : forall j, In j T -> colsum m ds j = c j).
    { intros j Hj. destruct (HT j Hj) as [Hjp Hjl]. pose proof (fi_cols _ HF j Hjp) as Hle.
      apply in_map_iff in Hjl. destruct Hjl as ([j0 p] & <- & Hin). cbn [fst] in *.
      pose proof (filter_nil _ _ Hnos (j0, p) Hin) as Hf. cbv beta in Hf. cbn [fst] in Hf. apply Z.ltb_ge in Hf. lia. }
    assert (HS' : forall i, In i S' -> In i ds /\ In i S).
    { intros i Hi. apply filter_In in Hi. destruct Hi as [H1 H2]. split; [exact H1|apply cmem_In, H2]. }
    (* the demand of the reached columns is met by the labelled rows alone *)
    assert (E1 : zsum (map c T) = zsum (map (fun j => zsum (map (fun i => mget m i j) S')) T)).
    { apply zsum_map_ext. intros j Hj. rewrite <- (Hsat j Hj). unfold colsum, S'. symmetry. apply zsum_filter_eq.
      intros i Hi Hf. destruct (HT j Hj) as [Hjp Hjl].
      pose proof (fi_nonneg _ HF i j Hi Hjp) as Hnn.
      destruct (Z.eq_dec (mget m i j) 0) as [e|n]; [exact e|exfalso].
      assert (Hin : In i S) by (apply (C2 j i Hjl Hi); lia). apply cmem_In in Hin. congruence. }
    rewrite (zsum_swap (fun j i => mget m i j) T S') in E1.
    assert (E2 : zsum (map (fun i => zsum (map (fun j => mget m i j) T)) S') <= zsum (map (fun i => rowsum m ps i) S')).
    { apply zsum_map_le. intros i Hi. unfold rowsum, T, reach. apply zsum_filter_le.
      intros j Hj. apply (fi_nonneg _ HF i j (proj1 (HS' i Hi)) Hj). }
    assert (E3 : zsum (map (fun i => rowsum m ps i) S') < zsum (map r S')).
    { apply (zsum_map_lt _ _ S' i0).
      - intros i Hi. apply (fi_rows _ HF i (proj1 (HS' i Hi))).
      - unfold S'. apply filter_In. split; [exact Hi0|apply cmem_In, Hi0S].
      - exact Hdef. }
    fold T. fold S'. lia.
  Qed.

  Definition gap (m : mat) : Z := zsum (map (fun i => r i - rowsum m ps i) ds).

  Lemma gap_nonneg m : FInv m -> 0 <= gap m.
  Proof. intros HF. unfold gap. apply zsum_map_nonneg. intros i Hi. pose proof (fi_rows _ HF i Hi). lia. Qed.

  Lemma flow_loop_complete : zsum (map r ds) = zsum (map c ps) ->
    forall fuel m, FInv m -> gap m < Z.of_nat fuel -> flow_loop ds ps sup r c fuel m <> FeasUnknown.
  Proof.
    intros Htot. induction fuel as [|f IH]; intros m HF Hg; [pose proof (gap_nonneg m HF); lia|].
    cbn [flow_loop].
    destruct (filter (fun i => rowsum m ps i <? r i) ds) as [|x dl] eqn:Ed.
    - (* no deficit: the matrix has the marginals *)
      assert (Hok : matrix_ok ds ps sup r c m = true).
      { apply matrix_ok_iff.
        assert (Hrows : forall i, In i ds -> rowsum m ps i = r i).
        { intros i Hi. pose proof (filter_nil _ _ Ed i Hi) as Hf. cbv beta in Hf. apply Z.ltb_ge in Hf. pose proof (fi_rows _ HF i Hi). lia. }
        split; [exact Hrows|]. split.
        - apply (zsum_le_eq (fun j => colsum m ds j) c ps (fi_cols _ HF)).
          rewrite <- Htot. rewrite <- (zsum_map_ext (fun i => rowsum m ps i) r ds Hrows).
          unfold rowsum, colsum. symmetry. apply (zsum_swap (fun i j => mget m i j)).
        - intros i j Hi Hj. split; [apply (fi_nonneg _ HF i j Hi Hj)|apply (fi_sup _ HF i j Hi Hj)]. }
      rewrite Hok. discriminate.
    - set (deficit := x :: dl) in *.
      assert (Hdef_nd : NoDup deficit) by (rewrite <- Ed; apply NoDup_filter, Hds).
      assert (Hdef_in : forall i, In i deficit -> In i ds /\ rowsum m ps i < r i).
      { intros i Hi. rewrite <- Ed in Hi. apply filter_In in Hi. destruct Hi as [H1 H2]. apply Z.ltb_lt in H2. auto. }
      destruct (sweeps_closed m deficit (length ds + length ps + 1) (lr0 deficit) []
                  (PInv_init m deficit Hdef_nd (fun i Hi => proj1 (Hdef_in i Hi)))) as (lr & lc & Es & HP & Cl & Hk); [lia|].
      match goal with |- context [sweeps ?a ?b ?c0 ?n ?mm ?st] => replace (sweeps a b c0 n mm st) with (lr, lc) by (symmetry; exact Es) end.
      destruct (filter (fun jp : C * C => colsum m ds (fst jp) <? c (fst jp)) lc) as [|[j p] rest] eqn:Esp.
      + (* no labelled column has spare demand: a cut *)
        assert (Hx : In x deficit) by (left; reflexivity).
        assert (Hcut : cut_ok ds ps sup r c (map fst lr) = true).
        { apply (labels_cut m deficit lr lc x HP Cl HF (proj1 (Hdef_in x Hx))); [|apply (Hdef_in x Hx)|exact Esp].
          apply Hk. rewrite lr0_keys. exact Hx. }
        rewrite Hcut. discriminate.
      + (* an augmenting path *)
        assert (Hin : In (j, p) (filter (fun jp : C * C => colsum m ds (fst jp) <? c (fst jp)) lc)) by (rewrite Esp; left; reflexivity).
        apply filter_In in Hin. destruct Hin as [Hjl Hsp]. cbn [fst] in Hsp. apply Z.ltb_lt in Hsp.
        assert (Hjk : In j (map fst lc)) by (apply in_map_iff; exists (j, p); auto).
        assert (Hd : exists i, dget lc j = Some i).
        { apply dmem_keys in Hjk. unfold dmem in Hjk. destruct (dget lc j) as [i|]; [exists i; reflexivity|discriminate]. }
        destruct Hd as (i & Hd).
        pose proof (bk_col _ _ _ (pi_back _ _ _ _ HP) j i Hd) as Hilr.
        destruct (push_back_ok m deficit lr lc HP (fun a Ha => proj2 (Hdef_in a Ha)) (length ds + length ps + 2) m j i Hd) as (m' & Em & Fm & Tm).
        * pose proof (idx_lt i _ Hilr) as H1. rewrite map_length in H1. pose proof (PInv_size m deficit lr lc HP). lia.
        * exact HF.
        * apply (pi_keysC _ _ _ _ HP j Hjk).
        * exact Hsp.
        * reflexivity.
        * rewrite Em. apply (IH m' Fm).
          assert (Eg : forall mm, gap mm = zsum (map r ds) - zsum (map (fun a => rowsum mm ps a) ds)).
          { intros mm. unfold gap. apply (zsum_map_minus r (fun a => rowsum mm ps a) ds). }
          rewrite Eg in Hg |- *. rewrite Tm. lia.
  Qed.

  Theorem feasible_ref_complete : (forall i, In i ds -> 0 <= r i) -> (forall j, In j ps -> 0 <= c j) ->
    feasible_ref ds ps sup r c <> FeasUnknown.
  Proof.
    intros Hr Hc. unfold feasible_ref. destruct (negb (zsum (map r ds) =? zsum (map c ps))) eqn:Et.
    - unfold cut_ok. rewrite Et. discriminate.
    - apply negb_false_iff, Z.eqb_eq in Et. apply (flow_loop_complete Et).
      + constructor.
        * intros i j _ _. unfold mget. simpl. lia.
        * intros i j _ _ _. reflexivity.
        * intros i Hi. unfold rowsum. rewrite (zsum_map_ext _ (fun _ => 0) ps) by reflexivity. rewrite zsum_map_zero. apply Hr, Hi.
        * intros j Hj. unfold colsum. rewrite (zsum_map_ext _ (fun _ => 0) ds) by reflexivity. rewrite zsum_map_zero. apply Hc, Hj.
      + unfold gap.
        assert (E : zsum (map (fun i => r i - rowsum [] ps i) ds) = zsum (map (fun i => Z.max 0 (r i)) ds)).
        { apply zsum_map_ext. intros i Hi. unfold rowsum. rewrite (zsum_map_ext _ (fun _ => 0) ps) by reflexivity. rewrite zsum_map_zero.
          pose proof (Hr i Hi). lia. }
        rewrite E. assert (0 <= zsum (map (fun i => Z.max 0 (r i)) ds)) by (apply zsum_map_nonneg; intros; lia). lia.
  Qed.
End FlowC.
