(* MergedSelections (Model/Convert2.v merged_selections, convert.py L653-690): the defining clause of the docstring -
   "the candidates are ordered by their positions in the district-wide result lists".

   Every candidate gets two tallies that are SUMS over the partial result lists (so the converter treats its input as the
   sum of the lists, like every other converter of C13): the number of lists it appears in ([appearances]) and the sum of
   its reversed ranks, len(list) - 1 - index ([ranksum]).  The result is the list of the distinct candidates in order of
   first appearance ([firsts]), sorted STABLY by (appearances, ranksum), larger first:

     merged_selections el = map fst (isort (map (fun c => (c, tally el c)) (firsts el)))         merged_selections_defining

   hence a permutation of the distinct candidates (nobody lost, nobody doubled), sorted, ties in first-appearance order, and
   a single duplicate-free list converts to itself. *)
From Coq Require Import ZArith List Bool Lia Permutation Sorted.
From VL Require Import Prelude.Sx Prelude.PyDict Prelude.GDict Model.Convert Model.Convert2 Proofs.Convert_proofs.
Import ListNotations.
Open Scope Z_scope.

Fixpoint occ (c : sx) (l : list sx) : Z :=
  match l with [] => 0 | x :: t => (if sx_eqb c x then 1 else 0) + occ c t end.
(* the reversed rank of a position is the length of the rest of the list *)
Fixpoint rks (c : sx) (l : list sx) : Z :=
  match l with [] => 0 | x :: t => (if sx_eqb c x then Z.of_nat (length t) else 0) + rks c t end.
Definition appearances (el : list (list sx)) (c : sx) : Z := fold_right (fun l acc => occ c l + acc) 0 el.
Definition ranksum (el : list (list sx)) (c : sx) : Z := fold_right (fun l acc => rks c l + acc) 0 el.
Definition tally (el : list (list sx)) (c : sx) : Z * Z := (appearances el c, ranksum el c).

(* both tallies are additive over the union of two sets of partial results *)
Lemma appearances_app a b c : appearances (a ++ b) c = appearances a c + appearances b c.
Proof. unfold appearances. induction a as [|l a IH]; simpl; [reflexivity|]. rewrite IH. ring. Qed.
Lemma ranksum_app a b c : ranksum (a ++ b) c = ranksum a c + ranksum b c.
Proof. unfold ranksum. induction a as [|l a IH]; simpl; [reflexivity|]. rewrite IH. ring. Qed.

(* distinct candidates in order of first appearance *)
Definition add_first (acc : list sx) (c : sx) : list sx := if existsb (sx_eqb c) acc then acc else acc ++ [c].
Definition firsts (el : list (list sx)) : list sx := fold_left add_first (concat el) [].

Lemma existsb_sx c (l : list sx) : existsb (sx_eqb c) l = true <-> In c l.
Proof.
  rewrite existsb_exists. split.
  - intros (x & Hx & E). apply sx_eqb_eq in E. subst. exact Hx.
  - intros H. exists c. split; [exact H|apply sx_eqb_refl].
Qed.

Lemma add_first_In acc c x : In x (add_first acc c) <-> In x acc \/ x = c.
Proof.
  unfold add_first. destruct (existsb (sx_eqb c) acc) eqn:E.
  - apply existsb_sx in E. split; [intros H; left; exact H|intros [H|H]; [exact H|subst; exact E]].
  - rewrite in_app_iff. simpl. split.
    + intros [H|[H|[]]]; [left; exact H|right; symmetry; exact H].
    + intros [H|H]; [left; exact H|right; left; symmetry; exact H].
Qed.

Lemma add_first_NoDup acc c : NoDup acc -> NoDup (add_first acc c).
Proof.
  intros H. unfold add_first. destruct (existsb (sx_eqb c) acc) eqn:E; [exact H|].
  apply (NoDup_Add (Add_app c acc [])). rewrite app_nil_r. split; [exact H|].
  intros Hi. apply existsb_sx in Hi. congruence.
Qed.

Lemma fold_add_first_In l : forall acc x, In x (fold_left add_first l acc) <-> In x acc \/ In x l.
Proof.
  induction l as [|c l IH]; intros acc x; simpl; [tauto|].
  rewrite IH, add_first_In. split; intros H; intuition auto.
Qed.

Lemma fold_add_first_NoDup l : forall acc, NoDup acc -> NoDup (fold_left add_first l acc).
Proof. induction l as [|c l IH]; intros acc H; simpl; [exact H|]. apply IH, add_first_NoDup, H. Qed.

Lemma firsts_NoDup el : NoDup (firsts el).
Proof. apply fold_add_first_NoDup. constructor. Qed.

Lemma firsts_In el c : In c (firsts el) <-> exists l, In l el /\ In c l.
Proof.
  unfold firsts. rewrite fold_add_first_In, in_concat. simpl. split.
  - intros [[]|(l & H1 & H2)]. exists l. split; assumption.
  - intros (l & H1 & H2). right. exists l. split; assumption.
Qed.

(* the table built by _get_ranks *)
Definition rtab := list (sx * (Z * Z)).
Fixpoint rget (r : rtab) (c : sx) : Z * Z :=
  match r with [] => (0, 0) | (c', v) :: t => if sx_eqb c c' then v else rget t c end.

Lemma sx_eqb_neq a b c : sx_eqb a b = true -> sx_eqb b c = false -> sx_eqb a c = false.
Proof. intros H1 H2. apply sx_eqb_eq in H1. subst. exact H2. Qed.

Lemma rget_rk_add r c x c' :
  rget (rk_add r c x) c' = if sx_eqb c' c then (fst (rget r c) + 1, snd (rget r c) + x) else rget r c'.
Proof.
  induction r as [|[c0 [n s]] r IH]; cbn [rk_add rget].
  - destruct (sx_eqb c' c); reflexivity.
  - destruct (sx_eqb c c0) eqn:E; cbn [rget fst snd].
    + apply sx_eqb_eq in E. subst c0. destruct (sx_eqb c' c); reflexivity.
    + rewrite IH. destruct (sx_eqb c' c0) eqn:E2; [|reflexivity].
      apply sx_eqb_eq in E2. subst c0. rewrite sx_eqb_sym, E. reflexivity.
Qed.

Lemma keys_rk_add r c x : map fst (rk_add r c x) = add_first (map fst r) c.
Proof.
  unfold add_first. induction r as [|[c0 [n s]] r IH]; cbn [rk_add map fst existsb]; [reflexivity|].
  destruct (sx_eqb c c0) eqn:E; cbn [map fst orb]; [reflexivity|].
  rewrite IH. destruct (existsb (sx_eqb c) (map fst r)); reflexivity.
Qed.

Lemma rk_list_spec cl : forall r,
  (forall c, rget (rk_list r cl (Z.of_nat (length cl) - 1)) c = (fst (rget r c) + occ c cl, snd (rget r c) + rks c cl)) /\
  map fst (rk_list r cl (Z.of_nat (length cl) - 1)) = fold_left add_first cl (map fst r).
Proof.
  induction cl as [|x t IH]; intros r.
  - cbn [rk_list occ rks fold_left]. split; [|reflexivity]. intros c. destruct (rget r c). cbn [fst snd]. f_equal; ring.
  - cbn [rk_list fold_left].
    replace (Z.of_nat (length (x :: t)) - 1) with (Z.of_nat (length t)) by (cbn [length]; lia).
    destruct (IH (rk_add r x (Z.of_nat (length t)))) as [H1 H2]. split.
    + intros c. rewrite H1, rget_rk_add. cbn [occ rks]. destruct (sx_eqb c x) eqn:E; cbn [fst snd].
      * apply sx_eqb_eq in E. subst x. f_equal; ring.
      * f_equal; ring.
    + rewrite H2, keys_rk_add. reflexivity.
Qed.

Definition ranks_from (el : list (list sx)) (r : rtab) : rtab :=
  fold_left (fun r cl => rk_list r cl (Z.of_nat (length cl) - 1)) el r.

Lemma ranks_spec el : forall r,
  (forall c, rget (ranks_from el r) c = (fst (rget r c) + appearances el c, snd (rget r c) + ranksum el c)) /\
  map fst (ranks_from el r) = fold_left add_first (concat el) (map fst r).
Proof.
  unfold ranks_from. induction el as [|cl el IH]; intros r.
  - cbn [fold_left concat appearances ranksum fold_right]. split; [|reflexivity].
    intros c. destruct (rget r c). cbn [fst snd]. f_equal; ring.
  - cbn [fold_left concat]. destruct (rk_list_spec cl r) as [A1 A2].
    destruct (IH (rk_list r cl (Z.of_nat (length cl) - 1))) as [H1 H2]. split.
    + intros c. rewrite H1, A1. unfold appearances, ranksum. cbn [fold_right fst snd]. f_equal; ring.
    + rewrite H2, A2, fold_left_app. reflexivity.
Qed.

Lemma rget_entry (r : rtab) c v : NoDup (map fst r) -> In (c, v) r -> rget r c = v.
Proof.
  induction r as [|[c0 v0] r IH]; cbn [map fst rget]; intros Hn Hin; [destruct Hin|].
  inversion Hn as [|? ? Hc Hr]; subst. destruct Hin as [E|Hin].
  - injection E as -> ->. rewrite sx_eqb_refl. reflexivity.
  - destruct (sx_eqb c c0) eqn:E; [|exact (IH Hr Hin)].
    apply sx_eqb_eq in E. subst c0. exfalso. apply Hc. apply (in_map fst) in Hin. exact Hin.
Qed.

Lemma table_is_map (r : rtab) (f : sx -> Z * Z) :
  (forall c v, In (c, v) r -> v = f c) -> r = map (fun c => (c, f c)) (map fst r).
Proof.
  induction r as [|[c v] r IH]; intros H; cbn [map fst]; [reflexivity|].
  rewrite (H c v (or_introl eq_refl)). f_equal. apply IH. intros c' v' Hin. apply H. right. exact Hin.
Qed.

(* the table of _get_ranks: every distinct candidate, in order of first appearance, with its two tallies *)
Lemma ranks_table el : ranks_from el [] = map (fun c => (c, tally el c)) (firsts el).
Proof.
  destruct (ranks_spec el []) as [H1 H2]. cbn [map] in H2.
  rewrite (table_is_map (ranks_from el []) (tally el)).
  - unfold firsts. rewrite H2. reflexivity.
  - intros c v Hin. rewrite <- (rget_entry (ranks_from el []) c v); [|rewrite H2; apply fold_add_first_NoDup; constructor|exact Hin].
    rewrite H1. cbn [rget fst snd]. reflexivity.
Qed.

Definition isort (l : rtab) : rtab := fold_right rk_insert [] l.
Definition keqb (a b : Z * Z) : bool := (fst a =? fst b) && (snd a =? snd b).

Lemma rk_le_refl a : rk_le a a = true.
Proof. unfold rk_le. destruct a as [n s]. cbn [fst snd]. rewrite Z.eqb_refl, Z.leb_refl. apply orb_true_r. Qed.
Lemma rk_le_total a b : rk_le a b = false -> rk_le b a = true.
Proof.
  unfold rk_le. destruct a as [n s], b as [n' s']. cbn [fst snd]. intros H.
  apply orb_false_iff in H. destruct H as [H1 H2]. apply Z.ltb_ge in H1.
  destruct (Z.ltb_spec n n') as [L|L]; [reflexivity|]. cbn [orb].
  assert (E : n = n') by lia. subst n'. rewrite Z.eqb_refl in *. cbn [andb] in *.
  apply Z.leb_gt in H2. apply Z.leb_le. lia.
Qed.
Lemma rk_le_trans a b c : rk_le a b = true -> rk_le b c = true -> rk_le a c = true.
Proof.
  unfold rk_le. destruct a as [n s], b as [n' s'], c as [n'' s'']. cbn [fst snd]. intros H1 H2.
  apply orb_true_iff in H1. apply orb_true_iff in H2. apply orb_true_iff.
  rewrite !andb_true_iff, !Z.ltb_lt, !Z.eqb_eq, !Z.leb_le in *. lia.
Qed.
Lemma keqb_eq a b : keqb a b = true <-> a = b.
Proof.
  unfold keqb. destruct a as [n s], b as [n' s']. cbn [fst snd]. rewrite andb_true_iff, !Z.eqb_eq. split.
  - intros [-> ->]. reflexivity.
  - intros E. injection E as -> ->. split; reflexivity.
Qed.

Definition pre (x y : sx * (Z * Z)) : Prop := rk_le (snd x) (snd y) = true.

Lemma rk_insert_perm x l : Permutation (rk_insert x l) (x :: l).
Proof.
  induction l as [|y t IH]; cbn [rk_insert]; [apply Permutation_refl|].
  destruct (rk_le (snd x) (snd y)); [apply Permutation_refl|].
  apply (perm_trans (perm_skip y IH)), perm_swap.
Qed.

Lemma isort_perm l : Permutation (isort l) l.
Proof.
  unfold isort. induction l as [|x l IH]; cbn [fold_right]; [constructor|].
  apply (perm_trans (rk_insert_perm x _)), perm_skip, IH.
Qed.

Lemma rk_insert_sorted x l : StronglySorted pre l -> StronglySorted pre (rk_insert x l).
Proof.
  induction 1 as [|y t Hs IH Hall]; cbn [rk_insert]; [constructor; constructor|].
  destruct (rk_le (snd x) (snd y)) eqn:E.
  - constructor; [constructor; assumption|]. constructor; [exact E|].
    rewrite Forall_forall in *. intros z Hz. exact (rk_le_trans _ _ _ E (Hall z Hz)).
  - constructor; [exact IH|].
    apply (Permutation_Forall (Permutation_sym (rk_insert_perm x t))).
    constructor; [exact (rk_le_total _ _ E)|exact Hall].
Qed.

Lemma isort_sorted l : StronglySorted pre (isort l).
Proof. unfold isort. induction l as [|x l IH]; cbn [fold_right]; [constructor|]. apply rk_insert_sorted, IH. Qed.

(* stability: the entries with one and the same key keep their relative order *)
Lemma filter_rk_insert k x l :
  filter (fun z => keqb (snd z) k) (rk_insert x l) = filter (fun z => keqb (snd z) k) (x :: l).
Proof.
  induction l as [|y t IH]; cbn [rk_insert]; [reflexivity|].
  destruct (rk_le (snd x) (snd y)) eqn:E; [reflexivity|].
  cbn [filter] in *. rewrite IH.
  destruct (keqb (snd x) k) eqn:Ex; [|reflexivity].
  destruct (keqb (snd y) k) eqn:Ey; [|reflexivity].
  apply keqb_eq in Ex. apply keqb_eq in Ey. rewrite Ex, Ey, rk_le_refl in E. discriminate.
Qed.

Lemma isort_stable k l : filter (fun z => keqb (snd z) k) (isort l) = filter (fun z => keqb (snd z) k) l.
Proof.
  unfold isort. induction l as [|x l IH]; cbn [fold_right]; [reflexivity|].
  rewrite filter_rk_insert. cbn [filter]. rewrite IH. reflexivity.
Qed.

Lemma isort_id l : StronglySorted pre l -> isort l = l.
Proof.
  unfold isort. induction 1 as [|x t Hs IH Hall]; cbn [fold_right]; [reflexivity|].
  rewrite IH. destruct t as [|y t']; cbn [rk_insert]; [reflexivity|].
  inversion Hall as [|? ? Hy _]; subst. unfold pre in Hy. rewrite Hy. reflexivity.
Qed.

Definition tagged (el : list (list sx)) (l : list sx) : rtab := map (fun c => (c, tally el c)) l.

(* the defining clause: the distinct candidates in order of first appearance, stably sorted by their two tallies *)
Theorem merged_selections_defining el : merged_selections el = map fst (isort (tagged el (firsts el))).
Proof. unfold merged_selections. fold (ranks_from el []). rewrite ranks_table. reflexivity. Qed.

Lemma map_fst_tagged el l : map fst (tagged el l) = l.
Proof. unfold tagged. rewrite map_map. cbn [fst]. apply map_id. Qed.

Lemma all_tagged el (P : rtab) l : Permutation P (tagged el l) -> P = tagged el (map fst P).
Proof.
  intros H. apply table_is_map. intros c v Hin. apply (Permutation_in _ H) in Hin.
  unfold tagged in Hin. apply in_map_iff in Hin. destruct Hin as (c' & E & _). injection E as -> ->. reflexivity.
Qed.

(* nobody lost, nobody doubled *)
Theorem merged_selections_perm el : Permutation (merged_selections el) (firsts el).
Proof.
  rewrite merged_selections_defining. rewrite <- (map_fst_tagged el (firsts el)) at 2.
  apply Permutation_map, isort_perm.
Qed.

Theorem merged_selections_NoDup el : NoDup (merged_selections el).
Proof. apply (Permutation_NoDup (Permutation_sym (merged_selections_perm el))), firsts_NoDup. Qed.

Theorem merged_selections_In el c : In c (merged_selections el) <-> exists l, In l el /\ In c l.
Proof.
  rewrite <- firsts_In. split; intros H.
  - exact (Permutation_in _ (merged_selections_perm el) H).
  - exact (Permutation_in _ (Permutation_sym (merged_selections_perm el)) H).
Qed.

(* a comes no later than b: more appearances, or as many and at least the sum of reversed ranks *)
Definition ms_before (ta tb : Z * Z) : Prop := fst tb < fst ta \/ (fst ta = fst tb /\ snd tb <= snd ta).

Lemma rk_le_before a b : rk_le a b = true <-> ms_before a b.
Proof.
  unfold rk_le, ms_before. rewrite orb_true_iff, andb_true_iff, Z.ltb_lt, Z.eqb_eq, Z.leb_le. reflexivity.
Qed.

Lemma sorted_tagged el l : StronglySorted pre (tagged el l) ->
  StronglySorted (fun a b => ms_before (tally el a) (tally el b)) l.
Proof.
  induction l as [|c l IH]; intros H; [constructor|].
  cbn [tagged map] in H. inversion H as [|? ? Hs Hall]; subst. constructor; [apply IH, Hs|].
  rewrite Forall_forall in *. intros b Hb. apply rk_le_before.
  apply (Hall (b, tally el b)). unfold tagged. apply in_map_iff. exists b. split; [reflexivity|exact Hb].
Qed.

Theorem merged_selections_sorted el :
  StronglySorted (fun a b => ms_before (tally el a) (tally el b)) (merged_selections el).
Proof.
  rewrite merged_selections_defining. apply sorted_tagged.
  rewrite <- (all_tagged el _ _ (isort_perm _)). apply isort_sorted.
Qed.

Lemma filter_tagged el k l :
  filter (fun z => keqb (snd z) k) (tagged el l) = tagged el (filter (fun c => keqb (tally el c) k) l).
Proof.
  induction l as [|c l IH]; cbn [tagged map filter snd]; [reflexivity|].
  fold (tagged el l). rewrite IH. destruct (keqb (tally el c) k); reflexivity.
Qed.

(* ties - the same number of appearances and the same sum of reversed ranks - stay in order of first appearance *)
Theorem merged_selections_stable el k :
  filter (fun c => keqb (tally el c) k) (merged_selections el) = filter (fun c => keqb (tally el c) k) (firsts el).
Proof.
  rewrite merged_selections_defining.
  rewrite <- (map_fst_tagged el (filter _ (map fst _))), <- filter_tagged, <- (all_tagged el _ _ (isort_perm _)).
  rewrite isort_stable, filter_tagged, map_fst_tagged. reflexivity.
Qed.

Lemma occ_notin c l : ~ In c l -> occ c l = 0 /\ rks c l = 0.
Proof.
  induction l as [|x t IH]; intros H; cbn [occ rks]; [split; reflexivity|].
  destruct (sx_eqb c x) eqn:E.
  - apply sx_eqb_eq in E. subst. exfalso. apply H. left. reflexivity.
  - apply IH. intros H2. apply H. right. exact H2.
Qed.

Lemma occ_in c l : NoDup l -> In c l -> occ c l = 1 /\ 0 <= rks c l < Z.of_nat (length l).
Proof.
  induction l as [|x t IH]; intros Hn Hin; [destruct Hin|].
  inversion Hn as [|? ? Hx Ht]; subst. cbn [occ rks length]. destruct (sx_eqb c x) eqn:E.
  - apply sx_eqb_eq in E. subst x. destruct (occ_notin c t Hx) as [-> ->]. lia.
  - destruct Hin as [Hin|Hin]; [subst; rewrite sx_eqb_refl in E; discriminate|].
    destruct (IH Ht Hin) as [-> H2]. lia.
Qed.

Lemma single_sorted l : NoDup l -> StronglySorted pre (tagged [l] l).
Proof.
  induction l as [|x t IH]; intros Hn; [constructor|].
  inversion Hn as [|? ? Hx Ht]; subst.
  assert (Ht' : tagged [x :: t] t = tagged [t] t).
  { unfold tagged. apply map_ext_in. intros c Hc. f_equal. unfold tally, appearances, ranksum. cbn [fold_right occ rks].
    assert (E : sx_eqb c x = false).
    { apply not_true_iff_false. intros E. apply sx_eqb_eq in E. subst. exact (Hx Hc). }
    rewrite E. reflexivity. }
  cbn [tagged map]. fold (tagged [x :: t] t). rewrite Ht'. constructor; [apply IH, Ht|].
  rewrite Forall_forall. intros z Hz. unfold tagged in Hz. apply in_map_iff in Hz. destruct Hz as (c & <- & Hc).
  unfold pre. cbn [snd]. apply rk_le_before. unfold ms_before, tally, appearances, ranksum. cbn [fold_right fst snd occ rks].
  rewrite sx_eqb_refl. destruct (occ_notin x t Hx) as [-> ->]. destruct (occ_in c t Ht Hc) as [-> H2]. lia.
Qed.

Lemma firsts_single l : NoDup l -> firsts [l] = l.
Proof.
  intros H. unfold firsts. cbn [concat]. rewrite app_nil_r.
  assert (G : forall acc, NoDup (acc ++ l) -> fold_left add_first l acc = acc ++ l).
  { clear H. induction l as [|x t IH]; intros acc H; cbn [fold_left]; [rewrite app_nil_r; reflexivity|].
    unfold add_first at 2. destruct (existsb (sx_eqb x) acc) eqn:E.
    - apply existsb_sx in E. exfalso. apply NoDup_remove_2 in H. apply H. apply in_or_app. left. exact E.
    - rewrite IH; rewrite <- app_assoc; [reflexivity|exact H]. }
  apply (G []). exact H.
Qed.

Theorem merged_selections_single l : NoDup l -> merged_selections [l] = l.
Proof.
  intros H. rewrite merged_selections_defining, (firsts_single l H), (isort_id _ (single_sorted l H)).
  apply map_fst_tagged.
Qed.
