(* Scale invariance (C11) of the DEFAULT tie-break of majority judgment (Model/Cardinal.v mj_default) on BALANCED
   score dictionaries - every candidate has the same number of scores (complete ballots), counts nonnegative.
   The removal step of the loop is not homogeneous, so the k-fold run is not the k-fold of the original run; the
   proof goes through a one-score-at-a-time normal form (relation MJ):
     1. mj_default with enough fuel = MJ (a block of removals never passes the first change of a median);
     2. MJ on the k-fold dictionaries follows MJ on the original ones: each original removal is matched by k
        removals of which k - 1 find every candidate still level (no-op steps);
     3. MJ is deterministic. *)
From Coq Require Import ZArith QArith Qround Qabs List Bool Arith Lia Lqa Permutation.
From VL Require Import Prelude.PyDict Model.GetNBest Model.Convert Model.Cardinal
     Proofs.GetNBest_proofs Proofs.QOrd Proofs.Dict_proofs Proofs.LRScale_proofs Proofs.MJ_proofs
     Proofs.Scale2Dup_proofs Proofs.Scale2Med_proofs Proofs.Scale2Score_proofs.
Import ListNotations.

Definition state := list (C * cscores).
Definition mx (sub : state) : Z := fold_left Z.max (map (fun cd : C * cscores => cs_total (snd cd)) sub) 0%Z.
Definition is_cand (r : res C) : bool := match r with Cand _ => true | _ => false end.
Definition untied_of (best : list (res C)) : nat := length (filter is_cand best).
Definition winners_of (best : list (res C)) : list (res C) := firstn (untied_of best) best.
Definition wc_of (best : list (res C)) : list C := flat_map (fun r => match r with Cand c => [c] | _ => [] end) (winners_of best).
Definition rest_of (sub : state) (best : list (res C)) : state := filter (fun cd => negb (cmem (fst cd) (wc_of best))) sub.
Definition tied_of (best : list (res C)) : list C := match best with TieR l :: _ => l | _ => [] end.
Definition gnb (medians : list (C * Q)) (n : nat) : list (res C) := get_n_best Qle_bool medians n.

Lemma mj_default_unfold f sub n : mj_default (S f) sub n =
  if (mx sub <=? 0)%Z then inr SE_vse else
  match aggregate FMedianLow sub with
  | inr e => inr e
  | inl medians =>
      let best := gnb medians n in
      if Nat.eqb (count_tie best) 0 then inl best
      else if Nat.ltb 0 (untied_of best) then
        match mj_default f (rest_of sub best) (n - untied_of best) with
        | inl r => inl (winners_of best ++ r)
        | inr e => inr e
        end
      else mj_default f (mj_remove (mj_level sub (tied_of best)) medians (mj_ch (mj_level sub (tied_of best)) medians)) n
  end.
Proof. reflexivity. Qed.

Inductive MJ : state -> nat -> list (res C) + serr -> Prop :=
| MJ_vse sub n : (mx sub <=? 0)%Z = true -> MJ sub n (inr SE_vse)
| MJ_err sub n e : (mx sub <=? 0)%Z = false -> aggregate FMedianLow sub = inr e -> MJ sub n (inr e)
| MJ_done sub n medians : (mx sub <=? 0)%Z = false -> aggregate FMedianLow sub = inl medians ->
    Nat.eqb (count_tie (gnb medians n)) 0 = true -> MJ sub n (inl (gnb medians n))
| MJ_win sub n medians r : (mx sub <=? 0)%Z = false -> aggregate FMedianLow sub = inl medians ->
    Nat.eqb (count_tie (gnb medians n)) 0 = false -> Nat.ltb 0 (untied_of (gnb medians n)) = true ->
    MJ (rest_of sub (gnb medians n)) (n - untied_of (gnb medians n)) r ->
    MJ sub n (match r with inl r => inl (winners_of (gnb medians n) ++ r) | inr e => inr e end)
| MJ_tie sub n medians r : (mx sub <=? 0)%Z = false -> aggregate FMedianLow sub = inl medians ->
    Nat.eqb (count_tie (gnb medians n)) 0 = false -> Nat.ltb 0 (untied_of (gnb medians n)) = false ->
    MJ (mj_remove (mj_level sub (tied_of (gnb medians n))) medians 1) n r ->
    MJ sub n r.

(* the state decides which rule applies, so a derivation can be read backwards *)
Lemma MJ_inv sub n r : MJ sub n r ->
  if (mx sub <=? 0)%Z then r = inr SE_vse else
  match aggregate FMedianLow sub with
  | inr e => r = inr e
  | inl medians =>
      let best := gnb medians n in
      if Nat.eqb (count_tie best) 0 then r = inl best
      else if Nat.ltb 0 (untied_of best)
      then exists r0, MJ (rest_of sub best) (n - untied_of best) r0 /\
                      r = match r0 with inl r0 => inl (winners_of best ++ r0) | inr e => inr e end
      else MJ (mj_remove (mj_level sub (tied_of best)) medians 1) n r
  end.
Proof.
  destruct 1 as [sub n Hm|sub n e Hm Ha|sub n med Hm Ha Hc|sub n med r Hm Ha Hc Hu H|sub n med r Hm Ha Hc Hu H];
    rewrite Hm; [reflexivity|..]; rewrite Ha; [reflexivity|..]; cbv zeta; rewrite Hc; [reflexivity|..]; rewrite Hu;
    [exists r; auto|exact H].
Qed.

Theorem MJ_det sub n r : MJ sub n r -> forall r', MJ sub n r' -> r' = r.
Proof.
  induction 1 as [sub n Hm|sub n e Hm Ha|sub n med Hm Ha Hc|sub n med r Hm Ha Hc Hu H IH|sub n med r Hm Ha Hc Hu H IH];
    intros r' H'; apply MJ_inv in H'; rewrite Hm in H'; [exact H'|..]; rewrite Ha in H'; [exact H'|..];
    cbv zeta in H'; rewrite Hc in H'; [exact H'|..]; rewrite Hu in H'.
  - destruct H' as (r0 & H0 & ->). rewrite (IH r0 H0). reflexivity.
  - exact (IH r' H').
Qed.

Section Shape.
  Variables (cs : list C) (k : nat) (tied : list C).
  Let best := map Cand cs ++ repeat (TieR tied) k.

  Lemma untied_shape : untied_of best = length cs.
  Proof. unfold untied_of. rewrite <- (map_length Cand cs). f_equal. exact (filter_cands cs tied k). Qed.

  Lemma winners_shape : winners_of best = map Cand cs.
  Proof.
    unfold winners_of. rewrite untied_shape. unfold best. rewrite firstn_app, map_length, Nat.sub_diag. cbn [firstn].
    rewrite app_nil_r. rewrite <- (map_length Cand cs). apply firstn_all.
  Qed.

  Lemma wc_shape : wc_of best = cs.
  Proof. unfold wc_of. rewrite winners_shape. apply cands_of_cands. Qed.
End Shape.

(* some seat is tied: the second alternative of gnb_keys *)
Lemma gnb_tied medians n : NoDup (map fst medians) -> Nat.eqb (count_tie (gnb medians n)) 0 = false ->
  exists A T thr k, gnb medians n = map Cand A ++ repeat (TieR T) (S k) /\ tie_split medians A T thr /\
    (length A + S k = n)%nat /\ (S k < length T)%nat.
Proof.
  intros Hnd Hc. apply Nat.eqb_neq in Hc. unfold gnb in *.
  assert (Hn : (1 <= n)%nat). { destruct n; [rewrite (get_n_best_0 Qle_bool Qle_bool_total) in Hc; cbn in Hc; lia|lia]. }
  destruct (gnb_keys medians n Hn Hnd) as [(A & E & _)|H]; [|exact H].
  pose proof (count_tie_cands A [] 0) as H0. cbn [repeat] in H0. rewrite app_nil_r in H0. rewrite E, H0 in Hc. lia.
Qed.

(* a tie in the first place: the candidates on the top level, more of them than seats *)
Lemma gnb_tie0 medians n : NoDup (map fst medians) ->
  Nat.eqb (count_tie (gnb medians n)) 0 = false -> Nat.ltb 0 (untied_of (gnb medians n)) = false ->
  exists tied thr, gnb medians n = repeat (TieR tied) n /\ (1 <= n < length tied)%nat /\ NoDup tied /\
    incl tied (map fst medians) /\ forall c v, In (c, v) medians -> (In c tied <-> (v == thr)%Q).
Proof.
  intros Hnd Hc Hu. apply Nat.ltb_ge in Hu.
  destruct (gnb_tied medians n Hnd Hc) as (A & tied & thr & k & E & [_ Hlev Hndt Hk] & Hlen & HkT).
  rewrite E, untied_shape in Hu. destruct A as [|a A]; [|cbn [length] in Hu; lia].
  cbn [length Nat.add app map] in *. subst n. exists tied, thr. split; [exact E|]. split; [lia|auto].
Qed.

Lemma sort_desc_all_eq (l : list (C * Q)) :
  (forall x y, In x l -> In y l -> Qle_bool (snd x) (snd y) = true) -> sort_desc Qle_bool l = l.
Proof.
  induction l as [|x t IH]; intros H; [reflexivity|]. cbn [sort_desc]. rewrite IH by (intros a b Ha Hb; apply H; right; assumption).
  destruct t as [|y t']; [reflexivity|]. cbn [insert_desc]. rewrite (H y x) by (cbn; auto). reflexivity.
Qed.

Lemma gnb_all_eq (l : list (C * Q)) thr n :
  Forall (fun it : C * Q => eqv Qle_bool (snd it) thr = true) l -> (1 <= n < length l)%nat ->
  gnb l n = repeat (TieR (map fst l)) n.
Proof.
  intros Hl Hn. rewrite Forall_forall in Hl.
  assert (Hle : forall x y, In x l -> In y l -> Qle_bool (snd x) (snd y) = true).
  { intros x y Hx Hy. apply (eqv_leb_l Qle_bool Qle_bool_trans _ _ thr); [apply Hl, Hx|apply Hl, Hy]. }
  unfold gnb, get_n_best. rewrite (sort_desc_all_eq l Hle).
  assert (Nat.ltb n (length l) = true) as -> by (apply Nat.ltb_lt; lia).
  destruct (nth_error l (n - 1)) as [[c1 t1]|] eqn:E1; [|apply nth_error_None in E1; lia].
  destruct (nth_error l n) as [[c2 t2]|] eqn:E2; [|apply nth_error_None in E2; lia].
  apply nth_error_In in E1, E2.
  assert (Heq : forall x, In x l -> eqv Qle_bool (snd x) t1 = true).
  { intros x Hx. unfold eqv. pose proof (Hle x (c1, t1) Hx E1) as A. pose proof (Hle (c1, t1) x E1 Hx) as B.
    cbn [snd] in A, B. rewrite A, B. reflexivity. }
  pose proof (Heq _ E2) as H2. cbn [snd] in H2. rewrite H2.
  rewrite (filter_all (fun it : C * Q => eqv Qle_bool (snd it) t1) l) by (apply Forall_forall; exact Heq).
  destruct l as [|x t]; [destruct E1|]. cbn [first_eq_index]. rewrite (Heq x) by (left; reflexivity).
  cbn [firstn map app]. rewrite Nat.sub_0_r. reflexivity.
Qed.

Definition good (d : cscores) : Prop := keys_nd (map fst d) /\ nonneg d.
Definition Inv (S : state) (T : Z) : Prop :=
  NoDup (map fst S) /\ Forall (fun cd : C * cscores => good (snd cd) /\ cs_total (snd cd) = T) S.

Lemma Inv_filter (f : C * cscores -> bool) S T : Inv S T -> Inv (filter f S) T.
Proof.
  intros [H1 H2]. split; [apply nodup_keys_filter, H1|].
  apply Forall_forall. intros x Hx. apply filter_In in Hx. rewrite Forall_forall in H2. apply H2, Hx.
Qed.

Lemma mx_Inv S T : Inv S T -> (0 <= T)%Z -> mx S = match S with [] => 0%Z | _ => T end.
Proof.
  intros [_ H] HT. unfold mx.
  assert (G : forall a, (0 <= a)%Z -> fold_left Z.max (map (fun cd : C * cscores => cs_total (snd cd)) S) a = match S with [] => a | _ => Z.max a T end).
  { induction H as [|x S [_ Hx] _ IH]; intros a Ha; [reflexivity|]. cbn [map fold_left]. rewrite IH by lia. rewrite Hx. destruct S; lia. }
  rewrite (G 0%Z) by lia. destruct S; lia.
Qed.

Lemma mx_pos S T : Inv S T -> (0 <= T)%Z -> ((mx S <=? 0)%Z = false <-> S <> [] /\ (0 < T)%Z).
Proof.
  intros HI HT. rewrite (mx_Inv S T HI HT). destruct S as [|x S].
  - split; [discriminate|intros [H _]; congruence].
  - rewrite Z.leb_gt. split; [intros H; split; [discriminate|exact H]|tauto].
Qed.

Lemma Inv_nonneg U T : Inv U T -> U <> [] -> (0 <= T)%Z.
Proof.
  intros [_ H] Hne. destruct U as [|[c d] U]; [congruence|]. inversion H as [|? ? [[_ Hnn] Ht] _]; subst. cbn [snd] in *.
  rewrite cs_total_sumf. apply sumf_nonneg, Hnn.
Qed.

Lemma mx_false U T : Inv U T -> (mx U <=? 0)%Z = false -> U <> [] /\ (0 < T)%Z.
Proof.
  intros HI Hm. assert (Hne : U <> []) by (intros ->; discriminate). exact (proj1 (mx_pos U T HI (Inv_nonneg U T HI Hne)) Hm).
Qed.

Definition med_of (d : cscores) : Q := match aggregate_one FMedianLow d with inl g => g | inr _ => 0%Q end.

Lemma med_of_spec d T : good d -> cs_total d = T -> (0 < T)%Z ->
  aggregate_one FMedianLow d = inl (med_of d) /\ In (med_of d) (map fst d) /\ is_med d (med_of d).
Proof.
  intros [_ Hnn] Ht HT. destruct (median_spec d Hnn ltac:(lia)) as (g & E & Hin & Hm). unfold med_of. rewrite E. auto.
Qed.

Lemma med_of_char d T g : good d -> cs_total d = T -> (0 < T)%Z -> is_med d g -> (med_of d == g)%Q.
Proof.
  intros [_ Hnn] Ht HT Hm. destruct (median_char d g Hnn ltac:(lia) Hm) as (g0 & E & Hq & _). unfold med_of. rewrite E. exact Hq.
Qed.

Lemma cand_facts U T c d : Inv U T -> (0 < T)%Z -> In (c, d) U ->
  good d /\ cs_total d = T /\ In (med_of d) (map fst d) /\ is_med d (med_of d).
Proof.
  intros [_ H] HT Hin. rewrite Forall_forall in H. destruct (H _ Hin) as [Hg Ht]. cbn [snd] in *.
  destruct (med_of_spec d T Hg Ht HT) as (_ & A & B). auto.
Qed.

Definition canon (U : state) : list (C * Q) := map (fun cd : C * cscores => (fst cd, med_of (snd cd))) U.

Lemma canon_keys U : map fst (canon U) = map fst U.
Proof. unfold canon. rewrite map_map. reflexivity. Qed.

Lemma aggregate_Inv S T : Inv S T -> (0 < T)%Z -> aggregate FMedianLow S = inl (canon S).
Proof.
  intros [_ H] HT. unfold aggregate, canon. induction H as [|[c d] S [Hg Ht] _ IH]; [reflexivity|].
  cbn [map sequence fst snd] in *. destruct (med_of_spec d T Hg Ht HT) as (E & _). rewrite E, IH. reflexivity.
Qed.

Lemma aggregate_canon U T medians : Inv U T -> (mx U <=? 0)%Z = false -> aggregate FMedianLow U = inl medians ->
  medians = canon U /\ (0 < T)%Z.
Proof.
  intros HI Hm Ha. destruct (mx_false U T HI Hm) as [_ HT]. rewrite (aggregate_Inv _ _ HI HT) in Ha. injection Ha as <-. auto.
Qed.

Lemma dget_or_own (S : state) c d : NoDup (map fst S) -> In (c, d) S -> dget_or (canon S) c 0%Q = med_of d.
Proof.
  intros Hnd Hin. unfold dget_or. rewrite (In_dget (canon S) c (med_of d)); [reflexivity| |].
  - rewrite canon_keys. exact Hnd.
  - unfold canon. apply in_map_iff. exists (c, d). auto.
Qed.

Definition mapd (F : C -> cscores -> cscores) (U : state) : state :=
  map (fun cd : C * cscores => (fst cd, F (fst cd) (snd cd))) U.

Lemma mapd_keys F U : map fst (mapd F U) = map fst U.
Proof. unfold mapd. rewrite map_map. reflexivity. Qed.

Lemma mapd_length F U : length (mapd F U) = length U.
Proof. apply map_length. Qed.

Lemma mapd_filter F (f : C -> bool) U :
  filter (fun cd : C * cscores => f (fst cd)) (mapd F U) = mapd F (filter (fun cd : C * cscores => f (fst cd)) U).
Proof.
  induction U as [|[c d] U IH]; [reflexivity|]. cbn [mapd map filter fst snd]. fold (mapd F U).
  destruct (f c); cbn [mapd map fst snd]; rewrite IH; reflexivity.
Qed.

Lemma rest_of_mapd F U best : rest_of (mapd F U) best = mapd F (rest_of U best).
Proof. unfold rest_of. apply (mapd_filter F (fun c => negb (cmem c (wc_of best)))). Qed.

Lemma mj_level_mapd F U tied : mj_level (mapd F U) tied = mapd F (mj_level U tied).
Proof. unfold mj_level. apply (mapd_filter F (fun c => cmem c tied)). Qed.

Lemma mapd_mapd G F U : mapd G (mapd F U) = mapd (fun c d => G c (F c d)) U.
Proof. unfold mapd. rewrite map_map. reflexivity. Qed.

Lemma mapd_ext_in F G U : (forall c d, In (c, d) U -> F c d = G c d) -> mapd F U = mapd G U.
Proof. intros H. unfold mapd. apply map_ext_in. intros [c d] Hin. cbn [fst snd]. rewrite (H c d Hin). reflexivity. Qed.

Lemma mapd_In F U c d' : In (c, d') (mapd F U) -> exists d, In (c, d) U /\ d' = F c d.
Proof.
  intros H. unfold mapd in H. apply in_map_iff in H. destruct H as ([c0 d] & E & Hin). cbn [fst snd] in E. injection E as -> <-.
  exists d. auto.
Qed.

Lemma mapd_Inv F U T' : NoDup (map fst U) -> (forall c d, In (c, d) U -> good (F c d) /\ cs_total (F c d) = T') -> Inv (mapd F U) T'.
Proof.
  intros Hnd H. split; [rewrite mapd_keys; exact Hnd|]. apply Forall_forall. intros [c d'] Hin.
  destruct (mapd_In F U c d' Hin) as (d & HinU & ->). cbn [snd]. exact (H c d HinU).
Qed.

Lemma adj_adj_same d s a b : adj (adj d s a) s b = adj d s (a + b).
Proof.
  unfold adj. rewrite map_map. apply map_ext. intros [s0 n]. cbn [fst snd].
  destruct (Qeq_bool s s0) eqn:E; cbn [fst snd]; rewrite ?E; [f_equal; lia|reflexivity].
Qed.

Lemma adj_adj_comm d s a t b : adj (adj d s a) t b = adj (adj d t b) s a.
Proof.
  unfold adj. rewrite !map_map. apply map_ext. intros [s0 n]. cbn [fst snd].
  destruct (Qeq_bool s s0) eqn:E, (Qeq_bool t s0) eqn:E'; cbn [fst snd]; rewrite ?E, ?E'; try reflexivity. f_equal. lia.
Qed.

Lemma scalec_adj k d s a : scalec k (adj d s a) = adj (scalec k d) s (k * a).
Proof.
  unfold adj, scalec. rewrite !map_map. apply map_ext. intros [s0 n]. cbn [fst snd].
  destruct (Qeq_bool s s0); cbn [fst snd]; [f_equal; lia|reflexivity].
Qed.

Lemma adj_zero d s : adj d s 0 = d.
Proof.
  unfold adj. rewrite <- (map_id d) at 2. apply map_ext. intros [s0 n]. cbn [fst snd].
  destruct (Qeq_bool s s0); [f_equal; lia|reflexivity].
Qed.

Lemma has_In (d : cscores) s : In s (map fst d) -> has d s.
Proof. intros H. exists s. split; [exact H|reflexivity]. Qed.

Lemma good_adj d s delta : good d -> In s (map fst d) -> (0 <= get0 d s + delta)%Z -> good (adj d s delta).
Proof.
  intros [H1 H2] Hs Hge. split; [rewrite adj_keys; exact H1|apply nonneg_adj; try assumption; apply has_In, Hs].
Qed.

(* removal of r copies of every candidate's own median *)
Definition own_remove (S : state) (r : Z) : state :=
  map (fun cd : C * cscores => (fst cd, adj (snd cd) (med_of (snd cd)) (- r))) S.

Lemma own_remove_mapd U r : own_remove U r = mapd (fun _ d => adj d (med_of d) (- r)) U.
Proof. reflexivity. Qed.

Lemma own_remove_length S j : length (own_remove S j) = length S.
Proof. apply map_length. Qed.

Lemma mj_remove_own S T (L : list C) r : Inv S T -> (0 < T)%Z ->
  mj_remove (mj_level S L) (canon S) r = own_remove (mj_level S L) r.
Proof.
  intros HI HT. unfold mj_remove, own_remove, mj_level. apply map_ext_in. intros [c d] Hin. cbn [fst snd].
  apply filter_In in Hin. destruct Hin as [Hin _]. rewrite (dget_or_own S c d (proj1 HI) Hin).
  destruct (cand_facts S T c d HI HT Hin) as (Hg & _ & Hk & _). f_equal.
  change (match cs_get d (med_of d) with Some k => k | None => 0%Z end) with (get0 d (med_of d)).
  apply (dec_adj d (med_of d) (- r) (proj1 Hg) (has_In d _ Hk)).
Qed.

Lemma remove_med_good d T j : good d -> cs_total d = T -> In (med_of d) (map fst d) -> (j <= get0 d (med_of d))%Z ->
  good (adj d (med_of d) (- j)) /\ cs_total (adj d (med_of d) (- j)) = (T - j)%Z.
Proof.
  intros Hg Ht Hk Hj. split; [apply good_adj; [exact Hg|exact Hk|lia]|].
  rewrite (total_adj d _ _ (proj1 Hg) (has_In d _ Hk)), Ht. lia.
Qed.

Lemma own_remove_Inv S T j : Inv S T -> (0 < T)%Z ->
  (forall c d, In (c, d) S -> (j <= get0 d (med_of d))%Z) -> Inv (own_remove S j) (T - j).
Proof.
  intros HI HT Hj. rewrite own_remove_mapd. apply mapd_Inv; [exact (proj1 HI)|]. intros c d Hin.
  destruct (cand_facts S T c d HI HT Hin) as (Hg & Ht & Hk & _). exact (remove_med_good d T j Hg Ht Hk (Hj c d Hin)).
Qed.

Definition level_at (S : state) (thr : Q) : Prop := forall c d, In (c, d) S -> (med_of d == thr)%Q.

Lemma mj_level_all (S : state) : mj_level S (map fst S) = S.
Proof.
  unfold mj_level. apply filter_all. apply Forall_forall. intros x Hx. apply cmem_In. apply in_map. exact Hx.
Qed.

Lemma filter_true {X} (l : list X) : filter (fun _ => true) l = l.
Proof. apply filter_all_true. reflexivity. Qed.

Lemma tied_of_repeat L n : (1 <= n)%nat -> tied_of (repeat (TieR L) n) = L.
Proof. destruct n; [lia|reflexivity]. Qed.

Lemma repeat_tie_counts (L : list C) n : count_tie (repeat (TieR L) n) = n /\ untied_of (repeat (TieR L) n) = 0%nat.
Proof.
  pose proof (count_tie_cands [] L n) as H1. pose proof (untied_shape [] n L) as H2. cbn [map app length] in H1, H2. auto.
Qed.

Lemma NOOP S T thr n r : Inv S T -> (0 < T)%Z -> level_at S thr -> (1 <= n < length S)%nat ->
  MJ (own_remove S 1) n r -> MJ S n r.
Proof.
  intros HI HT Hl Hn H.
  assert (Hm : (mx S <=? 0)%Z = false).
  { apply (mx_pos S T HI ltac:(lia)). split; [destruct S; [simpl in Hn; lia|discriminate]|exact HT]. }
  assert (Hb : gnb (canon S) n = repeat (TieR (map fst S)) n).
  { rewrite <- (canon_keys S).
    apply (gnb_all_eq (canon S) thr); [|unfold canon; rewrite map_length; exact Hn].
    apply Forall_forall. intros [c v] Hin. unfold canon in Hin. apply in_map_iff in Hin. destruct Hin as ([c0 d] & E & Hin).
    cbn [fst snd] in E. injection E as -> <-. cbn [snd]. apply eqv_Qeq. exact (Hl c d Hin). }
  destruct (repeat_tie_counts (map fst S) n) as [Hc Hu].
  apply (MJ_tie S n (canon S) r Hm (aggregate_Inv S T HI HT)).
  - rewrite Hb, Hc. apply Nat.eqb_neq. lia.
  - rewrite Hb, Hu. reflexivity.
  - rewrite Hb, tied_of_repeat by lia. rewrite (mj_remove_own S T _ 1 HI HT), mj_level_all. exact H.
Qed.

(* the same on a candidate-wise image: removing the median g of every F c d gives F' c d *)
Lemma NOOP_mapd F F' (g : C -> cscores -> Q) U T' thr n r :
  NoDup (map fst U) -> (0 < T')%Z -> (1 <= n < length U)%nat ->
  (forall c d, In (c, d) U -> (g c d == thr)%Q) ->
  (forall c d, In (c, d) U -> good (F c d) /\ cs_total (F c d) = T' /\ is_med (F c d) (g c d) /\
                              adj (F c d) (g c d) (- (1)) = F' c d) ->
  MJ (mapd F' U) n r -> MJ (mapd F U) n r.
Proof.
  intros Hnd HT Hn Hlev Hall H.
  assert (Hmed : forall c d, In (c, d) U -> (med_of (F c d) == g c d)%Q).
  { intros c d Hin. destruct (Hall c d Hin) as (A1 & A2 & A3 & _). exact (med_of_char _ T' _ A1 A2 HT A3). }
  apply (NOOP (mapd F U) T' thr n r).
  - apply mapd_Inv; [exact Hnd|]. intros c d Hin. destruct (Hall c d Hin) as (A1 & A2 & _). auto.
  - exact HT.
  - intros c d' Hin. destruct (mapd_In F U c d' Hin) as (d & HinU & ->). rewrite (Hmed c d HinU). exact (Hlev c d HinU).
  - rewrite mapd_length. exact Hn.
  - rewrite own_remove_mapd, mapd_mapd. rewrite (mapd_ext_in _ F' U); [exact H|].
    intros c d Hin. rewrite (adj_compat _ _ _ _ (Hmed c d Hin)). exact (proj2 (proj2 (proj2 (Hall c d Hin)))).
Qed.

(* removals a + 1 .. b of one score g that is the median of every candidate until then change nothing *)
Lemma remove_chain F (g : C -> cscores -> Q) U T' thr n r a b :
  NoDup (map fst U) -> (1 <= n < length U)%nat -> (a <= b <= T')%Z ->
  (forall c d, In (c, d) U -> (g c d == thr)%Q) ->
  (forall j c d, (a <= j < b)%Z -> In (c, d) U ->
     good (adj (F c d) (g c d) (- j)) /\ cs_total (adj (F c d) (g c d) (- j)) = (T' - j)%Z /\
     is_med (adj (F c d) (g c d) (- j)) (g c d)) ->
  MJ (mapd (fun c d => adj (F c d) (g c d) (- b)) U) n r -> MJ (mapd (fun c d => adj (F c d) (g c d) (- a)) U) n r.
Proof.
  intros Hnd Hn Hab Hlev Hall H.
  assert (Hchain : forall x, (0 <= x)%Z -> (x <= b - a)%Z -> MJ (mapd (fun c d => adj (F c d) (g c d) (- (b - x))) U) n r).
  { apply (natlike_ind (fun x => (x <= b - a)%Z -> MJ (mapd (fun c d => adj (F c d) (g c d) (- (b - x))) U) n r)).
    - intros _. rewrite Z.sub_0_r. exact H.
    - intros x Hx IH Hxb.
      apply (NOOP_mapd _ (fun c d => adj (F c d) (g c d) (- (b - x))) g U (T' - (b - Z.succ x)) thr n r Hnd); [lia|exact Hn|exact Hlev| |apply IH; lia].
      intros c d Hin. destruct (Hall (b - Z.succ x)%Z c d ltac:(lia) Hin) as (A1 & A2 & A3).
      split; [exact A1|]. split; [exact A2|]. split; [exact A3|]. rewrite adj_adj_same. f_equal. lia. }
  specialize (Hchain (b - a)%Z ltac:(lia) ltac:(lia)). replace (b - (b - a))%Z with a in Hchain by lia. exact Hchain.
Qed.

Lemma fold_filter_sumf (f : Q -> bool) (d : cscores) :
  fold_left Z.add (map snd (filter (fun sn : Q * Z => f (fst sn)) d)) 0%Z = sumf f d.
Proof.
  induction d as [|[s n] d IH]; [reflexivity|]. cbn [filter fst]. rewrite sumf_cons.
  destruct (f s); [|exact IH]. cbn [map fold_left snd]. rewrite fold_add_shiftZ, IH. lia.
Qed.

Lemma sumf_compl (f : Q -> bool) d : (sumf f d + sumf (fun s => negb (f s)) d = cs_total d)%Z.
Proof.
  induction d as [|[s n] d IH]; [reflexivity|]. rewrite cs_total_cons, !sumf_cons. destruct (f s); cbn [negb]; lia.
Qed.

Lemma lower_eq d m : sumf (fun s => Qle_bool m s) d = (cs_total d - below d m)%Z.
Proof. pose proof (sumf_compl (fun s => Qle_bool m s) d) as H. cbv beta in H. unfold below, qlt. lia. Qed.

Lemma upper_eq d m : sumf (fun s => negb (Qle_bool s m)) d = (cs_total d - atmost d m)%Z.
Proof. pose proof (sumf_compl (fun s => Qle_bool s m) d) as H. cbv beta in H. unfold atmost. lia. Qed.

(* twice the rounded-up distance of l from t / 2 *)
Lemma half_ceil_bound (l t : Z) : (2 * Qceiling (Qabs (inject_Z l - inject_Z t / 2)) <= Z.abs (2 * l - t) + 1)%Z.
Proof.
  assert (E : (Qabs (inject_Z l - inject_Z t / 2) == inject_Z (Z.abs (2 * l - t)) / 2)%Q).
  { setoid_replace (inject_Z l - inject_Z t / 2)%Q with (inject_Z (2 * l - t) * (1 # 2))%Q.
    - rewrite Qabs_Qmult. reflexivity.
    - unfold Z.sub. rewrite inject_Z_plus, inject_Z_mult, inject_Z_opp. field. }
  rewrite E. pose proof (Qceiling_lt (inject_Z (Z.abs (2 * l - t)) / 2)) as H.
  set (c := Qceiling (inject_Z (Z.abs (2 * l - t)) / 2)) in *. set (w := Z.abs (2 * l - t)) in *.
  assert (H' : (inject_Z (2 * (c - 1)) < inject_Z w)%Q).
  { rewrite inject_Z_mult. change (inject_Z 2) with 2%Q. unfold Qdiv in H. change (/ 2)%Q with (1 # 2)%Q in H. lra. }
  rewrite <- Zlt_Qlt in H'. lia.
Qed.

(* the number removed in one block, against one level candidate whose median is m *)
Lemma ch_bound (sub : state) (medians : list (C * Q)) c d T :
  In (c, d) sub -> cs_total d = T -> is_med d (dget_or medians c 0%Q) ->
  let m := dget_or medians c 0%Q in
  let ch := mj_ch sub medians in
  (1 <= ch)%Z /\ (ch = 1%Z \/ ((2 * ch <= T - 2 * below d m + 1)%Z /\ (2 * ch <= 2 * atmost d m - T + 1)%Z)).
Proof.
  intros Hin Ht [M1 M2] m ch. split; [apply mj_ch_pos|]. unfold ch, mj_ch. cbv zeta.
  destruct (closest_change sub medians =? 0)%Z; [left; reflexivity|right].
  set (per := fun cd : C * cscores =>
         let m := dget_or medians (fst cd) 0%Q in
         let half := (inject_Z (cs_total (snd cd)) / 2)%Q in
         let lower := inject_Z (fold_left Z.add (map snd (filter (fun sn : Q * Z => Qle_bool m (fst sn)) (snd cd))) 0%Z) in
         let upper := inject_Z (fold_left Z.add (map snd (filter (fun sn : Q * Z => negb (Qle_bool (fst sn) m)) (snd cd))) 0%Z) in
         Z.min (Qceiling (Qabs (lower - half))) (Qceiling (Qabs (upper - half)))).
  assert (Hle : (closest_change sub medians <= per (c, d))%Z).
  { unfold closest_change. fold per. destruct sub as [|x sub']; [destruct Hin|]. cbn [map].
    destruct (fold_min_le (map per sub') (per x)) as [H1 H2]. destruct Hin as [->|Hin]; [exact H1|].
    apply H2. apply in_map. exact Hin. }
  unfold per in Hle. cbv zeta in Hle. cbn [fst snd] in Hle. fold m in Hle, M1, M2.
  rewrite (fold_filter_sumf (fun s => Qle_bool m s)), (fold_filter_sumf (fun s => negb (Qle_bool s m))), lower_eq, upper_eq, Ht in Hle.
  rewrite Ht in M1, M2.
  pose proof (half_ceil_bound (T - below d m) T). pose proof (half_ceil_bound (T - atmost d m) T). lia.
Qed.

Lemma block_numeric d T m ch : good d -> cs_total d = T -> In m (map fst d) -> is_med d m ->
  (1 <= ch)%Z -> (ch = 1%Z \/ ((2 * ch <= T - 2 * below d m + 1)%Z /\ (2 * ch <= 2 * atmost d m - T + 1)%Z)) ->
  (ch <= get0 d m)%Z /\ (get0 d m <= T)%Z /\
  forall j, (0 <= j < ch)%Z -> is_med (adj d m (- j)) m.
Proof.
  intros [Hk Hnn] Ht Hin [M1 M2] H1 Hb. rewrite Ht in M1, M2.
  pose proof (get0_cnt d m Hk) as Hg. pose proof (sumf_nonneg (fun s => qlt s m) d Hnn) as Hb0. fold (below d m) in Hb0.
  assert (Hat : (atmost d m <= T)%Z).
  { rewrite <- Ht, cs_total_sumf. apply sumf_mono; [exact Hnn|reflexivity]. }
  split; [lia|]. split; [lia|]. intros j Hj. unfold is_med.
  rewrite (total_adj d m (- j) Hk (has_In d m Hin)), (below_adj d m (- j) m Hk (has_In d m Hin)),
          (atmost_adj d m (- j) m Hk (has_In d m Hin)), qlt_irrefl, Qle_bool_refl, Ht. lia.
Qed.

Lemma count_level (S : state) (L : list C) : NoDup (map fst S) -> NoDup L -> incl L (map fst S) ->
  length (mj_level S L) = length L.
Proof.
  intros H1 H2 H3. rewrite <- (map_length fst (mj_level S L)). apply Permutation_length. apply NoDup_Permutation.
  - apply nodup_keys_filter, H1.
  - exact H2.
  - intros x. unfold mj_level. split.
    + intros H. apply in_map_iff in H. destruct H as ([c d] & <- & Hf). apply filter_In in Hf. cbn [fst] in *.
      apply cmem_In. tauto.
    + intros H. pose proof (H3 x H) as Hs. apply in_map_iff in Hs. destruct Hs as ([c d] & <- & Hs).
      apply in_map_iff. exists (c, d). split; [reflexivity|]. apply filter_In. split; [exact Hs|]. apply cmem_In. exact H.
Qed.

Lemma sub_in U tied c d : In (c, d) (mj_level U tied) -> In (c, d) U.
Proof. unfold mj_level. intros H. apply filter_In in H. tauto. Qed.

Section Block.
  Variables (S : state) (T : Z) (n : nat).
  Hypothesis HI : Inv S T.
  Hypothesis HT : (0 < T)%Z.
  Let best := gnb (canon S) n.
  Hypothesis Hc : Nat.eqb (count_tie best) 0 = false.
  Hypothesis Hu : Nat.ltb 0 (untied_of best) = false.
  Let sub1 := mj_level S (tied_of best).
  Let ch := mj_ch sub1 (canon S).

  (* the tied candidates are more than the seats, and level *)
  Lemma tied_level : exists thr, (1 <= n < length sub1)%nat /\ level_at sub1 thr.
  Proof.
    pose proof (proj1 HI) as Hnd.
    pose proof (canon_keys S) as Hkeys.
    assert (Hndm : NoDup (map fst (canon S))) by (rewrite Hkeys; exact Hnd).
    destruct (gnb_tie0 (canon S) n Hndm Hc Hu) as (tied & thr & Eb & Hn & Hndt & Hincl & Hlevel).
    fold best in Eb. rewrite Hkeys in Hincl.
    assert (Htied : tied_of best = tied) by (rewrite Eb; apply tied_of_repeat, Hn).
    exists thr. unfold sub1. rewrite Htied. split; [rewrite (count_level S _ Hnd Hndt Hincl); exact Hn|].
    intros c d Hin. unfold mj_level in Hin. apply filter_In in Hin. destruct Hin as [HinS Hct]. cbn [fst] in Hct.
    apply (Hlevel c (med_of d)); [|apply cmem_In, Hct].
    unfold canon. apply in_map_iff. exists (c, d). auto.
  Qed.

  (* the block stops before the median of any tied candidate changes *)
  Lemma block_cand c d : In (c, d) sub1 ->
    (ch <= get0 d (med_of d))%Z /\ (get0 d (med_of d) <= T)%Z /\
    forall j, (0 <= j < ch)%Z -> is_med (adj d (med_of d) (- j)) (med_of d).
  Proof.
    intros Hin. pose proof (sub_in S _ c d Hin) as HinS.
    destruct (cand_facts S T c d HI HT HinS) as (Hg & Ht & Hk & Hm).
    pose proof (dget_or_own S c d (proj1 HI) HinS) as Hown.
    assert (Hm' : is_med d (dget_or (canon S) c 0%Q)) by (rewrite Hown; exact Hm).
    destruct (ch_bound sub1 (canon S) c d T Hin Ht Hm') as [B1 B2]. rewrite Hown in B2. fold ch in B1, B2.
    exact (block_numeric d T (med_of d) ch Hg Ht Hk Hm B1 B2).
  Qed.

  Lemma block_facts : exists thr,
    (1 <= n < length sub1)%nat /\ level_at sub1 thr /\ Inv sub1 T /\ (1 <= ch <= T)%Z /\
    forall c d, In (c, d) sub1 ->
      (ch <= get0 d (med_of d))%Z /\
      forall j, (0 <= j < ch)%Z -> is_med (adj d (med_of d) (- j)) (med_of d).
  Proof.
    destruct tied_level as (thr & Hn & Hlev). exists thr.
    split; [exact Hn|]. split; [exact Hlev|]. split; [apply Inv_filter, HI|]. split.
    - pose proof block_cand as Hall. destruct sub1 as [|[c d] s1]; [simpl in Hn; lia|].
      destruct (Hall c d ltac:(left; reflexivity)) as (A1 & A2 & _).
      pose proof (mj_ch_pos ((c, d) :: s1) (canon S)). fold ch in H. lia.
    - intros c d Hin. destruct (block_cand c d Hin) as (A1 & _ & A3). auto.
  Qed.

  Lemma block_chain r : MJ (own_remove sub1 ch) n r -> MJ S n r.
  Proof.
    destruct block_facts as (thr & Hn & Hlev & HI1 & Hch & Hall). intros H.
    assert (H1 : MJ (own_remove sub1 1) n r).
    { apply (remove_chain (fun _ d => d) (fun _ d => med_of d) sub1 T thr n r 1 ch (proj1 HI1) Hn Hch Hlev); [|exact H].
      intros j c d Hj Hin. destruct (Hall c d Hin) as (A1 & A3). destruct (cand_facts sub1 T c d HI1 HT Hin) as (Hg & Ht & Hk & _).
      destruct (remove_med_good d T j Hg Ht Hk ltac:(lia)) as [B1 B2].
      split; [exact B1|]. split; [exact B2|]. apply A3; lia. }
    assert (Hm : (mx S <=? 0)%Z = false).
    { apply (mx_pos S T HI ltac:(lia)). split; [|exact HT]. intros E. unfold sub1 in Hn. rewrite E in Hn. simpl in Hn. lia. }
    apply (MJ_tie S n (canon S) r Hm (aggregate_Inv S T HI HT) Hc Hu).
    rewrite (mj_remove_own S T _ 1 HI HT). exact H1.
  Qed.

  Lemma block_state : mj_remove sub1 (canon S) ch = own_remove sub1 ch /\ Inv (own_remove sub1 ch) (T - ch) /\
                      (1 <= ch <= T)%Z /\ (length sub1 <= length S)%nat.
  Proof.
    destruct block_facts as (thr & Hn & Hlev & HI1 & Hch & Hall).
    split; [exact (mj_remove_own S T _ ch HI HT)|].
    split; [apply own_remove_Inv; [exact HI1|exact HT|]; intros c d Hin; exact (proj1 (Hall c d Hin))|].
    split; [exact Hch|]. unfold sub1, mj_level. apply filter_len_le.
  Qed.
End Block.

(* a candidate who is placed leaves the state *)
Lemma rest_of_shorter S n : NoDup (map fst S) ->
  Nat.eqb (count_tie (gnb (canon S) n)) 0 = false -> Nat.ltb 0 (untied_of (gnb (canon S) n)) = true ->
  (length (rest_of S (gnb (canon S) n)) < length S)%nat.
Proof.
  intros Hnd Hc Hu. rewrite <- canon_keys in Hnd.
  destruct (gnb_tied (canon S) n Hnd Hc) as (cs & tied & thr & k & E & [_ _ _ Hk] & _).
  apply Nat.ltb_lt in Hu. rewrite E, untied_shape in Hu. destruct cs as [|c0 cs']; [simpl in Hu; lia|].
  assert (Hin : In c0 (map fst S)) by (rewrite <- canon_keys; apply Hk; left; reflexivity).
  apply in_map_iff in Hin. destruct Hin as ([c d] & Ec & Hin). cbn [fst] in Ec. subst c.
  unfold rest_of. apply (filter_length_drop _ _ (c0, d) Hin). cbn [fst]. rewrite E, wc_shape. cbn [cmem]. unfold ceqb. rewrite Pos.eqb_refl. reflexivity.
Qed.

Theorem mj_default_MJ : forall fuel S n T, Inv S T -> (0 <= T)%Z -> (Z.to_nat T + length S < fuel)%nat ->
  MJ S n (mj_default fuel S n).
Proof.
  induction fuel as [|f IH]; intros S n T HI HT0 Hf; [lia|]. rewrite mj_default_unfold.
  destruct (mx S <=? 0)%Z eqn:Hm; [apply MJ_vse, Hm|].
  destruct (proj1 (mx_pos S T HI HT0) Hm) as [Hne HT].
  pose proof (aggregate_Inv S T HI HT) as Ha. rewrite Ha. cbv zeta.
  destruct (Nat.eqb (count_tie (gnb (canon S) n)) 0) eqn:Hc; [apply (MJ_done S n (canon S) Hm Ha Hc)|].
  destruct (Nat.ltb 0 (untied_of (gnb (canon S) n))) eqn:Hu.
  - apply (MJ_win S n (canon S) _ Hm Ha Hc Hu). pose proof (rest_of_shorter S n (proj1 HI) Hc Hu).
    apply (IH _ _ T); [apply Inv_filter, HI|exact HT0|lia].
  - destruct (block_state S T n HI HT Hc Hu) as (E & HI' & Hch & Hlen). rewrite E.
    apply (block_chain S T n HI HT Hc Hu).
    apply (IH _ _ (T - mj_ch (mj_level S (tied_of (gnb (canon S) n))) (canon S))%Z); [exact HI'|lia|]. rewrite own_remove_length. lia.
Qed.

Lemma good_scalec k d : (0 <= k)%Z -> good d -> good (scalec k d).
Proof. intros Hk [H1 H2]. split; [rewrite scalec_keys; exact H1|apply nonneg_scalec; assumption]. Qed.

Lemma good_adj_add d s delta : good d -> In s (map fst d) -> (0 <= delta)%Z -> good (adj d s delta).
Proof.
  intros Hg Hs Hd. apply good_adj; [exact Hg|exact Hs|]. pose proof (get0_nonneg d s (proj2 Hg)). lia.
Qed.

Section PerCand.
  Variable k : Z.
  Hypothesis Hk : (0 < k)%Z.
  Variables (d : cscores) (T : Z) (m : Q).
  Hypothesis Hg : good d.
  Hypothesis Ht : cs_total d = T.
  Hypothesis Hm : In m (map fst d).
  Hypothesis Hmed : is_med d m.

  Let Hkd : keys_nd (map fst d) := proj1 Hg.

  Lemma get0_med_pos : (1 <= get0 d m)%Z.
  Proof. pose proof Hmed as [M1 M2]. rewrite (get0_cnt d m Hkd). lia. Qed.

  Lemma total_sa s a : In s (map fst d) -> cs_total (adj (scalec k d) s a) = (k * T + a)%Z.
  Proof.
    intros Hs. rewrite total_adj, total_scalec, Ht; [reflexivity|rewrite scalec_keys; exact Hkd|apply has_In; rewrite scalec_keys; exact Hs].
  Qed.

  Lemma sync_good j : (0 <= j <= k)%Z -> good (adj (scalec k d) m (- j)).
  Proof.
    intros Hj. apply good_adj; [apply good_scalec; [lia|exact Hg]|rewrite scalec_keys; exact Hm|].
    rewrite get0_scalec. pose proof get0_med_pos. pose proof (Z.mul_le_mono_nonneg_l 1 (get0 d m) k). lia.
  Qed.

  (* the staircase between  k * (d - m)  and  k * d + (k-1) h *)
  Variable h : Q.
  Hypothesis Hh : In h (map fst d).
  Hypothesis Ho : Z.odd T = true.
  Hypothesis Hh1 : (2 * below d h <= T - 1)%Z.
  Hypothesis Hh2 : (T - 1 <= 2 * atmost d h)%Z.

  Definition stairB : cscores := scalec k (adj d m (- (1))).
  Definition stairZ (x y : Z) : cscores := adj (adj stairB h x) m y.

  Lemma stairB_keys : map fst stairB = map fst d.
  Proof. unfold stairB. rewrite scalec_keys, adj_keys. reflexivity. Qed.

  Lemma stair_good x y : (0 <= x)%Z -> (0 <= y)%Z -> good (stairZ x y).
  Proof.
    intros Hx Hy. unfold stairZ. apply good_adj_add; [apply good_adj_add|rewrite adj_keys, stairB_keys; exact Hm|exact Hy].
    - unfold stairB. apply good_scalec; [lia|]. apply good_adj; [exact Hg|exact Hm|]. pose proof get0_med_pos. lia.
    - rewrite stairB_keys. exact Hh.
    - exact Hx.
  Qed.

  Lemma h_le_m : (h <= m)%Q.
  Proof.
    destruct (Qlt_le_dec m h) as [Hlt|Hle]; [|exact Hle]. exfalso. pose proof Hmed as [M1 M2]. rewrite Ht in M1, M2.
    pose proof (atmost_below d m h (proj2 Hg) Hlt) as H.
    pose proof Ho as Ho'. rewrite Z.odd_spec in Ho'. destruct Ho' as [t Et]. lia.
  Qed.

  Lemma stair_counts x y g :
    cs_total (stairZ x y) = (k * (T - 1) + x + y)%Z /\
    below (stairZ x y) g = (k * (below d g - if qlt m g then 1 else 0) + (if qlt h g then x else 0) + (if qlt m g then y else 0))%Z /\
    atmost (stairZ x y) g = (k * (atmost d g - if Qle_bool m g then 1 else 0) + (if Qle_bool h g then x else 0) + (if Qle_bool m g then y else 0))%Z.
  Proof.
    assert (K0 : keys_nd (map fst stairB)) by (rewrite stairB_keys; exact Hkd).
    assert (K1 : keys_nd (map fst (adj stairB h x))) by (rewrite adj_keys; exact K0).
    assert (H0 : has stairB h) by (apply has_In; rewrite stairB_keys; exact Hh).
    assert (H1 : has (adj stairB h x) m) by (apply has_In; rewrite adj_keys, stairB_keys; exact Hm).
    assert (Hd : has d m) by (apply has_In; exact Hm).
    unfold stairZ. rewrite (total_adj _ _ _ K1 H1), (total_adj _ _ _ K0 H0), (below_adj _ _ _ g K1 H1), (below_adj _ _ _ g K0 H0),
      (atmost_adj _ _ _ g K1 H1), (atmost_adj _ _ _ g K0 H0).
    unfold stairB. rewrite total_scalec, below_scalec, atmost_scalec, (total_adj _ _ _ Hkd Hd), (below_adj _ _ _ g Hkd Hd), (atmost_adj _ _ _ g Hkd Hd), Ht.
    split; [lia|]. split; [destruct (qlt m g), (qlt h g); lia|destruct (Qle_bool m g), (Qle_bool h g); lia].
  Qed.

  (* m stays the median as long as fewer copies of h than of m have been put back *)
  Lemma stair_med x y : (0 <= x < y)%Z -> is_med (stairZ x y) m.
  Proof using Hg Hh Hh1 Hk Hm Hmed Ho Ht.
    intros Hx. pose proof Hmed as [M1 M2]. rewrite Ht in M1, M2. pose proof Ho as Ho'. rewrite Z.odd_spec in Ho'. destruct Ho' as [t Et].
    destruct (stair_counts x y m) as (E1 & E2 & E3). unfold is_med. rewrite E1, E2, E3, qlt_irrefl, Qle_bool_refl.
    assert (A1 : (0 <= k * (T - 1 - 2 * below d m))%Z) by (apply Z.mul_nonneg_nonneg; lia).
    assert (A2 : (0 <= k * (2 * atmost d m - T - 1))%Z) by (apply Z.mul_nonneg_nonneg; lia).
    assert (B1 : Qle_bool h m = true) by (apply Qle_bool_iff; exact h_le_m). rewrite B1.
    destruct (qlt h m); lia.
  Qed.

  Lemma stair_med_m x : (0 <= x <= k - 1)%Z -> is_med (stairZ x (x + 1)) m.
  Proof using Hg Hh Hh1 Hk Hm Hmed Ho Ht. intros Hx. apply stair_med. lia. Qed.

  Lemma stair_med_h x : (1 <= x <= k - 1)%Z -> is_med (stairZ x x) h.
  Proof using Hg Hh Hh1 Hh2 Hk Hm Hmed Ho Ht.
    intros Hx. pose proof Hmed as [M1 M2]. rewrite Ht in M1, M2. pose proof Ho as Ho'. rewrite Z.odd_spec in Ho'. destruct Ho' as [t Et].
    destruct (stair_counts x x h) as (E1 & E2 & E3). unfold is_med. rewrite E1, E2, E3, qlt_irrefl, Qle_bool_refl.
    pose proof h_le_m as Hle.
    assert (B0 : qlt m h = false) by (apply not_true_iff_false; rewrite qlt_iff; lra). rewrite B0.
    assert (A1 : (0 <= k * (T - 1 - 2 * below d h))%Z) by (apply Z.mul_nonneg_nonneg; lia).
    assert (A2 : (0 <= k * (2 * atmost d h - (T - 1)))%Z) by (apply Z.mul_nonneg_nonneg; lia).
    destruct (Qle_bool m h) eqn:B2; [|lia].
    (* h == m: at most h is at most m *)
    assert (N2 : (atmost d m <= atmost d h)%Z).
    { apply sumf_mono; [exact (proj2 Hg)|]. intros s Hs. apply Qle_bool_iff in Hs, B2. apply Qle_bool_iff. lra. }
    assert (A3 : (0 <= k * (2 * atmost d h - T - 1))%Z) by (apply Z.mul_nonneg_nonneg; lia).
    lia.
  Qed.

  (* one step down the staircase takes away a copy of m, the next one a copy of h *)
  Lemma stair_down_m x : (0 <= x <= k - 1)%Z ->
    good (stairZ x (x + 1)) /\ cs_total (stairZ x (x + 1)) = (k * (T - 1) + x + (x + 1))%Z /\
    is_med (stairZ x (x + 1)) m /\ adj (stairZ x (x + 1)) m (- (1)) = stairZ x x.
  Proof.
    intros Hx. split; [apply stair_good; lia|]. split; [exact (proj1 (stair_counts x (x + 1) 0%Q))|].
    split; [exact (stair_med_m x Hx)|]. unfold stairZ. rewrite adj_adj_same. f_equal. lia.
  Qed.

  Lemma stair_down_h x : (0 <= x <= k - 2)%Z ->
    good (stairZ (x + 1) (x + 1)) /\ cs_total (stairZ (x + 1) (x + 1)) = (k * (T - 1) + (x + 1) + (x + 1))%Z /\
    is_med (stairZ (x + 1) (x + 1)) h /\ adj (stairZ (x + 1) (x + 1)) h (- (1)) = stairZ x (x + 1).
  Proof.
    intros Hx. split; [apply stair_good; lia|]. split; [exact (proj1 (stair_counts (x + 1) (x + 1) 0%Q))|].
    split; [apply stair_med_h; lia|]. unfold stairZ. rewrite (adj_adj_comm _ m (x + 1) h (- (1))), adj_adj_same. f_equal. f_equal. lia.
  Qed.
End PerCand.

Lemma own_remove_one_Inv S T : Inv S T -> (0 < T)%Z -> Inv (own_remove S 1) (T - 1).
Proof.
  intros HI HT. apply own_remove_Inv; [exact HI|exact HT|]. intros c d Hin.
  destruct (cand_facts S T c d HI HT Hin) as (Hg & _ & _ & Hmed). exact (get0_med_pos d _ Hg Hmed).
Qed.

(* F takes U onto a balanced state of positive total T', keeping every median (up to ==) *)
Definition keeps_medians (F : C -> cscores -> cscores) (U : state) (T' : Z) : Prop :=
  Inv (mapd F U) T' /\ (0 < T')%Z /\ forall c d, In (c, d) U -> (med_of (F c d) == med_of d)%Q.

Lemma gnb_mapd F U n : (forall c d, In (c, d) U -> (med_of (F c d) == med_of d)%Q) -> gnb (canon (mapd F U)) n = gnb (canon U) n.
Proof.
  intros H. unfold gnb.
  apply (get_n_best_rel Qle_bool Qle_bool (fun a a' : Q => (a' == a)%Q)); [intros a a' b b' Ha Hb; apply Qle_bool_Qeq; assumption|].
  unfold canon, mapd. rewrite map_map. cbn [fst snd]. induction U as [|[c d] U IH]; [constructor|].
  cbn [map fst snd]. constructor; [split; [reflexivity|apply (H c d); left; reflexivity]|]. apply IH. intros c' d' Hin. apply H. right. exact Hin.
Qed.

Lemma image_step F U T' n : (mx U <=? 0)%Z = false -> keeps_medians F U T' ->
  (mx (mapd F U) <=? 0)%Z = false /\ aggregate FMedianLow (mapd F U) = inl (canon (mapd F U)) /\
  gnb (canon (mapd F U)) n = gnb (canon U) n.
Proof.
  intros Hm (HI' & HT' & Hmed). split; [|split; [exact (aggregate_Inv _ T' HI' HT')|exact (gnb_mapd F U n Hmed)]].
  apply (mx_pos _ T' HI' ltac:(lia)). split; [|exact HT']. destruct U; [discriminate Hm|discriminate].
Qed.

Lemma follow_done F U T' n : (mx U <=? 0)%Z = false -> keeps_medians F U T' ->
  Nat.eqb (count_tie (gnb (canon U) n)) 0 = true -> MJ (mapd F U) n (inl (gnb (canon U) n)).
Proof.
  intros Hm HF Hc. destruct (image_step F U T' n Hm HF) as (Hm' & Ha' & Hg). rewrite <- Hg in Hc |- *.
  exact (MJ_done _ n _ Hm' Ha' Hc).
Qed.

Lemma follow_win F U T' n r : (mx U <=? 0)%Z = false -> keeps_medians F U T' ->
  Nat.eqb (count_tie (gnb (canon U) n)) 0 = false -> Nat.ltb 0 (untied_of (gnb (canon U) n)) = true ->
  MJ (mapd F (rest_of U (gnb (canon U) n))) (n - untied_of (gnb (canon U) n)) r ->
  MJ (mapd F U) n (match r with inl r => inl (winners_of (gnb (canon U) n) ++ r) | inr e => inr e end).
Proof.
  intros Hm HF Hc Hu H. destruct (image_step F U T' n Hm HF) as (Hm' & Ha' & Hg).
  rewrite <- rest_of_mapd, <- Hg in *. exact (MJ_win _ n _ r Hm' Ha' Hc Hu H).
Qed.

(* the first removal on the image of a tied state *)
Lemma tie_image F U T' n r : (mx U <=? 0)%Z = false -> keeps_medians F U T' ->
  Nat.eqb (count_tie (gnb (canon U) n)) 0 = false -> Nat.ltb 0 (untied_of (gnb (canon U) n)) = false ->
  MJ (mapd (fun c d => adj (F c d) (med_of d) (- (1))) (mj_level U (tied_of (gnb (canon U) n)))) n r ->
  MJ (mapd F U) n r.
Proof.
  intros Hm HF Hc Hu H. destruct (image_step F U T' n Hm HF) as (Hm' & Ha' & Hg). destruct HF as (HI' & HT' & Hmed).
  apply (MJ_tie _ n _ r Hm' Ha'); rewrite Hg; [exact Hc|exact Hu|].
  rewrite (mj_remove_own (mapd F U) T' _ 1 HI' HT'), mj_level_mapd, own_remove_mapd, mapd_mapd.
  rewrite (mapd_ext_in _ (fun c d => adj (F c d) (med_of d) (- (1)))); [exact H|].
  intros c d Hin. apply adj_compat, Hmed. exact (sub_in U _ c d Hin).
Qed.

Section Follow.
  Variable k : Z.
  Hypothesis Hk : (0 < k)%Z.

  Definition Fsc : C -> cscores -> cscores := fun _ d => scalec k d.
  (* Fp1 hs is where the k-fold run stands one removal after a tie on an even total: the original run has taken one
     copy of the old median hs c, the k-fold run one of k, so it holds the k-fold dictionary and k - 1 spare copies of
     hs c.  The total T left is odd, and hs c lies at or just below the new median (p1_ok). *)
  Definition Fp1 (hs : C -> Q) : C -> cscores -> cscores := fun c d => adj (scalec k d) (hs c) (k - 1).
  Definition p1_ok (hs : C -> Q) (h0 : Q) (U : state) (T : Z) : Prop :=
    forall c d, In (c, d) U ->
      In (hs c) (map fst d) /\ (hs c == h0)%Q /\ (2 * below d (hs c) <= T - 1)%Z /\ (T - 1 <= 2 * atmost d (hs c))%Z.

  Lemma crel_scalec d : crel k d (scalec k d).
  Proof.
    induction d as [|[s n] d IH]; [constructor|]. cbn [scalec map fst snd]. constructor; [|exact IH].
    split; [reflexivity|]. cbn [snd]. unfold zsc. reflexivity.
  Qed.

  Lemma med_of_scalec d : med_of (scalec k d) = med_of d.
  Proof. unfold med_of. rewrite (aggregate_one_eq k Hk FMedianLow d (scalec k d) ltac:(discriminate) (crel_scalec d)). reflexivity. Qed.

  Lemma stairZ_top d m h : stairZ k d m h (k - 1) k = adj (scalec k d) h (k - 1).
  Proof.
    unfold stairZ, stairB. rewrite scalec_adj, adj_adj_comm, adj_adj_same.
    replace (k * - (1) + k)%Z with 0%Z by lia. rewrite adj_zero. reflexivity.
  Qed.

  Lemma stairZ_zero d m h : stairZ k d m h 0 0 = scalec k (adj d m (- (1))).
  Proof. unfold stairZ, stairB. rewrite !adj_zero. reflexivity. Qed.

  (* odd total: j < k removals from the k-fold dictionary leave the median where it is (the staircase with h = m, x = 0) *)
  Lemma sync_odd_med d T m j : good d -> cs_total d = T -> In m (map fst d) -> is_med d m -> Z.odd T = true ->
    (0 <= j < k)%Z -> is_med (adj (scalec k d) m (- j)) m.
  Proof.
    intros Hg Ht Hm Hmed Ho Hj. replace (adj (scalec k d) m (- j)) with (stairZ k d m m 0 (k - j)).
    - apply (stair_med k Hk d T m Hg Ht Hm Hmed m Hm Ho); [|lia]. rewrite <- Ht. exact (proj1 Hmed).
    - unfold stairZ, stairB. rewrite adj_zero, scalec_adj, adj_adj_same. f_equal. lia.
  Qed.

  Lemma SC_Inv U T : Inv U T -> Inv (mapd Fsc U) (k * T).
  Proof.
    intros [Hnd H]. apply mapd_Inv; [exact Hnd|]. intros c d Hin. rewrite Forall_forall in H. destruct (H _ Hin) as [Hg Ht]. cbn [snd] in *.
    unfold Fsc. split; [apply good_scalec; [lia|exact Hg]|rewrite total_scalec, Ht; reflexivity].
  Qed.

  Lemma mx_scale U T : Inv U T -> (mx (mapd Fsc U) <=? 0)%Z = (mx U <=? 0)%Z.
  Proof.
    intros HI. destruct U as [|x U]; [reflexivity|]. pose proof (Inv_nonneg _ _ HI ltac:(discriminate)) as H0.
    rewrite (mx_Inv _ _ HI H0), (mx_Inv _ _ (SC_Inv _ T HI)) by (apply Z.mul_nonneg_nonneg; lia). cbn [mapd map].
    destruct (Z.eq_dec T 0) as [->|Hne]; [rewrite Z.mul_0_r; reflexivity|].
    rewrite !(proj2 (Z.leb_gt _ _)); [reflexivity|lia|apply Z.mul_pos_pos; lia].
  Qed.

  Lemma SC_keeps U T : Inv U T -> (0 < T)%Z -> keeps_medians Fsc U (k * T).
  Proof.
    intros HI HT. split; [exact (SC_Inv U T HI)|]. split; [apply Z.mul_pos_pos; assumption|].
    intros c d _. unfold Fsc. rewrite med_of_scalec. reflexivity.
  Qed.

  Lemma P1_cand hs h0 U T c d : Inv U T -> (0 < T)%Z -> Z.odd T = true -> p1_ok hs h0 U T -> In (c, d) U ->
    good (Fp1 hs c d) /\ cs_total (Fp1 hs c d) = (k * T + k - 1)%Z /\ is_med (Fp1 hs c d) (med_of d).
  Proof.
    intros HI HT Ho Hok Hin. destruct (cand_facts U T c d HI HT Hin) as (Hg & Ht & Hm & Hmed).
    destruct (Hok c d Hin) as (Hh & _ & Hh1 & Hh2). unfold Fp1. split; [|split].
    - apply good_adj_add; [apply good_scalec; [lia|exact Hg]|rewrite scalec_keys; exact Hh|lia].
    - rewrite (total_sa k d T Hg Ht _ _ Hh). lia.
    - rewrite <- (stairZ_top d (med_of d) (hs c)). apply (stair_med k Hk d T (med_of d) Hg Ht Hm Hmed (hs c) Hh Ho Hh1). lia.
  Qed.

  Lemma P1_keeps hs h0 U T : Inv U T -> (0 < T)%Z -> Z.odd T = true -> p1_ok hs h0 U T ->
    keeps_medians (Fp1 hs) U (k * T + k - 1).
  Proof.
    intros HI HT Ho Hok. assert (HT' : (0 < k * T + k - 1)%Z) by (pose proof (Z.mul_pos_pos k T Hk HT); lia).
    split; [|split; [exact HT'|]].
    - apply mapd_Inv; [exact (proj1 HI)|]. intros c d Hin. destruct (P1_cand hs h0 U T c d HI HT Ho Hok Hin) as (A & B & _). auto.
    - intros c d Hin. destruct (P1_cand hs h0 U T c d HI HT Ho Hok Hin) as (A & B & Cm). exact (med_of_char _ _ _ A B HT' Cm).
  Qed.

  Lemma p1_ok_filter hs h0 U T (f : C * cscores -> bool) : p1_ok hs h0 U T -> p1_ok hs h0 (filter f U) T.
  Proof. intros H c d Hin. apply filter_In in Hin. apply H. tauto. Qed.

  (* On a level state V (every median == thr, more candidates than seats) the k-fold runs catch up with one
     removal of the original run.  Odd total: k removals of the same median. *)
  Lemma sync_odd V T thr n r : Inv V T -> (0 < T)%Z -> Z.odd T = true -> level_at V thr -> (1 <= n < length V)%nat ->
    MJ (mapd Fsc (own_remove V 1)) n r -> MJ (mapd (fun c d => adj (scalec k d) (med_of d) (- (1))) V) n r.
  Proof.
    intros HI HT Ho Hlev Hn H.
    apply (remove_chain (fun _ d => scalec k d) (fun _ d => med_of d) V (k * T) thr n r 1 k (proj1 HI) Hn);
      [pose proof (Z.mul_le_mono_nonneg_l 1 T k); lia|exact Hlev| |].
    - intros j c d Hj Hin. destruct (cand_facts V T c d HI HT Hin) as (A1 & A2 & A3 & A4).
      split; [apply (sync_good k Hk d _ A1 A3 A4); lia|]. split; [apply (total_sa k d T A1 A2 _ _ A3)|].
      apply (sync_odd_med d T _ j A1 A2 A3 A4 Ho); lia.
    - rewrite own_remove_mapd, mapd_mapd in H. rewrite (mapd_ext_in _ (fun c d => adj (scalec k d) (med_of d) (- k))) in H; [exact H|].
      intros c d _. unfold Fsc. rewrite scalec_adj. f_equal. lia.
  Qed.

  (* Even total: after its first removal the k-fold run stands at the Fp1 image of the original state one removal on,
     the spare copies being those of the old median. *)
  Lemma sync_even V T thr : Inv V T -> (0 < T)%Z -> Z.odd T = false -> level_at V thr ->
    let hs := fun c => dget_or (canon V) c 0%Q in
    p1_ok hs thr (own_remove V 1) (T - 1) /\
    mapd (Fp1 hs) (own_remove V 1) = mapd (fun c d => adj (scalec k d) (med_of d) (- (1))) V.
  Proof.
    intros HI HT Ho Hlev hs.
    assert (Hhs : forall c d, In (c, d) V -> hs c = med_of d) by (intros c d Hin; exact (dget_or_own V c d (proj1 HI) Hin)).
    split.
    - assert (Hev : Z.even T = true) by (rewrite <- Z.negb_odd, Ho; reflexivity). apply Z.even_spec in Hev. destruct Hev as [t Et].
      intros c d' Hin. rewrite own_remove_mapd in Hin. destruct (mapd_In _ V c d' Hin) as (d & HinV & ->).
      destruct (cand_facts V T c d HI HT HinV) as (A1 & A2 & A3 & [M1 M2]). rewrite (Hhs c d HinV). rewrite A2 in M1, M2.
      split; [rewrite adj_keys; exact A3|]. split; [exact (Hlev c d HinV)|].
      rewrite (below_adj d _ _ _ (proj1 A1) (has_In d _ A3)), (atmost_adj d _ _ _ (proj1 A1) (has_In d _ A3)), qlt_irrefl, Qle_bool_refl. lia.
    - rewrite own_remove_mapd, mapd_mapd. apply mapd_ext_in. intros c d Hin.
      unfold Fp1. rewrite (Hhs c d Hin), scalec_adj, adj_adj_same. f_equal. lia.
  Qed.

  Lemma stair_step hs h0 V T thr n r x : Inv V T -> (0 < T)%Z -> Z.odd T = true -> level_at V thr -> p1_ok hs h0 V T ->
    (1 <= n < length V)%nat -> (0 <= x <= k - 2)%Z ->
    MJ (mapd (fun c d => stairZ k d (med_of d) (hs c) x x) V) n r ->
    MJ (mapd (fun c d => stairZ k d (med_of d) (hs c) (x + 1) (x + 1)) V) n r.
  Proof.
    intros HI HT Ho Hlev Hok Hn Hx H. pose proof (Z.mul_nonneg_nonneg k (T - 1)) as Hpos.
    apply (NOOP_mapd _ (fun c d => stairZ k d (med_of d) (hs c) x (x + 1)) (fun c d => hs c) V (k * (T - 1) + (x + 1) + (x + 1)) h0 n r (proj1 HI));
      [lia|exact Hn| | |].
    - intros c d Hin. exact (proj1 (proj2 (Hok c d Hin))).
    - intros c d Hin. destruct (cand_facts V T c d HI HT Hin) as (A1 & A2 & A3 & A4). destruct (Hok c d Hin) as (B1 & _ & B3 & B4).
      exact (stair_down_h k Hk d T _ A1 A2 A3 A4 _ B1 Ho B3 B4 x Hx).
    - apply (NOOP_mapd _ (fun c d => stairZ k d (med_of d) (hs c) x x) (fun c d => med_of d) V (k * (T - 1) + x + (x + 1)) thr n r (proj1 HI));
        [lia|exact Hn|exact Hlev| |exact H].
      intros c d Hin. destruct (cand_facts V T c d HI HT Hin) as (A1 & A2 & A3 & A4). destruct (Hok c d Hin) as (B1 & _ & B3 & _).
      apply (stair_down_m k Hk d T _ A1 A2 A3 A4 _ B1 Ho B3 x). lia.
  Qed.

  (* The k-fold run that holds k - 1 extra copies of hs is k - 1 removals ahead: on a level state it removes, in turn,
     a copy of the median and a spare copy of hs (the staircase of stairZ x x, x = k - 1 .. 0), and so reaches the
     k-fold image of the original state one removal on. *)
  Lemma staircase hs h0 V T thr n r : Inv V T -> (0 < T)%Z -> Z.odd T = true -> level_at V thr -> p1_ok hs h0 V T ->
    (1 <= n < length V)%nat ->
    MJ (mapd Fsc (own_remove V 1)) n r -> MJ (mapd (fun c d => adj (Fp1 hs c d) (med_of d) (- (1))) V) n r.
  Proof.
    intros HI HT Ho Hlev Hok Hn H.
    assert (Hstair : forall x, (0 <= x)%Z -> (x <= k - 1)%Z -> MJ (mapd (fun c d => stairZ k d (med_of d) (hs c) x x) V) n r).
    { apply (natlike_ind (fun x => (x <= k - 1)%Z -> MJ (mapd (fun c d => stairZ k d (med_of d) (hs c) x x) V) n r)).
      - intros _. rewrite own_remove_mapd, mapd_mapd in H. rewrite (mapd_ext_in _ (fun c d => Fsc c (adj d (med_of d) (- (1))))); [exact H|].
        intros c d _. apply stairZ_zero.
      - intros x Hx0 IHx Hx. unfold Z.succ. apply (stair_step hs h0 V T thr n r x HI HT Ho Hlev Hok Hn); [lia|apply IHx; lia]. }
    rewrite (mapd_ext_in _ (fun c d => stairZ k d (med_of d) (hs c) (k - 1) (k - 1))); [apply Hstair; lia|].
    intros c d _. unfold Fp1. rewrite <- (stairZ_top d (med_of d) (hs c)). unfold stairZ. rewrite adj_adj_same. f_equal.
  Qed.

  (* the k-fold run follows the original one, from the k-fold state and from one that holds spare copies alike *)
  Theorem MJ_follow U n r : MJ U n r -> forall T, Inv U T ->
    MJ (mapd Fsc U) n r /\
    (forall hs h0, Z.odd T = true -> p1_ok hs h0 U T -> MJ (mapd (Fp1 hs) U) n r).
  Proof.
    induction 1 as [U n Hm|U n e Hm Ha|U n med Hm Ha Hc|U n med r Hm Ha Hc Hu H IH|U n med r Hm Ha Hc Hu H IH]; intros T HI.
    - (* nobody has a score left *)
      split; [apply MJ_vse; rewrite (mx_scale U T HI); exact Hm|].
      intros hs h0 Ho Hok. destruct U as [|x U']; [apply MJ_vse; reflexivity|]. exfalso.
      pose proof (Inv_nonneg _ _ HI ltac:(discriminate)) as H0. rewrite (mx_Inv _ _ HI H0) in Hm. apply Z.leb_le in Hm.
      rewrite Z.odd_spec in Ho. destruct Ho as [t Et]. lia.
    - exfalso. destruct (mx_false U T HI Hm) as [_ HT]. rewrite (aggregate_Inv _ _ HI HT) in Ha. discriminate.
    - destruct (aggregate_canon U T med HI Hm Ha) as [-> HT]. split.
      + exact (follow_done Fsc U _ n Hm (SC_keeps U T HI HT) Hc).
      + intros hs h0 Ho Hok. exact (follow_done (Fp1 hs) U _ n Hm (P1_keeps hs h0 U T HI HT Ho Hok) Hc).
    - destruct (aggregate_canon U T med HI Hm Ha) as [-> HT].
      destruct (IH T (Inv_filter _ U T HI)) as [IHs IHp]. split.
      + exact (follow_win Fsc U _ n r Hm (SC_keeps U T HI HT) Hc Hu IHs).
      + intros hs h0 Ho Hok.
        exact (follow_win (Fp1 hs) U _ n r Hm (P1_keeps hs h0 U T HI HT Ho Hok) Hc Hu (IHp hs h0 Ho (p1_ok_filter hs h0 U T _ Hok))).
    - (* a tie in the first place: one removal in the original run, k in the k-fold run *)
      destruct (aggregate_canon U T med HI Hm Ha) as [-> HT].
      destruct (tied_level U T n HI Hc Hu) as (thr & Hn & Hlev). rewrite (mj_remove_own U T _ 1 HI HT) in IH.
      set (sub1 := mj_level U (tied_of (gnb (canon U) n))) in *.
      assert (HI1 : Inv sub1 T) by apply Inv_filter, HI.
      destruct (IH (T - 1)%Z (own_remove_one_Inv sub1 T HI1 HT)) as [IHs IHp].
      split.
      + apply (tie_image Fsc U _ n r Hm (SC_keeps U T HI HT) Hc Hu). fold sub1. unfold Fsc. destruct (Z.odd T) eqn:Ho.
        * exact (sync_odd sub1 T thr n r HI1 HT Ho Hlev Hn IHs).
        * destruct (sync_even sub1 T thr HI1 HT Ho Hlev) as [Hok1 E]. rewrite <- E. apply (IHp _ thr); [|exact Hok1].
          rewrite Z.sub_1_r, Z.odd_pred, <- Z.negb_odd, Ho. reflexivity.
      + intros hs h0 Ho Hok. apply (tie_image (Fp1 hs) U _ n r Hm (P1_keeps hs h0 U T HI HT Ho Hok) Hc Hu). fold sub1.
        exact (staircase hs h0 sub1 T thr n r HI1 HT Ho Hlev (p1_ok_filter hs h0 U T _ Hok) Hn IHs).
  Qed.
End Follow.

Section Glue.
  Variable k : Z.
  Hypothesis Hk : (0 < k)%Z.

  Lemma crel_eq d d' : crel k d d' -> d' = scalec k d.
  Proof.
    intros H. induction H as [|[s n] [s' n'] d d' [Hs Hn] _ IH]; [reflexivity|]. cbn [fst snd] in *. unfold zsc in Hn. subst s' n'.
    cbn [scalec map fst snd]. fold (scalec k d). rewrite IH. reflexivity.
  Qed.

  Lemma screl_eq sub sub' : screl k sub sub' -> sub' = mapd (Fsc k) sub.
  Proof.
    intros H. induction H as [|[c d] [c' d'] l l' [Hc Hd] _ IH]; [reflexivity|]. cbn [fst snd] in *. subst c'.
    cbn [mapd map fst snd]. fold (mapd (Fsc k) l). rewrite IH. unfold Fsc at 1. rewrite (crel_eq d d' Hd). reflexivity.
  Qed.

  Lemma sum_totals U T : Inv U T ->
    fold_left Z.add (map (fun cd : C * cscores => cs_total (snd cd)) U) 0%Z = (Z.of_nat (length U) * T)%Z.
  Proof.
    intros [_ H]. induction H as [|x U [_ Hx] _ IH]; [reflexivity|]. cbn [map fold_left length]. rewrite fold_add_shiftZ, IH, Hx. lia.
  Qed.

  Lemma mj_fuel_enough U T : Inv U T -> U <> [] -> (0 < T)%Z -> (Z.to_nat T + length U < mj_fuel U)%nat.
  Proof.
    intros HI Hne HT. unfold mj_fuel. rewrite (sum_totals U T HI).
    destruct U as [|x U']; [congruence|]. cbn [length]. set (s := length U').
    rewrite Nat2Z.inj_succ. rewrite Z2Nat.inj_mul by lia. rewrite Z2Nat.inj_succ, Nat2Z.id by lia.
    pose proof (Nat.mul_le_mono_l 1 (Z.to_nat T) s). lia.
  Qed.

  Theorem mj_default_balanced U T n : Inv U T ->
    mj_default (mj_fuel (mapd (Fsc k) U)) (mapd (Fsc k) U) n = mj_default (mj_fuel U) U n.
  Proof.
    intros HI. pose proof (SC_Inv k Hk U T HI) as HI'. pose proof (mx_scale k Hk U T HI) as Emx.
    destruct (mx U <=? 0)%Z eqn:Hm.
    - unfold mj_fuel. rewrite !(Nat.add_comm _ 2). cbn [Nat.add]. rewrite !mj_default_unfold, Emx, Hm. reflexivity.
    - destruct (mx_false U T HI Hm) as [Hne HT].
      assert (Hne' : mapd (Fsc k) U <> []) by (destruct U; [congruence|discriminate]).
      assert (HT' : (0 < k * T)%Z) by (apply Z.mul_pos_pos; assumption).
      pose proof (mj_default_MJ _ U n T HI ltac:(lia) (mj_fuel_enough U T HI Hne HT)) as M1.
      pose proof (mj_default_MJ _ (mapd (Fsc k) U) n (k * T) HI' ltac:(lia) (mj_fuel_enough _ _ HI' Hne' HT')) as M2.
      destruct (MJ_follow k Hk U n _ M1 T HI) as [M3 _].
      exact (MJ_det _ _ _ M3 _ M2).
  Qed.

  (* majority judgment with the default rule on a profile whose corrected score dictionaries are balanced *)
  Theorem mj_default_scale cf votes n : cfg_ok k cf (sp_total votes) ->
    (forall sc, corrected_scores cf votes = inl sc -> exists T, Inv sc T) ->
    majority_judgment false cf (scale_z k votes) n = majority_judgment false cf votes n.
  Proof.
    intros Hcf Hbal. apply (majority_judgment_rel k Hk false cf votes _ n Hcf (sprel_scale k votes)).
    intros _ sc tied sub' j Esc Hs. destruct (Hbal sc Esc) as [T HI].
    rewrite (screl_eq _ _ Hs). apply (mj_default_balanced _ T). apply Inv_filter, HI.
  Qed.
End Glue.
