(* Monotonicity of additive rules (C17, second sentence): a rule that converts every ballot to
   per-candidate coefficients, adds them up ([conv image], Prelude/GDict.v) and elects by
   [get_n_best] keeps a sole winner sole when ONE ballot is replaced by a ballot whose image gives
   the winner at least as much and everybody else at most as much.  Holds for every image. *)
From Coq Require Import ZArith QArith List Bool Lia Lqa Permutation Pnat.
From VL Require Import Prelude.Sx Prelude.GDict Model.GetNBest Proofs.GetNBest_proofs Proofs.QOrd
     Proofs.Convert_proofs.
Import ListNotations.

Lemma qmul_le_l x a b : (0 <= x -> a <= b -> x * a <= x * b)%Q.
Proof. intros Hx Hab. rewrite !(Qmult_comm x). apply Qmult_le_compat_r; assumption. Qed.

Section ADDM.
  Context {K : Type}.
  Variable keqb : K -> K -> bool.
  Hypothesis keqb_spec : forall a b, keqb a b = true <-> a = b.

  Notation gget := (gget keqb).
  Notation gadd := (gadd keqb).
  Notation conv := (conv keqb).

  Lemma Kdec : forall a b : K, {a = b} + {a <> b}.
  Proof.
    intros a b. destruct (keqb a b) eqn:E; [left; apply keqb_spec; exact E|].
    right. intros H. apply keqb_spec in H. congruence.
  Qed.

  Lemma gget_in d k v : NoDup (map fst d) -> In (k, v) d -> gget d k = v.
  Proof.
    induction d as [|[k0 v0] d IH]; simpl; [tauto|]. intros Hnd [H|H].
    - injection H as -> ->. assert (keqb k k = true) as -> by (apply keqb_spec; reflexivity). reflexivity.
    - inversion Hnd as [|? ? Hk Hd]; subst. destruct (keqb k k0) eqn:E.
      + apply keqb_spec in E. subst k0. exfalso. apply Hk. apply in_map_iff. exists (k, v). auto.
      + apply IH; assumption.
  Qed.

  Section CONV.
    Context {B : Type}.
    Variable image : B -> list (K * Q).

    Lemma total_mid pre x post k :
      total keqb image (pre ++ x :: post) k ==
      total keqb image pre k + (snd x * coef keqb (image (fst x)) k + total keqb image post k).
    Proof. rewrite (total_app keqb image). simpl. reflexivity. Qed.

    Lemma conv_keys_mid pre x post k :
      In k (map fst (conv image (pre ++ x :: post))) <->
      In k (map fst (conv image (pre ++ post))) \/ In k (map fst (image (fst x))).
    Proof.
      rewrite !(conv_keys keqb keqb_spec). split.
      - intros (bw & Hbw & Hk). apply in_app_or in Hbw. destruct Hbw as [Hbw|[<-|Hbw]].
        + left. exists bw. split; [apply in_or_app; left; exact Hbw|exact Hk].
        + right. exact Hk.
        + left. exists bw. split; [apply in_or_app; right; exact Hbw|exact Hk].
      - intros [(bw & Hbw & Hk)|Hk].
        + exists bw. split; [|exact Hk]. apply in_app_or in Hbw. apply in_or_app.
          destruct Hbw as [Hbw|Hbw]; [left; exact Hbw|right; right; exact Hbw].
        + exists x. split; [apply in_or_app; right; left; reflexivity|exact Hk].
    Qed.

    Lemma conv_entry votes k v : In (k, v) (conv image votes) -> v == total keqb image votes k.
    Proof.
      intros Hin. rewrite <- (conv_value keqb keqb_spec), (gget_in _ k v (conv_nodup keqb keqb_spec image votes) Hin). reflexivity.
    Qed.

    (* a sole winner: a key whose total is strictly above the total of every other key *)
    Lemma conv_sole_winner votes kw :
      get_n_best Qle_bool (conv image votes) 1 = [Cand kw] <->
      In kw (map fst (conv image votes)) /\
      forall k, In k (map fst (conv image votes)) -> k <> kw -> total keqb image votes k < total keqb image votes kw.
    Proof.
      split.
      - intros Hwin.
        destruct (get_n_best_1_cand Qle_bool Qle_bool_total Qle_bool_trans _ kw [] (conv_nodup keqb keqb_spec image votes) Hwin)
          as (_ & v & Hin & Hmax).
        split; [apply in_map_iff; exists (kw, v); split; [reflexivity|exact Hin]|].
        intros k Hk Hne. apply in_map_iff in Hk. destruct Hk as ([k' v'] & Hf & Hin'). simpl in Hf. subst k'.
        rewrite <- (conv_entry votes k v' Hin'), <- (conv_entry votes kw v Hin).
        apply ltb_Qlt. exact (Hmax k v' Hin' Hne).
      - intros [Hkw Hmax]. apply in_map_iff in Hkw. destruct Hkw as ([kw' v] & Hf & Hin). simpl in Hf. subst kw'.
        apply (get_n_best_unique_max Qle_bool Qle_bool_total Qle_bool_trans Kdec _ kw v (conv_nodup keqb keqb_spec image votes) Hin).
        intros k v' Hin' Hne. apply ltb_Qlt.
        rewrite (conv_entry votes k v' Hin'), (conv_entry votes kw v Hin).
        apply Hmax; [apply in_map_iff; exists (k, v'); split; [reflexivity|exact Hin']|exact Hne].
    Qed.

    (* the profile changes; no key is new, and every other key gains at most what the winner gains *)
    Theorem sole_winner_totals votes votes' (kw : K) :
      (forall k, In k (map fst (conv image votes')) -> k = kw \/ In k (map fst (conv image votes))) ->
      In kw (map fst (conv image votes')) ->
      (forall k, k <> kw -> total keqb image votes' k - total keqb image votes k
                            <= total keqb image votes' kw - total keqb image votes kw) ->
      get_n_best Qle_bool (conv image votes) 1 = [Cand kw] ->
      get_n_best Qle_bool (conv image votes') 1 = [Cand kw].
    Proof.
      intros Hkeys Hkw Hd. rewrite !conv_sole_winner. intros [_ Hmax]. split; [exact Hkw|].
      intros k Hk Hne. destruct (Hkeys k Hk) as [E|Hk0]; [contradiction|].
      specialize (Hmax k Hk0 Hne). specialize (Hd k Hne). lra.
    Qed.

    (* what one replaced ballot changes *)
    Lemma total_replace pre post (b b' : B) (w : Q) k :
      total keqb image (pre ++ (b', w) :: post) k - total keqb image (pre ++ (b, w) :: post) k
      == w * (coef keqb (image b') k - coef keqb (image b) k).
    Proof. rewrite !total_mid. simpl. ring. Qed.

    Lemma replaced_keys pre post (b b' : B) (w : Q) (kw : K) :
      (forall k, In k (map fst (image b')) -> k = kw \/ In k (map fst (image b))) ->
      forall k, In k (map fst (conv image (pre ++ (b', w) :: post))) ->
                k = kw \/ In k (map fst (conv image (pre ++ (b, w) :: post))).
    Proof.
      intros Hkeys k Hk. apply conv_keys_mid in Hk. rewrite conv_keys_mid. simpl in *.
      destruct Hk as [Hk|Hk]; [right; left; exact Hk|]. destruct (Hkeys k Hk) as [E|Hk2]; [left; exact E|right; right; exact Hk2].
    Qed.

    Theorem additive_sole_winner pre post (b b' : B) (w : Q) (kw : K) :
      0 <= w ->
      (forall k, In k (map fst (image b')) -> k = kw \/ In k (map fst (image b))) ->
      In kw (map fst (image b')) ->
      coef keqb (image b) kw <= coef keqb (image b') kw ->
      (forall k, k <> kw -> coef keqb (image b') k <= coef keqb (image b) k) ->
      get_n_best Qle_bool (conv image (pre ++ (b, w) :: post)) 1 = [Cand kw] ->
      get_n_best Qle_bool (conv image (pre ++ (b', w) :: post)) 1 = [Cand kw].
    Proof.
      intros Hw Hkeys Hkw Hup Hdown. apply sole_winner_totals.
      - apply replaced_keys, Hkeys.
      - apply conv_keys_mid. right. exact Hkw.
      - intros k Hne. rewrite !total_replace. apply qmul_le_l; [exact Hw|]. specialize (Hdown k Hne). lra.
    Qed.
  End CONV.
End ADDM.

(* instances over the converter images of Model/Convert.v *)
From VL Require Import Prelude.PyDict Model.Convert Proofs.Dict_proofs.

Lemma kc_inj a b : kc a = kc b -> a = b.
Proof. unfold kc. intros H. injection H as H. exact H. Qed.

Lemma coef_nonneg (img : list (sx * Q)) k : Forall (fun kq => (0 <= snd kq)%Q) img -> (0 <= coef sx_eqb img k)%Q.
Proof.
  induction 1 as [|[k0 c] img Hc _ IH]; simpl; [lra|]. simpl in Hc. destruct (sx_eqb k k0); lra.
Qed.

Lemma approval_instance pre post (b : list C) (w : Q) (c : C) :
  (0 <= w)%Q -> ~ In c b ->
  get_n_best Qle_bool (dconv (img_approval_simple false) (pre ++ (b, w) :: post)) 1 = [Cand (kc c)] ->
  get_n_best Qle_bool (dconv (img_approval_simple false) (pre ++ (c :: b, w) :: post)) 1 = [Cand (kc c)].
Proof.
  intros Hw Hc. apply (additive_sole_winner sx_eqb sx_eqb_spec (img_approval_simple false)); [exact Hw| | | |].
  - intros k Hk. unfold img_approval_simple in *. rewrite map_map in *. simpl in Hk. destruct Hk as [<-|Hk]; [left; reflexivity|right; exact Hk].
  - unfold img_approval_simple. simpl. left. reflexivity.
  - rewrite (coef_absent sx_eqb sx_eqb_spec (img_approval_simple false b)).
    + apply coef_nonneg. unfold img_approval_simple. apply Forall_forall. intros x Hx. apply in_map_iff in Hx.
      destruct Hx as (y & <- & _). simpl. lra.
    + unfold img_approval_simple. rewrite map_map. simpl. intros Hin. apply in_map_iff in Hin.
      destruct Hin as (y & Hy & Hin). apply kc_inj in Hy. subst. tauto.
  - intros k Hk. unfold img_approval_simple, coef. cbn [map fold_right fst snd].
    destruct (sx_eqb k (kc c)) eqn:E; [apply sx_eqb_spec in E; congruence|]. lra.
Qed.

Lemma plurality_instance pre post (x c : C) (rest : ranked) (w : Q) :
  (0 <= w)%Q -> x <> c ->
  get_n_best Qle_bool (dconv img_first (pre ++ (IP x :: IP c :: rest, w) :: post)) 1 = [Cand (kc c)] ->
  get_n_best Qle_bool (dconv img_first (pre ++ (IP c :: IP x :: rest, w) :: post)) 1 = [Cand (kc c)].
Proof.
  intros Hw Hx. apply (additive_sole_winner sx_eqb sx_eqb_spec img_first); [exact Hw| | | |].
  - simpl. intros k [<-|[]]. left. reflexivity.
  - simpl. left. reflexivity.
  - unfold img_first, coef. cbn [fold_right fst snd kitem]. rewrite sx_eqb_refl.
    destruct (sx_eqb (kc c) (kc x)) eqn:E; [apply sx_eqb_spec, kc_inj in E; congruence|]. lra.
  - intros k Hk. unfold img_first, coef. cbn [fold_right fst snd kitem].
    destruct (sx_eqb k (kc c)) eqn:E; [apply sx_eqb_spec in E; congruence|].
    destruct (sx_eqb k (kc x)); lra.
Qed.

(* positional rules: moving the winner one place up on a ballot of plain ranks, for any rank
   scorer whose score at the higher of the two places is at least the score at the lower one *)
Lemma coef_cons k0 c (l : list (sx * Q)) k : coef sx_eqb ((k0, c) :: l) k = ((if sx_eqb k k0 then c else 0) + coef sx_eqb l k)%Q.
Proof. reflexivity. Qed.

Definition plain_ballot (cs : list C) : ranked := map IP cs.

Lemma pos_image (cs : list C) (sc : list Q) :
  flat_map (fun isc : item * Q => map (fun c => (kc c, snd isc)) (members (fst isc))) (combine (plain_ballot cs) sc)
  = map (fun cq : C * Q => (kc (fst cq), snd cq)) (combine cs sc).
Proof.
  revert sc. induction cs as [|c cs IH]; intros sc; simpl; [reflexivity|].
  destruct sc as [|q sc]; simpl; [reflexivity|]. rewrite IH. reflexivity.
Qed.

Lemma combine_app_eq {X Y} (a : list X) (b : list Y) a' b' : length a = length b ->
  combine (a ++ a') (b ++ b') = combine a b ++ combine a' b'.
Proof.
  revert b. induction a as [|x a IH]; intros [|y b] H; simpl in *; try discriminate; [reflexivity|].
  rewrite IH by lia. reflexivity.
Qed.

Definition pos_img (s : scorer) (n_cands : nat) (r : ranked) : list (sx * Q) :=
  match img_positional s n_cands r with Some l => l | None => [] end.

Theorem positional_instance (s : scorer) (n_cands : nat) pre_b post_b (pre post : list C) (x w : C) (wgt : Q)
    (s_pre s_post : list Q) (a b : Q) :
  (0 <= wgt)%Q -> x <> w ->
  rank_scores s n_cands (length (pre ++ x :: w :: post)) = Some (s_pre ++ a :: b :: s_post) ->
  length s_pre = length pre -> (b <= a)%Q ->
  get_n_best Qle_bool (dconv (pos_img s n_cands) (pre_b ++ (plain_ballot (pre ++ x :: w :: post), wgt) :: post_b)) 1 = [Cand (kc w)] ->
  get_n_best Qle_bool (dconv (pos_img s n_cands) (pre_b ++ (plain_ballot (pre ++ w :: x :: post), wgt) :: post_b)) 1 = [Cand (kc w)].
Proof.
  intros Hw Hxw Hsc Hlen Hba.
  assert (Hl : length (pre ++ w :: x :: post) = length (pre ++ x :: w :: post)) by (rewrite !app_length; simpl; lia).
  assert (I1 : pos_img s n_cands (plain_ballot (pre ++ x :: w :: post))
               = map (fun cq : C * Q => (kc (fst cq), snd cq)) (combine pre s_pre) ++ (kc x, a) :: (kc w, b) ::
                 map (fun cq : C * Q => (kc (fst cq), snd cq)) (combine post s_post)).
  { unfold pos_img, img_positional. unfold plain_ballot at 1. rewrite map_length, Hsc. fold (plain_ballot (pre ++ x :: w :: post)).
    rewrite pos_image, (combine_app_eq pre s_pre) by (symmetry; exact Hlen). rewrite map_app. reflexivity. }
  assert (I2 : pos_img s n_cands (plain_ballot (pre ++ w :: x :: post))
               = map (fun cq : C * Q => (kc (fst cq), snd cq)) (combine pre s_pre) ++ (kc w, a) :: (kc x, b) ::
                 map (fun cq : C * Q => (kc (fst cq), snd cq)) (combine post s_post)).
  { unfold pos_img, img_positional. unfold plain_ballot at 1. rewrite map_length, Hl, Hsc. fold (plain_ballot (pre ++ w :: x :: post)).
    rewrite pos_image, (combine_app_eq pre s_pre) by (symmetry; exact Hlen). rewrite map_app. reflexivity. }
  apply (additive_sole_winner sx_eqb sx_eqb_spec (pos_img s n_cands)); [exact Hw| | | |].
  - intros k. rewrite I1, I2, !map_app. simpl. rewrite !in_app_iff. simpl. intros [H|[H|[H|H]]]; right; tauto.
  - rewrite I2, map_app. simpl. apply in_or_app. right. left. reflexivity.
  - rewrite I1, I2, !(coef_app sx_eqb), !coef_cons, sx_eqb_refl.
    destruct (sx_eqb (kc w) (kc x)) eqn:E; [apply sx_eqb_spec, kc_inj in E; congruence|]. lra.
  - intros k Hk. rewrite I1, I2, !(coef_app sx_eqb), !coef_cons.
    destruct (sx_eqb k (kc w)) eqn:E; [apply sx_eqb_spec in E; congruence|].
    destruct (sx_eqb k (kc x)); lra.
Qed.

(* the score lists of Model/Convert.v [rank_scores], place by place *)
Lemma map_seq_scores (F : nat -> Q) k :
  length (map F (seq 0 k)) = k /\ forall i, (i < k)%nat -> nth i (map F (seq 0 k)) 0%Q = F i.
Proof.
  split; [rewrite map_length; apply seq_length|]. intros i H.
  rewrite (nth_indep _ 0%Q (F 0%nat)) by (rewrite map_length, seq_length; exact H).
  rewrite map_nth, seq_nth by exact H. reflexivity.
Qed.

Lemma select_padded_map_seq (f : nat -> Q) n k : (k <= n)%nat -> select_padded (map f (seq 0 n)) k = map f (seq 0 k).
Proof.
  intros H. unfold select_padded. replace n with (k + (n - k))%nat by lia. rewrite seq_app, map_app.
  assert (E : firstn k (map f (seq 0 k) ++ map f (seq (0 + k) (n - k))) = map f (seq 0 k)).
  { rewrite <- (firstn_length_app (map f (seq 0 k)) (map f (seq (0 + k) (n - k)))) at 2.
    rewrite map_length, seq_length. reflexivity. }
  rewrite E, map_length, seq_length, Nat.sub_diag. apply app_nil_r.
Qed.

Lemma nth_repeat0 k i : nth i (repeat 0%Q k) 0%Q = 0%Q.
Proof. revert i. induction k as [|k IH]; intros [|i]; simpl; auto. Qed.

Lemma select_padded_cons x t k : select_padded (x :: t) (S k) = x :: select_padded t k.
Proof. reflexivity. Qed.

Lemma select_padded_nth : forall sq k i, (i < k)%nat -> nth i (select_padded sq k) 0%Q = nth i sq 0%Q.
Proof.
  induction sq as [|x t IH]; intros k i Hi.
  - unfold select_padded. rewrite firstn_nil. cbn [app length]. rewrite nth_repeat0. destruct i; reflexivity.
  - destruct k as [|k]; [lia|]. rewrite select_padded_cons. destruct i as [|i]; [reflexivity|]. cbn [nth]. apply IH. lia.
Qed.

Lemma select_padded_length (sq : list Q) k : length (select_padded sq k) = k.
Proof.
  unfold select_padded. rewrite app_length, repeat_length. pose proof (firstn_le_length k sq). lia.
Qed.

(* the score of place i on a ballot of k ranks *)
Definition score_at (s : scorer) (n_cands k i : nat) : Q :=
  match s with
  | Borda base => inject_Z (Z.of_nat n_cands + base - 1 - Z.of_nat i)
  | Dowdall => 1 # Pos.of_nat (S i)
  | Geometric base => / inject_Z (base ^ Z.of_nat i)
  | ModifiedBorda => inject_Z (Z.of_nat k - Z.of_nat i)
  | FixedTop top => inject_Z (Z.max (top - Z.of_nat i) 0)
  | SequenceBased sq => nth i sq 0%Q
  end.

Lemma rank_scores_nth s n_cands k sc : rank_scores s n_cands k = Some sc ->
  length sc = k /\ forall i, (i < k)%nat -> nth i sc 0%Q = score_at s n_cands k i.
Proof.
  destruct s; unfold rank_scores.
  - destruct (Nat.ltb n_cands k) eqn:E; [discriminate|]. apply Nat.ltb_ge in E. intros [= <-].
    rewrite select_padded_map_seq by exact E. apply map_seq_scores.
  - intros [= <-]. apply map_seq_scores.
  - intros [= <-]. apply map_seq_scores.
  - intros [= <-]. apply map_seq_scores.
  - intros [= <-]. apply map_seq_scores.
  - intros [= <-]. split; [apply select_padded_length|intros i Hi; apply select_padded_nth, Hi].
Qed.

Lemma rank_scores_length s n_cands k sc : rank_scores s n_cands k = Some sc -> length sc = k.
Proof. intros H. apply (rank_scores_nth _ _ _ _ H). Qed.

Lemma list_nth_split (l s_pre : list Q) a b s_post : l = s_pre ++ a :: b :: s_post ->
  a = nth (length s_pre) l 0%Q /\ b = nth (S (length s_pre)) l 0%Q /\ (S (length s_pre) < length l)%nat.
Proof.
  intros ->. split; [|split].
  - rewrite app_nth2 by lia. rewrite Nat.sub_diag. reflexivity.
  - rewrite app_nth2 by lia. replace (S (length s_pre) - length s_pre)%nat with 1%nat by lia. reflexivity.
  - rewrite app_length. cbn [length]. lia.
Qed.

(* a scorer whose scores do not rise from one place to the next is non-increasing along a ballot *)
Lemma nonincreasing_at s n_cands k s_pre a b s_post :
  (forall i, score_at s n_cands k (S i) <= score_at s n_cands k i)%Q ->
  rank_scores s n_cands k = Some (s_pre ++ a :: b :: s_post) -> (b <= a)%Q.
Proof.
  intros H Hsc. destruct (rank_scores_nth _ _ _ _ Hsc) as [Hl Hn].
  remember (s_pre ++ a :: b :: s_post) as sc eqn:E.
  destruct (list_nth_split sc _ _ _ _ E) as (-> & -> & Hlen). rewrite !Hn by lia. apply H.
Qed.

Lemma of_nat_S_le l : (Pos.of_nat (S l) <= Pos.of_nat (S (S l)))%positive.
Proof. rewrite (Nat2Pos.inj_succ (S l)) by lia. apply Pos.lt_le_incl, Pos.lt_succ_diag_r. Qed.

Lemma dowdall_nonincreasing n_cands k s_pre a b s_post :
  rank_scores Dowdall n_cands k = Some (s_pre ++ a :: b :: s_post) -> (b <= a)%Q.
Proof.
  apply nonincreasing_at. intros i. unfold score_at, Qle. cbn [Qnum Qden]. rewrite !Z.mul_1_l.
  apply Pos2Z.pos_le_pos, of_nat_S_le.
Qed.

Lemma modified_borda_nonincreasing n_cands k s_pre a b s_post :
  rank_scores ModifiedBorda n_cands k = Some (s_pre ++ a :: b :: s_post) -> (b <= a)%Q.
Proof. apply nonincreasing_at. intros i. cbn [score_at]. rewrite <- Zle_Qle. lia. Qed.

Lemma fixed_top_nonincreasing top n_cands k s_pre a b s_post :
  rank_scores (FixedTop top) n_cands k = Some (s_pre ++ a :: b :: s_post) -> (b <= a)%Q.
Proof. apply nonincreasing_at. intros i. cbn [score_at]. rewrite <- Zle_Qle. lia. Qed.
