(* C10: ProportionalApproval ([pav] of Model/Cardinal.v) - the one model of the approval / score family that consults an
   ORDER on candidates: it enumerates [combos cands n] over [cands := canon_set (...)], the candidates sorted by number
   ([Pos.ltb] in [insert_c]).  In the Python code that list is a frozenset (`all_candidates`, and `frozenset(best_alts[0])`
   in _order_by_score): its iteration order is whatever the hash table gives, so the sorted list is a representative
   chosen by the model - a modelling artefact, and the only place a name / hash seed can enter.  This file shows it cannot:
     [pav_on votes cands n]  := the evaluation with an explicit iteration order [cands]   ([pav_on_canon]: pav = pav_on . canon_set)
     pav_on_ren              : EXACT equivariance under injective renamings for every iteration order
     pav_on_perm             : any two iteration orders (Permutation cands cands') give both a refusal (tied alternatives) or
                               results that are [res_equiv]: all plain winners, position by position the same shape, the same
                               elected candidates - only equally placed winners (equal satisfaction drop) may swap
     pav_rename              : hence pav (renamed votes) ~ renamed (pav votes). *)
From Coq Require Import ZArith QArith List Bool Arith Lia Permutation SetoidList SetoidPermutation.
From VL Require Import Prelude.PyDict Model.GetNBest Model.Convert Model.Cardinal
     Proofs.Dict_proofs Proofs.GetNBest_proofs Proofs.QOrd Proofs.Order_proofs Proofs.HARename_proofs Proofs.Equivariant
     Proofs.GnbSim_proofs Proofs.CondorcetOrder_proofs Proofs.JR_proofs Proofs.CardinalRename_proofs.
Import ListNotations.

(* lists of alternatives up to order, of the list and inside each alternative *)
Section PP.
  Context {X : Type}.
  Definition PP (L L' : list (list X)) : Prop := exists M, Permutation L M /\ Forall2 (@Permutation X) M L'.

  Lemma F2P_refl (L : list (list X)) : Forall2 (@Permutation X) L L.
  Proof. induction L; constructor; [apply Permutation_refl|assumption]. Qed.
  Lemma PP_refl L : PP L L.
  Proof. exists L. split; [apply Permutation_refl|apply F2P_refl]. Qed.
  Lemma PP_of_perm L L' : Permutation L L' -> PP L L'.
  Proof. intros H. exists L'. split; [exact H|apply F2P_refl]. Qed.
  Lemma PP_of_F2 L L' : Forall2 (@Permutation X) L L' -> PP L L'.
  Proof. intros H. exists L. split; [apply Permutation_refl|exact H]. Qed.

  (* PP is the library's permutation up to an equivalence on the elements, here up to the order inside each alternative *)
  Lemma PP_PermutationA L L' : PP L L' <-> PermutationA (@Permutation X) L L'.
  Proof.
    split.
    - intros (M & P & F). transitivity M.
      + apply Permutation_PermutationA; [apply Permutation_Equivalence|exact P].
      + apply eqlistA_PermutationA, eqlistA_altdef, F.
    - intros H. destruct (PermutationA_decompose _ H) as (M & P & E).
      exists M. split; [exact P|apply eqlistA_altdef, E].
  Qed.

  Lemma PP_trans A B D : PP A B -> PP B D -> PP A D.
  Proof. rewrite !PP_PermutationA. apply transitivity. Qed.
  Lemma PP_sym A B : PP A B -> PP B A.
  Proof. rewrite !PP_PermutationA. apply symmetry. Qed.
  Lemma PP_app A A' B B' : PP A A' -> PP B B' -> PP (A ++ B) (A' ++ B').
  Proof. rewrite !PP_PermutationA. intros HA HB. exact (PermutationA_app _ HA HB). Qed.
  Lemma PP_map_cons x A A' : PP A A' -> PP (map (cons x) A) (map (cons x) A').
  Proof.
    intros (M & P & F). exists (map (cons x) M). split; [apply Permutation_map, P|].
    clear P. induction F; cbn [map]; constructor; [apply perm_skip|]; assumption.
  Qed.
  Lemma PP_length A B : PP A B -> length A = length B.
  Proof. intros (M & P & F). rewrite (Permutation_length P). apply (F2_length _ _ _ F). Qed.
  Lemma PP_In A B a : PP A B -> In a A -> exists b, In b B /\ Permutation a b.
  Proof.
    intros (M & P & F) Ha. apply (Permutation_in _ P) in Ha. clear P. induction F as [|m b M B Hmb _ IH]; [destruct Ha|].
    destruct Ha as [->|Ha]; [exists b; split; [left; reflexivity|exact Hmb]|].
    destruct (IH Ha) as (b' & Hb & Hp). exists b'. split; [right; exact Hb|exact Hp].
  Qed.
  Lemma PP_filter (P P' : list X -> bool) A B : (forall a a', Permutation a a' -> P a = P' a') -> PP A B -> PP (filter P A) (filter P' B).
  Proof.
    intros H (M & Pm & F). exists (filter P M). split.
    - apply (filter_perm_ext P P A M Pm). reflexivity.
    - clear Pm. induction F as [|m b M B Hmb _ IH]; cbn [filter]; [constructor|].
      rewrite <- (H m b Hmb). destruct (P m); [constructor; assumption|exact IH].
  Qed.
  Lemma PP_single a B : PP [a] B -> exists b, B = [b] /\ Permutation a b.
  Proof.
    intros (M & P & F). apply Permutation_length_1_inv in P. subst M.
    inversion F as [|? b ? B' Hab HB]; subst. inversion HB; subst. exists b. split; [reflexivity|exact Hab].
  Qed.
End PP.

Lemma combos_0 l : combos l 0 = [[]].
Proof. destruct l; reflexivity. Qed.
Lemma combos_cons x l n : combos (x :: l) (S n) = map (cons x) (combos l n) ++ combos l (S n).
Proof. reflexivity. Qed.

Lemma combos_PP l l' : Permutation l l' -> forall n, PP (combos l n) (combos l' n).
Proof.
  induction 1 as [|x l l' _ IH|x y l|l l' l'' _ IH1 _ IH2]; intros n.
  - apply PP_refl.
  - destruct n as [|n]; [rewrite !combos_0; apply PP_refl|]. rewrite !combos_cons. apply PP_app; [apply PP_map_cons, IH|apply IH].
  - destruct n as [|[|n]].
    + rewrite !combos_0. apply PP_refl.
    + rewrite !combos_cons, !combos_0. cbn [map app]. apply PP_of_perm, perm_swap.
    + rewrite !combos_cons, !map_app, !map_map.
      set (A := combos l n). set (B := combos l (S n)). set (D := combos l (S (S n))).
      apply (PP_trans _ ((map (fun a => y :: x :: a) A ++ map (cons x) B) ++ map (cons y) B ++ D)).
      * apply PP_of_perm. rewrite <- !app_assoc. apply Permutation_app_head. rewrite !app_assoc. apply Permutation_app_tail.
        apply Permutation_app_comm.
      * apply PP_app; [|apply PP_refl]. apply PP_app; [|apply PP_refl]. apply PP_of_F2.
        induction A; cbn [map]; constructor; [apply perm_swap|assumption].
  - eapply PP_trans; [apply IH1|apply IH2].
Qed.

(* satisfaction depends on the alternative as a set *)
Lemma inter_size_perm b a a' : Permutation a a' -> inter_size b a = inter_size b a'.
Proof. intros H. unfold inter_size. f_equal. apply filter_ext. intros c. apply cmem_perm, H. Qed.
Lemma satisfaction_perm votes a a' : Permutation a a' -> satisfaction votes a = satisfaction votes a'.
Proof.
  intros H. unfold satisfaction. generalize 0%Q. induction votes as [|bw votes IH]; intros acc; [reflexivity|].
  cbn [fold_left]. rewrite (inter_size_perm (fst bw) a a' H). apply IH.
Qed.

Definition drops (votes : aprofile) (alt : list C) : list (C * Q) :=
  map (fun c => (c, (- satisfaction votes (filter (fun x => negb (ceqb x c)) alt))%Q)) alt.
Definition pav_on (votes : aprofile) (cands : list C) (n : nat) : ares :=
  match pav_best votes cands n with
  | [alt] => AR_ok (get_n_best Qle_bool (drops votes alt) (length alt))
  | _ => AR_nie
  end.
Lemma pav_on_canon votes n : pav votes n = pav_on votes (canon_set (flat_map fst votes)) n.
Proof. reflexivity. Qed.

(* the running maximum of pav_best *)
Definition stepmax (b : Q) (sa : list C * Q) : Q := if Qle_bool b (snd sa) then snd sa else b.
Lemma fold_max_spec (l : list (list C * Q)) : forall s,
  let b := fold_left stepmax l s in
  (b = s \/ exists sa, In sa l /\ b = snd sa) /\ (s <= b)%Q /\ (forall sa, In sa l -> (snd sa <= b)%Q).
Proof.
  induction l as [|x l IH]; intros s; cbn [fold_left].
  - split; [left; reflexivity|]. split; [apply Qle_refl|intros sa []].
  - destruct (IH (stepmax s x)) as (H1 & H2 & H3). cbv zeta.
    assert (Hs : (s <= stepmax s x)%Q /\ (snd x <= stepmax s x)%Q /\ (stepmax s x = s \/ stepmax s x = snd x)).
    { unfold stepmax. destruct (Qle_bool s (snd x)) eqn:E.
      - apply Qle_bool_iff in E. split; [exact E|]. split; [apply Qle_refl|right; reflexivity].
      - split; [apply Qle_refl|]. split; [|left; reflexivity]. apply Qlt_le_weak, Qle_bool_false, E. }
    destruct Hs as (Hs1 & Hs2 & Hs3). split; [|split].
    + destruct H1 as [H1|(sa & Hsa & H1)].
      * destruct Hs3 as [Hs3|Hs3]; [left; congruence|right; exists x; split; [left; reflexivity|congruence]].
      * right. exists sa. split; [right; exact Hsa|exact H1].
    + eapply Qle_trans; eassumption.
    + intros sa [<-|Hsa]; [eapply Qle_trans; eassumption|apply H3, Hsa].
Qed.

Definition pb_of (scored : list (list C * Q)) : list (list C) :=
  match scored with
  | [] => []
  | (_, s0) :: _ => map fst (filter (fun sa : list C * Q => Qeq_bool (snd sa) (fold_left stepmax scored s0)) scored)
  end.
Lemma pav_best_pb votes cands n : pav_best votes cands n = pb_of (map (fun a => (a, satisfaction votes a)) (combos cands n)).
Proof. reflexivity. Qed.

Lemma pav_best_char votes cands n :
  let L := combos cands n in
  (L = [] /\ pav_best votes cands n = []) \/
  (exists b, (exists a, In a L /\ b = satisfaction votes a) /\ (forall a, In a L -> (satisfaction votes a <= b)%Q) /\
             pav_best votes cands n = filter (fun a => Qeq_bool (satisfaction votes a) b) L).
Proof.
  cbv zeta. rewrite pav_best_pb. destruct (combos cands n) as [|a0 L]; [left; split; reflexivity|right].
  set (L0 := a0 :: L). set (scored := map (fun a => (a, satisfaction votes a)) L0).
  change (pb_of scored) with
    (map fst (filter (fun sa : list C * Q => Qeq_bool (snd sa) (fold_left stepmax scored (satisfaction votes a0))) scored)).
  destruct (fold_max_spec scored (satisfaction votes a0)) as (H1 & H2 & H3). cbv zeta in H1, H2, H3.
  set (b := fold_left stepmax scored (satisfaction votes a0)) in *.
  exists b. split; [|split].
  - destruct H1 as [H1|(sa & Hsa & H1)].
    + exists a0. split; [left; reflexivity|exact H1].
    + apply in_map_iff in Hsa. destruct Hsa as (a & <- & Ha). exists a. split; [exact Ha|exact H1].
  - intros a Ha. apply (H3 (a, satisfaction votes a)). apply in_map_iff. exists a. split; [reflexivity|exact Ha].
  - subst scored. clearbody b L0. clear H1 H2 H3. induction L0 as [|a L1 IH]; [reflexivity|]. cbn [map filter fst snd].
    destruct (Qeq_bool (satisfaction votes a) b); cbn [map fst]; rewrite IH; reflexivity.
Qed.

Lemma pav_best_perm votes cands cands' n : Permutation cands cands' -> PP (pav_best votes cands n) (pav_best votes cands' n).
Proof.
  intros Hp. pose proof (combos_PP cands cands' Hp n) as HL.
  destruct (pav_best_char votes cands n) as [[E1 E2]|(b & (a & Ha & Hb) & Hmax & E)];
    destruct (pav_best_char votes cands' n) as [[E1' E2']|(b' & (a' & Ha' & Hb') & Hmax' & E')].
  - rewrite E2, E2'. apply PP_refl.
  - apply PP_length in HL. rewrite E1 in HL. destruct (combos cands' n); [destruct Ha'|discriminate].
  - apply PP_length in HL. rewrite E1' in HL. destruct (combos cands n); [destruct Ha|discriminate].
  - assert (Hbb : (b == b')%Q).
    { apply Qle_antisym.
      - destruct (PP_In _ _ a HL Ha) as (x & Hx & Hpx). rewrite Hb, (satisfaction_perm votes a x Hpx). apply Hmax', Hx.
      - destruct (PP_In _ _ a' (PP_sym _ _ HL) Ha') as (x & Hx & Hpx). rewrite Hb', (satisfaction_perm votes a' x Hpx). apply Hmax, Hx. }
    rewrite E, E'. apply PP_filter; [|exact HL]. intros x x' Hx. rewrite (satisfaction_perm votes x x' Hx).
    apply Qeqb_comp; [reflexivity|exact Hbb].
Qed.

Lemma drops_perm votes alt alt' : Permutation alt alt' -> Permutation (drops votes alt) (drops votes alt').
Proof.
  intros H. unfold drops.
  assert (E : map (fun c => (c, (- satisfaction votes (filter (fun x => negb (ceqb x c)) alt'))%Q)) alt'
              = map (fun c => (c, (- satisfaction votes (filter (fun x => negb (ceqb x c)) alt))%Q)) alt').
  { apply map_ext. intros c. f_equal. f_equal. apply satisfaction_perm, Permutation_sym.
    apply (filter_perm_ext _ _ alt alt' H). reflexivity. }
  rewrite E. apply Permutation_map, H.
Qed.

(* all seats filled from a full-length request: plain winners only *)
Lemma gnb_full {K} (l : list (K * Q)) : get_n_best Qle_bool l (length l) = map (fun it => Cand (fst it)) (sort_desc Qle_bool l).
Proof. unfold get_n_best. rewrite (sort_desc_length Qle_bool), Nat.ltb_irrefl. reflexivity. Qed.

Definition ares_equiv (r r' : ares) : Prop :=
  match r, r' with AR_nie, AR_nie => True | AR_ok l, AR_ok l' => res_equiv l l' | _, _ => False end.

Lemma gnb_full_equiv (d d' : list (C * Q)) : Permutation d d' ->
  res_equiv (get_n_best Qle_bool d (length d)) (get_n_best Qle_bool d' (length d')).
Proof.
  intros Hp. split.
  - rewrite <- (Permutation_length Hp).
    eapply Forall2_impl; [|apply (gnb_sim Qle_bool Qle_bool_total Qle_bool_trans d d' (length d) Hp)].
    intros [a|T] [b|T']; simpl; tauto.
  - intros c. rewrite !gnb_full.
    assert (H : forall l : list (C * Q), In (Cand c) (map (fun it : C * Q => Cand (fst it)) (sort_desc Qle_bool l)) <-> In c (map fst l)).
    { intros l. rewrite in_map_iff. split.
      - intros (x & Hx & Hi). injection Hx as <-. apply in_map. apply (Permutation_in _ (sort_desc_perm Qle_bool l) Hi).
      - intros Hi. apply in_map_iff in Hi. destruct Hi as (x & <- & Hi). exists x. split; [reflexivity|].
        apply (Permutation_in _ (Permutation_sym (sort_desc_perm Qle_bool l)) Hi). }
    rewrite !H. split; intros Hi.
    + apply (Permutation_in _ (Permutation_map fst Hp) Hi).
    + apply (Permutation_in _ (Permutation_sym (Permutation_map fst Hp)) Hi).
Qed.

Lemma drops_length votes alt : length (drops votes alt) = length alt.
Proof. apply map_length. Qed.

(* any two iteration orders of the candidate set *)
Theorem pav_on_perm votes cands cands' n : Permutation cands cands' -> ares_equiv (pav_on votes cands n) (pav_on votes cands' n).
Proof.
  intros Hp. pose proof (pav_best_perm votes cands cands' n Hp) as H. unfold pav_on.
  destruct (pav_best votes cands n) as [|alt [|alt2 r]].
  - apply PP_length in H. destruct (pav_best votes cands' n); [exact I|discriminate].
  - destruct (PP_single _ _ H) as (alt' & -> & Ha). cbn [ares_equiv].
    rewrite <- !drops_length with (votes := votes). apply gnb_full_equiv, drops_perm, Ha.
  - apply PP_length in H. destruct (pav_best votes cands' n) as [|? [|? ?]]; try discriminate. exact I.
Qed.

Section PREN.
  Variable f : C -> C.
  Hypothesis f_inj : forall a b, f a = f b -> a = b.
  Definition ren_ares (r : ares) : ares := match r with AR_ok l => AR_ok (map (ren_res f) l) | AR_nie => AR_nie end.

  Lemma satisfaction_ren votes alt : satisfaction (renap f votes) (map f alt) = satisfaction votes alt.
  Proof.
    unfold satisfaction, renap. apply fold_left_inv. intros acc [b w]. unfold rab. cbn [fst snd].
    rewrite (inter_size_ren f f_inj). reflexivity.
  Qed.
  Lemma combos_ren l : forall n, combos (map f l) n = map (map f) (combos l n).
  Proof.
    induction l as [|x l IH]; intros [|n]; try reflexivity.
    change (map f (x :: l)) with (f x :: map f l). rewrite !combos_cons, !IH, map_app, !map_map. reflexivity.
  Qed.

  Lemma pb_of_hd scored : pb_of scored = if is_nil scored then [] else
    map fst (filter (fun sa : list C * Q => Qeq_bool (snd sa) (fold_left stepmax scored (snd (hd ([], 0%Q) scored)))) scored).
  Proof. destruct scored as [|[a s] r]; reflexivity. Qed.
  Lemma pb_of_renk scored : pb_of (renk (map f) scored) = map (map f) (pb_of scored).
  Proof.
    rewrite !pb_of_hd.
    assert (Eh : snd (hd ([], 0%Q) (renk (map f) scored)) = snd (hd ([], 0%Q) scored)) by (destruct scored as [|[a s] r]; reflexivity).
    rewrite Eh. unfold renk. rewrite is_nil_map, (fold_left_inv _ stepmax) by reflexivity.
    destruct (is_nil scored); [reflexivity|]. set (b := fold_left stepmax scored _).
    rewrite (filter_map_eqv _ (fun sa : list C * Q => Qeq_bool (snd sa) b)) by reflexivity.
    rewrite !map_map. reflexivity.
  Qed.

  Lemma pav_best_ren votes cands n : pav_best (renap f votes) (map f cands) n = map (map f) (pav_best votes cands n).
  Proof.
    rewrite !pav_best_pb, combos_ren.
    rewrite (decorate_renk (map f) (fun a => satisfaction votes a) (fun a => satisfaction (renap f votes) a)) by (intros x; apply satisfaction_ren).
    apply pb_of_renk.
  Qed.

  Lemma drops_ren votes alt : drops (renap f votes) (map f alt) = renl f (drops votes alt).
  Proof.
    unfold drops, renl. rewrite !map_map. apply map_ext. intros c. cbn [fst snd]. f_equal. f_equal.
    rewrite (filter_map_eqv f (fun x => negb (ceqb x c))) by (intros x; rewrite (ceqb_f f f_inj); reflexivity).
    apply satisfaction_ren.
  Qed.

  Theorem pav_on_ren votes cands n : pav_on (renap f votes) (map f cands) n = ren_ares (pav_on votes cands n).
  Proof.
    unfold pav_on. rewrite pav_best_ren. destruct (pav_best votes cands n) as [|alt [|alt2 r]]; try reflexivity.
    cbn [map ren_ares]. rewrite drops_ren, map_length, get_n_best_renl. reflexivity.
  Qed.

  (* the canonical candidate list of the renamed profile is a permutation of the renamed canonical list *)
  Lemma canon_ren_perm votes :
    Permutation (map f (canon_set (flat_map fst votes))) (canon_set (flat_map fst (renap f votes))).
  Proof.
    assert (E : flat_map fst (renap f votes) = map f (flat_map fst votes)).
    { unfold renap. apply (flat_map_eqv (rab f) f). intros x. reflexivity. }
    destruct (canon_set_spec (flat_map fst votes)) as [N1 I1].
    destruct (canon_set_spec (flat_map fst (renap f votes))) as [N2 I2].
    apply NoDup_Permutation; [apply FinFun.Injective_map_NoDup; [exact f_inj|exact N1]|exact N2|].
    intros x. rewrite I2, E, !in_map_iff. split; intros (c & Hc & Hi); exists c; (split; [exact Hc|]); apply I1; exact Hi.
  Qed.

  Theorem pav_rename votes n : ares_equiv (ren_ares (pav votes n)) (pav (renap f votes) n).
  Proof.
    rewrite !pav_on_canon, <- pav_on_ren. apply pav_on_perm, canon_ren_perm.
  Qed.
End PREN.
