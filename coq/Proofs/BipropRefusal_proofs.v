(* Lemmas for property C07: THE REFUSAL THROUGH THE ADJUSTMENT COEFFICIENT IS JUSTIFIED.  Whenever an iteration of the
   whole-loop model (Model/BipropLoop.v) stops with [BP_refused a] - VotingSystemError "invalid adjustment coefficient" - from a
   state that satisfies the loop invariant, no seat matrix with the district seats, the party seats and empty cells where
   there are no votes exists, for the two rounding rules the evaluator supports (signpost_q = 0 and 1/2).
     1. with closed labels (Proofs/BipropTerm_proofs.v) the coefficient is < 1: a candidate equal to 1 is a cell exactly on
        its signpost next to a labelled line, which the labelling search would have labelled;
     2. so the refused coefficient is 0: no labelled district holds a seat outside the labelled parties, and no labelled
        party has a vote outside the labelled districts;
     3. the labelled districts hold more seats than they are due (they contain every over-represented district and no
        under-represented one), all of them in labelled parties' columns, whose seats can sit nowhere else: Hall's
        condition fails for every matrix with these marginals and this support.
   The file ends with the absence of ZeroDivisionError ([evaluate_core_no_zerodiv]): the coefficient scan could only divide
   by a zero quotient in a cell whose signpost is positive, and under the loop invariant such a cell has a positive quotient. *)
From Coq Require Import ZArith QArith List Bool Lia Lqa Arith.
From VL Require Import Prelude.PyDict Model.Divisor Model.HighestAverages Model.Biprop Model.BipropLoop
     Proofs.Dict_proofs Proofs.Divisor_proofs Proofs.Biprop_proofs Proofs.Biprop_steps Proofs.BipropLoop_proofs
     Proofs.BipropInit_proofs Proofs.BipropProgress_proofs Proofs.BipropTerm_proofs Proofs.BipropFlow_proofs.
Import ListNotations.
Open Scope Z_scope.

Lemma Qtrunc_inject s : Qtrunc (inject_Z s) = s.
Proof. unfold Qtrunc, inject_Z. cbn [Qnum Qden]. apply Z.quot_1_r. Qed.
Lemma Qtrunc_half s : 0 <= s -> Qtrunc (inject_Z s + (1 # 2)) = s.
Proof.
  intros Hs. unfold Qtrunc, Qplus, inject_Z. cbn [Qnum Qden]. change (Z.pos (1 * 2)) with 2.
  rewrite Z.quot_div_nonneg by lia. symmetry. apply (Z.div_unique_pos (s * 2 + 1 * 1) 2 s 1); lia.
Qed.

(* a quotient exactly on a signpost passes int(quotient) == quotient - signpost_q, for the two rounding rules *)
Lemma at_signpost_tied q x s : (q == 0 \/ q == 1 # 2)%Q -> (x == inject_Z s - q)%Q -> 1 <= s -> at_signpost q x = true.
Proof.
  intros Hq Ex Hs. apply Qeq_bool_iff. destruct Hq as [E|E].
  - rewrite (Qtrunc_comp x (inject_Z s)) by (rewrite Ex, E; ring). rewrite Qtrunc_inject, Ex, E. ring.
  - assert (E1 : (inject_Z (s - 1) == inject_Z s - 1)%Q) by (unfold Z.sub; rewrite inject_Z_plus; reflexivity).
    rewrite (Qtrunc_comp x (inject_Z (s - 1) + (1 # 2))) by (rewrite Ex, E, E1; ring).
    rewrite Qtrunc_half by lia. rewrite Ex, E, E1. ring.
Qed.

Lemma tied_down q x s : (q == 0 \/ q == 1 # 2)%Q -> (x == inject_Z s - q)%Q -> 1 <= s -> is_downgradable q x s = true.
Proof.
  intros Hq Ex Hs. unfold is_downgradable. rewrite (at_signpost_tied q x s Hq Ex Hs), !andb_true_iff.
  split; [split; [reflexivity|]|apply Z.leb_le, Hs]. apply Qeq_bool_iff. symmetry. exact Ex.
Qed.
Lemma tied_up q x s : (q == 0 \/ q == 1 # 2)%Q -> (x == inject_Z s + 1 - q)%Q -> 0 <= s -> is_upgradable q x s = true.
Proof.
  intros Hq Ex Hs. unfold is_upgradable. rewrite (at_signpost_tied q x (s + 1) Hq); [|rewrite inject_Z_plus; exact Ex|lia].
  apply Qeq_bool_iff. symmetry. exact Ex.
Qed.

Lemma Qdiv_ge_1 a b : (0 < b)%Q -> (1 <= a / b)%Q -> (b <= a)%Q.
Proof.
  intros Hb H. assert (E : (a == a / b * b)%Q) by (field; lra). rewrite E. remember (a / b)%Q as t. nra.
Qed.

(* Hall's condition on a block of districts DL and parties PL: where every matrix with the support keeps the columns of PL
   inside the rows of DL, those columns hold at most the seats the rows are due; a matrix R with the column sums whose rows
   of DL lie inside the columns of PL and hold more than they are due shows that the column sums ask for more. *)
Section Block.
  Variables ds ps DL PL : list C.
  Notation DLf := (filter (fun i => cmem i DL) ds).
  Notation PLf := (filter (fun j => cmem j PL) ps).

  Lemma block_colsums (X : mat) : (forall i j, In i ds -> In j ps -> ~ In i DL -> In j PL -> mget X i j = 0) ->
    zsum (map (fun j => colsum X ds j) PLf) = zsum (map (fun i => zsum (map (fun j => mget X i j) PLf)) DLf).
  Proof.
    intros HX. rewrite (zsum_swap (fun i j => mget X i j) DLf PLf). apply zsum_map_ext. intros j Hj.
    apply filter_In in Hj. destruct Hj as [Hj HjP]. unfold colsum. symmetry. apply zsum_filter_eq. intros i Hi Hf.
    apply (HX i j Hi Hj); [apply cmem_false, Hf|apply cmem_In, HjP].
  Qed.

  Variable sup : C -> C -> bool.
  Variables r c : C -> Z.

  Lemma block_infeasible (R : mat) : (forall j, In j ps -> colsum R ds j = c j) ->
    (forall i j, In i ds -> In j ps -> In i DL -> ~ In j PL -> mget R i j = 0) ->
    (forall i j, In i ds -> In j ps -> ~ In i DL -> In j PL -> mget R i j = 0 /\ sup i j = false) ->
    (forall i, In i ds -> In i DL -> r i <= rowsum R ps i) ->
    (exists i0, In i0 ds /\ In i0 DL /\ r i0 < rowsum R ps i0) ->
    forall M, ~ matrix_spec ds ps sup r c M.
  Proof.
    intros Hc Hrow Hcol Hr (i0 & Hi0 & Hi0D & Hlt) M (M1 & M2 & M3).
    assert (HDLf : forall i, In i DLf -> In i ds /\ In i DL) by (intros i Hi; apply filter_In in Hi; destruct Hi as [H1 H2]; split; [exact H1|apply cmem_In, H2]).
    assert (HPLf : forall j, In j PLf -> In j ps) by (intros j Hj; apply filter_In in Hj; apply Hj).
    (* the seats of the parties PL are exactly the seats that R has in the rows DL *)
    assert (A1 : zsum (map c PLf) = zsum (map (fun i => rowsum R ps i) DLf)).
    { rewrite <- (zsum_map_ext (fun j => colsum R ds j) c PLf) by (intros j Hj; apply Hc, HPLf, Hj).
      rewrite block_colsums by (intros i j Hi Hj HiD HjP; apply (Hcol i j Hi Hj HiD HjP)).
      apply zsum_map_ext. intros i Hi. unfold rowsum.
      apply zsum_filter_eq. intros j Hj Hf. destruct (HDLf i Hi) as [H1 H2]. apply (Hrow i j H1 Hj H2), cmem_false, Hf. }
    (* ... more than these rows are due *)
    assert (A2 : zsum (map r DLf) < zsum (map (fun i => rowsum R ps i) DLf)).
    { apply (zsum_map_lt r (fun i => rowsum R ps i) DLf i0); [|apply filter_In; split; [exact Hi0|apply cmem_In, Hi0D]|exact Hlt].
      intros i Hi. destruct (HDLf i Hi) as [H1 H2]. apply (Hr i H1 H2). }
    (* ... while in M they fit into the rows DL *)
    assert (A3 : zsum (map c PLf) <= zsum (map r DLf)).
    { rewrite <- (zsum_map_ext (fun j => colsum M ds j) c PLf) by (intros j Hj; apply M2, HPLf, Hj).
      rewrite block_colsums by (intros i j Hi Hj HiD HjP; apply (M3 i j Hi Hj), (Hcol i j Hi Hj HiD HjP)).
      rewrite <- (zsum_map_ext (fun i => rowsum M ps i) r DLf) by (intros i Hi; apply M1, (HDLf i Hi)).
      apply zsum_map_le. intros i Hi. unfold rowsum. apply zsum_filter_le. intros j Hj. apply (M3 i j (proj1 (HDLf i Hi)) Hj). }
    lia.
  Qed.
End Block.

Section Refusal.
  Variable q : Q.
  Hypothesis Hq0 : (0 <= q)%Q.
  Hypothesis Hq1 : (q < 1)%Q.
  Hypothesis Hq : (q == 0 \/ q == 1 # 2)%Q.
  Variable votes : mat.
  Hypothesis Hwf : wf_votes votes.
  Hypothesis Hvnn : forall i j, 0 <= mget votes i j.
  Variable pseats : list (C * Z).
  Notation ds := (districts votes).
  Notation ps := (parties votes).
  Notation quots s := (calc_quots votes (b_rho s) (b_gamma s)).

  Lemma ds_dget i : In i ds -> exists row, dget votes i = Some row.
  Proof.
    intros Hi. destruct (dget votes i) as [row|] eqn:E; [exists row; reflexivity|]. exfalso. apply (dget_none_notin _ _ E Hi).
  Qed.

  (* 1. with closed labels the adjustment coefficient is below 1 *)
  Lemma coef_lt_1 s under over LD LP a : BInv q votes pseats s -> NoDup over ->
    labeled q ps ds (quots s) (b_res s) under over = Lab LD LP ->
    sort_pos (filter (fun i => dmem LD i) under) = [] ->
    adj_coef q (quots s) (b_res s) (map fst LD) (map fst LP) = Adj a -> (a < 1)%Q.
  Proof.
    intros I Hov El Hnu Ha. destruct (Qlt_le_dec a 1) as [L|L]; [exact L|exfalso].
    destruct (labeled_spec q votes _ _ _ _ _ _ Hov El) as [LI Cl]. specialize (Cl Hnu). destruct Cl as (C1 & C2 & C3).
    set (DL := map fst LD) in *. set (PL := map fst LP) in *. set (res := b_res s) in *.
    destruct (adj_attain q res DL PL _ a Ha ltac:(lra)) as ([[i j] x] & Hcell & Hatt).
    destruct (cells_of_quots votes _ _ _ Hwf Hcell) as (Hi & Hj & Ex). cbn [fst snd] in Hi, Hj, Ex, Hatt.
    pose proof (bi_cells _ _ _ _ I i j Hi Hj) as (W0 & W1 & W2). fold res in W0, W1, W2. rewrite <- Ex in W0, W1, W2.
    pose proof (bi_nonneg _ _ _ _ I i j) as Hs0. fold res in Hs0.
    pose proof (inj_le 0 _ Hs0) as Hs0'. change (inject_Z 0) with 0%Q in Hs0'.
    destruct (ds_dget i Hi) as (vrow & Ev).
    destruct Hatt as [[(HiD & HjP & Hsg) Ea]|[(HiD & HjP & Hx) Ea]].
    - (* a candidate of alpha equal to 1: a cell on its lower signpost *)
      assert (Hxp : (0 < x)%Q) by lra.
      rewrite Ea in L. apply (Qdiv_ge_1 _ _ Hxp) in L.
      assert (Exs : (x == inject_Z (mget res i j) - q)%Q) by (unfold signpost in *; lra).
      assert (Hs1 : 0 < mget res i j) by (rewrite Zlt_Qlt; change (inject_Z 0) with 0%Q; unfold signpost in Hsg; lra).
      assert (Ht : dtest q (quots s) res i j = true).
      { rewrite dtest_calc, Ev. unfold mget in Hs1, Exs. destruct (dget res i) as [rr|]; [|discriminate Hs1].
        rewrite <- Ex. apply tied_down; [exact Hq|exact Exs|lia]. }
      assert (Hin : In j PL) by (apply (C1 i j); [apply cmem_In, HiD|apply sort_pos_in, Hj|exact Ht]).
      apply cmem_In in Hin. congruence.
    - (* a candidate of 1 / beta equal to 1: a cell on its upper signpost *)
      assert (Hsg1 : (0 < signpost q (mget res i j) + 1)%Q) by (unfold signpost; lra).
      assert (E1 : (1 / ((signpost q (mget res i j) + 1) / x) == x / (signpost q (mget res i j) + 1))%Q) by (field; split; lra).
      rewrite Ea, E1 in L. apply (Qdiv_ge_1 _ _ Hsg1) in L.
      assert (Exs : (x == inject_Z (mget res i j) + 1 - q)%Q) by (unfold signpost in *; lra).
      assert (HiD' : ~ In i DL) by (intros Hin; apply cmem_In in Hin; congruence).
      assert (HjP' : In j PL) by (apply cmem_In, HjP).
      pose proof (C3 j i HjP' Hi HiD') as Hav. unfold availd in Hav.
      assert (Ht : utest q (quots s) res i j = true).
      { rewrite utest_calc, Ev. unfold mget in Hs0, Exs. destruct (dget (quots s) i); [|discriminate]. destruct (dget res i) as [rr|]; [|discriminate].
        rewrite <- Ex. apply tied_up; assumption. }
      apply HiD'. apply (C2 j i HjP' Hi Ht).
  Qed.

  (* 2. a coefficient 0: no labelled district holds a seat outside the labelled parties, no labelled party has a vote outside
        the labelled districts *)
  Lemma coef_zero_shape s DL PL a : BInv q votes pseats s ->
    adj_coef q (quots s) (b_res s) DL PL = Adj a -> (a <= 0)%Q ->
    (forall i j, In i ds -> In j ps -> In i DL -> ~ In j PL -> mget (b_res s) i j = 0) /\
    (forall i j, In i ds -> In j ps -> ~ In i DL -> In j PL -> mget votes i j = 0).
  Proof.
    intros I Ha Hle. set (res := b_res s) in *.
    pose proof (adj_lower q res DL PL _ a Hq1 (bi_nonneg _ _ _ _ I) Ha) as Hlow.
    split.
    - intros i j Hi Hj HiD HjP. destruct (Z.eq_dec (mget res i j) 0) as [e|n]; [exact e|exfalso].
      pose proof (bi_nonneg _ _ _ _ I i j) as Hs0. fold res in Hs0.
      assert (Hv : mget votes i j <> 0) by (intros E; apply n; apply (bi_zero _ _ _ _ I i j E)).
      assert (Hsg : (0 < signpost q (mget res i j))%Q).
      { unfold signpost. pose proof (inj_le 1 (mget res i j) ltac:(lia)) as H1. change (inject_Z 1) with 1%Q in H1. lra. }
      destruct (proj1 (Hlow i j _ (stored_cell votes Hwf (b_rho s) (b_gamma s) i j Hv))) as [Hx0 Hle'].
      { split; [apply cmem_In, HiD|]. split; [apply cmem_false, HjP|exact Hsg]. }
      pose proof (bi_cells _ _ _ _ I i j Hi Hj) as (W0 & _). fold res in W0.
      set (x := quot (mget votes i j) (mul (b_rho s) i) (mul (b_gamma s) j)) in *.
      assert (Hdiv : (0 < signpost q (mget res i j) / x)%Q) by (apply Qlt_shift_div_l; lra).
      lra.
    - intros i j Hi Hj HiD HjP. destruct (Z.eq_dec (mget votes i j) 0) as [e|n]; [exact e|exfalso].
      pose proof (Hvnn i j) as Hv0.
      assert (Hxp : (0 < quot (mget votes i j) (mul (b_rho s) i) (mul (b_gamma s) j))%Q).
      { unfold quot. pose proof (inj_lt 0 (mget votes i j) ltac:(lia)) as H1. change (inject_Z 0) with 0%Q in H1.
        apply Qmult_lt_0_compat; [apply Qmult_lt_0_compat|]; [exact H1|apply (bi_rho _ _ _ _ I i Hi)|apply (bi_gamma _ _ _ _ I j Hj)]. }
      destruct (proj2 (Hlow i j _ (stored_cell votes Hwf (b_rho s) (b_gamma s) i j n))) as (b & Hb & _ & Hge).
      { split; [apply cmem_false, HiD|]. split; [apply cmem_In, HjP|exact Hxp]. }
      assert (H1 : (0 < 1 / b)%Q) by (apply Qlt_shift_div_l; lra). lra.
  Qed.

  Variable tgt : list (C * Z).
  Variable dorder : list C.
  Hypothesis Hdo : NoDup dorder.
  Hypothesis Hdo1 : incl ds dorder.
  Hypothesis Hdo2 : incl dorder ds.
  Notation under_of s := (fst (unsat dorder (b_res s) tgt)).
  Notation over_of s := (snd (unsat dorder (b_res s) tgt)).
  Definition supv (i j : C) : bool := 0 <? mget votes i j.
  Definition rt (i : C) : Z := dget_or tgt i 0.
  Definition cp (j : C) : Z := dget_or pseats j 0.

  Lemma bstep_refused s a : bstep q votes tgt dorder s = Stop (BP_refused a) ->
    (under_of s <> [] \/ over_of s <> []) /\
    exists LD LP, labeled q ps ds (quots s) (b_res s) (under_of s) (over_of s) = Lab LD LP /\
      sort_pos (filter (fun i => dmem LD i) (under_of s)) = [] /\
      adj_coef q (quots s) (b_res s) (map fst LD) (map fst LP) = Adj a /\
      Qeq_bool a 0 || Qle_bool 1 a = true.
  Proof.
    destruct (bstep_unfold q votes tgt dorder s) as [[_ ->]|[Hne ->]]; [discriminate|].
    destruct (bstep_body_case q votes s (under_of s) (over_of s)) as [ | | | | | | |LD LP a0 El Es Ea Ec| ]; intros [= <-].
    split; [exact Hne|]. exists LD, LP. auto.
  Qed.

  Lemma under_in R i : In i (fst (unsat dorder R tgt)) <-> In i dorder /\ cur_seats R i < rt i.
  Proof. unfold unsat. cbn [fst]. rewrite filter_In, Z.ltb_lt. reflexivity. Qed.
  Lemma over_in R i : In i (snd (unsat dorder R tgt)) <-> In i dorder /\ rt i < cur_seats R i.
  Proof. unfold unsat. cbn [snd]. rewrite filter_In, Z.ltb_lt. reflexivity. Qed.

  (* when the seats handed out are the seats due, a district with too few comes with a district with too many *)
  Lemma unsat_some_over R : zsum (map (cur_seats R) ds) = zsum (map rt ds) ->
    fst (unsat dorder R tgt) <> [] \/ snd (unsat dorder R tgt) <> [] -> exists o, In o (snd (unsat dorder R tgt)).
  Proof.
    intros Hsum Hne. destruct (snd (unsat dorder R tgt)) as [|o ol] eqn:Eo; [exfalso|exists o; left; reflexivity].
    destruct Hne as [Hne|Hne]; [|apply Hne; reflexivity].
    destruct (fst (unsat dorder R tgt)) as [|u ul] eqn:Eu; [apply Hne; reflexivity|].
    assert (Hu : In u dorder /\ cur_seats R u < rt u) by (apply under_in; rewrite Eu; left; reflexivity).
    assert (Hall : forall i, In i ds -> cur_seats R i <= rt i).
    { intros i Hi. destruct (Z_lt_le_dec (rt i) (cur_seats R i)) as [Hl|Hl]; [exfalso|exact Hl].
      apply (conj (Hdo1 i Hi)), over_in in Hl. rewrite Eo in Hl. destruct Hl. }
    pose proof (zsum_map_lt (cur_seats R) rt ds u Hall (Hdo2 u (proj1 Hu)) (proj2 Hu)). lia.
  Qed.

  (* 3. the refusal is justified: the labelled districts and parties form a block on which Hall's condition fails *)
  Theorem step_refused_infeasible s a : BInv q votes pseats s -> bstep q votes tgt dorder s = Stop (BP_refused a) ->
    forall M, ~ matrix_spec ds ps supv rt cp M.
  Proof.
    intros I H M HM. destruct (bstep_refused s a H) as (Hne & LD & LP & El & Hnu & Ha & Hc).
    assert (Hov : NoDup (over_of s)) by (unfold unsat; cbn [snd]; apply NoDup_filter, Hdo).
    pose proof (coef_lt_1 s _ _ LD LP a I Hov El Hnu Ha) as Hlt.
    assert (Hz : (a <= 0)%Q).
    { apply orb_true_iff in Hc. destruct Hc as [Hc|Hc]; [apply Qeq_bool_iff in Hc; lra|apply Qle_bool_iff in Hc; lra]. }
    destruct (coef_zero_shape s _ _ a I Ha Hz) as [Z1 Z2].
    destruct (labeled_spec q votes _ _ _ _ _ _ Hov El) as [LI _].
    pose proof (fun i => cur_seats_rowsum votes (b_res s) i (bi_wf _ _ _ _ I)) as Hcur.
    apply (block_infeasible ds ps (map fst LD) (map fst LP) supv rt cp (b_res s)) with (M := M); [| | | | |exact HM].
    - apply (bi_cols _ _ _ _ I).
    - exact Z1.
    - intros i j Hi Hj HiD HjP. pose proof (Z2 i j Hi Hj HiD HjP) as Hv.
      split; [apply (bi_zero _ _ _ _ I i j Hv)|unfold supv; rewrite Hv; reflexivity].
    - (* labelled districts are not under-represented *)
      intros i Hi HiD. rewrite <- Hcur. apply sort_pos_nil in Hnu.
      destruct (Z_lt_le_dec (cur_seats (b_res s) i) (rt i)) as [Hl|Hl]; [exfalso|exact Hl].
      apply (conj (Hdo1 i Hi)), under_in in Hl.
      pose proof (filter_nil _ _ Hnu i Hl) as Hf. cbv beta in Hf. apply dmem_keys in HiD. congruence.
    - (* an over-represented district is labelled *)
      destruct (unsat_some_over (b_res s)) as (o & Ho); [|exact Hne|].
      + rewrite (totals_agree ds ps supv rt cp M HM).
        rewrite <- (zsum_map_ext (fun j => colsum (b_res s) ds j) cp ps (bi_cols _ _ _ _ I)).
        rewrite (zsum_map_ext _ (fun i => rowsum (b_res s) ps i) ds (fun i _ => Hcur i)).
        unfold rowsum, colsum. apply (zsum_swap (fun i j => mget (b_res s) i j)).
      + exists o. pose proof (proj1 (over_in _ o) Ho) as [Hod Hol]. rewrite Hcur in Hol.
        split; [apply Hdo2, Hod|]. split; [apply (LInv_over _ _ _ _ _ _ _ _ LI), Ho|exact Hol].
  Qed.

  (* the loop refuses only from a state that satisfies the invariant *)
  Lemma bloop_refused fuel s a : BInv q votes pseats s -> bloop q votes tgt dorder fuel s = BP_refused a ->
    exists s', BInv q votes pseats s' /\ bstep q votes tgt dorder s' = Stop (BP_refused a).
  Proof.
    intros I H.
    destruct (bloop_last q votes tgt dorder _ (bstep_inv q Hq0 Hq1 votes Hwf pseats tgt dorder) fuel s I) as [E|(s' & I' & [[_ E]|E])];
      rewrite H in E; try discriminate E.
    exists s'. split; [exact I'|exact E].
  Qed.

  Theorem bloop_refused_infeasible fuel s a : BInv q votes pseats s -> bloop q votes tgt dorder fuel s = BP_refused a ->
    forall M, ~ matrix_spec ds ps supv rt cp M.
  Proof.
    intros I H. destruct (bloop_refused fuel s a I H) as (s' & I' & Hs). apply (step_refused_infeasible s' a I' Hs).
  Qed.
End Refusal.

Lemma spec_matrix d votes dseats pseats res : (forall i j, 0 <= mget votes i j) ->
  biprop_spec d (districts votes) (parties votes) votes dseats pseats res ->
  matrix_spec (districts votes) (parties votes) (supv votes) (rt dseats) (cp pseats) res.
Proof.
  intros Hv (rho & gamma & S). split; [|split].
  - intros i Hi. apply (sp_rows _ _ _ _ _ _ _ _ _ S i Hi).
  - intros j Hj. apply (sp_cols _ _ _ _ _ _ _ _ _ S j Hj).
  - intros i j _ _. split; [apply (sp_nonneg _ _ _ _ _ _ _ _ _ S)|].
    unfold supv. intros H. apply Z.ltb_ge in H. apply (sp_zero _ _ _ _ _ _ _ _ _ S). pose proof (Hv i j). lia.
Qed.

Section WholeRefusal.
  Variable d : Z -> Q.
  Variables q k : Q.
  Hypothesis Hq0 : (0 <= q)%Q.
  Hypothesis Hq1 : (q < 1)%Q.
  Hypothesis Hq : (q == 0 \/ q == 1 # 2)%Q.
  Hypothesis Hk : (0 < k)%Q.
  Hypothesis Hd : forall s, (d s == k * (inject_Z s + 1 - q))%Q.
  Variable votes : mat.
  Hypothesis Hwf : wf_votes votes.
  Hypothesis Hvnn : forall i j, 0 <= mget votes i j.
  Variable n : Z.
  Hypothesis Hn : 0 <= n.
  Variable dorder : list C.
  Hypothesis Hdo : NoDup dorder.
  Hypothesis Hdo1 : incl (districts votes) dorder.
  Hypothesis Hdo2 : incl dorder (districts votes).

  Theorem evaluate_core_refused strict tgt fuel a : strict = true \/ (exists i j, 0 < mget votes i j) ->
    evaluate_core d q votes tgt dorder strict n fuel = BP_refused a ->
    exists pseats, ha_marginal d (party_totals votes) n = Some pseats /\
      forall M, ~ matrix_spec (districts votes) (parties votes) (supv votes) (rt tgt) (cp pseats) M.
  Proof.
    intros Hs. unfold evaluate_core. destruct (refuses_empty votes strict) eqn:Er; [discriminate|].
    pose proof (not_refused_some votes Hwf Hvnn strict Hs Er) as Hsome.
    destruct (binit d q votes n) as [e|s] eqn:Ei; [destruct (binit_errors _ _ _ _ _ Ei) as [-> | [-> | ->]]; discriminate|].
    intros H. destruct (binit_inv d q k Hq0 Hq1 Hk Hd votes Hwf Hvnn Hsome n Hn s Ei) as (pseats & Ep & I).
    exists pseats. split; [unfold ha_marginal; rewrite Ep; reflexivity|].
    apply (bloop_refused_infeasible q Hq0 Hq1 Hq votes Hwf Hvnn pseats tgt dorder Hdo Hdo1 Hdo2 fuel s a I H).
  Qed.

  Theorem evaluate_total_refused strict fuel a : strict = true \/ (exists i j, 0 < mget votes i j) ->
    evaluate_total d q votes strict n dorder fuel = BP_refused a ->
    exists pseats dseats, ha_marginal d (party_totals votes) n = Some pseats /\
      ha_marginal d (district_totals votes) n = Some dseats /\
      forall M, ~ matrix_spec (districts votes) (parties votes) (supv votes) (rt dseats) (cp pseats) M.
  Proof.
    intros Hs. unfold evaluate_total. destruct (refuses_empty votes strict) eqn:Er; [discriminate|].
    destruct (binit d q votes n) as [e|s] eqn:Ei; [destruct (binit_errors _ _ _ _ _ Ei) as [-> | [-> | ->]]; discriminate|].
    destruct (evaluate d (district_totals votes) n [] []) as [tgt [t|]|] eqn:Et; try discriminate.
    intros H. destruct (evaluate_core_refused strict tgt fuel a Hs H) as (pseats & Hp & Hinf).
    exists pseats, tgt. split; [exact Hp|]. split; [unfold ha_marginal; rewrite Et; reflexivity|exact Hinf].
  Qed.
End WholeRefusal.

Section NoZeroDiv.
  Variable q : Q.
  Variable res : mat.
  Variables DL PL : list C.
  Notation step := (scan_cell q res DL PL).

  Lemma step_zerodiv st cell : sc_zerodiv (step st cell) = true ->
    sc_zerodiv st = true \/ (condA q res DL PL cell /\ (snd cell == 0)%Q).
  Proof.
    destruct cell as [[i j] x]. unfold scan_cell, condA. cbn [fst snd].
    destruct (sc_zerodiv st) eqn:Ez; [auto|].
    destruct (cmem i DL) eqn:Ei, (cmem j PL) eqn:Ej; cbn [eqb negb andb]; try (intros H; rewrite Ez in H; discriminate).
    - destruct (Qpos_b (signpost q (mget res i j))) eqn:Es; [|intros H; rewrite Ez in H; discriminate].
      destruct (Qeq_bool x 0) eqn:Ex.
      + intros _. right. split; [split; [reflexivity|split; [reflexivity|apply Qpos_b_iff, Es]]|apply Qeq_bool_iff, Ex].
      + destruct (Qpos_b (signpost q (mget res i j) / x - sc_alpha st)); cbn [sc_zerodiv]; intros H; [discriminate|rewrite Ez in H; discriminate].
    - destruct (Qpos_b x); [|intros H; rewrite Ez in H; discriminate].
      destruct (sc_beta st) as [b0|]; [destruct (Qpos_b (b0 - (signpost q (mget res i j) + 1) / x))|]; cbn [sc_zerodiv]; intros H;
        try discriminate; rewrite Ez in H; discriminate.
  Qed.
  Lemma scan_zerodiv : forall cells st, sc_zerodiv (fold_left step cells st) = true ->
    sc_zerodiv st = true \/ exists cell, In cell cells /\ condA q res DL PL cell /\ (snd cell == 0)%Q.
  Proof.
    induction cells as [|cell cells IH]; intros st H; simpl in H; [auto|].
    destruct (IH _ H) as [H1|(c & Hc & H1)]; [|right; exists c; split; [right; exact Hc|exact H1]].
    destruct (step_zerodiv st cell H1) as [H2|H2]; [auto|]. right. exists cell. split; [left; reflexivity|exact H2].
  Qed.
End NoZeroDiv.

Lemma adj_no_zerodiv q votes pseats s DL PL : wf_votes votes -> BInv q votes pseats s ->
  adj_coef q (calc_quots votes (b_rho s) (b_gamma s)) (b_res s) DL PL <> AdjZeroDivision.
Proof.
  intros Hwf I. unfold adj_coef.
  destruct (sc_zerodiv (fold_left (scan_cell q (b_res s) DL PL) (cells_of (calc_quots votes (b_rho s) (b_gamma s))) (mk_scan 0 None false))) eqn:Ez.
  - exfalso. destruct (scan_zerodiv q (b_res s) DL PL _ _ Ez) as [H|([[i j] x] & Hc & (_ & _ & Hsg) & Hx)]; [discriminate|].
    destruct (cells_of_quots votes _ _ _ Hwf Hc) as (Hi & Hj & Ex). cbn [fst snd] in *.
    pose proof (bi_cells _ _ _ _ I i j Hi Hj) as (_ & W1 & _). rewrite <- Ex in W1. lra.
  - destruct (sc_beta _); discriminate.
Qed.

Lemma bstep_no_zerodiv q votes pseats tgt dorder s : wf_votes votes -> BInv q votes pseats s ->
  bstep q votes tgt dorder s <> Stop BP_zero_division.
Proof.
  intros Hwf I. destruct (bstep_unfold q votes tgt dorder s) as [[_ ->]|[_ ->]]; [discriminate|].
  destruct (bstep_body_case q votes s (fst (unsat dorder (b_res s) tgt)) (snd (unsat dorder (b_res s) tgt))) as [ | | | | | |LD LP _ _ Ea| | ];
    try discriminate.
  exfalso. apply (adj_no_zerodiv q votes pseats s (map fst LD) (map fst LP) Hwf I Ea).
Qed.

Lemma bloop_no_zerodiv q votes pseats tgt dorder : (0 <= q)%Q -> (q < 1)%Q -> wf_votes votes ->
  forall fuel s, BInv q votes pseats s -> bloop q votes tgt dorder fuel s <> BP_zero_division.
Proof.
  intros Hq0 Hq1 Hwf fuel s I H.
  destruct (bloop_last q votes tgt dorder _ (bstep_inv q Hq0 Hq1 votes Hwf pseats tgt dorder) fuel s I) as [E|(s' & I' & [[_ E]|E])];
    rewrite H in E; try discriminate E.
  apply (bstep_no_zerodiv q votes pseats tgt dorder s' Hwf I' E).
Qed.

Lemma evaluate_core_no_zerodiv d q k votes tgt dorder strict n fuel :
  (0 <= q)%Q -> (q < 1)%Q -> (0 < k)%Q -> (forall s, d s == k * (inject_Z s + 1 - q))%Q ->
  wf_votes votes -> (forall i j, 0 <= mget votes i j) -> 0 <= n ->
  strict = true \/ (exists i j, 0 < mget votes i j) ->
  evaluate_core d q votes tgt dorder strict n fuel <> BP_zero_division.
Proof.
  intros Hq0 Hq1 Hk Hd Hwf Hv Hn Hs. unfold evaluate_core. destruct (refuses_empty votes strict) eqn:Er; [discriminate|].
  pose proof (not_refused_some votes Hwf Hv strict Hs Er) as Hsome.
  destruct (binit d q votes n) as [e|s] eqn:Ei; [destruct (binit_errors _ _ _ _ _ Ei) as [-> | [-> | ->]]; discriminate|].
  destruct (binit_inv d q k Hq0 Hq1 Hk Hd votes Hwf Hv Hsome n Hn s Ei) as (pseats & _ & I).
  apply (bloop_no_zerodiv q votes pseats tgt dorder Hq0 Hq1 Hwf fuel s I).
Qed.
