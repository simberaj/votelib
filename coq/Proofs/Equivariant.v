(* A small library of "equivariant combinators" (C10, renaming of candidates): map / filter / find / fold / flat_map /
   stable sorts over lists whose elements are renamed by a function commute with that renaming as soon as the
   predicates / key functions / step functions they are given do.  With it the renaming equivariance of an evaluator
   follows by composition (Proofs/CondorcetRename_proofs.v, QDRename_proofs.v, STVRename_proofs.v, CardinalRename_proofs.v).

   The candidate-level facts need the renaming [f : C -> C] to be injective: the models compare candidates with
   [ceqb] only (never with an order on names), and [ceqb (f a) (f b) = ceqb a b] is exactly injectivity. *)
From Coq Require Import ZArith QArith List Bool Arith Lia.
From VL Require Import Prelude.PyDict Model.GetNBest Proofs.Dict_proofs Proofs.Order_proofs Proofs.HARename_proofs.
Import ListNotations.

Section GEN.
  Context {A A' : Type}.
  Variable g : A -> A'.

  Lemma filter_map_eqv_in (P : A -> bool) (P' : A' -> bool) l : (forall x, In x l -> P' (g x) = P x) ->
    filter P' (map g l) = map g (filter P l).
  Proof.
    induction l as [|x l IH]; intros H; simpl; [reflexivity|]. rewrite H by (left; reflexivity).
    rewrite IH by (intros y Hy; apply H; right; exact Hy). destruct (P x); reflexivity.
  Qed.
  Lemma filter_map_eqv (P : A -> bool) (P' : A' -> bool) : (forall x, P' (g x) = P x) ->
    forall l, filter P' (map g l) = map g (filter P l).
  Proof. intros H l. apply filter_map_eqv_in. intros x _. apply H. Qed.
  Lemma find_map_eqv (P : A -> bool) (P' : A' -> bool) : (forall x, P' (g x) = P x) ->
    forall l, find P' (map g l) = option_map g (find P l).
  Proof.
    intros H l. induction l as [|x l IH]; simpl; [reflexivity|]. rewrite H. destruct (P x); simpl; [reflexivity|exact IH].
  Qed.
  Lemma existsb_map_eqv (P : A -> bool) (P' : A' -> bool) : (forall x, P' (g x) = P x) ->
    forall l, existsb P' (map g l) = existsb P l.
  Proof. intros H l. induction l as [|x l IH]; simpl; [reflexivity|]. rewrite H, IH. reflexivity. Qed.
  Lemma forallb_map_eqv (P : A -> bool) (P' : A' -> bool) : (forall x, P' (g x) = P x) ->
    forall l, forallb P' (map g l) = forallb P l.
  Proof. intros H l. induction l as [|x l IH]; simpl; [reflexivity|]. rewrite H, IH. reflexivity. Qed.

  (* a fold whose step commutes with the renaming (R on states, g on elements) *)
  Lemma fold_left_eqv_in {S S' : Type} (R : S -> S') (step : S -> A -> S) (step' : S' -> A' -> S') l :
    (forall a x, In x l -> step' (R a) (g x) = R (step a x)) ->
    forall a, fold_left step' (map g l) (R a) = R (fold_left step l a).
  Proof.
    induction l as [|x l IH]; intros H a; simpl; [reflexivity|]. rewrite H by (left; reflexivity).
    apply IH. intros b y Hy. apply H. right. exact Hy.
  Qed.
  Lemma fold_left_eqv {S S' : Type} (R : S -> S') (step : S -> A -> S) (step' : S' -> A' -> S') :
    (forall a x, step' (R a) (g x) = R (step a x)) ->
    forall l a, fold_left step' (map g l) (R a) = R (fold_left step l a).
  Proof. intros H l. apply fold_left_eqv_in. intros a x _. apply H. Qed.
  Lemma fold_left_eqv0 {S S' : Type} (R : S -> S') (step : S -> A -> S) (step' : S' -> A' -> S') :
    (forall a x, step' (R a) (g x) = R (step a x)) ->
    forall l a a', a' = R a -> fold_left step' (map g l) a' = R (fold_left step l a).
  Proof. intros H l a a' ->. apply fold_left_eqv, H. Qed.
  (* a fold to a value that is not renamed *)
  Lemma fold_left_inv {S : Type} (step : S -> A -> S) (step' : S -> A' -> S) :
    (forall a x, step' a (g x) = step a x) -> forall l a, fold_left step' (map g l) a = fold_left step l a.
  Proof. exact (fold_left_eqv (fun a => a) step step'). Qed.

  Lemma flat_map_eqv_in {B B' : Type} (k : B -> B') (F : A -> list B) (F' : A' -> list B') l :
    (forall x, In x l -> F' (g x) = map k (F x)) -> flat_map F' (map g l) = map k (flat_map F l).
  Proof.
    induction l as [|x l IH]; intros H; simpl; [reflexivity|]. rewrite H by (left; reflexivity).
    rewrite IH by (intros y Hy; apply H; right; exact Hy). rewrite map_app. reflexivity.
  Qed.
  Lemma flat_map_eqv {B B' : Type} (k : B -> B') (F : A -> list B) (F' : A' -> list B') :
    (forall x, F' (g x) = map k (F x)) -> forall l, flat_map F' (map g l) = map k (flat_map F l).
  Proof. intros H l. apply flat_map_eqv_in. intros x _. apply H. Qed.

  Lemma map_map_eqv {B B' : Type} (k : B -> B') (F : A -> B) (F' : A' -> B') :
    (forall x, F' (g x) = k (F x)) -> forall l, map F' (map g l) = map k (map F l).
  Proof. intros H l. rewrite !map_map. apply map_ext. exact H. Qed.
  Lemma map_map_inv {B : Type} (F : A -> B) (F' : A' -> B) :
    (forall x, F' (g x) = F x) -> forall l, map F' (map g l) = map F l.
  Proof. intros H l. rewrite map_map. apply map_ext. exact H. Qed.

  Lemma nth_error_map_eqv l i : nth_error (map g l) i = option_map g (nth_error l i).
  Proof. apply nth_error_map. Qed.
  Lemma rev_map_eqv l : rev (map g l) = map g (rev l).
  Proof. symmetry. apply map_rev. Qed.
End GEN.

(* a fold over the SAME list whose step commutes with a renaming of the state *)
Lemma fold_left_same {A S S' : Type} (R : S -> S') (step : S -> A -> S) (step' : S' -> A -> S') :
  (forall a x, step' (R a) x = R (step a x)) -> forall l a a', a' = R a -> fold_left step' l a' = R (fold_left step l a).
Proof. intros H l. induction l as [|x l IH]; intros a a' ->; simpl; [reflexivity|]. rewrite H. apply IH. reflexivity. Qed.

(* [match l with [] => a | _ => b end] as a test that only looks at emptiness *)
Definition is_nil {X} (l : list X) : bool := match l with [] => true | _ => false end.
Lemma match_nil {X Y} (l : list X) (a b : Y) : match l with [] => a | _ :: _ => b end = if is_nil l then a else b.
Proof. destruct l; reflexivity. Qed.
Lemma is_nil_map {X Y} (g : X -> Y) l : is_nil (map g l) = is_nil l.
Proof. destruct l; reflexivity. Qed.

(* stable sorts by a key: the key component is kept, the payload renamed by ANY function *)
Section SORT.
  Context {K K' V : Type}.
  Variable leb : V -> V -> bool.
  Variable g : K -> K'.
  Lemma sort_asc_renk l : sort_asc leb (renk g l) = renk g (sort_asc leb l).
  Proof. apply sort_asc_relabel. Qed.
  Lemma sort_desc_renk l : sort_desc leb (renk g l) = renk g (sort_desc leb l).
  Proof. apply sort_desc_ren. Qed.
  Lemma renk_keys (l : list (K * V)) : map fst (renk g l) = map g (map fst l).
  Proof. unfold renk. rewrite !map_map. reflexivity. Qed.
  Lemma renk_vals (l : list (K * V)) : map snd (renk g l) = map snd l.
  Proof. unfold renk. rewrite !map_map. reflexivity. Qed.
  Lemma renk_length (l : list (K * V)) : length (renk g l) = length l.
  Proof. apply map_length. Qed.
  Lemma renk_app (a b : list (K * V)) : renk g (a ++ b) = renk g a ++ renk g b.
  Proof. apply map_app. Qed.
  (* decorate - sort - undecorate with a key function that respects the renaming *)
  Lemma decorate_renk (key : K -> V) (key' : K' -> V) : (forall x, key' (g x) = key x) ->
    forall l, map (fun x => (x, key' x)) (map g l) = renk g (map (fun x => (x, key x)) l).
  Proof. intros H l. unfold renk. rewrite !map_map. apply map_ext. intros x. simpl. rewrite H. reflexivity. Qed.
End SORT.

(* result lists: tie test and plain winners under a renaming *)
Section RES.
  Context {K K' : Type} (g : K -> K').
  Lemma ren_res_map_cand (l : list K) : map (ren_res g) (map Cand l) = map Cand (map g l).
  Proof. rewrite !map_map. reflexivity. Qed.
  Lemma has_tie_res_ren (r : list (res K)) :
    existsb (fun x : res K' => match x with TieR _ => true | _ => false end) (map (ren_res g) r)
    = existsb (fun x : res K => match x with TieR _ => true | _ => false end) r.
  Proof. apply existsb_map_eqv. intros [c|l]; reflexivity. Qed.
  Lemma cands_res_ren (r : list (res K)) :
    flat_map (fun x : res K' => match x with Cand c => [c] | _ => [] end) (map (ren_res g) r)
    = map g (flat_map (fun x : res K => match x with Cand c => [c] | _ => [] end) r).
  Proof. apply flat_map_eqv. intros [c|l]; reflexivity. Qed.
End RES.

Section CAND.
  Variable f : C -> C.
  Hypothesis f_inj : forall a b, f a = f b -> a = b.

  Lemma cmem_ren c l : cmem (f c) (map f l) = cmem c l.
  Proof. induction l as [|x l IH]; simpl; [reflexivity|]. rewrite (ceqb_f f f_inj), IH. reflexivity. Qed.
  Lemma dmem_ren {X} (d : list (C * X)) c : dmem (renl f d) (f c) = dmem d c.
  Proof. unfold dmem. rewrite (dget_ren f f_inj). reflexivity. Qed.
  Lemma renl_renk {X} (d : list (C * X)) : renl f d = renk f d.
  Proof. reflexivity. Qed.
  Lemma zsumv_ren (d : list (C * Z)) : zsum (map snd (renl f d)) = zsum (map snd d).
  Proof. rewrite renl_vals. reflexivity. Qed.

  (* membership-as-a-set tests used for Tie keys and shared ranks *)
  Lemma forallb_cmem_ren x y : forallb (fun c => cmem c (map f y)) (map f x) = forallb (fun c => cmem c y) x.
  Proof. apply forallb_map_eqv. intros c. apply cmem_ren. Qed.
End CAND.

(* the association-list dictionaries keyed by candidates ([renl f] of Proofs/HARename_proofs.v) *)
Section CAND2.
  Variable f : C -> C.
  Hypothesis f_inj : forall a b, f a = f b -> a = b.
  Lemma sort_desc_renl {V} (leb : V -> V -> bool) (d : list (C * V)) : sort_desc leb (renl f d) = renl f (sort_desc leb d).
  Proof. apply (sort_desc_ren leb f). Qed.
  Lemma sort_asc_renl {V} (leb : V -> V -> bool) (d : list (C * V)) : sort_asc leb (renl f d) = renl f (sort_asc leb d).
  Proof. apply (sort_asc_renk leb f). Qed.
  Lemma get_n_best_renl {V} (leb : V -> V -> bool) (d : list (C * V)) n :
    get_n_best leb (renl f d) n = map (ren_res f) (get_n_best leb d n).
  Proof. apply (get_n_best_rename leb f). Qed.
  Lemma seed_renl {X} (x : X) (l : list C) : map (fun c => (c, x)) (map f l) = renl f (map (fun c => (c, x)) l).
  Proof. unfold renl. rewrite !map_map. reflexivity. Qed.
  (* the combinators on [renl f], stated so that callers need not unfold it; the renamed function is read off the goal *)
  Lemma is_nil_renl {X} (d : list (C * X)) : is_nil (renl f d) = is_nil d.
  Proof. apply is_nil_map. Qed.
  Lemma filter_renl {X} (P P' : C * X -> bool) (d : list (C * X)) :
    (forall cx, P' (f (fst cx), snd cx) = P cx) -> filter P' (renl f d) = renl f (filter P d).
  Proof. intros H. apply filter_map_eqv, H. Qed.
  Lemma flat_map_renl {A A' X} (g : A -> A') (F : A -> list (C * X)) (F' : A' -> list (C * X)) :
    (forall x, F' (g x) = renl f (F x)) -> forall l, flat_map F' (map g l) = renl f (flat_map F l).
  Proof. apply flat_map_eqv. Qed.
  Lemma map_renl_eqv {X Y} (F F' : C * X -> C * Y) (d : list (C * X)) :
    (forall cx, F' (f (fst cx), snd cx) = (f (fst (F cx)), snd (F cx))) -> map F' (renl f d) = renl f (map F d).
  Proof. intros H. apply map_map_eqv, H. Qed.
  Lemma map_renl {X Y} (F : C * X -> C * Y) (d : list (C * X)) :
    (forall cx, F (f (fst cx), snd cx) = (f (fst (F cx)), snd (F cx))) -> map F (renl f d) = renl f (map F d).
  Proof. apply map_renl_eqv. Qed.
  Lemma map_renl_inv {X Y} (F : C * X -> Y) (d : list (C * X)) :
    (forall cx, F (f (fst cx), snd cx) = F cx) -> map F (renl f d) = map F d.
  Proof. intros H. apply map_map_inv, H. Qed.
  Lemma renl_map_vals {X Y} (h : C -> X -> Y) (h' : C -> X -> Y) (d : list (C * X)) : (forall c x, h' (f c) x = h c x) ->
    map (fun cv => (fst cv, h' (fst cv) (snd cv))) (renl f d) = renl f (map (fun cv => (fst cv, h (fst cv) (snd cv))) d).
  Proof. intros H. apply map_renl_eqv. intros [c x]. simpl. rewrite H. reflexivity. Qed.
End CAND2.

(* The hypothesis "f : C -> C injective" of the renaming theorems is no restriction with respect to "injective on the
   candidates present": every function that is injective on a finite set S of candidates agrees on S with a globally
   injective one (outside S: shift beyond every image of S). *)
Section EXTEND.
  Variable f : C -> C.
  Variable S : list C.
  Hypothesis f_inj_on : forall a b, In a S -> In b S -> f a = f b -> a = b.

  Definition img_bound : positive := fold_right Pos.add 1%positive (map f S).
  Definition extend (c : C) : C := if cmem c S then f c else (c + img_bound)%positive.

  Lemma img_bound_gt c : In c S -> (f c < img_bound)%positive.
  Proof.
    unfold img_bound. clear f_inj_on. induction S as [|x l IH]; [intros []|]. cbn [map fold_right]. intros [->|H]; [lia|].
    specialize (IH H). lia.
  Qed.
  Lemma extend_agrees c : In c S -> extend c = f c.
  Proof. intros H. unfold extend. apply cmem_In in H. rewrite H. reflexivity. Qed.
  Lemma extend_injective a b : extend a = extend b -> a = b.
  Proof.
    unfold extend. destruct (cmem a S) eqn:Ea, (cmem b S) eqn:Eb; intros H.
    - apply f_inj_on; [apply cmem_In, Ea|apply cmem_In, Eb|exact H].
    - apply cmem_In in Ea. pose proof (img_bound_gt a Ea). lia.
    - apply cmem_In in Eb. pose proof (img_bound_gt b Eb). lia.
    - lia.
  Qed.
End EXTEND.
