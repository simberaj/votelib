(* Monotonicity of PreferenceAddition (Bucklin / Oklahoma; Model/Bucklin.v) for one seat when the CHANGED ballot itself
   contains shared ranks and shared ranks are split (C17_bucklin_shared_full_statement), for the repaired splicing loop
   of _decouple_equal_rankings ([fx] = true; sequential.py after 5993e70 + db5d821).

   Plan.
   A. The repaired loop splices every permutation in place: [splice_all true r 0 idx parts = expand r parts]
      ([splice_all_expand]), so [variants true r] is the structurally defined list [svariants r] (same order as
      itertools.product: [variants_svariants]); every variant is a ballot of plain ranks, there is at least one.
   B. [_decouple_equal_rankings] is LINEAR: for every functional f of a ballot,
        rsum f (decouple true L) == rsum (spread f) L,   spread f b = the mean of f over the variants of b
      ([decouple_linear]) - the weight deleted under a shared key is exactly the weight of the ballots processed,
      because no variant has a shared rank (this is what fails for the loop as written), and the result has no
      shared key left.
   C. Moving w up on the ballot maps the variants of the old ballot one-to-one onto the variants of the new one
      (same permutations of the same shared ranks, in the same order), each pair related by [pa_lifts]
      ([svariants_move]); so the means are ordered and [core_mono] of Proofs/Bucklin_proofs.v applies. *)
From Coq Require Import ZArith QArith List Bool Arith Lia Lqa Permutation.
From VL Require Import Prelude.Sx Prelude.PyDict Prelude.GDict Model.GetNBest Model.Convert Model.Bucklin
     Proofs.Dict_proofs Proofs.QOrd Proofs.GetNBest_proofs Proofs.Additive_proofs Proofs.Bucklin_proofs.
Import ListNotations.
Open Scope Q_scope.

(* every shared rank replaced, in place, by the next part *)
Fixpoint expand (r : ranked) (parts : list (list C)) : ranked :=
  match r with
  | [] => []
  | IP c :: t => IP c :: expand t parts
  | IS l :: t => match parts with
                 | p :: ps => map IP p ++ expand t ps
                 | [] => IS l :: t
                 end
  end.

Lemma skipn_S_len_app {X} (a : list X) x b : skipn (S (length a)) (a ++ x :: b) = b.
Proof. induction a as [|y a IH]; simpl; [reflexivity|]. exact IH. Qed.

Lemma splice_at (done : ranked) it t p : splice (done ++ it :: t) (length done) p = done ++ map IP p ++ t.
Proof. unfold splice. rewrite firstn_length_app, skipn_S_len_app. reflexivity. Qed.

Lemma splice_all_expand : forall (rest done : ranked) (i : nat) (offset : Z) (parts : list (list C)),
  offset = (Z.of_nat (length done) - Z.of_nat i)%Z ->
  splice_all true (done ++ rest) offset (map fst (shared_ranks_from i rest)) parts = done ++ expand rest parts.
Proof.
  induction rest as [|it t IH]; intros done i offset parts Ho.
  - cbn [shared_ranks_from map splice_all expand]. reflexivity.
  - destruct it as [c|l].
    + cbn [shared_ranks_from expand].
      replace (done ++ IP c :: t) with ((done ++ [IP c]) ++ t) by (rewrite <- app_assoc; reflexivity).
      rewrite (IH (done ++ [IP c]) (S i) offset parts).
      * rewrite <- app_assoc. reflexivity.
      * rewrite app_length. cbn [length]. lia.
    + cbn [shared_ranks_from map fst expand]. destruct parts as [|p ps]; [reflexivity|].
      cbn [splice_all]. subst offset.
      replace (Z.to_nat (Z.of_nat i + (Z.of_nat (length done) - Z.of_nat i))) with (length done) by lia.
      rewrite splice_at.
      replace (done ++ map IP p ++ t) with ((done ++ map IP p) ++ t) by (rewrite <- app_assoc; reflexivity).
      rewrite (IH (done ++ map IP p) (S i)).
      * rewrite <- app_assoc. reflexivity.
      * rewrite app_length, map_length. lia.
Qed.

(* the variants, structurally: the first shared rank varies slowest (itertools.product) *)
Fixpoint svariants (r : ranked) : list ranked :=
  match r with
  | [] => [[]]
  | IP c :: t => map (cons (IP c)) (svariants t)
  | IS l :: t => flat_map (fun p => map (app (map IP p)) (svariants t)) (perms l)
  end.

Lemma map_flat_map {X Y Z} (f : Y -> Z) (g : X -> list Y) l : map f (flat_map g l) = flat_map (fun x => map f (g x)) l.
Proof. induction l as [|x l IH]; simpl; [reflexivity|]. rewrite map_app, IH. reflexivity. Qed.

Lemma expand_svariants : forall r i,
  map (expand r) (product (map (fun il : nat * list C => perms (snd il)) (shared_ranks_from i r))) = svariants r.
Proof.
  induction r as [|it t IH]; intros i; [reflexivity|].
  destruct it as [c|l]; cbn [shared_ranks_from svariants].
  - rewrite <- (IH (S i)), map_map. apply map_ext. intros s. reflexivity.
  - cbn [map snd product]. rewrite map_flat_map. apply flat_map_ext. intros p.
    rewrite <- (IH (S i)), !map_map. apply map_ext. intros s. reflexivity.
Qed.

Theorem variants_svariants r : variants true r = svariants r.
Proof.
  rewrite <- (expand_svariants r 0). unfold variants. cbv zeta. apply map_ext. intros parts.
  exact (splice_all_expand r [] 0%nat 0%Z parts eq_refl).
Qed.

(* permutations list members of the shared rank only, and there is at least one *)
Lemma picks_in {X} (l : list X) : forall x rest, In (x, rest) (picks l) -> In x l /\ incl rest l.
Proof.
  induction l as [|a l IH]; intros x rest H; simpl in H; [destruct H|]. destruct H as [H|H].
  - injection H as <- <-. split; [left; reflexivity|intros y Hy; right; exact Hy].
  - apply in_map_iff in H. destruct H as ([y r] & E & Hin). cbn [fst snd] in E. injection E as <- <-.
    destruct (IH _ _ Hin) as [H1 H2]. split; [right; exact H1|].
    intros z [<-|Hz]; [left; reflexivity|right; apply H2, Hz].
Qed.

Lemma perms_n_incl : forall n (l p : list C), In p (perms_n n l) -> incl p l.
Proof.
  induction n as [|n IH]; intros l p H; cbn [perms_n] in H.
  - destruct H as [<-|[]]. intros y [].
  - apply in_flat_map in H. destruct H as ([x rest] & Hpk & Hm). apply in_map_iff in Hm. destruct Hm as (q & <- & Hq).
    cbn [fst snd] in *. destruct (picks_in l x rest Hpk) as [Hx Hrest].
    intros y [<-|Hy]; [exact Hx|]. apply Hrest. exact (IH rest q Hq y Hy).
Qed.

Lemma perms_incl (l p : list C) : In p (perms l) -> incl p l.
Proof. apply perms_n_incl. Qed.

Lemma perms_n_nonempty : forall n (l : list C), (n <= length l)%nat -> perms_n n l <> [].
Proof.
  induction n as [|n IH]; intros l H; cbn [perms_n]; [discriminate|].
  destruct l as [|x t]; [cbn [length] in H; lia|]. cbn [picks flat_map fst snd]. intros E.
  apply app_eq_nil in E. destruct E as [E _]. apply map_eq_nil in E. apply (IH t); [cbn [length] in H; lia|exact E].
Qed.

Lemma perms_nonempty (l : list C) : perms l <> [].
Proof. apply perms_n_nonempty. apply le_n. Qed.

Lemma svariants_nonempty r : svariants r <> [].
Proof.
  induction r as [|it t IH]; [discriminate|]. destruct it as [c|l]; cbn [svariants].
  - intros E. apply map_eq_nil in E. exact (IH E).
  - destruct (perms l) as [|p ps] eqn:Ep; [exact (False_ind _ (perms_nonempty l Ep))|].
    cbn [flat_map]. intros E. apply app_eq_nil in E. destruct E as [E _]. apply map_eq_nil in E. exact (IH E).
Qed.

Lemma svariants_plain r : forall v, In v (svariants r) -> has_shared v = false.
Proof.
  induction r as [|it t IH]; intros v H; cbn [svariants] in H.
  - destruct H as [<-|[]]. reflexivity.
  - destruct it as [c|l].
    + apply in_map_iff in H. destruct H as (v0 & <- & Hv0). cbn. apply IH, Hv0.
    + apply in_flat_map in H. destruct H as (p & _ & H). apply in_map_iff in H. destruct H as (v0 & <- & Hv0).
      rewrite has_shared_app. fold (plain_ballot p). rewrite has_shared_plain. cbn [orb]. apply IH, Hv0.
Qed.

Lemma list_eqb_refl {X} (e : X -> X -> bool) (He : forall a, e a a = true) l : list_eqb e l l = true.
Proof. induction l as [|x l IH]; simpl; [reflexivity|]. rewrite He, IH. reflexivity. Qed.

Lemma item_eqb_refl a : item_eqb a a = true.
Proof. destruct a as [c|l]; simpl; [apply Pos.eqb_refl|apply list_eqb_refl, Pos.eqb_refl]. Qed.

Lemma ranked_eqb_refl b : ranked_eqb b b = true.
Proof. apply list_eqb_refl, item_eqb_refl. Qed.

Lemma ranked_eqb_spec a b : ranked_eqb a b = true <-> a = b.
Proof. split; [apply ranked_eqb_eq|intros ->; apply ranked_eqb_refl]. Qed.

Lemma fold_gadd_keys_in s vs : forall (d : list (ranked * Q)) k,
  In k (map fst (fold_left (fun acc v => gadd ranked_eqb acc v s) vs d)) -> In k vs \/ In k (map fst d).
Proof.
  induction vs as [|v vs IH]; intros d k H; simpl in H; [right; exact H|].
  destruct (IH _ _ H) as [H1|H1]; [left; right; exact H1|].
  destruct (proj1 (Convert_proofs.gadd_keys ranked_eqb ranked_eqb_spec _ _ _ _) H1) as [->|H2]; [left; left; reflexivity|right; exact H2].
Qed.

Lemma rdel_keys_in (d : list (ranked * Q)) k0 k : In k (map fst (rdel d k0)) -> In k (map fst d) /\ k <> k0.
Proof.
  unfold rdel. intros H. apply in_map_iff in H. destruct H as ([k1 v] & E & H). cbn [fst] in E. subst k1.
  apply filter_In in H. destruct H as [H1 H2]. cbn [fst] in H2. split; [apply in_map_iff; exists (k, v); auto|].
  intros ->. rewrite ranked_eqb_refl in H2. discriminate.
Qed.

(* every shared key of the dictionary under construction is still to be processed *)
Definition shared_keys_in (new L : list (ranked * Q)) : Prop :=
  forall k, In k (map fst new) -> has_shared k = true -> In k (map fst L).

Lemma step_shared_keys new bw L : shared_keys_in new (bw :: L) -> shared_keys_in (decouple_step true new bw) L.
Proof.
  intros H k Hk Hs. unfold decouple_step in Hk. destruct (has_shared (fst bw)) eqn:E.
  - cbv zeta in Hk. apply fold_gadd_keys_in in Hk. destruct Hk as [Hk|Hk].
    + rewrite variants_svariants in Hk. rewrite (svariants_plain _ _ Hk) in Hs. discriminate.
    + apply rdel_keys_in in Hk. destruct Hk as [Hk Hne]. destruct (H k Hk Hs) as [Hb|Hb]; [congruence|exact Hb].
  - destruct (H k Hk Hs) as [Hb|Hb]; [congruence|exact Hb].
Qed.

Lemma decouple_plain_keys L : forall k, In k (map fst (decouple true L)) -> has_shared k = false.
Proof.
  assert (G : forall L0 new, shared_keys_in new L0 -> shared_keys_in (fold_left (decouple_step true) L0 new) []).
  { induction L0 as [|bw L0 IH]; intros new H; simpl; [exact H|]. apply IH. apply step_shared_keys, H. }
  intros k Hk. destruct (has_shared k) eqn:E; [|reflexivity].
  exfalso. apply (G L L (fun k H _ => H) k Hk E).
Qed.

(* the plain part of a functional, the mean over the variants, and their sum *)
Definition pl (f : ranked -> Q) : ranked -> Q := fun b => if has_shared b then 0 else f b.
Definition avgv (f : ranked -> Q) (b : ranked) : Q :=
  / inject_Z (Z.of_nat (length (variants true b))) * lsum f (variants true b).
Definition shp (f : ranked -> Q) : ranked -> Q := fun b => if has_shared b then avgv f b else 0.
Definition spread (f : ranked -> Q) : ranked -> Q := fun b => if has_shared b then avgv f b else f b.

Lemma lsum_ext_in f g vs : (forall v, In v vs -> f v == g v) -> lsum f vs == lsum g vs.
Proof.
  induction vs as [|v vs IH]; simpl; intros H; [reflexivity|].
  rewrite (H v) by (left; reflexivity). rewrite IH by (intros v0 H0; apply H; right; exact H0). reflexivity.
Qed.

Lemma lsum_pl f b : lsum (pl f) (variants true b) == lsum f (variants true b).
Proof.
  apply lsum_ext_in. intros v Hv. rewrite variants_svariants in Hv. unfold pl. rewrite (svariants_plain _ _ Hv). reflexivity.
Qed.

Lemma step_pl f new bw : rsum (pl f) (decouple_step true new bw) == rsum (pl f) new + snd bw * shp f (fst bw).
Proof.
  destruct (has_shared (fst bw)) eqn:E.
  - rewrite (rsum_decouple_step true (pl f) new bw E), lsum_pl. unfold shp, avgv. rewrite E.
    unfold pl at 2. rewrite E. unfold Qdiv. ring.
  - unfold decouple_step, shp. rewrite E. ring.
Qed.

Lemma fold_pl f : forall L new,
  rsum (pl f) (fold_left (decouple_step true) L new) == rsum (pl f) new + rsum (shp f) L.
Proof.
  induction L as [|bw L IH]; intros new; simpl; [ring|]. rewrite IH, step_pl. ring.
Qed.

Theorem decouple_linear f L : rsum f (decouple true L) == rsum (spread f) L.
Proof.
  assert (E1 : rsum f (decouple true L) == rsum (pl f) (decouple true L)).
  { apply rsum_ext_in. intros bw Hb. unfold pl.
    rewrite (decouple_plain_keys L (fst bw)) by (apply in_map; exact Hb). reflexivity. }
  rewrite E1. unfold decouple. rewrite fold_pl, <- rsum_plus. apply rsum_ext_in. intros bw _.
  unfold pl, shp, spread. destruct (has_shared (fst bw)); ring.
Qed.

(* the weight of a ballot is kept *)
Lemma lsum_const (vs : list ranked) : lsum (fun _ => 1) vs == inject_Z (Z.of_nat (length vs)).
Proof.
  induction vs as [|v vs IH]; [reflexivity|]. cbn [lsum fold_right length]. fold (lsum (fun _ : ranked => 1) vs).
  rewrite IH, Nat2Z.inj_succ, <- Z.add_1_l, inject_Z_plus. reflexivity.
Qed.

Lemma spread_one b : spread (fun _ => 1) b == 1.
Proof.
  unfold spread. destruct (has_shared b); [|reflexivity]. unfold avgv. rewrite lsum_const.
  rewrite Qmult_comm. apply Qmult_inv_r.
  assert (Hn : length (variants true b) <> 0%nat).
  { rewrite variants_svariants. pose proof (svariants_nonempty b) as H. destruct (svariants b); [congruence|discriminate]. }
  intros H. unfold Qeq in H. cbn [inject_Z Qnum Qden] in H. lia.
Qed.

Theorem pa_mono_replace_split coef pre post (b b' : ranked) (x : Q) (w : C) :
  Forall (fun bw => 0 <= snd bw) (pre ++ post) -> 0 <= x ->
  (forall r, spread (fun v => cumb coef v r w) b <= spread (fun v => cumb coef v r w) b') ->
  (forall r c, c <> w -> spread (fun v => cumb coef v r c) b' <= spread (fun v => cumb coef v r c) b) ->
  pa_eval true coef true (pre ++ (b, x) :: post) 1 = PA_ok [Cand w] ->
  pa_eval true coef true (pre ++ (b', x) :: post) 1 = PA_ok [Cand w].
Proof.
  intros Hnn Hx Hup Hdown. rewrite !pa_eval_1. unfold prep.
  apply (core_mono_gain coef _ _ w x 0 (fun f => spread f b' - spread f b)).
  - apply decouple_nonneg, nonneg_insert; assumption.
  - apply decouple_nonneg, nonneg_insert; assumption.
  - exact Hx.
  - lra.
  - intros f. rewrite !decouple_linear, !rsum_app. simpl. ring.
  - rewrite !spread_one. ring.
  - intros r. specialize (Hup (S r)). lra.
  - intros r c Hc. specialize (Hdown (S r) c Hc). lra.
Qed.

Lemma F2_flip {X Y} (R : X -> Y -> Prop) l l' : Forall2 (fun a b => R b a) l' l -> Forall2 R l l'.
Proof. induction 1; constructor; auto. Qed.

Lemma Forall2_map_lr {X Y X' Y'} (R : X' -> Y' -> Prop) (f : X -> X') (g : Y -> Y') l l' :
  Forall2 (fun a b => R (f a) (g b)) l l' -> Forall2 R (map f l) (map g l').
Proof. induction 1; simpl; constructor; assumption. Qed.

Lemma Forall2_map_right {X Y Y'} (R : X -> Y' -> Prop) (g : Y -> Y') l l' :
  Forall2 (fun a b => R a (g b)) l l' -> Forall2 R l (map g l').
Proof. induction 1; simpl; constructor; assumption. Qed.

Lemma Forall2_flat_map {X Y Y'} (R : Y -> Y' -> Prop) (g : X -> list Y) (g' : X -> list Y') l :
  (forall x, In x l -> Forall2 R (g x) (g' x)) -> Forall2 R (flat_map g l) (flat_map g' l).
Proof.
  induction l as [|x l IH]; intros H; simpl; [constructor|].
  apply Forall2_app; [apply H; left; reflexivity|apply IH; intros y Hy; apply H; right; exact Hy].
Qed.

(* v' lifts w relative to v under every good coefficient function *)
Definition lifts_all (w : C) (v v' : ranked) : Prop := forall coef, coef_good coef -> pa_lifts coef v v' w.

Lemma lifts_all_app w q v v' : lifts_all w v v' -> lifts_all w (q ++ v) (q ++ v').
Proof. intros H coef Hg. apply pa_lifts_prefix; [exact H|exact Hg]. Qed.

Lemma lifts_all_cons w it v v' : lifts_all w v v' -> lifts_all w (it :: v) (it :: v').
Proof. apply (lifts_all_app w [it]). Qed.

Lemma svariants_prefix w p1 : forall t t', Forall2 (lifts_all w) (svariants t) (svariants t') ->
  Forall2 (lifts_all w) (svariants (p1 ++ t)) (svariants (p1 ++ t')).
Proof.
  induction p1 as [|it p1 IH]; intros t t' H; [exact H|]. cbn [app svariants]. destruct it as [c|l].
  - apply Forall2_map_lr. eapply Forall2_impl; [|apply IH, H]. intros a b. apply lifts_all_cons.
  - apply Forall2_flat_map. intros p _. apply Forall2_map_lr. eapply Forall2_impl; [|apply IH, H].
    intros a b. apply lifts_all_app.
Qed.

(* q is q0 with w inserted behind a prefix that does not contain w *)
Definition inserted (w : C) (q q0 : ranked) : Prop :=
  exists q2 q3, q = q2 ++ IP w :: q3 /\ q0 = q2 ++ q3 /\ ~ In w (flatten q2).

Lemma inserted_cons w it q q0 : ~ In w (members it) -> inserted w q q0 -> inserted w (it :: q) (it :: q0).
Proof.
  intros Hw (q2 & q3 & -> & -> & H). exists (it :: q2), q3. split; [reflexivity|]. split; [reflexivity|].
  unfold flatten in *. cbn [flat_map]. rewrite in_app_iff. tauto.
Qed.

Lemma inserted_app w l q q0 : ~ In w l -> inserted w q q0 -> inserted w (map IP l ++ q) (map IP l ++ q0).
Proof.
  induction l as [|c l IH]; intros Hw H; [exact H|]. cbn [map app].
  apply inserted_cons; [cbn [members]; intros [E|[]]; apply Hw; left; exact E|].
  apply IH; [intros Hl; apply Hw; right; exact Hl|exact H].
Qed.

Lemma inserted_lifts w q q0 : inserted w q q0 -> lifts_all w q (IP w :: q0).
Proof. intros (q2 & q3 & -> & -> & H) coef Hg. exact (move_up_lifts coef [] q2 q3 w Hg H). Qed.

Lemma svariants_insert w p3 : forall p2, ~ In w (flatten p2) ->
  Forall2 (inserted w) (svariants (p2 ++ IP w :: p3)) (svariants (p2 ++ p3)).
Proof.
  induction p2 as [|it t IH]; intros Hw.
  - cbn [app svariants]. induction (svariants p3) as [|a X IHX]; simpl; constructor; [|exact IHX].
    exists [], a. split; [reflexivity|]. split; [reflexivity|]. intros [].
  - assert (Hw2 : ~ In w (members it) /\ ~ In w (flatten t)).
    { unfold flatten in *. cbn [flat_map] in Hw. rewrite in_app_iff in Hw. tauto. }
    destruct Hw2 as [Hwi Hwt]. cbn [app svariants]. destruct it as [c|l].
    + apply Forall2_map_lr. eapply Forall2_impl; [|apply IH, Hwt]. intros a b. apply inserted_cons, Hwi.
    + apply Forall2_flat_map. intros p Hp. apply Forall2_map_lr. eapply Forall2_impl; [|apply IH, Hwt].
      intros a b. apply inserted_app. intros Hin. apply Hwi. cbn [members]. exact (perms_incl l p Hp w Hin).
Qed.

Theorem svariants_move w p1 p2 p3 : ~ In w (flatten p2) ->
  Forall2 (lifts_all w) (svariants (p1 ++ p2 ++ IP w :: p3)) (svariants (p1 ++ IP w :: p2 ++ p3)).
Proof.
  intros Hw. apply svariants_prefix. cbn [svariants]. apply Forall2_map_right.
  eapply Forall2_impl; [|apply svariants_insert, Hw]. intros a b. apply inserted_lifts.
Qed.

Lemma lsum_le f g V V' : Forall2 (fun v v' => f v <= g v') V V' -> lsum f V <= lsum g V'.
Proof. induction 1 as [|v v' V V' H _ IH]; simpl; [lra|]. fold (lsum f V). fold (lsum g V'). lra. Qed.

Lemma inv_count_nonneg n : 0 <= / inject_Z (Z.of_nat n).
Proof. apply Qinv_le_0_compat. change 0 with (inject_Z 0). rewrite <- Zle_Qle. lia. Qed.

(* the means over the variants are ordered like the variants *)
Lemma spread_le (f g : ranked -> Q) b b' :
  has_shared b' = has_shared b -> (has_shared b = false -> f b <= g b') ->
  Forall2 (fun v v' => f v <= g v') (svariants b) (svariants b') ->
  spread f b <= spread g b'.
Proof.
  intros Hs Hplain HF. unfold spread. rewrite Hs. destruct (has_shared b); [|apply Hplain; reflexivity].
  unfold avgv. rewrite !variants_svariants. rewrite <- (F2_length _ _ _ HF).
  apply qmul_le_l; [apply inv_count_nonneg|apply lsum_le, HF].
Qed.

Theorem spread_move coef p1 p2 p3 w : coef_good coef -> ~ In w (flatten p2) ->
  (forall r, spread (fun v => cumb coef v r w) (p1 ++ p2 ++ IP w :: p3) <= spread (fun v => cumb coef v r w) (p1 ++ IP w :: p2 ++ p3)) /\
  (forall r c, c <> w -> spread (fun v => cumb coef v r c) (p1 ++ IP w :: p2 ++ p3) <= spread (fun v => cumb coef v r c) (p1 ++ p2 ++ IP w :: p3)).
Proof.
  intros Hg Hw. pose proof (svariants_move w p1 p2 p3 Hw) as HF.
  destruct (move_up_lifts coef p1 p2 p3 w Hg Hw) as [U D]. split.
  - intros r. apply spread_le; [apply has_shared_move|intros _; apply U|].
    eapply Forall2_impl; [|exact HF]. intros a b H. exact (proj1 (H coef Hg) r).
  - intros r c Hc. apply spread_le; [symmetry; apply has_shared_move|intros _; apply D, Hc|].
    apply F2_flip. eapply Forall2_impl; [|exact HF]. intros a b H. exact (proj2 (H coef Hg) r c Hc).
Qed.

Theorem pa_move_up_shared coef pre post (p1 p2 p3 : ranked) (x : Q) (w : C) :
  (forall i, 0 <= coef i) -> (forall i, coef (S i) <= coef i) ->
  Forall (fun bw => 0 <= snd bw) (pre ++ post) -> 0 <= x -> ~ In w (flatten p2) ->
  pa_eval true coef true (pre ++ (p1 ++ p2 ++ IP w :: p3, x) :: post) 1 = PA_ok [Cand w] ->
  pa_eval true coef true (pre ++ (p1 ++ IP w :: p2 ++ p3, x) :: post) 1 = PA_ok [Cand w].
Proof.
  intros Hnn Hdec Hw Hx Hp2. destruct (spread_move coef p1 p2 p3 w (conj Hnn Hdec) Hp2) as [U D].
  apply pa_mono_replace_split; assumption.
Qed.
