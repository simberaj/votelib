(* Vote monotonicity of the highest-averages model in full (C17): party p gains votes, nobody else changes; then
     (i)  the seats p holds for certain do not drop, and
     (ii) "sure seats + the possible seat out of a reported tie" do not drop either,
   for every positive NON-DECREASING divisor (no strictness), votes >= 0 (zero-vote parties included), caps (p capped or
   others capped, caps exhausted), non-negative previous gains, and whatever way either run ends (tie reported or not).

   Proof: an invariant of run a RELATIVE to the final state fb of run b ([K]: p holds in a at most what it ends with in b),
   preserved by every step of a.  If a step of a lifted p above its final total j in b, the batch of a at that moment and
   the seats of b would, by a pigeonhole count over all open seats, name a party q <> p with more seats in b than in a at
   that moment; the optimality invariants of both runs then squeeze the quotients p_j (old and new votes), q's last seat in
   b and q's waiting quotient in a to ONE level, where the LAYER invariant [Inv4] decides: a party still waiting at a
   level has taken part in every batch at that level (without strictness a party can have several quotients at one level;
   [lam] counts them), so q cannot be a layer ahead of p in b and level with it in a. *)
From Coq Require Import ZArith QArith List Bool Lia Lqa Permutation.
From VL Require Import Prelude.PyDict Model.GetNBest Model.HighestAverages Proofs.Dict_proofs Proofs.HA_proofs
     Proofs.Mono_proofs Proofs.HAUnique_proofs Proofs.HAMinmax_proofs Proofs.HouseTie_proofs.
Import ListNotations.
Open Scope Z_scope.

Lemma Qeq_bool_congr a b z z' : (a == b)%Q -> (z == z')%Q -> Qeq_bool a z = Qeq_bool b z'.
Proof. intros Ha Hz. apply eq_true_iff_eq. rewrite !Qeq_bool_iff, Ha, Hz. reflexivity. Qed.
Lemma Qeq_bool_false_iff a b : Qeq_bool a b = false <-> ~ (a == b)%Q.
Proof. rewrite <- Qeq_bool_iff. destruct (Qeq_bool a b); split; congruence. Qed.

Lemma quot_cancel (v v' a : Q) : (0 < a -> v / a == v' / a -> v == v')%Q.
Proof.
  intros Ha H. assert (E : (v / a * a == v' / a * a)%Q) by (rewrite H; reflexivity).
  unfold Qdiv in E. rewrite <- !Qmult_assoc, !(Qmult_comm (/ a) a), Qmult_inv_r in E by lra. lra.
Qed.

(* more elements => some element occurs more often *)
Lemma length_pigeon (l1 l2 : list C) : (length l1 < length l2)%nat -> exists q, count q l1 < count q l2.
Proof.
  intros Hlen. destruct (count_le_dec l1 l2) as [Hall|H]; [exfalso|exact H].
  pose proof (submultiset_length 1%positive l2 l1 Hall). specialize (Hall 1%positive). lia.
Qed.

Definition drop_c (p : C) (l : list C) : list C := filter (fun x => negb (ceqb p x)) l.
Lemma drop_c_length p l : Z.of_nat (length (drop_c p l)) = Z.of_nat (length l) - count p l.
Proof.
  induction l as [|x l IH]; [reflexivity|]. unfold drop_c in *. cbn [filter count length].
  destruct (ceqb p x); cbn [negb length]; lia.
Qed.
Lemma drop_c_count p q l : q <> p -> count q (drop_c p l) = count q l.
Proof.
  intros Hq. induction l as [|x l IH]; [reflexivity|]. unfold drop_c in *. cbn [filter count].
  destruct (ceqb p x) eqn:E; cbn [negb count].
  - apply ceqb_eq in E. subst x. assert (ceqb q p = false) as -> by (apply ceqb_neq; exact Hq). lia.
  - rewrite IH. reflexivity.
Qed.
Lemma drop_c_count_self p l : count p (drop_c p l) = 0.
Proof.
  apply count_notin. unfold drop_c. intros H. apply filter_In in H. destruct H as [_ H]. rewrite ceqb_refl in H. discriminate.
Qed.

Lemma count_pigeon_ne p l1 l2 :
  Z.of_nat (length l1) - count p l1 < Z.of_nat (length l2) - count p l2 -> exists q, q <> p /\ count q l1 < count q l2.
Proof.
  intros H. rewrite <- !drop_c_length in H.
  destruct (length_pigeon (drop_c p l1) (drop_c p l2)) as (q & Hq); [lia|].
  destruct (Pos.eq_dec q p) as [->|Hne]; [rewrite !drop_c_count_self in Hq; lia|].
  exists q. split; [exact Hne|]. rewrite !drop_c_count in Hq by exact Hne. exact Hq.
Qed.

Section Lam.
  Variable d : Z -> Q.

  (* the number of seat indices i in [lo, lo + len) with v / d i level with z *)
  Fixpoint lamn (v : Q) (lo : Z) (len : nat) (z : Q) : Z :=
    match len with
    | O => 0
    | S l => lamn v lo l z + (if Qeq_bool (v / d (lo + Z.of_nat l)) z then 1 else 0)
    end.
  Definition lam (v : Q) (lo hi : Z) (z : Q) : Z := lamn v lo (Z.to_nat (hi - lo)) z.

  Lemma lamn_nonneg v lo len z : 0 <= lamn v lo len z.
  Proof. induction len as [|l IH]; simpl; [lia|]. destruct (Qeq_bool _ _); lia. Qed.
  Lemma lam_nonneg v lo hi z : 0 <= lam v lo hi z.
  Proof. apply lamn_nonneg. Qed.

  Lemma lam_snoc v lo hi z : lo <= hi ->
    lam v lo (hi + 1) z = lam v lo hi z + (if Qeq_bool (v / d hi) z then 1 else 0).
  Proof.
    intros H. unfold lam. replace (Z.to_nat (hi + 1 - lo)) with (S (Z.to_nat (hi - lo))) by lia.
    cbn [lamn]. replace (lo + Z.of_nat (Z.to_nat (hi - lo))) with hi by lia. reflexivity.
  Qed.

  Lemma lamn_zero v lo len z :
    (forall i, lo <= i < lo + Z.of_nat len -> Qeq_bool (v / d i) z = false) -> lamn v lo len z = 0.
  Proof.
    induction len as [|l IH]; intros H; [reflexivity|]. cbn [lamn].
    rewrite IH by (intros i Hi; apply H; lia). rewrite H by lia. reflexivity.
  Qed.
  Lemma lam_zero v lo hi z : (forall i, lo <= i < hi -> Qeq_bool (v / d i) z = false) -> lam v lo hi z = 0.
  Proof. intros H. apply lamn_zero. intros i Hi. apply H. lia. Qed.

  Lemma lamn_le v lo l1 l2 z : (l1 <= l2)%nat -> lamn v lo l1 z <= lamn v lo l2 z.
  Proof.
    induction 1 as [|l2 _ IH]; [lia|]. cbn [lamn]. destruct (Qeq_bool _ _); lia.
  Qed.
  Lemma lam_mono v lo h1 h2 z : h1 <= h2 -> lam v lo h1 z <= lam v lo h2 z.
  Proof. intros H. apply lamn_le. lia. Qed.

  Lemma lam_strict v lo h1 h2 z : lo <= h1 < h2 -> (v / d h1 == z)%Q -> lam v lo h1 z + 1 <= lam v lo h2 z.
  Proof.
    intros [H1 H2] E. apply Qeq_bool_iff in E.
    transitivity (lam v lo (h1 + 1) z); [rewrite lam_snoc by exact H1; rewrite E; lia|apply lam_mono; lia].
  Qed.

  Lemma lamn_proper v v' lo len z z' : (v == v')%Q -> (z == z')%Q -> lamn v lo len z = lamn v' lo len z'.
  Proof.
    intros Hv Hz. induction len as [|l IH]; [reflexivity|]. cbn [lamn]. rewrite IH.
    rewrite (Qeq_bool_congr _ (v' / d (lo + Z.of_nat l)) z z') by (rewrite ?Hv; assumption || reflexivity). reflexivity.
  Qed.
  Lemma lam_proper v v' lo hi z z' : (v == v')%Q -> (z == z')%Q -> lam v lo hi z = lam v' lo hi z'.
  Proof. intros Hv Hz. apply lamn_proper; assumption. Qed.
End Lam.

(* the layer invariant of one run *)
Section Layers.
  Variable d : Z -> Q.
  Variable votes : list (C * Q).
  Variable caps : list (C * Z).
  Variable prev : list (C * Z).
  Variable n : Z.
  Hypothesis Hpos : forall k, 0 <= k -> (0 < d k)%Q.
  Hypothesis Hmono : forall k, 0 <= k -> (d k <= d (k + 1))%Q.
  Hypothesis Hvotes : forall c v, In (c, v) votes -> (0 <= v)%Q.
  Hypothesis Hnd : NoDup (map fst votes).
  Hypothesis Hprev : forall c, 0 <= dget_or prev c 0.

  Notation cap := (cap_of caps n).
  Notation Inv1 := (Inv d votes caps prev n).
  Notation Inv3 := (HAMinmax_proofs.Inv3 d votes prev).
  Notation pv c := (dget_or prev c 0).

  (* a party waiting at a level has taken part in every batch at that level *)
  Definition Inv4 (s : state) : Prop :=
    forall y vy c' v', In y (st_qs s) -> dget votes (fst y) = Some vy -> dget votes c' = Some v' ->
      lam d v' (pv c') (tot s c') (snd y) <= lam d vy (pv (fst y)) (tot s (fst y)) (snd y).

  (* every awarded seat index of a party has a quotient at least as large as everything still waiting *)
  Lemma awarded_ge_waiting s c v i y : Inv1 s -> Inv3 s -> dget votes c = Some v -> pv c <= i < tot s c -> In y (st_qs s) ->
    (snd y <= v / d i)%Q.
  Proof.
    intros I I3 Hv Hi Hy. destruct (I3 c) as (v0 & Hv0 & Hlast); [lia|]. rewrite Hv in Hv0. injection Hv0 as <-.
    pose proof (inv_optimal _ _ _ _ _ _ I _ Hlast) as Ho. rewrite Forall_forall in Ho. specialize (Ho _ Hy). simpl in Ho.
    assert (H : (v / d (tot s c - 1) <= v / d i)%Q).
    { apply (quot_seat_mono d Hpos Hmono); [apply (Hvotes c), dget_In, Hv|pose proof (Hprev c); lia]. }
    lra.
  Qed.

  Lemma step_inv4 s : Inv1 s -> Inv3 s -> Inv4 s -> 0 < st_rem s -> st_qs s <> [] -> Inv4 (step d votes caps n s).
  Proof.
    intros I I3 I4 Hrem Hne.
    destruct (step_open d votes caps prev n Hpos Hmono Hvotes s I Hne) as (m & batch & rest & Hqs & _ & Hmax & Hlev & Hrest & Hndb & Hdisj & Hitb & Hnew_le & ->).
    cbv zeta in Hnew_le. destruct (Z.of_nat (length batch) <=? st_rem s).
    - (* the batch is elected *)
      destruct (elect_totals (st_totals s) batch Hndb) as [Hin_b Hnin_b].
      set (t' := fold_left incr (map fst (rev batch)) (st_totals s)) in *.
      (* the batch member's own level count rises by one at level m *)
      assert (Hb_lam : forall b vb z, In b batch -> dget votes (fst b) = Some vb ->
                lam d vb (pv (fst b)) (tot_of t' (fst b)) z
                = lam d vb (pv (fst b)) (tot_of (st_totals s) (fst b)) z + (if Qeq_bool m z then 1 else 0)).
      { intros b vb z Hb Hvb. rewrite (Hin_b (fst b)) by (apply in_map; exact Hb).
        destruct (Hitb b Hb) as (v & Hv & Hsnd & H0 & Hc). rewrite Hvb in Hv. injection Hv as <-.
        rewrite lam_snoc.
        - f_equal. rewrite <- Hsnd, (Qeq_bool_congr _ m z z (Hlev b Hb) (Qeq_refl z)). reflexivity.
        - pose proof (inv_account _ _ _ _ _ _ I (fst b)) as Iacc. unfold tot in Iacc. unfold tot_of.
          pose proof (count_nonneg (fst b) (map fst (st_awards s))). lia. }
      (* anybody's level count rises by at most one, and only at level m *)
      assert (Hc_lam : forall c' v' z, dget votes c' = Some v' ->
                lam d v' (pv c') (tot_of t' c') z
                <= lam d v' (pv c') (tot_of (st_totals s) c') z + (if Qeq_bool m z then 1 else 0)).
      { intros c' v' z Hv'. destruct (in_dec Pos.eq_dec c' (map fst batch)) as [Hin|Hnin].
        - apply in_map_iff in Hin. destruct Hin as (b & <- & Hb). rewrite (Hb_lam b v' z Hb Hv'). lia.
        - rewrite (Hnin_b c' Hnin). destruct (Qeq_bool m z); lia. }
      intros y vy c' v' Hy Hvy Hv'. unfold tot. cbn [st_qs st_totals] in *.
      fold (tot_of t' c') (tot_of t' (fst y)).
      apply (Permutation_in _ (reins_perm d votes caps n t' batch rest)), in_app_or in Hy. destruct Hy as [Hy|Hy].
      + (* a re-inserted batch member *)
        apply in_flat_map in Hy. destruct Hy as (b & Hb & Hy).
        pose proof (Hnew_le b y Hb Hy) as Hyle.
        assert (Hfy : fst y = fst b).
        { unfold newq in Hy. destruct (tot_of t' (fst b) <? cap (fst b)); [|destruct Hy].
          destruct (dget votes (fst b)); [|destruct Hy]. destruct Hy as [<-|[]]. reflexivity. }
        rewrite Hfy in Hvy |- *.
        assert (Hb_qs : In b (st_qs s)) by (rewrite Hqs; apply in_or_app; left; exact Hb).
        destruct (Qeq_bool m (snd y)) eqn:Ey.
        * (* still at level m: one layer further, like everybody else at most *)
          rewrite (Hb_lam b vy (snd y) Hb Hvy), Ey.
          pose proof (Hc_lam c' v' (snd y) Hv') as H1. rewrite Ey in H1.
          pose proof (I4 b vy c' v' Hb_qs Hvy Hv') as H2. unfold tot in H2.
          fold (tot_of (st_totals s) c') (tot_of (st_totals s) (fst b)) in H2.
          assert (Hlev' : (snd b == snd y)%Q) by (apply Qeq_bool_iff in Ey; rewrite (Hlev b Hb); exact Ey).
          rewrite (lam_proper d v' v' _ _ (snd b) (snd y) (Qeq_refl _) Hlev') in H2.
          rewrite (lam_proper d vy vy _ _ (snd b) (snd y) (Qeq_refl _) Hlev') in H2. lia.
        * (* strictly below m: nobody has a seat at that level *)
          assert (Hlt : (snd y < m)%Q).
          { apply Qeq_bool_false_iff in Ey. destruct (Qlt_le_dec (snd y) m) as [H|H]; [exact H|]. exfalso. apply Ey. lra. }
          rewrite (lam_zero d v' (pv c') (tot_of t' c') (snd y)); [apply lam_nonneg|].
          intros i Hi. apply Qeq_bool_false_iff. intros E.
          assert (Hge : (m <= v' / d i)%Q).
          { destruct (Z.lt_ge_cases i (tot_of (st_totals s) c')) as [Hold|Hnew].
            - rewrite <- (Hlev b Hb).
              apply (awarded_ge_waiting s c' v' i b I I3 Hv'); [unfold tot; unfold tot_of in Hold; lia|exact Hb_qs].
            - destruct (in_dec Pos.eq_dec c' (map fst batch)) as [Hin|Hnin]; [|rewrite (Hnin_b c' Hnin) in Hi; lia].
              rewrite (Hin_b c' Hin) in Hi. assert (i = tot_of (st_totals s) c') by lia. subst i.
              apply in_map_iff in Hin. destruct Hin as (b' & <- & Hb').
              destruct (Hitb b' Hb') as (v & Hv & Hsnd & _). rewrite Hv' in Hv. injection Hv as <-.
              rewrite <- Hsnd, (Hlev b' Hb'). apply Qle_refl. }
          lra.
      + (* an item that kept waiting: strictly below m, its own total unchanged *)
        pose proof (Hc_lam c' v' (snd y) Hv') as H1.
        assert (Em : Qeq_bool m (snd y) = false)
          by (apply Qeq_bool_false_iff; intros E; apply (Hrest y Hy); symmetry; exact E).
        rewrite Em in H1.
        assert (Hnin : ~ In (fst y) (map fst batch)) by (intros Hc; apply (Hdisj _ Hc); apply in_map; exact Hy).
        rewrite (Hnin_b (fst y) Hnin).
        assert (Hy_qs : In y (st_qs s)) by (rewrite Hqs; apply in_or_app; right; exact Hy).
        pose proof (I4 y vy c' v' Hy_qs Hvy Hv') as H2. unfold tot in H2.
        fold (tot_of (st_totals s) c') (tot_of (st_totals s) (fst y)) in H2. lia.
    - (* tie: the queue is permuted, totals unchanged *)
      intros y vy c' v' Hy Hvy Hv'. unfold tot. cbn [st_qs st_totals] in *.
      apply (Permutation_in _ (reins_perm d votes caps n (st_totals s) batch rest)) in Hy.
      rewrite (flat_map_newq_same d votes caps n _ batch), <- Hqs in Hy by (apply Forall_forall; exact Hitb).
      exact (I4 y vy c' v' Hy Hvy Hv').
  Qed.

  Lemma step_inv134 s : Inv1 s /\ Inv3 s /\ Inv4 s -> 0 < st_rem s -> st_qs s <> [] ->
    Inv1 (step d votes caps n s) /\ Inv3 (step d votes caps n s) /\ Inv4 (step d votes caps n s).
  Proof.
    intros (I & I3 & I4) Hrem Hne. split; [|split].
    - apply (step_inv d votes caps prev n Hpos Hmono Hvotes); assumption.
    - apply (step_inv3 d votes caps prev n); assumption.
    - apply step_inv4; assumption.
  Qed.

  Lemma init_inv134 : Inv1 (init_state d votes n prev caps) /\ Inv3 (init_state d votes n prev caps) /\
    Inv4 (init_state d votes n prev caps).
  Proof.
    split; [apply init_inv; assumption|]. split; [apply init_inv3|].
    intros y vy c' v' _ _ _. unfold tot, init_state. cbn [st_totals]. unfold lam. rewrite !Z.sub_diag. simpl. lia.
  Qed.

  Lemma final_inv134 : Inv1 (final_state d votes n prev caps) /\ Inv3 (final_state d votes n prev caps) /\
    Inv4 (final_state d votes n prev caps).
  Proof.
    unfold final_state. apply (loop_ind d votes caps n (fun s => Inv1 s /\ Inv3 s /\ Inv4 s)); [exact step_inv134|exact init_inv134].
  Qed.

  Lemma final_inv4 : Inv4 (final_state d votes n prev caps).
  Proof. apply final_inv134. Qed.

  Lemma tie_nodup s T r : Inv1 s -> st_tie s = Some (T, r) -> NoDup T.
  Proof.
    intros I Et. destruct (inv_tie _ _ _ _ _ _ I T r Et) as (_ & _ & m & _ & _ & Hperm).
    apply (Permutation_NoDup (Permutation_sym Hperm)), GetNBest_proofs.nodup_keys_filter, (inv_nodup _ _ _ _ _ _ I).
  Qed.
End Layers.

Definition tie_members (s : state) : list C := match st_tie s with Some (T, _) => T | None => [] end.
Definition possc (s : state) (c : C) : Z := count c (tie_members s).

Section VotesFull.
  Variable d : Z -> Q.
  Variables votes votes' : list (C * Q).
  Variable caps : list (C * Z).
  Variable prev : list (C * Z).
  Variable n : Z.
  Hypothesis Hpos : forall k, 0 <= k -> (0 < d k)%Q.
  Hypothesis Hmono : forall k, 0 <= k -> (d k <= d (k + 1))%Q.
  Hypothesis Hv : forall c v, In (c, v) votes -> (0 <= v)%Q.
  Hypothesis Hv' : forall c v, In (c, v) votes' -> (0 <= v)%Q.
  Hypothesis Hnd : NoDup (map fst votes).
  Hypothesis Hnd' : NoDup (map fst votes').
  Hypothesis Hprev : forall c, 0 <= dget_or prev c 0.
  (* votes' = votes except that party p has at least as many votes *)
  Variable p : C.
  Variables vp vp' : Q.
  Hypothesis Hp : dget votes p = Some vp.
  Hypothesis Hp' : dget votes' p = Some vp'.
  Hypothesis Hmore : (vp <= vp')%Q.
  Hypothesis Hothers : forall c, c <> p -> dget votes' c = dget votes c.

  Notation fa := (final_state d votes n prev caps).
  Notation fb := (final_state d votes' n prev caps).
  Notation cap := (cap_of caps n).
  Notation pv c := (dget_or prev c 0).
  Notation InvA := (Inv d votes caps prev n).
  Notation Inv4A := (Inv4 d votes prev).
  Notation NN := (n - zsum (map snd prev)).
  Notation Tb := (tie_members fb).

  Let Ib : Inv d votes' caps prev n fb := final_inv d votes' caps prev n Hpos Hmono Hv' Hnd' Hprev.
  Let I3b : HAMinmax_proofs.Inv3 d votes' prev fb := final_inv3 d votes' caps prev n Hpos Hmono Hv' Hnd' Hprev.
  Let I4b : Inv4 d votes' prev fb := final_inv4 d votes' caps prev n Hpos Hmono Hv' Hnd' Hprev.

  Lemma Tb_nodup : NoDup Tb.
  Proof.
    unfold tie_members. destruct (st_tie fb) as [[T r]|] eqn:Et; [|constructor].
    exact (tie_nodup d votes' caps prev n fb T r Ib Et).
  Qed.

  (* a member of b's tie waits at the head level of b's queue, and whoever waits level with it is a member too *)
  Lemma Tb_member q : In q Tb -> exists vq, dget votes' q = Some vq /\ In (q, (vq / d (tot fb q))%Q) (st_qs fb) /\
    tot fb q < cap q /\ (forall y, In y (st_qs fb) -> (snd y <= vq / d (tot fb q))%Q) /\
    (forall y, In y (st_qs fb) -> (snd y == vq / d (tot fb q))%Q -> In (fst y) Tb).
  Proof.
    unfold tie_members. destruct (st_tie fb) as [[T r]|] eqn:Et; [|intros []]. intros HqT.
    destruct (inv_tie _ _ _ _ _ _ Ib T r Et) as (_ & _ & m & _ & Hmax & Hperm).
    apply (Permutation_in _ Hperm) in HqT. apply in_map_iff in HqT. destruct HqT as ([q0 x] & Hq0 & Hy). simpl in Hq0. subst q0.
    apply filter_In in Hy. destruct Hy as [Hy Hxm]. simpl in Hxm. apply Qeq_bool_iff in Hxm.
    pose proof (inv_items _ _ _ _ _ _ Ib) as Hit. rewrite Forall_forall in Hit. destruct (Hit _ Hy) as (vq & Hvq & Hx & _ & Hc).
    simpl in Hvq, Hx, Hc. unfold tot_of in Hx, Hc. fold (tot fb q) in Hx, Hc.
    exists vq. split; [exact Hvq|]. split; [rewrite <- Hx; exact Hy|]. split; [exact Hc|]. rewrite <- Hx. split.
    - intros y Hyq. rewrite Forall_forall in Hmax. specialize (Hmax y Hyq). lra.
    - intros y Hyq Hlev. apply (Permutation_in _ (Permutation_sym Hperm)), in_map, filter_In. split; [exact Hyq|].
      apply Qeq_bool_iff. rewrite Hlev. exact Hxm.
  Qed.

  (* the seats b has handed out, plus the members of its tie, cover all open seats - strictly more when a tie is reported *)
  Lemma fb_count : st_qs fb <> [] -> 0 < NN ->
    NN <= Z.of_nat (length (st_awards fb)) + Z.of_nat (length Tb) /\
    (Tb <> [] -> NN < Z.of_nat (length (st_awards fb)) + Z.of_nat (length Tb)).
  Proof.
    intros Hne HN. pose proof (inv_remacc _ _ _ _ _ _ Ib) as Hacc.
    assert (Hexit : st_rem fb <= 0).
    { destruct (loop_exit d votes' caps n (Z.to_nat (st_rem (init_state d votes' n prev caps))) (init_state d votes' n prev caps)) as [H|H];
        [lia|exact H|contradiction]. }
    unfold tie_members. destruct (st_tie fb) as [[T r]|] eqn:Et.
    - destruct (inv_tie _ _ _ _ _ _ Ib T r Et) as (Hr0 & Hr & _). split; [lia|]. intros _. lia.
    - destruct (inv_rem _ _ _ _ _ _ Ib) as [H|H].
      + split; [simpl; lia|]. intros H0. congruence.
      + rewrite H in Hacc. simpl in Hacc. lia.
  Qed.

  (* the squeeze: p's item is at the head level m of a state s of run a, and p holds in s what it ends with in b *)
  Section Squeeze.
    Variable s : state.
    Variable m : Q.
    Variable xp : Q.
    Hypothesis Ia : InvA s.
    Hypothesis I4a : Inv4A s.
    Hypothesis Hmaxs : forall y, In y (st_qs s) -> (snd y <= m)%Q.
    Hypothesis Hpq : In (p, xp) (st_qs s).
    Hypothesis Hxp : (xp == m)%Q.
    Hypothesis Hj : tot s p = tot fb p.

    Lemma p_item : xp = (vp / d (tot s p))%Q /\ tot s p < cap p.
    Proof.
      pose proof (inv_items _ _ _ _ _ _ Ia) as Hit. rewrite Forall_forall in Hit. destruct (Hit _ Hpq) as (v & Hv0 & Hx & _ & Hc).
      simpl in Hv0, Hx, Hc. rewrite Hp in Hv0. injection Hv0 as <-. split; [exact Hx|exact Hc].
    Qed.

    Lemma p_waits_b : In (p, (vp' / d (tot fb p))%Q) (st_qs fb).
    Proof.
      destruct p_item as [_ Hc]. apply (waits_in_queue d votes' caps prev n Hnd' fb p vp' Ib (dget_In _ _ _ Hp')). lia.
    Qed.

    Lemma p_levels : (m == vp / d (tot fb p))%Q /\ (vp / d (tot fb p) <= vp' / d (tot fb p))%Q.
    Proof.
      destruct p_item as [Hx _]. split.
      - rewrite <- Hj, <- Hx. symmetry. exact Hxp.
      - apply quot_num_mono; [apply Hpos; rewrite <- Hj; apply (inv_nonneg _ _ _ _ _ _ Ia)|exact Hmore].
    Qed.

    Lemma prev_le_tot q : pv q <= tot s q.
    Proof. rewrite (inv_account _ _ _ _ _ _ Ia q). pose proof (count_nonneg q (map fst (st_awards s))). lia. Qed.

    (* nobody else can hold more seats in b than in s *)
    Lemma squeeze_more q : q <> p -> tot s q < tot fb q -> False.
    Proof.
      intros Hqp Hlt. pose proof (prev_le_tot q) as Hpq0.
      destruct (I3b q) as (vq & Hvq' & _); [lia|].
      assert (Hvq : dget votes q = Some vq) by (rewrite <- (Hothers q Hqp); exact Hvq').
      (* q's last seat in b against p's waiting quotient there *)
      pose proof (awarded_ge_waiting d votes' caps prev n Hpos Hmono Hv' Hprev fb q vq (tot fb q - 1) _ Ib I3b Hvq' ltac:(lia) p_waits_b) as H1.
      simpl in H1.
      (* q waits in s *)
      assert (Hcapq : tot s q < cap q).
      { destruct (inv_caps _ _ _ _ _ _ Ib q) as [H|H]; lia. }
      pose proof (waits_in_queue d votes caps prev n Hnd s q vq Ia (dget_In _ _ _ Hvq) Hcapq) as Hqs.
      pose proof (Hmaxs _ Hqs) as H2. simpl in H2.
      assert (H3 : (vq / d (tot fb q - 1) <= vq / d (tot s q))%Q).
      { apply (quot_seat_mono d Hpos Hmono); [apply (Hv q), dget_In, Hvq|pose proof (Hprev q); lia]. }
      destruct p_levels as [E0 H0].
      (* everything is at one level *)
      assert (E1 : (vp / d (tot fb p) == vp' / d (tot fb p))%Q) by lra.
      assert (E2 : (vq / d (tot s q) == m)%Q) by lra.
      assert (E3 : (vp' / d (tot fb p) == m)%Q) by lra.
      assert (Evp : (vp == vp')%Q).
      { apply (quot_cancel vp vp' (d (tot fb p))); [apply Hpos; rewrite <- Hj; apply (inv_nonneg _ _ _ _ _ _ Ia)|exact E1]. }
      (* the layers *)
      pose proof (I4b _ vp' q vq p_waits_b Hp' Hvq') as L1. cbn [fst snd] in L1.
      rewrite (lam_proper d vq vq _ _ _ m (Qeq_refl _) E3), (lam_proper d vp' vp _ _ _ m (Qeq_sym _ _ Evp) E3) in L1.
      pose proof (I4a _ vq p vp Hqs Hvq Hp) as L2. cbn [fst snd] in L2.
      rewrite (lam_proper d vp vp _ _ _ m (Qeq_refl _) E2), (lam_proper d vq vq _ _ _ m (Qeq_refl _) E2) in L2.
      pose proof (lam_strict d vq (pv q) (tot s q) (tot fb q) m ltac:(lia) E2) as L3.
      rewrite Hj in L2. lia.
    Qed.

    (* a member of b's tie that holds the same in s: p is in the tie as well, and the member is level with p in s *)
    Lemma squeeze_tie q : q <> p -> In q Tb -> tot s q = tot fb q ->
      In p Tb /\ exists yq, In yq (st_qs s) /\ fst yq = q /\ (snd yq == m)%Q.
    Proof.
      intros Hqp HqT Heq. destruct (Tb_member q HqT) as (vq & Hvq' & Hqb & Hcq & Hmaxb & Hlevb).
      assert (Hvq : dget votes q = Some vq) by (rewrite <- (Hothers q Hqp); exact Hvq').
      assert (Hcapq : tot s q < cap q) by lia.
      pose proof (waits_in_queue d votes caps prev n Hnd s q vq Ia (dget_In _ _ _ Hvq) Hcapq) as Hqs.
      pose proof (Hmaxs _ Hqs) as H2. simpl in H2.
      pose proof (Hmaxb _ p_waits_b) as H1. simpl in H1.
      destruct p_levels as [E0 H0]. rewrite Heq in H2, Hqs.
      split.
      - apply (Hlevb (p, (vp' / d (tot fb p))%Q) p_waits_b). simpl. lra.
      - exists (q, (vq / d (tot fb q))%Q). split; [exact Hqs|]. split; [reflexivity|]. simpl. lra.
    Qed.
  End Squeeze.

  Definition K (s : state) : Prop := tot s p <= tot fb p /\ tot s p + possc s p <= tot fb p + possc fb p.

  Lemma possc_nonneg s c : 0 <= possc s c.
  Proof. apply count_nonneg. Qed.

  (* the count: if the seats of s (with the batch B about to be elected) leave fewer seats to others than the seats and
     the tie of b do, and nobody else holds more in b than in s, then a member of b's tie holds the same in both *)
  Lemma pigeon_tie s B : (forall q, tot s q = pv q + count q (map fst (st_awards s))) ->
    (forall q, q <> p -> tot s q < tot fb q -> False) ->
    Z.of_nat (length (map fst (st_awards s) ++ B)) - count p (map fst (st_awards s) ++ B)
      < Z.of_nat (length (map fst (st_awards fb) ++ Tb)) - count p (map fst (st_awards fb) ++ Tb) ->
    exists q, q <> p /\ In q Tb /\ tot s q = tot fb q /\ count q B = 0.
  Proof.
    intros Iacc Hmore_f Hpig. destruct (count_pigeon_ne p _ _ Hpig) as (q & Hqp & Hq). rewrite !count_app in Hq.
    pose proof (Iacc q) as Haq. pose proof (inv_account _ _ _ _ _ _ Ib q) as Hbq.
    destruct (Z.lt_ge_cases (tot s q) (tot fb q)) as [Hlq|Hgq]; [destruct (Hmore_f q Hqp Hlq)|].
    pose proof (count_nonneg q B) as Hcb. pose proof (count_nodup_le1 q Tb Tb_nodup) as HcT.
    assert (HqT : In q Tb).
    { destruct (in_dec Pos.eq_dec q Tb) as [H|H]; [exact H|]. rewrite (count_notin _ _ H) in Hq. lia. }
    exists q. split; [exact Hqp|]. split; [exact HqT|]. lia.
  Qed.

  (* p is in the batch at the head level m of s and holds in s what it ends with in b: nobody else holds more in b than
     in s, and a member of b's tie that holds the same in both is in the batch and brings p into the tie *)
  Lemma batch_squeeze s m (batch rest : list qitem) : InvA s -> Inv4A s -> st_qs s = batch ++ rest ->
    (forall y, In y (st_qs s) -> (snd y <= m)%Q) -> (forall b, In b batch -> (snd b == m)%Q) ->
    (forall y, In y rest -> ~ (snd y == m)%Q) -> In p (map fst batch) -> tot s p = tot fb p ->
    (forall q, q <> p -> tot s q < tot fb q -> False) /\
    (forall q, q <> p -> In q Tb -> tot s q = tot fb q -> In p Tb /\ In q (map fst batch)) /\
    st_qs fb <> [].
  Proof.
    intros I I4 Hqs Hmax Hlev Hrest Hpb Hj.
    apply in_map_iff in Hpb. destruct Hpb as ([p0 xp] & Hp0 & Hb). simpl in Hp0. subst p0.
    assert (Hpq : In (p, xp) (st_qs s)) by (rewrite Hqs; apply in_or_app; left; exact Hb).
    pose proof (Hlev _ Hb) as Hxp. cbn [snd] in Hxp.
    split; [|split].
    - intros q. apply (squeeze_more s m xp I I4 Hmax Hpq Hxp Hj).
    - intros q Hqp HqT Heq. destruct (squeeze_tie s m xp I Hmax Hpq Hxp Hj q Hqp HqT Heq) as (HpT & yq & Hyq & Hfy & Hlevq).
      split; [exact HpT|]. rewrite <- Hfy. apply in_map.
      (* level with m, so in the batch *)
      rewrite Hqs in Hyq. apply in_app_or in Hyq. destruct Hyq as [Hyq|Hyq]; [exact Hyq|destruct (Hrest yq Hyq Hlevq)].
    - pose proof (p_waits_b s xp I Hpq Hj) as Hw. intros E. rewrite E in Hw. destruct Hw.
  Qed.

  Lemma step_keeps s : InvA s -> Inv4A s -> 0 < st_rem s -> st_qs s <> [] -> K s -> K (step d votes caps n s).
  Proof.
    intros I I4 Hrem Hne [K1 K2].
    destruct (step_open d votes caps prev n Hpos Hmono Hv s I Hne)
      as (m & batch & rest & Hqs & _ & Hmax & Hlev & Hrest & Hndb & _ & _ & _ & ->).
    pose proof (inv_account _ _ _ _ _ _ I) as Iacc. pose proof (inv_remacc _ _ _ _ _ _ I) as Iracc.
    (* no tie has been reported yet *)
    assert (Htie : st_tie s = None).
    { destruct (st_tie s) as [[T0 r0]|] eqn:Et; [|reflexivity]. destruct (inv_tie _ _ _ _ _ _ I T0 r0 Et) as (H0 & _). lia. }
    rewrite Htie in Iracc.
    assert (HN : 0 < NN) by lia.
    destruct (Z.of_nat (length batch) <=? st_rem s) eqn:Ek.
    - (* the batch is elected *)
      apply Z.leb_le in Ek. unfold K, tot, possc, tie_members. cbn [st_totals st_tie count].
      rewrite (tot_elect (st_totals s) batch p : dget_or _ p 0 = tot s p + _). fold (tot fb p). fold (tie_members fb). fold (possc fb p).
      assert (Hgoal : tot s p + count p (map fst batch) <= tot fb p); [|pose proof (possc_nonneg fb p); lia].
      destruct (in_dec Pos.eq_dec p (map fst batch)) as [Hpb|Hpb]; [|rewrite (count_notin _ _ Hpb); lia].
      rewrite (count_nodup _ _ Hndb Hpb).
      destruct (Z.lt_ge_cases (tot s p) (tot fb p)) as [Hlt|Hge]; [lia|exfalso].
      assert (Hj : tot s p = tot fb p) by lia.
      destruct (batch_squeeze s m batch rest I I4 Hqs Hmax Hlev Hrest Hpb Hj) as (Hmore_f & Htie_f & Hqb).
      destruct (fb_count Hqb HN) as [Hc1 Hc2].
      destruct (pigeon_tie s (map fst batch) Iacc Hmore_f) as (q & Hqp & HqT & Heq & Hq0).
      { rewrite !count_app, !app_length, !map_length, !Nat2Z.inj_add, (count_nodup _ _ Hndb Hpb).
        pose proof (Iacc p) as H1. pose proof (inv_account _ _ _ _ _ _ Ib p) as H2.
        pose proof (count_nodup_le1 p Tb Tb_nodup) as H3. unfold qitem in *.
        destruct Tb as [|t0 T0] eqn:ET; [simpl in Hc1 |- *; lia|].
        assert (HH : NN < Z.of_nat (length (st_awards fb)) + Z.of_nat (length (t0 :: T0))) by (apply Hc2; discriminate).
        lia. }
      destruct (Htie_f q Hqp HqT Heq) as [_ Hqb']. pose proof (count_in_pos q _ Hqb'). lia.
    - (* a tie is reported *)
      apply Z.leb_gt in Ek. unfold K, tot, possc, tie_members. cbn [st_totals st_tie].
      fold (tot s p). fold (tot fb p). fold (tie_members fb). fold (possc fb p).
      split; [exact K1|]. rewrite map_rev, count_rev. unfold qitem in *.
      destruct (in_dec Pos.eq_dec p (map fst batch)) as [Hpb|Hpb]; [|rewrite (count_notin _ _ Hpb); pose proof (possc_nonneg fb p); lia].
      rewrite (count_nodup _ _ Hndb Hpb).
      destruct (Z.lt_ge_cases (tot s p) (tot fb p)) as [Hlt|Hge]; [pose proof (possc_nonneg fb p); lia|].
      assert (Hj : tot s p = tot fb p) by lia.
      destruct (in_dec Pos.eq_dec p Tb) as [HpT|HpT]; [unfold possc; pose proof (count_in_pos p _ HpT); lia|exfalso].
      destruct (batch_squeeze s m batch rest I I4 Hqs Hmax Hlev Hrest Hpb Hj) as (Hmore_f & Htie_f & Hqb).
      destruct (fb_count Hqb HN) as [Hc1 _].
      destruct (pigeon_tie s [] Iacc Hmore_f) as (q & Hqp & HqT & Heq & _).
      { rewrite app_nil_r, count_app, app_length, !map_length, (count_notin _ _ HpT).
        pose proof (Iacc p) as H1. pose proof (inv_account _ _ _ _ _ _ Ib p) as H2. lia. }
      destruct (Htie_f q Hqp HqT Heq) as [HpT' _]. contradiction.
  Qed.

  Lemma init_keeps : K (init_state d votes n prev caps).
  Proof.
    assert (H0 : tot (init_state d votes n prev caps) p = pv p) by reflexivity.
    assert (H1 : possc (init_state d votes n prev caps) p = 0) by reflexivity.
    unfold K. rewrite H0, H1. pose proof (inv_account _ _ _ _ _ _ Ib p) as H2.
    pose proof (count_nonneg p (map fst (st_awards fb))). pose proof (possc_nonneg fb p). lia.
  Qed.

  Theorem votes_keeps : K fa.
  Proof.
    unfold final_state.
    apply (loop_ind d votes caps n (fun s => (InvA s /\ HAMinmax_proofs.Inv3 d votes prev s /\ Inv4A s) /\ K s)).
    - intros s [I HK] Hrem Hne. split; [apply (step_inv134 d votes caps prev n Hpos Hmono Hv Hprev); assumption|].
      destruct I as (I & _ & I4). apply step_keeps; assumption.
    - split; [apply init_inv134; assumption|apply init_keeps].
  Qed.

  (* the theorem, with the possible tie seat written as in Proofs/HouseTie_proofs.v *)
  Theorem votes_monotone_full :
    tot fa p <= tot fb p /\ tot fa p + tie_seat fa p <= tot fb p + tie_seat fb p.
  Proof.
    destruct votes_keeps as [K1 K2]. split; [exact K1|].
    assert (Ha : possc fa p = tie_seat fa p).
    { unfold possc, tie_seat, tie_members. destruct (st_tie fa) as [[T r]|] eqn:Et; [|reflexivity].
      apply count_cmem. apply (tie_nodup d votes caps prev n fa T r); [|exact Et].
      apply final_inv; assumption. }
    assert (Hb : possc fb p = tie_seat fb p).
    { unfold possc, tie_seat. pose proof Tb_nodup as H. unfold tie_members in *. destruct (st_tie fb) as [[T r]|]; [|reflexivity].
      apply count_cmem, H. }
    rewrite <- Ha, <- Hb. exact K2.
  Qed.
End VotesFull.
