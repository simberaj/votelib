(* ByParty's allocator (highest averages over the constituencies, started from a party's first round seats) hands out
   exactly the seats the party has nationally beyond its first round seats: the party's total is its national seats. *)
From Coq Require Import ZArith QArith List Bool Lia Permutation.
From VL Require Import Prelude.PyDict Model.HighestAverages Model.OverhangByC
     Proofs.Dict_proofs Proofs.HA_proofs Proofs.Mono_proofs Proofs.HAUnique_proofs Proofs.Biprop_proofs Proofs.Divisor_proofs
     Proofs.OverhangByC_proofs Proofs.OverhangByC_ha_proofs.
Import ListNotations.
Open Scope Z_scope.

Lemma gain_item_sum p l :
  zsum (map snd (flat_map (gain_item p) l)) = zsum (map (fun ct => Z.max 0 (snd ct - dget_or p (fst ct) 0)) l).
Proof.
  induction l as [|[c t] l IH]; [reflexivity|]. cbn [flat_map map gain_item fst snd].
  rewrite map_app, zsum_app, zsum_cons, IH. f_equal.
  destruct (0 <? t - dget_or p c 0) eqn:E; cbn [map snd]; rewrite ?zsum_cons, zsum_nil;
    [apply Z.ltb_lt in E|apply Z.ltb_ge in E]; lia.
Qed.

Section TOT.
  Variable d : Z -> Q.
  Variable pv : list (C * Q).
  Variable pp : list (C * Z).
  Variable np : Z.
  Hypothesis Hd : divisor_ok d.
  Hypothesis Hv : forall c v, In (c, v) pv -> (0 <= v)%Q.
  Hypothesis Hnd : NoDup (map fst pv).
  Hypothesis Hpn : forall x, In x pp -> 0 <= snd x.
  Hypothesis Hpd : NoDup (map fst pp).
  Hypothesis Hne : pv <> [].
  Hypothesis Hle : zsum (map snd pp) <= np.

  Notation fin := (final_state d pv np pp []).

  Lemma pp_bounds c : 0 <= dget_or pp c 0 <= zsum (map snd pp).
  Proof. apply Mono_proofs.dget_or_le_zsum, Forall_forall, Hpn. Qed.
  Lemma pp_nonneg c : 0 <= dget_or pp c 0.
  Proof. apply pp_bounds. Qed.

  Lemma fin_totals_nodup : NoDup (map fst (st_totals fin)).
  Proof. unfold final_state. apply loop_tot_wf. split; simpl; [exact Hpd|discriminate]. Qed.

  (* without caps the loop ends with no seat left: a queue that ran empty would mean that some constituency
     holds more than np seats *)
  Lemma rem_zero : st_tie fin = None -> st_rem fin = 0.
  Proof.
    intros Ht. destruct Hd as [Hpos Hmono].
    destruct (ha_total d pv [] pp np Hpos Hmono Hv Hnd pp_nonneg) as [Hacc Hcase]; [lia|].
    rewrite Ht in Hacc. destruct Hcase as [H|(_ & Hr & Hcap)]; [exact H|].
    destruct pv as [|[c0 v0] t] eqn:Epv; [congruence|]. rewrite <- Epv in *.
    assert (Hc : np <= tot fin c0) by (apply (Hcap c0 v0); rewrite Epv; left; reflexivity).
    rewrite (ha_account d pv [] pp np Hpos Hmono Hv Hnd pp_nonneg c0) in Hc.
    pose proof (pp_bounds c0). pose proof (count_le_length c0 (map fst (st_awards fin))) as Hcl.
    rewrite map_length in Hcl. lia.
  Qed.

  Theorem allocate_total gains : HighestAverages.evaluate d pv np pp [] = HA_ok gains None ->
    zsum (map snd gains) = np - zsum (map snd pp).
  Proof.
    intros E. apply evaluate_ok in E. destruct E as [-> Ht]. symmetry in Ht. destruct Hd as [Hpos Hmono].
    destruct (ha_total d pv [] pp np Hpos Hmono Hv Hnd pp_nonneg) as [Hacc _]; [lia|].
    rewrite Ht, (rem_zero Ht) in Hacc.
    pose proof (ha_account d pv [] pp np Hpos Hmono Hv Hnd pp_nonneg) as Ha.
    pose proof fin_totals_nodup as Hn.
    set (aw := map fst (st_awards fin)) in *.
    replace (np - zsum (map snd pp)) with (Z.of_nat (length aw)) by (subst aw; rewrite map_length; lia).
    (* every awarded constituency is a key of the totals *)
    assert (Hkeys : forall x, In x aw -> In x (map fst (st_totals fin))).
    { intros x Hx. destruct (in_dec Pos.eq_dec x (map fst (st_totals fin))) as [Hi|Hni]; [exact Hi|exfalso].
      assert (Hz : tot fin x = 0).
      { unfold tot, dget_or. destruct (dget (st_totals fin) x) as [v|] eqn:E; [|reflexivity].
        apply dget_In in E. exfalso. apply Hni. apply in_map_iff. exists (x, v). auto. }
      rewrite (Ha x) in Hz. pose proof (count_in_pos x aw Hx). pose proof (pp_nonneg x). lia. }
    rewrite <- (ksum_count aw (map fst (st_totals fin)) Hn Hkeys). unfold ksum. rewrite map_map.
    rewrite gain_item_sum. apply zsum_map_ext. intros [c t] Hin. cbn [fst snd].
    assert (Ht' : t = tot fin c) by (unfold tot, dget_or; rewrite (In_dget _ _ _ Hn Hin); reflexivity).
    rewrite Ht', (Ha c). pose proof (count_nonneg c aw). lia.
  Qed.
End TOT.

Definition party_gain (gains : list (Cty * C * Z)) (p : C) : Z :=
  zsumf (fun g : Cty * C * Z => if ceqb (snd (fst g)) p then snd g else 0) gains.

Lemma party_gain_app a b p : party_gain (a ++ b) p = party_gain a p + party_gain b p.
Proof. apply zsumf_app. Qed.

Lemma party_gain_block (g : list (C * Z)) q p :
  party_gain (map (fun cs : C * Z => (fst cs, q, snd cs)) g) p = if ceqb q p then zsum (map snd g) else 0.
Proof.
  unfold party_gain. rewrite zsumf_map. simpl. destruct (ceqb q p).
  - rewrite zsumf_zsum. reflexivity.
  - apply zsumf_zero. reflexivity.
Qed.

Lemma bp_allocate_parties da votes prev overall : forall gains,
  bp_allocate da votes prev overall = BP_ok gains ->
  forall g, In g gains -> exists np, In (PK (snd (fst g)), np) overall.
Proof.
  induction overall as [|[k nq] t IH]; intros gains H g Hg.
  - injection H as <-. destruct Hg.
  - apply bp_allocate_ok in H. destruct H as (q & gq & l0 & -> & _ & Ht & ->).
    apply in_app_iff in Hg. destruct Hg as [Hg|Hg].
    + apply in_map_iff in Hg. destruct Hg as ([c s] & <- & _). exists nq. left. reflexivity.
    + destruct (IH l0 Ht g Hg) as (np & Hin). exists np. right. exact Hin.
Qed.

Lemma party_gain_absent gains p : (forall g, In g gains -> snd (fst g) <> p) -> party_gain gains p = 0.
Proof.
  intros H. unfold party_gain. apply zsumf_zero. intros g Hg. destruct (ceqb (snd (fst g)) p) eqn:E; [|reflexivity].
  apply ceqb_eq in E. exfalso. exact (H g Hg E).
Qed.

Lemma party_prev_keys prev p : NoDup (map fst prev) -> NoDup (map fst (party_prev prev p)).
Proof. apply flat_map_keys_nodup0. intros [c g]. simpl. destruct (kget pk_eqb g (PK p)); eauto. Qed.

Lemma kget_In_nonneg (g : list (pk * Z)) k x : Forall (fun kv : pk * Z => 0 <= snd kv) g -> kget pk_eqb g k = Some x -> 0 <= x.
Proof.
  induction g as [|[k' v] t IH]; simpl; [discriminate|]. intros H. inversion H as [|? ? H1 H2]; subst.
  destruct (pk_eqb k k'); [intros [= <-]; exact H1|apply IH, H2].
Qed.

Lemma party_prev_nonneg prev p : wf_prev pk_eqb prev -> forall x, In x (party_prev prev p) -> 0 <= snd x.
Proof.
  intros [_ Hf] [c x] Hin. unfold party_prev in Hin. apply in_flat_map in Hin. destruct Hin as ([c' g] & Hin1 & Hin2).
  simpl in Hin2. destruct (kget pk_eqb g (PK p)) as [y|] eqn:E; [|destruct Hin2]. destruct Hin2 as [[= <- <-]|[]].
  rewrite Forall_forall in Hf. destruct (Hf _ Hin1) as [_ Hnn]. simpl. exact (kget_In_nonneg g (PK p) y Hnn E).
Qed.

(* the first round seats of a party, added over its dictionary entries = added over the constituencies *)
Lemma party_prev_zsum prev p :
  zsum (map snd (party_prev prev p)) = zsumf (fun cg : Cty * list (pk * Z) => kget0 pk_eqb (snd cg) (PK p)) prev.
Proof.
  unfold party_prev. induction prev as [|[c g] t IH]; [reflexivity|].
  cbn [flat_map zsumf fold_right fst snd]. rewrite map_app, zsum_app, IH.
  unfold kget0. destruct (kget pk_eqb g (PK p)); cbn [map snd]; rewrite ?zsum_cons, ?zsum_nil; unfold zsumf; lia.
Qed.
Lemma party_prev_sum prev p ctys : NoDup (map fst prev) -> NoDup ctys -> incl (map fst prev) ctys ->
  zsum (map snd (party_prev prev p)) = zsumf (fun c => direct pk_eqb prev c (PK p)) ctys.
Proof.
  intros Hn Hk Hi. rewrite party_prev_zsum.
  pose proof (zsumf_assoc (fun (c : C) (g : list (pk * Z)) => kget0 pk_eqb g (PK p)) [] (fun c => eq_refl) prev Hn ctys Hk Hi) as E.
  cbv beta in E. unfold direct. unfold Cty, C in *. rewrite E. reflexivity.
Qed.

Lemma tier_congr res a b : pk_eqb a b = true -> tier pk_eqb res a = tier pk_eqb res b.
Proof.
  intros H. unfold tier. apply existsb_ext'. intros cr _. apply (kmem_congr pk_eqb pk_eqb_sym pk_eqb_trans). exact H.
Qed.
Lemma direct_outside_zero res (g : list (pk * Z)) p y :
  Forall (fun pg : pk * Z => tier pk_eqb res (fst pg) = true \/ snd pg = 0) g ->
  tier pk_eqb res (PK p) = false -> kget pk_eqb g (PK p) = Some y -> y = 0.
Proof.
  intros Hg Et. induction g as [|[k v] t IH]; cbn [kget]; [discriminate|]. inversion Hg as [|? ? G1 G2]; subst.
  destruct (pk_eqb (PK p) k) eqn:Ek; [|apply IH, G2]. intros [= <-]. simpl in G1. destruct G1 as [G1|G1]; [|exact G1].
  rewrite <- (tier_congr res (PK p) k Ek) in G1. congruence.
Qed.

(* a party outside the tier holds no first round seat *)
Lemma party_prev_outside res prev p : direct_in_tier pk_eqb res prev -> tier pk_eqb res (PK p) = false ->
  zsum (map snd (party_prev prev p)) = 0.
Proof.
  intros Hdt Et. rewrite party_prev_zsum. apply zsumf_zero. intros [c g] Hin. unfold kget0. cbn [snd].
  destruct (kget pk_eqb g (PK p)) as [y|] eqn:E; [|reflexivity].
  unfold direct_in_tier in Hdt. rewrite Forall_forall in Hdt. exact (direct_outside_zero res g p y (Hdt _ Hin) Et E).
Qed.

Section BPT.
  Variable da : Z -> Q.
  Variable votes : list (Cty * list (C * Q)).
  Variable prev : list (Cty * list (pk * Z)).
  Hypothesis Hda : divisor_ok da.
  Hypothesis Hvn : Forall (fun cv => Forall (fun pv : C * Q => (0 <= snd pv)%Q) (snd cv)) votes.
  Hypothesis Hvd : NoDup (map fst votes).
  Hypothesis Hvne : votes <> [].
  Hypothesis Hwp : wf_prev pk_eqb prev.

  Lemma party_votes_nonneg p c v : In (c, v) (party_votes votes p) -> (0 <= v)%Q.
  Proof.
    unfold party_votes. intros Hin. apply in_map_iff in Hin. destruct Hin as ([c' dv] & [= <- <-] & Hin).
    rewrite Forall_forall in Hvn. pose proof (Hvn _ Hin) as Hd. simpl in *. unfold dget_or.
    destruct (dget dv p) as [x|] eqn:E; [|apply Qle_refl]. apply dget_In in E. rewrite Forall_forall in Hd. exact (Hd _ E).
  Qed.
  Lemma party_votes_keys p : NoDup (map fst (party_votes votes p)).
  Proof. unfold party_votes. rewrite map_map. simpl. exact Hvd. Qed.
  Lemma party_votes_ne p : party_votes votes p <> [].
  Proof. unfold party_votes. destruct votes; [congruence|discriminate]. Qed.

  Theorem bp_allocate_totals overall : forall gains,
    bp_allocate da votes prev overall = BP_ok gains -> knodup pk_eqb overall ->
    forall p np, In (PK p, np) overall -> zsum (map snd (party_prev prev p)) <= np ->
    party_gain gains p = np - zsum (map snd (party_prev prev p)).
  Proof.
    induction overall as [|[k nq] t IH]; intros gains H Hkn p np Hin Hle; [destruct Hin|]. destruct Hkn as [Hh Hn].
    apply bp_allocate_ok in H. destruct H as (q & gq & l0 & -> & Ee & Et & ->).
    assert (Hnot : forall n', ~ In (PK q, n') t).
    { intros n' Hin'. assert (khas pk_eqb t (PK q) = true); [|simpl in Hh; congruence].
      apply existsb_exists. exists (PK q, n'). split; [exact Hin'|apply pk_eqb_refl]. }
    rewrite party_gain_app, party_gain_block. destruct Hin as [[= -> ->]|Hin].
    - rewrite ceqb_refl.
      rewrite (allocate_total da (party_votes votes p) (party_prev prev p) np Hda (party_votes_nonneg p) (party_votes_keys p)
                 (party_prev_nonneg prev p Hwp) (party_prev_keys prev p (proj1 Hwp)) (party_votes_ne p) Hle gq Ee).
      rewrite party_gain_absent; [apply Z.add_0_r|]. intros g Hg Heq.
      destruct (bp_allocate_parties da votes prev t l0 Et g Hg) as (n' & Hin'). rewrite Heq in Hin'.
      exact (Hnot n' Hin').
    - assert (ceqb q p = false) as ->.
      { apply not_true_iff_false. intros E. apply ceqb_eq in E. subst q. exact (Hnot np Hin). }
      apply (IH l0 Et Hn p np Hin Hle).
  Qed.
End BPT.

(* AdjustedSeatCount(LevelOverhangByConstituency, ByParty) with all first round seats in the tier: every party of the
   national distribution of the enlarged house ends with exactly its national seats (first round seats + seats gained) *)
Theorem adjusted_byc_totals dc a dn da fuel votes n prev adj gains res :
  NoDup (map fst votes) -> votes <> [] -> wf_prev pk_eqb prev -> divisor_ok da ->
  Forall (fun cv => Forall (fun pv : C * Q => (0 <= snd pv)%Q) (snd cv)) votes ->
  adjusted_byc dc a (Ov_given dn) dn da fuel votes n prev = ASC adj (BP_ok gains) ->
  constituency_evaluator pk_eqb (ha_eval dc) PK a votes n = Ok res ->
  direct_in_tier pk_eqb res prev ->
  exists nat, ha_eval dn (qtotals votes) (n + adj) = Ok nat /\
    forall p np, In (PK p, np) nat ->
      zsumf (fun c => direct pk_eqb prev c (PK p)) (cty_list votes prev) + party_gain gains p = np.
Proof.
  intros Hvd Hvne Hwp Hda Hvn Hasc Hc Hdt.
  destruct (adjusted_byc_meaning dc a dn da fuel votes n prev adj (BP_ok gains) Hvd Hwp Hasc) as (Hadj & Hfin & _ & res' & Hc' & Hcov).
  rewrite Hc in Hc'. injection Hc' as <-. destruct (Hcov Hdt) as (nat & Hnat & Hk). exists nat. split; [exact Hnat|].
  intros p np Hin. destruct (ha_eval_wf dn _ _ _ Hnat) as [Hnd Hnn].
  assert (Hget : kget0 pk_eqb nat (PK p) = np).
  { unfold kget0. rewrite (knodup_In_kget pk_eqb pk_eqb_refl pk_eqb_sym pk_eqb_trans nat (PK p) np Hnd Hin). reflexivity. }
  assert (Hsum : zsum (map snd (party_prev prev p)) = zsumf (fun c => direct pk_eqb prev c (PK p)) (cty_list votes prev)).
  { apply party_prev_sum; [exact (proj1 Hwp)|apply cty_list_nodup|apply cty_list_prev]. }
  assert (Hle : zsum (map snd (party_prev prev p)) <= np).
  { destruct (tier pk_eqb res (PK p)) eqn:Et.
    - rewrite Hsum. destruct (Hk (PK p) Et) as [H1 _]. rewrite Hget in H1. exact H1.
    - rewrite (party_prev_outside res prev p Hdt Et). exact (proj1 (Forall_forall _ _) Hnn _ Hin). }
  unfold adjusted_byc in Hasc. destruct (lobc_calculate dc a (Ov_given dn) fuel votes n prev) as [adj'| | |]; try discriminate.
  injection Hasc as <- Hbp. unfold by_party in Hbp. rewrite Hnat in Hbp.
  rewrite (bp_allocate_totals da votes prev Hda Hvn Hvd Hvne Hwp nat gains Hbp Hnd p np Hin Hle). lia.
Qed.
