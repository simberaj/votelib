(* Order independence (C10) of the quota family: QuotaDistributor.evaluate, _subtract_overaward and
   LargestRemainder.evaluate return the same DICTIONARY whatever the insertion order of the votes, of the
   previous gains and of the caps.  The result lists of the two runs are related by [ok_rel]: the plain
   (candidate-keyed) parts are permutations of each other with distinct keys, the tie keys correspond one to
   one with permuted member lists and equal seat counts.  The proof is a simulation through every branch of
   the model (scan, the over-award subtraction, the remainder stage). *)
From Coq Require Import ZArith QArith Qround List Bool Lia Lqa Permutation Arith.
From VL Require Import Prelude.PyDict Model.GetNBest Model.Quota Model.QuotaDistributor
     Proofs.Dict_proofs Proofs.GetNBest_proofs Proofs.QOrd Proofs.QD_proofs Proofs.QD2_proofs Proofs.Order_proofs
     Proofs.HA_proofs Proofs.HAPerm_proofs Proofs.LRScale_proofs.
Import ListNotations.
Open Scope Z_scope.

Section DictOrder.
  Context {X : Type}.
  Notation dict := (list (C * X)).

  Lemma dget_none_notin (d : dict) c : dget d c = None <-> ~ In c (map fst d).
  Proof.
    induction d as [|[k v] t IH]; simpl; [tauto|].
    destruct (ceqb c k) eqn:E.
    - apply ceqb_eq in E. subst. split; [discriminate|tauto].
    - apply ceqb_neq in E. split.
      + intros H [Hk|Hi]; [exact (E (eq_sym Hk))|exact (proj1 IH H Hi)].
      + intros H. apply IH. intros Hi. exact (H (or_intror Hi)).
  Qed.

  Lemma dict_ext_perm (d d' : dict) : NoDup (map fst d) -> NoDup (map fst d') ->
    (forall c, dget d c = dget d' c) -> Permutation d d'.
  Proof.
    intros Hn Hn' He. apply NoDup_Permutation.
    - eapply NoDup_map_inv; exact Hn.
    - eapply NoDup_map_inv; exact Hn'.
    - intros [c v]. split; intros H.
      + apply dget_In. rewrite <- He. apply In_dget; assumption.
      + apply dget_In. rewrite He. apply In_dget; assumption.
  Qed.

  Lemma dget_or_perm (d d' : dict) c x : NoDup (map fst d) -> Permutation d d' -> dget_or d c x = dget_or d' c x.
  Proof. intros H Hp. unfold dget_or. rewrite (dget_perm d d' c H Hp). reflexivity. Qed.
End DictOrder.

Lemma filter_keys_nodup {A B} (f : A * B -> bool) (l : list (A * B)) : NoDup (map fst l) -> NoDup (map fst (filter f l)).
Proof. exact (nodup_keys_filter f l). Qed.

Lemma Forall2_in_l {A B} (R : A -> B -> Prop) l l' x : Forall2 R l l' -> In x l -> exists y, In y l' /\ R x y.
Proof.
  induction 1 as [|a b l l' Hab _ IH]; intros Hx; [destruct Hx|]. destruct Hx as [->|Hx].
  - exists b. split; [left; reflexivity|exact Hab].
  - destruct (IH Hx) as (y & Hy & Hr). exists y. split; [right; exact Hy|exact Hr].
Qed.
Lemma Forall2_in_r {A B} (R : A -> B -> Prop) l l' y : Forall2 R l l' -> In y l' -> exists x, In x l /\ R x y.
Proof.
  induction 1 as [|a b l l' Hab _ IH]; intros Hy; [destruct Hy|]. destruct Hy as [->|Hy].
  - exists a. split; [left; reflexivity|exact Hab].
  - destruct (IH Hy) as (x & Hx & Hr). exists x. split; [right; exact Hx|exact Hr].
Qed.

Lemma flat_map_keys_nodup {A B K} (f : A -> list B) (ka : A -> K) (kb : B -> K) (l : list A) :
  (forall x, f x = [] \/ exists y, f x = [y] /\ kb y = ka x) -> NoDup (map ka l) -> NoDup (map kb (flat_map f l)).
Proof.
  intros Hf.
  assert (Hsub : forall l k, In k (map kb (flat_map f l)) -> In k (map ka l)).
  { intros l0 k Hk. apply in_map_iff in Hk. destruct Hk as (y & <- & Hy). apply in_flat_map in Hy. destruct Hy as (x & Hx & Hy).
    destruct (Hf x) as [E|(y0 & E & Hk)]; rewrite E in Hy; [destruct Hy|]. destruct Hy as [<-|[]]. rewrite Hk. apply in_map, Hx. }
  induction l as [|x l IH]; simpl; intros Hn; [constructor|]. inversion Hn as [|? ? Hx Hn']; subst.
  rewrite map_app. destruct (Hf x) as [E|(y & E & Hk)]; rewrite E; simpl; [apply IH, Hn'|].
  constructor; [|apply IH, Hn']. rewrite Hk. intros Hc. apply Hx, Hsub, Hc.
Qed.
Lemma flat_map_some_nodup {A B K} (f : option K * A -> list B) (kb : B -> K) l :
  (forall x, f x = [] \/ exists y, f x = [y] /\ Some (kb y) = fst x) -> NoDup (map fst l) -> NoDup (map kb (flat_map f l)).
Proof.
  intros Hf Hn. apply (NoDup_map_inv Some). rewrite map_map. exact (flat_map_keys_nodup f fst (fun y => Some (kb y)) l Hf Hn).
Qed.

Definition lsumZ (l : list Z) : Z := fold_right Z.add 0 l.
Lemma fold_add_acc l : forall a, fold_left Z.add l a = a + lsumZ l.
Proof. induction l as [|x t IH]; intros a; simpl; [lia|]. rewrite IH. lia. Qed.
Lemma lsumZ_perm l l' : Permutation l l' -> lsumZ l = lsumZ l'.
Proof. induction 1; simpl; lia. Qed.
Lemma lsumZ_app a b : lsumZ (a ++ b) = lsumZ a + lsumZ b.
Proof. induction a; simpl; lia. Qed.
Lemma zsum_perm l l' : Permutation l l' -> zsum l = zsum l'.
Proof. intros H. unfold zsum. rewrite !fold_add_acc. f_equal. apply lsumZ_perm, H. Qed.
Lemma zsumv_perm l l' : Permutation l l' -> zsumv l = zsumv l'.
Proof. intros Hp. apply zsum_perm, Permutation_map, Hp. Qed.

Lemma qsumv_perm l l' : Permutation l l' -> (qsumv l == qsumv l')%Q.
Proof. intros Hp. apply fold_Qplus_perm, Permutation_map, Hp. Qed.

Section GnbShape.
  Context {K : Type}.
  Notation gnb := (@get_n_best K Q Qle_bool).

  Lemma gnb_shape_keys (votes : list (K * Q)) n : (1 <= n)%nat -> NoDup (map fst votes) ->
    exists cs T k, gnb votes n = map Cand cs ++ repeat (TieR T) k /\ NoDup cs /\ NoDup T /\
      (length cs + k = Nat.min n (length votes))%nat /\ incl cs (map fst votes) /\ incl T (map fst votes).
  Proof.
    intros Hn Hnd. destruct (get_n_best_keys Qle_bool Qle_bool_total Qle_bool_trans votes n Hn Hnd)
      as [(A & E & NA & IA & Hlen & _)|(A & T & thr & k & E & _ & _ & Nd & Ik & Hlen & Hk)].
    - exists A, [], 0%nat. cbn [repeat]. rewrite app_nil_r, Nat.add_0_r.
      split; [exact E|]. split; [exact NA|]. split; [constructor|]. split; [exact Hlen|]. split; [exact IA|apply incl_nil_l].
    - (* A and the more than k members of T are distinct keys: there are more than n keys *)
      pose proof (NoDup_incl_length Nd Ik) as Hl. rewrite app_length, map_length in Hl.
      apply nodup_app_iff in Nd. destruct Nd as (NA & NT & _).
      exists A, T, k. split; [exact E|]. split; [exact NA|]. split; [exact NT|]. split; [lia|].
      split; intros c Hc; apply Ik, in_or_app; [left|right]; exact Hc.
  Qed.

  Lemma in_tie_app (cs : list K) T k c :
    (exists T0, In (TieR T0) (map Cand cs ++ repeat (TieR T) k) /\ In c T0) <-> (1 <= k)%nat /\ In c T.
  Proof.
    split.
    - intros (T0 & H & Hc). apply in_tie_sel in H. destruct H as [-> Hk]. split; assumption.
    - intros [Hk Hc]. exists T. split; [apply in_tie_sel; split; [reflexivity|exact Hk]|exact Hc].
  Qed.

  (* the two outcomes on permuted inputs: same elected set, same number of tie seats, same tie members *)
  Theorem gnb_perm_shape (votes votes' : list (K * Q)) n : (1 <= n)%nat -> NoDup (map fst votes) -> Permutation votes votes' ->
    exists cs cs' T T' k, gnb votes n = map Cand cs ++ repeat (TieR T) k /\ gnb votes' n = map Cand cs' ++ repeat (TieR T') k /\
      Permutation cs cs' /\ NoDup cs /\ ((1 <= k)%nat -> Permutation T T').
  Proof.
    intros Hn Hnd Hp. pose proof (perm_nodup_keys votes votes' Hnd Hp) as Hnd'.
    destruct (gnb_shape_keys votes n Hn Hnd) as (cs & T & k & E & Ncs & NT & Hlen & Ics & IT).
    destruct (gnb_shape_keys votes' n Hn Hnd') as (cs' & T' & k' & E' & Ncs' & NT' & Hlen' & Ics' & IT').
    assert (Hback : incl (map fst votes') (map fst votes)).
    { intros c. apply Permutation_in, Permutation_sym, Permutation_map, Hp. }
    (* gnb_perm compares the two outcomes at every key of the input *)
    assert (Hgp : forall c, In c (map fst votes) ->
              (In c cs <-> In c cs') /\ ((1 <= k)%nat /\ In c T <-> (1 <= k')%nat /\ In c T')).
    { intros c Hc. apply in_map_iff in Hc. destruct Hc as ([c0 v] & <- & Hv).
      destruct (gnb_perm votes votes' n c0 v Hn Hnd Hp Hv) as [A1 A2]. rewrite E, E' in A1, A2. split.
      - exact (iff_trans (iff_sym (in_cand_sel c0 cs T k)) (iff_trans A1 (in_cand_sel c0 cs' T' k'))).
      - exact (iff_trans (iff_sym (in_tie_app cs T k c0)) (iff_trans A2 (in_tie_app cs' T' k' c0))). }
    assert (Pcs : Permutation cs cs').
    { apply NoDup_Permutation; [exact Ncs|exact Ncs'|]. intros c.
      split; intros H; [apply (Hgp c (Ics c H)), H|apply (Hgp c (Hback c (Ics' c H))), H]. }
    assert (Hk : k = k').
    { pose proof (Permutation_length Pcs). pose proof (Permutation_length Hp). lia. }
    subst k'. exists cs, cs', T, T', k. split; [exact E|]. split; [exact E'|]. split; [exact Pcs|]. split; [exact Ncs|].
    intros Hk. apply NoDup_Permutation; [exact NT|exact NT'|]. intros c.
    split; intros H; [apply (Hgp c (IT c H))|apply (Hgp c (Hback c (IT' c H)))]; split; assumption.
  Qed.
End GnbShape.

Notation zdict := (list (C * Z)).
Definition keysnd (d : zdict) : Prop := NoDup (map fst d).

Lemma fold_op_perm (op : zdict -> C -> zdict) :
  (forall d c, keysnd d -> keysnd (op d c)) ->
  (forall d d' c, keysnd d -> Permutation d d' -> Permutation (op d c) (op d' c)) ->
  (forall d x y, keysnd d -> Permutation (op (op d x) y) (op (op d y) x)) ->
  forall l l', Permutation l l' -> forall d d', keysnd d -> Permutation d d' ->
  Permutation (fold_left op l d) (fold_left op l' d').
Proof.
  intros Hnd Hpres Hcomm.
  assert (Hsame : forall l d d', keysnd d -> Permutation d d' -> Permutation (fold_left op l d) (fold_left op l d')).
  { induction l as [|x l IH]; intros d d' Hd Hp; simpl; [exact Hp|]. apply IH; [apply Hnd, Hd|apply Hpres; assumption]. }
  induction 1 as [|x l l' _ IH|x y l|l l' l'' _ IH1 _ IH2]; intros d d' Hd Hp; simpl.
  - exact Hp.
  - apply IH; [apply Hnd, Hd|apply Hpres; assumption].
  - apply Hsame; [apply Hnd, Hnd, Hd|].
    eapply Permutation_trans; [apply Hcomm, Hd|]. apply Hpres; [apply Hnd, Hd|]. apply Hpres; assumption.
  - eapply Permutation_trans; [apply IH1; [exact Hd|apply Permutation_refl]|]. apply IH2; assumption.
Qed.

Lemma fold_op_nodup (op : zdict -> C -> zdict) : (forall d c, keysnd d -> keysnd (op d c)) ->
  forall l d, keysnd d -> keysnd (fold_left op l d).
Proof. intros H. induction l as [|x l IH]; intros d Hd; simpl; [exact Hd|]. apply IH, H, Hd. Qed.

Lemma dget_incr_t (d : zdict) c c' : dget (incr_t d c) c' = if ceqb c' c then Some (dget_or d c 0 + 1) else dget d c'.
Proof. unfold incr_t. apply dget_dset. Qed.
Lemma incr_t_nodup (d : zdict) c : keysnd d -> keysnd (incr_t d c).
Proof. apply dset_nodup. Qed.
Lemma incr_t_perm (d d' : zdict) c : keysnd d -> Permutation d d' -> Permutation (incr_t d c) (incr_t d' c).
Proof.
  intros Hd Hp. pose proof (perm_nodup_keys _ _ Hd Hp) as Hd'.
  apply dict_ext_perm; [apply incr_t_nodup, Hd|apply incr_t_nodup, Hd'|].
  intros k. rewrite !dget_incr_t, (dget_or_perm d d' c 0 Hd Hp), (dget_perm d d' k Hd Hp). reflexivity.
Qed.
Lemma incr_t_comm (d : zdict) x y : keysnd d -> Permutation (incr_t (incr_t d x) y) (incr_t (incr_t d y) x).
Proof.
  intros Hd. apply dict_ext_perm; [apply incr_t_nodup, incr_t_nodup, Hd|apply incr_t_nodup, incr_t_nodup, Hd|].
  intros k. rewrite !dget_incr_t. unfold dget_or. rewrite !dget_incr_t.
  destruct (ceqb k y) eqn:Ey, (ceqb k x) eqn:Ex; try reflexivity.
  - apply ceqb_eq in Ey, Ex. subst. rewrite ceqb_refl. reflexivity.
  - apply ceqb_eq in Ey. subst k. rewrite Ex. reflexivity.
  - apply ceqb_eq in Ex. subst k. rewrite Ey. reflexivity.
Qed.

Lemma dec_key_keys (d : zdict) c x : In x (map fst (dec_key d c)) -> In x (map fst d).
Proof.
  induction d as [|[k s] t IH]; simpl; [tauto|].
  destruct (ceqb c k); [destruct (s =? 1); simpl; tauto|]. simpl. intros [H|H]; [left; exact H|right; apply IH, H].
Qed.
Lemma dec_key_nodup (d : zdict) c : keysnd d -> keysnd (dec_key d c).
Proof.
  unfold keysnd. induction d as [|[k s] t IH]; simpl; intros H; [constructor|].
  inversion H as [|? ? Hk Hn]; subst.
  destruct (ceqb c k); [destruct (s =? 1); [exact Hn|simpl; constructor; assumption]|].
  simpl. constructor; [|apply IH, Hn]. intros Hi. apply Hk. eapply dec_key_keys, Hi.
Qed.
Definition dec_val (o : option Z) : option Z :=
  match o with Some s => if s =? 1 then None else Some (s - 1) | None => None end.
Lemma dget_dec_key (d : zdict) c c' : keysnd d ->
  dget (dec_key d c) c' = if ceqb c' c then dec_val (dget d c) else dget d c'.
Proof.
  unfold keysnd. induction d as [|[k s] t IH]; simpl; intros H.
  - destruct (ceqb c' c); reflexivity.
  - inversion H as [|? ? Hk Hn]; subst. destruct (ceqb c k) eqn:E.
    + apply ceqb_eq in E. subst k. destruct (ceqb c' c) eqn:E2.
      * apply ceqb_eq in E2. subst c'. simpl. destruct (s =? 1); simpl; [|rewrite ceqb_refl; reflexivity].
        apply dget_none_notin. exact Hk.
      * destruct (s =? 1); simpl; [reflexivity|]. rewrite E2. reflexivity.
    + simpl. rewrite (IH Hn). destruct (ceqb c' k) eqn:E3; [|reflexivity].
      apply ceqb_eq in E3. subst k. destruct (ceqb c' c) eqn:E4; [|reflexivity].
      apply ceqb_eq in E4. subst c'. rewrite ceqb_refl in E. discriminate.
Qed.
Lemma dec_key_perm (d d' : zdict) c : keysnd d -> Permutation d d' -> Permutation (dec_key d c) (dec_key d' c).
Proof.
  intros Hd Hp. pose proof (perm_nodup_keys _ _ Hd Hp) as Hd'.
  apply dict_ext_perm; [apply dec_key_nodup, Hd|apply dec_key_nodup, Hd'|].
  intros k. rewrite !dget_dec_key by assumption. rewrite (dget_perm d d' c Hd Hp), (dget_perm d d' k Hd Hp). reflexivity.
Qed.
Lemma dec_key_comm (d : zdict) x y : keysnd d -> Permutation (dec_key (dec_key d x) y) (dec_key (dec_key d y) x).
Proof.
  intros Hd. destruct (Pos.eq_dec x y) as [->|Hne]; [apply Permutation_refl|].
  apply dict_ext_perm; [apply dec_key_nodup, dec_key_nodup, Hd|apply dec_key_nodup, dec_key_nodup, Hd|].
  intros k. rewrite !dget_dec_key by (try apply dec_key_nodup; exact Hd).
  assert (Exy : ceqb x y = false) by (apply ceqb_neq; exact Hne).
  assert (Eyx : ceqb y x = false) by (apply ceqb_neq; congruence).
  rewrite Exy, Eyx.
  destruct (ceqb k y) eqn:Ey, (ceqb k x) eqn:Ex; try reflexivity.
  apply ceqb_eq in Ey, Ex. congruence.
Qed.

Lemma add_dict_nodup (d1 d2 : zdict) : keysnd d1 -> keysnd (add_dict d1 d2).
Proof.
  unfold add_dict. revert d1. induction d2 as [|[k x] t IH]; intros d1 H; simpl; [exact H|].
  apply IH. apply dset_nodup, H.
Qed.
Lemma dget_add_dict (d2 : zdict) : forall d1 c, keysnd d2 ->
  dget (add_dict d1 d2) c = match dget d2 c with Some x => Some (dget_or d1 c 0 + x) | None => dget d1 c end.
Proof.
  unfold add_dict, keysnd. induction d2 as [|[k x] t IH]; intros d1 c H; simpl; [reflexivity|].
  inversion H as [|? ? Hk Hn]; subst. rewrite (IH _ c Hn). unfold dget_or. rewrite !dget_dset.
  destruct (ceqb c k) eqn:E.
  - apply ceqb_eq in E. subst c. apply dget_none_notin in Hk. rewrite Hk. reflexivity.
  - reflexivity.
Qed.
Lemma add_dict_perm (d1 d1' d2 d2' : zdict) : keysnd d1 -> Permutation d1 d1' -> keysnd d2 -> Permutation d2 d2' ->
  Permutation (add_dict d1 d2) (add_dict d1' d2').
Proof.
  intros H1 P1 H2 P2. pose proof (perm_nodup_keys _ _ H1 P1) as H1'. pose proof (perm_nodup_keys _ _ H2 P2) as H2'.
  apply dict_ext_perm; [apply add_dict_nodup, H1|apply add_dict_nodup, H1'|].
  intros c. rewrite !dget_add_dict by assumption.
  rewrite (dget_perm d2 d2' c H2 P2), (dget_or_perm d1 d1' c 0 H1 P1), (dget_perm d1 d1' c H1 P1). reflexivity.
Qed.

Definition plain_of (s : list (key * Z)) : zdict :=
  flat_map (fun kv : key * Z => match fst kv with K c => [(c, snd kv)] | KT _ => [] end) s.
Definition ties_of (s : list (key * Z)) : list (list C * Z) :=
  flat_map (fun kv : key * Z => match fst kv with KT l => [(l, snd kv)] | K _ => [] end) s.
Definition has_tie (s : list (key * Z)) : bool :=
  existsb (fun kv : key * Z => match fst kv with KT _ => true | _ => false end) s.
Definition tie_rel (a b : list C * Z) : Prop := Permutation (fst a) (fst b) /\ snd a = snd b.

(* same candidate-keyed entries (distinct keys, any order), tie keys in one-to-one correspondence with the same
   members and the same seats *)
Definition ok_rel (s s' : list (key * Z)) : Prop :=
  keysnd (plain_of s) /\ Permutation (plain_of s) (plain_of s') /\ Forall2 tie_rel (ties_of s) (ties_of s').

Definition qd_rel (r r' : qd_result) : Prop :=
  match r, r' with
  | QD_ok s, QD_ok s' => ok_rel s s'
  | QD_vse, QD_vse | QD_zerodiv, QD_zerodiv | QD_index, QD_index | QD_unmodelled, QD_unmodelled | QD_fuel, QD_fuel => True
  | _, _ => False
  end.

Lemma qd_rel_inv r r' : qd_rel r r' -> match r with QD_ok s => exists s', r' = QD_ok s' /\ ok_rel s s' | e => r' = e end.
Proof.
  destruct r as [s| | | | |], r' as [s'| | | | |]; simpl; intros H; try contradiction; try reflexivity.
  exists s'. split; [reflexivity|exact H].
Qed.

Definition kplain (sel : zdict) : list (key * Z) := map (fun kv : C * Z => (K (fst kv), snd kv)) sel.
Lemma plain_of_kplain sel : plain_of (kplain sel) = sel.
Proof. exact (plain_flat sel). Qed.
Lemma ties_of_kplain sel : ties_of (kplain sel) = [].
Proof. unfold ties_of, kplain. induction sel as [|[c s] t IH]; simpl; [reflexivity|exact IH]. Qed.
Lemma plain_of_app a b : plain_of (a ++ b) = plain_of a ++ plain_of b.
Proof. apply flat_map_app. Qed.
Lemma ties_of_app a b : ties_of (a ++ b) = ties_of a ++ ties_of b.
Proof. apply flat_map_app. Qed.

Lemma has_tie_ties s : has_tie s = match ties_of s with [] => false | _ => true end.
Proof.
  unfold has_tie, ties_of. induction s as [|[[c|l] z] t IH]; simpl; [reflexivity|exact IH|reflexivity].
Qed.
Lemma ok_rel_has_tie s s' : ok_rel s s' -> has_tie s = has_tie s'.
Proof. intros (_ & _ & H). rewrite !has_tie_ties. destruct H; reflexivity. Qed.

Lemma ok_rel_kplain sel sel' : keysnd sel -> Permutation sel sel' -> ok_rel (kplain sel) (kplain sel').
Proof.
  intros H P. unfold ok_rel. rewrite !plain_of_kplain, !ties_of_kplain. split; [exact H|]. split; [exact P|constructor].
Qed.

(* the order-free observation: every candidate's seats, and the tie keys *)
Lemma kdget_plain_of s c : keysnd (plain_of s) -> kdget s c = dget_or (plain_of s) c 0.
Proof.
  unfold kdget.
  assert (H : forall a, keysnd (plain_of s) ->
     fold_left (fun (acc : Z) (kv : key * Z) => match fst kv with K c' => if ceqb c c' then snd kv else acc | KT _ => acc end) s a
     = match dget (plain_of s) c with Some v => v | None => a end).
  { induction s as [|[[c'|l] z] t IH]; intros a Hn; simpl; [reflexivity| |apply IH, Hn].
    unfold keysnd in Hn. simpl in Hn. inversion Hn as [|? ? Hk Hn']; subst.
    rewrite (IH _ Hn'). destruct (ceqb c c') eqn:E; [|reflexivity].
    apply ceqb_eq in E. subst c'. apply dget_none_notin in Hk. fold (plain_of t). rewrite Hk. reflexivity. }
  intros Hn. rewrite (H 0 Hn). reflexivity.
Qed.

Theorem ok_rel_obs s s' : ok_rel s s' ->
  (forall c, kdget s c = kdget s' c) /\ Forall2 tie_rel (ties_of s) (ties_of s').
Proof.
  intros (Hn & Hp & Ht). split; [|exact Ht]. intros c.
  rewrite !kdget_plain_of; [apply dget_or_perm; assumption| |exact Hn].
  eapply perm_nodup_keys; eassumption.
Qed.

Lemma existsb_perm {A} (f : A -> bool) l l' : Permutation l l' -> existsb f l = existsb f l'.
Proof.
  induction 1 as [|x l l' _ IH|x y l|l l' l'' _ IH1 _ IH2]; simpl; try congruence.
  destruct (f x), (f y); reflexivity.
Qed.
Lemma existsb_ext' {A} (f g : A -> bool) l : (forall x, f x = g x) -> existsb f l = existsb g l.
Proof. intros H. induction l as [|x l IH]; simpl; [reflexivity|]. rewrite H, IH. reflexivity. Qed.

Section Scan.
  Variable accept_equal : bool.
  Notation fulfills := (fulfills accept_equal).

  (* None: nothing awarded; Some s: s seats (whole quotas cut at the cap, less the previous gains) *)
  Definition scan_item (q : Q) (prev caps : zdict) (cv : C * Q) : option Z :=
    let n_prev := dget_or prev (fst cv) 0 in
    if fulfills (snd cv) q then
      let add := cap_whole caps (fst cv) (py_trunc (snd cv / q)%Q) - n_prev in
      if 0 <? add then Some add else None
    else None.

  Definition isel q prev caps (cv : C * Q) : zdict :=
    match scan_item q prev caps cv with Some s => [(fst cv, s)] | None => [] end.

  Lemma isel_nodup q prev caps votes : NoDup (map fst votes) -> keysnd (flat_map (isel q prev caps) votes).
  Proof.
    apply flat_map_keys_nodup. intros cv. unfold isel.
    destruct (scan_item q prev caps cv) as [s|]; [right; exists (fst cv, s); split; reflexivity|left; reflexivity].
  Qed.

  Lemma scan_char q prev caps votes : forall sel, NoDup (map fst votes) ->
    (forall c, In c (map fst votes) -> ~ In c (map fst sel)) ->
    scan accept_equal votes q prev caps sel = sel ++ flat_map (isel q prev caps) votes.
  Proof.
    induction votes as [|[c v] t IH]; intros sel Hnd Hfresh.
    - simpl. rewrite app_nil_r. reflexivity.
    - inversion Hnd as [|? ? Hk Hn]; subst.
      assert (Hc : ~ In c (map fst sel)) by (apply Hfresh; left; reflexivity).
      cbn [scan flat_map]. unfold isel at 1, scan_item. cbn [fst snd].
      assert (Hskip : scan accept_equal t q prev caps sel = sel ++ [] ++ flat_map (isel q prev caps) t).
      { rewrite IH; [|exact Hn|intros; apply Hfresh; right; assumption]. reflexivity. }
      destruct (fulfills v q); [|exact Hskip].
      destruct (0 <? cap_whole caps c (py_trunc (v / q)) - dget_or prev c 0); [|exact Hskip]. clear Hskip.
      assert (Hfresh' : forall x, forall c0, In c0 (map fst t) -> ~ In c0 (map fst (dset sel c x))).
      { intros x c0 Hc0 Hi. apply dset_keys_in in Hi. destruct Hi as [->|Hi]; [exact (Hk Hc0)|]. revert Hi. apply Hfresh. right. exact Hc0. }
      rewrite IH; [|exact Hn|apply Hfresh']. rewrite (dset_fresh sel c _ Hc), <- !app_assoc. reflexivity.
  Qed.

  Lemma scan_item_ext q q' prev prev' caps caps' cv : (q' == q)%Q ->
    (forall c, dget_or prev' c 0 = dget_or prev c 0) -> (forall c, dget caps' c = dget caps c) ->
    scan_item q' prev' caps' cv = scan_item q prev caps cv.
  Proof.
    intros Hq Hp Hc. unfold scan_item, QuotaDistributor.fulfills, cap_whole.
    assert (E1 : Qle_bool (snd cv) q' = Qle_bool (snd cv) q) by (apply Qle_bool_Qeq; [reflexivity|exact Hq]).
    assert (E2 : Qeq_bool (snd cv) q' = Qeq_bool (snd cv) q) by (apply Qeq_bool_Qeq; [reflexivity|exact Hq]).
    assert (E3 : py_trunc (snd cv / q') = py_trunc (snd cv / q)) by (apply py_trunc_Qeq; rewrite Hq; reflexivity).
    rewrite E1, E2, E3, Hp, Hc. reflexivity.
  Qed.
End Scan.

Definition tset_eqb (l m : list C) : bool := forallb (fun c => cmem c m) l && forallb (fun c => cmem c l) m.
Lemma forallb_perm {A} (f : A -> bool) l l' : Permutation l l' -> forallb f l = forallb f l'.
Proof.
  induction 1 as [|x l l' _ IH|x y l|l l' l'' _ IH1 _ IH2]; simpl; try congruence.
  destruct (f x), (f y); reflexivity.
Qed.
Lemma forallb_ext' {A} (f g : A -> bool) l : (forall x, f x = g x) -> forallb f l = forallb g l.
Proof. intros H. induction l as [|x l IH]; simpl; [reflexivity|]. rewrite H, IH. reflexivity. Qed.

Lemma tset_eqb_perm l l' m m' : Permutation l l' -> Permutation m m' -> tset_eqb l m = tset_eqb l' m'.
Proof.
  intros Hl Hm. unfold tset_eqb. f_equal.
  - rewrite (forallb_perm _ _ _ Hl). apply forallb_ext'. intros c. apply cmem_perm, Hm.
  - rewrite (forallb_perm _ _ _ Hm). apply forallb_ext'. intros c. apply cmem_perm, Hl.
Qed.

Lemma tset_eqb_refl l : tset_eqb l l = true.
Proof. unfold tset_eqb. rewrite cmem_refl_all. reflexivity. Qed.
Lemma tset_eqb_sym l m : tset_eqb l m = tset_eqb m l.
Proof. unfold tset_eqb. apply andb_comm. Qed.

Definition tkeys (T : list (list C * Z)) : list (key * Z) := map (fun lz : list C * Z => (KT (fst lz), snd lz)) T.
(* the shape of `selected` all along _subtract_overaward: the candidates, then the tie keys in order of appearance *)
Definition nf (P : zdict) (T : list (list C * Z)) : list (key * Z) := kplain P ++ tkeys T.

Lemma plain_of_tkeys T : plain_of (tkeys T) = [].
Proof. unfold plain_of, tkeys. induction T as [|[l z] T IH]; simpl; [reflexivity|exact IH]. Qed.
Lemma ties_of_tkeys T : ties_of (tkeys T) = T.
Proof. unfold ties_of, tkeys. induction T as [|[l z] T IH]; simpl; [reflexivity|]. rewrite IH. reflexivity. Qed.
Lemma ok_rel_nf P P' T T' : keysnd P -> Permutation P P' -> Forall2 tie_rel T T' -> ok_rel (nf P T) (nf P' T').
Proof.
  intros HP HPP HT. unfold ok_rel, nf.
  rewrite !plain_of_app, !ties_of_app, !plain_of_kplain, !ties_of_kplain, !plain_of_tkeys, !ties_of_tkeys, !app_nil_r. simpl. tauto.
Qed.

Fixpoint tdec (T : list (list C * Z)) (l : list C) : list (list C * Z) :=
  match T with
  | [] => []
  | (l0, z) :: r => if tset_eqb l l0 then (if z =? 1 then r else (l0, z - 1) :: r) else (l0, z) :: tdec r l
  end.
Fixpoint tdist (T : list (list C * Z)) : Prop :=
  match T with
  | [] => True
  | (l0, _) :: r => (forall x, In x r -> tset_eqb l0 (fst x) = false) /\ tdist r
  end.

Lemma kdec_tkeys_K T c : kdec (tkeys T) (K c) = tkeys T.
Proof. unfold tkeys. induction T as [|[l z] T IH]; simpl; [reflexivity|]. rewrite IH. reflexivity. Qed.
Lemma kdec_nf_K P T c : kdec (nf P T) (K c) = nf (dec_key P c) T.
Proof.
  unfold nf, kplain. induction P as [|[c' s] P IH]; simpl; [apply kdec_tkeys_K|].
  destruct (ceqb c c'); [destruct (s =? 1); reflexivity|]. simpl. rewrite IH. reflexivity.
Qed.
Lemma kdec_tkeys_T T l : kdec (tkeys T) (KT l) = tkeys (tdec T l).
Proof.
  unfold tkeys. induction T as [|[l0 z] T IH]; simpl; [reflexivity|]. fold (tset_eqb l l0).
  destruct (tset_eqb l l0); [destruct (z =? 1); reflexivity|]. simpl. rewrite IH. reflexivity.
Qed.
Lemma kdec_nf_T P T l : kdec (nf P T) (KT l) = nf P (tdec T l).
Proof.
  unfold nf, kplain. induction P as [|[c' s] P IH]; simpl; [apply kdec_tkeys_T|]. rewrite IH. reflexivity.
Qed.
Lemma fold_kdec_nf l : forall P T, fold_left kdec (map K l) (nf P T) = nf (fold_left dec_key l P) T.
Proof. induction l as [|c l IH]; intros P T; simpl; [reflexivity|]. rewrite kdec_nf_K. apply IH. Qed.
Lemma kmem_nf P T l : kmem (nf P T) (KT l) = existsb (fun lz : list C * Z => tset_eqb l (fst lz)) T.
Proof.
  unfold kmem, nf, kplain, tkeys. rewrite existsb_app.
  assert (E1 : existsb (fun kv : key * Z => key_eqb (KT l) (fst kv)) (map (fun kv : C * Z => (K (fst kv), snd kv)) P) = false).
  { induction P as [|x P IH]; simpl; [reflexivity|exact IH]. }
  rewrite E1. simpl. induction T as [|[l0 z] T IH]; simpl; [reflexivity|]. rewrite IH. reflexivity.
Qed.
Lemma nf_snoc P T l z : nf P T ++ [(KT l, z)] = nf P (T ++ [(l, z)]).
Proof. unfold nf, tkeys. rewrite map_app, app_assoc. reflexivity. Qed.

Lemma tdec_rel T T' l l' : Forall2 tie_rel T T' -> Permutation l l' -> Forall2 tie_rel (tdec T l) (tdec T' l').
Proof.
  intros H Hl. induction H as [|[l0 z] [l0' z'] T T' [Hp Hz] Hrest IH]; simpl; [constructor|].
  simpl in Hp, Hz. subst z'. rewrite (tset_eqb_perm _ _ _ _ Hl Hp).
  destruct (tset_eqb l' l0'); [destruct (z =? 1); [exact Hrest|constructor; [split; simpl; auto|exact Hrest]]|].
  constructor; [split; simpl; auto|exact IH].
Qed.
Lemma tdec_incl T l x : In x (tdec T l) -> exists y, In y T /\ fst y = fst x.
Proof.
  induction T as [|[l0 z] T IH]; simpl; [tauto|].
  destruct (tset_eqb l l0).
  - destruct (z =? 1); [intros H; exists x; auto|]. intros [<-|H]; [exists (l0, z); auto|exists x; auto].
  - intros [<-|H]; [exists (l0, z); auto|]. destruct (IH H) as (y & Hy & E). exists y. auto.
Qed.
Lemma tdist_tdec T l : tdist T -> tdist (tdec T l).
Proof.
  induction T as [|[l0 z] T IH]; simpl; [tauto|]. intros [H1 H2].
  destruct (tset_eqb l l0).
  - destruct (z =? 1); [exact H2|]. simpl. split; assumption.
  - simpl. split; [|apply IH, H2]. intros x Hx. destruct (tdec_incl _ _ _ Hx) as (y & Hy & E). rewrite <- E. apply H1, Hy.
Qed.
Lemma tdist_snoc T l z : tdist T -> existsb (fun lz : list C * Z => tset_eqb l (fst lz)) T = false -> tdist (T ++ [(l, z)]).
Proof.
  induction T as [|[l0 z0] T IH]; simpl; intros HD HE; [split; [intros x []|exact I]|].
  destruct HD as [H1 H2]. apply orb_false_iff in HE. destruct HE as [E1 E2]. split; [|apply IH; assumption].
  intros x Hx. apply in_app_or in Hx. destruct Hx as [Hx|[<-|[]]]; [apply H1, Hx|]. simpl. rewrite tset_eqb_sym. exact E1.
Qed.
Lemma tdist_rel T T' : Forall2 tie_rel T T' -> tdist T -> tdist T'.
Proof.
  intros H. induction H as [|[l0 z] [l0' z'] T T' [Hp _] Hrest IH]; simpl; [tauto|]. simpl in Hp.
  intros [H1 H2]. split; [|apply IH, H2]. intros x' Hx'.
  destruct (Forall2_in_r _ _ _ x' Hrest Hx') as (x & Hx & E & _). rewrite <- (tset_eqb_perm _ _ _ _ Hp E). apply H1, Hx.
Qed.
Lemma texists_rel T T' l l' : Forall2 tie_rel T T' -> Permutation l l' ->
  existsb (fun lz : list C * Z => tset_eqb l (fst lz)) T = existsb (fun lz : list C * Z => tset_eqb l' (fst lz)) T'.
Proof.
  intros H Hl. induction H as [|x y T T' [Hp _] _ IH]; simpl; [reflexivity|]. rewrite IH, (tset_eqb_perm _ _ _ _ Hl Hp). reflexivity.
Qed.

(* the tie key of the second run that corresponds to a tie key of the first *)
Definition tfind (T' : list (list C * Z)) (l : list C) : list C :=
  match find (fun lz : list C * Z => tset_eqb l (fst lz)) T' with Some lz => fst lz | None => l end.
Definition kf (T' : list (list C * Z)) (k : key) : key := match k with K c => K c | KT l => KT (tfind T' l) end.

Lemma tfind_head T' l l' z' : Permutation l l' -> tfind ((l', z') :: T') l = l'.
Proof. intros Hp. unfold tfind. simpl. rewrite <- (tset_eqb_perm l l l l' (Permutation_refl l) Hp), tset_eqb_refl. reflexivity. Qed.
Lemma tfind_skip T' l l0 l0' z' : Permutation l0 l0' -> tset_eqb l0 l = false -> tfind ((l0', z') :: T') l = tfind T' l.
Proof.
  intros Hp E. unfold tfind. simpl. rewrite <- (tset_eqb_perm l l l0 l0' (Permutation_refl l) Hp), tset_eqb_sym, E. reflexivity.
Qed.

Lemma tfind_map T T' : Forall2 tie_rel T T' -> tdist T -> map (fun lz : list C * Z => (tfind T' (fst lz), snd lz)) T = T'.
Proof.
  intros H. induction H as [|[l0 z] [l0' z'] T T' [Hp Hz] Hrest IH]; simpl; [reflexivity|]. simpl in Hp, Hz. subst z'.
  intros [H1 H2]. rewrite (tfind_head T' l0 l0' z Hp). f_equal. etransitivity; [|exact (IH H2)]. apply map_ext_in.
  intros x Hx. rewrite (tfind_skip T' (fst x) l0 l0' z Hp (H1 x Hx)). reflexivity.
Qed.
Lemma tfind_perm T T' l : Forall2 tie_rel T T' -> tdist T -> In l (map fst T) -> Permutation l (tfind T' l).
Proof.
  intros H. induction H as [|[l0 z] [l0' z'] T T' [Hp Hz] Hrest IH]; simpl; [tauto|]. simpl in Hp.
  intros [H1 H2] [<-|Hin]; [rewrite (tfind_head T' l0 l0' z' Hp); exact Hp|].
  apply in_map_iff in Hin. destruct Hin as (x & <- & Hx). rewrite (tfind_skip T' (fst x) l0 l0' z' Hp (H1 x Hx)).
  apply IH; [exact H2|apply in_map, Hx].
Qed.

Lemma tdist_nodup T : tdist T -> NoDup (map fst T).
Proof.
  induction T as [|[l0 z] T IH]; simpl; [constructor|]. intros [H1 H2]. constructor; [|apply IH, H2].
  intros Hi. apply in_map_iff in Hi. destruct Hi as (x & Hx & Hin). specialize (H1 x Hin). rewrite Hx, tset_eqb_refl in H1. discriminate.
Qed.
Lemma nf_keys P T : map fst (nf P T) = map K (map fst P) ++ map KT (map fst T).
Proof. unfold nf, kplain, tkeys. rewrite map_app, !map_map. reflexivity. Qed.
Lemma nf_keys_nodup P T : keysnd P -> tdist T -> NoDup (map fst (nf P T)).
Proof.
  intros HP HD. rewrite nf_keys. apply nodup_app_intro.
  - apply FinFun.Injective_map_NoDup; [intros a b [= E]; exact E|exact HP].
  - apply FinFun.Injective_map_NoDup; [intros a b [= E]; exact E|apply tdist_nodup, HD].
  - intros x Hx Hy. apply in_map_iff in Hx. apply in_map_iff in Hy. destruct Hx as (a & <- & _), Hy as (b & Hb & _). discriminate.
Qed.

Lemma gnb_len1 {X} (l : list (X * Q)) : NoDup (map fst l) -> (length (get_n_best Qle_bool l 1) <= 1)%nat.
Proof.
  intros Hn. destruct (gnb_shape_keys l 1%nat (le_n 1) Hn) as (cs & T & k & E & _ & _ & Hlen & _).
  rewrite E, app_length, map_length, repeat_length. lia.
Qed.

Lemma all_plain_none X : all_plain X = None <-> exists l, In (KT l) X.
Proof.
  induction X as [|[c|l] X IH]; simpl.
  - split; [discriminate|intros (l & [])].
  - destruct (all_plain X) as [l0|].
    + split; [discriminate|]. intros (l & [H|H]); [discriminate|]. assert (Hn : @None (list C) = None) by reflexivity.
      destruct IH as [_ IH]. specialize (IH (ex_intro _ l H)). discriminate.
    + split; [|reflexivity]. intros _. destruct (proj1 IH eq_refl) as (l & Hl). exists l. right. exact Hl.
  - split; [|reflexivity]. intros _. exists l. left. reflexivity.
Qed.

Definition quota_ext (quota : Q -> Z -> Q) : Prop := forall a b n, (a == b)%Q -> (quota a n == quota b n)%Q.

Lemma qrel_sym_emb : forall a a' b b' : Q, (a == a')%Q -> (b == b')%Q -> Qle_bool a' b' = Qle_bool a b.
Proof. intros a a' b b' Ha Hb. apply Qle_bool_Qeq; symmetry; assumption. Qed.

Section Sim.
  Variable quota : Q -> Z -> Q.
  Variable accept_equal : bool.
  Variable pol : policy.
  Hypothesis Hquota : quota_ext quota.

  Notation subtract := QuotaDistributor.subtract.

  Section Fixed.
    Variables votes votes' : list (C * Q).
    Variables prev prev' : zdict.
    Variables q q' : Q.
    Hypothesis Hvnd : NoDup (map fst votes).
    Hypothesis Hvp : Permutation votes votes'.
    Hypothesis Hpnd : keysnd prev.
    Hypothesis Hpp : Permutation prev prev'.
    Hypothesis Hq : (q' == q)%Q.

    Definition krems (vs : list (C * Q)) (qq : Q) (pv : zdict) (sel : list (key * Z)) : list (key * Q) :=
      map (fun ks : key * Z => (fst ks, krem vs qq pv ks)) sel.

    Lemma krems_keys vs qq pv sel : map fst (krems vs qq pv sel) = map fst sel.
    Proof. unfold krems. rewrite map_map. reflexivity. Qed.

    Lemma krems_kf vs qq pv T' P T :
      map (gk (kf T')) (krems vs qq pv (nf P T)) = krems vs qq pv (nf P (map (fun lz : list C * Z => (tfind T' (fst lz), snd lz)) T)).
    Proof. unfold krems, nf, kplain, tkeys. rewrite !map_app, !map_map. reflexivity. Qed.

    Lemma krems_rel sel : lrel (K := key) Qeq (krems votes q prev sel) (krems votes' q' prev' sel).
    Proof.
      unfold krems. induction sel as [|[[c|l] s] t IH]; simpl; constructor; try exact IH; (split; [reflexivity|]); unfold krem; cbn [fst snd].
      - rewrite (dget_or_perm votes votes' c 0%Q Hvnd Hvp), (dget_or_perm prev prev' c 0 Hpnd Hpp), Hq. reflexivity.
      - rewrite Hq. reflexivity.
    Qed.

    (* the head of get_n_best(remainders, 1) in the two runs *)
    Lemma kgnb P P' T T' : keysnd P -> Permutation P P' -> Forall2 tie_rel T T' -> tdist T ->
      match get_n_best Qle_bool (krems votes q prev (nf P T)) 1 with
      | [] => get_n_best Qle_bool (krems votes' q' prev' (nf P' T')) 1 = []
      | Cand k :: _ => (exists rest', get_n_best Qle_bool (krems votes' q' prev' (nf P' T')) 1 = Cand (kf T' k) :: rest') /\
                       In k (map fst (nf P T))
      | TieR X :: _ => exists X' rest', get_n_best Qle_bool (krems votes' q' prev' (nf P' T')) 1 = TieR X' :: rest' /\
                       Permutation (map (kf T') X) X'
      end.
    Proof.
      intros HP HPP HT HD.
      set (r := krems votes q prev (nf P T)). set (r' := krems votes' q' prev' (nf P' T')).
      set (rr := krems votes' q' prev' (nf P T')).
      assert (Hnd : NoDup (map fst r)) by (unfold r; rewrite krems_keys; apply nf_keys_nodup; assumption).
      (* the first run's remainders with the second run's numbers and tie keys: same outcome up to the renaming *)
      assert (Err : get_n_best Qle_bool rr 1 = map (res_map (kf T')) (get_n_best Qle_bool r 1)).
      { replace rr with (map (gk (kf T')) (krems votes' q' prev' (nf P T))) by (rewrite krems_kf, (tfind_map T T' HT HD); reflexivity).
        rewrite (get_n_best_gk Qle_bool (kf T')). f_equal.
        apply (get_n_best_rel Qle_bool Qle_bool Qeq qrel_sym_emb), krems_rel. }
      assert (Hperm : Permutation rr r').
      { unfold rr, r', krems, nf. apply Permutation_map, Permutation_app_tail, Permutation_map, HPP. }
      assert (Hndrr : NoDup (map fst rr)).
      { unfold rr. rewrite krems_keys. apply nf_keys_nodup; [exact HP|]. eapply tdist_rel; eassumption. }
      destruct (gnb_perm_shape rr r' 1%nat (le_n 1) Hndrr Hperm) as (cs & cs' & X2 & X2' & k & E & E' & Pcs & _ & PX).
      pose proof (gnb_len1 r Hnd) as Hlen.
      pose proof (gnb1_head r Hnd) as Hhead.
      rewrite Err in E. fold r'. rewrite E'.
      destruct (get_n_best Qle_bool r 1) as [|[k0|X] rest].
      - simpl in E. destruct cs as [|c0 cs]; [|discriminate]. destruct k as [|k]; [|discriminate].
        apply Permutation_nil in Pcs. subst cs'. reflexivity.
      - destruct rest; [|simpl in Hlen; lia]. simpl in E. split.
        + destruct cs as [|c0 [|c1 cs]]; simpl in E.
          * destruct k; discriminate.
          * injection E as <- E. destruct k; [|discriminate]. apply Permutation_length_1_inv in Pcs. subst cs'. exists []. reflexivity.
          * discriminate.
        + destruct Hhead as (v & Hv & _). unfold r in Hv. rewrite <- (krems_keys votes q prev). apply in_map_iff. exists (k0, v). auto.
      - destruct rest; [|simpl in Hlen; lia]. simpl in E.
        destruct cs as [|c0 cs]; [|discriminate]. apply Permutation_nil in Pcs. subst cs'.
        destruct k as [|[|k]]; simpl in E; try discriminate. injection E as <-.
        exists X2', []. split; [reflexivity|]. apply PX. lia.
    Qed.

    Lemma ksubtract_perm : forall fuel P P' T T' over, keysnd P -> Permutation P P' -> Forall2 tie_rel T T' -> tdist T ->
      qd_rel (ksubtract fuel votes q prev (nf P T) over) (ksubtract fuel votes' q' prev' (nf P' T') over).
    Proof.
      induction fuel as [|f IH]; intros P P' T T' over HP HPP HT HD.
      - simpl. destruct (over <=? 0); [|exact I]. apply ok_rel_nf; assumption.
      - cbn [ksubtract]. destruct (over <=? 0); [apply ok_rel_nf; assumption|].
        fold (krems votes q prev (nf P T)) (krems votes' q' prev' (nf P' T')).
        pose proof (kgnb P P' T T' HP HPP HT HD) as Hg.
        destruct (get_n_best Qle_bool (krems votes q prev (nf P T)) 1) as [|[k0|X] rest].
        + rewrite Hg. exact I.
        + destruct Hg as [(rest' & E') Hin]. rewrite E'. destruct k0 as [c|l]; cbn [kf].
          * rewrite !kdec_nf_K. apply IH; [apply dec_key_nodup, HP|apply dec_key_perm; assumption|exact HT|exact HD].
          * rewrite !kdec_nf_T. apply IH; [exact HP|exact HPP| |apply tdist_tdec, HD].
            apply tdec_rel; [exact HT|]. apply (tfind_perm T T' l HT HD).
            rewrite nf_keys in Hin. apply in_app_or in Hin.
            destruct Hin as [Hin|Hin]; apply in_map_iff in Hin; destruct Hin as (x & Hx & Hi); [discriminate|].
            injection Hx as <-. exact Hi.
        + destruct Hg as (X' & rest' & E' & HX). rewrite E'.
          destruct (all_plain X) as [l|] eqn:EA.
          * apply all_plain_some in EA. subst X.
            rewrite map_map in HX. cbn [kf] in HX. apply Permutation_sym, Permutation_map_inv in HX. destruct HX as (l' & -> & Hl).
            rewrite all_plain_map, !kmem_nf, <- (texists_rel T T' l l' HT Hl).
            destruct (existsb (fun lz : list C * Z => tset_eqb l (fst lz)) T) eqn:EM.
            -- rewrite !kdec_nf_T. apply IH; [exact HP|exact HPP|apply tdec_rel; assumption|apply tdist_tdec, HD].
            -- rewrite !fold_kdec_nf, !nf_snoc. apply IH.
               ++ apply fold_op_nodup; [apply dec_key_nodup|exact HP].
               ++ apply fold_op_perm; try assumption; [apply dec_key_nodup|apply dec_key_perm|apply dec_key_comm].
               ++ apply Forall2_app; [exact HT|]. constructor; [|constructor]. split; simpl; [exact Hl|]. rewrite (Permutation_length Hl). reflexivity.
               ++ apply tdist_snoc; assumption.
          * assert (EA' : all_plain X' = None).
            { apply all_plain_none. apply all_plain_none in EA. destruct EA as (l & Hl).
              exists (tfind T' l). apply (Permutation_in _ HX). apply in_map_iff. exists (KT l). split; [reflexivity|exact Hl]. }
            rewrite EA'. exact I.
    Qed.

    Lemma subtract_perm : forall fuel sel sel' over, keysnd sel -> Permutation sel sel' ->
      qd_rel (subtract fuel votes q prev sel over) (subtract fuel votes' q' prev' sel' over).
    Proof.
      intros fuel sel sel' over Hs Hp. rewrite !subtract_is_ksubtract.
      change (plain sel) with (kplain sel). change (plain sel') with (kplain sel').
      rewrite <- (app_nil_r (kplain sel)), <- (app_nil_r (kplain sel')).
      apply (ksubtract_perm fuel sel sel' [] [] over Hs Hp); constructor.
    Qed.
  End Fixed.

  Theorem qd_evaluate_perm votes votes' n prev prev' caps caps' :
    NoDup (map fst votes) -> Permutation votes votes' -> keysnd prev -> Permutation prev prev' ->
    (forall c, dget caps' c = dget caps c) ->
    qd_rel (qd_evaluate quota accept_equal pol votes n prev caps) (qd_evaluate quota accept_equal pol votes' n prev' caps').
  Proof.
    intros Hvnd Hvp Hpnd Hpp Hc. unfold qd_evaluate.
    assert (Hvnd' : NoDup (map fst votes')) by (eapply perm_nodup_keys; eassumption).
    assert (Hq : (quota (qsumv votes') n == quota (qsumv votes) n)%Q) by (apply Hquota; symmetry; apply qsumv_perm, Hvp).
    set (q := quota (qsumv votes) n) in *. set (q' := quota (qsumv votes') n) in *.
    assert (Hz : Qeq_bool q' 0 = Qeq_bool q 0) by (apply Qeq_bool_Qeq; [exact Hq|reflexivity]).
    assert (Hex : existsb (fun cv : C * Q => fulfills accept_equal (snd cv) q') votes' = existsb (fun cv : C * Q => fulfills accept_equal (snd cv) q) votes).
    { rewrite <- (existsb_perm _ _ _ Hvp). apply existsb_ext'. intros cv. unfold fulfills.
      rewrite (Qle_bool_Qeq (snd cv) (snd cv) q q'), (Qeq_bool_Qeq (snd cv) (snd cv) q q'); try reflexivity; exact Hq. }
    rewrite Hz, Hex. destruct (Qeq_bool q 0 && _); [exact I|].
    rewrite !scan_char; try assumption; try (intros ? ? []).
    cbn [app].
    assert (Hpd : forall c, dget_or prev' c 0 = dget_or prev c 0) by (intros c; symmetry; apply dget_or_perm; assumption).
    set (sel := flat_map (isel accept_equal q prev caps) votes).
    set (sel' := flat_map (isel accept_equal q' prev' caps') votes').
    assert (Hs : keysnd sel) by (apply isel_nodup, Hvnd).
    assert (Hsp : Permutation sel sel').
    { apply flat_map_perm_ext; [|exact Hvp]. intros cv. unfold isel.
      rewrite (scan_item_ext accept_equal q q' prev prev' caps caps' cv Hq Hpd Hc). reflexivity. }
    rewrite <- (zsumv_perm _ _ Hsp), <- (zsumv_perm _ _ Hpp).
    destruct (n <? _); [|apply ok_rel_kplain; assumption].
    destruct pol; [apply ok_rel_kplain; assumption|exact I|].
    apply subtract_perm; assumption.
  Qed.

  Definition lr_rel (r r' : lr_result) : Prop :=
    match r, r' with
    | LR_ok s, LR_ok s' => ok_rel s s'
    | LR_err e, LR_err e' => qd_rel e e'
    | LR_index, LR_index => True
    | _, _ => False
    end.

  Fixpoint tincr (t : list (list C * Z)) (l : list C) : list (list C * Z) :=
    match t with
    | [] => [(l, 1)]
    | (l0, z) :: r => if tset_eqb l l0 then (l0, z + 1) :: r else (l0, z) :: tincr r l
    end.

  Lemma tincr_rel t t' l l' : Forall2 tie_rel t t' -> Permutation l l' -> Forall2 tie_rel (tincr t l) (tincr t' l').
  Proof.
    intros H Hl. induction H as [|[l0 z] [l0' z'] t t' [Hp Hz] Hrest IH]; simpl.
    - constructor; [split; [exact Hl|reflexivity]|constructor].
    - simpl in Hp, Hz. subst z'. rewrite (tset_eqb_perm _ _ _ _ Hl Hp).
      destruct (tset_eqb l' l0'); constructor; try assumption; split; simpl; auto.
  Qed.

  Lemma plain_kincr_K d c : plain_of (kincr d (K c)) = incr_t (plain_of d) c.
  Proof.
    unfold incr_t. induction d as [|[[c'|l] s] t IH]; simpl; [reflexivity| |exact IH].
    unfold dget_or. simpl. destruct (ceqb c c') eqn:E; simpl; [reflexivity|].
    fold (plain_of t). fold (plain_of (kincr t (K c))). rewrite IH. reflexivity.
  Qed.
  Lemma ties_kincr_K d c : ties_of (kincr d (K c)) = ties_of d.
  Proof.
    induction d as [|[[c'|l] s] t IH]; simpl; [reflexivity| |].
    - destruct (ceqb c c'); simpl; [reflexivity|exact IH].
    - fold (ties_of t). fold (ties_of (kincr t (K c))). rewrite IH. reflexivity.
  Qed.
  Lemma plain_kincr_T d l : plain_of (kincr d (KT l)) = plain_of d.
  Proof.
    induction d as [|[[c'|l0] s] t IH]; simpl; [reflexivity| |].
    - fold (plain_of t). fold (plain_of (kincr t (KT l))). rewrite IH. reflexivity.
    - destruct (_ && _); simpl; [reflexivity|exact IH].
  Qed.
  Lemma ties_kincr_T d l : ties_of (kincr d (KT l)) = tincr (ties_of d) l.
  Proof.
    induction d as [|[[c'|l0] s] t IH]; simpl; [reflexivity|exact IH|].
    fold (tset_eqb l l0). destruct (tset_eqb l l0); simpl; [reflexivity|].
    fold (ties_of t). fold (ties_of (kincr t (KT l))). rewrite IH. reflexivity.
  Qed.

  Notation seatf := (fun (d : list (key * Z)) (r : res C) => match r with Cand c => kincr d (K c) | TieR l => kincr d (KT l) end).

  Lemma seat_cands cs : forall d, plain_of (fold_left seatf (map Cand cs) d) = fold_left incr_t cs (plain_of d) /\
    ties_of (fold_left seatf (map Cand cs) d) = ties_of d.
  Proof.
    induction cs as [|c cs IH]; intros d; simpl; [split; reflexivity|].
    destruct (IH (kincr d (K c))) as [A B]. rewrite A, B, plain_kincr_K, ties_kincr_K. split; reflexivity.
  Qed.

  Lemma seat_cands_rel cs cs' d d' : Permutation cs cs' -> ok_rel d d' ->
    ok_rel (fold_left seatf (map Cand cs) d) (fold_left seatf (map Cand cs') d').
  Proof.
    intros Hp (Hn & Hpl & Ht). destruct (seat_cands cs d) as [A B]. destruct (seat_cands cs' d') as [A' B'].
    unfold ok_rel. rewrite A, B, A', B'. split; [|split; [|exact Ht]].
    - apply fold_op_nodup; [apply incr_t_nodup|exact Hn].
    - apply fold_op_perm; try assumption; [apply incr_t_nodup|apply incr_t_perm|apply incr_t_comm].
  Qed.

  Lemma seat_ties_rel T T' k : Permutation T T' -> forall d d', ok_rel d d' ->
    ok_rel (fold_left seatf (repeat (TieR T) k) d) (fold_left seatf (repeat (TieR T') k) d').
  Proof.
    intros HT. induction k as [|k IH]; intros d d' H; simpl; [exact H|].
    apply IH. destruct H as (Hn & Hpl & Ht). unfold ok_rel. rewrite !plain_kincr_T, !ties_kincr_T.
    split; [exact Hn|]. split; [exact Hpl|]. apply tincr_rel; assumption.
  Qed.

  Lemma remainders_rel votes q q' gained gained' caps caps' : (q' == q)%Q ->
    (forall c, dget_or gained' c 0 = dget_or gained c 0) -> (forall c, dget caps' c = dget caps c) ->
    lrel (K := C) Qeq (remainders votes q gained caps) (remainders votes q' gained' caps').
  Proof.
    intros Hq Hg Hc. rewrite !remainders_eq.
    rewrite (filter_ext (has_room gained' caps') (has_room gained caps)) by (intros cv; unfold has_room; rewrite Hc, Hg; reflexivity).
    apply Forall2_map_same. intros cv. split; [reflexivity|]. cbn [snd]. rewrite Hg, Hq. reflexivity.
  Qed.

  Theorem lr_evaluate_perm votes votes' n prev prev' caps caps' :
    NoDup (map fst votes) -> Permutation votes votes' -> keysnd prev -> Permutation prev prev' ->
    (forall c, dget caps' c = dget caps c) ->
    lr_rel (lr_evaluate quota accept_equal pol votes n prev caps) (lr_evaluate quota accept_equal pol votes' n prev' caps').
  Proof.
    intros Hvnd Hvp Hpnd Hpp Hc. unfold lr_evaluate.
    pose proof (qd_evaluate_perm votes votes' n prev prev' caps caps' Hvnd Hvp Hpnd Hpp Hc) as Hqd.
    apply qd_rel_inv in Hqd.
    destruct (qd_evaluate quota accept_equal pol votes n prev caps) as [qe| | | | |]; [|rewrite Hqd; exact I ..].
    destruct Hqd as (qe' & -> & Hqd). fold (has_tie qe) (has_tie qe') (plain_of qe) (plain_of qe').
    rewrite <- (ok_rel_has_tie _ _ Hqd). destruct (has_tie qe); [exact I|].
    assert (Hq : (quota (qsumv votes') n == quota (qsumv votes) n)%Q) by (apply Hquota; symmetry; apply qsumv_perm, Hvp).
    set (q := quota (qsumv votes) n) in *. set (q' := quota (qsumv votes') n) in *.
    pose proof Hqd as (Hen & Hep & _).
    assert (Hgn : keysnd (add_dict (plain_of qe) prev)) by (apply add_dict_nodup, Hen).
    assert (Hgp : Permutation (add_dict (plain_of qe) prev) (add_dict (plain_of qe') prev')) by (apply add_dict_perm; assumption).
    set (gained := add_dict (plain_of qe) prev) in *. set (gained' := add_dict (plain_of qe') prev') in *.
    rewrite <- (zsumv_perm _ _ Hgp).
    assert (Hz : Qeq_bool q' 0 = Qeq_bool q 0) by (apply Qeq_bool_Qeq; [exact Hq|reflexivity]).
    rewrite Hz. destruct (Qeq_bool q 0); [exact I|].
    destruct (n - zsumv gained <=? 0) eqn:En; [exact Hqd|].
    fold (remainders votes q gained caps) (remainders votes' q' gained' caps').
    assert (Hg : forall c, dget_or gained' c 0 = dget_or gained c 0) by (intros c; symmetry; apply dget_or_perm; assumption).
    rewrite <- (get_n_best_rel Qle_bool Qle_bool Qeq qrel_sym_emb _ _ _ (remainders_rel votes q q' gained gained' caps caps' Hq Hg Hc)).
    assert (Hn1 : (1 <= Z.to_nat (n - zsumv gained))%nat) by (apply Z.leb_gt in En; lia).
    assert (Hnd2 : NoDup (map fst (remainders votes q' gained' caps'))) by (apply remainders_nodup, Hvnd).
    assert (Hp2 : Permutation (remainders votes q' gained' caps') (remainders votes' q' gained' caps')).
    { unfold remainders. apply Permutation_flat_map, Hvp. }
    destruct (gnb_perm_shape _ _ _ Hn1 Hnd2 Hp2) as (cs & cs' & T & T' & k & E & E' & Pcs & Ncs & PT).
    rewrite E, E', !fold_left_app. cbn [lr_rel].
    destruct k as [|k].
    - simpl. apply seat_cands_rel; assumption.
    - apply seat_ties_rel; [apply PT; lia|]. apply seat_cands_rel; assumption.
  Qed.
End Sim.

(* the library's quota functions do not distinguish equal rationals *)
Lemma quota_fn_ext qs : quota_ext (quota_fn qs).
Proof.
  intros a b n H. destruct qs as [i|qc]; [|reflexivity]. unfold quota_fn.
  assert (F : forall x y, (x == y)%Q -> (qfloor x == qfloor y)%Q) by (intros x y E; unfold qfloor; rewrite (Qfloor_comp _ _ E); reflexivity).
  assert (G : forall x y, (x == y)%Q -> (qceil x == qceil y)%Q) by (intros x y E; unfold qceil; rewrite (Qceiling_comp _ _ E); reflexivity).
  assert (R : forall x y, (x == y)%Q -> (round_half_up x == round_half_up y)%Q) by (intros x y E; unfold round_half_up; apply F; rewrite E; reflexivity).
  destruct (i =? 1); [unfold hare; rewrite H; reflexivity|].
  destruct (i =? 2); [unfold hare_rounded; apply R; rewrite H; reflexivity|].
  destruct (i =? 3); [unfold droop; apply Qplus_comp; [apply F; rewrite H|]; reflexivity|].
  destruct (i =? 4); [unfold hagenbach_bischoff; rewrite H; reflexivity|].
  destruct (i =? 5); [unfold hagenbach_bischoff_ceil; apply G; rewrite H; reflexivity|].
  destruct (i =? 6); [unfold hagenbach_bischoff_rounded; apply R; rewrite H; reflexivity|].
  unfold imperiali. rewrite H. reflexivity.
Qed.

(* every candidate has the same seats; tie keys correspond one to one with the same members and seats *)
Definition dict_obs_eq (s s' : list (key * Z)) : Prop :=
  (forall c, kdget s c = kdget s' c) /\ Forall2 tie_rel (ties_of s) (ties_of s') /\
  Permutation (plain_of s) (plain_of s') /\ NoDup (map fst (plain_of s)).
Definition qd_obs (r r' : qd_result) : Prop :=
  match r, r' with QD_ok s, QD_ok s' => dict_obs_eq s s' | _, _ => r = r' end.
Definition lr_obs (r r' : lr_result) : Prop :=
  match r, r' with
  | LR_ok s, LR_ok s' => dict_obs_eq s s'
  | LR_err e, LR_err e' => qd_obs e e'
  | LR_index, LR_index => True
  | _, _ => False
  end.

Lemma ok_rel_dict_obs s s' : ok_rel s s' -> dict_obs_eq s s'.
Proof.
  intros H. destruct (ok_rel_obs _ _ H) as [A B]. destruct H as (N & P & _).
  split; [exact A|]. split; [exact B|]. split; [exact P|exact N].
Qed.
Lemma qd_rel_obs r r' : qd_rel r r' -> qd_obs r r'.
Proof. destruct r, r'; simpl; intros H; try reflexivity; try contradiction. apply ok_rel_dict_obs, H. Qed.
Lemma lr_rel_obs r r' : lr_rel r r' -> lr_obs r r'.
Proof. destruct r, r'; simpl; intros H; try exact H; [apply ok_rel_dict_obs, H|apply qd_rel_obs, H]. Qed.
