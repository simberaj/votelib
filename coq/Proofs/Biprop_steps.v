(* Lemmas for property C07: invariants of the tie-and-transfer updates
   (seat transfer along ANY path, multiplier update by the adjustment coefficient),
   the feasibility reference, and the link of a certified row to the divisor method. *)
From Coq Require Import ZArith QArith List Bool Lia Lqa.
From VL Require Import Prelude.PyDict Model.Divisor Model.HighestAverages Model.Biprop
     Proofs.QOrd Proofs.Dict_proofs Proofs.Divisor_proofs Proofs.Biprop_proofs.
Import ListNotations.
Open Scope Z_scope.

Lemma zsum_indicator a (b : bool) l : NoDup l -> In a l ->
  zsum (map (fun x => if ceqb x a && b then 1 else 0) l) = if b then 1 else 0.
Proof.
  intros Hnd Hin. rewrite <- (zsum_point a (if b then 1 else 0) l Hnd Hin). apply zsum_map_ext.
  intros x _. destruct (ceqb x a), b; reflexivity.
Qed.
Lemma zsum_indicator' a (b : bool) l : NoDup l -> In a l ->
  zsum (map (fun x => if b && ceqb x a then 1 else 0) l) = if b then 1 else 0.
Proof.
  intros Hnd Hin. rewrite <- (zsum_indicator a b l Hnd Hin). apply zsum_map_ext.
  intros x _. rewrite andb_comm. reflexivity.
Qed.

Lemma mget_dset_row m i row i' j' :
  mget (dset m i row) i' j' = if ceqb i' i then dget_or row j' 0 else mget m i' j'.
Proof. unfold mget. rewrite dget_dset. destruct (ceqb i' i); reflexivity. Qed.

(* replacing row i by one that differs from it in column j only, where it now holds k *)
Lemma mget_dset_cell m i row row' j k : dget m i = Some row ->
  (forall j', dget_or row' j' 0 = if ceqb j' j then k else dget_or row j' 0) ->
  forall i' j', mget (dset m i row') i' j' = if ceqb i' i && ceqb j' j then k else mget m i' j'.
Proof.
  intros E H i' j'. rewrite mget_dset_row. destruct (ceqb i' i) eqn:Ei; [|reflexivity].
  apply ceqb_eq in Ei. subst i'. unfold mget. rewrite E. apply H.
Qed.
Lemma mget_dset_cell_delta m i row row' j delta : dget m i = Some row ->
  (forall j', dget_or row' j' 0 = if ceqb j' j then dget_or row j 0 + delta else dget_or row j' 0) ->
  forall i' j', mget (dset m i row') i' j' = mget m i' j' + (if ceqb i' i && ceqb j' j then delta else 0).
Proof.
  intros E H i' j'. rewrite (mget_dset_cell m i row row' j _ E H).
  destruct (ceqb i' i && ceqb j' j) eqn:Ec; [|lia].
  apply andb_true_iff in Ec. destruct Ec as [Ei Ej]. apply ceqb_eq in Ei. apply ceqb_eq in Ej. subst i' j'.
  unfold mget. rewrite E. reflexivity.
Qed.

Lemma cell_incr_mget m i j m' : cell_incr m i j = Some m' ->
  forall i' j', mget m' i' j' = mget m i' j' + (if ceqb i' i && ceqb j' j then 1 else 0).
Proof.
  unfold cell_incr. destruct (dget m i) as [row|] eqn:E; [|discriminate]. intros [= <-].
  apply (mget_dset_cell_delta m i row _ j 1 E). intros j'. apply dget_or_dset.
Qed.

Lemma dget_or_dremove (row : list (C * Z)) j j' :
  dget_or (dremove row j) j' 0 = if ceqb j' j then 0 else dget_or row j' 0.
Proof. unfold dget_or. rewrite dget_dremove. destruct (ceqb j' j); reflexivity. Qed.

Lemma cell_decr_mget m i j m' : cell_decr m i j = Some m' ->
  forall i' j', mget m' i' j' = mget m i' j' - (if ceqb i' i && ceqb j' j then 1 else 0).
Proof.
  unfold cell_decr. destruct (dget m i) as [row|] eqn:E; [|discriminate].
  destruct (dget row j) as [s|] eqn:Es; [|discriminate]. intros [= <-] i' j'.
  rewrite (mget_dset_cell_delta m i row _ j (-1) E); [destruct (ceqb i' i && ceqb j' j); lia|]. clear i' j'. intros j'.
  assert (Ej : dget_or row j 0 + -1 = s - 1) by (unfold dget_or; rewrite Es; lia). rewrite Ej.
  (* a cell that drops to 0 is deleted, and reads as 0 afterwards *)
  destruct (s - 1 =? 0) eqn:Z0; [|apply dget_or_dset].
  apply Z.eqb_eq in Z0. rewrite Z0. apply dget_or_dremove.
Qed.

(* net change of every cell along a path *)
Fixpoint aug_delta (cur : C) (hops : list (C * C)) (i j : C) : Z :=
  match hops with
  | [] => 0
  | (p, d') :: t => (if ceqb i cur && ceqb j p then 1 else 0) - (if ceqb i d' && ceqb j p then 1 else 0)
                    + aug_delta d' t i j
  end.

Lemma augment_mget : forall hops m cur m', augment m cur hops = Some m' ->
  forall i j, mget m' i j = mget m i j + aug_delta cur hops i j.
Proof.
  induction hops as [|[p d'] t IH]; intros m cur m' H i j; simpl in *.
  - injection H as <-. lia.
  - destruct (cell_incr m cur p) as [m1|] eqn:E1; [|discriminate].
    destruct (cell_decr m1 d' p) as [m2|] eqn:E2; [|discriminate].
    rewrite (IH _ _ _ H), (cell_decr_mget _ _ _ _ E2), (cell_incr_mget _ _ _ _ E1). lia.
Qed.

Lemma last_cons {X} (l : list X) : forall a x, last (a :: l) x = last l a.
Proof.
  induction l as [|b l IH]; intros a x; [reflexivity|].
  change (last (a :: b :: l) x) with (last (b :: l) x). rewrite (IH b x).
  change (last (b :: l) a) with (last (b :: l) a). rewrite (IH b a). reflexivity.
Qed.

Lemma aug_delta_col ds j : NoDup ds -> forall hops cur, In cur ds ->
  (forall p d', In (p, d') hops -> In d' ds) ->
  zsum (map (fun i => aug_delta cur hops i j) ds) = 0.
Proof.
  intros Hnd. induction hops as [|[p d'] t IH]; intros cur Hc Hh; simpl.
  - apply zsum_map_zero.
  - assert (Hd : In d' ds) by (apply (Hh p); left; reflexivity).
    rewrite (zsum_map_plus (fun i => (if ceqb i cur && ceqb j p then 1 else 0) - (if ceqb i d' && ceqb j p then 1 else 0))).
    rewrite (zsum_map_minus (fun i => if ceqb i cur && ceqb j p then 1 else 0)).
    rewrite !zsum_indicator by assumption. rewrite IH; [lia|exact Hd|].
    intros p0 d0 H0. apply (Hh p0). right. exact H0.
Qed.

Lemma aug_delta_row ps i : NoDup ps -> forall hops cur,
  (forall p d', In (p, d') hops -> In p ps) ->
  zsum (map (fun j => aug_delta cur hops i j) ps)
  = (if ceqb i cur then 1 else 0) - (if ceqb i (path_end cur hops) then 1 else 0).
Proof.
  intros Hnd. induction hops as [|[p d'] t IH]; intros cur Hh; simpl.
  - rewrite zsum_map_zero. unfold path_end. simpl. lia.
  - assert (Hp : In p ps) by (apply (Hh p d'); left; reflexivity).
    rewrite (zsum_map_plus (fun j => (if ceqb i cur && ceqb j p then 1 else 0) - (if ceqb i d' && ceqb j p then 1 else 0))).
    rewrite (zsum_map_minus (fun j => if ceqb i cur && ceqb j p then 1 else 0)).
    rewrite !zsum_indicator' by assumption. rewrite IH.
    + unfold path_end. simpl map. rewrite last_cons. lia.
    + intros p0 d0 H0. apply (Hh p0 d0). right. exact H0.
Qed.

Theorem augment_totals m start hops m' ds ps :
  augment m start hops = Some m' -> NoDup ds -> NoDup ps -> In start ds ->
  (forall p d', In (p, d') hops -> In p ps /\ In d' ds) ->
  (forall j, colsum m' ds j = colsum m ds j) /\
  (forall i, rowsum m' ps i = rowsum m ps i + (if ceqb i start then 1 else 0)
                              - (if ceqb i (path_end start hops) then 1 else 0)).
Proof.
  intros H Hds Hps Hs Hh. pose proof (augment_mget _ _ _ _ H) as G. split.
  - intros j. unfold colsum.
    rewrite (zsum_map_ext (fun i => mget m' i j) (fun i => mget m i j + aug_delta start hops i j)) by (intros; apply G).
    rewrite zsum_map_plus, aug_delta_col; [lia|exact Hds|exact Hs|]. intros p d' H0. apply (Hh p d' H0).
  - intros i. unfold rowsum.
    rewrite (zsum_map_ext (fun j => mget m' i j) (fun j => mget m i j + aug_delta start hops i j)) by (intros; apply G).
    rewrite zsum_map_plus, aug_delta_row; [change (fun j : C => mget m i j) with (mget m i); lia|exact Hps|]. intros p d' H0. apply (Hh p d' H0).
Qed.

Section Scale.
  Variable q : Q.
  Variable res : mat.
  Variables DL PL : list C.
  Notation sg i j := (signpost q (mget res i j)).
  Notation step := (scan_cell q res DL PL).

  (* a labelled district with an unlabelled party and a positive signpost: the cell competes for alpha;
     an unlabelled district with a labelled party and votes: the cell competes for beta *)
  Definition condA (cell : C * C * Q) : Prop :=
    let '(i, j, x) := cell in cmem i DL = true /\ cmem j PL = false /\ (0 < sg i j)%Q.
  Definition condB (cell : C * C * Q) : Prop :=
    let '(i, j, x) := cell in cmem i DL = false /\ cmem j PL = true /\ (0 < x)%Q.

  Definition beta_le (b0 : option Q) (b1 : option Q) : Prop :=
    forall b, b0 = Some b -> exists b', b1 = Some b' /\ (b' <= b)%Q.

  Lemma Qpos_b_false x : Qpos_b x = false <-> (x <= 0)%Q.
  Proof.
    split; intros H.
    - destruct (Qlt_le_dec 0 x) as [L|L]; [|exact L]. apply Qpos_b_iff in L. congruence.
    - destruct (Qpos_b x) eqn:E; [|reflexivity]. apply Qpos_b_iff in E. lra.
  Qed.

  Lemma step_facts st cell : sc_zerodiv (step st cell) = false ->
    sc_zerodiv st = false /\ (sc_alpha st <= sc_alpha (step st cell))%Q /\
    beta_le (sc_beta st) (sc_beta (step st cell)) /\
    (condA cell -> ~ (snd cell == 0)%Q /\ (sg (fst (fst cell)) (snd (fst cell)) / snd cell <= sc_alpha (step st cell))%Q) /\
    (condB cell -> exists b, sc_beta (step st cell) = Some b /\
                             (b <= (sg (fst (fst cell)) (snd (fst cell)) + 1) / snd cell)%Q) /\
    ((forall b, sc_beta st = Some b -> (0 < b)%Q) -> (condB cell -> (0 < (sg (fst (fst cell)) (snd (fst cell)) + 1) / snd cell)%Q) ->
     forall b, sc_beta (step st cell) = Some b -> (0 < b)%Q).
  Proof.
    destruct cell as [[i j] x]. unfold scan_cell, condA, condB, beta_le. simpl fst. simpl snd.
    destruct (sc_zerodiv st) eqn:Ez; [intros H; rewrite Ez in H; discriminate|].
    destruct (cmem i DL) eqn:Ei, (cmem j PL) eqn:Ej; simpl.
    - (* both labelled: untouched *)
      intros _. repeat split; try lra; try (intros b Hb; exists b; split; [exact Hb|lra]);
        try (intros [? [? ?]]; discriminate). intros Hp _ b Hb. apply Hp, Hb.
    - (* alpha side *)
      destruct (Qpos_b (sg i j)) eqn:Es.
      + destruct (Qeq_bool x 0) eqn:Ex; [simpl; discriminate|].
        assert (Hx : ~ (x == 0)%Q) by (intros H; apply Qeq_bool_iff in H; congruence).
        destruct (Qpos_b (sg i j / x - sc_alpha st)) eqn:Ea; simpl; intros _.
        * apply Qpos_b_iff in Ea. repeat split; try lra; try (intros b Hb; exists b; split; [exact Hb|lra]);
            try (intros [? [? ?]]; discriminate); try exact Hx. intros Hp _ b Hb. apply Hp, Hb.
        * apply Qpos_b_false in Ea. repeat split; try lra; try (intros b Hb; exists b; split; [exact Hb|lra]);
            try (intros [? [? ?]]; discriminate); try exact Hx. intros Hp _ b Hb. apply Hp, Hb.
      + apply Qpos_b_false in Es. intros _.
        repeat split; try lra; try (intros b Hb; exists b; split; [exact Hb|lra]);
          try (intros [? [? ?]]; try discriminate; lra). intros Hp _ b Hb. apply Hp, Hb.
    - (* beta side *)
      destruct (Qpos_b x) eqn:Ex.
      + destruct (sc_beta st) as [b0|] eqn:Eb.
        * destruct (Qpos_b (b0 - (sg i j + 1) / x)) eqn:Ec; simpl; intros _.
          -- apply Qpos_b_iff in Ec. repeat split; try lra; try (intros [? [? ?]]; discriminate).
             ++ intros b [= <-]. eexists. split; [reflexivity|lra].
             ++ intros _. eexists. split; [reflexivity|lra].
             ++ intros _ Hb b [= <-]. apply Hb. apply Qpos_b_iff in Ex. repeat split; exact Ex.
          -- apply Qpos_b_false in Ec. rewrite Eb. repeat split; try lra; try (intros [? [? ?]]; discriminate).
             ++ intros b [= <-]. eexists. split; [reflexivity|lra].
             ++ intros _. eexists. split; [reflexivity|lra].
             ++ intros Hp _ b Hb. apply Hp, Hb.
        * simpl. intros _. repeat split; try lra; try (intros [? [? ?]]; discriminate).
          -- intros b Hb. discriminate.
          -- intros _. eexists. split; [reflexivity|lra].
          -- intros _ Hb b [= <-]. apply Hb. apply Qpos_b_iff in Ex. repeat split; exact Ex.
      + apply Qpos_b_false in Ex. intros _.
        repeat split; try lra; try (intros b Hb; exists b; split; [exact Hb|lra]);
          try (intros [? [? ?]]; try discriminate; lra). intros Hp _ b Hb. apply Hp, Hb.
    - (* neither labelled *)
      intros _. repeat split; try lra; try (intros b Hb; exists b; split; [exact Hb|lra]);
        try (intros [? [? ?]]; discriminate). intros Hp _ b Hb. apply Hp, Hb.
  Qed.

  Lemma beta_le_trans a b c : beta_le a b -> beta_le b c -> beta_le a c.
  Proof.
    intros H1 H2 x Hx. destruct (H1 x Hx) as (y & Hy & L1). destruct (H2 y Hy) as (z & Hz & L2).
    exists z. split; [exact Hz|lra].
  Qed.

  Lemma scan_facts : forall cells st, sc_zerodiv (fold_left step cells st) = false ->
    sc_zerodiv st = false /\ (sc_alpha st <= sc_alpha (fold_left step cells st))%Q /\
    beta_le (sc_beta st) (sc_beta (fold_left step cells st)) /\
    (forall cell, In cell cells -> condA cell ->
       ~ (snd cell == 0)%Q /\
       (sg (fst (fst cell)) (snd (fst cell)) / snd cell <= sc_alpha (fold_left step cells st))%Q) /\
    (forall cell, In cell cells -> condB cell ->
       exists b, sc_beta (fold_left step cells st) = Some b /\
                 (b <= (sg (fst (fst cell)) (snd (fst cell)) + 1) / snd cell)%Q) /\
    ((forall b, sc_beta st = Some b -> (0 < b)%Q) ->
     (forall cell, In cell cells -> condB cell -> (0 < (sg (fst (fst cell)) (snd (fst cell)) + 1) / snd cell)%Q) ->
     forall b, sc_beta (fold_left step cells st) = Some b -> (0 < b)%Q).
  Proof.
    induction cells as [|cell cells IH]; intros st H; simpl in *.
    - repeat split; try lra; try tauto. intros b Hb. exists b. split; [exact Hb|lra].
    - destruct (IH _ H) as (Z1 & A1 & B1 & CA & CB & P1).
      destruct (step_facts st cell Z1) as (Z0 & A0 & B0 & CA0 & CB0 & P0).
      split; [exact Z0|]. split; [lra|]. split; [eapply beta_le_trans; eassumption|].
      split; [|split].
      + intros c [<-|Hc] Hcond.
        * destruct (CA0 Hcond) as [Hx Ha]. split; [exact Hx|lra].
        * apply CA; assumption.
      + intros c [<-|Hc] Hcond.
        * destruct (CB0 Hcond) as (b & Hb & Lb). destruct (B1 b Hb) as (b' & Hb' & Lb').
          exists b'. split; [exact Hb'|lra].
        * apply CB; assumption.
      + intros Hp Hc. apply P1.
        * apply P0; [exact Hp|]. intros Hcond. apply (Hc cell); [left; reflexivity|exact Hcond].
        * intros c Hin. apply Hc. right. exact Hin.
  Qed.

  (* the implementation's cell invariant: signpost <= quotient <= signpost + 1, quotient >= 0 *)
  Definition within (x : Q) (s : Z) : Prop := (0 <= x /\ signpost q s <= x /\ x <= signpost q s + 1)%Q.
  Lemma within_b_iff x s : within_b q x s = true <-> within x s.
  Proof. unfold within_b, within. rewrite !andb_true_iff, !Qle_bool_iff. tauto. Qed.

  (* the quotient of a cell after district_coefs[d] *= a (d labelled), party_coefs[p] /= a (p labelled) *)
  Definition scaled (a : Q) (cell : C * C * Q) : Q :=
    let '(i, j, x) := cell in
    (x * (if cmem i DL then a else 1) / (if cmem j PL then a else 1))%Q.

  (* the coefficient returned is the larger of alpha and 1 / beta *)
  Lemma adj_coef_ge quots a : adj_coef q quots res DL PL = Adj a ->
    let fin := fold_left step (cells_of quots) (mk_scan 0 None false) in
    sc_zerodiv fin = false /\ (sc_alpha fin <= a)%Q /\ forall b, sc_beta fin = Some b -> (1 / b <= a)%Q.
  Proof.
    unfold adj_coef. cbv zeta. set (fin := fold_left step (cells_of quots) (mk_scan 0 None false)).
    destruct (sc_zerodiv fin); [discriminate|]. intros Ha. split; [reflexivity|].
    destruct (sc_beta fin) as [b|]; injection Ha as <-.
    - destruct (Qle_bool (1 / b) (sc_alpha fin)) eqn:E.
      + apply Qle_bool_iff in E. split; [lra|]. intros b0 [= <-]. exact E.
      + apply Qle_bool_false in E. split; [lra|]. intros b0 [= <-]. lra.
    - split; [|discriminate]. destruct (Qle_bool 0 (sc_alpha fin)) eqn:E; [lra|]. apply Qle_bool_false in E. lra.
  Qed.

  Theorem scale_keeps_cells quots a :
    adj_coef q quots res DL PL = Adj a -> (0 < a)%Q -> (a <= 1)%Q ->
    (forall cell, In cell (cells_of quots) -> within (snd cell) (mget res (fst (fst cell)) (snd (fst cell)))) ->
    forall cell, In cell (cells_of quots) ->
      within (scaled a cell) (mget res (fst (fst cell)) (snd (fst cell))).
  Proof.
    intros Ha Hpos Hle1 Hin. destruct (adj_coef_ge quots a Ha) as (Ez & Halpha & Hbeta).
    destruct (scan_facts _ _ Ez) as (_ & _ & _ & CA & CB & PB).
    set (fin := fold_left step (cells_of quots) (mk_scan 0 None false)) in *.
    assert (Hbpos : forall b, sc_beta fin = Some b -> (0 < b)%Q).
    { apply PB; [intros b Hb; discriminate|].
      intros [[i j] x] Hc (_ & _ & Hx). cbn [fst snd]. destruct (Hin _ Hc) as (_ & _ & Hu). cbn [fst snd] in Hu.
      apply Qlt_shift_div_l; [exact Hx|]. lra. }
    intros [[i j] x] Hc. specialize (Hin _ Hc) as Hw. cbn [fst snd scaled] in Hw |- *.
    destruct Hw as (H0 & Hlo & Hhi). unfold within.
    destruct (cmem i DL) eqn:Ei, (cmem j PL) eqn:Ej.
    - assert (E : (x * a / a == x)%Q) by (field; lra). rewrite E. repeat split; assumption.
    - assert (E : (x * a / 1 == x * a)%Q) by (field). rewrite E.
      split; [nra|]. split; [|nra].
      destruct (Qlt_le_dec 0 (sg i j)) as [Hs|Hs]; [|nra].
      destruct (CA (i, j, x) Hc) as [Hx Hd]; [repeat split; assumption|]. cbn [fst snd] in Hx, Hd.
      assert (Hxp : (0 < x)%Q) by (destruct (Qlt_le_dec 0 x) as [L|L]; [exact L|exfalso; apply Hx; lra]).
      assert (Hd' : (sg i j / x <= a)%Q) by lra.
      assert (E2 : (sg i j == sg i j / x * x)%Q) by (field; lra).
      remember (sg i j / x)%Q as t. nra.
    - assert (E : (x * 1 / a == x / a)%Q) by (field; lra). rewrite E.
      assert (Hdiv : (x <= x / a)%Q).
      { apply Qle_shift_div_l; [exact Hpos|]. nra. }
      split; [lra|]. split; [lra|].
      destruct (Qlt_le_dec 0 x) as [Hx|Hx].
      + destruct (CB (i, j, x) Hc) as (b & Hb & Lb); [repeat split; assumption|]. cbn [fst snd] in Lb.
        pose proof (Hbpos b Hb) as Hbp. pose proof (Hbeta b Hb) as Hba.
        assert (H1 : (1 <= a * b)%Q).
        { assert (E2 : (1 == 1 / b * b)%Q) by (field; lra). remember (1 / b)%Q as t. nra. }
        assert (H2 : (b * x <= sg i j + 1)%Q).
        { assert (E2 : (sg i j + 1 == (sg i j + 1) / x * x)%Q) by (field; lra).
          remember ((sg i j + 1) / x)%Q as t. nra. }
        apply Qle_shift_div_r; [exact Hpos|]. nra.
      + assert (Hx0 : (x == 0)%Q) by lra. rewrite Hx0.
        assert (E0 : (0 / a == 0)%Q) by (field; lra). rewrite E0. lra.
    - assert (E : (x * 1 / 1 == x)%Q) by field. rewrite E. repeat split; assumption.
  Qed.
End Scale.

(* the multiplier update does to a quotient what [scaled] says *)
Lemma quot_0 r g : (quot 0 r g == 0)%Q.
Proof. unfold quot. change (inject_Z 0) with 0%Q. ring. Qed.
Lemma quot_scale_rho v r g a : (quot v (r * a) g == quot v r g * a)%Q.
Proof. unfold quot. ring. Qed.
Lemma quot_scale_gamma v r g a : ~ (a == 0)%Q -> (quot v r (g / a) == quot v r g / a)%Q.
Proof. intros H. unfold quot. field. exact H. Qed.

Lemma rounds_compat d x y s : (x == y)%Q -> rounds d x s -> rounds d y s.
Proof. intros E (H0 & H1 & H2). unfold rounds. rewrite <- E. auto. Qed.

(* the implementation's units and the divisor units of the checker: a divisor sequence k * (s + 1 - q) rounds at the
   signposts s - q of the quotients scaled by k *)
Lemma within_rounds d q k x s : (0 < k)%Q -> (forall t, (d t == k * (inject_Z t + 1 - q))%Q) ->
  0 <= s -> within q x s -> rounds d (x * k) s.
Proof.
  intros Hk Hd Hs (W1 & W2 & W3). unfold signpost in *. unfold rounds. split; [exact Hs|]. split.
  - rewrite Hd. nra.
  - intros Hs1. rewrite Hd.
    assert (E : (inject_Z (s - 1) == inject_Z s - 1)%Q).
    { unfold Z.sub. rewrite inject_Z_plus. reflexivity. }
    rewrite E. nra.
Qed.
Lemma within_rounds_d_hondt x s : 0 <= s -> within 0 x s -> rounds d_hondt x s.
Proof.
  intros Hs W. apply (rounds_compat d_hondt (x * 1)); [ring|]. apply (within_rounds d_hondt 0 1); [lra| |exact Hs|exact W].
  intros t. unfold d_hondt. rewrite inject_Z_plus. change (inject_Z 1) with 1%Q. ring.
Qed.
Lemma within_rounds_sainte_lague x s : 0 <= s -> within (1 # 2) x s -> rounds sainte_lague (2 * x) s.
Proof.
  intros Hs W. apply (rounds_compat sainte_lague (x * 2)); [ring|]. apply (within_rounds sainte_lague (1 # 2) 2); [lra| |exact Hs|exact W].
  intros t. unfold sainte_lague. rewrite inject_Z_plus, inject_Z_mult. change (inject_Z 1) with 1%Q. change (inject_Z 2) with 2%Q. ring.
Qed.

Section FlowP.
  Variables ds ps : list C.
  Variable sup : C -> C -> bool.
  Variables r c : C -> Z.

  Definition matrix_spec (m : mat) : Prop :=
    (forall i, In i ds -> rowsum m ps i = r i) /\
    (forall j, In j ps -> colsum m ds j = c j) /\
    (forall i j, In i ds -> In j ps -> 0 <= mget m i j /\ (sup i j = false -> mget m i j = 0)).

  Lemma matrix_ok_iff m : matrix_ok ds ps sup r c m = true <-> matrix_spec m.
  Proof.
    unfold matrix_ok, matrix_spec. rewrite !andb_true_iff, !forallb_forall. split.
    - intros [[H1 H2] H3]. repeat split.
      + intros i Hi. apply Z.eqb_eq, H1, Hi.
      + intros j Hj. apply Z.eqb_eq, H2, Hj.
      + specialize (H3 i H). rewrite forallb_forall in H3. specialize (H3 j H0).
        apply andb_true_iff in H3. apply Z.leb_le, H3.
      + intros Hs. specialize (H3 i H). rewrite forallb_forall in H3. specialize (H3 j H0).
        apply andb_true_iff in H3. destruct H3 as [_ H3]. rewrite Hs in H3. simpl in H3. apply Z.eqb_eq, H3.
    - intros (H1 & H2 & H3). repeat split.
      + intros i Hi. apply Z.eqb_eq, H1, Hi.
      + intros j Hj. apply Z.eqb_eq, H2, Hj.
      + intros i Hi. apply forallb_forall. intros j Hj. destruct (H3 i j Hi Hj) as [Ha Hb].
        apply andb_true_iff. split; [apply Z.leb_le, Ha|].
        destruct (sup i j) eqn:E; [reflexivity|]. simpl. apply Z.eqb_eq, Hb. reflexivity.
  Qed.

  Lemma totals_agree m : matrix_spec m -> zsum (map r ds) = zsum (map c ps).
  Proof.
    intros (H1 & H2 & _).
    rewrite <- (zsum_map_ext (fun i => rowsum m ps i) r ds H1).
    rewrite <- (zsum_map_ext (fun j => colsum m ds j) c ps H2).
    unfold rowsum, colsum. apply (zsum_swap (fun i j => mget m i j)).
  Qed.

  (* a verified cut excludes every matrix *)
  Theorem cut_sound cut : cut_ok ds ps sup r c cut = true -> forall m, ~ matrix_spec m.
  Proof.
    unfold cut_ok. intros H m Hm. apply orb_true_iff in H. destruct H as [H|H].
    - apply negb_true_iff, Z.eqb_neq in H. apply H, (totals_agree m Hm).
    - apply Z.ltb_lt in H. destruct Hm as (H1 & H2 & H3).
      set (S' := filter (fun i => cmem i cut) ds) in *.
      set (inT := fun j => existsb (fun i => cmem i cut && sup i j) ds).
      assert (HS : forall i, In i S' -> In i ds /\ cmem i cut = true) by (intros i Hi; apply filter_In in Hi; exact Hi).
      assert (HT : forall j, In j (reach ds ps sup cut) -> In j ps) by (intros j Hj; apply filter_In in Hj; apply Hj).
      assert (E1 : zsum (map r S') = zsum (map (fun i => zsum (map (fun j => mget m i j) (reach ds ps sup cut))) S')).
      { apply zsum_map_ext. intros i Hi. destruct (HS i Hi) as [Hd Hc]. rewrite <- (H1 i Hd). unfold rowsum, reach.
        symmetry. apply zsum_filter_eq. intros j Hj Hf.
        apply (H3 i j Hd Hj). destruct (sup i j) eqn:Es; [|reflexivity].
        exfalso. assert (existsb (fun i0 => cmem i0 cut && sup i0 j) ds = true); [|congruence].
        apply existsb_exists. exists i. split; [exact Hd|]. rewrite Hc, Es. reflexivity. }
      rewrite (zsum_swap (fun i j => mget m i j)) in E1.
      assert (E2 : zsum (map (fun j => zsum (map (fun i => mget m i j) S')) (reach ds ps sup cut))
                   <= zsum (map c (reach ds ps sup cut))).
      { apply zsum_map_le. intros j Hj. rewrite <- (H2 j (HT j Hj)). unfold colsum, S'.
        apply zsum_filter_le. intros i Hi. apply (H3 i j Hi (HT j Hj)). }
      lia.
  Qed.

  Lemma flow_loop_sound fuel : forall m0,
    match flow_loop ds ps sup r c fuel m0 with
    | FeasMatrix m => matrix_ok ds ps sup r c m = true
    | FeasCut cut => cut_ok ds ps sup r c cut = true
    | FeasUnknown => True
    end.
  Proof.
    induction fuel as [|f IH]; intros m0; simpl; [exact I|].
    destruct (filter (fun i => rowsum m0 ps i <? r i) ds) as [|x dl] eqn:Ed.
    - destruct (matrix_ok ds ps sup r c m0) eqn:E; [exact E|exact I].
    - destruct (sweeps ds ps sup (length ds + length ps + 1) m0 _) as [lr lc].
      destruct (filter _ lc) as [|[j p] rest].
      + destruct (cut_ok ds ps sup r c (map fst lr)) eqn:E; [exact E|exact I].
      + destruct (push_back _ _ _ _ _) as [m'|]; [apply IH|exact I].
  Qed.

  Theorem feasible_ref_sound :
    match feasible_ref ds ps sup r c with
    | FeasMatrix m => matrix_spec m
    | FeasCut cut => forall m, ~ matrix_spec m
    | FeasUnknown => True
    end.
  Proof.
    unfold feasible_ref. destruct (negb (zsum (map r ds) =? zsum (map c ps))).
    - destruct (cut_ok ds ps sup r c []) eqn:E; [apply (cut_sound [] E)|exact I].
    - pose proof (flow_loop_sound (Z.to_nat (zsum (map (fun i => Z.max 0 (r i)) ds)) + 1) []) as H.
      destruct (flow_loop _ _ _ _ _ _ _) as [m|cut|]; [apply matrix_ok_iff, H|apply (cut_sound cut H)|exact I].
  Qed.
End FlowP.

Lemma Qdiv_le_cross a b c e : (0 < b)%Q -> (0 < e)%Q -> (a / b <= c / e <-> a * e <= c * b)%Q.
Proof.
  intros Hb He.
  assert (Ea : (a * e == a / b * (b * e))%Q) by (field; lra).
  assert (Ec : (c * b == c / e * (b * e))%Q) by (field; lra).
  rewrite Ea, Ec. symmetry. apply Qmult_le_r, Qmult_lt_0_compat; assumption.
Qed.

Section Row.
  Variable d : Z -> Q.
  Hypothesis Hpos : forall k, 0 <= k -> (0 < d k)%Q.

  (* scaled votes w, seats s, multiplier rho: every s j is a rounding of w j * rho.  Then no unseated
     claim is stronger than a seated one (the min-max inequality that characterises divisor methods,
     C01_optimal's statement) *)
  Lemma row_minmax (w : C -> Q) (s : C -> Z) (rho : Q) (ps : list C) :
    (0 < rho)%Q -> (forall j, In j ps -> (0 <= w j)%Q) ->
    (forall j, In j ps -> rounds d (w j * rho) (s j)) ->
    forall j j', In j ps -> In j' ps -> 0 < s j' ->
      (w j / d (s j) <= w j' / d (s j' - 1))%Q.
  Proof.
    intros Hr Hw Hx j j' Hj Hj' Hs.
    destruct (Hx j Hj) as (S0 & U & _). destruct (Hx j' Hj') as (S0' & _ & Lo). specialize (Lo Hs).
    pose proof (Hpos (s j) S0) as D1. pose proof (Hpos (s j' - 1) ltac:(lia)) as D2.
    pose proof (Hw j Hj) as W1. pose proof (Hw j' Hj') as W2.
    apply Qdiv_le_cross; [exact D1|exact D2|].
    assert (P1 : (0 <= w j * (w j' * rho - d (s j' - 1)))%Q) by (apply Qmult_le_0_compat; lra).
    assert (P2 : (0 <= w j' * (d (s j) - w j * rho))%Q) by (apply Qmult_le_0_compat; lra).
    lra.
  Qed.
End Row.

(* every district row of a certified matrix, read with the party multipliers as vote weights, is a
   divisor-method apportionment of the district's seats with divisor 1 / (district multiplier) *)
Lemma spec_row_minmax d ds ps votes dseats pseats res rho gamma :
  (forall k, 0 <= k -> (0 < d k)%Q) -> (forall i j, 0 <= mget votes i j) ->
  spec_with d ds ps votes dseats pseats res rho gamma ->
  forall i, In i ds -> forall j j', In j ps -> In j' ps -> (0 < mget res i j')%Z ->
    (inject_Z (mget votes i j) * gamma j / d (mget res i j)
     <= inject_Z (mget votes i j') * gamma j' / d (mget res i j' - 1)%Z)%Q.
Proof.
  intros Hpos Hv [_ _ _ _ Hr Hg Hx] i Hi j j' Hj Hj' Hs.
  apply (row_minmax d Hpos (fun j => inject_Z (mget votes i j) * gamma j)%Q (fun j => mget res i j) (rho i) ps).
  - apply Hr, Hi.
  - intros k Hk. apply Qmult_le_0_compat; [|apply Qlt_le_weak, Hg, Hk].
    change 0%Q with (inject_Z 0). rewrite <- Zle_Qle. apply Hv.
  - intros k Hk. eapply rounds_compat; [|apply (Hx i k Hi Hk)]. unfold quot. ring.
  - exact Hj.
  - exact Hj'.
  - exact Hs.
Qed.

Lemma ha_marginal_spec d tv n g : ha_marginal d tv n = Some g ->
  HighestAverages.evaluate d tv n [] [] = HA_ok g None.
Proof.
  unfold ha_marginal. destruct (HighestAverages.evaluate d tv n [] []) as [g' [t|]|]; try discriminate.
  intros [= ->]. reflexivity.
Qed.

Lemma add_new_keeps l k x : In x l -> In x (add_new l k).
Proof. unfold add_new. destruct (cmem k l); [auto|]. intros H. apply in_or_app. left. exact H. Qed.
Lemma add_new_has l k : In k (add_new l k).
Proof.
  unfold add_new. destruct (cmem k l) eqn:E; [apply cmem_In, E|]. apply in_or_app. right. left. reflexivity.
Qed.
Lemma add_new_nodup l k : NoDup l -> NoDup (add_new l k).
Proof.
  intros H. unfold add_new. destruct (cmem k l) eqn:E; [exact H|].
  assert (Hn : ~ In k l) by (intros Hi; apply cmem_In in Hi; congruence).
  clear E. induction H as [|x l Hx Hl IH]; simpl.
  - constructor; [tauto|constructor].
  - constructor.
    + intros Hi. apply in_app_or in Hi. destruct Hi as [Hi|[Hi|[]]]; [tauto|]. subst. apply Hn. left. reflexivity.
    + apply IH. intros Hi. apply Hn. right. exact Hi.
Qed.

Definition row_fold (acc : list C) (row : list (C * Z)) : list C :=
  fold_left (fun acc kv => add_new acc (fst kv)) row acc.
Lemma row_fold_facts row : forall acc,
  (forall x, In x acc -> In x (row_fold acc row)) /\
  (forall kv, In kv row -> In (fst kv) (row_fold acc row)) /\
  (NoDup acc -> NoDup (row_fold acc row)).
Proof.
  unfold row_fold. induction row as [|kv row IH]; intros acc; simpl.
  - repeat split; auto. intros kv [].
  - destruct (IH (add_new acc (fst kv))) as (K1 & K2 & K3). repeat split.
    + intros x Hx. apply K1, add_new_keeps, Hx.
    + intros kv' [<-|H]; [apply K1, add_new_has|apply K2, H].
    + intros H. apply K3, add_new_nodup, H.
Qed.

Lemma parties_facts (votes : mat) : forall acc,
  let out := fold_left (fun acc row => row_fold acc (snd row)) votes acc in
  (forall x, In x acc -> In x out) /\
  (forall row kv, In row votes -> In kv (snd row) -> In (fst kv) out) /\
  (NoDup acc -> NoDup out).
Proof.
  induction votes as [|row votes IH]; intros acc; simpl.
  - repeat split; auto. intros row kv [].
  - destruct (IH (row_fold acc (snd row))) as (K1 & K2 & K3).
    destruct (row_fold_facts (snd row) acc) as (R1 & R2 & R3). repeat split.
    + intros x Hx. apply K1, R1, Hx.
    + intros row' kv [<-|H] Hk; [apply K1, R2, Hk|apply (K2 row' kv H Hk)].
    + intros H. apply K3, R3, H.
Qed.

Lemma parties_nodup votes : NoDup (parties votes).
Proof. destruct (parties_facts votes []) as (_ & _ & K). apply K. constructor. Qed.

(* every cell with votes lies inside districts x parties, so the sums of the statement are the full
   district and party totals *)
Lemma support_in_index votes i j : mget votes i j <> 0 -> In i (districts votes) /\ In j (parties votes).
Proof.
  intros H. destruct (mget_stored votes i j H) as (row & kv & Hr & Hi & Hk & Hj). split.
  - unfold districts. rewrite <- Hi. apply in_map, Hr.
  - rewrite <- Hj. destruct (parties_facts votes []) as (_ & K & _). apply (K row kv Hr Hk).
Qed.
