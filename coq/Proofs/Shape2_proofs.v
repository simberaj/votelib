(* Result shape (C08), second part: the declarative shape [sel_shape] of Proofs/Shape_proofs.v proved for the
   evaluators that end in get_n_best over a per-candidate dictionary (Copeland raw / second order, minimax,
   Schulze), for Kemeny-Young and ranked pairs, score voting, majority judgment (both tie-breakers), PAV, SPAV
   and preference addition (Bucklin / Oklahoma: at most n, well-shaped for its own length; the short list is a
   refuted clause with its witness).

   [nform cands n r]: r is plain winners followed by k copies of ONE tie object with more than k members, all
   named candidates distinct members of cands, n entries.  It is closed under prefixing distinct plain winners
   that are not candidates of the rest (the way every tie-breaking / multi-round rule composes its answer),
   and it implies [sel_shape]. *)
From Coq Require Import ZArith QArith List Bool Lia Permutation Arith.
From VL Require Import Prelude.PyDict Model.GetNBest Model.Convert Model.Cardinal Model.Condorcet Proofs.Dict_proofs Proofs.GetNBest_proofs
     Proofs.QOrd Proofs.HA_proofs Proofs.Condorcet_proofs Proofs.Shape_proofs Proofs.Smith_proofs Proofs.Minimax_proofs
     Proofs.Schulze_proofs Proofs.Kemeny_proofs Proofs.RankedPairs_proofs Proofs.Cardinal_proofs Proofs.MJ_proofs Proofs.JR_proofs
     Prelude.Sx Prelude.GDict Model.Bucklin Proofs.Bucklin_proofs Model.Star.
Import ListNotations.
Close Scope Q_scope.
Close Scope Z_scope.
Open Scope nat_scope.

Lemma exists_not_in (cands l : list C) : NoDup cands -> length l < length cands -> exists c, In c cands /\ ~ In c l.
Proof.
  intros Hn Hl. destruct (Forall_Exists_dec (fun c => In c l) (fun c => in_dec Pos.eq_dec c l) cands) as [Hall|Hex].
  - rewrite Forall_forall in Hall. pose proof (NoDup_incl_length Hn Hall). lia.
  - apply Exists_exists in Hex. exact Hex.
Qed.

Definition keyed {V} (K : list C) (d : list (C * V)) : Prop := NoDup (map fst d) /\ forall y, In y (map fst d) <-> In y K.

Lemma dset_keyed {V} K (d : list (C * V)) c v : In c K -> keyed K d -> keyed K (dset d c v).
Proof.
  intros Hc [Hn Hk]. destruct (dset_keys d c v Hn) as [N K']. split; [exact N|].
  intros y. rewrite K', Hk. split; [intros [->|H]; assumption|intros H; right; exact H].
Qed.

Definition nform (cands : list C) (n : nat) (r : list (res C)) : Prop :=
  exists (e T : list C) (k : nat),
    r = map Cand e ++ repeat (TieR T) k /\ length e + k = n /\ (k = 0 \/ k < length T) /\
    NoDup (e ++ T) /\ incl (e ++ T) cands.

Lemma nform_shape cands n r : nform cands n r -> sel_shape cands n r.
Proof. intros (e & T & k & -> & Hl & Hk & Hd & Hi). apply normal_form_shape; assumption. Qed.

Lemma nform_incl cands cands' n r : incl cands cands' -> nform cands n r -> nform cands' n r.
Proof.
  intros Hc (e & T & k & Hr & Hl & Hk & Hd & Hi). exists e, T, k. repeat split; try assumption.
  intros x Hx. apply Hc, Hi, Hx.
Qed.

Lemma nform_length cands n r : nform cands n r -> length r = n.
Proof. intros (e & T & k & -> & Hl & _). rewrite app_length, map_length, repeat_length. exact Hl. Qed.

Lemma nform_prefix cands cands' (e : list C) k r :
  NoDup e -> incl e cands -> incl cands' cands -> (forall x, In x e -> ~ In x cands') ->
  nform cands' k r -> nform cands (length e + k) (map Cand e ++ r).
Proof.
  intros He Hie Hic Hdis (e' & T & k' & -> & Hl & Hk & Hd & Hi).
  exists (e ++ e'), T, k'. split; [rewrite map_app, app_assoc; reflexivity|].
  split; [rewrite app_length; lia|]. split; [exact Hk|]. rewrite <- app_assoc. split.
  - apply nodup_app_intro; [exact He|exact Hd|]. intros x Hx Hx'. exact (Hdis x Hx (Hi x Hx')).
  - apply incl_app; [exact Hie|]. intros x Hx. apply Hic, Hi, Hx.
Qed.

Lemma nform_plain cands (e : list C) : NoDup e -> incl e cands -> nform cands (length e) (map Cand e).
Proof.
  intros He Hi. exists e, [], 0. rewrite !app_nil_r. simpl. split; [reflexivity|]. split; [lia|]. split; [left; reflexivity|].
  split; assumption.
Qed.

Lemma nform_single cands (c : C) : In c cands -> nform cands 1 [Cand c].
Proof. intros H. apply (nform_plain cands [c]); [constructor; [intros []|constructor]|intros x [<-|[]]; exact H]. Qed.

Lemma nform_one cands r : nform cands 1 r ->
  (exists c, r = [Cand c] /\ In c cands) \/ (exists T, r = [TieR T] /\ NoDup T /\ incl T cands /\ 1 < length T).
Proof.
  intros (e & T & k & -> & Hl & Hk & Hd & Hi).
  destruct e as [|c [|c2 e]]; cbn [length] in Hl; [| |lia].
  - assert (k = 1) by lia. subst k. right. exists T. destruct Hk as [Hk|Hk]; [discriminate|]. auto.
  - assert (k = 0) by lia. subst k. left. exists c. split; [reflexivity|]. apply Hi. left. reflexivity.
Qed.

(* every get_n_best result over a dictionary with distinct keys, for any total preorder on the values *)
Section GShape.
  Context {V : Type}.
  Variable leb : V -> V -> bool.
  Hypothesis leb_total : forall a b, leb a b = true \/ leb b a = true.
  Hypothesis leb_trans : forall a b c, leb a b = true -> leb b c = true -> leb a c = true.
  Notation gnb := (@get_n_best C V leb).

  Theorem gnb_nform (votes : list (C * V)) n : 1 <= n <= length votes -> NoDup (map fst votes) ->
    nform (map fst votes) n (gnb votes n).
  Proof. apply gnb_normal_form; assumption. Qed.

  Lemma gnb_one (votes : list (C * V)) : votes <> [] -> NoDup (map fst votes) ->
    (exists c, gnb votes 1 = [Cand c] /\ In c (map fst votes)) \/
    (exists T, gnb votes 1 = [TieR T] /\ NoDup T /\ incl T (map fst votes) /\ 1 < length T).
  Proof.
    intros Hne Hnd. apply nform_one, gnb_nform; [|exact Hnd]. destruct votes; [congruence|simpl; lia].
  Qed.

  Lemma gnb_all (votes : list (C * V)) n : 1 <= n -> length votes <= n ->
    exists s, Permutation s votes /\ gnb votes n = map Cand (map fst s).
  Proof.
    intros Hn Hle. destruct (get_n_best_spec leb leb_total leb_trans votes n Hn) as [Hsmall _].
    destruct (Hsmall Hle) as (s & Hp & _ & Hr). exists s. split; [exact Hp|]. rewrite Hr, map_map. reflexivity.
  Qed.

  Corollary gnb_nform_perm (votes : list (C * V)) cands n : 1 <= n <= length cands -> NoDup (map fst votes) ->
    NoDup cands -> (forall x, In x (map fst votes) <-> In x cands) -> nform cands n (gnb votes n).
  Proof.
    intros Hn Hnd Hc Hk.
    assert (Hp : Permutation (map fst votes) cands) by (apply NoDup_Permutation; assumption).
    apply (nform_incl (map fst votes)); [intros x Hx; apply Hk, Hx|].
    apply gnb_nform; [|exact Hnd]. rewrite <- (map_length fst votes), (Permutation_length Hp). exact Hn.
  Qed.
End GShape.

Lemma res_members_nf (e T : list C) k x : In x (res_members (map Cand e ++ repeat (TieR T) k)) <-> k <> 0 /\ In x T.
Proof.
  unfold res_members. induction e as [|a e IH]; [|exact IH]. simpl.
  induction k as [|k IH]; simpl; [split; [tauto|intros [H _]; congruence]|].
  rewrite in_app_iff, IH. split; [intros [H|[_ H]]; (split; [discriminate|exact H])|intros [_ H]; left; exact H].
Qed.
Lemma res_untied_nf (e T : list C) k : res_untied (map Cand e ++ repeat (TieR T) k) = map Cand e.
Proof.
  unfold res_untied. induction e as [|a e IH]; simpl; [|rewrite IH; reflexivity].
  induction k as [|k IH]; simpl; [reflexivity|exact IH].
Qed.
Lemma has_tie_nf (e T : list C) k : has_tie (map Cand e ++ repeat (TieR T) k) = negb (Nat.eqb k 0).
Proof. unfold has_tie. induction e as [|a e IH]; [destruct k; reflexivity|exact IH]. Qed.

Open Scope Z_scope.

Lemma wins_in_cands (v : pvotes) t p : In p (pairwise_wins v t) -> In (fst p) (candidates v) /\ In (snd p) (candidates v).
Proof.
  destruct p as [a b]. intros H. apply pairwise_wins_In in H. destruct H as (n & Hin & _).
  split; apply candidates_spec; exists (a, b), n; (split; [exact Hin|]); [left|right]; reflexivity.
Qed.

(* the first-order score dictionary: one entry per candidate *)
Definition cop_scores (v : pvotes) : list (C * Z) := fold_left seed (candidates v) (copeland_scores (pairwise_wins v false)).

Lemma cop_scores_keys (v : pvotes) : NoDup (map fst (cop_scores v)) /\ forall x, In x (map fst (cop_scores v)) <-> In x (candidates v).
Proof.
  destruct (cscore_keys (pairwise_wins v false)) as [Hn Hk].
  destruct (seed_fold (candidates v) _ Hn) as (Sn & _ & Sk). fold (cop_scores v) in Sn, Sk. split; [exact Sn|].
  intros x. rewrite Sk, Hk. split; [|intros H; right; exact H]. intros [(p & Hp & Hx)|H]; [|exact H].
  destruct (wins_in_cands v false p Hp) as [Ha Hb]. destruct Hx as [->| ->]; assumption.
Qed.

(* the second-order step of Copeland as a function of the first-order answer *)
Definition cop_second (scores : list (C * Z)) (wins : list pair) (best : list (res C)) : list (res C) :=
  let tied := res_members best in
  let so0 := flat_map (fun cs : C * Z => if cmem (fst cs) tied then [(fst cs, 0)] else []) scores in
  let so := fold_left (fun d (p : pair) => if cmem (fst p) tied then dadd d (fst p) (dget_or scores (snd p) 0) else d) wins so0 in
  let untied := res_untied best in
  untied ++ get_n_best zle_bool so (length best - length untied).

Lemma copeland_unfold2 so v n :
  copeland so v n = let best := get_n_best zle_bool (cop_scores v) n in
                    if so && has_tie best then cop_second (cop_scores v) (pairwise_wins v false) best else best.
Proof. reflexivity. Qed.

Lemma so0_keys (scores : list (C * Z)) tied :
  map fst (flat_map (fun cs : C * Z => if cmem (fst cs) tied then [(fst cs, 0)] else []) scores)
  = filter (fun c => cmem c tied) (map fst scores).
Proof.
  induction scores as [|[c s] l IH]; simpl; [reflexivity|]. destruct (cmem c tied); simpl; rewrite IH; reflexivity.
Qed.

Lemma so_fold_keys (scores : list (C * Z)) tied (wins : list pair) d : keyed tied d ->
  keyed tied (fold_left (fun d (p : pair) => if cmem (fst p) tied then dadd d (fst p) (dget_or scores (snd p) 0) else d) wins d).
Proof.
  revert d. apply fold_left_inv. intros d p _ Hd. destruct (cmem (fst p) tied) eqn:E; [|exact Hd].
  apply dset_keyed; [apply cmem_In, E|exact Hd].
Qed.

Close Scope Z_scope.

Theorem cop_second_nform cands (scores : list (C * Z)) wins best n :
  NoDup (map fst scores) -> incl cands (map fst scores) -> nform cands n best -> has_tie best = true ->
  nform cands n (cop_second scores wins best).
Proof.
  intros Hsn Hik (e & T & k & -> & Hlen & Hk & Hnd & Hic) Ht.
  rewrite has_tie_nf in Ht. apply negb_true_iff, Nat.eqb_neq in Ht.
  unfold cop_second. set (best := map Cand e ++ repeat (TieR T) k). set (tied := res_members best).
  assert (Htied : forall x, In x tied <-> In x T).
  { intros x. split; intros H; [apply res_members_nf in H; exact (proj2 H)|apply res_members_nf; split; [exact Ht|exact H]]. }
  destruct (nodup_app_inv _ _ Hnd) as (HndE & HndT & Hdis). destruct (incl_app_inv _ _ Hic) as [HicE HicT].
  set (so0 := flat_map (fun cs : C * Z => if cmem (fst cs) tied then [(fst cs, 0%Z)] else []) scores).
  assert (H0 : keyed tied so0).
  { unfold keyed, so0. rewrite so0_keys. split; [apply NoDup_filter, Hsn|].
    intros x. split; intros H; [apply filter_In in H; apply cmem_In, H|].
    apply filter_In. split; [apply Hik, HicT, Htied, H|apply cmem_In, H]. }
  destruct (so_fold_keys scores tied wins so0 H0) as [Sn Sk].
  set (so := fold_left _ wins so0) in *.
  replace (res_untied best) with (map Cand e) by (symmetry; apply res_untied_nf). rewrite map_length.
  replace (length best - length e) with k by (unfold best; rewrite app_length, map_length, repeat_length; lia).
  rewrite <- Hlen. apply (nform_prefix cands T); [exact HndE|exact HicE|exact HicT|exact Hdis|].
  apply (gnb_nform_perm zle_bool zle_total zle_trans so T k); [lia|exact Sn|exact HndT|].
  intros x. split; intros H; [apply Htied, Sk, H|apply Sk, Htied, H].
Qed.

Theorem copeland_nform so (v : pvotes) n : 1 <= n <= length (candidates v) -> nform (candidates v) n (copeland so v n).
Proof.
  intros Hn. destruct (cop_scores_keys v) as [Sn Sk]. rewrite copeland_unfold2. cbv zeta.
  pose proof (gnb_nform_perm zle_bool zle_total zle_trans (cop_scores v) (candidates v) n Hn Sn (candidates_NoDup v) Sk) as Hb.
  destruct (so && has_tie _) eqn:E; [|exact Hb].
  apply andb_true_iff in E. apply cop_second_nform; [exact Sn|intros x Hx; apply Sk, Hx|exact Hb|exact (proj2 E)].
Qed.

(* a pairwise dictionary over a single candidate (only a diagonal pair) has no contest: the completed dictionary is
   empty and so is the answer; with a real contest (two candidates) every candidate is the loser of some pair *)
Theorem minimax_nform (s : Condorcet.scorer) (v : pvotes) n : 2 <= length (candidates v) -> 1 <= n <= length (candidates v) ->
  nform (candidates v) n (minimax s v n).
Proof.
  intros H2 Hn. rewrite minimax_unfold. destruct (mc_keys v H2 s) as [Kn Kk].
  set (mc := mc_of (score_pairs s (complete v))) in *.
  assert (Hm : map fst (map (fun cs : C * Z => (fst cs, (- snd cs)%Z)) mc) = map fst mc) by (rewrite map_map; reflexivity).
  apply (gnb_nform_perm zle_bool zle_total zle_trans); [exact Hn|rewrite Hm; exact Kn|apply candidates_NoDup|].
  intros x. rewrite Hm. apply Kk.
Qed.

Open Scope Z_scope.
(* entries of the path table that involve somebody who is not a candidate of the votes stay 0
   (whatever the iteration order contains, whatever the sign of the counts) *)
Definition off_zero (v paths : pvotes) : Prop :=
  forall a b n, In ((a, b), n) paths -> ~ In a (candidates v) \/ ~ In b (candidates v) -> n = 0.

Lemma off_zero_get v paths a b : off_zero v paths -> ~ In a (candidates v) \/ ~ In b (candidates v) -> pget0 paths (a, b) = 0.
Proof.
  intros H Ho. unfold pget0. destruct (pget paths (a, b)) as [n|] eqn:E; [|reflexivity].
  apply pget_In in E. exact (H a b n E Ho).
Qed.

Lemma pset_In (v : pvotes) p n q m : In (q, m) (pset v p n) -> In (q, m) v \/ (q = p /\ m = n).
Proof.
  induction v as [|[p' n'] t IH]; [rewrite pset_nil; intros [H|[]]; injection H as <- <-; right; split; reflexivity|].
  rewrite pset_cons. destruct (peqb p p') eqn:E.
  - apply peqb_eq in E. subst p'. intros [H|H]; [injection H as <- <-; right; split; reflexivity|left; right; exact H].
  - intros [H|H]; [left; left; exact H|]. destruct (IH H) as [H'|H']; [left; right; exact H'|right; exact H'].
Qed.

Lemma wp_off_zero v order : off_zero v (widest_paths v order).
Proof.
  apply wp_ind.
  - intros a b n Hin Ho. unfold wp_init in Hin. apply filter_In in Hin. destruct Hin as [Hin _]. exfalso.
    destruct Ho as [Ho|Ho]; apply Ho, candidates_spec; exists (a, b), n; (split; [exact Hin|]); [left|right]; reflexivity.
  - intros paths c1 c2 ca _ _ _ _ _ _ H a b n Hin Ho. unfold wp_upd in Hin. apply pset_In in Hin.
    destruct Hin as [Hin|[Hq ->]]; [exact (H a b n Hin Ho)|]. injection Hq as -> ->.
    rewrite (off_zero_get v paths c2 ca H Ho). destruct Ho as [Ho|Ho].
    + rewrite (off_zero_get v paths c2 c1 H (or_introl Ho)). lia.
    + rewrite (off_zero_get v paths c1 ca H (or_intror Ho)). lia.
Qed.

Lemma schulze_wins_in_cands v order p : In p (pairwise_wins (widest_paths v order) false) ->
  In (fst p) (candidates v) /\ In (snd p) (candidates v).
Proof.
  destruct p as [a b]. intros H. apply pairwise_wins_In in H. destruct H as (n & Hin & [Hf|[Hf _]]); [|discriminate]. cbn [fst snd].
  (* an entry off the candidates is 0, and so is its mirror image: no win *)
  assert (Hz : ~ (~ In a (candidates v) \/ ~ In b (candidates v))).
  { intros Ho. pose proof (wp_off_zero v order a b n Hin Ho) as Hn.
    rewrite (off_zero_get v _ b a (wp_off_zero v order)) in Hf; [lia|apply or_comm, Ho]. }
  destruct (in_dec Pos.eq_dec a (candidates v)) as [Ha|Ha]; [|destruct (Hz (or_introl Ha))].
  destruct (in_dec Pos.eq_dec b (candidates v)) as [Hb|Hb]; [|destruct (Hz (or_intror Hb))]. split; assumption.
Qed.
Close Scope Z_scope.

Theorem schulze_nform (v : pvotes) (order : list C) n : 1 <= n <= length (candidates v) ->
  nform (candidates v) n (schulze v order n).
Proof.
  intros Hn. rewrite schulze_unfold.
  assert (Hseed : map fst (map (fun c : C => (c, 0%Z)) (candidates v)) = candidates v) by (rewrite map_map; simpl; apply map_id).
  assert (Hsn : NoDup (map fst (map (fun c : C => (c, 0%Z)) (candidates v)))) by (rewrite Hseed; apply candidates_NoDup).
  destruct (sch_fold_keys (pairwise_wins (widest_paths v order) false) _ Hsn) as [Kn Kk].
  apply (gnb_nform_perm zle_bool zle_total zle_trans); [exact Hn|exact Kn|apply candidates_NoDup|].
  intros x. rewrite Kk, Hseed. split; [|intros H; left; exact H]. intros [H|(p & Hp & H)]; [exact H|].
  apply schulze_wins_in_cands in Hp. destruct H as [->| ->]; [exact (proj1 Hp)|exact (proj2 Hp)].
Qed.

Lemma firstn_NoDup {X} (l : list X) n : NoDup l -> NoDup (firstn n l).
Proof. intros H. rewrite <- (firstn_skipn n l) in H. apply nodup_app_inv in H. exact (proj1 H). Qed.

Lemma perm_prefix_nform cands (p : list C) n : NoDup cands -> Permutation p cands -> n <= length cands ->
  nform cands n (map Cand (firstn n p)).
Proof.
  intros Hc Hp Hn.
  assert (Hl : length (firstn n p) = n) by (apply firstn_length_le; rewrite (Permutation_length Hp); exact Hn).
  rewrite <- Hl at 1. apply nform_plain.
  - apply firstn_NoDup. eapply Permutation_NoDup; [apply Permutation_sym, Hp|exact Hc].
  - intros x Hx. eapply Permutation_in; [exact Hp|]. rewrite <- (firstn_skipn n p). apply in_or_app. left. exact Hx.
Qed.

Theorem kemeny_nform (v : pvotes) n r : n <= length (candidates v) -> kemeny v n = CR_ok r -> nform (candidates v) n r.
Proof.
  intros Hn H. destruct (kemeny_defining v n r H) as (p & (Hp & _) & _ & -> & _).
  apply perm_prefix_nform; [apply candidates_NoDup|exact Hp|exact Hn].
Qed.

Theorem ranked_pairs_nform (s : Condorcet.scorer) (v : pvotes) n r : 2 <= length (candidates v) -> n <= length (candidates v) ->
  ranked_pairs s v n = CR_ok r -> nform (candidates v) n r.
Proof.
  intros H2 Hn H. destruct (ranked_pairs_ranking v s H2 n) as (p & Hr & Hp & _). rewrite Hr in H. injection H as <-.
  apply perm_prefix_nform; [apply candidates_NoDup|exact Hp|exact Hn].
Qed.

(* the candidates of a score profile: the keys of the per-candidate score counts, in order of first appearance *)
Definition score_cands (votes : sprofile) : list C := map fst (raw_scores votes).

Lemma corrected_scores_keys cf votes sc : corrected_scores cf votes = inl sc -> map fst sc = score_cands votes.
Proof. unfold corrected_scores. intros H. apply sequence_keys in H. rewrite H, map_map. reflexivity. Qed.

Theorem score_nform cf votes n r : 1 <= n <= length (score_cands votes) -> score_voting cf votes n = inl r ->
  nform (score_cands votes) n r.
Proof.
  intros Hn. unfold score_voting, score_to_simple.
  destruct (corrected_scores cf votes) as [sc|e] eqn:Ec; [|discriminate].
  destruct (aggregate (sc_fn cf) sc) as [agg|e] eqn:Ea; [|discriminate]. intros [= <-].
  pose proof (aggregate_keys _ _ _ Ea) as Hk. rewrite (corrected_scores_keys _ _ _ Ec) in Hk. rewrite <- Hk.
  apply (gnb_nform Qle_bool Qle_bool_total Qle_bool_trans).
  - rewrite <- (map_length fst agg), Hk. exact Hn.
  - rewrite Hk. apply raw_scores_nodup.
Qed.

Lemma filter_keys_eq {X} (f : C -> bool) (l : list (C * X)) : map fst (filter (fun cd => f (fst cd)) l) = filter f (map fst l).
Proof. induction l as [|[c x] l IH]; simpl; [reflexivity|]. destruct (f c); simpl; rewrite IH; reflexivity. Qed.

Lemma filter_keys_In {X} (f : C -> bool) (l : list (C * X)) x :
  In x (map fst (filter (fun cd => f (fst cd)) l)) <-> In x (map fst l) /\ f x = true.
Proof. rewrite filter_keys_eq. apply filter_In. Qed.

Lemma count_tie_nf (e T : list C) k : count_tie (map Cand e ++ repeat (TieR T) k) = k.
Proof. exact (count_tie_cands e T k). Qed.

(* the entries of [sub] that a test of the keys lets through contest the seats a tie T leaves open, if the test
   keeps the members of T and drops the plain winners e: they have distinct keys, there are at least as many as
   members of T, and a normal form over them extends e to a normal form over all keys *)
Lemma filter_contest {X} (f : C -> bool) (sub : list (C * X)) (e T : list C) :
  NoDup (map fst sub) -> NoDup (e ++ T) -> incl (e ++ T) (map fst sub) ->
  (forall x, In x T -> f x = true) -> (forall x, In x e -> f x = false) ->
  let sub' := filter (fun cd => f (fst cd)) sub in
  NoDup (map fst sub') /\ length T <= length sub' /\
  forall k r, nform (map fst sub') k r -> nform (map fst sub) (length e + k) (map Cand e ++ r).
Proof.
  intros Hn Hnd Hi HT He sub'.
  destruct (nodup_app_inv _ _ Hnd) as (HndE & HndT & _). destruct (incl_app_inv _ _ Hi) as [HiE HiT].
  assert (Hk : forall x, In x (map fst sub') <-> In x (map fst sub) /\ f x = true) by (intros x; apply filter_keys_In).
  split; [apply nodup_keys_filter, Hn|]. split.
  - rewrite <- (map_length fst sub'). apply (NoDup_incl_length HndT). intros x Hx. apply Hk. split; [apply HiT, Hx|apply HT, Hx].
  - intros k r. apply nform_prefix; [exact HndE|exact HiE|intros x Hx; apply Hk, Hx|].
    intros x Hx Hx'. apply Hk in Hx'. rewrite (He x Hx) in Hx'. destruct Hx' as [_ Hx']. discriminate.
Qed.

(* ... in particular the entries of the members of T *)
Lemma level_sub (sub : list (C * cscores)) (e T : list C) :
  NoDup (map fst sub) -> NoDup (e ++ T) -> incl (e ++ T) (map fst sub) ->
  NoDup (map fst (mj_level sub T)) /\ length T <= length (mj_level sub T) /\
  forall k r, nform (map fst (mj_level sub T)) k r -> nform (map fst sub) (length e + k) (map Cand e ++ r).
Proof.
  intros Hn Hnd Hi. apply (filter_contest (fun c => cmem c T) sub e T Hn Hnd Hi); [intros x Hx; apply cmem_In, Hx|].
  destruct (nodup_app_inv _ _ Hnd) as (_ & _ & Hdis). intros x Hx. apply cmem_false. exact (Hdis x Hx).
Qed.

Lemma mj_plus_nform sub k r : NoDup (map fst sub) -> 1 <= k <= length sub -> mj_plus sub k = inl r -> nform (map fst sub) k r.
Proof.
  intros Hn Hk. unfold mj_plus. destruct sub as [|[c0 d0] sub'] eqn:Es; [discriminate|]. rewrite <- Es in *.
  destruct (aggregate_one FMedianLow d0) as [med|e]; [|discriminate]. intros [= <-].
  set (l := map (fun cd : C * cscores => (fst cd, inject_Z (counts_over (snd cd) med))) sub).
  assert (Hl : map fst l = map fst sub) by (unfold l; rewrite map_map; reflexivity).
  rewrite <- Hl. apply (gnb_nform Qle_bool Qle_bool_total Qle_bool_trans); [|rewrite Hl; exact Hn].
  unfold l. rewrite map_length. exact Hk.
Qed.

Lemma medians_nform {X} (sub : list (C * X)) (medians : list (C * Q)) k : map fst medians = map fst sub ->
  NoDup (map fst sub) -> 1 <= k <= length sub -> nform (map fst sub) k (get_n_best Qle_bool medians k).
Proof.
  intros Hkeys Hn Hk. rewrite <- Hkeys. apply (gnb_nform Qle_bool Qle_bool_total Qle_bool_trans); [|rewrite Hkeys; exact Hn].
  rewrite <- (map_length fst medians), Hkeys, map_length. exact Hk.
Qed.

Lemma mj_default_nform : forall fuel sub k r, NoDup (map fst sub) -> 1 <= k <= length sub ->
  mj_default fuel sub k = inl r -> nform (map fst sub) k r.
Proof.
  induction fuel as [|f IH]; intros sub k r Hn Hk; [discriminate|]. rewrite mj_default_unfold.
  destruct (_ <=? 0)%Z; [discriminate|].
  destruct (aggregate FMedianLow sub) as [medians|e0] eqn:Ea; [|discriminate].
  pose proof (medians_nform sub medians k (aggregate_keys _ _ _ Ea) Hn Hk) as Hb.
  pose proof Hb as (e & T & k' & Hr & Hlen & Hk' & Hnd & Hincl). destruct k' as [|k0].
  - cbn [repeat] in Hr. rewrite app_nil_r in Hr. rewrite (mj_body_clean _ _ _ _ e Hr). intros [= <-]. rewrite <- Hr. exact Hb.
  - rewrite (mj_body_tie _ _ _ _ e T k0 Hr Hlen). destruct e as [|a e'].
    + (* the lead is shared: the members of the tie contest all the seats *)
      destruct (level_sub sub [] T Hn Hnd Hincl) as (Hsn & Hsl & Hext). rewrite <- (mj_round_keys sub medians T) in Hsn, Hext.
      intros Hrec. apply (Hext k r), IH; [exact Hsn| |exact Hrec].
      rewrite <- (map_length fst), mj_round_keys, map_length. cbn [length] in Hlen. lia.
    + (* the untied winners take their seats; the others contest the rest *)
      set (A := a :: e') in *.
      destruct (filter_contest (fun c => negb (cmem c A)) sub A T Hn Hnd Hincl) as (Hsn & Hsl & Hext).
      * destruct (nodup_app_inv _ _ Hnd) as (_ & _ & Hdis). intros x Hx. apply negb_true_iff, cmem_false. intros HA. exact (Hdis x HA Hx).
      * intros x Hx. apply negb_false_iff, cmem_In, Hx.
      * destruct (mj_default f _ (S k0)) as [r'|e1] eqn:Er; [|discriminate]. intros [= <-].
        rewrite <- Hlen. apply Hext, (IH _ _ _ Hsn); [lia|exact Er].
Qed.

Theorem mj_nform plus cf votes n r : 1 <= n <= length (score_cands votes) -> majority_judgment plus cf votes n = inl r ->
  nform (score_cands votes) n r.
Proof.
  intros Hn. rewrite majority_judgment_unfold.
  destruct (corrected_scores cf votes) as [sc|e0] eqn:Ec; [|discriminate].
  destruct (aggregate FMedianLow sc) as [med|e0] eqn:Ea; [|discriminate].
  pose proof (corrected_scores_nodup _ _ _ Ec) as Hscn.
  rewrite <- (corrected_scores_keys _ _ _ Ec) in Hn |- *. rewrite map_length in Hn.
  pose proof (medians_nform sc med n (aggregate_keys _ _ _ Ea) Hscn Hn) as Hb.
  pose proof Hb as (e & T & k & Hr & Hlen & Hk' & Hnd & Hincl). destruct k as [|k0].
  - cbn [repeat] in Hr. rewrite app_nil_r in Hr. rewrite (mj_outer_clean _ _ _ _ e Hr). intros [= <-]. rewrite <- Hr. exact Hb.
  - (* the tie is broken among the entries of its members *)
    rewrite (mj_outer_tie _ _ _ _ e T k0 Hr). destruct (level_sub sc e T Hscn Hnd Hincl) as (Hsn & Hsl & Hext).
    assert (Hsk : 1 <= S k0 <= length (mj_level sc T)) by lia.
    destruct plus.
    + destruct (mj_plus _ (S k0)) as [r'|e1] eqn:Er; [|discriminate]. intros [= <-].
      rewrite <- Hlen. exact (Hext _ _ (mj_plus_nform _ _ _ Hsn Hsk Er)).
    + destruct (mj_default _ _ (S k0)) as [r'|e1] eqn:Er; [|discriminate]. intros [= <-].
      rewrite <- Hlen. exact (Hext _ _ (mj_default_nform _ _ _ _ Hsn Hsk Er)).
Qed.

Definition approval_cands (votes : aprofile) : list C := canon_set (flat_map fst votes).

Theorem pav_nform votes n r : pav votes n = AR_ok r -> nform (approval_cands votes) n r.
Proof.
  intros H. destruct (pav_committee votes n r H) as (W & s & Hbest & Hp & ->).
  destruct (pav_best_optimal votes _ n W Hbest) as [Hin _]. destruct (combos_sound _ _ _ Hin) as [Hss Hlen].
  destruct (canon_set_spec (flat_map fst votes)) as [Hcn _]. fold (approval_cands votes) in *.
  rewrite <- Hlen, <- (Permutation_length Hp). apply nform_plain.
  - eapply Permutation_NoDup; [apply Permutation_sym, Hp|]. eapply subseq_NoDup; [exact Hss|exact Hcn].
  - intros x Hx. eapply subseq_incl; [exact Hss|]. eapply Permutation_in; [exact Hp|exact Hx].
Qed.

Lemma fold_dset_keys {V} (val : list (C * V) -> C -> V) (l : list C) : forall d, NoDup (map fst d) ->
  let d' := fold_left (fun d c => dset d c (val d c)) l d in
  NoDup (map fst d') /\ forall x, In x (map fst d') <-> In x (map fst d) \/ In x l.
Proof.
  induction l as [|c l IH]; intros d Hd; cbn [fold_left]; cbv zeta; [split; [exact Hd|intros x; split; [intros H; left; exact H|intros [H|[]]; exact H]]|].
  destruct (dset_keys d c (val d c) Hd) as [N K]. destruct (IH _ N) as [N' K']. split; [exact N'|].
  intros x. rewrite K', K. split; [intros [[->|H]|H]; simpl; auto|intros [H|[->|H]]; auto].
Qed.

(* a dictionary filled ballot by ballot with an entry for every approved candidate, whatever the ballot adds to it *)
Lemma approval_fold_keys (W : list C * Q -> Q) (vs : aprofile) : forall d : list (C * Q), NoDup (map fst d) ->
  let d' := fold_left (fun d bw => fold_left (fun d c => dset d c (dget_or d c 0 + W bw)%Q) (fst bw) d) vs d in
  NoDup (map fst d') /\ forall x, In x (map fst d') <-> In x (map fst d) \/ In x (flat_map fst vs).
Proof.
  induction vs as [|bw vs IH]; intros d Hd; cbn [fold_left flat_map]; cbv zeta; [split; [exact Hd|intros x; split; [intros H; left; exact H|intros [H|[]]; exact H]]|].
  destruct (fold_dset_keys (fun d c => (dget_or d c 0 + W bw)%Q) (fst bw) d Hd) as [N K]. destruct (IH _ N) as [N' K'].
  split; [exact N'|]. intros x. rewrite K', K, in_app_iff. apply or_assoc.
Qed.

Lemma spav_round_keys votes elected x :
  In x (map fst (spav_round votes elected)) <-> In x (flat_map fst votes) /\ ~ In x elected.
Proof.
  unfold spav_round. cbv zeta. rewrite (filter_keys_In (fun c => negb (cmem c elected))).
  destruct (approval_fold_keys (fun bw => snd bw / inject_Z (Z.of_nat (S (inter_size (fst bw) elected))))%Q votes [] (NoDup_nil _)) as [_ K].
  rewrite K, negb_true_iff, <- not_true_iff_false, cmem_In.
  split; [intros [[[]|H] Hn]|intros [H Hn]]; (split; [|exact Hn]); [|right]; exact H.
Qed.

Lemma spav_loop_shape votes cands : NoDup cands -> (forall x, In x cands <-> In x (flat_map fst votes)) ->
  forall fuel n elected r, NoDup elected -> incl elected cands -> length elected <= n -> n <= length elected + fuel ->
  n <= length cands -> spav_loop fuel votes n elected = Some r ->
  NoDup r /\ incl r cands /\ length r = n.
Proof.
  intros Hcn Hck. induction fuel as [|f IH]; intros n elected r He Hi Hle Hf Hn; simpl;
    (destruct (Nat.leb n (length elected)) eqn:El;
      [apply Nat.leb_le in El; intros [= <-]; repeat split; try assumption; lia|apply Nat.leb_gt in El]); [lia|].
  (* somebody is still to be elected, so the round has a candidate *)
  destruct (exists_not_in cands elected Hcn ltac:(lia)) as (c0 & Hc0 & Hn0).
  assert (Hne : spav_round votes elected <> []).
  { intros E. assert (Hk : In c0 (map fst (spav_round votes elected))) by (apply spav_round_keys; split; [apply Hck, Hc0|exact Hn0]).
    rewrite E in Hk. destruct Hk. }
  pose proof (Bucklin_proofs.gnb1_length _ Hne) as Hl1.
  destruct (get_n_best Qle_bool (spav_round votes elected) 1) as [|[c|t] rest] eqn:Eg; [simpl in Hl1; lia| |discriminate].
  assert (Hc : In c (map fst (spav_round votes elected))) by (apply (get_n_best_cand_in _ 1); rewrite Eg; left; reflexivity).
  apply spav_round_keys in Hc. destruct Hc as [Hc1 Hc2]. apply Hck in Hc1.
  apply IH; [| |rewrite app_length; simpl; lia..|exact Hn].
  - apply nodup_app_intro; [exact He|constructor; [intros []|constructor]|]. intros x Hx [<-|[]]. exact (Hc2 Hx).
  - apply incl_app; [exact Hi|]. intros x [<-|[]]. exact Hc1.
Qed.

Theorem spav_nform votes n r : n <= length (approval_cands votes) -> spav votes n = Some r ->
  nform (approval_cands votes) n (map Cand r).
Proof.
  intros Hn H. destruct (canon_set_spec (flat_map fst votes)) as [Hcn Hck]. fold (approval_cands votes) in *.
  destruct (spav_loop_shape votes (approval_cands votes) Hcn Hck n n [] r (NoDup_nil _)) as (H1 & H2 & H3);
    [intros x []|simpl; lia|simpl; lia|exact Hn|exact H|].
  rewrite <- H3. apply nform_plain; assumption.
Qed.

(* the candidates named on the ballots the rounds run over *)
Definition pa_cands (votes : list (ranked * Q)) : list C := flat_map (fun bw => flatten (fst bw)) votes.

(* what the round loop can return: a full normal form, or fewer than n distinct plain winners and no tie *)
Definition pa_result_ok (cands : list C) (n : nat) (r : list (res C)) : Prop :=
  nform cands n r \/ exists el, r = map Cand el /\ NoDup el /\ incl el cands /\ length el < n.

Lemma elected_mem_plain c (el : list C) : elected_mem c (map Cand el) = true <-> In c el.
Proof.
  unfold elected_mem. induction el as [|a el IH]; simpl; [split; [discriminate|tauto]|].
  rewrite orb_true_iff, IH. unfold ceqb. rewrite Pos.eqb_eq. split; intros [H|H]; auto.
Qed.

(* the running totals: distinct candidates of the ballots, nobody already elected *)
Definition pa_tot_ok (cands el : list C) (T : list (C * Q)) : Prop :=
  NoDup (map fst T) /\ forall x, In x (map fst T) -> In x cands /\ ~ In x el.

Lemma add_cand_ok cands el y T c : In c cands -> pa_tot_ok cands el T -> pa_tot_ok cands el (add_cand (map Cand el) y T c).
Proof.
  intros Hc [Hn Hk]. unfold add_cand. destruct (elected_mem c (map Cand el)) eqn:E; [split; assumption|].
  unfold tadd. split; [apply dset_nodup, Hn|]. intros x Hx. apply dset_keys_in in Hx. destruct Hx as [->|Hx]; [|apply Hk, Hx].
  split; [exact Hc|]. intros Hin. apply elected_mem_plain in Hin. congruence.
Qed.

Lemma add_round_ok coef votes r el : forall T, pa_tot_ok (pa_cands votes) el T ->
  pa_tot_ok (pa_cands votes) el (add_round coef votes r (map Cand el) T).
Proof.
  unfold add_round. apply fold_left_inv. intros T bw Hbw HT.
  unfold add_ballot. destruct (nth_error (fst bw) r) as [it|] eqn:En; [|exact HT].
  revert T HT. apply fold_left_inv. intros T c Hc HT. apply add_cand_ok; [|exact HT].
  unfold pa_cands. apply in_flat_map. exists bw. split; [exact Hbw|].
  unfold flatten. apply in_flat_map. exists it. split; [eapply nth_error_In, En|exact Hc].
Qed.

Lemma majority_keys_in q (T : list (C * Q)) x : In x (map fst (majority_of q T)) -> In x (map fst T).
Proof.
  intros H. apply in_map_iff in H. destruct H as ([c v] & <- & Hin). apply majority_in in Hin. apply in_map_iff. exists (c, v). tauto.
Qed.

Lemma pa_loop_shape coef votes quota n : forall rounds T el,
  NoDup el -> incl el (pa_cands votes) -> length el < n -> pa_tot_ok (pa_cands votes) el T ->
  pa_result_ok (pa_cands votes) n (pa_loop coef votes quota n rounds T (map Cand el)).
Proof.
  set (cands := pa_cands votes).
  induction rounds as [|r0 rest IH]; intros T el He Hi Hlt HT; cbn [pa_loop]; cbv zeta.
  - right. exists el. repeat split; assumption.
  - pose proof (add_round_ok coef votes r0 el T HT) as [N1 K1]. fold cands in K1.
    set (T1 := add_round coef votes r0 (map Cand el) T) in *.
    pose proof (majority_nodup quota T1 N1) as NM.
    set (M := majority_of quota T1) in *.
    assert (KM : forall x, In x (map fst M) -> In x cands /\ ~ In x el) by (intros x Hx; apply K1, (majority_keys_in quota), Hx).
    rewrite map_length. set (m := n - length el).
    destruct (le_lt_dec m (length M)) as [Hge|Hsm].
    + (* enough candidates over the quota: the seats are filled *)
      assert (Hfull : nform cands n (map Cand el ++ get_n_best Qle_bool M m)).
      { replace n with (length el + m) by lia. apply (nform_prefix cands (map fst M)); [exact He|exact Hi| | |].
        - intros x Hx. apply KM, Hx.
        - intros x Hx Hx'. exact (proj2 (KM x Hx') Hx).
        - apply (gnb_nform Qle_bool Qle_bool_total Qle_bool_trans); [lia|exact NM]. }
      rewrite (nform_length _ _ _ Hfull), Nat.eqb_refl. left. exact Hfull.
    + (* all of them are elected and leave the totals; on to the next round *)
      destruct (gnb_all Qle_bool Qle_bool_total Qle_bool_trans M m ltac:(lia) ltac:(lia)) as (s & Hp & Hbest). rewrite Hbest.
      apply (Permutation_map fst) in Hp.
      assert (Hls : length (map fst s) = length M) by (rewrite (Permutation_length Hp); apply map_length).
      assert (Ks : forall x, In x (map fst s) -> In x cands /\ ~ In x el) by (intros x Hx; apply KM, (Permutation_in _ Hp), Hx).
      rewrite <- map_app, map_length, app_length.
      assert (Nat.eqb (length el + length (map fst s)) n = false) as -> by (apply Nat.eqb_neq; lia).
      apply IH.
      * apply nodup_app_intro; [exact He|exact (Permutation_NoDup (Permutation_sym Hp) NM)|].
        intros x Hx Hx'. exact (proj2 (Ks x Hx') Hx).
      * apply incl_app; [exact Hi|]. intros x Hx. apply Ks, Hx.
      * rewrite app_length. lia.
      * unfold drop_best. split; [apply nodup_keys_filter, N1|].
        intros x Hx. apply (filter_keys_In (fun c => negb (elected_mem c (map Cand (map fst s))))) in Hx.
        destruct Hx as [Hx Hm]. destruct (K1 x Hx) as [Hc Hne]. split; [exact Hc|].
        rewrite negb_true_iff, <- not_true_iff_false, elected_mem_plain in Hm.
        intros Hin. apply in_app_or in Hin. destruct Hin as [Hin|Hin]; [exact (Hne Hin)|exact (Hm Hin)].
Qed.

Theorem pa_core_shape coef votes n : 1 <= n -> pa_result_ok (pa_cands votes) n (pa_core coef votes n).
Proof.
  intros Hn. unfold pa_core. apply (pa_loop_shape coef votes _ n _ [] []); [constructor|intros x []|simpl; lia|].
  split; [constructor|intros x []].
Qed.

(* in terms of the declarative shape: exactly n well-shaped entries, or fewer than n distinct plain winners *)
Lemma pa_result_ok_shape cands n r : pa_result_ok cands n r ->
  (length r <= n)%nat /\ sel_shape cands (length r) r /\ (length r < n -> ties_of r = []).
Proof.
  intros [H|(el & -> & He & Hi & Hl)].
  - pose proof (nform_length _ _ _ H) as Hlen. rewrite Hlen. split; [lia|]. split; [apply nform_shape, H|lia].
  - rewrite map_length. split; [lia|]. split; [apply nform_shape, nform_plain; assumption|]. intros _. apply ties_of_cands.
Qed.

Theorem pa_eval_shape fx coef split votes n r : pa_eval fx coef split votes n = PA_ok r ->
  pa_result_ok (pa_cands (prep fx split votes)) n r.
Proof.
  unfold pa_eval. destruct n as [|n0]; [discriminate|]. fold (prep fx split votes).
  destruct (prep fx split votes) as [|bw vs] eqn:Ep; [discriminate|]. rewrite <- Ep.
  unfold reconcile. destruct (existsb _ _); [discriminate|]. intros [= <-]. apply pa_core_shape. lia.
Qed.

(* _decouple_equal_rankings introduces no candidate: every ballot it writes (either splicing loop) names only
   candidates of the ballot it comes from *)
Lemma gadd_keys_in {K} (keqb : K -> K -> bool) (d : list (K * Q)) k x k' :
  In k' (map fst (gadd keqb d k x)) -> k' = k \/ In k' (map fst d).
Proof.
  induction d as [|[k0 v] d IH]; simpl; [intros [<-|[]]; left; reflexivity|].
  destruct (keqb k k0); simpl; [intros H; right; exact H|]. intros [<-|H]; [right; left; reflexivity|].
  destruct (IH H) as [->|H']; [left; reflexivity|right; right; exact H'].
Qed.

Lemma picks_in {X} (l : list X) x rest : In (x, rest) (picks l) -> In x l /\ incl rest l.
Proof.
  revert x rest. induction l as [|a l IH]; intros x rest; simpl; [tauto|]. intros [H|H].
  - injection H as <- <-. split; [left; reflexivity|intros y Hy; right; exact Hy].
  - apply in_map_iff in H. destruct H as ([y r'] & Heq & Hin). simpl in Heq. injection Heq as <- <-.
    destruct (IH _ _ Hin) as [H1 H2]. split; [right; exact H1|]. intros z [<-|Hz]; [left; reflexivity|right; apply H2, Hz].
Qed.

Lemma perms_n_in n : forall (l p : list C), In p (perms_n n l) -> incl p l.
Proof.
  induction n as [|n IH]; intros l p; simpl; [intros [<-|[]]; intros x []|].
  intros H. apply in_flat_map in H. destruct H as ([x rest] & Hpk & Hin). apply in_map_iff in Hin.
  destruct Hin as (q & <- & Hq). simpl. destruct (picks_in _ _ _ Hpk) as [Hx Hr].
  intros y [<-|Hy]; [exact Hx|]. apply Hr. exact (IH _ _ Hq y Hy).
Qed.

Lemma product_perms_in (S : list C) : forall (sr : list (nat * list C)) parts,
  (forall il, In il sr -> incl (snd il) S) ->
  In parts (product (map (fun il : nat * list C => perms (snd il)) sr)) -> forall p, In p parts -> incl p S.
Proof.
  induction sr as [|il sr IH]; intros parts Hs; simpl; [intros [<-|[]] p []|].
  intros H. apply in_flat_map in H. destruct H as (p0 & Hp0 & Hin). apply in_map_iff in Hin. destruct Hin as (ps & <- & Hps).
  intros p [<-|Hp].
  - intros x Hx. apply (Hs il (or_introl eq_refl)). exact (perms_n_in _ _ _ Hp0 x Hx).
  - apply (IH ps); [intros il' Hil; apply Hs; right; exact Hil|exact Hps|exact Hp].
Qed.

Lemma shared_ranks_in : forall (r : ranked) i il, In il (shared_ranks_from i r) -> incl (snd il) (flatten r).
Proof.
  induction r as [|[c|l] r IH]; intros i il; simpl; [tauto| |].
  - intros H x Hx. right. exact (IH _ _ H x Hx).
  - intros [<-|H] x Hx; simpl in *; apply in_or_app; [left; exact Hx|right; exact (IH _ _ H x Hx)].
Qed.

Lemma flatten_app (a b : ranked) : flatten (a ++ b) = flatten a ++ flatten b.
Proof. unfold flatten. apply flat_map_app. Qed.
Lemma flatten_plain_items (l : list C) : flatten (map IP l) = l.
Proof. unfold flatten. induction l as [|x l IH]; simpl; [reflexivity|]. f_equal. exact IH. Qed.
Lemma flatten_firstn k (v : ranked) : incl (flatten (firstn k v)) (flatten v).
Proof. intros x Hx. rewrite <- (firstn_skipn k v), flatten_app. apply in_or_app. left. exact Hx. Qed.
Lemma flatten_skipn k (v : ranked) : incl (flatten (skipn k v)) (flatten v).
Proof. intros x Hx. rewrite <- (firstn_skipn k v), flatten_app. apply in_or_app. right. exact Hx. Qed.

Lemma splice_in (S : list C) v pos part : incl (flatten v) S -> incl part S -> incl (flatten (splice v pos part)) S.
Proof.
  intros Hv Hp. unfold splice. rewrite !flatten_app, flatten_plain_items.
  apply incl_app; [|apply incl_app; [exact Hp|]]; (eapply incl_tran; [|exact Hv]); [apply flatten_firstn|apply flatten_skipn].
Qed.

Lemma splice_all_in (S : list C) fx : forall idx parts v off, incl (flatten v) S -> (forall p, In p parts -> incl p S) ->
  incl (flatten (splice_all fx v off idx parts)) S.
Proof.
  induction idx as [|i idx IH]; intros parts v off Hv Hp; simpl; [exact Hv|].
  destruct parts as [|p parts]; [exact Hv|].
  apply IH; [apply splice_in; [exact Hv|apply Hp; left; reflexivity]|intros q Hq; apply Hp; right; exact Hq].
Qed.

Lemma variants_in fx (r v : ranked) : In v (variants fx r) -> incl (flatten v) (flatten r).
Proof.
  unfold variants. intros H. apply in_map_iff in H. destruct H as (parts & <- & Hparts).
  apply splice_all_in; [intros x Hx; exact Hx|].
  apply (product_perms_in (flatten r) (shared_ranks_from 0 r) parts); [|exact Hparts].
  intros il Hil. exact (shared_ranks_in r 0 il Hil).
Qed.

Lemma decouple_cands fx votes : incl (pa_cands (decouple fx votes)) (pa_cands votes).
Proof.
  set (S := pa_cands votes).
  set (ok := fun d : list (ranked * Q) => forall k, In k (map fst d) -> incl (flatten k) S).
  assert (Hin : forall bw, In bw votes -> incl (flatten (fst bw)) S).
  { intros bw Hbw x Hx. unfold S, pa_cands. apply in_flat_map. exists bw. split; assumption. }
  assert (Hfin : ok (decouple fx votes)).
  { unfold decouple. apply fold_left_inv.
    - intros new bw Hbw Hnew. unfold decouple_step. destruct (has_shared (fst bw)); [|exact Hnew].
      apply fold_left_inv.
      + intros acc v Hv Hacc k Hk. apply gadd_keys_in in Hk. destruct Hk as [->|Hk]; [|apply Hacc, Hk].
        intros x Hx. apply (Hin bw Hbw), (variants_in fx _ _ Hv), Hx.
      + intros k Hk. apply Hnew. unfold rdel in Hk. apply in_map_iff in Hk. destruct Hk as (kv & <- & Hk).
        apply filter_In in Hk. apply in_map, Hk.
    - intros k Hk. apply in_map_iff in Hk. destruct Hk as (bw & <- & Hbw). apply Hin, Hbw. }
  intros x Hx. unfold pa_cands in Hx. apply in_flat_map in Hx. destruct Hx as (bw & Hbw & Hx).
  apply (Hfin (fst bw)); [apply in_map, Hbw|exact Hx].
Qed.

Lemma pa_result_ok_incl cands cands' n r : incl cands cands' -> pa_result_ok cands n r -> pa_result_ok cands' n r.
Proof.
  intros Hc [H|(el & -> & He & Hi & Hl)]; [left; eapply nform_incl; eassumption|].
  right. exists el. repeat split; try assumption. intros x Hx. apply Hc, Hi, Hx.
Qed.

(* Bucklin / Oklahoma / any coefficients, with or without decoupling of shared ranks, either splicing loop:
   over the candidates of the ORIGINAL ballots *)
Theorem pa_shape fx coef split votes n r : pa_eval fx coef split votes n = PA_ok r ->
  (length r <= n)%nat /\ sel_shape (pa_cands votes) (length r) r /\ (length r < n -> ties_of r = []).
Proof.
  intros H. apply pa_result_ok_shape. apply (pa_result_ok_incl (pa_cands (prep fx split votes))); [|exact (pa_eval_shape fx coef split votes n r H)].
  unfold prep. destruct split; [apply decouple_cands|intros x Hx; exact Hx].
Qed.

(* the seats are NOT always filled (known finding C08-preference-addition-short): three candidates stand, two seats
   are asked for, one winner is returned - after the last preference round nobody else has passed the quota *)
Definition pa_short_votes : list (ranked * Q) := [([IP 1%positive], 5 # 1); ([IP 2%positive; IP 3%positive], 1 # 1)]%Q.
(* ... and the recorded witness of the finding, with a shared rank *)
Definition pa_short_votes' : list (ranked * Q) := [([IP 1%positive], 5 # 1); ([IS [1%positive; 3%positive]; IP 2%positive], 1 # 1)]%Q.

Theorem pa_full_refuted :
  canon_set (pa_cands pa_short_votes) = [1; 2; 3]%positive /\
  bucklin false pa_short_votes 2 = PA_ok [Cand 1%positive] /\ oklahoma false pa_short_votes 2 = PA_ok [Cand 1%positive] /\
  bucklin true pa_short_votes 2 = PA_ok [Cand 1%positive] /\
  canon_set (pa_cands pa_short_votes') = [1; 2; 3]%positive /\
  bucklin false pa_short_votes' 2 = PA_ok [Cand 1%positive] /\ oklahoma false pa_short_votes' 2 = PA_ok [Cand 1%positive].
Proof. vm_compute. repeat split; reflexivity. Qed.

(* the answer is Schulze over the pairwise counts of the run-off members: well-shaped whenever those counts name at
   least n candidates ... *)
Theorem star_nform votes order n r agg : score_to_simple star_cfg votes = inl agg ->
  let pv := star_pairwise votes (star_members (get_n_best Qle_bool agg (n + 1))) in
  1 <= n <= length (candidates pv) -> star votes order n = inl r -> nform (candidates pv) n r.
Proof.
  intros Ha pv Hn. unfold star. rewrite Ha. intros [= <-]. apply schulze_nform, Hn.
Qed.

(* ... which they need not (known finding C08-star-short): no ballot separates the two finalists *)
Definition star_short_votes : sprofile := [([(1%positive, 5 # 1); (2%positive, 5 # 1); (3%positive, 3 # 1)]%Q, 2%Z)].
Theorem star_full_refuted : score_cands star_short_votes = [1; 2; 3]%positive /\ star_auto star_short_votes 1 = inl [].
Proof. vm_compute. split; reflexivity. Qed.
