(* C10, ballot order: ProportionalApproval and SequentialProportionalApproval (Model/Cardinal.v) return the SAME answer
   (equality, incl. the refusals) whatever the insertion order of the approval profile.
   PAV: the satisfaction of an alternative is a sum over the ballots (== under permutation), so the set of maximisers,
   the refusal when it is not a singleton and the order of the satisfaction drops are unchanged; the candidate list
   is the canonical sorted list of the same set.
   SPAV: each round's tally is a dictionary with the same keys and == values in another insertion order; its unique
   leader (or the tie / exhaustion) is the same. *)
From Coq Require Import ZArith QArith Qreduction List Bool Arith Lia Lqa Permutation Sorted Setoid.
From VL Require Import Prelude.PyDict Model.GetNBest Model.Convert Model.Cardinal Proofs.Dict_proofs Proofs.GetNBest_proofs Proofs.QOrd
     Proofs.LRScale_proofs Proofs.STVScale_proofs Proofs.Scale2PAV_proofs Proofs.JR_proofs Proofs.QDOrder_proofs
     Proofs.Cardinal_proofs Proofs.Shape2_proofs Proofs.PAVRename_proofs.
Import ListNotations.
Open Scope Q_scope.

Lemma satisfaction_votes_perm votes votes' alt : Permutation votes votes' -> satisfaction votes alt == satisfaction votes' alt.
Proof.
  intros H. unfold satisfaction.
  assert (E : forall l a, fold_left (fun acc bw => acc + harmonic (inter_size (fst bw) alt) * snd bw) l a
                = fold_left Qplus (map (fun bw : list C * Q => harmonic (inter_size (fst bw) alt) * snd bw) l) a).
  { induction l as [|x l IH]; intros a; [reflexivity|apply IH]. }
  rewrite !E. apply fold_Qplus_perm, Permutation_map, H.
Qed.

Lemma lt01 : 0 < 1.
Proof. reflexivity. Qed.
Lemma qsc1 a a' : a == a' -> qsc 1 a a'.
Proof. intros H. unfold qsc. rewrite H. ring. Qed.

Lemma pav_best_order votes votes' cands n : Permutation votes votes' -> pav_best votes' cands n = pav_best votes cands n.
Proof.
  intros H. unfold pav_best. cbv zeta.
  assert (Hs : screl 1 (map (fun a => (a, satisfaction votes a)) (combos cands n)) (map (fun a => (a, satisfaction votes' a)) (combos cands n))).
  { apply Forall2_map_same. intros a. split; [reflexivity|]. cbn [snd]. apply qsc1, satisfaction_votes_perm, H. }
  destruct Hs as [|[a s] [a' s'] l l' Hy Hl]; [reflexivity|].
  assert (Hyl : screl 1 ((a, s) :: l) ((a', s') :: l')) by (constructor; assumption).
  apply (filter_best_rel 1 lt01); [|exact Hyl]. apply (fold_best_rel 1 lt01); [exact Hyl|exact (proj2 Hy)].
Qed.

Theorem pav_on_order votes votes' cands n : Permutation votes votes' -> pav_on votes' cands n = pav_on votes cands n.
Proof.
  intros H. unfold pav_on. rewrite (pav_best_order votes votes' cands n H).
  destruct (pav_best votes cands n) as [|alt [|? ?]]; try reflexivity. f_equal.
  apply (get_n_best_rel Qle_bool Qle_bool (qsc 1) (qsc_le 1 lt01)). unfold drops.
  apply Forall2_map_same. intros c. split; [reflexivity|]. cbn [snd]. apply qsc1.
  rewrite (satisfaction_votes_perm votes votes' _ H). reflexivity.
Qed.

(* the canonical list of a set does not depend on the order in which the set is given *)
Lemma sorted_lt_unique (a : list C) : forall b, StronglySorted Pos.lt a -> StronglySorted Pos.lt b -> (forall x, In x a <-> In x b) -> a = b.
Proof.
  induction a as [|x a IH]; intros [|y b] Ha Hb Hin.
  - reflexivity.
  - exfalso. apply (proj2 (Hin y)). left. reflexivity.
  - exfalso. apply (proj1 (Hin x)). left. reflexivity.
  - inversion Ha as [|? ? Sa Fa]; subst. inversion Hb as [|? ? Sb Fb]; subst. rewrite Forall_forall in Fa, Fb.
    assert (E : x = y).
    { destruct (proj1 (Hin x) (or_introl eq_refl)) as [E|Hx]; [symmetry; exact E|].
      destruct (proj2 (Hin y) (or_introl eq_refl)) as [E|Hy]; [exact E|].
      specialize (Fa _ Hy). specialize (Fb _ Hx). lia. }
    subst y. f_equal. apply IH; [exact Sa|exact Sb|]. intros z. split; intros Hz.
    + destruct (proj1 (Hin z) (or_intror Hz)) as [E|H]; [|exact H]. subst z. specialize (Fa _ Hz). lia.
    + destruct (proj2 (Hin z) (or_intror Hz)) as [E|H]; [|exact H]. subst z. specialize (Fb _ Hz). lia.
Qed.

Lemma canon_set_sorted l : StronglySorted Pos.lt (canon_set l).
Proof.
  unfold canon_set.
  assert (H : forall l acc, StronglySorted Pos.lt acc -> StronglySorted Pos.lt (fold_left (fun s c => insert_c c s) l acc)).
  { clear l. induction l as [|c l IH]; intros acc Hacc; cbn [fold_left]; [exact Hacc|]. apply IH, insert_c_sorted, Hacc. }
  apply H. constructor.
Qed.

Lemma canon_set_perm l l' : Permutation l l' -> canon_set l = canon_set l'.
Proof.
  intros H. apply sorted_lt_unique; [apply canon_set_sorted|apply canon_set_sorted|].
  intros x. split; intros Hx; apply (proj2 (proj2 (canon_set_spec _) x)); apply (proj1 (proj2 (canon_set_spec _) x)) in Hx.
  - apply (Permutation_in _ H Hx).
  - apply (Permutation_in _ (Permutation_sym H) Hx).
Qed.

Theorem pav_order votes votes' n : Permutation votes votes' -> pav votes' n = pav votes n.
Proof.
  intros H. rewrite !pav_on_canon. rewrite (canon_set_perm (flat_map fst votes') (flat_map fst votes)).
  - apply pav_on_order, H.
  - apply Permutation_flat_map, Permutation_sym, H.
Qed.

(* the tally of a SPAV round is a sum over the ballots: csum within one ballot, vsum over the profile *)
Fixpoint csum (c' : C) (b : list C) (x : Q) : Q :=
  match b with [] => 0 | c :: t => (if ceqb c' c then x else 0) + csum c' t x end.

Lemma inner_get (c' : C) (x : Q) b : forall d : list (C * Q),
  dget_or (fold_left (fun d c => dset d c (dget_or d c 0 + x)) b d) c' 0 == dget_or d c' 0 + csum c' b x.
Proof.
  induction b as [|c t IH]; intros d; cbn [fold_left csum]; [ring|].
  rewrite IH, dget_or_dset. destruct (ceqb c' c) eqn:E; [|ring]. apply ceqb_eq in E. subst c'. ring.
Qed.

Definition wshare (elected : list C) (bw : list C * Q) : Q := snd bw / inject_Z (Z.of_nat (S (inter_size (fst bw) elected))).
Fixpoint vsum (elected : list C) (c' : C) (votes : aprofile) : Q :=
  match votes with [] => 0 | bw :: t => csum c' (fst bw) (wshare elected bw) + vsum elected c' t end.

Definition spav_all (votes : aprofile) (elected : list C) (d : list (C * Q)) : list (C * Q) :=
  fold_left (fun d bw =>
      let k := inter_size (fst bw) elected in
      fold_left (fun d c => dset d c (dget_or d c 0 + snd bw / inject_Z (Z.of_nat (S k)))) (fst bw) d) votes d.

Lemma spav_round_all votes elected : spav_round votes elected = filter (fun cv => negb (cmem (fst cv) elected)) (spav_all votes elected []).
Proof. reflexivity. Qed.

Lemma outer_get elected c' votes : forall d, dget_or (spav_all votes elected d) c' 0 == dget_or d c' 0 + vsum elected c' votes.
Proof.
  unfold spav_all. induction votes as [|bw t IH]; intros d; cbn [fold_left vsum]; [ring|].
  rewrite IH. cbv zeta. rewrite (inner_get c' (snd bw / inject_Z (Z.of_nat (S (inter_size (fst bw) elected)))) (fst bw) d).
  unfold wshare. ring.
Qed.

Lemma vsum_perm elected c' votes votes' : Permutation votes votes' -> vsum elected c' votes == vsum elected c' votes'.
Proof.
  induction 1 as [|x l l' _ IH|x y l|l l' l'' _ IH1 _ IH2]; cbn [vsum].
  - reflexivity.
  - rewrite IH. reflexivity.
  - ring.
  - rewrite IH1. exact IH2.
Qed.

Lemma dget_filter_keys {X} (P : C -> bool) (d : list (C * X)) c :
  dget (filter (fun cv => P (fst cv)) d) c = if P c then dget d c else None.
Proof.
  induction d as [|[k v] d IH]; cbn [filter dget fst]; [destruct (P c); reflexivity|].
  destruct (P k) eqn:Ek; cbn [dget].
  - destruct (ceqb c k) eqn:E; [apply ceqb_eq in E; subst k; rewrite Ek; reflexivity|exact IH].
  - destruct (ceqb c k) eqn:E; [apply ceqb_eq in E; subst k; rewrite IH, Ek; reflexivity|exact IH].
Qed.

Lemma spav_round_get votes elected c :
  dget_or (spav_round votes elected) c 0 == if cmem c elected then 0 else vsum elected c votes.
Proof.
  rewrite spav_round_all. unfold dget_or at 1. rewrite (dget_filter_keys (fun k => negb (cmem k elected))).
  destruct (cmem c elected); cbn [negb]; [reflexivity|].
  pose proof (outer_get elected c votes []) as H. unfold dget_or at 1 2 in H. cbn [dget] in H. rewrite H. ring.
Qed.

(* reducing the values turns == into =: two dictionaries with the same keys and == values become permutations of
   each other, and get_n_best does not see the difference *)
Definition nrm (d : list (C * Q)) : list (C * Q) := map (fun cv => (fst cv, Qred (snd cv))) d.

Lemma gnb_nrm d n : get_n_best Qle_bool (nrm d) n = get_n_best Qle_bool d n.
Proof.
  apply (get_n_best_rel Qle_bool Qle_bool Qeq (fun a a' b b' Ha Hb => Qle_bool_Qeq a a' b b' (Qeq_sym _ _ Ha) (Qeq_sym _ _ Hb))).
  unfold nrm. induction d as [|[c v] d IH]; cbn [map]; constructor; [|exact IH].
  split; [reflexivity|]. cbn [snd]. symmetry. apply Qred_correct.
Qed.
Lemma nrm_keys d : map fst (nrm d) = map fst d.
Proof. unfold nrm. rewrite map_map. reflexivity. Qed.

Lemma In_dget_or (d : list (C * Q)) c v : NoDup (map fst d) -> In (c, v) d -> dget_or d c 0 = v.
Proof. intros Hn Hi. unfold dget_or. rewrite (In_dget d c v Hn Hi). reflexivity. Qed.

Lemma nrm_perm d d' : NoDup (map fst d) -> NoDup (map fst d') -> (forall c, In c (map fst d) <-> In c (map fst d')) ->
  (forall c, dget_or d c 0 == dget_or d' c 0) -> Permutation (nrm d) (nrm d').
Proof.
  intros Hn Hn' Hk Hv.
  assert (Half : forall e e' : list (C * Q), NoDup (map fst e) -> NoDup (map fst e') -> (forall c, In c (map fst e) -> In c (map fst e')) ->
            (forall c, dget_or e c 0 == dget_or e' c 0) -> forall x, In x (nrm e) -> In x (nrm e')).
  { intros e e' Ne Ne' Ke Ve [c q] Hx. unfold nrm in Hx. apply in_map_iff in Hx. destruct Hx as ([c0 v] & E & Hi). cbn [fst snd] in E.
    injection E as -> <-. assert (Hc : In c (map fst e')) by (apply Ke; apply in_map_iff; exists (c, v); split; [reflexivity|exact Hi]).
    apply in_map_iff in Hc. destruct Hc as ([c1 v'] & E1 & Hi'). cbn [fst] in E1. subst c1.
    unfold nrm. apply in_map_iff. exists (c, v'). split; [|exact Hi']. cbn [fst snd]. f_equal.
    apply Qred_complete. rewrite <- (In_dget_or e c v Ne Hi), <- (In_dget_or e' c v' Ne' Hi'). symmetry. apply Ve. }
  apply NoDup_Permutation.
  - apply (NoDup_map_inv fst). rewrite nrm_keys. exact Hn.
  - apply (NoDup_map_inv fst). rewrite nrm_keys. exact Hn'.
  - intros x. split.
    + apply Half; try assumption. intros c. apply Hk.
    + apply Half; try assumption; [intros c; apply Hk|intros c; symmetry; apply Hv].
Qed.

Definition head_rel (r r' : list (res C)) : Prop :=
  match r, r' with
  | [], [] => True
  | Cand c :: _, Cand c' :: _ => c = c'
  | TieR _ :: _, TieR _ :: _ => True
  | _, _ => False
  end.

Lemma gnb1_deq d d' : NoDup (map fst d) -> NoDup (map fst d') -> (forall c, In c (map fst d) <-> In c (map fst d')) ->
  (forall c, dget_or d c 0 == dget_or d' c 0) -> head_rel (get_n_best Qle_bool d 1) (get_n_best Qle_bool d' 1).
Proof.
  intros Hn Hn' Hk Hv. rewrite <- (gnb_nrm d 1), <- (gnb_nrm d' 1).
  assert (Nn : NoDup (map fst (nrm d))) by (rewrite nrm_keys; exact Hn).
  assert (Nn' : NoDup (map fst (nrm d'))) by (rewrite nrm_keys; exact Hn').
  destruct (gnb_perm_shape (nrm d) (nrm d') 1%nat (le_n 1) Nn (nrm_perm d d' Hn Hn' Hk Hv)) as (cs & cs' & T & T' & k & E & E' & Pcs & _ & _).
  pose proof (gnb_len1 (nrm d) Nn) as L. pose proof (gnb_len1 (nrm d') Nn') as L'.
  rewrite E in *. rewrite E' in *. rewrite app_length, map_length, repeat_length in L, L'.
  destruct cs as [|c [|c2 cs]].
  - apply Permutation_nil in Pcs. subst cs'. destruct k as [|k]; exact I.
  - apply Permutation_length_1_inv in Pcs. subst cs'. reflexivity.
  - cbn [length] in L. lia.
Qed.

Lemma spav_round_head votes votes' elected : Permutation votes votes' ->
  head_rel (get_n_best Qle_bool (spav_round votes elected) 1) (get_n_best Qle_bool (spav_round votes' elected) 1).
Proof.
  intros H. apply gnb1_deq; [apply spav_round_nodup|apply spav_round_nodup| |].
  - intros c. rewrite !spav_round_keys. split; intros [H1 H2]; (split; [|exact H2]).
    + apply (Permutation_in _ (Permutation_flat_map fst H) H1).
    + apply (Permutation_in _ (Permutation_sym (Permutation_flat_map fst H)) H1).
  - intros c. rewrite !spav_round_get. destruct (cmem c elected); [reflexivity|]. apply vsum_perm, H.
Qed.

Lemma spav_loop_order votes votes' n : Permutation votes votes' -> forall fuel elected,
  spav_loop fuel votes' n elected = spav_loop fuel votes n elected.
Proof.
  intros H. induction fuel as [|fu IH]; intros elected; [reflexivity|]. cbn [spav_loop].
  destruct (Nat.leb n (length elected)); [reflexivity|].
  pose proof (spav_round_head votes votes' elected H) as Hh.
  destruct (get_n_best Qle_bool (spav_round votes elected) 1) as [|[c|t] r], (get_n_best Qle_bool (spav_round votes' elected) 1) as [|[c'|t'] r'];
    cbn [head_rel] in Hh; try contradiction; try reflexivity.
  subst c'. apply IH.
Qed.

Theorem spav_order votes votes' n : Permutation votes votes' -> spav votes' n = spav votes n.
Proof. intros H. unfold spav. apply spav_loop_order, H. Qed.
