(* The converters of Model/Convert2.v: totals over constituencies, sign inversion, grouping by party, ByConstituency and Chain.
   Additivity over the union of profiles, single-ballot images, conservation of weight; a Chain is the composition of its links,
   a Chain of accumulating converters is the accumulating converter of the composed image (hence additive). *)
From Coq Require Import ZArith QArith List Bool Lia Lqa Permutation.
From VL Require Import Prelude.Sx Prelude.PyDict Prelude.GDict Model.Convert Model.Convert2 Proofs.Convert_proofs.
Import ListNotations.
Open Scope Q_scope.

Notation value := (gget sx_eqb).
Notation gaddx := (gadd sx_eqb).
Notation coefx := (coef sx_eqb).
Notation gsumx := (@gsum sx).

Definition keys {V} (d : list (sx * V)) : list sx := map fst d.

(* sum of count * X(key) over the entries of a dictionary *)
Definition wsum {K} (X : K -> Q) (l : list (K * Q)) : Q := fold_right (fun kv acc => snd kv * X (fst kv) + acc) 0 l.

Lemma wsum_app {K} (X : K -> Q) a b : wsum X (a ++ b) == wsum X a + wsum X b.
Proof. induction a as [|x a IH]; simpl; [ring|]. rewrite IH. ring. Qed.

Lemma wsum_gadd X l k x : wsum X (gaddx l k x) == wsum X l + x * X k.
Proof.
  induction l as [|[k0 v] l IH]; simpl; [ring|].
  destruct (sx_eqb k k0) eqn:E; simpl.
  - apply sx_eqb_eq in E. subst k0. ring.
  - rewrite IH. ring.
Qed.

Lemma wsum_add_dict X a b : wsum X (add_dict a b) == wsum X a + wsum X b.
Proof.
  unfold add_dict. revert a. induction b as [|[k x] b IH]; intros a; simpl; [ring|].
  rewrite IH, wsum_gadd. simpl. ring.
Qed.

Lemma total_wsum {B} (image : B -> list (sx * Q)) votes k :
  total sx_eqb image votes k = wsum (fun b => coefx (image b) k) votes.
Proof. reflexivity. Qed.

Lemma coef_gadd l k0 x k : coefx (gaddx l k0 x) k == coefx l k + (if sx_eqb k k0 then x else 0).
Proof.
  induction l as [|[k1 v] l IH]; simpl; [ring|].
  destruct (sx_eqb k0 k1) eqn:E; simpl.
  - apply sx_eqb_eq in E. subst k1. destruct (sx_eqb k k0); ring.
  - rewrite IH. ring.
Qed.

Lemma coef_add_dict a b k : coefx (add_dict a b) k == coefx a k + coefx b k.
Proof.
  unfold add_dict. revert a. induction b as [|[k0 x] b IH]; intros a; simpl; [ring|].
  rewrite IH, coef_gadd. simpl. ring.
Qed.

(* the entries of a dictionary with distinct keys: the sum of the entries under a key is the entry *)
Lemma value_notin (d : fdict) k : ~ In k (keys d) -> value d k == 0.
Proof.
  induction d as [|[k0 v] d IH]; simpl; intros H; [reflexivity|].
  destruct (sx_eqb k k0) eqn:E.
  - apply sx_eqb_eq in E. subst. exfalso. apply H. left. reflexivity.
  - apply IH. intros H2. apply H. right. exact H2.
Qed.

Lemma coef_value (d : fdict) k : NoDup (keys d) -> coefx d k == value d k.
Proof.
  induction d as [|[k0 v] d IH]; simpl; intros H; [reflexivity|].
  inversion H as [|? ? Hn Hd]; subst.
  destruct (sx_eqb k k0) eqn:E.
  - apply sx_eqb_eq in E. subst. rewrite (coef_absent sx_eqb sx_eqb_spec) by exact Hn. ring.
  - rewrite IH by exact Hd. ring.
Qed.

Lemma value_add_dict a b k : value (add_dict a b) k == value a k + coefx b k.
Proof.
  unfold add_dict. revert a. induction b as [|[k0 x] b IH]; intros a; simpl; [ring|].
  rewrite IH, (gget_gadd sx_eqb sx_eqb_spec). simpl. ring.
Qed.

Lemma gsum_add_dict a b : gsumx (add_dict a b) == gsumx a + gsumx b.
Proof.
  unfold add_dict. revert a. induction b as [|[k0 x] b IH]; intros a; simpl; [ring|].
  rewrite IH, (gsum_gadd sx_eqb). simpl. ring.
Qed.

Lemma nodup_add_dict a b : NoDup (keys a) -> NoDup (keys (add_dict a b)).
Proof.
  unfold add_dict. revert a. induction b as [|[k x] b IH]; intros a H; simpl; [exact H|].
  apply IH, (gadd_nodup sx_eqb sx_eqb_spec), H.
Qed.

(* the result of an accumulating converter is a dictionary: every key once *)
Lemma nodup_conv {B} (image : B -> list (sx * Q)) votes : NoDup (keys (dconv image votes)).
Proof. apply (conv_nodup sx_eqb sx_eqb_spec). Qed.

(* the union of two profiles given as dictionaries is util.add_dict_to_dict (equal ballots pool their counts) *)
Theorem conv_add_dict (g : sx -> list (sx * Q)) (a b : fdict) k :
  value (dconv g (add_dict a b)) k == value (dconv g a) k + value (dconv g b) k.
Proof.
  unfold dconv. rewrite !(conv_value sx_eqb sx_eqb_spec), !total_wsum. apply wsum_add_dict.
Qed.

(* the sum over all constituencies of the entries under key k *)
Definition nsum (n : ndict) (k : sx) : Q := fold_right (fun cd acc => coefx (snd cd) k + acc) 0 n.

Lemma vote_totals_from n : forall acc k,
  value (fold_left (fun acc (cd : sx * fdict) => add_dict acc (snd cd)) n acc) k == value acc k + nsum n k.
Proof.
  induction n as [|[c d] n IH]; intros acc k; simpl; [ring|].
  rewrite IH, value_add_dict. ring.
Qed.

Theorem vote_totals_value n k : value (vote_totals n) k == nsum n k.
Proof. unfold vote_totals. rewrite vote_totals_from. simpl. ring. Qed.

Lemma nsum_app a b k : nsum (a ++ b) k == nsum a k + nsum b k.
Proof. induction a as [|x a IH]; simpl; [ring|]. rewrite IH. ring. Qed.

(* the union of two sets of constituencies *)
Theorem vote_totals_additive a b k :
  value (vote_totals (a ++ b)) k == value (vote_totals a) k + value (vote_totals b) k.
Proof. rewrite !vote_totals_value. apply nsum_app. Qed.

Theorem vote_totals_single c d k : NoDup (keys d) -> value (vote_totals [(c, d)]) k == value d k.
Proof. intros H. rewrite vote_totals_value. simpl. rewrite coef_value by exact H. ring. Qed.

Theorem vote_totals_order_free a b k : Permutation a b -> value (vote_totals a) k == value (vote_totals b) k.
Proof.
  intros H. rewrite !vote_totals_value. exact (qsum_perm (fun cd => coefx (snd cd) k) a b H).
Qed.

Lemma vote_totals_gsum_from n : forall acc,
  gsumx (fold_left (fun acc (cd : sx * fdict) => add_dict acc (snd cd)) n acc) ==
  gsumx acc + fold_right (fun cd s => gsumx (snd cd) + s) 0 n.
Proof.
  induction n as [|[c d] n IH]; intros acc; simpl; [ring|]. rewrite IH, gsum_add_dict. ring.
Qed.

(* no vote lost or doubled: the grand total is the sum of the constituency totals *)
Theorem vote_totals_conserves n : gsumx (vote_totals n) == fold_right (fun cd s => gsumx (snd cd) + s) 0 n.
Proof. unfold vote_totals. rewrite vote_totals_gsum_from. simpl. ring. Qed.

Lemma nodup_vote_totals n : NoDup (keys (vote_totals n)).
Proof.
  unfold vote_totals. assert (H : NoDup (keys (@nil (sx * Q)))) by constructor. revert H. generalize (@nil (sx * Q)).
  induction n as [|[c d] n IH]; intros acc H; simpl; [exact H|]. apply IH, nodup_add_dict, H.
Qed.

(* the union of two nested profiles over the same constituencies: n1[c] += n2[c] entry by entry *)
Fixpoint nupd (n : ndict) (c : sx) (d : fdict) : ndict :=
  match n with
  | [] => [(c, add_dict [] d)]
  | (c', d') :: t => if sx_eqb c c' then (c', add_dict d' d) :: t else (c', d') :: nupd t c d
  end.
Definition nmerge (n1 n2 : ndict) : ndict := fold_left (fun acc cd => nupd acc (fst cd) (snd cd)) n2 n1.

Lemma nsum_nupd n c d k : nsum (nupd n c d) k == nsum n k + coefx d k.
Proof.
  induction n as [|[c' d'] n IH]; simpl.
  - rewrite coef_add_dict. simpl. ring.
  - destruct (sx_eqb c c'); simpl; [rewrite coef_add_dict|rewrite IH]; ring.
Qed.

Lemma nsum_nmerge n1 n2 k : nsum (nmerge n1 n2) k == nsum n1 k + nsum n2 k.
Proof.
  unfold nmerge. revert n1. induction n2 as [|[c d] n2 IH]; intros n1; simpl; [ring|].
  rewrite IH, nsum_nupd. simpl. ring.
Qed.

Theorem vote_totals_merge n1 n2 k :
  value (vote_totals (nmerge n1 n2)) k == value (vote_totals n1) k + value (vote_totals n2) k.
Proof. rewrite !vote_totals_value. apply nsum_nmerge. Qed.

Lemma dtotal_from d : forall x, fold_left (fun acc (kv : sx * Q) => acc + snd kv) d x == x + gsumx d.
Proof. induction d as [|[k v] d IH]; intros x; simpl; [ring|]. rewrite IH. simpl. ring. Qed.

Lemma dtotal_gsum d : dtotal d == gsumx d.
Proof. unfold dtotal. rewrite dtotal_from. ring. Qed.

Theorem const_totals_app a b : const_totals (a ++ b) = const_totals a ++ const_totals b.
Proof. apply map_app. Qed.

Theorem const_totals_keys n : keys (const_totals n) = keys n.
Proof. unfold const_totals, keys. rewrite map_map. reflexivity. Qed.

Theorem const_totals_single c d : const_totals [(c, d)] = [(c, dtotal d)].
Proof. reflexivity. Qed.

(* both aggregations keep the grand total *)
Theorem const_totals_conserves n : gsumx (const_totals n) == gsumx (vote_totals n).
Proof.
  rewrite vote_totals_conserves. induction n as [|[c d] n IH]; simpl; [reflexivity|].
  rewrite IH, dtotal_gsum. reflexivity.
Qed.

Lemma const_totals_nupd n c d c' :
  value (const_totals (nupd n c d)) c' == value (const_totals n) c' + (if sx_eqb c' c then gsumx d else 0).
Proof.
  unfold const_totals.
  induction n as [|[c0 d0] n IH]; cbn [nupd map fst snd gget].
  - destruct (sx_eqb c' c); [|ring]. rewrite dtotal_gsum, gsum_add_dict. cbn [gsum fold_right]. ring.
  - destruct (sx_eqb c c0) eqn:E; cbn [map fst snd gget].
    + apply sx_eqb_eq in E. subst c0. destruct (sx_eqb c' c); [|ring].
      rewrite !dtotal_gsum, gsum_add_dict. ring.
    + destruct (sx_eqb c' c0) eqn:E2; [|exact IH].
      rewrite (keqb_other sx_eqb sx_eqb_spec _ _ _ E E2). ring.
Qed.

Lemma const_totals_nmerge_coef n1 n2 c :
  value (const_totals (nmerge n1 n2)) c == value (const_totals n1) c + coefx (const_totals n2) c.
Proof.
  unfold nmerge. revert n1. induction n2 as [|[c0 d] n2 IH]; intros n1; simpl; [ring|].
  rewrite IH, const_totals_nupd. simpl. destruct (sx_eqb c c0); [rewrite dtotal_gsum|]; ring.
Qed.

Theorem const_totals_merge n1 n2 c : NoDup (keys n2) ->
  value (const_totals (nmerge n1 n2)) c == value (const_totals n1) c + value (const_totals n2) c.
Proof.
  intros H. rewrite const_totals_nmerge_coef, coef_value; [reflexivity|]. rewrite const_totals_keys. exact H.
Qed.

Theorem inv_simple_value d k : value (inv_simple d) k == - value d k.
Proof. induction d as [|[k0 v] d IH]; simpl; [reflexivity|]. destruct (sx_eqb k k0); [reflexivity|exact IH]. Qed.

Theorem inv_simple_keys d : keys (inv_simple d) = keys d.
Proof. unfold inv_simple, keys. rewrite map_map. reflexivity. Qed.

Theorem inv_simple_involutive d : inv_simple (inv_simple d) = d.
Proof.
  induction d as [|[k [n p]] d IH]; simpl; [reflexivity|]. rewrite IH. unfold Qopp. simpl. rewrite Z.opp_involutive. reflexivity.
Qed.

Lemma inv_simple_coef d k : coefx (inv_simple d) k == - coefx d k.
Proof. induction d as [|[k0 v] d IH]; simpl; [reflexivity|]. rewrite IH. destruct (sx_eqb k k0); ring. Qed.

(* the inversion of the union is the union of the inversions *)
Theorem inv_simple_additive a b k : NoDup (keys b) ->
  value (inv_simple (add_dict a b)) k == value (inv_simple a) k + value (inv_simple b) k.
Proof.
  intros H. rewrite !inv_simple_value, value_add_dict, coef_value by exact H. ring.
Qed.

Theorem inv_simple_total d : gsumx (inv_simple d) == - gsumx d.
Proof. induction d as [|[k v] d IH]; simpl; [reflexivity|]. rewrite IH. ring. Qed.

Definition ikeys (n : ndict) : list sx := flat_map (fun pd => keys (snd pd)) n.

Lemma img_party_key pm c : img_party pm c = match party_key pm c with Some q => [(q, 1)] | None => [] end.
Proof. unfold img_party, party_key. destruct (dget pm c) as [[|p|p]|]; reflexivity. Qed.

Lemma gsum_gset_fresh (d : fdict) k x : ~ In k (keys d) -> gsumx (gset sx_eqb d k x) == gsumx d + x.
Proof.
  induction d as [|[k0 v] d IH]; simpl; intros H; [ring|].
  destruct (sx_eqb k k0) eqn:E.
  - apply sx_eqb_eq in E. subst. exfalso. apply H. left. reflexivity.
  - simpl. rewrite IH; [ring|]. intros H2. apply H. right. exact H2.
Qed.

Lemma keys_gset (d : fdict) k x k' : In k' (keys (gset sx_eqb d k x)) -> k' = k \/ In k' (keys d).
Proof.
  induction d as [|[k0 v] d IH]; simpl.
  - intros [H|[]]. left. symmetry. exact H.
  - destruct (sx_eqb k k0); simpl; [intros H; right; exact H|].
    intros [H|H]; [right; left; exact H|]. destruct (IH H) as [H2|H2]; [left; exact H2|right; right; exact H2].
Qed.

Lemma ikeys_nset n p k x k' : In k' (ikeys (nset n p k x)) -> k' = k \/ In k' (ikeys n).
Proof.
  unfold ikeys. induction n as [|[p0 d] n IH]; cbn [nset flat_map snd].
  - cbn [keys map fst app]. intros [H|[]]. left. symmetry. exact H.
  - destruct (sx_eqb p p0); cbn [flat_map snd]; rewrite !in_app_iff.
    + intros [H|H]; [|right; right; exact H]. destruct (keys_gset _ _ _ _ H) as [H2|H2]; [left; exact H2|right; left; exact H2].
    + intros [H|H]; [right; left; exact H|]. destruct (IH H) as [H2|H2]; [left; exact H2|right; right; exact H2].
Qed.

Lemma const_totals_nset n p k x p' : ~ In k (ikeys n) ->
  value (const_totals (nset n p k x)) p' == value (const_totals n) p' + (if sx_eqb p' p then x else 0).
Proof.
  unfold const_totals, ikeys.
  induction n as [|[p0 d] n IH]; cbn [nset map fst snd gget flat_map]; intros Hf.
  - destruct (sx_eqb p' p); [|ring]. rewrite dtotal_gsum. cbn [gsum fold_right snd]. ring.
  - rewrite in_app_iff in Hf. destruct (sx_eqb p p0) eqn:E; cbn [map fst snd gget].
    + apply sx_eqb_eq in E. subst p0. destruct (sx_eqb p' p); [|ring].
      rewrite !dtotal_gsum, gsum_gset_fresh; [ring|]. intros H. apply Hf. left. exact H.
    + destruct (sx_eqb p' p0) eqn:E2.
      * rewrite (keqb_other sx_eqb sx_eqb_spec _ _ _ E E2). ring.
      * apply IH. intros H. apply Hf. right. exact H.
Qed.

Lemma kc_inj c c' : kc c = kc c' -> c = c'.
Proof. unfold kc. intros H. injection H. auto. Qed.

Lemma group_from pm votes p : forall acc,
  NoDup (map fst votes) -> (forall c, In c (map fst votes) -> ~ In (kc c) (ikeys acc)) ->
  value (const_totals (fold_left (fun acc (cw : C * Q) => match party_key pm (fst cw) with
                                                          | Some q => nset acc q (kc (fst cw)) (snd cw)
                                                          | None => acc end) votes acc)) p
  == value (const_totals acc) p + total sx_eqb (img_party pm) votes p.
Proof.
  induction votes as [|[c w] votes IH]; intros acc Hnd Hfresh; cbn [fold_left fst snd]; [simpl; ring|].
  inversion Hnd as [|? ? Hc Hnd']; subst.
  cbn [total fold_right fst snd]. fold (total sx_eqb (img_party pm) votes p).
  rewrite (img_party_key pm c). destruct (party_key pm c) as [q|].
  - rewrite IH; [| exact Hnd' |].
    + rewrite const_totals_nset by (apply Hfresh; left; reflexivity). simpl. destruct (sx_eqb p q); ring.
    + intros c' Hc' Hin. destruct (ikeys_nset _ _ _ _ _ Hin) as [E|Hin2].
      * apply kc_inj in E. subst c'. exact (Hc Hc').
      * exact (Hfresh c' (or_intror Hc') Hin2).
  - rewrite IH; [simpl; ring|exact Hnd'|]. intros c' Hc'. apply Hfresh. right. exact Hc'.
Qed.

(* PartyTotals after GroupVotesByParty is IndividualToPartyVotes: grouping neither loses nor doubles a vote *)
Theorem group_party_totals pm votes p : NoDup (map fst votes) ->
  value (const_totals (group_by_party pm votes)) p == value (dconv (img_party pm) votes) p.
Proof.
  intros H. unfold group_by_party, dconv. rewrite (conv_value sx_eqb sx_eqb_spec), group_from; [simpl; ring|exact H|].
  intros c _ [].
Qed.

Theorem group_single pm c w :
  group_by_party pm [(c, w)] = match party_key pm c with Some p => [(p, [(kc c, w)])] | None => [] end.
Proof. unfold group_by_party. simpl. destruct (party_key pm c); reflexivity. Qed.

Lemma by_flat_inv f c d t v : by_flat f ((c, d) :: t) = COk v ->
  exists o r, f d = COk (VF o) /\ by_flat f t = COk (VN r) /\ v = VN ((c, o) :: r).
Proof.
  simpl. destruct (f d) as [[o| | |]| |]; try discriminate.
  destruct (by_flat f t) as [[|r| |]| |]; try discriminate.
  intros H. injection H as <-. exists o, r. repeat split; reflexivity.
Qed.

(* every constituency is converted on its own: the union of two sets of constituencies converts to the union *)
Theorem by_flat_app f n1 n2 r1 r2 :
  by_flat f n1 = COk (VN r1) -> by_flat f n2 = COk (VN r2) -> by_flat f (n1 ++ n2) = COk (VN (r1 ++ r2)).
Proof.
  revert r1. induction n1 as [|[c d] n1 IH]; intros r1 H1 H2.
  - simpl in H1. injection H1 as <-. exact H2.
  - destruct (by_flat_inv _ _ _ _ _ H1) as (o & r & Hf & Hr & E). injection E as ->.
    simpl. rewrite Hf, (IH r Hr H2). reflexivity.
Qed.

Theorem by_flat_image f n r : by_flat f n = COk (VN r) ->
  Forall2 (fun cd co => fst cd = fst co /\ f (snd cd) = COk (VF (snd co))) n r.
Proof.
  revert r. induction n as [|[c d] n IH]; intros r H.
  - simpl in H. injection H as <-. constructor.
  - destruct (by_flat_inv _ _ _ _ _ H) as (o & r' & Hf & Hr & E). injection E as ->.
    constructor; [split; [reflexivity|exact Hf]|apply IH, Hr].
Qed.

Definition bind (r : cres) (f : vdata -> cres) : cres := match r with COk v => f v | e => e end.

Lemma run_chain_nil v : run_code (KChain []) v = COk v.
Proof. destruct v; reflexivity. Qed.

Lemma run_chain_cons c l v : run_code (KChain (c :: l)) v = bind (run_code c v) (run_code (KChain l)).
Proof.
  destruct v; simpl; (destruct (run_code c _) as [v'| |]; [destruct v'; reflexivity|reflexivity|reflexivity]).
Qed.

(* the image of a Chain is the composition of the images of its links, left to right *)
Theorem run_chain_app l1 l2 v : run_code (KChain (l1 ++ l2)) v = bind (run_code (KChain l1) v) (run_code (KChain l2)).
Proof.
  revert v. induction l1 as [|c l1 IH]; intros v.
  - rewrite run_chain_nil. reflexivity.
  - change ((c :: l1) ++ l2) with (c :: (l1 ++ l2)). rewrite !run_chain_cons.
    destruct (run_code c v) as [v'| |]; simpl; [apply IH|reflexivity|reflexivity].
Qed.

Theorem run_chain_single c v : run_code (KChain [c]) v = run_code c v.
Proof. rewrite run_chain_cons. destruct (run_code c v) as [v'| |]; simpl; [apply run_chain_nil|reflexivity|reflexivity]. Qed.

(* a Chain inside a Chain is the longer Chain *)
Theorem run_chain_nested l1 l2 v : run_code (KChain (KChain l1 :: l2)) v = run_code (KChain (l1 ++ l2)) v.
Proof. rewrite run_chain_cons, run_chain_app. reflexivity. Qed.

(* induction over what a Chain is built from: a converter that is no Chain, the empty Chain, one more link in front *)
Lemma chain_ind (P : ccode -> Prop) :
  (forall c, (forall l, c <> KChain l) -> P c) -> P (KChain []) ->
  (forall c l, P c -> P (KChain l) -> P (KChain (c :: l))) -> forall c, P c.
Proof.
  intros Hb Hn Hc. fix IH 1. intros c. destruct c; try (apply Hb; discriminate).
  induction l as [|c l IHl]; [exact Hn|]. apply Hc; [apply IH|exact IHl].
Qed.

(* accumulating converters compose: the converter of the composed image *)
Definition kern := sx -> list (sx * Q).
Definition compose {B} (f : B -> list (sx * Q)) (g : kern) : B -> list (sx * Q) :=
  fun b => flat_map (fun kc => map (fun kc2 => (fst kc2, snd kc2 * snd kc)) (g (fst kc))) (f b).

Lemma wsum_ext {K} (X Y : K -> Q) l : (forall b, X b == Y b) -> wsum X l == wsum Y l.
Proof. intros H. induction l as [|x l IH]; simpl; [reflexivity|]. rewrite IH, H. reflexivity. Qed.

Lemma wsum_image X (img : list (sx * Q)) w : forall acc,
  wsum X (fold_left (fun acc kc => gaddx acc (fst kc) (snd kc * w)) img acc) == wsum X acc + w * wsum X img.
Proof.
  induction img as [|[k c] img IH]; intros acc; simpl; [ring|]. rewrite IH, wsum_gadd. simpl. ring.
Qed.

Lemma wsum_conv {B} X (f : B -> list (sx * Q)) votes : wsum X (dconv f votes) == wsum (fun b => wsum X (f b)) votes.
Proof.
  unfold dconv, conv.
  assert (H : forall acc, wsum X (fold_left (fun acc (bw : B * Q) =>
               fold_left (fun acc kc => gaddx acc (fst kc) (snd kc * snd bw)) (f (fst bw)) acc) votes acc)
             == wsum X acc + wsum (fun b => wsum X (f b)) votes).
  { induction votes as [|[b w] votes IH]; intros acc; simpl; [ring|]. rewrite IH, wsum_image. ring. }
  rewrite H. simpl. ring.
Qed.

Lemma coef_scale (l : list (sx * Q)) c k : coefx (map (fun kc2 => (fst kc2, snd kc2 * c)) l) k == c * coefx l k.
Proof. induction l as [|[k0 v] l IH]; simpl; [ring|]. rewrite IH. destruct (sx_eqb k k0); ring. Qed.

Lemma coef_compose {B} (f : B -> list (sx * Q)) (g : kern) b k :
  coefx (compose f g b) k == wsum (fun k' => coefx (g k') k) (f b).
Proof.
  unfold compose. induction (f b) as [|[k' c] l IH]; simpl; [reflexivity|].
  rewrite (coef_app sx_eqb), coef_scale, IH. ring.
Qed.

Theorem conv_compose {B} (f : B -> list (sx * Q)) (g : kern) votes k :
  value (dconv g (dconv f votes)) k == value (dconv (compose f g) votes) k.
Proof.
  unfold dconv at 1 3. rewrite !(conv_value sx_eqb sx_eqb_spec), !total_wsum.
  fold (dconv f votes). rewrite wsum_conv. apply wsum_ext. intros b. symmetry. apply coef_compose.
Qed.

(* dictionaries with the same keys in the same order and equal counts *)
Definition deq (a b : fdict) : Prop := Forall2 (fun x y => fst x = fst y /\ snd x == snd y) a b.

Lemma deq_refl a : deq a a.
Proof. induction a; constructor; [split; reflexivity|assumption]. Qed.

Lemma deq_trans a b c : deq a b -> deq b c -> deq a c.
Proof.
  intros H. revert c. induction H as [|x y a b [H1 H2] _ IH]; intros c Hc; inversion Hc as [|? z ? c' [H3 H4] Hc']; subst; constructor.
  - split; [congruence|rewrite H2; exact H4].
  - apply IH, Hc'.
Qed.

Lemma deq_keys a b : deq a b -> keys a = keys b.
Proof. induction 1 as [|x y a b [H1 _] _ IH]; simpl; [reflexivity|]. rewrite H1, IH. reflexivity. Qed.

Lemma deq_value a b k : deq a b -> value a k == value b k.
Proof.
  induction 1 as [|[k1 v1] [k2 v2] a b [H1 H2] _ IH]; simpl in *; [reflexivity|]. subst k2.
  destruct (sx_eqb k k1); [exact H2|exact IH].
Qed.

Lemma gadd_deq a a' k x x' : deq a a' -> x == x' -> deq (gaddx a k x) (gaddx a' k x').
Proof.
  intros H Hx. induction H as [|[k1 v1] [k2 v2] a b [H1 H2] Hab IH]; simpl in *.
  - constructor; [split; [reflexivity|exact Hx]|constructor].
  - subst k2. destruct (sx_eqb k k1); constructor; simpl; try (split; [reflexivity|]); try assumption.
    rewrite H2, Hx. reflexivity.
Qed.

Lemma conv_deq (g : kern) a a' : deq a a' -> deq (dconv g a) (dconv g a').
Proof.
  unfold dconv, conv. intros H.
  assert (G : forall acc acc', deq acc acc' ->
    deq (fold_left (fun acc (bw : sx * Q) => fold_left (fun acc kc => gaddx acc (fst kc) (snd kc * snd bw)) (g (fst bw)) acc) a acc)
        (fold_left (fun acc (bw : sx * Q) => fold_left (fun acc kc => gaddx acc (fst kc) (snd kc * snd bw)) (g (fst bw)) acc) a' acc')).
  { induction H as [|[k1 w1] [k2 w2] a b [H1 H2] _ IH]; intros acc acc' Hacc; simpl in *; [exact Hacc|].
    subst k2. apply IH. revert acc acc' Hacc. induction (g k1) as [|[k c] img IHi]; intros acc acc' Hacc; simpl; [exact Hacc|].
    apply IHi, gadd_deq; [exact Hacc|]. rewrite H2. reflexivity. }
  apply G. constructor.
Qed.

(* the converters that are accumulating folds over a per-ballot image that does not depend on the profile *)
Definition dec_kernel {B} (dec : sx -> option B) (img : B -> list (sx * Q)) : kern :=
  fun key => match dec key with Some b => img b | None => [] end.

Definition kind_kernel (k : ckind) : option kern :=
  match k with
  | KApprovalSimple sp => Some (dec_kernel key_approval (img_approval_simple sp))
  | KFirst => Some (dec_kernel key_ranked img_first)
  | KFirstN n => Some (dec_kernel key_ranked (fun b => match img_first_n n b with Some l => l | None => [] end))
  | KPresence => Some (dec_kernel key_ranked img_presence)
  | KRankedApproval => Some (dec_kernel key_ranked img_ranked_approval)
  | KScoreApproval th => Some (dec_kernel key_score (img_score_approval th))
  | KParty pm => Some (dec_kernel key_pos (img_party pm))
  | KSubSimple su => Some (dec_kernel key_pos (img_sub_simple su))
  | KSubApproval su => Some (dec_kernel key_approval (img_sub_approval su))
  | KSubRanked su => Some (dec_kernel key_ranked (img_sub_ranked su))
  | KSubScore su => Some (dec_kernel key_score (img_sub_score su))
  | KPositional _ | KCondorcet _ | KScoreRanked _ | KInvApproval => None      (* the image reads the candidate set of the profile *)
  end.

Lemma conv_decode {B} (dec : sx -> option B) (img : B -> list (sx * Q)) d v :
  decode_all dec d = Some v -> dconv img v = dconv (dec_kernel dec img) d.
Proof.
  unfold dconv, conv. generalize (@nil (sx * Q)). revert v.
  induction d as [|[k w] d IH]; intros v acc H; unfold decode_all in *; cbn [opt_map fst snd] in H.
  - injection H as <-. reflexivity.
  - destruct (dec k) as [b|] eqn:E; [|discriminate].
    destruct (opt_map _ d) as [t|] eqn:E2; [|discriminate]. injection H as <-.
    cbn [fold_left fst snd]. unfold dec_kernel at 2. rewrite E. apply IH. reflexivity.
Qed.

(* a converter that decodes the keys and folds an image, which may read the decoded profile *)
Lemma with_votes_at {B} (dec : sx -> option B) (img : list (B * Q) -> B -> list (sx * Q)) d v :
  with_votes dec d (fun vs => ok_f (dconv (img vs) vs)) = COk v ->
  exists vs, decode_all dec d = Some vs /\ v = VF (dconv (dec_kernel dec (img vs)) d).
Proof.
  unfold with_votes, ok_f. destruct (decode_all dec d) as [vs|] eqn:E; [|discriminate].
  intros H. injection H as <-. exists vs. rewrite (conv_decode _ _ _ _ E). split; reflexivity.
Qed.

Lemma run_kind_linear k g d v : kind_kernel k = Some g -> run_kind k d = COk v -> v = VF (dconv g d).
Proof.
  destruct k; simpl; intros Hg; try discriminate; injection Hg as <-.
  3: { unfold with_votes, ok_f, oconv. destruct (decode_all key_ranked d) as [vs|] eqn:E; [|discriminate].
       destruct (forallb _ vs); [|discriminate]. intros H. injection H as <-. rewrite (conv_decode _ _ _ _ E). reflexivity. }
  all: intros H; destruct (with_votes_at _ (fun _ => _) d v H) as (vs & _ & ->); reflexivity.
Qed.

(* InvertedSimpleVotes as an accumulating converter: every ballot keeps its key with the coefficient -1 *)
Definition kinv : kern := fun key => [(key, - (1))].

Lemma gadd_fresh (l : fdict) k x : ~ In k (keys l) -> gaddx l k x = l ++ [(k, x)].
Proof.
  induction l as [|[k0 v] l IH]; simpl; intros H; [reflexivity|].
  destruct (sx_eqb k k0) eqn:E.
  - apply sx_eqb_eq in E. subst. exfalso. apply H. left. reflexivity.
  - rewrite IH; [reflexivity|]. intros H2. apply H. right. exact H2.
Qed.

Lemma conv_kinv_from d : forall acc, NoDup (keys acc ++ keys d) ->
  fold_left (fun acc (bw : sx * Q) => fold_left (fun acc kc => gaddx acc (fst kc) (snd kc * snd bw)) (kinv (fst bw)) acc) d acc
  = acc ++ map (fun kv => (fst kv, - (1) * snd kv)) d.
Proof.
  induction d as [|[k w] d IH]; intros acc H; simpl; [rewrite app_nil_r; reflexivity|].
  rewrite gadd_fresh.
  - rewrite IH; [rewrite <- app_assoc; reflexivity|].
    unfold keys in *. rewrite map_app. simpl. rewrite <- app_assoc. exact H.
  - intros Hin. apply NoDup_remove_2 in H. apply H. apply in_or_app. left. exact Hin.
Qed.

Lemma inv_simple_kernel d : NoDup (keys d) -> deq (inv_simple d) (dconv kinv d).
Proof.
  intros H. unfold dconv, conv. rewrite conv_kinv_from by exact H. simpl.
  unfold inv_simple. clear H. induction d as [|[k w] d IH]; simpl; constructor; [|exact IH].
  split; [reflexivity|]. simpl. ring.
Qed.

(* a Chain of such links *)
Definition seq_conv (gs : list kern) (d : fdict) : fdict := fold_left (fun d g => dconv g d) gs d.

Lemma seq_conv_deq gs : forall a b, deq a b -> deq (seq_conv gs a) (seq_conv gs b).
Proof. induction gs as [|g gs IH]; intros a b H; simpl; [exact H|]. apply IH, conv_deq, H. Qed.

Lemma seq_conv_app g1 g2 d : seq_conv (g1 ++ g2) d = seq_conv g2 (seq_conv g1 d).
Proof. apply fold_left_app. Qed.

Lemma nodup_seq_conv gs : forall d, NoDup (keys d) -> NoDup (keys (seq_conv gs d)).
Proof. induction gs as [|g gs IH]; intros d H; simpl; [exact H|]. apply IH, nodup_conv. Qed.

Fixpoint kernels (c : ccode) : option (list kern) :=
  match c with
  | KConv k => match kind_kernel k with Some g => Some [g] | None => None end
  | KInvSimple => Some [kinv]
  | KChain l =>
      (fix go (l : list ccode) : option (list kern) :=
         match l with
         | [] => Some []
         | c' :: t => match kernels c', go t with Some a, Some b => Some (a ++ b) | _, _ => None end
         end) l
  | _ => None
  end.

Lemma kernels_chain_cons c l :
  kernels (KChain (c :: l)) = match kernels c, kernels (KChain l) with Some a, Some b => Some (a ++ b) | _, _ => None end.
Proof. reflexivity. Qed.

(* a Chain built from additive links computes, key by key, the sequence of the accumulating converters of its links *)
Lemma chain_linear : forall c gs d v, kernels c = Some gs -> NoDup (keys d) -> run_code c (VF d) = COk v ->
  exists out, v = VF out /\ deq out (seq_conv gs d).
Proof.
  induction c as [c Hc| |c l IHc IHl] using chain_ind; intros gs d v Hk Hd Hr.
  - destruct c as [k| | | | | | | | | | |l]; try discriminate; [| |exact (False_ind _ (Hc l eq_refl))].
    + simpl in Hk. destruct (kind_kernel k) as [g|] eqn:Eg; [|discriminate]. injection Hk as <-.
      simpl in Hr. rewrite (run_kind_linear k g d v Eg Hr). eexists; split; [reflexivity|apply deq_refl].
    + simpl in Hk. injection Hk as <-. simpl in Hr. unfold ok_f in Hr. injection Hr as <-.
      eexists; split; [reflexivity|]. simpl. apply inv_simple_kernel, Hd.
  - simpl in Hk. injection Hk as <-. rewrite run_chain_nil in Hr. injection Hr as <-.
    eexists; split; [reflexivity|apply deq_refl].
  - rewrite kernels_chain_cons in Hk.
    destruct (kernels c) as [ga|] eqn:Ea; [|discriminate].
    destruct (kernels (KChain l)) as [gb|] eqn:Eb; [|discriminate]. injection Hk as <-.
    rewrite run_chain_cons in Hr. destruct (run_code c (VF d)) as [v1| |] eqn:E1; try discriminate. simpl in Hr.
    destruct (IHc ga d v1 eq_refl Hd E1) as (mid & -> & Hmid).
    assert (NoDup (keys mid)) as Hnd by (rewrite (deq_keys _ _ Hmid); apply nodup_seq_conv, Hd).
    destruct (IHl gb mid v eq_refl Hnd Hr) as (out & -> & Hout).
    eexists; split; [reflexivity|]. rewrite seq_conv_app.
    apply (deq_trans _ _ _ Hout), seq_conv_deq, Hmid.
Qed.

Definition kid : kern := fun key => [(key, 1)].
Fixpoint compose_all (gs : list kern) : kern :=
  match gs with [] => kid | g :: t => compose g (compose_all t) end.

Lemma conv_kid d k : NoDup (keys d) -> value (dconv kid d) k == value d k.
Proof.
  intros H. unfold dconv. rewrite (conv_value sx_eqb sx_eqb_spec), total_wsum, <- coef_value by exact H.
  clear H. induction d as [|[k0 w] d IH]; simpl; [reflexivity|]. rewrite IH. destruct (sx_eqb k k0); ring.
Qed.

(* ... which is the one accumulating converter of the composed image *)
Lemma seq_conv_value gs : forall d k, NoDup (keys d) -> value (seq_conv gs d) k == value (dconv (compose_all gs) d) k.
Proof.
  induction gs as [|g gs IH]; intros d k H; simpl.
  - symmetry. apply conv_kid, H.
  - rewrite IH by apply nodup_conv. apply conv_compose.
Qed.

Theorem chain_image c gs d out k : kernels c = Some gs -> NoDup (keys d) -> run_code c (VF d) = COk (VF out) ->
  value out k == value (dconv (compose_all gs) d) k.
Proof.
  intros Hk Hd Hr. destruct (chain_linear c gs d _ Hk Hd Hr) as (o & E & Ho). injection E as <-.
  rewrite (deq_value _ _ k Ho). apply seq_conv_value, Hd.
Qed.

(* additivity is inherited: the conversion of the union of two profiles is the sum of the conversions *)
Theorem chain_additive c gs a b oa ob oab k : kernels c = Some gs -> NoDup (keys a) -> NoDup (keys b) ->
  run_code c (VF a) = COk (VF oa) -> run_code c (VF b) = COk (VF ob) -> run_code c (VF (add_dict a b)) = COk (VF oab) ->
  value oab k == value oa k + value ob k.
Proof.
  intros Hk Ha Hb Ra Rb Rab.
  rewrite (chain_image c gs _ _ k Hk (nodup_add_dict a b Ha) Rab), (chain_image c gs _ _ k Hk Ha Ra), (chain_image c gs _ _ k Hk Hb Rb).
  apply conv_add_dict.
Qed.

(* RoundedVotes in a Chain breaks it: the hypothesis [kernels c = Some gs] cannot be dropped *)
Lemma chain_rounded_not_additive :
  exists c a b oa ob oab k,
    NoDup (keys a) /\ NoDup (keys b) /\
    run_code c (VF a) = COk (VF oa) /\ run_code c (VF b) = COk (VF ob) /\ run_code c (VF (add_dict a b)) = COk (VF oab) /\
    ~ value oab k == value oa k + value ob k.
Proof.
  exists (KChain [KConv (KApprovalSimple true); KRounded RHalfUp 0]),
         [(L [A 1; A 2], 1)], [(L [A 1; A 2], 1); (L [A 2], 1)],
         [(A 1, 1); (A 2, 1)], [(A 1, 1); (A 2, 2)], [(A 1, 1); (A 2, 2)], (A 1).
  repeat split.
  - repeat constructor; simpl; tauto.
  - repeat constructor; simpl; intuition discriminate.
  - vm_compute. discriminate.
Qed.

(* an empty approval ballot contributes nothing and raises no ZeroDivisionError (C13-approval-split-empty) *)
Lemma approval_split_empty_ok :
  run_code (KConv (KApprovalSimple true)) (VF [(L [], 3); (L [A 1; A 2], 1)]) = COk (VF [(A 1, 1 # 2); (A 2, 1 # 2)]) /\
  run_code (KChain [KConv KInvApproval; KConv (KApprovalSimple true)]) (VF [(L [A 1; A 2], 2); (L [A 1], 1)]) = COk (VF [(A 2, 1)]).
Proof. split; vm_compute; reflexivity. Qed.

Lemma value_gset (d : fdict) k x k' : value (gset sx_eqb d k x) k' == if sx_eqb k' k then x else value d k'.
Proof.
  induction d as [|[k0 v] d IH]; simpl.
  - destruct (sx_eqb k' k); reflexivity.
  - destruct (sx_eqb k k0) eqn:E; simpl.
    + apply sx_eqb_eq in E. subst k0. destruct (sx_eqb k' k); reflexivity.
    + destruct (sx_eqb k' k0) eqn:E2; [|exact IH].
      rewrite (keqb_other sx_eqb sx_eqb_spec _ _ _ E E2). reflexivity.
Qed.

(* every elected candidate gets the amount once, however often it is listed *)
Theorem sel_to_dist_value am l c : value (sel_to_dist am l) c == if existsb (sx_eqb c) l then am else 0.
Proof.
  unfold sel_to_dist.
  assert (H : forall acc, value (fold_left (fun acc c0 => gset sx_eqb acc c0 am) l acc) c
                          == if existsb (sx_eqb c) l then am else value acc c).
  { induction l as [|c0 l IH]; intros acc; simpl; [reflexivity|].
    rewrite IH. destruct (existsb (sx_eqb c) l); [rewrite orb_true_r; reflexivity|].
    rewrite orb_false_r, value_gset. reflexivity. }
  apply H.
Qed.
