(* Highest averages commutes with every injective renaming of the parties (C10): the run on renamed votes, previous
   gains and caps is the renamed run, step by step (exact equality of states). *)
From Coq Require Import ZArith QArith List Bool Lia.
From VL Require Import Prelude.PyDict Model.GetNBest Model.HighestAverages Proofs.Dict_proofs.
Import ListNotations.
Open Scope Z_scope.

(* the stable ascending sort looks at the values only: it commutes with any relabelling of the keys *)
Section SORT.
  Context {K K' V : Type} (leb : V -> V -> bool) (g : K -> K').
  Lemma insert_asc_relabel x l :
    insert_asc leb (g (fst x), snd x) (map (fun kv => (g (fst kv), snd kv)) l) = map (fun kv => (g (fst kv), snd kv)) (insert_asc leb x l).
  Proof.
    induction l as [|y l IH]; simpl; [reflexivity|]. destruct (leb (snd x) (snd y)); simpl; [|rewrite IH]; reflexivity.
  Qed.
  Lemma sort_asc_relabel l :
    sort_asc leb (map (fun kv => (g (fst kv), snd kv)) l) = map (fun kv => (g (fst kv), snd kv)) (sort_asc leb l).
  Proof. induction l as [|x l IH]; simpl; [reflexivity|]. rewrite IH. apply insert_asc_relabel. Qed.
End SORT.

Section REN.
  Variable f : C -> C.
  Hypothesis f_inj : forall a b, f a = f b -> a = b.

  Definition renl {X} (l : list (C * X)) : list (C * X) := map (fun cv => (f (fst cv), snd cv)) l.

  Lemma ceqb_f a b : ceqb (f a) (f b) = ceqb a b.
  Proof.
    destruct (ceqb a b) eqn:E.
    - apply ceqb_eq in E. subst. apply ceqb_refl.
    - apply ceqb_neq. apply ceqb_neq in E. intros H. apply E, f_inj, H.
  Qed.

  Lemma dget_ren {X} (l : list (C * X)) c : dget (renl l) (f c) = dget l c.
  Proof. unfold renl. induction l as [|[k x] l IH]; simpl; [reflexivity|]. rewrite ceqb_f. destruct (ceqb c k); [reflexivity|exact IH]. Qed.
  Lemma dget_or_ren {X} (l : list (C * X)) c (dflt : X) : dget_or (renl l) (f c) dflt = dget_or l c dflt.
  Proof. unfold dget_or. rewrite dget_ren. reflexivity. Qed.
  Lemma dset_ren {X} (l : list (C * X)) c (x : X) : dset (renl l) (f c) x = renl (dset l c x).
  Proof. unfold renl. induction l as [|[k y] l IH]; simpl; [reflexivity|]. rewrite ceqb_f. destruct (ceqb c k); simpl; [reflexivity|]. rewrite IH. reflexivity. Qed.
  Lemma incr_ren t c : incr_t (renl t) (f c) = renl (incr_t t c).
  Proof. unfold incr_t. rewrite dget_or_ren. apply dset_ren. Qed.
  Lemma fold_incr_ren ks : forall t, fold_left incr_t (map f ks) (renl t) = renl (fold_left incr_t ks t).
  Proof. induction ks as [|k ks IH]; intros t; simpl; [reflexivity|]. rewrite incr_ren. apply IH. Qed.

  Lemma renl_app {X} (a b : list (C * X)) : renl (a ++ b) = renl a ++ renl b.
  Proof. unfold renl. apply map_app. Qed.
  Lemma flat_map_ren {X Y} (F F' : C * X -> list (C * Y)) :
    (forall c x, F' (f c, x) = renl (F (c, x))) -> forall l, flat_map F' (renl l) = renl (flat_map F l).
  Proof. intros H l. induction l as [|[c x] l IH]; simpl; [reflexivity|]. rewrite H, IH, renl_app. reflexivity. Qed.
  Lemma renl_rev {X} (a : list (C * X)) : renl (rev a) = rev (renl a).
  Proof. unfold renl. apply map_rev. Qed.
  Lemma renl_firstn {X} k (a : list (C * X)) : renl (firstn k a) = firstn k (renl a).
  Proof. unfold renl. symmetry. apply firstn_map. Qed.
  Lemma renl_keys {X} (a : list (C * X)) : map fst (renl a) = map f (map fst a).
  Proof. unfold renl. rewrite !map_map. reflexivity. Qed.
  Lemma renl_vals {X} (a : list (C * X)) : map snd (renl a) = map snd a.
  Proof. unfold renl. rewrite map_map. reflexivity. Qed.
  Lemma renl_length {X} (a : list (C * X)) : length (renl a) = length a.
  Proof. apply map_length. Qed.

  Variable d : Z -> Q.

  Lemma insert_after_ge_ren (x : qitem) l : insert_after_ge (f (fst x), snd x) (renl l) = renl (insert_after_ge x l).
  Proof.
    induction l as [|y l IH]; simpl; [reflexivity|]. destruct (Qle_bool (snd x) (snd y)); simpl; [rewrite IH|]; reflexivity.
  Qed.
  Lemma sort_asc_ren (l : list qitem) : sort_asc Qle_bool (renl l) = renl (sort_asc Qle_bool l).
  Proof. apply sort_asc_relabel. Qed.
  Lemma run_length_ren m (l : list qitem) : run_length m (renl l) = run_length m l.
  Proof. induction l as [|y l IH]; simpl; [reflexivity|]. destruct (Qeq_bool (snd y) m); [rewrite IH|]; reflexivity. Qed.

  Variables votes : list (C * Q).
  Variables caps : list (C * Z).
  Variable n : Z.

  Lemma cap_ren c : cap_of (renl caps) n (f c) = cap_of caps n c.
  Proof. unfold cap_of. apply dget_or_ren. Qed.

  Lemma pop_reinsert_ren totals : forall k qs,
    pop_reinsert d (renl votes) (renl caps) n (renl totals) k (renl qs) = renl (pop_reinsert d votes caps n totals k qs).
  Proof.
    induction k as [|k IH]; intros qs; simpl; [reflexivity|].
    destruct qs as [|[c x] rest]; simpl; [reflexivity|].
    rewrite dget_or_ren, cap_ren, dget_ren.
    destruct (dget_or totals c 0 <? cap_of caps n c); [|apply IH].
    destruct (dget votes c) as [v|]; [|apply IH].
    rewrite <- IH. f_equal. apply (insert_after_ge_ren (c, (v / d (dget_or totals c 0%Z))%Q) rest).
  Qed.

  Definition ren_state (s : state) : state :=
    mk_state (renl (st_qs s)) (renl (st_totals s)) (st_rem s)
             (match st_tie s with Some (T, r) => Some (map f T, r) | None => None end) (renl (st_awards s)).

  Lemma step_cons vs cp c0 m qs' t rem tie aw : let qs := @cons qitem (c0, m) qs' in
    step d vs cp n (mk_state qs t rem tie aw) =
      let k := run_length m qs in
      let batch := firstn k qs in
      if Z.of_nat k <=? rem then
        let totals' := fold_left incr_t (map fst (rev batch)) t in
        mk_state (pop_reinsert d vs cp n totals' k qs) totals' (rem - Z.of_nat k) None (aw ++ rev batch)
      else
        mk_state (pop_reinsert d vs cp n t k qs) t 0 (Some (map fst (rev batch), rem)) aw.
  Proof. reflexivity. Qed.

  Lemma step_ren s : step d (renl votes) (renl caps) n (ren_state s) = ren_state (step d votes caps n s).
  Proof.
    destruct s as [qs t rem tie aw]. destruct qs as [|[c0 m] qs']; [reflexivity|].
    rewrite step_cons. unfold ren_state at 1. cbn [st_qs st_totals st_rem st_tie st_awards].
    change (renl ((c0, m) :: qs')) with ((f c0, m) :: renl qs'). rewrite step_cons. cbv zeta.
    change ((f c0, m) :: renl qs') with (renl ((c0, m) :: qs')). unfold qitem in *. set (qs := (c0, m) :: qs').
    rewrite run_length_ren. set (k := run_length m qs).
    rewrite <- renl_firstn, <- renl_rev, !renl_keys, fold_incr_ren, !pop_reinsert_ren.
    destruct (Z.of_nat k <=? rem); unfold ren_state; cbn [st_qs st_totals st_rem st_tie st_awards];
      [rewrite renl_app|]; reflexivity.
  Qed.

  Lemma loop_ren fuel : forall s, loop d (renl votes) (renl caps) n fuel (ren_state s) = ren_state (loop d votes caps n fuel s).
  Proof.
    induction fuel as [|fu IH]; intros s; cbn [loop]; [reflexivity|].
    change (st_rem (ren_state s)) with (st_rem s). change (st_qs (ren_state s)) with (renl (st_qs s)).
    destruct (0 <? st_rem s); cbn [andb]; [|reflexivity].
    destruct (st_qs s) as [|x l] eqn:Eq; cbn [renl map negb]; [reflexivity|].
    rewrite step_ren. apply IH.
  Qed.

  Lemma initial_ren prev : initial_quotients d (renl votes) (renl prev) (renl caps) n = renl (initial_quotients d votes prev caps n).
  Proof.
    unfold initial_quotients. rewrite renl_rev, <- sort_asc_ren. do 2 apply f_equal.
    apply flat_map_ren. intros c v. rewrite dget_or_ren, cap_ren.
    destruct (Qle_bool (d (dget_or prev c 0)) 0); [reflexivity|]. destruct (dget_or prev c 0 <? cap_of caps n c); reflexivity.
  Qed.

  Theorem final_ren prev : final_state d (renl votes) n (renl prev) (renl caps) = ren_state (final_state d votes n prev caps).
  Proof.
    unfold final_state, init_state. cbn [st_rem]. rewrite renl_vals, initial_ren.
    change (mk_state (renl (initial_quotients d votes prev caps n)) (renl prev) (n - zsum (map snd prev)) None [])
      with (ren_state (mk_state (initial_quotients d votes prev caps n) prev (n - zsum (map snd prev)) None [])).
    apply loop_ren.
  Qed.

  Definition ren_result (r : ha_result) : ha_result :=
    match r with
    | HA_ok gains tie => HA_ok (renl gains) (match tie with Some (T, r) => Some (map f T, r) | None => None end)
    | HA_value_error => HA_value_error
    end.

  Theorem evaluate_ren prev : evaluate d (renl votes) n (renl prev) (renl caps) = ren_result (evaluate d votes n prev caps).
  Proof.
    unfold evaluate. rewrite initial_ren, final_ren.
    destruct (initial_quotients d votes prev caps n) as [|x l]; [reflexivity|]. cbn [renl map ren_result ren_state st_totals st_tie].
    apply (f_equal (fun g => HA_ok g _)). apply flat_map_ren. intros c t. rewrite dget_or_ren.
    destruct (0 <? t - dget_or prev c 0); reflexivity.
  Qed.
End REN.
