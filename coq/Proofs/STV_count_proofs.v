(* C04, the count of the seated (Model/STV.v):
   1. for every configuration, the seats handed out by [run] / [stv] form a dictionary without repeated
      candidates, every listed candidate stands, holds at least one seat and never more than its cap (selector
      form: exactly one);
   2. the majority clause on the ballots themselves, for a negative eliminate_step: a candidate who is the plain
      first choice on ballots weighing more than half of all votes wins the single seat (Droop: at the first
      count; any quota of at least half the votes, Hare included: whenever the count ends without a refusal). *)
From Coq Require Import ZArith QArith Qround Qreduction Setoid List Bool Arith Lia Lqa Permutation.
From VL Require Import Prelude.PyDict Model.GetNBest Model.Convert Model.STV Model.Quota Proofs.Dict_proofs
     Proofs.GetNBest_proofs Proofs.QOrd Proofs.STV_proofs Proofs.STV_elim_proofs Proofs.STV_majority_proofs
     Proofs.STV_psc_proofs.
From VL Require Proofs.Threshold_proofs.
Import ListNotations.
Open Scope Q_scope.

Lemma dget_or_cons (c0 : C) (s0 : Z) el c :
  dget_or ((c0, s0) :: el) c 0%Z = if ceqb c c0 then s0 else dget_or el c 0%Z.
Proof. unfold dget_or. simpl. destruct (ceqb c c0); reflexivity. Qed.

Lemma add_seats_get el : forall seats, NoDup (map fst el) ->
  forall c, dget_or (add_seats seats el) c 0%Z = (dget_or seats c 0 + dget_or el c 0)%Z.
Proof.
  unfold add_seats. induction el as [|[c0 s0] el IH]; intros seats Hnd c; cbn [fold_left fst snd].
  - change (dget_or (@nil (C * Z)) c 0%Z) with 0%Z. lia.
  - simpl in Hnd. inversion Hnd as [|? ? Hc0 Hnd']; subst. rewrite (IH _ Hnd'), dget_or_dset, dget_or_cons.
    destruct (ceqb c c0) eqn:E.
    + apply ceqb_eq in E. subst. rewrite (dget_or_notin el c0 Hc0). lia.
    + lia.
Qed.

Lemma add_seats_keys_in el : forall seats x,
  In x (map fst (add_seats seats el)) <-> In x (map fst seats) \/ In x (map fst el).
Proof.
  unfold add_seats. induction el as [|[c0 s0] el IH]; intros seats x; cbn [fold_left fst snd map].
  - simpl. tauto.
  - rewrite IH, dset_keys_in. simpl. split; [intros [[H|H]|H]|intros [H|[H|H]]]; auto.
Qed.

Lemma add_seats_keys_nodup el : forall seats, NoDup (map fst seats) -> NoDup (map fst (add_seats seats el)).
Proof.
  unfold add_seats. induction el as [|[c0 s0] el IH]; intros seats H; cbn [fold_left]; [exact H|].
  apply IH, dset_nodup, H.
Qed.

Lemma dget_or_in (d : list (C * Z)) c s : NoDup (map fst d) -> In (c, s) d -> dget_or d c 0%Z = s.
Proof. intros Hn Hi. unfold dget_or. rewrite (In_dget d c s Hn Hi). reflexivity. Qed.

Lemma in_keys_ex (d : list (C * Z)) c : In c (map fst d) -> exists s, In (c, s) d.
Proof. intros H. apply in_map_iff in H. destruct H as ([k s] & <- & H). exists s. exact H. Qed.

Lemma transfer_keys a elim x :
  In x (keys_some (transfer a elim)) <-> In x (keys_some a) /\ ~ In x elim.
Proof. rewrite transfer_keys_eq, filter_In, negb_true_iff, cmem_false. reflexivity. Qed.

Lemma subtract_keys el : forall a a', subtract a el = Some a' -> akeys a' = akeys a.
Proof.
  induction el as [|[c amt] el IH]; intros a a'; cbn [subtract]; [intros [= ->]; reflexivity|].
  destruct (alloc_get a (Some c)) as [p|]; [|discriminate].
  destruct (gregory_subtract p amt) as [p'|]; [|discriminate].
  intros H. rewrite (IH _ _ H). apply set_pile_keys.
Qed.

(* what _elect_by_quota hands back, no hypothesis on the quota *)
Lemma ebq_caps cf q a n_rem prev caps el : NoDup (akeys a) ->
  elect_by_quota cf (totals a) (Some q) n_rem prev caps = inl (Some el) ->
  NoDup (map fst el) /\
  forall c s, In (c, s) el -> (0 < s)%Z /\ In c (keys_some a) /\
     forall m, dget caps c = Some m -> (s + dget_or prev c 0 <= m)%Z.
Proof.
  intros Hnd Ee. destruct (ebq_entries cf (totals a) q n_rem prev caps el Ee) as [Hk Hs].
  split; [apply Hk; rewrite totals_keys; exact Hnd|]. intros c s Hin. destruct (Hs c s Hin) as (t & Ht & Hpos & Hle).
  split; [exact Hpos|]. split; [exact (totals_key_some a c t Ht)|]. intros m Hm. rewrite Hm in Hle. lia.
Qed.

Section CAPS.
  Variable cf : cfg.
  Variable n : Z.
  Variable total : Q.
  Variable caps : list (C * Z).
  Variable K : list C.                 (* the candidates standing *)

  (* the seats handed out so far *)
  Record seats_ok (seats : list (C * Z)) : Prop := {
    s_ndk : NoDup (map fst seats);
    s_K : incl (map fst seats) K;
    s_pos : forall c, In c (map fst seats) -> (0 < dget_or seats c 0)%Z;
    s_cap : forall c m, In c (map fst seats) -> dget caps c = Some m -> (dget_or seats c 0 <= m)%Z
  }.

  Record Jinv (a : alloc) (seats : list (C * Z)) : Prop := {
    j_nd : NoDup (akeys a);
    j_K : incl (keys_some a) K;
    j_ok : seats_ok seats;
    (* a continuing candidate still has room under its cap *)
    j_open : forall c m, In c (keys_some a) -> dget caps c = Some m -> (dget_or seats c 0 < m)%Z
  }.

  Lemma seats_nonneg seats : seats_ok seats -> forall c, (0 <= dget_or seats c 0)%Z.
  Proof.
    intros H c. destruct (in_dec Pos.eq_dec c (map fst seats)) as [Hi|Hi].
    - pose proof (s_pos _ H c Hi). lia.
    - rewrite (dget_or_notin seats c Hi). lia.
  Qed.

  Lemma add_seats_ok seats el : seats_ok seats -> NoDup (map fst el) ->
    (forall c s, In (c, s) el -> (0 < s)%Z /\ In c K /\ forall m, dget caps c = Some m -> (s + dget_or seats c 0 <= m)%Z) ->
    seats_ok (add_seats seats el).
  Proof.
    intros H Hn Hel. pose proof (seats_nonneg seats H) as Hnn. constructor.
    - apply add_seats_keys_nodup, (s_ndk _ H).
    - intros c Hc. apply add_seats_keys_in in Hc. destruct Hc as [Hc|Hc]; [apply (s_K _ H), Hc|].
      destruct (in_keys_ex el c Hc) as [s Hs]. apply (Hel c s Hs).
    - intros c Hc. rewrite (add_seats_get el seats Hn c).
      destruct (in_dec Pos.eq_dec c (map fst el)) as [Hi|Hi].
      + destruct (in_keys_ex el c Hi) as [s Hs]. rewrite (dget_or_in el c s Hn Hs).
        destruct (Hel c s Hs) as [Hp _]. specialize (Hnn c). lia.
      + rewrite (dget_or_notin el c Hi). apply add_seats_keys_in in Hc. destruct Hc as [Hc|Hc]; [|contradiction].
        pose proof (s_pos _ H c Hc). lia.
    - intros c m Hc Hm. rewrite (add_seats_get el seats Hn c).
      destruct (in_dec Pos.eq_dec c (map fst el)) as [Hi|Hi].
      + destruct (in_keys_ex el c Hi) as [s Hs]. rewrite (dget_or_in el c s Hn Hs).
        destruct (Hel c s Hs) as (_ & _ & Hb). specialize (Hb m Hm). lia.
      + rewrite (dget_or_notin el c Hi). apply add_seats_keys_in in Hc. destruct Hc as [Hc|Hc]; [|contradiction].
        pose proof (s_cap _ H c m Hc Hm). lia.
  Qed.

  (* every count that goes on keeps the invariant *)
  Theorem next_count_J a seats a' el : Jinv a seats ->
    next_count cf a n total seats caps = CR_next a' el -> Jinv a' (add_seats seats el).
  Proof.
    intros [J1 J2 J3 J4] Hn.
    destruct (next_count_next _ _ _ _ _ _ _ _ Hn) as [(q & a1 & _ & Ee & Es & ->)|(-> & _ & _ & ->)].
    - destruct (ebq_caps cf q a _ seats caps el J1 Ee) as [Hk Hs].
      pose proof (subtract_keys _ _ _ Es) as Hk1.
      set (elim := flat_map _ el).
      assert (Hn' : NoDup (akeys (transfer a1 elim))) by (apply transfer_conserves; rewrite Hk1; exact J1).
      (* candidates transferred away are no keys any more *)
      assert (Hin' : forall x, In x (keys_some (transfer a1 elim)) -> In x (keys_some a) /\ ~ In x elim)
        by (intros x Hx; rewrite <- (keys_some_akeys_eq a1 a Hk1); apply transfer_keys, Hx).
      assert (Helim : forall x s m, In (x, s) el -> dget caps x = Some m -> ~ In x elim -> (s + dget_or seats x 0 < m)%Z).
      { intros x s m Hx Hm Hne. destruct (Z_lt_le_dec (s + dget_or seats x 0%Z) m) as [Hl|Hg]; [exact Hl|].
        exfalso. apply Hne. unfold elim. apply in_flat_map. exists (x, s). split; [exact Hx|].
        cbn [fst snd]. rewrite Hm. assert ((m <=? s + dget_or seats x 0)%Z = true) as -> by (apply Z.leb_le; lia).
        left. reflexivity. }
      constructor.
      + exact Hn'.
      + intros x Hx. apply J2, (Hin' x Hx).
      + apply add_seats_ok; [exact J3|exact Hk|]. intros c s Hc. destruct (Hs c s Hc) as (H1 & H2 & H3).
        split; [exact H1|]. split; [apply J2, H2|exact H3].
      + intros c m Hc Hm. destruct (Hin' c Hc) as [Hc1 Hc2]. rewrite (add_seats_get el seats Hk c).
        destruct (in_dec Pos.eq_dec c (map fst el)) as [Hi|Hi].
        * destruct (in_keys_ex el c Hi) as [s Hs0]. rewrite (dget_or_in el c s Hk Hs0).
          pose proof (Helim c s m Hs0 Hm Hc2). lia.
        * rewrite (dget_or_notin el c Hi). pose proof (J4 c m Hc1 Hm). lia.
    - set (elim := filter _ _). change (add_seats seats []) with seats.
      constructor; [apply transfer_conserves, J1|intros x Hx; apply J2, (transfer_keys a elim x), Hx|exact J3|].
      intros c m Hc Hm. apply (J4 c m (proj1 (proj1 (transfer_keys a elim c) Hc)) Hm).
  Qed.

  (* the elect-all-remaining shortcut fills every continuing candidate up to its cap *)
  Theorem all_J a seats el : Jinv a seats ->
    next_count cf a n total seats caps = CR_all el -> seats_ok (add_seats seats el).
  Proof.
    intros [J1 J2 J3 J4] En. destruct (next_count_all_inv _ _ _ _ _ _ _ En) as (-> & Eu & _). cbv zeta in Eu.
    destruct (all_remaining_keys caps a seats) as [Hk Hav].
    match goal with |- context [add_seats seats ?av] => set (avail := av) in * end.
    apply add_seats_ok; [exact J3|apply (Permutation_NoDup (Permutation_sym Hk)), keys_some_nodup, J1|].
    intros c s Hin. assert (Hc : In c (keys_some a)) by (apply (Permutation_in _ Hk), (in_map fst _ _ Hin)).
    rewrite (Hav c s Hin). destruct (dget caps c) as [m|] eqn:Hm.
    - assert (Hg : dget_or caps c 0%Z = m) by (unfold dget_or; rewrite Hm; reflexivity). rewrite Hg.
      pose proof (J4 c m Hc Hm). split; [lia|]. split; [apply J2, Hc|]. intros m' [= <-]. lia.
    - (* the shortcut is taken only when every continuing candidate is capped *)
      exfalso. unfold avail in Hin. apply in_flat_map in Hin. destruct Hin as ([k0 t] & Hkt & Hin). cbn [fst] in Hin.
      destruct k0 as [c0|]; [|destruct Hin]. destruct Hin as [[= -> _]|[]].
      apply not_true_iff_false in Eu. apply Eu, existsb_exists. exists (Some c, t). split; [exact Hkt|].
      cbn [fst]. unfold dmem. rewrite Hm. reflexivity.
  Qed.

  Theorem run_J fuel : forall a seats acc, Jinv a seats ->
    seats_ok (t_seats (run cf fuel a n total seats caps acc)).
  Proof.
    intros a seats acc J.
    apply (run_inv cf n total caps (fun a seats _ => Jinv a seats) (fun t => seats_ok (t_seats t))); [| | | |exact J].
    - intros a0 s0 acc0 a' el J0 _ En. exact (next_count_J a0 s0 a' el J0 En).
    - intros a0 s0 acc0 J0 _. exact (j_ok _ _ J0).
    - intros a0 s0 acc0 el J0 _ En. exact (all_J a0 s0 el J0 En).
    - intros a0 s0 acc0 s J0. exact (j_ok _ _ J0).
  Qed.
End CAPS.

(* the seats of a whole count: no candidate listed twice, everybody listed stands, holds at least one seat and
   at most its cap.  Every configuration (quota function, accept_equal, mandatory quota, elimination step), every
   profile, finished or refused counts alike; caps of standing candidates are positive. *)
Theorem stv_seats_ok cf votes n caps :
  (forall c m, In c (all_ranked_candidates votes) -> dget caps c = Some m -> (0 < m)%Z) ->
  let t := stv cf votes n [] caps in
  NoDup (map fst (t_seats t)) /\
  forall c s, In (c, s) (t_seats t) ->
    In c (all_ranked_candidates votes) /\ (1 <= s)%Z /\ forall m, dget caps c = Some m -> (s <= m)%Z.
Proof.
  intros Hcap t. unfold t, stv.
  set (K := all_ranked_candidates votes).
  assert (J : Jinv caps K (initial_allocation votes) []).
  { constructor.
    - apply (initial_allocation_conserves votes).
    - rewrite initial_keys. apply incl_refl.
    - constructor; [constructor|intros x []|intros c []|intros c m []].
    - intros c m Hc Hm. rewrite initial_keys in Hc. unfold dget_or. simpl. exact (Hcap c m Hc Hm). }
  pose proof (run_J cf n (Qred (fold_left Qplus (map snd votes) 0)) caps K (4 * length K + 8) _ [] [] J) as [S1 S2 S3 S4].
  split; [exact S1|]. intros c s Hin.
  assert (Hk : In c (map fst (t_seats (run cf (4 * length K + 8) (initial_allocation votes) n
                 (Qred (fold_left Qplus (map snd votes) 0)) [] caps []))))
    by (apply in_map_iff; exists (c, s); split; [reflexivity|exact Hin]).
  pose proof (dget_or_in _ c s S1 Hin) as Hg.
  split; [apply S2, Hk|]. split; [pose proof (S3 c Hk); lia|].
  intros m Hm. pose proof (S4 c m Hk Hm). lia.
Qed.

Lemma zsum_all_ones (l : list (C * Z)) : (forall c s, In (c, s) l -> s = 1%Z) -> zsum (map snd l) = Z.of_nat (length l).
Proof.
  intros H. rewrite <- (map_length snd l). apply zsum_ones. apply Forall_forall. intros x Hx.
  apply in_map_iff in Hx. destruct Hx as ([c s] & <- & Hin). exact (H c s Hin).
Qed.

(* selector form: a finished count seats exactly n distinct standing candidates, one seat each *)
Theorem stv_selector_count cf votes n caps :
  (forall c, In c (all_ranked_candidates votes) -> dget caps c = Some 1%Z) ->
  let t := stv cf votes n [] caps in
  t_stop t = None ->
  Z.of_nat (length (t_seats t)) = n /\ NoDup (map fst (t_seats t)) /\
  forall c s, In (c, s) (t_seats t) -> s = 1%Z /\ In c (all_ranked_candidates votes).
Proof.
  intros Hcap t Hstop.
  destruct (stv_seats_ok cf votes n caps) as [H1 H2].
  { intros c m Hc Hm. rewrite (Hcap c Hc) in Hm. injection Hm as <-. lia. }
  fold t in H1, H2.
  assert (Hone : forall c s, In (c, s) (t_seats t) -> s = 1%Z).
  { intros c s Hin. destruct (H2 c s Hin) as (Hc & Hs & Hm). specialize (Hm 1%Z (Hcap c Hc)). lia. }
  split; [|split; [exact H1|]].
  - rewrite <- (zsum_all_ones _ Hone). unfold t, stv in *. apply run_complete, Hstop.
  - intros c s Hin. split; [exact (Hone c s Hin)|apply (H2 c s Hin)].
Qed.

Lemma cwa_none (c : C) a : ~ In (Some c) (akeys a) -> cwa [c] a == 0.
Proof.
  induction a as [|[k p] a IH]; intros H; simpl; [reflexivity|].
  simpl in H. rewrite IH by tauto.
  destruct k as [x|]; simpl; [|ring].
  destruct (ceqb x c) eqn:E; simpl; [|ring].
  apply ceqb_eq in E. subst. exfalso. apply H. left. reflexivity.
Qed.

(* the first-choice ballots resting on c are part of c's pile *)
Lemma cwa_le_pile (c : C) a p : NoDup (akeys a) -> alloc_nonneg a -> In (Some c, p) a -> cwa [c] a <= wsum p.
Proof.
  induction a as [|[k p0] a IH]; intros Hn Hnn Hin; [destruct Hin|].
  unfold akeys in Hn. simpl in Hn. inversion Hn as [|? ? Hk Hn']; subst.
  inversion Hnn as [|? ? Hp0 Hnn']; subst. simpl in Hp0.
  destruct Hin as [Hin|Hin].
  - injection Hin as -> ->. simpl. unfold ceqb. rewrite Pos.eqb_refl. simpl.
    rewrite (cwa_none c a Hk). destruct (cwp_bounds [c] p Hp0). lra.
  - simpl. destruct k as [x|]; simpl.
    + destruct (ceqb x c) eqn:E; simpl.
      * apply ceqb_eq in E. subst. exfalso. apply Hk. apply in_map_iff. exists (Some c, p). auto.
      * specialize (IH Hn' Hnn' Hin). lra.
    + specialize (IH Hn' Hnn' Hin). lra.
Qed.

(* ... and every other pile fits into what is left *)
Lemma others_small (c : C) a k p : alloc_nonneg a -> In (k, p) a -> k <> Some c -> cwa [c] a + wsum p <= asum a.
Proof.
  induction a as [|[k0 p0] a IH]; intros Hnn Hin Hk; [destruct Hin|].
  inversion Hnn as [|? ? Hp0 Hnn']; subst. simpl in Hp0.
  destruct (cwp_bounds [c] p0 Hp0) as [B1 B2].
  destruct Hin as [Hin|Hin].
  - injection Hin as -> ->. pose proof (cwa_le_asum [c] a Hnn') as Hle. simpl.
    assert (inS [c] k = false) as ->.
    { destruct k as [x|]; simpl; [|reflexivity]. destruct (ceqb x c) eqn:E; [|reflexivity].
      apply ceqb_eq in E. subst. congruence. }
    lra.
  - specialize (IH Hnn' Hin Hk). simpl. destruct (inS [c] k0); lra.
Qed.

Lemma in_play_pile a x v : In (x, v) (in_play a) -> exists p, In (Some x, p) a /\ v = pile_sum p.
Proof. apply in_play_sum. Qed.

Lemma totals_in a k x : In (k, x) (totals a) -> exists p, In (k, p) a /\ x = pile_sum p.
Proof.
  unfold totals. intros H. apply in_map_iff in H. destruct H as ([k0 p] & Heq & Hin). injection Heq as -> <-.
  exists p. auto.
Qed.

Section MAJ.
  Variable cf : cfg.
  Hypothesis Hstep : (c_step cf < 0)%Z.
  Variable qf : Q -> Z -> Q.
  Hypothesis Hqf : c_quota cf = Some qf.
  Variable total : Q.
  Hypothesis Htot : Qeq_bool total 0 = false.
  Let q := qf total 1%Z.
  Hypothesis Hq : 0 < q.
  Hypothesis Hhalf : total <= 2 * q.
  Variable caps : list (C * Z).
  Variable c : C.

  Record MInv (a : alloc) : Prop := {
    m_nd : NoDup (akeys a);
    m_nn : alloc_nonneg a;
    m_caps : forall x, In x (keys_some a) -> dget caps x = Some 1%Z;
    m_cons : asum a <= total;
    m_B : BB [c] (keys_some a) a;
    m_c : In c (keys_some a);
    m_maj : total < 2 * cwa [c] a
  }.

  (* nobody but c can hold a quota *)
  Lemma winner_only a x p : MInv a -> alloc_get a (Some x) = Some p -> q <= wsum p -> x = c.
  Proof.
    intros I Hg Hw. destruct (Pos.eq_dec x c) as [e|e]; [exact e|exfalso].
    assert (Hk : Some x <> Some c) by congruence.
    pose proof (others_small c a (Some x) p (m_nn _ I) (alloc_get_some_in _ _ _ Hg) Hk) as Ho.
    pose proof (m_cons _ I). pose proof (m_maj _ I). lra.
  Qed.

  (* c holds more than any other candidate: somebody retained would hold less than c, who is eliminated *)
  Lemma c_not_eliminated a : MInv a -> has_tie_r (retained cf a) = false -> ~ In c (eliminated cf a).
  Proof.
    intros I Etie. set (elim := eliminated cf a).
    assert (Hndp : NoDup (map fst (in_play a))) by (rewrite in_play_keys; apply keys_some_nodup, (m_nd _ I)).
    assert (Hm : (1 <= length (in_play a))%nat).
    { rewrite <- (map_length fst), in_play_keys. pose proof (m_c _ I) as Hc. destruct (keys_some a); [destruct Hc|simpl; lia]. }
    destruct (retained_count_neg cf (length (in_play a)) Hstep Hm) as [Hrc _].
    intros Hin. destruct (retained_plain cf a Hndp Etie Hrc) as (kept & Hr & Hlen & _ & Hincl).
    destruct kept as [|d kept']; [simpl in Hlen; lia|].
    assert (Hd : In (Cand d) (retained cf a)) by (rewrite Hr; left; reflexivity).
    assert (Hdc : d <> c).
    { intros ->. unfold elim, eliminated in Hin. apply filter_In in Hin. destruct Hin as [_ Hin].
      apply negb_true_iff, cmem_false in Hin. apply Hin. rewrite Hr. unfold kept_of. simpl. left. reflexivity. }
    assert (Hdk : In d (map fst (in_play a))) by (apply Hincl; left; reflexivity).
    apply in_map_iff in Hdk. destruct Hdk as ([d0 vd] & Hd0 & Hdin). simpl in Hd0. subst d0.
    assert (Hck : In c (map fst (in_play a))) by (unfold elim, eliminated in Hin; apply filter_In in Hin; tauto).
    apply in_map_iff in Hck. destruct Hck as ([c0 vc] & Hc0 & Hcin). simpl in Hc0. subst c0.
    pose proof (eliminated_lowest cf a Hndp Hrc c vc d vd Hin Hcin Hd Hdin) as Hle.
    destruct (in_play_pile a d vd Hdin) as (pd & Hpd & ->).
    destruct (in_play_pile a c vc Hcin) as (pc & Hpc & ->).
    rewrite !pile_sum_wsum in Hle.
    assert (Hk : Some d <> Some c) by congruence.
    pose proof (others_small c a (Some d) pd (m_nn _ I) Hpd Hk).
    pose proof (cwa_le_pile c a pc (m_nd _ I) (m_nn _ I) Hpc).
    pose proof (m_cons _ I). pose proof (m_maj _ I). lra.
  Qed.

  (* transfers away from candidates other than c keep the invariant *)
  Lemma transfer_maj a elim : MInv a -> ~ In c elim -> MInv (transfer a elim).
  Proof.
    intros I Hce.
    destruct (transfer_psc [c] a elim (m_nd _ I) (m_nn _ I) (m_B _ I)) as (R1 & R2 & R3 & R4 & R5).
    destruct (transfer_conserves a elim (m_nd _ I)) as [T1 _].
    assert (Hcc : In c (filter (fun x => negb (cmem x elim)) (keys_some a))).
    { apply filter_In. split; [exact (m_c _ I)|]. apply negb_true_iff, cmem_false, Hce. }
    constructor.
    - exact R1.
    - exact R2.
    - intros x Hx. rewrite R4 in Hx. apply filter_In in Hx. apply (m_caps _ I), Hx.
    - rewrite T1. exact (m_cons _ I).
    - rewrite R4. exact R3.
    - rewrite R4. exact Hcc.
    - assert (Hex : exists d', In d' [c] /\ In d' (filter (fun x => negb (cmem x elim)) (keys_some a)))
        by (exists c; split; [left; reflexivity|exact Hcc]).
      specialize (R5 Hex). pose proof (m_maj _ I). lra.
  Qed.

  (* one count: nothing is elected and the invariant goes on, or c alone is elected *)
  Theorem next_count_maj a a' el : MInv a ->
    next_count cf a 1 total [] caps = CR_next a' el -> (el = [] /\ MInv a') \/ el = [(c, 1%Z)].
  Proof.
    intros I Hn.
    assert (Hprev : forall x : C, (0 <= dget_or (@nil (C * Z)) x 0)%Z) by (intros x; unfold dget_or; simpl; lia).
    assert (Hquota : quota_of cf total 1 = Some q) by (unfold quota_of; rewrite Hqf, Htot; reflexivity).
    destruct (next_count_next _ _ _ _ _ _ _ _ Hn) as [(qv & a1 & Eq & Ee & Es & Ha')|(-> & _ & Etie & Ha')].
    - rewrite Hquota in Eq. injection Eq as <-.
      destruct (elect_by_quota_sound cf q Hq a _ [] caps el (m_nd _ I) Hprev Ee) as [Hk Hs].
      pose proof (ebq_cap1 cf q a _ [] caps el (m_caps _ I) Hprev Ee) as Hc1.
      assert (Hel : forall x s, In (x, s) el -> x = c /\ s = 1%Z).
      { intros x s Hin. destruct (Hs x s Hin) as (Hp & p & Hg & Hw). pose proof (Hc1 x s Hin).
        assert (s = 1%Z) by lia. subst s. split; [|reflexivity].
        apply (winner_only a x p I Hg). change (inject_Z 1) with 1 in Hw. lra. }
      destruct el as [|[x s] [|[x' s'] r]].
      + cbn [map subtract] in Es. injection Es as <-. cbn [flat_map] in Ha'. rewrite transfer_nil in Ha'. subst a'.
        left. split; [reflexivity|exact I].
      + destruct (Hel x s (or_introl eq_refl)) as [-> ->]. right. reflexivity.
      + exfalso. destruct (Hel x s (or_introl eq_refl)) as [-> _].
        destruct (Hel x' s' (or_intror (or_introl eq_refl))) as [-> _].
        simpl in Hk. inversion Hk as [|? ? Hh _]; subst. apply Hh. left. reflexivity.
    - change (has_tie_r (retained cf a) = false) in Etie.
      change (a' = transfer a (eliminated cf a)) in Ha'. subst a'.
      left. split; [reflexivity|]. apply (transfer_maj a _ I), (c_not_eliminated a I Etie).
  Qed.

  (* the elect-all-remaining shortcut: c is the only one left *)
  Lemma all_maj a el : MInv a -> next_count cf a 1 total [] caps = CR_all el -> add_seats [] el = [(c, 1%Z)].
  Proof.
    intros I En. destruct (next_count_all_inv _ _ _ _ _ _ _ En) as (-> & _ & Ez). cbv zeta in Ez.
    destruct (all_remaining_keys caps a []) as [Hk Hav].
    match goal with |- context [add_seats [] ?av] => set (avail := av) in * end.
    (* every continuing candidate may take exactly one seat, c among them; one seat is open *)
    assert (Hone : forall x s, In (x, s) avail -> s = 1%Z).
    { intros x s Hin. rewrite (Hav x s Hin). unfold dget_or.
      rewrite (m_caps _ I x (Permutation_in _ Hk (in_map fst _ _ Hin))). reflexivity. }
    assert (Hcin : In (c, 1%Z) avail).
    { pose proof (Permutation_in _ (Permutation_sym Hk) (m_c _ I)) as Hc. apply in_map_iff in Hc.
      destruct Hc as ([x s] & Hx & Hin). cbn [fst] in Hx. subst x. rewrite <- (Hone c s Hin). exact Hin. }
    rewrite (zsum_all_ones avail Hone) in Ez. change (1 - zsum (map snd (@nil (C * Z))))%Z with 1%Z in Ez.
    destruct avail as [|[x s] [|y r]]; simpl in Ez; try lia.
    destruct Hcin as [Hcin|[]]. injection Hcin as -> ->. reflexivity.
  Qed.

  Theorem run_maj fuel : forall a acc, MInv a ->
    t_stop (run cf fuel a 1 total [] caps acc) = None ->
    t_seats (run cf fuel a 1 total [] caps acc) = [(c, 1%Z)].
  Proof.
    intros a acc I.
    apply (run_inv cf 1 total caps (fun a seats _ => seats = [] /\ MInv a \/ seats = [(c, 1%Z)])
             (fun t => t_stop t = None -> t_seats t = [(c, 1%Z)])); [| | | |left; split; [reflexivity|exact I]].
    - intros a0 s0 acc0 a' el [[-> I0]| ->] Hz En; [|exfalso; apply Hz; reflexivity].
      destruct (next_count_maj a0 a' el I0 En) as [[-> I']| ->]; [left; split; [reflexivity|exact I']|right; reflexivity].
    - intros a0 s0 acc0 [[-> _]| ->] Hz _; [discriminate Hz|reflexivity].
    - intros a0 s0 acc0 el [[-> I0]| ->] Hz En _; [exact (all_maj a0 el I0 En)|exfalso; apply Hz; reflexivity].
    - discriminate.
  Qed.
End MAJ.

Lemma vsum_nonneg votes : (forall b w, In (b, w) votes -> 0 <= w) -> 0 <= vsum votes.
Proof.
  induction votes as [|[b w] vs IH]; intros H; simpl; [lra|].
  assert (0 <= w) by (apply (H b w); left; reflexivity).
  assert (0 <= vsum vs) by (apply IH; intros b0 w0 Hb0; apply (H b0 w0); right; exact Hb0). lra.
Qed.

(* the initial allocation of a profile in which c is the plain first choice of a majority *)
Lemma initial_maj (votes : list (ballot * Q)) (caps : list (C * Z)) (c : C) :
  (forall x, In x (all_ranked_candidates votes) -> dget caps x = Some 1%Z) ->
  (forall b w, In (b, w) votes -> 0 <= w) ->
  let total := Qred (fold_left Qplus (map snd votes) 0) in
  total < 2 * coalition_weight [c] votes ->
  MInv total caps c (initial_allocation votes) /\ 0 < total.
Proof.
  intros Hcaps Hw total Hmaj.
  pose proof (total_vsum votes) as Htv. fold total in Htv.
  pose proof (cw_le_vsum [c] votes Hw) as Hcv.
  pose proof (cast_le_vsum votes Hw) as Hcast.
  assert (Hne : [c] <> []) by discriminate.
  destruct (initial_psc [c] votes (keys_some (initial_allocation votes)) Hne Hw) as (P1 & P2 & P3 & P4).
  destruct (initial_allocation_conserves votes) as [C1 C2].
  assert (Hpos : 0 < total) by lra.
  split; [|exact Hpos]. constructor.
  - exact C1.
  - exact P1.
  - intros x Hx. rewrite P3 in Hx. exact (Hcaps x Hx).
  - rewrite C2. lra.
  - exact P2.
  - rewrite P3. destruct (cw_pos_solid [c] votes) as (b & w & Hb1 & Hb2); [lra|].
    destruct (solid_b_first [c] b Hne Hb2) as (c' & t & -> & [<-|[]]).
    apply (all_ranked_in votes (IP c :: t) w (IP c) c Hb1); left; reflexivity.
  - rewrite P4. exact Hmaj.
Qed.

(* majority, any quota of at least half the votes (Droop, Hare, ...): whenever the single-seat count ends
   without a refusal, the candidate who is the plain first choice on more than half of the votes holds the seat.
   eliminate_step is taken negative (the default -1 eliminates one candidate at a time). *)
Theorem majority_ballots cf qf (votes : list (ballot * Q)) (caps : list (C * Z)) (c : C) :
  (c_step cf < 0)%Z -> c_quota cf = Some qf ->
  (forall x, In x (all_ranked_candidates votes) -> dget caps x = Some 1%Z) ->
  (forall b w, In (b, w) votes -> 0 <= w) ->
  let total := Qred (fold_left Qplus (map snd votes) 0) in
  0 < qf total 1%Z -> total <= 2 * qf total 1%Z ->
  total < 2 * coalition_weight [c] votes ->
  let t := stv cf votes 1 [] caps in
  t_stop t = None -> t_seats t = [(c, 1%Z)].
Proof.
  intros Hstep Hqf Hcaps Hw total Hq Hhalf Hmaj t Hstop.
  destruct (initial_maj votes caps c Hcaps Hw Hmaj) as [I Hpos]. fold total in I, Hpos.
  assert (Htot : Qeq_bool total 0 = false).
  { apply not_true_iff_false. intros H. apply Qeq_bool_iff in H. lra. }
  unfold t, stv in *. fold total in Hstop |- *.
  exact (run_maj cf Hstep qf Hqf total Htot Hq Hhalf caps c _ _ _ I Hstop).
Qed.

(* Droop quota, whole numbers of first-choice votes: c is elected at the first count, no condition on how
   the count ends (a second candidate stands - otherwise the shortcut seats c) *)
Theorem majority_ballots_droop cf (votes : list (ballot * Q)) (caps : list (C * Z)) (c c2 : C) (z : Z) :
  c_accept_equal cf = true -> c_quota cf = Some droop ->
  (forall x, In x (all_ranked_candidates votes) -> dget caps x = Some 1%Z) ->
  (forall b w, In (b, w) votes -> 0 <= w) ->
  let total := Qred (fold_left Qplus (map snd votes) 0) in
  coalition_weight [c] votes == inject_Z z -> total < 2 * inject_Z z ->
  In c2 (all_ranked_candidates votes) -> c2 <> c ->
  let t := stv cf votes 1 [] caps in
  t_seats t = [(c, 1%Z)] /\ t_stop t = None.
Proof.
  intros Hae Hqf Hcaps Hw total Hint Hmaj Hc2 Hne t.
  assert (Hmaj' : total < 2 * coalition_weight [c] votes) by (rewrite Hint; exact Hmaj).
  destruct (initial_maj votes caps c Hcaps Hw Hmaj') as [I Hpos]. fold total in I, Hpos.
  assert (Htot : Qeq_bool total 0 = false).
  { apply not_true_iff_false. intros H. apply Qeq_bool_iff in H. lra. }
  pose proof (droop_one_gt_half total) as Hgt.
  pose proof (droop_one_le_majority total z Hmaj) as Hle.
  assert (Hq : 0 < droop total 1) by lra.
  set (a0 := initial_allocation votes) in *.
  pose proof (m_c _ _ _ _ I) as Hc. apply keys_some_akeys in Hc. unfold akeys in Hc.
  apply in_map_iff in Hc. destruct Hc as ([k p] & Hk & Hpin). simpl in Hk. subst k.
  pose proof (cwa_le_pile c a0 p (m_nd _ _ _ _ I) (m_nn _ _ _ _ I) Hpin) as Hcp.
  assert (Hcwa : inject_Z z <= cwa [c] a0).
  { destruct (initial_psc [c] votes (keys_some a0)) as (_ & _ & _ & P4); [discriminate|exact Hw|].
    fold a0 in P4. rewrite P4, Hint. lra. }
  unfold t, stv. fold total. fold a0.
  replace (4 * length (all_ranked_candidates votes) + 8)%nat with (S (4 * length (all_ranked_candidates votes) + 7)) by lia.
  apply (single_seat_run cf Hae droop Hqf a0 (m_nd _ _ _ _ I) total Htot Hq c (pile_sum p)) with (c2 := c2).
  - apply totals_of_pile, Hpin.
  - rewrite pile_sum_wsum. lra.
  - intros k x Hin Hk. destruct (totals_in a0 k x Hin) as (p' & Hp' & ->). rewrite pile_sum_wsum.
    pose proof (others_small c a0 k p' (m_nn _ _ _ _ I) Hp' Hk) as Ho.
    pose proof (m_cons _ _ _ _ I) as Hcons.
    assert (Hnn : pile_nonneg p').
    { pose proof (m_nn _ _ _ _ I) as Hall. unfold alloc_nonneg in Hall. rewrite Forall_forall in Hall. exact (Hall (k, p') Hp'). }
    destruct (cwp_bounds [c] p' Hnn) as [B1 B2]. split; [lra|lra].
  - intros k Hk. apply (m_caps _ _ _ _ I). apply keys_some_akeys, Hk.
  - split; [|exact Hne]. apply keys_some_akeys. unfold a0. rewrite initial_keys. exact Hc2.
Qed.
