(* Scale invariance (C11) of the transferable-vote count (Model/STV.v): for every rational k > 0 the run on
   votes whose weights are all multiplied by k elects the same seats, stops the same way and records, count by
   count, the same elected lists and the k-fold totals - provided the quota function is homogeneous
   (quota (k v) n == k quota v n: Hare, Hagenbach-Bischoff) or absent.  Droop and the rounded quotas are not
   homogeneous and genuinely not scale-free (C11_stv_droop_not_scale_free in Props/C11.v).
   The proof is a simulation: piles and allocations of the two runs have the same keys in the same order and
   the same ballots, with weights related by x' == k x (the model normalises by Qred everywhere, hence ==),
   and every model function preserves that relation.  Whole multiples floor(x/q) coincide, surpluses scale,
   the Gregory factor (s - n)/s is scale-free, and get_n_best only sees an order embedding. *)
From Coq Require Import ZArith QArith Qround List Bool Lia Lqa Qfield.
From VL Require Import Prelude.PyDict Model.GetNBest Model.Quota Model.Convert
     Proofs.Dict_proofs Proofs.GetNBest_proofs Proofs.QOrd Proofs.LRScale_proofs Proofs.STV_proofs Model.STV.
Import ListNotations.
Open Scope Q_scope.

Definition orel {A B} (R : A -> B -> Prop) (x : option A) (y : option B) : Prop :=
  match x, y with Some a, Some b => R a b | None, None => True | _, _ => False end.

Section STVScale.
  Variable k : Q.
  Hypothesis Hk : 0 < k.
  Local Notation qs := (qsc k).

  Definition plrel : pile -> pile -> Prop := lrel (K := ballot) qs.
  Definition arel : alloc -> alloc -> Prop := lrel (K := option C) plrel.
  Definition trel : list (option C * Q) -> list (option C * Q) -> Prop := lrel (K := option C) qs.

  Lemma pile_add_rel p p' b w w' : plrel p p' -> qs w w' -> plrel (pile_add p b w) (pile_add p' b w').
  Proof.
    intros Hp Hw. induction Hp as [|[b1 w1] [b1' w1'] p p' [Hb Hv] Hp IH]; cbn [pile_add].
    - constructor; [split; [reflexivity|exact Hw]|constructor].
    - cbn [fst snd] in Hb, Hv. subst b1'. destruct (ballot_eqb b b1).
      + constructor; [|exact Hp]. split; [reflexivity|]. apply qsc_red, qsc_plus; assumption.
      + constructor; [split; [reflexivity|exact Hv]|exact IH].
  Qed.

  Lemma alloc_get_rel a a' key : arel a a' -> orel plrel (alloc_get a key) (alloc_get a' key).
  Proof.
    intros H. induction H as [|[k1 p1] [k1' p1'] a a' [Hkk Hp] Ha IH]; cbn [alloc_get]; [exact I|].
    cbn [fst snd] in Hkk, Hp. subst k1'. destruct (okey_eqb key k1); [exact Hp|exact IH].
  Qed.

  (* the pile of a candidate, empty when there is none *)
  Lemma alloc_pile_rel a a' key : arel a a' ->
    plrel match alloc_get a key with Some p => p | None => [] end match alloc_get a' key with Some p => p | None => [] end.
  Proof.
    intros H. pose proof (alloc_get_rel _ _ key H) as Hg.
    destruct (alloc_get a key), (alloc_get a' key); try contradiction; [exact Hg|constructor].
  Qed.

  Lemma alloc_add_rel a a' key b w w' : arel a a' -> qs w w' -> arel (alloc_add a key b w) (alloc_add a' key b w').
  Proof.
    intros H Hw. induction H as [|[k1 p1] [k1' p1'] a a' [Hkk Hp] Ha IH]; cbn [alloc_add].
    - constructor; [|constructor]. split; [reflexivity|]. exact (pile_add_rel [] [] b w w' (Forall2_nil _) Hw).
    - cbn [fst snd] in Hkk, Hp. subst k1'. destruct (okey_eqb key k1).
      + constructor; [|exact Ha]. split; [reflexivity|]. apply pile_add_rel; assumption.
      + constructor; [split; [reflexivity|exact Hp]|exact IH].
  Qed.

  Lemma alloc_del_rel a a' key : arel a a' -> arel (alloc_del a key) (alloc_del a' key).
  Proof. apply (lrel_filter_fst plrel (fun x => negb (okey_eqb key x))). Qed.

  Lemma pile_sum_rel p p' : plrel p p' -> qs (pile_sum p) (pile_sum p').
  Proof. intros H. exact (qsc_red k _ _ (qsum_acc_rel k _ _ H _ _ (qsc_0 k))). Qed.

  Lemma totals_rel a a' : arel a a' -> trel (totals a) (totals a').
  Proof.
    apply Forall2_map. intros y y' [Hy Hp]. split; [exact Hy|apply pile_sum_rel, Hp].
  Qed.

  Lemma keys_some_rel a a' : arel a a' -> keys_some a' = keys_some a.
  Proof. apply Forall2_flat_map_eq. intros x y [E _]. rewrite E. reflexivity. Qed.

  Lemma move_ballot_rel a a' targets b w w' : arel a a' -> qs w w' ->
    arel (move_ballot a targets b w) (move_ballot a' targets b w').
  Proof.
    intros Ha Hw. unfold move_ballot. destruct targets as [|t ts]; [apply alloc_add_rel; assumption|].
    cbv zeta. apply fold_left_rel_same; [|exact Ha]. intros x x' c Hx. apply alloc_add_rel; [exact Hx|].
    apply qsc_red, qsc_mult; [exact Hw|reflexivity].
  Qed.

  Lemma transfer_rel a a' elim : arel a a' -> arel (transfer a elim) (transfer a' elim).
  Proof.
    intros H. unfold transfer. cbv zeta. rewrite (keys_some_rel _ _ H).
    apply fold_left_rel_same; [|exact H]. intros x x' c Hx. apply alloc_del_rel.
    apply fold_left_rel with (RB := prel qs); [|apply alloc_pile_rel, Hx|exact Hx].
    intros y y' bw bw' Hy [Hb Hw]. rewrite <- Hb. apply move_ballot_rel; assumption.
  Qed.

  Lemma gregory_subtract_rel p p' n n' : plrel p p' -> qs n n' ->
    orel plrel (gregory_subtract p n) (gregory_subtract p' n').
  Proof.
    intros Hp Hn. unfold gregory_subtract. cbv zeta. pose proof (pile_sum_rel _ _ Hp) as Hs.
    set (s := pile_sum p) in *. set (s' := pile_sum p') in *. clearbody s s'.
    rewrite (qsc_eq k Hk _ _ _ _ Hs (qsc_0 k)), (qsc_le k Hk _ _ _ _ Hs Hn).
    destruct (Qeq_bool s 0); [exact I|]. destruct (Qle_bool s n); [constructor|].
    cbn [orel]. apply Forall2_map with (RA := prel qs); [|exact Hp].
    intros y y' [Hb Hy]. split; [exact Hb|]. apply qsc_red, qsc_mult; [exact Hy|].
    apply (qsc_div k Hk); [apply qsc_minus; assumption|exact Hs].
  Qed.

  Lemma stv_subtract_rel el el' : lrel (K := C) qs el el' -> forall a a', arel a a' ->
    orel arel (STV.subtract a el) (STV.subtract a' el').
  Proof.
    intros Hel. induction Hel as [|[c x] [c' x'] el el' [Hc Hx] Hel IH]; intros a a' Ha; cbn [STV.subtract]; [exact Ha|].
    cbn [fst snd] in Hc, Hx. subst c'.
    pose proof (alloc_get_rel _ _ (Some c) Ha) as Hg.
    destruct (alloc_get a (Some c)) as [p|], (alloc_get a' (Some c)) as [p'|]; try contradiction; [|exact I].
    pose proof (gregory_subtract_rel _ _ _ _ Hg Hx) as Hs.
    destruct (gregory_subtract p x) as [r|], (gregory_subtract p' x') as [r'|]; try contradiction; [|exact I].
    apply IH, Forall2_map with (RA := prel plrel); [|exact Ha].
    intros y y' Hy. rewrite <- (proj1 Hy). destruct (okey_eqb (Some c) (fst y)); [split; [reflexivity|exact Hs]|exact Hy].
  Qed.

  Lemma fold_fst_rel {A} (h : A -> ballot -> A) l l' : plrel l l' -> forall acc,
    fold_left (fun acc (bw : ballot * Q) => h acc (fst bw)) l' acc
    = fold_left (fun acc (bw : ballot * Q) => h acc (fst bw)) l acc.
  Proof.
    intros H acc. symmetry. apply fold_left_rel with (RA := eq) (RB := prel qs); [|exact H|reflexivity].
    intros a a' y y' -> [-> _]. reflexivity.
  Qed.

  Lemma arc_rel votes votes' : plrel votes votes' -> all_ranked_candidates votes' = all_ranked_candidates votes.
  Proof.
    intros H. unfold all_ranked_candidates. cbv zeta.
    match goal with |- fold_left _ (seq 0 ?M') [] = fold_left _ (seq 0 ?M) [] =>
      assert (E : M' = M) by exact (fold_fst_rel (fun m b => Nat.max m (length b)) _ _ H O) end.
    rewrite E. apply fold_left_ext. intros acc i.
    exact (fold_fst_rel (fun acc b => match nth_error b i with
                                      | Some it => fold_left (fun acc c => if cmem c acc then acc else acc ++ [c]) (members it) acc
                                      | None => acc end) _ _ H acc).
  Qed.

  Lemma initial_allocation_rel votes votes' : plrel votes votes' ->
    arel (initial_allocation votes) (initial_allocation votes').
  Proof.
    intros H. unfold initial_allocation. cbv zeta. rewrite (arc_rel _ _ H).
    apply fold_left_rel with (RB := prel qs); [|exact H|].
    { intros a a' y y' Ha [Hb Hw]. rewrite <- Hb. destruct (fst y) as [|[c|s] r]; try exact Ha.
      apply move_ballot_rel; assumption. }
    apply fold_left_rel with (RB := prel qs); [|exact H|].
    { intros a a' y y' Ha [Hb Hw]. rewrite <- Hb. destruct (fst y) as [|[c|s] r]; try exact Ha.
      apply alloc_add_rel; assumption. }
    apply Forall2_map_same. intros c. split; [reflexivity|constructor].
  Qed.

  Lemma ebq_sel_rel cf q q' prev caps items items' : qs q q' -> trel items items' ->
    lrel (K := C * Z) qs (flat_map (ebq_item cf q prev caps) items) (flat_map (ebq_item cf q' prev caps) items').
  Proof.
    intros Hq. apply Forall2_flat_map. intros [o x] [o' x'] [Ho Hx]. unfold ebq_item. cbn [fst snd] in Ho, Hx |- *. subst o'.
    destruct o as [c|]; [|constructor]. cbv zeta.
    assert (Hm : qfloor_div x' q' = qfloor_div x q).
    { unfold qfloor_div. apply Qfloor_comp, (qsc_div k Hk); assumption. }
    rewrite Hm. set (mult := qfloor_div x q).
    assert (Ho : qs (Qred (x - inject_Z mult * q)) (Qred (x' - inject_Z mult * q'))).
    { apply qsc_red, qsc_minus; [exact Hx|apply qsc_mult_l, Hq]. }
    rewrite (qsc_eq k Hk _ _ _ _ Ho (qsc_0 k)).
    destruct (c_accept_equal cf || negb (Qeq_bool (Qred (x - inject_Z mult * q)) 0)); [|constructor].
    destruct (0 <? _)%Z; [|constructor].
    constructor; [|constructor]. split; [reflexivity|exact Ho].
  Qed.

  Lemma ebq_tail_rel n sel sel' : lrel (K := C * Z) qs sel sel' -> ebq_tail n sel' = ebq_tail n sel.
  Proof.
    intros H.
    assert (Haw : map (fun x : C * Z * Q => (fst (fst x), snd (fst x))) sel'
                  = map (fun x : C * Z * Q => (fst (fst x), snd (fst x))) sel).
    { apply (Forall2_map_eq (prel qs)); [|exact H]. intros x x' [E _]. rewrite E. reflexivity. }
    assert (Hg : get_n_best Qle_bool (map (fun x : C * Z * Q => (fst (fst x), snd x)) sel') (Z.to_nat n)
                 = get_n_best Qle_bool (map (fun x : C * Z * Q => (fst (fst x), snd x)) sel) (Z.to_nat n)).
    { apply (get_n_best_rel Qle_bool Qle_bool qs (qsc_le k Hk)), Forall2_map with (RA := prel qs); [|exact H].
      intros y y' [E Hy]. split; [cbn [fst]; rewrite E; reflexivity|exact Hy]. }
    unfold ebq_tail, ebq_correct. cbv zeta. rewrite Haw, Hg. destruct H; reflexivity.
  Qed.

  Lemma elect_by_quota_rel cf tot tot' q q' n_rem prev caps : trel tot tot' -> orel qs q q' ->
    elect_by_quota cf tot' q' n_rem prev caps = elect_by_quota cf tot q n_rem prev caps.
  Proof.
    intros Ht Hq. destruct q as [q|], q' as [q'|]; try contradiction; [|reflexivity].
    cbn [orel] in Hq. rewrite !ebq_unfold. apply ebq_tail_rel, ebq_sel_rel; [exact Hq|].
    apply (sort_desc_rel Qle_bool Qle_bool qs (qsc_le k Hk)), Forall2_map with (RA := prel qs); [|exact Ht].
    intros y y' Hy. exact Hy.
  Qed.

  Definition crrel (x y : count_result) : Prop :=
    match x, y with
    | CR_all e, CR_all e' => e' = e
    | CR_next a e, CR_next a' e' => arel a a' /\ e' = e
    | CR_stop s, CR_stop s' => s' = s
    | _, _ => False
    end.

  Lemma some_totals_rel t t' : trel t t' -> lrel (K := C) qs (some_totals t) (some_totals t').
  Proof.
    apply Forall2_flat_map. intros [o x] [o' x'] [Ho Hx]. cbn [fst snd] in Ho, Hx |- *. subst o'.
    destruct o as [c|]; constructor; [|constructor]. split; [reflexivity|exact Hx].
  Qed.

  Lemma elim_branch_rel cf a a' : arel a a' -> crrel (elim_branch cf a) (elim_branch cf a').
  Proof.
    intros Ha. unfold elim_branch. cbv zeta.
    pose proof (some_totals_rel _ _ (totals_rel _ _ Ha)) as Hp.
    set (ip := some_totals (totals a)) in *. set (ip' := some_totals (totals a')) in *. clearbody ip ip'.
    rewrite (lrel_length qs _ _ Hp), (lrel_keys qs _ _ Hp).
    rewrite (get_n_best_rel Qle_bool Qle_bool qs (qsc_le k Hk) _ _ (retained_count cf (length ip)) Hp).
    destruct (existsb _ _); [reflexivity|].
    destruct (filter _ (map fst ip)) as [|e es]; cbn [crrel]; (split; [|reflexivity]); [exact Ha|].
    apply transfer_rel, Ha.
  Qed.

  Definition homog_cfg (cf : cfg) : Prop :=
    forall qf, c_quota cf = Some qf -> forall v v' n, qs v v' -> qs (qf v n) (qf v' n).

  Lemma quota_of_rel cf tv tv' n : homog_cfg cf -> qs tv tv' -> orel qs (quota_of cf tv n) (quota_of cf tv' n).
  Proof.
    intros Hh Htv. unfold quota_of. destruct (c_quota cf) as [qf|] eqn:Eq; [|exact I].
    rewrite (qsc_eq k Hk _ _ _ _ Htv (qsc_0 k)). destruct (Qeq_bool tv 0 || (n =? 0)%Z); [exact I|].
    cbn [orel]. apply (Hh qf Eq), Htv.
  Qed.

  Lemma amounts_rel q q' (el : list (C * Z)) : qs q q' ->
    lrel (K := C) qs (map (fun cs : C * Z => (fst cs, inject_Z (snd cs) * q)) el)
                     (map (fun cs : C * Z => (fst cs, inject_Z (snd cs) * q')) el).
  Proof. intros Hq. apply Forall2_map_same. intros cs. split; [reflexivity|apply qsc_mult_l, Hq]. Qed.

  Lemma quota_branch_rel a a' q q' prev caps el : arel a a' -> orel qs q q' ->
    crrel (quota_branch a q prev caps el) (quota_branch a' q' prev caps el).
  Proof.
    intros Ha Hq. unfold quota_branch. destruct q as [q|], q' as [q'|]; try contradiction; [|reflexivity].
    pose proof (stv_subtract_rel _ _ (amounts_rel q q' el Hq) _ _ Ha) as Hs.
    destruct (STV.subtract a _) as [a1|], (STV.subtract a' _) as [a1'|]; try contradiction; [|reflexivity].
    cbv zeta. destruct (flat_map _ el) as [|e es]; cbn [crrel]; (split; [|reflexivity]); [exact Hs|].
    apply transfer_rel, Hs.
  Qed.

  Lemma next_count_rel cf a a' n_seats tv tv' prev caps : homog_cfg cf -> arel a a' -> qs tv tv' ->
    crrel (next_count cf a n_seats tv prev caps) (next_count cf a' n_seats tv' prev caps).
  Proof.
    intros Hh Ha Htv. rewrite !next_count_unfold. cbv zeta.
    pose proof (totals_rel _ _ Ha) as Ht.
    pose proof (sort_desc_rel Qle_bool Qle_bool qs (qsc_le k Hk) _ _ Ht) as Hbt.
    rewrite (fun F H => Forall2_existsb (prel qs) F F H _ _ Hbt) by (intros x y [E _]; rewrite E; reflexivity).
    rewrite (fun F H => Forall2_flat_map_eq (B := C * Z) (prel qs) F F _ _ H Hbt) by (intros x y [E _]; rewrite E; reflexivity).
    destruct (negb _ && _ && negb (c_mandatory cf)); [reflexivity|].
    pose proof (quota_of_rel cf tv tv' n_seats Hh Htv) as Hq.
    rewrite (elect_by_quota_rel cf _ _ _ _ (n_seats - zsum (map snd prev))%Z prev caps Ht Hq).
    destruct (elect_by_quota cf (totals a) _ _ prev caps) as [[el|]|s];
      [apply quota_branch_rel; assumption|apply elim_branch_rel, Ha|reflexivity].
  Qed.

  Lemma psub_rel p p' q q' : plrel p p' -> plrel q q' -> psub p' q' = psub p q.
  Proof.
    intros Hp Hq. unfold psub. apply (Forall2_forallb (prel qs)); [|exact Hp]. intros y y' [Eb Hy].
    apply (Forall2_existsb (prel qs)); [|exact Hq]. intros z z' [Ez Hz].
    rewrite Eb, Ez, (qsc_eq k Hk _ _ _ _ Hy Hz). reflexivity.
  Qed.

  Lemma asub_rel x x' y y' : arel x x' -> arel y y' -> asub x' y' = asub x y.
  Proof.
    intros Hx Hy. unfold asub. apply (Forall2_forallb (prel plrel)); [|exact Hx]. intros z z' [Ez Hz].
    rewrite <- Ez. pose proof (alloc_get_rel _ _ (fst z) Hy) as Hg.
    destruct (alloc_get y (fst z)) as [q|], (alloc_get y' (fst z)) as [q'|]; try contradiction; [|reflexivity].
    cbn [orel] in Hg. rewrite (psub_rel _ _ _ _ Hz Hg), (psub_rel _ _ _ _ Hg Hz). reflexivity.
  Qed.

  Lemma alloc_eqb_rel a a' b b' : arel a a' -> arel b b' -> alloc_eqb a' b' = alloc_eqb a b.
  Proof. intros Ha Hb. rewrite !alloc_eqb_unfold, (asub_rel _ _ _ _ Ha Hb), (asub_rel _ _ _ _ Hb Ha). reflexivity. Qed.

  Definition crec_rel (x y : list (option C * Q) * list (C * Z)) : Prop := trel (fst x) (fst y) /\ snd y = snd x.

  Definition trace_rel (t t' : trace) : Prop :=
    t_seats t' = t_seats t /\ t_stop t' = t_stop t /\ Forall2 crec_rel (t_counts t) (t_counts t').

  Lemma trace_rel_build acc acc' seats st : Forall2 crec_rel acc acc' ->
    trace_rel (Build_trace (rev acc) seats st) (Build_trace (rev acc') seats st).
  Proof. intros H. split; [reflexivity|]. split; [reflexivity|]. cbn [t_counts]. apply Forall2_rev, H. Qed.

  Lemma run_rel cf : homog_cfg cf -> forall fuel a a' n tv tv' seats caps acc acc',
    arel a a' -> qs tv tv' -> Forall2 crec_rel acc acc' ->
    trace_rel (run cf fuel a n tv seats caps acc) (run cf fuel a' n tv' seats caps acc').
  Proof.
    intros Hh fuel. induction fuel as [|f IH]; intros a a' n tv tv' seats caps acc acc' Ha Htv Hacc; cbn [run].
    - destruct (_ =? n)%Z; apply trace_rel_build, Hacc.
    - destruct (_ =? n)%Z; [apply trace_rel_build, Hacc|].
      pose proof (next_count_rel cf a a' n tv tv' seats caps Hh Ha Htv) as Hn.
      destruct (next_count cf a n tv seats caps) as [el|a1 el|s],
               (next_count cf a' n tv' seats caps) as [el'|a1' el'|s']; try contradiction; cbn [crrel] in Hn.
      + subst el'. apply (trace_rel_build (([], el) :: acc) (([], el) :: acc')).
        constructor; [|exact Hacc]. split; [constructor|reflexivity].
      + destruct Hn as [Ha1 ->].
        assert (Hacc1 : Forall2 crec_rel ((totals a1, el) :: acc) ((totals a1', el) :: acc')).
        { constructor; [|exact Hacc]. split; [apply totals_rel, Ha1|reflexivity]. }
        destruct el as [|e es].
        * rewrite (alloc_eqb_rel _ _ _ _ Ha1 Ha). destruct (alloc_eqb a1 a); [apply trace_rel_build, Hacc|].
          apply IH; assumption.
        * apply IH; assumption.
      + subst s'. apply trace_rel_build, Hacc.
  Qed.

  Theorem stv_rel cf votes votes' n prev caps : homog_cfg cf -> plrel votes votes' ->
    trace_rel (stv cf votes n prev caps) (stv cf votes' n prev caps).
  Proof.
    intros Hh Hv. unfold stv. cbv zeta. rewrite (arc_rel _ _ Hv).
    apply run_rel; [exact Hh|apply initial_allocation_rel, Hv| |constructor].
    exact (pile_sum_rel _ _ Hv).
  Qed.

  Definition scale_ballots (votes : list (ballot * Q)) : list (ballot * Q) :=
    map (fun bw => (fst bw, k * snd bw)) votes.

  Theorem stv_scale cf votes n prev caps : homog_cfg cf ->
    trace_rel (stv cf votes n prev caps) (stv cf (scale_ballots votes) n prev caps).
  Proof. intros Hh. apply stv_rel; [exact Hh|apply lrel_scale]. Qed.

  (* no quota, Hare and Hagenbach-Bischoff are homogeneous *)
  Lemma homog_none ae ma st : homog_cfg (Build_cfg None ae ma st).
  Proof. intros qf E. discriminate. Qed.
  Lemma homog_hare ae ma st : homog_cfg (Build_cfg (Some hare) ae ma st).
  Proof. intros qf E v v' n Hv. cbn [c_quota] in E. injection E as <-. apply hare_homog, Hv. Qed.
  Lemma homog_hb ae ma st : homog_cfg (Build_cfg (Some hagenbach_bischoff) ae ma st).
  Proof. intros qf E v v' n Hv. cbn [c_quota] in E. injection E as <-. apply hb_homog, Hv. Qed.
End STVScale.
