(* Seat-count adjusters (Model/Overhang.v) over an arbitrary proportional evaluator. *)
From Coq Require Import ZArith QArith List Bool Lia.
From VL Require Import Prelude.PyDict Model.Overhang Proofs.Dict_proofs.
Import ListNotations.
Open Scope Z_scope.

Section OHP.
  Variable E : Z -> option (list (C * Z)).

  (* AllowOverhang: the number of overhang seats *)
  Definition overhang_sum (prop prev : list (C * Z)) : Z :=
    fold_right (fun cp acc => Z.max 0 (snd cp - dget_or prop (fst cp) 0) + acc) 0 prev.

  Theorem allow_spec n prev prop : E n = Some prop ->
    allow_overhang E n prev = Some (overhang_sum prop prev).
  Proof.
    intros H. unfold allow_overhang. rewrite H. f_equal.
    assert (G : forall l acc, fold_left (fun adj (cp : C * Z) => let pc := dget_or prop (fst cp) 0 in
                  if pc <? snd cp then adj + (snd cp - pc) else adj) l acc = acc + overhang_sum prop l).
    { induction l as [|[c p] l IH]; intros acc; simpl; [lia|]. rewrite IH.
      destruct (dget_or prop c 0 <? p) eqn:E1; [apply Z.ltb_lt in E1|apply Z.ltb_ge in E1]; lia. }
    rewrite G. lia.
  Qed.

  Theorem overhang_sum_nonneg prop prev : 0 <= overhang_sum prop prev.
  Proof. induction prev as [|[c p] l IH]; simpl; lia. Qed.

  Theorem overhang_sum_zero prop prev :
    overhang_sum prop prev = 0 <-> Forall (fun cp => snd cp <= dget_or prop (fst cp) 0) prev.
  Proof.
    induction prev as [|[c p] l IH]; simpl; [split; [constructor|reflexivity]|].
    pose proof (overhang_sum_nonneg prop l). split.
    - intros H0. constructor; [simpl; lia|apply IH; lia].
    - intros Hf. inversion Hf as [|? ? H1 H2]; subst. simpl in H1. apply IH in H2. lia.
  Qed.

  (* LevelOverhang: the loop stops at the first house size that satisfies every minimum *)
  Theorem level_loop_spec pmins : forall fuel adj prop r,
    level_loop E fuel pmins adj prop = Some r ->
    adj <= r /\
    (r = adj -> satisfied pmins prop = true) /\
    (adj < r -> satisfied pmins prop = false /\
                (exists pr, E r = Some pr /\ satisfied pmins pr = true) /\
                (forall h, adj < h < r -> exists ph, E h = Some ph /\ satisfied pmins ph = false)).
  Proof.
    induction fuel as [|f IH]; intros adj prop r; simpl; destruct (satisfied pmins prop) eqn:Es.
    1,3: intros [= <-]; split; [apply Z.le_refl|]; split; [reflexivity|intros H; destruct (Z.lt_irrefl _ H)].
    - discriminate.
    - destruct (E (adj + 1)) as [prop'|] eqn:Ee; [|discriminate]. intros H.
      destruct (IH _ _ _ H) as (H1 & H2 & H3). split; [lia|]. split; [intros ->; lia|].
      intros _. split; [reflexivity|].
      destruct (Z.eq_dec r (adj + 1)) as [->|Hne].
      + split; [exists prop'; split; [exact Ee|apply H2; reflexivity]|]. intros h Hh. lia.
      + destruct H3 as (H3a & H3b & H3c); [lia|]. split; [exact H3b|].
        intros h Hh. destruct (Z.eq_dec h (adj + 1)) as [->|Hne2]; [exists prop'; split; assumption|].
        apply H3c. lia.
  Qed.

  (* without overhang among the tier parties the adjustment is zero *)
  Lemma satisfied_no_overhang prop prev : NoDup (map fst prop) ->
    Forall (fun pg => dget_or prev (fst pg) 0 <= snd pg) prop ->
    satisfied (lowest_allowed prop prev) prop = true.
  Proof.
    intros Hnd Hf. unfold satisfied, lowest_allowed. apply forallb_forall. intros [p m] Hin.
    apply in_map_iff in Hin. destruct Hin as ([p0 g] & Heq & Hin). simpl in Heq. injection Heq as <- <-.
    rewrite Forall_forall in Hf. pose proof (Hf _ Hin) as Hle. simpl in *.
    unfold dget_or at 1. rewrite (In_dget prop p0 g Hnd Hin). apply negb_true_iff, Z.ltb_ge. lia.
  Qed.

  Theorem level_zero_without_overhang fuel n prev prop : E n = Some prop -> NoDup (map fst prop) ->
    Forall (fun pg => dget_or prev (fst pg) 0 <= snd pg) prop ->
    level_overhang E fuel n prev = Some 0.
  Proof.
    intros He Hnd Hf. unfold level_overhang. rewrite He.
    assert (Hs := satisfied_no_overhang prop prev Hnd Hf).
    destruct fuel; simpl; rewrite Hs; f_equal; lia.
  Qed.

  Theorem level_nonneg fuel n prev r : level_overhang E fuel n prev = Some r -> 0 <= r.
  Proof.
    unfold level_overhang. destruct (E n) as [prop|]; [|discriminate].
    destruct (level_loop E fuel _ _ prop) as [adj|] eqn:El; [|discriminate]. intros [= <-].
    destruct (level_loop_spec _ _ _ _ _ El) as [H _]. lia.
  Qed.
End OHP.
