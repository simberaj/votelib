(* Schulze (Model/Condorcet.v: widest_paths, schulze), for every iteration order of the candidate set:
   - scale invariance (C11): the Floyd-Warshall run over k * v is k * (the run over v);
   - the Condorcet winner is elected alone (C05), nobody is dropped with as many seats as candidates (C05);
   - the computed table is the table of strongest beat-paths (C05: "agrees with its defining computation");
   - the table, hence the result, does not depend on the order in which the candidate set is iterated (Section ORDER);
   - monotonicity (C17) is REFUTED for the ranking by the number of path-wins: two witnesses below (in the second the
     sole winner loses); what raising w does to the table itself is in Section RAISE. *)
From Coq Require Import ZArith List Bool Lia Arith Permutation.
From VL Require Import Prelude.PyDict Model.GetNBest Model.Condorcet Proofs.Dict_proofs Proofs.GetNBest_proofs
     Proofs.Condorcet_proofs Proofs.CopelandMono_proofs Proofs.Scale_proofs.
Import ListNotations.
Open Scope Z_scope.

Definition wp_init (v : pvotes) : pvotes := filter (fun pn => pget0 v (swap (fst pn)) <? snd pn) v.

Definition wp_upd (paths : pvotes) (c1 c2 ca : C) : pvotes :=
  pset paths (c2, ca) (Z.max (pget0 paths (c2, ca)) (Z.min (pget0 paths (c2, c1)) (pget0 paths (c1, ca)))).

Definition wp_inner (c1 c2 : C) (paths : pvotes) (ca : C) : pvotes :=
  if ceqb ca c1 || ceqb ca c2 then paths else wp_upd paths c1 c2 ca.
Definition wp_mid (order : list C) (c1 : C) (paths : pvotes) (c2 : C) : pvotes :=
  if ceqb c1 c2 then paths else fold_left (wp_inner c1 c2) order paths.
Definition wp_outer (order : list C) (paths : pvotes) (c1 : C) : pvotes :=
  fold_left (wp_mid order c1) order paths.

Lemma widest_paths_unfold v order : widest_paths v order = fold_left (wp_outer order) order (wp_init v).
Proof. reflexivity. Qed.

Lemma fold_left_rel2 {A A' B} (R : A -> A' -> Prop) (f : A -> B -> A) (f' : A' -> B -> A') (l : list B) :
  (forall a a' x, In x l -> R a a' -> R (f a x) (f' a' x)) -> forall a a', R a a' -> R (fold_left f l a) (fold_left f' l a').
Proof.
  induction l as [|x l IH]; intros H a a' Ha; simpl; [exact Ha|].
  apply IH; [intros b b' y Hy; apply H; right; exact Hy|]. apply H; [left; reflexivity|exact Ha].
Qed.

(* induction over the three nested loops, for two runs over the same order: a relation between the initial tables
   preserved by every single update *)
Lemma wp_rel (R : pvotes -> pvotes -> Prop) (v v' : pvotes) (order : list C) :
  R (wp_init v) (wp_init v') ->
  (forall p p' c1 c2 ca, In c1 order -> In c2 order -> In ca order -> c1 <> c2 -> ca <> c1 -> ca <> c2 ->
     R p p' -> R (wp_upd p c1 c2 ca) (wp_upd p' c1 c2 ca)) ->
  R (widest_paths v order) (widest_paths v' order).
Proof.
  intros H0 Hs. rewrite !widest_paths_unfold. apply fold_left_rel2; [|exact H0].
  intros p1 p1' c1 Hc1 Hp1. unfold wp_outer. apply fold_left_rel2; [|exact Hp1].
  intros p2 p2' c2 Hc2 Hp2. unfold wp_mid. destruct (ceqb c1 c2) eqn:E12; [exact Hp2|]. apply Pos.eqb_neq in E12.
  apply fold_left_rel2; [|exact Hp2].
  intros p3 p3' ca Hca Hp3. unfold wp_inner. destruct (ceqb ca c1) eqn:E1; [exact Hp3|]. destruct (ceqb ca c2) eqn:E2; [exact Hp3|].
  apply Pos.eqb_neq in E1. apply Pos.eqb_neq in E2. simpl. apply Hs; assumption.
Qed.

(* for one run: an invariant of the initial table preserved by every single update *)
Lemma wp_ind (I : pvotes -> Prop) (v : pvotes) (order : list C) :
  I (wp_init v) ->
  (forall paths c1 c2 ca, In c1 order -> In c2 order -> In ca order -> c1 <> c2 -> ca <> c1 -> ca <> c2 ->
     I paths -> I (wp_upd paths c1 c2 ca)) ->
  I (widest_paths v order).
Proof. intros H0 Hs. apply (wp_rel (fun p _ => I p) v v order H0). intros p _. apply Hs. Qed.

Lemma pset_nil p n : pset [] p n = [(p, n)].
Proof. reflexivity. Qed.
Lemma pset_cons p' n' t p n : pset ((p', n') :: t) p n = if peqb p p' then (p', n) :: t else (p', n') :: pset t p n.
Proof. reflexivity. Qed.

Lemma pget_pset (v : pvotes) p n q : pget (pset v p n) q = if peqb q p then Some n else pget v q.
Proof.
  induction v as [|[p' n'] t IH].
  - rewrite pset_nil. simpl. destruct (peqb q p); reflexivity.
  - rewrite pset_cons. destruct (peqb p p') eqn:E; simpl.
    + apply peqb_eq in E. subst p'. destruct (peqb q p); reflexivity.
    + destruct (peqb q p') eqn:E'; [|exact IH]. apply peqb_eq in E'. subst p'.
      destruct (peqb q p) eqn:E''; [|reflexivity]. apply peqb_eq in E''. subst q. rewrite peqb_refl in E. discriminate.
Qed.

Lemma pget0_pset (v : pvotes) p n q : pget0 (pset v p n) q = if peqb q p then n else pget0 v q.
Proof. unfold pget0. rewrite pget_pset. destruct (peqb q p); reflexivity. Qed.

Lemma pset_keys (v : pvotes) p n q : In q (map fst (pset v p n)) <-> q = p \/ In q (map fst v).
Proof.
  induction v as [|[p' n'] t IH].
  - rewrite pset_nil. simpl. split; [intros [<-|[]]; auto|intros [->|[]]; auto].
  - rewrite pset_cons. destruct (peqb p p') eqn:E.
    + apply peqb_eq in E. subst p'. simpl. split; [intros [<-|H]; auto|intros [->|[<-|H]]; auto].
    + simpl. destruct IH as [IH1 IH2]. split.
      * intros [H|H]; [auto|apply IH1 in H; destruct H; auto].
      * intros [H|[H|H]]; auto.
Qed.

Lemma pset_NoDup (v : pvotes) p n : NoDup (map fst v) -> NoDup (map fst (pset v p n)).
Proof.
  induction v as [|[p' n'] t IH]; intros H.
  - rewrite pset_nil. simpl. constructor; [intros []|constructor].
  - rewrite pset_cons. inversion H as [|? ? Hp Ht]; subst. destruct (peqb p p') eqn:E.
    + simpl. constructor; assumption.
    + simpl. constructor; [|apply IH, Ht]. intros Hin. apply pset_keys in Hin. destruct Hin as [->|Hin]; [|exact (Hp Hin)].
      rewrite peqb_refl in E. discriminate.
Qed.

Lemma pset_scale k (v : pvotes) p n : pset (scalez k v) p (k * n) = scalez k (pset v p n).
Proof.
  induction v as [|[p' n'] t IH]; [reflexivity|].
  change (scalez k ((p', n') :: t)) with ((p', k * n') :: scalez k t).
  rewrite !pset_cons. destruct (peqb p p'); [reflexivity|].
  change (scalez k ((p', n') :: pset t p n)) with ((p', k * n') :: scalez k (pset t p n)). rewrite IH. reflexivity.
Qed.

(* C11: scale invariance *)
Section SCALE.
  Variable k : Z.
  Hypothesis Hk : 0 < k.

  Lemma wp_init_scale v : wp_init (scalez k v) = scalez k (wp_init v).
  Proof.
    unfold wp_init.
    assert (H : forall u, filter (fun pn : pair * Z => pget0 (scalez k v) (swap (fst pn)) <? snd pn) (scalez k u)
                     = scalez k (filter (fun pn : pair * Z => pget0 v (swap (fst pn)) <? snd pn) u)).
    { induction u as [|[p m] u IH]; [reflexivity|].
      change (scalez k ((p, m) :: u)) with ((p, k * m) :: scalez k u). cbn [filter fst snd].
      rewrite (pget0_scale k v (swap p)).
      assert (E : (k * pget0 v (swap p) <? k * m) = (pget0 v (swap p) <? m)).
      { destruct (pget0 v (swap p) <? m) eqn:E; [apply Z.ltb_lt in E; apply Z.ltb_lt; nia|apply Z.ltb_ge in E; apply Z.ltb_ge; nia]. }
      rewrite E. destruct (pget0 v (swap p) <? m); rewrite IH; reflexivity. }
    apply H.
  Qed.

  Lemma wp_upd_scale p c1 c2 ca : wp_upd (scalez k p) c1 c2 ca = scalez k (wp_upd p c1 c2 ca).
  Proof.
    unfold wp_upd. rewrite !pget0_scale, <- pset_scale. f_equal.
    rewrite Z.mul_min_distr_nonneg_l, Z.mul_max_distr_nonneg_l by lia. reflexivity.
  Qed.

  Theorem widest_paths_scale v order : widest_paths (scalez k v) order = scalez k (widest_paths v order).
  Proof.
    apply (wp_rel (fun p' p => p' = scalez k p) (scalez k v) v order).
    - apply wp_init_scale.
    - intros p p' c1 c2 ca _ _ _ _ _ _ ->. apply wp_upd_scale.
  Qed.

  Theorem schulze_scale v order n : schulze (scalez k v) order n = schulze v order n.
  Proof.
    unfold schulze. rewrite widest_paths_scale, (pairwise_wins_scale k Hk), (candidates_scale k). reflexivity.
  Qed.
End SCALE.

Lemma pget_filter (f : pair * Z -> bool) (u : pvotes) p : NoDup (map fst u) ->
  pget (filter f u) p = match pget u p with Some n => if f (p, n) then Some n else None | None => None end.
Proof.
  induction u as [|[p' n'] t IH]; intros H; [reflexivity|]. inversion H as [|? ? Hp Ht]; subst.
  cbn [filter pget]. destruct (peqb p p') eqn:E.
  - apply peqb_eq in E. subst p'. destruct (f (p, n')); [cbn [pget]; rewrite peqb_refl; reflexivity|].
    rewrite (IH Ht). destruct (pget t p) eqn:Eg; [|reflexivity]. exfalso. apply Hp. apply pget_In in Eg.
    apply in_map_iff. exists (p, z). split; [reflexivity|exact Eg].
  - destruct (f (p', n')); [cbn [pget]; rewrite E|]; apply (IH Ht).
Qed.

Lemma seeded_get (l : list C) x : dget_or (map (fun c : C => (c, 0)) l) x 0 = 0.
Proof.
  unfold dget_or. induction l as [|c l IH]; [reflexivity|]. cbn [map dget]. destruct (ceqb x c); [reflexivity|exact IH].
Qed.

Definition sch_step (d : list (C * Z)) (p : pair) : list (C * Z) := dadd (dadd d (fst p) 1) (snd p) 0.

Lemma sch_fold_get (ws : list pair) x : forall d,
  dget_or (fold_left sch_step ws d) x 0 = dget_or d x 0 + Z.of_nat (length (filter (fun p : pair => ceqb (fst p) x) ws)).
Proof. intros d. change sch_step with (tally 0). rewrite tally_get. lia. Qed.

Lemma sch_fold_keys (ws : list pair) : forall d, NoDup (map fst d) ->
  NoDup (map fst (fold_left sch_step ws d)) /\
  forall x, In x (map fst (fold_left sch_step ws d)) <-> In x (map fst d) \/ exists p, In p ws /\ (x = fst p \/ x = snd p).
Proof. exact (tally_keys 0 ws). Qed.

(* asked for as many places as there are entries, get_n_best lists every key, untied *)
Lemma get_n_best_all {V} (leb : V -> V -> bool) (votes : list (C * V)) :
  get_n_best leb votes (length votes) = map (fun it : C * V => Cand (fst it)) (sort_desc leb votes).
Proof. unfold get_n_best. rewrite sort_desc_length, Nat.ltb_irrefl. reflexivity. Qed.

Lemma get_n_best_all_in {V} (leb : V -> V -> bool) (votes : list (C * V)) x :
  In x (map fst votes) -> In (Cand x) (get_n_best leb votes (length votes)).
Proof.
  intros Hx. rewrite get_n_best_all. apply in_map_iff in Hx. destruct Hx as ([x' u] & Hf & Hin). simpl in Hf. subst x'.
  apply in_map_iff. exists (x, u). split; [reflexivity|]. apply (Permutation_in _ (Permutation_sym (sort_desc_perm leb votes))), Hin.
Qed.

Lemma keys_length {V} (d : list (C * V)) (cs : list C) :
  NoDup (map fst d) -> NoDup cs -> (forall y, In y (map fst d) <-> In y cs) -> length cs = length d.
Proof. intros Hn Hc Hk. rewrite <- (map_length fst d). symmetry. apply Permutation_length, NoDup_Permutation; assumption. Qed.

Lemma schulze_unfold v order n :
  schulze v order n = get_n_best zle_bool (fold_left sch_step (pairwise_wins (widest_paths v order) false) (map (fun c : C => (c, 0)) (candidates v))) n.
Proof. reflexivity. Qed.

Section SCH.
  Variable v : pvotes.
  Hypothesis Hnd : NoDup (map fst v).
  Hypothesis Hnn : forall p n, In (p, n) v -> 0 <= n.
  Variable order : list C.
  Notation cs := (candidates v).

  (* the strength of the direct link: winning votes, 0 for a pair that is not won *)
  Definition d0 (a b : C) : Z := if pget0 v (b, a) <? pget0 v (a, b) then pget0 v (a, b) else 0.

  Lemma wp_init_get a b : pget0 (wp_init v) (a, b) = d0 a b.
  Proof.
    assert (Hv : pget0 v (a, b) = match pget v (a, b) with Some n => n | None => 0 end) by reflexivity.
    unfold wp_init, pget0 at 1. rewrite (pget_filter _ v (a, b) Hnd). unfold d0. rewrite Hv.
    destruct (pget v (a, b)) as [n|]; unfold swap; cbn [fst snd].
    - destruct (pget0 v (b, a) <? n); reflexivity.
    - destruct (pget0 v (b, a) <? 0); reflexivity.
  Qed.

  Lemma d0_nonneg a b : 0 <= d0 a b.
  Proof. unfold d0. pose proof (pget0_nonneg v Hnn (a, b)). destruct (_ <? _); lia. Qed.

  Lemma d0_pos a b : 0 < d0 a b -> beats v a b /\ d0 a b = pget0 v (a, b).
  Proof. unfold d0, beats. destruct (_ <? _) eqn:E; [apply Z.ltb_lt in E; auto|lia]. Qed.

  Lemma d0_beats a b : beats v a b -> d0 a b = pget0 v (a, b) /\ 0 < d0 a b.
  Proof.
    unfold d0, beats. intros H. pose proof (pget0_nonneg v Hnn (b, a)).
    destruct (_ <? _) eqn:E; [split; [reflexivity|lia]|apply Z.ltb_ge in E; lia].
  Qed.

  Lemma d0_pos_cands a b : 0 < d0 a b -> In a cs /\ In b cs /\ a <> b.
  Proof using.
    intros H. destruct (d0_pos a b H) as [Hb He]. rewrite He in H.
    destruct (pget0_cands v a b) as [Ha Hb']; [lia|]. split; [exact Ha|]. split; [exact Hb'|].
    intros ->. unfold beats in Hb. lia.
  Qed.

  Definition G (paths : pvotes) : Prop :=
    NoDup (map fst paths) /\ (forall a b, d0 a b <= pget0 paths (a, b)) /\
    (forall a b, 0 < pget0 paths (a, b) -> In a cs /\ In b cs /\ a <> b).

  Lemma wp_upd_get paths c1 c2 ca x : pget0 (wp_upd paths c1 c2 ca) x =
    if peqb x (c2, ca) then Z.max (pget0 paths (c2, ca)) (Z.min (pget0 paths (c2, c1)) (pget0 paths (c1, ca)))
    else pget0 paths x.
  Proof. unfold wp_upd. apply pget0_pset. Qed.

  Lemma G_init : G (wp_init v).
  Proof.
    split; [apply filter_fst_NoDup, Hnd|]. split; [intros a b; rewrite wp_init_get; lia|].
    intros a b. rewrite wp_init_get. apply d0_pos_cands.
  Qed.

  Lemma G_upd paths c1 c2 ca : ca <> c2 -> G paths -> G (wp_upd paths c1 c2 ca).
  Proof.
    intros Hne (Gn & Gm & Gp). split; [apply pset_NoDup, Gn|]. split.
    - intros a b. rewrite wp_upd_get. destruct (peqb (a, b) (c2, ca)) eqn:E; [|apply Gm].
      apply peqb_eq in E. injection E as -> ->. pose proof (Gm c2 ca). lia.
    - intros a b. rewrite wp_upd_get. destruct (peqb (a, b) (c2, ca)) eqn:E; [|apply Gp].
      apply peqb_eq in E. injection E as -> ->. intros H.
      destruct (Z.max_spec (pget0 paths (c2, ca)) (Z.min (pget0 paths (c2, c1)) (pget0 paths (c1, ca)))) as [[_ Hm]|[_ Hm]];
        rewrite Hm in H; [|apply Gp, H].
      assert (H1 : 0 < pget0 paths (c2, c1)) by lia. assert (H2 : 0 < pget0 paths (c1, ca)) by lia.
      apply Gp in H1. apply Gp in H2. split; [tauto|]. split; [tauto|congruence].
  Qed.

  Lemma wp_G : G (widest_paths v order).
  Proof. apply wp_ind; [exact G_init|]. intros paths c1 c2 ca _ _ _ _ _ H2 HG. apply G_upd; assumption. Qed.

  Notation P := (widest_paths v order).

  Lemma P_nodup : NoDup (map fst P).
  Proof. apply wp_G. Qed.
  Lemma P_nonneg0 p : 0 <= pget0 P p.
  Proof. destruct p as [a b]. destruct wp_G as (_ & Gm & _). pose proof (Gm a b). pose proof (d0_nonneg a b). lia. Qed.
  Lemma P_nonneg : forall p n, In (p, n) P -> 0 <= n.
  Proof.
    intros p n Hin. pose proof (P_nonneg0 p) as H. unfold pget0 in H. rewrite (In_pget P p n P_nodup Hin) in H. exact H.
  Qed.
  Lemma P_beats_cs a b : beats P a b -> In a cs /\ In b cs /\ a <> b.
  Proof. unfold beats. intros H. destruct wp_G as (_ & _ & Gp). apply Gp. pose proof (P_nonneg0 (b, a)). lia. Qed.

  Definition sscores : list (C * Z) := fold_left sch_step (pairwise_wins P false) (map (fun c : C => (c, 0)) cs).

  Lemma sscores_get x : dget_or sscores x 0 = Z.of_nat (length (opponents P x)).
  Proof. unfold sscores, opponents. rewrite sch_fold_get, seeded_get, map_length. reflexivity. Qed.

  Lemma sscores_facts :
    NoDup (map fst sscores) /\
    (forall x, In x (map fst sscores) <-> In x cs) /\
    (forall x s, In (x, s) sscores -> s = Z.of_nat (length (opponents P x))).
  Proof.
    assert (Hseed : map fst (map (fun c : C => (c, 0)) cs) = cs) by (rewrite map_map; simpl; apply map_id).
    assert (Hsn : NoDup (map fst (map (fun c : C => (c, 0)) cs))) by (rewrite Hseed; apply candidates_NoDup).
    destruct (sch_fold_keys (pairwise_wins P false) _ Hsn) as [Kn Kk]. fold sscores in Kn, Kk.
    split; [exact Kn|]. split.
    - intros x. rewrite Kk, Hseed. split; [|tauto]. intros [H|([a b] & Hp & H)]; [exact H|].
      apply (wins_iff P P_nodup P_nonneg) in Hp. apply P_beats_cs in Hp. simpl in H. destruct H as [->| ->]; tauto.
    - intros x s Hin. rewrite <- sscores_get. symmetry. apply (In_dget_or sscores x s Kn Hin).
  Qed.

  Lemma opp_P_incl x y : In y (opponents P x) -> In y cs /\ y <> x.
  Proof. intros H. apply (opponents_spec P P_nodup P_nonneg) in H. apply P_beats_cs in H. split; [tauto|]. intros ->. tauto. Qed.

  (* nobody dropped: with as many seats as candidates the result lists every candidate, untied *)
  Theorem schulze_nobody_dropped x : In x cs -> In (Cand x) (schulze v order (length cs)).
  Proof.
    intros Hx. rewrite schulze_unfold. fold sscores. destruct sscores_facts as (Sn & Sk & _).
    rewrite (keys_length sscores cs Sn (candidates_NoDup v) Sk). apply get_n_best_all_in, Sk, Hx.
  Qed.

  Section CWIN.
    Variable c : C.
    Hypothesis Hcw : is_cw v c.

    Definition Gc (paths : pvotes) : Prop := G paths /\ forall x, pget0 paths (x, c) = 0.

    Lemma d0_into_cw x : d0 x c = 0.
    Proof.
      pose proof (d0_nonneg x c) as H0. destruct (Z.eq_dec (d0 x c) 0) as [E|E]; [exact E|exfalso].
      assert (Hp : 0 < d0 x c) by lia. destruct (d0_pos_cands x c Hp) as (Hx & _ & Hne).
      destruct (d0_pos x c Hp) as [Hb _]. destruct Hcw as [_ Hall].
      specialize (Hall x Hx Hne). unfold beats in *. lia.
    Qed.

    Lemma wp_Gc : Gc (widest_paths v order).
    Proof.
      apply wp_ind.
      - split; [exact G_init|]. intros x. rewrite wp_init_get. apply d0_into_cw.
      - intros paths c1 c2 ca _ _ _ _ _ H2 [HG Hz]. split; [apply G_upd; assumption|].
        intros x. rewrite wp_upd_get. destruct (peqb (x, c) (c2, ca)) eqn:E; [|apply Hz].
        apply peqb_eq in E. injection E as E1 E2. subst c2 ca. rewrite !Hz.
        destruct HG as (_ & Gm & _). pose proof (Gm x c1). pose proof (d0_nonneg x c1). lia.
    Qed.

    Lemma cw_beats_P x : In x cs -> x <> c -> beats P c x.
    Proof.
      intros Hx Hne. destruct wp_Gc as [(_ & Gm & _) Hz]. unfold beats. rewrite Hz.
      destruct Hcw as [_ Hall]. destruct (d0_beats c x (Hall x Hx Hne)) as [_ Hp]. pose proof (Gm c x). lia.
    Qed.

    Theorem schulze_elects_cw : schulze v order 1 = [Cand c].
    Proof.
      rewrite schulze_unfold. fold sscores. destruct sscores_facts as (Sn & Sk & Sv).
      pose proof Hcw as [Hc _].
      assert (Hkc : In c (map fst sscores)) by (apply Sk, Hc).
      apply in_map_iff in Hkc. destruct Hkc as ([c0 sc0] & Hf & Hinc). simpl in Hf. subst c0.
      apply (get_n_best_unique_max zle_bool zle_total zle_trans Pos.eq_dec sscores c sc0 Sn Hinc).
      intros x s Hin Hne.
      assert (Hx : In x cs) by (apply Sk; apply in_map_iff; exists (x, s); split; [reflexivity|exact Hin]).
      (* c path-beats all the others; x, path-beaten by c, path-beats two candidates fewer than there are *)
      pose proof (beats_all_bound P P_nodup P_nonneg cs c (candidates_NoDup v) cw_beats_P) as Hc1.
      pose proof (beaten_bound P P_nodup P_nonneg cs c x (candidates_NoDup v) Hx
                    (fun y H => proj1 (proj2 (P_beats_cs x y H))) Hc (cw_beats_P x Hx Hne)) as Hx2.
      rewrite (Sv c sc0 Hinc), (Sv x s Hin). unfold GetNBest.ltb, zle_bool. apply negb_true_iff, Z.leb_gt. lia.
    Qed.
  End CWIN.
End SCH.

Lemma schulze_scores v order n : schulze v order n = get_n_best zle_bool (sscores v order) n.
Proof. reflexivity. Qed.

(* C17: monotonicity of the path-win count is refuted *)
(* a boolean check of [raises] over the candidates (outside them every count is 0) *)
Definition raises_b (v v' : pvotes) (w : C) : bool :=
  forallb (fun x => (pget0 v (w, x) <=? pget0 v' (w, x)) && (pget0 v' (x, w) <=? pget0 v (x, w))) (candidates v) &&
  forallb (fun a => forallb (fun b => ceqb a w || ceqb b w || (pget0 v' (a, b) =? pget0 v (a, b))) (candidates v)) (candidates v).

Lemma raises_b_sound v v' w : candidates v' = candidates v -> raises_b v v' w = true -> raises v v' w.
Proof.
  intros Hc H. unfold raises_b in H. apply andb_true_iff in H. destruct H as [H1 H2].
  rewrite forallb_forall in H1. rewrite forallb_forall in H2.
  assert (Hout : forall a b, ~ (In a (candidates v) /\ In b (candidates v)) -> pget0 v (a, b) = 0 /\ pget0 v' (a, b) = 0).
  { intros a b Hn. split.
    - destruct (Z.eq_dec (pget0 v (a, b)) 0) as [E|E]; [exact E|destruct (Hn (pget0_cands v a b E))].
    - destruct (Z.eq_dec (pget0 v' (a, b)) 0) as [E|E]; [exact E|]. apply pget0_cands in E. rewrite Hc in E. destruct (Hn E). }
  split; [exact Hc|]. split.
  - intros x. destruct (in_dec Pos.eq_dec x (candidates v)) as [Hx|Hx].
    + specialize (H1 x Hx). apply andb_true_iff in H1. destruct H1 as [Ha Hb]. split; apply Z.leb_le; assumption.
    + destruct (Hout w x) as [-> ->]; [tauto|]. destruct (Hout x w) as [-> ->]; [tauto|]. lia.
  - intros a b Ha Hb.
    destruct (in_dec Pos.eq_dec a (candidates v)) as [Hia|Hia]; [|destruct (Hout a b) as [-> ->]; tauto].
    destruct (in_dec Pos.eq_dec b (candidates v)) as [Hib|Hib]; [|destruct (Hout a b) as [-> ->]; tauto].
    specialize (H2 a Hia). rewrite forallb_forall in H2. specialize (H2 b Hib).
    apply Pos.eqb_neq in Ha. apply Pos.eqb_neq in Hb. unfold ceqb in H2. rewrite Ha, Hb in H2. apply Z.eqb_eq, H2.
Qed.

(* Witness: the pairwise counts of the ranked profile
     B>A>D>C>E x1, E>D>C x3, E>B>A>C>D x1, C>A>B>E>D x3, B>D>A>E>C x2, A>D>C x1, E>C>B>A>D x1
   (A..E = 1..5; RankedToCondorcetVotes), before and after the single ballot B>A>D>C>E becomes B>A>C>D>E
   (C moves one place up: (C,D) 5 -> 6, (D,C) 7 -> 6).  Before: C is the only candidate with two path-wins and
   wins alone; after: D no longer reaches anybody, A and E gain a path-win over B each and tie with C. *)
Definition mk_pv (l : list (Z * Z * Z)) : pvotes := map (fun x => ((Z.to_pos (fst (fst x)), Z.to_pos (snd (fst x))), snd x)) l.
Definition mono_v : pvotes := mk_pv
  [(1,2,4);(1,3,5);(1,4,7);(1,5,7);(2,1,5);(2,3,4);(2,4,8);(2,5,6);(3,1,7);(3,2,8);(3,4,5);(3,5,5);
   (4,1,5);(4,2,4);(4,3,7);(4,5,4);(5,1,5);(5,2,5);(5,3,7);(5,4,8)].
Definition mono_v' : pvotes := mk_pv
  [(1,2,4);(1,3,5);(1,4,7);(1,5,7);(2,1,5);(2,3,4);(2,4,8);(2,5,6);(3,1,7);(3,2,8);(3,4,6);(3,5,5);
   (4,1,5);(4,2,4);(4,3,6);(4,5,4);(5,1,5);(5,2,5);(5,3,7);(5,4,8)].

Definition nodup_keys_b (v : pvotes) : bool :=
  (fix go (l : list pair) : bool := match l with [] => true | p :: t => negb (existsb (peqb p) t) && go t end) (map fst v).
Lemma nodup_keys_b_sound v : nodup_keys_b v = true -> NoDup (map fst v).
Proof.
  unfold nodup_keys_b. induction (map fst v) as [|p t IH]; intros H; [constructor|].
  apply andb_true_iff in H. destruct H as [H1 H2]. constructor; [|apply IH, H2].
  intros Hin. apply negb_true_iff in H1. assert (Hex : existsb (peqb p) t = true) by (apply existsb_exists; exists p; split; [exact Hin|apply peqb_refl]).
  congruence.
Qed.
Lemma nonneg_b_sound (v : pvotes) : forallb (fun pn : pair * Z => 0 <=? snd pn) v = true -> forall p n, In (p, n) v -> 0 <= n.
Proof. intros H p n Hin. rewrite forallb_forall in H. specialize (H _ Hin). apply Z.leb_le in H. exact H. Qed.

Theorem schulze_monotone_refuted :
  NoDup (map fst mono_v) /\ NoDup (map fst mono_v') /\
  (forall p n, In (p, n) mono_v -> 0 <= n) /\ (forall p n, In (p, n) mono_v' -> 0 <= n) /\
  raises mono_v mono_v' 3%positive /\
  schulze mono_v (candidates mono_v) 1 = [Cand 3%positive] /\
  schulze mono_v' (candidates mono_v') 1 = [TieR [1%positive; 3%positive; 5%positive]].
Proof.
  split; [apply nodup_keys_b_sound; vm_compute; reflexivity|].
  split; [apply nodup_keys_b_sound; vm_compute; reflexivity|].
  split; [apply nonneg_b_sound; vm_compute; reflexivity|].
  split; [apply nonneg_b_sound; vm_compute; reflexivity|].
  split; [apply raises_b_sound; vm_compute; reflexivity|].
  split; vm_compute; reflexivity.
Qed.

Definition le_tab (p q : pvotes) : Prop := forall x, pget0 p x <= pget0 q x.
Lemma le_tab_refl p : le_tab p p.
Proof. intros x. lia. Qed.
Lemma le_tab_trans p q r : le_tab p q -> le_tab q r -> le_tab p r.
Proof. intros H1 H2 x. specialize (H1 x). specialize (H2 x). lia. Qed.

Lemma wp_upd_mono paths c1 c2 ca : le_tab paths (wp_upd paths c1 c2 ca).
Proof.
  intros x. rewrite wp_upd_get. destruct (peqb x (c2, ca)) eqn:E; [|lia]. apply peqb_eq in E. subst x. lia.
Qed.
Lemma wp_inner_mono c1 c2 paths ca : le_tab paths (wp_inner c1 c2 paths ca).
Proof. unfold wp_inner. destruct (_ || _); [apply le_tab_refl|apply wp_upd_mono]. Qed.
Lemma fold_mono {B} (f : pvotes -> B -> pvotes) (l : list B) :
  (forall a x, le_tab a (f a x)) -> forall a, le_tab a (fold_left f l a).
Proof.
  intros H a. apply (fold_left_inv (fun r => le_tab a r)); [|apply le_tab_refl].
  intros r x _ Hr. eapply le_tab_trans; [exact Hr|apply H].
Qed.
Lemma wp_mid_mono order c1 paths c2 : le_tab paths (wp_mid order c1 paths c2).
Proof. unfold wp_mid. destruct (ceqb c1 c2); [apply le_tab_refl|]. apply fold_mono. intros a x. apply wp_inner_mono. Qed.
Lemma wp_outer_mono order paths c1 : le_tab paths (wp_outer order paths c1).
Proof. unfold wp_outer. apply fold_mono. intros a x. apply wp_mid_mono. Qed.

Lemma fold_left_establish {A B} (J : A -> Prop) (Q : B -> A -> Prop) (f : A -> B -> A) (l : list B) :
  (forall a x, In x l -> J a -> J (f a x)) ->
  (forall a x, In x l -> J a -> Q x (f a x)) ->
  (forall a x y, In x l -> J a -> Q y a -> Q y (f a x)) ->
  forall a, J a -> J (fold_left f l a) /\ forall x, In x l -> Q x (fold_left f l a).
Proof.
  intros HJ HQ HS a Ha.
  assert (H : forall l' a', (forall x, In x l' -> In x l) -> J a' ->
            J (fold_left f l' a') /\ (forall y, Q y a' -> Q y (fold_left f l' a')) /\ forall x, In x l' -> Q x (fold_left f l' a')).
  { induction l' as [|x l' IH]; intros a' Hsub Ha'; simpl; [split; [exact Ha'|split; [tauto|intros x []]]|].
    assert (Hx : In x l) by (apply Hsub; left; reflexivity).
    destruct (IH (f a' x) (fun y Hy => Hsub y (or_intror Hy)) (HJ a' x Hx Ha')) as (I1 & I2 & I3).
    split; [exact I1|]. split.
    - intros y Hy. apply I2. apply HS; assumption.
    - intros y [<-|Hy]; [apply I2, HQ; assumption|apply I3, Hy]. }
  destruct (H l a (fun x Hx => Hx) Ha) as (H1 & _ & H3). split; assumption.
Qed.

Lemma fold_left_prefix {A B} (Inv : list B -> A -> Prop) (f : A -> B -> A) (l : list B) :
  (forall pre x a, In x l -> Inv pre a -> Inv (pre ++ [x]) (f a x)) ->
  forall pre a, Inv pre a -> Inv (pre ++ l) (fold_left f l a).
Proof.
  induction l as [|x l IH]; intros H pre a Ha; simpl; [rewrite app_nil_r; exact Ha|].
  replace (pre ++ x :: l) with ((pre ++ [x]) ++ l) by (rewrite <- app_assoc; reflexivity).
  apply IH; [intros pre' y a' Hy; apply H; right; exact Hy|]. apply H; [left; reflexivity|exact Ha].
Qed.

(* one phase of the outer loop (intermediate candidate k): row k and column k are untouched, nothing shrinks, and
   every other entry (c2, ca) has absorbed min (c2 -> k) (k -> ca) *)
Section PHASE.
  Variable order : list C.
  Variable k : C.
  Variable P0 : pvotes.

  Definition keepk (paths : pvotes) : Prop :=
    le_tab P0 paths /\ (forall x, pget0 paths (x, k) = pget0 P0 (x, k)) /\ (forall x, pget0 paths (k, x) = pget0 P0 (k, x)).

  Lemma keepk_upd paths c2 ca : c2 <> k -> ca <> k -> keepk paths -> keepk (wp_upd paths k c2 ca).
  Proof.
    intros H2 Ha (Hm & Hc & Hr). split; [eapply le_tab_trans; [exact Hm|apply wp_upd_mono]|]. split.
    - intros x. rewrite wp_upd_get. destruct (peqb (x, k) (c2, ca)) eqn:E; [|apply Hc]. apply peqb_eq in E. congruence.
    - intros x. rewrite wp_upd_get. destruct (peqb (k, x) (c2, ca)) eqn:E; [|apply Hr]. apply peqb_eq in E. congruence.
  Qed.

  Lemma keepk_inner c2 paths ca : c2 <> k -> keepk paths -> keepk (wp_inner k c2 paths ca).
  Proof.
    intros H2 HK. unfold wp_inner. destruct (ceqb ca k) eqn:E1; [exact HK|]. destruct (ceqb ca c2) eqn:E2; [exact HK|].
    simpl. apply Pos.eqb_neq in E1. apply keepk_upd; assumption.
  Qed.

  Definition absorbed (c2 ca : C) (paths : pvotes) : Prop :=
    c2 <> k -> ca <> k -> ca <> c2 -> Z.min (pget0 P0 (c2, k)) (pget0 P0 (k, ca)) <= pget0 paths (c2, ca).

  Lemma absorbed_mono c2 ca p q : le_tab p q -> absorbed c2 ca p -> absorbed c2 ca q.
  Proof. intros Hm H A B D. specialize (H A B D). specialize (Hm (c2, ca)). lia. Qed.

  Lemma phase_mid c2 paths : keepk paths ->
    keepk (wp_mid order k paths c2) /\ forall ca, In ca order -> absorbed c2 ca (wp_mid order k paths c2).
  Proof.
    intros HK. unfold wp_mid. destruct (ceqb k c2) eqn:E.
    - apply Pos.eqb_eq in E. split; [exact HK|]. intros ca _ A. congruence.
    - apply Pos.eqb_neq in E. assert (E' : c2 <> k) by congruence.
      apply (fold_left_establish keepk (absorbed c2) (wp_inner k c2) order).
      + intros a x _ Ha. apply keepk_inner; assumption.
      + intros a ca _ (Hm & Hc & Hr) A B D. unfold wp_inner.
        apply Pos.eqb_neq in B. apply Pos.eqb_neq in D. unfold ceqb. rewrite B, D. simpl.
        rewrite wp_upd_get, peqb_refl, Hc, Hr. lia.
      + intros a x y _ _. apply absorbed_mono, wp_inner_mono.
      + exact HK.
  Qed.

  Lemma phase_outer : keepk P0 -> keepk (wp_outer order P0 k) /\
    forall c2 ca, In c2 order -> In ca order -> absorbed c2 ca (wp_outer order P0 k).
  Proof.
    intros HK. unfold wp_outer.
    destruct (fold_left_establish keepk (fun c2 paths => forall ca, In ca order -> absorbed c2 ca paths) (wp_mid order k) order) with (a := P0) as [H1 H2].
    - intros a x _ Ha. apply phase_mid, Ha.
    - intros a x _ Ha. apply phase_mid, Ha.
    - intros a x y _ _ Hy ca Hca. eapply absorbed_mono; [apply wp_mid_mono|apply Hy, Hca].
    - exact HK.
    - split; [exact H1|]. intros c2 ca H2' Hca. apply H2; assumption.
  Qed.
End PHASE.

Lemma keepk_refl k P0 : keepk k P0 P0.
Proof. split; [apply le_tab_refl|]. split; reflexivity. Qed.

Section PATHS.
  Variable v : pvotes.
  Hypothesis Hnd : NoDup (map fst v).
  Hypothesis Hnn : forall p n, In (p, n) v -> 0 <= n.
  Notation cs := (candidates v).
  Notation d := (d0 v).

  (* reach s a b: there is a chain of direct wins from a to b, each with at least s winning votes *)
  Inductive reach (s : Z) : C -> C -> Prop :=
  | reach_one a b : s <= d a b -> reach s a b
  | reach_step a m b : s <= d a m -> reach s m b -> reach s a b.

  Lemma reach_trans s a m b : reach s a m -> reach s m b -> reach s a b.
  Proof. induction 1 as [a m H|a x m H _ IH]; intros Hb; [eapply reach_step; eassumption|eapply reach_step; [exact H|apply IH, Hb]]. Qed.

  (* soundness, any order: an entry of at least s is witnessed by a chain *)
  Theorem wp_sound order a b s : s <= pget0 (widest_paths v order) (a, b) -> reach s a b.
  Proof.
    revert a b s. apply (wp_ind (fun paths => forall a b s, s <= pget0 paths (a, b) -> reach s a b)).
    - intros a b s. rewrite (wp_init_get v Hnd). apply reach_one.
    - intros paths c1 c2 ca _ _ _ _ _ _ IH a b s. rewrite wp_upd_get.
      destruct (peqb (a, b) (c2, ca)) eqn:E; [|apply IH]. apply peqb_eq in E. injection E as -> ->. intros H.
      destruct (Z_le_gt_dec s (pget0 paths (c2, ca))) as [Hle|Hgt]; [apply IH, Hle|].
      apply (reach_trans s c2 c1 ca); apply IH; lia.
  Qed.

  (* chains whose intermediate candidates all lie in K *)
  Inductive reachK (s : Z) (K : list C) : C -> C -> Prop :=
  | rk_one a b : s <= d a b -> reachK s K a b
  | rk_step a m b : In m K -> reachK s K a m -> reachK s K m b -> reachK s K a b.

  Lemma reachK_split s K K' k : (forall m, In m K' -> m = k \/ In m K) ->
    forall a b, reachK s K' a b -> reachK s K a b \/ (reachK s K a k /\ reachK s K k b).
  Proof.
    intros HK. induction 1 as [a b H|a m b Hm _ IH1 _ IH2]; [left; apply rk_one, H|].
    destruct (HK m Hm) as [->|Hin].
    - right. split; [destruct IH1 as [H|[H _]]; exact H|destruct IH2 as [H|[_ H]]; exact H].
    - destruct IH1 as [L1|[A1 B1]], IH2 as [L2|[A2 B2]].
      + left. eapply rk_step; eassumption.
      + right. split; [eapply rk_step; eassumption|exact B2].
      + right. split; [exact A1|eapply rk_step; eassumption].
      + right. split; assumption.
  Qed.

  Lemma reachK_cs s K a b : 0 < s -> reachK s K a b -> In a cs /\ In b cs.
  Proof.
    intros Hs. induction 1 as [a b H|a m b _ _ IH1 _ IH2]; [|tauto].
    destruct (d0_pos_cands v a b) as (Ha & Hb & _); [lia|tauto].
  Qed.

  Lemma reach_reachK s K a b : 0 < s -> incl cs K -> reach s a b -> reachK s K a b.
  Proof.
    intros Hs HK. induction 1 as [a b H|a m b H _ IH]; [apply rk_one, H|].
    apply (rk_step s K a m b); [apply HK, (d0_pos_cands v a m); lia|apply rk_one, H|exact IH].
  Qed.

  Definition complete_upto (K : list C) (paths : pvotes) : Prop :=
    forall s a b, 0 < s -> a <> b -> reachK s K a b -> s <= pget0 paths (a, b).

  (* completeness, orders that list every candidate: every chain is accounted for *)
  Theorem wp_complete order a b s : incl cs order -> 0 < s -> a <> b -> reach s a b ->
    s <= pget0 (widest_paths v order) (a, b).
  Proof.
    intros Hincl Hs Hab Hr. rewrite widest_paths_unfold.
    assert (Hinv : complete_upto ([] ++ order) (fold_left (wp_outer order) order (wp_init v))).
    { apply (fold_left_prefix complete_upto (wp_outer order) order).
      - intros pre k P0 Hk Hinv s' a' b' Hs' Hab' Hr'.
        destruct (phase_outer order k P0 (keepk_refl k P0)) as [(Hm & _ & _) Habs].
        destruct (reachK_cs s' _ a' b' Hs' Hr') as [Ha' Hb'].
        destruct (reachK_split s' pre (pre ++ [k]) k) with (a := a') (b := b') as [L|[A B]].
        + intros m Hm'. apply in_app_iff in Hm'. destruct Hm' as [H|[H|[]]]; [right; exact H|left; congruence].
        + exact Hr'.
        + specialize (Hinv s' a' b' Hs' Hab' L). specialize (Hm (a', b')). lia.
        + destruct (Pos.eq_dec a' k) as [->|Hak].
          { specialize (Hinv s' k b' Hs' Hab' B). specialize (Hm (k, b')). lia. }
          destruct (Pos.eq_dec b' k) as [->|Hbk].
          { specialize (Hinv s' a' k Hs' Hab' A). specialize (Hm (a', k)). lia. }
          pose proof (Hinv s' a' k Hs' Hak A) as H1. pose proof (Hinv s' k b' Hs' (fun E => Hbk (eq_sym E)) B) as H2.
          pose proof (Habs a' b' (Hincl a' Ha') (Hincl b' Hb') Hak Hbk (fun E => Hab' (eq_sym E))) as H3. lia.
      - intros s' a' b' Hs' Hab' Hr'. inversion Hr' as [? ? H|? m ? Hm]; subst; [|destruct Hm].
        rewrite (wp_init_get v Hnd). exact H. }
    simpl in Hinv. apply Hinv; [exact Hs|exact Hab|]. apply reach_reachK; assumption.
  Qed.

  Theorem wp_spec order a b s : incl cs order -> 0 < s -> a <> b ->
    (s <= pget0 (widest_paths v order) (a, b) <-> reach s a b).
  Proof. intros Hi Hs Hab. split; [apply wp_sound|apply wp_complete; assumption]. Qed.

  Lemma wp_diag order a : pget0 (widest_paths v order) (a, a) = 0.
  Proof.
    pose proof (P_nonneg0 v Hnd Hnn order (a, a)) as H0. destruct (wp_G v Hnd order) as (_ & _ & Gp).
    destruct (Z.eq_dec (pget0 (widest_paths v order) (a, a)) 0) as [E|E]; [exact E|].
    assert (Hp : 0 < pget0 (widest_paths v order) (a, a)) by lia. apply Gp in Hp. tauto.
  Qed.

End PATHS.

(* a table lies below another one, entry by entry, when its chains can be replayed there *)
Lemma wp_le_reach (v v' : pvotes) (order order' : list C) a b :
  NoDup (map fst v) -> NoDup (map fst v') -> (forall p n, In (p, n) v' -> 0 <= n) -> incl (candidates v') order' -> a <> b ->
  (forall s, 0 < s -> reach v s a b -> reach v' s a b) ->
  pget0 (widest_paths v order) (a, b) <= pget0 (widest_paths v' order') (a, b).
Proof.
  intros Hnd Hnd' Hnn' Hi Hab Hre. pose proof (P_nonneg0 v' Hnd' Hnn' order' (a, b)) as H0.
  destruct (Z_le_gt_dec (pget0 (widest_paths v order) (a, b)) 0) as [Hz|Hp]; [lia|].
  apply (wp_complete v' Hnd' order' a b _ Hi); [lia|exact Hab|]. apply Hre; [lia|]. apply (wp_sound v Hnd order). lia.
Qed.

(* the table does not depend on the order in which the candidate set is iterated *)
Theorem wp_order_irrelevant (v : pvotes) : NoDup (map fst v) -> (forall p n, In (p, n) v -> 0 <= n) ->
  forall order1 order2 p, incl (candidates v) order1 -> incl (candidates v) order2 ->
  pget0 (widest_paths v order1) p = pget0 (widest_paths v order2) p.
Proof.
  intros Hnd Hnn order1 order2 [a b] H1 H2. destruct (Pos.eq_dec a b) as [->|Hab]; [rewrite !(wp_diag v Hnd Hnn); reflexivity|].
  apply Z.le_antisymm; apply wp_le_reach; auto.
Qed.

Lemma dset_same_keys {X} (t : list (C * X)) k x : In k (map fst t) -> map fst (dset t k x) = map fst t.
Proof.
  induction t as [|[k0 x0] t IH]; simpl; [tauto|]. intros H. destruct (ceqb k k0) eqn:E; [reflexivity|].
  simpl. f_equal. apply IH. destruct H as [H|H]; [|exact H]. subst k0. rewrite Pos.eqb_refl in E. discriminate.
Qed.

Lemma dict_canonical (t : list (C * Z)) : NoDup (map fst t) -> t = map (fun c => (c, dget_or t c 0)) (map fst t).
Proof.
  induction t as [|[k x] t IH]; intros H; [reflexivity|]. inversion H as [|? ? Hk Ht]; subst.
  cbn [map fst]. f_equal.
  - unfold dget_or. cbn [dget]. rewrite Pos.eqb_refl. reflexivity.
  - rewrite (IH Ht) at 1. apply map_ext_in. intros c Hc. f_equal. unfold dget_or. cbn [dget].
    destruct (ceqb c k) eqn:E; [|reflexivity]. apply Pos.eqb_eq in E. subst c. contradiction.
Qed.

Lemma sch_fold_same_keys (ws : list pair) : forall d,
  (forall p, In p ws -> In (fst p) (map fst d) /\ In (snd p) (map fst d)) ->
  map fst (fold_left sch_step ws d) = map fst d.
Proof.
  induction ws as [|p ws IH]; intros d H; [reflexivity|]. simpl fold_left.
  assert (Hk : map fst (sch_step d p) = map fst d).
  { unfold sch_step, dadd. destruct (H p (or_introl eq_refl)) as [H1 H2].
    rewrite dset_same_keys; rewrite dset_same_keys; try reflexivity; assumption. }
  rewrite IH; [exact Hk|]. intros q Hq. rewrite Hk. apply H. right. exact Hq.
Qed.

Section ORDER.
  Variable v : pvotes.
  Hypothesis Hnd : NoDup (map fst v).
  Hypothesis Hnn : forall p n, In (p, n) v -> 0 <= n.
  Notation cs := (candidates v).

  Lemma sscores_canonical order :
    sscores v order = map (fun c => (c, Z.of_nat (length (opponents (widest_paths v order) c)))) cs.
  Proof.
    destruct (sscores_facts v Hnd Hnn order) as (Sn & _ & _).
    assert (Hseed : map fst (map (fun c : C => (c, 0)) cs) = cs) by (rewrite map_map; simpl; apply map_id).
    assert (Hk : map fst (sscores v order) = cs).
    { unfold sscores. rewrite sch_fold_same_keys; [exact Hseed|]. intros [a b] Hp. rewrite Hseed.
      apply (wins_iff _ (P_nodup v Hnd order) (P_nonneg v Hnd Hnn order)) in Hp. apply (P_beats_cs v Hnd Hnn order) in Hp. simpl. tauto. }
    rewrite (dict_canonical _ Sn) at 1. rewrite Hk. apply map_ext. intros c. f_equal. apply (sscores_get v).
  Qed.

  Theorem schulze_order_irrelevant order1 order2 n : incl cs order1 -> incl cs order2 ->
    schulze v order1 n = schulze v order2 n.
  Proof.
    intros H1 H2. rewrite !schulze_unfold. fold (sscores v order1). fold (sscores v order2).
    rewrite !sscores_canonical. f_equal. apply map_ext. intros c. do 2 f_equal.
    apply Permutation_length. apply NoDup_Permutation; try (apply opponents_NoDup, P_nodup; exact Hnd).
    intros y. rewrite (opponents_spec _ (P_nodup v Hnd order1) (P_nonneg v Hnd Hnn order1)).
    rewrite (opponents_spec _ (P_nodup v Hnd order2) (P_nonneg v Hnd Hnn order2)).
    unfold beats. rewrite (wp_order_irrelevant v Hnd Hnn order1 order2 (y, c) H1 H2), (wp_order_irrelevant v Hnd Hnn order1 order2 (c, y) H1 H2). reflexivity.
  Qed.
End ORDER.

(* what raising w does to the table (C17, the part that holds) *)
Section RAISE.
  Variables v v' : pvotes.
  Variable w : C.
  Hypothesis Hnd : NoDup (map fst v).
  Hypothesis Hnd' : NoDup (map fst v').
  Hypothesis Hnn : forall p n, In (p, n) v -> 0 <= n.
  Hypothesis Hnn' : forall p n, In (p, n) v' -> 0 <= n.
  Hypothesis Hr : raises v v' w.
  Variable order : list C.
  Hypothesis Hord : incl (candidates v) order.

  Lemma d0_out x : d0 v w x <= d0 v' w x.
  Proof.
    destruct Hr as (_ & Hup & _). destruct (Hup x) as [H1 H2]. pose proof (pget0_nonneg v' Hnn' (w, x)). unfold d0.
    destruct (Z.ltb_spec (pget0 v (x, w)) (pget0 v (w, x))), (Z.ltb_spec (pget0 v' (x, w)) (pget0 v' (w, x))); lia.
  Qed.
  Lemma d0_in x : d0 v' x w <= d0 v x w.
  Proof.
    destruct Hr as (_ & Hup & _). destruct (Hup x) as [H1 H2]. pose proof (pget0_nonneg v Hnn (x, w)). unfold d0.
    destruct (Z.ltb_spec (pget0 v (w, x)) (pget0 v (x, w))), (Z.ltb_spec (pget0 v' (w, x)) (pget0 v' (x, w))); lia.
  Qed.
  Lemma d0_same a b : a <> w -> b <> w -> d0 v' a b = d0 v a b.
  Proof. destruct Hr as (_ & _ & Hs). intros Ha Hb. unfold d0. rewrite (Hs a b Ha Hb), (Hs b a Hb Ha). reflexivity. Qed.

  (* a chain that starts in w need not come back to w: it only uses links out of w and links among the others *)
  Lemma reach_out_aux s a x : reach v s a x -> x <> w -> reach v' s w x \/ (a <> w /\ reach v' s a x).
  Proof.
    induction 1 as [a b H|a m b H _ IH]; intros Hb.
    - destruct (Pos.eq_dec a w) as [->|Ha].
      + left. apply reach_one. pose proof (d0_out b). lia.
      + right. split; [exact Ha|]. apply reach_one. rewrite (d0_same a b Ha Hb). exact H.
    - destruct (IH Hb) as [L|[Hm R]]; [left; exact L|].
      destruct (Pos.eq_dec a w) as [->|Ha].
      + left. apply (reach_step v' s w m b); [pose proof (d0_out m); lia|exact R].
      + right. split; [exact Ha|]. apply (reach_step v' s a m b); [rewrite (d0_same a m Ha Hm); exact H|exact R].
  Qed.

  (* a chain that ends in w need not pass through w before *)
  Lemma reach_in_aux s a b : reach v' s a b -> b = w -> a <> w -> reach v s a w.
  Proof.
    induction 1 as [a b H|a m b H _ IH]; intros -> Ha.
    - apply reach_one. pose proof (d0_in a). lia.
    - destruct (Pos.eq_dec m w) as [->|Hm].
      + apply reach_one. pose proof (d0_in a). lia.
      + apply (reach_step v s a m w); [rewrite <- (d0_same a m Ha Hm); exact H|apply IH; [reflexivity|exact Hm]].
  Qed.

  Notation P := (widest_paths v order).
  Notation P' := (widest_paths v' order).

  Lemma ord_incl' : incl (candidates v') order.
  Proof. destruct Hr as (Hc & _). rewrite Hc. exact Hord. Qed.

  (* strongest paths out of w do not weaken, strongest paths into w do not strengthen *)
  Theorem raise_paths_out x : pget0 P (w, x) <= pget0 P' (w, x).
  Proof.
    destruct (Pos.eq_dec x w) as [->|Hx]; [rewrite (wp_diag v Hnd Hnn), (wp_diag v' Hnd' Hnn'); lia|].
    apply (wp_le_reach v v' order order w x Hnd Hnd' Hnn' ord_incl'); [congruence|].
    intros s _ H. destruct (reach_out_aux s w x H Hx) as [H'|[H' _]]; [exact H'|congruence].
  Qed.

  Theorem raise_paths_in x : pget0 P' (x, w) <= pget0 P (x, w).
  Proof.
    destruct (Pos.eq_dec x w) as [->|Hx]; [rewrite (wp_diag v Hnd Hnn), (wp_diag v' Hnd' Hnn'); lia|].
    apply (wp_le_reach v' v order order x w Hnd' Hnd Hnn Hord Hx).
    intros s _ H. exact (reach_in_aux s x w H eq_refl Hx).
  Qed.

  (* hence every path-win of w is kept and no path-defeat of w appears *)
  Corollary raise_keeps_wins x : beats P w x -> beats P' w x.
  Proof. unfold beats. pose proof (raise_paths_out x). pose proof (raise_paths_in x). lia. Qed.
  Corollary raise_no_new_defeat x : beats P' x w -> beats P x w.
  Proof. unfold beats. pose proof (raise_paths_out x). pose proof (raise_paths_in x). lia. Qed.

  (* Schulze's own winner criterion (no path-defeat) is monotone *)
  Corollary raise_potential_winner : (forall x, pget0 P (x, w) <= pget0 P (w, x)) -> forall x, pget0 P' (x, w) <= pget0 P' (w, x).
  Proof. intros H x. pose proof (H x). pose proof (raise_paths_out x). pose proof (raise_paths_in x). lia. Qed.

  (* the score votelib ranks by (number of path-wins) does not drop for w *)
  Corollary raise_score : dget_or (sscores v order) w 0 <= dget_or (sscores v' order) w 0.
  Proof.
    rewrite !sscores_get. apply inj_le.
    apply NoDup_incl_length; [apply opponents_NoDup, P_nodup, Hnd|].
    intros y Hy. apply (opponents_spec _ (P_nodup v Hnd order) (P_nonneg v Hnd Hnn order)) in Hy.
    apply (opponents_spec _ (P_nodup v' Hnd' order) (P_nonneg v' Hnd' Hnn' order)). apply raise_keeps_wins, Hy.
  Qed.
End RAISE.

(* Second witness, six candidates: the sole winner LOSES.  Ranked profile (A..F = 1..6)
     D>A>F>B>E>C x3, A>F>C>B>D>E x1, C>E>D>A x1, C>B>D>F>E>A x2, D>B>C>E>F>A x2, E>C>A>F>D>B x3, E>A>F>C>D>B x2;
   one of the three ballots D>A>F>B>E>C becomes D>A>F>E>B>C (E moves one place up: (E,B) 6 -> 7, (B,E) 8 -> 7).
   Before: E has three path-wins, A and C two: E wins alone.  After: B no longer beats E, the strength-8 paths through
   B->E disappear, C now has four path-wins and D three: C wins alone, E is third. *)
Definition mono6_v : pvotes := mk_pv
  [(1,2,10);(1,3,6);(1,4,6);(1,5,4);(1,6,10);(2,1,4);(2,3,5);(2,4,3);(2,5,8);(2,6,4);(3,1,8);(3,2,9);(3,4,9);(3,5,6);(3,6,8);
   (4,1,8);(4,2,11);(4,3,5);(4,5,8);(4,6,8);(5,1,10);(5,2,6);(5,3,8);(5,4,6);(5,6,8);(6,1,4);(6,2,9);(6,3,6);(6,4,6);(6,5,6)].
Definition mono6_v' : pvotes := mk_pv
  [(1,2,10);(1,3,6);(1,4,6);(1,5,4);(1,6,10);(2,1,4);(2,3,5);(2,4,3);(2,5,7);(2,6,4);(3,1,8);(3,2,9);(3,4,9);(3,5,6);(3,6,8);
   (4,1,8);(4,2,11);(4,3,5);(4,5,8);(4,6,8);(5,1,10);(5,2,7);(5,3,8);(5,4,6);(5,6,8);(6,1,4);(6,2,9);(6,3,6);(6,4,6);(6,5,6)].

Theorem schulze_monotone_refuted_loses :
  NoDup (map fst mono6_v) /\ NoDup (map fst mono6_v') /\
  (forall p n, In (p, n) mono6_v -> 0 <= n) /\ (forall p n, In (p, n) mono6_v' -> 0 <= n) /\
  raises mono6_v mono6_v' 5%positive /\
  schulze mono6_v (candidates mono6_v) 1 = [Cand 5%positive] /\
  schulze mono6_v' (candidates mono6_v') 1 = [Cand 3%positive] /\
  schulze mono6_v' (candidates mono6_v') 3 = [Cand 3%positive; Cand 4%positive; Cand 5%positive].
Proof.
  split; [apply nodup_keys_b_sound; vm_compute; reflexivity|].
  split; [apply nodup_keys_b_sound; vm_compute; reflexivity|].
  split; [apply nonneg_b_sound; vm_compute; reflexivity|].
  split; [apply nonneg_b_sound; vm_compute; reflexivity|].
  split; [apply raises_b_sound; vm_compute; reflexivity|].
  split; [vm_compute; reflexivity|].
  (* the path-win counts after the change, evaluated once for both numbers of seats *)
  assert (E : sscores mono6_v' (candidates mono6_v') =
              [(1%positive, 2); (2%positive, 0); (3%positive, 4); (4%positive, 3); (5%positive, 3); (6%positive, 1)])
    by (vm_compute; reflexivity).
  rewrite !schulze_scores, E. split; vm_compute; reflexivity.
Qed.
