(* STAR (Model/Star.v): the run-off table holds, for two run-off members x and y, the ballot weight that places x above
   y; with one seat and two finalists Schulze over that table elects the finalist placed above the other by strictly
   more ballot weight. *)
From Coq Require Import ZArith QArith List Bool Arith Lia.
From VL Require Import Prelude.PyDict Model.GetNBest Model.Convert Model.Cardinal Model.Condorcet Model.Star
     Proofs.Dict_proofs Proofs.Condorcet_proofs Proofs.Schulze_proofs.
Import ListNotations.
Open Scope Z_scope.

Lemma prefers_irrefl b x : prefers b x x = false.
Proof.
  unfold prefers. destruct (dget b x) as [vx|]; [|reflexivity].
  assert (H : Qle_bool vx vx = true) by (apply Qle_bool_iff, Qle_refl). rewrite H. reflexivity.
Qed.
Definition add_pairs (b : sballot) (w : Z) (ps : list pair) (pv : pvotes) : pvotes :=
  fold_left (fun pv p => if prefers b (fst p) (snd p) then padd pv p w else pv) ps pv.

Lemma add_pairs_cons b w p ps pv :
  add_pairs b w (p :: ps) pv = add_pairs b w ps (if prefers b (fst p) (snd p) then padd pv p w else pv).
Proof. reflexivity. Qed.

Lemma add_pairs_app b w p1 p2 pv : add_pairs b w (p1 ++ p2) pv = add_pairs b w p2 (add_pairs b w p1 pv).
Proof. unfold add_pairs. apply fold_left_app. Qed.

Lemma star_inner_row b w x l2 : forall pv,
  fold_left (fun pv y => if prefers b x y then padd pv (x, y) w else pv) l2 pv = add_pairs b w (map (fun y => (x, y)) l2) pv.
Proof. induction l2 as [|y l2 IH]; intros pv; [reflexivity|]. cbn [map fold_left add_pairs fst snd]. apply IH. Qed.

Lemma star_inner_prod b w l2 : forall l1 pv,
  fold_left (fun pv x => fold_left (fun pv y => if prefers b x y then padd pv (x, y) w else pv) l2 pv) l1 pv =
  add_pairs b w (list_prod l1 l2) pv.
Proof.
  induction l1 as [|x l1 IH]; intros pv; [reflexivity|]. cbn [fold_left list_prod].
  rewrite add_pairs_app, <- IH, star_inner_row. reflexivity.
Qed.

Lemma star_pairwise_prod votes members :
  star_pairwise votes members =
  fold_left (fun pv bw => add_pairs (fst bw) (snd bw) (list_prod members members) pv) votes [].
Proof. unfold star_pairwise. apply fold_left_ext. intros pv bw. apply star_inner_prod. Qed.

Lemma add_pairs_keys b w ps : forall pv q,
  In q (map fst (add_pairs b w ps pv)) <-> In q (map fst pv) \/ (In q ps /\ prefers b (fst q) (snd q) = true).
Proof.
  induction ps as [|p ps IH]; intros pv q; [cbn [add_pairs fold_left In]; tauto|].
  rewrite add_pairs_cons, IH. destruct (prefers b (fst p) (snd p)) eqn:E.
  - unfold padd. rewrite pset_keys. cbn [In]. split.
    + intros [[->|H]|[H1 H2]]; auto.
    + intros [H|[[<-|H1] H2]]; auto.
  - cbn [In]. split; [intros [H|[H1 H2]]; auto|]. intros [H|[[<-|H1] H2]]; auto. congruence.
Qed.

Lemma add_pairs_nodup b w ps : forall pv, NoDup (map fst pv) -> NoDup (map fst (add_pairs b w ps pv)).
Proof.
  induction ps as [|p ps IH]; intros pv H; [exact H|]. rewrite add_pairs_cons. apply IH.
  destruct (prefers b (fst p) (snd p)); [apply pset_NoDup, H|exact H].
Qed.

Lemma pget_pset v p n q : pget (pset v p n) q = if peqb q p then Some n else pget v q.
Proof.
  unfold pset. induction v as [|[p' n'] v IH]; cbn [pget].
  - destruct (peqb q p); reflexivity.
  - destruct (peqb p p') eqn:E; cbn [pget].
    + apply peqb_eq in E. subst p'. destruct (peqb q p); reflexivity.
    + destruct (peqb q p') eqn:E2.
      * apply peqb_eq in E2. subst p'. assert (peqb q p = false) as ->; [|reflexivity].
        destruct (peqb q p) eqn:E3; [apply peqb_eq in E3; subst; rewrite (proj2 (peqb_eq p p) eq_refl) in E; discriminate|reflexivity].
      * exact IH.
Qed.

Lemma pget0_padd v p w q : pget0 (padd v p w) q = if peqb q p then pget0 v p + w else pget0 v q.
Proof. unfold padd, pget0 at 1. rewrite pget_pset. destruct (peqb q p); reflexivity. Qed.

Lemma add_pairs_get_out b w ps : forall pv q, (~ In q ps \/ prefers b (fst q) (snd q) = false) ->
  pget0 (add_pairs b w ps pv) q = pget0 pv q.
Proof.
  induction ps as [|p ps IH]; intros pv q Hq; [reflexivity|]. rewrite add_pairs_cons.
  rewrite IH; [|destruct Hq as [Hq|Hq]; [left; intros H; apply Hq; right; exact H|right; exact Hq]].
  destruct (prefers b (fst p) (snd p)) eqn:E; [|reflexivity]. rewrite pget0_padd.
  destruct (peqb q p) eqn:Eq; [|reflexivity]. apply peqb_eq in Eq. subst q. destruct Hq as [Hq|Hq]; [exfalso; apply Hq; left; reflexivity|congruence].
Qed.

Lemma add_pairs_get_in b w ps : forall pv q, NoDup ps -> In q ps -> prefers b (fst q) (snd q) = true ->
  pget0 (add_pairs b w ps pv) q = pget0 pv q + w.
Proof.
  induction ps as [|p ps IH]; intros pv q Hnd Hin Hpr; [destruct Hin|]. rewrite add_pairs_cons.
  inversion Hnd as [|? ? Hp Hnd']; subst. destruct Hin as [->|Hin].
  - rewrite Hpr, add_pairs_get_out by (left; exact Hp). rewrite pget0_padd, (proj2 (peqb_eq q q) eq_refl). reflexivity.
  - rewrite (IH _ _ Hnd' Hin Hpr). destruct (prefers b (fst p) (snd p)); [|reflexivity].
    rewrite pget0_padd. destruct (peqb q p) eqn:E; [|reflexivity]. apply peqb_eq in E. subst p. contradiction.
Qed.

Lemma NoDup_list_prod {X Y} (l1 : list X) (l2 : list Y) : NoDup l1 -> NoDup l2 -> NoDup (list_prod l1 l2).
Proof.
  intros H1 H2. induction H1 as [|x l1 Hx _ IH]; cbn [list_prod]; [constructor|].
  apply nodup_app_intro; [|exact IH|].
  - clear - H2. induction H2 as [|y l2 Hy _ IH2]; cbn [map]; [constructor|]. constructor; [|exact IH2].
    intros Hin. apply in_map_iff in Hin. destruct Hin as (y' & [= <-] & Hy'). contradiction.
  - intros [x' y'] Hin Hin'. apply in_map_iff in Hin. destruct Hin as (y0 & [= <- <-] & _). apply in_prod_iff in Hin'. tauto.
Qed.
Definition support (votes : sprofile) (x y : C) : Z :=
  zsum (map (fun bw : sballot * Z => if prefers (fst bw) x y then snd bw else 0) votes).

Lemma support_cons bw votes x y :
  support (bw :: votes) x y = (if prefers (fst bw) x y then snd bw else 0) + support votes x y.
Proof. unfold support, zsum. cbn [map fold_left]. apply (zsum_acc _ _). Qed.

Lemma pairwise_count votes members x y : NoDup members -> In x members -> In y members ->
  pget0 (star_pairwise votes members) (x, y) = support votes x y.
Proof.
  intros Hnd Hx Hy. rewrite star_pairwise_prod.
  assert (Hps : NoDup (list_prod members members)) by (apply NoDup_list_prod; exact Hnd).
  assert (Hin : In (x, y) (list_prod members members)) by (apply in_prod_iff; tauto).
  assert (H : forall acc,
    pget0 (fold_left (fun pv bw => add_pairs (fst bw) (snd bw) (list_prod members members) pv) votes acc) (x, y) =
    pget0 acc (x, y) + support votes x y).
  { induction votes as [|bw votes IH]; intros acc; cbn [fold_left]; [unfold support; cbn; lia|].
    rewrite IH, support_cons. destruct (prefers (fst bw) x y) eqn:E.
    - rewrite (add_pairs_get_in _ _ _ _ _ Hps Hin E). lia.
    - rewrite add_pairs_get_out by (right; exact E). lia. }
  apply H.
Qed.

Lemma pairwise_support votes a b : a <> b ->
  pget0 (star_pairwise votes [a; b]) (a, b) = support votes a b /\
  pget0 (star_pairwise votes [a; b]) (b, a) = support votes b a.
Proof.
  intros Hab. assert (Hnd : NoDup [a; b]) by (repeat constructor; [intros [H|[]]; congruence|intros []]).
  split; apply pairwise_count; cbn [In]; auto.
Qed.

Lemma pairwise_keys votes members q :
  In q (map fst (star_pairwise votes members)) <->
  In (fst q) members /\ In (snd q) members /\ exists bw, In bw votes /\ prefers (fst bw) (fst q) (snd q) = true.
Proof.
  rewrite star_pairwise_prod.
  assert (H : forall acc, In q (map fst (fold_left (fun pv bw => add_pairs (fst bw) (snd bw) (list_prod members members) pv) votes acc)) <->
     In q (map fst acc) \/ (In q (list_prod members members) /\ exists bw, In bw votes /\ prefers (fst bw) (fst q) (snd q) = true)).
  { induction votes as [|bw votes IH]; intros acc; cbn [fold_left].
    - split; [auto|]. intros [H|(_ & bw & [] & _)]. exact H.
    - rewrite IH, add_pairs_keys. split.
      + intros [[H|(H1 & H2)]|(H1 & bw' & H2 & H3)]; auto.
        * right. split; [exact H1|]. exists bw. split; [left; reflexivity|exact H2].
        * right. split; [exact H1|]. exists bw'. split; [right; exact H2|exact H3].
      + intros [H|(H1 & bw' & [<-|H2] & H3)]; auto. right. split; [exact H1|]. exists bw'. auto. }
  rewrite H. cbn [map In]. destruct q as [x y]. pose proof (in_prod_iff members members x y) as Hp. cbn [fst snd]. tauto.
Qed.

Lemma pairwise_nodup votes members : NoDup (map fst (star_pairwise votes members)).
Proof.
  rewrite star_pairwise_prod.
  assert (H : forall acc, NoDup (map fst acc) ->
    NoDup (map fst (fold_left (fun pv bw => add_pairs (fst bw) (snd bw) (list_prod members members) pv) votes acc))).
  { induction votes as [|bw votes IH]; intros acc Hacc; [exact Hacc|]. cbn [fold_left]. apply IH, add_pairs_nodup, Hacc. }
  apply H. constructor.
Qed.

Lemma pairwise_nil votes members :
  (forall x y bw, In x members -> In y members -> In bw votes -> prefers (fst bw) x y = false) ->
  star_pairwise votes members = [].
Proof.
  intros Hno. pose proof (pairwise_keys votes members) as Hk.
  destruct (star_pairwise votes members) as [|[q n] t]; [reflexivity|exfalso].
  destruct (proj1 (Hk q) (or_introl eq_refl)) as (Hx & Hy & bw & Hbw & Hp). rewrite (Hno _ _ _ Hx Hy Hbw) in Hp. discriminate.
Qed.

Lemma pairwise_single votes members : (forall x y, In x members -> In y members -> x = y) -> star_pairwise votes members = [].
Proof.
  intros Heq. apply pairwise_nil. intros x y bw Hx Hy _. rewrite (Heq x y Hx Hy). apply prefers_irrefl.
Qed.
Lemma pairwise_two_keys votes a b q : In q (map fst (star_pairwise votes [a; b])) -> q = (a, b) \/ q = (b, a).
Proof.
  rewrite pairwise_keys. destruct q as [x y]. cbn [fst snd In]. intros (Hx & Hy & bw & _ & Hp).
  destruct Hx as [<-|[<-|[]]], Hy as [<-|[<-|[]]]; auto; rewrite prefers_irrefl in Hp; discriminate.
Qed.

(* the candidates of the pairwise dictionary (the order the wire wrapper passes) are among the two finalists *)
Lemma candidates_two votes a b x : In x (candidates (star_pairwise votes [a; b])) -> x = a \/ x = b.
Proof.
  rewrite candidates_spec. intros (p & n & Hin & Hx).
  destruct (pairwise_two_keys votes a b p) as [->| ->]; [apply in_map_iff; exists (p, n); auto| |]; cbn [fst snd] in Hx; tauto.
Qed.

(* a dictionary whose first key is p and whose only other key, if any, is q *)
Definition lead (p q : pair) (pv : pvotes) : Prop := exists n, pv = [(p, n)] \/ exists m, pv = [(p, n); (q, m)].

Definition shape2 (a b : C) (pv : pvotes) : Prop := pv = [] \/ lead (a, b) (b, a) pv \/ lead (b, a) (a, b) pv.

Lemma lead_of_keys p q n tl : NoDup (map fst ((p, n) :: tl)) -> (forall k, In k (map fst tl) -> k = p \/ k = q) ->
  lead p q ((p, n) :: tl).
Proof.
  intros Hnd Hk. inversion Hnd as [|? ? Hp Hnd']; subst. exists n.
  destruct tl as [|[k m] tl]; [left; reflexivity|right]. exists m. cbn [map fst In] in *.
  destruct (Hk k (or_introl eq_refl)) as [->| ->]; [exfalso; apply Hp; left; reflexivity|].
  destruct tl as [|[k' m'] tl]; [reflexivity|exfalso]. inversion Hnd' as [|? ? Hq _]; subst. cbn [map fst In] in *.
  destruct (Hk k' (or_intror (or_introl eq_refl))) as [->| ->]; [apply Hp; right; left; reflexivity|apply Hq; left; reflexivity].
Qed.

Lemma pairwise_shape a b votes : shape2 a b (star_pairwise votes [a; b]).
Proof.
  pose proof (pairwise_nodup votes [a; b]) as Hnd. pose proof (pairwise_two_keys votes a b) as Hk.
  destruct (star_pairwise votes [a; b]) as [|[q n] tl]; [left; reflexivity|right].
  destruct (Hk q (or_introl eq_refl)) as [->| ->]; [left|right]; apply lead_of_keys; try exact Hnd;
    intros k H; destruct (Hk k (or_intror H)); auto.
Qed.

(* with two candidates the widest-path relaxation has no intermediate candidate to go through *)
Lemma widest_paths_two a b (v : pvotes) order : (forall x, In x order -> x = a \/ x = b) -> widest_paths v order = wp_init v.
Proof.
  intros Ho. apply wp_ind; [reflexivity|]. intros paths c1 c2 ca H1 H2 H3 N12 N1 N2 _. exfalso.
  destruct (Ho _ H1), (Ho _ H2), (Ho _ H3); congruence.
Qed.

Lemma wins_wp_init v : pairwise_wins v false = map fst (wp_init v).
Proof. unfold pairwise_wins, wp_init. f_equal. apply filter_ext. intros pn. apply orb_false_r. Qed.

Lemma peqb_swap x y : x <> y -> peqb (y, x) (x, y) = false.
Proof. intros H. destruct (peqb (y, x) (x, y)) eqn:E; [apply peqb_eq in E; congruence|reflexivity]. Qed.

Lemma wp_init_one x y n : x <> y -> wp_init [((x, y) : pair, n)] = if 0 <? n then [((x, y) : pair, n)] else [].
Proof. intros H. unfold wp_init, pget0, swap. cbn [filter pget fst snd]. rewrite (peqb_swap x y H). reflexivity. Qed.

Lemma wins_one x y n : x <> y -> map fst (wp_init [((x, y) : pair, n)]) = if 0 <? n then [(x, y) : pair] else [].
Proof. intros H. rewrite (wp_init_one x y n H). destruct (0 <? n); reflexivity. Qed.

Lemma dadd_fst x y (vx vy k : Z) : dadd [(x, vx); (y, vy)] x k = [(x, vx + k); (y, vy)].
Proof. unfold dadd, dget_or, ceqb. cbn [dget dset]. unfold ceqb. rewrite Pos.eqb_refl. reflexivity. Qed.

Lemma dadd_snd x y (vx vy k : Z) : x <> y -> dadd [(x, vx); (y, vy)] y k = [(x, vx); (y, vy + k)].
Proof.
  intros H. apply not_eq_sym, Pos.eqb_neq in H. unfold dadd, dget_or. cbn [dget dset]. unfold ceqb.
  rewrite H, Pos.eqb_refl. reflexivity.
Qed.

(* the outcome of a contest decided by the counts n for x and m for y: the larger count wins if it is positive *)
Definition duel {X} (n m : Z) (x y t : X) : X :=
  if m <? n then (if 0 <? n then x else t) else if n <? m then (if 0 <? m then y else t) else t.

Lemma duel_sym {X} n m (x y t : X) : duel n m x y t = duel m n y x t.
Proof.
  unfold duel. destruct (m <? n) eqn:E1, (n <? m) eqn:E2; try reflexivity. apply Z.ltb_lt in E1, E2. lia.
Qed.

Lemma duel_zero {X} n (x y t : X) : duel n 0 x y t = if 0 <? n then x else t.
Proof. unfold duel. destruct (0 <? n); [reflexivity|]. destruct (n <? 0); reflexivity. Qed.

Lemma duel_map {X Y} (f : X -> Y) n m x y t : f (duel n m x y t) = duel n m (f x) (f y) (f t).
Proof.
  unfold duel. destruct (m <? n); [destruct (0 <? n); reflexivity|]. destruct (n <? m); [destruct (0 <? m)|]; reflexivity.
Qed.

Section Two.
  Variables a b : C.
  Hypothesis Hab : a <> b.
  Let Nba : peqb (b, a) (a, b) = false := peqb_swap a b Hab.
  Let Raa : peqb (a, b) (a, b) = true := proj2 (peqb_eq _ _) eq_refl.
  Let Rbb : peqb (b, a) (b, a) = true := proj2 (peqb_eq _ _) eq_refl.

  Lemma wp_init_two n m :
    wp_init [((a, b) : pair, n); ((b, a), m)] = if m <? n then [((a, b) : pair, n)] else if n <? m then [((b, a) : pair, m)] else [].
  Proof.
    unfold wp_init, pget0, swap. cbn [filter pget fst snd]. rewrite Nba, Raa, Rbb.
    destruct (m <? n) eqn:E1, (n <? m) eqn:E2; try reflexivity. apply Z.ltb_lt in E1, E2. lia.
  Qed.

  Lemma wins_lead pv : lead (a, b) (b, a) pv ->
    map fst (wp_init (wp_init pv)) = duel (pget0 pv (a, b)) (pget0 pv (b, a)) [(a, b)] [(b, a)] [].
  Proof.
    intros [n [->|[m ->]]]; unfold pget0; cbn [pget]; rewrite Raa, Nba.
    - rewrite duel_zero, (wp_init_one a b n Hab). destruct (0 <? n) eqn:E; [|reflexivity]. rewrite (wins_one a b n Hab), E. reflexivity.
    - rewrite Rbb, wp_init_two. unfold duel. destruct (m <? n); [apply wins_one, Hab|].
      destruct (n <? m); [apply wins_one, not_eq_sym, Hab|reflexivity].
  Qed.

  Lemma candidates_lead pv : lead (a, b) (b, a) pv -> candidates pv = [a; b].
  Proof.
    assert (Eba : Pos.eqb b a = false) by (apply Pos.eqb_neq, not_eq_sym, Hab).
    assert (H1 : add_new b (add_new a []) = [a; b]) by (unfold add_new, ceqb; cbn [cmem app]; unfold ceqb; rewrite Eba; reflexivity).
    assert (H2 : add_new a (add_new b [a; b]) = [a; b]).
    { unfold add_new at 2. cbn [cmem]. unfold ceqb. rewrite Eba, Pos.eqb_refl. cbn [orb].
      unfold add_new. cbn [cmem]. unfold ceqb. rewrite Pos.eqb_refl. reflexivity. }
    intros [n [->|[m ->]]]; unfold candidates; cbn [fold_left fst snd]; rewrite H1; [reflexivity|exact H2].
  Qed.

  Lemma two_scores : let f W := get_n_best zle_bool (fold_left sch_step W [(a, 0); (b, 0)]) 1 in
    f [(a, b)] = [Cand a] /\ f [(b, a)] = [Cand b] /\ f [] = [TieR [a; b]].
  Proof.
    cbv zeta. cbn [fold_left]. unfold sch_step. cbn [fst snd].
    rewrite (dadd_fst a b), (dadd_snd a b _ _ _ Hab), (dadd_snd a b _ _ _ Hab), (dadd_fst a b). repeat split.
  Qed.

  Lemma schulze_lead pv order : lead (a, b) (b, a) pv -> (forall x, In x order -> x = a \/ x = b) ->
    schulze pv order 1 = duel (pget0 pv (a, b)) (pget0 pv (b, a)) [Cand a] [Cand b] [TieR [a; b]].
  Proof.
    intros Hl Ho. rewrite schulze_unfold, (widest_paths_two a b pv order Ho), wins_wp_init, (wins_lead pv Hl), (candidates_lead pv Hl).
    cbn [map]. destruct two_scores as (Sa & Sb & S0). rewrite <- Sa, <- Sb, <- S0.
    apply (duel_map (fun W => get_n_best zle_bool (fold_left sch_step W [(a, 0); (b, 0)]) 1)).
  Qed.
End Two.

(* the tie of a two-finalist table lists the finalists in the order of its first key *)
Definition tie2 (pv : pvotes) : list (res C) := match pv with [] => [] | (p, _) :: _ => [TieR [fst p; snd p]] end.

Lemma schulze_two a b pv order : a <> b -> shape2 a b pv -> (forall x, In x order -> x = a \/ x = b) ->
  schulze pv order 1 = duel (pget0 pv (a, b)) (pget0 pv (b, a)) [Cand a] [Cand b] (tie2 pv).
Proof.
  intros Hab [->|[Hl|Hl]] Ho.
  - rewrite schulze_unfold, (widest_paths_two a b [] order Ho). reflexivity.
  - assert (Ht : tie2 pv = [TieR [a; b]]) by (destruct Hl as [n [->|[m ->]]]; reflexivity).
    rewrite Ht. apply schulze_lead; assumption.
  - assert (Ht : tie2 pv = [TieR [b; a]]) by (destruct Hl as [n [->|[m ->]]]; reflexivity).
    rewrite Ht, duel_sym. apply schulze_lead; [apply not_eq_sym, Hab|exact Hl|]. intros x Hx. destruct (Ho x Hx); auto.
Qed.

(* STAR, one seat, two distinct untied finalists a and b (the two highest score sums), any ballot weights: the
   contest is decided by the ballot weight that places one above the other *)
Theorem star_duel votes order agg a b :
  score_to_simple star_cfg votes = inl agg -> get_n_best Qle_bool agg 2 = [Cand a; Cand b] -> a <> b ->
  (forall x, In x order -> x = a \/ x = b) ->
  star votes order 1 =
  inl (duel (support votes a b) (support votes b a) [Cand a] [Cand b] (tie2 (star_pairwise votes [a; b]))).
Proof.
  intros Hagg Hrun Hab Ho. unfold star. rewrite Hagg. change (1 + 1)%nat with 2%nat. rewrite Hrun.
  cbn [star_members flat_map app]. rewrite (schulze_two a b _ order Hab (pairwise_shape a b votes) Ho).
  destruct (pairwise_support votes a b Hab) as [-> ->]. reflexivity.
Qed.

(* the winner is the finalist placed above the other by strictly more ballot weight *)
Theorem star_runoff votes order agg a b c :
  score_to_simple star_cfg votes = inl agg ->
  get_n_best Qle_bool agg 2 = [Cand a; Cand b] ->
  (forall x, In x order -> x = a \/ x = b) ->
  star votes order 1 = inl [Cand c] ->
  (c = a /\ support votes b a < support votes a b) \/ (c = b /\ support votes a b < support votes b a).
Proof.
  intros Hagg Hrun Ho. destruct (Pos.eq_dec a b) as [->|Hab].
  - unfold star. rewrite Hagg. change (1 + 1)%nat with 2%nat. rewrite Hrun. cbn [star_members flat_map app].
    rewrite pairwise_single, schulze_unfold, (widest_paths_two b b [] order Ho); [discriminate|].
    intros x y [<-|[<-|[]]] [<-|[<-|[]]]; reflexivity.
  - rewrite (star_duel votes order agg a b Hagg Hrun Hab Ho). intros [= Hr].
    assert (Ht : tie2 (star_pairwise votes [a; b]) <> [Cand c]) by (destruct (star_pairwise votes [a; b]) as [|[p k] t]; discriminate).
    unfold duel in Hr. destruct (support votes b a <? support votes a b) eqn:E1.
    + destruct (0 <? support votes a b); [|contradiction]. injection Hr as <-. left. split; [reflexivity|apply Z.ltb_lt, E1].
    + destruct (support votes a b <? support votes b a) eqn:E2; [|contradiction].
      destruct (0 <? support votes b a); [|contradiction]. injection Hr as <-. right. split; [reflexivity|apply Z.ltb_lt, E2].
Qed.

Theorem star_auto_runoff votes agg a b c :
  score_to_simple star_cfg votes = inl agg ->
  get_n_best Qle_bool agg 2 = [Cand a; Cand b] ->
  star_auto votes 1 = inl [Cand c] ->
  (c = a /\ support votes b a < support votes a b) \/ (c = b /\ support votes a b < support votes b a).
Proof.
  intros Hagg Hrun. unfold star_auto. rewrite Hagg. change (1 + 1)%nat with 2%nat. rewrite Hrun.
  cbn [star_members flat_map app]. intros Hr.
  apply (star_runoff votes (candidates (star_pairwise votes [a; b])) agg a b c Hagg Hrun); [apply candidates_two|exact Hr].
Qed.
