(* C10, renaming: every evaluator of Model/Condorcet.v commutes with every injective renaming of the candidates -
   EXACT equality of the results (elected, ties with their members in the renamed order, refusals).
   None of these models consults an order on candidates (no [Pos.ltb] / sorting by name anywhere: candidates are
   compared with [ceqb] only, every iteration order is the insertion order of the pairwise dictionary or the explicit
   [order] argument of Schulze), so the proofs are compositions of the equivariant combinators of Proofs/Equivariant.v. *)
From Coq Require Import ZArith QArith List Bool Arith Lia.
From VL Require Import Prelude.PyDict Model.GetNBest Model.Condorcet Proofs.Dict_proofs Proofs.Order_proofs
     Proofs.HARename_proofs Proofs.Equivariant.
Import ListNotations.
Open Scope Z_scope.

Section CREN.
  Variable f : C -> C.
  Hypothesis f_inj : forall a b, f a = f b -> a = b.

  Definition rp (p : pair) : pair := (f (fst p), f (snd p)).
  Definition rpn (pn : pair * Z) : pair * Z := (rp (fst pn), snd pn).
  Definition renp (v : pvotes) : pvotes := map rpn v.
  Definition ren_cres (r : cres) : cres := match r with CR_ok l => CR_ok (map (ren_res f) l) | x => x end.

  Lemma renp_renk v : renp v = renk rp v.
  Proof. reflexivity. Qed.
  Lemma renp_keys v : map fst (renp v) = map rp (map fst v).
  Proof. unfold renp. rewrite !map_map. reflexivity. Qed.

  Lemma filter_renp (P P' : pair * Z -> bool) v : (forall x, P' (rpn x) = P x) -> filter P' (renp v) = renp (filter P v).
  Proof. intros H. unfold renp. apply filter_map_eqv, H. Qed.

  Lemma peqb_ren p q : peqb (rp p) (rp q) = peqb p q.
  Proof. unfold peqb, rp. cbn [fst snd]. rewrite !(ceqb_f f f_inj). reflexivity. Qed.
  Lemma pget_ren v p : pget (renp v) (rp p) = pget v p.
  Proof. induction v as [|[q k] v IH]; simpl; [reflexivity|]. rewrite peqb_ren, IH. reflexivity. Qed.
  Lemma pget0_ren v p : pget0 (renp v) (rp p) = pget0 v p.
  Proof. unfold pget0. rewrite pget_ren. reflexivity. Qed.
  Lemma pget0_ren2 v a b : pget0 (renp v) (f a, f b) = pget0 v (a, b).
  Proof. exact (pget0_ren v (a, b)). Qed.
  Lemma swap_ren p : swap (rp p) = rp (swap p).
  Proof. reflexivity. Qed.

  Lemma add_new_ren c l : add_new (f c) (map f l) = map f (add_new c l).
  Proof. unfold add_new. rewrite (cmem_ren f f_inj). destruct (cmem c l); [reflexivity|]. rewrite map_app. reflexivity. Qed.
  Lemma candidates_ren v : candidates (renp v) = map f (candidates v).
  Proof.
    unfold candidates, renp.
    apply (fold_left_eqv0 rpn (map f)); [|reflexivity].
    intros a x. unfold rpn, rp. cbn [fst snd]. rewrite !add_new_ren. reflexivity.
  Qed.

  Lemma pairwise_wins_ren v t : pairwise_wins (renp v) t = map rp (pairwise_wins v t).
  Proof.
    unfold pairwise_wins.
    rewrite (filter_renp (fun pn => let anti := pget0 v (swap (fst pn)) in (anti <? snd pn) || (t && (anti =? snd pn)))).
    - apply renp_keys.
    - intros [p k]. unfold rpn. cbn [fst snd]. cbv zeta. rewrite swap_ren, pget0_ren. reflexivity.
  Qed.

  Lemma dadd_ren d c k : dadd (renl f d) (f c) k = renl f (dadd d c k).
  Proof. unfold dadd. rewrite (dget_or_ren f f_inj), (dset_ren f f_inj). reflexivity. Qed.

  Lemma beat_counts_ren v : beat_counts (renp v) = renl f (beat_counts v).
  Proof.
    unfold beat_counts. rewrite pairwise_wins_ren.
    apply (fold_left_eqv0 rp (renl f)); [|reflexivity].
    intros a x. unfold rp. cbn [fst]. apply dadd_ren.
  Qed.

  Lemma condorcet_winner_ren v : condorcet_winner (renp v) = map f (condorcet_winner v).
  Proof.
    unfold condorcet_winner. rewrite candidates_ren, map_length, beat_counts_ren. cbv zeta.
    unfold renl.
    rewrite (find_map_eqv (fun cv : C * Z => (f (fst cv), snd cv))
               (fun cn : C * Z => snd cn =? Z.of_nat (length (candidates v)) - 1)) by (intros x; reflexivity).
    destruct (find _ (beat_counts v)) as [[c k]|]; reflexivity.
  Qed.

  Lemma copeland_scores_ren wins : copeland_scores (map rp wins) = renl f (copeland_scores wins).
  Proof.
    unfold copeland_scores.
    apply (fold_left_eqv0 rp (renl f)); [|reflexivity].
    intros a x. unfold rp. cbn [fst snd]. rewrite !dadd_ren. reflexivity.
  Qed.

  Lemma index_of_ren c l : index_of (f c) (map f l) = index_of c l.
  Proof. induction l as [|x l IH]; simpl; [reflexivity|]. rewrite (ceqb_f f f_inj), IH. reflexivity. Qed.

  Lemma ss_loop_ren order wins : forall e, ss_loop (map f order) (map rp wins) e = ss_loop order wins e.
  Proof.
    induction wins as [|[w l] wins IH]; intros e; [reflexivity|].
    cbn [map]. unfold rp at 1. cbn [fst snd ss_loop]. rewrite !index_of_ren, map_length, !IH. reflexivity.
  Qed.

  Lemma complete_ren v : complete (renp v) = renp (complete v).
  Proof.
    unfold complete. rewrite candidates_ren. cbv zeta.
    apply (flat_map_eqv f rpn). intros c1. apply (flat_map_eqv f rpn). intros c2.
    rewrite (ceqb_f f f_inj). destruct (ceqb c1 c2); [reflexivity|]. cbn [map]. unfold rpn, rp. cbn [fst snd]. rewrite pget0_ren2. reflexivity.
  Qed.

  Theorem smith_schwartz_ren v t : smith_schwartz (renp v) t = map f (smith_schwartz v t).
  Proof.
    unfold smith_schwartz. cbv zeta. rewrite complete_ren, pairwise_wins_ren, copeland_scores_ren.
    set (wins := pairwise_wins (complete v) t).
    rewrite sort_desc_renl, (renl_keys f).
    set (order := map fst (sort_desc zle_bool (copeland_scores wins))).
    rewrite (decorate_renk rp (fun p => index_of (snd p) order) (fun p => index_of (snd p) (map f order)))
      by (intros x; unfold rp; cbn [snd]; apply index_of_ren).
    rewrite sort_asc_renk, renk_keys, ss_loop_ren, firstn_map. reflexivity.
  Qed.

  Lemma has_tie_ren r : has_tie (map (ren_res f) r) = has_tie r.
  Proof. unfold has_tie. apply existsb_map_eqv. intros [c|l]; reflexivity. Qed.
  Lemma res_members_ren r : res_members (map (ren_res f) r) = map f (res_members r).
  Proof. unfold res_members. apply flat_map_eqv. intros [c|l]; reflexivity. Qed.
  Lemma res_untied_ren r : res_untied (map (ren_res f) r) = map (ren_res f) (res_untied r).
  Proof. unfold res_untied. apply filter_map_eqv. intros [c|l]; reflexivity. Qed.

  (* the second-order tie-break of [copeland], as a function of the wins, the first-order scores and the selection *)
  Definition copeland_so (wins : list pair) (scores : list (C * Z)) (best : list (res C)) : list (res C) :=
    let tied := res_members best in
    let so0 := flat_map (fun cs : C * Z => if cmem (fst cs) tied then [(fst cs, 0)] else []) scores in
    let so := fold_left (fun d p => if cmem (fst p) tied then dadd d (fst p) (dget_or scores (snd p) 0) else d) wins so0 in
    res_untied best ++ get_n_best zle_bool so (length best - length (res_untied best)).
  Lemma copeland_stages so v n :
    copeland so v n =
    let wins := pairwise_wins v false in
    let scores := fold_left (fun d c => if dmem d c then d else d ++ [(c, 0)]) (candidates v) (copeland_scores wins) in
    let best := get_n_best zle_bool scores n in
    if so && has_tie best then copeland_so wins scores best else best.
  Proof. reflexivity. Qed.

  Lemma copeland_so_ren wins scores best :
    copeland_so (map rp wins) (renl f scores) (map (ren_res f) best) = map (ren_res f) (copeland_so wins scores best).
  Proof.
    unfold copeland_so. cbv zeta. rewrite res_members_ren, res_untied_ren, !map_length, map_app, <- get_n_best_renl.
    apply f_equal. apply (f_equal (fun d => get_n_best zle_bool d _)). apply (fold_left_eqv0 rp (renl f)).
    - intros a x. unfold rp. cbn [fst snd]. rewrite (cmem_ren f f_inj), (dget_or_ren f f_inj), dadd_ren. destruct (cmem (fst x) _); reflexivity.
    - apply (flat_map_renl f). intros x. cbn [fst]. rewrite (cmem_ren f f_inj). destruct (cmem (fst x) _); reflexivity.
  Qed.

  Theorem copeland_ren so v n : copeland so (renp v) n = map (ren_res f) (copeland so v n).
  Proof.
    rewrite !copeland_stages. cbv zeta. rewrite pairwise_wins_ren, copeland_scores_ren, candidates_ren.
    rewrite (fold_left_eqv f (renl f) (fun d c => if dmem d c then d else d ++ [(c, 0)]) (fun d c => if dmem d c then d else d ++ [(c, 0)]))
      by (intros a x; rewrite (dmem_ren f f_inj); destruct (dmem a x); [reflexivity|rewrite (renl_app f); reflexivity]).
    rewrite get_n_best_renl, has_tie_ren. destruct (so && has_tie _); [apply copeland_so_ren|reflexivity].
  Qed.

  Lemma pset_cons p n q k t : pset ((q, k) :: t) p n = if peqb p q then (q, n) :: t else (q, k) :: pset t p n.
  Proof. reflexivity. Qed.
  Lemma pset_ren v p k : pset (renp v) (rp p) k = renp (pset v p k).
  Proof.
    induction v as [|[q k'] v IH]; [reflexivity|].
    change (renp ((q, k') :: v)) with ((rp q, k') :: renp v). rewrite !pset_cons.
    rewrite peqb_ren. destruct (peqb p q); [reflexivity|].
    change (renp ((q, k') :: pset v p k)) with ((rp q, k') :: renp (pset v p k)). f_equal. exact IH.
  Qed.

  Lemma widest_paths_ren v order : widest_paths (renp v) (map f order) = renp (widest_paths v order).
  Proof.
    unfold widest_paths. cbv zeta.
    rewrite (filter_renp (fun pn => pget0 v (swap (fst pn)) <? snd pn))
      by (intros [p k]; unfold rpn; cbn [fst snd]; rewrite swap_ren, pget0_ren; reflexivity).
    apply (fold_left_eqv f renp). intros p1 c1.
    apply (fold_left_eqv f renp). intros p2 c2.
    rewrite (ceqb_f f f_inj). destruct (ceqb c1 c2); [reflexivity|].
    apply (fold_left_eqv f renp). intros p3 ca.
    rewrite !(ceqb_f f f_inj). destruct (ceqb ca c1 || ceqb ca c2); [reflexivity|].
    rewrite !pget0_ren2. apply (pset_ren p3 (c2, ca)).
  Qed.

  Theorem schulze_ren v order n : schulze (renp v) (map f order) n = map (ren_res f) (schulze v order n).
  Proof.
    unfold schulze. cbv zeta. rewrite widest_paths_ren, pairwise_wins_ren, candidates_ren, <- get_n_best_renl.
    apply (f_equal (fun d => get_n_best zle_bool d n)). apply (fold_left_eqv0 rp (renl f)); [|apply seed_renl].
    intros a x. unfold rp. cbn [fst snd]. rewrite !dadd_ren. reflexivity.
  Qed.

  Lemma score_pairs_ren s v : score_pairs s (renp v) = renp (score_pairs s v).
  Proof.
    destruct s; unfold score_pairs; [| |reflexivity]; unfold renp at 2 3; apply map_map_eqv; intros x; unfold rpn; cbn [fst snd];
      rewrite swap_ren, pget0_ren; reflexivity.
  Qed.

  Theorem minimax_ren s v n : minimax s (renp v) n = map (ren_res f) (minimax s v n).
  Proof.
    unfold minimax. cbv zeta. rewrite complete_ren, score_pairs_ren, <- get_n_best_renl, <- map_renl by reflexivity.
    apply (f_equal (fun d => get_n_best zle_bool (map _ d) n)). unfold renp.
    apply (fold_left_eqv0 rpn (renl f)); [|reflexivity].
    intros a [[x y] k]. unfold rpn, rp. cbn [fst snd]. rewrite (dget_ren f f_inj). destruct (dget a y); apply (dset_ren f f_inj).
  Qed.

  Lemma sort_desc_by_ren {X} (g : X -> X) (key key' : X -> Z) : (forall x, key' (g x) = key x) ->
    forall l, sort_desc_by key' (map g l) = map g (sort_desc_by key l).
  Proof. intros H l. unfold sort_desc_by. rewrite (decorate_renk g key key' H), sort_desc_renk, renk_keys. reflexivity. Qed.

  Lemma reach_pass_ren pairs : forall visited, reach_pass (map rp pairs) (map f visited) = map f (reach_pass pairs visited).
  Proof.
    induction pairs as [|[a b] pairs IH]; intros visited; [reflexivity|].
    cbn [map]. unfold rp at 1. cbn [fst snd reach_pass]. rewrite !(cmem_ren f f_inj).
    destruct (cmem a visited && negb (cmem b visited)); [|apply IH].
    rewrite <- IH, map_app. reflexivity.
  Qed.
  Lemma reach_ren fuel pairs : forall visited, reach fuel (map rp pairs) (map f visited) = map f (reach fuel pairs visited).
  Proof.
    induction fuel as [|fu IH]; intros visited; [reflexivity|]. cbn [reach]. cbv zeta.
    rewrite reach_pass_ren, !map_length. destruct (Nat.eqb _ _); [reflexivity|apply IH].
  Qed.
  Lemma is_path_ren pairs a b : is_path (map rp pairs) (f a) (f b) = is_path pairs a b.
  Proof.
    unfold is_path. rewrite map_length. change [f a] with (map f [a]). rewrite reach_ren, (cmem_ren f f_inj), (ceqb_f f f_inj). reflexivity.
  Qed.
  Lemma lock_pairs_ren pairs : lock_pairs (map rp pairs) = map rp (lock_pairs pairs).
  Proof.
    unfold lock_pairs.
    apply (fold_left_eqv0 rp (map rp)); [|reflexivity].
    intros a x. unfold rp at 2 3. cbn [fst snd]. rewrite is_path_ren. destruct (is_path a (snd x) (fst x)); [reflexivity|].
    rewrite map_app. reflexivity.
  Qed.
  Lemma dedup_c_ren l : dedup_c (map f l) = map f (dedup_c l).
  Proof. induction l as [|x l IH]; [reflexivity|]. cbn [map dedup_c]. rewrite (cmem_ren f f_inj), IH. destruct (cmem x l); reflexivity. Qed.

  Lemma build_ranking_ren fuel : forall edges ranking,
    build_ranking fuel (map rp edges) (map f ranking) = option_map (map f) (build_ranking fuel edges ranking).
  Proof.
    induction fuel as [|fu IH]; intros edges ranking.
    - destruct edges; reflexivity.
    - destruct edges as [|e edges]; [reflexivity|].
      change (map rp (e :: edges)) with (rp e :: map rp edges). cbn [build_ranking]. cbv zeta.
      change (rp e :: map rp edges) with (map rp (e :: edges)). set (ed := e :: edges).
      assert (E1 : map fst (map rp ed) = map f (map fst ed)) by (rewrite !map_map; reflexivity).
      assert (E2 : map snd (map rp ed) = map f (map snd ed)) by (rewrite !map_map; reflexivity).
      rewrite E1, E2, dedup_c_ren.
      rewrite (filter_map_eqv f (fun w => negb (cmem w (map snd ed)))) by (intros x; rewrite (cmem_ren f f_inj); reflexivity).
      destruct (filter _ (dedup_c (map fst ed))) as [|w [|w' r]]; [reflexivity| |reflexivity].
      cbn [map].
      rewrite (filter_map_eqv rp (fun e0 => negb (ceqb (fst e0) w)))
        by (intros x; unfold rp; cbn [fst]; rewrite (ceqb_f f f_inj); reflexivity).
      change [f w] with (map f [w]). rewrite <- map_app. apply IH.
  Qed.

  Lemma rp_tail ranking n (o : option C) :
    match option_map f o with Some last => CR_ok (map Cand (firstn n (map f ranking ++ [last]))) | None => CR_stop end
    = ren_cres (match o with Some last => CR_ok (map Cand (firstn n (ranking ++ [last]))) | None => CR_stop end).
  Proof.
    destruct o as [last|]; [|reflexivity]. cbn [option_map ren_cres].
    change [f last] with (map f [last]). rewrite <- map_app, ren_res_map_cand, firstn_map. reflexivity.
  Qed.

  Theorem ranked_pairs_ren s v n : ranked_pairs s (renp v) n = ren_cres (ranked_pairs s v n).
  Proof.
    unfold ranked_pairs. cbv zeta. rewrite complete_ren, score_pairs_ren, renp_keys.
    set (w := complete v).
    rewrite (sort_desc_by_ren rp (pget0 w)), (sort_desc_by_ren rp (pget0 (score_pairs s w))) by (intros x; apply pget0_ren).
    rewrite lock_pairs_ren, map_length. set (locked := lock_pairs _).
    change (@nil C) with (map f []) at 1. rewrite build_ranking_ren.
    destruct (build_ranking (S (length locked)) locked []) as [ranking|]; [|reflexivity]. cbn [option_map].
    rewrite (flat_map_eqv rp f (fun p : C * C => [fst p; snd p]) (fun p : C * C => [fst p; snd p])) by (intros x; reflexivity).
    rewrite (find_map_eqv f (fun c => negb (cmem c ranking))) by (intros x; rewrite (cmem_ren f f_inj); reflexivity).
    apply rp_tail.
  Qed.

  Lemma insert_all_ren x l : insert_all (f x) (map f l) = map (map f) (insert_all x l).
  Proof.
    induction l as [|y l IH]; [reflexivity|]. cbn [map insert_all]. rewrite IH, !map_map. reflexivity.
  Qed.
  Lemma permutations_ren l : permutations (map f l) = map (map f) (permutations l).
  Proof.
    induction l as [|x l IH]; [reflexivity|]. cbn [map permutations]. rewrite IH.
    apply flat_map_eqv. intros p. apply insert_all_ren.
  Qed.
  Lemma kemeny_score_ren v variant : kemeny_score (renp v) (map f variant) = kemeny_score v variant.
  Proof.
    induction variant as [|u t IH]; [reflexivity|]. cbn [map kemeny_score]. rewrite IH. f_equal.
    apply fold_left_inv. intros a x. rewrite pget0_ren2. reflexivity.
  Qed.
  Lemma clist_eqb_ren a : forall b, clist_eqb (map f a) (map f b) = clist_eqb a b.
  Proof.
    induction a as [|x a IH]; intros [|y b]; try reflexivity. cbn [map clist_eqb]. rewrite (ceqb_f f f_inj), IH. reflexivity.
  Qed.

  Theorem kemeny_ren v n : kemeny (renp v) n = ren_cres (kemeny v n).
  Proof.
    unfold kemeny. cbv zeta. rewrite candidates_ren, permutations_ren.
    rewrite (decorate_renk (map f) (fun p => kemeny_score v p) (fun p => kemeny_score (renp v) p)) by (intros x; apply kemeny_score_ren).
    set (scored := map (fun p => (p, kemeny_score v p)) (permutations (candidates v))).
    unfold renk. rewrite (fold_left_inv _ (fun b (ps : list C * Z) => Z.max b (snd ps))) by reflexivity.
    set (best := fold_left _ scored 0).
    rewrite (filter_map_eqv _ (fun ps : list C * Z => snd ps =? best)) by reflexivity.
    rewrite (map_map_eqv _ (map f) (fun ps : list C * Z => firstn n (fst ps))) by (intros x; apply firstn_map).
    destruct (map _ (filter _ scored)) as [|pre rest]; [reflexivity|]. cbn [map].
    rewrite (forallb_map_eqv (map f) (clist_eqb pre)) by (intros x; apply clist_eqb_ren).
    destruct (forallb (clist_eqb pre) rest); [|reflexivity]. cbn [ren_cres]. rewrite ren_res_map_cand. reflexivity.
  Qed.

  (* the building blocks as a theorem of their own *)
  Theorem condorcet_blocks_ren v t :
    candidates (renp v) = map f (candidates v) /\ pairwise_wins (renp v) t = map rp (pairwise_wins v t) /\
    beat_counts (renp v) = renl f (beat_counts v) /\ complete (renp v) = renp (complete v).
  Proof. repeat split; [apply candidates_ren|apply pairwise_wins_ren|apply beat_counts_ren|apply complete_ren]. Qed.
End CREN.
