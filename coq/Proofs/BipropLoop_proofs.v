(* Lemmas for property C07: the loop invariant of tie-and-transfer over the whole-loop model
   Model/BipropLoop.v and the PARTIAL CORRECTNESS of [bloop]: from any state that satisfies the invariant,
   whenever the loop returns (not out of fuel, not a refusal), the certificate checker accepts the returned
   matrix with the final multipliers.  Termination is not claimed. *)
From Coq Require Import ZArith QArith List Bool Lia Lqa.
From VL Require Import Prelude.PyDict Model.Divisor Model.HighestAverages Model.Biprop Model.BipropLoop
     Proofs.Dict_proofs Proofs.Divisor_proofs Proofs.Biprop_proofs Proofs.Biprop_steps.
Import ListNotations.
Open Scope Z_scope.

Lemma dget_map_keyed {X Y} (f : C -> X -> Y) (l : list (C * X)) k :
  dget (map (fun kv => (fst kv, f (fst kv) (snd kv))) l) k = option_map (f k) (dget l k).
Proof.
  induction l as [|[k0 v0] l IH]; simpl; [reflexivity|].
  destruct (ceqb k k0) eqn:E; [|exact IH]. apply ceqb_eq in E. subst k0. reflexivity.
Qed.

Lemma dget_none_notin {X} (t : list (C * X)) k : dget t k = None -> ~ In k (map fst t).
Proof.
  induction t as [|[k0 v0] t IH]; simpl; [tauto|].
  destruct (ceqb k k0) eqn:E; [discriminate|]. intros H [H1|H1]; [|apply (IH H H1)].
  subst k0. rewrite ceqb_refl in E. discriminate.
Qed.
Lemma notin_dget_none {X} (t : list (C * X)) k : ~ In k (map fst t) -> dget t k = None.
Proof.
  induction t as [|[k0 v0] t IH]; simpl; [reflexivity|]. intros H.
  destruct (ceqb k k0) eqn:E; [apply ceqb_eq in E; subst; exfalso; apply H; left; reflexivity|].
  apply IH. intros Hi. apply H. right. exact Hi.
Qed.

Lemma dremove_keys {X} (t : list (C * X)) k x : In x (map fst (dremove t k)) -> In x (map fst t).
Proof.
  induction t as [|[k0 v0] t IH]; simpl; [tauto|].
  destruct (ceqb k k0); simpl; [intros H; right; apply IH, H|intros [H|H]; [left; exact H|right; apply IH, H]].
Qed.
Lemma dremove_keys_nodup {X} (t : list (C * X)) k : NoDup (map fst t) -> NoDup (map fst (dremove t k)).
Proof.
  induction t as [|[k0 v0] t IH]; simpl; intros H; [constructor|].
  inversion H as [|? ? Hk Ht]; subst. destruct (ceqb k k0); simpl; [apply IH, Ht|].
  constructor; [|apply IH, Ht]. intros Hi. apply Hk. apply (dremove_keys _ _ _ Hi).
Qed.

(* sum(row.values()) = the sum of row.get(j, 0) over any duplicate-free index list that contains the keys *)
Lemma row_total_index (row : list (C * Z)) (ps : list C) :
  NoDup (map fst row) -> incl (map fst row) ps -> NoDup ps ->
  row_total row = zsum (map (fun j => dget_or row j 0) ps).
Proof.
  unfold row_total. induction row as [|[k v] t IH]; intros Hnd Hin Hps.
  - simpl. rewrite zsum_nil. symmetry. apply (zsum_map_zero ps).
  - simpl map at 1. rewrite zsum_cons. inversion Hnd as [|? ? Hk Ht]; subst.
    rewrite IH; [|exact Ht|intros x Hx; apply Hin; right; exact Hx|exact Hps].
    rewrite (zsum_map_point (fun j => dget_or t j 0) (fun j => dget_or ((k, v) :: t) j 0) k v ps).
    + rewrite (count_nodup k ps Hps); [lia|]. apply Hin. left. reflexivity.
    + intros x. unfold dget_or. simpl. destruct (ceqb x k) eqn:E; [|lia].
      apply ceqb_eq in E. subst x. rewrite (notin_dget_none t k Hk). lia.
Qed.

Lemma ins_pos_in x l y : In y (ins_pos x l) <-> y = x \/ In y l.
Proof.
  induction l as [|z l IH]; simpl; [split; intros [H|[]]; auto|].
  destruct (Pos.leb x z); simpl; [split; intros [H|H]; auto|].
  rewrite IH. split; [intros [H|[H|H]]; auto|intros [H|[H|H]]; auto].
Qed.
Lemma sort_pos_in l y : In y (sort_pos l) <-> In y l.
Proof.
  induction l as [|x l IH]; simpl; [tauto|]. rewrite ins_pos_in, IH. split; intros [H|H]; auto.
Qed.

Lemma dget_calc_quots votes rho gamma i :
  dget (calc_quots votes rho gamma) i
  = option_map (map (fun kv => (fst kv, quot (snd kv) (mul rho i) (mul gamma (fst kv))))) (dget votes i).
Proof.
  exact (dget_map_keyed (fun i0 row => map (fun kv => (fst kv, quot (snd kv) (mul rho i0) (mul gamma (fst kv)))) row) votes i).
Qed.

Lemma quots_cell votes rho gamma i qrow j :
  dget (calc_quots votes rho gamma) i = Some qrow ->
  (dget_or qrow j 0%Q == quot (mget votes i j) (mul rho i) (mul gamma j))%Q.
Proof.
  rewrite dget_calc_quots. unfold mget. destruct (dget votes i) as [row|]; simpl; [|discriminate]. intros [= <-].
  unfold dget_or. rewrite (dget_map_keyed (fun j0 v => quot v (mul rho i) (mul gamma j0)) row j).
  destruct (dget row j) as [v|]; simpl; [reflexivity|]. unfold quot. simpl. ring.
Qed.
Lemma quots_keys votes rho gamma i qrow :
  dget (calc_quots votes rho gamma) i = Some qrow -> In i (districts votes).
Proof.
  rewrite dget_calc_quots. destruct (dget votes i) as [row|] eqn:E; [|discriminate]. intros _. apply (dget_In_key _ _ _ E).
Qed.

(* votes is a dict of dicts: no district and, within a district, no party occurs twice as a key *)
Definition wf_votes (votes : mat) : Prop :=
  NoDup (map fst votes) /\ forall row, In row votes -> NoDup (map fst (snd row)).

Lemma mget_In votes i r j v : wf_votes votes -> In (i, r) votes -> In (j, v) r -> mget votes i j = v.
Proof.
  intros [Hnd Hrows] Hr Hkv. unfold mget, dget_or.
  rewrite (In_dget votes i r Hnd Hr), (In_dget r j v (Hrows (i, r) Hr) Hkv). reflexivity.
Qed.

(* the cells _adj_coef scans: one for every stored vote *)
Lemma in_cells_of_quots votes rho gamma i j x :
  In (i, j, x) (cells_of (calc_quots votes rho gamma)) <->
  exists r v, In (i, r) votes /\ In (j, v) r /\ x = quot v (mul rho i) (mul gamma j).
Proof.
  unfold cells_of, calc_quots. rewrite in_flat_map. split.
  - intros (qr & Hqr & H). apply in_map_iff in Hqr. destruct Hqr as ([i0 r] & <- & Hr). cbn [fst snd] in H.
    apply in_map_iff in H. destruct H as (kv' & E & Hkv'). apply in_map_iff in Hkv'. destruct Hkv' as ([j0 v] & <- & Hkv).
    injection E as <- <- <-. exists r, v. auto.
  - intros (r & v & Hr & Hkv & ->). eexists. split; [apply in_map_iff; exists (i, r); split; [reflexivity|exact Hr]|].
    cbn [fst snd]. apply in_map_iff. exists (j, quot v (mul rho i) (mul gamma j)). split; [reflexivity|].
    apply in_map_iff. exists (j, v). split; [reflexivity|exact Hkv].
Qed.

Lemma cells_of_quots votes rho gamma cell : wf_votes votes ->
  In cell (cells_of (calc_quots votes rho gamma)) ->
  In (fst (fst cell)) (districts votes) /\ In (snd (fst cell)) (parties votes) /\
  snd cell = quot (mget votes (fst (fst cell)) (snd (fst cell))) (mul rho (fst (fst cell))) (mul gamma (snd (fst cell))).
Proof.
  intros Hwf H. destruct cell as [[i j] x]. cbn [fst snd]. apply in_cells_of_quots in H. destruct H as (r & v & Hr & Hkv & ->).
  rewrite (mget_In votes i r j v Hwf Hr Hkv). split; [apply (in_map fst votes (i, r) Hr)|]. split; [|reflexivity].
  destruct (parties_facts votes []) as (_ & K & _). apply (K (i, r) (j, v) Hr Hkv).
Qed.

Lemma filter_nil {X} (f : X -> bool) l : filter f l = [] -> forall x, In x l -> f x = false.
Proof.
  induction l as [|y l IH]; simpl; [tauto|]. destruct (f y) eqn:E; [discriminate|].
  intros H x [<-|Hx]; [exact E|apply IH; assumption].
Qed.

Section Tests.
  Variable q : Q.
  Lemma upgradable_spec x s : is_upgradable q x s = true -> (x == inject_Z s + 1 - q)%Q.
  Proof.
    unfold is_upgradable. rewrite andb_true_iff. intros [_ H]. apply Qeq_bool_iff in H. rewrite H. reflexivity.
  Qed.
  Lemma downgradable_spec x s : is_downgradable q x s = true -> (x == inject_Z s - q)%Q /\ 1 <= s.
  Proof.
    unfold is_downgradable. rewrite !andb_true_iff. intros [[_ H] H1]. apply Qeq_bool_iff in H. apply Z.leb_le in H1.
    split; [rewrite H; reflexivity|exact H1].
  Qed.
End Tests.

(* an iteration by the branch it takes: [bstep] is [Done] or the body run on the two lists of unsatisfied districts *)
Lemma bstep_unfold q votes tgt dorder s :
  let uo := unsat dorder (b_res s) tgt in
  (uo = ([], []) /\ bstep q votes tgt dorder s = Done) \/
  ((fst uo <> [] \/ snd uo <> []) /\ bstep q votes tgt dorder s = bstep_body q votes s (fst uo) (snd uo)).
Proof.
  unfold bstep. cbv zeta. destruct (unsat dorder (b_res s) tgt) as [[|u0 ul] [|o0 ol]]; cbn [fst snd].
  - left. split; reflexivity.
  - right. split; [right; discriminate|reflexivity].
  - right. split; [left; discriminate|reflexivity].
  - right. split; [left; discriminate|reflexivity].
Qed.

Section Body.
  Variable q : Q.
  Variable votes : mat.
  Variable s : bstate.
  Variables under over : list C.
  Notation quots := (calc_quots votes (b_rho s) (b_gamma s)).
  Notation lab := (labeled q (parties votes) (districts votes) quots (b_res s) under over).
  Notation start_of LD := (sort_pos (filter (fun i => dmem LD i) under)).
  Notation coef LD LP := (adj_coef q quots (b_res s) (map fst LD) (map fst LP)).

  Inductive body_case : step_result -> Prop :=
  | BC_lab_key : lab = LabKeyError -> body_case (Stop BP_key_error)
  | BC_lab_fuel : lab = LabFuel -> body_case (Stop BP_out_of_fuel)
  | BC_walk_key LD LP start rest : lab = Lab LD LP -> start_of LD = start :: rest ->
      walk (S (length LD)) LD LP over start [] [] = WalkKeyError -> body_case (Stop BP_key_error)
  | BC_walk_fuel LD LP start rest : lab = Lab LD LP -> start_of LD = start :: rest ->
      walk (S (length LD)) LD LP over start [] [] = WalkFuel -> body_case (Stop BP_out_of_fuel)
  | BC_augment_key LD LP start rest hops : lab = Lab LD LP -> start_of LD = start :: rest ->
      walk (S (length LD)) LD LP over start [] [] = WalkDone hops -> augment (b_res s) start hops = None ->
      body_case (Stop BP_key_error)
  | BC_transfer LD LP start rest hops res' : lab = Lab LD LP -> start_of LD = start :: rest ->
      walk (S (length LD)) LD LP over start [] [] = WalkDone hops -> augment (b_res s) start hops = Some res' ->
      body_case (Next (mk_bstate res' (b_rho s) (b_gamma s)))
  | BC_zero_division LD LP : lab = Lab LD LP -> start_of LD = [] -> coef LD LP = AdjZeroDivision ->
      body_case (Stop BP_zero_division)
  | BC_refused LD LP a : lab = Lab LD LP -> start_of LD = [] -> coef LD LP = Adj a -> Qeq_bool a 0 || Qle_bool 1 a = true ->
      body_case (Stop (BP_refused a))
  | BC_update LD LP a : lab = Lab LD LP -> start_of LD = [] -> coef LD LP = Adj a -> Qeq_bool a 0 || Qle_bool 1 a = false ->
      body_case (Next (mk_bstate (b_res s) (scale_rho_r (map fst LD) a (b_rho s)) (scale_gamma_r (map fst LP) a (b_gamma s)))).

  Lemma bstep_body_case : body_case (bstep_body q votes s under over).
  Proof.
    unfold bstep_body. destruct lab as [LD LP| |] eqn:El; [|apply BC_lab_key, El|apply BC_lab_fuel, El].
    destruct (start_of LD) as [|start rest] eqn:Es.
    - destruct (coef LD LP) as [a|] eqn:Ea; [|apply (BC_zero_division LD LP El Es Ea)].
      destruct (Qeq_bool a 0 || Qle_bool 1 a) eqn:Ec; [apply (BC_refused LD LP a El Es Ea Ec)|apply (BC_update LD LP a El Es Ea Ec)].
    - destruct (walk (S (length LD)) LD LP over start [] []) as [hops| |] eqn:Ew;
        [|apply (BC_walk_key LD LP start rest El Es Ew)|apply (BC_walk_fuel LD LP start rest El Es Ew)].
      destruct (augment (b_res s) start hops) as [res'|] eqn:Eg;
        [apply (BC_transfer LD LP start rest hops res' El Es Ew Eg)|apply (BC_augment_key LD LP start rest hops El Es Ew Eg)].
  Qed.
End Body.

(* the loop's answer is the answer of its last iteration, which starts from a state satisfying every invariant of [bstep] *)
Lemma bloop_last q votes tgt dorder (Inv : bstate -> Prop) :
  (forall s, Inv s -> match bstep q votes tgt dorder s with Next s' => Inv s' | _ => True end) ->
  forall fuel s, Inv s ->
    bloop q votes tgt dorder fuel s = BP_out_of_fuel \/
    exists s', Inv s' /\
      (bstep q votes tgt dorder s' = Done /\ bloop q votes tgt dorder fuel s = BP_ok (b_res s') (b_rho s') (b_gamma s') \/
       bstep q votes tgt dorder s' = Stop (bloop q votes tgt dorder fuel s)).
Proof.
  intros Hstep. induction fuel as [|f IH]; intros s I; simpl; [left; reflexivity|].
  specialize (Hstep s I). destruct (bstep q votes tgt dorder s) as [|s1|r] eqn:E.
  - right. exists s. split; [exact I|]. left. split; [exact E|reflexivity].
  - apply (IH s1 Hstep).
  - right. exists s. split; [exact I|]. right. exact E.
Qed.

Section LoopInv.
  Variable d : Z -> Q.
  Variables q k : Q.
  Hypothesis Hq0 : (0 <= q)%Q.
  Hypothesis Hq1 : (q < 1)%Q.
  Hypothesis Hk : (0 < k)%Q.
  Hypothesis Hd : forall s, (d s == k * (inject_Z s + 1 - q))%Q.
  Variable votes : mat.
  Hypothesis Hwf : wf_votes votes.
  Variable pseats : list (C * Z).
  Notation ds := (districts votes).
  Notation ps := (parties votes).

  Definition res_wf (res : mat) : Prop :=
    forall i row, dget res i = Some row -> NoDup (map fst row) /\ incl (map fst row) ps.

  (* the loop invariant: party totals, no seat without votes, positive multipliers, every cell between its signposts
     (the implementation's own units: signpost s = s - q), plus the dictionary shape the row sums rely on *)
  Record BInv (s : bstate) : Prop := {
    bi_wf : res_wf (b_res s);
    bi_cols : forall j, In j ps -> colsum (b_res s) ds j = dget_or pseats j 0;
    bi_nonneg : forall i j, 0 <= mget (b_res s) i j;
    bi_zero : forall i j, mget votes i j = 0 -> mget (b_res s) i j = 0;
    bi_rho : forall i, In i ds -> (0 < mul (b_rho s) i)%Q;
    bi_gamma : forall j, In j ps -> (0 < mul (b_gamma s) j)%Q;
    bi_cells : forall i j, In i ds -> In j ps ->
                 within q (quot (mget votes i j) (mul (b_rho s) i) (mul (b_gamma s) j)) (mget (b_res s) i j)
  }.

  Lemma ds_nodup : NoDup ds.
  Proof. exact (proj1 Hwf). Qed.

  Lemma cur_seats_rowsum res i : res_wf res -> cur_seats res i = rowsum res ps i.
  Proof.
    intros W. unfold cur_seats, rowsum, mget. destruct (dget res i) as [row|] eqn:E.
    - destruct (W i row E) as [H1 H2]. apply row_total_index; [exact H1|exact H2|apply parties_nodup].
    - symmetry. apply (zsum_map_zero ps).
  Qed.

  Lemma res_wf_dset m i row : res_wf m -> NoDup (map fst row) -> incl (map fst row) ps -> res_wf (dset m i row).
  Proof.
    intros W H1 H2 i' row' H'. rewrite dget_dset in H'. destruct (ceqb i' i); [|apply (W i' row' H')].
    injection H' as <-. auto.
  Qed.
  Lemma res_wf_dset_cell m i row j v : res_wf m -> dget m i = Some row -> In j ps -> res_wf (dset m i (dset row j v)).
  Proof.
    intros W E Hj. destruct (W i row E) as [H1 H2]. apply res_wf_dset; [exact W|apply dset_nodup, H1|].
    intros x Hx. apply dset_keys_in in Hx. destruct Hx as [->|Hx]; [exact Hj|apply H2, Hx].
  Qed.

  Lemma cell_incr_wf m i j m' : res_wf m -> In j ps -> cell_incr m i j = Some m' -> res_wf m'.
  Proof.
    unfold cell_incr. intros W Hj. destruct (dget m i) as [row|] eqn:E; [|discriminate]. intros [= <-].
    apply res_wf_dset_cell; assumption.
  Qed.
  Lemma cell_decr_wf m i j m' : res_wf m -> cell_decr m i j = Some m' -> res_wf m'.
  Proof.
    unfold cell_decr. intros W. destruct (dget m i) as [row|] eqn:E; [|discriminate].
    destruct (dget row j) as [s|] eqn:Es; [|discriminate]. intros [= <-].
    destruct (W i row E) as [H1 H2]. destruct (s - 1 =? 0).
    - apply res_wf_dset; [exact W|apply dremove_keys_nodup, H1|]. intros x Hx. apply H2, (dremove_keys _ _ _ Hx).
    - apply res_wf_dset_cell; [exact W|exact E|apply H2, (dget_In_key _ _ _ Es)].
  Qed.
  Lemma augment_wf : forall hops m cur m', res_wf m -> (forall p i', In (p, i') hops -> In p ps) ->
    augment m cur hops = Some m' -> res_wf m'.
  Proof.
    induction hops as [|[p i'] t IH]; intros m cur m' W Hh H; simpl in H.
    - injection H as <-. exact W.
    - destruct (cell_incr m cur p) as [m1|] eqn:E1; [|discriminate].
      destruct (cell_decr m1 i' p) as [m2|] eqn:E2; [|discriminate].
      apply (IH m2 i' m'); [|intros p0 i0 H0; apply (Hh p0 i0); right; exact H0|exact H].
      apply (cell_decr_wf m1 i' p m2); [|exact E2].
      apply (cell_incr_wf m cur p m1 W); [apply (Hh p i'); left; reflexivity|exact E1].
  Qed.

  (* _labeled: every label was put under its test *)
  Section Lab.
    Variable quots : qmat.
    Variable res : mat.
    Variable sp : list C.

    Definition Up (i p : C) : Prop := exists qrow rrow, dget quots i = Some qrow /\ dget res i = Some rrow /\
      is_upgradable q (dget_or qrow p 0%Q) (dget_or rrow p 0) = true.
    Definition Down (i p : C) : Prop := exists qrow rrow, dget quots i = Some qrow /\ dget res i = Some rrow /\
      is_downgradable q (dget_or qrow p 0%Q) (dget_or rrow p 0) = true.
    Definition LDok (LD : LDt) : Prop := forall i p, In (i, Some p) LD -> In p sp /\ Up i p.
    Definition LPok (LP : LPt) : Prop := forall p i, In (p, i) LP -> In p sp /\ Down i p.
    Definition oLP (a : option LPt) : Prop := match a with Some LP => LPok LP | None => True end.
    Definition oLD (a : option LDt) : Prop := match a with Some LD => LDok LD | None => True end.

    Lemma down_scan_ok i acc j : In j sp -> oLP acc -> oLP (down_scan q quots res i acc j).
    Proof.
      intros Hj. destruct acc as [LP|]; simpl; [|tauto]. intros H.
      destruct (dmem LP j); [exact H|].
      destruct (dget quots i) as [qrow|] eqn:Eq; [|exact I]. destruct (dget res i) as [rrow|] eqn:Er; [|exact I].
      destruct (is_downgradable q (dget_or qrow j 0%Q) (dget_or rrow j 0)) eqn:Et; [|exact H].
      intros p i0 Hin. apply in_app_or in Hin. destruct Hin as [Hin|[Hin|[]]]; [apply (H p i0 Hin)|].
      injection Hin as <- <-. split; [exact Hj|]. exists qrow, rrow. auto.
    Qed.

    Lemma up_scan_ok j acc i : In j sp -> oLD acc -> oLD (up_scan q quots res j acc i).
    Proof.
      intros Hj. destruct acc as [LD|]; simpl; [|tauto]. intros H.
      destruct (dmem LD i); [exact H|].
      destruct (dget quots i) as [qrow|] eqn:Eq; [|exact I]. destruct (dget res i) as [rrow|] eqn:Er; [|exact I].
      destruct (is_upgradable q (dget_or qrow j 0%Q) (dget_or rrow j 0)) eqn:Et; [|exact H].
      intros i0 p Hin. apply in_app_or in Hin. destruct Hin as [Hin|[Hin|[]]]; [apply (H i0 p Hin)|].
      injection Hin as <- <-. split; [exact Hj|]. exists qrow, rrow. auto.
    Qed.

    Lemma lab_loop_ok under dl0 : forall fuel LD LP LD' LP', LDok LD -> LPok LP ->
      lab_loop q fuel under sp dl0 quots res LD LP = Lab LD' LP' -> LDok LD' /\ LPok LP'.
    Proof.
      induction fuel as [|f IH]; intros LD LP LD' LP' HD HP H; simpl in H; [discriminate|].
      assert (H1 : oLP (fold_left (fun acc i => fold_left (down_scan q quots res i) sp acc) (map fst LD) (Some LP))).
      { apply (fold_left_inv oLP); [|exact HP]. intros acc i _ Hacc. apply (fold_left_inv oLP); [|exact Hacc].
        intros acc' j Hj. apply down_scan_ok, Hj. }
      destruct (fold_left (fun acc i => fold_left (down_scan q quots res i) sp acc) (map fst LD) (Some LP)) as [LP1|]; [|discriminate].
      simpl in H1.
      assert (Hk1 : forall j, In j (map fst LP1) -> In j sp).
      { intros j Hj. apply in_map_iff in Hj. destruct Hj as ([p i] & <- & Hin). apply (H1 p i Hin). }
      assert (H2 : oLD (fold_left (fun acc j => fold_left (up_scan q quots res j) dl0 acc) (map fst LP1) (Some LD))).
      { apply (fold_left_inv oLD); [|exact HD]. intros acc j Hj Hacc. apply (fold_left_inv oLD); [|exact Hacc].
        intros acc' i _. apply up_scan_ok, Hk1, Hj. }
      destruct (fold_left (fun acc j => fold_left (up_scan q quots res j) dl0 acc) (map fst LP1) (Some LD)) as [LD1|]; [|discriminate].
      simpl in H2.
      destruct (existsb (fun i => cmem i under) (map fst LD1)); [injection H as <- <-; auto|].
      destruct (Nat.eqb (length LD1 + length LP1) (length LD + length LP)); [injection H as <- <-; auto|].
      apply (IH LD1 LP1 LD' LP' H2 H1 H).
    Qed.

    Lemma up_down_excl i p : Up i p -> Down i p -> False.
    Proof.
      intros (qr & rr & E1 & E2 & Hu) (qr' & rr' & E1' & E2' & Hd'). rewrite E1 in E1'. rewrite E2 in E2'.
      injection E1' as <-. injection E2' as <-. apply upgradable_spec in Hu. apply downgradable_spec in Hd'.
      destruct Hd' as [Hd' _]. rewrite Hu in Hd'. lra.
    Qed.
  End Lab.

  (* the labels of a finished search are tied cells *)
  Lemma labeled_ok ps0 ds0 quots res under over LD LP : labeled q ps0 ds0 quots res under over = Lab LD LP ->
    LDok quots res (sort_pos ps0) LD /\ LPok quots res (sort_pos ps0) LP.
  Proof.
    unfold labeled. apply (lab_loop_ok quots res (sort_pos ps0) under ds0).
    - intros i p H. apply in_map_iff in H. destruct H as (x & Hx & _). discriminate.
    - intros p i [].
  Qed.

  Lemma walk_start LD LP over fuel c sD sP h : walk fuel LD LP over c sD sP = WalkDone h ->
    cmem c over = true \/ cmem c sD = false.
  Proof.
    destruct fuel as [|f]; simpl; [discriminate|]. destruct (cmem c over); [auto|].
    destruct (cmem c sD); [discriminate|auto].
  Qed.

  Section Walk.
    Variable quots : qmat.
    Variable res : mat.
    Variable sp : list C.
    Variable LD : LDt.
    Variable LP : LPt.
    Variable over : list C.
    Hypothesis HD : LDok quots res sp LD.
    Hypothesis HP : LPok quots res sp LP.

    (* the net change of every cell along the path is +1 on an upgradable cell, -1 on a downgradable cell, or 0;
       popping a set twice is a KeyError, so no district is visited twice *)
    Lemma walk_delta : forall fuel cur seenD seenP hops,
      (forall x, In x seenD -> cmem x over = false) ->
      walk fuel LD LP over cur seenD seenP = WalkDone hops ->
      (forall p i', In (p, i') hops -> In p sp /\ exists p', Down quots res i' p') /\
      (hops = [] \/ exists p, Up quots res cur p) /\
      forall i j,
        aug_delta cur hops i j = 0 \/
        (aug_delta cur hops i j = 1 /\ Up quots res i j /\ ~ In i seenD) \/
        (aug_delta cur hops i j = -1 /\ Down quots res i j /\ ~ In i seenD /\ i <> cur).
    Proof.
      induction fuel as [|f IH]; intros cur seenD seenP hops Hs H; simpl in H; [discriminate|].
      destruct (cmem cur over) eqn:Eo.
      { injection H as <-. split; [intros p i' []|]. split; [left; reflexivity|]. intros i j. left. reflexivity. }
      destruct (cmem cur seenD) eqn:Es; [discriminate|].
      destruct (dget LD cur) as [[p|]|] eqn:El; try discriminate.
      destruct (cmem p seenP); [discriminate|].
      destruct (dget LP p) as [i'|] eqn:Ep; [|discriminate].
      destruct (walk f LD LP over i' (cur :: seenD) (p :: seenP)) as [hops'| |] eqn:Ew; try discriminate.
      injection H as <-.
      assert (Hs' : forall x, In x (cur :: seenD) -> cmem x over = false).
      { intros x [<-|Hx]; [exact Eo|apply Hs, Hx]. }
      destruct (IH i' (cur :: seenD) (p :: seenP) hops' Hs' Ew) as (A & B & Cc).
      destruct (HD cur p (dget_In _ _ _ El)) as [Hp Hup].
      destruct (HP p i' (dget_In _ _ _ Ep)) as [_ Hdn].
      assert (Hne : cur <> i') by (intros E; subst i'; apply (up_down_excl quots res cur p Hup Hdn)).
      assert (Hnotseen : ~ In cur seenD) by (intros Hi; apply cmem_In in Hi; congruence).
      assert (Hi'seen : ~ In i' seenD).
      { intros Hi. destruct (walk_start _ _ _ _ _ _ _ _ Ew) as [H1|H1].
        - rewrite (Hs i' Hi) in H1. discriminate.
        - assert (cmem i' (cur :: seenD) = true) by (apply cmem_In; right; exact Hi). congruence. }
      split; [|split].
      - intros p0 i0 [H0|H0]; [injection H0 as <- <-; split; [exact Hp|exists p; exact Hdn]|apply (A p0 i0 H0)].
      - right. exists p. exact Hup.
      - intros i j. cbn [aug_delta].
        destruct (ceqb i cur) eqn:E1.
        + apply ceqb_eq in E1. subst i.
          assert (D0 : aug_delta i' hops' cur j = 0).
          { destruct (Cc cur j) as [D|[(_ & _ & N)|(_ & _ & N & _)]]; [exact D|exfalso; apply N; left; reflexivity|exfalso; apply N; left; reflexivity]. }
          assert (ceqb cur i' = false) as -> by (apply ceqb_neq; exact Hne).
          rewrite D0. destruct (ceqb j p) eqn:E2; simpl.
          * apply ceqb_eq in E2. subst j. right. left. split; [lia|]. split; [exact Hup|exact Hnotseen].
          * left. lia.
        + assert (E1' : i <> cur) by (apply ceqb_neq; exact E1). cbn [andb].
          destruct (ceqb i i' && ceqb j p) eqn:E3.
          * apply andb_true_iff in E3. destruct E3 as [E3 E4]. apply ceqb_eq in E3. apply ceqb_eq in E4. subst i j.
            destruct (Cc i' p) as [D|[(_ & U & _)|(_ & _ & _ & N)]].
            -- right. right. split; [lia|]. split; [exact Hdn|]. split; [exact Hi'seen|exact E1'].
            -- exfalso. apply (up_down_excl quots res i' p U Hdn).
            -- exfalso. apply N. reflexivity.
          * destruct (Cc i j) as [D|[(D & U & N)|(D & Dn & N & _)]].
            -- left. lia.
            -- right. left. split; [lia|]. split; [exact U|]. intros Hi. apply N. right. exact Hi.
            -- right. right. split; [lia|]. split; [exact Dn|]. split; [intros Hi; apply N; right; exact Hi|exact E1'].
    Qed.
  End Walk.

  Lemma up_sem rho gamma res i p : Up (calc_quots votes rho gamma) res i p ->
    In i ds /\ (quot (mget votes i p) (mul rho i) (mul gamma p) == inject_Z (mget res i p) + 1 - q)%Q.
  Proof.
    intros (qr & rr & E1 & E2 & H). split; [apply (quots_keys _ _ _ _ _ E1)|].
    apply upgradable_spec in H. rewrite (quots_cell _ _ _ _ _ p E1) in H. unfold mget at 2. rewrite E2. exact H.
  Qed.
  Lemma down_sem rho gamma res i p : Down (calc_quots votes rho gamma) res i p ->
    In i ds /\ (quot (mget votes i p) (mul rho i) (mul gamma p) == inject_Z (mget res i p) - q)%Q /\ 1 <= mget res i p.
  Proof.
    intros (qr & rr & E1 & E2 & H). split; [apply (quots_keys _ _ _ _ _ E1)|].
    apply downgradable_spec in H. rewrite (quots_cell _ _ _ _ _ p E1) in H. unfold mget at 2 3. rewrite E2. exact H.
  Qed.

  Lemma inj0 s : 0 <= s -> (0 <= inject_Z s)%Q.
  Proof. intros H. apply (inj_le 0 s H). Qed.
  Lemma inj1 s : 1 <= s -> (1 <= inject_Z s)%Q.
  Proof. intros H. apply (inj_le 1 s H). Qed.

  Lemma within_compat x y s : (x == y)%Q -> within q x s -> within q y s.
  Proof. intros E (H1 & H2 & H3). unfold within. rewrite <- E. auto. Qed.
  Lemma within_0 r g : within q (quot 0 r g) 0.
  Proof. unfold within, signpost. rewrite quot_0. change (inject_Z 0) with 0%Q. lra. Qed.

  Lemma augment_inv s LD LP over start hops res' :
    BInv s ->
    LDok (calc_quots votes (b_rho s) (b_gamma s)) (b_res s) (sort_pos ps) LD ->
    LPok (calc_quots votes (b_rho s) (b_gamma s)) (b_res s) (sort_pos ps) LP ->
    walk (S (length LD)) LD LP over start [] [] = WalkDone hops ->
    augment (b_res s) start hops = Some res' ->
    BInv (mk_bstate res' (b_rho s) (b_gamma s)).
  Proof.
    intros I HD HP Hw Ha. destruct I as [Iwf Icols Inn Iz Irho Igam Icells].
    set (quots := calc_quots votes (b_rho s) (b_gamma s)) in *.
    destruct (walk_delta quots (b_res s) (sort_pos ps) LD LP over HD HP _ start [] [] hops (fun x (H : In x []) => match H with end) Hw)
      as (A & B & Cc).
    assert (Hhops : forall p i', In (p, i') hops -> In p ps /\ In i' ds).
    { intros p i' H. destruct (A p i' H) as [H1 (p' & H2)]. split; [apply sort_pos_in, H1|].
      apply (proj1 (down_sem _ _ _ _ _ H2)). }
    pose proof (augment_mget _ _ _ _ Ha) as G.
    (* per cell: the new seat count and why it is still a rounding *)
    assert (Cell : forall i j, 0 <= mget res' i j /\ (mget votes i j = 0 -> mget res' i j = 0) /\
              (within q (quot (mget votes i j) (mul (b_rho s) i) (mul (b_gamma s) j)) (mget (b_res s) i j) ->
               within q (quot (mget votes i j) (mul (b_rho s) i) (mul (b_gamma s) j)) (mget res' i j))).
    { intros i j. rewrite (G i j). pose proof (Inn i j) as Hs. pose proof (inj0 _ Hs) as Hs'.
      destruct (Cc i j) as [D|[(D & U & _)|(D & Dn & _)]]; rewrite D.
      - rewrite Z.add_0_r. split; [exact Hs|]. split; [apply Iz|tauto].
      - apply up_sem in U. destruct U as [_ U]. split; [lia|]. split.
        + intros Hv. rewrite Hv, quot_0 in U. lra.
        + intros (W1 & W2 & W3). unfold within, signpost in *. rewrite inject_Z_plus. change (inject_Z 1) with 1%Q. lra.
      - apply down_sem in Dn. destruct Dn as (_ & Dn & D1). pose proof (inj1 _ D1) as D1'. split; [lia|]. split.
        + intros Hv. rewrite Hv, quot_0 in Dn. lra.
        + intros (W1 & W2 & W3). unfold within, signpost in *. rewrite inject_Z_plus. change (inject_Z (-1)) with (-(1))%Q. lra. }
    constructor; cbn [b_res b_rho b_gamma].
    - apply (augment_wf hops (b_res s) start res' Iwf); [intros p i' H; apply (Hhops p i' H)|exact Ha].
    - intros j Hj. destruct B as [->|(p & Hup)].
      + simpl in Ha. injection Ha as <-. apply Icols, Hj.
      + destruct (augment_totals _ _ _ _ ds ps Ha ds_nodup (parties_nodup votes) (proj1 (up_sem _ _ _ _ _ Hup)) Hhops) as [Hc _].
        rewrite Hc. apply Icols, Hj.
    - intros i j. apply (Cell i j).
    - intros i j. apply (Cell i j).
    - exact Irho.
    - exact Igam.
    - intros i j Hi Hj. apply (Cell i j). apply Icells; assumption.
  Qed.

  Lemma adj_nonneg quots res DL PL a : adj_coef q quots res DL PL = Adj a -> (0 <= a)%Q.
  Proof.
    intros Ha. destruct (adj_coef_ge q res DL PL quots a Ha) as (Ez & A & _).
    destruct (scan_facts q res DL PL _ _ Ez) as (_ & A0 & _). cbn [sc_alpha] in A0. lra.
  Qed.

  Lemma mul_scale_rho DL a rho i :
    (mul (scale_rho_r DL a rho) i == if cmem i DL then mul rho i * a else mul rho i)%Q.
  Proof.
    unfold mul, dget_or, scale_rho_r.
    rewrite (dget_map_keyed (fun k0 v => if cmem k0 DL then Qred (v * a) else v) rho i).
    destruct (dget rho i) as [v|]; cbn [option_map]; destruct (cmem i DL); first [reflexivity|apply Qred_correct|ring].
  Qed.
  Lemma mul_scale_gamma PL a gamma j : ~ (a == 0)%Q ->
    (mul (scale_gamma_r PL a gamma) j == if cmem j PL then mul gamma j / a else mul gamma j)%Q.
  Proof.
    intros Ha. unfold mul, dget_or, scale_gamma_r.
    rewrite (dget_map_keyed (fun k0 v => if cmem k0 PL then Qred (v / a) else v) gamma j).
    destruct (dget gamma j) as [v|]; cbn [option_map]; destruct (cmem j PL); first [reflexivity|apply Qred_correct|field; exact Ha].
  Qed.

  Lemma stored_cell rho gamma i j : mget votes i j <> 0 ->
    In (i, j, quot (mget votes i j) (mul rho i) (mul gamma j)) (cells_of (calc_quots votes rho gamma)).
  Proof.
    intros H. destruct (mget_stored votes i j H) as ([i0 r] & [j0 v] & Hr & Hi & Hkv & Hj). cbn [fst snd] in *. subst i0 j0.
    apply in_cells_of_quots. exists r, v. rewrite (mget_In votes i r j v Hwf Hr Hkv). auto.
  Qed.

  Lemma scale_inv s DL PL a : BInv s ->
    adj_coef q (calc_quots votes (b_rho s) (b_gamma s)) (b_res s) DL PL = Adj a ->
    Qeq_bool a 0 || Qle_bool 1 a = false ->
    BInv (mk_bstate (b_res s) (scale_rho_r DL a (b_rho s)) (scale_gamma_r PL a (b_gamma s))).
  Proof.
    intros I Ha Hc. destruct I as [Iwf Icols Inn Iz Irho Igam Icells].
    apply orb_false_iff in Hc. destruct Hc as [Hc0 Hc1].
    assert (Hne : ~ (a == 0)%Q) by (intros E; apply Qeq_bool_iff in E; congruence).
    assert (Hlt1 : (a < 1)%Q).
    { destruct (Qlt_le_dec a 1) as [L|L]; [exact L|]. apply Qle_bool_iff in L. congruence. }
    pose proof (adj_nonneg _ _ _ _ _ Ha) as H0.
    assert (Hpos : (0 < a)%Q) by (destruct (Qlt_le_dec 0 a) as [L|L]; [exact L|exfalso; apply Hne; lra]).
    assert (Hin : forall cell, In cell (cells_of (calc_quots votes (b_rho s) (b_gamma s))) ->
              within q (snd cell) (mget (b_res s) (fst (fst cell)) (snd (fst cell)))).
    { intros cell Hcell. destruct (cells_of_quots _ _ _ _ Hwf Hcell) as (Hi & Hj & E). rewrite E. apply Icells; assumption. }
    pose proof (scale_keeps_cells q (b_res s) DL PL _ a Ha Hpos (Qlt_le_weak _ _ Hlt1) Hin) as K.
    constructor; cbn [b_res b_rho b_gamma]; try assumption.
    - intros i Hi. rewrite mul_scale_rho. pose proof (Irho i Hi) as Hr. destruct (cmem i DL); [|exact Hr].
      apply Qmult_lt_0_compat; assumption.
    - intros j Hj. rewrite (mul_scale_gamma PL a _ j Hne). pose proof (Igam j Hj) as Hg. destruct (cmem j PL); [|exact Hg].
      apply Qlt_shift_div_l; [exact Hpos|]. lra.
    - intros i j Hi Hj. destruct (Z.eq_dec (mget votes i j) 0) as [Ev|Ev].
      + rewrite (Iz i j Ev), Ev. apply within_0.
      + pose proof (K _ (stored_cell (b_rho s) (b_gamma s) i j Ev)) as W. cbn [fst snd scaled] in W.
        eapply within_compat; [|exact W]. unfold quot.
        rewrite mul_scale_rho, (mul_scale_gamma PL a _ j Hne).
        destruct (cmem i DL), (cmem j PL); field; exact Hne || lra.
  Qed.

  Lemma bstep_body_inv s under over : BInv s ->
    match bstep_body q votes s under over with Next s' => BInv s' | _ => True end.
  Proof.
    intros HI.
    destruct (bstep_body_case q votes s under over) as [ | | | | |LD LP start rest hops res' El Es Ew Eg| | |LD LP a El Es Ea Ec];
      try exact I.
    - destruct (labeled_ok _ _ _ _ _ _ _ _ El) as [HD HP]. apply (augment_inv s LD LP over start hops res' HI HD HP Ew Eg).
    - apply scale_inv; assumption.
  Qed.

  Lemma bstep_inv tgt dorder s : BInv s ->
    match bstep q votes tgt dorder s with Next s' => BInv s' | _ => True end.
  Proof.
    intros HI. destruct (bstep_unfold q votes tgt dorder s) as [[_ ->]|[_ ->]]; [exact I|apply bstep_body_inv, HI].
  Qed.

  (* the termination test is the only way out of the loop with a matrix: past it, an iteration goes on or raises *)
  Definition bp_raised (r : bp_result) : Prop :=
    r = BP_key_error \/ r = BP_out_of_fuel \/ r = BP_zero_division \/ exists a, r = BP_refused a.

  Lemma bstep_stop tgt dorder s r : bstep q votes tgt dorder s = Stop r -> bp_raised r.
  Proof.
    destruct (bstep_unfold q votes tgt dorder s) as [[_ ->]|[_ ->]]; [discriminate|]. unfold bp_raised.
    destruct (bstep_body_case q votes s (fst (unsat dorder (b_res s) tgt)) (snd (unsat dorder (b_res s) tgt)))
      as [ | | | | | | |LD LP a _ _ _ _| ]; intros [= <-]; eauto.
  Qed.

  (* the termination test: every district of the iteration order holds its target *)
  Lemma bstep_done tgt dorder s : bstep q votes tgt dorder s = Done ->
    forall i, In i dorder -> cur_seats (b_res s) i = dget_or tgt i 0.
  Proof.
    destruct (bstep_unfold q votes tgt dorder s) as [[E _]|[_ ->]].
    - intros _ i Hi. injection E as Eu Eo.
      pose proof (filter_nil _ _ Eu i Hi) as H1. pose proof (filter_nil _ _ Eo i Hi) as H2. cbv beta in H1, H2.
      apply Z.ltb_ge in H1. apply Z.ltb_ge in H2. lia.
    - destruct (bstep_body_case q votes s (fst (unsat dorder (b_res s) tgt)) (snd (unsat dorder (b_res s) tgt))); discriminate.
  Qed.

  Definition scale_k (rho : list (C * Q)) : list (C * Q) := map (fun kv => (fst kv, (snd kv * k)%Q)) rho.
  Lemma mul_scale_k rho i : (mul (scale_k rho) i == mul rho i * k)%Q.
  Proof.
    unfold mul, dget_or, scale_k. rewrite (dget_map_keyed (fun _ v => (v * k)%Q) rho i).
    destruct (dget rho i); simpl; [reflexivity|ring].
  Qed.

  Theorem binv_done_cert tgt dorder s : incl ds dorder -> BInv s -> bstep q votes tgt dorder s = Done ->
    cert_ok d ds ps votes tgt pseats (b_res s) (scale_k (b_rho s)) (b_gamma s) = true.
  Proof.
    intros Hincl I Hdone. pose proof (bstep_done tgt dorder s Hdone) as Hrows.
    destruct I as [Iwf Icols Inn Iz Irho Igam Icells].
    apply cert_complete. constructor.
    - intros i Hi. rewrite <- (cur_seats_rowsum _ i Iwf). apply Hrows, Hincl, Hi.
    - exact Icols.
    - exact Inn.
    - exact Iz.
    - intros i Hi. rewrite mul_scale_k. apply Qmult_lt_0_compat; [apply Irho, Hi|exact Hk].
    - exact Igam.
    - intros i j Hi Hj. apply (rounds_compat d (quot (mget votes i j) (mul (b_rho s) i) (mul (b_gamma s) j) * k)).
      + unfold quot. rewrite mul_scale_k. ring.
      + apply (within_rounds d q k _ _ Hk Hd); [apply Inn|apply Icells; assumption].
  Qed.

  (* PARTIAL CORRECTNESS of the loop: from any state satisfying the invariant, whatever the fuel, the targets and the
     iteration order of the district set, a returned matrix is certified with the final multipliers *)
  Theorem bloop_partial tgt dorder : incl ds dorder -> forall fuel s res rho gamma, BInv s ->
    bloop q votes tgt dorder fuel s = BP_ok res rho gamma ->
    cert_ok d ds ps votes tgt pseats res (scale_k rho) gamma = true /\ BInv (mk_bstate res rho gamma).
  Proof.
    intros Hincl fuel s res rho gamma I H.
    destruct (bloop_last q votes tgt dorder BInv (bstep_inv tgt dorder) fuel s I) as [E|(s' & I' & [[Ed E]|E])]; rewrite H in E.
    - discriminate.
    - injection E as -> -> ->. split; [apply (binv_done_cert tgt dorder s' Hincl I' Ed)|destruct s'; exact I'].
    - destruct (bstep_stop _ _ _ _ E) as [K|[K|[K|[a K]]]]; discriminate.
  Qed.
End LoopInv.

Lemma bloop_kinds q votes tgt dorder fuel s r : bloop q votes tgt dorder fuel s = r ->
  (exists res rho gamma, r = BP_ok res rho gamma) \/ r = BP_key_error \/ r = BP_out_of_fuel \/ r = BP_zero_division \/
  exists a, r = BP_refused a.
Proof.
  intros <-.
  destruct (bloop_last q votes tgt dorder (fun _ => True)) with (fuel := fuel) (s := s) as [E|(s' & _ & [[_ E]|E])];
    [intros s0 _; destruct (bstep q votes tgt dorder s0); exact I|exact I|rewrite E; auto|rewrite E; eauto|].
  right. apply (bstep_stop q votes tgt dorder s' _ E).
Qed.

(* what the wire unit runs is the model of the theorems *)
Lemma bloop_trace_spec q votes tgt dorder : forall fuel s,
  bloop_trace q votes tgt dorder fuel s = (btrace q votes tgt dorder fuel s, bloop q votes tgt dorder fuel s).
Proof.
  induction fuel as [|f IH]; intros s; simpl; [reflexivity|].
  destruct (bstep q votes tgt dorder s) as [|s'|r]; try reflexivity. rewrite IH. reflexivity.
Qed.
Lemma run_core_spec d q votes tgt dorder strict n fuel :
  snd (run_core d q votes tgt dorder strict n fuel) = evaluate_core d q votes tgt dorder strict n fuel /\
  fst (run_core d q votes tgt dorder strict n fuel) =
    if refuses_empty votes strict then [] else
    match binit d q votes n with inr s => btrace q votes tgt dorder fuel s | inl _ => [] end.
Proof.
  unfold run_core, evaluate_core. destruct (refuses_empty votes strict); [split; reflexivity|].
  destruct (binit d q votes n) as [e|s]; [split; reflexivity|].
  rewrite bloop_trace_spec. split; reflexivity.
Qed.
Lemma run_total_spec d q votes strict dorder n fuel :
  snd (run_total d q votes strict n dorder fuel) = evaluate_total d q votes strict n dorder fuel.
Proof.
  unfold run_total, evaluate_total, evaluate_core. destruct (refuses_empty votes strict); [reflexivity|].
  destruct (binit d q votes n) as [e|s]; [reflexivity|].
  destruct (evaluate d (district_totals votes) n [] []) as [tgt [t|]|]; try reflexivity.
  rewrite bloop_trace_spec. reflexivity.
Qed.
