(* From ONE moved ballot to the pairwise-count relation (C17): through the model of RankedToCondorcetVotes
   (Model/Hybrids.v [pairwise] = RANKED_TO_CONDORCET, the per-ballot image Model/Convert.v [img_condorcet true]; lemmas
   Proofs/Hybrids_proofs.v), moving w up past the items p2 on one ballot changes the pairwise dictionary exactly by
     count(w, c) += x * (number of times c was jumped),   count(c, w) -= the same,   nothing else
   ([pairwise_move_exact]), and the set of candidates of the dictionary stays the same ([pairwise_move_cands]).
   The ORDER of first appearance of the candidates in the dictionary can change (the pairs of the moved ballot are inserted
   in a different order), so the relation [raises] of Proofs/CopelandMono_proofs.v, which asks for equal candidate LISTS, is
   weakened to [raises_s] (equal candidate SETS); Copeland / minimax monotonicity hold for it as well
   ([copeland_monotone_s], [minimax_monotone_s]: their proofs only use membership and the length). *)
From Coq Require Import ZArith QArith List Bool Lia Arith Permutation.
From VL Require Import Prelude.Sx Prelude.PyDict Prelude.GDict Model.GetNBest Model.Convert Model.STV Model.Condorcet Model.Hybrids
     Proofs.Dict_proofs Proofs.GetNBest_proofs Proofs.Condorcet_proofs Proofs.CopelandMono_proofs Proofs.Minimax_proofs
     Proofs.Hybrids_proofs.
Import ListNotations.
Open Scope Z_scope.

Definition raises_s (v v' : pvotes) (w : C) : Prop :=
  (forall c, In c (candidates v') <-> In c (candidates v)) /\
  (forall x, pget0 v (w, x) <= pget0 v' (w, x) /\ pget0 v' (x, w) <= pget0 v (x, w)) /\
  (forall a b, a <> w -> b <> w -> pget0 v' (a, b) = pget0 v (a, b)).

Lemma raises_raises_s v v' w : raises v v' w -> raises_s v v' w.
Proof. intros (H1 & H2 & H3). split; [intros c; rewrite H1; reflexivity|]. split; assumption. Qed.

Theorem copeland_monotone_s (v v' : pvotes) (w : C) :
  NoDup (map fst v) -> NoDup (map fst v') -> (forall p n, In (p, n) v -> 0 <= n) -> (forall p n, In (p, n) v' -> 0 <= n) ->
  raises_s v v' w -> forall so, copeland false v 1 = [Cand w] -> copeland so v' 1 = [Cand w].
Proof.
  intros Hnd Hnd' Hnn Hnn' (Hc & Hup & Hoth) so H. rewrite copeland_raw_is_first_order in H.
  apply copeland_unfold, (copeland_raised v v' w); assumption.
Qed.

Theorem minimax_monotone_s (v v' : pvotes) (w : C) :
  (forall p n, In (p, n) v -> 0 <= n) -> (forall p n, In (p, n) v' -> 0 <= n) -> (2 <= length (candidates v))%nat ->
  raises_s v v' w -> forall s, minimax s v 1 = [Cand w] -> minimax s v' 1 = [Cand w].
Proof. intros Hnn Hnn' H2 (Hc & Hup & Hoth). apply minimax_raised; assumption. Qed.

Lemma above_app r1 : forall r2 a b,
  above (r1 ++ r2) a b = above r1 a b + cnt a (flatten r1) * cnt b (flatten r2) + above r2 a b.
Proof.
  induction r1 as [|i r1 IH]; intros r2 a b; [cbn; lia|].
  cbn [app above]. rewrite IH, flatten_cons, flatten_app, !cnt_app. ring.
Qed.

Lemma cnt_single a w : cnt a [w] = if ceqb a w then 1 else 0.
Proof. cbn. destruct (ceqb a w); reflexivity. Qed.

Lemma cnt_other a w : a <> w -> cnt a [w] = 0.
Proof. intros H. apply cnt_notin. intros [E|[]]. congruence. Qed.

(* what the move adds to the coefficient of the pair (a, c) *)
Definition jump (p2 : ranked) (w a c : C) : Z := cnt a [w] * cnt c (flatten p2) - cnt a (flatten p2) * cnt c [w].

Lemma above_move p1 p2 p3 w a c :
  above (p1 ++ IP w :: p2 ++ p3) a c = above (p1 ++ p2 ++ IP w :: p3) a c + jump p2 w a c.
Proof.
  unfold jump. rewrite !above_app. cbn [above members]. rewrite !above_app.
  rewrite !flatten_app, !flatten_cons, !flatten_app, !cnt_app. cbn [members]. ring.
Qed.

Lemma flatten_move_perm p1 p2 p3 w : Permutation (flatten (p1 ++ p2 ++ IP w :: p3)) (flatten (p1 ++ IP w :: p2 ++ p3)).
Proof.
  rewrite !flatten_app, !flatten_cons, !flatten_app. cbn [members app]. apply Permutation_app_head.
  apply Permutation_sym, Permutation_middle.
Qed.

Lemma cnt_move p1 p2 p3 w a : cnt a (flatten (p1 ++ IP w :: p2 ++ p3)) = cnt a (flatten (p1 ++ p2 ++ IP w :: p3)).
Proof. rewrite !flatten_app, !flatten_cons, !flatten_app, !cnt_app. cbn [members]. ring. Qed.

Lemma cmem_cnt c X : cmem c X = (0 <? cnt c X).
Proof.
  destruct (cmem c X) eqn:E.
  - apply cmem_In, cnt_pos in E. symmetry. apply Z.ltb_lt. exact E.
  - symmetry. apply Z.ltb_ge. apply cmem_false in E. rewrite (cnt_notin c X E). lia.
Qed.

Lemma cnt_set_diff c cs X : cnt c (set_diff cs X) = if cmem c X then 0 else cnt c cs.
Proof. unfold set_diff. rewrite cnt_filter. destruct (cmem c X); reflexivity. Qed.

Lemma coef_move cs p1 p2 p3 w a c :
  Hybrids_proofs.coef cs (p1 ++ IP w :: p2 ++ p3) a c = Hybrids_proofs.coef cs (p1 ++ p2 ++ IP w :: p3) a c + jump p2 w a c.
Proof.
  unfold Hybrids_proofs.coef. rewrite above_move, !cnt_set_diff, !cmem_cnt, !cnt_move. ring.
Qed.

Lemma coef_nonneg cs r a b : 0 <= Hybrids_proofs.coef cs r a b.
Proof.
  unfold Hybrids_proofs.coef. pose proof (above_nonneg r a b). pose proof (cnt_nonneg a (flatten r)).
  pose proof (cnt_nonneg b (set_diff cs (flatten r))). nia.
Qed.

(* the coefficient depends on the candidate list only through membership *)
Lemma coef_cs_ext cs cs' r a b : NoDup cs -> NoDup cs' -> (forall x, In x cs <-> In x cs') ->
  Hybrids_proofs.coef cs r a b = Hybrids_proofs.coef cs' r a b.
Proof.
  intros Hn Hn' He. unfold Hybrids_proofs.coef. rewrite !cnt_set_diff, (cnt_nodup b cs Hn), (cnt_nodup b cs' Hn').
  assert (E : cmem b cs = cmem b cs').
  { destruct (cmem b cs) eqn:E1, (cmem b cs') eqn:E2; try reflexivity.
    - apply cmem_In, He, cmem_In in E1. congruence.
    - apply cmem_In, He, cmem_In in E2. congruence. }
  rewrite E. reflexivity.
Qed.

Lemma jump_anti p2 w a c : jump p2 w c a = - jump p2 w a c.
Proof. unfold jump. ring. Qed.

Lemma jump_w_out p2 w c : ~ In w (flatten p2) -> jump p2 w w c = cnt c (flatten p2).
Proof. intros H. unfold jump. rewrite cnt_single, ceqb_refl, (cnt_notin w _ H). ring. Qed.

Lemma jump_others p2 w a c : a <> w -> c <> w -> jump p2 w a c = 0.
Proof.
  intros Ha Hc. unfold jump. rewrite (cnt_other a w Ha), (cnt_other c w Hc). ring.
Qed.

Lemma wsum_app f (l1 l2 : rvotes) : Hybrids_proofs.wsum f (l1 ++ l2) = Hybrids_proofs.wsum f l1 + Hybrids_proofs.wsum f l2.
Proof. induction l1 as [|[r w] l1 IH]; [reflexivity|]. cbn [app]. rewrite !wsum_cons, IH. ring. Qed.

Lemma in_insert_skip {X} (pre post : list X) (e z : X) : In z (pre ++ post) -> In z (pre ++ e :: post).
Proof. intros H. apply in_app_iff in H. apply in_app_iff. destruct H as [H|H]; [left|right; right]; exact H. Qed.

Lemma in_insert {X} (pre post : list X) (e e' z : X) : In z (pre ++ e :: post) -> z = e \/ In z (pre ++ e' :: post).
Proof. intros H. apply in_elt_inv in H. destruct H as [H|H]; [left; exact H|right; apply in_insert_skip, H]. Qed.

Lemma cands_of_insert pre post (b : ranked) (x : Z) c :
  In c (cands_of (pre ++ (b, x) :: post)) <-> In c (cands_of (pre ++ post)) \/ In c (flatten b).
Proof.
  rewrite !cands_of_spec. split.
  - intros (r & y & Hin & Hc). apply in_elt_inv in Hin. destruct Hin as [E|Hin].
    + injection E as -> ->. right. exact Hc.
    + left. exists r, y. split; assumption.
  - intros [(r & y & Hin & Hc)|Hc].
    + exists r, y. split; [apply in_insert_skip, Hin|exact Hc].
    + exists b, x. split; [apply in_elt|exact Hc].
Qed.

Lemma wf_insert pre post (b : ranked) (x : Z) :
  wf_votes (pre ++ (b, x) :: post) = true <-> wf_votes (pre ++ post) = true /\ NoDup (flatten b) /\ 0 <= x.
Proof.
  rewrite !wf_votes_spec. split.
  - intros H. split; [|apply (H b x), in_elt]. intros r y Hin. apply (H r y), in_insert_skip, Hin.
  - intros (H & Hb) r y Hin. apply in_elt_inv in Hin. destruct Hin as [E|Hin]; [injection E as -> ->; exact Hb|apply (H r y Hin)].
Qed.

(* a ballot is replaced by one that ranks the same candidates *)
Section PERM.
  Variables pre post : rvotes.
  Variables b b' : ranked.
  Variable x : Z.
  Hypothesis Hp : Permutation (flatten b) (flatten b').

  Lemma cands_of_perm c : In c (cands_of (pre ++ (b', x) :: post)) <-> In c (cands_of (pre ++ (b, x) :: post)).
  Proof.
    rewrite !cands_of_insert. split; (intros [H|H]; [left; exact H|right]).
    - apply (Permutation_in _ (Permutation_sym Hp)), H.
    - apply (Permutation_in _ Hp), H.
  Qed.

  Lemma wf_perm : wf_votes (pre ++ (b, x) :: post) = true -> wf_votes (pre ++ (b', x) :: post) = true.
  Proof.
    rewrite !wf_insert. intros (H & Hn & Hx). split; [exact H|]. split; [|exact Hx]. exact (Permutation_NoDup Hp Hn).
  Qed.
End PERM.

(* a candidate occurs in some pair of a ballot *)
Definition in_pairs (cs : list C) (r : ranked) (c : C) : Prop :=
  exists u l, 0 < Hybrids_proofs.coef cs r u l /\ (c = u \/ c = l).

Lemma in_pairs_mono cs r r' :
  (forall a c, 0 < Hybrids_proofs.coef cs r a c -> 0 < Hybrids_proofs.coef cs r' a c \/ 0 < Hybrids_proofs.coef cs r' c a) ->
  forall c, in_pairs cs r c -> in_pairs cs r' c.
Proof.
  intros H c (u & l & Hpos & Hc). destruct (H u l Hpos); [exists u, l|exists l, u]; (split; [assumption|tauto]).
Qed.

Lemma candidates_pairwise votes c :
  In c (candidates (pairwise votes)) <-> exists r y, In (r, y) votes /\ in_pairs (cands_of votes) r c.
Proof.
  rewrite candidates_spec. split.
  - intros ([u l] & n & Hin & Hc). cbn [fst snd] in Hc.
    assert (Hk : In (u, l) (map fst (pairwise votes))) by (apply in_map_iff; exists ((u, l), n); auto).
    apply pairwise_keys in Hk. destruct Hk as (r & y & Hr & Hp). exists r, y. split; [exact Hr|].
    exists u, l. split; [|exact Hc]. rewrite <- pcount_ballot. apply pcount_pos, Hp.
  - intros (r & y & Hr & (u & l & Hpos & Hc)). rewrite <- pcount_ballot in Hpos. apply pcount_pos in Hpos.
    assert (Hk : In (u, l) (map fst (pairwise votes))) by (apply pairwise_keys; exists r, y; auto).
    apply in_map_iff in Hk. destruct Hk as ([q n] & E & Hk). cbn [fst] in E. subst q.
    exists (u, l), n. split; [exact Hk|exact Hc].
Qed.

(* two profiles that name the same candidates: the dictionary of the second one can be computed with the
   candidate list of the first *)
Section SAME.
  Variables V V' : rvotes.
  Hypothesis Hcs : forall c, In c (cands_of V') <-> In c (cands_of V).

  Lemma same_coef r a c : Hybrids_proofs.coef (cands_of V') r a c = Hybrids_proofs.coef (cands_of V) r a c.
  Proof. apply coef_cs_ext; [apply cands_of_nodup|apply cands_of_nodup|exact Hcs]. Qed.

  Lemma pairwise_same_cands a c :
    pget0 (pairwise V') (a, c) = Hybrids_proofs.wsum (fun r => Hybrids_proofs.coef (cands_of V) r a c) V'.
  Proof. rewrite pairwise_get. apply wsum_ext. intros. apply same_coef. Qed.

  Lemma candidates_same_incl :
    (forall r y c, In (r, y) V -> in_pairs (cands_of V) r c -> exists r' y', In (r', y') V' /\ in_pairs (cands_of V) r' c) ->
    forall c, In c (candidates (pairwise V)) -> In c (candidates (pairwise V')).
  Proof.
    intros H c. rewrite !candidates_pairwise. intros (r & y & Hin & Hp).
    destruct (H r y c Hin Hp) as (r' & y' & Hin' & u & l & Hpos & Hc). exists r', y'. split; [exact Hin'|].
    exists u, l. split; [rewrite same_coef; exact Hpos|exact Hc].
  Qed.

  (* a candidate of V' that the dictionary of V' mentions is a candidate of V, and those are all in the dictionary of V *)
  Lemma pairwise_cands_same : wf_votes V = true -> pairwise V <> [] ->
    (forall c, In c (candidates (pairwise V)) -> In c (candidates (pairwise V'))) ->
    forall c, In c (candidates (pairwise V')) <-> In c (candidates (pairwise V)).
  Proof.
    intros Hwf Hne Hincl c. split; [|apply Hincl]. intros H.
    apply cands_in_pairwise; [exact Hwf|exact Hne|apply Hcs, candidates_pairwise_in, H].
  Qed.
End SAME.

Lemma replace_cands_incl pre post (b b' : ranked) (x : Z) :
  (forall c, In c (cands_of (pre ++ (b', x) :: post)) <-> In c (cands_of (pre ++ (b, x) :: post))) ->
  (forall c, in_pairs (cands_of (pre ++ (b, x) :: post)) b c -> in_pairs (cands_of (pre ++ (b, x) :: post)) b' c) ->
  forall c, In c (candidates (pairwise (pre ++ (b, x) :: post))) -> In c (candidates (pairwise (pre ++ (b', x) :: post))).
Proof.
  intros Hcs Hb. apply (candidates_same_incl _ _ Hcs). intros r y c Hin Hp.
  destruct (in_insert pre post (b, x) (b', x) (r, y) Hin) as [E|Hin'].
  - injection E as -> ->. exists b', x. split; [apply in_elt|apply Hb, Hp].
  - exists r, y. split; [exact Hin'|exact Hp].
Qed.

Section MOVE.
  Variables pre post : rvotes.
  Variables p1 p2 p3 : ranked.
  Variable x : Z.
  Variable w : C.
  Notation b := (p1 ++ p2 ++ IP w :: p3).
  Notation b' := (p1 ++ IP w :: p2 ++ p3).
  Notation L1 := (pre ++ (b, x) :: post).
  Notation L2 := (pre ++ (b', x) :: post).

  Lemma move_cands_of c : In c (cands_of L2) <-> In c (cands_of L1).
  Proof. apply cands_of_perm, flatten_move_perm. Qed.

  (* the pairwise dictionary of the new profile, entry by entry *)
  Theorem pairwise_move_exact a c : pget0 (pairwise L2) (a, c) = pget0 (pairwise L1) (a, c) + x * jump p2 w a c.
  Proof. rewrite (pairwise_same_cands L1 L2 move_cands_of), pairwise_get, !wsum_app, !wsum_cons, coef_move. ring. Qed.

  (* a pair the move takes away comes back with its members exchanged *)
  Lemma in_pairs_move cs c : in_pairs cs b' c <-> in_pairs cs b c.
  Proof.
    split; apply in_pairs_mono; intros a u H.
    - pose proof (coef_nonneg cs b' u a) as Hn. rewrite coef_move in H, Hn. rewrite jump_anti in Hn. lia.
    - rewrite !coef_move, (jump_anti p2 w a u). pose proof (coef_nonneg cs b u a). lia.
  Qed.

  Theorem pairwise_move_cands c : In c (candidates (pairwise L2)) <-> In c (candidates (pairwise L1)).
  Proof.
    split; apply replace_cands_incl.
    - intros z. symmetry. apply move_cands_of.
    - intros z. apply in_pairs_move.
    - exact move_cands_of.
    - intros z. apply in_pairs_move.
  Qed.

  Hypothesis Hx : 0 <= x.
  Hypothesis Hw : ~ In w (flatten p2).

  Theorem pairwise_move_raises : raises_s (pairwise L1) (pairwise L2) w.
  Proof.
    split; [exact pairwise_move_cands|]. split.
    - intros c. rewrite !pairwise_move_exact. rewrite (jump_anti p2 w w c), (jump_w_out p2 w c Hw).
      pose proof (cnt_nonneg c (flatten p2)). nia.
    - intros a c Ha Hc. rewrite pairwise_move_exact, (jump_others p2 w a c Ha Hc). ring.
  Qed.
End MOVE.

Lemma weights_nonneg_pairwise votes : (forall r y, In (r, y) votes -> 0 <= y) -> forall q m, In (q, m) (pairwise votes) -> 0 <= m.
Proof. intros H. rewrite pairwise_unfold. apply pw_from_nonneg; [exact H|intros q m []]. Qed.

Lemma copeland_nonempty so (v : pvotes) w : copeland so v 1 = [Cand w] -> v <> [].
Proof. intros H E. rewrite E in H. destruct so; vm_compute in H; discriminate H. Qed.

Lemma minimax_nonempty s (v : pvotes) w : minimax s v 1 = [Cand w] -> v <> [].
Proof. intros H E. rewrite E in H. destruct s; vm_compute in H; discriminate H. Qed.

Lemma copeland_profile_monotone (V V' : rvotes) w so : wf_votes V = true -> wf_votes V' = true ->
  raises_s (pairwise V) (pairwise V') w -> copeland false (pairwise V) 1 = [Cand w] -> copeland so (pairwise V') 1 = [Cand w].
Proof.
  intros Hwf Hwf' Hr.
  exact (copeland_monotone_s _ _ w (pairwise_nodup V) (pairwise_nodup V') (pairwise_nonneg V Hwf) (pairwise_nonneg V' Hwf') Hr so).
Qed.

Lemma minimax_profile_monotone (V V' : rvotes) w s : wf_votes V = true -> wf_votes V' = true ->
  raises_s (pairwise V) (pairwise V') w -> minimax s (pairwise V) 1 = [Cand w] -> minimax s (pairwise V') 1 = [Cand w].
Proof.
  intros Hwf Hwf' Hr Hwin. pose proof (pairwise_two V Hwf (minimax_nonempty s _ w Hwin)) as H2.
  exact (minimax_monotone_s _ _ w (pairwise_nonneg V Hwf) (pairwise_nonneg V' Hwf') H2 Hr s Hwin).
Qed.

Theorem copeland_ballot_monotone pre post p1 p2 p3 x w so :
  (forall r y, In (r, y) (pre ++ post) -> 0 <= y) -> 0 <= x -> ~ In w (flatten p2) ->
  copeland false (pairwise (pre ++ (p1 ++ p2 ++ IP w :: p3, x) :: post)) 1 = [Cand w] ->
  copeland so (pairwise (pre ++ (p1 ++ IP w :: p2 ++ p3, x) :: post)) 1 = [Cand w].
Proof.
  intros Hnn Hx Hw.
  assert (Hall : forall bb r y, In (r, y) (pre ++ (bb, x) :: post) -> 0 <= y).
  { intros bb r y Hin. apply in_elt_inv in Hin. destruct Hin as [E|Hin]; [injection E as _ ->; exact Hx|exact (Hnn r y Hin)]. }
  apply copeland_monotone_s; [apply pairwise_nodup|apply pairwise_nodup| | |apply pairwise_move_raises; assumption].
  all: apply weights_nonneg_pairwise, Hall.
Qed.

Theorem minimax_ballot_monotone pre post p1 p2 p3 x w s :
  wf_votes (pre ++ (p1 ++ p2 ++ IP w :: p3, x) :: post) = true -> ~ In w (flatten p2) ->
  minimax s (pairwise (pre ++ (p1 ++ p2 ++ IP w :: p3, x) :: post)) 1 = [Cand w] ->
  minimax s (pairwise (pre ++ (p1 ++ IP w :: p2 ++ p3, x) :: post)) 1 = [Cand w].
Proof.
  intros Hwf Hw. apply (minimax_profile_monotone _ _ w s Hwf (wf_perm _ _ _ _ x (flatten_move_perm p1 p2 p3 w) Hwf)).
  apply pairwise_move_raises; [apply wf_insert in Hwf; tauto|exact Hw].
Qed.

(* w LEAVES a shared rank for a place of its own above the rest of it *)
Section LEAVE.
  Variables pre post : rvotes.
  Variables q p3 : ranked.
  Variables la lb : list C.
  Variable x : Z.
  Variable w : C.
  Notation b := (q ++ IS (la ++ w :: lb) :: p3).
  Notation b' := (q ++ IP w :: IS (la ++ lb) :: p3).
  Notation L1 := (pre ++ (b, x) :: post).
  Notation L2 := (pre ++ (b', x) :: post).

  Lemma flatten_leave_perm : Permutation (flatten b) (flatten b').
  Proof.
    rewrite !flatten_app, !flatten_cons. cbn [members]. apply Permutation_app_head.
    rewrite <- !app_assoc. cbn [app]. apply Permutation_sym. apply (Permutation_middle la (lb ++ flatten p3) w).
  Qed.

  Lemma cnt_leave a : cnt a (flatten b') = cnt a (flatten b).
  Proof. rewrite !flatten_app, !flatten_cons, !cnt_app. cbn [members]. rewrite !cnt_app, !cnt_cons. cbn [cnt fold_right]. ring. Qed.

  Lemma above_leave a c : above b' a c = above b a c + cnt a [w] * cnt c (la ++ lb).
  Proof.
    rewrite !above_app. cbn [above members]. rewrite !flatten_cons. cbn [members]. rewrite !cnt_app, !cnt_cons. cbn [cnt fold_right]. ring.
  Qed.

  Lemma coef_leave cs a c : Hybrids_proofs.coef cs b' a c = Hybrids_proofs.coef cs b a c + cnt a [w] * cnt c (la ++ lb).
  Proof. unfold Hybrids_proofs.coef. rewrite above_leave, !cnt_set_diff, !cmem_cnt, !cnt_leave. ring. Qed.

  Lemma leave_cands_of c : In c (cands_of L2) <-> In c (cands_of L1).
  Proof. apply cands_of_perm, flatten_leave_perm. Qed.

  (* count(w, c) rises by x for every member c of the rest of the shared rank; nothing else changes *)
  Theorem pairwise_leave_exact a c :
    pget0 (pairwise L2) (a, c) = pget0 (pairwise L1) (a, c) + x * (cnt a [w] * cnt c (la ++ lb)).
  Proof. rewrite (pairwise_same_cands L1 L2 leave_cands_of), pairwise_get, !wsum_app, !wsum_cons, coef_leave. ring. Qed.

  Lemma leave_cands_incl c : In c (candidates (pairwise L1)) -> In c (candidates (pairwise L2)).
  Proof.
    apply (replace_cands_incl pre post b b' x leave_cands_of). intros z. apply in_pairs_mono. intros a u H. left.
    rewrite coef_leave. pose proof (cnt_nonneg a [w]). pose proof (cnt_nonneg u (la ++ lb)). nia.
  Qed.

  Hypothesis Hwf : wf_votes L1 = true.
  Hypothesis Hne : pairwise L1 <> [].

  Lemma leave_nw : ~ In w (la ++ lb).
  Proof.
    destruct (proj1 (wf_votes_spec L1) Hwf b x) as [Hn _]; [apply in_elt|].
    rewrite flatten_app, flatten_cons in Hn. cbn [members] in Hn. apply nodup_app_r in Hn.
    apply nodup_app_l in Hn. apply NoDup_remove_2 in Hn. exact Hn.
  Qed.

  Lemma wf_leave : wf_votes L2 = true.
  Proof. exact (wf_perm pre post b b' x flatten_leave_perm Hwf). Qed.

  Lemma leave_ne : pairwise L2 <> [].
  Proof.
    destruct (pairwise L1) as [|[[u l] n] t] eqn:E; [congruence|].
    assert (Hu : In u (candidates (pairwise L1))).
    { apply candidates_spec. exists (u, l), n. rewrite E. split; [left; reflexivity|left; reflexivity]. }
    apply leave_cands_incl in Hu. intros E2. rewrite E2 in Hu. exact Hu.
  Qed.

  Theorem pairwise_leave_cands c : In c (candidates (pairwise L2)) <-> In c (candidates (pairwise L1)).
  Proof. exact (pairwise_cands_same L1 L2 leave_cands_of Hwf Hne leave_cands_incl c). Qed.

  Theorem pairwise_leave_raises : raises_s (pairwise L1) (pairwise L2) w.
  Proof.
    assert (Hx : 0 <= x) by (apply wf_insert in Hwf; tauto).
    split; [exact pairwise_leave_cands|]. split.
    - intros c. rewrite !pairwise_leave_exact. rewrite (cnt_notin w _ leave_nw).
      pose proof (cnt_nonneg c (la ++ lb)). pose proof (cnt_nonneg w [w]). split; nia.
    - intros a c Ha Hc. rewrite pairwise_leave_exact, (cnt_other a w Ha). ring.
  Qed.
End LEAVE.

Theorem copeland_ballot_leave pre post q p3 la lb x w so :
  wf_votes (pre ++ (q ++ IS (la ++ w :: lb) :: p3, x) :: post) = true ->
  copeland false (pairwise (pre ++ (q ++ IS (la ++ w :: lb) :: p3, x) :: post)) 1 = [Cand w] ->
  copeland so (pairwise (pre ++ (q ++ IP w :: IS (la ++ lb) :: p3, x) :: post)) 1 = [Cand w].
Proof.
  intros Hwf Hwin. apply (copeland_profile_monotone _ _ w so Hwf (wf_leave pre post q p3 la lb x w Hwf)); [|exact Hwin].
  apply (pairwise_leave_raises pre post q p3 la lb x w Hwf (copeland_nonempty _ _ w Hwin)).
Qed.

Theorem minimax_ballot_leave pre post q p3 la lb x w s :
  wf_votes (pre ++ (q ++ IS (la ++ w :: lb) :: p3, x) :: post) = true ->
  minimax s (pairwise (pre ++ (q ++ IS (la ++ w :: lb) :: p3, x) :: post)) 1 = [Cand w] ->
  minimax s (pairwise (pre ++ (q ++ IP w :: IS (la ++ lb) :: p3, x) :: post)) 1 = [Cand w].
Proof.
  intros Hwf Hwin. apply (minimax_profile_monotone _ _ w s Hwf (wf_leave pre post q p3 la lb x w Hwf)); [|exact Hwin].
  apply (pairwise_leave_raises pre post q p3 la lb x w Hwf (minimax_nonempty _ _ w Hwin)).
Qed.
