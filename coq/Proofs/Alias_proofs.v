(* Lemmas for Props/C18.v, part 2: frame properties of the copy-before-modify sites (Model/Alias.v):
   after copying as many levels as are later modified, no store location is written. *)
From Coq Require Import ZArith List Bool Arith Lia.
From VL Require Import Prelude.Sx Prelude.PyDict Model.Alias.
Import ListNotations.
Open Scope nat_scope.

(* [own_to d t]: the first d levels of dictionaries of t are callee-owned objects *)
Fixpoint own_to (d : nat) (t : wt) : Prop :=
  match d with
  | O => True
  | S d' => match t with
            | WInt _ => True
            | WOwn kids => Forall (fun kv => own_to d' (snd kv)) kids
            | WAlias _ => False
            end
  end.

Lemma own_to_int : forall d z, own_to d (WInt z).
Proof. destruct d; simpl; exact (fun _ => I). Qed.
Lemma own_to_empty : forall d, own_to d (WOwn []).
Proof. destruct d; simpl; [exact I|constructor]. Qed.

Lemma dget_In : forall {X} (d : list (C * X)) k v, dget d k = Some v -> exists k', In (k', v) d.
Proof.
  induction d as [|[k' v'] d IH]; intros k v H; simpl in H; [discriminate|].
  destruct (ceqb k k').
  - inversion H; subst. exists k'. left. reflexivity.
  - destruct (IH _ _ H) as [k2 Hin]. exists k2. right. exact Hin.
Qed.

Lemma Forall_dset : forall {X} (P : X -> Prop) (d : list (C * X)) k v,
  Forall (fun kv => P (snd kv)) d -> P v -> Forall (fun kv => P (snd kv)) (dset d k v).
Proof.
  induction d as [|[k' v'] d IH]; intros k v Hd Hv; simpl.
  - constructor; [exact Hv|constructor].
  - inversion Hd as [|? ? Hh Ht]; subst. destruct (ceqb k k').
    + constructor; [exact Hv|exact Ht].
    + constructor; [exact Hh|apply IH; assumption].
Qed.

Lemma Forall_ddel : forall {X} (P : C * X -> Prop) (d : list (C * X)) k, Forall P d -> Forall P (ddel d k).
Proof.
  intros X P d k H. unfold ddel. apply Forall_forall. intros x Hx. apply filter_In in Hx.
  destruct Hx as [Hx _]. rewrite Forall_forall in H. apply H. exact Hx.
Qed.

Lemma own_child : forall d kids k ch, Forall (fun kv => own_to d (snd kv)) kids -> dget kids k = Some ch -> own_to d ch.
Proof.
  intros d kids k ch HF Hg. destruct (dget_In _ _ _ Hg) as [k' Hin].
  rewrite Forall_forall in HF. exact (HF _ Hin).
Qed.

Lemma foldo_inv : forall {X S} (f : S -> X -> outcome S) (P : S -> Prop),
  (forall s x s', P s -> f s x = Ok s' -> P s') ->
  forall l s s', P s -> foldo f l s = Ok s' -> P s'.
Proof.
  intros X S f P Hf. induction l as [|x l IH]; intros s s' Hs H; simpl in H.
  - inversion H; subst. exact Hs.
  - destruct (f s x) as [s1|c] eqn:E; [|discriminate]. apply (IH s1); [|exact H]. eapply Hf; eassumption.
Qed.

Lemma map_out_Forall : forall {X Y} (f : X -> outcome Y) (P : Y -> Prop) (l : list X) (r : list Y),
  (forall x y, f x = Ok y -> P y) -> map_out f l = Ok r -> Forall P r.
Proof.
  intros X Y f P. induction l as [|x l IH]; intros r Hf H; simpl in H.
  - inversion H. constructor.
  - destruct (f x) as [y|c] eqn:E; [|discriminate].
    destruct (map_out f l) as [ys|c] eqn:E2; [|discriminate].
    inversion H; subst. constructor; [eapply Hf; exact E|apply IH; [exact Hf|reflexivity]].
Qed.

Lemma copy_nested_own : forall levels st v t, copy_nested levels st v = Ok t -> own_to levels t.
Proof.
  induction levels as [|d IH]; intros st v t H; simpl in *; [exact I|].
  destruct v as [z|l]; [discriminate|].
  destruct (sget st l) as [dct|]; [|discriminate].
  destruct (map_out _ dct) as [kids|c] eqn:E; [|discriminate].
  inversion H; subst. simpl.
  eapply map_out_Forall; [|exact E].
  intros [k sv] [k' t'] Hx. simpl in Hx.
  destruct (copy_nested d st sv) as [t2|c] eqn:E2; [|discriminate].
  inversion Hx; subst. simpl. eapply IH. exact E2.
Qed.

Lemma apply_op_own : forall d st t o st' t',
  own_to (S d) t -> apply_op st t o = Ok (st', t') -> st' = st /\ own_to (S d) t'.
Proof.
  intros d st t o st' t' Hown H. destruct t as [z|kids|l]; simpl in *; [discriminate| |contradiction].
  destruct o as [k z|k z|k|k].
  - inversion H; subst. split; [reflexivity|]. simpl. apply Forall_dset; [exact Hown|apply own_to_int].
  - destruct (dget kids k) as [[a|kk|ll]|] eqn:E; try discriminate;
      inversion H; subst; (split; [reflexivity|]); simpl; (apply Forall_dset; [exact Hown|apply own_to_int]).
  - destruct (dmem kids k); [|discriminate]. inversion H; subst. split; [reflexivity|].
    simpl. apply Forall_ddel. exact Hown.
  - destruct (dmem kids k); inversion H; subst; (split; [reflexivity|]); simpl; [exact Hown|].
    apply Forall_dset; [exact Hown|apply own_to_empty].
Qed.

Lemma exec_at_own : forall path D st t o st' t',
  length path < D -> own_to D t -> exec_at path st t o = Ok (st', t') -> st' = st /\ own_to D t'.
Proof.
  induction path as [|k p IH]; intros D st t o st' t' Hlen Hown H.
  - destruct D as [|D]; [simpl in Hlen; lia|]. simpl in H. eapply apply_op_own; eassumption.
  - destruct D as [|D]; [simpl in Hlen; lia|]. simpl in Hlen.
    destruct t as [z|kids|l]; simpl in H; [discriminate| |simpl in Hown; contradiction].
    destruct (dget kids k) as [child|] eqn:Eg; [|discriminate].
    destruct (exec_at p st child o) as [[st1 child']|c] eqn:Ee; [|discriminate].
    inversion H; subst. simpl in Hown.
    assert (Hc : own_to D child) by (eapply own_child; eassumption).
    destruct (IH D st child o st' child' ltac:(lia) Hc Ee) as [Hst Hc'].
    split; [exact Hst|]. simpl. apply Forall_dset; assumption.
Qed.

Lemma exec_muts_own : forall D ms st t st' t',
  Forall (fun m => length (fst m) < D) ms -> own_to D t ->
  exec_muts st t ms = Ok (st', t') -> st' = st /\ own_to D t'.
Proof.
  intros D ms st t st' t' Hms Hown H. unfold exec_muts in H.
  revert st t st' t' Hown H. induction ms as [|m ms IH]; intros st t st' t' Hown H; simpl in H.
  - inversion H; subst. split; [reflexivity|exact Hown].
  - inversion Hms as [|? ? Hm Hrest]; subst.
    destruct (exec_at (fst m) st t (snd m)) as [[st1 t1]|c] eqn:E; [|discriminate]. simpl in H.
    destruct (exec_at_own _ _ _ _ _ _ _ Hm Hown E) as [Hst1 Hown1]. subst st1.
    exact (IH Hrest st t1 st' t' Hown1 H).
Qed.

(* the generic copy-before-modify frame: copy n levels, modify at depth <= n: store untouched *)
Lemma copy_then_mutate_frame : forall levels st arg plan st' t',
  (forall t, Forall (fun m => length (fst m) < levels) (plan t)) ->
  copy_then_mutate levels st arg plan = Ok (st', t') -> st' = st.
Proof.
  intros levels st arg plan st' t' Hplan H. unfold copy_then_mutate, bind in H.
  destruct (copy_nested levels st (VRef arg)) as [t|c] eqn:E; [|discriminate].
  apply copy_nested_own in E.
  exact (proj1 (exec_muts_own levels (plan t) st t st' t' (Hplan t) E H)).
Qed.

Lemma ha_site_frame : forall st prev awards st' t', ha_site st prev awards = Ok (st', t') -> st' = st.
Proof.
  intros st prev awards st' t'. unfold ha_site. apply copy_then_mutate_frame.
  intros _. apply Forall_forall. intros m Hm. apply in_map_iff in Hm. destruct Hm as [c [Hc _]]. subst. simpl. lia.
Qed.

Lemma tb_site_frame : forall st mr broken st' t', tb_site st mr broken = Ok (st', t') -> st' = st.
Proof.
  intros st mr broken st' t'. unfold tb_site. apply copy_then_mutate_frame.
  intros _. apply Forall_forall. intros m Hm. apply in_flat_map in Hm. destruct Hm as [tb [_ Hm]].
  destruct Hm as [Hm|Hm]; [subst; simpl; lia|].
  apply in_map_iff in Hm. destruct Hm as [c [Hc _]]. subst. simpl. lia.
Qed.

Lemma ive_site_frame : forall st votes to_remove st' t', ive_site st votes to_remove = Ok (st', t') -> st' = st.
Proof.
  intros st votes to_remove st' t'. unfold ive_site. destruct to_remove as [|v r].
  - intros H. inversion H. reflexivity.
  - apply copy_then_mutate_frame. intros _. apply Forall_forall. intros m Hm.
    apply in_map_iff in Hm. destruct Hm as [c [Hc _]]. subst. simpl. lia.
Qed.

Lemma subtract_site_frame : forall st alloc edits st' t', subtract_site st alloc edits = Ok (st', t') -> st' = st.
Proof.
  intros st alloc edits st' t'. unfold subtract_site. apply copy_then_mutate_frame.
  intros _. apply Forall_forall. intros m Hm. apply in_map_iff in Hm. destruct Hm as [[c e] [Hc _]]. subst.
  destruct e; simpl; lia.
Qed.

Lemma transfer_site_frame : forall st alloc moves removed st' t',
  transfer_site st alloc moves removed = Ok (st', t') -> st' = st.
Proof.
  intros st alloc moves removed st' t'. unfold transfer_site. apply copy_then_mutate_frame.
  intros _. apply Forall_forall. intros m Hm. apply in_app_or in Hm. destruct Hm as [Hm|Hm].
  - apply in_flat_map in Hm. destruct Hm as [[[tg b] n] [_ Hm]]. simpl in Hm.
    destruct Hm as [Hm|[Hm|[]]]; subst; simpl; lia.
  - apply in_map_iff in Hm. destruct Hm as [c [Hc _]]. subst. simpl. lia.
Qed.

Section MS.
  Variable korder : list C -> list C -> list C.

  Lemma add_stage_own : forall d st t r st' t',
    own_to (S d) t -> add_stage korder d st t r = Ok (st', t') -> st' = st /\ own_to (S d) t'.
  Proof.
    induction d as [|d IH]; intros st t r st' t' Hown H; simpl in H.
    - destruct r as [z|rk|l]; try discriminate.
      pose proof (foldo_inv
        (fun s kv => match snd kv with WInt z => apply_op (fst s) (snd s) (OAdd (fst kv) z) | _ => Crash E_TYPE end)
        (fun s => fst s = st /\ own_to 1 (snd s))) as Hinv.
      specialize (Hinv ltac:(
        intros [st1 t1] [k v] [st2 t2] [Hs Ho] Hf; simpl in *; subst;
        destruct v as [z|kk|ll]; try discriminate;
        destruct (apply_op_own 0 _ _ _ _ _ Ho Hf) as [A B]; split; assumption)).
      specialize (Hinv rk (st, t) (st', t') (conj eq_refl Hown) H). simpl in Hinv. exact Hinv.
    - destruct (keys_of st t) as [ke|]; [|discriminate].
      destruct r as [z|rk|l]; try discriminate.
      set (f := fun (s : store * wt) (k : C) =>
                  match apply_op (fst s) (snd s) (OSetDefault k) with
                  | Crash c => Crash c
                  | Ok (st1, t1) =>
                      match child_of st1 t1 k with
                      | None => Crash E_OTHER
                      | Some ch =>
                          match add_stage korder d st1 ch (match dget rk k with Some x => x | None => WOwn [] end) with
                          | Ok (st2, ch') => Ok (st2, put_child t1 k ch')
                          | Crash c => Crash c
                          end
                      end
                  end) in *.
      assert (Hstep : forall s k s', (fst s = st /\ own_to (S (S d)) (snd s)) -> f s k = Ok s' ->
                                     (fst s' = st /\ own_to (S (S d)) (snd s'))).
      { intros [st0 t0] k [st3 t3] [Hs Ho] Hf. cbn [fst snd] in Hs, Ho. subst st0. unfold f in Hf. cbn [fst snd] in Hf.
        destruct (apply_op st t0 (OSetDefault k)) as [[st1 t1]|c] eqn:Eop; [|discriminate].
        destruct (apply_op_own _ _ _ _ _ _ Ho Eop) as [Hst1 Ho1]. subst st1.
        destruct t1 as [z1|kids1|l1]; simpl in Hf; [discriminate| |simpl in Ho1; contradiction].
        destruct (dget kids1 k) as [ch|] eqn:Ech; [|discriminate].
        destruct (add_stage korder d st ch _) as [[st2 ch']|c] eqn:Eadd; [|discriminate].
        inversion Hf; subst.
        change (Forall (fun kv => own_to (S d) (snd kv)) kids1) in Ho1.
        assert (Hch : own_to (S d) ch) by (eapply own_child; eassumption).
        destruct (IH _ _ _ _ _ Hch Eadd) as [Hst2 Hch']. cbn [fst snd]. split; [exact Hst2|].
        change (Forall (fun kv => own_to (S d) (snd kv)) (dset kids1 k ch')).
        apply Forall_dset; assumption. }
      pose proof (foldo_inv f (fun s => fst s = st /\ own_to (S (S d)) (snd s)) Hstep
                            (korder ke (map fst rk)) (st, t) (st', t') (conj eq_refl Hown) H) as Hres.
      simpl in Hres. exact Hres.
  Qed.

  (* a run of add_stage calls, whatever each adds, keeps the tree owned and the store as it was *)
  Lemma fold_add_stage_own : forall {X} (g : store * wt -> X -> wt) d l st t st' t',
    own_to (S d) t -> foldo (fun s x => add_stage korder d (fst s) (snd s) (g s x)) l (st, t) = Ok (st', t') ->
    st' = st /\ own_to (S d) t'.
  Proof.
    intros X g d l st t st' t' Hown H.
    refine (foldo_inv _ (fun s => fst s = st /\ own_to (S d) (snd s)) _ l (st, t) (st', t') (conj eq_refl Hown) H).
    intros [st1 t1] x [st2 t2] [Hs Ho] Hf. cbn [fst snd] in *. subst st1. exact (add_stage_own _ _ _ _ _ _ Ho Hf).
  Qed.

  Variable stages : list (store -> wt -> wt).

  Lemma ms_repaired_frame : forall d st prev st' t',
    ms_evaluate korder stages true d st prev = Ok (st', t') -> st' = st.
  Proof.
    intros d st prev st' t' H. unfold ms_evaluate, bind in H.
    destruct (copy_nested (S d) st (VRef prev)) as [el|c] eqn:E; [|discriminate].
    apply copy_nested_own in E.
    exact (proj1 (fold_add_stage_own (fun s stage => stage (fst s) (snd s)) d stages st el st' t' E H)).
  Qed.

  (* the pinned shallow copy is enough for depth 1 (flat prev_gains) *)
  Lemma ms_pinned_flat_frame : forall st prev st' t',
    ms_evaluate korder stages false 0 st prev = Ok (st', t') -> st' = st.
  Proof. intros st prev st' t' H. exact (ms_repaired_frame 0 st prev st' t' H). Qed.
End MS.

Lemma uv_frame : forall korder rs mx d st prev st' t',
  uv_evaluate korder rs mx d st prev = Ok (st', t') -> st' = st.
Proof.
  intros korder rs mx d st prev st' t' H. unfold uv_evaluate, bind in H.
  destruct (copy_nested (S d) st (VRef prev)) as [el|c] eqn:E; [|discriminate].
  destruct mx; [discriminate|].
  apply copy_nested_own in E.
  exact (proj1 (fold_add_stage_own korder (fun _ r => r) d rs st el st' t' E H)).
Qed.

(* pinned tree, depth 2: the caller's inner dictionary receives the stage result.
   store: 0 = {A: 1} (inner), 1 = {N: ref 0} (prev_gains); one stage returning {N: {A: 1, B: 1}} *)
Definition ms_witness_store : store := [[(1%positive, VInt 1)]; [(5%positive, VRef 0)]].
Definition ms_witness_stage : store -> wt -> wt :=
  fun _ _ => WOwn [(5%positive, WOwn [(1%positive, WInt 1); (2%positive, WInt 1)])].

Lemma ms_pinned_nested_mutates :
  exists st' t', ms_evaluate union_order [ms_witness_stage] false 1 ms_witness_store 1 = Ok (st', t')
                 /\ sget st' 0 = Some [(1%positive, VInt 2); (2%positive, VInt 1)]
                 /\ sget ms_witness_store 0 = Some [(1%positive, VInt 1)].
Proof. eexists. eexists. vm_compute. split; [reflexivity|split; reflexivity]. Qed.

(* the same call on the repaired code *)
Lemma ms_repaired_witness :
  exists t', ms_evaluate union_order [ms_witness_stage] true 1 ms_witness_store 1 = Ok (ms_witness_store, t')
             /\ read_tree 2 ms_witness_store t' = L [L [A 5%Z; L [L [A 1%Z; A 2%Z]; L [A 2%Z; A 1%Z]]]].
Proof. eexists. vm_compute. split; reflexivity. Qed.
