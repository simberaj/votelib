(* A tier of the Tideman alternative (Model/Hybrids.v, repaired elimination step) that starts on a profile whose pairwise
   dictionary is not empty keeps a pairwise contest in every round.  So it never runs into the IndexError of
   eliminate_one, with or without the fallback for a profile without a contest (sc), and that fallback changes nothing
   there.  The reason: after an elimination without a tie the restricted profile still holds a pairwise contest.  Otherwise all survivors R would share one rank on every ballot that counts;
   the eliminated candidate c then has its first preferences only from ballots that rank it alone on top, every survivor
   beats it pairwise (first preferences of a survivor - of c <= pairwise margin of the survivor over c, ballot by
   ballot), R would be a dominating set, and the Smith set - which the round was restricted to - would not contain c. *)
From Coq Require Import ZArith QArith Qround Qreduction Setoid List Bool Lia Lqa Permutation Arith.
From VL Require Import Prelude.PyDict Model.GetNBest Model.Convert Model.STV Model.Condorcet Model.Hybrids
     Proofs.Dict_proofs Proofs.GetNBest_proofs Proofs.QOrd Proofs.Condorcet_proofs Proofs.Smith_proofs Proofs.STV_proofs Proofs.STV_resting_proofs
     Proofs.Hybrids_proofs Proofs.ShapeElim_proofs.
Import ListNotations.
Close Scope Q_scope.
Close Scope Z_scope.
Open Scope nat_scope.

Notation zcnt := Hybrids_proofs.cnt.

Lemma above_notin t x a : ~ In a (flatten t) -> above t x a = 0%Z.
Proof.
  induction t as [|i t IH]; intros H; [reflexivity|]. cbn [above]. rewrite flatten_cons in H.
  rewrite (cnt_notin a (flatten t)) by (intros Hi; apply H, in_or_app; right; exact Hi).
  rewrite IH by (intros Hi; apply H, in_or_app; right; exact Hi). lia.
Qed.

Lemma coef_top_zero cs i t y a : NoDup (flatten (i :: t)) -> In a (members i) -> coef cs (i :: t) y a = 0%Z.
Proof.
  intros Hnd Ha. unfold coef. cbn [above]. rewrite flatten_cons in Hnd.
  assert (Hat : ~ In a (flatten t)) by (intros H; exact (nodup_app_disj _ _ Hnd a Ha H)).
  rewrite (cnt_notin a (flatten t) Hat), (above_notin t y a Hat).
  rewrite (cnt_notin a (set_diff cs (flatten (i :: t)))); [lia|].
  intros H. apply set_diff_in in H. destruct H as [_ H]. apply H. rewrite flatten_cons. apply in_or_app. left. exact Ha.
Qed.

Lemma coef_top_one cs i t a y : In a (members i) -> In y cs -> ~ In y (members i) -> (1 <= coef cs (i :: t) a y)%Z.
Proof.
  intros Ha Hy Hny. unfold coef. cbn [above].
  pose proof (above_nonneg t a y) as H0. pose proof (proj2 (cnt_pos a (members i)) Ha) as H1.
  pose proof (cnt_nonneg y (flatten t)) as H2. pose proof (cnt_nonneg y (set_diff cs (flatten (i :: t)))) as H3.
  assert (H4 : (0 < zcnt a (flatten (i :: t)))%Z) by (apply cnt_pos; rewrite flatten_cons; apply in_or_app; left; exact Ha).
  destruct (in_dec Pos.eq_dec y (flatten t)) as [Hin|Hout].
  - apply cnt_pos in Hin. nia.
  - assert (Hd : In y (set_diff cs (flatten (i :: t)))).
    { apply set_diff_in. split; [exact Hy|]. rewrite flatten_cons. intros H. apply in_app_or in H. tauto. }
    apply cnt_pos in Hd. nia.
Qed.

Lemma above_notin_l t x a : ~ In x (flatten t) -> above t x a = 0%Z.
Proof.
  induction t as [|i t IH]; intros H; [reflexivity|]. cbn [above]. rewrite flatten_cons in H.
  rewrite (cnt_notin x (members i)) by (intros Hi; apply H, in_or_app; left; exact Hi).
  rewrite IH by (intros Hi; apply H, in_or_app; right; exact Hi). lia.
Qed.

Lemma coef_top_le_one cs i t c a : NoDup cs -> NoDup (flatten (i :: t)) -> In c (members i) -> (coef cs (i :: t) c a <= 1)%Z.
Proof.
  intros Hcs Hnd Hc. unfold coef. cbn [above]. pose proof Hnd as Hnd'. rewrite flatten_cons in Hnd'.
  assert (Hct : ~ In c (flatten t)) by (intros H; exact (nodup_app_disj _ _ Hnd' c Hc H)).
  rewrite (above_notin_l t c a Hct).
  rewrite (Hybrids_proofs.cnt_nodup c (members i) (nodup_app_l _ _ Hnd')), (Hybrids_proofs.cnt_nodup a (flatten t) (nodup_app_r _ _ Hnd')).
  rewrite (Hybrids_proofs.cnt_nodup c (flatten (i :: t)) Hnd).
  rewrite (Hybrids_proofs.cnt_nodup a (set_diff cs (flatten (i :: t)))) by (apply nodup_filter, Hcs).
  destruct (cmem a (flatten t)) eqn:E1; destruct (cmem a (set_diff cs (flatten (i :: t)))) eqn:E2;
    destruct (cmem c (members i)); destruct (cmem c (flatten (i :: t))); try lia.
  exfalso. apply cmem_In in E1, E2. apply set_diff_in in E2. destruct E2 as [_ E2]. apply E2.
  rewrite flatten_cons. apply in_or_app. right. exact E1.
Qed.

Open Scope Q_scope.

Lemma first_share_zero b c : first_share b 0 c == 0.
Proof.
  destruct b as [|[c'|l] t]; cbn [first_share]; [reflexivity|destruct (ceqb c c'); reflexivity|].
  unfold Qdiv. ring.
Qed.

Lemma members_nodup i t : NoDup (flatten (i :: t)) -> NoDup (members i).
Proof. rewrite flatten_cons. apply nodup_app_l. Qed.

Lemma share_top i t w x : NoDup (members i) -> In x (members i) ->
  first_share (i :: t) w x == w / inject_Z (Z.of_nat (length (members i))).
Proof.
  intros Hnd Hx. destruct i as [c'|l]; cbn [first_share members length] in *.
  - destruct Hx as [<-|[]]. rewrite ceqb_refl. unfold Qdiv. change (inject_Z (Z.of_nat 1)) with 1. field.
  - rewrite (STV_resting_proofs.cnt_nodup l x Hnd). assert (E : cmem x l = true) by (apply cmem_In, Hx). rewrite E. ring.
Qed.

Lemma share_not_top i t w x : NoDup (members i) -> ~ In x (members i) -> first_share (i :: t) w x == 0.
Proof.
  intros Hnd Hx. destruct i as [c'|l]; cbn [first_share members] in *.
  - destruct (ceqb x c') eqn:E; [|reflexivity]. apply ceqb_eq in E. subst. exfalso. apply Hx. left. reflexivity.
  - rewrite (STV_resting_proofs.cnt_nodup l x Hnd). assert (E : cmem x l = false) by (apply cmem_false, Hx). rewrite E. ring.
Qed.

Lemma div_le_self (w : Q) (k : nat) : 0 <= w -> (1 <= k)%nat -> w / inject_Z (Z.of_nat k) <= w.
Proof.
  intros Hw Hk. assert (HL : 1 <= inject_Z (Z.of_nat k)).
  { change 1 with (inject_Z 1). rewrite <- Zle_Qle. lia. }
  apply Qle_shift_div_r; [lra|]. nra.
Qed.

(* the ballot-by-ballot inequality: first preferences of a survivor a minus those of the eliminated c are bounded by the
   pairwise margin of a over c, when every survivor that heads a counting ballot shares that rank with a *)
Lemma ballot_ineq cs (R : list C) c a r (w : Z) : NoDup cs ->
  (0 <= w)%Z -> NoDup (flatten r) -> (forall i, In i r -> members i <> []) -> incl (flatten r) cs ->
  In a cs -> In c cs -> (forall y, In y cs -> y <> c -> In y R) ->
  ((0 < w)%Z -> forall y, In y R -> coef cs r y a = 0%Z) ->
  first_share r (inject_Z w) a - first_share r (inject_Z w) c <= inject_Z (w * (coef cs r a c - coef cs r c a)).
Proof.
  intros Hcs Hw Hnd Hne Hinc Ha Hc HR Hinsep.
  destruct (Z.eq_dec w 0) as [->|Hw0].
  { assert (E : (0 * (coef cs r a c - coef cs r c a) = 0)%Z) by lia. rewrite E. change (inject_Z 0) with 0. pose proof (first_share_zero r a). pose proof (first_share_zero r c). lra. }
  assert (Hpos : (0 < w)%Z) by lia. specialize (Hinsep Hpos).
  assert (HwQ : 0 <= inject_Z w) by (change 0 with (inject_Z 0); rewrite <- Zle_Qle; exact Hw).
  destruct r as [|i t].
  { cbn [first_share]. unfold coef. cbn. rewrite Z.mul_0_r. change (inject_Z 0) with 0. lra. }
  pose proof (members_nodup i t Hnd) as Hndt.
  assert (Htop : members i <> []) by (apply Hne; left; reflexivity).
  (* every member of the first rank other than c shares the rank with a *)
  assert (Hshare : forall y, In y (members i) -> y <> c -> In a (members i)).
  { intros y Hy Hyc. destruct (in_dec Pos.eq_dec a (members i)) as [H|H]; [exact H|exfalso].
    assert (Hycs : In y cs) by (apply Hinc; rewrite flatten_cons; apply in_or_app; left; exact Hy).
    pose proof (coef_top_one cs i t y a Hy Ha H) as H1. rewrite (Hinsep y (HR y Hycs Hyc)) in H1. lia. }
  destruct (in_dec Pos.eq_dec a (members i)) as [Hat|Hat]; destruct (in_dec Pos.eq_dec c (members i)) as [Hct|Hct].
  - pose proof (share_top i t (inject_Z w) a Hndt Hat) as Sa. pose proof (share_top i t (inject_Z w) c Hndt Hct) as Sc.
    rewrite (coef_top_zero cs i t a c Hnd Hct), (coef_top_zero cs i t c a Hnd Hat). rewrite Z.sub_diag, Z.mul_0_r. change (inject_Z 0) with 0. lra.
  - pose proof (share_top i t (inject_Z w) a Hndt Hat) as Sa. pose proof (share_not_top i t (inject_Z w) c Hndt Hct) as Sc.
    pose proof (coef_top_one cs i t a c Hat Hc Hct) as H1. rewrite (coef_top_zero cs i t c a Hnd Hat).
    assert (Hlen : (1 <= length (members i))%nat) by (destruct (members i); [congruence|cbn; lia]).
    pose proof (div_le_self (inject_Z w) (length (members i)) HwQ Hlen) as Hd.
    assert (Hz : inject_Z w <= inject_Z (w * (coef cs (i :: t) a c - 0))) by (rewrite <- Zle_Qle; nia). lra.
  - (* c heads the ballot without a: it heads it alone *)
    assert (Hone : members i = [c]).
    { destruct (members i) as [|y [|y2 l]] eqn:Em; [congruence| |].
      - destruct Hct as [->|[]]. reflexivity.
      - exfalso. inversion Hndt as [|? ? Hn1 Hn2]; subst.
        destruct (Pos.eq_dec y c) as [->|Hyc].
        + apply Hat, (Hshare y2); [right; left; reflexivity|]. intros ->. apply Hn1. left. reflexivity.
        + apply Hat, (Hshare y); [left; reflexivity|exact Hyc]. }
    pose proof (share_not_top i t (inject_Z w) a Hndt Hat) as Sa. pose proof (share_top i t (inject_Z w) c Hndt Hct) as Sc.
    rewrite Hone in Sc. cbn [length] in Sc. change (inject_Z (Z.of_nat 1)) with 1 in Sc.
    pose proof (coef_top_le_one cs i t c a Hcs Hnd Hct) as H1. rewrite (coef_top_zero cs i t a c Hnd Hct).
    assert (Hz : - inject_Z w <= inject_Z (w * (0 - coef cs (i :: t) c a))) by (rewrite <- inject_Z_opp, <- Zle_Qle; nia).
    assert (Hdiv : inject_Z w / 1 == inject_Z w) by field. lra.
  - exfalso. destruct (members i) as [|y l] eqn:Em; [congruence|].
    apply Hat. apply (Hshare y); [left; reflexivity|]. intros ->. apply Hct. left. reflexivity.
Qed.

Definition fs_total (votes : rvotes) (x : C) : Q :=
  fold_right (fun (bw : ranked * Z) acc => first_share (fst bw) (inject_Z (snd bw)) x + acc) 0 votes.

Lemma fs_sum_ineq cs (R : list C) c a : NoDup cs -> In a cs -> In c cs -> (forall y, In y cs -> y <> c -> In y R) ->
  forall votes : rvotes,
  (forall r w, In (r, w) votes -> (0 <= w)%Z /\ NoDup (flatten r) /\ (forall i, In i r -> members i <> []) /\ incl (flatten r) cs /\
                                  ((0 < w)%Z -> forall y, In y R -> coef cs r y a = 0%Z)) ->
  fs_total votes a - fs_total votes c
  <= inject_Z (Hybrids_proofs.wsum (fun r => coef cs r a c) votes - Hybrids_proofs.wsum (fun r => coef cs r c a) votes).
Proof.
  intros Hcs Ha Hc HR. induction votes as [|[r w] votes IH]; intros H.
  - unfold fs_total, Hybrids_proofs.wsum. cbn [fold_right]. change (inject_Z (0 - 0)) with 0. lra.
  - destruct (H r w (or_introl eq_refl)) as (H1 & H2 & H3 & H4 & H5).
    pose proof (ballot_ineq cs R c a r w Hcs H1 H2 H3 H4 Ha Hc HR H5) as Hb.
    assert (IH' := IH (fun r' w' Hin => H r' w' (or_intror Hin))).
    cbn [fs_total fold_right fst snd] in *. fold (fs_total votes a) (fs_total votes c) in *.
    rewrite !wsum_cons.
    replace (w * coef cs r a c + Hybrids_proofs.wsum (fun r0 => coef cs r0 a c) votes -
             (w * coef cs r c a + Hybrids_proofs.wsum (fun r0 => coef cs r0 c a) votes))%Z
      with (w * (coef cs r a c - coef cs r c a) +
            (Hybrids_proofs.wsum (fun r0 => coef cs r0 a c) votes - Hybrids_proofs.wsum (fun r0 => coef cs r0 c a) votes))%Z by ring.
    rewrite inject_Z_plus. lra.
Qed.

Lemma fold_right_qv (x : C) (votes : rvotes) :
  fold_right (fun (bw : ballot * Q) acc => (if true then first_share (fst bw) (snd bw) x else 0) + acc) 0 (qv votes) == fs_total votes x.
Proof. unfold qv, fs_total. induction votes as [|[r w] votes IH]; cbn [map fold_right]; [reflexivity|]. rewrite IH. reflexivity. Qed.

Lemma tot_value (votes : rvotes) x v : shared_first_nonempty (qv votes) = true ->
  In (x, v) (some_totals (totals (initial_allocation (qv votes)))) -> v == fs_total votes x.
Proof.
  intros Hne Hin. set (a := initial_allocation (qv votes)) in *.
  assert (Ht : In (Some x, v) (totals a)).
  { unfold some_totals in Hin. apply in_flat_map in Hin. destruct Hin as ([[k|] t] & Hkt & Hin); cbn [fst snd] in Hin; [|destruct Hin].
    destruct Hin as [[= -> ->]|[]]. exact Hkt. }
  destruct (initial_allocation_conserves (qv votes)) as [Hnd _]. fold a in Hnd.
  destruct (totals_get a x v Hnd Ht) as (p & Hg & ->).
  eapply Qeq_trans; [apply pile_sum_wsum|].
  pose proof (initial_allocation_shares (qv votes) (fun _ => true) x respects_all Hne) as Hs. fold a in Hs.
  unfold aweight in Hs. rewrite Hg in Hs. eapply Qeq_trans; [|apply fold_right_qv]. eapply Qeq_trans; [|exact Hs].
  unfold fweight, STV_proofs.wsum. reflexivity.
Qed.
Close Scope Q_scope.

Lemma subset_items_nonempty S votes r (w : Z) : In (r, w) (subset_votes S votes) -> forall i, In i r -> members i <> [].
Proof.
  intros Hin. assert (Hk : In r (map fst (subset_votes S votes))) by (apply in_map_iff; exists (r, w); auto).
  rewrite subset_votes_unfold in Hk. destruct (sub_from_keys _ _ _ _ Hk) as [[]|(r0 & w0 & _ & ->)].
  intros i Hi. exact (sub_ranked_nonempty S r0 i Hi).
Qed.

Lemma subset_shared_first S votes : shared_first_nonempty (qv (subset_votes S votes)) = true.
Proof.
  unfold shared_first_nonempty. apply forallb_forall. intros [b q] Hin. unfold qv in Hin. apply in_map_iff in Hin.
  destruct Hin as ([r w] & E & Hin). cbn [fst snd] in E. injection E as <- _. cbn [fst].
  destruct r as [|[c|[|x l]] t]; try reflexivity.
  exfalso. apply (subset_items_nonempty S votes _ w Hin (IS [])); [left; reflexivity|reflexivity].
Qed.

Lemma coef_nonneg cs r a b : (0 <= coef cs r a b)%Z.
Proof.
  unfold coef. pose proof (above_nonneg r a b). pose proof (cnt_nonneg a (flatten r)). pose proof (cnt_nonneg b (set_diff cs (flatten r))). nia.
Qed.

Lemma wsum_zero_terms (f : ranked -> Z) (votes : rvotes) :
  (forall r w, In (r, w) votes -> (0 <= w)%Z /\ (0 <= f r)%Z) -> Hybrids_proofs.wsum f votes = 0%Z ->
  forall r w, In (r, w) votes -> (0 < w)%Z -> f r = 0%Z.
Proof.
  induction votes as [|[r0 w0] votes IH]; intros Hnn Hs r w Hin Hw; [destruct Hin|].
  rewrite wsum_cons in Hs.
  assert (Htail : (0 <= Hybrids_proofs.wsum f votes)%Z).
  { clear - Hnn. induction votes as [|[r1 w1] votes IH]; [cbn; lia|]. rewrite wsum_cons.
    assert (H1 := Hnn r1 w1 (or_intror (or_introl eq_refl))).
    assert (H2 : (0 <= Hybrids_proofs.wsum f votes)%Z).
    { apply IH. intros r w [H|H]; [apply (Hnn r w); left; exact H|apply (Hnn r w); right; right; exact H]. }
    nia. }
  destruct (Hnn r0 w0 (or_introl eq_refl)) as [H1 H2].
  destruct Hin as [[= -> ->]|Hin].
  - nia.
  - apply (IH (fun r' w' H' => Hnn r' w' (or_intror H')) ltac:(nia) r w Hin Hw).
Qed.

(* the candidates of the round restricted to its Smith set are the Smith set *)
Lemma smith_round_cands round : wf_votes round = true -> pairwise round <> [] ->
  forall x, In x (Kc (subset_votes (smith_schwartz (pairwise round) true) round)) <-> In x (smith_schwartz (pairwise round) true).
Proof.
  intros Hwf Hne x. apply arc_subset. intros y Hy.
  apply arc_iff, candidates_pairwise_in, (smith_subset _ (pairwise_two round Hwf Hne)), Hy.
Qed.

(* if the profile restricted to R has no pairwise contest and R holds every candidate but c, the first preferences of a
   member a of R exceed those of c by at most the pairwise margin of a over c *)
Lemma no_contest_margin votes (R : list C) a c : wf_votes votes = true ->
  (forall r w, In (r, w) votes -> forall i, In i r -> members i <> []) ->
  pairwise (subset_votes R votes) = [] -> In a R -> In a (cands_of votes) -> In c (cands_of votes) ->
  (forall y, In y (cands_of votes) -> y <> c -> In y R) ->
  (fs_total votes a - fs_total votes c <= inject_Z (pget0 (pairwise votes) (a, c) - pget0 (pairwise votes) (c, a)))%Q.
Proof.
  intros Hwf Hitems Hempty HaR Ha Hc HR. pose proof (proj1 (wf_votes_spec votes) Hwf) as Hv.
  rewrite !pairwise_get. apply (fs_sum_ineq (cands_of votes) R c a (cands_of_nodup votes) Ha Hc HR).
  intros r w Hin. destruct (Hv r w Hin) as [Hnd Hw]. split; [exact Hw|]. split; [exact Hnd|].
  split; [exact (Hitems r w Hin)|]. split.
  - intros x Hx. apply cands_of_spec. exists r, w. split; assumption.
  - intros Hpos y HyR.
    assert (H0 : pget0 (pairwise (subset_votes R votes)) (y, a) = 0%Z) by (rewrite Hempty; reflexivity).
    rewrite (subset_restriction R votes y a Hwf HyR HaR), pairwise_get in H0.
    refine (wsum_zero_terms (fun r0 => coef (cands_of votes) r0 y a) votes _ H0 r w Hin Hpos).
    intros r' w' Hin'. split; [apply (Hv r' w' Hin')|apply coef_nonneg].
Qed.

(* an elimination without a tie that leaves no pairwise contest has dropped a candidate that every survivor beats: the
   survivor has strictly more first preferences, and their difference is at most its margin *)
Lemma elimination_drops_beaten votes (R : list C) : wf_votes votes = true -> shared_first_nonempty (qv votes) = true ->
  (forall r w, In (r, w) votes -> forall i, In i r -> members i <> []) ->
  eliminate_one votes = Some (map Cand R) -> 1 <= length R -> pairwise (subset_votes R votes) = [] ->
  incl R (Kc votes) /\
  exists c, In c (Kc votes) /\ ~ In c R /\ (forall y, In y (Kc votes) -> ~ In y R -> y = c) /\
            forall a, In a R -> beats (pairwise votes) a c.
Proof.
  intros Hwf Hsf Hitems Ee H1 Hempty.
  destruct (elim_strict votes _ Hwf Ee (has_tie_map_cand R)) as (R' & E1 & E2 & E3 & E4 & Hstrict).
  apply map_cand_inj in E1. subst R'. split; [exact E3|].
  destruct (Shape2_proofs.exists_not_in (Kc votes) R (arc_nodup votes) ltac:(lia)) as (c & HcK & HcR).
  assert (Hone : forall y, In y (Kc votes) -> ~ In y R -> y = c).
  { intros y Hy HyR. apply (drop_one R (Kc votes) y c E2 E3); [lia|exact Hy|exact HcK|exact HyR|exact HcR]. }
  exists c. split; [exact HcK|]. split; [exact HcR|]. split; [exact Hone|].
  intros a HaR. pose proof (E3 a HaR) as HaK.
  assert (Hval : forall x, In x (Kc votes) -> exists v, In (x, v) (some_totals (totals (initial_allocation (qv votes))))).
  { intros x Hx. rewrite <- (totals_keys votes Hwf) in Hx. apply in_map_iff in Hx.
    destruct Hx as ([x' v] & E & Hin). cbn [fst] in E. subst x'. exists v. exact Hin. }
  destruct (Hval a HaK) as (va & Hva). destruct (Hval c HcK) as (vc & Hvc).
  pose proof (Hstrict a va c vc Hva Hvc HaR HcR) as Hlt.
  pose proof (tot_value votes a va Hsf Hva) as Ea. pose proof (tot_value votes c vc Hsf Hvc) as Ec.
  assert (HRc : forall y, In y (cands_of votes) -> y <> c -> In y R).
  { intros y Hy Hyc. destruct (in_dec Pos.eq_dec y R) as [H|H]; [exact H|].
    exfalso. apply Hyc, Hone; [apply arc_iff, Hy|exact H]. }
  pose proof (no_contest_margin votes R a c Hwf Hitems Hempty HaR (proj1 (arc_iff _ _) HaK) (proj1 (arc_iff _ _) HcK) HRc) as Hm.
  unfold Z.sub in Hm. rewrite inject_Z_plus, inject_Z_opp in Hm. unfold beats. rewrite Zlt_Qlt. lra.
Qed.

Lemma elimination_keeps_contest round (R : list C) : wf_votes round = true -> pairwise round <> [] ->
  let sset := smith_schwartz (pairwise round) true in
  let round1 := subset_votes sset round in
  eliminate_one round1 = Some (map Cand R) -> 2 <= length R ->
  pairwise (subset_votes R round1) <> [].
Proof.
  intros Hwf Hne sset round1 Ee H2 Hempty.
  set (P := pairwise round) in *.
  pose proof (pairwise_two round Hwf Hne) as H2P. fold P in H2P.
  pose proof (pairwise_nonneg round Hwf) as Hnn. fold P in Hnn.
  pose proof (smith_round_cands round Hwf Hne) as HK1. fold P sset round1 in HK1.
  destruct (elimination_drops_beaten round1 R (subset_wf sset round Hwf) (subset_shared_first sset round)
              (subset_items_nonempty sset round) Ee ltac:(lia) Hempty) as (E3 & c & HcK & HcR & Hone & Hbeats).
  (* so the survivors would be a dominating set that misses a member of the Smith set *)
  assert (Hdom : forall a b, In a R -> In b (candidates P) -> ~ In b R -> beats P a b).
  { intros a b HaR Hb HbR. destruct (in_dec Pos.eq_dec b sset) as [HbS|HbS].
    - rewrite (Hone b (proj2 (HK1 b) HbS) HbR).
      assert (HaS : In a sset) by apply HK1, E3, HaR. assert (HcS : In c sset) by apply HK1, HcK.
      unfold beats, P. rewrite <- (subset_restriction sset round a c Hwf HaS HcS), <- (subset_restriction sset round c a Hwf HcS HaS).
      exact (Hbeats a HaR).
    - destruct (smith_dominating P H2P) as [_ Hd]. apply Hd; [apply HK1, E3, HaR|exact Hb|exact HbS]. }
  assert (HRne : R <> []) by (intros ->; cbn [length] in H2; lia).
  pose proof (smith_minimal P Hnn H2P R HRne Hdom) as Hmin. apply HcR, Hmin, HK1, HcK.
Qed.

(* one round of a tier that starts with a pairwise contest: the winner set is the Smith set - two or more candidates, or
   the tier is decided -, the elimination answers, and a further round starts with a contest again *)
Lemma tier_round f round : wf_votes round = true -> pairwise round <> [] ->
  (exists w, forall sc, tideman_tier true sc (S f) round = inl (Cand w)) \/
  (forall sc, tideman_tier true sc (S f) round = inr H_nie) \/
  (exists round', wf_votes round' = true /\ pairwise round' <> [] /\
                  forall sc, tideman_tier true sc (S f) round = tideman_tier true sc f round').
Proof.
  intros Hwf Hne.
  assert (Hrne : round <> []) by (intros ->; apply Hne; reflexivity).
  pose proof (smith_round_cands round Hwf Hne) as HK1.
  pose proof (elimination_keeps_contest round) as HM. cbv zeta in HM.
  pose proof (smith_nonempty round Hwf Hne) as Hsne.
  pose proof (smith_nodup (pairwise round)) as Hsnd.
  assert (Hunf : forall sc, tideman_tier true sc (S f) round =
    match smith_schwartz (pairwise round) true with
    | [w] => inl (Cand w)
    | sset => tier_elim true sc f (subset_votes sset round)
    end).
  { intros sc. rewrite (tideman_tier_unfold true sc f round Hrne), (winner_set_contest sc round Hwf Hne). reflexivity. }
  destruct (smith_schwartz (pairwise round) true) as [|s [|s2 ss]] eqn:Es; [congruence|left; exists s; intros sc; rewrite Hunf; reflexivity|].
  set (sset := s :: s2 :: ss) in *. set (round1 := subset_votes sset round) in *.
  pose proof (subset_wf sset round Hwf) as Hwf1. fold round1 in Hwf1.
  assert (HlenK : 2 <= length (Kc round1)).
  { rewrite (same_keys_length (Kc round1) sset (arc_nodup round1) Hsnd HK1). cbn [sset length]. lia. }
  destruct (elim_nform round1 Hwf1 HlenK) as (rem & Ee & Hnf).
  assert (Hunf2 : forall sc, tideman_tier true sc (S f) round =
     if has_tie rem then inr H_nie else match rem with [r] => inl r | _ => tideman_tier true sc f (subset_votes (plain rem) round1) end).
  { intros sc. rewrite Hunf. unfold tier_elim. fold round1. rewrite Ee. reflexivity. }
  destruct (has_tie rem) eqn:Et; [right; left; exact Hunf2|].
  destruct (elim_spec round1 rem Hwf1 Ee Et) as (R & E1 & E2 & E3 & E4).
  destruct rem as [|r [|r2 rr]].
  - destruct R; [|discriminate]. cbn [length] in E4. lia.
  - left. destruct R as [|x [|y R]]; try discriminate. injection E1 as ->. exists x. exact Hunf2.
  - right. right. exists (subset_votes R round1).
    assert (H2 : 2 <= length R).
    { assert (El : length (r :: r2 :: rr) = length R) by (rewrite E1, map_length; reflexivity). cbn [length] in El. lia. }
    split; [apply subset_wf, Hwf1|]. split.
    + rewrite E1 in Ee. exact (HM R Hwf Hne Ee H2).
    + intros sc. rewrite Hunf2, E1, plain_map_cand. destruct R as [|x [|y R']]; [cbn [length] in H2; lia|cbn [length] in H2; lia|reflexivity].
Qed.

Lemma tier_no_index sc : forall fuel round, wf_votes round = true -> pairwise round <> [] ->
  tideman_tier true sc fuel round <> inr H_index.
Proof.
  induction fuel as [|f IH]; intros round Hwf Hne; [destruct round; discriminate|].
  destruct (tier_round f round Hwf Hne) as [(w & E)|[E|(round' & Hwf' & Hne' & E)]]; rewrite E; [discriminate|discriminate|].
  exact (IH _ Hwf' Hne').
Qed.

(* the repair for a profile without a pairwise contest is conservative: a tier that starts with a contest keeps one in every
   round, so the fallback of get_winner_set is never taken and the tier answers the same with sc = true and sc = false *)
Lemma tier_repair_conservative : forall fuel round, wf_votes round = true -> pairwise round <> [] ->
  tideman_tier true true fuel round = tideman_tier true false fuel round.
Proof.
  induction fuel as [|f IH]; intros round Hwf Hne; [destruct round; reflexivity|].
  destruct (tier_round f round Hwf Hne) as [(w & E)|[E|(round' & Hwf' & Hne' & E)]]; rewrite !E; [reflexivity|reflexivity|].
  exact (IH _ Hwf' Hne').
Qed.

(* one seat (all that the code without the tier repair can fill): with a pairwise contest never IndexError, and the same
   answer with and without the single-candidate repair *)
Theorem tideman_no_index sc tr votes : wf_votes votes = true -> pairwise votes <> [] -> tideman_alt true sc tr votes 1 <> H_index.
Proof.
  intros Hwf Hne. unfold tideman_alt. rewrite tideman_loop_S.
  destruct (tideman_tier true sc (tier_fuel_of votes) votes) as [[w|l]|e] eqn:Et.
  - destruct (cmem w _); [|discriminate]. cbn [app length Nat.eqb orb]. discriminate.
  - discriminate.
  - intros ->. exact (tier_no_index sc _ votes Hwf Hne Et).
Qed.

Theorem tideman_repair_conservative tr votes : wf_votes votes = true -> pairwise votes <> [] ->
  tideman_alt true true tr votes 1 = tideman_alt true false tr votes 1.
Proof.
  intros Hwf Hne. unfold tideman_alt. rewrite !tideman_loop_S, (tier_repair_conservative _ votes Hwf Hne).
  destruct (tideman_tier true false (tier_fuel_of votes) votes) as [[w|l]|e]; [|reflexivity|reflexivity].
  destruct (cmem w _); reflexivity.
Qed.
