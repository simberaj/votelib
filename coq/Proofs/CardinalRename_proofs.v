(* C10, renaming: sequential PAV, the score aggregation (ScoreToSimpleVotes incl. the truncation / unscored corrections),
   ScoreVoting and MajorityJudgment (both tie-breakers) of Model/Cardinal.v commute with every injective renaming of the
   candidates - EXACT equality.  None of them consults an order on candidates ([sort_q] sorts SCORES).
   ProportionalApproval ([pav]) is the one model of the family that does: it iterates the candidates in the canonical
   sorted order ([canon_set], standing for the iteration order of a frozenset) - see Proofs/PAVRename_proofs.v. *)
From Coq Require Import ZArith QArith Qround Qabs List Bool Arith Lia.
From VL Require Import Prelude.PyDict Model.GetNBest Model.Convert Model.Cardinal
     Proofs.Dict_proofs Proofs.Order_proofs Proofs.HARename_proofs Proofs.Equivariant.
Import ListNotations.

Section KREN.
  Variable f : C -> C.
  Hypothesis f_inj : forall a b, f a = f b -> a = b.

  Definition rab (bw : list C * Q) : list C * Q := (map f (fst bw), snd bw).
  Definition renap (v : aprofile) : aprofile := map rab v.

  Lemma inter_size_ren a b : inter_size (map f a) (map f b) = inter_size a b.
  Proof.
    unfold inter_size. rewrite (filter_map_eqv f (fun c => cmem c b)) by (intros x; apply (cmem_ren f f_inj)). apply map_length.
  Qed.

  Lemma spav_round_ren votes elected : spav_round (renap votes) (map f elected) = renl f (spav_round votes elected).
  Proof.
    unfold spav_round. cbv zeta.
    match goal with |- filter _ ?X = renl f (filter _ ?Y) => assert (E : X = renl f Y) end.
    { unfold renap. apply (fold_left_eqv0 rab (renl f)); [|reflexivity].
      intros d [b w]. unfold rab. cbn [fst snd]. rewrite inter_size_ren.
      apply (fold_left_eqv f (renl f)). intros d0 c. rewrite (dget_or_ren f f_inj), (dset_ren f f_inj). reflexivity. }
    rewrite E. apply (filter_renl f). intros cx. cbn [fst]. rewrite (cmem_ren f f_inj). reflexivity.
  Qed.

  Lemma spav_loop_ren votes n fuel : forall elected,
    spav_loop fuel (renap votes) n (map f elected) = option_map (map f) (spav_loop fuel votes n elected).
  Proof.
    induction fuel as [|fu IH]; intros elected.
    - cbn [spav_loop]. rewrite map_length. destruct (Nat.leb n (length elected)); reflexivity.
    - cbn [spav_loop]. rewrite map_length. destruct (Nat.leb n (length elected)); [reflexivity|].
      rewrite spav_round_ren, get_n_best_renl.
      destruct (get_n_best Qle_bool (spav_round votes elected) 1) as [|[c|l] r]; [reflexivity| |reflexivity].
      cbn [map ren_res]. change [f c] with (map f [c]). rewrite <- map_app. apply IH.
  Qed.

  Theorem spav_ren votes n : spav (renap votes) n = option_map (map f) (spav votes n).
  Proof. unfold spav. exact (spav_loop_ren votes n n []). Qed.

  Definition rsb (bn : sballot * Z) : sballot * Z := (renl f (fst bn), snd bn).
  Definition rens (v : sprofile) : sprofile := map rsb v.
  Definition ren_inl {X} (r : list (C * X) + serr) : list (C * X) + serr := match r with inl d => inl (renl f d) | inr e => inr e end.
  Definition ren_rs (r : list (res C) + serr) : list (res C) + serr := match r with inl l => inl (map (ren_res f) l) | inr e => inr e end.

  Lemma raw_scores_ren votes : raw_scores (rens votes) = renl f (raw_scores votes).
  Proof.
    unfold raw_scores, rens. apply (fold_left_eqv0 rsb (renl f)); [|reflexivity].
    intros d [b k]. unfold rsb. cbn [fst snd]. unfold renl at 2.
    apply (fold_left_eqv (fun cv : C * Q => (f (fst cv), snd cv)) (renl f)). intros d0 [c s]. cbn [fst snd].
    rewrite (dget_ren f f_inj), (dset_ren f f_inj). reflexivity.
  Qed.

  Lemma sequence_ren {Y} (l : list (C * (Y + serr))) : sequence (renl f l) = ren_inl (sequence l).
  Proof.
    induction l as [|[c [y|e]] l IH]; [reflexivity| |reflexivity].
    change (renl f ((c, inl y) :: l)) with ((f c, @inl Y serr y) :: renl f l). cbn [sequence]. rewrite IH.
    destruct (sequence l); reflexivity.
  Qed.
  Lemma map_vals_renl {X Y} (g : X -> Y) (d : list (C * X)) :
    map (fun cd : C * X => (fst cd, g (snd cd))) (renl f d) = renl f (map (fun cd : C * X => (fst cd, g (snd cd))) d).
  Proof. unfold renl. rewrite !map_map. reflexivity. Qed.

  Lemma corrected_scores_ren cf votes : corrected_scores cf (rens votes) = ren_inl (corrected_scores cf votes).
  Proof.
    unfold corrected_scores. cbv zeta. rewrite raw_scores_ren. unfold rens at 1. rewrite (map_map_inv rsb snd snd) by reflexivity.
    rewrite map_renl by reflexivity. apply sequence_ren.
  Qed.
  Lemma aggregate_ren fn sc : aggregate fn (renl f sc) = ren_inl (aggregate fn sc).
  Proof. unfold aggregate. rewrite map_renl by reflexivity. apply sequence_ren. Qed.

  Theorem score_to_simple_ren cf votes : score_to_simple cf (rens votes) = ren_inl (score_to_simple cf votes).
  Proof.
    unfold score_to_simple. rewrite corrected_scores_ren. destruct (corrected_scores cf votes) as [sc|e]; [|reflexivity].
    apply aggregate_ren.
  Qed.

  Theorem score_voting_ren cf votes n : score_voting cf (rens votes) n = ren_rs (score_voting cf votes n).
  Proof.
    unfold score_voting. rewrite score_to_simple_ren. destruct (score_to_simple cf votes) as [agg|e]; [|reflexivity].
    cbn [ren_inl ren_rs]. rewrite get_n_best_renl. reflexivity.
  Qed.

  Lemma last_tie_ren order : last_tie (map (ren_res f) order) = option_map (map f) (last_tie order).
  Proof. unfold last_tie. rewrite <- map_rev. destruct (rev order) as [|[c|l] r]; reflexivity. Qed.
  Lemma count_tie_ren order : count_tie (map (ren_res f) order) = count_tie order.
  Proof.
    unfold count_tie. rewrite (filter_map_eqv (ren_res f) (fun r : res C => match r with TieR _ => true | _ => false end))
      by (intros [c|l]; reflexivity). apply map_length.
  Qed.

  Lemma mj_plus_ren sub n : mj_plus (renl f sub) n = ren_rs (mj_plus sub n).
  Proof.
    destruct sub as [|[c0 d0] sub]; [reflexivity|].
    change (renl f ((c0, d0) :: sub)) with ((f c0, d0) :: renl f sub). unfold mj_plus.
    destruct (aggregate_one FMedianLow d0) as [med|e]; [|reflexivity].
    change ((f c0, d0) :: renl f sub) with (renl f ((c0, d0) :: sub)).
    rewrite map_renl, get_n_best_renl by reflexivity. reflexivity.
  Qed.

  Lemma closest_change_ren sub medians : closest_change (renl f sub) (renl f medians) = closest_change sub medians.
  Proof.
    unfold closest_change. cbv zeta.
    match goal with |- match map ?G' (renl f sub) with _ => _ end = match map ?G sub with _ => _ end =>
      assert (E : map G' (renl f sub) = map G sub) end.
    { apply (map_map_inv (fun cv : C * cscores => (f (fst cv), snd cv))). intros [c d]. cbn [fst snd].
      rewrite (dget_or_ren f f_inj). reflexivity. }
    rewrite E. reflexivity.
  Qed.

  Lemma untied_count_ren (best : list (res C)) :
    length (filter (fun r : res C => match r with Cand _ => true | _ => false end) (map (ren_res f) best))
    = length (filter (fun r : res C => match r with Cand _ => true | _ => false end) best).
  Proof.
    rewrite (filter_map_eqv (ren_res f) (fun r : res C => match r with Cand _ => true | _ => false end)) by (intros [c|l]; reflexivity).
    apply map_length.
  Qed.

  Lemma mj_default_ren fuel : forall sub n, mj_default fuel (renl f sub) n = ren_rs (mj_default fuel sub n).
  Proof.
    induction fuel as [|fu IH]; intros sub n; [reflexivity|].
    cbn [mj_default]. cbv zeta. rewrite map_renl_inv by reflexivity.
    destruct (fold_left Z.max _ 0%Z <=? 0)%Z; [reflexivity|].
    rewrite aggregate_ren. destruct (aggregate FMedianLow sub) as [medians|e]; [|reflexivity]. cbn [ren_inl].
    rewrite get_n_best_renl, count_tie_ren, untied_count_ren.
    set (best := get_n_best Qle_bool medians n).
    set (untied := length (filter _ best)).
    destruct (Nat.eqb (count_tie best) 0); [reflexivity|].
    destruct (Nat.ltb 0 untied).
    - rewrite firstn_map, cands_res_ren.
      rewrite (filter_renl f (fun cd => negb (cmem (fst cd) (flat_map (fun r : res C => match r with Cand c0 => [c0] | _ => [] end) (firstn untied best)))))
        by (intros cx; cbn [fst]; rewrite (cmem_ren f f_inj); reflexivity).
      rewrite IH. destruct (mj_default fu _ (n - untied)) as [r|e]; [|reflexivity]. cbn [ren_rs]. rewrite map_app. reflexivity.
    - assert (Et : match map (ren_res f) best with TieR l :: _ => l | _ => [] end = map f (match best with TieR l :: _ => l | _ => [] end))
        by (destruct best as [|[c|l] r]; reflexivity).
      rewrite Et. set (tied := match best with TieR l :: _ => l | _ => [] end).
      rewrite (filter_renl f (fun cd => cmem (fst cd) tied)) by (intros cx; apply (cmem_ren f f_inj)).
      rewrite closest_change_ren. set (sub1 := filter _ sub).
      set (ch := if (closest_change sub1 medians =? 0)%Z then 1%Z else closest_change sub1 medians).
      rewrite (map_renl_eqv f (fun cd : C * cscores =>
                 (fst cd, cs_set (snd cd) (dget_or medians (fst cd) 0%Q)
                            (match cs_get (snd cd) (dget_or medians (fst cd) 0%Q) with Some k => k | None => 0%Z end - ch)%Z)))
        by (intros cx; cbn [fst snd]; rewrite (dget_or_ren f f_inj); reflexivity).
      apply IH.
  Qed.

  Theorem majority_judgment_ren plus cf votes n :
    majority_judgment plus cf (rens votes) n = ren_rs (majority_judgment plus cf votes n).
  Proof.
    unfold majority_judgment. rewrite corrected_scores_ren. destruct (corrected_scores cf votes) as [sc|e]; [|reflexivity].
    cbn [ren_inl]. rewrite aggregate_ren. destruct (aggregate FMedianLow sc) as [med|e]; [|reflexivity]. cbn [ren_inl]. cbv zeta.
    rewrite get_n_best_renl, last_tie_ren. set (order := get_n_best Qle_bool med n).
    destruct (last_tie order) as [tied|]; [|reflexivity]. cbn [option_map].
    rewrite count_tie_ren, map_length.
    rewrite (filter_renl f (fun cd => cmem (fst cd) tied)) by (intros cx; apply (cmem_ren f f_inj)).
    set (sub := filter _ sc).
    rewrite map_renl_inv, mj_plus_ren, mj_default_ren by reflexivity.
    destruct plus.
    - destruct (mj_plus sub (count_tie order)) as [r|e]; [|reflexivity]. cbn [ren_rs]. rewrite map_app, firstn_map. reflexivity.
    - destruct (mj_default _ sub (count_tie order)) as [r|e]; [|reflexivity]. cbn [ren_rs]. rewrite map_app, firstn_map. reflexivity.
  Qed.
End KREN.
