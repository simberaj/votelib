(* Invariants of the highest-averages loop (Model/HighestAverages.v). *)
From Coq Require Import ZArith QArith List Bool Lia Lqa Permutation Sorted.
From VL Require Import Prelude.PyDict Model.GetNBest Model.HighestAverages
     Proofs.Dict_proofs Proofs.GetNBest_proofs Proofs.QOrd.
Import ListNotations.
Open Scope Z_scope.

Definition qge (a b : qitem) : Prop := Qle_bool (snd b) (snd a) = true.
Definition sortedq (l : list qitem) : Prop := StronglySorted qge l.

Lemma sortedq_is_sorted_desc l : sortedq l <-> @sorted_desc C Q Qle_bool l.
Proof. reflexivity. Qed.

Lemma insert_after_ge_perm x l : Permutation (insert_after_ge x l) (x :: l).
Proof.
  induction l as [|y t IH]; simpl; [reflexivity|].
  destruct (Qle_bool (snd x) (snd y)); [|reflexivity].
  rewrite IH. apply perm_swap.
Qed.

Lemma insert_after_ge_sorted x l : sortedq l -> sortedq (insert_after_ge x l).
Proof.
  induction 1 as [|y t Hs IH Hall]; simpl.
  - constructor; constructor.
  - destruct (Qle_bool (snd x) (snd y)) eqn:E.
    + constructor; [exact IH|].
      eapply Permutation_Forall; [apply Permutation_sym, insert_after_ge_perm|].
      constructor; [exact E|exact Hall].
    + constructor; [constructor; assumption|].
      assert (Hyx : qge x y) by (destruct (Qle_bool_total (snd x) (snd y)); congruence).
      constructor; [exact Hyx|].
      eapply Forall_impl; [|exact Hall]. intros z Hz. exact (Qle_bool_trans _ _ _ Hz Hyx).
Qed.

Lemma insert_after_ge_prefix x pre rest :
  Forall (fun y => Qle_bool (snd x) (snd y) = true) pre ->
  insert_after_ge x (pre ++ rest) = pre ++ insert_after_ge x rest.
Proof.
  induction 1 as [|y pre Hy _ IH]; simpl; [reflexivity|]. rewrite Hy, IH. reflexivity.
Qed.

Lemma run_split_ex m l : exists batch rest,
  l = batch ++ rest /\ length batch = run_length m l /\ firstn (run_length m l) l = batch /\
  Forall (fun y => Qeq_bool (snd y) m = true) batch /\
  (match rest with [] => True | y :: _ => Qeq_bool (snd y) m = false end).
Proof.
  induction l as [|y t (batch & rest & H1 & H2 & H3 & H4 & H5)]; simpl.
  - exists [], []. repeat split. constructor.
  - destruct (Qeq_bool (snd y) m) eqn:E.
    + exists (y :: batch), rest. simpl. rewrite H2, H3, <- H1.
      repeat split; [constructor; assumption|exact H5].
    + exists [], (y :: t). repeat split; [constructor|exact E].
Qed.

Lemma sortedq_snoc (a : list qitem) x : sortedq a -> Forall (fun y => qge y x) a -> sortedq (a ++ [x]).
Proof.
  induction 1 as [|y a _ IH Hy]; simpl; intros Hf.
  - constructor; constructor.
  - constructor; [exact (IH (Forall_inv_tail Hf))|].
    apply Forall_app. split; [exact Hy|]. constructor; [exact (Forall_inv Hf)|constructor].
Qed.

Lemma sorted_rev_asc (l : list qitem) :
  StronglySorted (fun a b => Qle_bool (snd a) (snd b) = true) l -> sortedq (rev l).
Proof.
  induction 1 as [|x t _ IH Hall]; simpl; [constructor|].
  apply sortedq_snoc; [exact IH|]. apply Forall_rev. exact Hall.
Qed.

Lemma sort_asc_perm (l : list qitem) : Permutation (@sort_asc C Q Qle_bool l) l.
Proof. apply GetNBest_proofs.sort_asc_perm. Qed.

(* f yields at most one item per element, under that element's key *)
Lemma flat_map_keys_nodup {A B K} (ka : A -> K) (kb : B -> K) (f : A -> list B) l L :
  (forall x, f x = [] \/ exists y, f x = [y] /\ kb y = ka x) ->
  NoDup (map ka l ++ L) -> NoDup (map kb (flat_map f l) ++ L).
Proof.
  intros Hf. induction l as [|x t IH]; simpl; intros Hn; [exact Hn|].
  apply NoDup_cons_iff in Hn. destruct Hn as [Hx Hn]. specialize (IH Hn). rewrite map_app, <- app_assoc.
  destruct (Hf x) as [->|(y & -> & Hy)]; [exact IH|]. simpl. constructor; [|exact IH].
  rewrite Hy. intros Hin. apply Hx. rewrite in_app_iff in *. destruct Hin as [Hin|Hin]; [left|right; exact Hin].
  apply in_map_iff in Hin. destruct Hin as (y' & <- & Hin). apply in_flat_map in Hin. destruct Hin as (x' & Hx' & Hin).
  destruct (Hf x') as [E|(y'' & E & Hk)]; rewrite E in Hin; [destruct Hin|].
  destruct Hin as [<-|[]]. rewrite Hk. apply in_map, Hx'.
Qed.

Lemma flat_map_keys_nodup0 {A B K} (ka : A -> K) (kb : B -> K) (f : A -> list B) l :
  (forall x, f x = [] \/ exists y, f x = [y] /\ kb y = ka x) ->
  NoDup (map ka l) -> NoDup (map kb (flat_map f l)).
Proof.
  intros Hf H. rewrite <- (app_nil_r (map ka l)) in H. rewrite <- app_nil_r.
  exact (flat_map_keys_nodup ka kb f l [] Hf H).
Qed.

Lemma quot_mono (v a b : Q) : (0 <= v -> 0 < a -> a <= b -> v / b <= v / a)%Q.
Proof.
  intros Hv Ha Hab. apply Qle_shift_div_r; [lra|].
  assert (Hq : (0 <= v / a)%Q) by (apply Qle_shift_div_l; lra).
  setoid_replace v with (a * (v / a))%Q at 1 by (field; lra).
  rewrite (Qmult_comm (v / a) b). apply Qmult_le_compat_r; assumption.
Qed.

Lemma quot_num_mono (v v' a : Q) : (0 < a -> v <= v' -> v / a <= v' / a)%Q.
Proof.
  intros Ha Hv. unfold Qdiv. apply Qmult_le_compat_r; [exact Hv|].
  apply Qlt_le_weak, Qinv_lt_0_compat, Ha.
Qed.

Lemma divisor_mono_le (d : Z -> Q) : (forall k, 0 <= k -> (d k <= d (k + 1)%Z)%Q) ->
  forall i j, 0 <= i <= j -> (d i <= d j)%Q.
Proof.
  intros Hm i j [Hi Hij].
  replace j with (i + Z.of_nat (Z.to_nat (j - i))) by lia.
  induction (Z.to_nat (j - i)) as [|k IH].
  - rewrite Z.add_0_r. lra.
  - replace (i + Z.of_nat (S k)) with (i + Z.of_nat k + 1) by lia.
    apply (Qle_trans _ _ _ IH). apply Hm. lia.
Qed.

Section HAP.
  Variable d : Z -> Q.
  Variable votes : list (C * Q).
  Variable caps : list (C * Z).
  Variable prev : list (C * Z).
  Variable n : Z.
  Hypothesis Hpos : forall k, 0 <= k -> (0 < d k)%Q.
  Hypothesis Hmono : forall k, 0 <= k -> (d k <= d (k + 1))%Q.
  Hypothesis Hvotes : forall c v, In (c, v) votes -> (0 <= v)%Q.
  Hypothesis Hnd : NoDup (map fst votes).
  Hypothesis Hprev : forall c, 0 <= dget_or prev c 0.

  Notation cap := (cap_of caps n).
  Notation step := (step d votes caps n).
  Notation loop := (loop d votes caps n).
  Notation pop_reinsert := (pop_reinsert d votes caps n).
  Definition tot (s : state) (c : C) : Z := dget_or (st_totals s) c 0.
  Definition tot_of (t : list (C * Z)) (c : C) : Z := dget_or t c 0.

  (* an item of the quotient list is "right" w.r.t. a totals map *)
  Definition item_ok (t : list (C * Z)) (it : qitem) : Prop :=
    exists v, dget votes (fst it) = Some v /\ snd it = (v / d (tot_of t (fst it)))%Q /\
              0 <= tot_of t (fst it) < cap (fst it).

  (* re-insertion of a popped batch, as a fold *)
  Definition reins1 (t : list (C * Z)) (acc : list qitem) (b : qitem) : list qitem :=
    let c := fst b in
    if tot_of t c <? cap c
    then match dget votes c with
         | Some v => insert_after_ge (c, (v / d (tot_of t c))%Q) acc
         | None => acc
         end
    else acc.
  Definition reins (t : list (C * Z)) (batch rest : list qitem) : list qitem :=
    fold_left (reins1 t) batch rest.

  Definition newq (t : list (C * Z)) (b : qitem) : list qitem :=
    let c := fst b in
    if tot_of t c <? cap c
    then match dget votes c with Some v => [(c, (v / d (tot_of t c))%Q)] | None => [] end
    else [].

  Lemma reins1_perm t acc b : Permutation (reins1 t acc b) (newq t b ++ acc).
  Proof.
    unfold reins1, newq. destruct (tot_of t (fst b) <? cap (fst b)); [|reflexivity].
    destruct (dget votes (fst b)); [|reflexivity]. apply insert_after_ge_perm.
  Qed.

  Lemma reins_perm t batch : forall rest,
    Permutation (reins t batch rest) (flat_map (newq t) batch ++ rest).
  Proof.
    induction batch as [|b batch IH]; intros rest; simpl; [reflexivity|].
    unfold reins in *. simpl. rewrite IH. rewrite reins1_perm.
    rewrite <- app_assoc. rewrite !app_assoc. apply Permutation_app_tail. apply Permutation_app_comm.
  Qed.

  Lemma reins_sorted t batch : forall rest, sortedq rest -> sortedq (reins t batch rest).
  Proof.
    induction batch as [|b batch IH]; intros rest Hs; simpl; [exact Hs|].
    unfold reins in *. simpl. apply IH. unfold reins1.
    destruct (tot_of t (fst b) <? cap (fst b)); [|exact Hs].
    destruct (dget votes (fst b)); [|exact Hs]. apply insert_after_ge_sorted. exact Hs.
  Qed.

  (* the sequential pop / re-insert equals the fold, provided every new
     quotient is <= the quotients of the batch members still waiting *)
  Lemma pop_reinsert_batch t batch : forall rest,
    (forall b, In b batch -> forall x, In x (newq t b) ->
        Forall (fun y => Qle_bool (snd x) (snd y) = true) batch) ->
    pop_reinsert t (length batch) (batch ++ rest) = reins t batch rest.
  Proof.
    induction batch as [|[c x] batch IH]; intros rest H; [reflexivity|].
    change (pop_reinsert t (length batch) (reins1 t (batch ++ rest) (c, x)) = reins t batch (reins1 t rest (c, x))).
    rewrite <- IH by (intros b Hb y Hy; exact (Forall_inv_tail (H b (or_intror Hb) y Hy))).
    f_equal. pose proof (fun y Hy => Forall_inv_tail (H (c, x) (or_introl eq_refl) y Hy)) as Hc. revert Hc.
    unfold reins1, newq. simpl fst. destruct (_ <? _); [|reflexivity]. destruct (dget votes c) as [v|]; [|reflexivity].
    intros Hc. apply insert_after_ge_prefix, Hc. left. reflexivity.
  Qed.

  (* The loop invariant. *)
  Record Inv (s : state) : Prop := {
    (* a party is queued at most once *)
    inv_nodup : NoDup (map fst (st_qs s));
    (* a queued party is below its cap and waits with the quotient for its next seat *)
    inv_items : Forall (item_ok (st_totals s)) (st_qs s);
    (* the queue is in descending order of quotient *)
    inv_sorted : sortedq (st_qs s);
    (* no waiting quotient exceeds one already awarded *)
    inv_optimal : forall a, In a (st_awards s) ->
                   Forall (fun y => (snd y <= snd a)%Q) (st_qs s);
    (* totals respect the caps; a previous gain may exceed the cap, and such a party gets nothing more *)
    inv_caps : forall c, tot s c <= cap c \/ tot s c = dget_or prev c 0;
    inv_nonneg : forall c, 0 <= tot s c;
    (* every party with votes that is below its cap is queued *)
    inv_complete : forall c v, In (c, v) votes -> tot s c < cap c -> In c (map fst (st_qs s));
    (* the previous gains may exceed the house: the remainder is then negative from the start and nothing is awarded *)
    inv_rem : 0 <= st_rem s \/ st_awards s = [];
    (* a total is the previous gain plus the awards made to the party *)
    inv_account : forall c, tot s c = dget_or prev c 0 + count c (map fst (st_awards s));
    (* every award is the quotient of a seat its party now holds *)
    inv_awards : Forall (fun a => exists v j, dget votes (fst a) = Some v /\ snd a = (v / d j)%Q /\
                                   dget_or prev (fst a) 0 <= j < tot s (fst a)) (st_awards s);
    (* seats left, seats awarded and seats withheld by a tie make up the house less the previous gains *)
    inv_remacc : st_rem s + Z.of_nat (length (st_awards s))
                 + (match st_tie s with Some (_, r) => r | None => 0 end) = n - zsum (map snd prev);
    (* a reported tie ends the allocation; it is the top level of the queue and has more members than seats *)
    inv_tie : forall T r, st_tie s = Some (T, r) ->
               st_rem s = 0 /\ 0 < r < Z.of_nat (length T) /\
               exists m, (exists c0, In (c0, m) (st_qs s)) /\
                         Forall (fun y => (snd y <= m)%Q) (st_qs s) /\
                         Permutation T (map fst (filter (fun y => Qeq_bool (snd y) m) (st_qs s)))
  }.

  Lemma waits_in_queue s c v : Inv s -> In (c, v) votes -> tot s c < cap c -> In (c, (v / d (tot s c))%Q) (st_qs s).
  Proof.
    intros I Hc Hlt. pose proof (inv_complete _ I c v Hc Hlt) as Hk.
    apply in_map_iff in Hk. destruct Hk as ([c0 x] & Hc0 & Hy). simpl in Hc0. subst c0.
    destruct (proj1 (Forall_forall _ _) (inv_items _ I) _ Hy) as (v0 & Hv0 & Hx & _).
    simpl in Hv0, Hx. rewrite (In_dget _ _ _ Hnd Hc) in Hv0. injection Hv0 as <-. unfold tot. unfold tot_of in Hx. rewrite <- Hx. exact Hy.
  Qed.

  Lemma nodup_app_inv {X} (a b : list X) : NoDup (a ++ b) ->
    NoDup a /\ NoDup b /\ (forall x, In x a -> ~ In x b).
  Proof. exact (proj1 (nodup_app_iff a b)). Qed.

  Lemma Permutation_filter' {X} (f : X -> bool) (l l' : list X) :
    Permutation l l' -> Permutation (filter f l) (filter f l').
  Proof.
    induction 1 as [|x l l' _ IH|x y l|l l' l'' _ IH1 _ IH2]; simpl.
    - reflexivity.
    - destruct (f x); [constructor|]; exact IH.
    - destruct (f x), (f y); try reflexivity. apply perm_swap.
    - etransitivity; eassumption.
  Qed.

  Lemma head_max c0 m qs' : sortedq ((c0, m) :: qs') ->
    Forall (fun y => (snd y <= m)%Q) ((c0, m) :: qs').
  Proof.
    intros H. inversion H as [|? ? _ Hall]; subst. constructor; [apply Qle_refl|].
    eapply Forall_impl; [|exact Hall]. intros y Hy. apply Qle_bool_iff. exact Hy.
  Qed.

  Lemma sortedq_app_r (a b : list qitem) : sortedq (a ++ b) -> sortedq b.
  Proof.
    induction a as [|x a IH]; simpl; intros H; [exact H|]. inversion H; subst. apply IH. assumption.
  Qed.

  Lemma rest_below m (batch rest : list qitem) :
    batch <> [] -> sortedq (batch ++ rest) ->
    Forall (fun y => Qeq_bool (snd y) m = true) batch ->
    (match rest with [] => True | y :: _ => Qeq_bool (snd y) m = false end) ->
    Forall (fun y => Qeq_bool (snd y) m = false) rest.
  Proof.
    intros Hne Hs Hb Hr. destruct rest as [|y0 rest]; [constructor|]. constructor; [exact Hr|].
    destruct batch as [|b batch]; [congruence|]. apply Forall_inv, Qeq_bool_iff in Hb.
    inversion Hs as [|? ? Hs' Hb0]; subst.
    apply Forall_app, proj2, Forall_inv, Qle_bool_iff in Hb0.
    apply sortedq_app_r in Hs'. inversion Hs' as [|? ? _ Hall]; subst.
    eapply Forall_impl; [|exact Hall]. intros y Hy. apply Qle_bool_iff in Hy.
    apply not_true_iff_false. intros E. apply Qeq_bool_iff in E.
    apply not_true_iff_false in Hr. apply Hr, Qeq_bool_iff. lra.
  Qed.

  Lemma run_length_pos c0 m qs' : (1 <= run_length m ((c0, m) :: qs'))%nat.
  Proof. simpl. rewrite (Qeq_bool_refl m). lia. Qed.

  (* a sorted queue splits into the run of items level with its head and the items below *)
  Lemma head_run c0 m qs' : let qs := @cons qitem (c0, m) qs' in
    sortedq qs -> exists batch rest, qs = batch ++ rest /\ batch <> [] /\
      firstn (run_length m qs) qs = batch /\ run_length m qs = length batch /\
      Forall (fun y => Qeq_bool (snd y) m = true) batch /\
      Forall (fun y => Qeq_bool (snd y) m = false) rest /\
      Forall (fun y => (snd y <= m)%Q) qs.
  Proof.
    intros qs Hs. destruct (run_split_ex m qs) as (batch & rest & Hqs & Hlen & Hfb & Hbm & Hrest0).
    assert (Hbne : batch <> []).
    { intros E. assert (Hk : (1 <= run_length m qs)%nat) by apply run_length_pos.
      rewrite <- Hlen, E in Hk. inversion Hk. }
    exists batch, rest. repeat split; try assumption; [symmetry; exact Hlen| |exact (head_max c0 m qs' Hs)].
    apply (rest_below m batch rest Hbne); [rewrite <- Hqs; exact Hs|exact Hbm|exact Hrest0].
  Qed.

  Lemma tot_fold_incr t ks c : tot_of (fold_left incr ks t) c = tot_of t c + count c ks.
  Proof. unfold tot_of, incr. apply dget_or_fold_incr. Qed.

  Lemma tot_elect t (batch : list qitem) c :
    tot_of (fold_left incr (map fst (rev batch)) t) c = tot_of t c + count c (map fst batch).
  Proof. rewrite tot_fold_incr, map_rev, count_rev. reflexivity. Qed.

  Lemma elect_totals t (batch : list qitem) : NoDup (map fst batch) ->
    let t' := fold_left incr (map fst (rev batch)) t in
    (forall c, In c (map fst batch) -> tot_of t' c = tot_of t c + 1) /\
    (forall c, ~ In c (map fst batch) -> tot_of t' c = tot_of t c).
  Proof.
    intros Hndb t'. split; intros c Hc; unfold t'; rewrite tot_elect;
      [rewrite (count_nodup _ _ Hndb Hc)|rewrite (count_notin _ _ Hc)]; lia.
  Qed.

  Lemma newq_keys t batch L :
    NoDup (map fst batch ++ L) -> NoDup (map fst (flat_map (newq t) batch) ++ L).
  Proof.
    apply flat_map_keys_nodup. intros b. unfold newq.
    destruct (_ <? _); [destruct (dget votes (fst b))|]; eauto.
  Qed.

  Lemma item_ok_same_tot t t' it : tot_of t' (fst it) = tot_of t (fst it) -> item_ok t it -> item_ok t' it.
  Proof. unfold item_ok. intros ->. tauto. Qed.

  Lemma newq_item_ok t b x : (forall c, 0 <= tot_of t c) -> In x (newq t b) -> item_ok t x.
  Proof.
    unfold newq. intros Hnn. destruct (tot_of t (fst b) <? cap (fst b)) eqn:E; [|intros []].
    destruct (dget votes (fst b)) as [v|] eqn:Ev; [|intros []]. intros [<-|[]].
    exists v. simpl. split; [exact Ev|]. split; [reflexivity|]. apply Z.ltb_lt in E. split; [apply Hnn|exact E].
  Qed.

  Lemma newq_offers t (l : list qitem) c v : In c (map fst l) -> dget votes c = Some v -> tot_of t c < cap c ->
    In c (map fst (flat_map (newq t) l)).
  Proof.
    intros Hc Hv Hlt. apply in_map_iff in Hc. destruct Hc as (b & <- & Hb).
    apply in_map_iff. exists (fst b, (v / d (tot_of t (fst b)))%Q). split; [reflexivity|].
    apply in_flat_map. exists b. split; [exact Hb|]. unfold newq. apply Z.ltb_lt in Hlt. rewrite Hlt, Hv. left. reflexivity.
  Qed.

  Lemma newq_same t b : item_ok t b -> newq t b = [b].
  Proof.
    intros (v & Hv & Hx & H0 & Hc). unfold newq. apply Z.ltb_lt in Hc. rewrite Hc, Hv.
    destruct b as [c x]. simpl in *. rewrite Hx. reflexivity.
  Qed.

  Lemma flat_map_newq_same t batch : Forall (item_ok t) batch -> flat_map (newq t) batch = batch.
  Proof.
    induction 1 as [|b batch Hb _ IH]; simpl; [reflexivity|]. rewrite (newq_same _ _ Hb), IH. reflexivity.
  Qed.

  Lemma quot_seat_mono v i j : (0 <= v)%Q -> 0 <= i <= j -> (v / d j <= v / d i)%Q.
  Proof.
    intros Hv Hij. apply quot_mono; [exact Hv|apply Hpos, Hij|apply divisor_mono_le; [exact Hmono|exact Hij]].
  Qed.

  Lemma newq_le t t' b x : item_ok t b -> tot_of t' (fst b) = tot_of t (fst b) + 1 ->
    In x (newq t' b) -> (snd x <= snd b)%Q.
  Proof.
    intros (v & Hv & Hs & H0 & _) Ht'. unfold newq. rewrite Hv, Ht', Hs.
    destruct (_ <? _); [|intros []]. intros [<-|[]]. simpl.
    apply quot_mono; [exact (Hvotes _ _ (dget_In _ _ _ Hv))|apply Hpos, H0|apply Hmono, H0].
  Qed.

  Lemma reins_Forall (P : qitem -> Prop) t batch rest :
    (forall b x, In b batch -> In x (newq t b) -> P x) -> Forall P rest -> Forall P (reins t batch rest).
  Proof.
    intros Hn Hr. eapply Permutation_Forall; [apply Permutation_sym, reins_perm|].
    apply Forall_app. split; [|exact Hr]. apply Forall_forall. intros x Hx.
    apply in_flat_map in Hx. destruct Hx as (b & Hb & Hx). exact (Hn b x Hb Hx).
  Qed.

  Lemma pop_run t m (batch rest : list qitem) :
    Forall (fun y => Qeq_bool (snd y) m = true) batch ->
    (forall b x, In b batch -> In x (newq t b) -> (snd x <= m)%Q) ->
    pop_reinsert t (length batch) (batch ++ rest) = reins t batch rest.
  Proof.
    intros Hbm Hnew. apply pop_reinsert_batch. intros b Hb x Hx.
    eapply Forall_impl; [|exact Hbm]. intros y Hy. apply Qeq_bool_iff in Hy. apply Qle_bool_iff.
    rewrite Hy. exact (Hnew b x Hb Hx).
  Qed.

  (* one step, opened: the head batch at the top level m and the rest strictly below; the batch is elected and its
     members re-inserted with their next quotients (at most m), or a tie over it is reported and the queue kept *)
  Lemma step_open s : Inv s -> st_qs s <> [] ->
    exists m batch rest,
      st_qs s = batch ++ rest /\ batch <> [] /\
      (forall y, In y (st_qs s) -> (snd y <= m)%Q) /\
      (forall b, In b batch -> (snd b == m)%Q) /\
      (forall y, In y rest -> ~ (snd y == m)%Q) /\
      NoDup (map fst batch) /\ (forall c, In c (map fst batch) -> ~ In c (map fst rest)) /\
      (forall b, In b batch -> item_ok (st_totals s) b) /\
      let t' := fold_left incr (map fst (rev batch)) (st_totals s) in
      (forall b x, In b batch -> In x (newq t' b) -> (snd x <= m)%Q) /\
      step s =
        if Z.of_nat (length batch) <=? st_rem s
        then mk_state (reins t' batch rest) t' (st_rem s - Z.of_nat (length batch)) None
                      (st_awards s ++ rev batch)
        else mk_state (reins (st_totals s) batch rest) (st_totals s) 0
                      (Some (map fst (rev batch), st_rem s)) (st_awards s).
  Proof.
    intros [Ind Iit Isorted _ _ _ _ _ _ _ _ _] Hne. unfold HighestAverages.step.
    destruct (st_qs s) as [|[c0 m] qs'] eqn:Eqs; [congruence|]. clear Hne. cbv zeta.
    destruct (head_run c0 m qs' Isorted) as (batch & rest & Hqs & Hbne & Hfb & Hlen & Hbm & Hrest & Hmax).
    cbv zeta in Hqs, Hfb, Hlen, Hmax. rewrite Hfb, Hlen. rewrite Hqs in *. clear Hfb Hlen Hqs.
    rewrite map_app in Ind. destruct (nodup_app_inv _ _ Ind) as (Hndb & _ & Hdisj).
    apply Forall_app in Iit. destruct Iit as [Hitb _].
    pose proof Hbm as Hlev. rewrite Forall_forall in Hitb, Hlev, Hrest, Hmax.
    set (t' := fold_left incr (map fst (rev batch)) (st_totals s)).
    assert (Hnew_le : forall b x, In b batch -> In x (newq t' b) -> (snd x <= m)%Q).
    { intros b x Hb Hx. pose proof (Hlev b Hb) as Hm. apply Qeq_bool_iff in Hm. rewrite <- Hm.
      exact (newq_le _ t' b x (Hitb b Hb) (proj1 (elect_totals _ batch Hndb) _ (in_map fst _ _ Hb)) Hx). }
    exists m, batch, rest. split; [reflexivity|]. split; [exact Hbne|]. split; [exact Hmax|].
    split; [intros b Hb; apply Qeq_bool_iff, Hlev, Hb|].
    split; [intros y Hy E; apply Qeq_bool_iff in E; rewrite (Hrest y Hy) in E; discriminate|].
    split; [exact Hndb|]. split; [exact Hdisj|]. split; [exact Hitb|]. split; [exact Hnew_le|].
    destruct (Z.of_nat (length batch) <=? st_rem s); f_equal; apply (pop_run _ m); try assumption.
    (* a tie: every member comes back as it was *)
    intros b x Hb Hx. rewrite (newq_same _ b (Hitb b Hb)) in Hx. destruct Hx as [<-|[]].
    apply Hmax, in_or_app. left. exact Hb.
  Qed.

  (* the head run is elected: each member gains a seat and comes back with its next quotient *)
  Lemma elect_inv m b0 batch rest t rem tie aw :
    Inv (mk_state (batch ++ rest) t rem tie aw) -> In b0 batch ->
    (forall y, In y (batch ++ rest) -> (snd y <= m)%Q) -> (forall b, In b batch -> (snd b == m)%Q) ->
    Z.of_nat (length batch) <= rem ->
    let t' := fold_left incr (map fst (rev batch)) t in
    (forall b x, In b batch -> In x (newq t' b) -> (snd x <= m)%Q) ->
    Inv (mk_state (reins t' batch rest) t' (rem - Z.of_nat (length batch)) None (aw ++ rev batch)).
  Proof.
    intros [Ind Iit Isorted Iopt Icaps Inn Icomp _ Iacc Iaw Iracc Itie] Hb0 Hmax Hlev Hle t' Hnew.
    unfold tot in *. cbn [st_qs st_totals st_rem st_tie st_awards] in *.
    rewrite map_app in Ind. destruct (nodup_app_inv _ _ Ind) as (Hndb & _ & Hdisj).
    pose proof (tot_elect t batch) as Htot'. destruct (elect_totals t batch Hndb) as [Hin_b Hnin_b].
    fold t' in Htot', Hin_b, Hnin_b. unfold item_ok, tot_of in *.
    apply Forall_app in Iit. destruct Iit as [Hitb Hitr]. rewrite Forall_forall in Hitb.
    assert (Hnn' : forall c, 0 <= dget_or t' c 0).
    { intros c. rewrite Htot'. apply Z.add_nonneg_nonneg; [apply Inn|apply count_nonneg]. }
    constructor; unfold tot, tot_of; cbn [st_qs st_totals st_rem st_tie st_awards].
    - (* inv_nodup *)
      eapply Permutation_NoDup; [apply Permutation_map, Permutation_sym, reins_perm|].
      rewrite map_app. apply newq_keys, Ind.
    - (* inv_items: the rest keeps its totals *)
      apply reins_Forall.
      + intros b x _ Hx. exact (newq_item_ok t' b x Hnn' Hx).
      + apply Forall_forall. intros y Hy.
        apply (item_ok_same_tot t); [|exact (proj1 (Forall_forall _ _) Hitr y Hy)].
        apply Hnin_b. intros Hc. exact (Hdisj _ Hc (in_map fst _ _ Hy)).
    - (* inv_sorted *)
      apply reins_sorted. exact (sortedq_app_r _ _ Isorted).
    - (* inv_optimal: every award, old or new, is at least m, and the new queue is at most m *)
      intros a Ha.
      assert (Ham : (m <= snd a)%Q).
      { apply in_app_or in Ha. destruct Ha as [Ha|Ha].
        - rewrite <- (Hlev b0 Hb0). exact (proj1 (Forall_forall _ _) (Iopt a Ha) b0 (in_or_app _ _ _ (or_introl Hb0))).
        - apply in_rev in Ha. rewrite (Hlev a Ha). apply Qle_refl. }
      apply reins_Forall.
      + intros b x Hb Hx. exact (Qle_trans _ _ _ (Hnew b x Hb Hx) Ham).
      + apply Forall_forall. intros y Hy. exact (Qle_trans _ _ _ (Hmax y (in_or_app _ _ _ (or_intror Hy))) Ham).
    - (* inv_caps: a member was below its cap *)
      intros c. destruct (in_dec Pos.eq_dec c (map fst batch)) as [Hc|Hc].
      + left. rewrite (Hin_b c Hc). apply in_map_iff in Hc. destruct Hc as (b & <- & Hb).
        destruct (Hitb b Hb) as (v & _ & _ & _ & Hcap). exact (Zlt_le_succ _ _ Hcap).
      + rewrite (Hnin_b c Hc). apply Icaps.
    - (* inv_nonneg *)
      exact Hnn'.
    - (* inv_complete: a party still below its cap was queued before, and a member is offered again *)
      intros c v Hin Hlt.
      eapply Permutation_in; [apply Permutation_map, Permutation_sym, reins_perm|].
      rewrite map_app. apply in_or_app.
      assert (Hold : In c (map fst (batch ++ rest))).
      { apply (Icomp c v Hin). rewrite Htot' in Hlt. pose proof (count_nonneg c (map fst batch)). lia. }
      rewrite map_app in Hold. apply in_app_or in Hold. destruct Hold as [Hb|Hr]; [left|right; exact Hr].
      pose proof Hb as Hb'. apply in_map_iff in Hb'. destruct Hb' as (b & <- & Hb'). destruct (Hitb b Hb') as (v' & Hv' & _).
      exact (newq_offers t' batch (fst b) v' Hb Hv' Hlt).
    - (* inv_rem *)
      left. lia.
    - (* inv_account *)
      intros c. rewrite Htot', map_app, count_app, map_rev, count_rev, (Iacc c). symmetry. apply Z.add_assoc.
    - (* inv_awards: the old awards stay below the grown totals, a member is awarded at its present total *)
      apply Forall_app. split.
      + eapply Forall_impl; [|exact Iaw]. intros a (v & j & Hv & Hs & Hj). exists v, j.
        split; [exact Hv|]. split; [exact Hs|]. rewrite Htot'. pose proof (count_nonneg (fst a) (map fst batch)). lia.
      + apply Forall_forall. intros a Ha. apply in_rev in Ha. destruct (Hitb a Ha) as (v & Hv & Hs & H0 & _).
        exists v, (dget_or t (fst a) 0). split; [exact Hv|]. split; [exact Hs|].
        rewrite (Hin_b _ (in_map fst _ _ Ha)), (Iacc (fst a)). pose proof (count_nonneg (fst a) (map fst aw)). lia.
    - (* inv_remacc: with a tie on record no seat is left, so no run fits *)
      rewrite app_length, rev_length, Nat2Z.inj_add.
      destruct tie as [[T0 r0]|].
      + destruct (Itie T0 r0 eq_refl) as (H0 & _). destruct batch; [destruct Hb0|]. simpl length in Hle. clear -Hle H0. lia.
      + clear -Iracc. lia.
    - (* inv_tie *)
      intros T r [=].
  Qed.

  (* the head run is longer than the seats left: the queue is rebuilt as it was, the run is reported as tied *)
  Lemma tie_inv m b0 batch rest t rem tie aw :
    Inv (mk_state (batch ++ rest) t rem tie aw) -> In b0 batch ->
    (forall y, In y (batch ++ rest) -> (snd y <= m)%Q) -> (forall b, In b batch -> (snd b == m)%Q) ->
    (forall y, In y rest -> ~ (snd y == m)%Q) ->
    0 < rem < Z.of_nat (length batch) ->
    Inv (mk_state (reins t batch rest) t 0 (Some (map fst (rev batch), rem)) aw).
  Proof.
    intros [Ind Iit Isorted Iopt Icaps Inn Icomp _ Iacc Iaw Iracc Itie] Hb0 Hmax Hlev Hrest Hrem.
    unfold tot in *. cbn [st_qs st_totals st_rem st_tie st_awards] in *.
    assert (Hperm : Permutation (batch ++ rest) (reins t batch rest)).
    { rewrite reins_perm, (flat_map_newq_same t batch (proj1 (proj1 (Forall_app _ _ _) Iit))). reflexivity. }
    constructor; unfold tot; cbn [st_qs st_totals st_rem st_tie st_awards].
    - (* inv_nodup *) exact (Permutation_NoDup (Permutation_map fst Hperm) Ind).
    - (* inv_items *) exact (Permutation_Forall Hperm Iit).
    - (* inv_sorted *) apply reins_sorted. exact (sortedq_app_r _ _ Isorted).
    - (* inv_optimal *) intros a Ha. exact (Permutation_Forall Hperm (Iopt a Ha)).
    - (* inv_caps *) exact Icaps.
    - (* inv_nonneg *) exact Inn.
    - (* inv_complete *) intros c v Hin Hlt. exact (Permutation_in _ (Permutation_map fst Hperm) (Icomp c v Hin Hlt)).
    - (* inv_rem *) left. lia.
    - (* inv_account *) exact Iacc.
    - (* inv_awards *) exact Iaw.
    - (* inv_remacc *)
      destruct tie as [[T0 r0]|]; [destruct (Itie T0 r0 eq_refl) as (H0 & _); clear -H0 Hrem|clear -Iracc]; lia.
    - (* inv_tie: the level is that of any member of the run *)
      intros T r [= <- <-]. split; [reflexivity|]. split; [rewrite map_length, rev_length; exact Hrem|].
      pose proof (Hlev b0 Hb0) as Hm. exists (snd b0).
      split; [exists (fst b0); rewrite <- surjective_pairing; apply (Permutation_in _ Hperm), in_or_app; left; exact Hb0|].
      split; [apply (Permutation_Forall Hperm), Forall_forall; intros y Hy; rewrite Hm; exact (Hmax y Hy)|].
      rewrite map_rev. etransitivity; [apply Permutation_sym, Permutation_rev|]. apply Permutation_map.
      etransitivity; [|apply Permutation_filter', Hperm].
      rewrite filter_app, filter_all, filter_none, app_nil_r; [reflexivity| |]; apply Forall_forall; intros y Hy.
      + apply not_true_iff_false. intros E. apply Qeq_bool_iff in E. apply (Hrest y Hy). rewrite E. exact Hm.
      + apply Qeq_bool_iff. rewrite Hm. exact (Hlev y Hy).
  Qed.

  Lemma step_inv s : Inv s -> 0 < st_rem s -> st_qs s <> [] -> Inv (step s).
  Proof.
    intros I Hrem Hne.
    destruct (step_open s I Hne) as (m & batch & rest & Hqs & Hbne & Hmax & Hlev & Hrest & _ & _ & _ & Hnew & ->).
    destruct s as [qs t rem tie aw]. cbn [st_qs st_totals st_rem st_tie st_awards] in *. subst qs.
    destruct batch as [|b0 batch0]; [congruence|]. set (batch := b0 :: batch0) in *.
    assert (Hb0 : In b0 batch) by (left; reflexivity).
    destruct (Z.leb_spec (Z.of_nat (length batch)) rem) as [Hle|Hgt].
    - exact (elect_inv m b0 batch rest t rem tie aw I Hb0 Hmax Hlev Hle Hnew).
    - exact (tie_inv m b0 batch rest t rem tie aw I Hb0 Hmax Hlev Hrest (conj Hrem Hgt)).
  Qed.

  Definition init_item (cv : C * Q) : list (C * Q) :=
    let (c, v) := cv in
    let t := dget_or prev c 0 in
    if Qle_bool (d t) 0 then [] else
    if t <? cap c then [(c, (v / d t)%Q)] else [].

  Lemma initial_quotients_eq :
    initial_quotients d votes prev caps n = rev (@sort_asc C Q Qle_bool (flat_map init_item votes)).
  Proof. reflexivity. Qed.

  (* with positive divisors the first quotients are those that re-insertion offers under the previous gains *)
  Lemma init_items_newq : flat_map init_item votes = flat_map (newq prev) votes.
  Proof.
    rewrite !flat_map_concat_map. f_equal. apply map_ext_in. intros [c v] Hin.
    unfold init_item, newq, tot_of. simpl fst. rewrite (In_dget _ _ _ Hnd Hin).
    destruct (Qle_bool (d (dget_or prev c 0)) 0) eqn:E; [|reflexivity].
    apply Qle_bool_iff in E. pose proof (Hpos _ (Hprev c)). lra.
  Qed.

  Lemma init_inv : Inv (init_state d votes n prev caps).
  Proof.
    unfold init_state. rewrite initial_quotients_eq, init_items_newq.
    set (items := flat_map (newq prev) votes).
    assert (Hperm : Permutation items (rev (@sort_asc C Q Qle_bool items))).
    { rewrite <- Permutation_rev. symmetry. apply sort_asc_perm. }
    constructor; simpl.
    - (* inv_nodup *) apply (Permutation_NoDup (Permutation_map fst Hperm)).
      rewrite <- app_nil_r. apply newq_keys. rewrite app_nil_r. exact Hnd.
    - (* inv_items *) apply (Permutation_Forall Hperm), Forall_forall. intros y Hy.
      apply in_flat_map in Hy. destruct Hy as (b & _ & Hy). exact (newq_item_ok prev b y Hprev Hy).
    - (* inv_sorted *) apply sorted_rev_asc, (sort_asc_sorted Qle_bool Qle_bool_total Qle_bool_trans).
    - (* inv_optimal *) intros a [].
    - (* inv_caps *) intros c. right. reflexivity.
    - (* inv_nonneg *) intros c. apply Hprev.
    - (* inv_complete *) intros c v Hin Hlt. apply (Permutation_in _ (Permutation_map fst Hperm)).
      exact (newq_offers prev votes c v (in_map fst _ _ Hin) (In_dget _ _ _ Hnd Hin) Hlt).
    - (* inv_rem *) right. reflexivity.
    - (* inv_account *) intros c. unfold tot. simpl. lia.
    - (* inv_awards *) constructor.
    - (* inv_remacc *) lia.
    - (* inv_tie *) intros T r [=].
  Qed.

  Lemma loop_ind (P : state -> Prop) :
    (forall s, P s -> 0 < st_rem s -> st_qs s <> [] -> P (step s)) ->
    forall fuel s, P s -> P (loop fuel s).
  Proof.
    intros Hstep. induction fuel as [|f IH]; intros s HP; simpl; [exact HP|].
    destruct (0 <? st_rem s) eqn:E1; simpl; [|exact HP]. destruct (st_qs s) eqn:E2; simpl; [exact HP|].
    apply IH, Hstep; [exact HP|apply Z.ltb_lt, E1|rewrite E2; discriminate].
  Qed.

  Lemma step_rem s : 0 < st_rem s -> st_qs s <> [] -> st_rem (step s) <= st_rem s - 1.
  Proof.
    intros Hr Hne. unfold HighestAverages.step. destruct (st_qs s) as [|[c0 m] qs'] eqn:E; [congruence|].
    cbv zeta. pose proof (run_length_pos c0 m qs') as Hk.
    set (k := run_length m _) in *. clearbody k.
    destruct (_ <=? _) eqn:El; cbn [st_rem]; [apply Z.leb_le in El|]; lia.
  Qed.

  Lemma loop_exit fuel : forall s, st_rem s <= Z.of_nat fuel ->
    st_rem (loop fuel s) <= 0 \/ st_qs (loop fuel s) = [].
  Proof.
    induction fuel as [|f IH]; intros s Hf; simpl.
    - left. lia.
    - destruct (0 <? st_rem s) eqn:E1; simpl; [|left; apply Z.ltb_ge; exact E1].
      destruct (st_qs s) eqn:E2; simpl; [right; exact E2|].
      apply IH. apply Z.ltb_lt in E1.
      assert (st_rem (step s) <= st_rem s - 1) by (apply step_rem; [exact E1|rewrite E2; discriminate]). lia.
  Qed.

  Notation fin := (final_state d votes n prev caps).

  Lemma final_inv : Inv fin.
  Proof. unfold final_state. apply (loop_ind Inv step_inv), init_inv. Qed.

  (* the last seat of every party was awarded at its exact quotient *)
  Definition last_award (s : state) : Prop :=
    forall c, dget_or prev c 0 < tot s c ->
      exists v, dget votes c = Some v /\ In (c, (v / d (tot s c - 1))%Q) (st_awards s).

  Lemma step_last_award s : Inv s -> last_award s -> last_award (step s).
  Proof.
    intros [Ind Iit Isorted _ _ _ _ _ _ _ _ _] L. unfold HighestAverages.step.
    destruct (st_qs s) as [|[c0 m] qs'] eqn:Eqs; [exact L|]. cbv zeta.
    destruct (head_run c0 m qs' Isorted) as (batch & rest & Hqs & _ & Hfb & _). cbv zeta in Hqs, Hfb. rewrite Hfb.
    destruct (_ <=? st_rem s); [|exact L].
    rewrite Hqs, map_app in Ind. apply nodup_app_inv, proj1 in Ind.
    rewrite Hqs in Iit. apply Forall_app, proj1 in Iit. rewrite Forall_forall in Iit.
    destruct (elect_totals (st_totals s) batch Ind) as [Hin_b Hnin_b].
    intros c. unfold tot. cbn [st_totals st_awards]. fold (tot_of (fold_left incr (map fst (rev batch)) (st_totals s)) c).
    destruct (in_dec Pos.eq_dec c (map fst batch)) as [Hin|Hnin].
    - intros _. rewrite (Hin_b c Hin), Z.add_simpl_r. apply in_map_iff in Hin. destruct Hin as ([c' x] & Hfst & Hb).
      simpl in Hfst. subst c'. destruct (Iit _ Hb) as (v & Hv & Hsnd & _). simpl in Hv, Hsnd.
      exists v. split; [exact Hv|]. apply in_or_app. right. apply -> in_rev. rewrite <- Hsnd. exact Hb.
    - rewrite (Hnin_b c Hnin). intros Hc. destruct (L c Hc) as (v & Hv & Hin). exists v.
      split; [exact Hv|]. apply in_or_app. left. exact Hin.
  Qed.

  Lemma loop_last_award fuel s : Inv s -> last_award s -> last_award (loop fuel s).
  Proof.
    intros I L. apply (loop_ind (fun s => Inv s /\ last_award s)); [|split; assumption].
    intros s' [I' L'] Hrem Hne. split; [apply step_inv|apply step_last_award]; assumption.
  Qed.

  Lemma final_last_award : last_award fin.
  Proof. apply loop_last_award; [exact init_inv|]. intros c Hc. destruct (Z.lt_irrefl _ Hc). Qed.

  Theorem ha_caps : forall c, dget_or prev c 0 <= cap c -> tot fin c <= cap c.
  Proof. intros c Hc. destruct (inv_caps _ final_inv c); lia. Qed.

  Theorem ha_optimal : forall c v a, In (c, v) votes -> tot fin c < cap c -> In a (st_awards fin) ->
    (v / d (tot fin c) <= snd a)%Q.
  Proof.
    intros c v a Hin Hlt Ha.
    exact (proj1 (Forall_forall _ _) (inv_optimal _ final_inv a Ha) _ (waits_in_queue fin c v final_inv Hin Hlt)).
  Qed.

  Theorem ha_awards_genuine : forall a, In a (st_awards fin) ->
    exists v j, In (fst a, v) votes /\ snd a = (v / d j)%Q /\ dget_or prev (fst a) 0 <= j < tot fin (fst a).
  Proof.
    intros a Ha. pose proof (inv_awards _ final_inv) as H. rewrite Forall_forall in H.
    destruct (H a Ha) as (v & j & Hv & Hs & Hj). exists v, j. split; [apply dget_In; exact Hv|tauto].
  Qed.

  Theorem ha_account : forall c, tot fin c = dget_or prev c 0 + count c (map fst (st_awards fin)).
  Proof. exact (inv_account _ final_inv). Qed.

  Theorem ha_total : 0 <= n - zsum (map snd prev) ->
    st_rem fin + Z.of_nat (length (st_awards fin))
      + (match st_tie fin with Some (_, r) => r | None => 0 end) = n - zsum (map snd prev) /\
    (st_rem fin = 0 \/
     (st_qs fin = [] /\ 0 <= st_rem fin /\ forall c v, In (c, v) votes -> cap c <= tot fin c)).
  Proof.
    intros Hn. pose proof final_inv as I. split; [exact (inv_remacc _ I)|].
    assert (Hrem : 0 <= st_rem fin).
    { destruct (inv_rem _ I) as [H|H]; [exact H|].
      pose proof (inv_remacc _ I) as Hacc. rewrite H in Hacc. simpl in Hacc.
      destruct (st_tie fin) as [[T r]|] eqn:Et; [destruct (inv_tie _ I T r Et); lia|lia]. }
    assert (Hexit : st_rem fin <= 0 \/ st_qs fin = []).
    { unfold final_state. apply loop_exit. simpl. lia. }
    destruct Hexit as [H|H]; [left; lia|].
    right. split; [exact H|]. split; [exact Hrem|].
    intros c v Hin. destruct (Z.lt_ge_cases (tot fin c) (cap c)) as [Hlt|Hge]; [|lia].
    pose proof (inv_complete _ I c v Hin Hlt) as Hk. rewrite H in Hk. destruct Hk.
  Qed.

  Theorem ha_tie : forall T r, st_tie fin = Some (T, r) ->
    st_rem fin = 0 /\ 0 < r < Z.of_nat (length T) /\
    exists m, (exists c0, In (c0, m) (st_qs fin)) /\
              Forall (fun y => (snd y <= m)%Q) (st_qs fin) /\
              Permutation T (map fst (filter (fun y => Qeq_bool (snd y) m) (st_qs fin))).
  Proof. exact (inv_tie _ final_inv). Qed.

  Theorem ha_queue : NoDup (map fst (st_qs fin)) /\ sortedq (st_qs fin) /\
    Forall (fun it => exists v, In (fst it, v) votes /\ snd it = (v / d (tot fin (fst it)))%Q /\
                                0 <= tot fin (fst it) < cap (fst it)) (st_qs fin).
  Proof.
    pose proof final_inv as I. split; [exact (inv_nodup _ I)|]. split; [exact (inv_sorted _ I)|].
    eapply Forall_impl; [|exact (inv_items _ I)]. intros it (v & Hv & Hs & Hb). exists v.
    split; [apply dget_In; exact Hv|]. split; [exact Hs|exact Hb].
  Qed.
End HAP.

Definition gain_item (prev : list (C * Z)) (ct : C * Z) : list (C * Z) :=
  let (c, t) := ct in let g := t - dget_or prev c 0 in if 0 <? g then [(c, g)] else [].

(* with a seat to give, a positive first divisor and no caps, every party enters the queue *)
Lemma initial_quotients_nonempty (d : Z -> Q) votes n : (0 < d 0%Z)%Q -> 0 < n -> votes <> [] ->
  initial_quotients d votes [] [] n <> [].
Proof.
  intros Hd Hn Hne. unfold initial_quotients. intros E. apply (f_equal (@length _)) in E. rewrite rev_length in E.
  rewrite (Permutation_length (sort_asc_perm _)) in E.
  destruct votes as [|[c v] t]; [apply Hne; reflexivity|]. cbn [flat_map] in E.
  unfold cap_of, dget_or in E. cbn [dget] in E.
  assert (Eq : Qle_bool (d 0) 0 = false) by (destruct (Qle_bool (d 0) 0) eqn:E0; [apply Qle_bool_iff in E0; lra|reflexivity]).
  assert (En : 0 <? n = true) by (apply Z.ltb_lt; exact Hn).
  rewrite Eq, En in E. simpl in E. discriminate.
Qed.

Lemma evaluate_ok d v n p c gains tie : evaluate d v n p c = HA_ok gains tie ->
  gains = flat_map (gain_item p) (st_totals (final_state d v n p c)) /\ tie = st_tie (final_state d v n p c).
Proof.
  unfold evaluate. destruct (initial_quotients d v p c n); [discriminate|]. intros [= <- <-]. split; reflexivity.
Qed.

Lemma gain_item_pos p totals : Forall (fun cs : C * Z => 0 < snd cs) (flat_map (gain_item p) totals).
Proof.
  apply Forall_forall. intros x Hx. apply in_flat_map in Hx. destruct Hx as ([c t] & _ & Hx).
  unfold gain_item in Hx. destruct (0 <? _) eqn:E; [|destruct Hx]. destruct Hx as [<-|[]]. apply Z.ltb_lt, E.
Qed.

Lemma gain_item_keys p totals : NoDup (map fst totals) -> NoDup (map fst (flat_map (gain_item p) totals)).
Proof. apply flat_map_keys_nodup0. intros [c t]. unfold gain_item. destruct (0 <? _); eauto. Qed.
