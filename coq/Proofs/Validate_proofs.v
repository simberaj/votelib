(* Validators (Model/Validate.v): acceptance is exactly the declarative rule. *)
From Coq Require Import ZArith QArith List Bool Lia.
From VL Require Import Model.Validate.
Import ListNotations.
Open Scope Z_scope.

Lemma andthen_ok a b : andthen a b = VOk <-> a = VOk /\ b = VOk.
Proof. destruct a; simpl; intuition congruence. Qed.

Lemma check_ok b e : e <> VOk -> (check b e = VOk <-> b = true).
Proof. intros He. unfold check. destruct b; intuition congruence. Qed.

Lemma all_checks_ok {X} (f : X -> vresult) l : all_checks f l = VOk <-> Forall (fun x => f x = VOk) l.
Proof.
  induction l as [|x t IH]; simpl; [split; [constructor|reflexivity]|].
  rewrite andthen_ok, IH. split; [intros [H1 H2]; constructor; assumption|intros H; inversion H; tauto].
Qed.

Lemma vote_ne : VVoteError <> VOk. Proof. discriminate. Qed.
Lemma cand_ne : VCandError <> VOk. Proof. discriminate. Qed.

Lemma all_checks_check {X} (p : X -> bool) e l : e <> VOk ->
  (all_checks (fun x => check (p x) e) l = VOk <-> Forall (fun x => p x = true) l).
Proof.
  intros He. rewrite all_checks_ok. split; intros H; (eapply Forall_impl; [|exact H]); intros x; apply (check_ok _ _ He).
Qed.

Theorem simple_iff nm v : validate_simple nm v = VOk <-> nominate nm v = true.
Proof. unfold validate_simple. apply check_ok, cand_ne. Qed.

Theorem approval_iff nm cnt v : validate_approval nm cnt v = VOk <->
  exists l, v = OFrozen l /\ Forall (fun o => nominate nm o = true) l /\ in_bounds cnt (qnat (length l)) = true.
Proof.
  unfold validate_approval. destruct v; try (split; [discriminate|intros (l0 & H & _); discriminate]).
  rewrite andthen_ok, (all_checks_check _ _ _ cand_ne), (check_ok _ _ vote_ne). split.
  - intros [H1 H2]. exists l. split; [reflexivity|]. split; assumption.
  - intros (l0 & [= <-] & H1 & H2). split; assumption.
Qed.

Definition flat_item (o : pyobj) : list pyobj := match o with OFrozen l => l | _ => [o] end.
Definition flatten (items : list pyobj) : list pyobj := flat_map flat_item items.
Definition distinct (l : list pyobj) : list pyobj := fold_left (fun s o => add_set o s) l [].
Definition not_list (o : pyobj) : Prop := match o with OList _ => False | _ => True end.

(* rank bounds: the i-th item (1-based from [start]) if it is a shared rank *)
Fixpoint ranks_ok (ranks : keyed_bounds) (rank_i : Z) (items : list pyobj) : Prop :=
  match items with
  | [] => True
  | o :: t => (match o with
               | OFrozen l => in_bounds (kb_get ranks (rank_i + 1)) (qnat (length l)) = true
               | _ => hashable o = true        (* no list, no tuple holding a list: set.add raises TypeError on those *)
               end) /\ ranks_ok ranks (rank_i + 1) t
  end.

Lemma ranked_scan_spec ranks items : forall rank_i total cands,
  (ranks_ok ranks rank_i items ->
   ranked_scan ranks rank_i items total cands =
     (VOk, (total + length (flatten items))%nat, fold_left (fun s o => add_set o s) (flatten items) cands)) /\
  (forall t' c', ranked_scan ranks rank_i items total cands = (VOk, t', c') -> ranks_ok ranks rank_i items).
Proof.
  induction items as [|o t IH]; intros rank_i total cands.
  - simpl. split; [intros _; rewrite Nat.add_0_r; reflexivity|intros; exact I].
  - assert (Hgen : forall o0, (match o0 with OFrozen _ => False | _ => True end) ->
        ranked_scan ranks rank_i (o0 :: t) total cands =
        if hashable o0 then ranked_scan ranks (rank_i + 1) t (total + 1) (add_set o0 cands) else (VCrash, total, cands)).
    { intros o0 H0. destruct o0; try reflexivity. destruct H0. }
    destruct o as [k i|n d| |lt|lf|ll].
    1,2,3,4,6: (match goal with |- context [ranked_scan _ _ (?x :: _) _ _] =>
      rewrite Hgen by exact I;
      destruct (IH (rank_i + 1) (total + 1)%nat (add_set x cands)) as [IH1 IH2];
      destruct (hashable x) eqn:Eh end;
      [split; [intros [_ H]; rewrite (IH1 H); simpl; f_equal; f_equal; lia
              |intros t' c' H; split; [exact Eh|eapply IH2; exact H]]
      |split; [intros [H _]; congruence|intros t' c' H; discriminate]]).
    + (* OFrozen *)
      simpl. destruct (in_bounds (kb_get ranks (rank_i + 1)) (qnat (length lf))) eqn:E.
      * destruct (IH (rank_i + 1) (total + length lf)%nat (fold_left (fun s o => add_set o s) lf cands)) as [IH1 IH2].
        split.
        -- intros [_ H]. rewrite (IH1 H). rewrite app_length, fold_left_app. f_equal. f_equal. lia.
        -- intros t' c' H. split; [reflexivity|eapply IH2; exact H].
      * split; [intros [H _]; discriminate|intros t' c' H; discriminate].
Qed.

Theorem ranked_iff nm tot ranks v : validate_ranked nm tot ranks v = VOk <->
  exists items, v = OTuple items /\ ranks_ok ranks 0 items /\
    in_bounds tot (qnat (length (flatten items))) = true /\
    length (distinct (flatten items)) = length (flatten items) /\
    Forall (fun o => nominate nm o = true) (distinct (flatten items)).
Proof.
  unfold validate_ranked. destruct v; try (split; [discriminate|intros (l0 & H & _); discriminate]).
  destruct (ranked_scan_spec ranks l 0 0%nat []) as [S1 S2].
  split.
  - destruct (ranked_scan ranks 0 l 0 []) as [[r total] cands] eqn:E.
    destruct r; try discriminate. intros H.
    pose proof (S2 total cands eq_refl) as Hr. pose proof (S1 Hr) as E2. injection E2 as Ht Hc. subst total cands.
    rewrite !andthen_ok, !(check_ok _ _ vote_ne), (all_checks_check _ _ _ cand_ne) in H. destruct H as (H1 & H2 & H3).
    exists l. split; [reflexivity|]. split; [exact Hr|]. simpl in *. split; [exact H1|]. split.
    + apply negb_true_iff, Nat.ltb_ge in H2. unfold distinct.
      assert (Hle : forall (xs s : list pyobj), (length (fold_left (fun s o => add_set o s) xs s) <= length s + length xs)%nat).
      { induction xs as [|x xs IHx]; intros s; simpl; [lia|]. specialize (IHx (add_set x s)).
        unfold add_set in *. destruct (existsb (obj_eqb x) s); [lia|rewrite app_length in IHx; simpl in IHx; lia]. }
      specialize (Hle (flatten l) []). simpl in Hle. lia.
    + exact H3.
  - intros (items & [= <-] & Hr & H1 & H2 & H3). rewrite (S1 Hr). simpl.
    rewrite !andthen_ok, !(check_ok _ _ vote_ne), (all_checks_check _ _ _ cand_ne). split; [exact H1|]. split; [|exact H3].
    apply negb_true_iff, Nat.ltb_ge. unfold distinct in H2. lia.
Qed.

Definition scores_numeric (l : list pyobj) : Prop := Forall (fun o => num_of (score_of o) <> None) l.

Lemma sum_scores_some l : scores_numeric l -> exists s, sum_scores l = Some s.
Proof.
  induction 1 as [|o t Ho _ IH]; simpl; [exists 0%Q; reflexivity|].
  destruct (num_of (score_of o)) as [x|]; [|congruence]. destruct IH as [s ->]. exists (x + s)%Q. reflexivity.
Qed.

Definition rule_ok (rule : score_rule) (o : pyobj) : Prop :=
  match rule with
  | SEnum levels => existsb (obj_eqb (score_of o)) levels = true
  | SRange b => match num_of (score_of o) with Some x => in_bounds b x = true | None => active b = false end
  end.

Theorem score_iff nm nsc sums rule v : validate_score nm nsc sums rule v = VOk <->
  exists l, v = OFrozen l /\
    in_bounds nsc (qnat (length l)) = true /\
    Forall (fun o => exists c s, o = OTuple [c; s] /\ nominate nm c = true) l /\
    length (distinct (map scored_cand l)) = length l /\
    (let sb := kb_get sums (Z.of_nat (length l)) in
     active sb = true -> exists s, sum_scores l = Some s /\ in_bounds sb s = true) /\
    Forall (rule_ok rule) l.
Proof.
  unfold validate_score. destruct v; try (split; [discriminate|intros (l0 & H & _); discriminate]).
  rewrite !andthen_ok, !(check_ok _ _ vote_ne), all_checks_ok.
  assert (Hitem : forall o, score_item_check nm o = VOk <-> exists c s, o = OTuple [c; s] /\ nominate nm c = true).
  { intros o. unfold score_item_check. destruct o as [| | |lo| |]; try (split; [discriminate|intros (c & s & H & _); discriminate]).
    destruct lo as [|c [|s [|x t]]]; try (split; [discriminate|intros (c0 & s0 & H & _); discriminate]).
    rewrite (check_ok _ _ cand_ne). split; [intros H; exists c, s; tauto|intros (c0 & s0 & [= -> ->] & H); exact H]. }
  assert (Hnd : nodup_objs (map scored_cand l) = true <-> length (distinct (map scored_cand l)) = length l).
  { unfold nodup_objs, distinct. rewrite Nat.eqb_eq, map_length. tauto. }
  assert (Hrule : (match rule with
                   | SEnum levels => all_checks (fun o => check (existsb (obj_eqb (score_of o)) levels) VVoteError) l
                   | SRange b => all_checks (fun o => match num_of (score_of o) with
                                                      | Some x => check (in_bounds b x) VVoteError
                                                      | None => if active b then VCrash else VOk end) l
                   end) = VOk <-> Forall (rule_ok rule) l).
  { destruct rule; [apply (all_checks_check _ _ _ vote_ne)|].
    rewrite all_checks_ok; split; intros H; (eapply Forall_impl; [|exact H]); intros o Ho; unfold rule_ok in *.
    - destruct (num_of (score_of o)); [apply (check_ok _ _ vote_ne); exact Ho|]. destruct (active b); [discriminate|reflexivity].
    - destruct (num_of (score_of o)); [apply (check_ok _ _ vote_ne); exact Ho|]. rewrite Ho. reflexivity. }
  rewrite Hrule.
  assert (Hsum : (let sb := kb_get sums (Z.of_nat (length l)) in
                  if active sb then match sum_scores l with
                                    | Some s => check (in_bounds sb s) VVoteError | None => VCrash end
                  else VOk) = VOk <->
                 (let sb := kb_get sums (Z.of_nat (length l)) in
                  active sb = true -> exists s, sum_scores l = Some s /\ in_bounds sb s = true)).
  { cbv zeta. destruct (active (kb_get sums (Z.of_nat (length l)))); [|split; [intros _ H; discriminate|reflexivity]].
    destruct (sum_scores l) as [s|].
    - rewrite (check_ok _ _ vote_ne). split; [intros H _; exists s; tauto|intros H; destruct (H eq_refl) as (s0 & [= <-] & H0); exact H0].
    - split; [discriminate|intros H; destruct (H eq_refl) as (s0 & H0 & _); discriminate]. }
  rewrite Hsum. split.
  - intros (H1 & H2 & H3 & H4 & H5). exists l. split; [reflexivity|]. split; [exact H1|]. split.
    + eapply Forall_impl; [|exact H2]. intros o. apply Hitem.
    + split; [apply Hnd, H3|]. split; assumption.
  - intros (l0 & [= <-] & H1 & H2 & H3 & H4 & H5). split; [exact H1|]. split.
    + eapply Forall_impl; [|exact H2]. intros o. apply Hitem.
    + split; [apply Hnd, H3|]. split; assumption.
Qed.

(* a rejection is a vote or candidate error, not a crash *)
Theorem simple_no_crash nm v : validate_simple nm v <> VCrash.
Proof. unfold validate_simple, check. destruct (nominate nm v); discriminate. Qed.

Lemma all_checks_no_crash {X} (f : X -> vresult) l : (forall x, In x l -> f x <> VCrash) -> all_checks f l <> VCrash.
Proof.
  induction l as [|x t IH]; simpl; intros H; [discriminate|].
  pose proof (H x (or_introl eq_refl)) as Hx. destruct (f x); simpl; try discriminate; try congruence.
  apply IH. intros y Hy. apply H. right. exact Hy.
Qed.

Theorem approval_no_crash nm cnt v : validate_approval nm cnt v <> VCrash.
Proof.
  unfold validate_approval. destruct v; try discriminate.
  assert (H : all_checks (fun o => check (nominate nm o) VCandError) l <> VCrash).
  { apply all_checks_no_crash. intros x _. unfold check. destruct (nominate nm x); discriminate. }
  destruct (all_checks _ l); simpl; try discriminate; try congruence.
  unfold check. destruct (in_bounds _ _); discriminate.
Qed.

Theorem eliminate_spec validate votes kept : eliminate validate votes = EOk kept ->
  kept = filter (fun bn => match validate (fst bn) with VOk => true | _ => false end) votes /\
  Forall (fun bn => validate (fst bn) = VOk \/ validate (fst bn) = VVoteError) votes.
Proof.
  revert kept. induction votes as [|[b n] t IH]; intros kept; simpl.
  - intros [= <-]. split; [reflexivity|constructor].
  - destruct (validate b) eqn:E; try discriminate;
      (destruct (eliminate validate t) as [k| |]; try discriminate; intros [= <-];
       destruct (IH k eq_refl) as [-> H]; split; [reflexivity|]; constructor; [(left + right); exact E|exact H]).
Qed.

Theorem eliminate_total validate votes :
  Forall (fun bn => validate (fst bn) = VOk \/ validate (fst bn) = VVoteError) votes ->
  exists kept, eliminate validate votes = EOk kept.
Proof.
  induction 1 as [|[b n] t Hb _ IH]; simpl; [exists []; reflexivity|].
  destruct IH as [k ->]. simpl in Hb. destruct Hb as [-> | ->]; eexists; reflexivity.
Qed.
