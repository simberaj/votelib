(* C10, ballot order for MajorityJudgment (Model/Cardinal.v, both tie-breakers): the same error, or [res_equiv] selections,
   whatever the insertion order of the score profile.  Built on Proofs/ScoreOrder_proofs.v (the corrected score counts of the
   two runs have the same lookups, candidate by candidate): the medians are == ; the two first-stage selections have the same
   shape (the same number of plain winners - a permutation -, the same number of tie seats, the same tie members); the
   candidates of the tie carry == medians, so MJ+ counts the same proponents; the default tie-breaker removes the same number of
   median grades from dictionaries with the same lookups, round by round. *)
From Coq Require Import ZArith QArith Qround Qabs Qreduction List Bool Arith Lia Lqa Permutation Sorted Setoid.
From VL Require Import Prelude.PyDict Model.GetNBest Model.Convert Model.Cardinal Proofs.Dict_proofs Proofs.GetNBest_proofs Proofs.QOrd
     Proofs.LRScale_proofs Proofs.MJ_proofs Proofs.MJ_removal_proofs Proofs.Order_proofs Proofs.GnbSim_proofs
     Proofs.CondorcetOrder_proofs Proofs.QDOrder_proofs Proofs.STVOrder_proofs Proofs.Shape2_proofs Proofs.PAVRename_proofs
     Proofs.ApprovalOrder_proofs Proofs.ScoreOrder_proofs.
Import ListNotations.
Open Scope Q_scope.

Definition nf (cs T : list C) (k : nat) : list (res C) := map Cand cs ++ repeat (TieR T) k.

Lemma gnb_orelD_shape (d d' : list (C * Q)) n : orelD Qeq d d' -> (1 <= n)%nat ->
  exists cs cs' T T' k, get_n_best Qle_bool d n = nf cs T k /\ get_n_best Qle_bool d' n = nf cs' T' k /\
    Permutation cs cs' /\ ((1 <= k)%nat -> Permutation T T').
Proof.
  intros H Hn. rewrite <- (gnb_nrm d n), <- (gnb_nrm d' n).
  assert (Nn : NoDup (map fst (nrm d))) by (rewrite nrm_keys; exact (proj1 H)).
  destruct (gnb_perm_shape (nrm d) (nrm d') n Hn Nn (orelD_nrm_perm d d' H)) as (cs & cs' & T & T' & k & E1 & E2 & Pcs & _ & PT).
  exists cs, cs', T, T', k. repeat split; assumption.
Qed.

Lemma gnb_orelD_nf (d d' : list (C * Q)) n : orelD Qeq d d' ->
  exists cs cs' T T' k, get_n_best Qle_bool d n = nf cs T k /\ get_n_best Qle_bool d' n = nf cs' T' k /\
    Permutation cs cs' /\ ((1 <= k)%nat -> Permutation T T').
Proof.
  intros H. destruct n as [|n]; [|apply gnb_orelD_shape; [exact H|lia]].
  exists [], [], [], [], 0%nat. rewrite !(get_n_best_0 Qle_bool Qle_bool_total). repeat split; constructor.
Qed.

Lemma res_equiv_app_cands cs cs' X X' : Permutation cs cs' -> res_equiv X X' -> res_equiv (map Cand cs ++ X) (map Cand cs' ++ X').
Proof.
  intros P [F S]. split.
  - apply Forall2_app; [|exact F]. pose proof (Permutation_length P) as L. clear P. revert cs' L.
    induction cs as [|c cs IH]; intros [|c' cs'] L; try discriminate; cbn [map]; constructor; [exact I|]. apply IH. injection L as L. exact L.
  - intros c. rewrite !in_app_iff, !in_map_iff, S. split; intros [(x & [= ->] & Hx)|H]; try (right; exact H); left; exists c; (split; [reflexivity|]).
    + apply (Permutation_in _ P Hx).
    + apply (Permutation_in _ (Permutation_sym P) Hx).
Qed.
Lemma res_equiv_repeat T T' k : Permutation T T' -> res_equiv (repeat (TieR T) k) (repeat (TieR T') k).
Proof.
  intros P. split.
  - induction k; cbn [repeat]; constructor; [exact P|assumption].
  - intros c. split; intros H; apply repeat_spec in H; discriminate.
Qed.
Lemma res_equiv_nil : res_equiv [] [].
Proof. split; [constructor|]. intros c. reflexivity. Qed.
Lemma res_equiv_nf cs cs' T T' k : Permutation cs cs' -> ((1 <= k)%nat -> Permutation T T') -> res_equiv (nf cs T k) (nf cs' T' k).
Proof.
  intros P PT. unfold nf. apply res_equiv_app_cands; [exact P|]. destruct k as [|k]; [apply res_equiv_nil|]. apply res_equiv_repeat, PT. lia.
Qed.

Lemma orel_app_cands cs cs' (r r' : list (res C) + serr) : Permutation cs cs' -> orel res_equiv r r' ->
  orel res_equiv (match r with inl x => inl (map Cand cs ++ x) | inr e => inr e end)
                 (match r' with inl x => inl (map Cand cs' ++ x) | inr e => inr e end).
Proof. intros P H. destruct r, r'; cbn [orel] in *; try contradiction; [apply res_equiv_app_cands; assumption|exact H]. Qed.

Lemma orelD_filter {X} (RV : X -> X -> Prop) (P P' : C -> bool) (D D' : list (C * X)) : (forall c, P c = P' c) -> orelD RV D D' ->
  orelD RV (filter (fun cd => P (fst cd)) D) (filter (fun cd => P' (fst cd)) D').
Proof.
  intros HP (N & N' & E). split; [apply nodup_keys_filter, N|]. split; [apply nodup_keys_filter, N'|].
  intros c. rewrite !dget_filter_keys, <- (HP c). destruct (P c); [apply E|exact I].
Qed.

Lemma dget_mapk {X Y} (F : C -> X -> Y) (D : list (C * X)) c :
  dget (map (fun cd : C * X => (fst cd, F (fst cd) (snd cd))) D) c = option_map (F c) (dget D c).
Proof.
  induction D as [|[k x] D IH]; cbn [map dget fst snd]; [reflexivity|].
  destruct (ceqb c k) eqn:E; [apply ceqb_eq in E; subst; reflexivity|exact IH].
Qed.
Lemma orelD_mapk {X Y} (RV : X -> X -> Prop) (RW : Y -> Y -> Prop) (F F' : C -> X -> Y) D D' :
  (forall c x y, RV x y -> RW (F c x) (F' c y)) -> orelD RV D D' ->
  orelD RW (map (fun cd : C * X => (fst cd, F (fst cd) (snd cd))) D) (map (fun cd : C * X => (fst cd, F' (fst cd) (snd cd))) D').
Proof.
  intros HF (N & N' & E). split; [rewrite map_map; exact N|]. split; [rewrite map_map; exact N'|].
  intros c. rewrite !dget_mapk. specialize (E c). destruct (dget D c), (dget D' c); cbn [option_map]; try contradiction; [apply HF, E|exact I].
Qed.

Lemma orelD_eq_perm {X} (D D' : list (C * X)) : orelD eq D D' -> Permutation D D'.
Proof.
  intros (N & N' & E). apply NoDup_Permutation; [apply (NoDup_map_inv fst), N|apply (NoDup_map_inv fst), N'|].
  intros [c x]. split; intros H.
  - pose proof (In_dget D c x N H) as G. specialize (E c). rewrite G in E. destruct (dget D' c) as [y|] eqn:G'; [|contradiction]. subst y. apply dget_In, G'.
  - pose proof (In_dget D' c x N' H) as G. specialize (E c). rewrite G in E. destruct (dget D c) as [y|] eqn:G'; [|contradiction]. subst y. apply dget_In, G'.
Qed.

Lemma orelD_nil_r {X} (RV : X -> X -> Prop) (D' : list (C * X)) : orelD RV [] D' -> D' = [].
Proof.
  intros (_ & _ & E). destruct D' as [|[c x] t]; [reflexivity|]. specialize (E c). cbn [dget] in E. rewrite ceqb_refl in E. contradiction.
Qed.

(* functions of the values that are equal on related values: the lists of values are permutations of each other *)
Lemma vals_perm {X} (RV : X -> X -> Prop) (F F' : C -> X -> Z) (D D' : list (C * X)) : (forall c x y, RV x y -> F c x = F' c y) -> orelD RV D D' ->
  Permutation (map (fun cd => F (fst cd) (snd cd)) D) (map (fun cd => F' (fst cd) (snd cd)) D').
Proof.
  intros HF H. pose proof (orelD_eq_perm _ _ (orelD_mapk RV eq F F' D D' HF H)) as P.
  apply (Permutation_map snd) in P. rewrite !map_map in P. exact P.
Qed.

Lemma zmax_fold_perm l l' : Permutation l l' -> forall a, fold_left Z.max l a = fold_left Z.max l' a.
Proof.
  induction 1 as [|x l l' _ IH|x y l|l l' l'' _ IH1 _ IH2]; intros a; simpl; [reflexivity|apply IH| |rewrite IH1; apply IH2].
  f_equal. lia.
Qed.
Definition lmin (l : list Z) : Z := match l with [] => 0%Z | x :: t => fold_left Z.min t x end.
Lemma fold_zmin_spec t : forall x, let m := fold_left Z.min t x in (m = x \/ In m t) /\ (m <= x)%Z /\ forall z, In z t -> (m <= z)%Z.
Proof.
  induction t as [|y t IH]; intros x; cbn [fold_left]; cbv zeta; [split; [left; reflexivity|split; [lia|intros z []]]|].
  destruct (IH (Z.min x y)) as (H1 & H2 & H3). cbv zeta in H1, H2, H3. split; [|split].
  - destruct H1 as [H1|H1]; [|right; right; exact H1]. destruct (Z.min_spec x y) as [[_ E]|[_ E]]; [left; rewrite H1; exact E|right; left; rewrite H1, E; reflexivity].
  - lia.
  - intros z [<-|Hz]; [lia|apply H3, Hz].
Qed.
Lemma lmin_perm l l' : Permutation l l' -> lmin l = lmin l'.
Proof.
  intros P. assert (S : forall a, a <> [] -> In (lmin a) a /\ forall z, In z a -> (lmin a <= z)%Z).
  { intros [|x t] Hne; [congruence|]. cbn [lmin]. destruct (fold_zmin_spec t x) as (H1 & H2 & H3). cbv zeta in H1, H2, H3. split.
    - destruct H1 as [->|H1]; [left; reflexivity|right; exact H1].
    - intros z [<-|Hz]; [exact H2|apply H3, Hz]. }
  destruct l as [|x t].
  - apply Permutation_nil in P. subst. reflexivity.
  - assert (Hne' : l' <> []) by (intros ->; apply Permutation_sym, Permutation_nil in P; discriminate).
    destruct (S (x :: t) ltac:(discriminate)) as [I1 L1]. destruct (S l' Hne') as [I2 L2].
    apply Z.le_antisymm; [apply L1, (Permutation_in _ (Permutation_sym P) I2)|apply L2, (Permutation_in _ P I1)].
Qed.

Lemma filter_sum_gsum (p : Q -> bool) (d : cscores) :
  fold_left Z.add (map snd (filter (fun sn : Q * Z => p (fst sn)) d)) 0%Z = gsum (fun s n => if p s then n else 0%Z) d.
Proof.
  unfold gsum. induction d as [|[s n] d IH]; [reflexivity|]. cbn [filter fst snd fold_right].
  destruct (p s); [cbn [map fold_left snd]; rewrite fold_add_shift|]; rewrite IH; lia.
Qed.
Lemma filter_sum_resp (p p' : Q -> bool) d d' : (forall a b, a == b -> p a = p' b) -> cse d d' ->
  fold_left Z.add (map snd (filter (fun sn : Q * Z => p (fst sn)) d)) 0%Z = fold_left Z.add (map snd (filter (fun sn : Q * Z => p' (fst sn)) d')) 0%Z.
Proof.
  intros Hp H. rewrite !filter_sum_gsum.
  transitivity (gsum (fun s n => if p s then n else 0%Z) d').
  - apply gsum_eq; [|exact H]. intros a b k Hab. rewrite (Hp a b Hab), <- (Hp b b (Qeq_refl b)). reflexivity.
  - unfold gsum. clear H. induction d' as [|[s n] t IH]; [reflexivity|]. cbn [fold_right fst snd]. rewrite IH, (Hp s s (Qeq_refl s)). reflexivity.
Qed.

Lemma counts_over_resp d d' thr thr' : cse d d' -> thr == thr' -> counts_over d thr = counts_over d' thr'.
Proof.
  intros H Ht. unfold counts_over. apply (filter_sum_resp (fun s => Qle_bool thr s) (fun s => Qle_bool thr' s)); [|exact H].
  intros a b Hab. apply Qle_bool_Qeq; assumption.
Qed.

Lemma gnb_tie_eqv (d : list (C * Q)) n T : (1 <= n)%nat -> NoDup (map fst d) -> In (TieR T) (get_n_best Qle_bool d n) ->
  forall c1 c2, In c1 T -> In c2 T -> dget_or d c1 0 == dget_or d c2 0.
Proof.
  intros _ Hnd Hi. destruct (get_n_best_tie_members Qle_bool Qle_bool_trans d n T Hi) as (thr & -> & _).
  assert (Hv : forall c, In c (map fst (filter (fun it => eqv Qle_bool (snd it) thr) d)) -> dget_or d c 0 == thr).
  { intros c Hc. apply in_map_iff in Hc. destruct Hc as ([c0 v] & <- & Hcv). apply filter_In in Hcv.
    cbn [fst snd] in *. rewrite (In_dget_or d c0 v Hnd (proj1 Hcv)). apply eqv_Qeq, Hcv. }
  intros c1 c2 H1 H2. rewrite (Hv c1 H1), (Hv c2 H2). reflexivity.
Qed.

Lemma mj_plus_resp sub sub' n : orelD cse sub sub' ->
  (forall c d c' d', In (c, d) sub -> In (c', d') sub' -> orel Qeq (aggregate_one FMedianLow d) (aggregate_one FMedianLow d')) ->
  orel res_equiv (mj_plus sub n) (mj_plus sub' n).
Proof.
  intros H Hmed. unfold mj_plus. destruct sub as [|[c0 d0] sub1].
  - rewrite (orelD_nil_r _ _ H). reflexivity.
  - destruct sub' as [|[c0' d0'] sub1'].
    { exfalso. destruct H as (_ & _ & E). specialize (E c0). cbn [dget] in E. rewrite ceqb_refl in E. exact E. }
    pose proof (Hmed c0 d0 c0' d0' (or_introl eq_refl) (or_introl eq_refl)) as Hm.
    destruct (aggregate_one FMedianLow d0) as [med|e], (aggregate_one FMedianLow d0') as [med'|e']; cbn [orel] in Hm; try contradiction; [|exact Hm].
    cbn [orel]. apply gnb_orelD.
    apply (orelD_mapk cse Qeq (fun _ d => inject_Z (counts_over d med)) (fun _ d => inject_Z (counts_over d med'))); [|exact H].
    intros c x y Hxy. rewrite (counts_over_resp x y med med' Hxy Hm). reflexivity.
Qed.

Lemma closest_change_resp sub sub' med med' : orelD cse sub sub' -> orelD Qeq med med' -> closest_change sub med = closest_change sub' med'.
Proof.
  intros H Hm. unfold closest_change. cbv zeta.
  match goal with |- match map ?F sub with _ => _ end = match map ?F' sub' with _ => _ end =>
    change (lmin (map F sub) = lmin (map F' sub')); apply lmin_perm;
    apply (vals_perm cse (fun c d => F (c, d)) (fun c d => F' (c, d)) sub sub'); [|exact H] end.
  intros c x y Hxy. cbn [fst snd].
  pose proof (orelD_get_or med med' Hm c) as Em.
  rewrite (cse_total x y Hxy).
  rewrite (filter_sum_resp (fun s => Qle_bool (dget_or med c 0) s) (fun s => Qle_bool (dget_or med' c 0) s) x y)
    by (exact Hxy || (intros a b Hab; apply Qle_bool_Qeq; assumption)).
  rewrite (filter_sum_resp (fun s => negb (Qle_bool s (dget_or med c 0))) (fun s => negb (Qle_bool s (dget_or med' c 0))) x y)
    by (exact Hxy || (intros a b Hab; f_equal; apply Qle_bool_Qeq; assumption)).
  reflexivity.
Qed.

Lemma totals_perm sub sub' : orelD cse sub sub' ->
  Permutation (map (fun cd : C * cscores => cs_total (snd cd)) sub) (map (fun cd : C * cscores => cs_total (snd cd)) sub').
Proof. intros H. apply (vals_perm cse (fun _ d => cs_total d) (fun _ d => cs_total d) sub sub'); [|exact H]. intros c x y Hxy. apply cse_total, Hxy. Qed.

(* one round of the default tie-breaker, by what it meets *)
Lemma mj_default_vse fu sub n : (fold_left Z.max (map (fun cd => cs_total (snd cd)) sub) 0 <=? 0)%Z = true ->
  mj_default (S fu) sub n = inr SE_vse.
Proof. intros H. rewrite mj_default_unfold, H. reflexivity. Qed.
Lemma mj_default_err fu sub n e : (fold_left Z.max (map (fun cd => cs_total (snd cd)) sub) 0 <=? 0)%Z = false ->
  aggregate FMedianLow sub = inr e -> mj_default (S fu) sub n = inr e.
Proof. intros H Ha. rewrite mj_default_unfold, H, Ha. reflexivity. Qed.
Lemma mj_default_nf fu sub n med cs T k : (fold_left Z.max (map (fun cd => cs_total (snd cd)) sub) 0 <=? 0)%Z = false ->
  aggregate FMedianLow sub = inl med -> get_n_best Qle_bool med n = nf cs T k ->
  mj_default (S fu) sub n =
  match k, cs with
  | O, _ => inl (nf cs T 0)
  | S _, _ :: _ => match mj_default fu (filter (fun cd => negb (cmem (fst cd) cs)) sub) (n - length cs) with
                   | inl r => inl (map Cand cs ++ r)
                   | inr e => inr e
                   end
  | S _, [] => let sub1 := filter (fun cd => cmem (fst cd) T) sub in
               let ch := if (closest_change sub1 med =? 0)%Z then 1%Z else closest_change sub1 med in
               mj_default fu (map (fun cd =>
                                (fst cd, cs_set (snd cd) (dget_or med (fst cd) 0)
                                           (match cs_get (snd cd) (dget_or med (fst cd) 0) with Some k0 => k0 | None => 0%Z end - ch))) sub1) n
  end.
Proof.
  intros H Ha E. rewrite mj_default_unfold, H, Ha. unfold mj_body, nf in *. rewrite E, count_tie_cands, filter_cands.
  destruct k as [|k]; [reflexivity|]. cbn [Nat.eqb]. destruct cs as [|c cs]; [reflexivity|].
  change (0 <? length (map Cand (c :: cs)))%nat with true. cbv iota.
  rewrite firstn_length_app, cands_of_cands, map_length. reflexivity.
Qed.

Lemma mj_default_resp fuel : forall sub sub' n, orelD cse sub sub' -> orel res_equiv (mj_default fuel sub n) (mj_default fuel sub' n).
Proof.
  induction fuel as [|fu IH]; intros sub sub' n H; [reflexivity|].
  pose proof (zmax_fold_perm _ _ (totals_perm sub sub' H) 0%Z) as Emx.
  destruct (fold_left Z.max (map (fun cd => cs_total (snd cd)) sub) 0 <=? 0)%Z eqn:Hmx; pose proof Hmx as Hmx'; rewrite Emx in Hmx'.
  { rewrite (mj_default_vse fu sub n Hmx), (mj_default_vse fu sub' n Hmx'). reflexivity. }
  pose proof (aggregate_resp FMedianLow sub sub' H) as Ha.
  destruct (aggregate FMedianLow sub) as [med|e] eqn:Am, (aggregate FMedianLow sub') as [med'|e'] eqn:Am'; cbn [orel] in Ha; try contradiction.
  2:{ rewrite (mj_default_err fu sub n e Hmx Am), (mj_default_err fu sub' n e' Hmx' Am'). exact Ha. }
  destruct (gnb_orelD_nf med med' n Ha) as (cs & cs' & T & T' & k & E1 & E2 & Pcs & PT).
  rewrite (mj_default_nf fu sub n med cs T k Hmx Am E1), (mj_default_nf fu sub' n med' cs' T' k Hmx' Am' E2).
  destruct k as [|k]; [cbn [orel]; apply res_equiv_nf; [exact Pcs|exact PT]|]. specialize (PT ltac:(lia)).
  destruct cs as [|c0 cs0], cs' as [|c0' cs0']; try (apply Permutation_length in Pcs; discriminate).
  - (* the lead is shared *)
    cbv zeta.
    assert (Hf : orelD cse (filter (fun cd => cmem (fst cd) T) sub) (filter (fun cd => cmem (fst cd) T') sub')).
    { apply (orelD_filter cse (fun c => cmem c T) (fun c => cmem c T')); [|exact H]. intros c. apply cmem_perm, PT. }
    rewrite (closest_change_resp _ _ med med' Hf Ha).
    set (ch := if (closest_change _ med' =? 0)%Z then 1%Z else closest_change _ med').
    apply IH.
    apply (orelD_mapk cse cse
             (fun c d => cs_set d (dget_or med c 0%Q) (match cs_get d (dget_or med c 0%Q) with Some k0 => k0 | None => 0%Z end - ch)%Z)
             (fun c d => cs_set d (dget_or med' c 0%Q) (match cs_get d (dget_or med' c 0%Q) with Some k0 => k0 | None => 0%Z end - ch)%Z)); [|exact Hf].
    intros c x y Hxy. pose proof (orelD_get_or med med' Ha c) as Em.
    rewrite <- (proj2 (proj2 Hxy) (dget_or med' c 0)), <- (cs_get_key x _ _ Em). apply cse_set; assumption.
  - (* some plain winners: they leave the contest *)
    rewrite <- (Permutation_length Pcs).
    assert (Hf : orelD cse (filter (fun cd => negb (cmem (fst cd) (c0 :: cs0))) sub) (filter (fun cd => negb (cmem (fst cd) (c0' :: cs0'))) sub')).
    { apply (orelD_filter cse (fun c => negb (cmem c (c0 :: cs0))) (fun c => negb (cmem c (c0' :: cs0')))); [|exact H].
      intros c. rewrite (cmem_perm c _ _ Pcs). reflexivity. }
    apply orel_app_cands; [exact Pcs|apply IH, Hf].
Qed.

Lemma aggregate_lookup fn sc med : aggregate fn sc = inl med -> forall c d, In (c, d) sc -> NoDup (map fst sc) ->
  exists m, aggregate_one fn d = inl m /\ dget med c = Some m.
Proof.
  unfold aggregate. intros E c d Hi N. apply sequence_inl in E.
  assert (G : dget (map (fun cd : C * cscores => (fst cd, aggregate_one fn (snd cd))) sc) c = Some (aggregate_one fn d))
    by (rewrite dget_map_vals, (In_dget sc c d N Hi); reflexivity).
  rewrite E, (dget_map_vals (@inl Q serr)) in G. destruct (dget med c) as [m|]; [|discriminate]. cbn [option_map] in G. injection G as G.
  exists m. split; [symmetry; exact G|reflexivity].
Qed.

(* majority_judgment once the first-stage selection is known in normal form *)
Lemma majority_judgment_nf plus cf votes n sc med cs T k : corrected_scores cf votes = inl sc -> aggregate FMedianLow sc = inl med ->
  get_n_best Qle_bool med n = nf cs T k ->
  majority_judgment plus cf votes n =
  match k with
  | O => inl (nf cs T 0)
  | S _ => let sub := filter (fun cd => cmem (fst cd) T) sc in
           match (if plus then mj_plus sub k
                  else mj_default (Z.to_nat (fold_left Z.add (map (fun cd => cs_total (snd cd)) sub) 0%Z) + 2) sub k) with
           | inl r => inl (map Cand cs ++ r)
           | inr e => inr e
           end
  end.
Proof.
  intros Ec Ea E. rewrite majority_judgment_unfold, Ec, Ea. destruct k as [|k]; [|exact (mj_outer_tie _ _ _ _ _ _ _ E)].
  unfold nf in *. cbn [repeat] in *. rewrite app_nil_r in *. exact (mj_outer_clean _ _ _ _ _ E).
Qed.

Theorem majority_judgment_order plus cf votes votes' n : Permutation votes votes' ->
  orel res_equiv (majority_judgment plus cf votes n) (majority_judgment plus cf votes' n).
Proof.
  intros Hp. pose proof (corrected_scores_order cf votes votes' Hp) as Hc.
  destruct (corrected_scores cf votes) as [sc|e] eqn:Ec, (corrected_scores cf votes') as [sc'|e'] eqn:Ec'; cbn [orel] in Hc; try contradiction.
  2:{ unfold majority_judgment. rewrite Ec, Ec'. exact Hc. }
  pose proof (aggregate_resp FMedianLow sc sc' Hc) as Ha.
  destruct (aggregate FMedianLow sc) as [med|e] eqn:Am, (aggregate FMedianLow sc') as [med'|e'] eqn:Am'; cbn [orel] in Ha; try contradiction.
  2:{ unfold majority_judgment. rewrite Ec, Ec', Am, Am'. exact Ha. }
  destruct (gnb_orelD_nf med med' n Ha) as (cs & cs' & T & T' & k & E1 & E2 & Pcs & PT).
  rewrite (majority_judgment_nf plus cf votes n sc med cs T k Ec Am E1), (majority_judgment_nf plus cf votes' n sc' med' cs' T' k Ec' Am' E2).
  destruct k as [|k]; [cbn [orel]; apply res_equiv_nf; [exact Pcs|exact PT]|]. specialize (PT ltac:(lia)). cbv zeta.
  assert (Hf : orelD cse (filter (fun cd => cmem (fst cd) T) sc) (filter (fun cd => cmem (fst cd) T') sc')).
  { apply (orelD_filter cse (fun c => cmem c T) (fun c => cmem c T')); [|exact Hc]. intros c. apply cmem_perm, PT. }
  set (sub := filter _ sc) in *. set (sub' := filter _ sc') in *.
  apply orel_app_cands; [exact Pcs|]. destruct plus.
  - apply mj_plus_resp; [exact Hf|]. intros c d c' d' Hi Hi'.
    unfold sub in Hi. unfold sub' in Hi'. apply filter_In in Hi, Hi'. destruct Hi as [Hi Hc1], Hi' as [Hi' Hc2]. cbn [fst] in Hc1, Hc2.
    destruct Hc as (N & N' & Ec0).
    destruct (aggregate_lookup _ _ _ Am c d Hi N) as (m & Em & Gm). destruct (aggregate_lookup _ _ _ Am' c' d' Hi' N') as (m' & Em' & Gm').
    rewrite Em, Em'. cbn [orel].
    assert (Hc2' : In c' T) by (apply cmem_In; rewrite (cmem_perm c' T T' PT); exact Hc2).
    apply cmem_In in Hc1.
    assert (Ht : In (TieR T) (get_n_best Qle_bool med n)) by (rewrite E1; unfold nf; apply in_or_app; right; left; reflexivity).
    assert (Hn : (1 <= n)%nat) by (destruct n; [rewrite (get_n_best_0 Qle_bool Qle_bool_total) in Ht; destruct Ht|lia]).
    pose proof (gnb_tie_eqv med n T Hn (proj1 Ha) Ht c c' Hc1 Hc2') as Hv.
    unfold dget_or in Hv. rewrite Gm in Hv. destruct Ha as (_ & _ & Ea). specialize (Ea c'). rewrite Gm' in Ea.
    destruct (dget med c') as [mc'|]; [|contradiction]. rewrite Hv. exact Ea.
  - rewrite (zadd_fold_perm _ _ (totals_perm sub sub' Hf) 0%Z). apply mj_default_resp, Hf.
Qed.
