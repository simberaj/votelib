(* Majority judgment, default tie-break (Model/Cardinal.v mj_default): the loop removes [mj_ch] copies of the
   current median grade of every candidate still level in ONE step.  Here: that step equals [mj_ch] successive
   removals of one median grade each (the documented Balinski-Laraki rule), because the medians of all these
   candidates stay what they are during the first mj_ch - 1 single removals. *)
From Coq Require Import ZArith QArith Qround Qabs List Bool Arith Lia Lqa Sorting.Sorted.
From VL Require Import Prelude.PyDict Model.GetNBest Model.Convert Model.Cardinal Proofs.Scale2Dup_proofs Proofs.Dict_proofs Proofs.QOrd Proofs.MJ_proofs.
Import ListNotations.
Open Scope Q_scope.

Definition cnt (p : Q -> bool) (l : list Q) : nat := length (filter p l).
Definition ltv (v y : Q) : bool := negb (Qle_bool v y).      (* y < v *)
Definition lev (v y : Q) : bool := Qle_bool y v.             (* y <= v *)

Lemma lev_refl v : lev v v = true.
Proof. apply Qle_bool_refl. Qed.

Lemma ltv_irrefl v : ltv v v = false.
Proof. unfold ltv. rewrite Qle_bool_refl. reflexivity. Qed.

Lemma cnt_cons p x l : cnt p (x :: l) = ((if p x then 1 else 0) + cnt p l)%nat.
Proof. unfold cnt. cbn [filter]. destruct (p x); reflexivity. Qed.

Lemma cnt_app p a b : cnt p (a ++ b) = (cnt p a + cnt p b)%nat.
Proof. unfold cnt. rewrite filter_app, app_length. reflexivity. Qed.

Lemma cnt_sort p l : cnt p (sort_q l) = cnt p l.
Proof. apply count_sort_q. Qed.

Lemma cnt_true l : cnt (fun _ => true) l = length l.
Proof. unfold cnt. induction l as [|x l IH]; [reflexivity|]. cbn [filter length]. rewrite IH. reflexivity. Qed.

Lemma cnt_none p l : Forall (fun z => p z = false) l -> cnt p l = 0%nat.
Proof. induction 1 as [|z l Hz _ IH]; [reflexivity|]. rewrite cnt_cons, Hz, IH. reflexivity. Qed.

Lemma cnt_mono p q l : (forall z, p z = true -> q z = true) -> (cnt p l <= cnt q l)%nat.
Proof.
  intros H. induction l as [|z l IH]; [apply le_n|]. rewrite !cnt_cons.
  destruct (p z) eqn:E; [rewrite (H z E); lia|destruct (q z); lia].
Qed.

(* the element at position i of a sorted list: at most i grades are below it, more than i are not above it *)
Lemma sorted_nth_counts s : StronglySorted Qle s -> forall i, (i < length s)%nat ->
  (cnt (ltv (nth i s 0%Q)) s <= i)%nat /\ (i < cnt (lev (nth i s 0%Q)) s)%nat.
Proof.
  induction 1 as [|y t Hs IH Hall]; intros i Hi; [cbn in Hi; lia|].
  rewrite Forall_forall in Hall. destruct i as [|i]; cbn [nth].
  - rewrite !cnt_cons. split.
    + rewrite ltv_irrefl, (cnt_none (ltv y) t); [lia|]. apply Forall_forall. intros z Hz. unfold ltv.
      apply negb_false_iff, Qle_bool_iff, Hall, Hz.
    + rewrite lev_refl. lia.
  - cbn [length] in Hi. destruct (IH i ltac:(lia)) as (H1 & H2). set (x := nth i t 0) in *.
    assert (Hyx : y <= x) by (apply Hall, nth_In; lia).
    rewrite !cnt_cons. assert (E : lev x y = true) by (unfold lev; apply Qle_bool_iff; exact Hyx). rewrite E.
    split; [destruct (ltv x y); lia|lia].
Qed.

(* ... and a value with that counting property is that element *)
Lemma sorted_nth_unique s v i : StronglySorted Qle s -> (i < length s)%nat ->
  (cnt (ltv v) s <= i)%nat -> (i < cnt (lev v) s)%nat -> nth i s 0 == v.
Proof.
  intros Hs Hi H1 H2. destruct (sorted_nth_counts s Hs i Hi) as (G1 & G2). set (x := nth i s 0) in *.
  destruct (Q_dec x v) as [[Hlt|Hgt]|Heq]; [| |exact Heq]; exfalso.
  - assert (cnt (lev x) s <= cnt (ltv v) s)%nat; [|lia]. apply cnt_mono. intros z Hz. unfold lev, ltv in *.
    apply Qle_bool_iff in Hz. apply negb_true_iff. destruct (Qle_bool v z) eqn:E; [apply Qle_bool_iff in E; lra|reflexivity].
  - assert (cnt (lev v) s <= cnt (ltv x) s)%nat; [|lia]. apply cnt_mono. intros z Hz. unfold lev, ltv in *.
    apply Qle_bool_iff in Hz. apply negb_true_iff. destruct (Qle_bool x z) eqn:E; [apply Qle_bool_iff in E; lra|reflexivity].
Qed.

(* how many expanded grades satisfy p *)
Definition wcnt (p : Q -> bool) (d : cscores) : nat :=
  fold_right (fun (sn : Q * Z) acc => ((if p (fst sn) then Z.to_nat (snd sn) else 0) + acc)%nat) 0%nat d.

Lemma wcnt_cons p sn d : wcnt p (sn :: d) = ((if p (fst sn) then Z.to_nat (snd sn) else 0) + wcnt p d)%nat.
Proof. reflexivity. Qed.

Lemma cnt_repeat p s n : cnt p (repeat s n) = if p s then n else 0%nat.
Proof.
  induction n as [|n IH]; cbn [repeat]; [destruct (p s); reflexivity|]. rewrite cnt_cons, IH. destruct (p s); reflexivity.
Qed.

Lemma cnt_expand p d : cnt p (expand d) = wcnt p d.
Proof.
  unfold expand. induction d as [|sn d IH]; [reflexivity|]. cbn [flat_map]. rewrite wcnt_cons.
  rewrite cnt_app, cnt_repeat, IH. reflexivity.
Qed.

Definition cs_nonneg (d : cscores) : Prop := Forall (fun sn : Q * Z => (0 <= snd sn)%Z) d.
(* the keys are distinct as numbers (dictionaries built by cs_set are) *)
Fixpoint cs_distinct (d : cscores) : Prop :=
  match d with
  | [] => True
  | sn :: t => (forall sn', In sn' t -> ~ fst sn' == fst sn) /\ cs_distinct t
  end.

Lemma fold_add_shift (l : list Z) : forall x, fold_left Z.add l x = (x + fold_left Z.add l 0)%Z.
Proof. exact (zsum_acc l). Qed.

(* the integer sums of the model count expanded grades *)
Lemma zsum_filter_wcnt (p : Q -> bool) d : cs_nonneg d ->
  fold_left Z.add (map snd (filter (fun sn : Q * Z => p (fst sn)) d)) 0%Z = Z.of_nat (wcnt p d).
Proof.
  induction 1 as [|sn d Hsn _ IH]; [reflexivity|]. cbn [filter]. rewrite wcnt_cons. cbv beta in Hsn.
  destruct (p (fst sn)); [|rewrite IH; reflexivity].
  cbn [map fold_left]. rewrite fold_add_shift, IH. lia.
Qed.

Lemma cs_total_wcnt d : cs_nonneg d -> cs_total d = Z.of_nat (wcnt (fun _ => true) d).
Proof.
  intros H. unfold cs_total. rewrite <- (zsum_filter_wcnt (fun _ => true) d H).
  f_equal. f_equal. induction d as [|sn d IH]; [reflexivity|]. cbn [filter]. f_equal. apply IH. inversion H; assumption.
Qed.

Lemma wcnt_length d : wcnt (fun _ => true) d = length (expand d).
Proof. rewrite <- cnt_expand. apply cnt_true. Qed.

(* setting the count of an existing key *)
Lemma cs_set_existing p d m k y : cs_distinct d -> In (m, k) d ->
  cs_get d m = Some k /\
  (wcnt p (cs_set d m y) + (if p m then Z.to_nat k else 0) = wcnt p d + (if p m then Z.to_nat y else 0))%nat /\
  map fst (cs_set d m y) = map fst d /\
  cs_distinct (cs_set d m y) /\
  (cs_nonneg d -> (0 <= y)%Z -> cs_nonneg (cs_set d m y)).
Proof.
  induction d as [|[s' k'] t IH]; intros Hd Hin; [destruct Hin|].
  cbn [cs_distinct fst] in Hd. destruct Hd as (Hhead & Ht). cbn [cs_get cs_set].
  destruct (Qeq_bool m s') eqn:E.
  - apply Qeq_bool_iff in E.
    assert (Heq : (m, k) = (s', k')).
    { destruct Hin as [H|H]; [symmetry; exact H|]. exfalso. apply (Hhead _ H). exact E. }
    injection Heq as <- <-. split; [reflexivity|]. split; [rewrite !wcnt_cons; cbn [fst snd]; destruct (p m); lia|].
    split; [reflexivity|]. split.
    + cbn [cs_distinct fst]. split; assumption.
    + intros Hn Hy. inversion Hn; subst. constructor; [exact Hy|assumption].
  - assert (Hin' : In (m, k) t).
    { destruct Hin as [H|H]; [|exact H]. injection H as -> ->. exfalso.
      rewrite Qeq_bool_refl in E. discriminate. }
    destruct (IH Ht Hin') as (I1 & I2 & I3 & I4 & I5). split; [exact I1|]. split; [rewrite !wcnt_cons; lia|].
    split; [cbn [map fst]; rewrite I3; reflexivity|]. split.
    + cbn [cs_distinct fst]. split; [|exact I4]. intros sn' Hsn'.
      assert (Hk : In (fst sn') (map fst t)) by (rewrite <- I3; apply in_map, Hsn').
      apply in_map_iff in Hk. destruct Hk as (sn2 & Hf & Hin2). rewrite <- Hf. apply Hhead, Hin2.
    + intros Hn Hy. inversion Hn; subst. constructor; [assumption|apply I5; assumption].
Qed.

Lemma cs_get_set d m x : cs_get (cs_set d m x) m = Some x.
Proof.
  induction d as [|[s' k'] t IH]; cbn [cs_set cs_get].
  - rewrite Qeq_bool_refl. reflexivity.
  - destruct (Qeq_bool m s') eqn:E; cbn [cs_get]; rewrite E; [reflexivity|exact IH].
Qed.

Lemma cs_set_set d m x y : cs_set (cs_set d m x) m y = cs_set d m y.
Proof.
  induction d as [|[s' k'] t IH]; cbn [cs_set].
  - rewrite Qeq_bool_refl. reflexivity.
  - destruct (Qeq_bool m s') eqn:E; cbn [cs_set]; rewrite E; [reflexivity|rewrite IH; reflexivity].
Qed.

Lemma cs_set_same d m k : cs_get d m = Some k -> cs_set d m k = d.
Proof.
  induction d as [|[s' k'] t IH]; cbn [cs_get cs_set]; [discriminate|].
  destruct (Qeq_bool m s'); [intros [= ->]; reflexivity|]. intros H. rewrite (IH H). reflexivity.
Qed.

Lemma subtract_lowest_some d keys cutoff cut : exists r, subtract_lowest d keys cutoff cut = Some r.
Proof.
  revert d cut. induction keys as [|s t IH]; intros d cut; cbn [subtract_lowest]; [eexists; reflexivity|].
  destruct (cs_get d s) as [n|]; [|apply IH]. destruct (n <=? cutoff - cut)%Z; [apply IH|eexists; reflexivity].
Qed.

Lemma in_keys_q (d : cscores) s : In s (map fst d) -> exists k, In (s, k) d.
Proof. intros H. apply in_map_iff in H. destruct H as ([s' k] & <- & Hin). exists k. exact Hin. Qed.

Lemma expand_in d z : In z (expand d) -> In z (map fst d).
Proof.
  unfold expand. intros H. apply in_flat_map in H. destruct H as (sn & Hin & Hr). apply repeat_spec in Hr. subst z.
  apply in_map, Hin.
Qed.

Lemma median_unfold d :
  aggregate_one FMedianLow d =
  match expand d with
  | [] => inr SE_stats
  | _ => inl (nth (med_index (length (expand d))) (sort_q (expand d)) 0)
  end.
Proof.
  unfold aggregate_one. destruct (expand d) as [|x l] eqn:E; [reflexivity|]. cbv zeta. rewrite sort_q_length. reflexivity.
Qed.

Lemma median_unfold_ne d : (1 <= length (expand d))%nat ->
  aggregate_one FMedianLow d = inl (nth (med_index (length (expand d))) (sort_q (expand d)) 0).
Proof. intros H. rewrite median_unfold. destruct (expand d); [cbn in H; lia|reflexivity]. Qed.

Lemma median_counts d m : aggregate_one FMedianLow d = inl m ->
  let N := length (expand d) in
  (1 <= N)%nat /\ (wcnt (ltv m) d <= med_index N)%nat /\ (med_index N < wcnt (lev m) d)%nat /\ In m (map fst d).
Proof.
  rewrite median_unfold. destruct (expand d) as [|x l] eqn:E; [discriminate|]. rewrite <- E. intros [= <-]. cbv zeta.
  assert (HN : (1 <= length (expand d))%nat) by (rewrite E; cbn; lia).
  destruct (med_index_bounds _ HN) as (B1 & B2).
  assert (Hi : (med_index (length (expand d)) < length (sort_q (expand d)))%nat) by (rewrite sort_q_length; lia).
  destruct (sorted_nth_counts _ (sort_q_sorted (expand d)) _ Hi) as (H1 & H2).
  rewrite !cnt_sort, !cnt_expand in H1, H2. split; [exact HN|]. split; [exact H1|]. split; [exact H2|].
  apply expand_in, sort_q_In, nth_In, Hi.
Qed.

Lemma median_of_counts d v : let N := length (expand d) in
  (1 <= N)%nat -> (wcnt (ltv v) d <= med_index N)%nat -> (med_index N < wcnt (lev v) d)%nat ->
  exists x, aggregate_one FMedianLow d = inl x /\ x == v /\ In x (map fst d).
Proof.
  cbv zeta. intros HN H1 H2. rewrite (median_unfold_ne d HN).
  destruct (med_index_bounds _ HN) as (B1 & B2).
  assert (Hi : (med_index (length (expand d)) < length (sort_q (expand d)))%nat) by (rewrite sort_q_length; lia).
  eexists. split; [reflexivity|]. split.
  - apply sorted_nth_unique; [apply sort_q_sorted|exact Hi| |]; rewrite cnt_sort, cnt_expand; assumption.
  - apply expand_in, sort_q_In, nth_In, Hi.
Qed.

Lemma wcnt_ext p q d : (forall sn, In sn d -> p (fst sn) = q (fst sn)) -> wcnt p d = wcnt q d.
Proof.
  induction d as [|sn d IH]; intros H; [reflexivity|]. rewrite !wcnt_cons, (H sn (or_introl eq_refl)), IH; [reflexivity|].
  intros sn' Hin. apply H. right. exact Hin.
Qed.

Lemma wcnt_compl p d : (wcnt (fun s => negb (p s)) d + wcnt p d = wcnt (fun _ => true) d)%nat.
Proof. induction d as [|sn d IH]; [reflexivity|]. rewrite !wcnt_cons. destruct (p (fst sn)); cbn [negb]; lia. Qed.

Lemma lev_ltv_neq m s : ~ s == m -> lev m s = ltv m s.
Proof.
  intros Hne. unfold lev, ltv. destruct (Qle_bool s m) eqn:E1, (Qle_bool m s) eqn:E2; cbn [negb]; try reflexivity.
  - apply Qle_bool_iff in E1, E2. exfalso. apply Hne. lra.
  - exfalso. destruct (Qle_bool_total s m) as [H|H]; congruence.
Qed.

(* the grades equal to the key m are exactly its count *)
Lemma wcnt_level d m k : cs_distinct d -> In (m, k) d -> (wcnt (lev m) d = wcnt (ltv m) d + Z.to_nat k)%nat.
Proof.
  induction d as [|[s' k'] t IH]; intros Hd Hin; [destruct Hin|].
  cbn [cs_distinct fst] in Hd. destruct Hd as (Hhead & Ht). rewrite !wcnt_cons. cbn [fst snd].
  destruct Hin as [H|H].
  - injection H as -> ->. rewrite (wcnt_ext (lev m) (ltv m) t).
    + rewrite lev_refl, ltv_irrefl. lia.
    + intros sn Hsn. apply lev_ltv_neq, Hhead, Hsn.
  - rewrite (IH Ht H). rewrite (lev_ltv_neq m s'); [lia|]. intros He. apply (Hhead _ H). cbn [fst]. symmetry. exact He.
Qed.

Lemma distinct_key_eq d x m : cs_distinct d -> In x (map fst d) -> In m (map fst d) -> x == m -> x = m.
Proof.
  induction d as [|[s' k'] t IH]; intros Hd Hx Hm He; [destruct Hx|].
  cbn [cs_distinct fst] in Hd. destruct Hd as (Hhead & Ht). cbn [map fst In] in Hx, Hm.
  destruct Hx as [Hx|Hx], Hm as [Hm|Hm].
  - congruence.
  - subst s'. apply in_map_iff in Hm. destruct Hm as (sn & Hf & Hin). exfalso. apply (Hhead _ Hin). rewrite Hf. symmetry. exact He.
  - subst s'. apply in_map_iff in Hx. destruct Hx as (sn & Hf & Hin). exfalso. apply (Hhead _ Hin). rewrite Hf. exact He.
  - apply IH; assumption.
Qed.

(* the bound of closest_change, per candidate *)
Definition cc_one (d : cscores) (m : Q) : Z :=
  let half := (inject_Z (cs_total d) / 2)%Q in
  let lower := inject_Z (fold_left Z.add (map snd (filter (fun sn : Q * Z => Qle_bool m (fst sn)) d)) 0%Z) in
  let upper := inject_Z (fold_left Z.add (map snd (filter (fun sn : Q * Z => negb (Qle_bool (fst sn) m)) d)) 0%Z) in
  Z.min (Qceiling (Qabs (lower - half))) (Qceiling (Qabs (upper - half))).

Lemma lt_ceiling j q : (j < Qceiling q)%Z -> inject_Z j < q.
Proof.
  intros H. pose proof (Qceiling_lt q) as Hc. assert (Hle : (j <= Qceiling q - 1)%Z) by lia.
  rewrite Zle_Qle in Hle. lra.
Qed.

(* below the ceiling of |L - T/2| means: twice as much is below |2L - T| *)
Lemma lt_ceiling_abs_half j L T : (j < Qceiling (Qabs (inject_Z L - inject_Z T / 2)))%Z -> (2 * j < Z.abs (2 * L - T))%Z.
Proof.
  intros H. apply lt_ceiling in H. revert H. unfold Qdiv. change (/ 2) with (1 # 2). apply Qabs_case; intros _ H.
  - assert (Hz : (2 * j < 2 * L - T)%Z); [|lia]. rewrite Zlt_Qlt. unfold Z.sub.
    rewrite inject_Z_plus, inject_Z_opp, !inject_Z_mult. change (inject_Z 2) with 2. lra.
  - assert (Hz : (2 * j < T - 2 * L)%Z); [|lia]. rewrite Zlt_Qlt. unfold Z.sub.
    rewrite inject_Z_plus, inject_Z_opp, !inject_Z_mult. change (inject_Z 2) with 2. lra.
Qed.

(* the sums of closest_change count the grades not below, and the grades above, the value m *)
Lemma cc_one_counts d m : cs_nonneg d ->
  let N := Z.of_nat (length (expand d)) in
  cc_one d m = Z.min (Qceiling (Qabs (inject_Z (N - Z.of_nat (wcnt (ltv m) d)) - inject_Z N / 2)))
                     (Qceiling (Qabs (inject_Z (N - Z.of_nat (wcnt (lev m) d)) - inject_Z N / 2))).
Proof.
  intros Hn. cbv zeta. unfold cc_one. cbv zeta.
  rewrite (cs_total_wcnt d Hn), (zsum_filter_wcnt (fun s => Qle_bool m s) d Hn), (zsum_filter_wcnt (fun s => negb (Qle_bool s m)) d Hn).
  pose proof (wcnt_compl (fun s => Qle_bool m s) d) as H1. pose proof (wcnt_compl (fun s => Qle_bool s m) d) as H2.
  rewrite wcnt_length in H1, H2. change (wcnt (fun s => negb (Qle_bool m s)) d) with (wcnt (ltv m) d) in H1.
  change (wcnt (fun s => Qle_bool s m) d) with (wcnt (lev m) d) in H2. rewrite wcnt_length.
  replace (Z.of_nat (wcnt (fun s => Qle_bool m s) d)) with (Z.of_nat (length (expand d)) - Z.of_nat (wcnt (ltv m) d))%Z by lia.
  replace (Z.of_nat (wcnt (fun s => negb (Qle_bool s m)) d)) with (Z.of_nat (length (expand d)) - Z.of_nat (wcnt (lev m) d))%Z by lia.
  reflexivity.
Qed.

(* removing j copies of the median grade, j below the bound (or j = 0), leaves the lower median where it is *)
Lemma median_stable d m j : cs_nonneg d -> cs_distinct d -> aggregate_one FMedianLow d = inl m ->
  (0 <= j)%Z -> (j = 0 \/ j < cc_one d m)%Z ->
  exists k, In (m, k) d /\ cs_get d m = Some k /\ (j < k)%Z /\
            aggregate_one FMedianLow (cs_set d m (k - j)) = inl m /\
            cs_nonneg (cs_set d m (k - j)) /\ cs_distinct (cs_set d m (k - j)).
Proof.
  intros Hn Hd Hmed Hj0 Hj.
  destruct (median_counts d m Hmed) as (HN & H1 & H2 & Hkey). cbv zeta in *.
  apply in_keys_q in Hkey. destruct Hkey as (k & Hin).
  exists k. pose proof (wcnt_level d m k Hd Hin) as Hlev.
  destruct (med_index_bounds _ HN) as (B1 & B2).
  assert (Hk0 : (0 <= k)%Z). { unfold cs_nonneg in Hn. rewrite Forall_forall in Hn. apply (Hn _ Hin). }
  (* what the bound says about the counts *)
  assert (F3 : (j = 0 \/ (2 * j + 1 <= Z.of_nat (length (expand d)) - 2 * Z.of_nat (wcnt (ltv m) d) /\
                          2 * j + 1 <= 2 * Z.of_nat (wcnt (lev m) d) - Z.of_nat (length (expand d))))%Z).
  { destruct Hj as [Hj|Hj]; [left; exact Hj|right]. rewrite (cc_one_counts d m Hn) in Hj. cbv zeta in Hj.
    apply Z.min_glb_lt_iff in Hj. destruct Hj as (Hj1 & Hj2). apply lt_ceiling_abs_half in Hj1, Hj2. lia. }
  destruct (cs_set_existing (ltv m) d m k (k - j) Hd Hin) as (Hget & Ca & Hkeys & Hd' & Hn').
  destruct (cs_set_existing (lev m) d m k (k - j) Hd Hin) as (_ & Cae & _).
  destruct (cs_set_existing (fun _ => true) d m k (k - j) Hd Hin) as (_ & CN & _).
  rewrite lev_refl in Cae. rewrite ltv_irrefl in Ca. rewrite !wcnt_length in CN.
  assert (Hjk : (j < k)%Z) by lia.
  split; [exact Hin|]. split; [exact Hget|]. split; [exact Hjk|]. split; [|split; [apply Hn'; [exact Hn|lia]|exact Hd']].
  set (d' := cs_set d m (k - j)) in *.
  assert (HN' : (1 <= length (expand d'))%nat) by lia.
  destruct (med_index_bounds _ HN') as (B1' & B2').
  destruct (median_of_counts d' m HN') as (x & Hx & Hxm & Hxin); [lia|lia|].
  rewrite Hx. f_equal. apply (distinct_key_eq d x m Hd); [rewrite <- Hkeys; exact Hxin|apply in_map_iff; exists (m, k); auto|exact Hxm].
Qed.

Definition cs_ok (cd : C * cscores) : Prop := cs_nonneg (snd cd) /\ cs_distinct (snd cd).
(* [medians] holds the current lower median of every candidate of [sub] *)
Definition medians_of (sub : list (C * cscores)) (medians : list (C * Q)) : Prop :=
  forall cd, In cd sub -> aggregate_one FMedianLow (snd cd) = inl (dget_or medians (fst cd) 0%Q).

(* the documented rule: [k] times, one copy of the current median of every candidate *)
Fixpoint mj_successive (k : nat) (sub : list (C * cscores)) : list (C * cscores) + serr :=
  match k with
  | O => inl sub
  | S k' => match aggregate FMedianLow sub with
            | inr e => inr e
            | inl med => mj_successive k' (mj_remove sub med 1)
            end
  end.

Lemma aggregate_cons fn cd sub :
  aggregate fn (cd :: sub) =
  match aggregate_one fn (snd cd) with
  | inl y => match aggregate fn sub with inl r => inl ((fst cd, y) :: r) | inr e => inr e end
  | inr e => inr e
  end.
Proof. unfold aggregate. cbn [map sequence]. destruct (aggregate_one fn (snd cd)); reflexivity. Qed.

Lemma aggregate_medians_of sub : forall medians, NoDup (map fst sub) ->
  aggregate FMedianLow sub = inl medians -> medians_of sub medians.
Proof.
  induction sub as [|cd sub IH]; intros medians Hnd Ha; [intros ? []|].
  rewrite aggregate_cons in Ha. destruct (aggregate_one FMedianLow (snd cd)) as [y|] eqn:Ey; [|discriminate].
  destruct (aggregate FMedianLow sub) as [r|] eqn:Er; [|discriminate]. injection Ha as <-.
  inversion Hnd as [|? ? Hnotin Hnd']; subst. intros cd' [<-|Hin].
  - unfold dget_or. cbn [dget]. rewrite ceqb_refl. exact Ey.
  - unfold dget_or. cbn [dget]. destruct (ceqb (fst cd') (fst cd)) eqn:E.
    + apply ceqb_eq in E. exfalso. apply Hnotin. rewrite <- E. apply in_map, Hin.
    + exact (IH r Hnd' eq_refl cd' Hin).
Qed.

Lemma aggregate_total sub : (forall cd, In cd sub -> exists v, aggregate_one FMedianLow (snd cd) = inl v) ->
  exists med, aggregate FMedianLow sub = inl med.
Proof.
  induction sub as [|cd sub IH]; intros H; [exists []; reflexivity|]. rewrite aggregate_cons.
  destruct (H cd (or_introl eq_refl)) as (v & ->).
  destruct IH as (r & ->); [intros cd' Hin; apply H; right; exact Hin|]. eexists. reflexivity.
Qed.

Lemma closest_change_le sub medians cd : In cd sub ->
  (closest_change sub medians <= cc_one (snd cd) (dget_or medians (fst cd) 0%Q))%Z.
Proof.
  intros Hin. unfold closest_change.
  set (per := map (fun cd0 : C * cscores => cc_one (snd cd0) (dget_or medians (fst cd0) 0%Q)) sub).
  change (match per with [] => 0%Z | x :: t => fold_left Z.min t x end <= cc_one (snd cd) (dget_or medians (fst cd) 0%Q))%Z.
  assert (Hp : In (cc_one (snd cd) (dget_or medians (fst cd) 0%Q)) per) by (unfold per; apply in_map_iff; exists cd; auto).
  destruct per as [|x t]; [destruct Hp|]. destruct (fold_min_le t x) as (H1 & H2).
  destruct Hp as [<-|Hp]; [exact H1|exact (H2 _ Hp)].
Qed.

Lemma mj_ch_bound sub medians cd j : In cd sub -> (0 <= j < mj_ch sub medians)%Z ->
  (j = 0 \/ j < cc_one (snd cd) (dget_or medians (fst cd) 0%Q))%Z.
Proof.
  intros Hin Hj. pose proof (closest_change_le sub medians cd Hin) as Hle. unfold mj_ch in Hj. cbv zeta in Hj.
  destruct (closest_change sub medians =? 0)%Z; lia.
Qed.

Lemma mj_remove_in sub medians j cd' : In cd' (mj_remove sub medians j) ->
  exists cd, In cd sub /\ fst cd' = fst cd /\
    snd cd' = cs_set (snd cd) (dget_or medians (fst cd) 0%Q)
                     (match cs_get (snd cd) (dget_or medians (fst cd) 0%Q) with Some k => k | None => 0%Z end - j)%Z.
Proof.
  unfold mj_remove. intros H. apply in_map_iff in H. destruct H as (cd & <- & Hin). exists cd. cbv zeta. auto.
Qed.

(* removing one more copy *)
Lemma mj_remove_compose sub medians j :
  mj_remove (mj_remove sub medians j) medians 1 = mj_remove sub medians (j + 1).
Proof.
  unfold mj_remove. rewrite map_map. apply map_ext. intros cd. cbv zeta. cbn [fst snd].
  rewrite cs_get_set, cs_set_set. f_equal. f_equal. lia.
Qed.

(* the single removal reads the medians of the current state: they are the same numbers *)
Lemma mj_remove_medians_ext sub med med' j :
  (forall cd, In cd sub -> dget_or med (fst cd) 0 = dget_or med' (fst cd) 0%Q) ->
  mj_remove sub med j = mj_remove sub med' j.
Proof. intros H. unfold mj_remove. apply map_ext_in. intros cd Hin. cbv zeta. rewrite (H cd Hin). reflexivity. Qed.

Section Rounds.
  Variable sub : list (C * cscores).
  Variable medians : list (C * Q).
  Hypothesis Hnd : NoDup (map fst sub).
  Hypothesis Hok : Forall cs_ok sub.
  Hypothesis Hmed : medians_of sub medians.

  (* below mj_ch removed copies, every candidate's lower median is what it was, and at least one copy is left *)
  Lemma mj_remove_stable j : (0 <= j < mj_ch sub medians)%Z ->
    medians_of (mj_remove sub medians j) medians /\ Forall cs_ok (mj_remove sub medians j) /\
    forall cd, In cd sub -> exists k, In (dget_or medians (fst cd) 0%Q, k) (snd cd) /\
                                      cs_get (snd cd) (dget_or medians (fst cd) 0%Q) = Some k /\ (j < k)%Z.
  Proof.
    intros Hj. rewrite Forall_forall in Hok.
    assert (Hone : forall cd, In cd sub -> exists k, In (dget_or medians (fst cd) 0%Q, k) (snd cd) /\
              cs_get (snd cd) (dget_or medians (fst cd) 0%Q) = Some k /\ (j < k)%Z /\
              aggregate_one FMedianLow (cs_set (snd cd) (dget_or medians (fst cd) 0%Q) (k - j)) = inl (dget_or medians (fst cd) 0%Q) /\
              cs_ok (fst cd, cs_set (snd cd) (dget_or medians (fst cd) 0%Q) (k - j))).
    { intros cd Hin. destruct (Hok cd Hin) as (Hn & Hd).
      destruct (median_stable (snd cd) (dget_or medians (fst cd) 0%Q) j Hn Hd (Hmed cd Hin) (proj1 Hj) (mj_ch_bound sub medians cd j Hin Hj))
        as (k & Hink & Hget & Hjk & Hagg & Hn' & Hd').
      exists k. repeat split; assumption. }
    split; [|split].
    - intros cd' Hin'. destruct (mj_remove_in _ _ _ _ Hin') as (cd & Hin & Hf & Hs).
      destruct (Hone cd Hin) as (k & _ & Hget & _ & Hagg & _). rewrite Hs, Hf, Hget. exact Hagg.
    - apply Forall_forall. intros cd' Hin'. destruct (mj_remove_in _ _ _ _ Hin') as (cd & Hin & Hf & Hs).
      destruct (Hone cd Hin) as (k & _ & Hget & _ & _ & Hok'). unfold cs_ok in *. rewrite Hs, Hget. exact Hok'.
    - intros cd Hin. destruct (Hone cd Hin) as (k & Hink & Hget & Hjk & _). exists k. auto.
  Qed.

  Lemma mj_remove_keys j : map fst (mj_remove sub medians j) = map fst sub.
  Proof. unfold mj_remove. rewrite map_map. reflexivity. Qed.

  Lemma mj_successive_aux : forall n j, (0 <= j)%Z -> (j + Z.of_nat n <= mj_ch sub medians)%Z ->
    mj_successive n (mj_remove sub medians j) = inl (mj_remove sub medians (j + Z.of_nat n)).
  Proof.
    induction n as [|n IH]; intros j Hj0 Hj.
    - cbn [mj_successive]. f_equal. f_equal. lia.
    - cbn [mj_successive]. destruct (mj_remove_stable j ltac:(lia)) as (Hm & _ & _).
      destruct (aggregate_total (mj_remove sub medians j)) as (med' & Ha).
      { intros cd Hin. eexists. apply (Hm cd Hin). }
      rewrite Ha.
      assert (Hnd' : NoDup (map fst (mj_remove sub medians j))) by (rewrite mj_remove_keys; exact Hnd).
      pose proof (aggregate_medians_of _ _ Hnd' Ha) as Hm'.
      rewrite (mj_remove_medians_ext _ med' medians 1).
      + rewrite mj_remove_compose, (IH (j + 1)%Z) by lia. f_equal. f_equal. lia.
      + intros cd Hin. pose proof (Hm cd Hin) as H1. pose proof (Hm' cd Hin) as H2. congruence.
  Qed.

  Lemma mj_remove_0 : mj_remove sub medians 0 = sub.
  Proof.
    pose proof (mj_ch_pos sub medians) as Hpos. destruct (mj_remove_stable 0 ltac:(lia)) as (_ & _ & Hk).
    unfold mj_remove. rewrite <- (map_id sub) at 2. apply map_ext_in. intros [c d] Hin. cbv zeta.
    destruct (Hk _ Hin) as (k & _ & Hget & _). rewrite Hget, Z.sub_0_r, (cs_set_same _ _ _ Hget). reflexivity.
  Qed.

  (* one multi-copy step = mj_ch successive single-copy steps; in between the medians do not move *)
  Theorem mj_multi_copy_successive :
    (forall j, (0 <= j < mj_ch sub medians)%Z -> medians_of (mj_remove sub medians j) medians) /\
    mj_successive (Z.to_nat (mj_ch sub medians)) sub = inl (mj_remove sub medians (mj_ch sub medians)).
  Proof.
    split; [intros j Hj; apply (mj_remove_stable j Hj)|].
    pose proof (mj_ch_pos sub medians) as Hpos.
    pose proof (mj_successive_aux (Z.to_nat (mj_ch sub medians)) 0 (Z.le_refl 0) ltac:(lia)) as H.
    rewrite mj_remove_0 in H. rewrite H. f_equal. f_equal. lia.
  Qed.

  (* the state after the multi-copy step is again a well-formed one *)
  Lemma mj_remove_ch_ok : Forall cs_ok (mj_remove sub medians (mj_ch sub medians)).
  Proof.
    pose proof (mj_ch_pos sub medians) as Hpos.
    destruct (mj_remove_stable (mj_ch sub medians - 1) ltac:(lia)) as (_ & _ & Hk).
    apply Forall_forall. intros cd' Hin'. destruct (mj_remove_in _ _ _ _ Hin') as (cd & Hin & Hf & Hs).
    destruct (Hk cd Hin) as (k & Hink & Hget & Hjk). rewrite Forall_forall in Hok. destruct (Hok cd Hin) as (Hn & Hd).
    destruct (cs_set_existing (fun _ => true) (snd cd) _ k (k - mj_ch sub medians) Hd Hink) as (_ & _ & _ & Hd' & Hn').
    unfold cs_ok. rewrite Hs, Hget. split; [apply Hn'; [exact Hn|lia]|exact Hd'].
  Qed.
End Rounds.

(* one round of the removal loop (MJ_proofs.mj_round: only the candidates T on the shared highest median stay, and
   mj_ch copies of the median grade leave each of them at once) is mj_ch rounds of the documented one-at-a-time
   rule among T; during these the medians of T do not move (nobody falls behind, nobody gets ahead), and the
   state after the round is again well-formed *)
Theorem mj_round_successive sub medians T :
  NoDup (map fst sub) -> Forall cs_ok sub -> aggregate FMedianLow sub = inl medians ->
  let lvl := mj_level sub T in
  let ch := mj_ch lvl medians in
  mj_successive (Z.to_nat ch) lvl = inl (mj_round sub medians T) /\
  (forall j, (0 <= j < ch)%Z -> medians_of (mj_remove lvl medians j) medians) /\
  NoDup (map fst (mj_round sub medians T)) /\ Forall cs_ok (mj_round sub medians T).
Proof.
  intros Hnd Hok Ha. cbv zeta.
  assert (Hnd' : NoDup (map fst (mj_level sub T))) by (apply GetNBest_proofs.nodup_keys_filter, Hnd).
  assert (Hok' : Forall cs_ok (mj_level sub T)).
  { rewrite Forall_forall in *. intros cd Hin. apply filter_In in Hin. apply Hok, Hin. }
  assert (Hm' : medians_of (mj_level sub T) medians).
  { intros cd Hin. apply filter_In in Hin. apply (aggregate_medians_of sub medians Hnd Ha), Hin. }
  destruct (mj_multi_copy_successive _ _ Hnd' Hok' Hm') as (H1 & H2).
  split; [exact H2|]. split; [exact H1|]. split.
  - rewrite mj_round_keys. exact Hnd'.
  - exact (mj_remove_ch_ok _ _ Hok' Hm').
Qed.

(* the hypotheses hold on two candidates that share the median 1 over seven grades each; two copies go at once *)
Definition ex_sub : list (C * cscores) :=
  [(1%positive, [(0, 1%Z); (1, 5%Z); (2, 1%Z)]); (2%positive, [(0, 2%Z); (1, 3%Z); (2, 2%Z)])].
Definition ex_med : list (C * Q) := [(1%positive, 1); (2%positive, 1)].

Lemma mj_multi_copy_example :
  NoDup (map fst ex_sub) /\ Forall cs_ok ex_sub /\ aggregate FMedianLow ex_sub = inl ex_med /\
  mj_ch ex_sub ex_med = 2%Z /\
  mj_successive 2 ex_sub = inl (mj_remove ex_sub ex_med 2).
Proof.
  split; [repeat constructor; cbn; intuition discriminate|]. split.
  - repeat constructor; cbn; try lia; try (intros sn' [<-|[<-|[]]]; cbn; intros H; discriminate H);
      try (intros sn' [<-|[]]; cbn; intros H; discriminate H); try (intros sn' []).
  - split; [vm_compute; reflexivity|]. split; vm_compute; reflexivity.
Qed.
