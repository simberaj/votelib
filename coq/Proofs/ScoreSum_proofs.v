(* ScoreToSimpleVotes (Model/Cardinal.v score_to_simple, convert.py L160-252) as a vote converter (C13).

   The converter first tallies, per candidate, how often each score was given ([raw_scores]: candidate -> score -> count),
   and only then aggregates.  The tallies are SUMS over the ballots: for every weight function phi of the score,

        sum over the dictionary of candidate c of  phi(score) * count  ==  psum phi c votes              [wq_raw]

   where [psum phi c votes] = sum over the ballots (b, n) of n * sum over the pairs (c, s) of b of phi(s).
   With phi = identity this is the `sum` aggregate itself: per-ballot exact (the image of a ballot is its own (candidate, score)
   pairs) and additive.  `mean` is the quotient of two such tallies and `median_low` is fixed by three of them
   (2 * #below < #all <= 2 * #at-most): exact statements, and neither is additive.
   All for the plain configuration (no unscored_value, min_count <= 0, no truncation) and ballot counts >= 0. *)
From Coq Require Import ZArith QArith Qround Qreduction List Bool Arith Lia Lqa Permutation.
From VL Require Import Prelude.PyDict Model.GetNBest Model.Convert Model.Cardinal
     Proofs.QOrd Proofs.Dict_proofs Proofs.MJ_proofs Proofs.MJ_removal_proofs Proofs.ScoreDict_proofs Proofs.ScoreOrder_proofs.
Import ListNotations.
Open Scope Q_scope.

Definition wq (phi : Q -> Q) (d : cscores) : Q := fold_right (fun sn acc => phi (fst sn) * inject_Z (snd sn) + acc) 0 d.
Definition phi_ok (phi : Q -> Q) : Prop := forall a b, a == b -> phi a == phi b.

Lemma wq_cons phi sn d : wq phi (sn :: d) = phi (fst sn) * inject_Z (snd sn) + wq phi d.
Proof. reflexivity. Qed.

Lemma wq_set phi d s w : phi_ok phi -> wq phi (cs_set d s (odf (cs_get d s) + w)) == wq phi d + phi s * inject_Z w.
Proof.
  intros Hp. induction d as [|[s' n'] t IH]; cbn [cs_set cs_get odf].
  - rewrite !wq_cons. cbn [fst snd wq fold_right]. rewrite inject_Z_plus. ring.
  - destruct (Qeq_bool s s') eqn:E; cbn [odf].
    + apply Qeq_bool_iff in E. rewrite !wq_cons. cbn [fst snd]. rewrite inject_Z_plus, (Hp s s' E). ring.
    + rewrite !wq_cons. cbn [fst snd]. rewrite IH. ring.
Qed.

Definition bsum (phi : Q -> Q) (c : C) (b : sballot) : Q :=
  fold_right (fun cs acc => (if ceqb c (fst cs) then phi (snd cs) else 0) + acc) 0 b.
Definition psum (phi : Q -> Q) (c : C) (votes : sprofile) : Q :=
  fold_right (fun bn acc => inject_Z (snd bn) * bsum phi c (fst bn) + acc) 0 votes.
Definition insum (phi : Q -> Q) (c : C) (l : list instr) : Q :=
  fold_right (fun i acc => (if ceqb c (fst (fst i)) then phi (snd (fst i)) * inject_Z (snd i) else 0) + acc) 0 l.

Lemma insum_app phi c a b : insum phi c (a ++ b) == insum phi c a + insum phi c b.
Proof. unfold insum. induction a as [|i a IH]; cbn [app fold_right]; [ring|]. rewrite IH. ring. Qed.

Lemma insum_ballot phi c (b : sballot) n :
  insum phi c (map (fun cs : C * Q => (fst cs, snd cs, n)) b) == inject_Z n * bsum phi c b.
Proof.
  unfold insum, bsum. induction b as [|[c' s] b IH]; cbn [map fold_right fst snd]; [ring|].
  rewrite IH. destruct (ceqb c c'); ring.
Qed.

Lemma insum_instrs phi c votes : insum phi c (instrs votes) == psum phi c votes.
Proof.
  unfold instrs, psum. induction votes as [|[b n] votes IH]; cbn [flat_map fold_right fst snd]; [reflexivity|].
  rewrite insum_app, insum_ballot, IH. reflexivity.
Qed.

Lemma psum_app phi c a b : psum phi c (a ++ b) == psum phi c a + psum phi c b.
Proof. unfold psum. induction a as [|bn a IH]; cbn [app fold_right]; [ring|]. rewrite IH. ring. Qed.

Lemma psum_single phi c b n : psum phi c [(b, n)] == inject_Z n * bsum phi c b.
Proof. unfold psum. cbn [fold_right fst snd]. ring. Qed.

Lemma W_sstep phi D i c : phi_ok phi ->
  wq phi (look (sstep D i) c) == wq phi (look D c) + (if ceqb c (fst (fst i)) then phi (snd (fst i)) * inject_Z (snd i) else 0).
Proof.
  intros Hp. rewrite look_sstep. destruct (ceqb c (fst (fst i))) eqn:E; [|ring].
  apply ceqb_eq in E. subst c. unfold g. apply wq_set, Hp.
Qed.

Lemma W_fold phi c l : phi_ok phi -> forall D, wq phi (look (fold_left sstep l D) c) == wq phi (look D c) + insum phi c l.
Proof.
  intros Hp. induction l as [|i l IH]; intros D; cbn [fold_left insum fold_right]; [ring|].
  fold (insum phi c l). rewrite IH, W_sstep by exact Hp. ring.
Qed.

(* every tally of the dictionary of a candidate is the sum of the ballots' contributions *)
Theorem wq_raw phi c votes : phi_ok phi -> wq phi (look (raw_scores votes) c) == psum phi c votes.
Proof.
  intros Hp. rewrite raw_scores_instrs, (W_fold phi c _ Hp), insum_instrs. unfold look. cbn [dget wq fold_right]. ring.
Qed.

(* the candidates of the output: those scored by some ballot *)
Lemma raw_scores_keys votes c :
  In c (map fst (raw_scores votes)) <-> exists b n s, In (b, n) votes /\ In (c, s) b.
Proof.
  rewrite <- dmem_In, raw_scores_instrs, dmem_fold.
  replace (dmem (@nil (C * cscores)) c) with false by reflexivity. rewrite orb_false_r, existsb_exists.
  unfold instrs. split.
  - intros ([[c' s] n] & Hin & E). cbn [fst] in E. apply ceqb_eq in E. subst c'.
    apply in_flat_map in Hin. destruct Hin as ([b n'] & Hb & Hi). cbn [fst snd] in Hi.
    apply in_map_iff in Hi. destruct Hi as ([c2 s2] & E2 & Hcs). cbn [fst snd] in E2. injection E2 as -> -> ->.
    exists b, n, s. split; assumption.
  - intros (b & n & s & Hb & Hcs). exists (c, s, n). split; [|cbn [fst]; apply ceqb_refl].
    apply in_flat_map. exists (b, n). split; [exact Hb|]. cbn [fst snd]. apply in_map_iff. exists (c, s). split; [reflexivity|exact Hcs].
Qed.


Lemma qsum_app a b : fold_left Qplus (a ++ b) 0 == fold_left Qplus a 0 + fold_left Qplus b 0.
Proof. rewrite fold_left_app, qsum_shift. reflexivity. Qed.

Lemma sum_expand d : cs_nonneg d -> fold_left Qplus (expand d) 0 == wq (fun s => s) d.
Proof.
  unfold expand. induction 1 as [|[s n] d Hn _ IH]; [reflexivity|]. cbn [flat_map fst snd] in *.
  rewrite qsum_app, qsum_repeat, IH, wq_cons, Z2Nat.id by exact Hn. reflexivity.
Qed.

Lemma wcnt_wq p d : cs_nonneg d -> inject_Z (Z.of_nat (wcnt p d)) == wq (fun s => if p s then 1 else 0) d.
Proof.
  induction 1 as [|[s n] d Hn _ IH]; [reflexivity|]. rewrite wcnt_cons, wq_cons, Nat2Z.inj_add, inject_Z_plus, IH.
  cbn [fst snd] in *. destruct (p s); [rewrite Z2Nat.id by exact Hn; ring|cbn; ring].
Qed.

Lemma length_wq d : cs_nonneg d -> inject_Z (Z.of_nat (length (expand d))) == wq (fun _ => 1) d.
Proof. intros H. rewrite <- wcnt_length, (wcnt_wq (fun _ => true) d H). reflexivity. Qed.

(* in the plain configuration correct_scores leaves the tallies as they are *)
Definition plain_cfg (cf : score_cfg) : bool :=
  match sc_unscored cf with UNone => (sc_min_count cf <=? 0)%Z && Qle_bool (sc_trunc cf) 0 | _ => false end.
Definition counts_nonneg (votes : sprofile) : bool := forallb (fun bn : sballot * Z => (0 <=? snd bn)%Z) votes.

Lemma counts_nonneg_spec votes : counts_nonneg votes = true -> forall bn, In bn votes -> (0 <= snd bn)%Z.
Proof. unfold counts_nonneg. rewrite forallb_forall. intros H bn Hin. apply Z.leb_le, H, Hin. Qed.

Lemma correct_plain cf d nv : plain_cfg cf = true -> cs_nonneg d -> correct_scores cf d nv = inl d.
Proof.
  unfold plain_cfg, correct_scores. destruct (sc_unscored cf); try discriminate. intros H Hd.
  apply andb_true_iff in H. destruct H as [H1 H2]. apply Z.leb_le in H1.
  pose proof (cs_total_nonneg d Hd) as Ht.
  assert ((cs_total d <? sc_min_count cf)%Z = false) as -> by (apply Z.ltb_ge; lia).
  rewrite H2. reflexivity.
Qed.

Lemma sequence_all_inl_map {X Y Z'} (l : list (X * Y)) (f : X * Y -> Z' + serr) (g : Y -> Z') :
  (forall xy, In xy l -> f xy = inl (g (snd xy))) ->
  sequence (map (fun xy => (fst xy, f xy)) l) = inl (map (fun xy => (fst xy, g (snd xy))) l).
Proof.
  induction l as [|[x y] l IH]; intros H; cbn [map sequence fst snd]; [reflexivity|].
  rewrite (H (x, y) (or_introl eq_refl)). cbn [snd]. rewrite IH; [reflexivity|]. intros xy Hin. apply H. right. exact Hin.
Qed.

Lemma sequence_all_inl {X Y} (l : list (X * Y)) (f : X * Y -> Y + serr) :
  (forall xy, In xy l -> f xy = inl (snd xy)) -> sequence (map (fun xy => (fst xy, f xy)) l) = inl l.
Proof.
  intros H. rewrite (sequence_all_inl_map l f (fun y => y) H). f_equal.
  rewrite <- (map_id l) at 2. apply map_ext. intros [x y]. reflexivity.
Qed.

Lemma corrected_plain cf votes : plain_cfg cf = true -> counts_nonneg votes = true ->
  corrected_scores cf votes = inl (raw_scores votes).
Proof.
  intros Hc Hv. unfold corrected_scores. cbv zeta. apply sequence_all_inl. intros cd Hin.
  apply correct_plain; [exact Hc|]. apply (raw_scores_okd votes (counts_nonneg_spec votes Hv) cd Hin).
Qed.

Lemma score_plain cf votes : plain_cfg cf = true -> counts_nonneg votes = true ->
  score_to_simple cf votes = aggregate (sc_fn cf) (raw_scores votes).
Proof. intros Hc Hv. unfold score_to_simple. rewrite (corrected_plain cf votes Hc Hv). reflexivity. Qed.

Lemma raw_look votes c d : In (c, d) (raw_scores votes) -> look (raw_scores votes) c = d.
Proof. intros H. unfold look. rewrite (In_dget _ _ _ (raw_scores_nodup votes) H). reflexivity. Qed.

Definition sum_out (votes : sprofile) : list (C * Q) :=
  map (fun cd : C * cscores => (fst cd, Qred (fold_left Qplus (expand (snd cd)) 0))) (raw_scores votes).

Lemma aggregate_sum sc : aggregate FSum sc = inl (map (fun cd : C * cscores => (fst cd, Qred (fold_left Qplus (expand (snd cd)) 0))) sc).
Proof.
  unfold aggregate. induction sc as [|[c d] sc IH]; cbn [map fst snd]; [reflexivity|].
  change (aggregate_one FSum d) with (@inl Q serr (Qred (fold_left Qplus (expand d) 0))).
  cbn [sequence]. rewrite IH. reflexivity.
Qed.

Theorem score_sum_runs cf votes : sc_fn cf = FSum -> plain_cfg cf = true -> counts_nonneg votes = true ->
  score_to_simple cf votes = inl (sum_out votes).
Proof. intros Hf Hc Hv. rewrite (score_plain cf votes Hc Hv), Hf. apply aggregate_sum. Qed.

Theorem sum_out_value votes c : counts_nonneg votes = true -> dget_or (sum_out votes) c 0 == psum (fun s => s) c votes.
Proof.
  intros Hv. rewrite <- (wq_raw (fun s => s) c votes) by (intros a b H; exact H).
  unfold sum_out, dget_or, look. rewrite (dget_map_vals (fun d : cscores => Qred (fold_left Qplus (expand d) 0))). destruct (dget (raw_scores votes) c) as [d|] eqn:E; cbn [option_map]; [|reflexivity].
  rewrite Qred_correct. apply sum_expand. apply dget_In in E.
  apply (raw_scores_okd votes (counts_nonneg_spec votes Hv) (c, d) E).
Qed.

Lemma sum_out_keys votes : map fst (sum_out votes) = map fst (raw_scores votes).
Proof. unfold sum_out. rewrite map_map. reflexivity. Qed.

Theorem score_mean_value cf votes out c x : sc_fn cf = FMean -> plain_cfg cf = true -> counts_nonneg votes = true ->
  score_to_simple cf votes = inl out -> In (c, x) out ->
  0 < psum (fun _ => 1) c votes /\ x * psum (fun _ => 1) c votes == psum (fun s => s) c votes.
Proof.
  intros Hf Hc Hv Hr Hin. rewrite (score_plain cf votes Hc Hv), Hf in Hr.
  destruct (aggregate_in _ _ _ _ _ Hr Hin) as (d & Hd & Ha).
  assert (Hn : cs_nonneg d) by apply (raw_scores_okd votes (counts_nonneg_spec votes Hv) (c, d) Hd).
  rewrite <- (wq_raw (fun _ => 1) c votes) by (intros a b _; reflexivity).
  rewrite <- (wq_raw (fun s => s) c votes) by (intros a b H; exact H).
  rewrite (raw_look votes c d Hd), <- (length_wq d Hn), <- (sum_expand d Hn).
  unfold aggregate_one in Ha. cbv zeta in Ha. destruct (expand d) as [|y l] eqn:E; [discriminate|].
  apply (f_equal (fun r : Q + serr => match r with inl v => v | inr _ => 0 end)) in Ha. cbv beta iota in Ha. subst x.
  assert (Hpos : 0 < inject_Z (Z.of_nat (length (y :: l)))).
  { change 0 with (inject_Z 0). rewrite <- Zlt_Qlt. cbn [length]. lia. }
  split; [exact Hpos|]. rewrite Qred_correct. field. intros H0. rewrite H0 in Hpos. apply (Qlt_irrefl 0 Hpos).
Qed.

Definition below (m s : Q) : Q := if ltv m s then 1 else 0.       (* s < m *)
Definition atmost (m s : Q) : Q := if lev m s then 1 else 0.      (* s <= m *)

Lemma below_ok m : phi_ok (below m).
Proof.
  intros a b H. unfold below, ltv. rewrite (LRScale_proofs.Qle_bool_Qeq m m b a (Qeq_refl m) H). reflexivity.
Qed.
Lemma atmost_ok m : phi_ok (atmost m).
Proof.
  intros a b H. unfold atmost, lev. rewrite (LRScale_proofs.Qle_bool_Qeq b a m m H (Qeq_refl m)). reflexivity.
Qed.

Theorem score_median_value cf votes out c m : sc_fn cf = FMedianLow -> plain_cfg cf = true -> counts_nonneg votes = true ->
  score_to_simple cf votes = inl out -> In (c, m) out ->
  2 * psum (below m) c votes < psum (fun _ => 1) c votes /\ psum (fun _ => 1) c votes <= 2 * psum (atmost m) c votes.
Proof.
  intros Hf Hc Hv Hr Hin. rewrite (score_plain cf votes Hc Hv), Hf in Hr.
  destruct (aggregate_in _ _ _ _ _ Hr Hin) as (d & Hd & Ha).
  assert (Hn : cs_nonneg d) by apply (raw_scores_okd votes (counts_nonneg_spec votes Hv) (c, d) Hd).
  rewrite <- (wq_raw (fun _ => 1) c votes) by (intros a b _; reflexivity).
  rewrite <- (wq_raw (below m) c votes) by apply below_ok.
  rewrite <- (wq_raw (atmost m) c votes) by apply atmost_ok.
  rewrite (raw_look votes c d Hd), <- (length_wq d Hn).
  unfold below, atmost. rewrite <- (wcnt_wq (ltv m) d Hn), <- (wcnt_wq (lev m) d Hn).
  destruct (median_counts d m Ha) as (HN & H1 & H2 & _). cbv zeta in *.
  destruct (Scale2Dup_proofs.med_index_bounds _ HN) as (B1 & B2).
  change 2 with (inject_Z 2). rewrite <- !inject_Z_mult, <- Zlt_Qlt, <- Zle_Qle. lia.
Qed.

Definition cfg_of (fn : aggfn) : score_cfg :=
  {| sc_fn := fn; sc_unscored := UNone; sc_min_count := 0; sc_trunc := 0; sc_bottom := 0 |}.

Lemma score_mean_not_additive :
  exists a b oa ob oab c,
    plain_cfg (cfg_of FMean) = true /\ counts_nonneg a = true /\ counts_nonneg b = true /\
    score_to_simple (cfg_of FMean) a = inl oa /\ score_to_simple (cfg_of FMean) b = inl ob /\
    score_to_simple (cfg_of FMean) (a ++ b) = inl oab /\
    ~ dget_or oab c 0 == dget_or oa c 0 + dget_or ob c 0.
Proof.
  exists [([(1%positive, 0)], 1%Z)], [([(1%positive, 4)], 1%Z)], [(1%positive, 0)], [(1%positive, 4)], [(1%positive, 2)], 1%positive.
  repeat split. vm_compute. discriminate.
Qed.

Lemma score_median_not_additive :
  exists a b oa ob oab c,
    plain_cfg (cfg_of FMedianLow) = true /\ counts_nonneg a = true /\ counts_nonneg b = true /\
    score_to_simple (cfg_of FMedianLow) a = inl oa /\ score_to_simple (cfg_of FMedianLow) b = inl ob /\
    score_to_simple (cfg_of FMedianLow) (a ++ b) = inl oab /\
    ~ dget_or oab c 0 == dget_or oa c 0 + dget_or ob c 0.
Proof.
  exists [([(1%positive, 1)], 1%Z)], [([(1%positive, 4)], 1%Z)], [(1%positive, 1)], [(1%positive, 4)], [(1%positive, 1)], 1%positive.
  repeat split. vm_compute. discriminate.
Qed.

(* sum with a constant unscored_value v: every ballot also gives v to each candidate OF THE PROFILE it does not score.  Like the positional or the inverted
   approval image this reads the candidate set off the profile: the sum is additive over profiles that score the same candidates. *)
Definition ptotal (votes : sprofile) : Q := fold_right (fun bn acc => inject_Z (snd bn) + acc) 0 votes.

Lemma ptotal_app a b : ptotal (a ++ b) == ptotal a + ptotal b.
Proof. unfold ptotal. induction a as [|bn a IH]; cbn [app fold_right]; [ring|]. rewrite IH. ring. Qed.

Lemma n_votes_ptotal votes : inject_Z (fold_left Z.add (map snd votes) 0%Z) == ptotal votes.
Proof.
  unfold ptotal. induction votes as [|bn votes IH]; cbn [map fold_left fold_right]; [reflexivity|].
  rewrite fold_add_shift, inject_Z_plus, IH. change (0 + snd bn)%Z with (snd bn). reflexivity.
Qed.

Lemma total_wq d : inject_Z (cs_total d) == wq (fun _ => 1) d.
Proof.
  induction d as [|sn d IH]; [reflexivity|]. rewrite cs_total_cons, inject_Z_plus, IH, wq_cons. ring.
Qed.

Definition const_cfg (cf : score_cfg) (v : Q) : Prop :=
  sc_fn cf = FSum /\ sc_unscored cf = UConst v /\ (sc_min_count cf <= 0)%Z /\ Qle_bool (sc_trunc cf) 0 = true.

Definition fill (v : Q) (nv : Z) (d : cscores) : cscores := cs_set d v (nv - cs_total d + odf (cs_get d v)).

Lemma correct_const cf d nv v : const_cfg cf v -> cs_nonneg d -> correct_scores cf d nv = inl (fill v nv d).
Proof.
  intros (_ & Hu & Hm & Ht) Hd. unfold correct_scores. rewrite Hu.
  pose proof (cs_total_nonneg d Hd) as Hn.
  assert ((cs_total d <? sc_min_count cf)%Z = false) as -> by (apply Z.ltb_ge; lia).
  rewrite Ht. reflexivity.
Qed.

Definition const_out (v : Q) (votes : sprofile) : list (C * Q) :=
  map (fun cd : C * cscores => (fst cd, Qred (fold_left Qplus (expand (fill v (fold_left Z.add (map snd votes) 0%Z) (snd cd))) 0)))
      (raw_scores votes).

Theorem score_const_runs cf v votes : const_cfg cf v -> profile_ok votes -> score_to_simple cf votes = inl (const_out v votes).
Proof.
  intros Hc Hv. unfold score_to_simple, corrected_scores. cbv zeta.
  rewrite (sequence_all_inl_map (raw_scores votes) _ (fill v (fold_left Z.add (map snd votes) 0%Z))).
  - destruct Hc as (-> & _). rewrite aggregate_sum, map_map. reflexivity.
  - intros cd Hin. apply (correct_const cf _ _ v Hc).
    apply (raw_scores_okd votes (fun bn H => proj1 (Hv bn H)) cd Hin).
Qed.

Theorem const_out_value v votes c : profile_ok votes -> In c (map fst (raw_scores votes)) ->
  dget_or (const_out v votes) c 0 == psum (fun s => s) c votes + v * (ptotal votes - psum (fun _ => 1) c votes).
Proof.
  intros Hv Hc. apply in_map_iff in Hc. destruct Hc as ([c' d] & E & Hin). cbn [fst] in E. subst c'.
  rewrite <- (wq_raw (fun s => s) c votes) by (intros a b H; exact H).
  rewrite <- (wq_raw (fun _ => 1) c votes) by (intros a b _; reflexivity).
  rewrite (raw_look votes c d Hin), <- n_votes_ptotal, <- total_wq.
  unfold const_out, dget_or.
  rewrite (dget_map_vals (fun d0 : cscores => Qred (fold_left Qplus (expand (fill v (fold_left Z.add (map snd votes) 0%Z) d0)) 0))).
  rewrite (In_dget _ _ _ (raw_scores_nodup votes) Hin). cbn [option_map].
  pose proof (raw_scores_okd votes (fun bn H => proj1 (Hv bn H)) (c, d) Hin) as [Hn _]. cbn [snd] in Hn.
  pose proof (raw_scores_bound votes Hv (c, d) Hin) as Hb. cbn [snd] in Hb.
  set (nv := fold_left Z.add (map snd votes) 0%Z) in *.
  assert (Hb' : (cs_total d <= nv)%Z) by exact Hb.
  assert (Hg : (0 <= odf (cs_get d v))%Z).
  { destruct (cs_get d v) as [k|] eqn:E; cbn [odf]; [exact (cs_get_nonneg d v k Hn E)|lia]. }
  rewrite Qred_correct, sum_expand.
  - unfold fill. replace (nv - cs_total d + odf (cs_get d v))%Z with (odf (cs_get d v) + (nv - cs_total d))%Z by lia.
    rewrite (wq_set (fun s => s) d v (nv - cs_total d)) by (intros a b H; exact H).
    unfold Zminus. rewrite inject_Z_plus, inject_Z_opp. ring.
  - unfold fill. apply cs_set_nonneg_gen; [exact Hn|lia].
Qed.

Lemma const_out_keys v votes : map fst (const_out v votes) = map fst (raw_scores votes).
Proof. unfold const_out. rewrite map_map. reflexivity. Qed.

Lemma profile_ok_app a b : profile_ok a -> profile_ok b -> profile_ok (a ++ b).
Proof. intros Ha Hb bn Hin. apply in_app_or in Hin. destruct Hin as [H|H]; [apply Ha, H|apply Hb, H]. Qed.

Lemma raw_keys_app a b c : In c (map fst (raw_scores a)) -> In c (map fst (raw_scores (a ++ b))).
Proof.
  rewrite !raw_scores_keys. intros (x & n & s & H1 & H2). exists x, n, s. split; [apply in_or_app; left; exact H1|exact H2].
Qed.

(* additive on a candidate both profiles score (in particular: on two profiles that score the same candidates) *)
Theorem score_const_additive cf v a b oa ob oab c : const_cfg cf v -> profile_ok a -> profile_ok b ->
  In c (map fst (raw_scores a)) -> In c (map fst (raw_scores b)) ->
  score_to_simple cf a = inl oa -> score_to_simple cf b = inl ob -> score_to_simple cf (a ++ b) = inl oab ->
  dget_or oab c 0 == dget_or oa c 0 + dget_or ob c 0.
Proof.
  intros Hc Ha Hb Ca Cb Ra Rb Rab.
  rewrite (score_const_runs cf v a Hc Ha) in Ra. rewrite (score_const_runs cf v b Hc Hb) in Rb.
  rewrite (score_const_runs cf v (a ++ b) Hc (profile_ok_app a b Ha Hb)) in Rab.
  injection Ra as <-. injection Rb as <-. injection Rab as <-.
  rewrite (const_out_value v a c Ha Ca), (const_out_value v b c Hb Cb),
          (const_out_value v (a ++ b) c (profile_ok_app a b Ha Hb) (raw_keys_app a b c Ca)).
  rewrite !psum_app, ptotal_app. ring.
Qed.

(* the candidate-set condition is needed: a candidate only one of the two profiles scores *)
Lemma score_const_needs_same_cands :
  exists cf a b oa ob oab c,
    const_cfg cf 1 /\ profile_ok a /\ profile_ok b /\
    score_to_simple cf a = inl oa /\ score_to_simple cf b = inl ob /\ score_to_simple cf (a ++ b) = inl oab /\
    ~ dget_or oab c 0 == dget_or oa c 0 + dget_or ob c 0.
Proof.
  exists {| sc_fn := FSum; sc_unscored := UConst 1; sc_min_count := 0; sc_trunc := 0; sc_bottom := 0 |},
         [([(1%positive, 3)], 1%Z)], [([(2%positive, 3)], 1%Z)], [(1%positive, 3)], [(2%positive, 3)], [(1%positive, 4); (2%positive, 4)], 1%positive.
  split; [|split; [|split]].
  - split; [reflexivity|split; [reflexivity|split; [apply Z.le_refl|reflexivity]]].
  - intros bn [<-|[]]. split; [cbn; lia|repeat constructor; intros []].
  - intros bn [<-|[]]. split; [cbn; lia|repeat constructor; intros []].
  - repeat split. vm_compute. discriminate.
Qed.
