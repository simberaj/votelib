(* The quota winner of a single-seat count (C04, majority clause): if exactly one continuing candidate holds at
   least the quota, every continuing candidate is capped at one seat, a second candidate continues and equal totals
   are accepted (accept_equal), the count elects that candidate and the run ends with exactly that one seat.
   With the Droop quota a candidate holding more than half of the votes is such a candidate (majority_single_seat). *)
From Coq Require Import ZArith QArith Qround List Bool Lia Lqa Arith Permutation.
From VL Require Import Prelude.PyDict Model.GetNBest Model.Convert Model.STV Proofs.GetNBest_proofs Proofs.QOrd
     Proofs.STV_proofs Model.Quota.
Import ListNotations.

Lemma flat_map_single {X Y} (f : X -> list Y) (l : list X) x y :
  NoDup l -> In x l -> f x = [y] -> (forall z, In z l -> z <> x -> f z = []) -> flat_map f l = [y].
Proof.
  induction l as [|z l IH]; simpl; [tauto|]. intros Hnd [->|Hin] Hx Hoth.
  - rewrite Hx. inversion Hnd as [|? ? Hz _]; subst. simpl. f_equal.
    assert (H : forall u, In u l -> f u = []) by (intros u Hu; apply Hoth; [right; exact Hu|intros ->; exact (Hz Hu)]).
    clear -H. induction l as [|u l IH]; simpl; [reflexivity|]. rewrite (H u (or_introl eq_refl)), IH; [reflexivity|].
    intros w Hw. apply H. right. exact Hw.
  - inversion Hnd as [|? ? Hz Hl]; subst. rewrite (Hoth z (or_introl eq_refl)) by (intros ->; exact (Hz Hin)). simpl.
    apply IH; [exact Hl|exact Hin|exact Hx|]. intros u Hu Hne. apply Hoth; [right; exact Hu|exact Hne].
Qed.

Lemma qfloor_div_small x q : 0 <= x -> x < q -> qfloor_div x q = 0%Z.
Proof.
  intros H0 Hlt. unfold qfloor_div. assert (Hq : 0 < q) by lra.
  assert (H1 : 0 <= x / q) by (apply Qle_shift_div_l; [exact Hq|lra]).
  assert (H2 : x / q < 1) by (apply Qlt_shift_div_r; [exact Hq|lra]).
  set (d := x / q) in *. pose proof (Qfloor_le d) as F1.
  apply (Qfloor_resp_le 0) in H1. change (Qfloor 0) with 0%Z in H1.
  assert (B : (Qfloor d < 1)%Z) by (rewrite Zlt_Qlt; change (inject_Z 1) with 1; lra).
  lia.
Qed.

Lemma qfloor_div_big x q : 0 < q -> q <= x -> (1 <= qfloor_div x q)%Z.
Proof.
  intros Hq Hle. unfold qfloor_div.
  assert (H1 : 1 <= x / q) by (apply Qle_shift_div_l; [exact Hq|lra]).
  change 1%Q with (inject_Z 1) in H1. apply Qfloor_resp_le in H1. rewrite Qfloor_Z in H1. exact H1.
Qed.

Section QW.
  Variable cf : cfg.
  Hypothesis Hae : c_accept_equal cf = true.
  Variable a : alloc.
  Hypothesis Hnd : NoDup (akeys a).
  Variable q : Q.
  Hypothesis Hq : 0 < q.
  Variable c : C.
  Variable t : Q.
  Hypothesis Hc : In (Some c, t) (totals a).
  Hypothesis Hct : q <= t.
  Hypothesis Hothers : forall k x, In (k, x) (totals a) -> k <> Some c -> 0 <= x /\ x < q.
  Variable caps : list (C * Z).
  Hypothesis Hcap : dget caps c = Some 1%Z.

  Lemma totals_nodup : NoDup (map fst (totals a)).
  Proof. rewrite totals_keys. exact Hnd. Qed.

  Theorem quota_winner n_rem : (1 <= n_rem)%Z ->
    elect_by_quota cf (totals a) (Some q) n_rem [] caps = inl (Some [(c, 1%Z)]).
  Proof.
    intros Hn. unfold elect_by_quota.
    set (items := sort_desc Qle_bool (map (fun kt : option C * Q => (fst kt, snd kt)) (totals a))).
    assert (Hperm : Permutation items (totals a)) by apply ebq_items_perm.
    match goal with |- context [flat_map ?f items] => set (f0 := f) end.
    (* c alone is selected: the others hold no whole quota *)
    assert (Hsel : flat_map f0 items = [(c, 1%Z, Qred (t - inject_Z (qfloor_div t q) * q))]).
    { apply (flat_map_single f0 items (Some c, t)).
      - apply (Permutation_NoDup (Permutation_sym Hperm)), (NoDup_map_inv fst), totals_nodup.
      - apply (Permutation_in _ (Permutation_sym Hperm)), Hc.
      - unfold f0. cbn [fst snd]. rewrite Hae, Hcap. cbn [orb]. pose proof (qfloor_div_big t q Hq Hct) as Hm.
        rewrite Z.min_r by lia. reflexivity.
      - intros [k x] Hz Hne. apply (Permutation_in _ Hperm) in Hz. destruct k as [c0|]; [|reflexivity].
        assert (Hk : Some c0 <> Some c).
        { intros [= ->]. apply Hne. f_equal. exact (NoDup_fst_eq (totals a) (Some c) x t totals_nodup Hz Hc). }
        destruct (Hothers _ _ Hz Hk) as [H0 Hlt].
        unfold f0. cbn [fst snd]. rewrite (qfloor_div_small x q H0 Hlt).
        destruct (c_accept_equal cf || _); [|reflexivity].
        assert ((0 <? match dget caps c0 with Some m => Z.min 0 m | None => 0 end - dget_or [] c0 0)%Z = false) as ->
          by (apply Z.ltb_ge; unfold dget_or; cbn [dget]; destruct (dget caps c0); lia).
        reflexivity. }
    rewrite Hsel. cbn [map fst snd]. unfold zsum. cbn [fold_left map snd].
    assert ((n_rem <? 0 + 1)%Z = false) as -> by (apply Z.ltb_ge; lia). reflexivity.
  Qed.
End QW.

Lemma zsum_ones (l : list Z) : Forall (fun x => x = 1%Z) l -> zsum l = Z.of_nat (length l).
Proof.
  intros H. rewrite zsum_fold. induction H as [|x l Hx _ IH]; simpl; [reflexivity|]. rewrite IH, Hx. lia.
Qed.

(* the whole single-seat run (selector form: every continuing candidate capped at one seat) *)
Section RUN1.
  Variable cf : cfg.
  Hypothesis Hae : c_accept_equal cf = true.
  Variable qf : Q -> Z -> Q.
  Hypothesis Hqf : c_quota cf = Some qf.
  Variable a : alloc.
  Hypothesis Hnd : NoDup (akeys a).
  Variable total : Q.
  Hypothesis Htot : Qeq_bool total 0 = false.
  Let q := qf total 1%Z.
  Hypothesis Hq : 0 < q.
  Variable c : C.
  Variable t : Q.
  Hypothesis Hc : In (Some c, t) (totals a).
  Hypothesis Hct : q <= t.
  Hypothesis Hothers : forall k x, In (k, x) (totals a) -> k <> Some c -> 0 <= x /\ x < q.
  Variable caps : list (C * Z).
  Hypothesis Hcaps : forall k, In (Some k) (akeys a) -> dget caps k = Some 1%Z.
  Variable c2 : C.
  Hypothesis Hc2 : In (Some c2) (akeys a) /\ c2 <> c.

  Lemma c_key : In (Some c) (akeys a).
  Proof. rewrite <- totals_keys. apply in_map_iff. exists (Some c, t). auto. Qed.

  Lemma no_shortcut :
    let by_total := sort_desc Qle_bool (totals a) in
    let avail := flat_map (fun kt : option C * Q => match fst kt with
                                   | Some c0 => [(c0, (dget_or caps c0 0 - dget_or [] c0 0)%Z)]
                                   | None => [] end) by_total in
    (zsum (map snd avail) =? 1)%Z = false.
  Proof.
    cbv zeta. set (by_total := sort_desc Qle_bool (totals a)).
    assert (Hp : Permutation by_total (totals a)) by apply sort_desc_perm.
    set (avail := flat_map _ by_total).
    (* every continuing candidate may take exactly one seat *)
    assert (Hone : forall c0 t0, In (Some c0, t0) by_total -> (dget_or caps c0 0 - dget_or [] c0 0 = 1)%Z).
    { intros c0 t0 Hin. unfold dget_or. rewrite (Hcaps c0); [reflexivity|].
      rewrite <- totals_keys. exact (in_map fst _ _ (Permutation_in _ Hp Hin)). }
    assert (Hall : Forall (fun x => x = 1%Z) (map snd avail)).
    { apply Forall_forall. intros x Hx. apply in_map_iff in Hx. destruct Hx as ([k y] & <- & Hin).
      apply in_flat_map in Hin. destruct Hin as ([[c0|] z] & Hoz & Hin); [|destruct Hin].
      destruct Hin as [[= <- <-]|[]]. exact (Hone c0 z Hoz). }
    assert (Hav : forall c0 t0, In (Some c0, t0) (totals a) -> In (c0, 1%Z) avail).
    { intros c0 t0 Hin. apply (Permutation_in _ (Permutation_sym Hp)) in Hin.
      apply in_flat_map. exists (Some c0, t0). split; [exact Hin|]. left. cbn [fst]. rewrite (Hone c0 t0 Hin). reflexivity. }
    rewrite (zsum_ones _ Hall), map_length.
    (* two distinct candidates give two entries *)
    destruct Hc2 as [Hk2 Hne]. rewrite <- totals_keys in Hk2. apply in_map_iff in Hk2.
    destruct Hk2 as ([o t2] & Ho & Hin2). cbn [fst] in Ho. subst o.
    pose proof (Hav c t Hc) as Hin1. apply Hav in Hin2.
    apply Z.eqb_neq. destruct avail as [|x1 [|x2 r]]; [destruct Hin1| |cbn [length]; lia].
    destruct Hin1 as [->|[]]. destruct Hin2 as [[= E]|[]]. congruence.
  Qed.

  Theorem single_seat_run f :
    t_seats (run cf (S f) a 1 total [] caps []) = [(c, 1%Z)] /\ t_stop (run cf (S f) a 1 total [] caps []) = None.
  Proof.
    cbn [run]. change (zsum (map snd (@nil (C * Z)))) with 0%Z. cbn [Z.eqb].
    assert (Hqw : elect_by_quota cf (totals a) (Some q) 1%Z [] caps = inl (Some [(c, 1%Z)])).
    { apply (quota_winner cf Hae a Hnd q Hq c t Hc Hct Hothers caps (Hcaps c c_key)). lia. }
    unfold next_count. cbv zeta. change (1 - zsum (map snd (@nil (C * Z))))%Z with 1%Z.
    rewrite no_shortcut, andb_false_r. cbn [andb].
    rewrite Hqf, Htot. cbn [orb Z.eqb]. fold q. rewrite Hqw.
    (* the elected candidate's pile exists and is not empty: the quota can be subtracted *)
    destruct (totals_get a c t Hnd Hc) as (p & Hget & Htp).
    assert (Hsub : exists a', subtract a [(c, (inject_Z 1 * q)%Q)] = Some a').
    { cbn [subtract]. rewrite Hget. unfold gregory_subtract. rewrite <- Htp.
      assert (Qeq_bool t 0 = false) as ->.
      { apply not_true_iff_false. intros E. apply Qeq_bool_iff in E. lra. }
      destruct (Qle_bool t (inject_Z 1 * q)); eexists; reflexivity. }
    destruct Hsub as (a' & Hsub). cbn [map fst snd]. rewrite Hsub. cbn [run].
    (* next iteration: one seat filled, the run stops *)
    rewrite run_done by reflexivity. split; reflexivity.
  Qed.
End RUN1.

(* majority: with the Droop quota for one seat, a candidate holding more than half of the votes
   (an integer number of them) is the only one at or above the quota *)

Lemma droop_one_gt_half (v : Q) : v * (1 # 2) < droop v 1.
Proof.
  unfold droop, qfloor. change (inject_Z (1 + 1)) with 2%Q.
  pose proof (Qlt_floor (v / 2)) as H. rewrite inject_Z_plus in H. exact H.
Qed.

Lemma droop_one_le_majority (v : Q) (z : Z) : v < 2 * inject_Z z -> droop v 1 <= inject_Z z.
Proof.
  intros H. unfold droop, qfloor. change (inject_Z (1 + 1)) with 2%Q.
  assert (Hlt : v / 2 < inject_Z z) by (apply Qlt_shift_div_r; lra).
  pose proof (Qfloor_le (v / 2)) as F.
  assert (Hz : (Qfloor (v / 2) < z)%Z) by (rewrite Zlt_Qlt; lra).
  change 1%Q with (inject_Z 1). rewrite <- inject_Z_plus, <- Zle_Qle. lia.
Qed.

Theorem majority_single_seat (cf : cfg) (a : alloc) (total : Q) (c : C) (t : Q) (zt : Z) (caps : list (C * Z)) (c2 : C) (f : nat) :
  c_accept_equal cf = true -> c_quota cf = Some droop -> NoDup (akeys a) -> Qeq_bool total 0 = false ->
  In (Some c, t) (totals a) -> t == inject_Z zt -> total < 2 * t ->
  (forall k x, In (k, x) (totals a) -> k <> Some c -> 0 <= x /\ x + t <= total) ->
  (forall k, In (Some k) (akeys a) -> dget caps k = Some 1%Z) ->
  In (Some c2) (akeys a) /\ c2 <> c ->
  t_seats (run cf (S f) a 1 total [] caps []) = [(c, 1%Z)] /\ t_stop (run cf (S f) a 1 total [] caps []) = None.
Proof.
  intros Hae Hqf Hnd Htot Hc Hint Hmaj Hoth Hcaps Hc2.
  assert (Hq : 0 < droop total 1).
  { assert (0 <= total).
    { destruct Hc2 as [Hk Hne]. rewrite <- totals_keys in Hk. apply in_map_iff in Hk. destruct Hk as ([o x] & Ho & Hin). simpl in Ho. subst o.
      assert (Hk : Some c2 <> Some c) by congruence. destruct (Hoth _ _ Hin Hk) as [Hx0 Hxs]. clear -Hx0 Hxs Hmaj. lra. }
    pose proof (droop_one_gt_half total). lra. }
  apply (single_seat_run cf Hae droop Hqf a Hnd total Htot Hq c t Hc) with (c2 := c2); try assumption.
  - rewrite Hint. apply droop_one_le_majority. rewrite <- Hint. exact Hmaj.
  - intros k x Hin Hk. destruct (Hoth k x Hin Hk) as [H0 Hs]. split; [exact H0|].
    pose proof (droop_one_gt_half total). lra.
Qed.
