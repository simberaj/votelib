(* Scale invariance (C11) of the Condorcet-runoff hybrids and the positional elimination rule (Model/Hybrids.v,
   Model/Elimination.v): Benham, Tideman's alternative, Baldwin - and of the converter RankedToCondorcetVotes in
   its pairwise-dictionary form (Hybrids.pairwise), which closes the composed registry entries
   "ranked votes -> RankedToCondorcetVotes -> Condorcet evaluator".  Ballot weights are integers; the factor is a
   positive integer.  pairwise (k votes) = scalez k (pairwise votes); subset_votes commutes with the scaling;
   eliminate_one sees first-preference totals related by x' == k x (STVScale_proofs) and get_n_best only an order
   embedding; the positional scores of Baldwin are k-fold up to == . *)
From Coq Require Import ZArith QArith Qround List Bool Lia Lqa.
From VL Require Import Prelude.Sx Prelude.PyDict Prelude.GDict Model.GetNBest Model.Convert Model.STV Model.Condorcet Model.Hybrids Model.Elimination
     Proofs.Dict_proofs Proofs.GetNBest_proofs Proofs.QOrd Proofs.Scale_proofs Proofs.LRScale_proofs Proofs.STVScale_proofs
     Proofs.Scale2Score_proofs.
Import ListNotations.

Section HybScale.
  Variable k : Z.
  Hypothesis Hk : (0 < k)%Z.

  Notation kq := (inject_Z k).
  Lemma kq_pos : (0 < kq)%Q.
  Proof. unfold Qlt. cbn. lia. Qed.

  Notation qs := (qsc kq).

  Lemma qv_rel (votes : rvotes) : plrel kq (qv votes) (qv (scale_z k votes)).
  Proof.
    induction votes as [|bw votes IH]; cbn [qv scale_z map]; constructor; [|exact IH].
    split; [reflexivity|]. cbn [fst snd]. unfold qsc. rewrite inject_Z_mult. reflexivity.
  Qed.

  Lemma cands_ranked_rel (v v' : list (ranked * Q)) : plrel kq v v' -> cands_ranked v' = cands_ranked v.
  Proof.
    intros H. unfold cands_ranked. f_equal. apply (Forall2_flat_map_eq (prel qs)); [|exact H].
    intros y y' [E _]. rewrite E. reflexivity.
  Qed.

  Lemma arc_scale votes : all_ranked_candidates (qv (scale_z k votes)) = all_ranked_candidates (qv votes).
  Proof. exact (arc_rel kq _ _ (qv_rel votes)). Qed.

  Lemma hpadd_scale (v : pvotes) p n : Hybrids.padd (scalez k v) p (k * n) = scalez k (Hybrids.padd v p n).
  Proof.
    induction v as [|[p' n'] v IH]; cbn [scalez map Hybrids.padd fst snd]; [reflexivity|].
    destruct (peqb p p'); cbn [map fst snd].
    - rewrite Z.mul_add_distr_l. reflexivity.
    - f_equal. exact IH.
  Qed.

  Lemma hpadd_fold_scale (ps : list pair) w : forall acc,
    fold_left (fun acc p => Hybrids.padd acc p (k * w)) ps (scalez k acc)
    = scalez k (fold_left (fun acc p => Hybrids.padd acc p w) ps acc).
  Proof. induction ps as [|p ps IH]; intros acc; cbn [fold_left]; [reflexivity|]. rewrite hpadd_scale. apply IH. Qed.

  Theorem pairwise_scale votes : pairwise (scale_z k votes) = scalez k (pairwise votes).
  Proof.
    unfold pairwise. rewrite (cands_ranked_rel _ _ (qv_rel votes)). generalize (cands_ranked (qv votes)) as cs. intros cs.
    change (@nil (pair * Z)) with (scalez k []) at 1. generalize (@nil (pair * Z)) as acc.
    induction votes as [|bw votes IH]; intros acc; cbn [scale_z map fold_left fst snd]; [reflexivity|].
    rewrite hpadd_fold_scale. apply IH.
  Qed.

  Lemma vadd_scale (v : rvotes) b w : vadd (scale_z k v) b (k * w) = scale_z k (vadd v b w).
  Proof.
    induction v as [|[b' w'] v IH]; cbn [scale_z map vadd fst snd]; [reflexivity|].
    destruct (ballot_eqb b b'); cbn [map fst snd].
    - rewrite Z.mul_add_distr_l. reflexivity.
    - f_equal. exact IH.
  Qed.

  Theorem subset_votes_scale subset votes : subset_votes subset (scale_z k votes) = scale_z k (subset_votes subset votes).
  Proof.
    unfold subset_votes. change (@nil (ranked * Z)) with (scale_z k (@nil (ranked * Z))) at 1.
    generalize (@nil (ranked * Z)) as acc.
    induction votes as [|bw votes IH]; intros acc; cbn [scale_z map fold_left fst snd]; [reflexivity|].
    rewrite vadd_scale. apply IH.
  Qed.

  Theorem eliminate_one_scale votes : eliminate_one (scale_z k votes) = eliminate_one votes.
  Proof.
    unfold eliminate_one. rewrite arc_scale.
    pose proof (some_totals_rel kq _ _ (totals_rel kq _ _ (initial_allocation_rel kq _ _ (qv_rel votes)))) as Ht.
    destruct (length (all_ranked_candidates (qv votes))) as [|[|n]]; try reflexivity.
    f_equal. exact (get_n_best_rel Qle_bool Qle_bool _ (qsc_le kq kq_pos) _ _ (S n) Ht).
  Qed.

  Lemma benham_cw_scale sc cur : benham_cw sc (scale_z k cur) = benham_cw sc cur.
  Proof. unfold benham_cw. rewrite arc_scale, pairwise_scale, (condorcet_winner_scale k Hk). reflexivity. Qed.

  Lemma benham_loop_scale fx sc fuel votes0 : forall cur,
    benham_loop fx sc fuel (scale_z k votes0) (scale_z k cur) = benham_loop fx sc fuel votes0 cur.
  Proof.
    induction fuel as [|f IH]; intros cur; cbn [benham_loop]; rewrite benham_cw_scale;
      destruct (benham_cw sc cur) as [|c r]; try reflexivity.
    rewrite eliminate_one_scale. destruct (eliminate_one cur) as [remains|]; [|reflexivity].
    destruct remains as [|r1 [|r2 rest]]; try reflexivity.
    - destruct (fx && has_tie []); [reflexivity|]. rewrite subset_votes_scale. apply IH.
    - destruct (fx && has_tie (r1 :: r2 :: rest)); [reflexivity|]. rewrite subset_votes_scale. apply IH.
  Qed.

  Theorem benham_scale fx sc votes : benham fx sc (scale_z k votes) = benham fx sc votes.
  Proof. unfold benham. rewrite arc_scale. apply benham_loop_scale. Qed.

  Lemma winner_set_scale sc round : winner_set sc (scale_z k round) = winner_set sc round.
  Proof. unfold winner_set. rewrite pairwise_scale, (smith_schwartz_scale k Hk), arc_scale. reflexivity. Qed.

  Lemma tideman_tier_scale fx sc fuel : forall round, tideman_tier fx sc fuel (scale_z k round) = tideman_tier fx sc fuel round.
  Proof.
    induction fuel as [|f IH]; intros round; destruct round as [|bw round]; try reflexivity.
    change (scale_z k (bw :: round)) with ((fst bw, (k * snd bw)%Z) :: scale_z k round).
    cbn [tideman_tier]. change ((fst bw, (k * snd bw)%Z) :: scale_z k round) with (scale_z k (bw :: round)).
    set (rd := bw :: round). rewrite winner_set_scale. cbv zeta.
    (* the winner set is empty or has several members: the same elimination round on either side *)
    destruct (winner_set sc rd) as [|w [|w2 rest]]; [|reflexivity|];
      (rewrite subset_votes_scale, eliminate_one_scale;
       destruct (eliminate_one (subset_votes _ rd)) as [rem|]; [|reflexivity];
       destruct (fx && has_tie rem); [reflexivity|];
       destruct rem as [|r1 [|r2 rest']]; try reflexivity; rewrite subset_votes_scale; apply IH).
  Qed.

  Lemma tier_fuel_scale round : tier_fuel_of (scale_z k round) = tier_fuel_of round.
  Proof. unfold tier_fuel_of. rewrite arc_scale. reflexivity. Qed.

  Lemma tideman_loop_scale fx sc tr fuel : forall tier_votes elig n acc,
    tideman_loop fx sc tr fuel (scale_z k tier_votes) elig n acc = tideman_loop fx sc tr fuel tier_votes elig n acc.
  Proof.
    induction fuel as [|f IH]; intros tier_votes elig n acc; cbn [tideman_loop]; [reflexivity|].
    rewrite tier_fuel_scale, tideman_tier_scale.
    destruct (tideman_tier fx sc (tier_fuel_of tier_votes) tier_votes) as [[w|t]|e]; try reflexivity.
    destruct (cmem w elig); [|reflexivity].
    destruct (Nat.eqb _ _ || _); [reflexivity|]. destruct tr; [|reflexivity].
    rewrite subset_votes_scale. apply IH.
  Qed.

  Theorem tideman_alt_scale fx sc tr votes n : tideman_alt fx sc tr (scale_z k votes) n = tideman_alt fx sc tr votes n.
  Proof. unfold tideman_alt. cbv zeta. rewrite arc_scale. apply tideman_loop_scale. Qed.

  Notation drel := (lrel (K := C) qs).

  Lemma pos_ballot_rel sc m d d' (b : ranked) (w : Z) : drel d d' ->
    orel drel (pos_ballot sc m d (b, w)) (pos_ballot sc m d' (b, (k * w)%Z)).
  Proof.
    intros Hd. unfold pos_ballot. cbn [fst snd]. destruct (rank_scores sc m (length b)) as [scs|]; [|exact I].
    cbn [orel]. apply fold_left_rel_same; [|exact Hd]. intros e e' isc He.
    apply fold_left_rel_same; [|exact He]. intros g g' c Hg. unfold qadd.
    apply dset_add_rel; [exact Hg|]. apply qsc_mult_l. unfold qsc. rewrite inject_Z_mult. reflexivity.
  Qed.

  Lemma neg_scores_rel sc votes : orel drel (neg_scores sc votes) (neg_scores sc (scale_z k votes)).
  Proof.
    unfold neg_scores, positional. rewrite arc_scale. set (cands := all_ranked_candidates (qv votes)).
    assert (Hf : orel drel
      (fold_left (fun acc bw => match acc with None => None | Some d => pos_ballot sc (length cands) d bw end) votes
                 (Some (map (fun c : C => (c, 0%Q)) cands)))
      (fold_left (fun acc bw => match acc with None => None | Some d => pos_ballot sc (length cands) d bw end) (scale_z k votes)
                 (Some (map (fun c : C => (c, 0%Q)) cands)))).
    { apply fold_left_rel with (RB := prel (zsc k)); [|apply lrel_map_snd; reflexivity|].
      - intros [d|] [d'|] [b w] [b' w'] Ha [Hb Hw]; cbn [orel] in Ha |- *; try contradiction; [|exact I].
        cbn [fst snd] in Hb, Hw. unfold zsc in Hw. subst b' w'. apply pos_ballot_rel, Ha.
      - cbn [orel]. apply Forall2_map_same. intros c. split; [reflexivity|exact (qsc_0 kq)]. }
    destruct (fold_left _ votes _) as [d|], (fold_left _ (scale_z k votes) _) as [d'|]; cbn [orel] in Hf |- *; try contradiction; [|exact I].
    apply Forall2_map with (RA := prel qs); [|apply (sort_desc_rel Qle_bool Qle_bool _ (qsc_le kq kq_pos)), Hf].
    intros y y' [E Hy]. split; [exact E|apply qsc_opp, Hy].
  Qed.

  Lemma baldwin_loop_scale sc fuel n : forall cur, baldwin_loop sc fuel (scale_z k cur) n = baldwin_loop sc fuel cur n.
  Proof.
    induction fuel as [|f IH]; intros cur; cbn [baldwin_loop]; pose proof (neg_scores_rel sc cur) as Hn;
      destruct (neg_scores sc cur) as [ns|], (neg_scores sc (scale_z k cur)) as [ns'|]; cbn [orel] in Hn; try contradiction; try reflexivity;
      rewrite (lrel_length _ _ _ Hn);
      destruct (Nat.ltb n (length ns)); try reflexivity;
      try (f_equal; exact (get_n_best_rel Qle_bool Qle_bool _ (qsc_le kq kq_pos) _ _ n Hn)).
    rewrite (get_n_best_rel Qle_bool Qle_bool _ (qsc_le kq kq_pos) _ _ 1%nat Hn), (lrel_keys _ _ _ Hn).
    destruct (get_n_best Qle_bool ns 1) as [|[l|T] rest]; [reflexivity| |].
    - rewrite subset_votes_scale. apply IH.
    - destruct (Nat.ltb (length ns - length T) n).
      + rewrite subset_votes_scale.
        pose proof (neg_scores_rel sc (subset_votes (filter (fun c : C => negb (cmem c T)) (map fst ns)) cur)) as Hr.
        destruct (neg_scores sc (subset_votes _ cur)) as [rs|], (neg_scores sc (scale_z k (subset_votes _ cur))) as [rs'|];
          cbn [orel] in Hr; try contradiction; [|reflexivity].
        rewrite (get_n_best_rel Qle_bool Qle_bool _ (qsc_le kq kq_pos) _ _ _ Hr). reflexivity.
      + rewrite subset_votes_scale. apply IH.
  Qed.

  Theorem baldwin_scale sc votes n : baldwin sc (scale_z k votes) n = baldwin sc votes n.
  Proof. unfold baldwin. rewrite arc_scale. apply baldwin_loop_scale. Qed.
End HybScale.
