(* AdjustedSeatCount(LevelOverhangByConstituency(ce, oe), e) inside a wrapper tree (Model/Wrappers.v: calc_level_byc over
   dynamic values) composed with Model/OverhangByC.v (bc_calculate over integer dictionaries, the subject of C15): whenever the
   constituency evaluator and the overall evaluator of the calculator answer with integer distributions, the wrapper-level
   calculator computes exactly the adjustment of Model/OverhangByC.v (keys: any result key incl. Ties, compared by key_eqb). *)
From Coq Require Import ZArith List Bool Lia.
From VL Require Prelude.PyDict Model.OverhangByC.
From VL Require Import Model.Wrappers Proofs.TieBreak_proofs Proofs.WrapParts_proofs Proofs.Wrappers_proofs
     Proofs.WrapOverhang_proofs.
Import ListNotations.
Open Scope Z_scope.

Notation kzd := (list (key * Z)).
Notation nestd := (list (OverhangByC.Cty * list (key * Z))).
Notation kget0 := (OverhangByC.kget0 key_eqb).
Notation kmem := (OverhangByC.kmem key_eqb).
Notation kadd := (OverhangByC.kadd key_eqb).

Definition of_kz (d : kzd) : dict := map (fun kz => (fst kz, VInt (snd kz))) d.
Definition of_nested (r : nestd) : dict := map (fun cr => (KC (fst cr), VDict (of_kz (snd cr)))) r.

Lemma dget_of_kz : forall (d : kzd) k,
  dget (of_kz d) k = match OverhangByC.kget key_eqb d k with Some z => Some (VInt z) | None => None end.
Proof.
  intros d k. induction d as [|[k0 z0] d IH]; [reflexivity|].
  simpl. rewrite (key_eqb_sym k k0). destruct (key_eqb k0 k); [reflexivity|exact IH].
Qed.
Lemma dget_or_of_kz : forall (d : kzd) k, dget_or (of_kz d) k (VInt 0) = VInt (kget0 d k).
Proof.
  intros d k. unfold dget_or, OverhangByC.kget0. rewrite dget_of_kz.
  destruct (OverhangByC.kget key_eqb d k); reflexivity.
Qed.
Lemma dmem_of_kz : forall (d : kzd) k, dmem (of_kz d) k = kmem d k.
Proof.
  intros d k. unfold dmem, OverhangByC.kmem. rewrite dget_of_kz.
  destruct (OverhangByC.kget key_eqb d k); reflexivity.
Qed.
Lemma dget_or_of_nested : forall (r : nestd) c,
  dget_or (of_nested r) (KC c) (VDict []) = VDict (of_kz (PyDict.dget_or r c [])).
Proof.
  intros r c. unfold dget_or, PyDict.dget_or, of_nested. rewrite (dget_KC (fun d => VDict (of_kz d))).
  destruct (PyDict.dget r c); reflexivity.
Qed.

(* VoteTotals over integer dictionaries = ktotals *)
Lemma dset_kadd : forall (d : kzd) k x, dset (of_kz d) k (VInt (kget0 d k + x)) = of_kz (kadd d k x).
Proof.
  intros d k x. induction d as [|[k0 z0] d IH].
  - simpl. reflexivity.
  - unfold OverhangByC.kget0 in *. simpl. rewrite (key_eqb_sym k k0). destruct (key_eqb k0 k); [reflexivity|].
    simpl. f_equal. exact IH.
Qed.

Lemma add_dict_kadd : forall (d2 d1 : kzd),
  add_dict (of_kz d1) (of_kz d2) = Ok (of_kz (OverhangByC.kadd_dict key_eqb d1 d2)).
Proof.
  intros d2. unfold add_dict, OverhangByC.kadd_dict.
  induction d2 as [|[k x] d2 IH]; intro d1; [reflexivity|].
  cbn [of_kz map fold_left rbind fst snd]. rewrite dget_or_of_kz. cbn [add_val rbind].
  rewrite dset_kadd. apply IH.
Qed.

Lemma totals_ktotals_from : forall (m : nestd) (acc : kzd),
  fold_left (fun a kv => a >>= fun a0 => as_dict (snd kv) >>= fun dv => add_dict a0 dv) (of_nested m) (Ok (of_kz acc))
  = Ok (of_kz (fold_left (OverhangByC.kadd_dict key_eqb) (map snd m) acc)).
Proof.
  induction m as [|[c d] m IH]; intro acc; [reflexivity|].
  cbn [of_nested map fold_left rbind snd as_dict]. rewrite add_dict_kadd. apply IH.
Qed.

Lemma totals_ktotals : forall (m : nestd),
  vote_totals (VDict (of_nested m)) = Ok (VDict (of_kz (OverhangByC.ktotals key_eqb (map snd m)))).
Proof.
  intro m. unfold vote_totals, OverhangByC.ktotals. cbn [as_dict rbind].
  pose proof (totals_ktotals_from m []) as H. cbn [of_kz map] in H. unfold dict in *. rewrite H. reflexivity.
Qed.

Section Bridge.
  Variable CE : val -> val -> res val.
  Variable OEv : val -> val -> val -> res val.
  Variable pv mx : val.
  Variable OEm : Z -> OverhangByC.eres kzd.
  Hypothesis HOE : forall h pr, OEm h = OverhangByC.Ok pr -> OEv pv (VInt h) mx = Ok (VDict (of_kz pr)).

  Lemma minima_bridge : forall (res prev : nestd),
    map_res (fun cr => as_dict (snd cr) >>= fun cps =>
                       map_res (fun ps => as_dict (VDict (of_nested prev)) >>= fun pd =>
                                           as_dict (dget_or pd (fst cr) (VDict [])) >>= fun pcd =>
                                           max_val (dget_or pcd (fst ps) (VInt 0)) (snd ps) >>= fun m => Ok (fst ps, m)) cps
                       >>= fun r => Ok (fst cr, VDict r)) (of_nested res)
    = Ok (of_nested (OverhangByC.cty_minima key_eqb res prev)).
  Proof.
    intros res prev. induction res as [|[c cps] res IH]; [reflexivity|].
    change (of_nested ((c, cps) :: res)) with ((KC c, VDict (of_kz cps)) :: of_nested res).
    cbn [map_res]. rewrite IH. cbv beta. cbn [snd fst].
    change (as_dict (VDict (of_kz cps))) with (Ok (of_kz cps)). cbn [rbind].
    assert (Hin : map_res (fun ps : key * val =>
                     as_dict (VDict (of_nested prev)) >>= fun pd =>
                     as_dict (dget_or pd (KC c) (VDict [])) >>= fun pcd =>
                     max_val (dget_or pcd (fst ps) (VInt 0)) (snd ps) >>= fun m => Ok (fst ps, m)) (of_kz cps)
                   = Ok (of_kz (map (fun ps => (fst ps, Z.max (kget0 (PyDict.dget_or prev c []) (fst ps)) (snd ps))) cps))).
    { clear IH. induction cps as [|[p s] cps IH2]; [reflexivity|].
      change (of_kz ((p, s) :: cps)) with ((p, VInt s) :: of_kz cps).
      cbn [map_res]. rewrite IH2. cbn [as_dict rbind fst snd]. rewrite dget_or_of_nested. cbn [as_dict rbind].
      rewrite dget_or_of_kz, max_val_int. reflexivity. }
    rewrite Hin. cbn [rbind]. reflexivity.
  Qed.

  Lemma unlisted_inner : forall (r gains low : kzd),
    fold_left (fun acc2 pg => acc2 >>= fun low0 =>
                 if dmem low0 (fst pg)
                 then as_dict (VDict (of_kz r)) >>= fun cpd =>
                      if dmem cpd (fst pg) then Ok low0
                      else add_val (dget_or low0 (fst pg) (VInt 0)) (snd pg) >>= fun x => Ok (dset low0 (fst pg) x)
                 else Ok low0) (of_kz gains) (Ok (of_kz low))
    = Ok (of_kz (fold_left (fun low0 pg => if kmem low0 (fst pg) && negb (kmem r (fst pg))
                                           then kadd low0 (fst pg) (snd pg) else low0) gains low)).
  Proof.
    intros r gains. induction gains as [|[p g] gains IH]; intro low; [reflexivity|].
    cbn [of_kz map fold_left rbind fst snd]. fold (of_kz gains). rewrite dmem_of_kz.
    destruct (kmem low p); cbn [andb]; [|apply IH].
    cbn [as_dict rbind]. rewrite dmem_of_kz. destruct (kmem r p); cbn [negb]; [apply IH|].
    rewrite dget_or_of_kz. cbn [add_val rbind]. rewrite dset_kadd. apply IH.
  Qed.

  Lemma unlisted_bridge : forall (res prev : nestd) (low : kzd),
    fold_left (fun acc cg => acc >>= fun low0 =>
                 let cps := dget_or (of_nested res) (fst cg) (VDict []) in
                 as_dict (snd cg) >>= fun gains =>
                 fold_left (fun acc2 pg => acc2 >>= fun low1 =>
                              if dmem low1 (fst pg)
                              then as_dict cps >>= fun cpd =>
                                   if dmem cpd (fst pg) then Ok low1
                                   else add_val (dget_or low1 (fst pg) (VInt 0)) (snd pg) >>= fun x => Ok (dset low1 (fst pg) x)
                              else Ok low1) gains (Ok low0)) (of_nested prev) (Ok (of_kz low))
    = Ok (of_kz (OverhangByC.add_unlisted key_eqb res prev low)).
  Proof.
    intros res prev. unfold OverhangByC.add_unlisted.
    induction prev as [|[c g] prev IH]; intro low; [reflexivity|].
    change (of_nested ((c, g) :: prev)) with ((KC c, VDict (of_kz g)) :: of_nested prev).
    cbn [fold_left rbind fst snd as_dict]. rewrite dget_or_of_nested. rewrite unlisted_inner. apply IH.
  Qed.

  Lemma drop_inner : forall (low gains : kzd) d,
    fold_left (fun acc2 pg => acc2 >>= fun dr => if dmem (of_kz low) (fst pg) then Ok dr else add_val dr (snd pg))
              (of_kz gains) (Ok (VInt d))
    = Ok (VInt (fold_left (fun d0 pg => if kmem low (fst pg) then d0 else d0 + snd pg) gains d)).
  Proof.
    intros low gains. induction gains as [|[p g] gains IH]; intro d; [reflexivity|].
    cbn [of_kz map fold_left rbind fst snd]. fold (of_kz gains). rewrite dmem_of_kz.
    destruct (kmem low p); cbn [add_val rbind]; apply IH.
  Qed.

  Lemma drop_bridge : forall (low : kzd) (prev : nestd) d,
    fold_left (fun acc cg => acc >>= fun d0 =>
                 as_dict (snd cg) >>= fun gains =>
                 fold_left (fun acc2 pg => acc2 >>= fun dr =>
                              if dmem (of_kz low) (fst pg) then Ok dr else add_val dr (snd pg)) gains (Ok d0))
              (of_nested prev) (Ok (VInt d))
    = Ok (VInt (fold_left (fun d0 cg => fold_left (fun d1 pg => if kmem low (fst pg) then d1 else d1 + snd pg) (snd cg) d0) prev d)).
  Proof.
    intros low prev. induction prev as [|[c g] prev IH]; intro d; [reflexivity|].
    change (of_nested ((c, g) :: prev)) with ((KC c, VDict (of_kz g)) :: of_nested prev).
    cbn [fold_left rbind fst snd as_dict]. rewrite drop_inner. apply IH.
  Qed.

  Lemma any_below_kz : forall (pr low : kzd),
    any_below (VDict (of_kz pr)) (of_kz low) = Ok (negb (OverhangByC.ksatisfied key_eqb low pr)).
  Proof.
    intros pr low. induction low as [|[p m] low IH]; [reflexivity|].
    cbn [of_kz map any_below fst snd as_dict rbind]. fold (of_kz low). fold (of_kz pr). rewrite dget_or_of_kz.
    cbn [lt_val rbind]. unfold OverhangByC.ksatisfied. cbn [forallb fst snd].
    destruct (kget0 pr p <? m); cbn [negb andb]; [reflexivity|exact IH].
  Qed.

  Lemma bc_loop_bridge : forall fuel (low : kzd) h pr r,
    OverhangByC.bc_loop key_eqb OEm fuel low h pr = OverhangByC.BC_ok r ->
    level_loop fuel (OEv pv) mx (of_kz low) (VInt h) (VDict (of_kz pr)) = Ok (VInt r).
  Proof.
    induction fuel as [|f IH]; intros low h pr r H; cbn [OverhangByC.bc_loop] in H; cbn [level_loop];
      rewrite any_below_kz; destruct (OverhangByC.ksatisfied key_eqb low pr); cbn [negb rbind].
    - inversion H; reflexivity.
    - discriminate H.
    - inversion H; reflexivity.
    - destruct (OEm (h + 1)) as [pr'| |] eqn:He; try discriminate H.
      cbn [add_val rbind]. rewrite (HOE (h + 1) pr' He). cbn [rbind]. apply IH. exact H.
  Qed.

  Theorem calc_level_byc_bridge : forall fuel n (res prev : nestd) a,
    CE (VInt n) mx = Ok (VDict (of_nested res)) ->
    OverhangByC.bc_calculate key_eqb OEm (OverhangByC.Ok res) fuel n prev = OverhangByC.BC_ok a ->
    calc_level_byc fuel CE (Ok pv) OEv (VInt n) (VDict (of_nested prev)) mx = Ok (VInt a).
  Proof.
    intros fuel n res prev a HCE H. unfold OverhangByC.bc_calculate in H.
    set (low := OverhangByC.lowest_allowed key_eqb res prev) in *.
    set (drop := OverhangByC.nonprop_drop key_eqb low prev) in *.
    destruct (OEm (n - drop)) as [pr| |] eqn:He; try discriminate H.
    destruct (OverhangByC.bc_loop key_eqb OEm fuel low (n - drop) pr) as [h| | |] eqn:Hl; try discriminate H.
    inversion H; subst a.
    unfold calc_level_byc. rewrite HCE. cbn [rbind].
    change (as_dict (VDict (of_nested res))) with (Ok (of_nested res)). cbn [rbind].
    rewrite (minima_bridge res prev). cbn [rbind].
    rewrite totals_ktotals. cbn [rbind as_dict].
    change (as_dict (VDict (of_nested prev))) with (Ok (of_nested prev)). cbn [rbind].
    rewrite (unlisted_bridge res prev). cbn [rbind].
    fold (OverhangByC.lowest0 key_eqb res prev). fold (OverhangByC.lowest_allowed key_eqb res prev). fold low.
    rewrite (drop_bridge low prev 0). cbn [rbind sub_val].
    fold (OverhangByC.nonprop_drop key_eqb low prev). fold drop.
    rewrite (HOE (n - drop) pr He). cbn [rbind].
    rewrite (bc_loop_bridge fuel low (n - drop) pr h Hl). cbn [rbind add_val sub_val]. reflexivity.
  Qed.
End Bridge.

Section Tree.
  Variable leaf : positive -> val -> list (option val) -> res val.
  Variable conv : positive -> val -> res val.
  Notation RS := (run_spec leaf conv).

  (* AdjustedSeatCount(LevelOverhangByConstituency(ce, oe), e): e evaluated with n + the adjustment of Model/OverhangByC.v *)
  Theorem adjusted_levelc_tree : forall ce oe e fuel votes nat n (res prev : nestd) mx OEm a,
    totals_s votes = Ok nat ->
    RS ce votes (KW (Some (VInt n)) None (Some mx) None None None) = Ok (VDict (of_nested res)) ->
    (forall h pr, OEm h = OverhangByC.Ok pr ->
                  RS oe nat (KW (Some (VInt h)) None (Some mx) None None None) = Ok (VDict (of_kz pr))) ->
    OverhangByC.bc_calculate key_eqb OEm (OverhangByC.Ok res) fuel n prev = OverhangByC.BC_ok a ->
    RS (AdjLevelC ce oe e fuel) votes (sa_npm (VInt n) (VDict (of_nested prev)) mx)
    = RS e votes (sa_npm (VInt (n + a)) (VDict (of_nested prev)) mx).
  Proof.
    intros ce oe e fuel votes nat n res prev mx OEm a Hnat HCE HOE Hbc.
    cbn [run_spec]. unfold sa_npm. rewrite accept_adj. cbn [rbind]. cbn [sa_get nget kget b_named odef].
    rewrite Hnat.
    rewrite (calc_level_byc_bridge _ (fun pv0 h mx0 => RS oe pv0 (KW (Some h) None (Some mx0) None None None))
               nat mx OEm HOE fuel n res prev a HCE Hbc).
    reflexivity.
  Qed.
End Tree.
