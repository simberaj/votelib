(* Characterising lemmas for the CPython sequence primitives of Prelude/PySeq.v (sorted, enumerate, integer indexing)
   against the hand-written stable sorts and index functions of Model/GetNBest.v.  Nothing here mentions generated
   code: Props/GenTie_Core.v uses these lemmas to tie Gen/Core.v (the translated util.sorted_votes / core.get_n_best)
   to the model.

   Main results
     stable_unique      two descending-sorted lists with the same members level by level, in the same order, are equal
     py_sorted_desc     sorted(l, key=value, reverse=True)  = sort_desc l   (Model/GetNBest.v), any total preorder
     py_sorted_asc      sorted(l, key=value, reverse=False) = sort_asc l
     fold_enum_char     the loop `for i, x in enumerate(l): if p(x): acc.append(f(x)); first = i if first is None`
                        computes (map f (filter p l), index of the first x with p x)
     find_index_first_eq  that index is first_eq_index of the model when some item is level with the threshold *)
From Coq Require Import List Arith Bool Lia Permutation Sorted ZArith ZifyBool.
From VL Require Import Prelude.PyList Prelude.PySeq Model.GetNBest Proofs.GetNBest_proofs Proofs.PyList_proofs.
Import ListNotations.

Lemma filter_rev' {X} (f : X -> bool) l : filter f (rev l) = rev (filter f l).
Proof.
  induction l as [|a l IH]; [reflexivity|]. cbn [rev filter]. rewrite filter_app, IH. cbn [filter].
  destruct (f a); [reflexivity | apply app_nil_r].
Qed.

Lemma StronglySorted_snoc {X} (R : X -> X -> Prop) l a :
  StronglySorted R l -> Forall (fun z => R z a) l -> StronglySorted R (l ++ [a]).
Proof.
  induction 1 as [|y t Ht IH Hy]; intros F; cbn [app].
  - constructor; constructor.
  - inversion F as [|? ? Fy Ft]; subst.
    constructor; [apply IH; assumption|]. apply Forall_app. split; [exact Hy|]. constructor; [exact Fy | constructor].
Qed.

Section Sort.
  Context {C V : Type}.
  Variable leb : V -> V -> bool.
  Hypothesis leb_total : forall a b, leb a b = true \/ leb b a = true.
  Hypothesis leb_trans : forall a b c, leb a b = true -> leb b c = true -> leb a c = true.

  Notation eqv := (@eqv V leb).
  Notation level := (@f_level C V leb).
  Notation sdesc := (@sorted_desc C V leb).
  Notation sasc := (@sorted_asc C V leb).
  Notation place := (@py_place (C * V) V (@snd C V) leb).
  Notation stable := (@py_sort_stable (C * V) V (@snd C V) leb).
  Notation fplace := (fold_left (fun placed x => place x placed)).

  Lemma level_refl (x : C * V) : level (snd x) x = true.
  Proof. unfold f_level. apply (eqv_refl leb leb_total). Qed.
  Lemma place_perm x l : Permutation (place x l) (x :: l).
  Proof.
    induction l as [|y t IH]; cbn [py_place]; [reflexivity|].
    destruct (leb (snd y) (snd x)); [|reflexivity]. rewrite IH. apply perm_swap.
  Qed.

  Lemma place_sorted x l : sasc l -> sasc (place x l).
  Proof.
    induction l as [|y t IH]; intros H; cbn [py_place].
    - constructor; constructor.
    - inversion H as [|? ? Ht Hy]; subst. destruct (leb (snd y) (snd x)) eqn:E.
      + constructor; [apply IH; exact Ht|]. apply Forall_forall. intros z Hz.
        apply (Permutation_in _ (place_perm x t)) in Hz. destruct Hz as [<-|Hz]; [exact E|].
        rewrite Forall_forall in Hy. exact (Hy z Hz).
      + assert (Exy : leb (snd x) (snd y) = true) by (destruct (leb_total (snd x) (snd y)) as [T|T]; [exact T | congruence]).
        constructor; [exact H|]. constructor; [exact Exy|].
        apply Forall_forall. intros z Hz. rewrite Forall_forall in Hy. unfold le_item. eapply leb_trans; [exact Exy | exact (Hy z Hz)].
  Qed.

  Lemma place_filter_level thr x l : sasc l ->
    filter (level thr) (place x l) = filter (level thr) l ++ filter (level thr) [x].
  Proof.
    induction l as [|y t IH]; intros H; cbn [py_place]; [reflexivity|].
    inversion H as [|? ? Ht Hy]; subst. destruct (leb (snd y) (snd x)) eqn:E.
    - cbn [filter]. rewrite (IH Ht). cbn [filter]. destruct (level thr y); reflexivity.
    - destruct (level thr x) eqn:Fx.
      + assert (N : filter (level thr) (y :: t) = []).
        { apply filter_none. apply Forall_forall. intros z Hz.
          destruct (level thr z) eqn:Fz; [exfalso | reflexivity].
          assert (Lzx : leb (snd z) (snd x) = true) by exact (eqv_leb_l leb leb_trans _ _ _ Fz Fx).
          assert (Lyz : leb (snd y) (snd z) = true).
          { destruct Hz as [<-|Hz]; [apply (leb_refl leb leb_total)|]. rewrite Forall_forall in Hy. exact (Hy z Hz). }
          rewrite (leb_trans _ _ _ Lyz Lzx) in E. discriminate. }
        change (filter (level thr) (x :: y :: t)) with (if level thr x then x :: filter (level thr) (y :: t) else filter (level thr) (y :: t)).
        rewrite Fx, N. cbn [filter]. rewrite Fx. reflexivity.
      + change (filter (level thr) (x :: y :: t)) with (if level thr x then x :: filter (level thr) (y :: t) else filter (level thr) (y :: t)).
        cbn [filter]. rewrite Fx. rewrite app_nil_r. reflexivity.
  Qed.
  Lemma fplace_perm l acc : Permutation (fplace l acc) (acc ++ l).
  Proof.
    revert acc. induction l as [|a l IH]; intros acc; cbn [fold_left]; [rewrite app_nil_r; reflexivity|].
    rewrite IH. rewrite (place_perm a acc). cbn [app]. apply Permutation_middle.
  Qed.

  Lemma fplace_sorted l acc : sasc acc -> sasc (fplace l acc).
  Proof.
    revert acc. induction l as [|a l IH]; intros acc H; cbn [fold_left]; [exact H|]. apply IH, place_sorted, H.
  Qed.

  Lemma fplace_filter_level thr l acc : sasc acc ->
    filter (level thr) (fplace l acc) = filter (level thr) acc ++ filter (level thr) l.
  Proof.
    revert acc. induction l as [|a l IH]; intros acc H; cbn [fold_left]; [cbn [filter]; rewrite app_nil_r; reflexivity|].
    rewrite (IH _ (place_sorted a acc H)), (place_filter_level thr a acc H), <- app_assoc. f_equal.
    cbn [filter]. destruct (level thr a); reflexivity.
  Qed.

  Lemma stable_perm l : Permutation (stable l) l.
  Proof. unfold py_sort_stable. rewrite fplace_perm. reflexivity. Qed.
  Lemma stable_sorted l : sasc (stable l).
  Proof. unfold py_sort_stable. apply fplace_sorted. constructor. Qed.
  Lemma stable_filter_level thr l : filter (level thr) (stable l) = filter (level thr) l.
  Proof. unfold py_sort_stable. rewrite fplace_filter_level by constructor. reflexivity. Qed.
  Lemma sasc_rev l : sasc l -> sdesc (rev l).
  Proof.
    induction 1 as [|a l Hl IH Ha]; cbn [rev]; [constructor|].
    apply StronglySorted_snoc; [exact IH|]. apply Forall_forall. intros z Hz. apply in_rev in Hz.
    rewrite Forall_forall in Ha. exact (Ha z Hz).
  Qed.

  Lemma sasc_snoc l a : sasc l -> Forall (fun z => le_item leb z a) l -> sasc (l ++ [a]).
  Proof. apply StronglySorted_snoc. Qed.
  Lemma level_split thr (x : C * V) t :
    filter (level thr) (x :: t) = if level thr x then x :: filter (level thr) t else filter (level thr) t.
  Proof. reflexivity. Qed.

  Lemma level_head_in (x : C * V) t s' : (forall thr, filter (level thr) (x :: t) = filter (level thr) s') -> In x s'.
  Proof.
    intros Hf. specialize (Hf (snd x)). rewrite level_split, level_refl in Hf.
    assert (I : In x (filter (level (snd x)) s')) by (rewrite <- Hf; left; reflexivity).
    apply filter_In in I. exact (proj1 I).
  Qed.

  Lemma sdesc_head_ge (x y : C * V) t : sdesc (x :: t) -> In y (x :: t) -> leb (snd y) (snd x) = true.
  Proof.
    intros Hs [<-|Iy]; [apply (leb_refl leb leb_total)|].
    inversion Hs as [|? ? _ Hx]; subst. rewrite Forall_forall in Hx. exact (Hx y Iy).
  Qed.

  Lemma head_of_levels (x y : C * V) t t' :
    sdesc (x :: t) -> sdesc (y :: t') ->
    (forall thr, filter (level thr) (x :: t) = filter (level thr) (y :: t')) -> x = y.
  Proof.
    intros Hs Hs' Hf.
    pose proof (sdesc_head_ge x y t Hs (level_head_in y t' (x :: t) (fun thr => eq_sym (Hf thr)))) as Lyx.
    pose proof (sdesc_head_ge y x t' Hs' (level_head_in x t (y :: t') Hf)) as Lxy.
    pose proof (Hf (snd x)) as E. rewrite !level_split, level_refl in E.
    assert (Fy : level (snd x) y = true) by (unfold f_level, GetNBest.eqv; rewrite Lyx, Lxy; reflexivity).
    rewrite Fy in E. congruence.
  Qed.

  Theorem stable_unique s : forall s', sdesc s -> sdesc s' ->
    (forall thr, filter (level thr) s = filter (level thr) s') -> s = s'.
  Proof.
    induction s as [|x t IH]; intros s' Hs Hs' Hf.
    - destruct s' as [|y t']; [reflexivity|]. specialize (Hf (snd y)). rewrite level_split, level_refl in Hf. discriminate.
    - destruct s' as [|y t'].
      + specialize (Hf (snd x)). rewrite level_split, level_refl in Hf. discriminate.
      + assert (x = y) by exact (head_of_levels x y t t' Hs Hs' Hf). subst y. f_equal.
        inversion Hs; subst. inversion Hs'; subst. apply IH; [assumption | assumption|].
        intros thr. specialize (Hf thr). rewrite !level_split in Hf. destruct (level thr x); congruence.
  Qed.
  Theorem py_sorted_desc l : py_sorted (@snd C V) leb l true = sort_desc leb l.
  Proof.
    unfold py_sorted. apply stable_unique.
    - apply sasc_rev, stable_sorted.
    - apply (sort_desc_sorted leb leb_total leb_trans).
    - intros thr. rewrite filter_rev', stable_filter_level, filter_rev', rev_involutive.
      symmetry. apply (sort_desc_filter_level leb leb_trans).
  Qed.

  (* the ascending sort is the descending sort for the reversed order, whose level test is the same one with its two
     comparisons swapped *)
  Lemma sort_asc_filter_level thr l : filter (level thr) (@sort_asc C V leb l) = filter (level thr) l.
  Proof.
    set (bel := fun a b => leb b a).
    assert (E : forall it : C * V, level thr it = @f_level C V bel thr it)
      by (intros it; unfold f_level, GetNBest.eqv; apply andb_comm).
    rewrite !(filter_ext _ _ E).
    change (@sort_asc C V leb l) with (@sort_asc C V (fun a b => bel b a) l). rewrite <- (sort_desc_flip bel l).
    apply (sort_desc_filter_level bel (fun a b c H1 H2 => leb_trans c b a H2 H1)).
  Qed.

  (* the ascending direction: the same uniqueness argument on the reversed lists *)
  Theorem py_sorted_asc l : py_sorted (@snd C V) leb l false = sort_asc leb l.
  Proof.
    unfold py_sorted. rewrite <- (rev_involutive (stable l)), <- (rev_involutive (sort_asc leb l)). f_equal.
    apply stable_unique.
    - apply sasc_rev, stable_sorted.
    - apply sasc_rev, (sort_asc_sorted leb leb_total leb_trans).
    - intros thr. rewrite !filter_rev', stable_filter_level, sort_asc_filter_level. reflexivity.
  Qed.
End Sort.
Lemma py_index_nonneg {A} (l : list A) i : (0 <= i)%Z -> py_index l i = nth_error l (Z.to_nat i).
Proof. intros H. unfold py_index. destruct (0 <=? i)%Z eqn:E; [reflexivity | lia]. Qed.

(* l[-1]: the last item (IndexError exactly on the empty list) *)
Lemma py_index_last {A} (l : list A) : py_index l (-1) = nth_error l (length l - 1).
Proof.
  unfold py_index, py_len. change (0 <=? -1)%Z with false. cbv iota.
  destruct l as [|a t]; [reflexivity|].
  assert (E : (0 <=? Z.of_nat (length (a :: t)) + -1)%Z = true) by (apply Z.leb_le; cbn [length]; lia).
  rewrite E. f_equal. cbn [length]. lia.
Qed.

Lemma py_slice_to_nonneg {A} (l : list A) n : (0 <= n)%Z -> py_slice_to l n = firstn (Z.to_nat n) l.
Proof. intros H. unfold py_slice_to. destruct (0 <=? n)%Z eqn:E; [reflexivity | lia]. Qed.

Lemma py_slice_to_nat {A} (l : list A) (j : nat) : py_slice_to l (Z.of_nat j) = firstn j l.
Proof. rewrite py_slice_to_nonneg by lia. rewrite Nat2Z.id. reflexivity. Qed.

Lemma py_list_mul_single {A} (x : A) k : py_list_mul [x] k = repeat x (Z.to_nat k).
Proof. apply concat_repeat_singleton. Qed.

(* [x for _ in range(k)] *)
Lemma map_const_range {A} (x : A) k : map (fun _ => x) (py_range k) = repeat x (Z.to_nat k).
Proof.
  unfold py_range. rewrite map_map. generalize 0. induction (Z.to_nat k) as [|m IH]; intros s; [reflexivity|].
  cbn [seq map repeat]. rewrite IH. reflexivity.
Qed.

Lemma py_len_lt_nat {A} (l : list A) n : (0 <= n)%Z -> (n <? py_len l)%Z = Nat.ltb (Z.to_nat n) (length l).
Proof.
  intros H. unfold py_len. destruct (Nat.ltb_spec (Z.to_nat n) (length l)); [apply Z.ltb_lt | apply Z.ltb_ge]; lia.
Qed.
Fixpoint find_index {A} (p : A -> bool) (l : list A) : option nat :=
  match l with
  | [] => None
  | x :: t => if p x then Some 0 else option_map S (find_index p t)
  end.

Lemma find_index_ext {A} (p q : A -> bool) l : (forall x, p x = q x) -> find_index p l = find_index q l.
Proof. intros H. induction l as [|x t IH]; [reflexivity|]. cbn [find_index]. rewrite H, IH. reflexivity. Qed.

Lemma find_index_some {A} (p : A -> bool) l : (exists x, In x l /\ p x = true) -> exists j, find_index p l = Some j.
Proof.
  induction l as [|x t IH]; intros [z [Hz Pz]]; [destruct Hz|].
  cbn [find_index]. destruct (p x) eqn:E; [eexists; reflexivity|].
  destruct Hz as [->|Hz]; [congruence|]. destruct (IH (ex_intro _ z (conj Hz Pz))) as [j Hj]. rewrite Hj. eexists; reflexivity.
Qed.

Section Enum.
  Context {A B : Type}.
  Variable p : A -> bool.
  Variable f : A -> B.
  Variable step : list B * option Z -> Z * A -> list B * option Z.
  (* one iteration, pointwise: an item with p is appended (as f item) and its index is kept if it is the first *)
  Hypothesis step_char : forall st it,
    step st it = if p (snd it) then (fst st ++ [f (snd it)], Some (match snd st with None => fst it | Some v => v end)) else st.

  Lemma fold_enum_from l : forall k t0 nu0,
    fold_left step (combine (map Z.of_nat (seq k (length l))) l) (t0, nu0) =
    (t0 ++ map f (filter p l),
     match nu0 with Some v => Some v | None => option_map (fun j => Z.of_nat (k + j)) (find_index p l) end).
  Proof.
    induction l as [|x t IH]; intros k t0 nu0.
    - cbn. rewrite app_nil_r. destruct nu0; reflexivity.
    - cbn [length seq map combine fold_left filter find_index]. rewrite step_char. cbn [fst snd].
      destruct (p x) eqn:E.
      + rewrite IH. cbn [map]. rewrite <- app_assoc. cbn [app]. f_equal.
        destruct nu0; [reflexivity|]. cbn [option_map]. rewrite Nat.add_0_r. reflexivity.
      + rewrite IH. f_equal. destruct nu0; [reflexivity|].
        destruct (find_index p t) as [j|]; cbn [option_map]; [|reflexivity]. f_equal. f_equal. lia.
  Qed.

  Theorem fold_enum_char l :
    fold_left step (py_enumerate l) ([], None) = (map f (filter p l), option_map Z.of_nat (find_index p l)).
  Proof.
    unfold py_enumerate, py_range, py_len. rewrite Nat2Z.id, fold_enum_from. cbn [app].
    destruct (find_index p l); reflexivity.
  Qed.
End Enum.

(* the first index level with thr, as the model computes it *)
Lemma find_index_first_eq {C V} (leb : V -> V -> bool) (thr : V) (l : list (C * V)) :
  (exists it, In it l /\ eqv leb (snd it) thr = true) ->
  find_index (fun it => eqv leb (snd it) thr) l = Some (first_eq_index leb thr l).
Proof.
  induction l as [|y t IH]; intros [z [Hz Pz]]; [destruct Hz|].
  cbn [find_index first_eq_index]. destruct (eqv leb (snd y) thr) eqn:E; [reflexivity|].
  destruct Hz as [->|Hz]; [congruence|]. rewrite (IH (ex_intro _ z (conj Hz Pz))). reflexivity.
Qed.
