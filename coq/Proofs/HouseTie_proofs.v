(* House monotonicity of the highest-averages model WITH the reported tie (C17): the exact relation between the run for
   n seats and the run for n + 1 seats, as the simulation of Proofs/Mono_proofs.v [loop_sim], [final_sim] gives it
   (while the smaller run still has seats to give, both runs are in the same state except for the number of open seats):

     - the smaller run ends WITHOUT a tie: nobody's sure seats drop in the larger house;
     - the smaller run ends with Tie(T, r) (r seats open for the members of T, r < |T|): the larger run has the same
       sure seats and reports Tie(T, r + 1), or - when r + 1 = |T| - gives every member of T one more sure seat and
       reports no tie.

   So neither the sure seats nor "sure seats + the possible tie seat" of any party ever drop.  No hypothesis on the
   divisor or the votes; previous gains non-negative (as in [house_monotone]). *)
From Coq Require Import ZArith QArith List Bool Lia.
From VL Require Import Prelude.PyDict Model.GetNBest Model.HighestAverages Proofs.Dict_proofs Proofs.Mono_proofs.
Import ListNotations.
Open Scope Z_scope.

(* the seat a party may still get out of the reported tie *)
Definition tie_seat (s : state) (c : C) : Z :=
  match st_tie s with Some (T, _) => if cmem c T then 1 else 0 | None => 0 end.

Section HouseTie.
  Variable d : Z -> Q.
  Variable votes : list (C * Q).
  Variable caps : list (C * Z).

  (* what the two final states have to do with each other *)
  Definition house_rel (sa sb : state) : Prop :=
    (st_tie sa = None /\ forall c, tot_s sa c <= tot_s sb c) \/
    (exists T r, st_tie sa = Some (T, r) /\
       ((st_tie sb = Some (T, r + 1) /\ st_totals sb = st_totals sa) \/
        (st_tie sb = None /\ Z.of_nat (length T) = r + 1 /\ forall c, tot_s sb c = tot_s sa c + count c T))).

  Definition Rt (n : Z) (sa sb : state) : Prop := R n sa sb /\ st_tie sa = None.

  Lemma loop_sim_tie n : forall f sa sb, Rt n sa sb -> st_rem sa <= Z.of_nat f ->
    house_rel (loop d votes caps n f sa) (loop d votes caps (n + 1) (S f) sb).
  Proof. intros f sa sb [HR Htie]. exact (loop_sim d votes caps n f sa sb HR Htie). Qed.

  Theorem house_exact n prev : Forall (fun cv => 0 <= snd cv) prev ->
    house_rel (final_state d votes n prev caps) (final_state d votes (n + 1) prev caps).
  Proof. exact (final_sim d votes caps n prev). Qed.

  (* sure seats + the possible tie seat never drop either *)
  Theorem house_tie_monotone n prev : Forall (fun cv => 0 <= snd cv) prev -> forall c,
    tot_s (final_state d votes n prev caps) c + tie_seat (final_state d votes n prev caps) c <=
    tot_s (final_state d votes (n + 1) prev caps) c + tie_seat (final_state d votes (n + 1) prev caps) c.
  Proof.
    intros Hp c. destruct (house_exact n prev Hp) as [[Hta Hle]|(T & r & Hta & [[Htb Htot]|(Htb & _ & Htot)])].
    - specialize (Hle c).
      assert (0 <= tie_seat (final_state d votes (n + 1) prev caps) c).
      { unfold tie_seat. destruct (st_tie (final_state d votes (n + 1) prev caps)) as [[T r]|]; [destruct (cmem c T)|]; lia. }
      unfold tie_seat at 1. rewrite Hta. lia.
    - unfold tie_seat, tot_s. rewrite Hta, Htb, Htot. lia.
    - unfold tie_seat. rewrite Hta, Htb, (Htot c). destruct (cmem c T) eqn:E; [|pose proof (count_nonneg c T); lia].
      apply cmem_In in E. pose proof (count_in_pos c T E). lia.
  Qed.
End HouseTie.
