(* C10, renaming: the transferable-vote count of Model/STV.v (initial allocation incl. shared first ranks, quota election
   and over-count correction, Gregory surplus subtraction and transfer, elimination through get_n_best, the
   elect-all-remaining shortcut, the fixpoint stop) commutes with every injective renaming of the candidates - EXACT
   equality of the whole trace (every count's totals and elected, the seats, the stop reason).
   The model compares candidates with [ceqb] / [cmem] only (shared ranks as sets via [cmem]); the canonical sorted
   sets of Model/Convert.v ([canon_set], the only place an order on candidates occurs) are not used by the count. *)
From Coq Require Import ZArith QArith Qround List Bool Arith Lia.
From VL Require Import Prelude.PyDict Model.GetNBest Model.Convert Model.STV
     Proofs.STV_proofs Proofs.Dict_proofs Proofs.Order_proofs Proofs.HARename_proofs Proofs.Equivariant.
Import ListNotations.

Section SREN.
  Variable f : C -> C.
  Hypothesis f_inj : forall a b, f a = f b -> a = b.

  Definition ri (i : item) : item := match i with IP c => IP (f c) | IS l => IS (map f l) end.
  Definition rb (b : ballot) : ballot := map ri b.
  Definition rbw (bw : ballot * Q) : ballot * Q := (rb (fst bw), snd bw).
  Definition renv (v : list (ballot * Q)) : list (ballot * Q) := map rbw v.      (* a profile / a pile *)
  Definition ro (k : option C) : option C := option_map f k.
  Definition rkp (kp : option C * pile) : option C * pile := (ro (fst kp), renv (snd kp)).
  Definition rena (a : alloc) : alloc := map rkp a.
  Definition rkt (kt : option C * Q) : option C * Q := (ro (fst kt), snd kt).
  Definition rentot (t : list (option C * Q)) : list (option C * Q) := map rkt t.
  Definition rencounts (l : list (list (option C * Q) * list (C * Z))) : list (list (option C * Q) * list (C * Z)) :=
    map (fun x => (rentot (fst x), renl f (snd x))) l.
  Definition ren_trace (t : trace) : trace := Build_trace (rencounts (t_counts t)) (renl f (t_seats t)) (t_stop t).
  Definition ren_cr (r : count_result) : count_result :=
    match r with CR_all el => CR_all (renl f el) | CR_next a el => CR_next (rena a) (renl f el) | CR_stop s => CR_stop s end.
  Definition ren_ebq (r : option (list (C * Z)) + stop) : option (list (C * Z)) + stop :=
    match r with inl (Some l) => inl (Some (renl f l)) | x => x end.

  Lemma renv_cons b w v : renv ((b, w) :: v) = (rb b, w) :: renv v.
  Proof. reflexivity. Qed.
  Lemma rena_cons k p a : rena ((k, p) :: a) = (ro k, renv p) :: rena a.
  Proof. reflexivity. Qed.
  Lemma rb_cons i b : rb (i :: b) = ri i :: rb b.
  Proof. reflexivity. Qed.
  Lemma renv_vals v : map snd (renv v) = map snd v.
  Proof. unfold renv. rewrite map_map. reflexivity. Qed.
  Lemma rentot_renk t : rentot t = renk ro t.
  Proof. reflexivity. Qed.

  Lemma sort_desc_rentot t : sort_desc Qle_bool (rentot t) = rentot (sort_desc Qle_bool t).
  Proof. apply (sort_desc_renk Qle_bool ro). Qed.

  Lemma item_eqb_ren i j : item_eqb (ri i) (ri j) = item_eqb i j.
  Proof.
    destruct i as [x|x], j as [y|y]; cbn [ri item_eqb]; try reflexivity.
    - apply (ceqb_f f f_inj).
    - rewrite !(forallb_cmem_ren f f_inj). reflexivity.
  Qed.
  Lemma ballot_eqb_ren a : forall b, ballot_eqb (rb a) (rb b) = ballot_eqb a b.
  Proof.
    induction a as [|x a IH]; intros [|y b]; try reflexivity. rewrite !rb_cons. cbn [ballot_eqb]. rewrite item_eqb_ren, IH. reflexivity.
  Qed.
  Lemma okey_eqb_ren a b : okey_eqb (ro a) (ro b) = okey_eqb a b.
  Proof. destruct a, b; cbn [ro option_map okey_eqb]; try reflexivity. apply (ceqb_f f f_inj). Qed.

  Lemma pile_add_ren p b w : pile_add (renv p) (rb b) w = renv (pile_add p b w).
  Proof.
    induction p as [|[b' w'] p IH]; [reflexivity|]. rewrite renv_cons. cbn [pile_add]. rewrite ballot_eqb_ren, IH.
    destruct (ballot_eqb b b'); reflexivity.
  Qed.
  Lemma alloc_get_ren a k : alloc_get (rena a) (ro k) = option_map renv (alloc_get a k).
  Proof.
    induction a as [|[k' p] a IH]; [reflexivity|]. rewrite rena_cons. cbn [alloc_get]. rewrite okey_eqb_ren, IH.
    destruct (okey_eqb k k'); reflexivity.
  Qed.
  Lemma alloc_add_ren a k b w : alloc_add (rena a) (ro k) (rb b) w = rena (alloc_add a k b w).
  Proof.
    induction a as [|[k' p] a IH]; [reflexivity|]. rewrite rena_cons. cbn [alloc_add]. rewrite okey_eqb_ren, IH, pile_add_ren.
    destruct (okey_eqb k k'); reflexivity.
  Qed.
  Lemma alloc_del_ren a k : alloc_del (rena a) (ro k) = rena (alloc_del a k).
  Proof. unfold alloc_del, rena. apply filter_map_eqv. intros [k' p]. unfold rkp. cbn [fst]. rewrite okey_eqb_ren. reflexivity. Qed.
  Lemma pile_sum_ren p : pile_sum (renv p) = pile_sum p.
  Proof. unfold pile_sum. rewrite renv_vals. reflexivity. Qed.
  Lemma totals_ren a : totals (rena a) = rentot (totals a).
  Proof. unfold totals, rena, rentot. rewrite !map_map. apply map_ext. intros [k p]. unfold rkp, rkt. cbn [fst snd]. rewrite pile_sum_ren. reflexivity. Qed.
  Lemma members_ren i : members (ri i) = map f (members i).
  Proof. destruct i; reflexivity. Qed.

  Lemma next_after_ren rest allowed : next_after (rb rest) (map f allowed) = map f (next_after rest allowed).
  Proof.
    induction rest as [|[c|l] t IH]; [reflexivity| |]; rewrite rb_cons; cbn [ri next_after].
    - rewrite (cmem_ren f f_inj). destruct (cmem c allowed); [reflexivity|exact IH].
    - rewrite (filter_map_eqv f (fun c => cmem c allowed)) by (intros x; apply (cmem_ren f f_inj)).
      destruct (filter (fun c => cmem c allowed) l) as [|y ys]; [exact IH|reflexivity].
  Qed.
  Lemma ranked_next_ren vote cand allowed : ranked_next (rb vote) (f cand) (map f allowed) = map f (ranked_next vote cand allowed).
  Proof.
    induction vote as [|[c|l] t IH]; [reflexivity| |]; rewrite rb_cons; cbn [ri ranked_next].
    - rewrite (ceqb_f f f_inj). destruct (ceqb cand c); [apply next_after_ren|exact IH].
    - rewrite (cmem_ren f f_inj). destruct (cmem cand l); [apply next_after_ren|exact IH].
  Qed.
  Lemma keys_some_ren a : keys_some (rena a) = map f (keys_some a).
  Proof. unfold keys_some, rena. apply flat_map_eqv. intros [[c|] p]; reflexivity. Qed.

  Lemma move_ballot_ren a targets b w : move_ballot (rena a) (map f targets) (rb b) w = rena (move_ballot a targets b w).
  Proof.
    unfold move_ballot. rewrite !match_nil, is_nil_map, map_length. destruct (is_nil targets).
    - apply (alloc_add_ren a None).
    - apply (fold_left_eqv f rena). intros a0 x. apply (alloc_add_ren a0 (Some x)).
  Qed.

  Lemma transfer_ren a elim : transfer (rena a) (map f elim) = rena (transfer a elim).
  Proof.
    unfold transfer. cbv zeta. rewrite keys_some_ren.
    rewrite (filter_map_eqv f (fun c => cmem c elim) (fun c => cmem c (map f elim))) by (intros x; apply (cmem_ren f f_inj)).
    rewrite (filter_map_eqv f (fun c => negb (cmem c elim)) (fun c => negb (cmem c (map f elim)))) by (intros x; rewrite (cmem_ren f f_inj); reflexivity).
    set (cont := filter (fun c => negb (cmem c elim)) (keys_some a)).
    apply (fold_left_eqv f rena). intros a0 c.
    change (Some (f c)) with (ro (Some c)). rewrite alloc_get_ren.
    etransitivity; [|apply alloc_del_ren]. f_equal.
    destruct (alloc_get a0 (Some c)) as [p|]; [|reflexivity]. cbn [option_map].
    unfold renv. apply (fold_left_eqv rbw rena). intros a1 [b w]. unfold rbw. cbn [fst snd].
    rewrite ranked_next_ren. apply move_ballot_ren.
  Qed.
  Lemma gregory_subtract_ren p n : gregory_subtract (renv p) n = option_map renv (gregory_subtract p n).
  Proof.
    unfold gregory_subtract. cbv zeta. rewrite pile_sum_ren. destruct (Qeq_bool (pile_sum p) 0); [reflexivity|].
    destruct (Qle_bool (pile_sum p) n); [reflexivity|]. cbn [option_map]. f_equal. unfold renv. rewrite !map_map. reflexivity.
  Qed.

  Lemma subtract_ren elected : forall a, subtract (rena a) (renl f elected) = option_map rena (subtract a elected).
  Proof.
    induction elected as [|[c amount] t IH]; intros a; [reflexivity|].
    change (renl f ((c, amount) :: t)) with ((f c, amount) :: renl f t). cbn [subtract].
    change (Some (f c)) with (ro (Some c)). rewrite alloc_get_ren.
    destruct (alloc_get a (Some c)) as [p|]; [|reflexivity]. cbn [option_map]. rewrite gregory_subtract_ren.
    destruct (gregory_subtract p amount) as [p'|]; [|reflexivity]. cbn [option_map].
    etransitivity; [|apply IH]. f_equal.
    unfold rena. rewrite !map_map. apply map_ext. intros [k p0]. unfold rkp at 1 2. cbn [fst snd]. rewrite okey_eqb_ren.
    destruct (okey_eqb (Some c) k); reflexivity.
  Qed.

  Lemma all_ranked_candidates_ren votes : all_ranked_candidates (renv votes) = map f (all_ranked_candidates votes).
  Proof.
    unfold all_ranked_candidates, renv. cbv zeta.
    rewrite (fold_left_inv rbw (fun m (bw : ballot * Q) => Nat.max m (length (fst bw))))
      by (intros m [b w]; unfold rbw, rb; cbn [fst]; rewrite map_length; reflexivity).
    apply (fold_left_same (map f)); [|reflexivity]. intros acc i.
    apply (fold_left_eqv rbw (map f)). intros acc1 [b w]. unfold rbw, rb. cbn [fst].
    rewrite nth_error_map. destruct (nth_error b i) as [it|]; [|reflexivity]. cbn [option_map].
    rewrite members_ren. apply (fold_left_eqv f (map f)). intros acc2 c.
    rewrite (cmem_ren f f_inj). destruct (cmem c acc2); [reflexivity|]. rewrite map_app. reflexivity.
  Qed.

  Lemma initial_allocation_ren votes : initial_allocation (renv votes) = rena (initial_allocation votes).
  Proof.
    unfold initial_allocation. cbv zeta. rewrite all_ranked_candidates_ren. unfold renv.
    apply (fold_left_eqv0 rbw rena); [|apply (fold_left_eqv0 rbw rena)].
    - intros a [[|[c|l] t] w]; try reflexivity.
      unfold rbw. cbn [fst snd]. rewrite rb_cons. cbn [ri]. change (IS (map f l) :: rb t) with (rb (IS l :: t)).
      rewrite next_after_ren. apply move_ballot_ren.
    - intros a [[|[c|l] t] w]; try reflexivity.
      unfold rbw. cbn [fst snd]. rewrite rb_cons. cbn [ri]. change (IP (f c) :: rb t) with (rb (IP c :: t)).
      apply (alloc_add_ren a (Some c)).
    - unfold rena. rewrite !map_map. reflexivity.
  Qed.

  Lemma some_totals_ren t : some_totals (rentot t) = renl f (some_totals t).
  Proof. unfold some_totals, rentot, renl. apply flat_map_eqv. intros [[c|] q]; reflexivity. Qed.

  Definition r3 (x : C * Z * Q) : C * Z * Q := (f (fst (fst x)), snd (fst x), snd x).

  Lemma ebq_item_ren cf q prev caps kt : ebq_item cf q (renl f prev) (renl f caps) (rkt kt) = map r3 (ebq_item cf q prev caps kt).
  Proof.
    destruct kt as [[c|] t]; [|reflexivity]. unfold ebq_item. cbn [rkt fst snd ro option_map]. cbv zeta.
    rewrite (dget_ren f f_inj), (dget_or_ren f f_inj).
    destruct (c_accept_equal cf || _); [|reflexivity]. destruct (0 <? _)%Z; reflexivity.
  Qed.
  Lemma ebq_correct_ren n_rem awarded rems :
    ebq_correct n_rem (renl f awarded) (renl f rems) = ren_ebq (ebq_correct n_rem awarded rems).
  Proof.
    unfold ebq_correct. rewrite (renl_vals f), get_n_best_renl, has_tie_res_ren, cands_res_ren.
    destruct (n_rem <? _)%Z; [|reflexivity]. destruct (existsb _ _); [reflexivity|]. cbn [ren_ebq]. apply (f_equal (fun e => inl (Some e))).
    unfold renl. apply flat_map_eqv. intros [c s]. cbn [fst snd]. rewrite (cmem_ren f f_inj).
    destruct (cmem c _); [reflexivity|]. destruct (1 <? s)%Z; reflexivity.
  Qed.

  Lemma elect_by_quota_ren cf tot quota n_rem prev caps :
    elect_by_quota cf (rentot tot) quota n_rem (renl f prev) (renl f caps) = ren_ebq (elect_by_quota cf tot quota n_rem prev caps).
  Proof.
    destruct quota as [q|]; [|reflexivity]. rewrite !ebq_unfold.
    assert (E : map (fun kt : option C * Q => (fst kt, snd kt)) (rentot tot) = rentot (map (fun kt => (fst kt, snd kt)) tot))
      by (unfold rentot; rewrite !map_map; reflexivity).
    rewrite E, sort_desc_rentot. unfold rentot.
    rewrite (flat_map_eqv rkt r3 (ebq_item cf q prev caps) (ebq_item cf q (renl f prev) (renl f caps))) by apply ebq_item_ren.
    unfold ebq_tail. rewrite !match_nil, is_nil_map. destruct (is_nil _); [reflexivity|].
    rewrite <- ebq_correct_ren. unfold renl. rewrite !map_map. reflexivity.
  Qed.

  Lemma quota_branch_ren a quota prev caps el :
    quota_branch (rena a) quota (renl f prev) (renl f caps) (renl f el) = ren_cr (quota_branch a quota prev caps el).
  Proof.
    unfold quota_branch. destruct quota as [q|]; [|reflexivity].
    rewrite map_renl, subtract_ren by reflexivity. destruct (subtract a _) as [a'|]; [|reflexivity]. cbn [option_map]. cbv zeta.
    rewrite !transfer_match. cbn [ren_cr]. rewrite <- transfer_ren. apply (f_equal (fun e => CR_next (transfer _ e) _)).
    apply (flat_map_eqv (fun cv : C * Z => (f (fst cv), snd cv)) f). intros [c s]. cbn [fst snd].
    rewrite (dget_ren f f_inj), (dget_or_ren f f_inj). destruct (dget caps c) as [m|]; [|reflexivity]. destruct (m <=? _)%Z; reflexivity.
  Qed.

  Lemma elim_branch_ren cf a : elim_branch cf (rena a) = ren_cr (elim_branch cf a).
  Proof.
    unfold elim_branch. cbv zeta.
    rewrite totals_ren, some_totals_ren, (renl_length f), get_n_best_renl, has_tie_res_ren, cands_res_ren.
    destruct (existsb _ _); [reflexivity|].
    rewrite !transfer_match. cbn [ren_cr]. rewrite <- transfer_ren, (renl_keys f). apply (f_equal (fun e => CR_next (transfer _ e) _)).
    apply filter_map_eqv. intros c. rewrite (cmem_ren f f_inj). reflexivity.
  Qed.

  Lemma next_count_ren cf a n_seats total prev caps :
    next_count cf (rena a) n_seats total (renl f prev) (renl f caps) = ren_cr (next_count cf a n_seats total prev caps).
  Proof.
    rewrite !next_count_unfold. cbv zeta. rewrite totals_ren, (renl_vals f), sort_desc_rentot.
    set (by_total := sort_desc Qle_bool (totals a)).
    rewrite (existsb_map_eqv rkt (fun kt => match fst kt with Some c => negb (dmem caps c) | None => false end))
      by (intros [[c|] t]; [|reflexivity]; cbn [rkt fst ro option_map]; rewrite (dmem_ren f f_inj); reflexivity).
    rewrite (flat_map_renl f rkt (fun kt => match fst kt with Some c => [(c, (dget_or caps c 0 - dget_or prev c 0)%Z)] | None => [] end))
      by (intros [[c|] t]; [|reflexivity]; cbn [rkt fst ro option_map]; rewrite !(dget_or_ren f f_inj); reflexivity).
    rewrite (renl_vals f). destruct (negb _ && _ && negb (c_mandatory cf)); [reflexivity|].
    rewrite elect_by_quota_ren.
    destruct (elect_by_quota cf (totals a) _ _ prev caps) as [[el|]|s]; cbn [ren_ebq];
      [apply quota_branch_ren|apply elim_branch_ren|reflexivity].
  Qed.

  Lemma add_seats_ren seats el : add_seats (renl f seats) (renl f el) = renl f (add_seats seats el).
  Proof.
    unfold add_seats. unfold renl at 2.
    apply (fold_left_eqv (fun cv : C * Z => (f (fst cv), snd cv)) (renl f)).
    intros a x. cbn [fst snd]. rewrite (dget_or_ren f f_inj), (dset_ren f f_inj). reflexivity.
  Qed.

  Lemma pile_sub_ren p q : psub (renv p) (renv q) = psub p q.
  Proof.
    unfold psub, renv. apply forallb_map_eqv. intros [b w]. apply existsb_map_eqv. intros [b' w'].
    unfold rbw. cbn [fst snd]. rewrite ballot_eqb_ren. reflexivity.
  Qed.
  Lemma asub_ren x y : asub (rena x) (rena y) = asub x y.
  Proof.
    unfold asub. unfold rena at 2. apply forallb_map_eqv. intros [k p]. unfold rkp. cbn [fst snd].
    rewrite alloc_get_ren. destruct (alloc_get y k) as [q|]; [|reflexivity]. cbn [option_map]. rewrite !pile_sub_ren. reflexivity.
  Qed.
  Lemma alloc_eqb_ren a b : alloc_eqb (rena a) (rena b) = alloc_eqb a b.
  Proof. rewrite !alloc_eqb_unfold, !asub_ren. reflexivity. Qed.

  Lemma build_trace_ren acc seats s :
    Build_trace (rev (rencounts acc)) (renl f seats) s = ren_trace (Build_trace (rev acc) seats s).
  Proof. unfold ren_trace, rencounts. cbn [t_counts t_seats t_stop]. rewrite map_rev. reflexivity. Qed.

  Lemma run_ren cf n_seats total caps fuel : forall a seats acc,
    run cf fuel (rena a) n_seats total (renl f seats) (renl f caps) (rencounts acc)
    = ren_trace (run cf fuel a n_seats total seats caps acc).
  Proof.
    induction fuel as [|fu IH]; intros a seats acc; cbn [run]; rewrite (renl_vals f);
      (destruct (zsum (map snd seats) =? n_seats)%Z; [apply build_trace_ren|]).
    - apply build_trace_ren.
    - rewrite next_count_ren.
      destruct (next_count cf a n_seats total seats caps) as [el|a' el|s]; cbn [ren_cr]; [| |apply build_trace_ren].
      + rewrite add_seats_ren. apply (build_trace_ren (([], el) :: acc)).
      + rewrite !match_nil, (is_nil_renl f), alloc_eqb_ren, totals_ren, add_seats_ren.
        change ((rentot (totals a'), renl f el) :: rencounts acc) with (rencounts ((totals a', el) :: acc)).
        destruct (is_nil el); [destruct (alloc_eqb a' a); [apply build_trace_ren|]|]; apply IH.
  Qed.

  Theorem stv_ren cf votes n prev caps :
    stv cf (renv votes) n (renl f prev) (renl f caps) = ren_trace (stv cf votes n prev caps).
  Proof.
    unfold stv. cbv zeta. rewrite initial_allocation_ren, renv_vals, all_ranked_candidates_ren, map_length.
    exact (run_ren cf n _ caps _ (initial_allocation votes) prev []).
  Qed.
End SREN.
