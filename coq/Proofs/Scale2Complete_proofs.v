(* Complete ballots give balanced corrected score dictionaries (for C11, majority judgment default rule):
   when every ballot scores every candidate exactly once and has a positive count, every candidate's corrected
   (score -> count) dictionary has pairwise different keys, nonnegative counts and the same total - the number of
   votes (min_count = 0, no truncation, any unscored_value). *)
From Coq Require Import ZArith QArith List Bool Arith Lia Lqa.
From VL Require Import Prelude.PyDict Model.GetNBest Model.Convert Model.Cardinal
     Proofs.Dict_proofs Proofs.MJ_proofs Proofs.Scale2Dup_proofs Proofs.Scale2Med_proofs Proofs.Scale2Score_proofs Proofs.Scale2MJ_proofs.
Import ListNotations.

Lemma good_cs_set d s v : good d -> (0 <= v)%Z -> good (cs_set d s v).
Proof. intros [H1 H2] Hv. split; [apply keys_nd_cs_set, H1|apply nonneg_cs_set; assumption]. Qed.

Lemma good_nil : good [].
Proof. split; [exact I|constructor]. Qed.

Definition dict_of (d : list (C * cscores)) (c : C) : cscores := dget_or d c [].

Lemma raw_step_total n d cs c : (0 <= n)%Z ->
  cs_total (dict_of (raw_step n d cs) c) = (cs_total (dict_of d c) + if ceqb c (fst cs) then n else 0)%Z.
Proof.
  intros Hn. unfold raw_step, dict_of. cbv zeta. rewrite dget_or_dset. unfold dget_or. destruct (ceqb c (fst cs)) eqn:E; [|lia].
  apply Pos.eqb_eq in E. subst c. rewrite total_cs_set. unfold get0. lia.
Qed.

Lemma raw_step_good n d cs : (0 <= n)%Z -> (forall c, good (dict_of d c)) -> forall c, good (dict_of (raw_step n d cs) c).
Proof.
  intros Hn H c. unfold raw_step, dict_of. cbv zeta. rewrite dget_or_dset. destruct (ceqb c (fst cs)); [|apply H].
  specialize (H (fst cs)). unfold dict_of, dget_or in H. apply good_cs_set; [exact H|].
  pose proof (get0_nonneg _ (snd cs) (proj2 H)) as Hg. unfold get0 in Hg. lia.
Qed.

Lemma raw_inner_total n (b : sballot) c : (0 <= n)%Z -> forall d,
  cs_total (dict_of (fold_left (raw_step n) b d) c) = (cs_total (dict_of d c) + n * count c (map fst b))%Z.
Proof.
  intros Hn. induction b as [|cs b IH]; intros d; cbn [fold_left map count]; [lia|].
  rewrite IH, (raw_step_total n d cs c Hn). destruct (ceqb c (fst cs)); lia.
Qed.

Lemma raw_inner_good n (b : sballot) : (0 <= n)%Z -> forall d, (forall c, good (dict_of d c)) -> forall c, good (dict_of (fold_left (raw_step n) b d) c).
Proof.
  intros Hn. induction b as [|cs b IH]; intros d H; cbn [fold_left]; [exact H|]. apply IH. apply raw_step_good; assumption.
Qed.

Definition weighted_count (c : C) (votes : sprofile) : Z :=
  fold_right (fun bn acc => (snd bn * count c (map fst (fst bn)) + acc)%Z) 0%Z votes.

Lemma raw_scores_total votes c : (forall b n, In (b, n) votes -> (0 <= n)%Z) ->
  cs_total (dict_of (raw_scores votes) c) = weighted_count c votes /\ good (dict_of (raw_scores votes) c).
Proof.
  intros Hpos. rewrite raw_scores_unfold.
  assert (G : forall d, (forall c', good (dict_of d c')) ->
            cs_total (dict_of (fold_left (fun d bn => fold_left (raw_step (snd bn)) (fst bn) d) votes d) c)
            = (cs_total (dict_of d c) + weighted_count c votes)%Z /\
            good (dict_of (fold_left (fun d bn => fold_left (raw_step (snd bn)) (fst bn) d) votes d) c)).
  { induction votes as [|[b n] votes IH]; intros d Hd; cbn [fold_left weighted_count fold_right fst snd]; [split; [lia|apply Hd]|].
    assert (Hn : (0 <= n)%Z) by (apply (Hpos b n); left; reflexivity).
    destruct (IH (fun b' n' H => Hpos b' n' (or_intror H)) (fold_left (raw_step n) b d) (raw_inner_good n b Hn d Hd)) as [E1 E2].
    split; [rewrite E1, (raw_inner_total n b c Hn d); unfold weighted_count; lia|exact E2]. }
  destruct (G [] (fun _ => good_nil)) as [E1 E2]. split; [rewrite E1; cbn; lia|exact E2].
Qed.

Lemma raw_keys votes c : In c (map fst (raw_scores votes)) -> In c (flat_map (fun bn : sballot * Z => map fst (fst bn)) votes).
Proof.
  rewrite raw_scores_unfold.
  assert (Hstep : forall n d cs c', In c' (map fst (raw_step n d cs)) -> c' = fst cs \/ In c' (map fst d)).
  { intros n d cs c'. unfold raw_step. cbv zeta. apply dset_keys_in. }
  assert (Hin : forall n (b : sballot) d c', In c' (map fst (fold_left (raw_step n) b d)) -> In c' (map fst b) \/ In c' (map fst d)).
  { intros n b. induction b as [|cs b IH]; intros d c' H; cbn [fold_left] in H; [right; exact H|].
    destruct (IH _ _ H) as [H1|H1]; [left; right; exact H1|]. destruct (Hstep _ _ _ _ H1) as [->|H2]; [left; left; reflexivity|right; exact H2]. }
  assert (G : forall d, In c (map fst (fold_left (fun d bn => fold_left (raw_step (snd bn)) (fst bn) d) votes d)) ->
              In c (flat_map (fun bn : sballot * Z => map fst (fst bn)) votes) \/ In c (map fst d)).
  { induction votes as [|[b n] votes IH]; intros d H; cbn [fold_left flat_map fst snd] in *; [right; exact H|].
    destruct (IH _ H) as [H1|H1]; [left; apply in_or_app; right; exact H1|].
    destruct (Hin _ _ _ _ H1) as [H2|H2]; [left; apply in_or_app; left; exact H2|right; exact H2]. }
  intros H. destruct (G [] H) as [H1|[]]. exact H1.
Qed.

Definition complete_ballots (votes : sprofile) : Prop :=
  forall b n, In (b, n) votes -> (0 < n)%Z /\ NoDup (map fst b) /\
    forall c, In c (flat_map (fun bn : sballot * Z => map fst (fst bn)) votes) -> In c (map fst b).

Lemma complete_weighted votes c : complete_ballots votes -> In c (flat_map (fun bn : sballot * Z => map fst (fst bn)) votes) ->
  weighted_count c votes = sp_total votes.
Proof.
  intros Hc Hin. unfold sp_total.
  assert (G : forall vs, (forall b n, In (b, n) vs -> NoDup (map fst b) /\ In c (map fst b)) ->
              forall a, fold_left Z.add (map snd vs) a = (a + weighted_count c vs)%Z).
  { induction vs as [|[b n] vs IH]; intros H a; cbn [map fold_left weighted_count fold_right fst snd]; [lia|].
    destruct (H b n ltac:(left; reflexivity)) as [H1 H2]. rewrite (count_nodup c (map fst b) H1 H2).
    rewrite (IH (fun b' n' Hx => H b' n' (or_intror Hx))). unfold weighted_count. lia. }
  rewrite (G votes); [lia|]. intros b n Hb. destruct (Hc b n Hb) as (_ & H1 & H2). split; [exact H1|apply H2, Hin].
Qed.

Theorem complete_balanced cf votes sc : sc_min_count cf = 0%Z -> Qle_bool (sc_trunc cf) 0 = true -> complete_ballots votes ->
  corrected_scores cf votes = inl sc -> Inv sc (sp_total votes).
Proof.
  intros Hmc Htr Hc Hsc. split; [exact (corrected_scores_nodup cf votes sc Hsc)|].
  apply Forall_forall. intros [c d1] Hin. cbn [snd].
  unfold corrected_scores in Hsc. cbv zeta in Hsc. fold (sp_total votes) in Hsc.
  pose proof (sequence_in _ _ c d1 Hsc Hin) as Hin'. apply in_map_iff in Hin'. destruct Hin' as ([c0 d] & E & Hraw).
  cbn [fst snd] in E. injection E as -> E.
  assert (Hpos : forall b n, In (b, n) votes -> (0 <= n)%Z) by (intros b n Hb; destruct (Hc b n Hb) as [H _]; lia).
  destruct (raw_scores_total votes c Hpos) as [Et Eg].
  unfold dict_of, dget_or in Et, Eg. rewrite (In_dget _ c d (raw_scores_nodup votes) Hraw) in Et, Eg.
  assert (Hk : In c (flat_map (fun bn : sballot * Z => map fst (fst bn)) votes)).
  { apply raw_keys. apply in_map_iff. exists (c, d). auto. }
  rewrite (complete_weighted votes c Hc Hk) in Et.
  assert (HT0 : (0 <= sp_total votes)%Z) by (rewrite <- Et, cs_total_sumf; apply sumf_nonneg, (proj2 Eg)).
  unfold correct_scores in E. cbv zeta in E. rewrite Hmc, Et in E.
  assert ((sp_total votes <? 0)%Z = false) as Elt by (apply Z.ltb_ge; exact HT0). rewrite Elt, Htr in E.
  assert (Hun : forall v, good (cs_set d v (sp_total votes - sp_total votes + match cs_get d v with Some n => n | None => 0%Z end)) /\
                          cs_total (cs_set d v (sp_total votes - sp_total votes + match cs_get d v with Some n => n | None => 0%Z end)) = sp_total votes).
  { intros v. change (match cs_get d v with Some n => n | None => 0%Z end) with (get0 d v).
    pose proof (get0_nonneg d v (proj2 Eg)) as Hg0. split; [apply good_cs_set; [exact Eg|lia]|rewrite total_cs_set, Et; lia]. }
  destruct (sc_unscored cf) as [|v|].
  - injection E as <-. split; [exact Eg|exact Et].
  - injection E as <-. apply Hun.
  - destruct (list_min (expand d)) as [v|]; [|discriminate]. injection E as <-. apply Hun.
Qed.
