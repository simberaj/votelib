(* Two more ways in which a ranked profile can change in favour of the winner (C17), taken through the model of
   RankedToCondorcetVotes(unranked_at_bottom=True).convert ([Hybrids.pairwise]; lemmas of Proofs/Hybrids_proofs.v and
   Proofs/RaisesBallot_proofs.v):
   A. a candidate w that one ballot leaves UNRANKED (counted below every ranked candidate, level with the other unranked ones)
      becomes ranked on that ballot, anywhere: p1 ++ p2 becomes p1 ++ IP w :: p2 (bottom: p2 = [], top: p1 = []).
      The dictionary changes exactly by [rank_gain] ([pairwise_rank_exact]): count(w, c) += x for every member c of p2 and every
      other candidate the ballot leaves unranked, count(c, w) -= x for every member c of p2, nothing else; [raises_s] holds, a sole
      Copeland / minimax winner stays ([copeland_ballot_rank], [minimax_ballot_rank]).
   B. a ballot is ADDED that ranks w first.
      B1. the bullet vote [IP w]: count(w, c) += x for every other candidate of the profile, nothing else ([pairwise_bullet_exact]);
          [raises_s]; [copeland_ballot_added_bullet], [minimax_ballot_added_bullet].
      B2. a longer ballot IP w :: rest also changes the contests among the others: [raises_s] fails.  The weaker relation
          [lifts_by] (every count of w rises by d, no count against w rises, the other counts rise by at most d) holds
          ([pairwise_added_lifts]) and keeps a sole minimax winner for the scorers margins and pairwise opposition
          ([minimax_lifts], [minimax_ballot_added]); for Copeland and minimax with winning votes the clause is refuted by
          concrete profiles (at the end of the file). *)
From Coq Require Import ZArith QArith List Bool Lia Arith Permutation.
From VL Require Import Prelude.Sx Prelude.PyDict Prelude.GDict Model.GetNBest Model.Convert Model.STV Model.Condorcet Model.Hybrids
     Proofs.Dict_proofs Proofs.GetNBest_proofs Proofs.Condorcet_proofs Proofs.CopelandMono_proofs Proofs.Minimax_proofs
     Proofs.Hybrids_proofs Proofs.RaisesBallot_proofs.
Import ListNotations.
Open Scope Z_scope.

(* A. an unranked winner becomes ranked *)
Lemma above_le r a c : above r a c <= cnt a (flatten r) * cnt c (flatten r).
Proof.
  induction r as [|i t IH]; [cbn; lia|]. cbn [above]. rewrite flatten_cons, !cnt_app.
  pose proof (cnt_nonneg a (members i)). pose proof (cnt_nonneg c (members i)).
  pose proof (cnt_nonneg a (flatten t)). pose proof (cnt_nonneg c (flatten t)). nia.
Qed.

Lemma above_out_l r a c : ~ In a (flatten r) -> above r a c = 0.
Proof. intros H. pose proof (above_le r a c) as Hle. pose proof (above_nonneg r a c). rewrite (cnt_notin a _ H) in Hle. lia. Qed.

Lemma above_out_r r a c : ~ In c (flatten r) -> above r a c = 0.
Proof. intros H. pose proof (above_le r a c) as Hle. pose proof (above_nonneg r a c). rewrite (cnt_notin c _ H) in Hle. lia. Qed.

(* what ranking w between p1 and p2 adds to the coefficient of the pair (a, c): w now counts above the members of p2 and above the
   candidates the new ballot still leaves unranked; the members of p2 no longer count above w *)
Definition rank_gain (cs : list C) (p1 p2 : ranked) (w a c : C) : Z :=
  cnt a [w] * (cnt c (flatten p2) + cnt c (set_diff cs (flatten (p1 ++ IP w :: p2)))) - cnt a (flatten p2) * cnt c [w].

Lemma flatten_rank p1 p2 w c : In c (flatten (p1 ++ IP w :: p2)) <-> c = w \/ In c (flatten (p1 ++ p2)).
Proof.
  rewrite !flatten_app, flatten_cons, !in_app_iff. cbn [members In]. split; [intros [H|[[H|[]]|H]]|intros [H|[H|H]]]; auto.
Qed.

Lemma coef_rank cs p1 p2 w a c : NoDup cs -> In w cs -> ~ In w (flatten (p1 ++ p2)) ->
  Hybrids_proofs.coef cs (p1 ++ IP w :: p2) a c = Hybrids_proofs.coef cs (p1 ++ p2) a c + rank_gain cs p1 p2 w a c.
Proof.
  intros Hn Hw Hout. unfold Hybrids_proofs.coef, rank_gain. rewrite !above_app. cbn [above members].
  rewrite !cnt_set_diff.
  assert (Ew : cnt w cs = 1) by (rewrite (cnt_nodup w cs Hn); apply cmem_In in Hw; rewrite Hw; reflexivity).
  destruct (ceqb c w) eqn:E.
  - apply ceqb_eq in E. subst c.
    assert (E1 : cmem w (flatten (p1 ++ IP w :: p2)) = true) by (apply cmem_In, flatten_rank; left; reflexivity).
    assert (E2 : cmem w (flatten (p1 ++ p2)) = false) by (apply cmem_false, Hout).
    rewrite E1, E2, Ew. rewrite !flatten_app, !flatten_cons, !cnt_app. cbn [members]. rewrite !cnt_single, ceqb_refl.
    rewrite flatten_app in Hout.
    rewrite (cnt_notin w (flatten p2)) by (intros H; apply Hout, in_or_app; right; exact H).
    ring.
  - assert (E1 : cmem c (flatten (p1 ++ IP w :: p2)) = cmem c (flatten (p1 ++ p2))).
    { destruct (cmem c (flatten (p1 ++ p2))) eqn:E2.
      - apply cmem_In, flatten_rank. right. apply cmem_In, E2.
      - apply cmem_false. intros H. apply flatten_rank in H. destruct H as [->|H]; [rewrite ceqb_refl in E; discriminate|].
        apply cmem_In in H. congruence. }
    rewrite E1. rewrite !flatten_app, !flatten_cons, !cnt_app. cbn [members]. rewrite !cnt_single, E.
    destruct (ceqb a w); ring.
Qed.

Lemma rank_gain_w cs p1 p2 w c : ~ In w (flatten p2) ->
  rank_gain cs p1 p2 w w c = cnt c (flatten p2) + cnt c (set_diff cs (flatten (p1 ++ IP w :: p2))).
Proof. intros H. unfold rank_gain. rewrite cnt_single, ceqb_refl, (cnt_notin w _ H). ring. Qed.

Lemma rank_gain_to_w cs p1 p2 w a : a <> w -> rank_gain cs p1 p2 w a w = - cnt a (flatten p2).
Proof.
  intros Ha. unfold rank_gain. rewrite (cnt_other a w Ha), cnt_single, ceqb_refl. ring.
Qed.

Lemma rank_gain_others cs p1 p2 w a c : a <> w -> c <> w -> rank_gain cs p1 p2 w a c = 0.
Proof.
  intros Ha Hc. unfold rank_gain. rewrite (cnt_other a w Ha), (cnt_other c w Hc). ring.
Qed.

Lemma rank_gain_ext cs cs' p1 p2 w a c : NoDup cs -> NoDup cs' -> (forall z, In z cs <-> In z cs') ->
  rank_gain cs p1 p2 w a c = rank_gain cs' p1 p2 w a c.
Proof.
  intros Hn Hn' He. unfold rank_gain. rewrite !cnt_set_diff, (cnt_nodup c cs Hn), (cnt_nodup c cs' Hn'), (cmem_ext cs cs' He c). reflexivity.
Qed.

Section RANK.
  Variables pre post : rvotes.
  Variables p1 p2 : ranked.
  Variable x : Z.
  Variable w : C.
  Notation b := (p1 ++ p2).
  Notation b' := (p1 ++ IP w :: p2).
  Notation L1 := (pre ++ (b, x) :: post).
  Notation L2 := (pre ++ (b', x) :: post).

  Hypothesis Hout : ~ In w (flatten b).          (* the ballot leaves w unranked *)
  Hypothesis Hw : In w (cands_of L1).            (* w occurs somewhere in the profile *)

  Lemma rank_cands_of c : In c (cands_of L2) <-> In c (cands_of L1).
  Proof.
    rewrite !cands_of_insert, flatten_rank. split; [|tauto].
    intros [H|[->|H]]; [left; exact H| |right; exact H]. exact (proj1 (cands_of_insert pre post b x w) Hw).
  Qed.

  (* the pairwise dictionary of the new profile, entry by entry *)
  Theorem pairwise_rank_exact a c :
    pget0 (pairwise L2) (a, c) = pget0 (pairwise L1) (a, c) + x * rank_gain (cands_of L1) p1 p2 w a c.
  Proof.
    rewrite (pairwise_same_cands L1 L2 rank_cands_of), pairwise_get, !wsum_app, !wsum_cons.
    rewrite (coef_rank _ p1 p2 w a c (cands_of_nodup _) Hw Hout). ring.
  Qed.

  Lemma rank_cands_incl c : In c (candidates (pairwise L1)) -> In c (candidates (pairwise L2)).
  Proof.
    apply (replace_cands_incl pre post b b' x rank_cands_of). intros z. set (cs := cands_of L1).
    apply (in_pairs_mono cs b b'). intros u l Hpos.
    pose proof (coef_rank cs p1 p2 w u l (cands_of_nodup _) Hw Hout) as E.
    destruct (Z_le_gt_dec 0 (rank_gain cs p1 p2 w u l)) as [Hj|Hj]; [left; lia|right].
    (* a lost pair is (u, w) with u a member of p2: the new ballot has (w, u) instead *)
    assert (Hp2 : ~ In w (flatten p2)) by (intros H; apply Hout; rewrite flatten_app; apply in_or_app; right; exact H).
    unfold rank_gain in Hj. pose proof (cnt_nonneg u [w]). pose proof (cnt_nonneg l (flatten p2)).
    pose proof (cnt_nonneg l (set_diff cs (flatten b'))). pose proof (cnt_nonneg u (flatten p2)). pose proof (cnt_nonneg l [w]).
    assert (Hu : 0 < cnt u (flatten p2)) by nia. assert (Hl : 0 < cnt l [w]) by nia.
    apply cnt_pos in Hl. destruct Hl as [<-|[]].
    rewrite (coef_rank cs p1 p2 w w u (cands_of_nodup _) Hw Hout), (rank_gain_w cs p1 p2 w u Hp2).
    pose proof (coef_nonneg cs b w u). pose proof (cnt_nonneg u (set_diff cs (flatten b'))). lia.
  Qed.

  Hypothesis Hwf : wf_votes L1 = true.
  Hypothesis Hne : pairwise L1 <> [].

  Lemma wf_rank : wf_votes L2 = true.
  Proof.
    apply wf_insert in Hwf. destruct Hwf as (H1 & Hb & Hx). apply wf_insert. split; [exact H1|]. split; [|exact Hx].
    eapply Permutation_NoDup; [|constructor; [exact Hout|exact Hb]].
    rewrite !flatten_app, flatten_cons. cbn [members app]. apply Permutation_middle.
  Qed.

  Theorem pairwise_rank_cands c : In c (candidates (pairwise L2)) <-> In c (candidates (pairwise L1)).
  Proof. exact (pairwise_cands_same L1 L2 rank_cands_of Hwf Hne rank_cands_incl c). Qed.

  Theorem pairwise_rank_raises : raises_s (pairwise L1) (pairwise L2) w.
  Proof.
    assert (Hx : 0 <= x) by (apply wf_insert in Hwf; tauto).
    assert (Hp2 : ~ In w (flatten p2)) by (intros H; apply Hout; rewrite flatten_app; apply in_or_app; right; exact H).
    split; [exact pairwise_rank_cands|]. split.
    - intros c. rewrite !pairwise_rank_exact. split.
      + rewrite (rank_gain_w _ p1 p2 w c Hp2). pose proof (cnt_nonneg c (flatten p2)).
        pose proof (cnt_nonneg c (set_diff (cands_of L1) (flatten b'))). nia.
      + destruct (Pos.eq_dec c w) as [->|Hc].
        * rewrite (rank_gain_w _ p1 p2 w w Hp2). rewrite (cnt_notin w _ Hp2), cnt_set_diff.
          assert (E : cmem w (flatten b') = true) by (apply cmem_In, flatten_rank; left; reflexivity). rewrite E. lia.
        * rewrite (rank_gain_to_w _ p1 p2 w c Hc). pose proof (cnt_nonneg c (flatten p2)). nia.
    - intros a c Ha Hc. rewrite pairwise_rank_exact, (rank_gain_others _ p1 p2 w a c Ha Hc). ring.
  Qed.
End RANK.

(* the packaged statements: converter followed by the evaluator; w is a candidate of the profile because it wins *)
Lemma copeland_winner_in_profile votes w : wf_votes votes = true -> copeland false (pairwise votes) 1 = [Cand w] -> In w (cands_of votes).
Proof.
  intros Hwf H. rewrite copeland_raw_is_first_order in H.
  apply candidates_pairwise_in, (copeland_sole _ w (pairwise_nodup _) (pairwise_nonneg _ Hwf)), H.
Qed.

Lemma minimax_winner_in_profile votes w s : wf_votes votes = true -> minimax s (pairwise votes) 1 = [Cand w] -> In w (cands_of votes).
Proof.
  intros Hwf H. pose proof (pairwise_two _ Hwf (minimax_nonempty s _ w H)) as H2.
  apply (minimax_sole _ H2) in H. destruct H as (mw & Hw & _). apply candidates_pairwise_in, (mc_entry _ H2 s w mw Hw).
Qed.

Theorem copeland_ballot_rank pre post p1 p2 x w so :
  wf_votes (pre ++ (p1 ++ p2, x) :: post) = true -> ~ In w (flatten (p1 ++ p2)) ->
  copeland false (pairwise (pre ++ (p1 ++ p2, x) :: post)) 1 = [Cand w] ->
  copeland so (pairwise (pre ++ (p1 ++ IP w :: p2, x) :: post)) 1 = [Cand w].
Proof.
  intros Hwf Hout Hwin. apply (copeland_profile_monotone _ _ w so Hwf (wf_rank pre post p1 p2 x w Hout Hwf)); [|exact Hwin].
  exact (pairwise_rank_raises pre post p1 p2 x w Hout (copeland_winner_in_profile _ w Hwf Hwin) Hwf (copeland_nonempty _ _ w Hwin)).
Qed.

Theorem minimax_ballot_rank pre post p1 p2 x w s :
  wf_votes (pre ++ (p1 ++ p2, x) :: post) = true -> ~ In w (flatten (p1 ++ p2)) ->
  minimax s (pairwise (pre ++ (p1 ++ p2, x) :: post)) 1 = [Cand w] ->
  minimax s (pairwise (pre ++ (p1 ++ IP w :: p2, x) :: post)) 1 = [Cand w].
Proof.
  intros Hwf Hout Hwin. apply (minimax_profile_monotone _ _ w s Hwf (wf_rank pre post p1 p2 x w Hout Hwf)); [|exact Hwin].
  exact (pairwise_rank_raises pre post p1 p2 x w Hout (minimax_winner_in_profile _ w s Hwf Hwin) Hwf (minimax_nonempty _ _ w Hwin)).
Qed.

(* B. a ballot is added *)
Section ADDED.
  Variables pre post : rvotes.
  Variable r : ranked.
  Variable x : Z.
  Notation L1 := (pre ++ post).
  Notation L2 := (pre ++ (r, x) :: post).

  Hypothesis Hin : forall c, In c (flatten r) -> In c (cands_of L1).      (* no new candidate *)

  Lemma added_cands_of c : In c (cands_of L2) <-> In c (cands_of L1).
  Proof. rewrite cands_of_insert. split; [intros [H|H]; [exact H|apply Hin, H]|tauto]. Qed.

  (* every entry grows by x times the coefficient of the new ballot *)
  Theorem pairwise_added_exact a c :
    pget0 (pairwise L2) (a, c) = pget0 (pairwise L1) (a, c) + x * Hybrids_proofs.coef (cands_of L1) r a c.
  Proof. rewrite (pairwise_same_cands L1 L2 added_cands_of), pairwise_get, !wsum_app, !wsum_cons. ring. Qed.

  Lemma added_cands_incl c : In c (candidates (pairwise L1)) -> In c (candidates (pairwise L2)).
  Proof.
    apply (candidates_same_incl L1 L2 added_cands_of). intros r0 y z H0 Hp. exists r0, y. split; [apply in_insert_skip, H0|exact Hp].
  Qed.

  Hypothesis Hwf : wf_votes L2 = true.
  Hypothesis Hne : pairwise L1 <> [].

  Theorem pairwise_added_cands c : In c (candidates (pairwise L2)) <-> In c (candidates (pairwise L1)).
  Proof.
    apply (pairwise_cands_same L1 L2 added_cands_of); [apply wf_insert in Hwf; tauto|exact Hne|exact added_cands_incl].
  Qed.
End ADDED.

(* B1. the bullet vote *)
Lemma coef_bullet cs w a c : Hybrids_proofs.coef cs [IP w] a c = cnt a [w] * cnt c (set_diff cs [w]).
Proof. unfold Hybrids_proofs.coef. cbn [above flatten flat_map members app]. change (cnt c []) with 0. ring. Qed.

Section BULLET.
  Variables pre post : rvotes.
  Variable x : Z.
  Variable w : C.
  Notation L1 := (pre ++ post).
  Notation L2 := (pre ++ ([IP w], x) :: post).

  Hypothesis Hw : In w (cands_of L1).

  Lemma bullet_in c : In c (flatten [IP w]) -> In c (cands_of L1).
  Proof. cbn. intros [<-|[]]. exact Hw. Qed.

  (* count(w, c) += x for every other candidate c of the profile; nothing else changes *)
  Theorem pairwise_bullet_exact a c :
    pget0 (pairwise L2) (a, c) = pget0 (pairwise L1) (a, c) + x * (cnt a [w] * cnt c (set_diff (cands_of L1) [w])).
  Proof. rewrite (pairwise_added_exact pre post [IP w] x bullet_in), coef_bullet. reflexivity. Qed.

  Hypothesis Hwf : wf_votes L1 = true.
  Hypothesis Hx : 0 <= x.
  Hypothesis Hne : pairwise L1 <> [].

  Lemma wf_bullet : wf_votes L2 = true.
  Proof. apply wf_insert. split; [exact Hwf|]. split; [|exact Hx]. cbn. constructor; [intros []|constructor]. Qed.

  Theorem pairwise_bullet_cands c : In c (candidates (pairwise L2)) <-> In c (candidates (pairwise L1)).
  Proof. exact (pairwise_added_cands pre post [IP w] x bullet_in wf_bullet Hne c). Qed.

  Theorem pairwise_bullet_raises : raises_s (pairwise L1) (pairwise L2) w.
  Proof.
    split; [exact pairwise_bullet_cands|]. split.
    - intros c. rewrite !pairwise_bullet_exact, cnt_single, ceqb_refl. split.
      + pose proof (cnt_nonneg c (set_diff (cands_of L1) [w])). nia.
      + rewrite cnt_set_diff. assert (E : cmem w [w] = true) by (apply cmem_In; left; reflexivity). rewrite E. lia.
    - intros a c Ha Hc. rewrite pairwise_bullet_exact, (cnt_other a w Ha). ring.
  Qed.
End BULLET.

Theorem copeland_ballot_added_bullet pre post x w so :
  wf_votes (pre ++ post) = true -> 0 <= x ->
  copeland false (pairwise (pre ++ post)) 1 = [Cand w] ->
  copeland so (pairwise (pre ++ ([IP w], x) :: post)) 1 = [Cand w].
Proof.
  intros Hwf Hx Hwin. apply (copeland_profile_monotone _ _ w so Hwf (wf_bullet pre post x w Hwf Hx)); [|exact Hwin].
  exact (pairwise_bullet_raises pre post x w (copeland_winner_in_profile _ w Hwf Hwin) Hwf Hx (copeland_nonempty _ _ w Hwin)).
Qed.

Theorem minimax_ballot_added_bullet pre post x w s :
  wf_votes (pre ++ post) = true -> 0 <= x ->
  minimax s (pairwise (pre ++ post)) 1 = [Cand w] ->
  minimax s (pairwise (pre ++ ([IP w], x) :: post)) 1 = [Cand w].
Proof.
  intros Hwf Hx Hwin. apply (minimax_profile_monotone _ _ w s Hwf (wf_bullet pre post x w Hwf Hx)); [|exact Hwin].
  exact (pairwise_bullet_raises pre post x w (minimax_winner_in_profile _ w s Hwf Hwin) Hwf Hx (minimax_nonempty _ _ w Hwin)).
Qed.

(* B2. a longer added ballot IP w :: rest.  Minimax under a uniform shift e of the scores: every defeat of w shrinks by at
   least e, no defeat of another candidate shrinks by more than e (Proofs/Minimax_proofs.v [minimax_sole_shift];
   [minimax_raised] is the case e = 0) *)
Section MSHIFT.
  Variables v v' : pvotes.
  Variable w : C.
  Variable s : scorer.
  Variable e : Z.
  Hypothesis H2 : (2 <= length (candidates v))%nat.
  Hypothesis Hc : forall c, In c (candidates v') <-> In c (candidates v).
  Hypothesis Hdw : forall a, In a (candidates v) -> a <> w -> sc v' s a w <= sc v s a w - e.
  Hypothesis Hdo : forall a c, In a (candidates v) -> In c (candidates v) -> c <> w -> a <> c -> sc v s a c - e <= sc v' s a c.

  Theorem minimax_shift : minimax s v 1 = [Cand w] -> minimax s v' 1 = [Cand w].
  Proof. exact (minimax_sole_shift v v' w s e H2 Hc Hdw Hdo). Qed.
End MSHIFT.

(* the relation between the dictionaries: w gains at least d against everybody, nobody gains against w, any other count grows by
   at most d.  Weaker than [raises_s] (d = 0 and the other counts equal). *)
Definition lifts_by (v v' : pvotes) (w : C) (d : Z) : Prop :=
  0 <= d /\
  (forall c, In c (candidates v') <-> In c (candidates v)) /\
  (forall c, In c (candidates v) -> c <> w -> pget0 v (w, c) + d <= pget0 v' (w, c) /\ pget0 v' (c, w) <= pget0 v (c, w)) /\
  (forall a c, a <> w -> c <> w -> pget0 v (a, c) <= pget0 v' (a, c) <= pget0 v (a, c) + d).

Lemma raises_s_lifts v v' w : raises_s v v' w -> lifts_by v v' w 0.
Proof.
  intros (H1 & H2 & H3). split; [lia|]. split; [exact H1|]. split.
  - intros c _ _. destruct (H2 c). lia.
  - intros a c Ha Hc. rewrite (H3 a c Ha Hc). lia.
Qed.

(* margins: the shift is d; pairwise opposition: the shift is 0.  (Winning votes: refuted below.) *)
Theorem minimax_lifts v v' w d s : s <> WinningVotes -> (2 <= length (candidates v))%nat -> lifts_by v v' w d ->
  minimax s v 1 = [Cand w] -> minimax s v' 1 = [Cand w].
Proof.
  intros Hs H2 (Hd & Hc & Hw & Ho).
  destruct s; [congruence| |].
  - apply (minimax_shift v v' w Margins d H2 Hc).
    + intros a Ha Haw. unfold sc. destruct (Hw a Ha Haw). lia.
    + intros a c Ha Hcc Hcw Hac. unfold sc. destruct (Pos.eq_dec a w) as [->|Haw].
      * destruct (Hw c Hcc Hcw). lia.
      * pose proof (Ho a c Haw Hcw). pose proof (Ho c a Hcw Haw). lia.
  - apply (minimax_shift v v' w PairwiseOpposition 0 H2 Hc).
    + intros a Ha Haw. unfold sc. destruct (Hw a Ha Haw). lia.
    + intros a c Ha Hcc Hcw Hac. unfold sc. destruct (Pos.eq_dec a w) as [->|Haw].
      * destruct (Hw c Hcc Hcw). lia.
      * pose proof (Ho a c Haw Hcw). lia.
Qed.

(* the coefficients of a ballot without a repeated candidate are 0 or 1 *)
Lemma coef_le_1 cs r a c : NoDup cs -> NoDup (flatten r) -> Hybrids_proofs.coef cs r a c <= 1.
Proof.
  intros Hn Hr. unfold Hybrids_proofs.coef. pose proof (above_le r a c) as H. rewrite cnt_set_diff.
  rewrite (cnt_nodup a _ Hr), (cnt_nodup c _ Hr) in H. rewrite (cnt_nodup a _ Hr), (cnt_nodup c _ Hn).
  destruct (cmem a (flatten r)), (cmem c (flatten r)), (cmem c cs); lia.
Qed.

(* w alone on the first rank: it counts once above every other candidate of the profile, nobody counts above it *)
Lemma coef_first_w cs rest w c : NoDup cs -> NoDup (flatten (IP w :: rest)) -> In c cs -> c <> w ->
  Hybrids_proofs.coef cs (IP w :: rest) w c = 1.
Proof.
  intros Hn Hr Hc Hcw. rewrite flatten_cons in Hr. cbn [members app] in Hr. inversion Hr as [|? ? Hw Hrest]; subst.
  unfold Hybrids_proofs.coef. cbn [above members]. rewrite flatten_cons. cbn [members].
  change ([w] ++ flatten rest) with (w :: flatten rest).
  rewrite (above_out_l rest w c Hw), cnt_set_diff, (cnt_cons w w (flatten rest)), (cnt_notin w _ Hw), cnt_single, ceqb_refl.
  rewrite (cnt_nodup c _ Hrest), (cnt_nodup c _ Hn). apply cmem_In in Hc. rewrite Hc. cbn [cmem].
  destruct (ceqb c w) eqn:E; [apply ceqb_eq in E; congruence|]. cbn [orb]. destruct (cmem c (flatten rest)); cbn [negb]; lia.
Qed.

Lemma coef_first_to_w cs rest w c : ~ In w (flatten rest) -> Hybrids_proofs.coef cs (IP w :: rest) c w = 0.
Proof.
  intros Hw. unfold Hybrids_proofs.coef. cbn [above]. rewrite (above_out_r rest c w Hw), (cnt_notin w _ Hw), cnt_set_diff.
  assert (E : cmem w (flatten (IP w :: rest)) = true) by (apply cmem_In; left; reflexivity). rewrite E. ring.
Qed.

Section LONG.
  Variables pre post : rvotes.
  Variable rest : ranked.
  Variable x : Z.
  Variable w : C.
  Notation L1 := (pre ++ post).
  Notation L2 := (pre ++ (IP w :: rest, x) :: post).

  Hypothesis Hw : In w (cands_of L1).
  Hypothesis Hrest : forall c, In c (flatten rest) -> In c (cands_of L1).
  Hypothesis Hwf : wf_votes L2 = true.
  Hypothesis Hne : pairwise L1 <> [].

  Lemma long_in c : In c (flatten (IP w :: rest)) -> In c (cands_of L1).
  Proof. rewrite flatten_cons. cbn [members app In]. intros [<-|H]; [exact Hw|apply Hrest, H]. Qed.

  Theorem pairwise_added_lifts : lifts_by (pairwise L1) (pairwise L2) w x.
  Proof.
    pose proof Hwf as Hwf0. apply wf_insert in Hwf0. destruct Hwf0 as (Hwf1 & Hnd & Hx).
    assert (Hwr : ~ In w (flatten rest)) by (rewrite flatten_cons in Hnd; cbn [members app] in Hnd; inversion Hnd; assumption).
    split; [exact Hx|]. split; [exact (pairwise_added_cands pre post (IP w :: rest) x long_in Hwf Hne)|]. split.
    - intros c Hc Hcw. rewrite !(pairwise_added_exact pre post (IP w :: rest) x long_in).
      apply candidates_pairwise_in in Hc.
      rewrite (coef_first_w _ rest w c (cands_of_nodup _) Hnd Hc Hcw), (coef_first_to_w _ rest w c Hwr). lia.
    - intros a c Ha Hc. rewrite (pairwise_added_exact pre post (IP w :: rest) x long_in).
      pose proof (coef_nonneg (cands_of L1) (IP w :: rest) a c). pose proof (coef_le_1 (cands_of L1) (IP w :: rest) a c (cands_of_nodup _) Hnd). nia.
  Qed.
End LONG.

(* ANY added ballot that ranks w alone on the first rank (shared ranks and truncation after it allowed), lists no candidate twice
   and names no new candidate keeps a sole minimax winner w for margins and pairwise opposition *)
Theorem minimax_ballot_added pre post rest x w s : s <> WinningVotes ->
  wf_votes (pre ++ (IP w :: rest, x) :: post) = true ->
  (forall c, In c (flatten rest) -> In c (cands_of (pre ++ post))) ->
  minimax s (pairwise (pre ++ post)) 1 = [Cand w] ->
  minimax s (pairwise (pre ++ (IP w :: rest, x) :: post)) 1 = [Cand w].
Proof.
  intros Hs Hwf Hrest Hwin.
  assert (Hwf1 : wf_votes (pre ++ post) = true) by (apply wf_insert in Hwf; tauto).
  pose proof (minimax_nonempty _ _ w Hwin) as Hne.
  exact (minimax_lifts _ _ w x s Hs (pairwise_two _ Hwf1 Hne)
           (pairwise_added_lifts pre post rest x w (minimax_winner_in_profile _ w s Hwf1 Hwin) Hrest Hwf Hne) Hwin).
Qed.

(* B2 refuted for Copeland and for minimax with winning votes
   (found by random search on the implementation, minimised, replayed on votelib: the Python lines below).
   Copeland, candidates A B C D = 1 2 3 4: {(A,D,C): 2, (C,B): 2, (B,D): 2} elects B (B beats A and D and loses to C: score 1;
   C and D: one win, one loss, score 0; A: score -1; A - C and A - D are ties 2 : 2).  One more ballot (B, C) turns the tie C - A
   into a win of C (3 : 2): first-order scores B = C = 1, the result is the tie {C, B}; the second-order tie-break (the default
   Copeland) even elects C alone (the candidates beaten by C have the scores 1 - 2, those beaten by B have -2 + 0).
   The ballot (B, A) gives the tie {A, B} (second_order=False).
   Python: PreConverted(RankedToCondorcetVotes(), Copeland(second_order=False)).evaluate({('A','D','C'): 2, ('C','B'): 2,
   ('B','D'): 2}, 1) = ['B']; with ('B','C'): 1 added = [Tie({'C','B'})]; Copeland() gives ['B'] resp. ['C']. *)
Definition copeland_long_pre : rvotes := [([IP 1; IP 4; IP 3]%positive, 2); ([IP 3; IP 2]%positive, 2); ([IP 2; IP 4]%positive, 2)].

Theorem copeland_added_long_refuted : exists pre post rest x w,
  wf_votes (pre ++ (IP w :: rest, x) :: post) = true /\ 0 < x /\
  (forall c, In c (flatten rest) -> In c (cands_of (pre ++ post))) /\
  copeland false (pairwise (pre ++ post)) 1 = [Cand w] /\ copeland true (pairwise (pre ++ post)) 1 = [Cand w] /\
  copeland false (pairwise (pre ++ (IP w :: rest, x) :: post)) 1 = [TieR [3; 2]%positive] /\
  copeland true (pairwise (pre ++ (IP w :: rest, x) :: post)) 1 = [Cand 3%positive] /\ w <> 3%positive.
Proof.
  exists copeland_long_pre, [], [IP 3%positive], 1, 2%positive.
  split; [vm_compute; reflexivity|]. split; [lia|]. split.
  - intros c H. vm_compute in H. destruct H as [<-|[]]. vm_compute. tauto.
  - repeat split; try (vm_compute; reflexivity). discriminate.
Qed.

Theorem copeland_added_long_refuted_raw : exists pre post rest x w,
  wf_votes (pre ++ (IP w :: rest, x) :: post) = true /\ 0 < x /\
  (forall c, In c (flatten rest) -> In c (cands_of (pre ++ post))) /\
  copeland false (pairwise (pre ++ post)) 1 = [Cand w] /\
  copeland false (pairwise (pre ++ (IP w :: rest, x) :: post)) 1 = [TieR [1; 2]%positive].
Proof.
  exists copeland_long_pre, [], [IP 1%positive], 1, 2%positive.
  split; [vm_compute; reflexivity|]. split; [lia|]. split.
  - intros c H. vm_compute in H. destruct H as [<-|[]]. vm_compute. tauto.
  - split; vm_compute; reflexivity.
Qed.

(* minimax with winning votes, candidates A B D = 1 2 3: {(B,): 2, (D,): 4, (A,B): 3} elects B (its only defeat, by A, has 3 winning
   votes; A is beaten by D with 4, D by B with 5).  One more ballot (B, A) makes D - A a tie (4 : 4) and A - B a tie (3 : 3): A and B
   have no defeat at all, the result is the tie {A, B}.
   Python: PreConverted(RankedToCondorcetVotes(), MinimaxCondorcet()).evaluate({('B',): 2, ('D',): 4, ('A','B'): 3}, 1) = ['B'];
   with ('B','A'): 1 added = [Tie({'A','B'})]. *)
Theorem minimax_winvotes_added_long_refuted : exists pre post rest x w,
  wf_votes (pre ++ (IP w :: rest, x) :: post) = true /\ 0 < x /\
  (forall c, In c (flatten rest) -> In c (cands_of (pre ++ post))) /\
  minimax WinningVotes (pairwise (pre ++ post)) 1 = [Cand w] /\
  minimax WinningVotes (pairwise (pre ++ (IP w :: rest, x) :: post)) 1 = [TieR [1; 2]%positive].
Proof.
  exists [([IP 2]%positive, 2); ([IP 3]%positive, 4); ([IP 1; IP 2]%positive, 3)], [], [IP 1%positive], 1, 2%positive.
  split; [vm_compute; reflexivity|]. split; [lia|]. split.
  - intros c H. vm_compute in H. destruct H as [<-|[]]. vm_compute. tauto.
  - split; vm_compute; reflexivity.
Qed.

(* A: {(A,{B,C},D): 3, (D,B): 1, (B,D): 1} (a shared rank, two truncated ballots): A = 1 is the sole minimax and Copeland winner;
   the ballot (D,B), which leaves A and C unranked, becomes (D,A,B): count(A,B) 3 -> 4, count(A,C) 3 -> 4 (C is still unranked
   there), count(B,A) 2 -> 1, count(D,A) stays 2 *)
Example rank_example :
  let pre := [([IP 1; IS [2; 3]; IP 4]%positive, 3)] in let post := [([IP 2; IP 4]%positive, 1)] in
  let L1 := pre ++ ([IP 4%positive] ++ [IP 2%positive], 1) :: post in
  let L2 := pre ++ ([IP 4%positive] ++ IP 1%positive :: [IP 2%positive], 1) :: post in
  wf_votes L1 = true /\ ~ In 1%positive (flatten ([IP 4%positive] ++ [IP 2%positive])) /\
  minimax Margins (pairwise L1) 1 = [Cand 1%positive] /\ minimax WinningVotes (pairwise L1) 1 = [Cand 1%positive] /\
  copeland false (pairwise L1) 1 = [Cand 1%positive] /\
  map (pget0 (pairwise L1)) [(1, 2); (1, 3); (2, 1); (4, 1)]%positive = [3; 3; 2; 2] /\
  map (pget0 (pairwise L2)) [(1, 2); (1, 3); (2, 1); (4, 1)]%positive = [4; 4; 1; 2] /\
  minimax Margins (pairwise L2) 1 = [Cand 1%positive] /\ copeland true (pairwise L2) 1 = [Cand 1%positive].
Proof.
  cbv zeta. split; [vm_compute; reflexivity|]. split; [vm_compute; intros [H|[H|[]]]; discriminate H|].
  repeat split; vm_compute; reflexivity.
Qed.

(* B1: {(A,{B,C},D): 2, (D,B): 2}: A = 1 is the sole winner; two bullet votes for A: count(A,B) = count(A,C) = count(A,D) 2 -> 4 *)
Example bullet_example :
  let pre := [([IP 1; IS [2; 3]; IP 4]%positive, 2)] in let post := [([IP 4; IP 2]%positive, 1)] in
  wf_votes (pre ++ post) = true /\
  minimax PairwiseOpposition (pairwise (pre ++ post)) 1 = [Cand 1%positive] /\ copeland false (pairwise (pre ++ post)) 1 = [Cand 1%positive] /\
  map (pget0 (pairwise (pre ++ post))) [(1, 2); (1, 3); (1, 4); (4, 1)]%positive = [2; 2; 2; 1] /\
  map (pget0 (pairwise (pre ++ ([IP 1%positive], 2) :: post))) [(1, 2); (1, 3); (1, 4); (4, 1)]%positive = [4; 4; 4; 1].
Proof. cbv zeta. repeat split; vm_compute; reflexivity. Qed.

(* B2: the same profile and the added ballot (A,{C,D}) (B unranked): count(C,B) 0 -> 1 and count(D,B) 1 -> 2 are contests among
   the others, so [raises_s] fails; [lifts_by] holds and A stays the minimax winner (margins) *)
Example added_example :
  let pre := [([IP 1; IS [2; 3]; IP 4]%positive, 2)] in let post := [([IP 4; IP 2]%positive, 1)] in
  let L2 := pre ++ (IP 1%positive :: [IS [3; 4]%positive], 1) :: post in
  wf_votes L2 = true /\ (forall c, In c (flatten [IS [3; 4]%positive]) -> In c (cands_of (pre ++ post))) /\
  minimax Margins (pairwise (pre ++ post)) 1 = [Cand 1%positive] /\
  map (pget0 (pairwise (pre ++ post))) [(1, 2); (3, 2); (4, 2)]%positive = [2; 0; 1] /\
  map (pget0 (pairwise L2)) [(1, 2); (3, 2); (4, 2)]%positive = [3; 1; 2] /\
  ~ raises_s (pairwise (pre ++ post)) (pairwise L2) 1%positive /\
  minimax Margins (pairwise L2) 1 = [Cand 1%positive].
Proof.
  cbv zeta. split; [vm_compute; reflexivity|]. split.
  { intros c H. vm_compute in H. vm_compute. tauto. }
  split; [vm_compute; reflexivity|]. split; [vm_compute; reflexivity|]. split; [vm_compute; reflexivity|]. split; [|vm_compute; reflexivity].
  intros (_ & _ & H). specialize (H 3%positive 2%positive). vm_compute in H. assert (E : 1 = 0) by (apply H; discriminate). discriminate E.
Qed.

Print Assumptions pairwise_rank_exact.
Print Assumptions pairwise_rank_cands.
Print Assumptions pairwise_rank_raises.
Print Assumptions copeland_ballot_rank.
Print Assumptions minimax_ballot_rank.
Print Assumptions pairwise_added_exact.
Print Assumptions pairwise_added_cands.
Print Assumptions pairwise_bullet_exact.
Print Assumptions pairwise_bullet_raises.
Print Assumptions copeland_ballot_added_bullet.
Print Assumptions minimax_ballot_added_bullet.
Print Assumptions minimax_shift.
Print Assumptions raises_s_lifts.
Print Assumptions minimax_lifts.
Print Assumptions pairwise_added_lifts.
Print Assumptions minimax_ballot_added.
Print Assumptions copeland_added_long_refuted.
Print Assumptions copeland_added_long_refuted_raw.
Print Assumptions minimax_winvotes_added_long_refuted.
Print Assumptions rank_example.
Print Assumptions bullet_example.
Print Assumptions added_example.
