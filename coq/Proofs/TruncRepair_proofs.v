(* fixes/C12-truncation-middle: with the cut-off capped at (scores - 1) // 2 the truncation never leaves a
   candidate that holds a score without scores; the capped cut-off is the configured one whenever the pinned code left
   a score (so the repair only changes the cases that crashed, or - for the sum - counted nothing);
   consequence: the repaired score voting answers on every profile with positive ballot counts. *)
From Coq Require Import ZArith QArith Qround Qabs List Bool Arith Lia Lqa Sorting.Sorted Permutation.
From VL Require Import Prelude.PyDict Model.GetNBest Model.Convert Model.Cardinal Proofs.QOrd Proofs.Dict_proofs Proofs.MJ_proofs
     Proofs.MJ_removal_proofs Proofs.ScoreDict_proofs Proofs.Truncation_proofs Proofs.Scale2Med_proofs Proofs.Repair_proofs.
Import ListNotations.
Open Scope Z_scope.

(* the two notions of distinct keys *)
Lemma distinct_keys_nd d : cs_distinct d <-> keys_nd (map fst d).
Proof.
  induction d as [|sn d IH]; [split; intros; exact I|]. cbn [cs_distinct map keys_nd]. split; intros (H0 & H1).
  - split; [|apply IH, H1]. intros s' Hs' He. apply in_map_iff in Hs'. destruct Hs' as (sn' & <- & Hin). apply (H0 sn' Hin). symmetry. exact He.
  - split; [|apply IH, H1]. intros sn' Hin He. apply (H0 (fst sn')); [apply in_map, Hin|symmetry; exact He].
Qed.

Lemma okd_counted fn d : cs_okd d -> aggregate_one_w fn d = aggregate_one fn d.
Proof. intros (Hn & Hd). apply aggregate_one_w_eq; [exact Hn|apply distinct_keys_nd, Hd]. Qed.

(* truncation with ANY cut-off 0 <= c: the number of scores left *)
Lemma truncation_total d c : cs_okd d -> 0 <= c ->
  exists d2 d3, subtract_lowest d (sort_q (map fst d)) c 0 = Some d2 /\ subtract_lowest d2 (rev (sort_q (map fst d))) c 0 = Some d3 /\
    cs_total d3 = Z.max 0 (Z.max 0 (cs_total d - c) - c).
Proof.
  intros Hd Hc. destruct (two_sweeps d c Hd Hc) as (d2 & d3 & E2 & E3 & Hd2 & Hd3 & H2 & H3). cbv zeta in *.
  exists d2, d3. split; [exact E2|]. split; [exact E3|].
  specialize (H2 (fun _ _ => true) (fun _ _ _ _ => eq_refl) (sorted_before_all _) 0%Q).
  specialize (H3 (fun _ _ => true) (fun _ _ _ _ => eq_refl) (sorted_before_all _) 0%Q).
  rewrite (cs_total_wcnt d3 (proj1 Hd3)), (cs_total_wcnt d (proj1 Hd)), H3, H2. reflexivity.
Qed.

(* the capped cut-off *)
Definition mid_cutoff (c T : Z) : Z := Z.max 0 (Z.min c ((T - 1) / 2)).

Lemma mid_cutoff_bounds c T : 0 <= mid_cutoff c T /\ (1 <= T -> 2 * mid_cutoff c T <= T - 1) /\ (0 <= c -> 2 * c < T -> mid_cutoff c T = c).
Proof.
  unfold mid_cutoff. pose proof (Z.div_mod (T - 1) 2 ltac:(lia)) as D. pose proof (Z.mod_pos_bound (T - 1) 2 ltac:(lia)) as B.
  set (q := (T - 1) / 2) in *. set (r := (T - 1) mod 2) in *.
  split; [lia|]. split; intros; lia.
Qed.

(* fixes/C12-truncation-middle on one dictionary: at least one score stays, exactly 2 * (capped cut-off) go *)
Theorem truncation_keeps_middle d c : cs_okd d -> 1 <= cs_total d ->
  let c' := mid_cutoff c (cs_total d) in
  exists d2 d3, subtract_lowest d (sort_q (map fst d)) c' 0 = Some d2 /\ subtract_lowest d2 (rev (sort_q (map fst d))) c' 0 = Some d3 /\
    cs_okd d3 /\ cs_total d3 = cs_total d - 2 * c' /\ 1 <= cs_total d3 /\
    (forall t, Z.of_nat (wcnt (lev t) d2) = Z.max 0 (Z.of_nat (wcnt (lev t) d) - c')) /\
    (forall t, Z.of_nat (wcnt (gev t) d3) = Z.max 0 (Z.of_nat (wcnt (gev t) d2) - c')).
Proof.
  intros Hd HT c'. destruct (mid_cutoff_bounds c (cs_total d)) as (H0 & H1 & _). fold c' in H0, H1. specialize (H1 HT).
  destruct (truncation_spec d c' Hd H0) as (d2 & d3 & E2 & E3 & Hd3 & Hc2 & Hc3). cbv zeta in E2, E3.
  destruct (truncation_total d c' Hd H0) as (d2' & d3' & E2' & E3' & Htot).
  rewrite E2 in E2'. injection E2' as <-. rewrite E3 in E3'. injection E3' as <-.
  exists d2, d3. split; [exact E2|]. split; [exact E3|]. split; [exact Hd3|]. split; [lia|]. split; [lia|]. split; assumption.
Qed.

Lemma correct_scores_x_unfold rp cf d n_votes :
  correct_scores_x rp cf d n_votes =
  if cs_total d <? sc_min_count cf then inl [(sc_bottom cf, sc_min_count cf)] else
  match unscored_fill cf d n_votes with
  | inr e => inr e
  | inl d1 =>
      if Qle_bool (sc_trunc cf) 0 then inl d1 else
      let c := if rp_trunc rp then mid_cutoff (trunc_cutoff cf d n_votes) (cs_total d1) else trunc_cutoff cf d n_votes in
      match subtract_lowest d1 (sort_q (map fst d1)) c 0 with
      | None => inr SE_key
      | Some d2 => match subtract_lowest d2 (rev (sort_q (map fst d1))) c 0 with
                   | None => inr SE_key
                   | Some d3 => inl d3
                   end
      end
  end.
Proof.
  unfold correct_scores_x, unscored_fill. destruct (rp_counted rp); [rewrite list_min_counted|]; reflexivity.
Qed.

Lemma list_min_some (l : list Q) : l <> [] -> exists v, list_min l = Some v.
Proof. destruct l as [|x l]; [congruence|]. intros _. eexists. reflexivity. Qed.

(* the filled dictionary: well formed, and it holds a score as soon as the candidate does *)
Lemma unscored_fill_total cf d n_votes : cs_okd d -> (sc_unscored cf = UNone \/ cs_total d <= n_votes) -> 1 <= cs_total d ->
  exists d1, unscored_fill cf d n_votes = inl d1 /\ cs_okd d1 /\ cs_total d <= cs_total d1.
Proof.
  intros Hd Hb HT.
  assert (He : exists d1, unscored_fill cf d n_votes = inl d1 /\ cs_total d <= cs_total d1).
  { unfold unscored_fill. destruct (sc_unscored cf) as [|v|].
    - exists d. split; [reflexivity|lia].
    - destruct Hb as [Hb|Hb]; [discriminate|]. eexists. split; [reflexivity|]. rewrite cs_total_set. lia.
    - destruct Hb as [Hb|Hb]; [discriminate|].
      assert (Hne : expand d <> []).
      { intros E. pose proof (expand_length d (proj1 Hd)) as Hl. rewrite E in Hl. cbn [length] in Hl. lia. }
      destruct (list_min_some _ Hne) as (v & ->). eexists. split; [reflexivity|]. rewrite cs_total_set. lia. }
  destruct He as (d1 & E1 & Hle). exists d1. split; [exact E1|]. split; [exact (unscored_fill_okd cf d n_votes d1 Hd Hb E1)|exact Hle].
Qed.

(* fixes/C12-truncation-middle, one candidate: whatever the configuration, a candidate that holds a score keeps one *)
Theorem correct_scores_x_keeps rp cf d n_votes : rp_trunc rp = true ->
  cs_okd d -> (sc_unscored cf = UNone \/ cs_total d <= n_votes) -> 1 <= cs_total d ->
  exists d3, correct_scores_x rp cf d n_votes = inl d3 /\ cs_okd d3 /\ 1 <= cs_total d3.
Proof.
  intros Hrp Hd Hb HT. rewrite correct_scores_x_unfold, Hrp.
  destruct (cs_total d <? sc_min_count cf) eqn:Em.
  { apply Z.ltb_lt in Em. eexists. split; [reflexivity|]. split; [apply single_okd; lia|].
    rewrite cs_total_cons. cbn [snd]. unfold cs_total. cbn. lia. }
  destruct (unscored_fill_total cf d n_votes Hd Hb HT) as (d1 & E1 & Hd1 & HT1). rewrite E1.
  destruct (Qle_bool (sc_trunc cf) 0); [exists d1; split; [reflexivity|split; [exact Hd1|lia]]|]. cbv zeta.
  destruct (truncation_keeps_middle d1 (trunc_cutoff cf d n_votes) Hd1 ltac:(lia)) as (d2 & d3 & E2 & E3 & Hd3 & _ & H3 & _).
  cbv zeta in E2, E3. rewrite E2, E3. exists d3. split; [reflexivity|]. split; assumption.
Qed.

(* ... and the repair does what the configuration says whenever that leaves a score: the capped cut-off is the configured one
   unless twice the configured cut-off reaches the number of scores (the case in which the pinned code left nothing) *)
Theorem correct_scores_x_conservative rp cf d n_votes d1 : cs_okd d -> (sc_unscored cf = UNone \/ cs_total d <= n_votes) -> 0 <= n_votes ->
  unscored_fill cf d n_votes = inl d1 -> 2 * trunc_cutoff cf d n_votes < cs_total d1 ->
  correct_scores_x rp cf d n_votes = correct_scores cf d n_votes.
Proof.
  intros Hd Hb Hnv E1 Hlt. rewrite correct_scores_x_unfold, correct_scores_unfold, E1.
  destruct (cs_total d <? sc_min_count cf); [reflexivity|]. destruct (Qle_bool (sc_trunc cf) 0) eqn:Et; [reflexivity|]. cbv zeta.
  destruct (rp_trunc rp); [|reflexivity].
  pose proof (trunc_cutoff_nonneg cf d n_votes Hd Hnv Et) as Hc.
  destruct (mid_cutoff_bounds (trunc_cutoff cf d n_votes) (cs_total d1)) as (_ & _ & H). rewrite (H Hc Hlt). reflexivity.
Qed.

Definition profile_pos (votes : sprofile) : Prop :=
  forall bn, In bn votes -> 0 < snd bn /\ NoDup (map fst (fst bn)).

Lemma profile_pos_ok votes : profile_pos votes -> profile_ok votes.
Proof. intros H bn Hbn. destruct (H bn Hbn). split; [lia|assumption]. Qed.

Definition held (cd : C * cscores) : Prop := cs_okd (snd cd) /\ 1 <= cs_total (snd cd).

Lemma raw_step_held w d cs : 0 < w -> (forall cd, In cd d -> held cd) -> forall cd, In cd (raw_step w d cs) -> held cd.
Proof.
  intros Hw H cd Hin. split; [apply (raw_step_okd w d cs ltac:(lia) (fun cd0 H0 => proj1 (H cd0 H0)) cd Hin)|].
  unfold raw_step in Hin. cbv zeta in Hin. apply dset_in in Hin. destruct Hin as [->|Hin]; [|apply H, Hin].
  cbn [snd]. rewrite cs_total_set.
  pose proof (old_okd d (fst cs) (fun cd0 H0 => proj1 (H cd0 H0))) as Hold. pose proof (cs_total_nonneg _ (proj1 Hold)). lia.
Qed.

Lemma raw_scores_held votes : (forall bn, In bn votes -> 0 < snd bn) -> forall cd, In cd (raw_scores votes) -> held cd.
Proof.
  intros Hv. rewrite raw_scores_unfold. apply (fold_left_inv (fun d => forall cd, In cd d -> held cd)); [|intros cd []].
  intros d bn Hbn Hd. apply (fold_left_inv (fun d => forall cd, In cd d -> held cd)); [|exact Hd].
  intros d' cs _. apply raw_step_held, Hv, Hbn.
Qed.

Lemma sequence_all {X Y} (l : list (X * (Y + serr))) : (forall x, In x l -> exists y, snd x = inl y) -> exists r, sequence l = inl r.
Proof.
  induction l as [|[x v] l IH]; intros H; [eexists; reflexivity|]. destruct (H (x, v) (or_introl eq_refl)) as (y & Hy). cbn [snd] in Hy. subst v.
  destruct (IH (fun x0 H0 => H x0 (or_intror H0))) as (r & Hr). cbn [sequence]. rewrite Hr. eexists. reflexivity.
Qed.

(* a dictionary that holds a score has every aggregate *)
Lemma aggregate_one_total fn d : cs_okd d -> 1 <= cs_total d -> exists v, aggregate_one fn d = inl v.
Proof.
  intros Hd HT. destruct fn.
  - unfold aggregate_one. cbv zeta. destruct (expand d) as [|x l] eqn:E; [|eexists; reflexivity].
    pose proof (expand_length d (proj1 Hd)) as Hl. rewrite E in Hl. cbn [length] in Hl. lia.
  - eexists. reflexivity.
  - destruct (median_spec d (proj1 Hd) ltac:(lia)) as (g & Hg & _). exists g. exact Hg.
Qed.

Lemma aggregate_one_x_total rp fn d : cs_okd d -> 1 <= cs_total d -> exists v, aggregate_one_x rp fn d = inl v.
Proof.
  intros Hd HT. unfold aggregate_one_x. destruct (rp_counted rp); [rewrite (okd_counted fn d Hd)|]; apply aggregate_one_total; assumption.
Qed.

Lemma corrected_scores_x_held rp cf votes : rp_trunc rp = true -> profile_pos votes ->
  exists sc, corrected_scores_x rp cf votes = inl sc /\ forall cd, In cd sc -> held cd.
Proof.
  intros Hrp Hv. unfold corrected_scores_x. cbv zeta. set (nv := fold_left Z.add (map snd votes) 0).
  assert (Hone : forall cd, In cd (raw_scores votes) -> exists d3, correct_scores_x rp cf (snd cd) nv = inl d3 /\ cs_okd d3 /\ 1 <= cs_total d3).
  { intros cd Hcd. destruct (raw_scores_held votes (fun bn H => proj1 (Hv bn H)) cd Hcd) as (Hd & HT).
    apply correct_scores_x_keeps; [exact Hrp|exact Hd| |exact HT]. right.
    apply (raw_scores_bound votes (profile_pos_ok votes Hv) cd Hcd). }
  destruct (sequence_all (map (fun cd : C * cscores => (fst cd, correct_scores_x rp cf (snd cd) nv)) (raw_scores votes))) as (sc & Hsc).
  { intros x Hx. apply in_map_iff in Hx. destruct Hx as (cd & <- & Hcd). destruct (Hone cd Hcd) as (d3 & E & _). exists d3. exact E. }
  exists sc. split; [exact Hsc|]. intros [c d'] Hin. apply (sequence_in _ _ _ _ Hsc) in Hin. apply in_map_iff in Hin.
  destruct Hin as (cd & Heq & Hcd). injection Heq as _ Heq. destruct (Hone cd Hcd) as (d3 & E & Hd3 & HT3).
  rewrite E in Heq. injection Heq as <-. split; assumption.
Qed.

(* fixes/C12-truncation-middle (with or without the counted aggregates): score voting answers on every profile with
   positive ballot counts in which no ballot scores a candidate twice - every configuration, every number of seats *)
Theorem score_to_simple_x_answers rp cf votes : rp_trunc rp = true -> profile_pos votes ->
  exists agg, score_to_simple_x rp cf votes = inl agg.
Proof.
  intros Hrp Hv. unfold score_to_simple_x. destruct (corrected_scores_x_held rp cf votes Hrp Hv) as (sc & -> & Hheld).
  unfold aggregate_x. apply sequence_all. intros x Hx. apply in_map_iff in Hx. destruct Hx as (cd & <- & Hcd). cbn [snd].
  destruct (Hheld cd Hcd). apply aggregate_one_x_total; assumption.
Qed.

Theorem score_voting_x_answers rp cf votes n : rp_trunc rp = true -> profile_pos votes ->
  exists r, score_voting_x rp cf votes n = inl r.
Proof.
  intros Hrp Hv. unfold score_voting_x. destruct (score_to_simple_x_answers rp cf votes Hrp Hv) as (agg & ->). eexists. reflexivity.
Qed.
