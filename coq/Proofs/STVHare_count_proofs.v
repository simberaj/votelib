(* The Hare (random whole-ballot) transferer: every count of every run, for EVERY oracle
   (Model/STVHare.v: next_count_h, run_h, stv_h): conservation with one quota per quota seat,
   whole non-negative weights, resting place, election rule, elimination rule, and the stops a
   count can end with.  Rests on the whole weights of STVHare_draws_proofs and the single moves of STVHare_proofs. *)
From Coq Require Import ZArith QArith Qround Qreduction Setoid List Bool Arith Lia Lqa.
From VL Require Import Prelude.PyDict Model.GetNBest Model.Convert Model.STV Model.STVHare
     Proofs.STV_proofs Proofs.STV_elim_proofs Proofs.STV_resting_proofs Proofs.STVHare_draws_proofs Proofs.STVHare_proofs.
Import ListNotations.
Open Scope Q_scope.

Lemma lift_h_next a elim o el a' el' o' :
  match elim with [] => HC_next a el o | _ => lift_h (transfer_h a elim o) el end = HC_next a' el' o' ->
  transfer_h a elim o = HOk a' o' /\ el' = el.
Proof.
  destruct elim as [|e es]; [intros [= <- <- <-]; split; [apply transfer_h_nil|reflexivity]|].
  destruct (transfer_h a (e :: es) o) as [a1 o1|s]; simpl; [intros [= <- <- <-]; auto|discriminate].
Qed.

(* a count that goes on either elected by quota, drew the quotas away and transferred the piles of those who are
   full, or elected nobody and transferred the piles of the eliminated *)
Lemma next_count_h_next cf a n total prev caps o a' el o' :
  next_count_h cf a n total prev caps o = HC_next a' el o' ->
  (exists qv a1 o1, quota_of cf total n = Some qv /\
      elect_by_quota cf (totals a) (Some qv) (n - zsum (map snd prev)) prev caps = inl (Some el) /\
      subtract_h a (map (fun cs : C * Z => (fst cs, inject_Z (snd cs) * qv)) el) o = HOk a1 o1 /\
      transfer_h a1 (flat_map (fun cs : C * Z => match dget caps (fst cs) with
                      | Some m => if (m <=? snd cs + dget_or prev (fst cs) 0)%Z then [fst cs] else []
                      | None => [] end) el) o1 = HOk a' o') \/
  (el = [] /\ elect_by_quota cf (totals a) (quota_of cf total n) (n - zsum (map snd prev)) prev caps = inl None /\
   has_tie_r (retained cf a) = false /\ transfer_h a (eliminated cf a) o = HOk a' o').
Proof.
  unfold next_count_h. fold (quota_of cf total n).
  destruct (negb _ && _ && _); [discriminate|].
  destruct (elect_by_quota cf (totals a) (quota_of cf total n) _ prev caps) as [[el0|]|s] eqn:Ee; [| |discriminate].
  - destruct (quota_of cf total n) as [qv|]; [|discriminate].
    destruct (subtract_h a _ o) as [a1 o1|s] eqn:Es; [|discriminate].
    intros H. apply lift_h_next in H. destruct H as [Ht ->]. left. exists qv, a1, o1. auto.
  - destruct (existsb _ _) eqn:Etie; [discriminate|].
    intros H. apply lift_h_next in H. destruct H as [Ht ->]. right. repeat split; assumption.
Qed.

(* I1, one step: the votes held after a count, plus one quota per seat filled by quota in that count, equal the
   votes held before - whatever ballots the oracle draws *)
Theorem next_count_h_conserves cf a n_seats total prev caps o a' el o' :
  NoDup (akeys a) -> (forall c, (0 <= dget_or prev c 0)%Z) ->
  (forall qv, quota_of cf total n_seats = Some qv -> 0 < qv) ->
  next_count_h cf a n_seats total prev caps o = HC_next a' el o' ->
  NoDup (akeys a') /\ (forall c s, In (c, s) el -> (0 < s)%Z) /\
  match quota_of cf total n_seats with
  | Some qv => asum a' + inject_Z (seats_sum el) * qv == asum a
  | None => asum a' == asum a /\ el = []
  end.
Proof.
  intros Hnd Hprev Hqpos Hn.
  destruct (next_count_h_next _ _ _ _ _ _ _ _ _ _ Hn) as [(qv & a1 & o1 & Eq & Ee & Es & Ht)|(-> & _ & _ & Ht)].
  - rewrite Eq. destruct (elect_by_quota_sound cf qv (Hqpos qv Eq) a _ prev caps el Hnd Hprev Ee) as [Hk Hs].
    assert (Hk' : NoDup (map fst (map (fun cs : C * Z => (fst cs, inject_Z (snd cs) * qv)) el)))
      by (rewrite map_map; exact Hk).
    destruct (subtract_h_conserves _ _ _ _ _ Hnd Hk' Es) as [H1 H2]. rewrite amounts_sum in H1. rewrite <- H2 in Hnd.
    destruct (transfer_h_conserves _ _ _ _ _ Hnd Ht) as [H3 H4].
    split; [exact H4|]. split; [intros c s Hin; apply (Hs c s Hin)|]. rewrite H3, H1. ring.
  - destruct (transfer_h_conserves a _ o a' o' Hnd Ht) as [H3 H4].
    split; [exact H4|]. split; [intros c s []|].
    destruct (quota_of cf total n_seats); [rewrite H3; simpl; ring|split; [exact H3|reflexivity]].
Qed.

(* I2 + whole ballots: the weights stay whole and non-negative *)
Theorem next_count_h_whole cf a n_seats total prev caps o a' el o' :
  alloc_whole a -> next_count_h cf a n_seats total prev caps o = HC_next a' el o' -> alloc_whole a'.
Proof.
  intros Hw Hn. destruct (next_count_h_next _ _ _ _ _ _ _ _ _ _ Hn) as [(qv & a1 & o1 & _ & _ & Es & Ht)|(_ & _ & _ & Ht)].
  - exact (transfer_h_whole _ _ _ _ _ (subtract_h_whole _ _ _ _ _ Hw Es) Ht).
  - exact (transfer_h_whole _ _ _ _ _ Hw Ht).
Qed.

(* I3, the resting place (STV_resting_proofs.resting_ok), one step *)
Theorem next_count_h_resting cf a n_seats total prev caps o a' el o' :
  resting_ok a -> next_count_h cf a n_seats total prev caps o = HC_next a' el o' -> resting_ok a'.
Proof.
  intros Hr Hn. destruct (next_count_h_next _ _ _ _ _ _ _ _ _ _ Hn) as [(qv & a1 & o1 & _ & _ & Es & Ht)|(_ & _ & _ & Ht)].
  - exact (transfer_h_resting _ _ _ _ _ (subtract_h_resting _ _ _ _ _ Hr Es) Ht).
  - exact (transfer_h_resting _ _ _ _ _ Hr Ht).
Qed.

(* election rule: whoever is elected in a count holds at least one quota per seat received (before the draw) *)
Theorem next_count_h_election cf a n_seats total prev caps o a' el o' :
  NoDup (akeys a) -> (forall c, (0 <= dget_or prev c 0)%Z) ->
  (forall qv, quota_of cf total n_seats = Some qv -> 0 < qv) ->
  next_count_h cf a n_seats total prev caps o = HC_next a' el o' ->
  NoDup (map fst el) /\
  forall c s, In (c, s) el -> (0 < s)%Z /\
    exists qv p, quota_of cf total n_seats = Some qv /\ alloc_get a (Some c) = Some p /\ inject_Z s * qv <= wsum p.
Proof.
  intros Hnd Hprev Hqpos Hn.
  destruct (next_count_h_next _ _ _ _ _ _ _ _ _ _ Hn) as [(qv & a1 & o1 & Eq & Ee & _)|(-> & _)].
  - destruct (elect_by_quota_sound cf qv (Hqpos qv Eq) a _ prev caps el Hnd Hprev Ee) as [Hk Hs]. split; [exact Hk|].
    intros c s Hin. destruct (Hs c s Hin) as (H1 & p & H2 & H3). split; [exact H1|]. exists qv, p. auto.
  - split; [constructor|intros c s []].
Qed.

(* elimination rule: when the shortcut does not apply and nobody reaches the quota, the count refuses a tie at the
   cut and otherwise transfers away exactly the candidates [eliminated cf a] of Proofs/STV_elim_proofs.v (their
   number, their being the lowest and the exhausted pile not being a contender are proved there for any allocation) *)
Theorem next_count_h_noquota cf a n total prev caps o quota :
  next_count_h cf a n total prev caps o <> HC_all (flat_map (fun kt : option C * Q => match fst kt with
                                         | Some c => [(c, (dget_or caps c 0 - dget_or prev c 0)%Z)]
                                         | None => [] end) (sort_desc Qle_bool (totals a))) ->
  quota = match c_quota cf with
          | Some qf => if Qeq_bool total 0 || (n =? 0)%Z then None else Some (qf total n)
          | None => None end ->
  elect_by_quota cf (totals a) quota (n - zsum (map snd prev))%Z prev caps = inl None ->
  next_count_h cf a n total prev caps o =
    if has_tie_r (retained cf a) then HC_stop (HS_std S_nie)
    else match eliminated cf a with
         | [] => HC_next a [] o
         | _ => lift_h (transfer_h a (eliminated cf a) o) []
         end.
Proof.
  intros Hns -> He. unfold next_count_h in *. cbv zeta in *.
  destruct (negb _ && _ && negb (c_mandatory cf)); [exfalso; apply Hns; reflexivity|].
  rewrite He. reflexivity.
Qed.

Lemma hare_subtract_err p n o s : hare_subtract p n o = HErr s -> pile_whole p -> 0 < n -> n <= wsum p ->
  s = HS_oracle \/ (s = HS_type /\ is_int n = false).
Proof.
  intros H Hp Hn Hle. unfold hare_subtract in H. destruct p as [|bw0 p0] eqn:Ep; [simpl in Hle; lra|]. rewrite <- Ep in *. clear Ep bw0 p0.
  apply pile_whole_forallb in Hp. rewrite Hp in H. cbn [negb] in H. apply pile_whole_forallb in Hp.
  assert (Hr : Qle_bool 0 n && Qle_bool n (inject_Z (pile_total p)) = true).
  { apply andb_true_iff. split; apply Qle_bool_iff; [lra|rewrite <- (pile_total_wsum p Hp); exact Hle]. }
  rewrite Hr in H. cbn [negb] in H. destruct (is_int n) eqn:Ei; cbn [negb] in H; [|injection H as <-; right; auto].
  destruct o as [|ds o0]; [injection H as <-; left; reflexivity|].
  destruct (draws_ok _ _ _); [discriminate|injection H as <-; left; reflexivity].
Qed.

Lemma hare_split_err T w o s : hare_split T w o = HErr s -> is_int w = true -> s = HS_oracle.
Proof.
  unfold hare_split. intros H Hi. rewrite Hi in H. cbn [negb] in H.
  destruct (negb _ && _); [discriminate|]. destruct o as [|ds o0]; [injection H as <-; reflexivity|].
  destruct (draws_ok _ _ _); [discriminate|injection H as <-; reflexivity].
Qed.

Lemma move_h_err a T b w o s : move_h a T b w o = HErr s -> whole_nonneg w = true -> s = HS_oracle.
Proof.
  unfold move_h. destruct T as [|t [|t2 T]]; [discriminate|discriminate|].
  destruct (hare_split _ w o) as [sh o1|s1] eqn:Es; [discriminate|]. intros [= <-] Hw.
  apply (hare_split_err _ _ _ _ Es). unfold whole_nonneg in Hw. apply andb_true_iff in Hw. tauto.
Qed.

Lemma pour_h_err cont c : forall p a o s, pour_h cont c p a o = HErr s -> pile_whole p -> s = HS_oracle.
Proof.
  induction p as [|[b w] p IH]; intros a o s; cbn [pour_h]; [discriminate|]. cbn [fst snd].
  intros H Hp. inversion Hp; subst.
  destruct (move_h a (ranked_next b c cont) b w o) as [a1 o1|s1] eqn:Em.
  - exact (IH _ _ _ H ltac:(assumption)).
  - injection H as <-. eapply move_h_err; eassumption.
Qed.

Lemma transfer_loop_err cont : forall rem a o s, transfer_loop cont rem a o = HErr s -> alloc_whole a -> s = HS_oracle.
Proof.
  induction rem as [|c rem IH]; intros a o s; cbn [transfer_loop]; [discriminate|].
  intros H Ha.
  assert (Hp : pile_whole (match alloc_get a (Some c) with Some p => p | None => [] end)).
  { destruct (alloc_get a (Some c)) eqn:E; [eapply alloc_get_whole; eassumption|constructor]. }
  destruct (pour_h cont c _ a o) as [a1 o1|s1] eqn:Ep.
  - apply (IH _ _ _ H). apply alloc_del_whole. eapply pour_h_whole; eassumption.
  - injection H as <-. eapply pour_h_err; eassumption.
Qed.

Lemma transfer_h_err a elim o s : transfer_h a elim o = HErr s -> alloc_whole a -> s = HS_oracle.
Proof. unfold transfer_h. apply transfer_loop_err. Qed.

Lemma subtract_h_err elected : forall a o s, subtract_h a elected o = HErr s ->
  alloc_whole a -> NoDup (akeys a) -> NoDup (map fst elected) ->
  (forall c amt, In (c, amt) elected -> 0 < amt /\ exists p, alloc_get a (Some c) = Some p /\ amt <= wsum p) ->
  s = HS_oracle \/ (s = HS_type /\ exists c amt, In (c, amt) elected /\ is_int amt = false).
Proof.
  induction elected as [|[c amt] t IH]; intros a o s; cbn [subtract_h]; [discriminate|].
  intros H Ha Hnd Hd Hel. destruct (Hel c amt (or_introl eq_refl)) as (Hpos & p & Hg & Hle). rewrite Hg in H.
  inversion Hd as [|? ? Hc Hd']; subst.
  destruct (hare_subtract p amt o) as [p' o1|s1] eqn:Es.
  - destruct (hare_subtract_spec _ _ _ _ _ Es) as (_ & S2 & _).
    destruct (replace_pile_sum a c p p' Hnd Hg) as [_ Hk]. fold (set_pile a c p') in Hk.
    destruct (IH _ _ _ H) as [R|(R & c0 & amt0 & Hin & Hi)].
    + apply set_pile_whole; assumption.
    + unfold akeys in *. rewrite Hk. exact Hnd.
    + exact Hd'.
    + intros c0 amt0 Hin. destruct (Hel c0 amt0 (or_intror Hin)) as (H1 & p0 & H2 & H3). split; [exact H1|]. exists p0.
      split; [|exact H3]. rewrite set_pile_get_other; [exact H2|]. intros ->. apply Hc. apply in_map_iff. exists (c, amt0). auto.
    + left. exact R.
    + right. split; [exact R|]. exists c0, amt0. split; [right; exact Hin|exact Hi].
  - injection H as <-. destruct (hare_subtract_err _ _ _ _ Es (alloc_get_whole _ _ _ Ha Hg) Hpos Hle) as [R|[R Hi]]; [left; exact R|].
    right. split; [exact R|]. exists c, amt. split; [left; reflexivity|exact Hi].
Qed.

Lemma elect_by_quota_inr cf tot quota n_rem prev caps s : elect_by_quota cf tot quota n_rem prev caps = inr s -> s = S_nie.
Proof.
  unfold elect_by_quota. destruct quota as [q|]; [|discriminate].
  destruct (flat_map _ _) as [|x sel]; [discriminate|]. destruct (_ <? _)%Z; [|discriminate].
  destruct (existsb _ _); [intros [= <-]; reflexivity|discriminate].
Qed.

(* With whole non-negative weights the count never leaves the modelled domain, never draws more ballots than a pile
   holds and never misses a pile: it can only refuse a tie, meet a fractional number of ballots to draw (TypeError:
   seats * quota is not whole) or reject the oracle. *)
Theorem next_count_h_stops cf a n_seats total prev caps o s :
  NoDup (akeys a) -> alloc_whole a -> (forall c, (0 <= dget_or prev c 0)%Z) ->
  (forall qv, quota_of cf total n_seats = Some qv -> 0 < qv) ->
  next_count_h cf a n_seats total prev caps o = HC_stop s ->
  s = HS_std S_nie \/ s = HS_oracle \/
  (s = HS_type /\ exists qv k, quota_of cf total n_seats = Some qv /\ (0 < k)%Z /\ is_int (inject_Z k * qv) = false).
Proof.
  intros Hnd Hw Hprev Hqpos. unfold next_count_h. fold (quota_of cf total n_seats).
  destruct (negb _ && _ && _); [discriminate|].
  assert (Hlift : forall a0 elim o0 el, alloc_whole a0 ->
            match elim with [] => HC_next a0 el o0 | _ => lift_h (transfer_h a0 elim o0) el end = HC_stop s -> s = HS_oracle).
  { intros a0 [|e es] o0 el Ha0; [discriminate|]. destruct (transfer_h a0 (e :: es) o0) as [a1 o1|s1] eqn:Et; simpl; [discriminate|].
    intros [= <-]. exact (transfer_h_err _ _ _ _ Et Ha0). }
  destruct (quota_of cf total n_seats) as [qv|] eqn:Eq.
  - pose proof (Hqpos qv eq_refl) as Hq.
    destruct (elect_by_quota cf (totals a) (Some qv) _ prev caps) as [[el0|]|s0] eqn:Ee.
    + destruct (elect_by_quota_sound cf qv Hq a _ prev caps el0 Hnd Hprev Ee) as [Hk Hs].
      destruct (subtract_h a (map (fun cs : C * Z => (fst cs, inject_Z (snd cs) * qv)) el0) o) as [a1 o1|s1] eqn:Es.
      * intros H. right. left. exact (Hlift _ _ _ _ (subtract_h_whole _ _ _ _ _ Hw Es) H).
      * intros [= <-].
        destruct (subtract_h_err _ a o s1 Es Hw Hnd) as [R|(R & c & amt & Hin & Hi)].
        -- rewrite map_map. exact Hk.
        -- intros c amt Hin. apply in_map_iff in Hin. destruct Hin as ([c0 s0] & [= <- <-] & Hin).
           destruct (Hs c0 s0 Hin) as (H1 & p & H2 & H3). simpl. split; [|exists p; auto].
           apply Qmult_lt_0_compat; [|exact Hq]. rewrite <- (Zlt_Qlt 0). exact H1.
        -- right. left. exact R.
        -- right. right. split; [exact R|]. apply in_map_iff in Hin. destruct Hin as ([c0 s0] & [= <- <-] & Hin).
           destruct (Hs c0 s0 Hin) as (H1 & _). exists qv, s0. auto.
    + destruct (existsb _ _); [intros [= <-]; left; reflexivity|]. intros H. right. left. exact (Hlift _ _ _ _ Hw H).
    + intros [= <-]. left. f_equal. exact (elect_by_quota_inr _ _ _ _ _ _ _ Ee).
  - simpl. destruct (existsb _ _); [intros [= <-]; left; reflexivity|]. intros H. right. left. exact (Hlift _ _ _ _ Hw H).
Qed.

(* the elect-all-remaining shortcut does not look at the transferer *)
Lemma next_count_h_all_eq cf a n total seats caps o el : next_count_h cf a n total seats caps o = HC_all el ->
  next_count cf a n total seats caps = CR_all el.
Proof.
  unfold next_count_h, next_count. cbv zeta.
  match goal with |- context [if ?c then HC_all ?av else _] => destruct c end; [intros [= <-]; reflexivity|].
  intros H. exfalso. revert H.
  repeat (match goal with
          | |- context [match ?x with _ => _ end] => destruct x
          | |- lift_h ?r _ = _ -> _ => destruct r; simpl
          end); discriminate.
Qed.

(* how the count loop ends, for an invariant [I] of its states: with the seats filled, through the shortcut, or
   stopped - for want of fuel, for a count that changed nothing, or by the last count *)
Inductive run_end cf n total caps (I : alloc -> list (C * Z) -> oracle -> Prop) (t : htrace) : Prop :=
| end_filled a seats o : I a seats o -> zsum (map snd seats) = n -> h_stop t = None -> h_seats t = seats ->
    run_end cf n total caps I t
| end_all a seats o el : I a seats o -> next_count_h cf a n total seats caps o = HC_all el ->
    h_stop t = None -> h_seats t = add_seats seats el -> run_end cf n total caps I t
| end_stop a seats o s : I a seats o -> h_stop t = Some s ->
    s = HS_std S_fuel \/ s = HS_std S_vse \/ next_count_h cf a n total seats caps o = HC_stop s ->
    run_end cf n total caps I t.

(* the induction over the fuel, for any invariant I of the loop state (the recorded counts: run_h_recorded below) *)
Lemma run_h_final cf n total caps (I : alloc -> list (C * Z) -> oracle -> Prop) :
  (forall a seats o a' el o', I a seats o -> next_count_h cf a n total seats caps o = HC_next a' el o' ->
     I a' (add_seats seats el) o') ->
  forall fuel a seats o acc a0, I a seats o -> run_end cf n total caps I (run_h cf fuel a n total seats caps o acc a0).
Proof.
  intros Hstep. induction fuel as [|f IH]; intros a seats o acc a0 HI; cbn [run_h].
  - destruct (zsum (map snd seats) =? n)%Z eqn:E.
    + apply end_filled with a seats o; [exact HI|apply Z.eqb_eq, E|reflexivity|reflexivity].
    + apply end_stop with a seats o (HS_std S_fuel); [exact HI|reflexivity|left; reflexivity].
  - destruct (zsum (map snd seats) =? n)%Z eqn:E.
    { apply end_filled with a seats o; [exact HI|apply Z.eqb_eq, E|reflexivity|reflexivity]. }
    destruct (next_count_h cf a n total seats caps o) as [el|a' el o'|s] eqn:En.
    + apply end_all with a seats o el; [exact HI|exact En|reflexivity|reflexivity].
    + pose proof (Hstep _ _ _ _ _ _ HI En) as HI'. destruct el as [|e el']; [|exact (IH _ _ _ _ _ HI')].
      destruct (alloc_eqb a' a); [|exact (IH _ _ _ _ _ HI')].
      apply end_stop with a seats o (HS_std S_vse); [exact HI|reflexivity|right; left; reflexivity].
    + apply end_stop with a seats o s; [exact HI|reflexivity|right; right; exact En].
Qed.

Section RUNH.
  Variable cf : cfg.
  Variable votes : list (ballot * Q).
  Variable n_seats : Z.
  Variable caps : list (C * Z).
  Variable prev0 : list (C * Z).
  Variable orc : oracle.                      (* ANY oracle *)
  Hypothesis Hprev0 : forall c, (0 <= dget_or prev0 c 0)%Z.
  Let total := Qred (fold_left Qplus (map snd votes) 0).
  Hypothesis Hqpos : forall qv, quota_of cf total n_seats = Some qv -> 0 < qv.

  (* the states the count loop passes through: allocation, seats so far, seats filled by quota so far,
     and what is left of the oracle *)
  Inductive reach_h : alloc -> list (C * Z) -> Z -> oracle -> Prop :=
  | reach_h_init a o : initial_allocation_h votes orc = HOk a o -> reach_h a prev0 0 o
  | reach_h_step a seats qs o a' el o' :
      reach_h a seats qs o -> next_count_h cf a n_seats total seats caps o = HC_next a' el o' ->
      reach_h a' (add_seats seats el) (qs + seats_sum el) o'.

  Theorem reach_h_conservation a seats qs o : reach_h a seats qs o ->
    NoDup (akeys a) /\ (forall c, (0 <= dget_or seats c 0)%Z) /\
    match quota_of cf total n_seats with
    | Some qv => asum a + inject_Z qs * qv == cast votes
    | None => asum a == cast votes /\ qs = 0%Z
    end.
  Proof.
    induction 1 as [a o Hi|a seats qs o a' el o' Hr IH Hn].
    - destruct (initial_allocation_h_spec votes orc a o Hi) as (H1 & H2 & _). split; [exact H1|]. split; [exact Hprev0|].
      destruct (quota_of cf total n_seats); [rewrite H2; simpl; ring|split; [exact H2|reflexivity]].
    - destruct IH as (I1 & I2 & I3).
      destruct (next_count_h_conserves cf a n_seats total seats caps o a' el o' I1 I2 Hqpos Hn) as (N1 & N2 & N3).
      split; [exact N1|]. split; [apply add_seats_nonneg; assumption|].
      destruct (quota_of cf total n_seats) as [qv|].
      + rewrite inject_Z_plus. rewrite <- I3, <- N3. ring.
      + destruct N3 as [N3 ->]. destruct I3 as [I3 ->]. split; [rewrite N3; exact I3|reflexivity].
  Qed.

  Theorem reach_h_resting a seats qs o : reach_h a seats qs o -> resting_ok a.
  Proof.
    induction 1 as [a o Hi|a seats qs o a' el o' _ IH Hn].
    - destruct (initial_allocation_h_spec votes orc a o Hi) as (_ & _ & _ & H). exact H.
    - exact (next_count_h_resting cf a n_seats _ seats caps o a' el o' IH Hn).
  Qed.

  Theorem reach_h_whole a seats qs o : votes_whole votes -> reach_h a seats qs o -> alloc_whole a.
  Proof.
    intros Hv. induction 1 as [a o Hi|a seats qs o a' el o' _ IH Hn].
    - destruct (initial_allocation_h_spec votes orc a o Hi) as (_ & _ & H & _). exact (H Hv).
    - exact (next_count_h_whole cf a n_seats _ seats caps o a' el o' IH Hn).
  Qed.

  (* the trace of stv_h: every count it records is a reachable allocation (or the elect-all-remaining shortcut,
     which records no allocation), and it stops only for a tie, the infinite-loop refusal, a fractional number of
     ballots to draw, or an oracle that is not an answer of random.sample *)
  Definition recorded_h_ok (e : alloc * list (C * Z)) : Prop :=
    (exists seats qs o, reach_h (fst e) seats qs o) \/ fst e = [].

  (* excluded: S_runtime, HS_value, HS_key and HS_unmodelled *)
  Definition stop_h_ok (s : option hstop) : Prop :=
    match s with
    | None | Some (HS_std S_nie) | Some (HS_std S_vse) | Some (HS_std S_fuel) | Some HS_oracle | Some HS_type => True
    | _ => False
    end.

  Lemma run_h_recorded fuel : forall a seats qs o acc a0, reach_h a seats qs o ->
    (forall e, In e acc -> recorded_h_ok e) ->
    forall e, In e (h_counts (run_h cf fuel a n_seats total seats caps o acc a0)) -> recorded_h_ok e.
  Proof.
    induction fuel as [|f IH]; intros a seats qs o acc a0 Hr Hacc e; cbn [run_h].
    - destruct (zsum (map snd seats) =? n_seats)%Z; cbn [h_counts]; intros He; apply in_rev in He; exact (Hacc e He).
    - destruct (zsum (map snd seats) =? n_seats)%Z; [cbn [h_counts]; intros He; apply in_rev in He; exact (Hacc e He)|].
      destruct (next_count_h cf a n_seats total seats caps o) as [el|a' el o'|s] eqn:En; cbn [h_counts].
      + intros He. apply in_rev in He. destruct He as [<-|He]; [right; reflexivity|exact (Hacc e He)].
      + assert (Hr' : reach_h a' (add_seats seats el) (qs + seats_sum el) o') by (eapply reach_h_step; eassumption).
        assert (Hacc' : forall e0, In e0 ((a', el) :: acc) -> recorded_h_ok e0).
        { intros e0 [<-|H0]; [|exact (Hacc e0 H0)]. left. exists (add_seats seats el), (qs + seats_sum el)%Z, o'. exact Hr'. }
        destruct el as [|e1 el'].
        * destruct (alloc_eqb a' a); [cbn [h_counts]; intros He; apply in_rev in He; exact (Hacc e He)|].
          apply (IH a' seats (qs + seats_sum [])%Z o'); [exact Hr'|exact Hacc'].
        * apply (IH a' _ _ _ _ _ Hr' Hacc').
      + intros He. apply in_rev in He. exact (Hacc e He).
  Qed.

  Theorem stv_h_recorded e : In e (h_counts (stv_h cf votes n_seats prev0 caps orc)) -> recorded_h_ok e.
  Proof.
    unfold stv_h. fold total. destruct (initial_allocation_h votes orc) as [a o|s] eqn:Ei; [|intros []].
    apply (run_h_recorded _ a prev0 0%Z o); [apply reach_h_init, Ei|intros e0 []].
  Qed.

  Lemma initial_shared_err cands : forall vs a o s, initial_shared cands vs a o = HErr s -> votes_whole vs -> s = HS_oracle.
  Proof.
    induction vs as [|[b w] vs IH]; intros a o s; cbn [initial_shared fst snd]; [discriminate|].
    intros H Hv. assert (Hv' : votes_whole vs) by (intros b0 w0 H0; apply (Hv b0 w0); right; exact H0).
    destruct b as [|[c|l] t]; [exact (IH _ _ _ H Hv')|exact (IH _ _ _ H Hv')|].
    destruct (move_h a (next_after (IS l :: t) cands) (IS l :: t) w o) as [a1 o1|s1] eqn:Em; [exact (IH _ _ _ H Hv')|].
    injection H as <-. apply (move_h_err _ _ _ _ _ _ Em). apply (Hv (IS l :: t) w). left. reflexivity.
  Qed.

  Lemma run_h_stop fuel : forall a seats qs o acc a0, votes_whole votes -> reach_h a seats qs o ->
    stop_h_ok (h_stop (run_h cf fuel a n_seats total seats caps o acc a0)).
  Proof.
    intros a seats qs o acc a0 Hv Hr.
    destruct (run_h_final cf n_seats total caps (fun a seats o => exists qs, reach_h a seats qs o)) with (fuel := fuel)
      (a := a) (seats := seats) (o := o) (acc := acc) (a0 := a0)
      as [a1 seats1 o1 _ _ -> _|a1 seats1 o1 el _ _ -> _|a1 seats1 o1 s [qs1 Hr1] -> Hs]; try exact I.
    { intros a2 s2 o2 a' el o' [qs2 H2] Hn. exists (qs2 + seats_sum el)%Z. exact (reach_h_step _ _ _ _ _ _ _ H2 Hn). }
    { exists qs. exact Hr. }
    destruct Hs as [->|[->|Hs]]; [exact I|exact I|].
    destruct (reach_h_conservation a1 seats1 qs1 o1 Hr1) as (C1 & C2 & _).
    destruct (next_count_h_stops cf a1 n_seats total seats1 caps o1 s C1 (reach_h_whole a1 seats1 qs1 o1 Hv Hr1) C2 Hqpos Hs)
      as [->|[->|[-> _]]]; exact I.
  Qed.

  Theorem stv_h_stop : votes_whole votes -> stop_h_ok (h_stop (stv_h cf votes n_seats prev0 caps orc)).
  Proof.
    intros Hv. unfold stv_h. fold total. destruct (initial_allocation_h votes orc) as [a o|s] eqn:Ei.
    - apply (run_h_stop _ a prev0 0%Z o); [exact Hv|apply reach_h_init, Ei].
    - cbn [h_stop]. unfold initial_allocation_h in Ei. rewrite (initial_shared_err _ _ _ _ _ Ei Hv). exact I.
  Qed.
End RUNH.

Theorem run_h_complete cf fuel : forall a n total seats caps o acc a0,
  h_stop (run_h cf fuel a n total seats caps o acc a0) = None ->
  zsum (map snd (h_seats (run_h cf fuel a n total seats caps o acc a0))) = n.
Proof.
  intros a n total seats caps o acc a0 H.
  destruct (run_h_final cf n total caps (fun _ _ _ => True) (fun _ _ _ _ _ _ _ _ => I) fuel a seats o acc a0 I)
    as [a1 seats1 o1 _ Hz _ ->|a1 seats1 o1 el _ Hall _ ->|a1 seats1 o1 s _ Hs _]; [exact Hz| |congruence].
  rewrite add_seats_sum, (next_count_all _ _ _ _ _ _ _ (next_count_h_all_eq _ _ _ _ _ _ _ _ Hall)). lia.
Qed.

Theorem stv_h_complete cf votes n prev caps orc : h_stop (stv_h cf votes n prev caps orc) = None ->
  zsum (map snd (h_seats (stv_h cf votes n prev caps orc))) = n.
Proof.
  unfold stv_h. destruct (initial_allocation_h votes orc) as [a o|s]; [apply run_h_complete|discriminate].
Qed.
