(* Tie.break_by_list (core.py L80-101; Model/Threshold.v break_by_list): the defining clause for
   every input.  The k-th occurrence of a tie receives the k-th member of that tie in the order
   of the breaker list; plain entries are copied; the length is preserved.  Exact behaviour
   outside well-shaped selections: a tie of m >= 2 members listed more than m times starts over
   (its (m+1)-th occurrence receives the first member again), a one-member tie listed twice is an
   IndexError. *)
From Coq Require Import ZArith List Bool Arith Lia Permutation Sorted.
From VL Require Import Prelude.PyDict Model.GetNBest Model.QuotaDistributor Model.Threshold
     Proofs.Dict_proofs Proofs.GetNBest_proofs Proofs.Threshold_proofs.
Import ListNotations.

Definition seq (a b : list C) : Prop := forall c, In c a <-> In c b.

Lemma same_set_spec a b : same_set a b = true <-> seq a b.
Proof.
  unfold same_set, seq. rewrite andb_true_iff, !forallb_forall. split.
  - intros [H1 H2] c. split; intro H; [apply cmem_In, H1, H|apply cmem_In, H2, H].
  - intros H. split; intros c Hc; apply cmem_In, H, Hc.
Qed.
Lemma seq_refl a : seq a a. Proof. intro c; tauto. Qed.
Lemma seq_sym a b : seq a b -> seq b a. Proof. intros H c; split; apply H. Qed.
Lemma seq_trans a b c : seq a b -> seq b c -> seq a c.
Proof. intros H1 H2 x. rewrite (H1 x). apply H2. Qed.
Lemma same_set_refl a : same_set a a = true.
Proof. apply same_set_spec, seq_refl. Qed.
Lemma same_set_sym a b : same_set a b = same_set b a.
Proof. unfold same_set. apply andb_comm. Qed.
Lemma bool_iff_eq (a b : bool) : (a = true <-> b = true) -> a = b.
Proof.
  destruct a, b; intros [H1 H2]; try reflexivity.
  - symmetry. apply H1. reflexivity.
  - apply H2. reflexivity.
Qed.
Lemma same_set_cong_r k t t' : seq t t' -> same_set k t = same_set k t'.
Proof.
  intros H. apply bool_iff_eq. rewrite !same_set_spec. split; intros H1.
  - eapply seq_trans; eassumption.
  - eapply seq_trans; [eassumption|apply seq_sym, H].
Qed.
Lemma same_set_cong_l k t t' : seq t t' -> same_set t k = same_set t' k.
Proof. intros H. rewrite (same_set_sym t k), (same_set_sym t' k). apply same_set_cong_r, H. Qed.

Lemma tie_lookup_cong ties t t' : seq t t' -> tie_lookup ties t = tie_lookup ties t'.
Proof.
  intros H. induction ties as [|[k v] r IH]; simpl; [reflexivity|].
  rewrite (same_set_cong_r k t t' H), IH. reflexivity.
Qed.

Lemma lookup_update_some ties t v t' :
  tie_lookup (tie_update ties t (Some v)) t' = if same_set t t' then Some v else tie_lookup ties t'.
Proof.
  induction ties as [|[k v0] r IH]; simpl; [reflexivity|].
  destruct (same_set k t) eqn:E; simpl.
  - apply same_set_spec in E. rewrite <- (same_set_cong_l t' k t E).
    destruct (same_set k t'); reflexivity.
  - rewrite IH. destruct (same_set t t') eqn:E1; [|reflexivity].
    apply same_set_spec in E1. rewrite <- (same_set_cong_r k t t' E1), E. reflexivity.
Qed.

Fixpoint keys_ok (ties : list (list C * list C)) : Prop :=
  match ties with
  | [] => True
  | (k, _) :: r => tie_lookup r k = None /\ keys_ok r
  end.

Lemma lookup_update_none ties t t' : keys_ok ties ->
  tie_lookup (tie_update ties t None) t' = if same_set t t' then None else tie_lookup ties t'.
Proof.
  induction ties as [|[k v0] r IH]; simpl; intros Hk.
  - destruct (same_set t t'); reflexivity.
  - destruct Hk as [Hk Hr]. destruct (same_set k t) eqn:E; simpl.
    + apply same_set_spec in E. rewrite <- (same_set_cong_l t' k t E).
      destruct (same_set k t') eqn:E1; [|reflexivity].
      apply same_set_spec in E1. rewrite <- (tie_lookup_cong r k t' E1). exact Hk.
    + rewrite (IH Hr). destruct (same_set t t') eqn:E1; [|reflexivity].
      apply same_set_spec in E1. rewrite <- (same_set_cong_r k t t' E1), E. reflexivity.
Qed.

Lemma keys_ok_update ties t v : keys_ok ties -> keys_ok (tie_update ties t v).
Proof.
  induction ties as [|[k v0] r IH]; simpl; intros Hk.
  - destruct v; simpl; auto.
  - destruct Hk as [Hk Hr]. destruct (same_set k t) eqn:E.
    + destruct v; simpl; auto.
    + simpl. split; [|apply IH, Hr].
      destruct v as [v|].
      * rewrite lookup_update_some, (same_set_sym t k), E. exact Hk.
      * rewrite (lookup_update_none _ _ _ Hr), (same_set_sym t k), E. exact Hk.
Qed.

Definition idx_le (lst : list C) (a b : C) : Prop := (index_of a lst <= index_of b lst)%nat.

Lemma index_of_inj lst a b : In a lst -> index_of a lst = index_of b lst -> a = b.
Proof.
  induction lst as [|x l IH]; simpl; [tauto|]. intros Ha.
  destruct (ceqb a x) eqn:Ea, (ceqb b x) eqn:Eb; try discriminate.
  - intros _. apply ceqb_eq in Ea, Eb. congruence.
  - intros H. apply IH; [|congruence]. destruct Ha as [Ha|Ha]; [|exact Ha].
    subst. unfold ceqb in Ea. rewrite Pos.eqb_refl in Ea. discriminate.
Qed.

Lemma sort_by_list_perm lst t : Permutation (sort_by_list lst t) t.
Proof.
  unfold sort_by_list.
  rewrite (Permutation_map fst (sort_asc_nat_perm (map (fun c => (c, index_of c lst)) t))).
  rewrite map_map. simpl. rewrite map_id. reflexivity.
Qed.
Lemma sort_by_list_length lst t : length (sort_by_list lst t) = length t.
Proof. apply Permutation_length, sort_by_list_perm. Qed.

Lemma sort_by_list_sorted lst t : StronglySorted (idx_le lst) (sort_by_list lst t).
Proof.
  unfold sort_by_list.
  set (l := map (fun c => (c, index_of c lst)) t).
  assert (Hs : StronglySorted (fun a b : C * nat => Nat.leb (snd a) (snd b) = true) (sort_asc Nat.leb l)).
  { apply (@sort_asc_sorted C nat Nat.leb).
    - intros a b. rewrite !Nat.leb_le. lia.
    - intros a b c. rewrite !Nat.leb_le. lia. }
  assert (Hf : Forall (fun p : C * nat => snd p = index_of (fst p) lst) (sort_asc Nat.leb l)).
  { apply Forall_forall. intros p Hp.
    apply (Permutation_in _ (sort_asc_nat_perm l)) in Hp. unfold l in Hp.
    apply in_map_iff in Hp. destruct Hp as (c & <- & _). reflexivity. }
  induction Hs as [|p s Hs IH Hall]; simpl; [constructor|].
  inversion Hf as [|? ? Hp Hf']; subst. constructor; [apply IH, Hf'|].
  apply Forall_forall. intros c Hc. apply in_map_iff in Hc. destruct Hc as (q & <- & Hq).
  unfold idx_le. rewrite Forall_forall in Hall, Hf'.
  specialize (Hall q Hq). apply Nat.leb_le in Hall. rewrite <- Hp, <- (Hf' q Hq). exact Hall.
Qed.

Lemma sorted_perm_unique (key : C -> nat) l1 : forall l2,
  (forall a b, In a l1 -> In b l1 -> key a = key b -> a = b) ->
  StronglySorted (fun a b => (key a <= key b)%nat) l1 ->
  StronglySorted (fun a b => (key a <= key b)%nat) l2 ->
  Permutation l1 l2 -> l1 = l2.
Proof.
  induction l1 as [|x l1 IH]; intros l2 Hinj H1 H2 Hp.
  - apply Permutation_nil in Hp. congruence.
  - destruct l2 as [|y l2]; [apply Permutation_sym, Permutation_nil in Hp; discriminate|].
    inversion H1 as [|? ? H1' A1]; subst. inversion H2 as [|? ? H2' A2]; subst.
    assert (Hxy : x = y).
    { assert (Hy : In y (x :: l1)) by (eapply Permutation_in; [apply Permutation_sym, Hp|left; reflexivity]).
      assert (Hx : In x (y :: l2)) by (eapply Permutation_in; [apply Hp|left; reflexivity]).
      apply Hinj; [left; reflexivity|exact Hy|].
      rewrite Forall_forall in A1, A2.
      assert (key x <= key y)%nat by (destruct Hy as [->|Hy]; [lia|apply A1, Hy]).
      assert (key y <= key x)%nat by (destruct Hx as [->|Hx]; [lia|apply A2, Hx]).
      lia. }
    subst y. f_equal. apply IH; auto.
    + intros a b Ha Hb. apply Hinj; right; assumption.
    + eapply Permutation_cons_inv, Hp.
Qed.

Definition wf_tie (lst t : list C) : Prop := t <> [] /\ NoDup t /\ incl t lst.

(* any arrangement of the members of t by position in lst is the sorted one *)
Lemma sort_by_list_unique lst t l : incl t lst -> StronglySorted (idx_le lst) l -> Permutation t l ->
  sort_by_list lst t = l.
Proof.
  intros Hi Hs Hp. apply (sorted_perm_unique (fun c => index_of c lst)).
  - intros a b Ha _. apply index_of_inj, Hi.
    eapply Permutation_in; [apply sort_by_list_perm|exact Ha].
  - apply sort_by_list_sorted.
  - exact Hs.
  - rewrite sort_by_list_perm. exact Hp.
Qed.

(* the result does not depend on how the (frozen)set is enumerated *)
Lemma sort_by_list_indep lst t t' : wf_tie lst t -> wf_tie lst t' -> seq t t' ->
  sort_by_list lst t = sort_by_list lst t'.
Proof.
  intros (_ & Hn & Hi) (_ & Hn' & _) Hs. apply sort_by_list_unique; [exact Hi|apply sort_by_list_sorted|].
  rewrite sort_by_list_perm. apply NoDup_Permutation; assumption.
Qed.

Lemma wf_seq_length lst t t' : wf_tie lst t -> wf_tie lst t' -> seq t t' -> length t = length t'.
Proof. intros (_ & Hn & _) (_ & Hn' & _) Hs. apply Permutation_length, NoDup_Permutation; assumption. Qed.

Lemma StronglySorted_impl_in {X} (R R' : X -> X -> Prop) l :
  (forall a b, In a l -> In b l -> R a b -> R' a b) -> StronglySorted R l -> StronglySorted R' l.
Proof.
  induction l as [|x l IH]; intros H Hs; [constructor|].
  inversion Hs as [|? ? Hs' Hall]; subst. constructor.
  - apply IH; [|exact Hs']. intros a b Ha Hb. apply H; right; assumption.
  - rewrite Forall_forall in *. intros y Hy. apply H; [left; reflexivity|right; exact Hy|apply Hall, Hy].
Qed.
Lemma StronglySorted_filter {X} (R : X -> X -> Prop) f l : StronglySorted R l -> StronglySorted R (filter f l).
Proof.
  induction 1 as [|x l Hs IH Hall]; simpl; [constructor|].
  destruct (f x); [|exact IH]. constructor; [exact IH|].
  rewrite Forall_forall in *. intros y Hy. apply filter_In in Hy. apply Hall, Hy.
Qed.
Lemma nodup_sorted_by_index lst : NoDup lst -> StronglySorted (idx_le lst) lst.
Proof.
  induction 1 as [|x l Hx Hn IH]; [constructor|]. constructor.
  - eapply StronglySorted_impl_in; [|exact IH]. unfold idx_le. intros a b Ha Hb Hab. simpl.
    destruct (ceqb a x) eqn:Ea; [apply ceqb_eq in Ea; subst; contradiction|].
    destruct (ceqb b x) eqn:Eb; [apply ceqb_eq in Eb; subst; contradiction|]. lia.
  - apply Forall_forall. intros y _. unfold idx_le. simpl. unfold ceqb at 1. rewrite Pos.eqb_refl. lia.
Qed.

(* closed form: the members of the tie in the order of the breaker list *)
Theorem sort_by_list_closed lst t : NoDup lst -> NoDup t -> incl t lst ->
  sort_by_list lst t = filter (fun c => cmem c t) lst.
Proof.
  intros Hl Hn Hi. apply sort_by_list_unique; [exact Hi|apply (StronglySorted_filter (idx_le lst)), nodup_sorted_by_index, Hl|].
  apply NoDup_Permutation; [exact Hn|apply NoDup_filter, Hl|].
  intros c. rewrite filter_In, cmem_In. split; [intros H; split; [apply Hi, H|exact H]|tauto].
Qed.

Definition tcount (seen : list (list C)) (t : list C) : nat :=
  length (filter (fun s => same_set s t) seen).

Lemma tcount_cong seen t t' : seq t t' -> tcount seen t = tcount seen t'.
Proof.
  intros H. unfold tcount. f_equal. apply filter_ext. intros s. apply same_set_cong_r, H.
Qed.
Lemma tcount_cons s seen t : tcount (s :: seen) t = ((if same_set s t then 1 else 0) + tcount seen t)%nat.
Proof. unfold tcount. simpl. destruct (same_set s t); reflexivity. Qed.
Lemma tcount_app a b t : tcount (a ++ b) t = (tcount a t + tcount b t)%nat.
Proof. unfold tcount. rewrite filter_app, app_length. reflexivity. Qed.

(* [seen]: the ties met so far.  None = IndexError (a one-member tie met again) *)
Fixpoint bbl_spec (seen : list (list C)) (el : list (res C)) (lst : list C) : option (list C) :=
  match el with
  | [] => Some []
  | Cand c :: r => option_map (cons c) (bbl_spec seen r lst)
  | TieR t :: r =>
      if (length t =? 1)%nat && negb (tcount seen t =? 0)%nat then None
      else option_map (cons (nth (tcount seen t mod length t) (sort_by_list lst t) 1%positive))
                      (bbl_spec (t :: seen) r lst)
  end.

Definition wf_sel (lst : list C) (el : list (res C)) : Prop := forall t, In (TieR t) el -> wf_tie lst t.

Definition expected (lst : list C) (seen : list (list C)) (t : list C) : option (list C) :=
  let n := tcount seen t in
  if (length t =? 1)%nat then (if (n =? 0)%nat then None else Some [])
  else let k := (n mod length t)%nat in
       if (k =? 0)%nat then None else Some (skipn k (sort_by_list lst t)).

Definition inv (lst : list C) (ties : list (list C * list C)) (seen : list (list C)) : Prop :=
  forall t, wf_tie lst t -> tie_lookup ties t = expected lst seen t.

Lemma skipn_nth_cons {X} (d : X) k (l : list X) : (k < length l)%nat ->
  skipn k l = nth k l d :: skipn (S k) l.
Proof.
  revert l. induction k as [|k IH]; intros [|x l] H; simpl in *; try lia; [reflexivity|].
  apply IH. lia.
Qed.

Lemma expected_other lst seen t t' : same_set t t' = false ->
  expected lst (t :: seen) t' = expected lst seen t'.
Proof. intros E. unfold expected. rewrite tcount_cons, E. reflexivity. Qed.

Lemma bl_result_app acc x (o : option (list C)) :
  match o with Some r => BL_ok ((acc ++ [x]) ++ r) | None => BL_index end =
  match option_map (cons x) o with Some r => BL_ok (acc ++ r) | None => BL_index end.
Proof. destruct o; simpl; [rewrite <- app_assoc; reflexivity|reflexivity]. Qed.

Lemma wf_tie_pos lst t : wf_tie lst t -> (length t <> 0)%nat.
Proof. intros (Hne & _). destruct t; [congruence|simpl; lia]. Qed.

Lemma expected_cong lst seen t t' : wf_tie lst t -> wf_tie lst t' -> seq t t' ->
  expected lst seen t = expected lst seen t'.
Proof.
  intros Hw Hw' Hs. unfold expected.
  rewrite (tcount_cong seen t t' Hs), (wf_seq_length lst t t' Hw Hw' Hs), (sort_by_list_indep lst t t' Hw Hw' Hs).
  reflexivity.
Qed.

Lemma succ_mod n m : m <> 0%nat -> (S n mod m = if S (n mod m) =? m then 0 else S (n mod m))%nat.
Proof.
  intros Hm. pose proof (Nat.mod_upper_bound n m Hm) as Hk.
  transitivity ((S (n mod m) + n / m * m) mod m)%nat; [f_equal; pose proof (Nat.div_mod n m Hm); lia|].
  rewrite Nat.mod_add by exact Hm.
  destruct (S (n mod m) =? m)%nat eqn:E.
  - apply Nat.eqb_eq in E. rewrite E. apply Nat.mod_same, Hm.
  - apply Nat.eqb_neq in E. apply Nat.mod_small. lia.
Qed.

(* one more occurrence of t: what the dictionary holds for t decides between the IndexError and handing out member
   n mod m in breaker order, and what is stored afterwards is what is expected with t counted once more *)
Lemma expected_step lst seen t : wf_tie lst t ->
  let n := tcount seen t in
  match expected lst seen t with
  | Some [] => (length t =? 1)%nat && negb (n =? 0)%nat = true
  | Some (y :: rest) =>
      (length t =? 1)%nat && negb (n =? 0)%nat = false /\
      y = nth (n mod length t) (sort_by_list lst t) 1%positive /\
      match rest with [] => None | _ => Some rest end = expected lst (t :: seen) t
  | None =>
      (length t =? 1)%nat && negb (n =? 0)%nat = false /\
      exists rest, sort_by_list lst t = nth (n mod length t) (sort_by_list lst t) 1%positive :: rest /\
                   Some rest = expected lst (t :: seen) t
  end.
Proof.
  intros Hw n. pose proof (wf_tie_pos lst t Hw) as Hm. pose proof (sort_by_list_length lst t) as HlS.
  unfold expected. rewrite tcount_cons, same_set_refl. fold n. change (1 + n)%nat with (S n).
  set (S0 := sort_by_list lst t) in *.
  destruct (length t =? 1)%nat eqn:E1.
  - apply Nat.eqb_eq in E1. rewrite E1 in *. destruct (n =? 0)%nat; [|reflexivity].
    split; [reflexivity|]. destruct S0 as [|s [|? ?]]; try discriminate HlS.
    exists []. rewrite Nat.mod_1_r. split; reflexivity.
  - apply Nat.eqb_neq in E1. rewrite (succ_mod n _ Hm).
    pose proof (Nat.mod_upper_bound n _ Hm) as Hk. set (k := (n mod length t)%nat) in *.
    destruct (k =? 0)%nat eqn:E0.
    + apply Nat.eqb_eq in E0. rewrite E0. split; [reflexivity|].
      destruct S0 as [|s rest]; [simpl in HlS; lia|]. exists rest.
      assert ((1 =? length t)%nat = false) as -> by (apply Nat.eqb_neq; lia). split; reflexivity.
    + rewrite (@skipn_nth_cons C 1%positive k S0) by lia. split; [reflexivity|]. split; [reflexivity|].
      destruct (S k =? length t)%nat eqn:E.
      * apply Nat.eqb_eq in E. rewrite skipn_all2 by lia. reflexivity.
      * apply Nat.eqb_neq in E. cbn [Nat.eqb]. destruct (skipn (S k) S0) eqn:ER; [|reflexivity].
        pose proof (skipn_length (S k) S0) as L. rewrite ER in L. simpl in L. lia.
Qed.

Theorem break_by_list_sim lst : forall el seen ties acc,
  wf_sel lst el -> inv lst ties seen -> keys_ok ties ->
  break_by_list el lst ties acc =
    match bbl_spec seen el lst with Some r => BL_ok (acc ++ r) | None => BL_index end.
Proof.
  induction el as [|[c|t] r IH]; intros seen ties acc Hwf Hinv Hk.
  - simpl. rewrite app_nil_r. reflexivity.
  - cbn [break_by_list bbl_spec]. rewrite (IH seen); auto.
    + apply bl_result_app.
    + intros t Ht. apply Hwf. right. exact Ht.
  - assert (Hwt : wf_tie lst t) by (apply Hwf; left; reflexivity).
    assert (Hwr : wf_sel lst r) by (intros t' Ht'; apply Hwf; right; exact Ht').
    assert (Hnext : forall v, v = expected lst (t :: seen) t -> inv lst (tie_update ties t v) (t :: seen)).
    { intros v -> t' Hw'.
      assert (Hlk : tie_lookup (tie_update ties t (expected lst (t :: seen) t)) t' =
                    if same_set t t' then expected lst (t :: seen) t else tie_lookup ties t').
      { destruct (expected lst (t :: seen) t); [apply lookup_update_some|apply lookup_update_none, Hk]. }
      rewrite Hlk. destruct (same_set t t') eqn:E.
      - apply expected_cong; [exact Hwt|exact Hw'|apply same_set_spec, E].
      - rewrite (expected_other _ _ _ _ E). apply Hinv, Hw'. }
    cbn [break_by_list bbl_spec]. rewrite (Hinv t Hwt).
    pose proof (expected_step lst seen t Hwt) as Hs. cbv zeta in Hs.
    destruct (expected lst seen t) as [[|y rest]|].
    + rewrite Hs. reflexivity.
    + destruct Hs as (Hb & -> & Hv). rewrite Hb.
      rewrite (IH (t :: seen) _ _ Hwr (Hnext _ Hv) (keys_ok_update _ _ _ Hk)). apply bl_result_app.
    + destruct Hs as (Hb & rest & ES & Hv). rewrite Hb. rewrite ES at 1.
      rewrite (IH (t :: seen) _ _ Hwr (Hnext _ Hv) (keys_ok_update _ _ _ Hk)). apply bl_result_app.
Qed.

(* the whole function, every well-formed input (each tie non-empty, duplicate-free, inside the
   breaker list): success and IndexError alike *)
Theorem break_by_list_exact lst el : wf_sel lst el ->
  break_by_list el lst [] [] =
    match bbl_spec [] el lst with Some r => BL_ok r | None => BL_index end.
Proof.
  intros H. rewrite (break_by_list_sim lst el [] [] [] H).
  - reflexivity.
  - intros t Hw. simpl. unfold expected. simpl.
    destruct (length t =? 1)%nat; [reflexivity|]. rewrite Nat.mod_0_l; [reflexivity|].
    destruct Hw as (Hne & _). destruct t; [congruence|simpl; lia].
  - exact I.
Qed.

Definition replaces (e : res C) (x : C) : Prop :=
  match e with Cand c => x = c | TieR t => In x t end.

Lemma wf_sel_tail lst e el : wf_sel lst (e :: el) -> wf_sel lst el.
Proof. intros H t Ht. apply H. right. exact Ht. Qed.

Lemma nth_sorted_in lst t k : wf_tie lst t -> (k < length t)%nat ->
  In (nth k (sort_by_list lst t) 1%positive) t.
Proof.
  intros Hw Hk. eapply Permutation_in; [apply sort_by_list_perm|].
  apply nth_In. rewrite sort_by_list_length. exact Hk.
Qed.

(* members picked from two ties differ when the ties are disjoint, or the same and the places differ *)
Lemma sorted_nth_distinct lst t t' k j : wf_tie lst t -> wf_tie lst t' ->
  seq t t' \/ (forall c, In c t -> ~ In c t') -> (k < length t)%nat -> (j < length t')%nat -> (seq t t' -> k <> j) ->
  nth k (sort_by_list lst t) 1%positive <> nth j (sort_by_list lst t') 1%positive.
Proof.
  intros Hw Hw' [Hq|Hd] Hk Hj Hkj Hx.
  - rewrite <- (sort_by_list_indep lst t t' Hw Hw' Hq) in Hx. rewrite <- (wf_seq_length lst t t' Hw Hw' Hq) in Hj.
    assert (Hnds : NoDup (sort_by_list lst t)).
    { eapply Permutation_NoDup; [apply Permutation_sym, sort_by_list_perm|apply Hw]. }
    rewrite NoDup_nth in Hnds. rewrite <- (sort_by_list_length lst t) in Hk, Hj. exact (Hkj Hq (Hnds k j Hk Hj Hx)).
  - apply (Hd (nth k (sort_by_list lst t) 1%positive)); [apply nth_sorted_in; assumption|].
    rewrite Hx. apply nth_sorted_in; assumption.
Qed.

(* same length; a plain entry is copied; a tie is replaced by one of its members *)
Lemma bbl_spec_shape lst : forall el seen r, wf_sel lst el -> bbl_spec seen el lst = Some r ->
  Forall2 replaces el r.
Proof.
  induction el as [|[c|t] el IH]; intros seen r Hwf; simpl.
  - intros [= <-]. constructor.
  - destruct (bbl_spec seen el lst) as [r'|] eqn:E; simpl; [|discriminate]. intros [= <-].
    constructor; [reflexivity|]. eapply IH; [|exact E]. eapply wf_sel_tail, Hwf.
  - destruct ((length t =? 1)%nat && negb (tcount seen t =? 0)%nat); [discriminate|].
    destruct (bbl_spec (t :: seen) el lst) as [r'|] eqn:E; simpl; [|discriminate]. intros [= <-].
    assert (Hw : wf_tie lst t) by (apply Hwf; left; reflexivity).
    constructor.
    + simpl. apply (nth_sorted_in lst t _ Hw). apply Nat.mod_upper_bound, (wf_tie_pos lst t Hw).
    + eapply IH; [|exact E]. eapply wf_sel_tail, Hwf.
Qed.

Fixpoint ties_of (el : list (res C)) : list (list C) :=
  match el with
  | [] => []
  | Cand _ :: r => ties_of r
  | TieR t :: r => t :: ties_of r
  end.
Fixpoint cands_of (el : list (res C)) : list C :=
  match el with
  | [] => []
  | Cand c :: r => c :: cands_of r
  | TieR _ :: r => cands_of r
  end.
Lemma ties_of_In t el : In t (ties_of el) <-> In (TieR t) el.
Proof.
  induction el as [|[c|t0] el IH]; simpl; [tauto| |].
  - rewrite IH. split; [auto|intros [H|H]; [discriminate|exact H]].
  - rewrite IH. split; intros [H|H]; auto; [left; congruence|left; congruence].
Qed.
Lemma cands_of_In c el : In c (cands_of el) <-> In (Cand c) el.
Proof.
  induction el as [|[c0|t0] el IH]; simpl; [tauto| |].
  - rewrite IH. split; intros [H|H]; auto; [left; congruence|left; congruence].
  - rewrite IH. split; [auto|intros [H|H]; [discriminate|exact H]].
Qed.

(* position by position: entry i of the result, from entry i of the input and the number of
   earlier occurrences of the same tie *)
Lemma bbl_spec_nth lst : forall el seen r i, bbl_spec seen el lst = Some r ->
  (forall c, nth_error el i = Some (Cand c) -> nth_error r i = Some c) /\
  (forall t, nth_error el i = Some (TieR t) ->
     nth_error r i =
       Some (nth ((tcount seen t + tcount (ties_of (firstn i el)) t) mod length t)
                 (sort_by_list lst t) 1%positive)).
Proof.
  induction el as [|[c0|t0] el IH]; intros seen r i; simpl.
  - intros _. destruct i; split; intros ? [=].
  - destruct (bbl_spec seen el lst) as [r'|] eqn:E; simpl; [|discriminate]. intros [= <-].
    destruct i as [|i]; simpl.
    + split; [intros c [= ->]; reflexivity|intros t [=]].
    + apply (IH seen r' i E).
  - destruct ((length t0 =? 1)%nat && negb (tcount seen t0 =? 0)%nat); [discriminate|].
    destruct (bbl_spec (t0 :: seen) el lst) as [r'|] eqn:E; simpl; [|discriminate]. intros [= <-].
    destruct i as [|i]; simpl.
    + split; [intros c [=]|]. intros t [= ->]. unfold tcount at 2. simpl. rewrite Nat.add_0_r. reflexivity.
    + destruct (IH (t0 :: seen) r' i E) as [H1 H2]. split; [exact H1|].
      intros t Ht. rewrite (H2 t Ht). do 2 f_equal. rewrite !tcount_cons. f_equal. lia.
Qed.

(* it fails only when a one-member tie is met twice ... *)
Lemma bbl_spec_none_inv lst : forall el seen, bbl_spec seen el lst = None ->
  exists t, In (TieR t) el /\ length t = 1%nat /\ (2 <= tcount seen t + tcount (ties_of el) t)%nat.
Proof.
  induction el as [|[c|t] el IH]; intros seen; simpl; [discriminate| |].
  - destruct (bbl_spec seen el lst) eqn:E; [discriminate|]. intros _.
    destruct (IH seen E) as (t & Ht & Hl). exists t. split; [right; exact Ht|exact Hl].
  - destruct (length t =? 1)%nat eqn:E1; simpl.
    + apply Nat.eqb_eq in E1. destruct (tcount seen t) eqn:E0; simpl.
      * destruct (bbl_spec (t :: seen) el lst) eqn:E; [discriminate|]. intros _.
        destruct (IH _ E) as (t' & Ht' & Hl' & Hc). exists t'. rewrite !tcount_cons in *. split; [right; exact Ht'|]. split; [exact Hl'|lia].
      * intros _. exists t. rewrite tcount_cons, same_set_refl, E0. split; [left; reflexivity|]. split; [exact E1|lia].
    + destruct (bbl_spec (t :: seen) el lst) eqn:E; [discriminate|]. intros _.
      destruct (IH _ E) as (t' & Ht' & Hl' & Hc). exists t'. rewrite !tcount_cons in *. split; [right; exact Ht'|]. split; [exact Hl'|lia].
Qed.

Lemma bbl_spec_some lst : forall el seen,
  (forall t, In (TieR t) el -> length t = 1%nat -> (tcount seen t + tcount (ties_of el) t <= 1)%nat) ->
  exists r, bbl_spec seen el lst = Some r.
Proof.
  intros el seen H. destruct (bbl_spec seen el lst) as [r|] eqn:E; [exists r; reflexivity|].
  destruct (bbl_spec_none_inv lst el seen E) as (t & Ht & Hl & Hc). specialize (H t Ht Hl). lia.
Qed.

Lemma tcount_pos_ex seen t : (1 <= tcount seen t)%nat -> exists s, In s seen /\ seq s t.
Proof.
  unfold tcount. induction seen as [|s seen IH]; simpl; [lia|].
  destruct (same_set s t) eqn:E.
  - intros _. exists s. split; [left; reflexivity|apply same_set_spec, E].
  - intros H. destruct (IH H) as (s' & Hs' & Hq). exists s'. split; [right; exact Hs'|exact Hq].
Qed.

(* ... and then it does *)
Lemma bbl_spec_none lst : forall el seen, wf_sel lst el ->
  (exists t, In (TieR t) el /\ length t = 1%nat /\ (2 <= tcount seen t + tcount (ties_of el) t)%nat) ->
  bbl_spec seen el lst = None.
Proof.
  induction el as [|[c|t0] el IH]; intros seen Hwf (t & Hin & Hl & Hc); simpl.
  - destruct Hin.
  - rewrite (IH seen); [reflexivity|eapply wf_sel_tail, Hwf|].
    exists t. destruct Hin as [Hin|Hin]; [discriminate|]. auto.
  - destruct ((length t0 =? 1)%nat && negb (tcount seen t0 =? 0)%nat) eqn:E; [reflexivity|].
    rewrite (IH (t0 :: seen)); [reflexivity|eapply wf_sel_tail, Hwf|].
    simpl in Hc. rewrite tcount_cons in Hc.
    destruct Hin as [Hin|Hin].
    + injection Hin as ->. rewrite same_set_refl in Hc.
      rewrite Hl in E. simpl in E. apply negb_false_iff, Nat.eqb_eq in E.
      destruct (tcount_pos_ex (ties_of el) t) as (s & Hs & Hq); [lia|].
      apply ties_of_In in Hs. exists s. split; [exact Hs|]. split.
      * rewrite <- Hl. eapply wf_seq_length; [apply Hwf; right; exact Hs|apply Hwf; left; reflexivity|exact Hq].
      * rewrite tcount_cons, (tcount_cong _ s t Hq), (tcount_cong (ties_of el) s t Hq).
        rewrite (proj2 (same_set_spec _ _) (seq_sym _ _ Hq)). lia.
    + exists t. split; [exact Hin|]. split; [exact Hl|]. rewrite tcount_cons. lia.
Qed.

(* well-shaped selections: every tie listed at most as many times as it has members, plain entries
   distinct and outside the ties, different ties disjoint (what get_n_best and the selectors return) *)
Record shaped (el : list (res C)) : Prop := {
  sh_count : forall t, In (TieR t) el -> (tcount (ties_of el) t <= length t)%nat;
  sh_cands : NoDup (cands_of el);
  sh_sep : forall c t, In (Cand c) el -> In (TieR t) el -> ~ In c t;
  sh_disj : forall t t', In (TieR t) el -> In (TieR t') el -> seq t t' \/ (forall c, In c t -> ~ In c t')
}.

Lemma ties_of_app a b : ties_of (a ++ b) = ties_of a ++ ties_of b.
Proof. induction a as [|[c|t0] a IHa]; simpl; [reflexivity|apply IHa|rewrite IHa; reflexivity]. Qed.

(* an occurrence of a tie is not counted among the earlier ones *)
Lemma occ_before_lt el i t : nth_error el i = Some (TieR t) ->
  (tcount (ties_of (firstn i el)) t < tcount (ties_of el) t)%nat.
Proof.
  intros Ht. destruct (nth_error_split el i Ht) as (l1 & l2 & -> & <-).
  rewrite firstn_app, firstn_all, Nat.sub_diag. cbn [firstn]. rewrite app_nil_r, ties_of_app, tcount_app. cbn [ties_of].
  rewrite tcount_cons, same_set_refl. lia.
Qed.

(* where the entries of the result come from: read off position by position *)
Lemma bbl_spec_members lst el seen r : wf_sel lst el -> bbl_spec seen el lst = Some r ->
  (forall t, In (TieR t) el -> (tcount seen t + tcount (ties_of el) t <= length t)%nat) ->
  forall x, In x r -> In (Cand x) el \/
    exists t j, In (TieR t) el /\ (tcount seen t <= j < length t)%nat /\ x = nth j (sort_by_list lst t) 1%positive.
Proof.
  intros Hwf Hspec Hc x Hx. apply In_nth_error in Hx. destruct Hx as [i Hi].
  pose proof (bbl_spec_shape lst el seen r Hwf Hspec) as Hlen. apply F2_length in Hlen.
  destruct (bbl_spec_nth lst el seen r i Hspec) as [Hcand Htie].
  destruct (nth_error el i) as [[c|t]|] eqn:Ee.
  - left. rewrite (Hcand c eq_refl) in Hi. injection Hi as <-. exact (nth_error_In _ _ Ee).
  - right. pose proof (nth_error_In _ _ Ee) as Hin. pose proof (occ_before_lt el i t Ee) as Ho. specialize (Hc t Hin).
    rewrite (Htie t eq_refl), Nat.mod_small in Hi by lia. injection Hi as <-.
    exists t, (tcount seen t + tcount (ties_of (firstn i el)) t)%nat. split; [exact Hin|]. split; [lia|reflexivity].
  - apply nth_error_None in Ee. assert (i < length r)%nat by (apply nth_error_Some; congruence). lia.
Qed.

Lemma bbl_spec_nodup lst : forall el seen r, wf_sel lst el -> bbl_spec seen el lst = Some r ->
  (forall t, In (TieR t) el -> (tcount seen t + tcount (ties_of el) t <= length t)%nat) ->
  NoDup (cands_of el) ->
  (forall c t, In (Cand c) el -> In (TieR t) el -> ~ In c t) ->
  (forall t t', In (TieR t) el -> In (TieR t') el -> seq t t' \/ (forall c, In c t -> ~ In c t')) ->
  NoDup r /\
  forall x, In x r -> In (Cand x) el \/
    exists t j, In (TieR t) el /\ (tcount seen t <= j < length t)%nat /\ x = nth j (sort_by_list lst t) 1%positive.
Proof.
  intros el seen r Hwf Hspec Hc Hn Hsep Hdis. split; [|exact (bbl_spec_members lst el seen r Hwf Hspec Hc)].
  revert seen r Hwf Hspec Hc Hn Hsep Hdis.
  (* the head differs from every later entry, by where those come from *)
  induction el as [|e el IH]; intros seen r Hwf Hspec Hc Hn Hsep Hdis.
  - injection Hspec as <-. constructor.
  - pose proof (wf_sel_tail _ _ _ Hwf) as Hwf'.
    assert (A3 : forall c t, In (Cand c) el -> In (TieR t) el -> ~ In c t)
      by (intros c t H1 H2; apply Hsep; right; assumption).
    assert (A4 : forall t t', In (TieR t) el -> In (TieR t') el -> seq t t' \/ (forall c, In c t -> ~ In c t'))
      by (intros t t' H1 H2; apply Hdis; right; assumption).
    destruct e as [c|t]; simpl in Hspec, Hc, Hn.
    + destruct (bbl_spec seen el lst) as [r'|] eqn:E; simpl in Hspec; [|discriminate]. injection Hspec as <-.
      inversion Hn as [|? ? Hc0 Hn']; subst.
      assert (A1 : forall t, In (TieR t) el -> (tcount seen t + tcount (ties_of el) t <= length t)%nat)
        by (intros t Ht; apply Hc; right; exact Ht).
      constructor; [|exact (IH seen r' Hwf' E A1 Hn' A3 A4)]. intros Hin.
      destruct (bbl_spec_members lst el seen r' Hwf' E A1 c Hin) as [H|(t & j & Ht & Hj & Hx)].
      * apply Hc0, cands_of_In, H.
      * apply (Hsep c t); [left; reflexivity|right; exact Ht|].
        rewrite Hx. apply nth_sorted_in; [apply Hwf; right; exact Ht|lia].
    + assert (Hw : wf_tie lst t) by (apply Hwf; left; reflexivity).
      assert (Hk : (tcount seen t < length t)%nat).
      { specialize (Hc t (or_introl eq_refl)). rewrite tcount_cons, same_set_refl in Hc. lia. }
      destruct ((length t =? 1)%nat && negb (tcount seen t =? 0)%nat); [discriminate|].
      destruct (bbl_spec (t :: seen) el lst) as [r'|] eqn:E; simpl in Hspec; [|discriminate].
      injection Hspec as <-. rewrite Nat.mod_small by exact Hk.
      assert (A1 : forall t', In (TieR t') el -> (tcount (t :: seen) t' + tcount (ties_of el) t' <= length t')%nat).
      { intros t' Ht'. specialize (Hc t' (or_intror Ht')). rewrite !tcount_cons in *. lia. }
      constructor; [|exact (IH (t :: seen) r' Hwf' E A1 Hn A3 A4)]. intros Hin.
      destruct (bbl_spec_members lst el (t :: seen) r' Hwf' E A1 _ Hin) as [H|(t' & j & Ht' & Hj & Hx)].
      * apply (Hsep _ t (or_intror H) (or_introl eq_refl)). apply nth_sorted_in; assumption.
      * assert (Hw' : wf_tie lst t') by (apply Hwf; right; exact Ht').
        apply (sorted_nth_distinct lst t t' (tcount seen t) j Hw Hw' (Hdis t t' (or_introl eq_refl) (or_intror Ht')) Hk (proj2 Hj));
          [|exact Hx].
        intros Hq. rewrite tcount_cons, (proj2 (same_set_spec _ _) Hq) in Hj. rewrite (tcount_cong seen t t' Hq). lia.
Qed.

Lemma Forall2_len {X Y} (R : X -> Y -> Prop) a b : Forall2 R a b -> length a = length b.
Proof. apply F2_length. Qed.

Definition occ_before (el : list (res C)) (i : nat) (t : list C) : nat := tcount (ties_of (firstn i el)) t.

(* 1. success: same length, plain entries untouched, the k-th occurrence (k from 0) of a tie gets
      member k mod m of that tie in breaker order *)
Theorem break_by_list_defining lst el :
  wf_sel lst el ->
  (forall t, In (TieR t) el -> length t = 1%nat -> (tcount (ties_of el) t <= 1)%nat) ->
  exists r, break_by_list el lst [] [] = BL_ok r /\
    length r = length el /\
    Forall2 replaces el r /\
    (forall i c, nth_error el i = Some (Cand c) -> nth_error r i = Some c) /\
    (forall i t, nth_error el i = Some (TieR t) ->
       nth_error r i = Some (nth (occ_before el i t mod length t) (sort_by_list lst t) 1%positive)).
Proof.
  intros Hwf H1. destruct (bbl_spec_some lst el []) as [r Hr].
  { intros t Ht Hl. simpl. apply H1; assumption. }
  exists r. rewrite (break_by_list_exact lst el Hwf), Hr. split; [reflexivity|].
  assert (Hs := bbl_spec_shape lst el [] r Hwf Hr).
  split; [symmetry; eapply Forall2_len, Hs|]. split; [exact Hs|].
  split.
  - intros i c. apply (bbl_spec_nth lst el [] r i Hr).
  - intros i t Ht. rewrite (proj2 (bbl_spec_nth lst el [] r i Hr) t Ht). reflexivity.
Qed.

(* 2. failure: a one-member tie listed twice is an IndexError, and that is the only failure *)
Theorem break_by_list_index_error lst el : wf_sel lst el ->
  (break_by_list el lst [] [] = BL_index <->
   exists t, In (TieR t) el /\ length t = 1%nat /\ (2 <= tcount (ties_of el) t)%nat).
Proof.
  intros Hwf. split.
  - rewrite (break_by_list_exact lst el Hwf). destruct (bbl_spec [] el lst) eqn:E; [discriminate|]. intros _.
    exact (bbl_spec_none_inv lst el [] E).
  - intros Hex. rewrite (break_by_list_exact lst el Hwf), (bbl_spec_none lst el [] Hwf); [reflexivity|].
    destruct Hex as (t & H1 & H2 & H3). exists t. simpl. auto.
Qed.

(* 3. well-shaped selections: distinct entries, no wrap-around, breaker order in closed form *)
Theorem break_by_list_distinct lst el : NoDup lst -> wf_sel lst el -> shaped el ->
  exists r, break_by_list el lst [] [] = BL_ok r /\ NoDup r /\ length r = length el /\
    (forall i c, nth_error el i = Some (Cand c) -> nth_error r i = Some c) /\
    (forall i t, nth_error el i = Some (TieR t) ->
       (occ_before el i t < length t)%nat /\
       nth_error r i = Some (nth (occ_before el i t) (filter (fun c => cmem c t) lst) 1%positive)).
Proof.
  intros Hl Hwf [Hc Hn Hsep Hdis].
  destruct (break_by_list_defining lst el Hwf) as (r & Hr & Hlen & _ & Hcand & Htie).
  { intros t Ht Hl1. rewrite <- Hl1. apply Hc, Ht. }
  exists r. split; [exact Hr|].
  assert (Hspec : bbl_spec [] el lst = Some r).
  { rewrite (break_by_list_exact lst el Hwf) in Hr. destruct (bbl_spec [] el lst); congruence. }
  split; [apply (bbl_spec_nodup lst el [] r Hwf Hspec); auto|].
  split; [exact Hlen|]. split; [exact Hcand|].
  intros i t Ht.
  assert (Hin : In (TieR t) el) by (eapply nth_error_In, Ht).
  assert (Hocc : (occ_before el i t < length t)%nat).
  { pose proof (occ_before_lt el i t Ht). specialize (Hc t Hin). unfold occ_before. lia. }
  split; [exact Hocc|]. rewrite (Htie i t Ht), (Nat.mod_small _ _ Hocc).
  destruct (Hwf t Hin) as (_ & Hnt & Hit). rewrite (sort_by_list_closed lst t Hl Hnt Hit). reflexivity.
Qed.

(* the two behaviours outside well-shaped selections, on concrete inputs *)
Example break_by_list_wraps :
  break_by_list [TieR [1; 2]; TieR [1; 2]; TieR [1; 2]]%positive [2; 1]%positive [] [] = BL_ok [2; 1; 2]%positive.
Proof. vm_compute. reflexivity. Qed.
Example break_by_list_singleton_twice :
  break_by_list [TieR [1]; TieR [1]]%positive [2; 1]%positive [] [] = BL_index.
Proof. vm_compute. reflexivity. Qed.
