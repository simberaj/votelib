(* Uniqueness of divisor apportionments (C01 / C07): with a strictly increasing positive divisor, positive votes, no
   previous gains and no caps, ANY allocation s that hands out exactly n seats and satisfies the strict min-max
   inequality  v_c / d(s c) < v_c' / d(s c' - 1)  (nobody's next quotient reaches anybody's last awarded quotient)
   IS what the HighestAverages loop computes: it ends without a tie, with no seat left, and with totals = s.
   Used by C07: a district row of a certified biproportional matrix is the highest-averages apportionment of the
   row's votes weighted by the party multipliers. *)
From Coq Require Import ZArith QArith List Bool Lia Lqa Permutation.
From VL Require Import Prelude.PyDict Model.HighestAverages Proofs.Dict_proofs Proofs.HA_proofs Proofs.Mono_proofs.
Import ListNotations.
Open Scope Z_scope.

Definition ksum (f : C -> Z) (ks : list C) : Z := zsum (map f ks).

Lemma ksum_cons f k ks : ksum f (k :: ks) = f k + ksum f ks.
Proof. unfold ksum. simpl. apply zsum_cons. Qed.

Lemma ksum_zero ks : ksum (fun _ => 0) ks = 0.
Proof. exact (zsum_map_zero ks). Qed.

Lemma ksum_le f g ks : (forall c, In c ks -> f c <= g c) -> ksum f ks <= ksum g ks.
Proof. exact (zsum_map_le f g ks). Qed.

Lemma ksum_lt_exists f g ks : ksum f ks < ksum g ks -> exists c, In c ks /\ f c < g c.
Proof.
  induction ks as [|k ks IH]; intros H; [unfold ksum in H; simpl in H; lia|].
  rewrite !ksum_cons in H. destruct (Z.lt_ge_cases (f k) (g k)) as [Hk|Hk].
  - exists k. split; [left; reflexivity|exact Hk].
  - destruct IH as (c & Hc & Hlt); [lia|]. exists c. split; [right; exact Hc|exact Hlt].
Qed.

Lemma ksum_lt f g ks c : (forall x, In x ks -> f x <= g x) -> In c ks -> f c < g c -> ksum f ks < ksum g ks.
Proof. exact (zsum_map_lt f g ks c). Qed.

Lemma ksum_exchange f g ks c : In c ks -> g c < f c -> ksum f ks <= ksum g ks -> exists c', In c' ks /\ f c' < g c'.
Proof.
  intros Hc Hlt Hle.
  destruct (Forall_Exists_dec (fun x => g x <= f x) (fun x => Z_le_dec (g x) (f x)) ks) as [Hall|Hex].
  - exfalso. pose proof (ksum_lt g f ks c (proj1 (Forall_forall _ _) Hall) Hc Hlt). lia.
  - apply Exists_exists in Hex. destruct Hex as (c' & Hc' & Hn). exists c'. split; [exact Hc'|lia].
Qed.

Lemma ksum_plus f g ks : ksum (fun c => f c + g c) ks = ksum f ks + ksum g ks.
Proof. exact (zsum_map_plus f g ks). Qed.

Lemma ksum_indicator x ks : ksum (fun c => if ceqb c x then 1 else 0) ks = count x ks.
Proof.
  induction ks as [|k ks IH]; [reflexivity|]. rewrite ksum_cons, IH. simpl. unfold ceqb. rewrite (Pos.eqb_sym k x). reflexivity.
Qed.

Lemma ksum_count l ks : NoDup ks -> (forall x, In x l -> In x ks) ->
  ksum (fun c => count c l) ks = Z.of_nat (length l).
Proof.
  intros Hnd. induction l as [|x l IH]; intros Hin.
  - transitivity (ksum (fun _ => 0) ks); [reflexivity|apply ksum_zero].
  - assert (E : ksum (fun c => count c (x :: l)) ks
                = ksum (fun c => count c l) ks + ksum (fun c => if ceqb c x then 1 else 0) ks).
    { rewrite <- ksum_plus. unfold ksum. f_equal. apply map_ext. intros c. simpl. lia. }
    rewrite E, IH by (intros y Hy; apply Hin; right; exact Hy).
    rewrite ksum_indicator, (count_nodup x ks Hnd (Hin x (or_introl eq_refl))). simpl length. lia.
Qed.

Lemma count_nodup_le1 c l : NoDup l -> count c l <= 1.
Proof. intros H. rewrite (count_cmem c l H). destruct (cmem c l); lia. Qed.

Lemma count_two c c' l : c' <> c -> count c l + count c' l <= Z.of_nat (length l).
Proof.
  intros E. induction l as [|x l IH]; [simpl; lia|].
  cbn [count length]. rewrite Nat2Z.inj_succ.
  destruct (ceqb c x) eqn:E1; destruct (ceqb c' x) eqn:E2; try lia.
  exfalso. apply ceqb_eq in E1. apply ceqb_eq in E2. subst. apply E. reflexivity.
Qed.

Lemma awards_in_votes d votes caps prev n s : Inv d votes caps prev n s ->
  forall x, In x (map fst (st_awards s)) -> In x (map fst votes).
Proof.
  intros I x Hx. apply in_map_iff in Hx. destruct Hx as (a & <- & Ha).
  destruct (proj1 (Forall_forall _ _) (inv_awards _ _ _ _ _ _ I) a Ha) as (v & j & Hv & _).
  apply dget_In in Hv. apply in_map_iff. exists (fst a, v). split; [reflexivity|exact Hv].
Qed.

(* with no previous gains, the totals of the parties that stand add up to the seats awarded *)
Lemma sum_tot d votes caps n s : Inv d votes caps [] n s -> NoDup (map fst votes) ->
  ksum (tot s) (map fst votes) = Z.of_nat (length (st_awards s)).
Proof.
  intros I Hnd. rewrite <- (map_length fst (st_awards s)), <- (ksum_count _ _ Hnd (awards_in_votes _ _ _ _ _ _ I)).
  unfold ksum. f_equal. apply map_ext. exact (inv_account _ _ _ _ _ _ I).
Qed.

Section Unique.
  Variable d : Z -> Q.
  Variable votes : list (C * Q).
  Variable n : Z.
  Hypothesis Hpos : forall k, 0 <= k -> (0 < d k)%Q.
  Hypothesis Hstrict : forall k, 0 <= k -> (d k < d (k + 1)%Z)%Q.
  Hypothesis Hvpos : forall c v, In (c, v) votes -> (0 < v)%Q.
  Hypothesis Hnd : NoDup (map fst votes).

  Variable s : C -> Z.
  Hypothesis Hs0 : forall c, In c (map fst votes) -> 0 <= s c.
  Hypothesis Hsum : ksum s (map fst votes) = n.
  Hypothesis Hminmax : forall c v c' v', In (c, v) votes -> In (c', v') votes -> 0 < s c' ->
    (v / d (s c) < v' / d (s c' - 1))%Q.

  Notation fin := (final_state d votes n [] []).
  Notation keys := (map fst votes).
  Notation t := (tot fin).

  Let Hmono : forall k, 0 <= k -> (d k <= d (k + 1)%Z)%Q.
  Proof. intros k Hk. apply Qlt_le_weak, Hstrict, Hk. Qed.
  Let Hv0 : forall c v, In (c, v) votes -> (0 <= v)%Q.
  Proof. intros c v H. apply Qlt_le_weak, (Hvpos c v H). Qed.
  Let Hprev : forall c, 0 <= dget_or (@nil (C * Z)) c 0.
  Proof. intros c. unfold dget_or. simpl. lia. Qed.

  Let I : Inv d votes [] [] n fin := final_inv d votes [] [] n Hpos Hmono Hv0 Hnd Hprev.
  Let L := final_last_award d votes [] [] n Hpos Hmono Hv0 Hnd Hprev.

  Lemma prev0 c : dget_or (@nil (C * Z)) c 0 = 0.
  Proof. reflexivity. Qed.

  Lemma n_nonneg : 0 <= n.
  Proof.
    rewrite <- Hsum. assert (H : ksum (fun _ => 0) keys <= ksum s keys) by (apply ksum_le; intros c Hc; apply Hs0, Hc).
    rewrite ksum_zero in H. exact H.
  Qed.

  Lemma t_count c : t c = count c (map fst (st_awards fin)).
  Proof. exact (inv_account _ _ _ _ _ _ I c). Qed.

  Lemma sum_t : ksum t keys = Z.of_nat (length (st_awards fin)).
  Proof. exact (sum_tot d votes [] n fin I Hnd). Qed.

  Lemma t_lt_n_if_short c : Z.of_nat (length (st_awards fin)) < n -> t c < n.
  Proof.
    intros H. rewrite t_count. pose proof (count_le_length c (map fst (st_awards fin))) as Hc.
    rewrite map_length in Hc. lia.
  Qed.

  Lemma key_vote c : In c keys -> exists v, In (c, v) votes.
  Proof. intros Hc. apply in_map_iff in Hc. destruct Hc as ([c0 v] & <- & Hin). exists v. exact Hin. Qed.

  Lemma quot_le v i j : (0 < v)%Q -> 0 <= i <= j -> (v / d j <= v / d i)%Q.
  Proof. intros Hv. apply (quot_seat_mono d Hpos Hmono), Qlt_le_weak, Hv. Qed.

  Lemma in_queue c v : In (c, v) votes -> t c < n -> In (c, (v / d (t c))%Q) (st_qs fin).
  Proof. exact (waits_in_queue d votes [] [] n Hnd fin c v I). Qed.

  (* the core exchange argument: a party with more seats than s next to a party with fewer is impossible *)
  Lemma no_exchange c v c' v' : In (c, v) votes -> In (c', v') votes -> s c < t c -> t c' < s c' -> t c' < n -> False.
  Proof.
    intros Hc Hc' Hmore Hless Hcap.
    assert (Hsc : 0 <= s c) by (apply Hs0, in_map_iff; exists (c, v); split; [reflexivity|exact Hc]).
    pose proof (inv_nonneg _ _ _ _ _ _ I c') as Htc'.
    destruct (L c) as (v0 & Hv0' & Hin); [rewrite prev0; lia|].
    rewrite (In_dget _ _ _ Hnd Hc) in Hv0'. injection Hv0' as <-.
    pose proof (ha_optimal d votes [] [] n Hpos Hmono Hv0 Hnd Hprev c' v' _ Hc' Hcap Hin) as Hopt. simpl in Hopt.
    assert (Hspec : (v / d (s c) < v' / d (s c' - 1))%Q) by (apply (Hminmax c v c' v' Hc Hc'); lia).
    assert (H1 : (v / d (t c - 1) <= v / d (s c))%Q) by (apply quot_le; [exact (Hvpos c v Hc)|lia]).
    assert (H2 : (v' / d (s c' - 1) <= v' / d (t c'))%Q) by (apply quot_le; [exact (Hvpos c' v' Hc')|lia]).
    lra.
  Qed.

  Lemma remacc : st_rem fin + Z.of_nat (length (st_awards fin))
                 + (match st_tie fin with Some (_, r) => r | None => 0 end) = n.
  Proof. rewrite (inv_remacc _ _ _ _ _ _ I). apply Z.sub_0_r. Qed.

  Lemma exit_cases : 0 <= st_rem fin /\ (st_rem fin = 0 \/ st_qs fin = []).
  Proof.
    destruct (ha_total d votes [] [] n Hpos Hmono Hv0 Hnd Hprev) as [_ [H|(Hq & Hr & _)]].
    - change (zsum (map snd (@nil (C * Z)))) with 0. pose proof n_nonneg. lia.
    - split; [lia|left; exact H].
    - split; [exact Hr|right; exact Hq].
  Qed.

  (* while seats are missing, some party is short of s *)
  Lemma short_party : Z.of_nat (length (st_awards fin)) < n -> exists c' v', In (c', v') votes /\ t c' < s c'.
  Proof.
    intros Hshort. destruct (ksum_lt_exists t s keys) as (c' & Hc' & Hless); [rewrite sum_t, Hsum; exact Hshort|].
    destruct (key_vote c' Hc') as (v' & Hv'). exists c', v'. split; assumption.
  Qed.

  Lemma short_le : Z.of_nat (length (st_awards fin)) < n -> forall c, In c keys -> t c <= s c.
  Proof.
    intros Hshort c Hc. destruct (Z.le_gt_cases (t c) (s c)) as [H|H]; [exact H|exfalso].
    destruct (short_party Hshort) as (c' & v' & Hv' & Hless). destruct (key_vote c Hc) as (v & Hv).
    apply (no_exchange c v c' v' Hv Hv'); [lia|exact Hless|apply t_lt_n_if_short, Hshort].
  Qed.

  (* a tie is impossible: its members and some c' are all short of s, more than the seats left *)
  Lemma no_tie : st_tie fin = None.
  Proof.
    destruct (st_tie fin) as [[T r]|] eqn:Et; [exfalso|reflexivity].
    destruct (inv_tie _ _ _ _ _ _ I T r Et) as (Hr0 & Hr & m & _ & Hmax & Hperm).
    pose proof remacc as Hacc. rewrite Et, Hr0 in Hacc.
    assert (Hshort : Z.of_nat (length (st_awards fin)) < n) by lia.
    pose proof (short_le Hshort) as Hge.
    destruct (short_party Hshort) as (c' & v' & Hv' & Hless).
    pose proof (inv_nonneg _ _ _ _ _ _ I c') as Ht0.
    assert (Hcq : (v' / d (s c' - 1) <= m)%Q).
    { pose proof (proj1 (Forall_forall _ _) Hmax _ (in_queue c' v' Hv' (t_lt_n_if_short c' Hshort))) as H1.
      simpl in H1.
      assert (H2 : (v' / d (s c' - 1) <= v' / d (t c'))%Q) by (apply quot_le; [exact (Hvpos c' v' Hv')|lia]).
      lra. }
    assert (HT : forall c, In c T -> In c keys /\ t c + 1 <= s c).
    { intros c HcT. apply (Permutation_in _ Hperm) in HcT. apply in_map_iff in HcT.
      destruct HcT as ([c0 x] & Hc0 & Hy). simpl in Hc0. subst c0. apply filter_In in Hy. destruct Hy as [Hy Hxm].
      simpl in Hxm. apply Qeq_bool_iff in Hxm.
      destruct (proj1 (Forall_forall _ _) (inv_items _ _ _ _ _ _ I) _ Hy) as (v & Hv & Hx & _).
      simpl in Hv, Hx. apply dget_In in Hv.
      assert (Hck : In c keys) by (apply in_map_iff; exists (c, v); split; [reflexivity|exact Hv]).
      split; [exact Hck|].
      destruct (Z.lt_ge_cases (t c) (s c)) as [H|H]; [lia|exfalso].
      assert (Heq : s c = t c) by (specialize (Hge c Hck); lia).
      assert (Hspec : (v / d (s c) < v' / d (s c' - 1))%Q) by (apply (Hminmax c v c' v' Hv Hv'); lia).
      rewrite Heq in Hspec. unfold tot in Hspec. unfold tot_of in Hx. rewrite <- Hx in Hspec. lra. }
    assert (HndT : NoDup T).
    { apply (Permutation_NoDup (Permutation_sym Hperm)), GetNBest_proofs.nodup_keys_filter, (inv_nodup _ _ _ _ _ _ I). }
    assert (Hbig : ksum t keys + Z.of_nat (length T) <= ksum s keys).
    { rewrite <- (ksum_count T keys Hnd (fun x Hx => proj1 (HT x Hx))), <- ksum_plus.
      apply ksum_le. intros c Hc.
      destruct (in_dec Pos.eq_dec c T) as [Hi|Hni].
      - rewrite (count_nodup c T HndT Hi). apply (HT c Hi).
      - rewrite (count_notin _ _ Hni), Z.add_0_r. exact (Hge c Hc). }
    rewrite sum_t, Hsum in Hbig. lia.
  Qed.

  (* an empty queue with seats left would leave the party that is short of s out of the queue *)
  Lemma all_out : st_rem fin = 0.
  Proof.
    destruct exit_cases as [Hr [H|Hq]]; [exact H|].
    destruct (Z.eq_dec (st_rem fin) 0) as [E|E]; [exact E|exfalso].
    pose proof remacc as Hacc. rewrite no_tie in Hacc.
    assert (Hshort : Z.of_nat (length (st_awards fin)) < n) by lia.
    destruct (short_party Hshort) as (c' & v' & Hv' & _).
    pose proof (in_queue c' v' Hv' (t_lt_n_if_short c' Hshort)) as Hq'. rewrite Hq in Hq'. destruct Hq'.
  Qed.

  Theorem ha_unique : st_tie fin = None /\ st_rem fin = 0 /\ forall c, In c keys -> t c = s c.
  Proof.
    split; [exact no_tie|]. split; [exact all_out|].
    pose proof remacc as Hacc. rewrite no_tie, all_out in Hacc.
    assert (Hle : forall c, In c keys -> t c <= s c).
    { intros c Hc. destruct (Z.le_gt_cases (t c) (s c)) as [H|H]; [exact H|exfalso].
      destruct (ksum_exchange t s keys c Hc H) as (c' & Hc' & Hless); [rewrite sum_t, Hsum; lia|].
      destruct (key_vote c Hc) as (v & Hv). destruct (key_vote c' Hc') as (v' & Hv').
      apply (no_exchange c v c' v' Hv Hv'); [lia|exact Hless|].
      (* t c' < n : c holds at least one of the n awarded seats *)
      assert (Hcc : c' <> c) by (intros ->; lia).
      pose proof (count_two c c' (map fst (st_awards fin)) Hcc) as H2. rewrite map_length, <- !t_count in H2.
      pose proof (Hs0 c Hc). lia. }
    intros c Hc. destruct (Z.eq_dec (t c) (s c)) as [E|E]; [exact E|exfalso].
    assert (Hlt : t c < s c) by (specialize (Hle c Hc); lia).
    pose proof (ksum_lt t s keys c Hle Hc Hlt) as H. rewrite sum_t, Hsum in H. lia.
  Qed.
End Unique.
