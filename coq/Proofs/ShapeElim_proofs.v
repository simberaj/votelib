(* Result shape (C08), fourth part: the elimination rules.  Benham over Model/Hybrids.v (repaired elimination step, fx = true;
   repaired for a candidate that stands alone, sc = true): the answer is one plain candidate of the votes or one tie object of
   the last two, and the only other outcome is the declared refusal NotImplementedError; the possible outcomes of one tier of
   the Tideman alternative (the tiers together: Proofs/HybridTiers_proofs.v); Baldwin over Model/Elimination.v: always exactly
   n entries in shape, no refusal at all. *)
From Coq Require Import ZArith QArith List Bool Lia Permutation Arith.
From VL Require Import Prelude.PyDict Model.GetNBest Model.Convert Model.STV Model.Condorcet Model.Hybrids
     Proofs.Dict_proofs Proofs.GetNBest_proofs Proofs.QOrd Proofs.Condorcet_proofs Proofs.Smith_proofs Proofs.Shape_proofs Proofs.Shape2_proofs
     Proofs.Threshold_proofs Proofs.Hybrids_proofs.
Import ListNotations.
Close Scope Q_scope.
Close Scope Z_scope.
Open Scope nat_scope.

Notation Kc cur := (all_ranked_candidates (qv cur)).

Lemma elim_nform cur : wf_votes cur = true -> 2 <= length (Kc cur) ->
  exists rem, eliminate_one cur = Some rem /\ nform (Kc cur) (length (Kc cur) - 1) rem.
Proof.
  intros Hwf H2. unfold eliminate_one. pose proof (totals_keys cur Hwf) as Hk. pose proof (arc_nodup cur) as Hnd.
  set (K := all_ranked_candidates (qv cur)) in *. set (tot := some_totals (totals (initial_allocation (qv cur)))) in *.
  destruct (length K) as [|[|m]] eqn:El; [lia|lia|].
  exists (get_n_best Qle_bool tot (S m)). split; [reflexivity|].
  assert (Hlen : length tot = S (S m)) by (rewrite <- El, <- Hk, map_length; reflexivity).
  replace (S (S m) - 1) with (S m) by lia. rewrite <- Hk.
  apply (gnb_nform Qle_bool Qle_bool_total Qle_bool_trans); [lia|rewrite Hk; exact Hnd].
Qed.

Section BENHAM_SHAPE.
  Variable votes : rvotes.
  Hypothesis Hwf : wf_votes votes = true.

  Definition bgood (x : hres) : Prop := (exists r, x = H_ok r /\ nform (cands_of votes) 1 r) \/ x = H_nie \/ x = H_fuel.

  (* what the elimination loop keeps: a well-formed restriction of the profile to two or more of its candidates *)
  Definition winv (cur : rvotes) : Prop :=
    wf_votes cur = true /\ (forall x, In x (Kc cur) -> In x (cands_of votes)) /\ 2 <= length (Kc cur).

  Lemma cw_good cur c0 l : winv cur -> condorcet_winner (pairwise cur) = c0 :: l -> bgood (H_ok [Cand c0]).
  Proof.
    intros (Hwfc & HK & _) Ec. left. exists [Cand c0]. split; [reflexivity|].
    destruct (cw_head cur c0 l Hwfc Ec) as [Hc _].
    apply nform_single, HK, arc_iff, candidates_pairwise_in, Hc.
  Qed.

  Lemma winv_next cur R : winv cur -> NoDup R -> incl R (Kc cur) -> 2 <= length R -> winv (subset_votes R votes).
  Proof.
    intros (_ & HK & _) Hn Hi H2. split; [apply subset_wf, Hwf|]. split.
    - intros x Hx. apply arc_iff, subset_cands in Hx. tauto.
    - etransitivity; [exact H2|]. apply NoDup_incl_length; [exact Hn|]. intros x Hx. apply arc_iff, subset_cands.
      split; [exact Hx|apply HK, Hi, Hx].
  Qed.

  Lemma benham_shape_loop sc : forall fuel cur, winv cur -> bgood (benham_loop true sc fuel votes cur).
  Proof.
    induction fuel as [|f IH]; intros cur Hb; pose proof Hb as (Hwfc & HK & HlenK).
    - rewrite benham_loop_0, (benham_cw_two sc cur HlenK). destruct (condorcet_winner (pairwise cur)) as [|c0 l] eqn:Ec; [right; right; reflexivity|].
      exact (cw_good cur c0 l Hb Ec).
    - rewrite benham_loop_S, (benham_cw_two sc cur HlenK).
      destruct (condorcet_winner (pairwise cur)) as [|c0 l] eqn:Ec; [|exact (cw_good cur c0 l Hb Ec)].
      destruct (elim_nform cur Hwfc HlenK) as (rem & Ee & Hnf). rewrite Ee.
      pose proof (nform_length _ _ _ Hnf) as Hlr.
      destruct rem as [|r [|r2 rr]].
      + cbn [length] in Hlr. lia.
      + left. exists [r]. split; [reflexivity|]. cbn [length] in Hlr. rewrite <- Hlr in Hnf.
        eapply nform_incl; [|exact Hnf]. intros x Hx. apply HK, Hx.
      + cbn [andb]. destruct (has_tie (r :: r2 :: rr)) eqn:Et; [right; left; reflexivity|].
        destruct (elim_spec cur _ Hwfc Ee Et) as (R & E1 & E2 & E3 & E4). rewrite E1, plain_map_cand.
        assert (H2 : 2 <= length R).
        { assert (El : length (r :: r2 :: rr) = length R) by (rewrite E1, map_length; reflexivity). cbn [length] in El. lia. }
        apply IH. exact (winv_next cur R Hb E2 E3 H2).
  Qed.

  (* with two or more candidates (in particular with a pairwise contest), repaired for a single candidate or not: one plain
     candidate of the votes, or one tie object of (the last) two or more of them; otherwise the declared refusal *)
  Theorem benham_shape_two sc : 2 <= length (Kc votes) ->
    (exists r, benham true sc votes = H_ok r /\ nform (cands_of votes) 1 r) \/ benham true sc votes = H_nie.
  Proof.
    intros H2.
    assert (Hs : winv votes) by (split; [exact Hwf|split; [intros x Hx; apply arc_iff, Hx|exact H2]]).
    destruct (benham_shape_loop sc (S (S (length (Kc votes)))) votes Hs) as [H|[H|H]].
    - left. exact H.
    - right. exact H.
    - exfalso. exact (benham_fuel true sc votes Hwf H).
  Qed.

  (* the repaired Benham on EVERY profile on which somebody stands: a single candidate is elected *)
  Theorem benham_shape : cands_of votes <> [] ->
    (exists r, benham true true votes = H_ok r /\ nform (cands_of votes) 1 r) \/ benham true true votes = H_nie.
  Proof.
    intros Hne. destruct (Kc votes) as [|c [|c2 t]] eqn:EK.
    - exfalso. destruct (cands_of votes) as [|x l] eqn:Ec; [congruence|].
      assert (Hx : In x (Kc votes)) by (apply arc_iff; rewrite Ec; left; reflexivity). rewrite EK in Hx. exact Hx.
    - left. exists [Cand c]. split.
      + unfold benham. cbn [benham_loop]. unfold benham_cw. rewrite EK. reflexivity.
      + apply nform_single, arc_iff. rewrite EK. left. reflexivity.
    - apply benham_shape_two. rewrite EK. cbn [length]. lia.
  Qed.
End BENHAM_SHAPE.

Theorem benham_single sc votes c : Kc votes = [c] -> benham true sc votes = if sc then H_ok [Cand c] else benham true false votes.
Proof. intros EK. destruct sc; [|reflexivity]. unfold benham. cbn [benham_loop]. unfold benham_cw. rewrite EK. reflexivity. Qed.

Lemma has_tie_one_cand (r : res C) : has_tie [r] = false -> exists w, r = Cand w.
Proof. destruct r as [w|l]; [intros _; exists w; reflexivity|discriminate]. Qed.

(* the tier loop hands back a plain candidate, or stops with NotImplementedError / IndexError (/ the model's fuel) *)
Lemma tier_outcome sc : forall fuel round,
  (exists w, tideman_tier true sc fuel round = inl (Cand w)) \/
  tideman_tier true sc fuel round = inr H_nie \/ tideman_tier true sc fuel round = inr H_index \/ tideman_tier true sc fuel round = inr H_fuel.
Proof.
  induction fuel as [|f IH]; intros round.
  - destruct round; [right; left; reflexivity|right; right; right; reflexivity].
  - destruct round as [|bw t]; [right; left; reflexivity|]. rewrite tideman_tier_unfold by discriminate.
    set (round := bw :: t) in *. clearbody round.
    assert (Hgen : forall sset,
      let x := match eliminate_one (subset_votes sset round) with
               | None => inr H_index
               | Some rem => if true && has_tie rem then inr H_nie
                             else match rem with [r0] => inl r0 | _ => tideman_tier true sc f (subset_votes (plain rem) (subset_votes sset round)) end
               end in
      (exists w, x = inl (Cand w)) \/ x = inr H_nie \/ x = inr H_index \/ x = @inr (res C) hres H_fuel).
    { intros sset. cbv zeta. destruct (eliminate_one (subset_votes sset round)) as [rem|]; [|right; right; left; reflexivity].
      cbn [andb]. destruct (has_tie rem) eqn:Et; [right; left; reflexivity|].
      destruct rem as [|r0 [|r1 rr]]; [apply IH| |apply IH].
      destruct (has_tie_one_cand r0 Et) as (w & ->). left. exists w. reflexivity. }
    destruct (winner_set sc round) as [|s [|s2 ss]]; [apply Hgen|left; exists s; reflexivity|apply Hgen].
Qed.

Definition one_candidate (votes : rvotes) (w : C) : Prop := forall c, In c (cands_of votes) -> c = w.

From VL Require Import Model.Elimination.
Close Scope Q_scope.
Close Scope Z_scope.
Open Scope nat_scope.

(* no candidate twice on a ballot, no empty shared rank (a ballot then has at most as many ranks as candidates stand:
   the rank scorer never raises); the weights are arbitrary integers *)
Definition ranks_ok (votes : rvotes) : bool :=
  forallb (fun bw : ranked * Z => Hybrids_proofs.nodupb (flatten (fst bw)) &&
                                   forallb (fun i => match members i with [] => false | _ => true end) (fst bw)) votes.

Lemma ranks_ok_spec votes : ranks_ok votes = true <->
  forall r w, In (r, w) votes -> NoDup (flatten r) /\ forall i, In i r -> members i <> [].
Proof.
  unfold ranks_ok. rewrite forallb_forall. split.
  - intros H r w Hin. specialize (H _ Hin). cbn [fst snd] in H. apply andb_true_iff in H. destruct H as [H1 H2].
    apply nodupb_iff in H1. split; [exact H1|]. intros i Hi. rewrite forallb_forall in H2. specialize (H2 i Hi).
    destruct (members i); [discriminate|discriminate].
  - intros H [r w] Hin. destruct (H r w Hin) as [H1 H2]. cbn [fst snd]. apply andb_true_iff. split; [apply nodupb_iff, H1|].
    apply forallb_forall. intros i Hi. specialize (H2 i Hi). destruct (members i); [congruence|reflexivity].
Qed.

Lemma sub_ranked_nonempty S r i : In i (sub_ranked S r) -> members i <> [].
Proof.
  unfold sub_ranked. intros H. apply in_flat_map in H. destruct H as (j & _ & H). destruct j as [c|l].
  - destruct (cmem c S); [destruct H as [<-|[]]; discriminate|destruct H].
  - destruct (filter (fun c => cmem c S) l) as [|x [|y t]]; [destruct H|destruct H as [<-|[]]; discriminate|destruct H as [<-|[]]; discriminate].
Qed.

Lemma subset_ranks_ok S votes : ranks_ok votes = true -> ranks_ok (subset_votes S votes) = true.
Proof.
  intros Hr. apply ranks_ok_spec. intros k w' Hin. pose proof (proj1 (ranks_ok_spec votes) Hr) as Hv.
  assert (Hk : In k (map fst (subset_votes S votes))) by (apply in_map_iff; exists (k, w'); auto).
  rewrite subset_votes_unfold in Hk. destruct (sub_from_keys _ _ _ _ Hk) as [[]|(r & w & Hin' & ->)]. split.
  - rewrite flatten_sub. apply nodup_filter. apply (Hv r w Hin').
  - intros i Hi. exact (sub_ranked_nonempty S r i Hi).
Qed.

Lemma rank_scores_some sc k n : n <= k -> exists l, rank_scores sc k n = Some l.
Proof.
  intros H. destruct sc; cbn [rank_scores]; try (eexists; reflexivity).
  assert (E : Nat.ltb k n = false) by (apply Nat.ltb_ge; exact H). rewrite E. eexists. reflexivity.
Qed.

Lemma length_le_flatten r : (forall i, In i r -> members i <> []) -> length r <= length (flatten r).
Proof.
  induction r as [|i t IH]; intros H; [simpl; lia|]. rewrite flatten_cons, app_length. cbn [length].
  assert (Hi : members i <> []) by (apply H; left; reflexivity).
  assert (Ht : length t <= length (flatten t)) by (apply IH; intros j Hj; apply H; right; exact Hj).
  destruct (members i); [congruence|]. cbn [length]. lia.
Qed.

Lemma pos_ballot_keys sc k K d (r : ranked) (w : Z) : length r <= k -> incl (flatten r) K -> keyed K d ->
  exists d', pos_ballot sc k d (r, w) = Some d' /\ keyed K d'.
Proof.
  intros Hl Hi Hd. unfold pos_ballot. cbn [fst snd]. destruct (rank_scores_some sc k (length r) Hl) as (scs & ->).
  eexists. split; [reflexivity|]. revert d Hd. apply fold_left_inv. intros d [i s] Hin.
  apply fold_left_inv. intros d' c Hc. apply dset_keyed, Hi.
  unfold flatten. apply in_flat_map. exists i. split; [exact (in_combine_l _ _ _ _ Hin)|exact Hc].
Qed.

Lemma neg_scores_keys sc votes : ranks_ok votes = true ->
  exists ns, neg_scores sc votes = Some ns /\ NoDup (map fst ns) /\ (forall x, In x (map fst ns) <-> In x (Kc votes)).
Proof.
  intros Hr. pose proof (proj1 (ranks_ok_spec votes) Hr) as Hv. unfold neg_scores, positional.
  set (K := Kc votes).
  assert (HK : forall r w, In (r, w) votes -> incl (flatten r) K).
  { intros r w Hin c Hc. apply arc_iff, cands_of_spec. exists r, w. split; assumption. }
  assert (G : exists d', fold_left (fun acc bw => match acc with None => None | Some d => pos_ballot sc (length K) d bw end) votes
                           (Some (map (fun c => (c, 0%Q)) K)) = Some d' /\ keyed K d').
  { apply fold_left_inv.
    - intros acc [r w] Hin (d & -> & Hd). destruct (Hv r w Hin) as [Hnd Hne]. apply pos_ballot_keys; [|exact (HK r w Hin)|exact Hd].
      (* no candidate twice, no empty rank: at most as many ranks as candidates *)
      etransitivity; [apply length_le_flatten, Hne|]. apply NoDup_incl_length; [exact Hnd|exact (HK r w Hin)].
    - eexists. split; [reflexivity|]. unfold keyed. rewrite map_map. cbn [fst]. rewrite map_id. split; [apply arc_nodup|reflexivity]. }
  destruct G as (d' & -> & N & Kk). eexists. split; [reflexivity|]. rewrite map_map. cbn [fst].
  assert (Hp : Permutation (map (fun x : C * Q => fst x) (sort_desc Qle_bool d')) (map fst d')) by (apply Permutation_map, sort_desc_perm).
  split; [exact (Permutation_NoDup (Permutation_sym Hp) N)|].
  intros x. rewrite <- Kk. split; apply Permutation_in; [exact Hp|apply Permutation_sym, Hp].
Qed.

Lemma same_keys_length (a b : list C) : NoDup a -> NoDup b -> (forall x, In x a <-> In x b) -> length a = length b.
Proof. intros Ha Hb H. apply Permutation_length, NoDup_Permutation; assumption. Qed.

Lemma filter_out_length (T keys : list C) : NoDup T -> NoDup keys -> incl T keys ->
  length (filter (fun c => negb (cmem c T)) keys) = length keys - length T.
Proof.
  intros HT Hk Hi. pose proof (Threshold_proofs.filter_split_length (fun c => cmem c T) keys) as Hs.
  rewrite (Threshold_proofs.filter_mem_length T keys HT Hk Hi) in Hs. lia.
Qed.

(* the candidates of the profile restricted to all of its candidates [keys] but those of T *)
Lemma drop_K cur (keys T : list C) : NoDup keys -> (forall x, In x keys <-> In x (Kc cur)) -> NoDup T -> incl T keys ->
  forall g, (forall c, g c = negb (cmem c T)) -> let cur' := subset_votes (filter g keys) cur in
  length (Kc cur') = length keys - length T /\ forall y, In y (Kc cur') <-> In y keys /\ ~ In y T.
Proof.
  intros Hk Hkeys HT Hi g Hg cur'.
  assert (E : forall y, In y (Kc cur') <-> In y (filter g keys)).
  { intros y. unfold cur'. rewrite arc_iff, subset_cands, <- arc_iff, filter_In, <- Hkeys.
    split; [intros [H _]; exact H|intros H; split; [exact H|exact (proj1 H)]]. }
  split.
  - rewrite <- (filter_out_length T keys HT Hk Hi), <- (filter_ext _ _ Hg keys).
    apply same_keys_length; [apply arc_nodup|apply NoDup_filter, Hk|exact E].
  - intros y. rewrite E, filter_In, Hg, negb_true_iff, cmem_false. reflexivity.
Qed.

Lemma gnb_zero {V} (leb : V -> V -> bool) : @get_n_best C V leb [] 0 = [].
Proof. reflexivity. Qed.

Section BALDWIN_SHAPE.
  Variable sc : Convert.scorer.
  Variable C0 : list C.
  Variable n : nat.
  Hypothesis Hn1 : 1 <= n.

  Lemma baldwin_loop_nform : forall fuel cur, ranks_ok cur = true -> incl (Kc cur) C0 -> n <= length (Kc cur) ->
    length (Kc cur) < fuel -> exists r, baldwin_loop sc fuel cur n = B_ok r /\ nform C0 n r.
  Proof using Hn1.
    induction fuel as [|f IH]; intros cur Hr Hinc Hge Hfuel; [lia|].
    destruct (neg_scores_keys sc cur Hr) as (ns & Ens & Nns & Kns).
    assert (Hlen : length ns = length (Kc cur)).
    { rewrite <- (map_length fst ns). apply same_keys_length; [exact Nns|apply arc_nodup|exact Kns]. }
    cbn [baldwin_loop]. rewrite Ens. destruct (Nat.ltb n (length ns)) eqn:Elt.
    2:{ apply Nat.ltb_ge in Elt. eexists. split; [reflexivity|].
        apply (nform_incl (map fst ns)); [intros x Hx; apply Hinc, Kns, Hx|].
        apply (gnb_nform Qle_bool Qle_bool_total Qle_bool_trans); [lia|exact Nns]. }
    apply Nat.ltb_lt in Elt.
    (* the next round, without the losers T, however the model writes the filter *)
    assert (Hrec : forall T g, NoDup T -> incl T (map fst ns) -> (forall c, g c = negb (cmem c T)) ->
      1 <= length T -> n <= length ns - length T ->
      exists r, baldwin_loop sc f (subset_votes (filter g (map fst ns)) cur) n = B_ok r /\ nform C0 n r).
    { intros T g HT HTi Hg Hpos Hle. destruct (drop_K cur (map fst ns) T Nns Kns HT HTi g Hg) as [L1 L2]. cbv zeta in L1, L2.
      rewrite map_length in L1. apply IH; [apply subset_ranks_ok, Hr| |lia|lia].
      intros y Hy. apply L2 in Hy. apply Hinc, Kns, (proj1 Hy). }
    destruct (gnb_one Qle_bool Qle_bool_total Qle_bool_trans ns) as [(l & -> & Hl)|(T & -> & HT & HTi & HT2)];
      [intros ->; simpl in Elt; lia|exact Nns| |].
    - apply (Hrec [l]); [constructor; [intros []|constructor]|intros y [<-|[]]; exact Hl| |cbn [length]; lia..].
      intros c. cbn [cmem]. rewrite orb_false_r. reflexivity.
    - assert (HTl : length T <= length ns) by (rewrite <- (map_length fst ns); apply NoDup_incl_length; assumption).
      destruct (Nat.ltb (length ns - length T) n) eqn:Er;
        [apply Nat.ltb_lt in Er|apply Nat.ltb_ge in Er; apply (Hrec T); [assumption|assumption|reflexivity|lia|lia]].
      (* dropping the tie leaves too few: the others are elected, the tie stands for the open seats *)
      destruct (drop_K cur (map fst ns) T Nns Kns HT HTi _ (fun c => eq_refl)) as [L1 L2]. cbv zeta in L1, L2.
      rewrite map_length in L1.
      destruct (neg_scores_keys sc _ (subset_ranks_ok (filter (fun c => negb (cmem c T)) (map fst ns)) cur Hr)) as (rs & -> & Nrs & Krs).
      assert (Hrsl : length rs = length ns - length T).
      { rewrite <- L1, <- (map_length fst rs). apply same_keys_length; [exact Nrs|apply arc_nodup|exact Krs]. }
      replace (n - (n - (length ns - length T))) with (length rs) by lia. rewrite <- Hrsl.
      eexists. split; [reflexivity|].
      assert (Hbest : exists e, get_n_best Qle_bool rs (length rs) = map Cand e /\ Permutation e (map fst rs)).
      { destruct rs as [|x rs']; [exists []; split; [reflexivity|constructor]|].
        destruct (gnb_all Qle_bool Qle_bool_total Qle_bool_trans (x :: rs') (length (x :: rs')) ltac:(simpl; lia) (le_n _)) as (s & Hp & ->).
        exists (map fst s). split; [reflexivity|apply Permutation_map, Hp]. }
      destruct Hbest as (e & -> & Hpe).
      assert (He : forall y, In y e <-> In y (map fst ns) /\ ~ In y T).
      { intros y. rewrite <- L2, <- Krs. split; apply Permutation_in; [exact Hpe|apply Permutation_sym, Hpe]. }
      exists e, T, (n - length rs). split; [reflexivity|].
      split; [rewrite (Permutation_length Hpe), map_length; lia|]. split; [right; lia|]. split.
      + apply nodup_app_intro; [exact (Permutation_NoDup (Permutation_sym Hpe) Nrs)|exact HT|].
        intros y Hy HyT. apply He in Hy. exact (proj2 Hy HyT).
      + apply incl_app; intros y Hy; apply Hinc, Kns; [apply He, Hy|apply HTi, Hy].
  Qed.
End BALDWIN_SHAPE.

(* Baldwin always answers, with exactly n entries in normal form: plain winners, then ONE tie object (the tied losers of the
   decisive round) repeated for the open seats, with more members than those seats *)
Theorem baldwin_nform sc votes n : ranks_ok votes = true -> 1 <= n <= length (Kc votes) ->
  exists r, baldwin sc votes n = B_ok r /\ nform (Kc votes) n r.
Proof.
  intros Hr [H1 H2]. unfold baldwin. apply baldwin_loop_nform; [exact H1|exact Hr|apply incl_refl|exact H2|lia].
Qed.

(* positional selectors: RankedToPositionalVotes in front of plurality *)
Lemma positional_keys sc votes : ranks_ok votes = true ->
  exists d, positional sc votes = Some d /\ NoDup (map fst d) /\ (forall x, In x (map fst d) <-> In x (Kc votes)).
Proof.
  intros Hr. destruct (neg_scores_keys sc votes Hr) as (ns & E & N & K). unfold neg_scores in E.
  destruct (positional sc votes) as [d|]; [|discriminate]. injection E as <-. exists d. split; [reflexivity|].
  rewrite map_map in N, K. cbn [fst] in N, K. split; [exact N|exact K].
Qed.

(* Borda, Dowdall, ... = the positional scores handed to get_n_best: exactly n entries in normal form over the candidates *)
Theorem positional_nform sc votes n : ranks_ok votes = true -> 1 <= n <= length (Kc votes) ->
  exists d, positional sc votes = Some d /\ nform (Kc votes) n (get_n_best Qle_bool d n).
Proof.
  intros Hr Hn. destruct (positional_keys sc votes Hr) as (d & E & N & K). exists d. split; [exact E|].
  apply (gnb_nform_perm Qle_bool Qle_bool_total Qle_bool_trans d (Kc votes) n Hn N (arc_nodup votes) K).
Qed.
