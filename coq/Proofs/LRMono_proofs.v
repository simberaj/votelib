(* Vote monotonicity (C17) of LargestRemainder with the exact Hare quota, over the model
   Model/QuotaDistributor.v (lr_evaluate): a party that gains votes, everything else equal, does not lose
   seats it holds for certain - nor its "possible" seats (certain seats + membership in the tie object).

   Plan: (1) who gets a remainder seat from get_n_best, read as a counting condition on the remainders;
   (2) an explicit description of the run of lr_evaluate under the Hare quota (no over-award, the whole-quota
   stage gives the floors of the ideal shares, the open seats are n - sum of the floors);
   (3) the counting argument comparing the two runs; (4) transfer to any insertion order of the second
   profile through the order-independence theorem of Proofs/QDOrder_proofs.v. *)
From Coq Require Import ZArith QArith Qround List Bool Lia Lqa Permutation Arith.
From VL Require Import Prelude.PyDict Model.GetNBest Model.Quota Model.QuotaDistributor
     Proofs.Dict_proofs Proofs.GetNBest_proofs Proofs.QOrd Proofs.QD_proofs Proofs.QD2_proofs
     Proofs.HAPerm_proofs Proofs.LRScale_proofs Proofs.QDOrder_proofs.
Import ListNotations.
Open Scope Z_scope.

Definition cnt {A} (f : A -> bool) (l : list A) : nat := length (filter f l).

Lemma cnt_app {A} (f : A -> bool) a b : cnt f (a ++ b) = (cnt f a + cnt f b)%nat.
Proof. unfold cnt. rewrite filter_app, app_length. reflexivity. Qed.

Lemma cnt_perm {A} (f : A -> bool) l l' : Permutation l l' -> cnt f l = cnt f l'.
Proof. intros H. unfold cnt. apply Permutation_length, HA_proofs.Permutation_filter', H. Qed.

Lemma cnt_le_length {A} (f : A -> bool) l : (cnt f l <= length l)%nat.
Proof. unfold cnt. induction l as [|x t IH]; simpl; [lia|]. destruct (f x); simpl; lia. Qed.

Lemma cnt_all {A} (f : A -> bool) l : Forall (fun x => f x = true) l -> cnt f l = length l.
Proof. intros H. unfold cnt. rewrite filter_all by exact H. reflexivity. Qed.

Lemma cnt_none {A} (f : A -> bool) l : Forall (fun x => f x = false) l -> cnt f l = 0%nat.
Proof. intros H. unfold cnt. rewrite filter_none by exact H. reflexivity. Qed.

Lemma cnt_map {A B} (f : B -> bool) (g : A -> B) l : cnt f (map g l) = cnt (fun x => f (g x)) l.
Proof. unfold cnt. induction l as [|x t IH]; simpl; [reflexivity|]. destruct (f (g x)); simpl; rewrite IH; reflexivity. Qed.

Lemma cnt_le_sum {A} (f g h : A -> bool) l :
  (forall x, In x l -> f x = true -> g x = true \/ h x = true) -> (cnt f l <= cnt g l + cnt h l)%nat.
Proof.
  unfold cnt. induction l as [|x t IH]; intros H; simpl; [lia|].
  assert (IH' : (length (filter f t) <= length (filter g t) + length (filter h t))%nat).
  { apply IH. intros y Hy. apply H. right. exact Hy. }
  destruct (f x) eqn:Ef; [|destruct (g x), (h x); simpl; lia].
  destruct (H x (or_introl eq_refl) Ef) as [E|E]; rewrite E; [destruct (h x)|destruct (g x)]; simpl; lia.
Qed.

Lemma cnt_pos {A} (f : A -> bool) l x : In x l -> f x = true -> (1 <= cnt f l)%nat.
Proof.
  intros Hin Hf. unfold cnt. assert (H : In x (filter f l)) by (apply filter_In; split; assumption).
  destruct (filter f l); [destruct H|simpl; lia].
Qed.

Lemma cnt_lt_length {A} (f : A -> bool) l x : In x l -> f x = false -> (cnt f l < length l)%nat.
Proof.
  intros Hin Hf. unfold cnt. induction l as [|y t IH]; [destruct Hin|]. simpl. destruct Hin as [->|Hi].
  - rewrite Hf. pose proof (cnt_le_length f t). unfold cnt in *. lia.
  - specialize (IH Hi). destruct (f y); simpl; lia.
Qed.

Definition ge_f (x : Q) (it : C * Q) : bool := Qle_bool x (snd it).      (* at or above x *)
Definition gt_f (x : Q) (it : C * Q) : bool := negb (Qle_bool (snd it) x). (* strictly above x *)

Lemma gt_f_Qlt x it : gt_f x it = true <-> (x < snd it)%Q.
Proof. apply (ltb_Qlt x (snd it)). Qed.

Lemma cnt_ge_all x l : Forall (fun it => (x <= snd it)%Q) l -> cnt (ge_f x) l = length l.
Proof. intros H. apply cnt_all. eapply Forall_impl; [|exact H]. intros it. apply Qle_bool_iff. Qed.

Lemma cnt_ge_none x l : Forall (fun it => (snd it < x)%Q) l -> cnt (ge_f x) l = 0%nat.
Proof.
  intros H. apply cnt_none. eapply Forall_impl; [|exact H]. intros it Hit. apply not_true_iff_false.
  intros Hc. apply Qle_bool_iff in Hc. exact (Qlt_not_le _ _ Hit Hc).
Qed.

Lemma cnt_gt_all x l : Forall (fun it => (x < snd it)%Q) l -> cnt (gt_f x) l = length l.
Proof. intros H. apply cnt_all. eapply Forall_impl; [|exact H]. intros it. apply gt_f_Qlt. Qed.

Lemma cnt_gt_none x l : Forall (fun it => (snd it <= x)%Q) l -> cnt (gt_f x) l = 0%nat.
Proof.
  intros H. apply cnt_none. eapply Forall_impl; [|exact H]. intros it Hit. apply not_true_iff_false.
  intros Hc. apply gt_f_Qlt in Hc. exact (Qlt_not_le _ _ Hc Hit).
Qed.

Lemma in_cand_of (l : list (C * Q)) p : In (Cand p) (map (@cand_of C Q) l) <-> exists v, In (p, v) l.
Proof. apply GetNBest_proofs.in_cand_of. Qed.

Lemma in_cand_keys (l : list (C * Q)) p : In (Cand p) (map (@cand_of C Q) l) <-> In p (map fst l).
Proof.
  rewrite in_cand_of, in_map_iff. split.
  - intros (v & H). exists (p, v). split; [reflexivity|exact H].
  - intros ([c v] & <- & H). exists v. exact H.
Qed.

Lemma tie_not_cand (l : list (C * Q)) T : ~ In (TieR T) (map (@cand_of C Q) l).
Proof. intros H. apply in_map_iff in H. destruct H as (? & H & _). discriminate. Qed.

Lemma in_cand_shape (l : list (C * Q)) T j p :
  In (Cand p) (map (@cand_of C Q) l ++ repeat (TieR T) j) <-> In p (map fst l).
Proof.
  rewrite in_app_iff, in_cand_keys. split; [|intros H; left; exact H].
  intros [H|H]; [exact H|]. apply repeat_spec in H. discriminate.
Qed.

Lemma in_tie_shape (l : list (C * Q)) T j T' :
  In (TieR T') (map (@cand_of C Q) l ++ repeat (TieR T) j) <-> T' = T /\ (1 <= j)%nat.
Proof.
  rewrite in_app_iff. split.
  - intros [H|H]; [destruct (tie_not_cand _ _ H)|]. destruct j; [destruct H|].
    apply repeat_spec in H. injection H as ->. split; [reflexivity|lia].
  - intros [-> Hj]. right. destruct j; [lia|left; reflexivity].
Qed.

Section Gnb.
  Variable rems : list (C * Q).
  Variable k : nat.
  Hypothesis Hk : (1 <= k)%nat.
  Hypothesis Hnd : NoDup (map fst rems).
  Variables (p : C) (x : Q).
  Hypothesis Hin : In (p, x) rems.

  Let best := get_n_best Qle_bool rems k.

  (* p's entry in a block of a rearranged table *)
  Lemma p_entry l L : Permutation L rems -> incl l L -> In p (map fst l) -> In (p, x) l.
  Proof.
    intros HP Hi Hp. apply in_map_iff in Hp. destruct Hp as ([p' v] & Hp' & Hv). simpl in Hp'. subst p'.
    rewrite <- (NoDup_fst_eq rems p v x Hnd (Permutation_in _ HP (Hi _ Hv)) Hin). exact Hv.
  Qed.

  Lemma ge_self : ge_f x (p, x) = true.
  Proof. apply Qle_bool_iff, Qle_refl. Qed.

  Lemma gt_self : gt_f x (p, x) = false.
  Proof. apply negb_false_iff, Qle_bool_iff, Qle_refl. Qed.

  (* a certain remainder seat: at most k items at or above the own value *)
  Lemma gnb_sure_count : In (Cand p) best -> (cnt (ge_f x) rems <= k)%nat.
  Proof.
    intros Hc. unfold best in Hc.
    destruct (gnb_shapes rems k Hk) as [(top & below & Hp & Hlen & Hord & E)|(above & level & below & thr & Hp & Ha & Hl & Hb & Hpos & E)];
      rewrite E in Hc; rewrite <- (cnt_perm _ _ _ Hp), !cnt_app.
    - apply in_cand_keys, (p_entry top _ Hp (incl_appl _ (incl_refl _))) in Hc.
      rewrite (cnt_ge_none x below) by (apply Forall_forall; intros b Hb; exact (Hord _ b Hc Hb)).
      pose proof (cnt_le_length (ge_f x) top). lia.
    - apply in_cand_shape, (p_entry above _ Hp (incl_appl _ (incl_refl _))) in Hc.
      pose proof (proj1 (Forall_forall _ _) Ha _ Hc) as Hx. cbn [snd] in Hx.
      rewrite (cnt_ge_none x level), (cnt_ge_none x below)
        by (eapply Forall_impl; [|eassumption]; intros it Hit; cbv beta in *; lra).
      pose proof (cnt_le_length (ge_f x) above). lia.
  Qed.

  Lemma gnb_count_sure : (cnt (ge_f x) rems <= k)%nat -> In (Cand p) best.
  Proof.
    intros Hc. unfold best. pose proof Hin as Hloc.
    destruct (gnb_shapes rems k Hk) as [(top & below & Hp & Hlen & Hord & E)|(above & level & below & thr & Hp & Ha & Hl & Hb & Hpos & E)];
      rewrite E; rewrite <- (cnt_perm _ _ _ Hp), !cnt_app in Hc;
      apply (Permutation_in _ (Permutation_sym Hp)), in_app_or in Hloc.
    - destruct Hloc as [H|H]; [apply in_cand_of; exists x; exact H|exfalso].
      rewrite (cnt_ge_all x top) in Hc by (apply Forall_forall; intros a Hi; apply Qlt_le_weak, (Hord a _ Hi H)).
      pose proof (cnt_pos (ge_f x) below (p, x) H ge_self). pose proof (cnt_le_length (ge_f x) below). apply Permutation_length in Hp. rewrite app_length in Hp. lia.
    - apply in_cand_shape. destruct Hloc as [H|H]; [apply (in_map fst _ _ H)|exfalso].
      (* p at the level or below it: everything above and at the level counts, more than k items *)
      assert (Hx : (x <= thr)%Q).
      { apply in_app_or in H. destruct H as [H|H]; [pose proof (proj1 (Forall_forall _ _) Hl _ H) as Hx|pose proof (proj1 (Forall_forall _ _) Hb _ H) as Hx];
          cbn [snd] in Hx; lra. }
      rewrite (cnt_ge_all x above), (cnt_ge_all x level) in Hc
        by (eapply Forall_impl; [|eassumption]; intros it Hit; cbv beta in *; lra).
      lia.
  Qed.

  (* a possible remainder seat (certain, or as a member of the tie): fewer than k items strictly above *)
  Definition in_tie (c : C) (b : list (res C)) : Prop := exists T, In (TieR T) b /\ In c T.

  Lemma gnb_poss_count : In (Cand p) best \/ in_tie p best -> (cnt (gt_f x) rems < k)%nat.
  Proof.
    intros Hc. unfold best in Hc.
    destruct (gnb_shapes rems k Hk) as [(top & below & Hp & Hlen & Hord & E)|(above & level & below & thr & Hp & Ha & Hl & Hb & Hpos & E)];
      rewrite E in Hc; rewrite <- (cnt_perm _ _ _ Hp), !cnt_app.
    - destruct Hc as [Hc|(T & HT & _)]; [|destruct (tie_not_cand _ _ HT)].
      apply in_cand_keys, (p_entry top _ Hp (incl_appl _ (incl_refl _))) in Hc.
      rewrite (cnt_gt_none x below) by (apply Forall_forall; intros b Hb; apply Qlt_le_weak, (Hord _ b Hc Hb)).
      pose proof (cnt_lt_length (gt_f x) top (p, x) Hc gt_self). lia.
    - assert (Hx : (thr <= x)%Q).
      { destruct Hc as [Hc|(T & HT & HpT)].
        - apply in_cand_shape, (p_entry above _ Hp (incl_appl _ (incl_refl _))) in Hc.
          pose proof (proj1 (Forall_forall _ _) Ha _ Hc) as Hx. cbn [snd] in Hx. lra.
        - apply in_tie_shape in HT. destruct HT as [-> _].
          apply (p_entry level _ Hp (incl_appr _ (incl_appl _ (incl_refl _)))) in HpT.
          pose proof (proj1 (Forall_forall _ _) Hl _ HpT) as Hx. cbn [snd] in Hx. lra. }
      rewrite (cnt_gt_none x level), (cnt_gt_none x below)
        by (eapply Forall_impl; [|eassumption]; intros it Hit; cbv beta in *; lra).
      pose proof (cnt_le_length (gt_f x) above). lia.
  Qed.

  Lemma gnb_count_poss : (cnt (gt_f x) rems < k)%nat -> In (Cand p) best \/ in_tie p best.
  Proof.
    intros Hc. unfold best. pose proof Hin as Hloc.
    destruct (gnb_shapes rems k Hk) as [(top & below & Hp & Hlen & Hord & E)|(above & level & below & thr & Hp & Ha & Hl & Hb & Hpos & E)];
      rewrite E; rewrite <- (cnt_perm _ _ _ Hp), !cnt_app in Hc;
      apply (Permutation_in _ (Permutation_sym Hp)), in_app_or in Hloc.
    - left. destruct Hloc as [H|H]; [apply in_cand_of; exists x; exact H|exfalso].
      rewrite (cnt_gt_all x top) in Hc by (apply Forall_forall; intros a Hi; exact (Hord a _ Hi H)).
      assert (Hb : (1 <= length below)%nat) by (destruct below; [destruct H|simpl; lia]).
      apply Permutation_length in Hp. rewrite app_length in Hp. lia.
    - destruct Hloc as [H|H]; [|apply in_app_or in H; destruct H as [H|H]].
      + left. apply in_cand_shape, (in_map fst _ _ H).
      + right. exists (map fst level). split; [apply in_tie_shape; split; [reflexivity|lia]|apply (in_map fst _ _ H)].
      + exfalso. pose proof (proj1 (Forall_forall _ _) Hb _ H) as Hx. cbn [snd] in Hx.
        rewrite (cnt_gt_all x above), (cnt_gt_all x level) in Hc
          by (eapply Forall_impl; [|eassumption]; intros it Hit; cbv beta in *; lra).
        lia.
  Qed.

  (* a certain seat and the tie exclude each other *)
  Lemma gnb_not_both : In (Cand p) best -> in_tie p best -> False.
  Proof.
    unfold best. intros Hc (T & HT & HpT).
    destruct (gnb_shapes rems k Hk) as [(top & below & _ & _ & _ & E)|(above & level & below & thr & Hp & Ha & Hl & _ & _ & E)];
      rewrite E in Hc, HT; [exact (tie_not_cand _ _ HT)|].
    apply in_tie_shape in HT. destruct HT as [-> _].
    apply in_cand_shape, (p_entry above _ Hp (incl_appl _ (incl_refl _))) in Hc.
    apply (p_entry level _ Hp (incl_appr _ (incl_appl _ (incl_refl _)))) in HpT.
    pose proof (proj1 (Forall_forall _ _) Ha _ Hc) as H1. pose proof (proj1 (Forall_forall _ _) Hl _ HpT) as H2.
    cbn [snd] in H1, H2. lra.
  Qed.

  (* every tie object of the result is one and the same list *)
  Lemma gnb_tie_unique T1 T2 : In (TieR T1) best -> In (TieR T2) best -> T1 = T2.
  Proof using Hk Hin.
    unfold best. intros H1 H2.
    destruct (gnb_shapes rems k Hk) as [(top & below & _ & _ & _ & E)|(above & level & below & thr & _ & _ & _ & _ & _ & E)];
      rewrite E in H1, H2; [destruct (tie_not_cand _ _ H1)|].
    apply in_tie_shape in H1, H2. destruct H1 as [-> _], H2 as [-> _]. reflexivity.
  Qed.
End Gnb.

Open Scope Q_scope.

Definition qs (l : list (C * Q)) : Q := fold_right Qplus 0 (map snd l).

Lemma qsumv_qs l : qsumv l == qs l.
Proof.
  unfold qsumv, qs.
  assert (H : forall (m : list Q) a, fold_left Qplus m a == a + fold_right Qplus 0 m).
  { induction m as [|y t IH]; intros a; simpl; [ring|]. rewrite IH. ring. }
  rewrite H. ring.
Qed.

Lemma qs_nonneg l : (forall c v, In (c, v) l -> 0 <= v) -> 0 <= qs l.
Proof.
  unfold qs. induction l as [|[c v] t IH]; intros H; simpl; [apply Qle_refl|].
  assert (0 <= v) by (apply (H c); left; reflexivity).
  assert (0 <= fold_right Qplus 0 (map snd t)) by (apply IH; intros c' v' Hi; apply (H c'); right; exact Hi).
  lra.
Qed.

Lemma qs_member l c v : (forall c v, In (c, v) l -> 0 <= v) -> In (c, v) l -> v <= qs l.
Proof.
  induction l as [|[c0 v0] t IH]; intros H Hin; [destruct Hin|].
  assert (H0 : 0 <= v0) by (apply (H c0); left; reflexivity).
  assert (Ht : forall c v, In (c, v) t -> 0 <= v) by (intros c' v' Hi; apply (H c'); right; exact Hi).
  pose proof (qs_nonneg t Ht) as Hs. unfold qs in *. simpl.
  destruct Hin as [Hin|Hin].
  - injection Hin as _ ->. lra.
  - specialize (IH Ht Hin). lra.
Qed.

Lemma Qfloor_bounds x z : inject_Z z <= x -> x < inject_Z (z + 1) -> Qfloor x = z.
Proof.
  intros H1 H2. pose proof (Qfloor_le x) as H3. pose proof (Qlt_floor x) as H4.
  assert (A : (Qfloor x < z + 1)%Z).
  { rewrite Zlt_Qlt. eapply Qle_lt_trans; [exact H3|exact H2]. }
  assert (B : (z < Qfloor x + 1)%Z).
  { rewrite Zlt_Qlt. eapply Qle_lt_trans; [exact H1|exact H4]. }
  lia.
Qed.

Lemma div_nonneg v q : 0 < q -> 0 <= v -> 0 <= v / q.
Proof.
  intros Hq Hv. apply Qle_shift_div_l; [exact Hq|]. lra.
Qed.

Lemma div_mono_num a b q : 0 < q -> a <= b -> a / q <= b / q.
Proof. apply HA_proofs.quot_num_mono. Qed.

(* a larger quota makes a smaller share *)
Lemma div_anti_den v q1 q2 : 0 < q1 -> q1 <= q2 -> 0 <= v -> v / q2 <= v / q1.
Proof. intros H1 H12 Hv. apply HA_proofs.quot_mono; assumption. Qed.

Open Scope Z_scope.

Definition fl (q v : Q) : Z := Qfloor (v / q).                       (* whole quotas *)
Definition remval (q v : Q) : Q := (v / q - inject_Z (fl q v))%Q.      (* exact remainder *)
Definition remf (q : Q) (cv : C * Q) : C * Q := (fst cv, remval q (snd cv)).
Definition fsum (q : Q) (l : list (C * Q)) : Z := lsumZ (map (fun cv => fl q (snd cv)) l).
Definition cands (b : list (res C)) : list C :=
  flat_map (fun r => match r with Cand c => [c] | TieR _ => [] end) b.
Definition tie_has (c : C) (b : list (res C)) : bool :=
  existsb (fun r => match r with TieR l => cmem c l | Cand _ => false end) b.
(* membership of a Tie key of a result dictionary *)
Definition tmem (s : list (key * Z)) (c : C) : bool :=
  existsb (fun kv : key * Z => match fst kv with KT l => cmem c l | K _ => false end) s.

(* seats held for certain plus the possible seat as a member of a Tie key *)
Definition kposs (s : list (key * Z)) (c : C) : Z := kdget s c + (if tmem s c then 1 else 0).

Definition hq (votes : list (C * Q)) (n : Z) : Q := hare (qsumv votes) n.
Definition hsel (votes : list (C * Q)) (n : Z) : list (C * Z) := flat_map (isel true (hq votes n) [] []) votes.
Definition hR (votes : list (C * Q)) (n : Z) : Z := n - fsum (hq votes n) votes.
Definition hbest (votes : list (C * Q)) (n : Z) : list (res C) :=
  get_n_best Qle_bool (map (remf (hq votes n)) votes) (Z.to_nat (hR votes n)).
Definition hout (votes : list (C * Q)) (n : Z) : list (key * Z) :=
  if hR votes n <=? 0 then plain (hsel votes n) else seat_best (plain (hsel votes n)) (hbest votes n).

Lemma fsum_le q l : (0 < q)%Q -> (inject_Z (fsum q l) <= qs l / q)%Q.
Proof.
  intros Hq. unfold fsum, qs, lsumZ. induction l as [|[c v] t IH]; cbn [map fold_right snd].
  - unfold Qdiv. rewrite Qmult_0_l. apply Qle_refl.
  - rewrite inject_Z_plus.
    set (S := fold_right Qplus 0%Q (map snd t)) in *.
    set (F := inject_Z (fold_right Z.add 0 (map (fun cv : C * Q => fl q (snd cv)) t))) in *.
    assert (E : ((v + S) / q == v / q + S / q)%Q) by (unfold Qdiv; ring).
    rewrite E. pose proof (Qfloor_le (v / q)) as H. fold (fl q v) in H. lra.
Qed.

Lemma in_cands c b : In c (cands b) <-> In (Cand c) b.
Proof.
  unfold cands. rewrite in_flat_map. split.
  - intros ([c'|l] & Hr & Hc); [|destruct Hc]. destruct Hc as [->|[]]. exact Hr.
  - intros H. exists (Cand c). split; [exact H|left; reflexivity].
Qed.

Lemma tie_has_in c b : tie_has c b = true <-> in_tie c b.
Proof.
  unfold tie_has, in_tie. rewrite existsb_exists. split.
  - intros ([c'|l] & Hr & Hc); [discriminate|]. exists l. split; [exact Hr|apply cmem_In, Hc].
  - intros (T & HT & Hc). exists (TieR T). split; [exact HT|apply cmem_In, Hc].
Qed.

(* the seats under the plain key and the tie membership after the remainder stage *)
Lemma plain_of_seat_best best : forall qe, plain_of (seat_best qe best) = fold_left incr_t (cands best) (plain_of qe).
Proof.
  unfold seat_best. induction best as [|[c|l] best IH]; intros qe; cbn [fold_left cands flat_map]; [reflexivity| |].
  - rewrite IH, plain_kincr_K. reflexivity.
  - rewrite IH, plain_kincr_T. reflexivity.
Qed.

Lemma tmem_kincr_K d c p : tmem (kincr d (K c)) p = tmem d p.
Proof.
  unfold tmem. induction d as [|[[c'|l] s] t IH]; cbn [kincr key_eqb]; [reflexivity| |].
  - destruct (ceqb c c'); cbn [existsb fst]; [reflexivity|exact IH].
  - cbn [existsb fst]. rewrite IH. reflexivity.
Qed.

Lemma forallb_cmem_In x y : forallb (fun c => cmem c y) x = true -> forall c, In c x -> In c y.
Proof. intros H c Hc. rewrite forallb_forall in H. apply cmem_In, H, Hc. Qed.

Lemma tmem_kincr_T d l p : tmem (kincr d (KT l)) p = tmem d p || cmem p l.
Proof.
  unfold tmem. induction d as [|[[c'|l0] s] t IH]; cbn [kincr key_eqb].
  - cbn [existsb fst]. destruct (cmem p l); reflexivity.
  - cbn [existsb fst]. exact IH.
  - destruct (forallb (fun c => cmem c l0) l && forallb (fun c => cmem c l) l0) eqn:E; cbn [existsb fst].
    + apply andb_true_iff in E. destruct E as [E1 E2].
      destruct (cmem p l) eqn:Ep; [|rewrite orb_false_r; reflexivity].
      apply cmem_In in Ep. pose proof (forallb_cmem_In _ _ E1 p Ep) as H. apply cmem_In in H. rewrite H. reflexivity.
    + rewrite IH. rewrite orb_assoc. reflexivity.
Qed.

Lemma tmem_seat_best p best : forall qe, tmem (seat_best qe best) p = tmem qe p || tie_has p best.
Proof.
  unfold seat_best, tie_has. induction best as [|[c|l] best IH]; intros qe; cbn [fold_left existsb].
  - rewrite orb_false_r. reflexivity.
  - rewrite IH, tmem_kincr_K. reflexivity.
  - rewrite IH, tmem_kincr_T, orb_assoc. reflexivity.
Qed.

Lemma tmem_plain sel p : tmem (plain sel) p = false.
Proof. unfold tmem, plain. induction sel as [|x t IH]; simpl; [reflexivity|exact IH]. Qed.

Lemma hare_ext : quota_ext hare.
Proof. intros a b n H. unfold hare. rewrite H. reflexivity. Qed.

(* the whole-quota loop, party by party *)
Lemma scan_item_cap_add ae q prev caps c v :
  cap_add ae q prev caps c v = match scan_item ae q prev caps (c, v) with Some s => s | None => 0 end.
Proof.
  unfold cap_add, scan_item. cbn [fst snd]. destruct (fulfills ae v q); [|reflexivity].
  destruct (0 <? _); reflexivity.
Qed.

Lemma zsumv_lsumZ (l : list (C * Z)) : zsumv l = lsumZ (map snd l).
Proof. unfold zsumv. rewrite fold_add_acc. lia. Qed.

Lemma zsumv_isel ae votes q prev caps :
  zsumv (flat_map (isel ae q prev caps) votes) = lsumZ (map (fun cv : C * Q => cap_add ae q prev caps (fst cv) (snd cv)) votes).
Proof.
  rewrite zsumv_lsumZ. induction votes as [|[c v] t IH]; [reflexivity|].
  cbn [flat_map map fst snd]. rewrite map_app, lsumZ_app, IH, scan_item_cap_add. unfold isel.
  destruct (scan_item ae q prev caps (c, v)); cbn [map snd fst lsumZ fold_right]; unfold lsumZ; lia.
Qed.

Lemma zsumv_scan ae votes q prev caps : NoDup (map fst votes) ->
  zsumv (scan ae votes q prev caps []) = lsumZ (map (fun cv : C * Q => cap_add ae q prev caps (fst cv) (snd cv)) votes).
Proof. intros Hnd. rewrite scan_char; [|exact Hnd|intros c _ []]. apply zsumv_isel. Qed.

Section Run.
  Variable pol : policy.
  Variable votes : list (C * Q).
  Variable n : Z.
  Hypothesis Hn : 1 <= n.
  Hypothesis Hnd : NoDup (map fst votes).
  Hypothesis Hpos : forall c v, In (c, v) votes -> (0 <= v)%Q.
  Hypothesis HV : (0 < qsumv votes)%Q.

  Let q := hq votes n.

  Lemma n_pos : (0 < inject_Z n)%Q.
  Proof. change 0%Q with (inject_Z 0). rewrite <- Zlt_Qlt. lia. Qed.

  Lemma q_pos : (0 < q)%Q.
  Proof. unfold q, hq, hare. apply Qlt_shift_div_l; [exact n_pos|]. lra. Qed.

  Lemma total_over_q : (qs votes / q == inject_Z n)%Q.
  Proof.
    pose proof n_pos. unfold q, hq, hare. rewrite <- (qsumv_qs votes). field. split; lra.
  Qed.

  Lemma fl_nonneg c v : In (c, v) votes -> 0 <= fl q v.
  Proof.
    intros Hin. unfold fl. change 0 with (Qfloor 0). apply Qfloor_resp_le, div_nonneg; [exact q_pos|apply (Hpos c), Hin].
  Qed.

  Lemma fl_le_n c v : In (c, v) votes -> fl q v <= n.
  Proof.
    intros Hin. unfold fl. rewrite <- (Qfloor_Z n). apply Qfloor_resp_le. rewrite <- total_over_q.
    apply div_mono_num; [exact q_pos|]. apply (qs_member votes c v Hpos Hin).
  Qed.

  Lemma fsum_le_n : fsum q votes <= n.
  Proof. rewrite Zle_Qle. rewrite <- total_over_q. apply fsum_le, q_pos. Qed.

  Lemma scan_item_hare c v : In (c, v) votes ->
    scan_item true q [] [] (c, v) = if 0 <? fl q v then Some (fl q v) else None.
  Proof.
    intros Hin. pose proof q_pos as Hq. pose proof (Hpos c v Hin) as Hv.
    pose proof (div_nonneg v q Hq Hv) as Hd.
    unfold scan_item, cap_whole. cbn [fst snd]. unfold dget_or. cbn [dget]. rewrite (py_trunc_floor _ Hd), Z.sub_0_r.
    fold (fl q v). destruct (fulfills true v q) eqn:Ef.
    - destruct (0 <? fl q v); reflexivity.
    - assert (Hz : fl q v = 0).
      { unfold fulfills in Ef. apply orb_false_iff in Ef. destruct Ef as [E1 E2]. cbn [andb] in E2.
        apply negb_false_iff, Qle_bool_iff in E1.
        assert (Hne : ~ (v == q)%Q) by (intros H; apply Qeq_bool_iff in H; congruence).
        assert (Hlt : (v < q)%Q) by (apply Qle_lteq in E1; tauto).
        unfold fl. apply Qfloor_bounds; [exact Hd|]. cbn [Z.add]. change (inject_Z 1) with 1%Q.
        apply Qlt_shift_div_r; [exact Hq|]. lra. }
      rewrite Hz. reflexivity.
  Qed.

  Lemma scan_hare : scan true votes q [] [] [] = hsel votes n.
  Proof.
    rewrite scan_char; [|exact Hnd|intros c _ []]. cbn [app]. fold q. unfold hsel. fold q. reflexivity.
  Qed.

  Lemma hsel_nodup : keysnd (hsel votes n).
  Proof. apply isel_nodup, Hnd. Qed.

  Lemma cap_add_hare c v : In (c, v) votes -> cap_add true q [] [] c v = fl q v.
  Proof.
    intros Hin. rewrite scan_item_cap_add, (scan_item_hare c v Hin). destruct (0 <? fl q v) eqn:E; [reflexivity|].
    apply Z.ltb_ge in E. pose proof (fl_nonneg c v Hin). lia.
  Qed.

  Lemma hsel_get c v : In (c, v) votes -> dget_or (hsel votes n) c 0 = fl q v.
  Proof.
    intros Hin. rewrite <- scan_hare.
    destruct (scan_spec true votes q [] [] [] Hnd (fun _ _ => eq_refl)) as (Hv & _).
    rewrite (Hv c v Hin). exact (cap_add_hare c v Hin).
  Qed.

  Lemma zsumv_hsel : zsumv (hsel votes n) = fsum q votes.
  Proof.
    unfold hsel. fold q. rewrite zsumv_isel. unfold fsum. f_equal.
    apply map_ext_in. intros [c v] Hi. exact (cap_add_hare c v Hi).
  Qed.

  Lemma qd_hare : qd_evaluate hare true pol votes n [] [] = QD_ok (plain (hsel votes n)).
  Proof.
    unfold qd_evaluate. cbv zeta. fold (hq votes n). fold q.
    assert (Qeq_bool q 0 = false) as ->.
    { apply not_true_iff_false. intros H. apply Qeq_bool_iff in H. pose proof q_pos. lra. }
    cbn [andb]. rewrite scan_hare.
    rewrite zsumv_hsel. change (zsumv []) with 0. rewrite Z.add_0_r.
    assert (n <? fsum q votes = false) as -> by (apply Z.ltb_ge, fsum_le_n). reflexivity.
  Qed.

  Lemma rems_hare : remainders votes q (hsel votes n) [] = map (remf q) votes.
  Proof.
    rewrite remainders_eq, (filter_all _ votes) by (apply Forall_forall; intros; reflexivity).
    apply map_ext_in. intros [c v] Hi. unfold remf, remval. cbn [fst snd]. rewrite (hsel_get c v Hi). reflexivity.
  Qed.

  (* the run, explicitly: it always succeeds *)
  Theorem lr_hare_run : lr_evaluate hare true pol votes n [] [] = LR_ok (hout votes n).
  Proof.
    assert (Hq : ~ (hare (qsumv votes) n == 0)%Q) by (pose proof q_pos as H; unfold q, hq in H; lra).
    rewrite (lr_structure hare true pol votes n [] [] (hsel votes n) Hq qd_hare).
    unfold add_dict. cbn [fold_left]. rewrite zsumv_hsel. fold (hq votes n). fold q. rewrite rems_hare.
    unfold hout, hbest, hR. fold q. destruct (n - fsum q votes <=? 0); reflexivity.
  Qed.

  Lemma remf_keys qq (l : list (C * Q)) : map fst (map (remf qq) l) = map fst l.
  Proof. rewrite map_map. reflexivity. Qed.

  Lemma hbest_cands_nodup : 0 < hR votes n -> NoDup (cands (hbest votes n)).
  Proof.
    intros HR. unfold hbest, cands. fold q. rewrite <- rems_hare. apply lr_at_most_one; [lia|exact Hnd].
  Qed.

  Lemma hout_plain_nodup : keysnd (plain_of (hout votes n)).
  Proof.
    unfold hout. destruct (hR votes n <=? 0).
    - unfold plain. rewrite plain_of_kplain. exact hsel_nodup.
    - rewrite plain_of_seat_best. apply fold_op_nodup; [apply incr_t_nodup|].
      unfold plain. rewrite plain_of_kplain. exact hsel_nodup.
  Qed.

  (* seats held for certain: the whole quotas, plus one when the party is a plain entry of the remainder stage *)
  Lemma kdget_hout c v : In (c, v) votes ->
    kdget (hout votes n) c = fl q v + (if 0 <? hR votes n then count c (cands (hbest votes n)) else 0).
  Proof.
    intros Hin. rewrite (kdget_plain_of _ _ hout_plain_nodup). unfold hout.
    destruct (hR votes n <=? 0) eqn:E.
    - apply Z.leb_le in E. assert (0 <? hR votes n = false) as -> by (apply Z.ltb_ge; lia).
      unfold plain. rewrite plain_of_kplain, (hsel_get c v Hin). lia.
    - apply Z.leb_gt in E. assert (0 <? hR votes n = true) as -> by (apply Z.ltb_lt; lia).
      rewrite plain_of_seat_best, dget_or_fold_incr. unfold plain. rewrite plain_of_kplain, (hsel_get c v Hin). reflexivity.
  Qed.

  Lemma tmem_hout c : tmem (hout votes n) c = (0 <? hR votes n) && tie_has c (hbest votes n).
  Proof.
    unfold hout. destruct (hR votes n <=? 0) eqn:E.
    - apply Z.leb_le in E. assert (0 <? hR votes n = false) as -> by (apply Z.ltb_ge; lia). apply tmem_plain.
    - apply Z.leb_gt in E. assert (0 <? hR votes n = true) as -> by (apply Z.ltb_lt; lia).
      rewrite tmem_seat_best, tmem_plain. reflexivity.
  Qed.

  (* the remainder stage gives a party one further certain seat exactly when it is a plain entry of the result ... *)
  Lemma kdget_hout_cases c v : In (c, v) votes ->
    (0 < hR votes n /\ In (Cand c) (hbest votes n) /\ kdget (hout votes n) c = fl q v + 1) \/
    (~ (0 < hR votes n /\ In (Cand c) (hbest votes n)) /\ kdget (hout votes n) c = fl q v).
  Proof.
    intros Hin. rewrite (kdget_hout c v Hin). destruct (0 <? hR votes n) eqn:E; [apply Z.ltb_lt in E|apply Z.ltb_ge in E; right; lia].
    destruct (in_dec Pos.eq_dec c (cands (hbest votes n))) as [Hi|Hi].
    - left. rewrite (count_nodup _ _ (hbest_cands_nodup E) Hi). apply in_cands in Hi. tauto.
    - right. rewrite (count_notin _ _ Hi). split; [intros [_ H]; apply Hi, in_cands, H|lia].
  Qed.

  (* ... and one further possible seat exactly when it is a plain entry or a member of the tie, never both *)
  Lemma kposs_hout_cases c v : In (c, v) votes ->
    (0 < hR votes n /\ (In (Cand c) (hbest votes n) \/ in_tie c (hbest votes n)) /\ kposs (hout votes n) c = fl q v + 1) \/
    (~ (0 < hR votes n /\ (In (Cand c) (hbest votes n) \/ in_tie c (hbest votes n))) /\ kposs (hout votes n) c = fl q v).
  Proof.
    intros Hin. unfold kposs. rewrite tmem_hout.
    destruct (kdget_hout_cases c v Hin) as [(R & Hc & ->)|(N & ->)].
    - left. split; [exact R|]. split; [left; exact Hc|].
      destruct (tie_has c (hbest votes n)) eqn:Et; [exfalso|rewrite andb_false_r; lia]. apply tie_has_in in Et.
      refine (gnb_not_both _ _ _ _ c (remval q v) _ Hc Et); [lia|rewrite remf_keys; exact Hnd|].
      apply in_map_iff. exists (c, v). split; [reflexivity|exact Hin].
    - destruct ((0 <? hR votes n) && tie_has c (hbest votes n)) eqn:Et.
      + apply andb_true_iff in Et. destruct Et as [R Et]. apply Z.ltb_lt in R. apply tie_has_in in Et. left. tauto.
      + right. split; [|lia]. intros [R [Hc|Ht]]; [exact (N (conj R Hc))|].
        apply Z.ltb_lt in R. apply tie_has_in in Ht. rewrite R, Ht in Et. discriminate.
  Qed.
End Run.

Definition updp (p : C) (vp' : Q) (cv : C * Q) : C * Q := if ceqb (fst cv) p then (fst cv, vp') else cv.

Lemma updp_keys p vp' l : map fst (map (updp p vp') l) = map fst l.
Proof.
  rewrite map_map. apply map_ext. intros [c v]. unfold updp. cbn [fst]. destruct (ceqb c p); reflexivity.
Qed.

Lemma updp_notin p vp' l : ~ In p (map fst l) -> map (updp p vp') l = l.
Proof.
  induction l as [|[c v] t IH]; intros H; [reflexivity|]. cbn [map]. rewrite IH by (intros Hi; apply H; right; exact Hi).
  unfold updp. cbn [fst]. assert (ceqb c p = false) as ->; [|reflexivity].
  apply ceqb_neq. intros ->. apply H. left. reflexivity.
Qed.

Lemma qs_updp p vp vp' l : NoDup (map fst l) -> In (p, vp) l -> (qs (map (updp p vp') l) == qs l + (vp' - vp))%Q.
Proof.
  induction l as [|[c v] t IH]; intros Hnd Hin; [destruct Hin|].
  cbn [map fst] in Hnd. apply NoDup_cons_iff in Hnd. destruct Hnd as [Hc Hndt].
  unfold qs in *. cbn [map fold_right snd]. unfold updp at 1. cbn [fst].
  destruct Hin as [Hin|Hin].
  - injection Hin as -> ->. rewrite ceqb_refl, (updp_notin p vp' t Hc). cbn [snd]. ring.
  - assert (ceqb c p = false) as -> by (apply ceqb_neq; intros ->; apply Hc, (in_map fst _ _ Hin)).
    cbn [snd]. rewrite (IH Hndt Hin). ring.
Qed.

Lemma dget_updp p vp' l c :
  dget (map (updp p vp') l) c =
  if ceqb c p then match dget l p with Some _ => Some vp' | None => None end else dget l c.
Proof.
  induction l as [|[c0 v0] t IH]; cbn [map dget].
  - destruct (ceqb c p); reflexivity.
  - unfold updp at 1. cbn [fst]. destruct (ceqb c0 p) eqn:E0.
    + apply ceqb_eq in E0. subst c0. cbn [dget]. rewrite ceqb_refl. destruct (ceqb c p) eqn:E; [reflexivity|].
      rewrite IH. reflexivity.
    + cbn [dget]. rewrite IH. destruct (ceqb c p) eqn:E.
      * apply ceqb_eq in E. subst c. assert (ceqb p c0 = false) as ->; [|reflexivity].
        apply ceqb_neq. apply ceqb_neq in E0. congruence.
      * reflexivity.
Qed.

Lemma cnt_sum_bound {A} (h : A -> bool) (g1 g2 : A -> Z) l :
  (forall x, In x l -> (if h x then 1 else 0) <= g1 x - g2 x) ->
  Z.of_nat (cnt h l) <= lsumZ (map g1 l) - lsumZ (map g2 l).
Proof.
  unfold cnt, lsumZ. induction l as [|x t IH]; intros H; cbn [filter map fold_right length]; [lia|].
  assert (IH' := IH (fun y Hy => H y (or_intror Hy))). pose proof (H x (or_introl eq_refl)) as Hx.
  destruct (h x); cbn [length]; lia.
Qed.

(* a larger numerator and denominator by the same amount: the share of the gaining party does not drop *)
Lemma frac_mono (a b d : Q) : (0 <= a -> a <= b -> 0 < b -> 0 <= d -> a / b <= (a + d) / (b + d))%Q.
Proof.
  intros Ha Hab Hb Hd. apply Qle_shift_div_l; [lra|].
  assert (E : (a / b * (b + d) == a + a / b * d)%Q) by (field; lra). rewrite E.
  assert (H1 : (a / b <= 1)%Q) by (apply Qle_shift_div_r; [exact Hb|lra]).
  assert (H2 : (a / b * d <= 1 * d)%Q) by (apply Qmult_le_compat_r; assumption).
  lra.
Qed.

Section Cmp.
  Variable votes : list (C * Q).
  Variables (p : C) (vp vp' q1 q2 : Q) (n : Z).
  Hypothesis Hnd : NoDup (map fst votes).
  Hypothesis Hpos : forall c v, In (c, v) votes -> (0 <= v)%Q.
  Hypothesis Hq1 : (0 < q1)%Q.
  Hypothesis Hq12 : (q1 <= q2)%Q.
  Hypothesis Hin : In (p, vp) votes.
  Hypothesis Hshare : (vp / q1 <= vp' / q2)%Q.
  Hypothesis Hfl : fl q1 vp = fl q2 vp'.

  Let votes2 := map (updp p vp') votes.
  Let R1 := n - fsum q1 votes.
  Let R2 := n - fsum q2 votes2.
  Let rems1 := map (remf q1) votes.
  Let rems2 := map (remf q2) votes2.
  Let x1 := remval q1 vp.
  Let x2 := remval q2 vp'.

  Lemma x12 : (x1 <= x2)%Q.
  Proof. unfold x1, x2, remval. rewrite Hfl. lra. Qed.

  Lemma item_cmp c v : In (c, v) votes ->
    fl q2 v <= fl q1 v /\ (fl q2 v = fl q1 v -> (remval q2 v <= remval q1 v)%Q).
  Proof.
    intros Hi. pose proof (div_anti_den v q1 q2 Hq1 Hq12 (Hpos c v Hi)) as H. split.
    - unfold fl. apply Qfloor_resp_le, H.
    - intros E. unfold remval. rewrite E. lra.
  Qed.

  Lemma val_p v : In (p, v) votes -> v = vp.
  Proof. intros Hi. apply (NoDup_fst_eq votes p v vp Hnd Hi Hin). Qed.

  Lemma updp_item c v : updp p vp' (c, v) = if ceqb c p then (c, vp') else (c, v).
  Proof. reflexivity. Qed.

  Definition dropped (cv : C * Q) : bool := negb (ceqb (fst cv) p) && (fl q2 (snd cv) <? fl q1 (snd cv)).

  Lemma dropped_bound : Z.of_nat (cnt dropped votes) <= fsum q1 votes - fsum q2 votes2.
  Proof.
    unfold fsum, votes2. rewrite map_map. apply cnt_sum_bound. intros [c v] Hi. unfold dropped. cbn [fst snd].
    rewrite updp_item. destruct (ceqb c p) eqn:E; cbn [negb andb snd].
    - apply ceqb_eq in E. subst c. rewrite (val_p v Hi). lia.
    - destruct (item_cmp c v Hi) as [H _]. destruct (fl q2 v <? fl q1 v) eqn:E2; [apply Z.ltb_lt in E2|]; lia.
  Qed.

  (* whatever counts in the second table counts in the first, unless its party lost a whole quota; [f1], [f2] are
     threshold tests at x1, x2 that p's own item passes on the left if on the right, and a larger value a fortiori *)
  Lemma cnt_cmp (f1 f2 : C * Q -> bool) :
    (forall v, In (p, v) votes -> f2 (p, x2) = true -> f1 (p, remval q1 v) = true) ->
    (forall c r1 r2, (r2 <= r1)%Q -> f2 (c, r2) = true -> f1 (c, r1) = true) ->
    (cnt f2 rems2 <= cnt f1 rems1 + cnt dropped votes)%nat.
  Proof.
    intros Hself Hoth. unfold rems2, rems1, votes2. rewrite !cnt_map. apply cnt_le_sum. intros [c v] Hi Hf.
    unfold remf in *. rewrite updp_item in Hf. unfold dropped. cbn [fst snd] in *.
    destruct (ceqb c p) eqn:E; cbn [negb andb fst snd] in *.
    - apply ceqb_eq in E. subst c. left. exact (Hself v Hi Hf).
    - destruct (item_cmp c v Hi) as [H1 H2]. destruct (fl q2 v <? fl q1 v) eqn:E2; [right; reflexivity|left].
      apply Z.ltb_ge in E2. apply (Hoth c _ _ (H2 ltac:(lia)) Hf).
  Qed.

  Lemma cnt_ge_cmp : (cnt (ge_f x2) rems2 <= cnt (ge_f x1) rems1 + cnt dropped votes)%nat.
  Proof.
    pose proof x12. apply cnt_cmp.
    - intros v Hi _. rewrite (val_p v Hi). apply Qle_bool_iff, Qle_refl.
    - intros c r1 r2 Hr Hf. apply Qle_bool_iff in Hf. apply Qle_bool_iff. cbn [snd] in *. lra.
  Qed.

  Lemma cnt_gt_cmp : (cnt (gt_f x2) rems2 <= cnt (gt_f x1) rems1 + cnt dropped votes)%nat.
  Proof.
    pose proof x12. apply cnt_cmp.
    - intros v _ Hf. apply gt_f_Qlt in Hf. cbn [snd] in Hf. exfalso. lra.
    - intros c r1 r2 Hr Hf. apply gt_f_Qlt in Hf. apply gt_f_Qlt. cbn [snd] in *. lra.
  Qed.

  Lemma in_rems1 : In (p, x1) rems1.
  Proof. unfold rems1. apply in_map_iff. exists (p, vp). split; [reflexivity|exact Hin]. Qed.

  Lemma in_rems2 : In (p, x2) rems2.
  Proof.
    unfold rems2, votes2. apply in_map_iff. exists (p, vp'). split; [reflexivity|].
    apply in_map_iff. exists (p, vp). split; [|exact Hin]. rewrite updp_item, ceqb_refl. reflexivity.
  Qed.

  Lemma nd_rems1 : NoDup (map fst rems1).
  Proof. unfold rems1. rewrite map_map. exact Hnd. Qed.

  Lemma nd_rems2 : NoDup (map fst rems2).
  Proof. unfold rems2, votes2. rewrite map_map. change (NoDup (map fst (map (updp p vp') votes))). rewrite updp_keys. exact Hnd. Qed.

  Lemma sure_transfer : 0 < R1 -> In (Cand p) (get_n_best Qle_bool rems1 (Z.to_nat R1)) ->
    0 < R2 /\ In (Cand p) (get_n_best Qle_bool rems2 (Z.to_nat R2)).
  Proof.
    intros HR Hc.
    assert (Hk1 : (1 <= Z.to_nat R1)%nat) by lia.
    pose proof (gnb_sure_count rems1 (Z.to_nat R1) Hk1 nd_rems1 p x1 in_rems1 Hc) as H1.
    pose proof cnt_ge_cmp as H2. pose proof dropped_bound as H3.
    pose proof (cnt_pos _ _ (p, x2) in_rems2 (ge_self p x2)) as H4.
    assert (H5 : Z.of_nat (cnt (ge_f x2) rems2) <= R2) by (unfold R1, R2 in *; lia).
    assert (Hk2 : (1 <= Z.to_nat R2)%nat) by lia.
    split; [lia|].
    apply (gnb_count_sure rems2 (Z.to_nat R2) Hk2 p x2 in_rems2). lia.
  Qed.

  Lemma poss_transfer : 0 < R1 ->
    In (Cand p) (get_n_best Qle_bool rems1 (Z.to_nat R1)) \/ in_tie p (get_n_best Qle_bool rems1 (Z.to_nat R1)) ->
    0 < R2 /\ (In (Cand p) (get_n_best Qle_bool rems2 (Z.to_nat R2)) \/ in_tie p (get_n_best Qle_bool rems2 (Z.to_nat R2))).
  Proof.
    intros HR Hc.
    assert (Hk1 : (1 <= Z.to_nat R1)%nat) by lia.
    pose proof (gnb_poss_count rems1 (Z.to_nat R1) Hk1 nd_rems1 p x1 in_rems1 Hc) as H1.
    pose proof cnt_gt_cmp as H2. pose proof dropped_bound as H3.
    assert (H5 : Z.of_nat (cnt (gt_f x2) rems2) < R2) by (unfold R1, R2 in *; lia).
    assert (Hk2 : (1 <= Z.to_nat R2)%nat) by lia.
    split; [lia|].
    apply (gnb_count_poss rems2 (Z.to_nat R2) Hk2 p x2 in_rems2). lia.
  Qed.
End Cmp.


Section Mono.
  Variables (votes : list (C * Q)) (n : Z) (p : C) (vp vp' : Q).
  Hypothesis Hn : 1 <= n.
  Hypothesis Hnd : NoDup (map fst votes).
  Hypothesis Hpos : forall c v, In (c, v) votes -> (0 <= v)%Q.
  Hypothesis HV : (0 < qsumv votes)%Q.
  Hypothesis Hin : In (p, vp) votes.
  Hypothesis Hle : (vp <= vp')%Q.

  Let votes2 := map (updp p vp') votes.

  Lemma nd2 : NoDup (map fst votes2).
  Proof. unfold votes2. rewrite updp_keys. exact Hnd. Qed.

  Lemma pos2 : forall c v, In (c, v) votes2 -> (0 <= v)%Q.
  Proof.
    intros c v Hi. unfold votes2 in Hi. apply in_map_iff in Hi. destruct Hi as ([c0 v0] & He & Hi0).
    unfold updp in He. cbn [fst] in He. destruct (ceqb c0 p).
    - injection He as _ <-. pose proof (Hpos p vp Hin). lra.
    - injection He as _ <-. apply (Hpos c0 v0 Hi0).
  Qed.

  Lemma sum2 : (qsumv votes2 == qsumv votes + (vp' - vp))%Q.
  Proof. rewrite !qsumv_qs. apply qs_updp; assumption. Qed.

  Lemma HV2 : (0 < qsumv votes2)%Q.
  Proof. rewrite sum2. lra. Qed.

  Lemma in2 : In (p, vp') votes2.
  Proof.
    unfold votes2. apply in_map_iff. exists (p, vp). split; [|exact Hin]. unfold updp. cbn [fst]. rewrite ceqb_refl. reflexivity.
  Qed.

  Lemma q12 : (hq votes n <= hq votes2 n)%Q.
  Proof.
    unfold hq, hare. apply div_mono_num; [apply (n_pos n Hn)|]. rewrite sum2. lra.
  Qed.

  Lemma share : (vp / hq votes n <= vp' / hq votes2 n)%Q.
  Proof.
    pose proof (n_pos n Hn) as HN. pose proof (Hpos p vp Hin) as Hvp.
    assert (HvV : (vp <= qsumv votes)%Q) by (rewrite qsumv_qs; apply (qs_member votes p vp Hpos Hin)).
    unfold hq, hare. rewrite sum2.
    set (V := qsumv votes) in *. set (N := inject_Z n) in *.
    assert (E : forall a W, (0 < W -> a / (W / N) == N * (a / W))%Q) by (intros a W HW; field; split; lra).
    rewrite !E by lra. apply Qmult_le_l; [exact HN|].
    assert (Ed : (vp' == vp + (vp' - vp))%Q) by ring. rewrite Ed at 1. apply frac_mono; lra.
  Qed.

  Let f1 := fl (hq votes n) vp.
  Let f2 := fl (hq votes2 n) vp'.

  Lemma f12 : f1 <= f2.
  Proof. apply Qfloor_resp_le, share. Qed.

  Theorem mono_same_order_sure : kdget (hout votes n) p <= kdget (hout votes2 n) p.
  Proof.
    pose proof f12 as Hf.
    destruct (kdget_hout_cases votes n Hn Hnd Hpos HV p vp Hin) as [(R1 & C1 & ->)|(_ & ->)],
             (kdget_hout_cases votes2 n Hn nd2 pos2 HV2 p vp' in2) as [(_ & _ & ->)|(N2 & ->)];
      fold f1 f2; try lia.
    destruct (Z.eq_dec f1 f2) as [Ef|Ef]; [exfalso|lia]. apply N2.
    exact (sure_transfer votes p vp vp' (hq votes n) (hq votes2 n) n Hnd Hpos (q_pos votes n Hn HV) q12 Hin share Ef R1 C1).
  Qed.

  Theorem mono_same_order_poss : kposs (hout votes n) p <= kposs (hout votes2 n) p.
  Proof.
    pose proof f12 as Hf.
    destruct (kposs_hout_cases votes n Hn Hnd Hpos HV p vp Hin) as [(R1 & C1 & ->)|(_ & ->)],
             (kposs_hout_cases votes2 n Hn nd2 pos2 HV2 p vp' in2) as [(_ & _ & ->)|(N2 & ->)];
      fold f1 f2; try lia.
    destruct (Z.eq_dec f1 f2) as [Ef|Ef]; [exfalso|lia]. apply N2.
    exact (poss_transfer votes p vp vp' (hq votes n) (hq votes2 n) n Hnd Hpos (q_pos votes n Hn HV) q12 Hin share Ef R1 C1).
  Qed.
End Mono.

Lemma tmem_ties s c : tmem s c = existsb (fun lz : list C * Z => cmem c (fst lz)) (ties_of s).
Proof.
  unfold tmem, ties_of. induction s as [|[[c'|l] z] t IH]; cbn [existsb flat_map fst snd app]; [reflexivity|exact IH|].
  rewrite IH. reflexivity.
Qed.

Lemma tmem_rel s s' c : Forall2 tie_rel (ties_of s) (ties_of s') -> tmem s c = tmem s' c.
Proof.
  intros H. rewrite !tmem_ties. induction H as [|a b t t' [Hp _] _ IH]; [reflexivity|].
  cbn [existsb]. rewrite IH, (cmem_perm c _ _ Hp). reflexivity.
Qed.

Section Final.
  Variable pol : policy.
  Variables (votes votes' : list (C * Q)) (n : Z) (p : C) (vp vp' : Q).
  Hypothesis Hn : 1 <= n.
  Hypothesis Hnd : NoDup (map fst votes).
  Hypothesis Hnd' : NoDup (map fst votes').
  Hypothesis Hpos : forall c v, In (c, v) votes -> (0 <= v)%Q.
  Hypothesis HV : (0 < qsumv votes)%Q.
  Hypothesis Hp : dget votes p = Some vp.
  Hypothesis Hp' : dget votes' p = Some vp'.
  Hypothesis Hle : (vp <= vp')%Q.
  Hypothesis Hother : forall c, c <> p -> dget votes' c = dget votes c.

  Lemma perm2 : Permutation (map (updp p vp') votes) votes'.
  Proof.
    apply dict_ext_perm; [rewrite updp_keys; exact Hnd|exact Hnd'|].
    intros c. rewrite dget_updp. destruct (ceqb c p) eqn:E.
    - apply ceqb_eq in E. subst c. rewrite Hp, Hp'. reflexivity.
    - apply ceqb_neq in E. symmetry. apply Hother, E.
  Qed.

  Lemma second_run s2 : lr_evaluate hare true pol votes' n [] [] = LR_ok s2 ->
    ok_rel (hout (map (updp p vp') votes) n) s2.
  Proof.
    intros H2. pose proof (dget_In votes p vp Hp) as Hin.
    pose proof (lr_evaluate_perm hare true pol hare_ext (map (updp p vp') votes) votes' n [] [] [] []
                  (nd2 votes p vp' Hnd) perm2 (NoDup_nil _) (Permutation_refl _) (fun _ => eq_refl)) as Hrel.
    rewrite (lr_hare_run pol _ n Hn (nd2 votes p vp' Hnd) (pos2 votes p vp vp' Hpos Hin Hle) (HV2 votes p vp vp' Hnd HV Hin Hle)) in Hrel.
    rewrite H2 in Hrel. exact Hrel.
  Qed.
End Final.

(* LargestRemainder('hare') never fails on a profile of non-negative votes with a positive total *)
Theorem lr_hare_defined : forall (pol : policy) (votes : list (C * Q)) (n : Z),
  1 <= n -> NoDup (map fst votes) -> (forall c v, In (c, v) votes -> (0 <= v)%Q) -> (0 < qsumv votes)%Q ->
  exists s, lr_evaluate Quota.hare true pol votes n [] [] = LR_ok s.
Proof. intros pol votes n Hn Hnd Hpos HV. exists (hout votes n). apply lr_hare_run; assumption. Qed.

(* vote monotonicity: a party whose votes grow, every other party's votes unchanged (the two dictionaries in any
   insertion order), keeps at least the seats it held for certain *)
Theorem lr_hare_votes_monotone : forall (pol : policy) (votes votes' : list (C * Q)) (n : Z) (p : C) (vp vp' : Q) s1 s2,
  1 <= n -> NoDup (map fst votes) -> NoDup (map fst votes') ->
  (forall c v, In (c, v) votes -> (0 <= v)%Q) -> (forall c v, In (c, v) votes' -> (0 <= v)%Q) -> (0 < qsumv votes)%Q ->
  dget votes p = Some vp -> dget votes' p = Some vp' -> (vp <= vp')%Q ->
  (forall c, c <> p -> dget votes' c = dget votes c) ->
  lr_evaluate Quota.hare true pol votes n [] [] = LR_ok s1 ->
  lr_evaluate Quota.hare true pol votes' n [] [] = LR_ok s2 ->
  kdget s1 p <= kdget s2 p.
Proof.
  intros pol votes votes' n p vp vp' s1 s2 Hn Hnd Hnd' Hpos _ HV Hp Hp' Hle Hother H1 H2.
  pose proof (dget_In votes p vp Hp) as Hin.
  rewrite (lr_hare_run pol votes n Hn Hnd Hpos HV) in H1. injection H1 as <-.
  destruct (ok_rel_obs _ _ (second_run pol votes votes' n p vp vp' Hn Hnd Hnd' Hpos HV Hp Hp' Hle Hother s2 H2)) as [Hk _].
  rewrite <- Hk. apply (mono_same_order_sure votes n p vp vp' Hn Hnd Hpos HV Hin Hle).
Qed.

(* ... and its certain seats plus the possible seat as a member of the Tie key do not drop either *)
Theorem lr_hare_votes_monotone_possible : forall (pol : policy) (votes votes' : list (C * Q)) (n : Z) (p : C) (vp vp' : Q) s1 s2,
  1 <= n -> NoDup (map fst votes) -> NoDup (map fst votes') ->
  (forall c v, In (c, v) votes -> (0 <= v)%Q) -> (forall c v, In (c, v) votes' -> (0 <= v)%Q) -> (0 < qsumv votes)%Q ->
  dget votes p = Some vp -> dget votes' p = Some vp' -> (vp <= vp')%Q ->
  (forall c, c <> p -> dget votes' c = dget votes c) ->
  lr_evaluate Quota.hare true pol votes n [] [] = LR_ok s1 ->
  lr_evaluate Quota.hare true pol votes' n [] [] = LR_ok s2 ->
  kposs s1 p <= kposs s2 p.
Proof.
  intros pol votes votes' n p vp vp' s1 s2 Hn Hnd Hnd' Hpos _ HV Hp Hp' Hle Hother H1 H2.
  pose proof (dget_In votes p vp Hp) as Hin.
  rewrite (lr_hare_run pol votes n Hn Hnd Hpos HV) in H1. injection H1 as <-.
  destruct (ok_rel_obs _ _ (second_run pol votes votes' n p vp vp' Hn Hnd Hnd' Hpos HV Hp Hp' Hle Hother s2 H2)) as [Hk Ht].
  unfold kposs at 2. rewrite <- Hk, <- (tmem_rel _ _ p Ht).
  apply (mono_same_order_poss votes n p vp vp' Hn Hnd Hpos HV Hin Hle).
Qed.

(* no tie: party 2 goes from 30 to 70 votes of 100 / 140, 4 seats: 1 seat -> 2 seats *)
Example lr_hare_mono_example_rise :
  lr_evaluate Quota.hare true PError [(1%positive, 50#1); (2%positive, 30#1); (3%positive, 20#1)]%Q 4 [] []
    = LR_ok [(K 1%positive, 2); (K 2%positive, 1); (K 3%positive, 1)] /\
  lr_evaluate Quota.hare true PError [(1%positive, 50#1); (2%positive, 70#1); (3%positive, 20#1)]%Q 4 [] []
    = LR_ok [(K 1%positive, 1); (K 2%positive, 2); (K 3%positive, 1)].
Proof. split; vm_compute; reflexivity. Qed.

(* with ties, the second dictionary in another insertion order: 5 seats, party 2 goes from 30 to 60 votes.
   Before: 1 certain seat and a member of Tie{1,2} holding the fifth seat; after: 2 certain seats *)
Definition ex_votes : list (C * Q) := [(1%positive, 50#1); (2%positive, 30#1); (3%positive, 20#1)]%Q.
Definition ex_votes' : list (C * Q) := [(3%positive, 20#1); (2%positive, 60#1); (1%positive, 50#1)]%Q.

Example lr_hare_mono_example_tie :
  lr_evaluate Quota.hare true PError ex_votes 5 [] []
    = LR_ok [(K 1%positive, 2); (K 2%positive, 1); (K 3%positive, 1); (KT [1%positive; 2%positive], 1)] /\
  lr_evaluate Quota.hare true PError ex_votes' 5 [] []
    = LR_ok [(K 2%positive, 2); (K 1%positive, 2); (K 3%positive, 1)] /\
  kdget [(K 1%positive, 2); (K 2%positive, 1); (K 3%positive, 1); (KT [1%positive; 2%positive], 1)] 2%positive = 1 /\
  kposs [(K 1%positive, 2); (K 2%positive, 1); (K 3%positive, 1); (KT [1%positive; 2%positive], 1)] 2%positive = 2 /\
  kdget [(K 2%positive, 2); (K 1%positive, 2); (K 3%positive, 1)] 2%positive = 2 /\
  kposs [(K 2%positive, 2); (K 1%positive, 2); (K 3%positive, 1)] 2%positive = 2.
Proof. repeat split; vm_compute; reflexivity. Qed.

(* a three-way tie for both seats; party 1 gains one vote and holds a seat for certain *)
Example lr_hare_mono_example_tie3 :
  lr_evaluate Quota.hare true PError [(1%positive, 1#1); (2%positive, 1#1); (3%positive, 1#1)]%Q 2 [] []
    = LR_ok [(KT [1%positive; 2%positive; 3%positive], 2)] /\
  lr_evaluate Quota.hare true PError [(1%positive, 2#1); (2%positive, 1#1); (3%positive, 1#1)]%Q 2 [] []
    = LR_ok [(K 1%positive, 1); (KT [2%positive; 3%positive], 1)].
Proof. split; vm_compute; reflexivity. Qed.

(* the hypotheses of the theorems hold of the tie example *)
Example lr_hare_mono_hypotheses :
  1 <= 5 /\ NoDup (map fst ex_votes) /\ NoDup (map fst ex_votes') /\
  (forall c v, In (c, v) ex_votes -> (0 <= v)%Q) /\ (forall c v, In (c, v) ex_votes' -> (0 <= v)%Q) /\
  (0 < qsumv ex_votes)%Q /\
  dget ex_votes 2%positive = Some (30#1)%Q /\ dget ex_votes' 2%positive = Some (60#1)%Q /\ (30#1 <= 60#1)%Q /\
  (forall c, c <> 2%positive -> dget ex_votes' c = dget ex_votes c).
Proof.
  assert (Hnn : forall l : list (C * Q), forallb (fun cv => Qle_bool 0 (snd cv)) l = true -> forall c v, In (c, v) l -> (0 <= v)%Q).
  { intros l H c v Hi. rewrite forallb_forall in H. apply Qle_bool_iff. apply (H (c, v) Hi). }
  split; [lia|]. split; [repeat constructor; simpl; intuition discriminate|].
  split; [repeat constructor; simpl; intuition discriminate|].
  split; [apply Hnn; vm_compute; reflexivity|]. split; [apply Hnn; vm_compute; reflexivity|].
  split; [vm_compute; reflexivity|]. split; [reflexivity|]. split; [reflexivity|]. split; [vm_compute; discriminate|].
  intros c Hc. unfold ex_votes, ex_votes'. cbn [dget]. rewrite (proj2 (ceqb_neq c 2%positive) Hc).
  destruct (ceqb c 1%positive) eqn:E1, (ceqb c 3%positive) eqn:E3; try reflexivity.
  apply ceqb_eq in E1, E3. congruence.
Qed.

(* ... so the theorems apply to it *)
Example lr_hare_mono_instance :
  kdget [(K 1%positive, 2); (K 2%positive, 1); (K 3%positive, 1); (KT [1%positive; 2%positive], 1)] 2%positive
  <= kdget [(K 2%positive, 2); (K 1%positive, 2); (K 3%positive, 1)] 2%positive.
Proof.
  destruct lr_hare_mono_hypotheses as (H1 & H2 & H3 & H4 & H5 & H6 & H7 & H8 & H9 & H10).
  destruct lr_hare_mono_example_tie as (R1 & R2 & _).
  exact (lr_hare_votes_monotone PError ex_votes ex_votes' 5 2%positive _ _ _ _ H1 H2 H3 H4 H5 H6 H7 H8 H9 H10 R1 R2).
Qed.

Print Assumptions lr_hare_defined.
Print Assumptions lr_hare_votes_monotone.
Print Assumptions lr_hare_votes_monotone_possible.
