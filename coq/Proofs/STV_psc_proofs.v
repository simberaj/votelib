(* Proportionality for solid coalitions in the transferable-vote count (C04), Model/STV.v.

   A ballot is solid for a candidate set SS when its first |SS| ranks are plain (unshared) ranks naming exactly
   the members of SS.  In the selector form (every cap = 1, accept_quota_equal, one elimination at a time) with a
   positive quota q such that (n+1) q exceeds the votes cast, a coalition whose solid ballots weigh k quotas gets
   min(k, |SS|) of its members elected by every count that ends normally.

   The proof carries an invariant through [run]:
     - the solid ballots resting on continuing members of SS, plus one quota per elected member of SS, weigh at
       least k quotas as long as a member of SS continues  (cwa a + j q >= k q);
     - elected + continuing members of SS number at least min(k, |SS|);
     - every solid ballot resting on a member c of SS names only non-continuing candidates before c (so that it
       moves to another member of SS whenever one continues);
   together with conservation and non-negativity (Proofs/STV_proofs.v). *)
From Coq Require Import ZArith QArith Qround Qreduction Setoid List Bool Arith Lia Lqa Permutation.
From VL Require Import Prelude.PyDict Model.GetNBest Model.Convert Model.STV Model.Quota Proofs.Dict_proofs
     Proofs.GetNBest_proofs Proofs.STV_proofs Proofs.STV_elim_proofs Proofs.STV_majority_proofs.
From VL Require Proofs.Threshold_proofs.
Import ListNotations.
Open Scope Q_scope.

(* solid ballots (ballots whose top ranks are unshared and name exactly the coalition) *)
Definition solid_b (S : list C) (b : ballot) : bool :=
  let top := firstn (length S) b in
  Nat.eqb (length top) (length S) &&
  forallb (fun it => match it with IP c => cmem c S | IS _ => false end) top &&
  forallb (fun c => existsb (fun it => match it with IP c' => ceqb c c' | IS _ => false end) top) S.
Definition coalition_weight (S : list C) (votes : list (ballot * Q)) : Q :=
  fold_right (fun bw acc => Qplus (if solid_b S (fst bw) then snd bw else 0%Q) acc) 0%Q votes.

Lemma ballot_eqb_firstn n : forall a b, ballot_eqb a b = true -> ballot_eqb (firstn n a) (firstn n b) = true.
Proof.
  induction n as [|n IH]; intros [|x a] [|y b]; simpl; try reflexivity; try discriminate.
  intros H. apply andb_true_iff in H. destruct H as [H1 H2]. rewrite H1. simpl. apply IH, H2.
Qed.
(* item_eqb-equal ballots agree on every item predicate that only looks at plain ranks *)
Lemma ballot_eqb_pred (f : item -> bool) : (forall x y, item_eqb x y = true -> f x = f y) ->
  forall a b, ballot_eqb a b = true -> length a = length b /\ forallb f a = forallb f b /\ existsb f a = existsb f b.
Proof.
  intros Hf. induction a as [|x a IH]; intros [|y b]; simpl; try discriminate; [intros _; auto|].
  intros H. apply andb_true_iff in H. destruct H as [H1 H2]. destruct (IH b H2) as (L & F & E).
  rewrite (Hf x y H1), L, F, E. auto.
Qed.
Lemma forallb_ext' {X} (f g : X -> bool) l : (forall x, f x = g x) -> forallb f l = forallb g l.
Proof. intros H. induction l as [|x l IH]; simpl; [reflexivity|]. rewrite H, IH. reflexivity. Qed.
Lemma solid_b_eqb S a b : ballot_eqb a b = true -> solid_b S a = solid_b S b.
Proof.
  intros H. unfold solid_b. pose proof (ballot_eqb_firstn (length S) a b H) as Ht.
  assert (P : forall (g : C -> bool) x y, item_eqb x y = true ->
     match x with IP c => g c | IS _ => false end = match y with IP c => g c | IS _ => false end).
  { intros g [x|x] [y|y]; simpl; try discriminate; [|reflexivity]. intros E. apply ceqb_eq in E. subst. reflexivity. }
  destruct (ballot_eqb_pred _ (P (fun c => cmem c S)) _ _ Ht) as (L & F & _). rewrite L, F. f_equal.
  apply forallb_ext'. intros c. exact (proj2 (proj2 (ballot_eqb_pred _ (P (ceqb c)) _ _ Ht))).
Qed.

(* a solid ballot is a list of plain ranks covering exactly the coalition, followed by anything *)
Lemma solid_b_shape S b : solid_b S b = true ->
  exists top rest, b = map IP top ++ rest /\ (forall x, In x top -> In x S) /\ (forall x, In x S -> In x top).
Proof.
  unfold solid_b. set (t := firstn (length S) b). intros H.
  apply andb_true_iff in H. destruct H as [H H3]. apply andb_true_iff in H. destruct H as [_ H2].
  set (ips := flat_map (fun it => match it with IP c => [c] | IS _ => [] end) t).
  assert (Ht : t = map IP ips).
  { unfold ips. clear -H2. induction t as [|[c|l] t IH]; simpl in *; [reflexivity| |discriminate].
    apply andb_true_iff in H2. destruct H2 as [_ H2]. rewrite <- IH by exact H2. reflexivity. }
  exists ips, (skipn (length S) b). split; [rewrite <- Ht; unfold t; symmetry; apply firstn_skipn|]. split.
  - intros x Hx. unfold ips in Hx. apply in_flat_map in Hx. destruct Hx as ([c|l] & Hin & Hx); [|destruct Hx].
    destruct Hx as [<-|[]]. rewrite forallb_forall in H2. apply cmem_In. exact (H2 _ Hin).
  - intros x Hx. rewrite forallb_forall in H3. specialize (H3 x Hx). apply existsb_exists in H3.
    destruct H3 as ([c|l] & Hin & E); [|discriminate]. apply ceqb_eq in E. subst c.
    unfold ips. apply in_flat_map. exists (IP x). split; [exact Hin|left; reflexivity].
Qed.

Lemma solid_b_first S b : S <> [] -> solid_b S b = true -> exists c t, b = IP c :: t /\ In c S.
Proof.
  intros Hne H. destruct (solid_b_shape S b H) as (top & rest & -> & H1 & H2).
  destruct S as [|s S']; [congruence|]. destruct top as [|c top]; [destruct (H2 s (or_introl eq_refl))|].
  exists c, (map IP top ++ rest). split; [reflexivity|apply H1; left; reflexivity].
Qed.

(* where a ballot rests: [rests_ok K c b] = c occurs among the leading plain ranks of b and every candidate
   named before it is outside K *)
Fixpoint rests_ok (K : list C) (c : C) (b : ballot) : bool :=
  match b with
  | IP x :: t => if ceqb c x then true else negb (cmem x K) && rests_ok K c t
  | _ => false
  end.

Lemma negb_cmem_mono K K' x : incl K' K -> negb (cmem x K) = true -> negb (cmem x K') = true.
Proof.
  intros Hi H. apply negb_true_iff, cmem_false. apply negb_true_iff, cmem_false in H. intros H1. exact (H (Hi _ H1)).
Qed.

Lemma rests_ok_mono K K' c b : incl K' K -> rests_ok K c b = true -> rests_ok K' c b = true.
Proof.
  intros Hi. induction b as [|[x|l] t IH]; simpl; try discriminate. destruct (ceqb c x); [reflexivity|].
  intros H. apply andb_true_iff in H. destruct H as [H1 H2]. rewrite (IH H2), andb_true_r.
  exact (negb_cmem_mono K K' x Hi H1).
Qed.

(* a rank outside K may precede the candidate the ballot rests on *)
Lemma rests_ok_skip K x d l : ~ In x K -> In d K -> rests_ok K d l = true -> rests_ok K d (IP x :: l) = true.
Proof.
  intros Hx Hd H. simpl. assert (ceqb d x = false) as -> by (apply ceqb_neq; intros ->; exact (Hx Hd)).
  rewrite H, andb_true_r. apply negb_true_iff, cmem_false, Hx.
Qed.

Lemma next_after_top cont rest d' : forall t, In d' t -> In d' cont ->
  exists d, next_after (map IP t ++ rest) cont = [d] /\ In d t /\ In d cont /\ rests_ok cont d (map IP t ++ rest) = true.
Proof.
  induction t as [|y t IH]; intros Hin Hc; [destruct Hin|]. cbn [map app next_after].
  destruct (cmem y cont) eqn:E.
  - exists y. split; [reflexivity|]. split; [left; reflexivity|]. split; [apply cmem_In, E|]. cbn [rests_ok]. rewrite ceqb_refl. reflexivity.
  - apply cmem_false in E. destruct Hin as [->|Hin]; [exfalso; exact (E Hc)|].
    destruct (IH Hin Hc) as (d & H1 & H2 & H3 & H4).
    exists d. split; [exact H1|]. split; [right; exact H2|]. split; [exact H3|exact (rests_ok_skip cont y d _ E H3 H4)].
Qed.

Lemma ranked_next_top K cont c rest d' : incl cont K -> ~ In c cont -> In d' cont ->
  forall t, In d' t -> rests_ok K c (map IP t ++ rest) = true ->
  exists d, ranked_next (map IP t ++ rest) c cont = [d] /\ In d t /\ In d cont /\ rests_ok cont d (map IP t ++ rest) = true.
Proof.
  intros Hi Hc Hd'. induction t as [|x t IH]; intros Hin Hr; [destruct Hin|]. simpl in *.
  destruct (ceqb c x) eqn:E.
  - apply ceqb_eq in E. subst x.
    destruct Hin as [->|Hin]; [exfalso; exact (Hc Hd')|].
    destruct (next_after_top cont rest d' t Hin Hd') as (d & H1 & H2 & H3 & H4).
    exists d. split; [exact H1|]. split; [right; exact H2|]. split; [exact H3|exact (rests_ok_skip cont c d _ Hc H3 H4)].
  - apply andb_true_iff in Hr. destruct Hr as [Hx Hr]. apply negb_true_iff in Hx. apply cmem_false in Hx.
    destruct Hin as [->|Hin]; [exfalso; exact (Hx (Hi _ Hd'))|].
    destruct (IH Hin Hr) as (d & H1 & H2 & H3 & H4).
    exists d. split; [exact H1|]. split; [right; exact H2|]. split; [exact H3|].
    exact (rests_ok_skip cont x d _ (fun H => Hx (Hi _ H)) H3 H4).
Qed.

Lemma all_ranked_in (votes : list (ballot * Q)) b w it x :
  In (b, w) votes -> In it b -> In x (members it) -> In x (all_ranked_candidates votes).
Proof. exact (all_ranked_complete votes b w it x). Qed.

Section PSC.
  Variable SS : list C.

  Definition sw (b : ballot) (w : Q) : Q := if solid_b SS b then w else 0.
  Definition cwp (p : pile) : Q := fold_right (fun bw acc => sw (fst bw) (snd bw) + acc) 0 p.
  Definition inS (k : option C) : bool := match k with Some c => cmem c SS | None => false end.
  (* weight of the solid ballots resting on members of SS *)
  Definition cwa (a : alloc) : Q := fold_right (fun kp acc => (if inS (fst kp) then cwp (snd kp) else 0) + acc) 0 a.

  Lemma sw_bounds b w : 0 <= w -> 0 <= sw b w /\ sw b w <= w.
  Proof. intros H. unfold sw. destruct (solid_b SS b); split; lra. Qed.

  Lemma cwp_bounds p : pile_nonneg p -> 0 <= cwp p /\ cwp p <= wsum p.
  Proof.
    induction 1 as [|[b w] p Hw _ IH]; simpl; [split; lra|]. simpl in Hw.
    destruct (sw_bounds b w Hw). destruct IH. split; lra.
  Qed.

  Lemma cwp_pile_add p b w : cwp (pile_add p b w) == cwp p + sw b w.
  Proof. exact (wsum_of_add (solid_b SS) p b w (fun b' E => eq_sym (solid_b_eqb SS b b' E))). Qed.

  Lemma cwa_alloc_add a k b w : cwa (alloc_add a k b w) == cwa a + (if inS k then sw b w else 0).
  Proof.
    induction a as [|[k' p] a IH]; simpl.
    - destruct (inS k); simpl; ring.
    - destruct (okey_eqb k k') eqn:E; simpl.
      + apply okey_eqb_eq in E. subst k'. destruct (inS k); [rewrite cwp_pile_add|]; ring.
      + lra.
  Qed.

  Lemma cwa_fold_add targets b share : 0 <= share -> forall a,
    cwa a <= cwa (fold_left (fun a t => alloc_add a (Some t) b share) targets a).
  Proof.
    intros Hs a. apply (fold_left_inv (fun r => cwa a <= cwa r)); [|lra].
    intros r t _ Hr. rewrite cwa_alloc_add. destruct (sw_bounds b share Hs). destruct (inS (Some t)); lra.
  Qed.

  Lemma cwa_move_ge a targets b w : 0 <= w -> cwa a <= cwa (move_ballot a targets b w).
  Proof.
    intros Hw. unfold move_ballot. destruct targets as [|t ts].
    - rewrite cwa_alloc_add. simpl. lra.
    - apply cwa_fold_add, (share_nonneg w (length ts)), Hw.
  Qed.

  Lemma cwa_move_single a d b w : In d SS -> cwa (move_ballot a [d] b w) == cwa a + sw b w.
  Proof.
    intros Hd. unfold move_ballot. cbn [fold_left length]. rewrite cwa_alloc_add.
    unfold inS. apply cmem_In in Hd. rewrite Hd. unfold sw. destruct (solid_b SS b); [|ring].
    rewrite (Qred_correct (w / inject_Z (Z.of_nat 1))). change (w / inject_Z (Z.of_nat 1)) with (w * 1). ring.
  Qed.

  Lemma cwa_alloc_del a k p : NoDup (akeys a) -> alloc_get a k = Some p ->
    cwa (alloc_del a k) == cwa a - (if inS k then cwp p else 0).
  Proof. exact (msum_del (fun k p => if inS k then cwp p else 0) a k p). Qed.

  Lemma cwa_replace a c p p' : NoDup (akeys a) -> alloc_get a (Some c) = Some p ->
    cwa (map (fun kp : option C * pile => if okey_eqb (Some c) (fst kp) then (fst kp, p') else kp) a)
    == cwa a - (if cmem c SS then cwp p else 0) + (if cmem c SS then cwp p' else 0).
  Proof. exact (msum_set_pile (fun k p => if inS k then cwp p else 0) a c p p'). Qed.

  Lemma cwp_map_scale (p : pile) (f : Q) :
    cwp (map (fun bw : ballot * Q => (fst bw, Qred (snd bw * f))) p) == cwp p * f.
  Proof. exact (wsum_of_scale (solid_b SS) p f). Qed.

  (* an elected member's pile loses at most the amount subtracted *)
  Lemma cwp_gregory p amt p' : pile_nonneg p -> 0 <= amt -> amt <= wsum p ->
    gregory_subtract p amt = Some p' -> cwp p - amt <= cwp p'.
  Proof.
    intros Hp H0 Hle H. pose proof (pile_sum_wsum p) as Hs. destruct (cwp_bounds p Hp) as [C0 C1].
    destruct (gregory_subtract_cases p amt p' H) as [[H1 ->]|[Hlt ->]]; [simpl; lra|].
    rewrite cwp_map_scale. set (s := pile_sum p) in *. set (x := cwp p) in *.
    assert (Hd : x * ((s - amt) / s) - (x - amt) == amt * (s - x) / s) by (field; lra).
    assert (Hn : 0 <= amt * (s - x) / s).
    { apply Qle_shift_div_l; [lra|]. rewrite Qmult_0_l. apply Qmult_le_0_compat; lra. }
    lra.
  Qed.

  (* a solid ballot on a member c of SS names only candidates outside K before c; a solid ballot on a
     non-member witnesses that no member of SS is in K *)
  Definition okb (K : list C) (c : C) (b : ballot) : bool :=
    if cmem c SS then rests_ok K c b else forallb (fun x => negb (cmem x K)) SS.
  Definition BB (K : list C) (a : alloc) : Prop :=
    forall c p b w, In (Some c, p) a -> In (b, w) p -> solid_b SS b = true -> okb K c b = true.

  Lemma okb_mono K K' c b : incl K' K -> okb K c b = true -> okb K' c b = true.
  Proof.
    intros Hi. unfold okb. destruct (cmem c SS); [apply rests_ok_mono, Hi|].
    rewrite !forallb_forall. intros H x Hx. exact (negb_cmem_mono K K' x Hi (H x Hx)).
  Qed.
  Lemma BB_mono K K' a : incl K' K -> BB K a -> BB K' a.
  Proof. intros Hi H c p b w H1 H2 H3. apply (okb_mono K K' c b Hi). exact (H c p b w H1 H2 H3). Qed.

  Lemma BB_alloc_add K a k b w : BB K a ->
    (forall c, k = Some c -> solid_b SS b = true -> okb K c b = true) -> BB K (alloc_add a k b w).
  Proof.
    intros HB Hnew. induction a as [|[k' p'] a IH]; simpl.
    - intros c p b0 w0 [H|[]] Hin Hs. injection H as -> <-. destruct Hin as [H|[]]. injection H as <- _. exact (Hnew c eq_refl Hs).
    - assert (HBt : BB K a) by (intros c p b0 w0 H1; apply (HB c p b0 w0); right; exact H1).
      destruct (okey_eqb k k') eqn:E.
      + apply okey_eqb_eq in E. subst k'. intros c p b0 w0 [H|H] Hin Hs.
        * injection H as -> <-. destruct (pile_add_in p' b w b0 w0 Hin) as [->|(w1 & H1)]; [exact (Hnew c eq_refl Hs)|].
          apply (HB c p' b0 w1); [left; reflexivity|exact H1|exact Hs].
        * apply (HB c p b0 w0); [right; exact H|exact Hin|exact Hs].
      + intros c p b0 w0 [H|H] Hin Hs.
        * apply (HB c p b0 w0); [left; exact H|exact Hin|exact Hs].
        * apply (IH HBt c p b0 w0 H Hin Hs).
  Qed.

  Lemma BB_move K a targets b w : BB K a ->
    (forall t, In t targets -> solid_b SS b = true -> okb K t b = true) -> BB K (move_ballot a targets b w).
  Proof.
    intros HB Ht. unfold move_ballot. destruct targets as [|t ts]; [apply BB_alloc_add; [exact HB|discriminate]|].
    apply (fold_left_inv (BB K)); [|exact HB]. intros a' x Hx HB'.
    apply BB_alloc_add; [exact HB'|]. intros c [= <-]. exact (Ht x Hx).
  Qed.

  Lemma BB_alloc_del K a k : BB K a -> BB K (alloc_del a k).
  Proof. intros HB c p b w H. apply (HB c p b w). unfold alloc_del in H. apply filter_In in H. exact (proj1 H). Qed.

  (* where a solid ballot goes when the candidate it rests on leaves *)
  Lemma okb_targets K cont c b : solid_b SS b = true -> okb K c b = true -> incl cont K -> ~ In c cont ->
    (forall t, In t (ranked_next b c cont) -> okb cont t b = true) /\
    (cmem c SS = true -> (exists d', In d' SS /\ In d' cont) -> exists d, ranked_next b c cont = [d] /\ In d SS).
  Proof.
    intros Hs Hok Hi Hc. destruct (solid_b_shape SS b Hs) as (top & rest & -> & H1 & H2).
    unfold okb in Hok. destruct (cmem c SS) eqn:Ec.
    - destruct (existsb (fun x => cmem x cont) SS) eqn:Ex.
      + apply existsb_exists in Ex. destruct Ex as (d' & Hd1 & Hd2). apply cmem_In in Hd2.
        destruct (ranked_next_top K cont c rest d' Hi Hc Hd2 top (H2 _ Hd1) Hok) as (d & R1 & R2 & R3 & R4).
        split.
        * intros t Ht. rewrite R1 in Ht. destruct Ht as [<-|[]]. unfold okb.
          assert (cmem d SS = true) as -> by (apply cmem_In, H1, R2). exact R4.
        * intros _ _. exists d. split; [exact R1|apply H1, R2].
      + assert (Hno : forall x, In x SS -> ~ In x cont).
        { intros x Hx Hxc. apply not_true_iff_false in Ex. apply Ex. apply existsb_exists. exists x. split; [exact Hx|apply cmem_In, Hxc]. }
        split.
        * intros t Ht. apply ranked_next_allowed in Ht. unfold okb.
          assert (cmem t SS = false) as -> by (apply cmem_false; intros H; exact (Hno t H Ht)).
          apply forallb_forall. intros x Hx. apply negb_true_iff, cmem_false, Hno, Hx.
        * intros _ (d' & Hd1 & Hd2). exfalso. exact (Hno d' Hd1 Hd2).
    - split; [|discriminate]. intros t Ht. apply ranked_next_allowed in Ht. unfold okb.
      rewrite forallb_forall in Hok.
      assert (cmem t SS = false) as ->.
      { apply cmem_false. intros H. specialize (Hok t H). apply negb_true_iff, cmem_false in Hok. apply Hok, Hi, Ht. }
      apply forallb_forall. intros x Hx. exact (negb_cmem_mono K cont x Hi (Hok x Hx)).
  Qed.

  Lemma keys_some_add_some a t b w : In t (keys_some a) -> keys_some (alloc_add a (Some t) b w) = keys_some a.
  Proof. intros H. apply keys_some_add. intros c [= <-]. exact H. Qed.
  Lemma keys_some_add_none a b w : keys_some (alloc_add a None b w) = keys_some a.
  Proof. apply keys_some_add. discriminate. Qed.

  Lemma alloc_get_none_key a c : alloc_get a (Some c) = None -> ~ In c (keys_some a).
  Proof.
    unfold keys_some. induction a as [|[k q] a IH]; simpl; [tauto|]. destruct k as [x|]; simpl.
    - destruct (ceqb c x) eqn:E; [discriminate|]. intros H [->|H1]; [rewrite ceqb_refl in E; discriminate|exact (IH H H1)].
    - exact IH.
  Qed.

  (* pouring the pile of a leaving candidate over the continuing ones *)
  Definition pour (cont : list C) (c : C) (p : pile) (a : alloc) : alloc :=
    fold_left (fun a bw => move_ballot a (ranked_next (fst bw) c cont) (fst bw) (snd bw)) p a.
  Definition tstep (cont : list C) (a : alloc) (c : C) : alloc :=
    alloc_del (pour cont c (match alloc_get a (Some c) with Some p => p | None => [] end) a) (Some c).
  Lemma transfer_unfold a elim :
    transfer a elim = fold_left (tstep (filter (fun c => negb (cmem c elim)) (keys_some a)))
                                (filter (fun c => cmem c elim) (keys_some a)) a.
  Proof. reflexivity. Qed.

  Lemma pour_psc cont c : ~ In c cont -> forall p a0,
    NoDup (akeys a0) -> alloc_nonneg a0 -> pile_nonneg p -> BB cont a0 -> incl cont (keys_some a0) ->
    (forall b w, In (b, w) p -> solid_b SS b = true -> okb cont c b = true) ->
    let r := pour cont c p a0 in
    NoDup (akeys r) /\ alloc_nonneg r /\ BB cont r /\ keys_some r = keys_some a0 /\
    alloc_get r (Some c) = alloc_get a0 (Some c) /\ cwa a0 <= cwa r /\
    (cmem c SS = true -> (exists d', In d' SS /\ In d' cont) -> cwa a0 + cwp p <= cwa r).
  Proof.
    intros Hc. induction p as [|[b w] p IH]; intros a0 Hnd Hnn Hp HB Hk Hok; cbv zeta.
    - change (pour cont c [] a0) with a0. repeat split; try assumption; try reflexivity; [lra|]. intros _ _. simpl. lra.
    - change (pour cont c ((b, w) :: p) a0) with (pour cont c p (move_ballot a0 (ranked_next b c cont) b w)).
      set (tg := ranked_next b c cont). set (a1 := move_ballot a0 tg b w).
      apply Forall_cons_iff in Hp. destruct Hp as [Hw Hp']. simpl in Hw.
      assert (Htg : incl tg cont) by apply ranked_next_allowed.
      assert (Hnc : ~ In c tg) by (intros H; apply Hc, Htg, H).
      destruct (move_ballot_keep a0 tg b w c Hnc Hnd) as [G1 N1].
      assert (K1 : keys_some a1 = keys_some a0) by (apply keys_some_move; intros x Hx; apply Hk, Htg, Hx).
      assert (B1 : BB cont a1).
      { apply BB_move; [exact HB|]. intros t Ht Hs.
        apply (proj1 (okb_targets cont cont c b Hs (Hok b w (or_introl eq_refl) Hs) (incl_refl _) Hc)). exact Ht. }
      destruct (IH a1 N1 (move_ballot_nonneg a0 tg b w Hnn Hw) Hp' B1) as (R1 & R2 & R3 & R4 & R5 & R6 & R7).
      { rewrite K1. exact Hk. }
      { intros b0 w0 Hin. apply (Hok b0 w0). right. exact Hin. }
      split; [exact R1|]. split; [exact R2|]. split; [exact R3|]. split; [rewrite R4; exact K1|].
      split; [rewrite R5; exact G1|].
      pose proof (cwa_move_ge a0 tg b w Hw) as M1. fold a1 in M1.
      split; [lra|]. intros Ec Hex. specialize (R7 Ec Hex). cbn [cwp fold_right fst snd].
      fold (cwp p).
      assert (M2 : cwa a0 + sw b w <= cwa a1).
      { unfold sw. destruct (solid_b SS b) eqn:Hs; [|lra].
        destruct (proj2 (okb_targets cont cont c b Hs (Hok b w (or_introl eq_refl) Hs) (incl_refl _) Hc) Ec Hex) as (d & Hd1 & Hd2).
        unfold a1, tg. rewrite Hd1, (cwa_move_single a0 d b w Hd2). unfold sw. rewrite Hs. lra. }
      lra.
  Qed.

  Lemma tstep_psc cont a c : ~ In c cont -> NoDup (akeys a) -> alloc_nonneg a -> BB cont a -> incl cont (keys_some a) ->
    let r := tstep cont a c in
    NoDup (akeys r) /\ alloc_nonneg r /\ BB cont r /\
    keys_some r = filter (fun x => negb (ceqb c x)) (keys_some a) /\
    ((exists d', In d' SS /\ In d' cont) -> cwa a <= cwa r).
  Proof.
    intros Hc Hnd Hnn HB Hk. unfold tstep.
    set (p := match alloc_get a (Some c) with Some p => p | None => [] end).
    assert (Hp : pile_nonneg p).
    { unfold p. destruct (alloc_get a (Some c)) eqn:E; [eapply alloc_get_nonneg; eassumption|constructor]. }
    assert (Hok : forall b w, In (b, w) p -> solid_b SS b = true -> okb cont c b = true).
    { unfold p. destruct (alloc_get a (Some c)) as [p0|] eqn:E; [|intros b w []].
      intros b w Hin Hs. apply (HB c p0 b w); [apply alloc_get_some_in, E|exact Hin|exact Hs]. }
    destruct (pour_psc cont c Hc p a Hnd Hnn Hp HB Hk Hok) as (R1 & R2 & R3 & R4 & R5 & R6 & R7).
    set (r0 := pour cont c p a) in *. cbv zeta.
    split; [apply alloc_del_nodup, R1|].
    split; [apply alloc_del_nonneg, R2|]. split; [apply BB_alloc_del, R3|].
    split; [rewrite keys_some_alloc_del, R4; reflexivity|].
    intros Hex. destruct (alloc_get a (Some c)) as [p0|] eqn:E.
    - rewrite (cwa_alloc_del r0 (Some c) p0 R1) by (rewrite R5; reflexivity). cbn [inS].
      destruct (cmem c SS) eqn:Ec; [specialize (R7 eq_refl Hex); unfold p in R7; lra|lra].
    - rewrite (alloc_del_none r0 (Some c)) by (rewrite R5; reflexivity). exact R6.
  Qed.

  Theorem transfer_psc a elim : NoDup (akeys a) -> alloc_nonneg a -> BB (keys_some a) a ->
    let cont := filter (fun c => negb (cmem c elim)) (keys_some a) in
    let r := transfer a elim in
    NoDup (akeys r) /\ alloc_nonneg r /\ BB cont r /\ keys_some r = cont /\
    ((exists d', In d' SS /\ In d' cont) -> cwa a <= cwa r).
  Proof.
    intros Hnd Hnn HB cont r. subst r.
    assert (Hcont : incl cont (keys_some a)) by apply incl_filter.
    enough (H : NoDup (akeys (transfer a elim)) /\ alloc_nonneg (transfer a elim) /\ BB cont (transfer a elim) /\
                incl cont (keys_some (transfer a elim)) /\
                ((exists d', In d' SS /\ In d' cont) -> cwa a <= cwa (transfer a elim))).
    { destruct H as (R1 & R2 & R3 & _ & R5).
      split; [exact R1|]. split; [exact R2|]. split; [exact R3|]. split; [apply transfer_keys_eq|exact R5]. }
    rewrite transfer_unfold. fold cont.
    apply (fold_left_inv (fun r => NoDup (akeys r) /\ alloc_nonneg r /\ BB cont r /\ incl cont (keys_some r) /\
                                      ((exists d', In d' SS /\ In d' cont) -> cwa a <= cwa r))).
    - intros r c Hc (R1 & R2 & R3 & R4 & R5).
      assert (Hcc : ~ In c cont).
      { intros Hin. apply filter_In in Hc. apply filter_In in Hin. destruct Hc as [_ H1], Hin as [_ H2].
        rewrite H1 in H2. discriminate. }
      destruct (tstep_psc cont r c Hcc R1 R2 R3 R4) as (T1 & T2 & T3 & T4 & T5).
      split; [exact T1|]. split; [exact T2|]. split; [exact T3|]. split.
      + rewrite T4. intros x Hx. apply filter_In. split; [apply R4, Hx|].
        apply negb_true_iff, ceqb_neq. intros ->. exact (Hcc Hx).
      + intros Hex. specialize (T5 Hex). specialize (R5 Hex). lra.
    - split; [exact Hnd|]. split; [exact Hnn|]. split; [exact (BB_mono _ _ a Hcont HB)|]. split; [exact Hcont|].
      intros _. lra.
  Qed.

  Definition sumS (el : list (C * Q)) : Q :=
    fold_right (fun ca acc => (if cmem (fst ca) SS then snd ca else 0) + acc) 0 el.

  Theorem subtract_psc K elected : forall a a', NoDup (akeys a) -> alloc_nonneg a ->
    (forall c amt, In (c, amt) elected -> 0 <= amt) ->
    NoDup (map fst elected) ->
    (forall c amt p, In (c, amt) elected -> alloc_get a (Some c) = Some p -> amt <= wsum p) ->
    BB K a ->
    subtract a elected = Some a' ->
    cwa a - sumS elected <= cwa a' /\ BB K a'.
  Proof.
    induction elected as [|[c amt] t IH]; intros a a' Hnd Hnn Hpos Hd Hle HB; simpl.
    - intros [= <-]. split; [lra|exact HB].
    - destruct (alloc_get a (Some c)) as [p|] eqn:Eg; [|discriminate].
      destruct (gregory_subtract p amt) as [p'|] eqn:Es; [|discriminate]. intros Hsub.
      pose proof (cwa_replace a c p p' Hnd Eg) as H1. fold (set_pile_of c p' a) in H1.
      apply NoDup_cons_iff in Hd. destruct Hd as [Hc Hd'].
      pose proof (alloc_get_nonneg a _ p Hnn Eg) as Hp.
      pose proof (gregory_subtract_nonneg p amt p' Hp (Hpos c amt (or_introl eq_refl)) Es) as Hp'.
      destruct (IH (set_pile_of c p' a) a') as [H3 H4].
      + rewrite set_pile_keys. exact Hnd.
      + apply set_pile_nonneg; assumption.
      + intros c0 amt0 Hin. apply (Hpos c0). right. exact Hin.
      + exact Hd'.
      + intros c0 amt0 p0 Hin Hg0. apply (Hle c0 amt0 p0); [right; exact Hin|].
        rewrite <- Hg0. symmetry. apply set_pile_get_other. intros ->. apply Hc, (in_map fst _ _ Hin).
      + intros c0 p0 b w Hin Hb Hs. destruct (set_pile_in _ _ _ _ _ Hin) as [[[= ->] ->]|Hin0]; [|exact (HB c0 p0 b w Hin0 Hb Hs)].
        destruct (gregory_subtract_in p amt p' b w Es Hb) as (w1 & Hw1).
        apply (HB c p b w1); [apply alloc_get_some_in, Eg|exact Hw1|exact Hs].
      + exact Hsub.
      + split; [|exact H4].
        pose proof (cwp_gregory p amt p' Hp (Hpos c amt (or_introl eq_refl)) (Hle c amt p (or_introl eq_refl) Eg) Es) as Hg.
        cbn [fst snd]. destruct (cmem c SS); lra.
  Qed.

  Definition cnt (l : list C) : nat := length (filter (fun c => cmem c SS) l).

  Lemma cnt_app l1 l2 : cnt (l1 ++ l2) = (cnt l1 + cnt l2)%nat.
  Proof. unfold cnt. rewrite filter_app, app_length. reflexivity. Qed.

  Lemma cnt_split l e : NoDup l -> NoDup e -> incl e l ->
    (cnt (filter (fun c => negb (cmem c e)) l) + cnt e = cnt l)%nat.
  Proof.
    intros Hl He Hi. unfold cnt.
    pose proof (filter_partition_length (fun c => cmem c e) (filter (fun c => cmem c SS) l)) as G1.
    cbv beta in G1.
    assert (G2 : length (filter (fun c => cmem c e) (filter (fun c => cmem c SS) l)) = length (filter (fun c => cmem c SS) e)).
    { apply filter_length_of; [apply NoDup_filter, Hl|apply NoDup_filter, He|].
      intros x. rewrite !filter_In, !cmem_In. split; [intros [H1 H2]; split; [split; [apply Hi, H1|exact H2]|exact H1]|tauto]. }
    rewrite (filter_and (fun c => cmem c SS) (fun c => negb (cmem c e)) l).
    rewrite (filter_and (fun c => negb (cmem c e)) (fun c => cmem c SS) l) in G1.
    rewrite (filter_ext (fun x => negb (cmem x e) && cmem x SS) (fun x => cmem x SS && negb (cmem x e))) by (intros x; apply andb_comm).
    lia.
  Qed.

  Lemma dget_or_notin (seats : list (C * Z)) c : ~ In c (map fst seats) -> dget_or seats c 0%Z = 0%Z.
  Proof.
    unfold dget_or. induction seats as [|[k v] t IH]; simpl; [reflexivity|]. intros H.
    destruct (ceqb c k) eqn:E; [apply ceqb_eq in E; subst; exfalso; apply H; left; reflexivity|].
    apply IH. intros H1. apply H. right. exact H1.
  Qed.

  (* new seats of new candidates are appended *)
  Lemma add_seats_app el : forall seats, NoDup (map fst el) ->
    (forall c, In c (map fst el) -> ~ In c (map fst seats)) ->
    add_seats seats el = seats ++ el.
  Proof.
    unfold add_seats. induction el as [|[c s] el IH]; intros seats Hnd Hd; simpl; [rewrite app_nil_r; reflexivity|].
    apply NoDup_cons_iff in Hnd. destruct Hnd as [Hc Hnd'].
    assert (Hn : ~ In c (map fst seats)) by (apply Hd; left; reflexivity).
    rewrite (dset_fresh seats c _ Hn), (dget_or_notin seats c Hn). change (0 + s)%Z with s.
    rewrite IH; [rewrite <- app_assoc; reflexivity|exact Hnd'|].
    intros x Hx. rewrite map_app. intros Hin. apply in_app_or in Hin. destruct Hin as [Hin|[<-|[]]].
    - apply (Hd x); [right; exact Hx|exact Hin].
    - exact (Hc Hx).
  Qed.

  Lemma add_seats_keys el : forall seats, NoDup (map fst el) ->
    (forall c, In c (map fst el) -> ~ In c (map fst seats)) ->
    map fst (add_seats seats el) = map fst seats ++ map fst el.
  Proof. intros seats Hnd Hd. rewrite (add_seats_app el seats Hnd Hd). apply map_app. Qed.

  Lemma cnt_cons c l : cnt (c :: l) = if cmem c SS then S (cnt l) else cnt l.
  Proof. unfold cnt. cbn [filter]. destruct (cmem c SS); reflexivity. Qed.

  Lemma inject_succ_mul (m : nat) (q : Q) : inject_Z (Z.of_nat (S m)) * q == inject_Z (Z.of_nat m) * q + q.
  Proof. rewrite Nat2Z.inj_succ. unfold Z.succ. rewrite inject_Z_plus. change (inject_Z 1) with 1. ring. Qed.

  Lemma inject_nat_mul_lt (q : Q) (m n : nat) : 0 < q ->
    inject_Z (Z.of_nat m) * q < inject_Z (Z.of_nat n) * q -> (m < n)%nat.
  Proof.
    intros Hq H. destruct (le_lt_dec n m) as [Hge|Hl]; [exfalso|exact Hl].
    assert (Hz : inject_Z (Z.of_nat n) <= inject_Z (Z.of_nat m)) by (rewrite <- Zle_Qle; lia).
    pose proof (Qmult_le_compat_r _ _ q Hz (Qlt_le_weak _ _ Hq)). lra.
  Qed.

  (* when nobody holds a quota, the coalition's resting weight is below one quota per continuing member *)
  Lemma cwa_lt_quota a q : alloc_nonneg a -> 0 < q -> (forall c p, In (Some c, p) a -> wsum p < q) ->
    cwa a <= inject_Z (Z.of_nat (cnt (keys_some a))) * q /\
    ((0 < cnt (keys_some a))%nat -> cwa a < inject_Z (Z.of_nat (cnt (keys_some a))) * q).
  Proof.
    intros Hnn Hq. induction a as [|[k p] a IH]; intros Hlt.
    - change (cnt (keys_some [])) with 0%nat. change (inject_Z (Z.of_nat 0)) with 0. cbn [cwa fold_right].
      split; [lra|intros H; inversion H].
    - apply Forall_cons_iff in Hnn. destruct Hnn as [Hp Hnn']. simpl in Hp.
      destruct (IH Hnn') as [I1 I2]; [intros c0 p0 H; apply (Hlt c0 p0); right; exact H|].
      cbn [cwa fold_right fst snd]. fold (cwa a).
      destruct k as [c|]; cbn [inS].
      + change (keys_some ((Some c, p) :: a)) with (c :: keys_some a). rewrite cnt_cons.
        destruct (cmem c SS) eqn:Ec.
        * rewrite inject_succ_mul.
          destruct (cwp_bounds p Hp) as [C0 C1]. pose proof (Hlt c p (or_introl eq_refl)) as Hw.
          split; [lra|intros _; lra].
        * split; [lra|]. intros H. specialize (I2 H). lra.
      + change (keys_some ((None, p) :: a)) with (keys_some a). split; [lra|]. intros H. specialize (I2 H). lra.
  Qed.

  Lemma sumS_amounts (el : list (C * Z)) (q : Q) : (forall c s, In (c, s) el -> s = 1%Z) ->
    sumS (map (fun cs : C * Z => (fst cs, inject_Z (snd cs) * q)) el) == inject_Z (Z.of_nat (cnt (map fst el))) * q.
  Proof.
    induction el as [|[c s] el IH]; intros H1; simpl; [ring|].
    rewrite IH by (intros c0 s0 H; apply (H1 c0 s0); right; exact H).
    rewrite (H1 c s (or_introl eq_refl)). cbn [fst]. rewrite cnt_cons. destruct (cmem c SS); [|ring].
    rewrite inject_succ_mul. change (inject_Z 1) with 1. ring.
  Qed.

  Lemma flat_map_nil {X Y} (f : X -> list Y) l : flat_map f l = [] -> forall x, In x l -> f x = [].
  Proof.
    induction l as [|y l IH]; simpl; [intros _ x []|]. intros H x [->|Hx].
    - destruct (f x); [reflexivity|discriminate].
    - apply IH; [|exact Hx]. destruct (f y); [exact H|discriminate].
  Qed.

  Lemma totals_key_some a c t : In (Some c, t) (totals a) -> In c (keys_some a).
  Proof.
    intros H. apply keys_some_akeys. rewrite <- totals_keys. apply in_map_iff. exists (Some c, t). split; [reflexivity|exact H].
  Qed.

  (* nobody elected: every continuing candidate holds less than the quota *)
  Lemma ebq_none cf q a n_rem prev caps : c_accept_equal cf = true -> 0 < q ->
    (forall c, In c (keys_some a) -> dget caps c = Some 1%Z /\ dget_or prev c 0%Z = 0%Z) ->
    elect_by_quota cf (totals a) (Some q) n_rem prev caps = inl None ->
    forall c t, In (Some c, t) (totals a) -> t < q.
  Proof.
    intros Hae Hq Hcap. rewrite ebq_unfold. pose proof (ebq_items_perm (totals a)) as Hitems.
    destruct (flat_map (ebq_item cf q prev caps) _) as [|s0 sel'] eqn:Esel.
    - intros _ c t Hin. apply (Permutation_in _ (Permutation_sym Hitems)) in Hin.
      pose proof (flat_map_nil _ _ Esel _ Hin) as Hf. unfold ebq_item in Hf. cbn [fst snd] in Hf.
      destruct (Hcap c (totals_key_some a c t (Permutation_in _ Hitems Hin))) as [Hc1 Hc2].
      rewrite Hae, Hc1, Hc2 in Hf. cbn [orb] in Hf.
      destruct (Qlt_le_dec t q) as [Hlt|Hle]; [exact Hlt|exfalso].
      pose proof (qfloor_div_big t q Hq Hle) as Hm.
      rewrite Z.min_r in Hf by lia. cbn in Hf. discriminate.
    - unfold ebq_tail, ebq_correct. cbv zeta. destruct (_ <? _)%Z; [|discriminate]. destruct (existsb _ _); discriminate.
  Qed.

  (* whoever is elected gets exactly one seat *)
  Lemma ebq_cap1 cf q a n_rem prev caps el : (forall c, In c (keys_some a) -> dget caps c = Some 1%Z) ->
    (forall c, (0 <= dget_or prev c 0)%Z) ->
    elect_by_quota cf (totals a) (Some q) n_rem prev caps = inl (Some el) ->
    forall c s, In (c, s) el -> (s <= 1)%Z.
  Proof.
    intros Hcap Hprev Ee c s Hin.
    destruct (proj2 (ebq_entries cf (totals a) q n_rem prev caps el Ee) c s Hin) as (t & Ht & _ & Hle).
    rewrite (Hcap c (totals_key_some a c t Ht)) in Hle. pose proof (Hprev c). lia.
  Qed.

  Lemma cnt_le_length l : (cnt l <= length l)%nat.
  Proof. apply filter_len_le. Qed.

  Lemma cnt_pos_ex l : (0 < cnt l)%nat -> exists e, In e l /\ In e SS.
  Proof.
    unfold cnt. destruct (filter (fun c => cmem c SS) l) as [|e t] eqn:E; simpl; [lia|]. intros _.
    assert (H : In e (filter (fun c => cmem c SS) l)) by (rewrite E; left; reflexivity).
    apply filter_In in H. exists e. split; [exact (proj1 H)|apply cmem_In, (proj2 H)].
  Qed.

  Lemma ex_cnt_pos l e : In e l -> In e SS -> (0 < cnt l)%nat.
  Proof.
    intros H1 H2. unfold cnt. assert (H : In e (filter (fun c => cmem c SS) l)) by (apply filter_In; split; [exact H1|apply cmem_In, H2]).
    destruct (filter (fun c => cmem c SS) l); [destruct H|simpl; lia].
  Qed.

  Section RUNPSC.
    Variable cf : cfg.
    Hypothesis Hae : c_accept_equal cf = true.
    Hypothesis Hstep : c_step cf = (-1)%Z.
    Variable qf : Q -> Z -> Q.
    Hypothesis Hqf : c_quota cf = Some qf.
    Variable n : Z.
    Variable total : Q.
    Hypothesis Htot : Qeq_bool total 0 = false.
    Hypothesis Hn0 : (n =? 0)%Z = false.
    Let q := qf total n.
    Hypothesis Hq : 0 < q.
    Variable caps : list (C * Z).
    Variable k : nat.

    (* i_B: the ballots solid for SS rest where they should while a member of SS continues; i_C: while one does, the
       solid weight on members (cwa) plus a quota per seated member covers k quotas; i_I2: seated and continuing
       members together number at least min(k, |SS|) *)
    Record Inv (a : alloc) (seats : list (C * Z)) : Prop := {
      i_nd : NoDup (akeys a);
      i_nn : alloc_nonneg a;
      i_caps : forall c, In c (keys_some a) -> dget caps c = Some 1%Z;
      i_disj : forall c, In c (keys_some a) -> ~ In c (map fst seats);
      i_sn : forall c, (0 <= dget_or seats c 0)%Z;
      i_one : forall c s, In (c, s) seats -> s = 1%Z;
      i_ndk : NoDup (map fst seats);
      i_cons : asum a + inject_Z (zsum (map snd seats)) * q <= total;
      i_B : BB (keys_some a) a;
      i_C : (exists c, In c SS /\ In c (keys_some a)) ->
            inject_Z (Z.of_nat k) * q <= cwa a + inject_Z (Z.of_nat (cnt (map fst seats))) * q;
      i_I2 : (Nat.min k (length SS) <= cnt (map fst seats) + cnt (keys_some a))%nat
    }.

    Lemma quota_is : quota_of cf total n = Some q.
    Proof. unfold quota_of. rewrite Hqf, Htot, Hn0. reflexivity. Qed.

    (* One count, whatever the transferer. [a'] is what the count leaves: the candidates of the count are gone,
       the solid ballots still rest where they should, and the coalition has lost at most a quota per member seated. *)
    Lemma Inv_elect a seats el0 a' : Inv a seats ->
      (forall c s, In (c, s) el0 -> s = 1%Z /\ In c (keys_some a)) ->
      NoDup (map fst el0) ->
      let cont := filter (fun c => negb (cmem c (map fst el0))) (keys_some a) in
      NoDup (akeys a') -> alloc_nonneg a' -> BB cont a' -> keys_some a' = cont ->
      ((exists d', In d' SS /\ In d' cont) -> cwa a - inject_Z (Z.of_nat (cnt (map fst el0))) * q <= cwa a') ->
      asum a' + inject_Z (seats_sum el0) * q == asum a ->
      Inv a' (add_seats seats el0).
    Proof.
      intros [I1 I2 I3 I4 I5 Io Ik I6 I7 I8 I9] Hel Hnd cont R1 R2 R3 R4 R5 Hcons.
      set (E := map fst el0) in *.
      assert (HE : incl E (keys_some a)).
      { intros c Hc. apply in_map_iff in Hc. destruct Hc as ([c0 s0] & <- & Hin). exact (proj2 (Hel c0 s0 Hin)). }
      assert (Hcont : incl cont (keys_some a)) by apply incl_filter.
      assert (Hkeys : map fst (add_seats seats el0) = map fst seats ++ E).
      { apply add_seats_keys; [exact Hnd|]. intros c Hc. apply I4, HE, Hc. }
      constructor.
      - exact R1.
      - exact R2.
      - intros c Hc. rewrite R4 in Hc. apply I3, Hcont, Hc.
      - intros c Hc. rewrite R4 in Hc. rewrite Hkeys. intros Hin. apply in_app_or in Hin. destruct Hin as [Hin|Hin].
        + exact (I4 c (Hcont c Hc) Hin).
        + apply filter_In in Hc. destruct Hc as [_ Hc]. apply negb_true_iff, cmem_false in Hc. exact (Hc Hin).
      - apply add_seats_nonneg; [exact I5|]. intros c s Hin. destruct (Hel c s Hin) as [-> _]. exact Z.lt_0_1.
      - intros c s Hin. rewrite add_seats_app in Hin; [|exact Hnd|intros c0 Hc0; apply I4, HE, Hc0].
        apply in_app_or in Hin. destruct Hin as [Hin|Hin]; [exact (Io c s Hin)|exact (proj1 (Hel c s Hin))].
      - rewrite Hkeys. apply nodup_app_intro; [exact Ik|exact Hnd|].
        intros x Hx Hxe. exact (I4 x (HE x Hxe) Hx).
      - rewrite add_seats_sum, inject_Z_plus. lra.
      - rewrite R4. exact R3.
      - rewrite R4. intros Hex. specialize (R5 Hex). destruct Hex as (c & Hc1 & Hc2).
        specialize (I8 (ex_intro _ c (conj Hc1 (Hcont c Hc2)))).
        rewrite Hkeys, cnt_app, Nat2Z.inj_add, inject_Z_plus. lra.
      - rewrite R4, Hkeys, cnt_app.
        pose proof (cnt_split (keys_some a) E (keys_some_nodup a I1) Hnd HE) as Hs. fold cont in Hs. lia.
    Qed.

    Lemma Inv_elim a seats elim a' : Inv a seats ->
      (forall c p, In (Some c, p) a -> wsum p < q) ->
      incl elim (keys_some a) -> NoDup elim -> (length elim <= 1)%nat ->
      let cont := filter (fun c => negb (cmem c elim)) (keys_some a) in
      NoDup (akeys a') -> alloc_nonneg a' -> BB cont a' -> keys_some a' = cont ->
      ((exists d', In d' SS /\ In d' cont) -> cwa a <= cwa a') ->
      asum a' == asum a ->
      Inv a' seats.
    Proof.
      intros [I1 I2 I3 I4 I5 Io Ik I6 I7 I8 I9] Hlt HE Hnd Hlen cont R1 R2 R3 R4 R5 T1.
      assert (Hcont : incl cont (keys_some a)) by apply incl_filter.
      pose proof (cnt_split (keys_some a) elim (keys_some_nodup a I1) Hnd HE) as Hs. fold cont in Hs.
      constructor.
      - exact R1.
      - exact R2.
      - intros c Hc. rewrite R4 in Hc. apply I3, Hcont, Hc.
      - intros c Hc. rewrite R4 in Hc. apply I4, Hcont, Hc.
      - exact I5.
      - exact Io.
      - exact Ik.
      - rewrite T1. exact I6.
      - rewrite R4. exact R3.
      - rewrite R4. intros Hex. specialize (R5 Hex). destruct Hex as (c & Hc1 & Hc2).
        specialize (I8 (ex_intro _ c (conj Hc1 (Hcont c Hc2)))). lra.
      - rewrite R4. pose proof (cnt_le_length elim) as Hc.
        destruct (Nat.eq_0_gt_0_cases (cnt elim)) as [H0|Hpos]; [lia|].
        (* a member of SS is eliminated: the coalition holds less than one quota per continuing member *)
        destruct (cnt_pos_ex elim Hpos) as (e & He1 & He2). apply HE in He1.
        specialize (I8 (ex_intro _ e (conj He2 He1))).
        pose proof (proj2 (cwa_lt_quota a q I2 Hq Hlt) (ex_cnt_pos _ e He1 He2)) as Hc2.
        assert (Hk : (k < cnt (keys_some a) + cnt (map fst seats))%nat).
        { apply (inject_nat_mul_lt q _ _ Hq). rewrite Nat2Z.inj_add, inject_Z_plus, Qmult_plus_distr_l. lra. }
        lia.
    Qed.

    (* a count that elects: the elected (one seat each) are removed, their surplus transferred *)
    Lemma step_elect a seats el0 a1 : Inv a seats ->
      (forall c s, In (c, s) el0 -> s = 1%Z /\ exists p, alloc_get a (Some c) = Some p /\ inject_Z s * q <= wsum p) ->
      NoDup (map fst el0) ->
      subtract a (map (fun cs : C * Z => (fst cs, inject_Z (snd cs) * q)) el0) = Some a1 ->
      asum (transfer a1 (map fst el0)) + inject_Z (seats_sum el0) * q == asum a ->
      Inv (transfer a1 (map fst el0)) (add_seats seats el0).
    Proof.
      intros I Hel Hnd Hsub Hcons. pose proof I as [I1 I2 _ _ _ _ _ _ I7 _ _].
      set (amts := map (fun cs : C * Z => (fst cs, inject_Z (snd cs) * q)) el0) in *.
      assert (Hamt : forall c amt, In (c, amt) amts -> exists s, In (c, s) el0 /\ amt = inject_Z s * q).
      { intros c amt Hin. unfold amts in Hin. apply in_map_iff in Hin. destruct Hin as ([c0 s0] & Heq & Hin).
        injection Heq as <- <-. exists s0. split; [exact Hin|reflexivity]. }
      assert (Hpos : forall c amt, In (c, amt) amts -> 0 <= amt).
      { intros c amt Hin. destruct (Hamt c amt Hin) as (s & Hs & ->). destruct (Hel c s Hs) as [-> _].
        change (inject_Z 1) with 1. lra. }
      assert (Hndk : NoDup (map fst amts)) by (unfold amts; rewrite map_map; exact Hnd).
      assert (Hle : forall c amt p, In (c, amt) amts -> alloc_get a (Some c) = Some p -> amt <= wsum p).
      { intros c amt p Hin Hg. destruct (Hamt c amt Hin) as (s & Hs & ->). destruct (Hel c s Hs) as (_ & p0 & Hg0 & Hw).
        rewrite Hg in Hg0. injection Hg0 as <-. exact Hw. }
      destruct (subtract_psc (keys_some a) amts a a1 I1 I2 Hpos Hndk Hle I7 Hsub) as [S1 S2].
      destruct (subtract_conserves amts a a1 I1 Hpos Hndk Hle Hsub) as [_ S3].
      pose proof (keys_some_akeys_eq a1 a S3) as S5.
      assert (HsumS : sumS amts == inject_Z (Z.of_nat (cnt (map fst el0))) * q).
      { apply sumS_amounts. intros c s Hin. apply (Hel c s Hin). }
      destruct (transfer_psc a1 (map fst el0)) as (R1 & R2 & R3 & R4 & R5);
        [rewrite S3; exact I1|exact (subtract_nonneg amts a a1 I2 Hpos Hsub)|rewrite S5; exact S2|].
      rewrite S5 in R3, R4, R5.
      apply (Inv_elect a seats el0 _ I); try assumption.
      - intros c s Hin. destruct (Hel c s Hin) as (H1 & p & Hg & _). split; [exact H1|].
        apply keys_some_akeys, (in_map fst _ _ (alloc_get_some_in _ _ _ Hg)).
      - intros Hex. specialize (R5 Hex). lra.
    Qed.

    (* a count that eliminates (at most one candidate, nobody holding a quota) *)
    Lemma step_elim a seats elim : Inv a seats ->
      (forall c p, In (Some c, p) a -> wsum p < q) ->
      incl elim (keys_some a) -> NoDup elim -> (length elim <= 1)%nat ->
      Inv (transfer a elim) seats.
    Proof.
      intros I Hlt HE Hnd Hlen.
      destruct (transfer_psc a elim (i_nd _ _ I) (i_nn _ _ I) (i_B _ _ I)) as (R1 & R2 & R3 & R4 & R5).
      exact (Inv_elim a seats elim _ I Hlt HE Hnd Hlen R1 R2 R3 R4 R5 (proj1 (transfer_conserves a elim (i_nd _ _ I)))).
    Qed.

    Lemma elim_map_fst seats (el0 : list (C * Z)) :
      (forall c s, In (c, s) el0 -> dget caps c = Some 1%Z /\ (1 <= s)%Z /\ (0 <= dget_or seats c 0)%Z) ->
      flat_map (fun cs : C * Z => match dget caps (fst cs) with
                                  | Some m => if (m <=? snd cs + dget_or seats (fst cs) 0)%Z then [fst cs] else []
                                  | None => [] end) el0 = map fst el0.
    Proof.
      induction el0 as [|[c s] el0 IH]; intros H; [reflexivity|]. cbn [flat_map map fst snd].
      destruct (H c s (or_introl eq_refl)) as (H1 & H2 & H3). rewrite H1.
      assert ((1 <=? s + dget_or seats c 0)%Z = true) as -> by (apply Z.leb_le; lia).
      cbn [app]. f_equal. apply IH. intros c0 s0 Hin. apply H. right. exact Hin.
    Qed.

    Lemma in_play_keys a : map fst (in_play a) = keys_some a.
    Proof.
      unfold in_play, some_totals, totals, keys_some. induction a as [|[k0 p] a IH]; [reflexivity|].
      cbn [map flat_map fst snd]. rewrite map_app, IH. destruct k0; reflexivity.
    Qed.

    Lemma totals_of_pile a c p : In (Some c, p) a -> In (Some c, pile_sum p) (totals a).
    Proof. intros H. unfold totals. apply in_map_iff. exists (Some c, p). split; [reflexivity|exact H]. Qed.

    Lemma elected_ok a seats n_rem el : Inv a seats ->
      elect_by_quota cf (totals a) (Some q) n_rem seats caps = inl (Some el) ->
      NoDup (map fst el) /\
      (forall c s, In (c, s) el -> s = 1%Z /\ exists p, alloc_get a (Some c) = Some p /\ inject_Z s * q <= wsum p) /\
      (forall c s, In (c, s) el -> dget caps c = Some 1%Z /\ (1 <= s)%Z /\ (0 <= dget_or seats c 0)%Z).
    Proof.
      intros I Ee.
      destruct (elect_by_quota_sound cf q Hq a _ seats caps el (i_nd _ _ I) (i_sn _ _ I) Ee) as [Hk Hs].
      pose proof (ebq_cap1 cf q a _ seats caps el (i_caps _ _ I) (i_sn _ _ I) Ee) as Hc1.
      assert (Hel : forall c s, In (c, s) el -> s = 1%Z /\ exists p, alloc_get a (Some c) = Some p /\ inject_Z s * q <= wsum p).
      { intros c s Hin. destruct (Hs c s Hin) as [Hp Hex]. pose proof (Hc1 c s Hin). split; [lia|exact Hex]. }
      split; [exact Hk|]. split; [exact Hel|].
      intros c s Hin. destruct (Hel c s Hin) as (-> & p & Hg & _). split; [|split; [lia|apply (i_sn _ _ I)]].
      apply (i_caps _ _ I), keys_some_akeys, (in_map fst _ _ (alloc_get_some_in _ _ _ Hg)).
    Qed.

    (* a count that elects nobody: nobody holds a quota, and at most one candidate goes *)
    Lemma eliminated_ok a seats : Inv a seats ->
      elect_by_quota cf (totals a) (Some q) (n - zsum (map snd seats)) seats caps = inl None ->
      has_tie_r (retained cf a) = false ->
      (forall c p, In (Some c, p) a -> wsum p < q) /\
      incl (eliminated cf a) (keys_some a) /\ NoDup (eliminated cf a) /\ (length (eliminated cf a) <= 1)%nat.
    Proof.
      intros I Ee Etie.
      assert (Hndp : NoDup (map fst (in_play a))) by (rewrite in_play_keys; apply keys_some_nodup, (i_nd _ _ I)).
      split; [|split; [|split]].
      - intros c p Hin. rewrite <- pile_sum_wsum.
        apply (ebq_none cf q a (n - zsum (map snd seats))%Z seats caps Hae Hq) with (c := c); [|exact Ee|apply totals_of_pile, Hin].
        intros c0 Hc0. split; [apply (i_caps _ _ I), Hc0|apply dget_or_notin, (i_disj _ _ I), Hc0].
      - unfold eliminated. rewrite in_play_keys. apply incl_filter.
      - apply NoDup_filter, Hndp.
      - destruct (Nat.eq_dec (length (in_play a)) 0) as [E0|E0].
        { apply length_zero_iff_nil in E0. unfold eliminated. rewrite E0. simpl. lia. }
        assert (Hm : (1 <= length (in_play a))%nat) by lia.
        assert (Hneg : (c_step cf < 0)%Z) by (rewrite Hstep; reflexivity).
        destruct (retained_count_neg cf (length (in_play a)) Hneg Hm) as [Hrc Hd].
        rewrite (eliminated_count cf a Hndp Etie Hrc), Hd, Hstep. change (Z.to_nat (- -1)) with 1%nat. lia.
    Qed.

    (* the invariant survives every count *)
    Theorem next_count_psc a seats a' el : Inv a seats ->
      next_count cf a n total seats caps = CR_next a' el -> Inv a' (add_seats seats el).
    Proof.
      intros I Hn.
      destruct (next_count_conserves cf a n total seats caps a' el (i_nd _ _ I) (i_sn _ _ I)) as (N1 & N2 & N3);
        [intros qv Hqv; rewrite quota_is in Hqv; injection Hqv as <-; exact Hq|exact Hn|].
      rewrite quota_is in N3.
      destruct (next_count_next _ _ _ _ _ _ _ _ Hn) as [(qv & a1 & Eq & Ee & Es & Ha')|(-> & Ee & Etie & Ha')].
      - rewrite quota_is in Eq. injection Eq as <-.
        destruct (elected_ok a seats _ el I Ee) as (Hk & Hel & Hc).
        rewrite (elim_map_fst seats el Hc) in Ha'.
        subst a'. apply (step_elect a seats el a1 I Hel Hk Es). exact N3.
      - rewrite quota_is in Ee. change (a' = transfer a (eliminated cf a)) in Ha'.
        destruct (eliminated_ok a seats I Ee Etie) as (Hlt & HE & Hnde & Hlen).
        subst a'. apply (step_elim a seats (eliminated cf a) I Hlt HE Hnde Hlen).
    Qed.

    Lemma cnt_perm l l' : Permutation l l' -> cnt l = cnt l'.
    Proof.
      induction 1 as [|x l l' _ IH|x y l|l l' l'' _ IH1 _ IH2]; [reflexivity| | |congruence].
      - rewrite !cnt_cons, IH. reflexivity.
      - rewrite !cnt_cons. destruct (cmem x SS), (cmem y SS); reflexivity.
    Qed.

    Lemma cwa_le_asum a : alloc_nonneg a -> cwa a <= asum a.
    Proof.
      induction 1 as [|[k0 p] a Hp _ IH]; simpl; [lra|]. simpl in Hp. destruct (cwp_bounds p Hp). destruct (inS k0); lra.
    Qed.

    Lemma totals_keys_some a :
      flat_map (fun kt : option C * Q => match fst kt with Some c => [c] | None => [] end) (totals a) = keys_some a.
    Proof.
      unfold totals, keys_some. induction a as [|[k0 p] a0 IH]; [reflexivity|]. cbn [map flat_map fst]. rewrite IH. reflexivity.
    Qed.

    (* the seats the elect-all-remaining shortcut hands out: one entry per continuing candidate, the room left
       under its cap *)
    Lemma all_remaining_keys a (seats : list (C * Z)) :
      let avail := flat_map (fun kt : option C * Q => match fst kt with
                               | Some c => [(c, (dget_or caps c 0 - dget_or seats c 0)%Z)]
                               | None => [] end) (sort_desc Qle_bool (totals a)) in
      Permutation (map fst avail) (keys_some a) /\
      forall c s, In (c, s) avail -> s = (dget_or caps c 0 - dget_or seats c 0)%Z.
    Proof.
      cbv zeta. split.
      - assert (H1 : forall l0 : list (option C * Q),
                  map fst (flat_map (fun kt : option C * Q => match fst kt with
                                      | Some c => [(c, (dget_or caps c 0 - dget_or seats c 0)%Z)]
                                      | None => [] end) l0)
                  = flat_map (fun kt : option C * Q => match fst kt with Some c => [c] | None => [] end) l0).
        { induction l0 as [|[k0 t] l0 IH]; [reflexivity|]. cbn [flat_map fst]. rewrite map_app, IH. destruct k0; reflexivity. }
        rewrite H1, <- (totals_keys_some a). apply Permutation_flat_map, sort_desc_perm.
      - intros c s Hin. apply in_flat_map in Hin. destruct Hin as ([k0 t0] & _ & Hin). cbn [fst] in Hin.
        destruct k0 as [c0|]; [|destruct Hin]. destruct Hin as [[= <- <-]|[]]. reflexivity.
    Qed.

    (* the elect-all-remaining shortcut seats every continuing member of SS *)
    Lemma all_psc a seats el : Inv a seats -> next_count cf a n total seats caps = CR_all el ->
      (Nat.min k (length SS) <= cnt (map fst (add_seats seats el)))%nat /\
      (forall c s, In (c, s) (add_seats seats el) -> s = 1%Z) /\ NoDup (map fst (add_seats seats el)).
    Proof.
      intros I En. destruct (next_count_all_inv _ _ _ _ _ _ _ En) as (-> & _ & _).
      destruct (all_remaining_keys a seats) as [Hk Hav].
      match goal with |- context [add_seats seats ?av] => set (avail := av) in * end.
      assert (Hnda : NoDup (map fst avail)) by (apply (Permutation_NoDup (Permutation_sym Hk)), keys_some_nodup, (i_nd _ _ I)).
      assert (Hdis : forall c, In c (map fst avail) -> ~ In c (map fst seats))
        by (intros c Hc; apply (i_disj _ _ I); apply (Permutation_in _ Hk), Hc).
      rewrite (add_seats_keys avail seats Hnda Hdis). split; [|split].
      - rewrite cnt_app, (cnt_perm _ _ Hk). exact (i_I2 _ _ I).
      - intros c s Hin. rewrite (add_seats_app avail seats Hnda Hdis) in Hin. apply in_app_or in Hin.
        destruct Hin as [Hin|Hin]; [exact (i_one _ _ I c s Hin)|].
        assert (Hck : In c (keys_some a)) by (apply (Permutation_in _ Hk), (in_map fst _ _ Hin)).
        rewrite (Hav c s Hin). unfold dget_or at 1.
        rewrite (i_caps _ _ I c Hck), (dget_or_notin seats c (i_disj _ _ I c Hck)). reflexivity.
      - apply nodup_app_intro; [exact (i_ndk _ _ I)|exact Hnda|].
        intros x Hx Hxa. exact (Hdis x Hxa Hx).
    Qed.

    (* all seats filled: no quota's worth of votes can be left on the coalition's continuing members *)
    Lemma done_psc a seats : Inv a seats -> zsum (map snd seats) = n -> total < inject_Z (n + 1) * q ->
      (Nat.min k (length SS) <= cnt (map fst seats))%nat.
    Proof.
      intros I Hz Hdroop. destruct I as [I1 I2 I3 I4 I5 Io Ik I6 I7 I8 I9].
      destruct (Nat.eq_0_gt_0_cases (cnt (keys_some a))) as [H0|Hpos]; [lia|].
      destruct (cnt_pos_ex _ Hpos) as (e & He1 & He2).
      specialize (I8 (ex_intro _ e (conj He2 He1))). pose proof (cwa_le_asum a I2) as Hc. rewrite Hz in I6.
      rewrite inject_Z_plus in Hdroop. change (inject_Z 1) with 1 in Hdroop.
      assert (Hk : (k < S (cnt (map fst seats)))%nat).
      { apply (inject_nat_mul_lt q _ _ Hq). rewrite inject_succ_mul.
        assert (Hexp : (inject_Z n + 1) * q == inject_Z n * q + q) by ring. lra. }
      lia.
    Qed.

    Theorem run_psc fuel : forall a seats acc, Inv a seats -> total < inject_Z (n + 1) * q ->
      t_stop (run cf fuel a n total seats caps acc) = None ->
      (Nat.min k (length SS) <= cnt (map fst (t_seats (run cf fuel a n total seats caps acc))))%nat /\
      (forall c s, In (c, s) (t_seats (run cf fuel a n total seats caps acc)) -> s = 1%Z) /\
      NoDup (map fst (t_seats (run cf fuel a n total seats caps acc))).
    Proof.
      intros a seats acc I Hd.
      apply (run_inv cf n total caps (fun a seats _ => Inv a seats)
               (fun t => t_stop t = None -> (Nat.min k (length SS) <= cnt (map fst (t_seats t)))%nat /\
                           (forall c s, In (c, s) (t_seats t) -> s = 1%Z) /\ NoDup (map fst (t_seats t)))); [| | | |exact I].
      - intros a0 s0 acc0 a' el I0 _ En. exact (next_count_psc a0 s0 a' el I0 En).
      - intros a0 s0 acc0 I0 Hz _. split; [exact (done_psc a0 s0 I0 Hz Hd)|split; [exact (i_one _ _ I0)|exact (i_ndk _ _ I0)]].
      - intros a0 s0 acc0 el I0 _ En _. exact (all_psc a0 s0 el I0 En).
      - discriminate.
    Qed.
  End RUNPSC.

  Lemma cwa_move_nonsolid a tg b w : solid_b SS b = false -> cwa (move_ballot a tg b w) == cwa a.
  Proof.
    intros Hs. assert (H0 : forall x, sw b x = 0) by (intros x; unfold sw; rewrite Hs; reflexivity).
    unfold move_ballot. destruct tg as [|t ts].
    - rewrite cwa_alloc_add. simpl. ring.
    - apply (fold_left_inv (fun r => cwa r == cwa a)); [|reflexivity].
      intros r x _ Hr. rewrite cwa_alloc_add, H0, Hr. destruct (inS (Some x)); ring.
  Qed.

  Lemma solid_not_shared l t : SS <> [] -> solid_b SS (IS l :: t) = false.
  Proof.
    intros Hne. apply not_true_is_false. intros E. destruct (solid_b_first SS _ Hne E) as (c & t' & [=] & _).
  Qed.
  Lemma solid_not_empty : SS <> [] -> solid_b SS [] = false.
  Proof.
    intros Hne. apply not_true_is_false. intros E. destruct (solid_b_first SS _ Hne E) as (c & t' & [=] & _).
  Qed.

  Lemma keys_some_base (cands : list C) : keys_some (map (fun c => (Some c, @nil (ballot * Q))) cands) = cands.
  Proof. induction cands as [|c l IH]; [reflexivity|]. cbn [map]. unfold keys_some in *. cbn [flat_map fst app]. rewrite IH. reflexivity. Qed.

  Lemma initial_keys votes : keys_some (initial_allocation votes) = all_ranked_candidates votes.
  Proof.
    apply (initial_allocation_keeps (fun a => keys_some a = all_ranked_candidates votes)); [apply keys_some_base| |].
    - intros a c t w Hin Ha. rewrite keys_some_add_some; [exact Ha|]. rewrite Ha.
      apply (all_ranked_in votes (IP c :: t) w (IP c) c Hin); left; reflexivity.
    - intros a l t w _ Ha. rewrite keys_some_move; [exact Ha|]. rewrite Ha. apply next_after_allowed.
  Qed.

  Theorem initial_psc (votes : list (ballot * Q)) (K : list C) : SS <> [] ->
    (forall b w, In (b, w) votes -> 0 <= w) ->
    let a0 := initial_allocation votes in
    alloc_nonneg a0 /\ BB K a0 /\ keys_some a0 = all_ranked_candidates votes /\
    cwa a0 == coalition_weight SS votes.
  Proof.
    intros Hne Hw. cbv zeta.
    destruct (initial_allocation_adds (fun a => alloc_nonneg a /\ BB K a) cwa sw votes) as ((P1 & P2) & P4).
    - split.
      + apply Forall_forall. intros x Hx. apply in_map_iff in Hx. destruct Hx as (c & <- & _). constructor.
      + intros c p b w Hin Hb. apply in_map_iff in Hin. destruct Hin as (c0 & [= _ <-] & _). destruct Hb.
    - induction (all_ranked_candidates votes) as [|c l IH]; [reflexivity|].
      cbn [map cwa fold_right fst snd]. fold (cwa (map (fun c0 : C => (Some c0, @nil (ballot * Q))) l)). rewrite IH.
      destruct (inS (Some c)); simpl; ring.
    - intros w. unfold sw. rewrite (solid_not_empty Hne). reflexivity.
    - intros a c t w Hin [Hnn HB].
      (* a solid ballot starts with a member of SS *)
      assert (Hfirst : solid_b SS (IP c :: t) = true -> cmem c SS = true).
      { intros Hs. destruct (solid_b_first SS _ Hne Hs) as (c1 & t1 & [= <- _] & Hc1). apply cmem_In, Hc1. }
      split; [split|].
      + apply alloc_add_nonneg; [exact Hnn|exact (Hw _ _ Hin)].
      + apply BB_alloc_add; [exact HB|]. intros c0 [= <-] Hs. unfold okb. rewrite (Hfirst Hs). cbn [rests_ok].
        rewrite ceqb_refl. reflexivity.
      + rewrite cwa_alloc_add. cbn [inS]. unfold sw.
        destruct (solid_b SS (IP c :: t)); [rewrite (Hfirst eq_refl); ring|destruct (cmem c SS); ring].
    - intros a l t w Hin [Hnn HB]. pose proof (solid_not_shared l t Hne) as Hs. split; [split|].
      + apply move_ballot_nonneg; [exact Hnn|exact (Hw _ _ Hin)].
      + apply BB_move; [exact HB|]. intros t0 _ Hsol. rewrite Hs in Hsol. discriminate.
      + rewrite (cwa_move_nonsolid _ _ _ _ Hs). unfold sw. rewrite Hs. ring.
    - split; [exact P1|]. split; [exact P2|]. split; [apply initial_keys|exact P4].
  Qed.
End PSC.

Definition vsum (votes : list (ballot * Q)) : Q := fold_right (fun bw acc => snd bw + acc) 0 votes.

Lemma total_vsum votes : Qred (fold_left Qplus (map snd votes) 0) == vsum votes.
Proof. exact (pile_sum_wsum votes). Qed.

Lemma cast_le_vsum votes : (forall b w, In (b, w) votes -> 0 <= w) -> cast votes <= vsum votes.
Proof.
  induction votes as [|[b w] vs IH]; intros Hw; simpl; [lra|].
  assert (H0 : 0 <= w) by (apply (Hw b w); left; reflexivity).
  assert (IH' : cast vs <= vsum vs) by (apply IH; intros b0 w0 H; apply (Hw b0 w0); right; exact H).
  unfold cast, vsum in *. cbn [fold_right fst snd]. destruct b; lra.
Qed.

Lemma cw_le_vsum SS votes : (forall b w, In (b, w) votes -> 0 <= w) -> coalition_weight SS votes <= vsum votes.
Proof.
  intros Hw. apply (cwp_bounds SS votes). apply Forall_forall. intros [b w] Hin. exact (Hw b w Hin).
Qed.

Lemma cw_pos_solid SS votes : 0 < coalition_weight SS votes -> exists b w, In (b, w) votes /\ solid_b SS b = true.
Proof.
  induction votes as [|[b w] vs IH]; simpl; [intros H; lra|]. destruct (solid_b SS b) eqn:E.
  - intros _. exists b, w. split; [left; reflexivity|exact E].
  - intros H. destruct IH as (b0 & w0 & H1 & H2); [lra|]. exists b0, w0. split; [right; exact H1|exact H2].
Qed.

(* the invariant holds of the first allocation, whichever way the shared first preferences were dealt *)
Lemma Inv_initial (qf : Q -> Z -> Q) votes n caps SS k a0 :
  (forall c, In c (all_ranked_candidates votes) -> dget caps c = Some 1%Z) ->
  NoDup SS -> (forall b w, In (b, w) votes -> 0 <= w) ->
  let total := Qred (fold_left Qplus (map snd votes) 0) in
  let q := qf total n in
  0 < q -> total < inject_Z (n + 1) * q ->
  inject_Z (Z.of_nat k) * q <= coalition_weight SS votes -> (1 <= k)%nat ->
  NoDup (akeys a0) -> asum a0 == cast votes -> alloc_nonneg a0 -> BB SS (keys_some a0) a0 ->
  keys_some a0 = all_ranked_candidates votes -> cwa SS a0 == coalition_weight SS votes ->
  Qeq_bool total 0 = false /\ (n =? 0)%Z = false /\ Inv SS qf n total caps k a0 [].
Proof.
  intros Hcaps Hnd Hw total q Hq Hdroop Hk Hk1 C1 C2 P1 P2 P3 P4.
  pose proof (total_vsum votes) as Htv. fold total in Htv.
  pose proof (cw_le_vsum SS votes Hw) as Hcv.
  pose proof (cast_le_vsum votes Hw) as Hcast.
  assert (Hkq : q <= inject_Z (Z.of_nat k) * q).
  { assert (H1 : 1 <= inject_Z (Z.of_nat k)) by (change 1 with (inject_Z 1); rewrite <- Zle_Qle; lia).
    assert (H2 : 1 * q <= inject_Z (Z.of_nat k) * q) by (apply Qmult_le_compat_r; [exact H1|lra]). lra. }
  split; [|split].
  - apply not_true_iff_false. intros H. apply Qeq_bool_iff in H. lra.
  - apply Z.eqb_neq. intros ->. change (inject_Z (0 + 1)) with 1 in Hdroop. lra.
  - constructor.
    + exact C1.
    + exact P1.
    + intros c Hc. rewrite P3 in Hc. exact (Hcaps c Hc).
    + intros c _ [].
    + intros c. unfold dget_or. simpl. lia.
    + intros c s [].
    + constructor.
    + change (zsum (map snd (@nil (C * Z)))) with 0%Z. change (inject_Z 0) with 0. fold q. rewrite C2. lra.
    + exact P2.
    + intros _. change (cnt SS (map fst (@nil (C * Z)))) with 0%nat. change (inject_Z (Z.of_nat 0)) with 0. fold q. rewrite P4. lra.
    + change (cnt SS (map fst (@nil (C * Z)))) with 0%nat. rewrite P3.
      destruct (cw_pos_solid SS votes) as (b & w & Hb1 & Hb2); [lra|].
      destruct (solid_b_shape SS b Hb2) as (top & rest & -> & _ & Htop).
      assert (Hlen : (length SS <= cnt SS (all_ranked_candidates votes))%nat).
      { unfold cnt. apply NoDup_incl_length; [exact Hnd|]. intros x Hx. apply filter_In. split; [|apply cmem_In, Hx].
        apply (all_ranked_in votes (map IP top ++ rest) w (IP x) x Hb1); [|left; reflexivity].
        apply in_or_app. left. apply in_map, Htop, Hx. }
      lia.
Qed.

Theorem psc_strong (cf : cfg) (qf : Q -> Z -> Q) (votes : list (ballot * Q)) (n : Z) (caps : list (C * Z)) (SS : list C) (k : nat) :
  c_accept_equal cf = true -> c_step cf = (-1)%Z -> c_quota cf = Some qf ->
  (forall c, In c (all_ranked_candidates votes) -> dget caps c = Some 1%Z) ->
  NoDup SS -> SS <> [] ->
  (forall b w, In (b, w) votes -> 0 <= w) ->
  let total := Qred (fold_left Qplus (map snd votes) 0) in
  let q := qf total n in
  0 < q -> total < inject_Z (n + 1) * q ->
  let t := stv cf votes n [] caps in
  t_stop t = None ->
  inject_Z (Z.of_nat k) * q <= coalition_weight SS votes -> (1 <= k)%nat ->
  (Nat.min k (length SS) <= length (filter (fun c => cmem c SS) (map fst (t_seats t))))%nat /\
  (forall c s, In (c, s) (t_seats t) -> s = 1%Z) /\ NoDup (map fst (t_seats t)).
Proof.
  intros Hae Hstep Hqf Hcaps Hnd Hne Hw total q Hq Hdroop t Hstop Hk Hk1.
  destruct (initial_psc SS votes (keys_some (initial_allocation votes)) Hne Hw) as (P1 & P2 & P3 & P4).
  destruct (initial_allocation_conserves votes) as [C1 C2].
  destruct (Inv_initial qf votes n caps SS k _ Hcaps Hnd Hw Hq Hdroop Hk Hk1 C1 C2 P1 P2 P3 P4) as (Htot & Hn0 & Hinv).
  exact (run_psc SS cf Hae Hstep qf Hqf n total Htot Hn0 Hq caps k _ _ _ _ Hinv Hdroop Hstop).
Qed.

(* the clause as stated: min(k, |SS|) members of SS are among the elected *)
Theorem psc_main (cf : cfg) (qf : Q -> Z -> Q) (votes : list (ballot * Q)) (n : Z) (caps : list (C * Z)) (SS : list C) (k : nat) :
  c_accept_equal cf = true -> c_step cf = (-1)%Z -> c_quota cf = Some qf ->
  (forall c, In c (all_ranked_candidates votes) -> dget caps c = Some 1%Z) ->
  NoDup SS -> SS <> [] ->
  (forall b w, In (b, w) votes -> 0 <= w) ->
  let total := Qred (fold_left Qplus (map snd votes) 0) in
  let q := qf total n in
  0 < q -> total < inject_Z (n + 1) * q ->
  let t := stv cf votes n [] caps in
  t_stop t = None ->
  inject_Z (Z.of_nat k) * q <= coalition_weight SS votes ->
  (Nat.min k (length SS) <= length (filter (fun c => cmem c SS) (map fst (t_seats t))))%nat.
Proof.
  intros Hae Hstep Hqf Hcaps Hnd Hne Hw total q Hq Hdroop t Hstop Hk.
  destruct k as [|k']; [simpl; lia|].
  exact (proj1 (psc_strong cf qf votes n caps SS (S k') Hae Hstep Hqf Hcaps Hnd Hne Hw Hq Hdroop Hstop Hk ltac:(lia))).
Qed.

Lemma winners_of_seats SS (k : nat) (seats : list (C * Z)) :
  (Nat.min k (length SS) <= length (filter (fun c => cmem c SS) (map fst seats)))%nat ->
  (forall c s, In (c, s) seats -> s = 1%Z) -> NoDup (map fst seats) ->
  exists W : list C, NoDup W /\ incl W SS /\ (forall c, In c W -> In (c, 1%Z) seats) /\
                     (Nat.min k (length SS) <= length W)%nat.
Proof.
  intros P1 P2 P3.
  exists (filter (fun c => cmem c SS) (map fst seats)). split; [apply NoDup_filter, P3|]. split; [|split; [|exact P1]].
  - intros x Hx. apply filter_In in Hx. apply cmem_In, (proj2 Hx).
  - intros c Hc. apply filter_In in Hc. destruct Hc as [Hc _]. apply in_map_iff in Hc. destruct Hc as ([c0 s0] & Heq & Hin).
    simpl in Heq. subst c0. rewrite <- (P2 c s0 Hin). exact Hin.
Qed.

(* declarative form: a set W of distinct members of SS, each holding exactly one seat, with |W| >= min(k, |SS|) *)
Theorem psc_winners (cf : cfg) (qf : Q -> Z -> Q) (votes : list (ballot * Q)) (n : Z) (caps : list (C * Z)) (SS : list C) (k : nat) :
  c_accept_equal cf = true -> c_step cf = (-1)%Z -> c_quota cf = Some qf ->
  (forall c, In c (all_ranked_candidates votes) -> dget caps c = Some 1%Z) ->
  NoDup SS -> SS <> [] ->
  (forall b w, In (b, w) votes -> 0 <= w) ->
  let total := Qred (fold_left Qplus (map snd votes) 0) in
  let q := qf total n in
  0 < q -> total < inject_Z (n + 1) * q ->
  let t := stv cf votes n [] caps in
  t_stop t = None ->
  inject_Z (Z.of_nat k) * q <= coalition_weight SS votes ->
  exists W : list C, NoDup W /\ incl W SS /\ (forall c, In c W -> In (c, 1%Z) (t_seats t)) /\
                     (Nat.min k (length SS) <= length W)%nat.
Proof.
  intros Hae Hstep Hqf Hcaps Hnd Hne Hw total q Hq Hdroop t Hstop Hk.
  destruct k as [|k']; [exists []; repeat split; [constructor|intros x []|intros c []|simpl; lia]|].
  destruct (psc_strong cf qf votes n caps SS (S k') Hae Hstep Hqf Hcaps Hnd Hne Hw Hq Hdroop Hstop Hk ltac:(lia)) as (P1 & P2 & P3).
  exact (winners_of_seats SS (S k') _ P1 P2 P3).
Qed.

(* the Droop and Hare quotas satisfy the hypotheses *)
Lemma droop_ok (v : Q) (n : Z) : 0 <= v -> (0 <= n)%Z -> 0 < droop v n /\ v < inject_Z (n + 1) * droop v n.
Proof.
  intros Hv Hn. unfold droop, qfloor.
  assert (Hd : 0 < inject_Z (n + 1)) by (change 0 with (inject_Z 0); rewrite <- Zlt_Qlt; lia).
  assert (H0 : 0 <= v / inject_Z (n + 1)) by (apply Qle_shift_div_l; [exact Hd|lra]).
  assert (H2 : v / inject_Z (n + 1) * inject_Z (n + 1) == v) by (field; lra).
  set (d := v / inject_Z (n + 1)) in *.
  pose proof (Qlt_floor d) as F2. rewrite inject_Z_plus in F2. change (inject_Z 1) with 1 in F2.
  split; [lra|].
  set (f := inject_Z (Qfloor d) + 1) in *.
  assert (H1 : d * inject_Z (n + 1) < f * inject_Z (n + 1)) by (apply Qmult_lt_compat_r; assumption).
  rewrite H2 in H1. rewrite Qmult_comm. exact H1.
Qed.

Lemma hare_ok (v : Q) (n : Z) : 0 < v -> (1 <= n)%Z -> 0 < hare v n /\ v < inject_Z (n + 1) * hare v n.
Proof.
  intros Hv Hn. unfold hare.
  assert (Hd : 0 < inject_Z n) by (change 0 with (inject_Z 0); rewrite <- Zlt_Qlt; lia).
  assert (H0 : 0 < v / inject_Z n) by (apply Qlt_shift_div_l; [exact Hd|lra]).
  split; [exact H0|]. rewrite inject_Z_plus. change (inject_Z 1) with 1.
  assert (H2 : (inject_Z n + 1) * (v / inject_Z n) == v + v / inject_Z n) by (field; lra).
  rewrite H2. lra.
Qed.
